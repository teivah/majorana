(* Proofs about the H model of proc/comp/bus.go (Comp/Bus.v).

   Specification: a FIFO with availability stamps.  Everything is stated for
   ALL histories (lists of operations of any length), from an arbitrary state
   satisfying the stated invariant and in particular from the state built by
   NewBufferedBus.  Usage contracts are boolean predicates over the history
   (non-decreasing cycle arguments, "Add/Revert only when CanAdd is true"),
   and each main theorem is followed by an Example showing a non-trivial
   history that satisfies its hypotheses. *)
From Coq Require Import ZArith List Bool Lia Permutation.
From Maj Require Import Comp.ListFacts Comp.Bus.
Import ListNotations.
Open Scope Z_scope.

Definition items (buf : list (Z * Z)) : list Z := map snd buf.

(* everything the bus holds, oldest first: visible part, then buffer *)
Definition contents (b : bbus) : list Z := queue b ++ items (buffer b).

(* read off the history *)
Fixpoint added (h : list bop) : list Z :=
  match h with [] => [] | BAdd t _ :: h' => t :: added h' | _ :: h' => added h' end.
Fixpoint reverted (h : list bop) : list Z :=
  match h with [] => [] | BRevert t _ :: h' => t :: reverted h' | _ :: h' => reverted h' end.
(* read off the outputs: what consumers received *)
Fixpoint delivered (outs : list out) : list Z :=
  match outs with [] => [] | OItem t true :: o' => t :: delivered o' | _ :: o' => delivered o' end.

Definition is_revert (o : bop) := match o with BRevert _ _ => true | _ => false end.
Definition is_pick (o : bop) := match o with BPick _ => true | _ => false end.
Definition is_drop (o : bop) := match o with BDeleteLast | BClean => true | _ => false end.
Definition no_revert (h : list bop) := forallb (fun o => negb (is_revert o)) h.
Definition no_pick (h : list bop) := forallb (fun o => negb (is_pick o)) h.
Definition no_drop (h : list bop) := forallb (fun o => negb (is_drop o)) h.

(* cycle arguments of Add / Revert / Connect are non-decreasing along the
   history, starting from lo *)
Definition op_cycle (o : bop) : option Z :=
  match o with BAdd _ c | BRevert _ c | BConnect c => Some c | _ => None end.
Fixpoint nondecr (lo : Z) (h : list bop) : bool :=
  match h with
  | [] => true
  | o :: h' => match op_cycle o with
               | Some c => (lo <=? c) && nondecr c h'
               | None => nondecr lo h'
               end
  end.
Fixpoint last_cycle (lo : Z) (h : list bop) : Z :=
  match h with
  | [] => lo
  | o :: h' => match op_cycle o with Some c => last_cycle c h' | None => last_cycle lo h' end
  end.

(* the producers' contract: Add (and Revert, which also grows the buffer)
   only when CanAdd reports room *)
Fixpoint disciplined (b : bbus) (h : list bop) : bool :=
  match h with
  | [] => true
  | o :: h' => (match o with BAdd _ _ | BRevert _ _ => b_canadd b | _ => true end)
               && disciplined (fst (b_step b o)) h'
  end.
(* the weaker contract that guards Add only *)
Fixpoint add_disciplined (b : bbus) (h : list bop) : bool :=
  match h with
  | [] => true
  | o :: h' => (match o with BAdd _ _ => b_canadd b | _ => true end)
               && add_disciplined (fst (b_step b o)) h'
  end.

(* order-preserving subsequence *)
Inductive subseq {A} : list A -> list A -> Prop :=
| sub_nil : subseq [] []
| sub_skip x l1 l2 : subseq l1 l2 -> subseq l1 (x :: l2)
| sub_take x l1 l2 : subseq l1 l2 -> subseq (x :: l1) (x :: l2).

Lemma subseq_refl {A} (l : list A) : subseq l l.
Proof. induction l; [apply sub_nil | apply sub_take; auto]. Qed.

Lemma subseq_nil_l {A} (l : list A) : subseq [] l.
Proof. induction l; [apply sub_nil | apply sub_skip; auto]. Qed.

Lemma subseq_trans {A} (l2 l3 : list A) :
  subseq l2 l3 -> forall l1, subseq l1 l2 -> subseq l1 l3.
Proof.
  induction 1; intros l0 H0.
  - exact H0.
  - apply sub_skip; auto.
  - inversion H0; subst.
    + apply sub_skip; auto.
    + apply sub_take; auto.
Qed.

Lemma subseq_app {A} (a b c d : list A) : subseq a b -> subseq c d -> subseq (a ++ c) (b ++ d).
Proof.
  induction 1; simpl; intros; auto.
  - apply sub_skip; auto.
  - apply sub_take; auto.
Qed.

Lemma subseq_app_l {A} (a b : list A) : subseq b (a ++ b).
Proof. induction a; simpl; [apply subseq_refl | apply sub_skip; auto]. Qed.

Lemma subseq_app_r {A} (a b : list A) : subseq a (a ++ b).
Proof. rewrite <- (app_nil_r a) at 1. apply subseq_app; [apply subseq_refl | apply subseq_nil_l]. Qed.

Lemma subseq_In {A} (l1 l2 : list A) : subseq l1 l2 -> forall x, In x l1 -> In x l2.
Proof. induction 1; simpl; intros; intuition. Qed.

Lemma subseq_NoDup {A} (l1 l2 : list A) : subseq l1 l2 -> NoDup l2 -> NoDup l1.
Proof.
  induction 1; intros N; auto.
  - inversion N; auto.
  - inversion N; subst. constructor; auto.
    intros Hin. apply H2. eapply subseq_In; eauto.
Qed.

Lemma len_app {A} (l1 l2 : list A) : len (l1 ++ l2) = len l1 + len l2.
Proof. unfold len. rewrite app_length. lia. Qed.
Lemma len_nonneg {A} (l : list A) : 0 <= len l.
Proof. unfold len. lia. Qed.
Lemma len_cons {A} (x : A) l : len (x :: l) = 1 + len l.
Proof. unfold len. simpl length. lia. Qed.
Lemma len_nil {A} : len (@nil A) = 0.
Proof. reflexivity. Qed.

Lemma b_run_app s h1 h2 :
  b_run s (h1 ++ h2) =
  let '(s1, o1) := b_run s h1 in let '(s2, o2) := b_run s1 h2 in (s2, o1 ++ o2).
Proof.
  revert s. induction h1 as [|o h1 IH]; intros s; simpl.
  - destruct (b_run s h2); reflexivity.
  - destruct (b_step s o) as [s1 x]. rewrite IH.
    destruct (b_run s1 h1) as [s2 o1]. destruct (b_run s2 h2). reflexivity.
Qed.

Lemma b_run_cons s o h :
  b_run s (o :: h) = (fst (b_run (fst (b_step s o)) h), snd (b_step s o) :: snd (b_run (fst (b_step s o)) h)).
Proof.
  simpl. destruct (b_step s o) as [s1 x]. simpl. destruct (b_run s1 h); reflexivity.
Qed.

Lemma delivered_app o1 o2 : delivered (o1 ++ o2) = delivered o1 ++ delivered o2.
Proof.
  induction o1 as [|x o1 IH]; simpl; auto.
  destruct x; auto. destruct found; simpl; rewrite IH; auto.
Qed.
Lemma added_app h1 h2 : added (h1 ++ h2) = added h1 ++ added h2.
Proof. induction h1 as [|o h1 IH]; simpl; auto. destruct o; simpl; rewrite ?IH; auto. Qed.
Lemma reverted_app h1 h2 : reverted (h1 ++ h2) = reverted h1 ++ reverted h2.
Proof. induction h1 as [|o h1 IH]; simpl; auto. destruct o; simpl; rewrite ?IH; auto. Qed.

Lemma added_cons o h : added (o :: h) = added [o] ++ added h.
Proof. apply (added_app [o]). Qed.
Lemma reverted_cons o h : reverted (o :: h) = reverted [o] ++ reverted h.
Proof. apply (reverted_app [o]). Qed.
Lemma delivered_cons x outs : delivered (x :: outs) = delivered [x] ++ delivered outs.
Proof. apply (delivered_app [x]). Qed.

(* Connect moves a prefix of the buffer to the back of the queue, nothing
   else; it stops at the end of the buffer, at a full queue, or at the first
   stamp beyond c *)
Lemma connect_loop_spec ql c buf : forall q q' buf',
  connect_loop ql c q buf = (q', buf') ->
  exists moved, buf = moved ++ buf' /\ q' = q ++ items moved /\
    (forall a t, In (a, t) moved -> a <= c) /\
    (len q <= ql -> len q' <= ql) /\
    (buf' = [] \/ len q' = ql \/ exists a t r, buf' = (a, t) :: r /\ c < a).
Proof.
  induction buf as [|[a t] buf IH]; intros q q' buf' H; simpl in H.
  - injection H as <- <-. exists []. rewrite app_nil_r. cbn. intuition.
  - destruct (Z.eqb_spec (len q) ql).
    { injection H as <- <-. exists []. rewrite app_nil_r. cbn. intuition. }
    destruct (Z.gtb_spec a c).
    { injection H as <- <-. exists []. rewrite app_nil_r. cbn. intuition eauto. }
    apply IH in H as (m & -> & -> & Hm & Hcap & Hstop).
    exists ((a, t) :: m). split; [reflexivity|]. split; [cbn; now rewrite <- app_assoc|].
    split; [|split; [|exact Hstop]].
    + intros a0 t0 [[= <- <-]|Hin]; [lia | eauto].
    + intros Hq. apply Hcap. rewrite len_app, len_cons, len_nil. lia.
Qed.

(* Pick p delivers the FIRST queued item satisfying p; the others keep their
   relative order; when none satisfies p nothing changes *)
Lemma pick_first_some p q q' t :
  pick_first p q = (q', Some t) ->
  exists q1 q2, q = q1 ++ t :: q2 /\ q' = q1 ++ q2 /\
                forallb (fun x => negb (p x)) q1 = true /\ p t = true.
Proof.
  revert q'. induction q as [|x q IH]; intros q' H; simpl in H; [discriminate|].
  destruct (p x) eqn:E.
  - inversion H; subst. exists [], q'. simpl. auto.
  - destruct (pick_first p q) as [r y]. inversion H; subst.
    destruct (IH r eq_refl) as (q1 & q2 & -> & -> & Hn & Hp).
    exists (x :: q1), q2. simpl. rewrite E. simpl. auto.
Qed.

Lemma pick_first_none p q q' :
  pick_first p q = (q', None) -> q' = q /\ forallb (fun x => negb (p x)) q = true.
Proof.
  revert q'. induction q as [|x q IH]; intros q' H; simpl in H.
  - inversion H; auto.
  - destruct (p x) eqn:E; [discriminate|].
    destruct (pick_first p q) as [r y]. inversion H; subst.
    destruct (IH r eq_refl) as [-> Hn]. simpl. rewrite E. auto.
Qed.

Theorem pick_delivers_first b p :
  (exists q1 t q2, queue b = q1 ++ t :: q2 /\
     forallb (fun x => negb (p x)) q1 = true /\ p t = true /\
     b_pick b p = (mkB (buffer b) (q1 ++ q2) (queueLength b) (bufferLength b), (t, true)))
  \/ (forallb (fun x => negb (p x)) (queue b) = true /\ snd (b_pick b p) = (0, false) /\
      queue (fst (b_pick b p)) = queue b /\ buffer (fst (b_pick b p)) = buffer b).
Proof.
  unfold b_pick. destruct (queue b) as [|x q] eqn:Q.
  - right. simpl. rewrite Q. auto.
  - rewrite <- Q. destruct (pick_first p (queue b)) as [q' [t|]] eqn:E.
    + left. apply pick_first_some in E. destruct E as (q1 & q2 & Hq & -> & Hn & Hp).
      exists q1, t, q2. auto.
    + right. apply pick_first_none in E. destruct E as [-> Hn]. simpl. auto.
Qed.

(* What one operation does to the queue and the buffer, and what it returns:
   every case of b_step in closed form.  All facts about single steps below
   are read off this relation. *)
Inductive effect (ql : Z) (q : list Z) (buf : list (Z * Z)) : bop -> list Z -> list (Z * Z) -> out -> Prop :=
| E_add t c : effect ql q buf (BAdd t c) q (buf ++ [(c + 1, t)]) ONone
| E_revert t c : effect ql q buf (BRevert t c) q ((c, t) :: buf) ONone
| E_deletelast_none : buf = [] -> effect ql q buf BDeleteLast q [] ONone
| E_deletelast buf' e : buf = buf' ++ [e] -> effect ql q buf BDeleteLast q buf' ONone
| E_get_none : q = [] -> effect ql q buf BGet [] buf (OItem 0 false)
| E_get t q' : q = t :: q' -> effect ql q buf BGet q' buf (OItem t true)
| E_pick p q1 t q2 : q = q1 ++ t :: q2 -> effect ql q buf (BPick p) (q1 ++ q2) buf (OItem t true)
| E_pick_none p : effect ql q buf (BPick p) q buf (OItem 0 false)
| E_exists p : effect ql q buf (BExists p) q buf (OBool (existsb p q))
| E_connect c m buf' :
    buf = m ++ buf' -> (forall a t, In (a, t) m -> a <= c) ->
    (len q <= ql -> len (q ++ items m) <= ql) ->
    (buf' = [] \/ len (q ++ items m) = ql \/ exists a t r, buf' = (a, t) :: r /\ c < a) ->
    effect ql q buf (BConnect c) (q ++ items m) buf' ONone
| E_clean : effect ql q buf BClean [] [] ONone.

Lemma step_effect buf q ql bl o : exists q' buf' x,
  b_step (mkB buf q ql bl) o = (mkB buf' q' ql bl, x) /\ effect ql q buf o q' buf' x.
Proof.
  destruct o; cbn [b_step].
  - do 3 eexists. split; [reflexivity | constructor].
  - do 3 eexists. split; [reflexivity | constructor].
  - unfold b_deletelast. cbn [buffer]. destruct buf as [|e0 l] eqn:E.
    + do 3 eexists. split; [reflexivity | now constructor].
    + rewrite <- E. destruct (exists_last (l := buf)) as (buf' & e & ->); [congruence|].
      rewrite removelast_last. do 3 eexists. split; [reflexivity | now econstructor].
  - unfold b_get. cbn [queue]. destruct q.
    + do 3 eexists. split; [reflexivity | now constructor].
    + do 3 eexists. split; [reflexivity | now econstructor].
  - destruct (pick_delivers_first (mkB buf q ql bl) p) as [(q1 & t & q2 & Hq & _ & _ & ->) | (_ & Hr & Hq & Hb)].
    + do 3 eexists. split; [reflexivity | now constructor].
    + unfold b_pick in *. cbn [queue buffer queueLength bufferLength] in *.
      destruct q; [do 3 eexists; split; [reflexivity | constructor]|].
      destruct (pick_first p (z :: q)) as [q' y]. cbn in Hr, Hq. destruct y; [discriminate Hr|]. subst q'.
      do 3 eexists. split; [reflexivity | constructor].
  - do 3 eexists. split; [reflexivity | constructor].
  - unfold b_connect. cbn [queue buffer queueLength bufferLength].
    destruct (Z.eqb_spec (len q) ql) as [Hf|Hf].
    + exists q, buf, ONone. split; [reflexivity|]. rewrite <- (app_nil_r q) at 2.
      apply (E_connect ql q buf c [] buf); cbn; rewrite ?app_nil_r; auto; tauto.
    + destruct (connect_loop ql c q buf) as [q' buf'] eqn:E.
      apply connect_loop_spec in E as (m & -> & -> & Hm & Hcap & Hstop).
      do 3 eexists. split; [reflexivity | now constructor].
  - do 3 eexists. split; [reflexivity | constructor].
Qed.

(* the Connect case on its own *)
Corollary connect_spec b c :
  exists moved, buffer b = moved ++ buffer (b_connect b c) /\
                queue (b_connect b c) = queue b ++ items moved /\
                (forall a t, In (a, t) moved -> a <= c) /\
                queueLength (b_connect b c) = queueLength b /\
                bufferLength (b_connect b c) = bufferLength b.
Proof.
  destruct b as [buf q ql bl].
  destruct (step_effect buf q ql bl (BConnect c)) as (q' & buf' & x & E & Ef). cbn [b_step] in E.
  injection E as -> _. inversion Ef; subst. eexists. cbn. eauto.
Qed.

(* what an operation throws away *)
Definition drops (b : bbus) (o : bop) : list Z :=
  match o with
  | BClean => contents b
  | BDeleteLast => match buffer b with [] => [] | _ => [snd (last (buffer b) (0, 0))] end
  | _ => []
  end.
Fixpoint dropped (b : bbus) (h : list bop) : list Z :=
  match h with [] => [] | o :: h' => drops b o ++ dropped (fst (b_step b o)) h' end.

Lemma no_drop_dropped h : forall b, no_drop h = true -> dropped b h = [].
Proof.
  induction h as [|o h IH]; intros b H; simpl in *; auto.
  apply andb_prop in H. destruct H as [H1 H2]. rewrite IH by auto.
  destruct o; simpl in *; auto; discriminate.
Qed.

Notation cnt := (count_occ Z.eq_dec).

Lemma not_revert_reverted o : is_revert o = false -> reverted [o] = [].
Proof. destruct o; try discriminate; reflexivity. Qed.
Lemma not_drop_drops b o : is_drop o = false -> drops b o = [].
Proof. destruct o; try discriminate; reflexivity. Qed.

(* One step, seen on the held sequence.  Every operation but Revert takes what
   it delivers out of the sequence (Get at the front, Pick anywhere), throws a
   tail away and appends what it adds; the theorems about counts and about
   order below all read this off. *)
Lemma step_split b o : is_revert o = false ->
  exists l1 l2,
    contents b ++ added [o] = l1 ++ delivered [snd (b_step b o)] ++ l2 ++ drops b o /\
    contents (fst (b_step b o)) = l1 ++ l2 /\
    (is_pick o = false -> l1 = []).
Proof.
  intros NR. destruct b as [buf q ql bl].
  destruct (step_effect buf q ql bl o) as (q' & buf' & x & -> & E).
  unfold contents, items. cbn [fst snd queue buffer].
  destruct E; try discriminate NR; subst; cbn [added drops delivered is_pick buffer queue];
    unfold contents, items; cbn [queue buffer]; rewrite ?map_app, ?app_nil_r.
  all: try (exists [], (q ++ map snd buf); cbn [app]; rewrite ?app_nil_r; now auto).
  - exists [], (q ++ map snd buf ++ [t]). cbn [app map snd]. rewrite <- ?app_assoc, ?app_nil_r. auto.
  - exists [], q. rewrite app_nil_r. auto.
  - exists [], (q ++ map snd buf'). destruct (buf' ++ [e]) eqn:E; [now destruct buf'|].
    rewrite <- E, last_last. cbn [app map snd]. rewrite <- ?app_assoc. auto.
  - exists [], (map snd buf). cbn [app]. rewrite app_nil_r. auto.
  - exists [], (q' ++ map snd buf). cbn [app]. rewrite app_nil_r. auto.
  - exists q1, (q2 ++ map snd buf). cbn [app]. rewrite <- !app_assoc, app_nil_r. repeat split. discriminate.
  - exists [], (q ++ map snd m ++ map snd buf'). cbn [app]. rewrite <- ?app_assoc, app_nil_r. auto.
  - exists [], []. auto.
Qed.

Lemma step_count b o x :
  (cnt (contents b) x + cnt (added [o]) x + cnt (reverted [o]) x =
   cnt (delivered [snd (b_step b o)]) x + cnt (contents (fst (b_step b o))) x + cnt (drops b o) x)%nat.
Proof.
  destruct (is_revert o) eqn:R.
  - destruct o; try discriminate R. unfold contents, items. cbn. rewrite !count_occ_app. cbn.
    destruct (Z.eq_dec t x); lia.
  - destruct (step_split b o R) as (l1 & l2 & E & -> & _).
    apply (f_equal (fun l => cnt l x)) in E. rewrite !count_occ_app in E.
    rewrite (not_revert_reverted o R), count_occ_app. cbn [count_occ]. lia.
Qed.

Lemma conservation_count h : forall b x,
  (cnt (contents b) x + cnt (added h) x + cnt (reverted h) x =
   cnt (delivered (snd (b_run b h))) x + cnt (contents (fst (b_run b h))) x + cnt (dropped b h) x)%nat.
Proof.
  induction h as [|o h IH]; intros b x.
  - simpl. lia.
  - rewrite b_run_cons, added_cons, reverted_cons. cbn [fst snd dropped].
    rewrite delivered_cons, !count_occ_app.
    pose proof (step_count b o x). pose proof (IH (fst (b_step b o)) x). lia.
Qed.

(* EXACTLY ONCE / NOTHING INVENTED (all operations, all histories, any start
   state): as multisets,
      held at the start + added + reverted
        = delivered + still held + thrown away by DeleteLast/Clean *)
Theorem conservation b h :
  Permutation (contents b ++ added h ++ reverted h)
              (delivered (snd (b_run b h)) ++ contents (fst (b_run b h)) ++ dropped b h).
Proof.
  apply (Permutation_count_occ Z.eq_dec). intros x. rewrite !count_occ_app.
  pose proof (conservation_count h b x). lia.
Qed.

Corollary conservation_new ql bl h :
  Permutation (added h ++ reverted h)
              (delivered (snd (b_run (b_new ql bl) h)) ++ contents (fst (b_run (b_new ql bl) h))
               ++ dropped (b_new ql bl) h).
Proof. exact (conservation (b_new ql bl) h). Qed.

(* every delivered item was put on the bus, and no more often than it was put *)
Corollary delivered_le_added b h x :
  (cnt (delivered (snd (b_run b h))) x <= cnt (contents b ++ added h ++ reverted h) x)%nat.
Proof. rewrite !count_occ_app. pose proof (conservation_count h b x). lia. Qed.

Corollary delivered_in b h x :
  In x (delivered (snd (b_run b h))) -> In x (contents b ++ added h ++ reverted h).
Proof.
  intros H. apply (count_occ_In Z.eq_dec) in H. apply (count_occ_In Z.eq_dec).
  pose proof (delivered_le_added b h x). lia.
Qed.

(* distinct items in => nothing is delivered twice, nothing delivered is still held *)
Corollary exactly_once ql bl h :
  NoDup (added h ++ reverted h) ->
  NoDup (delivered (snd (b_run (b_new ql bl) h)) ++ contents (fst (b_run (b_new ql bl) h))).
Proof.
  intros N. pose proof (conservation_new ql bl h) as P.
  eapply Permutation_NoDup in N; [|exact P].
  rewrite app_assoc in N. apply NoDup_app_l in N. exact N.
Qed.

(* without DeleteLast / Clean nothing is lost *)
Corollary nothing_lost ql bl h :
  no_drop h = true ->
  Permutation (added h ++ reverted h)
              (delivered (snd (b_run (b_new ql bl) h)) ++ contents (fst (b_run (b_new ql bl) h))).
Proof.
  intros H. pose proof (conservation_new ql bl h) as P.
  rewrite (no_drop_dropped h _ H), app_nil_r in P. exact P.
Qed.

(* IN ORDER (Get as the only consumer, no Revert): what has been delivered,
   followed by what is still held, is the sequence of added items, in insertion
   order, minus what DeleteLast/Clean removed; it IS the sequence of added
   items when those are not used.  In particular the delivered items are a
   prefix of it: each Get returns the oldest item not yet delivered. *)
Theorem fifo_order_gen h : forall b,
  no_revert h = true -> no_pick h = true ->
  subseq (delivered (snd (b_run b h)) ++ contents (fst (b_run b h))) (contents b ++ added h) /\
  (no_drop h = true ->
   delivered (snd (b_run b h)) ++ contents (fst (b_run b h)) = contents b ++ added h).
Proof.
  induction h as [|o h IH]; intros b NR NP.
  - simpl. rewrite app_nil_r. split; [apply subseq_refl | reflexivity].
  - cbn [no_revert no_pick forallb] in NR, NP.
    apply andb_prop in NR as [NR1 NR]. apply andb_prop in NP as [NP1 NP]. apply negb_true_iff in NR1, NP1.
    destruct (step_split b o NR1) as (l1 & l2 & E & Ec & Hl1). specialize (Hl1 NP1). subst l1.
    destruct (IH (fst (b_step b o)) NR NP) as [IH1 IH2]. rewrite Ec in IH1, IH2.
    rewrite b_run_cons, added_cons, app_assoc, E. cbn [fst snd app]. rewrite delivered_cons, <- !app_assoc.
    split.
    + apply subseq_app; [apply subseq_refl|]. eapply subseq_trans; [|exact IH1].
      apply subseq_app; [apply subseq_refl | apply subseq_app_l].
    + cbn [no_drop forallb]. intros ND. apply andb_prop in ND as [ND1 ND]. apply negb_true_iff in ND1.
      rewrite (not_drop_drops b o ND1), (IH2 ND). reflexivity.
Qed.

Theorem fifo_order ql bl h :
  no_revert h = true -> no_pick h = true ->
  let s := fst (b_run (b_new ql bl) h) in
  let d := delivered (snd (b_run (b_new ql bl) h)) in
  subseq (d ++ queue s ++ items (buffer s)) (added h) /\
  (no_drop h = true -> d ++ queue s ++ items (buffer s) = added h).
Proof. intros NR NP. exact (fifo_order_gen h (b_new ql bl) NR NP). Qed.

(* the delivered sequence alone is an in-order subsequence of the added one *)
Corollary delivered_in_order ql bl h :
  no_revert h = true -> no_pick h = true ->
  subseq (delivered (snd (b_run (b_new ql bl) h))) (added h).
Proof.
  intros NR NP. destruct (fifo_order ql bl h NR NP) as [S _].
  eapply subseq_trans; [exact S | apply subseq_app_r].
Qed.

(* With Pick in the history (still no Revert): the items still held keep the
   relative order in which they were added (Pick takes one out of the middle
   and leaves the others in place); which one it takes is pick_delivers_first;
   that nothing is duplicated or invented is [conservation]. *)
Theorem rest_order_gen h : forall b,
  no_revert h = true ->
  subseq (contents (fst (b_run b h))) (contents b ++ added h).
Proof.
  induction h as [|o h IH]; intros b NR.
  - simpl. rewrite app_nil_r. apply subseq_refl.
  - cbn [no_revert forallb] in NR. apply andb_prop in NR as [NR1 NR]. apply negb_true_iff in NR1.
    destruct (step_split b o NR1) as (l1 & l2 & E & Ec & _).
    rewrite b_run_cons, added_cons, app_assoc, E. cbn [fst].
    eapply subseq_trans; [|apply (IH _ NR)]. rewrite Ec.
    apply subseq_app; [|apply subseq_refl]. apply subseq_app; [apply subseq_refl|].
    eapply subseq_trans; [apply subseq_app_l | apply subseq_app_r].
Qed.

Theorem rest_order ql bl h :
  no_revert h = true ->
  let s := fst (b_run (b_new ql bl) h) in
  subseq (queue s ++ items (buffer s)) (added h).
Proof. intros NR. exact (rest_order_gen h (b_new ql bl) NR). Qed.

(* LOWER BOUND.  After Add t c, as long as no Connect c' with c' > c has
   happened, t is not visible: no Get / Pick returns it.
   hidden t c b : t is not in the visible queue and every buffered copy of t
   carries a stamp beyond c. *)
Definition hidden (t c : Z) (b : bbus) : Prop :=
  ~ In t (queue b) /\ forall a, In (a, t) (buffer b) -> c < a.

(* no Connect later than cycle c in the history *)
Definition no_connect_after (c : Z) (h : list bop) : bool :=
  forallb (fun o => match o with BConnect c' => c' <=? c | _ => true end) h.

(* Where the entries of the next state come from: a buffer entry was there or
   is the one just added / reverted, with its stamp; a queue entry was there or
   was moved by Connect, which only moves stamps up to its cycle; what is
   delivered was in the queue. *)
Lemma step_origin b o :
  (forall a t, In (a, t) (buffer (fst (b_step b o))) ->
     In (a, t) (buffer b) \/ o = BAdd t (a - 1) \/ o = BRevert t a) /\
  (forall t, In t (queue (fst (b_step b o))) ->
     In t (queue b) \/ exists a c, o = BConnect c /\ In (a, t) (buffer b) /\ a <= c) /\
  (forall t, In t (delivered [snd (b_step b o)]) -> In t (queue b)).
Proof.
  destruct b as [buf q ql bl]. destruct (step_effect buf q ql bl o) as (q' & buf' & x & -> & E).
  cbn [fst snd queue buffer].
  destruct E; subst; cbn [delivered]; (split; [|split]); try (cbn; tauto);
    try (intros ? ? Hin; left; apply in_or_app; auto).
  - intros a x Hin. apply in_app_or in Hin as [Hin | [[= <- <-] | []]]; [auto|].
    right. left. f_equal. lia.
  - intros a x [[= <- <-] | Hin]; auto.
  - intros x Hin. left. apply in_app_or in Hin. apply in_or_app. cbn. tauto.
  - intros x [<- | []]. apply in_or_app. cbn. auto.
  - intros x Hin. apply in_app_or in Hin as [Hin | Hin]; [auto|]. right.
    apply in_map_iff in Hin as ([a y] & [= ->] & Hin).
    exists a, c. split; [reflexivity|]. split; [apply in_or_app|]; eauto.
Qed.

Lemma nondecr_cons lo o h :
  nondecr lo (o :: h) = true -> nondecr lo [o] = true /\ nondecr (last_cycle lo [o]) h = true.
Proof.
  simpl. destruct (op_cycle o).
  - intros H. apply andb_prop in H. destruct H as [A B]. rewrite A. auto.
  - auto.
Qed.

Lemma nondecr_last lo o : nondecr lo [o] = true -> lo <= last_cycle lo [o].
Proof. simpl. destruct (op_cycle o); [rewrite andb_true_r, Z.leb_le | lia]; auto. Qed.

Lemma last_cycle_cons lo o h : last_cycle lo (o :: h) = last_cycle (last_cycle lo [o]) h.
Proof. simpl. destruct (op_cycle o); reflexivity. Qed.

Lemma hidden_step t c b o lo :
  hidden t c b -> c <= lo -> nondecr lo [o] = true ->
  no_connect_after c [o] = true -> ~ In t (reverted [o]) ->
  hidden t c (fst (b_step b o)) /\ ~ In t (delivered [snd (b_step b o)]).
Proof.
  intros [Hq Hb] Hlo ND NC NR. destruct (step_origin b o) as (OB & OQ & OD). split; [split|].
  - intros Hin. destruct (OQ _ Hin) as [H | (a & c0 & -> & H & Hle)]; [tauto|].
    (* Connect c0 with c0 <= c: only stamps <= c0 move *)
    cbn in NC. rewrite andb_true_r in NC. apply Z.leb_le in NC. specialize (Hb _ H). lia.
  - intros a Hin. destruct (OB _ _ Hin) as [H | [-> | ->]]; [auto | | cbn in NR; tauto].
    cbn in ND. rewrite andb_true_r in ND. apply Z.leb_le in ND. lia.
  - intros Hin. apply OD in Hin. tauto.
Qed.

Lemma latency_gen t c h : forall b lo,
  hidden t c b -> c <= lo -> nondecr lo h = true ->
  no_connect_after c h = true -> ~ In t (reverted h) ->
  ~ In t (delivered (snd (b_run b h))).
Proof.
  induction h as [|o h IH]; intros b lo Hh Hlo ND NC NR; [simpl; tauto|].
  rewrite b_run_cons. cbn [snd]. rewrite delivered_cons, in_app_iff.
  rewrite reverted_cons, in_app_iff in NR.
  cbn [no_connect_after forallb] in NC. apply andb_prop in NC as [NC1 NC].
  apply nondecr_cons in ND as [ND1 ND]. pose proof (nondecr_last lo o ND1).
  destruct (hidden_step t c b o lo Hh Hlo ND1) as [Hh' Hd]; [cbn; now rewrite NC1 | tauto |].
  intros [Hin | Hin]; [tauto|].
  exact (IH _ (last_cycle lo [o]) Hh' ltac:(lia) ND NC ltac:(tauto) Hin).
Qed.

(* ONE-CYCLE LATENCY: an item added at cycle c is not delivered before a
   Connect c' with c' > c.  History h1 (anything, in which t does not occur),
   then Add t c, then h2 with non-decreasing cycle arguments from c on, no
   Connect beyond cycle c and no Revert of t: t is not delivered anywhere in
   the whole history. *)
Theorem one_cycle_latency ql bl h1 t c h2 :
  ~ In t (added h1 ++ reverted h1) ->
  nondecr c h2 = true -> no_connect_after c h2 = true -> ~ In t (reverted h2) ->
  ~ In t (delivered (snd (b_run (b_new ql bl) (h1 ++ BAdd t c :: h2)))).
Proof.
  intros Fresh ND NC NR. rewrite b_run_app.
  destruct (b_run (b_new ql bl) h1) as [s1 o1] eqn:E1.
  destruct (b_run s1 (BAdd t c :: h2)) as [s2 o2] eqn:E2.
  simpl snd. rewrite delivered_app. intros Hin. apply in_app_or in Hin.
  assert (F1 : ~ In t (delivered o1) /\ ~ In t (contents s1)).
  { pose proof (conservation_count h1 (b_new ql bl) t) as P. rewrite E1 in P. simpl in P.
    assert (cnt (added h1 ++ reverted h1) t = 0%nat) by (apply count_occ_not_In; exact Fresh).
    rewrite count_occ_app in H.
    split; intros X; apply (count_occ_In Z.eq_dec) in X; lia. }
  destruct F1 as [F1 F2]. destruct Hin as [Hin | Hin]; [tauto|].
  assert (o2 = snd (b_run s1 (BAdd t c :: h2))) by (rewrite E2; reflexivity). subst o2.
  rewrite b_run_cons in Hin. simpl in Hin.
  revert Hin. apply (latency_gen t c h2 _ c); auto; try lia.
  split; simpl.
  - intros X. apply F2. unfold contents. apply in_or_app. auto.
  - intros a X. apply in_app_or in X. destruct X as [X | [X | []]].
    + exfalso. apply F2. unfold contents. apply in_or_app. right. unfold items.
      apply in_map_iff. exists (a, t). auto.
    + inversion X; subst. lia.
Qed.

Example one_cycle_latency_ex :
  let h1 := [BAdd 1 0; BConnect 1; BGet] in
  let h2 := [BConnect 5; BGet; BAdd 8 5; BPick (fun _ => true); BConnect 5; BGet] in
  ~ In 7 (added h1 ++ reverted h1) /\ nondecr 5 h2 = true /\ no_connect_after 5 h2 = true /\
  ~ In 7 (reverted h2) /\
  delivered (snd (b_run (b_new 2 2) (h1 ++ BAdd 7 5 :: h2))) = [1] /\
  (* ... and one Connect later it is there *)
  delivered (snd (b_run (b_new 2 2) (h1 ++ BAdd 7 5 :: h2 ++ [BConnect 6; BGet]))) = [1; 7].
Proof. vm_compute. intuition; discriminate. Qed.

(* UPPER BOUND ("a cycle later", not two): with non-decreasing cycles every
   stamp in the buffer is at most (last cycle used) + 1, so a Connect at any
   later cycle moves everything the queue has room for. *)
Definition stamps_le (m : Z) (b : bbus) : Prop := forall a t, In (a, t) (buffer b) -> a <= m.

Lemma stamps_step b o lo :
  stamps_le (lo + 1) b -> nondecr lo [o] = true ->
  stamps_le (last_cycle lo [o] + 1) (fst (b_step b o)) /\ lo <= last_cycle lo [o].
Proof.
  intros S ND. pose proof (nondecr_last lo o ND). split; [|assumption].
  intros a t Hin. destruct (proj1 (step_origin b o) a t Hin) as [H' | [-> | ->]]; [|cbn; lia..].
  specialize (S a t H'). lia.
Qed.

Lemma stamps_run h : forall b lo,
  stamps_le (lo + 1) b -> nondecr lo h = true ->
  stamps_le (last_cycle lo h + 1) (fst (b_run b h)) /\ lo <= last_cycle lo h.
Proof.
  induction h as [|o h IH]; intros b lo S ND.
  - simpl. split; [exact S | lia].
  - apply nondecr_cons in ND. destruct ND as [ND1 ND2].
    destruct (stamps_step b o lo S ND1) as [S1 L1].
    rewrite b_run_cons, last_cycle_cons. simpl fst.
    destruct (IH _ _ S1 ND2) as [S2 L2]. split; [exact S2 | lia].
Qed.

Lemma connect_all b c :
  stamps_le c b ->
  buffer (b_connect b c) = [] \/ len (queue (b_connect b c)) = queueLength b.
Proof.
  intros S. destruct b as [buf q ql bl].
  destruct (step_effect buf q ql bl (BConnect c)) as (q' & buf' & x & E & Ef). cbn [b_step] in E.
  injection E as -> _. cbn [queue buffer queueLength].
  inversion Ef as [| | | | | | | | |? m ? Hbuf _ _ [?|[?|(a & t & r & -> & Ha)]]|]; subst; auto.
  assert (a <= c) by (apply (S a t); cbn; apply in_or_app; cbn; auto). lia.
Qed.

Lemma step_lengths b o :
  queueLength (fst (b_step b o)) = queueLength b /\ bufferLength (fst (b_step b o)) = bufferLength b.
Proof.
  destruct b as [buf q ql bl]. destruct (step_effect buf q ql bl o) as (q' & buf' & x & -> & _).
  split; reflexivity.
Qed.

Lemma run_lengths h : forall b,
  queueLength (fst (b_run b h)) = queueLength b /\ bufferLength (fst (b_run b h)) = bufferLength b.
Proof.
  induction h as [|o h IH]; intros b; [simpl; auto|].
  rewrite b_run_cons. simpl fst. destruct (IH (fst (b_step b o))) as [A B].
  destruct (step_lengths b o) as [C D]. split; congruence.
Qed.

(* VISIBLE THE NEXT CYCLE: in a history with non-decreasing cycle arguments, a
   Connect at a cycle later than every cycle used so far leaves the buffer
   empty or the queue full: every item added in an earlier cycle is visible
   unless the queue has no room for it. *)
Theorem visible_next_cycle ql bl lo h c' :
  nondecr lo h = true -> last_cycle lo h < c' ->
  let s := fst (b_run (b_new ql bl) (h ++ [BConnect c'])) in
  buffer s = [] \/ len (queue s) = ql.
Proof.
  intros ND Hc. rewrite b_run_app.
  destruct (b_run (b_new ql bl) h) as [s1 o1] eqn:E. simpl.
  assert (S0 : stamps_le (lo + 1) (b_new ql bl)) by (intros a t []).
  destruct (stamps_run h _ _ S0 ND) as [S1 _]. rewrite E in S1. simpl in S1.
  assert (S2 : stamps_le c' s1) by (intros a t Hin; specialize (S1 a t Hin); lia).
  pose proof (run_lengths h (b_new ql bl)) as [L _]. rewrite E in L. simpl in L.
  rewrite <- L. apply connect_all. exact S2.
Qed.

Example visible_next_cycle_ex :
  let h := [BAdd 1 0; BAdd 2 0; BConnect 1; BAdd 3 1; BGet; BAdd 4 1; BRevert 9 1] in
  nondecr 0 h = true /\ last_cycle 0 h = 1 /\
  queue (fst (b_run (b_new 3 4) (h ++ [BConnect 2]))) = [2; 9; 3] /\
  buffer (fst (b_run (b_new 3 4) (h ++ [BConnect 2]))) = [(2, 4)].
Proof. vm_compute. auto. Qed.

Definition within_capacity (b : bbus) : Prop :=
  len (buffer b) <= bufferLength b /\ len (queue b) <= queueLength b.

(* the queue never outgrows queueLength, whatever the producers do *)
Lemma step_queue_le b o :
  len (queue b) <= queueLength b -> len (queue (fst (b_step b o))) <= queueLength b.
Proof.
  destruct b as [buf q ql bl]. destruct (step_effect buf q ql bl o) as (q' & buf' & x & -> & E).
  cbn [fst queue queueLength]. intros H. pose proof (len_nonneg q).
  destruct E; subst; rewrite ?len_app, ?len_cons, ?len_nil in *; auto; lia.
Qed.

(* only Add and Revert make the buffer longer, by one *)
Lemma step_buffer_le b o :
  len (buffer (fst (b_step b o))) <= len (buffer b) + len (added [o] ++ reverted [o]).
Proof.
  destruct b as [buf q ql bl]. destruct (step_effect buf q ql bl o) as (q' & buf' & x & -> & E).
  cbn [fst buffer]. unfold len.
  destruct E; subst; cbn [added reverted app]; rewrite ?app_length; cbn [length]; lia.
Qed.

Lemma step_capacity b o :
  within_capacity b ->
  (match o with BAdd _ _ | BRevert _ _ => b_canadd b | _ => true end) = true ->
  within_capacity (fst (b_step b o)).
Proof.
  intros [Hb Hq] G. unfold within_capacity. destruct (step_lengths b o) as [-> ->].
  split; [|now apply step_queue_le]. pose proof (step_buffer_le b o) as H.
  destruct o; cbn [added reverted app] in H; unfold len in *; cbn [length] in H; try lia;
    unfold b_canadd in G; apply negb_true_iff, Z.eqb_neq in G; unfold len in G; lia.
Qed.

Lemma capacity_gen h : forall b,
  within_capacity b -> disciplined b h = true ->
  forall h1 h2, h = h1 ++ h2 -> within_capacity (fst (b_run b h1)).
Proof.
  induction h as [|o h IH]; intros b W D h1 h2 E.
  - destruct h1; [exact W | discriminate].
  - destruct h1 as [|o1 h1]; [exact W|]. simpl in E. inversion E; subst o1 h.
    simpl in D. apply andb_prop in D. destruct D as [G D].
    rewrite b_run_cons. simpl fst. eapply IH; [|exact D|reflexivity].
    apply step_capacity; auto.
Qed.

(* CAPACITY: if the producers add (and revert) only when CanAdd reports room,
   then in every reachable state - after every prefix of the history - the
   buffer holds at most bufferLength and the queue at most queueLength items *)
Theorem capacity ql bl h :
  0 <= ql -> 0 <= bl -> disciplined (b_new ql bl) h = true ->
  forall h1 h2, h = h1 ++ h2 ->
  let s := fst (b_run (b_new ql bl) h1) in
  len (buffer s) <= bl /\ len (queue s) <= ql.
Proof.
  intros Hq Hb D h1 h2 E.
  assert (W : within_capacity (b_new ql bl)) by (split; simpl; rewrite len_nil; lia).
  pose proof (capacity_gen h _ W D h1 h2 E) as [A B].
  destruct (run_lengths h1 (b_new ql bl)) as [L1 L2]. rewrite L1, L2 in *. simpl in *. auto.
Qed.

Example capacity_ex :
  let h := [BAdd 1 0; BAdd 2 0; BConnect 1; BAdd 3 1; BAdd 4 1; BConnect 2; BGet; BConnect 3;
            BPick (pred_of 2); BConnect 3; BAdd 5 3; BDeleteLast; BAdd 6 3] in
  disciplined (b_new 2 2) h = true /\
  (* the queue did refuse items: after the Connect at cycle 2 it is full and 3, 4 wait *)
  contents (fst (b_run (b_new 2 2) (firstn 6 h))) = [1; 2; 3; 4] /\
  queue (fst (b_run (b_new 2 2) (firstn 6 h))) = [1; 2].
Proof. vm_compute. auto. Qed.

(* the queue bound needs nothing from the producers *)
Lemma run_queue_le h : forall b,
  len (queue b) <= queueLength b -> len (queue (fst (b_run b h))) <= queueLength b.
Proof.
  induction h as [|o h IH]; intros b H; [exact H|].
  rewrite b_run_cons. cbn [fst]. destruct (step_lengths b o) as [L _]. rewrite <- L.
  apply IH. rewrite L. now apply step_queue_le.
Qed.

Theorem queue_capacity ql bl h :
  0 <= ql -> len (queue (fst (b_run (b_new ql bl) h))) <= ql.
Proof. intros Hq. apply (run_queue_le h (b_new ql bl)). simpl. rewrite len_nil. exact Hq. Qed.

(* the two ways the bus reports room agree on every state within capacity (the
   control units add RemainingToAdd() items, the fetch/decode units ask CanAdd()) *)
Theorem remaining_canadd b :
  within_capacity b -> (b_canadd b = true <-> 0 < b_remainingtoadd b).
Proof.
  intros [Hb _]. unfold b_canadd, b_remainingtoadd. rewrite negb_true_iff, Z.eqb_neq. lia.
Qed.

Theorem remaining_after_add b t c :
  b_remainingtoadd (b_add b t c) = b_remainingtoadd b - 1.
Proof. unfold b_remainingtoadd, b_add. simpl. rewrite len_app, len_cons, len_nil. lia. Qed.

(* REFUTED: guarding Add alone is not enough.  Revert grows the buffer without
   looking at its length, and once the buffer is beyond bufferLength CanAdd
   (an inequality test) reports room again. *)
Theorem capacity_add_guard_only_refuted :
  exists ql bl h,
    0 <= ql /\ 0 <= bl /\ add_disciplined (b_new ql bl) h = true /\ nondecr 0 h = true /\
    let s := fst (b_run (b_new ql bl) h) in
    bl < len (buffer s) /\ b_canadd s = true.
Proof. exists 1, 1, [BAdd 1 0; BRevert 2 0]. vm_compute. intuition; discriminate. Qed.

Theorem clean_empties b :
  b_isempty (b_clean b) = true /\ queue (b_clean b) = [] /\ buffer (b_clean b) = [].
Proof. auto. Qed.

(* nothing put on the bus before a Clean is delivered after it: whatever is
   delivered after the Clean was added (or reverted) after the Clean *)
Theorem clean_forgets b h1 h2 x :
  In x (delivered (snd (b_run (fst (b_run b (h1 ++ [BClean]))) h2))) ->
  In x (added h2 ++ reverted h2).
Proof.
  intros H. apply delivered_in in H.
  rewrite b_run_app in H. destruct (b_run b h1) as [s1 o1]. simpl in H. exact H.
Qed.

Corollary clean_forgets_count b h1 h2 x :
  (cnt (delivered (snd (b_run (fst (b_run b (h1 ++ [BClean]))) h2))) x
   <= cnt (added h2 ++ reverted h2) x)%nat.
Proof.
  pose proof (delivered_le_added (fst (b_run b (h1 ++ [BClean]))) h2 x) as H.
  rewrite b_run_app in *. destruct (b_run b h1) as [s1 o1]. simpl in *. exact H.
Qed.

Example clean_ex :
  let h1 := [BAdd 1 0; BAdd 2 0; BConnect 1; BAdd 3 1] in
  let h2 := [BConnect 2; BGet; BAdd 4 2; BConnect 3; BGet; BGet] in
  contents (fst (b_run (b_new 2 2) h1)) = [1; 2; 3] /\
  delivered (snd (b_run (fst (b_run (b_new 2 2) (h1 ++ [BClean]))) h2)) = [4].
Proof. vm_compute. auto. Qed.

(* REVERT, under the precondition the code needs: when the visible queue is
   empty (and the bus can show anything at all: queueLength <> 0), an item
   reverted at cycle c is the next one delivered, after a Connect of the same
   (or any later) cycle *)
Theorem revert_is_next b t c c' :
  queue b = [] -> queueLength b <> 0 -> c <= c' ->
  snd (b_step (b_connect (b_revert b t c) c') BGet) = OItem t true.
Proof.
  intros Q L C. unfold b_connect. simpl. rewrite Q.
  destruct (len (@nil Z) =? queueLength b) eqn:E; [apply Z.eqb_eq in E; rewrite len_nil in E; congruence|].
  destruct (c >? c') eqn:G; [apply Z.gtb_lt in G; lia|].
  destruct (connect_loop (queueLength b) c' ([] ++ [t]) (buffer b)) as [q buf] eqn:Ec.
  apply connect_loop_spec in Ec as (m & _ & -> & _). reflexivity.
Qed.

(* ... and it jumps the items still waiting in the buffer *)
Example revert_is_next_ex :
  let h := [BAdd 1 0; BConnect 1; BGet; BAdd 2 1; BAdd 3 1] in
  let s := fst (b_run (b_new 2 3) h) in
  queue s = [] /\ items (buffer s) = [2; 3] /\
  snd (b_run s [BRevert 1 1; BConnect 2; BGet; BGet]) = [ONone; ONone; OItem 1 true; OItem 2 true].
Proof. vm_compute. auto. Qed.

(* REFUTED: the unconditional statement "a reverted item is the next one
   delivered".  Revert prepends to the BUFFER, which is behind the visible
   queue: with an item already visible, that one comes out first.
   Minimal witness (queueLength 1 or more, any bufferLength):
     Add 1 @0 ; Connect 1 ; Revert 2 @1 ; Connect 1 ; Get   ->   1
   (without the second Connect the Get returns 1 as well). *)
Theorem revert_not_next_refuted :
  exists ql bl h t c,
    0 < ql /\ 0 < bl /\ nondecr 0 (h ++ [BRevert t c; BConnect c; BGet]) = true /\
    disciplined (b_new ql bl) (h ++ [BRevert t c; BConnect c; BGet]) = true /\
    let s := fst (b_run (b_new ql bl) h) in
    snd (b_step (b_connect (b_revert s t c) c) BGet) = OItem 1 true /\ t = 2 /\
    delivered (snd (b_run (b_new ql bl) (h ++ [BRevert t c; BConnect c; BGet]))) = [1].
Proof. exists 1, 1, [BAdd 1 0; BConnect 1], 2, 1. vm_compute. intuition; discriminate. Qed.

Theorem revert_unconditional_refuted :
  ~ (forall b t c, queueLength b <> 0 ->
       snd (b_step (b_connect (b_revert b t c) c) BGet) = OItem t true).
Proof.
  intros H. specialize (H (fst (b_run (b_new 2 2) [BAdd 1 0; BConnect 1])) 2 1).
  vm_compute in H. assert (X : 2 <> 0) by discriminate. specialize (H X). discriminate.
Qed.

(* non-vacuity of the order / conservation theorems: a history with every kind
   of operation; the equations are evaluated by the kernel *)
Example conservation_ex :
  let h := [BAdd 1 0; BAdd 2 0; BAdd 3 0; BConnect 1; BAdd 4 1; BPick (pred_of 2); BDeleteLast;
            BAdd 5 1; BConnect 2; BGet; BRevert 1 2; BConnect 2; BGet; BAdd 6 2; BClean; BAdd 7 3] in
  let r := b_run (b_new 2 3) h in
  added h = [1; 2; 3; 4; 5; 6; 7] /\ reverted h = [1] /\
  delivered (snd r) = [2; 1; 3] /\ contents (fst r) = [7] /\ dropped (b_new 2 3) h = [4; 1; 5; 6].
Proof. vm_compute. auto. Qed.

Example fifo_order_ex :
  let h := [BAdd 1 0; BAdd 2 0; BConnect 1; BGet; BAdd 3 1; BAdd 4 1; BDeleteLast; BConnect 2; BGet;
            BConnect 2; BAdd 5 2; BGet; BGet; BConnect 3] in
  let r := b_run (b_new 2 2) h in
  no_revert h = true /\ no_pick h = true /\ NoDup (added h ++ reverted h) /\
  added h = [1; 2; 3; 4; 5] /\ delivered (snd r) = [1; 2; 3] /\ contents (fst r) = [5].
Proof.
  vm_compute. repeat split.
  repeat (constructor; [simpl; intuition discriminate|]). constructor.
Qed.

Example rest_order_ex :
  let h := [BAdd 1 0; BAdd 2 0; BAdd 3 0; BAdd 4 0; BConnect 1; BPick (pred_of 3); BPick (pred_of 5);
            BExists (pred_of 2); BPick (pred_of 2)] in
  let r := b_run (b_new 4 4) h in
  no_revert h = true /\ snd r = [ONone; ONone; ONone; ONone; ONone; OItem 3 true; OItem 0 false;
                                 OBool true; OItem 2 true] /\
  contents (fst r) = [1; 4].
Proof. vm_compute. auto. Qed.

Definition opt (x : option Z) : list Z := match x with Some t => [t] | None => [] end.

Fixpoint s_added (h : list sop) : list Z :=
  match h with [] => [] | SAdd t :: h' => t :: s_added h' | _ :: h' => s_added h' end.
Fixpoint gets (h : list sop) : nat :=
  match h with [] => O | SGet :: h' => S (gets h') | _ :: h' => gets h' end.
(* the results of the Gets, in order: Some t / None *)
Fixpoint get_results (outs : list out) : list (option Z) :=
  match outs with
  | [] => []
  | OItem t true :: o' => Some t :: get_results o'
  | OItem _ false :: o' => None :: get_results o'
  | _ :: o' => get_results o'
  end.
Fixpoint somes (l : list (option Z)) : list Z :=
  match l with [] => [] | x :: l' => opt x ++ somes l' end.

Definition s_no_flush (h : list sop) : bool :=
  forallb (fun o => match o with SFlush | SClean => false | _ => true end) h.

(* the producer's contract: Add only when CanAdd is true *)
Fixpoint s_disciplined (b : sbus) (h : list sop) : bool :=
  match h with
  | [] => true
  | o :: h' => (match o with SAdd _ => s_canadd b | _ => true end)
               && s_disciplined (fst (s_step b o)) h'
  end.

Lemma s_run_cons b o h :
  s_run b (o :: h) = (fst (s_run (fst (s_step b o)) h), snd (s_step b o) :: snd (s_run (fst (s_step b o)) h)).
Proof. simpl. destruct (s_step b o) as [b1 x]. simpl. destruct (s_run b1 h); reflexivity. Qed.

(* the segments of a history between consecutive Gets: the item left pending
   by each (the last Add of the segment) *)
Fixpoint segs (cur : option Z) (h : list sop) : list (option Z) :=
  match h with
  | [] => [cur]
  | SAdd t :: h' => segs (Some t) h'
  | SGet :: h' => cur :: segs None h'
  | _ :: h' => segs cur h'
  end.

(* POSITIONS (no discipline needed): the j-th Get returns what the segment two
   Gets earlier left pending: Get number k+2 returns the item added between
   Get number k and Get number k+1. *)
Theorem simple_positions h : forall b,
  s_no_flush h = true ->
  get_results (snd (s_run b h)) = firstn (gets h) (s_current b :: segs (s_pending b) h).
Proof.
  induction h as [|o h IH]; intros b NF; [reflexivity|].
  simpl in NF. apply andb_prop in NF. destruct NF as [NF1 NF].
  rewrite s_run_cons. simpl snd. destruct o; try discriminate.
  - simpl. rewrite (IH _ NF). reflexivity.
  - simpl. rewrite (IH _ NF). simpl. destruct (s_current b); reflexivity.
Qed.

(* FIFO equation of the two-slot bus under the contract: delivered, then
   current, then pending = the items added, in order; so every item is
   delivered at most once, in order, and only the last two can still be inside *)
Theorem simple_fifo h : forall b,
  s_no_flush h = true -> s_disciplined b h = true ->
  somes (get_results (snd (s_run b h))) ++ opt (s_current (fst (s_run b h)))
    ++ opt (s_pending (fst (s_run b h)))
  = opt (s_current b) ++ opt (s_pending b) ++ s_added h.
Proof.
  induction h as [|o h IH]; intros b NF D.
  - simpl. rewrite app_nil_r. reflexivity.
  - simpl in NF, D. apply andb_prop in NF. destruct NF as [NF1 NF]. apply andb_prop in D. destruct D as [G D].
    rewrite s_run_cons. simpl fst. simpl snd. specialize (IH _ NF D).
    destruct o; try discriminate.
    + simpl in *. rewrite IH. unfold s_canadd in G. destruct (s_pending b); [discriminate|]. reflexivity.
    + simpl in *. destruct (s_current b); simpl in *; rewrite IH; reflexivity.
Qed.

Lemma gets_app h1 h2 : gets (h1 ++ h2) = (gets h1 + gets h2)%nat.
Proof. induction h1 as [|o h1 IH]; [reflexivity|]. destruct o; simpl; now rewrite ?IH. Qed.

Lemma s_disciplined_app b h1 h2 :
  s_disciplined b (h1 ++ h2) = s_disciplined b h1 && s_disciplined (fst (s_run b h1)) h2.
Proof.
  revert b. induction h1 as [|o h1 IH]; intros b; [reflexivity|].
  rewrite s_run_cons. cbn [app s_disciplined fst]. now rewrite IH, andb_assoc.
Qed.

(* the segment in which h1 ends is the one h' continues *)
Lemma segs_app h1 h' : forall b, s_no_flush h1 = true ->
  nth_error (segs (s_pending b) (h1 ++ h')) (gets h1) = hd_error (segs (s_pending (fst (s_run b h1))) h').
Proof.
  induction h1 as [|o h1 IH]; intros b NF.
  - cbn. now destruct (segs _ h').
  - cbn [s_no_flush forallb] in NF. apply andb_prop in NF as [NF1 NF]. rewrite s_run_cons. cbn [fst].
    destruct o; try discriminate NF1; cbn [app segs gets nth_error]; rewrite <- (IH _ NF); [reflexivity|].
    cbn. now destruct (s_current b).
Qed.

(* under the contract nothing is added over a pending item before the next Get *)
Lemma segs_pending h : forall b t,
  s_no_flush h = true -> s_disciplined b h = true -> s_pending b = Some t -> (1 <= gets h)%nat ->
  hd_error (segs (Some t) h) = Some (Some t).
Proof.
  induction h as [|o h IH]; intros b t NF D P G; [simpl in G; lia|].
  cbn [s_no_flush forallb s_disciplined] in NF, D.
  apply andb_prop in NF as [NF1 NF]. apply andb_prop in D as [G1 D].
  destruct o; try discriminate NF1; [|reflexivity].
  unfold s_canadd in G1. rewrite P in G1. discriminate.
Qed.

(* SimpleBus latency: under the contract, an item added after the k-th Get
   (k = number of Gets in h1) is returned by Get number k+2 (index k+1 from 0):
   by simple_positions that Get returns what the segment of the Add left
   pending, and under the contract that is the item added.
   That no other Get returns it follows from simple_fifo (every added item
   occurs once in delivered ++ current ++ pending). *)
Theorem simple_k_plus_2 b h1 t h2 :
  s_no_flush (h1 ++ SAdd t :: h2) = true ->
  s_disciplined b (h1 ++ SAdd t :: h2) = true ->
  (2 <= gets h2)%nat ->
  nth_error (get_results (snd (s_run b (h1 ++ SAdd t :: h2)))) (gets h1 + 1) = Some (Some t).
Proof.
  intros NF D G. rewrite simple_positions, gets_app by exact NF. cbn [gets].
  rewrite nth_error_firstn by lia. rewrite Nat.add_1_r. cbn [nth_error].
  unfold s_no_flush in NF. rewrite forallb_app in NF. apply andb_prop in NF as [NF1 NF2].
  rewrite s_disciplined_app in D. apply andb_prop in D as [_ D]. cbn [s_disciplined] in D.
  apply andb_prop in D as [_ D].
  rewrite (segs_app h1 _ b NF1). cbn [segs].
  apply (segs_pending h2 (fst (s_step (fst (s_run b h1)) (SAdd t)))); auto. lia.
Qed.

Corollary simple_exactly_once h :
  s_no_flush h = true -> s_disciplined s_new h = true -> NoDup (s_added h) ->
  let r := s_run s_new h in
  NoDup (somes (get_results (snd r))) /\
  exists inside, somes (get_results (snd r)) ++ inside = s_added h /\ (length inside <= 2)%nat.
Proof.
  intros NF D N r. pose proof (simple_fifo h s_new NF D) as F. simpl in F. fold r in F.
  split.
  - rewrite <- F in N. apply NoDup_app_l in N. exact N.
  - exists (opt (s_current (fst r)) ++ opt (s_pending (fst r))). split; [exact F|].
    rewrite app_length. destruct (s_current (fst r)), (s_pending (fst r)); simpl; lia.
Qed.

Example simple_ex :
  let h1 := [SAdd 1; SGet; SAdd 2; SGet] in
  let h2 := [SGet; SAdd 4; SGet; SGet; SGet] in
  let h := h1 ++ SAdd 3 :: h2 in
  s_no_flush h = true /\ s_disciplined s_new h = true /\ gets h1 = 2%nat /\
  get_results (snd (s_run s_new h)) = [None; Some 1; Some 2; Some 3; Some 4; None].
Proof. vm_compute. auto. Qed.

(* LOSS: an Add while CanAdd is false overwrites the pending item, which then
   is as if it had never been added *)
Theorem simple_add_overwrites b t0 t : s_add (s_add b t0) t = s_add b t.
Proof. reflexivity. Qed.

Theorem simple_undisciplined_loses_refuted :
  exists h, s_no_flush h = true /\ s_disciplined s_new h = false /\
            s_added h = [1; 2] /\
            get_results (snd (s_run s_new h)) = [None; Some 2; None; None] /\
            s_isempty (fst (s_run s_new h)) = true.
Proof. exists [SAdd 1; SAdd 2; SGet; SGet; SGet; SGet]. vm_compute. auto. Qed.

Theorem simple_clean_empties b :
  s_isempty (s_clean b) = true /\ s_isempty (s_flush b) = true /\
  s_clean b = s_new /\ s_flush b = s_new.
Proof. auto. Qed.

Theorem simple_canadd_after_get b : s_canadd (fst (s_get b)) = true.
Proof. reflexivity. Qed.
