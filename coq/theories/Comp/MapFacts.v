(* Facts about zlen and upd of Comp/Cache.v and about the association-list map
   operations and remove_first of Comp/Lru.v, shared by the proofs about both
   caches. *)
From Coq Require Import ZArith List Bool Lia.
From Maj Require Export Comp.ListFacts.
From Maj Require Import Comp.Cache Comp.Lru.
Import ListNotations.
Open Scope Z_scope.

Lemma zlen_nonneg {A} (l : list A) : 0 <= zlen l.
Proof. unfold zlen. lia. Qed.
Lemma zlen_cons {A} (x : A) l : zlen (x :: l) = zlen l + 1.
Proof. unfold zlen. simpl length. lia. Qed.
Lemma zlen_app {A} (l1 l2 : list A) : zlen (l1 ++ l2) = zlen l1 + zlen l2.
Proof. unfold zlen. rewrite app_length. lia. Qed.
Lemma zlen_map {A B} (f : A -> B) l : zlen (map f l) = zlen l.
Proof. unfold zlen. now rewrite map_length. Qed.
Lemma zlen_nil {A} : zlen (@nil A) = 0.
Proof. reflexivity. Qed.
Lemma zlen_app1 {A} (l : list A) x : zlen (l ++ [x]) = zlen l + 1.
Proof. now rewrite zlen_app. Qed.
Lemma zlen_zero {A} (l : list A) : zlen l = 0 -> l = [].
Proof. destruct l; [reflexivity|]. rewrite zlen_cons. pose proof (zlen_nonneg l). lia. Qed.

(* upd of Cache.v *)
Lemma upd_length d n v : length (upd d n v) = length d.
Proof. revert n. induction d; intros [|n]; simpl; auto. Qed.
Lemma upd_oob d n v : (length d <= n)%nat -> upd d n v = d.
Proof. revert n. induction d as [|x d IH]; intros [|n] H; cbn in *; try reflexivity; try lia. rewrite IH by lia. reflexivity. Qed.
Lemma upd_upd d n v w : upd (upd d n v) n w = upd d n w.
Proof. revert n. induction d as [|x d IH]; intros [|n]; cbn; try reflexivity. rewrite IH. reflexivity. Qed.
Lemma upd_nth d n : upd d n (nth n d 0) = d.
Proof. revert n. induction d as [|x d IH]; intros [|n]; cbn; try reflexivity. rewrite IH. reflexivity. Qed.
Lemma upd_comm d n m v w : n <> m -> upd (upd d n v) m w = upd (upd d m w) n v.
Proof.
  revert n m. induction d as [|x d IH]; intros [|n] [|m] H; cbn; try reflexivity; [contradiction|].
  rewrite IH by lia. reflexivity.
Qed.
Lemma zlen_upd d n v : zlen (upd d n v) = zlen d.
Proof. unfold zlen. now rewrite upd_length. Qed.
Lemma nth_upd_eq d n v : (n < length d)%nat -> nth n (upd d n v) 0 = v.
Proof. revert n. induction d; intros [|n] H; simpl in *; try lia; auto. apply IHd. lia. Qed.
Lemma nth_upd_neq d n m v : n <> m -> nth m (upd d n v) 0 = nth m d 0.
Proof.
  revert n m. induction d; intros [|n] [|m] H; simpl; auto; try congruence.
Qed.


(* map operations of Lru.v *)
Lemma m_get_remove {V} k (m : list (Z * V)) b :
  m_get b (m_remove k m) = if k =? b then None else m_get b m.
Proof.
  induction m as [|[k' v] m IH]; simpl.
  - now destruct (k =? b).
  - destruct (Z.eqb_spec k' k).
    + subst. rewrite IH. destruct (Z.eqb_spec k b); auto.
    + simpl. rewrite IH. destruct (Z.eqb_spec k' b), (Z.eqb_spec k b); auto. congruence.
Qed.
Lemma m_get_set {V} k (v : V) m b :
  m_get b (m_set k v m) = if k =? b then Some v else m_get b m.
Proof.
  unfold m_set. simpl. rewrite m_get_remove. destruct (k =? b); auto.
Qed.

Lemma in_remove_first k l x : In x (remove_first k l) -> In x l.
Proof.
  induction l; simpl; auto. destruct (a =? k); simpl; intuition.
Qed.
Lemma remove_first_notin k l : ~ In k l -> remove_first k l = l.
Proof.
  induction l; simpl; auto. intros H. destruct (Z.eqb_spec a k); [intuition|]. f_equal. intuition.
Qed.
Lemma in_remove_first_neq k l x : x <> k -> In x l -> In x (remove_first k l).
Proof.
  induction l; simpl; auto. intros Hn [->|H].
  - destruct (Z.eqb_spec x k); [congruence|]. now left.
  - destruct (a =? k); auto. right. auto.
Qed.
Lemma NoDup_remove_first k l : NoDup l -> NoDup (remove_first k l) /\ ~ In k (remove_first k l).
Proof.
  induction 1; simpl.
  - split; [constructor | auto].
  - destruct (Z.eqb_spec x k).
    + subst. split; auto.
    + destruct IHNoDup as [A B]. split.
      * constructor; auto. intros Hx. apply H. eapply in_remove_first; eauto.
      * simpl. intuition.
Qed.
Lemma length_remove_first k l : In k l -> zlen (remove_first k l) = zlen l - 1.
Proof.
  induction l as [|a l IH]; [simpl; tauto|]. intros H. cbn [remove_first].
  destruct (Z.eqb_spec a k).
  - rewrite zlen_cons. lia.
  - rewrite !zlen_cons. rewrite IH; [lia|]. destruct H; congruence.
Qed.


Lemma m_get_app {V} k (m1 m2 : list (Z * V)) :
  m_get k (m1 ++ m2) = match m_get k m1 with Some v => Some v | None => m_get k m2 end.
Proof.
  induction m1 as [|[k' v] m1 IH]; simpl; auto. destruct (k' =? k); auto.
Qed.

Lemma m_get_none {V} k (m : list (Z * V)) : m_get k m = None <-> ~ In k (map fst m).
Proof.
  induction m as [|[k' v] m IH]; simpl; [tauto|].
  destruct (Z.eqb_spec k' k).
  - split; [discriminate | intros H; exfalso; apply H; now left].
  - rewrite IH. split; [intros H [?|?]; [congruence | tauto] | tauto].
Qed.

Lemma m_get_in {V} k (v : V) m : m_get k m = Some v -> In k (map fst m).
Proof.
  intros H. destruct (in_dec Z.eq_dec k (map fst m)); auto.
  apply m_get_none in n. congruence.
Qed.

Lemma in_m_get {V} k (v : V) m : NoDup (map fst m) -> In (k, v) m -> m_get k m = Some v.
Proof.
  induction m as [|[k' v'] t IH]; [intros _ []|]. cbn [map fst m_get]. intros Hnd Hin.
  inversion Hnd; subst. destruct Hin as [Heq|Hin].
  - inversion Heq; subst. now rewrite Z.eqb_refl.
  - destruct (Z.eqb_spec k' k); [|auto]. subst. exfalso. apply H1.
    change k with (fst (k, v)). now apply in_map.
Qed.

Lemma m_remove_notin {V} k (m : list (Z * V)) : ~ In k (map fst m) -> m_remove k m = m.
Proof.
  induction m as [|[k' v] m IH]; simpl; auto. intros H.
  destruct (Z.eqb_spec k' k); [exfalso; apply H; now left|]. f_equal. apply IH. tauto.
Qed.

Lemma map_fst_m_remove {V} k (m : list (Z * V)) : NoDup (map fst m) ->
  map fst (m_remove k m) = remove_first k (map fst m).
Proof.
  induction m as [|[k' v] m IH]; simpl; auto. intros H. inversion H; subst.
  destruct (Z.eqb_spec k' k).
  - subst. now rewrite m_remove_notin.
  - simpl. f_equal. auto.
Qed.

Lemma NoDup_m_remove {V} k (m : list (Z * V)) : NoDup (map fst m) -> NoDup (map fst (m_remove k m)).
Proof. intros H. rewrite map_fst_m_remove by auto. now apply NoDup_remove_first. Qed.

Lemma notin_m_remove {V} k (m : list (Z * V)) : NoDup (map fst m) -> ~ In k (map fst (m_remove k m)).
Proof. intros H. rewrite map_fst_m_remove by auto. now apply NoDup_remove_first. Qed.

Lemma length_m_remove {V} k (v : V) m : NoDup (map fst m) -> m_get k m = Some v ->
  S (length (m_remove k m)) = length m.
Proof.
  induction m as [|[k' v'] m IH]; simpl; [discriminate|]. intros H Hg. inversion H; subst.
  destruct (Z.eqb_spec k' k).
  - subst. now rewrite m_remove_notin.
  - simpl. f_equal. auto.
Qed.

Lemma remove_first_app_notin k l1 l2 : ~ In k l1 -> remove_first k (l1 ++ l2) = l1 ++ remove_first k l2.
Proof.
  induction l1 as [|x l1 IH]; simpl; auto. intros H.
  destruct (Z.eqb_spec x k); [exfalso; apply H; now left|]. f_equal. apply IH. tauto.
Qed.

Lemma contains_spec ks k : contains ks k = true <-> In k ks.
Proof.
  unfold contains. rewrite existsb_exists. split.
  - intros (x & Hx & E). apply Z.eqb_eq in E. now subst.
  - intros H. exists k. split; auto. apply Z.eqb_refl.
Qed.
