(* The stored scoreboard counters equal the counts derived from the set of
   in-flight instructions (with multiplicity), for every history of
   add / delete / flush, and the hazard queries mean what they should. *)
From Coq Require Import ZArith List Bool Lia.
From Maj Require Import Comp.Scoreboard.
Import ListNotations.
Open Scope Z_scope.

Fixpoint occ (r : Z) (l : list Z) : Z :=
  match l with
  | [] => 0
  | x :: t => (if (x =? r) && negb (r =? 0) then 1 else 0) + occ r t
  end.

Definition cnt_w (fl : inflight) (r : Z) : Z := fold_right (fun i acc => occ r (snd i) + acc) 0 fl.
Definition cnt_r (fl : inflight) (r : Z) : Z := fold_right (fun i acc => occ r (fst i) + acc) 0 fl.

Lemma occ_nonneg r l : 0 <= occ r l.
Proof. induction l as [|x t IH]; simpl; [lia|]. destruct ((x =? r) && negb (r =? 0)); lia. Qed.

(* in the order of the tests the code makes: Zero first, then the register *)
Lemma occ_cons x r t : occ r (x :: t) = (if x =? 0 then 0 else if x =? r then 1 else 0) + occ r t.
Proof.
  cbn [occ]. f_equal.
  destruct (Z.eqb_spec x 0), (Z.eqb_spec x r), (Z.eqb_spec r 0); cbn; congruence.
Qed.

Lemma occ_pos_in r l : 0 < occ r l <-> In r l /\ r <> 0.
Proof.
  induction l as [|x t IH]; [cbn; intuition lia|].
  rewrite occ_cons. cbn [In]. pose proof (occ_nonneg r t).
  destruct (Z.eqb_spec x 0), (Z.eqb_spec x r); intuition (subst; lia || congruence).
Qed.

Lemma incr_all_spec rs : forall f x, incr_all f rs x = f x + occ x rs.
Proof.
  induction rs as [|r t IH]; intros f x; cbn [incr_all]; [cbn; lia|].
  rewrite occ_cons. destruct (r =? 0); rewrite IH; [lia|].
  unfold upd. rewrite (Z.eqb_sym x r). destruct (Z.eqb_spec r x); subst; lia.
Qed.

(* a counter never goes below what is about to be deleted, so the clamp at 0 is idle *)
Lemma decr_all_spec rs : forall f x,
  (forall y, occ y rs <= f y) -> decr_all f rs x = f x - occ x rs.
Proof.
  induction rs as [|r t IH]; intros f x H; cbn [decr_all]; [cbn; lia|].
  rewrite occ_cons. destruct (Z.eqb_spec r 0) as [Hr|Hr].
  - rewrite IH; [lia|]. intros y. specialize (H y). rewrite occ_cons, Hr in H. exact H.
  - assert (Hfr : 1 + occ r t <= f r).
    { specialize (H r). rewrite occ_cons, Z.eqb_refl in H. destruct (Z.eqb_spec r 0); [contradiction | exact H]. }
    pose proof (occ_nonneg r t).
    replace (if f r - 1 <=? 0 then 0 else f r - 1) with (f r - 1) by (destruct (Z.leb_spec (f r - 1) 0); lia).
    rewrite IH; unfold upd.
    + rewrite (Z.eqb_sym x r). destruct (Z.eqb_spec r x); subst; lia.
    + intros y. specialize (H y). rewrite occ_cons in H. rewrite (Z.eqb_sym y r).
      destruct (Z.eqb_spec r 0); [contradiction|]. destruct (Z.eqb_spec r y); subst; lia.
Qed.

(* cnt_w and cnt_r are the two instances g = snd, g = fst of one count *)
Definition cnt_by (g : list Z * list Z -> list Z) (fl : inflight) (r : Z) : Z :=
  fold_right (fun i acc => occ r (g i) + acc) 0 fl.

Lemma cnt_w_by : cnt_w = cnt_by snd.
Proof. reflexivity. Qed.
Lemma cnt_r_by : cnt_r = cnt_by fst.
Proof. reflexivity. Qed.

Lemma cnt_by_nonneg g fl r : 0 <= cnt_by g fl r.
Proof. induction fl as [|h t IH]; cbn; [lia|]. pose proof (occ_nonneg r (g h)). fold (cnt_by g t r). lia. Qed.

Lemma cnt_by_app g fl i r : cnt_by g (fl ++ [i]) r = cnt_by g fl r + occ r (g i).
Proof. unfold cnt_by. induction fl as [|h t IH]; cbn; [lia|]. rewrite IH. lia. Qed.

Lemma cnt_by_remove g fl : forall k i, nth_error fl k = Some i ->
  forall r, cnt_by g fl r = cnt_by g (remove_nth fl k) r + occ r (g i).
Proof.
  unfold cnt_by. induction fl as [|h t IH]; intros [|k] i H r; try discriminate; cbn in *.
  - injection H as <-. lia.
  - rewrite (IH k i H r). lia.
Qed.

Lemma cnt_by_pos g fl r : 0 < cnt_by g fl r <-> exists i, In i fl /\ In r (g i) /\ r <> 0.
Proof.
  induction fl as [|h t IH]; cbn.
  - split; [lia | intros (i & [] & _)].
  - fold (cnt_by g t r). pose proof (occ_nonneg r (g h)). pose proof (cnt_by_nonneg g t r). split.
    + intros Hp. destruct (Z_lt_le_dec 0 (occ r (g h))) as [Ho|Ho].
      * apply occ_pos_in in Ho. exists h. tauto.
      * destruct (proj1 IH) as (i & Hi & Hr); [lia|]. exists i. tauto.
    + intros (i & [<-|Hi] & Hr).
      * apply occ_pos_in in Hr. lia.
      * assert (0 < cnt_by g t r) by (apply IH; eauto). lia.
Qed.

Definition counts_ok (st : sb * inflight) : Prop :=
  forall r, pw (fst st) r = cnt_w (snd st) r /\ pr (fst st) r = cnt_r (snd st) r.

Lemma step_counts st o : counts_ok st -> counts_ok (step st o).
Proof.
  destruct st as [s fl]. unfold counts_ok. rewrite cnt_w_by, cnt_r_by.
  cbn [fst snd]. intros H. destruct o as [rs ws|k|]; cbn [step].
  - intros r. cbn [fst snd add_pending pw pr]. rewrite !incr_all_spec, !cnt_by_app.
    destruct (H r) as [-> ->]. split; reflexivity.
  - destruct (nth_error fl k) as [[rs ws]|] eqn:E; [|exact H].
    pose proof (cnt_by_remove snd fl k _ E) as Hw. pose proof (cnt_by_remove fst fl k _ E) as Hr.
    cbn [fst snd] in Hw, Hr.
    assert (Hge : forall g y, 0 <= cnt_by g (remove_nth fl k) y) by (intros; apply cnt_by_nonneg).
    intros r. cbn [fst snd delete_pending pw pr]. rewrite !decr_all_spec.
    + destruct (H r) as [-> ->]. rewrite Hw, Hr. lia.
    + intros y. destruct (H y) as [_ ->]. rewrite Hr. specialize (Hge fst y). lia.
    + intros y. destruct (H y) as [-> _]. rewrite Hw. specialize (Hge snd y). lia.
  - intros r. split; reflexivity.
Qed.

(* C04: stored counters = counters derived from the in-flight set, every history *)
Theorem scoreboard_counts ops : counts_ok (run ops).
Proof.
  unfold run. assert (G : forall st, counts_ok st -> counts_ok (fold_left step ops st)).
  { induction ops as [|o t IH]; intros st H; cbn [fold_left]; [exact H|]. apply IH. apply step_counts. exact H. }
  apply G. intros r. split; reflexivity.
Qed.

(* nothing in flight <-> all counters are zero (what ctx.Flush and a drained pipeline give) *)
Theorem scoreboard_drained ops : snd (run ops) = [] -> forall r, pw (fst (run ops)) r = 0 /\ pr (fst (run ops)) r = 0.
Proof.
  intros E r. destruct (scoreboard_counts ops r) as [H1 H2]. rewrite E in *. split; assumption.
Qed.

(* what IsDataHazard3 reports, read off the stored counters *)
Lemma in_hazards3 s reads writes k r :
  In (k, r) (hazards3 s reads writes) <->
  r <> 0 /\ ((k = 0 /\ In r reads /\ 0 < pw s r) \/
             (k = 1 /\ In r writes /\ 0 < pw s r) \/
             (k = 2 /\ In r writes /\ 0 < pr s r)).
Proof.
  unfold hazards3. rewrite in_app_iff, !in_flat_map. split.
  - intros [(x & Hx & Hin)|(x & Hx & Hin)]; destruct (Z.eqb_spec x 0); cbn [negb andb] in Hin; try contradiction.
    + destruct (Z.ltb_spec 0 (pw s x)); [|contradiction]. destruct Hin as [[= <- <-]|[]]. auto.
    + apply in_app_iff in Hin as [Hin|Hin];
        [destruct (Z.ltb_spec 0 (pw s x)) | destruct (Z.ltb_spec 0 (pr s x))]; try contradiction;
        destruct Hin as [[= <- <-]|[]]; auto 6.
  - intros (Hz & H). apply Z.eqb_neq in Hz.
    destruct H as [(-> & Hin & Hp)|[(-> & Hin & Hp)|(-> & Hin & Hp)]]; apply Z.ltb_lt in Hp;
      [left|right|right]; exists r; (split; [exact Hin|]); rewrite Hz; cbn [negb andb]; rewrite ?in_app_iff, Hp.
    + now left.
    + left. now left.
    + right. now left.
Qed.

(* C04: IsDataHazard3 reports RAW / WAW / WAR on register r exactly when an
   in-flight instruction writes / writes / reads r (r not the zero register) *)
Theorem hazards3_meaning ops reads writes r :
  let '(s, fl) := run ops in
  (In (0, r) (hazards3 s reads writes) <-> In r reads /\ r <> 0 /\ exists i, In i fl /\ In r (snd i)) /\
  (In (1, r) (hazards3 s reads writes) <-> In r writes /\ r <> 0 /\ exists i, In i fl /\ In r (snd i)) /\
  (In (2, r) (hazards3 s reads writes) <-> In r writes /\ r <> 0 /\ exists i, In i fl /\ In r (fst i)).
Proof.
  pose proof (scoreboard_counts ops r) as [HW HR]. destruct (run ops) as [s fl]. cbn [fst snd] in HW, HR.
  pose proof (cnt_by_pos snd fl r) as PW. pose proof (cnt_by_pos fst fl r) as PR.
  rewrite <- cnt_w_by, <- HW in PW. rewrite <- cnt_r_by, <- HR in PR.
  rewrite !in_hazards3, PW, PR.
  split; [|split]; (split;
    [ intros (Hz & [(E & Hin & i & Hi & Hr & _)|[(E & Hin & i & Hi & Hr & _)|(E & Hin & i & Hi & Hr & _)]]);
      try discriminate E; eauto
    | intros (Hin & Hz & i & Hi & Hr); split; [exact Hz|]; eauto 10 ]).
Qed.

Example scoreboard_example :
  let '(s, fl) := run [Add [6; 6] [5]; Add [5; 0] [7]; Add [6] [6]; Del 0%nat] in
  (pw s 5, pw s 6, pw s 7, pr s 5, pr s 6, length fl) = (0, 1, 1, 1, 1, 2%nat).
Proof. vm_compute. reflexivity. Qed.
