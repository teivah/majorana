(* C13: the model Comp/Lru.v of common/cache/lru.go refines Comp/LruSpec.v on
   every history (capacity > 0), and the clauses about recency follow. *)
From Coq Require Import ZArith List Bool Lia.
From Maj Require Import Base.Outcome Comp.Cache Comp.Lru Comp.LruSpec Comp.MapFacts.
Import ListNotations.
Open Scope Z_scope.

Record LR (l : lru) (s : slru) : Prop := mkLR {
  lr_cap : sl_cap s = cap l;
  lr_pos : 0 < cap l;
  lr_order : order l = map fst (sl_items s);              (* same recency order *)
  lr_map : forall k, m_get k (cmap l) = m_get k (sl_items s);   (* same bindings *)
  lr_len : length (cmap l) = length (sl_items s);
  lr_nd_items : NoDup (map fst (sl_items s));
  lr_nd_cmap : NoDup (map fst (cmap l));
  lr_size : Z.of_nat (length (sl_items s)) <= cap l       (* key set size <= capacity *)
}.

Lemma length_m_set_new (k v : Z) m : ~ In k (map fst m) -> length (m_set k v m) = S (length m).
Proof. intros H. unfold m_set. simpl. now rewrite m_remove_notin. Qed.

Lemma length_m_set_old (k v v0 : Z) m : NoDup (map fst m) -> m_get k m = Some v0 ->
  length (m_set k v m) = length m.
Proof. intros H G. unfold m_set. simpl. eapply length_m_remove; eauto. Qed.

Lemma NoDup_m_set (k v : Z) m : NoDup (map fst m) -> NoDup (map fst (m_set k v m)).
Proof.
  intros H. unfold m_set. simpl. constructor; [now apply notin_m_remove | now apply NoDup_m_remove].
Qed.

(* the common tail of Get-hit, Find-hit and Put: the entry becomes the most
   recent.  m' is the map afterwards: written by Put, left alone by a hit. *)
Lemma refresh_LR l s k v m' : LR l s ->
  (forall k', m_get k' m' = if k =? k' then Some v else m_get k' (cmap l)) ->
  NoDup (map fst m') -> length m' = S (length (m_remove k (sl_items s))) ->
  Z.of_nat (length m') <= cap l ->
  LR (refresh (mkLru (cap l) m' (order l)) k) (sl_refresh s k v).
Proof.
  intros [Hc Hp Ho Hm Hl Hni Hnc Hs] Hget Hnd Hlen Hsz. unfold refresh, sl_refresh.
  constructor; cbn [cap cmap order sl_cap sl_items]; auto;
    rewrite ?map_app, ?map_fst_m_remove, ?app_length by auto; cbn [map fst length]; try lia.
  - now rewrite Ho.
  - intros k'. rewrite Hget, m_get_app, m_get_remove. cbn [m_get].
    destruct (Z.eqb_spec k k'); auto. rewrite Hm. now destruct (m_get k' (sl_items s)).
  - apply NoDup_snoc; now apply NoDup_remove_first.
Qed.

(* Put *)
Lemma refresh_set l s k v : LR l s ->
  (m_get k (sl_items s) = None -> Z.of_nat (length (sl_items s)) < cap l) ->
  LR (refresh (mkLru (cap l) (m_set k v (cmap l)) (order l)) k) (sl_refresh s k v).
Proof.
  intros Hr Hroom. pose proof Hr as [Hc Hp Ho Hm Hl Hni Hnc Hs].
  assert (Hlen : length (m_set k v (cmap l)) = S (length (m_remove k (sl_items s))) /\
                 Z.of_nat (length (m_set k v (cmap l))) <= cap l).
  { destruct (m_get k (sl_items s)) as [v0|] eqn:E.
    - rewrite (length_m_set_old k v v0 (cmap l) Hnc) by (rewrite Hm; exact E).
      pose proof (length_m_remove k v0 _ Hni E). lia.
    - rewrite length_m_set_new by (apply m_get_none; now rewrite Hm).
      rewrite m_remove_notin by (now apply m_get_none). specialize (Hroom eq_refl). lia. }
  apply refresh_LR; try apply Hlen; auto using NoDup_m_set. intros k'. apply m_get_set.
Qed.

(* Get hit / Find hit: the map is not written *)
Lemma refresh_keep l s k v : LR l s -> m_get k (sl_items s) = Some v ->
  LR (refresh l k) (sl_refresh s k v).
Proof.
  intros Hr E. pose proof Hr as [Hc Hp Ho Hm Hl Hni Hnc Hs].
  apply (refresh_LR l s k v (cmap l)); auto.
  - intros k'. destruct (Z.eqb_spec k k') as [<-|]; [rewrite Hm; exact E | reflexivity].
  - rewrite Hl. symmetry. now apply (length_m_remove k v).
  - now rewrite Hl.
Qed.

Definition lrefines_step (l : lru) (s : slru) (o : lop) : Prop :=
  exists l', lstep l o = Ok (l', snd (sl_step s o)) /\ LR l' (fst (sl_step s o)).

Lemma lstep_refines l s o : LR l s -> lrefines_step l s o.
Proof.
  intros Hr. pose proof Hr as [Hc Hp Ho Hm Hl Hni Hnc Hs]. unfold lrefines_step.
  destruct o as [k v|k|ks]; cbn [lstep sl_step].
  - (* Put *)
    unfold lru_put. rewrite Hm, Hl, Hc.
    destruct (m_get k (sl_items s)) as [v0|] eqn:E.
    + cbn [bind fst snd]. eexists; split; [reflexivity|]. apply refresh_set; auto. congruence.
    + destruct (Z.eqb_spec (Z.of_nat (length (sl_items s))) (cap l)) as [Hfull|Hroom].
      * destruct (sl_items s) as [|[o0 v0] titems] eqn:Ei; [cbn [length] in Hfull; lia|].
        rewrite Ho. cbn [map fst bind tl snd].
        eexists; split; [reflexivity|]. cbn [fst].
        (* the state after the eviction of the head is again related *)
        set (l1 := mkLru (cap l) (m_remove o0 (cmap l)) (map fst titems)).
        set (s1 := mkSl (cap l) titems).
        cbn [map fst] in Hni. inversion Hni as [|? ? Hn0 Hnt]; subst.
        cbn [m_get] in E. destruct (Z.eqb_spec o0 k) as [|Hne]; [discriminate|].
        assert (Hr1 : LR l1 s1).
        { unfold l1, s1. constructor; cbn [cap cmap order sl_cap sl_items]; auto.
          - intros k'. rewrite m_get_remove, Hm. cbn [m_get].
            destruct (Z.eqb_spec o0 k'); auto. subst. symmetry. now apply m_get_none.
          - assert (G : m_get o0 (cmap l) = Some v0) by (rewrite Hm; cbn [m_get]; now rewrite Z.eqb_refl).
            pose proof (length_m_remove o0 v0 _ Hnc G). cbn [length] in Hl. lia.
          - now apply NoDup_m_remove.
          - cbn [length] in Hs. lia. }
        apply (refresh_set l1 s1 k v Hr1). intros _. cbn [sl_items s1 cap l1]. cbn [length] in Hfull. lia.
      * cbn [bind fst snd]. eexists; split; [reflexivity|]. apply refresh_set; auto. intros _. lia.
  - (* Get *)
    unfold lru_get. rewrite Hm. destruct (m_get k (sl_items s)) as [v|] eqn:E; cbn [fst snd].
    + eexists; split; [reflexivity|]. now apply refresh_keep.
    + eexists; split; [reflexivity|]. exact Hr.
  - (* Find *)
    unfold lru_find. rewrite Ho, find_map_fst.
    destruct (find (fun kv => contains ks (fst kv)) (sl_items s)) as [[k v]|] eqn:E; cbn [fst snd].
    + eexists; split; [reflexivity|]. apply refresh_keep; auto.
      apply find_some in E. destruct E as [Hin _]. now apply in_m_get.
    + eexists; split; [reflexivity|]. exact Hr.
Qed.

Lemma lrun_refines l s ops : LR l s ->
  exists l', lrun l ops = Ok (l', snd (sl_run s ops)) /\ LR l' (fst (sl_run s ops)).
Proof.
  revert l s. induction ops as [|o t IH]; intros l s Hr; cbn [lrun sl_run].
  - exists l. auto.
  - destruct (lstep_refines l s o Hr) as (l1 & E1 & Hr1). rewrite E1. cbn [bind].
    destruct (sl_step s o) as [s1 r]. cbn [fst snd] in *.
    destruct (IH l1 s1 Hr1) as (l2 & E2 & Hr2). rewrite E2. cbn [bind].
    destruct (sl_run s1 t) as [s2 rs]. cbn [fst snd] in *. exists l2. auto.
Qed.

Definition lmodel_run (capacity : Z) (ops : list lop) : outcome (lru * list lout) :=
  l0 <- new_lru capacity ;; lrun l0 ops.

(* every history runs without a panic, gives the reference's outputs, and
   ends in a state that represents the reference state (LR: key set size <=
   capacity, same bindings, same recency order, no repeated key) *)
Theorem lru_refines_spec capacity ops : 0 < capacity ->
  exists l, lmodel_run capacity ops = Ok (l, snd (sl_run (sl_new capacity) ops)) /\
            LR l (fst (sl_run (sl_new capacity) ops)).
Proof.
  intros Hp. unfold lmodel_run, new_lru. destruct (Z.ltb_spec capacity 0); [lia|]. cbn [bind].
  apply lrun_refines. constructor; cbn [cap cmap order sl_cap sl_items sl_new map length]; auto; try constructor; lia.
Qed.

(* capacity 0: the first Put panics (l.order[0] on an empty order) *)
Example lru_capacity0_put_panics : lmodel_run 0 [LGet 1; LFind [1]; LPut 1 1] = Panic.
Proof. vm_compute. reflexivity. Qed.

Fixpoint lscan (rops : list lop) (k : Z) : option Z :=
  match rops with
  | [] => None
  | LPut k' v :: t => if k' =? k then Some v else lscan t k
  | _ :: t => lscan t k
  end.
Definition last_put (ops : list lop) (k : Z) : option Z := lscan (rev ops) k.

Lemma sl_run_app s o1 o2 :
  sl_run s (o1 ++ o2) =
  (fst (sl_run (fst (sl_run s o1)) o2), snd (sl_run s o1) ++ snd (sl_run (fst (sl_run s o1)) o2)).
Proof.
  revert s. induction o1 as [|o t IH]; intros s; cbn [app sl_run fst snd].
  - now destruct (sl_run s o2).
  - destruct (sl_step s o) as [s1 r]. rewrite IH. destruct (sl_run s1 t) as [s2 rs]. reflexivity.
Qed.

Lemma sl_run_cap s ops : sl_cap (fst (sl_run s ops)) = sl_cap s.
Proof.
  revert s. induction ops as [|o t IH]; intros s; cbn [sl_run]; [reflexivity|].
  destruct (sl_step s o) as [s1 r] eqn:Es. specialize (IH s1). destruct (sl_run s1 t). cbn [fst] in *.
  rewrite IH. destruct o; cbn [sl_step] in Es.
  - injection Es as <- _. cbn [sl_refresh sl_cap]. destruct (m_get _ _); auto. now destruct (_ =? _).
  - destruct (m_get _ _); injection Es as <- _; reflexivity.
  - destruct (find _ _) as [[? ?]|]; injection Es as <- _; reflexivity.
Qed.

Lemma m_get_tl k (v : Z) m : NoDup (map fst m) -> m_get k (tl m) = Some v -> m_get k m = Some v.
Proof.
  destruct m as [|[k' v'] t]; cbn [tl map fst m_get]; auto. intros H G. inversion H; subst.
  destruct (Z.eqb_spec k' k); auto. subst. exfalso. apply H2. eapply m_get_in; eauto.
Qed.

Lemma refresh_get s k v k' :
  m_get k' (sl_items (sl_refresh s k v)) = if k =? k' then Some v else m_get k' (sl_items s).
Proof.
  unfold sl_refresh. cbn [sl_items]. rewrite m_get_app, m_get_remove. cbn [m_get].
  destruct (k =? k'); auto. now destruct (m_get k' (sl_items s)).
Qed.

Lemma last_put_inv capacity ops : 0 < capacity ->
  forall k v, m_get k (sl_items (fst (sl_run (sl_new capacity) ops))) = Some v -> last_put ops k = Some v.
Proof.
  intros Hp. induction ops as [|o ops IH] using rev_ind; intros k v Hv; [discriminate|].
  destruct (lru_refines_spec capacity ops Hp) as (l & _ & Hr).
  rewrite sl_run_app in Hv. cbn [fst sl_run] in Hv.
  set (s := fst (sl_run (sl_new capacity) ops)) in *.
  destruct (sl_step s o) as [s1 r] eqn:Es. cbn [fst] in Hv.
  pose proof (lr_nd_items _ _ Hr) as Hnd.
  unfold last_put. rewrite rev_unit. change (lscan (rev ops) k) with (last_put ops k).
  destruct o as [k0 v0|k0|ks]; cbn [sl_step lscan] in *; change (lscan (rev ops) k) with (last_put ops k).
  - inversion Es; subst s1. clear Es. rewrite refresh_get in Hv.
    destruct (Z.eqb_spec k0 k) as [->|Hne]; [exact Hv|]. apply IH.
    destruct (m_get k0 (sl_items s)); auto.
    destruct (Z.of_nat (length (sl_items s)) =? sl_cap s); auto.
    cbn [sl_items] in Hv. eapply m_get_tl; eauto.
  - destruct (m_get k0 (sl_items s)) as [v0|] eqn:E; inversion Es; subst s1; [|apply IH; exact Hv].
    rewrite refresh_get in Hv. destruct (Z.eqb_spec k0 k) as [->|Hne]; apply IH; congruence.
  - destruct (find _ (sl_items s)) as [[k0 v0]|] eqn:E; inversion Es; subst s1; [|apply IH; exact Hv].
    rewrite refresh_get in Hv. destruct (Z.eqb_spec k0 k) as [->|Hne]; apply IH; [|exact Hv].
    apply find_some in E. destruct E as [Hin _]. rewrite <- Hv. now apply in_m_get.
Qed.

Lemma lmodel_run_snoc capacity ops o : 0 < capacity ->
  exists l outs, lmodel_run capacity (ops ++ [o]) = Ok (l, outs) /\
    last outs LUnit = snd (sl_step (fst (sl_run (sl_new capacity) ops)) o) /\
    LR l (fst (sl_step (fst (sl_run (sl_new capacity) ops)) o)).
Proof.
  intros Hp. destruct (lru_refines_spec capacity (ops ++ [o]) Hp) as (l & E & Hr).
  rewrite sl_run_app in E, Hr. cbn [sl_run fst snd] in E, Hr.
  destruct (sl_step (fst (sl_run (sl_new capacity) ops)) o) as [s1 r]. cbn [fst snd] in *.
  exists l. eexists. split; [exact E|]. split; [apply last_last | exact Hr].
Qed.

(* Get returns the value of the last Put of that key *)
Theorem lru_get_last_put capacity ops k : 0 < capacity ->
  exists l outs, lmodel_run capacity (ops ++ [LGet k]) = Ok (l, outs) /\
    forall v, last outs LUnit = LVal (Some v) -> last_put ops k = Some v.
Proof.
  intros Hp. destruct (lmodel_run_snoc capacity ops (LGet k) Hp) as (l & outs & E & Hl & _).
  exists l, outs. split; auto. intros v Hv. rewrite Hl in Hv. cbn [sl_step] in Hv.
  destruct (m_get k (sl_items (fst (sl_run (sl_new capacity) ops)))) as [v0|] eqn:G; cbn [snd] in Hv; [|discriminate].
  injection Hv as ->. eapply last_put_inv; eauto.
Qed.

(* Put of a new key into a full cache evicts exactly the least recently used
   key: order[0], where Get hits, Find hits and Puts move a key to the end *)
Theorem lru_put_full_evicts_lru l s k v : LR l s ->
  m_get k (cmap l) = None -> Z.of_nat (length (cmap l)) = cap l ->
  exists o0 rest l', order l = o0 :: rest /\ lru_put l k v = Ok l' /\
    order l' = rest ++ [k] /\
    m_get o0 (cmap l') = None /\ m_get k (cmap l') = Some v /\
    (forall k', k' <> o0 -> k' <> k -> m_get k' (cmap l') = m_get k' (cmap l)) /\
    Z.of_nat (length (cmap l')) = cap l'.
Proof.
  intros Hr Hnew Hfull. pose proof Hr as [Hc Hp Ho Hm Hl Hni Hnc Hs].
  destruct (lstep_refines l s (LPut k v) Hr) as (l' & E & Hr').
  cbn [lstep sl_step] in E, Hr'. rewrite <- Hm, Hnew, <- Hl, Hc, Hfull, Z.eqb_refl in Hr'. cbn [fst] in Hr'.
  destruct (lru_put l k v) as [l''| |] eqn:Ep; cbn [bind] in E; try discriminate.
  injection E as ->.
  destruct (sl_items s) as [|[o0 v0] titems] eqn:Ei; [cbn [length] in Hl; lia|].
  cbn [map fst] in Ho, Hni. inversion Hni as [|? ? Hn0 Hnt]; subst.
  assert (Hk0 : o0 <> k).
  { intros ->. rewrite Hm in Hnew. cbn [m_get] in Hnew. rewrite Z.eqb_refl in Hnew. discriminate. }
  assert (Hkt : ~ In k (map fst titems)).
  { rewrite Hm in Hnew. cbn [m_get] in Hnew. destruct (Z.eqb_spec o0 k); [congruence|]. now apply m_get_none. }
  exists o0, (map fst titems), l'. split; auto. split; auto.
  pose proof Hr' as [Hc' Hp' Ho' Hm' Hl' _ _ _]. cbn [tl] in *.
  split; [|split; [|split; [|split]]].
  - rewrite Ho'. cbn [sl_refresh sl_items]. now rewrite m_remove_notin, map_app by auto.
  - rewrite Hm', refresh_get. destruct (Z.eqb_spec k o0); [congruence|]. now apply m_get_none.
  - now rewrite Hm', refresh_get, Z.eqb_refl.
  - intros k' H1 H2. rewrite Hm', refresh_get, Hm. cbn [sl_items m_get].
    destruct (Z.eqb_spec k k'), (Z.eqb_spec o0 k'); congruence.
  - rewrite Hl', <- Hc'. cbn [sl_refresh sl_items sl_cap].
    rewrite m_remove_notin, app_length by auto. cbn [length] in *. lia.
Qed.

(* Find picks the first key of the recency order (least recently used first)
   that is among the candidates, and makes it the most recent; on any state *)
Theorem lru_find_picks_least_recent_candidate l ks :
  match snd (lru_find l ks) with
  | Some k =>
    In k ks /\
    (exists pre post, order l = pre ++ k :: post /\ (forall x, In x pre -> ~ In x ks)) /\
    order (fst (lru_find l ks)) = remove_first k (order l) ++ [k] /\
    cmap (fst (lru_find l ks)) = cmap l
  | None => (forall x, In x (order l) -> ~ In x ks) /\ fst (lru_find l ks) = l
  end.
Proof.
  unfold lru_find. destruct (find (contains ks) (order l)) as [k|] eqn:E; cbn [fst snd].
  - destruct (find_split _ _ _ E) as (pre & post & Eo & Hpre & Hk).
    split; [now apply contains_spec|]. split; [|split; reflexivity].
    exists pre, post. split; auto. intros x Hx Hin. rewrite Forall_forall in Hpre.
    specialize (Hpre _ Hx). apply contains_spec in Hin. congruence.
  - split; auto. intros x Hx Hin. eapply find_none in E; eauto. apply contains_spec in Hin. congruence.
Qed.

(* reachable states: key set of the map = keys of the order, no repeats, size <= capacity *)
Theorem lru_size_le_capacity capacity ops : 0 < capacity ->
  exists l outs, lmodel_run capacity ops = Ok (l, outs) /\
    Z.of_nat (length (cmap l)) <= cap l /\ cap l = capacity /\
    NoDup (order l) /\ NoDup (map fst (cmap l)) /\
    (forall k, In k (order l) <-> In k (map fst (cmap l))).
Proof.
  intros Hp. destruct (lru_refines_spec capacity ops Hp) as (l & E & Hr).
  exists l. eexists. split; [exact E|]. destruct Hr as [Hc Hpos Ho Hm Hl Hni Hnc Hs].
  rewrite Hl, Ho. repeat split; auto.
  - rewrite <- Hc. apply sl_run_cap.
  - intros Hin. destruct (m_get k (cmap l)) eqn:G; [eapply m_get_in; eauto|].
    rewrite Hm in G. apply m_get_none in G. tauto.
  - intros Hin. destruct (m_get k (sl_items (fst (sl_run (sl_new capacity) ops)))) eqn:G; [eapply m_get_in; eauto|].
    rewrite <- Hm in G. apply m_get_none in G. tauto.
Qed.

Example lru_example :
  exists l, lmodel_run 2 [LPut 1 10; LPut 2 20; LGet 1; LPut 3 30; LGet 2; LFind [3; 1]; LPut 1 11; LGet 1] =
    Ok (l, [LUnit; LUnit; LVal (Some 10); LUnit; LVal None; LKey (Some 1); LUnit; LVal (Some 11)]) /\
    order l = [3; 1].
Proof. eexists. split; vm_compute; reflexivity. Qed.
