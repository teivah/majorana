(* Proofs of C15 about Comp/Tx.v (model of the speculative register state of
   risc/app.go and of registerRead), for ALL histories (induction over the
   operation list, no bound on its length).

   Both tables keep writes in ARRIVAL order:
     Transaction map entry of r  =  last arrival of r              (mrun_inv)
     view of transactionRAT at r =  last 10 arrivals of r          (rrun_inv)
   "youngest" in the property is by TAG.  Under the usage contract
   tags_increasing (writes to one register arrive in increasing tag order)
   last arrival = youngest; without it the committed value is the last arrival
   (m_commit_last_arrival_refuted, r_commit_last_arrival_refuted).  Rollback and
   tagged reads additionally need
   within_slots (1 for the map, 10 for the ring); what is lost beyond is shown
   by the *_refuted witnesses.  Nothing observable depends on the hints that
   stand for Go's map iteration order (m_order_independent, r_order_independent). *)
From Coq Require Import ZArith List Bool Arith Lia.
From Maj Require Import Base.Outcome Comp.Rat Comp.Tx Comp.TxSpec Comp.RatProofs.
Import ListNotations.
Open Scope Z_scope.

Lemma fold_left_ext {A B} (f g : A -> B -> A) l : (forall a b, f a b = g a b) ->
  forall a, fold_left f l a = fold_left g l a.
Proof. intros H. induction l as [|x t IH]; intros a; cbn; [reflexivity|]. rewrite H. apply IH. Qed.

Section HistFacts.
  Context {op : Type}.
  Variable kind : op -> okind.

  Lemma pend_from_snoc p h o : pend_from kind p (h ++ [o]) = pstep kind (pend_from kind p h) o.
  Proof. unfold pend_from. rewrite fold_left_app. reflexivity. Qed.

  Lemma pend_snoc h o : pend kind (h ++ [o]) = pstep kind (pend kind h) o.
  Proof. apply pend_from_snoc. Qed.

  Lemma hist_ok_snoc chk h o : forall p,
    hist_ok kind chk p (h ++ [o]) =
    hist_ok kind chk p h &&
    match kind o with KWrite r _ s => chk (pend_from kind p h r) s | _ => true end.
  Proof.
    induction h as [|x t IH]; intros p; cbn [app hist_ok].
    - rewrite andb_true_r. reflexivity.
    - rewrite IH, andb_assoc. reflexivity.
  Qed.

  Lemma hist_ok_prefix chk h h' : forall p,
    hist_ok kind chk p (h ++ h') = true -> hist_ok kind chk p h = true.
  Proof.
    induction h as [|x t IH]; intros p; cbn [app hist_ok]; [reflexivity|].
    rewrite !andb_true_iff. intros [H1 H2]. split; [exact H1|]. eapply IH. exact H2.
  Qed.

  (* arrival in tag order: the uncommitted writes of each register are sorted *)
  Lemma tags_increasing_desc h : tags_increasing kind h = true -> forall r, desc (pend kind h r).
  Proof.
    unfold tags_increasing. induction h as [|o h IH] using rev_ind; intros H r; [exact I|].
    rewrite hist_ok_snoc, andb_true_iff in H. destruct H as [H1 H2].
    rewrite pend_snoc. unfold pstep. fold (pend kind h) in H2.
    destruct (kind o) as [r0 v s| |].
    - destruct (Z.eqb_spec r r0) as [_|_]; [|apply IH; exact H1].
      cbn [desc]. split; [|apply IH; exact H1].
      rewrite forallb_forall in H2. apply Forall_forall. intros u Hu.
      apply H2 in Hu. cbn [fst]. lia.
    - exact I.
    - apply IH. exact H1.
  Qed.

  Lemma within_slots_length n h : within_slots kind n h = true ->
    forall r, (length (pend kind h r) <= n)%nat.
  Proof.
    unfold within_slots. induction h as [|o h IH] using rev_ind; intros H r; [cbn; lia|].
    rewrite hist_ok_snoc, andb_true_iff in H. destruct H as [H1 H2].
    rewrite pend_snoc. unfold pstep. fold (pend kind h) in H2.
    destruct (kind o) as [r0 v s| |].
    - destruct (Z.eqb_spec r r0) as [_|_]; [|apply IH; exact H1].
      cbn [length]. apply Nat.ltb_lt in H2. lia.
    - cbn. lia.
    - apply IH. exact H1.
  Qed.
End HistFacts.

Lemma youngest_In P l u : youngest P l = Some u -> In u l /\ P (fst u) = true.
Proof.
  revert u. induction l as [|a t IH]; intros u; cbn [youngest]; [discriminate|].
  destruct (P (fst a)) eqn:Ea.
  - destruct (youngest P t) as [u'|] eqn:Ey.
    + destruct (fst u' <=? fst a); intros [= <-].
      * split; [left; reflexivity|exact Ea].
      * destruct (IH _ eq_refl) as [Hi Hp]. split; [right; exact Hi|exact Hp].
    + intros [= <-]. split; [left; reflexivity|exact Ea].
  - intros H. destruct (IH _ H) as [Hi Hp]. split; [right; exact Hi|exact Hp].
Qed.

(* the youngest is youngest: no qualifying write has a greater tag *)
Lemma youngest_max P l u : youngest P l = Some u ->
  forall u', In u' l -> P (fst u') = true -> fst u' <= fst u.
Proof.
  revert u. induction l as [|a t IH]; intros u; cbn [youngest]; [discriminate|].
  destruct (P (fst a)) eqn:Ea.
  - destruct (youngest P t) as [u0|] eqn:Ey.
    + destruct (Z.leb_spec (fst u0) (fst a)); intros [= <-]; intros u' [->|Hin] Hp; try lia.
      * specialize (IH _ eq_refl _ Hin Hp). lia.
      * apply (IH _ eq_refl _ Hin Hp).
    + intros [= <-] u' [->|Hin] Hp; [lia|].
      exfalso. clear IH. induction t as [|b t IHt]; [destruct Hin|].
      cbn [youngest] in Ey. destruct Hin as [->|Hin].
      * rewrite Hp in Ey. destruct (youngest P t) as [x|]; [destruct (fst x <=? fst u')|]; discriminate.
      * destruct (P (fst b)); [destruct (youngest P t) as [x|]; [destruct (fst x <=? fst b)|]; discriminate|].
        apply IHt; assumption.
  - intros H u' [->|Hin] Hp; [congruence|]. apply (IH _ H _ Hin Hp).
Qed.

Lemma youngest_none P l : youngest P l = None -> forall u, In u l -> P (fst u) = false.
Proof.
  induction l as [|a t IH]; cbn [youngest]; intros H u []; subst.
  - destruct (P (fst u)); [|reflexivity].
    destruct (youngest P t) as [x|]; [destruct (fst x <=? fst u)|]; discriminate.
  - destruct (P (fst a)); [destruct (youngest P t) as [x|]; [destruct (fst x <=? fst a)|]; discriminate|].
    apply IH; assumption.
Qed.

(* on a list that arrived in tag order the youngest is the first (newest) qualifying arrival *)
Lemma youngest_desc P l : desc l -> youngest P l = find (fun u => P (fst u)) l.
Proof.
  induction l as [|a t IH]; cbn [youngest find desc]; [reflexivity|].
  intros [Hall Hd]. rewrite (IH Hd). destruct (P (fst a)); [|reflexivity].
  destruct (find (fun u => P (fst u)) t) as [u'|] eqn:Ef; [|reflexivity].
  apply find_some in Ef. destruct Ef as [Hin _].
  rewrite Forall_forall in Hall. specialize (Hall _ Hin).
  destruct (Z.leb_spec (fst u') (fst a)); [reflexivity|lia].
Qed.

Lemma youngest_all_hd l : desc l -> youngest all_tags l = hd_error l.
Proof. intros H. rewrite (youngest_desc _ _ H). destruct l; reflexivity. Qed.

Lemma commit_regs hint c r :
  aget r (regs (commit hint c)) =
  match aget r (trans c) with Some u => Some (snd u) | None => aget r (regs c) end.
Proof.
  unfold commit. cbn [regs].
  rewrite (fold_keyed_get _ (fun k => match aget k (trans c) with Some u => Some (snd u) | None => None end)).
  - rewrite memZ_iter_order, memZ_akeys. destruct (aget r (trans c)); reflexivity.
  - intros m k r0. destruct (aget k (trans c)) as [u|].
    + apply aget_aset.
    + destruct (r0 =? k); reflexivity.
Qed.

Lemma rollback_regs hint s c r :
  aget r (regs (rollback hint s c)) =
  match aget r (trans c) with
  | Some u => if fst u <? s then Some (snd u) else aget r (regs c)
  | None => aget r (regs c)
  end.
Proof.
  unfold rollback. cbn [regs].
  rewrite (fold_keyed_get _ (fun k => match aget k (trans c) with
                                      | Some u => if fst u <? s then Some (snd u) else None
                                      | None => None end)).
  - rewrite memZ_iter_order, memZ_akeys. destruct (aget r (trans c)) as [u|]; [|reflexivity].
    destruct (fst u <? s); reflexivity.
  - intros m k r0. destruct (aget k (trans c)) as [u|].
    + destruct (fst u <? s); [apply aget_aset|destruct (r0 =? k); reflexivity].
    + destruct (r0 =? k); reflexivity.
Qed.

Lemma write_all_read {A} (f : A -> Z) vals hint t :
  rat_ok t ->
  rat_ok (write_all f vals hint t) /\
  forall r, rat_read 0 (write_all f vals hint t) r =
            match aget r vals with Some a => Some (f a) | None => rat_read 0 t r end.
Proof.
  intros Hok. destruct (fold_rat_write_read 0 f vals (iter_order hint (akeys vals)) t Hok) as [H1 H2].
  split; [exact H1|]. intros r. unfold write_all. unfold wfold in H2. rewrite H2.
  rewrite memZ_iter_order, memZ_akeys. destruct (aget r vals); reflexivity.
Qed.

Lemma rat_flush_regs hint c r :
  aget r (regs (rat_flush hint c)) =
  match rat_read 0 (crat c) r with Some v => Some v | None => aget r (regs c) end.
Proof.
  unfold rat_flush. cbn [regs].
  rewrite (fold_keyed_get _ (fun k => aget k (rat_values 0 (crat c)))).
  - rewrite memZ_iter_order, memZ_akeys, aget_rat_values. destruct (rat_read 0 (crat c) r); reflexivity.
  - intros m k r0. destruct (aget k (rat_values 0 (crat c))) as [v|].
    + apply aget_aset.
    + destruct (r0 =? k); reflexivity.
Qed.

(* the committed value registerRead falls back to on the RAT path *)
Definition arch (c : ctx) (r : Z) : Z :=
  match rat_read 0 (crat c) r with Some v => v | None => 0 end.
(* the value RATFlush leaves in Registers *)
Definition arch_or_reg (c : ctx) (r : Z) : Z :=
  match rat_read 0 (crat c) r with Some v => v | None => reg_get c r end.

Definition ctx_ok (c : ctx) : Prop :=
  rat_ok (crat c) /\ rat_ok (trat c) /\ r_len (trat c) = ratLength.

Lemma new_context_ok b : ctx_ok (new_context b).
Proof.
  unfold ctx_ok, new_context. cbn [crat trat].
  split; [apply rat_new_ok; unfold ratLength; lia|].
  split; [apply rat_new_ok; unfold ratLength; lia|reflexivity].
Qed.

Lemma rat_commit_read hint c r : ctx_ok c ->
  ctx_ok (rat_commit hint c) /\
  rat_read 0 (crat (rat_commit hint c)) r =
  match rat_read tu_zero (trat c) r with Some u => Some (snd u) | None => rat_read 0 (crat c) r end.
Proof.
  intros (Hc & Ht & Hl). unfold rat_commit. cbn [crat trat].
  destruct (write_all_read (fun u : tu => snd u) (rat_values tu_zero (trat c)) hint (crat c) Hc) as [H1 H2].
  split.
  - split; [exact H1|]. split; [apply rat_new_ok; unfold ratLength; lia|reflexivity].
  - rewrite H2, aget_rat_values. reflexivity.
Qed.

Lemma rat_rollback_read hint s c r : ctx_ok c ->
  ctx_ok (rat_rollback hint s c) /\
  rat_read 0 (crat (rat_rollback hint s c)) r =
  match rat_find tu_zero (trat c) r (tag_lt s) with Some u => Some (snd u) | None => rat_read 0 (crat c) r end.
Proof.
  intros (Hc & Ht & Hl). unfold rat_rollback. cbn [crat trat].
  destruct (write_all_read (fun u : tu => snd u) (rat_findvalues tu_zero (trat c) (tag_lt s)) hint (crat c) Hc) as [H1 H2].
  split.
  - split; [exact H1|]. split; [apply rat_new_ok; unfold ratLength; lia|reflexivity].
  - rewrite H2, aget_rat_findvalues by exact Ht. reflexivity.
Qed.

Lemma init_rat_read hint c r : ctx_ok c ->
  ctx_ok (init_rat hint c) /\
  rat_read 0 (crat (init_rat hint c)) r =
  match aget r (regs c) with Some v => Some v | None => rat_read 0 (crat c) r end.
Proof.
  intros (Hc & Ht & Hl). unfold init_rat. cbn [crat trat].
  destruct (write_all_read (fun v : Z => v) (regs c) hint (crat c) Hc) as [H1 H2].
  split; [split; [exact H1|split; assumption]|apply H2].
Qed.

(* Write never panics in a Context (all its tables have length 10) *)
Lemma rat_write_o_ctx c r v s : ctx_ok c ->
  rat_write_o tu_zero (trat c) r (s, v) = Ok (rat_write tu_zero (trat c) r (s, v)).
Proof. intros (_ & Ht & _). apply rat_write_o_ok. exact Ht. Qed.

Definition ctx0m : ctx := new_context false.

Lemma mrun_snoc h o c : mrun (h ++ [o]) c = mexec o (mrun h c).
Proof. unfold mrun. rewrite fold_left_app. reflexivity. Qed.

(* the Transaction map holds, per register, the LAST ARRIVAL among the uncommitted writes *)
Lemma mrun_inv h :
  ratflag (mrun h ctx0m) = false /\
  forall r, aget r (trans (mrun h ctx0m)) = hd_error (pend mkind h r).
Proof.
  induction h as [|o h IH] using rev_ind; [split; reflexivity|].
  destruct IH as [IHf IHt]. rewrite mrun_snoc, pend_snoc. unfold pstep.
  destruct o as [r0 v|r0 v s|r0 s fw|hint|hint s]; cbn [mexec mkind].
  - split; [exact IHf|exact IHt].
  - split; [exact IHf|]. intros r. unfold tx_write. cbn [trans]. rewrite aget_aset.
    destruct (r =? r0); [reflexivity|apply IHt].
  - split; [exact IHf|exact IHt].
  - split; [exact IHf|reflexivity].
  - split; [exact IHf|reflexivity].
Qed.

(* Commit: every register holds the value of its youngest uncommitted write, the
   others keep their value -- also beyond the one slot of the map *)
Theorem m_commit_youngest h hint r :
  tags_increasing mkind h = true ->
  reg_get (mrun (h ++ [MCommit hint]) ctx0m) r =
  value_or (youngest all_tags (pend mkind h r)) (reg_get (mrun h ctx0m) r).
Proof.
  intros Ht. rewrite mrun_snoc. cbn [mexec]. unfold reg_get. rewrite commit_regs.
  rewrite (proj2 (mrun_inv h)).
  rewrite youngest_all_hd by (apply tags_increasing_desc; exact Ht).
  destruct (pend mkind h r); reflexivity.
Qed.

(* Rollback s within the slot bound: youngest write older than s, unchanged if none *)
Theorem m_rollback_youngest_older_than_s h hint s r :
  within_slots mkind 1 h = true ->
  reg_get (mrun (h ++ [MRollback hint s]) ctx0m) r =
  value_or (youngest (older_than s) (pend mkind h r)) (reg_get (mrun h ctx0m) r).
Proof.
  intros Hw. rewrite mrun_snoc. cbn [mexec]. unfold reg_get. rewrite rollback_regs.
  rewrite (proj2 (mrun_inv h)).
  pose proof (within_slots_length mkind 1 h Hw r) as Hl.
  destruct (pend mkind h r) as [|u [|u' t]]; [reflexivity| |cbn in Hl; lia].
  cbn [hd_error youngest]. unfold older_than. destruct (fst u <? s); reflexivity.
Qed.

Theorem m_untouched_unchanged h hint s r :
  pend mkind h r = [] ->
  reg_get (mrun (h ++ [MCommit hint]) ctx0m) r = reg_get (mrun h ctx0m) r /\
  reg_get (mrun (h ++ [MRollback hint s]) ctx0m) r = reg_get (mrun h ctx0m) r.
Proof.
  intros Hp. rewrite !mrun_snoc. cbn [mexec]. unfold reg_get.
  rewrite commit_regs, rollback_regs, (proj2 (mrun_inv h)), Hp. split; reflexivity.
Qed.

(* a read on behalf of tag t never returns a value written by a younger instruction *)
Theorem m_read_never_younger h r t fw :
  t <> 0 -> r <> fst fw ->
  let v := register_read (mrun h ctx0m) fw r t in
  (exists u, In u (pend mkind h r) /\ fst u <= t /\ snd u = v) \/ v = reg_get (mrun h ctx0m) r.
Proof.
  intros Ht Hf. cbv zeta. unfold register_read.
  destruct (Z.eqb_spec r (fst fw)); [contradiction|].
  rewrite (proj1 (mrun_inv h)), (proj2 (mrun_inv h)).
  destruct (pend mkind h r) as [|u l]; cbn [hd_error]; [right; reflexivity|].
  destruct (Z.eqb_spec t 0); [contradiction|]. cbn [orb].
  destruct (Z.leb_spec (fst u) t); [|right; reflexivity].
  left. exists u. split; [left; reflexivity|]. split; [assumption|reflexivity].
Qed.

(* an untagged read returns the youngest uncommitted write, else the committed value *)
Theorem m_plain_read_youngest h r fw :
  tags_increasing mkind h = true -> r <> fst fw ->
  register_read (mrun h ctx0m) fw r 0 =
  value_or (youngest all_tags (pend mkind h r)) (reg_get (mrun h ctx0m) r).
Proof.
  intros Ht Hf. unfold register_read.
  destruct (Z.eqb_spec r (fst fw)); [contradiction|].
  rewrite (proj1 (mrun_inv h)), (proj2 (mrun_inv h)).
  rewrite youngest_all_hd by (apply tags_increasing_desc; exact Ht).
  destruct (pend mkind h r); reflexivity.
Qed.

(* the forward register takes precedence over everything *)
Lemma register_read_forward c fw s : register_read c fw (fst fw) s = snd fw.
Proof. unfold register_read. rewrite Z.eqb_refl. reflexivity. Qed.

(* what is lost beyond the slot: write t0 := 1 (tag 1), write t0 := 2 (tag 5),
   rollback 3.  The write of tag 1 is older than 3 and should survive; the map
   only kept the write of tag 5, so t0 keeps its old value 0. *)
Definition m_beyond_witness : list mop := [MTxWrite 5 1 1; MTxWrite 5 2 5].
Theorem m_rollback_beyond_slot_refuted :
  exists h s r,
    tags_increasing mkind h = true /\ within_slots mkind 1 h = false /\
    reg_get (mrun (h ++ [MRollback [] s]) ctx0m) r = 0 /\
    value_or (youngest (older_than s) (pend mkind h r)) (reg_get (mrun h ctx0m) r) = 1.
Proof. exists m_beyond_witness, 3, 5. vm_compute. repeat split. Qed.

(* arrival against tag order: write t0 := 1 (tag 9) then t0 := 2 (tag 3), commit.
   The youngest write (tag 9) has value 1; the register gets the last arrival, 2. *)
Definition m_disorder_witness : list mop := [MTxWrite 5 1 9; MTxWrite 5 2 3].
Theorem m_commit_last_arrival_refuted :
  exists h r,
    tags_increasing mkind h = false /\ within_slots mkind 2 h = true /\
    reg_get (mrun (h ++ [MCommit []]) ctx0m) r = 2 /\
    value_or (youngest all_tags (pend mkind h r)) (reg_get (mrun h ctx0m) r) = 1.
Proof. exists m_disorder_witness, 5. vm_compute. repeat split. Qed.

(* without tag order the committed value is, for every history, the last arrival *)
Theorem m_commit_last_arrival h hint r :
  reg_get (mrun (h ++ [MCommit hint]) ctx0m) r =
  value_or (hd_error (pend mkind h r)) (reg_get (mrun h ctx0m) r).
Proof.
  rewrite mrun_snoc. cbn [mexec]. unfold reg_get. rewrite commit_regs, (proj2 (mrun_inv h)).
  destruct (pend mkind h r); reflexivity.
Qed.

(* non-vacuity: a history with initial values, two registers, a rollback that
   separates, a commit; it satisfies both contracts *)
Definition m_example : list mop :=
  [MWriteReg 5 7; MWriteReg 6 9; MTxWrite 5 11 3; MTxWrite 6 12 8; MRead 5 4 (0, 0);
   MRollback [6; 5] 5; MTxWrite 6 13 9; MTxWrite 7 14 10; MCommit []].
Example m_example_ok :
  tags_increasing mkind m_example = true /\ within_slots mkind 1 m_example = true /\
  map (reg_get (mrun m_example ctx0m)) [5; 6; 7] = [11; 13; 14] /\
  map (reg_get (mrun (firstn 6 m_example) ctx0m)) [5; 6; 7] = [11; 9; 0].
Proof. vm_compute. repeat split. Qed.
(* beyond the slot, in tag order: three writes to t0, commit keeps the youngest *)
Example m_example_beyond :
  let h := [MTxWrite 5 1 1; MTxWrite 5 2 2; MTxWrite 5 3 3] in
  tags_increasing mkind h = true /\ within_slots mkind 1 h = false /\
  reg_get (mrun (h ++ [MCommit []]) ctx0m) 5 = 3.
Proof. vm_compute. repeat split. Qed.

Definition merase (o : mop) : mop :=
  match o with
  | MCommit _ => MCommit []
  | MRollback _ s => MRollback [] s
  | o => o
  end.

(* same observable context: Registers equal as maps, everything else identical *)
Definition mceq (c1 c2 : ctx) : Prop :=
  (forall r, aget r (regs c1) = aget r (regs c2)) /\
  trans c1 = trans c2 /\ crat c1 = crat c2 /\ trat c1 = trat c2 /\ ratflag c1 = ratflag c2.

Fixpoint mtrace (h : list mop) (c : ctx) : list (option Z) :=
  match h with
  | [] => []
  | o :: t => mout o c :: mtrace t (mexec o c)
  end.

Lemma register_read_mceq c1 c2 fw r s : mceq c1 c2 -> register_read c1 fw r s = register_read c2 fw r s.
Proof.
  intros (Hr & Ht & Hc & Hta & Hf). unfold register_read, reg_get.
  rewrite Ht, Hc, Hta, Hf, Hr. reflexivity.
Qed.

Lemma mstep_independent o1 o2 c1 c2 :
  merase o1 = merase o2 -> mceq c1 c2 ->
  mout o1 c1 = mout o2 c2 /\ mceq (mexec o1 c1) (mexec o2 c2).
Proof.
  intros He Hc. pose proof Hc as (Hr & Ht & Hcr & Hta & Hf).
  destruct o1, o2; cbn [merase] in He; try discriminate; inversion He; subst; clear He; cbn [mout mexec].
  - split; [reflexivity|]. unfold write_register, mceq. cbn [regs trans crat trat ratflag].
    repeat split; try assumption. intros r'. rewrite !aget_aset, Hr. reflexivity.
  - split; [reflexivity|]. unfold tx_write, mceq. cbn [regs trans crat trat ratflag].
    repeat split; try assumption. rewrite Ht. reflexivity.
  - split; [|exact Hc]. f_equal. apply register_read_mceq. exact Hc.
  - split; [reflexivity|]. unfold mceq. split.
    + intros r'. rewrite !commit_regs, Ht, Hr. reflexivity.
    + unfold commit. cbn [trans crat trat ratflag]. repeat split; assumption.
  - split; [reflexivity|]. unfold mceq. split.
    + intros r'. rewrite !rollback_regs, Ht, Hr. reflexivity.
    + unfold rollback. cbn [trans crat trat ratflag]. repeat split; assumption.
Qed.

(* two runs that differ only in the iteration orders return the same values to every
   read and end in the same observable state *)
Theorem m_order_independent h1 : forall h2 c1 c2,
  map merase h1 = map merase h2 -> mceq c1 c2 ->
  mtrace h1 c1 = mtrace h2 c2 /\ mceq (mrun h1 c1) (mrun h2 c2).
Proof.
  induction h1 as [|o1 t1 IH]; intros [|o2 t2] c1 c2 He Hc; try discriminate.
  - split; [reflexivity|exact Hc].
  - cbn [map] in He. injection He as He1 He2.
    destruct (mstep_independent o1 o2 c1 c2 He1 Hc) as [Ho Hc'].
    destruct (IH t2 _ _ He2 Hc') as [Htr Hrun].
    cbn [mtrace]. unfold mrun in *. cbn [fold_left]. split; [rewrite Ho, Htr; reflexivity|exact Hrun].
Qed.

Definition ctx0r : ctx := new_context true.

Lemma rrun_snoc h o c : rrun (h ++ [o]) c = rexec o (rrun h c).
Proof. unfold rrun. rewrite fold_left_app. reflexivity. Qed.

Lemma rexec_ok o c : ctx_ok c -> ctx_ok (rexec o c).
Proof.
  intros Hok. destruct o as [r0 v|hint|r0 v s|r0 s fw|hint|hint s|hint]; cbn [rexec].
  - exact Hok.
  - apply (init_rat_read hint c 0 Hok).
  - destruct Hok as (Hc & Ht & Hl). unfold tx_rat_write, ctx_ok. cbn [crat trat].
    split; [exact Hc|]. split; [apply rat_write_ok; exact Ht|].
    rewrite rat_write_tab. exact Hl.
  - exact Hok.
  - apply (rat_commit_read hint c 0 Hok).
  - apply (rat_rollback_read hint s c 0 Hok).
  - exact Hok.
Qed.

(* the transaction RAT holds, per register, the LAST 10 ARRIVALS among the uncommitted writes *)
Lemma rrun_inv h :
  ctx_ok (rrun h ctx0r) /\ ratflag (rrun h ctx0r) = true /\
  forall r, rat_view (trat (rrun h ctx0r)) r = firstn 10 (pend rkind h r).
Proof.
  induction h as [|o h IH] using rev_ind.
  - split; [apply new_context_ok|]. split; reflexivity.
  - destruct IH as (Hok & Hf & Hv). rewrite rrun_snoc, pend_snoc.
    split; [apply rexec_ok; exact Hok|]. unfold pstep.
    destruct o as [r0 v|hint|r0 v s|r0 s fw|hint|hint s|hint]; cbn [rexec rkind];
      try (split; [exact Hf|exact Hv]); (split; [exact Hf|]).
    + intros r. unfold tx_rat_write. cbn [trat].
      destruct Hok as (Hc & Ht & Hl). rewrite rat_view_write by exact Ht.
      unfold nlen. rewrite Hl. change (Z.to_nat ratLength) with 10%nat.
      destruct (r =? r0); [|apply Hv]. rewrite Hv. apply firstn_cons_firstn.
    + intros r. reflexivity.
    + intros r. reflexivity.
Qed.

Lemma trat_read_hd h r :
  rat_read tu_zero (trat (rrun h ctx0r)) r = hd_error (pend rkind h r).
Proof.
  destruct (rrun_inv h) as ((Hc & Ht & Hl) & Hf & Hv).
  rewrite rat_read_view by exact Ht. rewrite Hv. apply hd_error_firstn. lia.
Qed.

Lemma trat_find h r p :
  rat_find tu_zero (trat (rrun h ctx0r)) r p = find p (firstn 10 (pend rkind h r)).
Proof.
  destruct (rrun_inv h) as ((Hc & Ht & Hl) & Hf & Hv).
  rewrite rat_find_view by exact Ht. rewrite Hv. reflexivity.
Qed.

(* the committed RAT after RATCommit / RATRollback of a history, in terms of the uncommitted writes *)
Lemma r_commit_crat h hint r :
  rat_read 0 (crat (rat_commit hint (rrun h ctx0r))) r =
  match hd_error (pend rkind h r) with
  | Some u => Some (snd u)
  | None => rat_read 0 (crat (rrun h ctx0r)) r
  end.
Proof. now rewrite (proj2 (rat_commit_read hint _ r (proj1 (rrun_inv h)))), trat_read_hd. Qed.

Lemma r_rollback_crat h hint s r :
  rat_read 0 (crat (rat_rollback hint s (rrun h ctx0r))) r =
  match find (tag_lt s) (firstn 10 (pend rkind h r)) with
  | Some u => Some (snd u)
  | None => rat_read 0 (crat (rrun h ctx0r)) r
  end.
Proof. now rewrite (proj2 (rat_rollback_read hint s _ r (proj1 (rrun_inv h)))), trat_find. Qed.

(* RATCommit: the committed value of every register is that of its youngest
   uncommitted write, the others keep theirs -- also when the ring wrapped *)
Theorem r_commit_youngest h hint r :
  tags_increasing rkind h = true ->
  arch (rrun (h ++ [RCommit hint]) ctx0r) r =
  value_or (youngest all_tags (pend rkind h r)) (arch (rrun h ctx0r) r).
Proof.
  intros Ht. rewrite rrun_snoc. cbn [rexec]. unfold arch.
  rewrite r_commit_crat.
  rewrite youngest_all_hd by (apply tags_increasing_desc; exact Ht).
  destruct (pend rkind h r); reflexivity.
Qed.

Lemma rrun_snoc2 h o1 o2 c : rrun (h ++ [o1; o2]) c = rexec o2 (rexec o1 (rrun h c)).
Proof. unfold rrun. rewrite fold_left_app. reflexivity. Qed.

(* ... and RATFlush copies it into Registers *)
Theorem r_commit_flush_youngest h hint1 hint2 r :
  tags_increasing rkind h = true ->
  reg_get (rrun (h ++ [RCommit hint1; RFlush hint2]) ctx0r) r =
  value_or (youngest all_tags (pend rkind h r)) (arch_or_reg (rrun h ctx0r) r).
Proof.
  intros Ht. rewrite rrun_snoc2. cbn [rexec]. unfold reg_get, arch_or_reg. rewrite rat_flush_regs.
  rewrite r_commit_crat.
  rewrite youngest_all_hd by (apply tags_increasing_desc; exact Ht).
  unfold rat_commit. cbn [regs]. unfold reg_get.
  destruct (pend rkind h r); [|reflexivity]. cbn [hd_error value_or].
  destruct (rat_read 0 (crat (rrun h ctx0r)) r); reflexivity.
Qed.

Lemma find_tag_lt_youngest s l : desc l -> find (tag_lt s) l = youngest (older_than s) l.
Proof. intros H. rewrite (youngest_desc _ _ H). reflexivity. Qed.

Lemma find_tag_le_youngest t l : desc l -> find (tag_le t) l = youngest (not_younger_than t) l.
Proof. intros H. rewrite (youngest_desc _ _ H). reflexivity. Qed.

(* RATRollback s within the 10 slots: youngest write older than s, unchanged if none *)
Theorem r_rollback_youngest_older_than_s h hint s r :
  tags_increasing rkind h = true -> within_slots rkind 10 h = true ->
  arch (rrun (h ++ [RRollback hint s]) ctx0r) r =
  value_or (youngest (older_than s) (pend rkind h r)) (arch (rrun h ctx0r) r).
Proof.
  intros Ht Hw. rewrite rrun_snoc. cbn [rexec]. unfold arch.
  rewrite r_rollback_crat.
  rewrite firstn_all2 by (apply within_slots_length; exact Hw).
  rewrite find_tag_lt_youngest by (apply tags_increasing_desc; exact Ht).
  destruct (youngest (older_than s) (pend rkind h r)); reflexivity.
Qed.

Theorem r_rollback_flush_youngest_older_than_s h hint1 hint2 s r :
  tags_increasing rkind h = true -> within_slots rkind 10 h = true ->
  reg_get (rrun (h ++ [RRollback hint1 s; RFlush hint2]) ctx0r) r =
  value_or (youngest (older_than s) (pend rkind h r)) (arch_or_reg (rrun h ctx0r) r).
Proof.
  intros Ht Hw. rewrite rrun_snoc2. cbn [rexec]. unfold reg_get, arch_or_reg. rewrite rat_flush_regs.
  rewrite r_rollback_crat.
  rewrite firstn_all2 by (apply within_slots_length; exact Hw).
  rewrite find_tag_lt_youngest by (apply tags_increasing_desc; exact Ht).
  unfold rat_rollback. cbn [regs]. unfold reg_get.
  destruct (youngest (older_than s) (pend rkind h r)); [reflexivity|]. cbn [value_or].
  destruct (rat_read 0 (crat (rrun h ctx0r)) r); reflexivity.
Qed.

Theorem r_untouched_unchanged h hint s r :
  pend rkind h r = [] ->
  arch (rrun (h ++ [RCommit hint]) ctx0r) r = arch (rrun h ctx0r) r /\
  arch (rrun (h ++ [RRollback hint s]) ctx0r) r = arch (rrun h ctx0r) r.
Proof.
  intros Hp. rewrite !rrun_snoc. cbn [rexec]. unfold arch.
  rewrite r_commit_crat.
  rewrite r_rollback_crat.
  rewrite Hp. split; reflexivity.
Qed.

(* a read on behalf of tag t never returns a value written by a younger instruction *)
Theorem r_read_never_younger h r t fw :
  t <> 0 -> r <> fst fw ->
  let v := register_read (rrun h ctx0r) fw r t in
  (exists u, In u (pend rkind h r) /\ fst u <= t /\ snd u = v) \/ v = arch (rrun h ctx0r) r.
Proof.
  intros Ht Hf. cbv zeta. unfold register_read.
  destruct (Z.eqb_spec r (fst fw)); [contradiction|].
  rewrite (proj1 (proj2 (rrun_inv h))).
  destruct (Z.eqb_spec t 0); [contradiction|].
  rewrite trat_find.
  destruct (find (tag_le t) (firstn 10 (pend rkind h r))) as [u|] eqn:Ef; [|right; reflexivity].
  apply find_some in Ef. destruct Ef as [Hin Hp]. left. exists u.
  split; [eapply in_firstn; exact Hin|]. split; [|reflexivity].
  unfold tag_le in Hp. apply Z.leb_le. exact Hp.
Qed.

(* an untagged read returns the youngest uncommitted write, else the committed value *)
Theorem r_plain_read_youngest h r fw :
  tags_increasing rkind h = true -> r <> fst fw ->
  register_read (rrun h ctx0r) fw r 0 =
  value_or (youngest all_tags (pend rkind h r)) (arch (rrun h ctx0r) r).
Proof.
  intros Ht Hf. unfold register_read.
  destruct (Z.eqb_spec r (fst fw)); [contradiction|].
  rewrite (proj1 (proj2 (rrun_inv h))). cbn [Z.eqb]. rewrite trat_read_hd.
  rewrite youngest_all_hd by (apply tags_increasing_desc; exact Ht).
  destruct (pend rkind h r); reflexivity.
Qed.

(* within the slots a tagged read returns exactly the youngest write that is not younger *)
Theorem r_read_youngest_not_younger h r t fw :
  tags_increasing rkind h = true -> within_slots rkind 10 h = true ->
  t <> 0 -> r <> fst fw ->
  register_read (rrun h ctx0r) fw r t =
  value_or (youngest (not_younger_than t) (pend rkind h r)) (arch (rrun h ctx0r) r).
Proof.
  intros Ht Hw Hn Hf. unfold register_read.
  destruct (Z.eqb_spec r (fst fw)); [contradiction|].
  rewrite (proj1 (proj2 (rrun_inv h))).
  destruct (Z.eqb_spec t 0); [contradiction|].
  rewrite trat_find.
  rewrite firstn_all2 by (apply within_slots_length; exact Hw).
  rewrite find_tag_le_youngest by (apply tags_increasing_desc; exact Ht).
  destruct (youngest (not_younger_than t) (pend rkind h r)); reflexivity.
Qed.

(* Registers and the committed RAT agree on the registers the committed RAT does not
   hold, as long as no WriteRegister follows the last InitRAT *)
Definition no_late_regwrite (h : list rop) : bool :=
  fold_left (fun b o => match o with RInit _ => true | RWriteReg _ _ => false | _ => b end) h true.

Lemma r_initialised h :
  no_late_regwrite h = true ->
  forall r, rat_read 0 (crat (rrun h ctx0r)) r = None -> reg_get (rrun h ctx0r) r = 0.
Proof.
  induction h as [|o h IH] using rev_ind; [reflexivity|].
  unfold no_late_regwrite. rewrite fold_left_app. cbn [fold_left]. fold (no_late_regwrite h).
  rewrite rrun_snoc. pose proof (proj1 (rrun_inv h)) as Hok.
  destruct o as [r0 v|hint|r0 v s|r0 s fw|hint|hint s|hint]; cbn [rexec]; intros Hn r.
  - discriminate.
  - rewrite (proj2 (init_rat_read hint _ r Hok)). unfold init_rat, reg_get. cbn [regs].
    destruct (aget r (regs (rrun h ctx0r))); [discriminate|reflexivity].
  - apply IH. exact Hn.
  - apply IH. exact Hn.
  - rewrite (proj2 (rat_commit_read hint _ r Hok)).
    destruct (rat_read tu_zero (trat (rrun h ctx0r)) r); [discriminate|]. apply IH. exact Hn.
  - rewrite (proj2 (rat_rollback_read hint s _ r Hok)).
    destruct (rat_find tu_zero (trat (rrun h ctx0r)) r (tag_lt s)); [discriminate|]. apply IH. exact Hn.
  - unfold reg_get. rewrite rat_flush_regs. unfold rat_flush. cbn [crat]. intros Hr. rewrite Hr.
    apply (IH Hn r Hr).
Qed.

Theorem r_arch_or_reg h r :
  no_late_regwrite h = true -> arch_or_reg (rrun h ctx0r) r = arch (rrun h ctx0r) r.
Proof.
  intros Hn. unfold arch_or_reg, arch.
  destruct (rat_read 0 (crat (rrun h ctx0r)) r) eqn:E; [reflexivity|].
  apply r_initialised; assumption.
Qed.

(* for every history, whatever the arrival order: the committed value is the last arrival *)
Theorem r_commit_last_arrival h hint r :
  arch (rrun (h ++ [RCommit hint]) ctx0r) r =
  value_or (hd_error (pend rkind h r)) (arch (rrun h ctx0r) r).
Proof.
  rewrite rrun_snoc. cbn [rexec]. unfold arch.
  rewrite r_commit_crat.
  destruct (pend rkind h r); reflexivity.
Qed.

(* what IS lost beyond the 10 slots: eleven writes t0 := 100+i with tags i = 1..11,
   rollback 2.  The write of tag 1 (value 101) is older than 2 and should survive;
   the ring has overwritten it, so the committed value of t0 stays 0. *)
Definition r_beyond_witness : list rop :=
  map (fun i => RWrite 5 (100 + i) i) [1; 2; 3; 4; 5; 6; 7; 8; 9; 10; 11].
Theorem r_rollback_beyond_slots_refuted :
  exists h s r,
    tags_increasing rkind h = true /\ within_slots rkind 10 h = false /\
    arch (rrun (h ++ [RRollback [] s]) ctx0r) r = 0 /\
    reg_get (rrun (h ++ [RRollback [] s; RFlush []]) ctx0r) r = 0 /\
    value_or (youngest (older_than s) (pend rkind h r)) (arch (rrun h ctx0r) r) = 101.
Proof. exists r_beyond_witness, 2, 5. vm_compute. repeat split. Qed.

(* likewise a read on behalf of tag 1 no longer finds the write of tag 1 (it returns
   the committed value, which r_read_never_younger allows) *)
Theorem r_tagged_read_beyond_slots_refuted :
  exists h t r,
    tags_increasing rkind h = true /\ within_slots rkind 10 h = false /\
    register_read (rrun h ctx0r) (0, 0) r t = 0 /\
    value_or (youngest (not_younger_than t) (pend rkind h r)) (arch (rrun h ctx0r) r) = 101.
Proof. exists r_beyond_witness, 1, 5. vm_compute. repeat split. Qed.

(* arrival against tag order: t0 := 1 (tag 9) then t0 := 2 (tag 3); RATCommit.
   The youngest write (tag 9) has value 1; the committed value is the last arrival, 2. *)
Definition r_disorder_witness : list rop := [RWrite 5 1 9; RWrite 5 2 3].
Theorem r_commit_last_arrival_refuted :
  exists h r,
    tags_increasing rkind h = false /\ within_slots rkind 10 h = true /\
    arch (rrun (h ++ [RCommit []]) ctx0r) r = 2 /\
    reg_get (rrun (h ++ [RCommit []; RFlush []]) ctx0r) r = 2 /\
    value_or (youngest all_tags (pend rkind h r)) (arch (rrun h ctx0r) r) = 1.
Proof. exists r_disorder_witness, 5. vm_compute. repeat split. Qed.

(* and a rollback picks the newest ARRIVAL older than s, not the youngest:
   t0 := 1 (tag 4), t0 := 2 (tag 2), t0 := 3 (tag 9); RATRollback 5 commits 2, not 1 *)
Theorem r_rollback_arrival_order_refuted :
  exists h s r,
    tags_increasing rkind h = false /\ within_slots rkind 10 h = true /\
    arch (rrun (h ++ [RRollback [] s]) ctx0r) r = 2 /\
    value_or (youngest (older_than s) (pend rkind h r)) (arch (rrun h ctx0r) r) = 1.
Proof. exists [RWrite 5 1 4; RWrite 5 2 2; RWrite 5 3 9], 5, 5. vm_compute. repeat split. Qed.

Definition r_example : list rop :=
  [RWriteReg 5 7; RWriteReg 6 9; RInit [6; 5]; RWrite 5 11 3; RWrite 6 12 8; RWrite 5 15 9;
   RRead 5 4 (0, 0); RRollback [6; 5] 5; RFlush []; RWrite 6 13 9; RWrite 7 14 10; RCommit [7]; RFlush [5]].
Example r_example_ok :
  tags_increasing rkind r_example = true /\ within_slots rkind 10 r_example = true /\
  no_late_regwrite r_example = true /\
  map (reg_get (rrun r_example ctx0r)) [5; 6; 7] = [11; 13; 14] /\
  map (reg_get (rrun (firstn 9 r_example) ctx0r)) [5; 6; 7] = [11; 9; 0] /\
  rout (RRead 5 4 (0, 0)) (rrun (firstn 6 r_example) ctx0r) = Some 11 /\
  rout (RRead 5 0 (0, 0)) (rrun (firstn 6 r_example) ctx0r) = Some 15 /\
  rout (RRead 5 2 (0, 0)) (rrun (firstn 6 r_example) ctx0r) = Some 7.
Proof. vm_compute. repeat split. Qed.
(* beyond the slots, in tag order: twelve writes, commit keeps the youngest *)
Example r_example_beyond :
  let h := r_beyond_witness ++ [RWrite 5 112 12] in
  tags_increasing rkind h = true /\ within_slots rkind 10 h = false /\
  arch (rrun (h ++ [RCommit []]) ctx0r) 5 = 112 /\ register_read (rrun h ctx0r) (0, 0) 5 0 = 112.
Proof. vm_compute. repeat split. Qed.

Definition rerase (o : rop) : rop :=
  match o with
  | RInit _ => RInit []
  | RCommit _ => RCommit []
  | RRollback _ s => RRollback [] s
  | RFlush _ => RFlush []
  | o => o
  end.

(* same observable context: Registers and the committed RAT's current values equal as
   maps, everything else identical *)
Definition rceq (c1 c2 : ctx) : Prop :=
  (forall r, aget r (regs c1) = aget r (regs c2)) /\
  trans c1 = trans c2 /\
  (forall r, rat_read 0 (crat c1) r = rat_read 0 (crat c2) r) /\
  trat c1 = trat c2 /\ ratflag c1 = ratflag c2 /\ ctx_ok c1 /\ ctx_ok c2.

Fixpoint rtrace (h : list rop) (c : ctx) : list (option Z) :=
  match h with
  | [] => []
  | o :: t => rout o c :: rtrace t (rexec o c)
  end.

Lemma register_read_rceq c1 c2 fw r s : rceq c1 c2 -> register_read c1 fw r s = register_read c2 fw r s.
Proof.
  intros (Hr & Ht & Hc & Hta & Hf & _). unfold register_read, reg_get.
  rewrite Ht, Hc, Hta, Hf, Hr. reflexivity.
Qed.

Lemma rceq_intro c1 c2 :
  (forall r, aget r (regs c1) = aget r (regs c2)) -> trans c1 = trans c2 ->
  (forall r, rat_read 0 (crat c1) r = rat_read 0 (crat c2) r) ->
  trat c1 = trat c2 -> ratflag c1 = ratflag c2 -> ctx_ok c1 -> ctx_ok c2 -> rceq c1 c2.
Proof. unfold rceq. tauto. Qed.

Ltac simple_field :=
  solve [ unfold write_register, init_rat, tx_rat_write, rat_commit, rat_rollback, rat_flush;
          cbn [regs trans crat trat ratflag]; first [assumption | reflexivity | congruence] ].

Lemma rstep_independent o1 o2 c1 c2 :
  rerase o1 = rerase o2 -> rceq c1 c2 ->
  rout o1 c1 = rout o2 c2 /\ rceq (rexec o1 c1) (rexec o2 c2).
Proof.
  intros He Hc. pose proof Hc as (Hr & Ht & Hcr & Hta & Hf & Hok1 & Hok2).
  assert (Hk1 := rexec_ok o1 c1 Hok1). assert (Hk2 := rexec_ok o2 c2 Hok2).
  destruct o1, o2; cbn [rerase] in He; try discriminate; inversion He; subst; clear He;
    cbn [rout rexec] in *;
    (split; [try reflexivity|apply rceq_intro; [| | | | |exact Hk1|exact Hk2]]);
    try simple_field.
  - intros r'. unfold write_register. cbn [regs]. rewrite !aget_aset, Hr. reflexivity.
  - intros r'. rewrite (proj2 (init_rat_read _ _ r' Hok1)), (proj2 (init_rat_read _ _ r' Hok2)), Hr, Hcr. reflexivity.
  - f_equal. apply register_read_rceq. exact Hc.
  - intros r'. rewrite (proj2 (rat_commit_read _ _ r' Hok1)), (proj2 (rat_commit_read _ _ r' Hok2)), Hta, Hcr. reflexivity.
  - intros r'. rewrite (proj2 (rat_rollback_read _ _ _ r' Hok1)), (proj2 (rat_rollback_read _ _ _ r' Hok2)), Hta, Hcr. reflexivity.
  - intros r'. rewrite !rat_flush_regs, Hcr, Hr. reflexivity.
Qed.

Theorem r_order_independent h1 : forall h2 c1 c2,
  map rerase h1 = map rerase h2 -> rceq c1 c2 ->
  rtrace h1 c1 = rtrace h2 c2 /\ rceq (rrun h1 c1) (rrun h2 c2).
Proof.
  induction h1 as [|o1 t1 IH]; intros [|o2 t2] c1 c2 He Hc; try discriminate.
  - split; [reflexivity|exact Hc].
  - cbn [map] in He. injection He as He1 He2.
    destruct (rstep_independent o1 o2 c1 c2 He1 Hc) as [Ho Hc'].
    destruct (IH t2 _ _ He2 Hc') as [Htr Hrun].
    cbn [rtrace]. unfold rrun in *. cbn [fold_left]. split; [rewrite Ho, Htr; reflexivity|exact Hrun].
Qed.

Lemma rceq_refl c : ctx_ok c -> rceq c c.
Proof. intros H. apply rceq_intro; try reflexivity; exact H. Qed.
Lemma mceq_refl c : mceq c c.
Proof. unfold mceq. repeat split; reflexivity. Qed.
