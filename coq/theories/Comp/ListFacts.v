(* Facts about lists that several component proofs share. *)
From Coq Require Import List Bool Arith Lia.
Import ListNotations.

Lemma in_firstn {A} n (l : list A) x : In x (firstn n l) -> In x l.
Proof. intros H. rewrite <- (firstn_skipn n l). apply in_or_app. now left. Qed.

Lemma firstn_app_exact {A} (l1 l2 : list A) n : length l1 = n -> firstn n (l1 ++ l2) = l1.
Proof. intros <-. rewrite firstn_app, firstn_all, PeanoNat.Nat.sub_diag. cbn. apply app_nil_r. Qed.

Lemma filter_true {A} (p : A -> bool) l : (forall x, In x l -> p x = true) -> filter p l = l.
Proof.
  induction l as [|x t IH]; cbn; intros H; [reflexivity|].
  rewrite (H x) by (left; reflexivity). f_equal. apply IH. intros y Hy. apply H. right. exact Hy.
Qed.

Lemma filter_false {A} (p : A -> bool) l : (forall x, In x l -> p x = false) -> filter p l = [].
Proof.
  induction l as [|x t IH]; cbn; intros H; [reflexivity|].
  rewrite (H x) by (left; reflexivity). apply IH. intros y Hy. apply H. right. exact Hy.
Qed.

Lemma NoDup_snoc {A} (l : list A) x : NoDup l -> ~ In x l -> NoDup (l ++ [x]).
Proof.
  induction l as [|y t IH]; cbn; intros Hnd Hni.
  - constructor; [intros []|constructor].
  - inversion Hnd; subst. constructor.
    + rewrite in_app_iff. cbn. intros [H|[H|[]]]; [contradiction|]. subst. apply Hni. left. reflexivity.
    + apply IH; [assumption|]. intros H. apply Hni. right. exact H.
Qed.

Lemma NoDup_app_not_both {A} (l1 l2 : list A) x : NoDup (l1 ++ l2) -> In x l1 -> In x l2 -> False.
Proof.
  induction l1 as [|y l1 IH]; cbn; [tauto|]. intros N H1 H2. inversion N as [|? ? Hy N']; subst.
  destruct H1 as [->|H1]; [|eauto]. apply Hy, in_or_app. now right.
Qed.

(* elements told apart by a key that is not repeated *)
Lemma NoDup_map_inj {A B} (f : A -> B) l : NoDup (map f l) ->
  forall x y, In x l -> In y l -> f x = f y -> x = y.
Proof.
  induction l as [|z l IH]; cbn; intros N x y Hx Hy E; [tauto|]. inversion N as [|? ? Hz N']; subst.
  destruct Hx as [->|Hx], Hy as [->|Hy]; auto; exfalso; apply Hz;
    [rewrite E | rewrite <- E]; now apply in_map.
Qed.

Lemma in_mid {A} (pre : list A) x post : In x (pre ++ x :: post).
Proof. apply in_or_app. simpl. tauto. Qed.

Lemma incl_mid {A} (pre : list A) x post : incl (pre ++ post) (pre ++ x :: post).
Proof. intros y Hy. apply in_app_or in Hy. apply in_or_app. simpl. tauto. Qed.

Lemma NoDup_mid_notin {A} (pre : list A) x post :
  NoDup (pre ++ x :: post) -> ~ In x pre /\ ~ In x post /\ NoDup (pre ++ post).
Proof.
  intros H. pose proof (NoDup_remove_2 _ _ _ H) as H2. pose proof (NoDup_remove_1 _ _ _ H) as H1.
  repeat split; auto; intros Hi; apply H2; apply in_or_app; auto.
Qed.

Lemma find_app {A} (p : A -> bool) l1 l2 :
  find p (l1 ++ l2) = match find p l1 with Some v => Some v | None => find p l2 end.
Proof. induction l1 as [|x t IH]; cbn; [reflexivity|]. destruct (p x); [reflexivity|exact IH]. Qed.

Lemma find_split {A} (P : A -> bool) l x : find P l = Some x ->
  exists pre post, l = pre ++ x :: post /\ Forall (fun y => P y = false) pre /\ P x = true.
Proof.
  induction l as [|y l IH]; simpl; [discriminate|]. destruct (P y) eqn:E.
  - intros H. inversion H; subst. exists [], l. repeat split; auto.
  - intros H. destruct (IH H) as (pre & post & -> & Hp & Hx). exists (y :: pre), post.
    repeat split; auto.
Qed.

Lemma find_map_fst {K B} (P : K -> bool) (l : list (K * B)) :
  find P (map fst l) = match find (fun kv => P (fst kv)) l with Some kv => Some (fst kv) | None => None end.
Proof. induction l as [|[k v] l IH]; simpl; auto. destruct (P k); auto. Qed.

Lemma filter_filter {A} (f g : A -> bool) l :
  filter f (filter g l) = filter (fun x => g x && f x) l.
Proof.
  induction l as [|x l IH]; simpl; [reflexivity|].
  destruct (g x); simpl; [destruct (f x); rewrite IH; reflexivity | exact IH].
Qed.

Lemma hd_error_firstn {A} n (l : list A) : (1 <= n)%nat -> hd_error (firstn n l) = hd_error l.
Proof. intros H. destruct n; [lia|]. destruct l; reflexivity. Qed.

Lemma nth_error_firstn {A} (l : list A) : forall n i, (i < n)%nat -> nth_error (firstn n l) i = nth_error l i.
Proof.
  induction l as [|x l IH]; intros [|n] [|i] H; try reflexivity; try lia. cbn. apply IH. lia.
Qed.

Lemma skipn_nth {A} (l : list A) i d : (i < length l)%nat -> skipn i l = nth i l d :: skipn (S i) l.
Proof.
  revert i. induction l as [|x t IH]; intros i H; cbn in H; [lia|].
  destruct i; [reflexivity|]. cbn [skipn nth]. rewrite IH by lia. reflexivity.
Qed.

Lemma firstn_S_nth {A} (l : list A) d : forall i, (i < length l)%nat ->
  firstn (S i) l = firstn i l ++ [nth i l d].
Proof.
  induction l as [|x t IH]; intros i H; cbn in H; [lia|].
  destruct i; [reflexivity|]. cbn [firstn nth app]. rewrite <- IH by lia. reflexivity.
Qed.

Lemma map_nth_seq {A} (l : list A) d k : forall a, (a + k <= length l)%nat ->
  map (fun i => nth i l d) (seq a k) = firstn k (skipn a l).
Proof.
  induction k as [|k IH]; intros a H; [reflexivity|].
  cbn [seq map]. rewrite (skipn_nth l a d) by lia. cbn [firstn]. f_equal.
  rewrite IH by lia. reflexivity.
Qed.

Lemma firstn_cons_firstn {A} n (x : A) l : firstn n (x :: firstn n l) = firstn n (x :: l).
Proof.
  destruct n; [reflexivity|]. rewrite !firstn_cons. f_equal.
  rewrite firstn_firstn. f_equal. lia.
Qed.

Lemma NoDup_app_l {A} (l1 l2 : list A) : NoDup (l1 ++ l2) -> NoDup l1.
Proof.
  induction l1 as [|x l1 IH]; simpl; intros N; [constructor|].
  inversion N; subst. constructor; auto. intros Hin. apply H1. apply in_or_app. auto.
Qed.

Lemma NoDup_app_r {A} (l1 l2 : list A) : NoDup (l1 ++ l2) -> NoDup l2.
Proof. induction l1 as [|x l1 IH]; simpl; intros N; [exact N|]. inversion N; auto. Qed.

Lemma NoDup_app_disj {A} (l1 l2 : list A) :
  NoDup l1 -> NoDup l2 -> (forall x, In x l1 -> ~ In x l2) -> NoDup (l1 ++ l2).
Proof.
  intros H1 H2 Hd. induction H1 as [|x t Hni Hnd IH]; cbn; [exact H2|].
  constructor.
  - rewrite in_app_iff. intros [H|H]; [contradiction|]. apply (Hd x); [left; reflexivity|exact H].
  - apply IH. intros y Hy. apply Hd. right. exact Hy.
Qed.

Lemma NoDup_map_filter {A B} (f : A -> B) (p : A -> bool) l : NoDup (map f l) -> NoDup (map f (filter p l)).
Proof.
  induction l as [|x t IH]; intros N; [constructor|]. cbn [map] in N. inversion N as [|? ? N1 N2]; subst.
  cbn [filter]. destruct (p x); [|apply IH; exact N2]. cbn [map]. constructor; [|apply IH; exact N2].
  intros H. apply N1. apply in_map_iff in H as (y & E & Y). apply filter_In in Y as [Y _]. rewrite <- E. apply in_map. exact Y.
Qed.

Lemma Forall_firstn {A} (P : A -> Prop) n l : Forall P l -> Forall P (firstn n l).
Proof. intros H. rewrite Forall_forall in *. intros x Hx. apply H. eapply in_firstn; eauto. Qed.

Lemma last_in {A} (l : list A) d : l <> [] -> In (last l d) l.
Proof. intros Hne. destruct (exists_last Hne) as (pre & x & ->). rewrite last_last. apply in_mid. Qed.

Lemma nth_map_seq {A} (f : nat -> A) n k d : (k < n)%nat -> nth k (map f (seq 0 n)) d = f k.
Proof.
  intros Hk. rewrite (nth_indep _ d (f 0%nat)) by (rewrite map_length, seq_length; lia).
  rewrite map_nth. rewrite seq_nth by lia. reflexivity.
Qed.

Lemma forallb_seq_spec f n : forallb f (seq 0 n) = true -> forall j, (j < n)%nat -> f j = true.
Proof. rewrite forallb_forall. intros H j Hj. apply H, in_seq. lia. Qed.

Lemma flat_map_nil_all {A B} (f : A -> list B) l : (forall a, In a l -> f a = []) -> flat_map f l = [].
Proof.
  induction l as [|x t IH]; intros H; cbn [flat_map]; [reflexivity|].
  rewrite (H x (or_introl eq_refl)), IH; [reflexivity|]. intros a Ha. apply H. right. exact Ha.
Qed.

Lemma flat_map_nil_inv {A B} (f : A -> list B) l : flat_map f l = [] -> forall a, In a l -> f a = [].
Proof.
  induction l as [|x t IH]; cbn [flat_map]; intros H a []; apply app_eq_nil in H as [H1 H2];
    [subst; exact H1 | apply IH; assumption].
Qed.

Lemma filter_le1 {A} (f : A -> nat) (c : A -> bool) l : NoDup (map f l) ->
  (forall a b, In a l -> In b l -> c a = true -> c b = true -> f a = f b) -> (length (filter c l) <= 1)%nat.
Proof.
  induction l as [|x t IH]; intros Hnd Hs; cbn [filter length]; [lia|]. cbn [map] in Hnd. inversion Hnd as [|? ? Hni Hnd']; subst.
  assert (IHt : (length (filter c t) <= 1)%nat) by (apply IH; [exact Hnd'|]; intros a b Ha Hb; apply Hs; right; assumption).
  destruct (c x) eqn:Ex; [|exact IHt]. cbn [length].
  destruct (filter c t) as [|y t'] eqn:Ef; [cbn; lia|]. exfalso.
  assert (Hy : In y (filter c t)) by (rewrite Ef; left; reflexivity). apply filter_In in Hy as [Hy Hcy].
  apply Hni. rewrite (Hs x y (or_introl eq_refl) (or_intror Hy) Ex Hcy). apply in_map. exact Hy.
Qed.
