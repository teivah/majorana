(* C13: the model Comp/Cache.v of proc/comp/cache.go refines the reference
   model Comp/CacheSpec.v on every history that respects the usage contract,
   and the clauses of the property follow.  All statements are for histories
   of any length. *)
From Coq Require Import ZArith List Bool Lia Permutation.
From Maj Require Import Base.Outcome Base.GoInt Comp.Cache Comp.Lru Comp.CacheSpec Comp.MapFacts.
Import ListNotations.
Open Scope Z_scope.

Lemma wrap32_id x : i32_min <= x <= i32_max -> wrapS 32 x = x.
Proof.
  intros H. apply wrapS_id; [lia|]. unfold inS, i32_min, i32_max in *.
  change (2 ^ (32 - 1)) with 2147483648. lia.
Qed.

Lemma gtb_false a b : a <= b -> (a >? b) = false.
Proof. intros H. destruct (Z.gtb_spec a b); [lia | reflexivity]. Qed.

Lemma splice_length d i vs : length (splice d i vs) = length d.
Proof. revert d i. induction vs; intros; simpl; auto. rewrite IHvs. apply upd_length. Qed.
Lemma zlen_splice d i vs : zlen (splice d i vs) = zlen d.
Proof. unfold zlen. now rewrite splice_length. Qed.

(* reading a spliced list *)
Lemma splice_nth d i vs j : (i + length vs <= length d)%nat ->
  nth j (splice d i vs) 0 =
  if ((i <=? j) && (j <? i + length vs))%nat then nth (j - i) vs 0 else nth j d 0.
Proof.
  revert d i. induction vs as [|v t IH]; intros d i H; simpl in *.
  - replace (i + 0)%nat with i by lia.
    destruct (Nat.leb_spec i j), (Nat.ltb_spec j i); simpl; auto; lia.
  - rewrite IH by (rewrite upd_length; lia).
    destruct (Nat.eq_dec j i) as [->|Hne].
    + replace ((S i <=? i)%nat) with false by (symmetry; apply Nat.leb_gt; lia).
      replace ((i <=? i)%nat) with true by (symmetry; apply Nat.leb_le; lia).
      replace ((i <? i + S (length t))%nat) with true by (symmetry; apply Nat.ltb_lt; lia).
      simpl. rewrite Nat.sub_diag. apply nth_upd_eq. lia.
    + rewrite nth_upd_neq by lia.
      destruct (Nat.leb_spec (S i) j), (Nat.ltb_spec j (S i + length t)),
               (Nat.leb_spec i j), (Nat.ltb_spec j (i + S (length t))); simpl; try lia; auto.
      replace (j - i)%nat with (S (j - S i)) by lia. reflexivity.
Qed.

(* in a line with base b: the bytes from address a0 on are overwritten with vs *)
Lemma byte_at_splice d b a0 vs a : b <= a0 -> b <= a -> a0 - b + zlen vs <= zlen d ->
  byte_at (splice d (Z.to_nat (a0 - b)) vs) (a - b) =
  if (a0 <=? a) && (a <? a0 + zlen vs) then byte_at vs (a - a0) else byte_at d (a - b).
Proof.
  intros Hi Hj Hl. unfold byte_at, zlen in *. rewrite splice_nth by lia.
  replace (Z.to_nat (a - a0)) with (Z.to_nat (a - b) - Z.to_nat (a0 - b))%nat by lia.
  destruct (Z.leb_spec a0 a), (Z.ltb_spec a (a0 + Z.of_nat (length vs))),
           (Nat.leb_spec (Z.to_nat (a0 - b)) (Z.to_nat (a - b))),
           (Nat.ltb_spec (Z.to_nat (a - b)) (Z.to_nat (a0 - b) + length vs));
    cbn [andb]; auto; lia.
Qed.

Lemma idx_get_ok d i : 0 <= i < zlen d -> idx_get d i = Ok (byte_at d i).
Proof.
  intros H. unfold idx_get, byte_at.
  destruct (Z.leb_spec 0 i), (Z.ltb_spec i (zlen d)); simpl; try lia. reflexivity.
Qed.
Lemma idx_set_ok d i v : 0 <= i < zlen d -> idx_set d i v = Ok (upd d (Z.to_nat i) v).
Proof.
  intros H. unfold idx_set.
  destruct (Z.leb_spec 0 i), (Z.ltb_spec i (zlen d)); simpl; try lia. reflexivity.
Qed.

Definition line_ok (L : Z) (l : line) : Prop :=
  hi l = lo l + L /\ zlen (data l) = L /\ i32_min <= lo l /\ lo l + L <= i32_max.

(* pairwise disjoint ranges [b, b+L) *)
Definition sep (L : Z) (bs : list Z) : Prop :=
  forall b1 b2, In b1 bs -> In b2 bs -> b1 = b2 \/ b1 + L <= b2 \/ b2 + L <= b1.

Record Inv (c : cache) : Prop := mkInv {
  inv_L : 0 < llen c <= i32_max;
  inv_N : 0 <= nlines c;
  inv_ok : Forall (line_ok (llen c)) (lines c);     (* hi = lo + lineLength, len data = lineLength *)
  inv_nodup : NoDup (map lo (lines c));             (* no two lines with the same base *)
  inv_sep : sep (llen c) (map lo (lines c));        (* no two resident lines overlap *)
  inv_len : zlen (lines c) <= nlines c + 1          (* numberOfLines (+1 while a victim waits) *)
}.

(* contents of the line with base b *)
Definition lget (b : Z) (ls : list line) : option (list Z) :=
  match find (fun l => lo l =? b) ls with Some l => Some (data l) | None => None end.

Record R (c : cache) (s : scache) : Prop := mkR {
  r_cap : s_cap s = nlines c;
  r_len : s_len s = llen c;
  r_rec : s_rec s = map lo (lines c);
  r_map : forall b, m_get b (s_map s) = lget b (lines c)
}.

Lemma lget_cons b l ls : lget b (l :: ls) = if lo l =? b then Some (data l) else lget b ls.
Proof. unfold lget. simpl. now destruct (lo l =? b). Qed.

Lemma lget_notin b ls : ~ In b (map lo ls) -> lget b ls = None.
Proof.
  induction ls as [|l ls IH]; [reflexivity|]. simpl. intros H. rewrite lget_cons.
  destruct (Z.eqb_spec (lo l) b); [intuition|]. apply IH. intuition.
Qed.

Lemma lget_in l ls : NoDup (map lo ls) -> In l ls -> lget (lo l) ls = Some (data l).
Proof.
  induction ls as [|x ls IH]; simpl; [tauto|]. intros Hnd [->|Hin].
  - rewrite lget_cons, Z.eqb_refl. reflexivity.
  - rewrite lget_cons. inversion Hnd; subst.
    destruct (Z.eqb_spec (lo x) (lo l)).
    + exfalso. apply H1. rewrite e. now apply in_map.
    + auto.
Qed.

Lemma lget_mid b pre l post : ~ In (lo l) (map lo pre) ->
  lget b (pre ++ l :: post) = if lo l =? b then Some (data l) else lget b (pre ++ post).
Proof.
  induction pre as [|x pre IH]; simpl; intros H.
  - apply lget_cons.
  - rewrite !lget_cons. destruct (Z.eqb_spec (lo x) b).
    + destruct (Z.eqb_spec (lo l) b); [exfalso; apply H; left; congruence | reflexivity].
    + apply IH. intuition.
Qed.

Lemma line_get_ok L l a : 0 < L <= i32_max -> line_ok L l ->
  line_get l a = Ok (if covers L a (lo l) then Some (byte_at (data l) (a - lo l)) else None).
Proof.
  intros HL (Hhi & Hd & Hlo & Hmax). unfold line_get, covers. rewrite Hhi.
  destruct (Z.leb_spec (lo l) a), (Z.ltb_spec a (lo l + L)); simpl; auto.
  unfold subS. rewrite wrap32_id by (unfold i32_min, i32_max in *; lia).
  rewrite idx_get_ok by lia. reflexivity.
Qed.

Definition nocov (L a : Z) (ls : list line) : Prop :=
  Forall (fun x => covers L a (lo x) = false) ls.

(* the search loop stops at the first line covering a: the list split at that
   line, the byte found, and the list without the line *)
Lemma find_line_spec L ls a : 0 < L <= i32_max -> Forall (line_ok L) ls ->
  match find (covers L a) (map lo ls) with
  | Some b => exists pre l post, ls = pre ++ l :: post /\ lo l = b /\ nocov L a pre /\
                covers L a b = true /\
                find_line ls a = Ok (Some (byte_at (data l) (a - b), l, pre ++ post))
  | None => find_line ls a = Ok None
  end.
Proof.
  intros HL. induction 1 as [|x t Hx Ht IH]; [reflexivity|].
  cbn [map find find_line]. rewrite (line_get_ok L) by auto.
  destruct (covers L a (lo x)) eqn:E; cbn [bind].
  - exists [], x, t. repeat split; auto. constructor.
  - destruct (find (covers L a) (map lo t)) as [b|].
    + destruct IH as (pre & l & post & -> & <- & Hn & Hc & ->). cbn [bind].
      exists (x :: pre), l, post. repeat split; auto. constructor; auto.
    + rewrite IH. reflexivity.
Qed.

Lemma nocov_neq L a pre l : nocov L a pre -> covers L a (lo l) = true -> ~ In (lo l) (map lo pre).
Proof.
  intros Hn Hc Hin. apply in_map_iff in Hin. destruct Hin as (x & Hx & Hin).
  unfold nocov in Hn. rewrite Forall_forall in Hn. specialize (Hn _ Hin). congruence.
Qed.

Lemma remove_first_mid pre l post : ~ In (lo l) (map lo pre) ->
  remove_first (lo l) (map lo (pre ++ l :: post)) = map lo (pre ++ post).
Proof.
  induction pre as [|x pre IH]; simpl; intros H.
  - now rewrite Z.eqb_refl.
  - destruct (Z.eqb_spec (lo x) (lo l)); [intuition|]. f_equal. apply IH. intuition.
Qed.

Lemma sep_incl L bs bs' : sep L bs -> incl bs' bs -> sep L bs'.
Proof. intros H Hi b1 b2 H1 H2. apply H; auto. Qed.

(* uniqueness of the covering base *)
Lemma sep_cover_unique L bs a b1 b2 : 0 < L -> sep L bs -> In b1 bs -> In b2 bs ->
  covers L a b1 = true -> covers L a b2 = true -> b1 = b2.
Proof.
  intros HL Hs H1 H2 C1 C2. unfold covers in *.
  apply andb_prop in C1. apply andb_prop in C2. destruct C1 as [A1 B1], C2 as [A2 B2].
  apply Z.leb_le in A1, A2. apply Z.ltb_lt in B1, B2.
  destruct (Hs b1 b2 H1 H2) as [?|[?|?]]; auto; lia.
Qed.

(* a sub-multiset of the lines keeps the invariant *)
Lemma Inv_sub c ls' : Inv c -> incl ls' (lines c) -> NoDup (map lo ls') ->
  zlen ls' <= nlines c + 1 -> Inv (set_lines c ls').
Proof.
  intros [HL HN Hok Hnd Hsep Hlen] Hi Hnd' Hlen'. constructor; simpl; auto.
  - rewrite Forall_forall in *. auto.
  - eapply sep_incl; eauto. intros b Hb. apply in_map_iff in Hb. destruct Hb as (x & <- & Hx).
    apply in_map. auto.
Qed.

Ltac rsimpl := cbn [set_lines with_map with_rec touch s_drop s_insert s_cap s_len s_rec s_map nlines llen lines lo hi data].

Lemma s_data_in c s l : Inv c -> R c s -> In l (lines c) -> s_data s (lo l) = data l.
Proof.
  intros Hi Hr Hin. unfold s_data. rewrite (r_map _ _ Hr), lget_in; auto. apply Hi.
Qed.

Lemma s_cover_eq c s a : R c s -> s_cover s a = find (covers (llen c) a) (map lo (lines c)).
Proof. intros Hr. unfold s_cover. now rewrite (r_len _ _ Hr), (r_rec _ _ Hr). Qed.

Lemma mid_facts c pre l post : Inv c -> lines c = pre ++ l :: post ->
  ~ In (lo l) (map lo pre) /\ ~ In (lo l) (map lo (pre ++ post)) /\ NoDup (map lo (pre ++ post)) /\
  zlen (lines c) = zlen (pre ++ post) + 1.
Proof.
  intros Hi E. pose proof (inv_nodup _ Hi) as Hnd. rewrite E, map_app in Hnd. simpl in Hnd.
  destruct (NoDup_mid_notin _ _ _ Hnd) as (N1 & N2 & N3). repeat split; auto.
  - rewrite map_app. intros Hin. apply in_app_or in Hin. tauto.
  - now rewrite map_app.
  - rewrite E, !zlen_app, zlen_cons. lia.
Qed.

Lemma drop_refines c s pre l post : Inv c -> R c s -> lines c = pre ++ l :: post ->
  Inv (set_lines c (pre ++ post)) /\ R (set_lines c (pre ++ post)) (s_drop s (lo l)).
Proof.
  intros Hi Hr E. destruct (mid_facts _ _ _ _ Hi E) as (N1 & N2 & N3 & N4).
  pose proof (inv_len _ Hi). split.
  - apply Inv_sub; auto; [rewrite E; apply incl_mid | lia].
  - constructor; rsimpl; try apply Hr.
    + rewrite (r_rec _ _ Hr), E. now apply remove_first_mid.
    + intros b. rewrite m_get_remove, (r_map _ _ Hr), E, lget_mid by exact N1.
      destruct (Z.eqb_spec (lo l) b); auto. subst. symmetry. now apply lget_notin.
Qed.

Lemma touch_refines c s pre l post : Inv c -> R c s -> lines c = pre ++ l :: post ->
  Inv (set_lines c (l :: pre ++ post)) /\ R (set_lines c (l :: pre ++ post)) (touch s (lo l)).
Proof.
  intros Hi Hr E. destruct (mid_facts _ _ _ _ Hi E) as (N1 & N2 & N3 & N4).
  pose proof (inv_len _ Hi). split.
  - apply Inv_sub; auto.
    + rewrite E. intros y [->|Hy]; [apply in_or_app; simpl; tauto | now apply incl_mid].
    + simpl. constructor; auto.
    + rewrite zlen_cons. lia.
  - constructor; rsimpl; try apply Hr.
    + rewrite (r_rec _ _ Hr), E. cbn [map]. f_equal. now apply remove_first_mid.
    + intros b. rewrite (r_map _ _ Hr), E, lget_mid, lget_cons by exact N1. reflexivity.
Qed.

Lemma write_refines c s pre l post d' : Inv c -> R c s -> lines c = pre ++ l :: post ->
  zlen d' = llen c ->
  Inv (set_lines c (pre ++ mkLine (lo l) (hi l) d' :: post)) /\
  R (set_lines c (pre ++ mkLine (lo l) (hi l) d' :: post)) (with_map s (m_set (lo l) d' (s_map s))).
Proof.
  intros Hi Hr E Hd. destruct (mid_facts _ _ _ _ Hi E) as (N1 & N2 & N3 & N4).
  assert (Em : map lo (pre ++ mkLine (lo l) (hi l) d' :: post) = map lo (lines c)).
  { rewrite E, !map_app. reflexivity. }
  destruct Hi as [HL HN Hok Hnd Hsep Hlen]. split.
  - constructor; simpl; auto; try (rewrite Em; auto).
    + rewrite E in Hok. apply Forall_app in Hok. destruct Hok as [H1 H2]. inversion H2; subst.
      apply Forall_app. split; auto. constructor; auto.
      destruct H3 as (A & B & C & D). repeat split; auto.
    + rewrite E in Hlen. rewrite !zlen_app, !zlen_cons in *. lia.
  - constructor; rsimpl; try apply Hr.
    + rewrite Em. apply Hr.
    + intros b. rewrite m_get_set, (r_map _ _ Hr), E. rewrite (lget_mid b pre l post N1).
      rewrite (lget_mid b pre (mkLine (lo l) (hi l) d') post N1). cbn [lo data].
      destruct (lo l =? b); reflexivity.
Qed.

Lemma push_ok_spec s b d : push_ok s b d = true ->
  zlen d = s_len s /\ i32_min <= b /\ b + s_len s <= i32_max /\
  (forall r, In r (s_rec s) -> b + s_len s <= r \/ r + s_len s <= b) /\
  zlen (s_rec s) <= s_cap s.
Proof.
  intros H. unfold push_ok, over in H.
  apply andb_prop in H. destruct H as [H G5]. apply andb_prop in H. destruct H as [H G4].
  apply andb_prop in H. destruct H as [H G3]. apply andb_prop in H. destruct H as [G1 G2].
  apply Z.eqb_eq in G1. apply Z.leb_le in G2, G3. rewrite forallb_forall in G4.
  repeat split; auto.
  - intros r Hin. specialize (G4 _ Hin). apply orb_prop in G4. destruct G4 as [A|A]; apply Z.leb_le in A; auto.
  - destruct (Z.gtb_spec (zlen (s_rec s)) (s_cap s)); [discriminate | lia].
Qed.

Lemma push_ok_facts c s b d : Inv c -> R c s -> push_ok s b d = true ->
  zlen d = llen c /\ i32_min <= b /\ b + llen c <= i32_max /\
  (forall r, In r (map lo (lines c)) -> b + llen c <= r \/ r + llen c <= b) /\
  zlen (lines c) <= nlines c.
Proof.
  intros Hi Hr H. apply push_ok_spec in H.
  now rewrite (r_len _ _ Hr), (r_rec _ _ Hr), (r_cap _ _ Hr), zlen_map in H.
Qed.

Lemma new_line_eq c b d : Inv c -> i32_min <= b -> b + llen c <= i32_max ->
  new_line c b d = mkLine b (b + llen c) d.
Proof.
  intros Hi H1 H2. pose proof (inv_L _ Hi). unfold new_line, addS, to_i32.
  rewrite (wrap32_id (llen c)) by (unfold i32_min, i32_max in *; lia).
  rewrite wrap32_id by lia. reflexivity.
Qed.

Lemma insert_refines c s b d : Inv c -> R c s -> push_ok s b d = true ->
  Inv (set_lines c (mkLine b (b + llen c) d :: lines c)) /\
  R (set_lines c (mkLine b (b + llen c) d :: lines c)) (s_insert s b d).
Proof.
  intros Hi Hr H. destruct (push_ok_facts _ _ _ _ Hi Hr H) as (Hd & Hb1 & Hb2 & Hdis & Hlen).
  destruct Hi as [HL HN Hok Hnd Hsep Hl]. split.
  - constructor; simpl; auto.
    + constructor; auto. repeat split; auto.
    + constructor; auto. intros Hin. destruct (Hdis _ Hin); lia.
    + intros b1 b2 [<-|H1] [<-|H2]; auto;
        try (destruct (Hdis _ H2); lia); try (destruct (Hdis _ H1); lia).
    + rewrite zlen_cons. lia.
  - constructor; rsimpl; try apply Hr.
    + cbn [map lo]. f_equal. apply Hr.
    + intros b'. rewrite m_get_set, lget_cons. cbn [lo data]. now rewrite (r_map _ _ Hr).
Qed.

Lemma set_bytes_ok d lo_ a i vs :
  i32_min <= lo_ -> lo_ + zlen d <= i32_max -> zlen d <= i32_max -> lo_ <= a -> 0 <= i ->
  a + i + zlen vs <= lo_ + zlen d ->
  set_bytes d lo_ a i vs = Ok (splice d (Z.to_nat (a + i - lo_)) vs).
Proof.
  revert d i. induction vs as [|v t IH]; intros d i H1 H2 H2' H3 H4 H5; cbn [set_bytes splice]; [reflexivity|].
  rewrite zlen_cons in H5. pose proof (zlen_nonneg t).
  unfold to_i32, addS, subS.
  rewrite (wrap32_id i) by (unfold i32_min, i32_max in *; lia).
  rewrite (wrap32_id (a + i)) by (unfold i32_min, i32_max in *; lia).
  rewrite (wrap32_id (a + i - lo_)) by (unfold i32_min, i32_max in *; lia).
  rewrite idx_set_ok by lia. cbn [bind].
  rewrite IH by (rewrite ?zlen_upd; lia).
  replace (Z.to_nat (a + (i + 1) - lo_)) with (S (Z.to_nat (a + i - lo_))) by lia. reflexivity.
Qed.

Lemma write_lines_ok L pre l post a vs : 0 < L <= i32_max ->
  Forall (line_ok L) (pre ++ l :: post) -> nocov L a pre -> covers L a (lo l) = true ->
  a + zlen vs <= lo l + L ->
  write_lines (pre ++ l :: post) a vs =
    Ok (pre ++ mkLine (lo l) (hi l) (splice (data l) (Z.to_nat (a - lo l)) vs) :: post).
Proof.
  intros HL Hok Hn Hc Hv. induction Hn as [|x pre Hx Hp IH]; simpl app in *; cbn [write_lines].
  - inversion Hok; subst. rewrite (line_get_ok L) by auto. rewrite Hc. cbn [bind].
    destruct H1 as (A & B & C & D).
    unfold covers in Hc. apply andb_prop in Hc. destruct Hc as [C1 C2]. apply Z.leb_le in C1.
    rewrite set_bytes_ok by lia. cbn [bind]. now rewrite Z.add_0_r.
  - inversion Hok; subst. rewrite (line_get_ok L) by auto. rewrite Hx. cbn [bind].
    rewrite IH by auto. reflexivity.
Qed.

Definition refines_step (c : cache) (s : scache) (o : op) : Prop :=
  exists c', step c o = Ok (c', snd (s_step s o)) /\ Inv c' /\ R c' (fst (s_step s o)).

(* a lookup in the model and in the reference: the same line, found at a split
   of the list, with the reference's contents *)
Lemma cover_lookup c s a : Inv c -> R c s ->
  match s_cover s a with
  | Some b => exists pre l post, lines c = pre ++ l :: post /\ lo l = b /\ data l = s_data s b /\
                nocov (llen c) a pre /\ covers (llen c) a b = true /\
                find_line (lines c) a = Ok (Some (byte_at (s_data s b) (a - b), l, pre ++ post))
  | None => find_line (lines c) a = Ok None
  end.
Proof.
  intros Hi Hr. rewrite (s_cover_eq c s a Hr).
  pose proof (find_line_spec (llen c) (lines c) a (inv_L _ Hi) (inv_ok _ Hi)) as H.
  destruct (find _ _) as [b|]; [|exact H].
  destruct H as (pre & l & post & E & <- & Hn & Hc & Hf). exists pre, l, post.
  rewrite (s_data_in c s l Hi Hr) by (rewrite E; apply in_mid). auto 10.
Qed.

Lemma step_get c s a : Inv c -> R c s -> refines_step c s (OGet a).
Proof.
  intros Hi Hr. unfold refines_step. cbn [step s_step]. unfold get.
  pose proof (cover_lookup c s a Hi Hr) as H. destruct (s_cover s a) as [b|].
  - destruct H as (pre & l & post & E & <- & _ & _ & _ & ->). cbn [bind fst snd].
    eexists; split; [reflexivity|]. now apply touch_refines.
  - rewrite H. cbn [bind fst snd]. eexists; split; [reflexivity|]. auto.
Qed.

Lemma step_line c s a : Inv c -> R c s -> refines_step c s (OLine a).
Proof.
  intros Hi Hr. unfold refines_step. cbn [step s_step]. unfold get_cache_line.
  pose proof (cover_lookup c s a Hi Hr) as H. destruct (s_cover s a) as [b|].
  - destruct H as (pre & l & post & _ & _ & Hd & _ & _ & ->). cbn [bind fst snd]. rewrite Hd.
    eexists; split; [reflexivity|]. auto.
  - rewrite H. cbn [bind fst snd]. eexists; split; [reflexivity|]. auto.
Qed.

Lemma step_evict c s a : Inv c -> R c s -> refines_step c s (OEvict a).
Proof.
  intros Hi Hr. unfold refines_step. cbn [step s_step]. unfold evict_cache_line.
  pose proof (cover_lookup c s a Hi Hr) as H. destruct (s_cover s a) as [b|].
  - destruct H as (pre & l & post & E & <- & Hd & _ & _ & ->). cbn [bind fst snd]. rewrite Hd.
    eexists; split; [reflexivity|]. now apply drop_refines.
  - rewrite H. cbn [bind fst snd]. eexists; split; [reflexivity|]. auto.
Qed.

Lemma step_write c s a vs : Inv c -> R c s -> op_ok s (OWrite a vs) = true ->
  refines_step c s (OWrite a vs).
Proof.
  intros Hi Hr Hok. unfold refines_step. cbn [step s_step op_ok] in *. unfold write.
  pose proof (cover_lookup c s a Hi Hr) as H. destruct (s_cover s a) as [b|]; [|discriminate].
  destruct H as (pre & l & post & E & <- & <- & Hn & Hc & _).
  apply Z.leb_le in Hok. rewrite (r_len _ _ Hr) in Hok.
  pose proof (inv_ok _ Hi) as Hall. rewrite E in Hall.
  rewrite E, (write_lines_ok (llen c)) by (auto; apply Hi). cbn [bind fst snd].
  eexists; split; [reflexivity|]. apply write_refines; auto.
  rewrite zlen_splice. rewrite Forall_forall in Hall. apply (Hall l), in_mid.
Qed.

(* the reference is over capacity when the model's list is; then the victim
   is the last line of the list, with the reference's contents *)
Lemma over_eq c s : R c s -> over s = (zlen (lines c) >? nlines c).
Proof. intros Hr. unfold over. now rewrite (r_rec _ _ Hr), (r_cap _ _ Hr), zlen_map. Qed.

Lemma lru_last c s : Inv c -> R c s -> lines c <> [] ->
  exists pre x, lines c = pre ++ [x] /\ lru_base s = lo x /\ s_data s (lo x) = data x /\
                line_ok (llen c) x.
Proof.
  intros Hi Hr Hne. destruct (exists_last Hne) as (pre & x & E). exists pre, x.
  assert (Hin : In x (lines c)) by (rewrite E; apply in_mid).
  split; [exact E|]. split; [|split].
  - unfold lru_base. rewrite (r_rec _ _ Hr), E, map_app. apply last_last.
  - now apply (s_data_in c s).
  - pose proof (inv_ok _ Hi) as Hall. rewrite Forall_forall in Hall. auto.
Qed.

(* both kinds of push: the line is inserted at the front, and the two sides
   agree on whether that exceeds the capacity *)
Lemma push_refines c s b d : Inv c -> R c s -> push_ok s b d = true ->
  let c1 := set_lines c (new_line c b d :: lines c) in
  Inv c1 /\ R c1 (s_insert s b d) /\ over (s_insert s b d) = (zlen (lines c1) >? nlines c).
Proof.
  intros Hi Hr Hok. destruct (push_ok_facts _ _ _ _ Hi Hr Hok) as (_ & Hb1 & Hb2 & _).
  rewrite (new_line_eq c b d Hi Hb1 Hb2).
  destruct (insert_refines c s b d Hi Hr Hok) as [Hi1 Hr1]. cbv zeta.
  split; [exact Hi1|]. split; [exact Hr1|]. apply (over_eq _ _ Hr1).
Qed.

Lemma step_push c s b d : Inv c -> R c s -> op_ok s (OPush b d) = true ->
  refines_step c s (OPush b d).
Proof.
  intros Hi Hr Hok. unfold refines_step. cbn [step s_step op_ok] in *. unfold push_line.
  destruct (push_refines c s b d Hi Hr Hok) as (Hi1 & Hr1 & ->). cbn [lines set_lines] in *.
  set (c1 := set_lines c (new_line c b d :: lines c)) in *.
  destruct (Z.gtb_spec (zlen (new_line c b d :: lines c)) (nlines c)) as [Hgt|Hle].
  - pose proof (inv_N _ Hi) as HN. destruct (Z.ltb_spec (nlines c) 0); [lia|].
    destruct (lru_last c1 _ Hi1 Hr1) as (pre & x & E & -> & -> & _); [discriminate|].
    cbn [lines set_lines c1] in E. rewrite E, last_last.
    destruct (drop_refines c1 _ pre x [] Hi1 Hr1 E) as [Hi2 Hr2]. rewrite app_nil_r in *.
    rewrite firstn_app_exact.
    + cbn [bind fst snd]. eexists; split; [reflexivity|]. auto.
    + pose proof (inv_len _ Hi1) as Hl. cbn [lines set_lines c1 nlines] in Hl.
      rewrite E, zlen_app in Hgt, Hl. unfold zlen in *. cbn [length] in *. lia.
  - cbn [bind fst snd]. eexists; split; [reflexivity|]. auto.
Qed.

Lemma line_eta L x : line_ok L x -> x = mkLine (lo x) (lo x + L) (data x).
Proof. intros (H & _). destruct x; simpl in *. now subst. Qed.

Lemma step_pushw c s b d : Inv c -> R c s -> op_ok s (OPushW b d) = true ->
  refines_step c s (OPushW b d).
Proof.
  intros Hi Hr Hok. unfold refines_step. cbn [step s_step op_ok] in *. unfold push_line_warn.
  destruct (push_refines c s b d Hi Hr Hok) as (Hi1 & Hr1 & ->). cbn [lines set_lines] in *.
  set (c1 := set_lines c (new_line c b d :: lines c)) in *.
  destruct (Z.gtb_spec (zlen (new_line c b d :: lines c)) (nlines c)) as [Hgt|Hle].
  - destruct (lru_last c1 _ Hi1 Hr1) as (pre & x & E & -> & -> & Hx); [discriminate|].
    cbn [lines set_lines c1] in E. rewrite E, last_last, (r_len _ _ Hr), <- (line_eta (llen c) x Hx).
    cbn [bind fst snd]. eexists; split; [reflexivity|]. auto.
  - cbn [bind fst snd]. eexists; split; [reflexivity|]. auto.
Qed.

Lemma collect_ok d start cnt : 0 <= start -> start + Z.of_nat cnt <= zlen d ->
  collect d start cnt = Ok (seq_bytes d start cnt).
Proof.
  revert start. induction cnt as [|k IH]; intros start H1 H2; cbn [collect seq_bytes]; [reflexivity|].
  rewrite idx_get_ok by lia. cbn [bind]. rewrite IH by lia. reflexivity.
Qed.

Lemma sub_loop_ok L els a t n : 0 < L <= i32_max -> Forall (line_ok L) els -> 0 < n <= i32_max ->
  (forall b, find (covers L a) (map lo els) = Some b -> b <= a - Z.rem a n /\ a - Z.rem a n + n <= b + L) ->
  sub_loop els (a :: t) n =
    Ok (match find (fun l => covers L a (lo l)) els with
        | Some l => Some (a - Z.rem a n, seq_bytes (data l) (a - Z.rem a n - lo l) (Z.to_nat n))
        | None => None
        end).
Proof.
  intros HL Hok Hn. induction Hok as [|l els Hl Hels IH]; intros Hc; cbn [sub_loop find]; [reflexivity|].
  rewrite (line_get_ok L) by auto. cbn [map find] in Hc.
  destruct (covers L a (lo l)) eqn:E; cbn [bind].
  - destruct (Hc _ eq_refl) as [C1 C2]. destruct Hl as (A & B & C & D).
    destruct (Z.eqb_spec n 0); [lia|]. destruct (Z.ltb_spec n 0); [lia|].
    unfold subS, remS. rewrite wrap32_id by (unfold i32_min, i32_max in *; lia).
    rewrite collect_ok by lia. reflexivity.
  - apply IH. exact Hc.
Qed.

Lemma find_map_lo L a ls :
  find (covers L a) (map lo ls) =
  match find (fun l => covers L a (lo l)) ls with Some l => Some (lo l) | None => None end.
Proof. induction ls as [|x t IH]; simpl; auto. destruct (covers L a (lo x)); auto. Qed.

Lemma step_sub c s addrs n : Inv c -> R c s -> op_ok s (OSub addrs n) = true ->
  refines_step c s (OSub addrs n).
Proof.
  intros Hi Hr Hok. unfold refines_step. cbn [step s_step op_ok] in *.
  destruct addrs as [|a t]; [discriminate|]. cbn [hd].
  unfold get_sub_cache_line, existing_lines.
  pose proof (inv_N _ Hi) as HN. pose proof (zlen_nonneg (lines c)) as Hz.
  destruct (Z.ltb_spec (Z.min (zlen (lines c)) (nlines c)) 0); [lia|]. cbn [bind].
  unfold s_existing in *. rewrite (r_rec _ _ Hr), (r_cap _ _ Hr), (r_len _ _ Hr), zlen_map, firstn_map in *.
  set (els := firstn (Z.to_nat (Z.min (zlen (lines c)) (nlines c))) (lines c)) in *.
  apply andb_prop in Hok. destruct Hok as [Hok Hc]. apply andb_prop in Hok. destruct Hok as [N1 N2].
  apply Z.ltb_lt in N1. apply Z.leb_le in N2.
  assert (Hels : Forall (line_ok (llen c)) els).
  { pose proof (inv_ok _ Hi) as Hall. rewrite Forall_forall in *. intros x Hx. apply Hall. eapply in_firstn; eauto. }
  rewrite (sub_loop_ok (llen c)); auto; [|apply Hi|].
  - rewrite find_map_lo. cbn [bind].
    destruct (find (fun l => covers (llen c) a (lo l)) els) as [l|] eqn:E.
    + apply find_some in E. destruct E as [Hin _].
      assert (Hin' : In l (lines c)) by (eapply in_firstn; eauto).
      rewrite (s_data_in c s l Hi Hr Hin'). cbn [fst snd]. eexists; split; [reflexivity|]. auto.
    + cbn [fst snd]. eexists; split; [reflexivity|]. auto.
  - intros b Hb. rewrite Hb in Hc. apply andb_prop in Hc. destruct Hc as [C1 C2].
    apply Z.leb_le in C1, C2. lia.
Qed.

Theorem step_refines c s o : Inv c -> R c s -> op_ok s o = true -> refines_step c s o.
Proof.
  intros Hi Hr Hok. destruct o.
  - now apply step_push.
  - now apply step_pushw.
  - now apply step_get.
  - now apply step_line.
  - now apply step_sub.
  - now apply step_evict.
  - now apply step_write.
Qed.

Lemma run_refines c s ops : Inv c -> R c s -> contract s ops = true ->
  exists c', run c ops = Ok (c', snd (s_run s ops)) /\ Inv c' /\ R c' (fst (s_run s ops)).
Proof.
  revert c s. induction ops as [|o t IH]; intros c s Hi Hr Hc; cbn [run s_run contract] in *.
  - exists c. auto.
  - apply andb_prop in Hc. destruct Hc as [Ho Ht].
    destruct (step_refines c s o Hi Hr Ho) as (c1 & E1 & Hi1 & Hr1).
    rewrite E1. cbn [bind]. destruct (s_step s o) as [s1 r] eqn:Es. cbn [fst snd] in *.
    destruct (IH c1 s1 Hi1 Hr1 Ht) as (c2 & E2 & Hi2 & Hr2).
    rewrite E2. cbn [bind]. destruct (s_run s1 t) as [s2 rs]. cbn [fst snd] in *.
    exists c2. auto.
Qed.

Definition model_run (lineLength cacheLength : Z) (ops : list op) : outcome (cache * list out) :=
  c0 <- new_cache lineLength cacheLength ;; run c0 ops.

Definition hist_ok (lineLength cacheLength : Z) (ops : list op) : Prop :=
  geometry_ok lineLength cacheLength = true /\ contract (s_new lineLength cacheLength) ops = true.

Lemma new_refines L CL : geometry_ok L CL = true ->
  exists c0, new_cache L CL = Ok c0 /\ Inv c0 /\ R c0 (s_new L CL).
Proof.
  unfold geometry_ok. intros H.
  apply andb_prop in H. destruct H as [H G5]. apply andb_prop in H. destruct H as [H G4].
  apply andb_prop in H. destruct H as [H G3]. apply andb_prop in H. destruct H as [G1 G2].
  apply Z.ltb_lt in G1, G4. apply Z.leb_le in G2, G3. apply Z.eqb_eq in G5. rename G5 into H0.
  unfold new_cache. destruct (Z.eqb_spec L 0); [lia|].
  rewrite Z.rem_mod_nonneg by lia. rewrite H0. cbn [Z.eqb negb].
  assert (Hq : quoS 64 CL L = CL / L).
  { unfold quoS. rewrite Z.quot_div_nonneg by lia. apply wrapS_id; [lia|]. unfold inS.
    change (2 ^ (64 - 1)) with 9223372036854775808.
    assert (0 <= CL / L) by (apply Z.div_pos; lia).
    assert (CL / L <= CL) by (apply Z.div_le_upper_bound; nia). lia. }
  eexists; split; [reflexivity|]. rewrite Hq. split.
  - constructor; cbn [nlines llen lines map]; auto.
    + apply Z.div_pos; lia.
    + constructor.
    + intros ? ? [].
    + rewrite zlen_nil. assert (0 <= CL / L) by (apply Z.div_pos; lia). lia.
  - constructor; reflexivity.
Qed.

(* the model refines the reference on every history that respects the contract:
   the history runs without a panic, every output is the reference's, and the
   final state satisfies the invariant and represents the reference state *)
Theorem cache_refines_spec L CL ops : hist_ok L CL ops ->
  exists c, model_run L CL ops = Ok (c, snd (s_run (s_new L CL) ops)) /\
            Inv c /\ R c (fst (s_run (s_new L CL) ops)).
Proof.
  intros [Hg Hc]. destruct (new_refines L CL Hg) as (c0 & E0 & Hi0 & Hr0).
  unfold model_run. rewrite E0. cbn [bind]. now apply run_refines.
Qed.

Lemma s_run_app s o1 o2 :
  s_run s (o1 ++ o2) =
  (fst (s_run (fst (s_run s o1)) o2), snd (s_run s o1) ++ snd (s_run (fst (s_run s o1)) o2)).
Proof.
  revert s. induction o1 as [|o t IH]; intros s; cbn [app s_run fst snd].
  - now destruct (s_run s o2).
  - destruct (s_step s o) as [s1 r]. rewrite IH.
    destruct (s_run s1 t) as [s2 rs]. cbn [fst snd]. reflexivity.
Qed.

Lemma contract_app s o1 o2 :
  contract s (o1 ++ o2) = contract s o1 && contract (fst (s_run s o1)) o2.
Proof.
  revert s. induction o1 as [|o t IH]; intros s; cbn [app contract s_run fst].
  - reflexivity.
  - rewrite IH. destruct (s_step s o) as [s1 r]. cbn [fst]. destruct (s_run s1 t). cbn [fst].
    now rewrite andb_assoc.
Qed.

Lemma s_run_one s o : s_run s [o] = (fst (s_step s o), [snd (s_step s o)]).
Proof. cbn [s_run]. now destruct (s_step s o). Qed.

(* the resident bases after a history, most recently used first *)
Definition resident (L CL : Z) (ops : list op) : list Z := s_rec (fst (s_run (s_new L CL) ops)).
Definition state_after (L CL : Z) (ops : list op) : scache := fst (s_run (s_new L CL) ops).

Lemma resident_state_after L CL ops : resident L CL ops = s_rec (state_after L CL ops).
Proof. reflexivity. Qed.

Lemma state_after_snoc L CL ops o :
  state_after L CL (ops ++ [o]) = fst (s_step (state_after L CL ops) o).
Proof. unfold state_after. now rewrite s_run_app, s_run_one. Qed.

Lemma hist_ok_app L CL o1 o2 : hist_ok L CL (o1 ++ o2) ->
  hist_ok L CL o1 /\ contract (state_after L CL o1) o2 = true.
Proof.
  intros [Hg Hc]. rewrite contract_app in Hc. apply andb_prop in Hc. destruct Hc. repeat split; auto.
Qed.

Lemma contract_one s o : contract s [o] = op_ok s o.
Proof. cbn [contract]. apply andb_true_r. Qed.

Record SInv (s : scache) : Prop := mkSInv {
  si_L : 0 < s_len s <= i32_max;
  si_N : 0 <= s_cap s;
  si_nodup : NoDup (s_rec s);
  si_sep : sep (s_len s) (s_rec s);
  si_len : zlen (s_rec s) <= s_cap s + 1;
  si_data : forall b, In b (s_rec s) -> zlen (s_data s b) = s_len s
}.

Lemma R_SInv c s : Inv c -> R c s -> SInv s.
Proof.
  intros Hi Hr. pose proof Hi as [HL HN Hok Hnd Hsep Hlen].
  constructor; rewrite ?(r_len _ _ Hr), ?(r_cap _ _ Hr), ?(r_rec _ _ Hr), ?zlen_map; auto.
  intros b Hb. apply in_map_iff in Hb. destruct Hb as (l & <- & Hin).
  rewrite (s_data_in c s l Hi Hr Hin). rewrite Forall_forall in Hok. apply (Hok l Hin).
Qed.

Lemma reach_SInv L CL ops : hist_ok L CL ops -> SInv (state_after L CL ops).
Proof.
  intros H. destruct (cache_refines_spec L CL ops H) as (c & _ & Hi & Hr). eapply R_SInv; eauto.
Qed.

Lemma covers_spec L a b : covers L a b = true <-> b <= a < b + L.
Proof.
  unfold covers. rewrite andb_true_iff, Z.leb_le, Z.ltb_lt. tauto.
Qed.

Lemma s_cover_some s a b : s_cover s a = Some b -> In b (s_rec s) /\ covers (s_len s) a b = true.
Proof. unfold s_cover. intros H. apply find_some in H. exact H. Qed.

Lemma s_cover_in s a b : 0 < s_len s -> sep (s_len s) (s_rec s) ->
  In b (s_rec s) -> covers (s_len s) a b = true -> s_cover s a = Some b.
Proof.
  intros HL Hs Hin Hc. unfold s_cover. destruct (find (covers (s_len s) a) (s_rec s)) as [b'|] eqn:E.
  - apply find_some in E. destruct E as [Hin' Hc']. f_equal.
    eapply sep_cover_unique; eauto.
  - eapply find_none in E; eauto. congruence.
Qed.

Lemma view_some s a v : view s a = Some v ->
  exists b, In b (s_rec s) /\ covers (s_len s) a b = true /\ v = byte_at (s_data s b) (a - b).
Proof.
  unfold view. destruct (s_cover s a) as [b|] eqn:E; [|discriminate].
  intros H. inversion H. apply s_cover_some in E. exists b. tauto.
Qed.

Lemma view_in s a b : 0 < s_len s -> sep (s_len s) (s_rec s) ->
  In b (s_rec s) -> covers (s_len s) a b = true -> view s a = Some (byte_at (s_data s b) (a - b)).
Proof. intros. unfold view. erewrite s_cover_in; eauto. Qed.

Lemma view_in_S s a b : SInv s -> In b (s_rec s) -> b <= a < b + s_len s ->
  view s a = Some (byte_at (s_data s b) (a - b)).
Proof.
  intros Hs Hin Hc. apply view_in; auto; try apply Hs. now apply covers_spec.
Qed.

(* the byte an operation stores at address a, if any *)
Definition op_writes (L : Z) (o : op) (a : Z) : option Z :=
  match o with
  | OWrite b vs => if (b <=? a) && (a <? b + zlen vs) then Some (byte_at vs (a - b)) else None
  | OPush b d | OPushW b d => if covers L a b then Some (byte_at d (a - b)) else None
  | _ => None
  end.

(* latest first *)
Fixpoint scan (L : Z) (rops : list op) (a : Z) : option Z :=
  match rops with
  | [] => None
  | o :: t => match op_writes L o a with Some v => Some v | None => scan L t a end
  end.

(* the most recent store to address a in the history: a Write covering a, or
   the insertion of a line covering a, whichever came last *)
Definition last_written (L : Z) (ops : list op) (a : Z) : option Z := scan L (rev ops) a.

Lemma last_written_snoc L ops o a :
  last_written L (ops ++ [o]) a =
  match op_writes L o a with Some v => Some v | None => last_written L ops a end.
Proof. unfold last_written. rewrite rev_unit. reflexivity. Qed.

Lemma s_step_geom s o : s_len (fst (s_step s o)) = s_len s /\ s_cap (fst (s_step s o)) = s_cap s.
Proof.
  destruct o; cbn [s_step].
  - destruct (over (s_insert s base d)); split; reflexivity.
  - destruct (over (s_insert s base d)); split; reflexivity.
  - destruct (s_cover s a); split; reflexivity.
  - destruct (s_cover s a); split; reflexivity.
  - destruct (find _ _); split; reflexivity.
  - destruct (s_cover s a); split; reflexivity.
  - destruct (s_cover s a); split; reflexivity.
Qed.

Lemma s_data_drop s v b : b <> v -> s_data (s_drop s v) b = s_data s b.
Proof.
  intros H. unfold s_data, s_drop. cbn [s_map]. rewrite m_get_remove.
  destruct (Z.eqb_spec v b); [congruence | reflexivity].
Qed.

Lemma s_data_write s b1 d b :
  s_data (with_map s (m_set b1 d (s_map s))) b = if b1 =? b then d else s_data s b.
Proof. unfold s_data, with_map. cbn [s_map]. rewrite m_get_set. now destruct (b1 =? b). Qed.

Lemma s_data_insert s b1 d b : s_data (s_insert s b1 d) b = if b1 =? b then d else s_data s b.
Proof. exact (s_data_write s b1 d b). Qed.

(* removing a line only removes bytes from the view *)
Lemma frame_drop s v a w : 0 < s_len s -> NoDup (s_rec s) -> sep (s_len s) (s_rec s) ->
  view (s_drop s v) a = Some w -> view s a = Some w.
Proof.
  intros HL Hnd Hs H. apply view_some in H. destruct H as (b & Hin & Hc & ->).
  cbn [s_drop s_rec s_len] in *.
  destruct (NoDup_remove_first v _ Hnd) as [_ Hv].
  assert (b <> v) by (intros ->; tauto).
  rewrite s_data_drop by auto. apply view_in; auto. eapply in_remove_first; eauto.
Qed.

Lemma SInv_insert s b d : SInv s -> push_ok s b d = true -> SInv (s_insert s b d).
Proof.
  intros [HL HN Hnd Hs Hlen Hd] H. destruct (push_ok_spec _ _ _ H) as (P1 & P2 & P3 & P4 & P5).
  constructor; cbn [s_insert s_len s_cap s_rec]; auto.
  - constructor; auto. intros Hin. destruct (P4 _ Hin); lia.
  - intros b1 b2 [<-|H1] [<-|H2]; auto;
      try (destruct (P4 _ H2); lia); try (destruct (P4 _ H1); lia).
  - rewrite zlen_cons. lia.
  - intros b' Hb'. rewrite s_data_insert. destruct (Z.eqb_spec b b'); auto.
    destruct Hb' as [?|Hb']; [congruence | auto].
Qed.

Lemma frame_insert s b d a w : SInv s -> push_ok s b d = true ->
  view (s_insert s b d) a = Some w ->
  (covers (s_len s) a b = true /\ w = byte_at d (a - b)) \/
  (covers (s_len s) a b = false /\ view s a = Some w).
Proof.
  intros Hs H Hv. destruct (push_ok_spec _ _ _ H) as (P1 & P2 & P3 & P4 & P5).
  apply view_some in Hv. destruct Hv as (b' & Hin & Hc & ->). cbn [s_insert s_rec s_len] in *.
  rewrite s_data_insert. destruct (Z.eqb_spec b b') as [->|Hne].
  - left. auto.
  - right. destruct Hin as [?|Hin]; [congruence|]. split.
    + apply covers_spec in Hc. destruct (covers (s_len s) a b) eqn:E; auto.
      apply covers_spec in E. destruct (P4 _ Hin); lia.
    + apply view_in; auto; apply Hs.
Qed.

Lemma frame s o a v : SInv s -> op_ok s o = true ->
  view (fst (s_step s o)) a = Some v ->
  op_writes (s_len s) o a = Some v \/ (op_writes (s_len s) o a = None /\ view s a = Some v).
Proof.
  intros Hs Hok Hv. pose proof Hs as [HL HN Hnd Hsep Hlen Hd].
  destruct o as [b d|b d|a0|a0|addrs n|a0|a0 vs]; cbn [s_step op_ok op_writes] in *.
  - (* PushLine *)
    pose proof (SInv_insert _ _ _ Hs Hok) as Hs1.
    assert (Hv1 : view (s_insert s b d) a = Some v).
    { destruct (over (s_insert s b d)); cbn [fst] in Hv; auto.
      eapply frame_drop; eauto; apply Hs1. }
    destruct (frame_insert _ _ _ _ _ Hs Hok Hv1) as [[-> ->]|[-> ?]]; auto.
  - (* PushLineWithEvictionWarning *)
    assert (Hv1 : view (s_insert s b d) a = Some v) by (destruct (over (s_insert s b d)); exact Hv).
    destruct (frame_insert _ _ _ _ _ Hs Hok Hv1) as [[-> ->]|[-> ?]]; auto.
  - (* Get *)
    right. split; auto. destruct (s_cover s a0) as [b0|] eqn:E; cbn [fst] in Hv; auto.
    apply s_cover_some in E. destruct E as [Hin0 _].
    apply view_some in Hv. destruct Hv as (b & Hin & Hc & ->). cbn [touch with_rec s_rec s_len] in *.
    change (s_data (touch s b0) b) with (s_data s b).
    apply view_in_S; auto; [|now apply covers_spec]. destruct Hin as [<-|Hin]; auto. eapply in_remove_first; eauto.
  - right. split; auto. destruct (s_cover s a0); exact Hv.
  - right. split; auto. destruct (find _ _); exact Hv.
  - (* Evict *)
    right. split; auto. destruct (s_cover s a0) as [b0|]; cbn [fst] in Hv; auto.
    eapply frame_drop; eauto. lia.
  - (* Write *)
    destruct (s_cover s a0) as [b0|] eqn:E; [|discriminate]. cbn [fst] in Hv.
    apply Z.leb_le in Hok. apply s_cover_some in E as [Hin0 Hc0]. apply covers_spec in Hc0.
    apply view_some in Hv as (b & Hin & Hc & ->). cbn [with_map s_rec s_len] in *.
    apply covers_spec in Hc. pose proof (zlen_nonneg vs). pose proof (Hd _ Hin0).
    assert (Hvw : view s a = Some (byte_at (s_data s b) (a - b))) by now apply view_in_S.
    rewrite s_data_write. destruct (Z.eqb_spec b0 b) as [<-|Hne].
    + rewrite byte_at_splice by lia. destruct ((a0 <=? a) && (a <? a0 + zlen vs)); auto.
    + (* another line: the bytes written lie inside line b0, so a is not among them *)
      right. split; [|exact Hvw].
      destruct (Z.leb_spec a0 a), (Z.ltb_spec a (a0 + zlen vs)); cbn [andb]; auto.
      exfalso. apply Hne. apply (sep_cover_unique (s_len s) (s_rec s) a); auto; try lia; apply covers_spec; lia.
Qed.

Lemma state_after_len L CL ops : s_len (state_after L CL ops) = L /\ s_cap (state_after L CL ops) = CL / L.
Proof.
  induction ops as [|o ops IH] using rev_ind; [split; reflexivity|].
  rewrite state_after_snoc. destruct (s_step_geom (state_after L CL ops) o) as [-> ->]. exact IH.
Qed.

Lemma last_written_inv L CL ops : hist_ok L CL ops ->
  forall a v, view (state_after L CL ops) a = Some v -> last_written L ops a = Some v.
Proof.
  induction ops as [|o ops IH] using rev_ind; intros H a v Hv.
  - cbn in Hv. discriminate.
  - destruct (hist_ok_app _ _ _ _ H) as [H1 H2]. rewrite contract_one in H2.
    rewrite state_after_snoc in Hv. rewrite last_written_snoc.
    destruct (frame _ _ _ _ (reach_SInv _ _ _ H1) H2 Hv) as [E|[E Hv']];
      rewrite (proj1 (state_after_len L CL ops)) in E; rewrite E; auto.
Qed.

(* a history extended by one operation: what holds before the operation, and
   that its output is the reference's *)
Lemma run_snoc L CL ops o : hist_ok L CL (ops ++ [o]) ->
  let s := state_after L CL ops in
  hist_ok L CL ops /\ SInv s /\ op_ok s o = true /\
  exists c outs, model_run L CL (ops ++ [o]) = Ok (c, outs) /\
    last outs RUnit = snd (s_step s o) /\ Inv c /\ R c (fst (s_step s o)).
Proof.
  intros H s. destruct (hist_ok_app _ _ _ _ H) as [H1 H2]. rewrite contract_one in H2.
  split; [exact H1|]. split; [now apply reach_SInv|]. split; [exact H2|].
  destruct (cache_refines_spec _ _ _ H) as (c & E & Hi & Hr).
  rewrite s_run_app, s_run_one in E, Hr. cbn [fst snd] in E, Hr.
  exists c. eexists. split; [exact E|]. split; [apply last_last|]. auto.
Qed.

Lemma get_out_view s a : snd (s_step s (OGet a)) = RByte (view s a).
Proof. cbn [s_step]. unfold view. now destruct (s_cover s a). Qed.

(* Get returns the last value written to that byte since its line was
   inserted, or the inserted byte *)
Theorem read_last_write L CL ops a : hist_ok L CL (ops ++ [OGet a]) ->
  exists c outs, model_run L CL (ops ++ [OGet a]) = Ok (c, outs) /\
    forall v, last outs RUnit = RByte (Some v) -> last_written L ops a = Some v.
Proof.
  intros H. destruct (run_snoc _ _ _ _ H) as (Hpre & _ & _ & c & outs & E & Hl & _).
  exists c, outs. split; auto. intros v Hv. rewrite Hl, get_out_view in Hv. injection Hv as Hv'.
  eapply last_written_inv; eauto.
Qed.

(* a byte is present exactly when a resident line covers it *)
Theorem present_iff_covered L CL ops a : hist_ok L CL (ops ++ [OGet a]) ->
  exists c outs, model_run L CL (ops ++ [OGet a]) = Ok (c, outs) /\
    ((exists v, last outs RUnit = RByte (Some v)) <->
     (exists b, In b (resident L CL ops) /\ b <= a < b + L)).
Proof.
  intros H. destruct (run_snoc _ _ _ _ H) as (_ & Hs & _ & c & outs & E & Hl & _).
  exists c, outs. split; auto. rewrite Hl, get_out_view.
  destruct (state_after_len L CL ops) as [EL _]. rewrite resident_state_after. split.
  - intros (v & Hv). injection Hv as Hv'. apply view_some in Hv'. destruct Hv' as (b & Hin & Hc & _).
    exists b. split; auto. rewrite EL in Hc. now apply covers_spec.
  - intros (b & Hin & Hc). eexists. f_equal. apply (view_in_S _ a b); auto. now rewrite EL.
Qed.

Lemma remove_first_last l : NoDup l -> l <> [] -> remove_first (last l 0) l = removelast l.
Proof.
  intros Hnd Hne. destruct (exists_last Hne) as (pre & x & ->).
  rewrite last_last, removelast_last. apply NoDup_remove_2 in Hnd. rewrite app_nil_r in Hnd.
  clear Hne. induction pre as [|y pre IH]; cbn [app remove_first].
  - now rewrite Z.eqb_refl.
  - destruct (Z.eqb_spec y x); [subst; exfalso; apply Hnd; now left|]. f_equal. apply IH.
    intros Hin. apply Hnd. now right.
Qed.

(* PushLine into a full cache removes exactly the least recently used line
   (the last of the recency order, which only Get hits and insertions change)
   and returns its current contents, earlier Writes included *)
Theorem push_full_displaces_lru_and_reports_it L CL ops b d :
  hist_ok L CL (ops ++ [OPush b d]) ->
  let s := state_after L CL ops in
  zlen (s_rec s) = s_cap s -> 0 < s_cap s ->
  exists c outs, model_run L CL (ops ++ [OPush b d]) = Ok (c, outs) /\
    last outs RUnit = RData (Some (s_data s (lru_base s))) /\
    bases c = b :: removelast (s_rec s) /\
    (forall i, 0 <= i < L -> last_written L ops (lru_base s + i) = Some (byte_at (s_data s (lru_base s)) i)).
Proof.
  intros H s Hfull Hpos. destruct (run_snoc _ _ _ _ H) as (H1 & Hs & H2 & c & outs & E & Hl & Hi & Hr).
  fold s in Hs, H2, Hl, Hr. cbn [op_ok] in H2.
  destruct (push_ok_spec _ _ _ H2) as (P1 & P2 & P3 & P4 & P5).
  pose proof (SInv_insert _ _ _ Hs H2) as Hs1.
  assert (Hne : s_rec s <> []).
  { intros E0. rewrite E0, zlen_nil in Hfull. lia. }
  assert (Hover : over (s_insert s b d) = true).
  { unfold over. cbn [s_insert s_rec s_cap]. rewrite zlen_cons. apply Z.gtb_lt. lia. }
  assert (Hv : lru_base (s_insert s b d) = lru_base s).
  { unfold lru_base. cbn [s_insert s_rec]. destruct (s_rec s); [congruence | reflexivity]. }
  assert (Hvin : In (lru_base s) (s_rec s)) by (apply last_in; auto).
  assert (Hvb : b <> lru_base s) by (intros ->; destruct (P4 _ Hvin); destruct Hs; lia).
  cbn [s_step] in Hl, Hr. rewrite Hover in Hl, Hr. cbn [fst snd] in Hl, Hr. rewrite Hv in Hl, Hr.
  rewrite s_data_insert in Hl. destruct (Z.eqb_spec b (lru_base s)); [congruence|].
  exists c, outs. repeat split; auto.
  - unfold bases. rewrite <- (r_rec _ _ Hr). cbn [s_drop s_insert s_rec remove_first].
    destruct (Z.eqb_spec b (lru_base s)); [congruence|]. f_equal.
    apply remove_first_last; auto. apply Hs.
  - intros i Hi0. destruct (state_after_len L CL ops) as [EL _]. fold s in EL.
    apply (last_written_inv L CL ops H1). fold s.
    rewrite (view_in_S s (lru_base s + i) (lru_base s)); auto; [|lia].
    do 2 f_equal. lia.
Qed.

(* the recency order is changed by Get hits and insertions only; removal keeps the order of the rest *)
Theorem recency_only_get_and_insert s o :
  match o with
  | OLine _ | OSub _ _ | OWrite _ _ => s_rec (fst (s_step s o)) = s_rec s
  | OEvict a => s_rec (fst (s_step s o)) = match s_cover s a with Some b => remove_first b (s_rec s) | None => s_rec s end
  | OGet a => s_rec (fst (s_step s o)) = match s_cover s a with Some b => b :: remove_first b (s_rec s) | None => s_rec s end
  | OPushW b _ => s_rec (fst (s_step s o)) = b :: s_rec s
  | OPush b d => s_rec (fst (s_step s o)) =
                 if over (s_insert s b d) then remove_first (last (b :: s_rec s) 0) (b :: s_rec s) else b :: s_rec s
  end.
Proof.
  destruct o; cbn [s_step].
  - destruct (over (s_insert s base d)); reflexivity.
  - destruct (over (s_insert s base d)); reflexivity.
  - destruct (s_cover s a); reflexivity.
  - destruct (s_cover s a); reflexivity.
  - destruct (find _ _); reflexivity.
  - destruct (s_cover s a); reflexivity.
  - destruct (s_cover s a); reflexivity.
Qed.

(* PushLineWithEvictionWarning over capacity reports the least recently used
   line and leaves numberOfLines+1 lines; EvictCacheLine of the reported
   victim returns its contents and brings the cache back to numberOfLines *)
Theorem capacity_restored_after_victim_removed L CL ops b d :
  hist_ok L CL (ops ++ [OPushW b d]) ->
  exists c outs, model_run L CL (ops ++ [OPushW b d]) = Ok (c, outs) /\
    forall vl, last outs RUnit = RVictim (Some vl) ->
      zlen (lines c) = nlines c + 1 /\
      lo vl = last (b :: resident L CL ops) 0 /\
      exists c' outs', model_run L CL (ops ++ [OPushW b d; OEvict (lo vl)]) = Ok (c', outs') /\
        last outs' RUnit = RData (Some (data vl)) /\
        zlen (lines c') = nlines c' /\ ~ In (lo vl) (bases c').
Proof.
  intros H. destruct (run_snoc _ _ _ _ H) as (H1 & Hs & H2 & c & outs & E & Hl & Hi & Hr).
  exists c, outs. split; auto. intros vl Hvl.
  set (s := state_after L CL ops) in *. cbn [op_ok] in H2.
  destruct (push_ok_spec _ _ _ H2) as (P1 & P2 & P3 & P4 & P5).
  pose proof (SInv_insert _ _ _ Hs H2) as Hs1.
  set (s1 := s_insert s b d) in *.
  cbn [s_step] in Hl, Hr. fold s1 in Hl, Hr.
  destruct (over s1) eqn:Hover; cbn [fst snd] in Hl, Hr; [|rewrite Hl in Hvl; discriminate].
  rewrite Hl in Hvl. injection Hvl as Evl.
  set (v := lru_base s1) in *.
  assert (Hlen1 : zlen (s_rec s1) = s_cap s1 + 1).
  { unfold over in Hover. apply Z.gtb_lt in Hover. pose proof (si_len _ Hs1). lia. }
  assert (Hvin : In v (s_rec s1)) by (apply last_in; subst s1; cbn [s_insert s_rec]; discriminate).
  split; [|split].
  - rewrite <- (r_cap _ _ Hr). rewrite <- Hlen1, (r_rec _ _ Hr), zlen_map. reflexivity.
  - rewrite <- Evl. reflexivity.
  - assert (Hlo : lo vl = v) by (rewrite <- Evl; reflexivity). rewrite Hlo.
    assert (H' : hist_ok L CL ((ops ++ [OPushW b d]) ++ [OEvict v])).
    { destruct H as [Hg Hc]. split; auto. rewrite contract_app, Hc, contract_one. reflexivity. }
    destruct (run_snoc _ _ _ _ H') as (_ & _ & _ & c' & outs' & E' & Hl' & Hi' & Hr').
    rewrite <- app_assoc in E'. cbn [app] in E'.
    assert (Es : state_after L CL (ops ++ [OPushW b d]) = s1).
    { rewrite state_after_snoc. cbn [fst s_step]. fold s. fold s1.
      now rewrite Hover. }
    rewrite Es in Hl', Hr'. cbn [s_step] in Hl', Hr'.
    assert (Hcov : s_cover s1 v = Some v).
    { apply s_cover_in; auto; try apply Hs1. apply covers_spec. destruct Hs1. lia. }
    rewrite Hcov in Hl', Hr'. cbn [fst snd] in Hl', Hr'.
    exists c', outs'. split; auto. split; [|split].
    + rewrite Hl', <- Evl. reflexivity.
    + rewrite <- (r_cap _ _ Hr'). cbn [s_drop s_cap].
      rewrite <- (zlen_map lo), <- (r_rec _ _ Hr'). cbn [s_drop s_rec].
      rewrite length_remove_first by auto. lia.
    + unfold bases. rewrite <- (r_rec _ _ Hr'). cbn [s_drop s_rec].
      apply NoDup_remove_first. apply Hs1.
Qed.

(* no two resident lines have the same base, and no two overlap *)
Theorem no_duplicate_lines L CL ops : hist_ok L CL ops ->
  exists c outs, model_run L CL ops = Ok (c, outs) /\
    NoDup (bases c) /\
    (forall l1 l2, In l1 (lines c) -> In l2 (lines c) -> l1 = l2 \/ hi l1 <= lo l2 \/ hi l2 <= lo l1) /\
    Forall (fun l => hi l = lo l + llen c /\ zlen (data l) = llen c) (lines c).
Proof.
  intros H. destruct (cache_refines_spec _ _ _ H) as (c & E & Hi & Hr).
  exists c. eexists. split; [exact E|]. destruct Hi as [HL HN Hok Hnd Hsep Hlen].
  rewrite Forall_forall in Hok. split; [exact Hnd|]. split.
  - intros l1 l2 H1 H2. destruct (Hok _ H1) as (A1 & B1 & _). destruct (Hok _ H2) as (A2 & B2 & _).
    rewrite A1, A2. destruct (Hsep (lo l1) (lo l2)) as [Heq|Hd]; try (apply in_map; auto); auto.
    left. (* same base: the same line, because bases are not repeated *)
    now apply (NoDup_map_inj lo (lines c)).
  - apply Forall_forall. intros l Hl. destruct (Hok _ Hl) as (A & B & _). auto.
Qed.

(* over-capacity window: after a PushLineWithEvictionWarning that reported a
   victim and before the next successful EvictCacheLine *)
Definition pend_step (p : bool) (o : op) (r : out) : bool :=
  match o, r with
  | OPushW _ _, RVictim (Some _) => true
  | OEvict _, RData (Some _) => false
  | _, _ => p
  end.
Fixpoint pending (p : bool) (ops : list op) (outs : list out) : bool :=
  match ops, outs with
  | o :: t, r :: rs => pending (pend_step p o r) t rs
  | _, _ => p
  end.

Definition has_model (s : scache) : Prop := exists c, Inv c /\ R c s.

Lemma has_model_step s o : has_model s -> op_ok s o = true -> has_model (fst (s_step s o)).
Proof.
  intros (c & Hi & Hr) Hok. destruct (step_refines c s o Hi Hr Hok) as (c' & _ & Hi' & Hr'). exists c'. auto.
Qed.

Lemma over_step s o : SInv s -> op_ok s o = true ->
  over (fst (s_step s o)) = pend_step (over s) o (snd (s_step s o)).
Proof.
  intros Hs Hok. pose proof Hs as [HL HN Hnd Hsep Hlen Hd].
  destruct o as [b d|b d|a0|a0|addrs n|a0|a0 vs]; cbn [s_step op_ok pend_step] in *.
  - destruct (push_ok_spec _ _ _ Hok) as (_ & _ & _ & P4 & P5).
    assert (Ho : over s = false) by (unfold over; apply gtb_false; lia). rewrite Ho.
    pose proof (SInv_insert _ _ _ Hs Hok) as Hs1.
    destruct (over (s_insert s b d)) eqn:E; cbn [fst snd]; auto.
    unfold over. cbn [s_drop s_rec s_cap]. rewrite length_remove_first.
    + cbn [s_insert s_rec s_cap]. rewrite zlen_cons. apply gtb_false. lia.
    + apply last_in. cbn [s_insert s_rec]. discriminate.
  - destruct (push_ok_spec _ _ _ Hok) as (_ & _ & _ & P4 & P5).
    assert (Ho : over s = false) by (unfold over; apply gtb_false; lia). rewrite Ho.
    destruct (over (s_insert s b d)) eqn:E; cbn [fst snd]; auto.
  - destruct (s_cover s a0) as [b0|] eqn:E; cbn [fst snd]; auto.
    apply s_cover_some in E. destruct E as [Hin _].
    unfold over. cbn [touch with_rec s_rec s_cap]. rewrite zlen_cons, length_remove_first by auto.
    f_equal. lia.
  - destruct (s_cover s a0); reflexivity.
  - destruct (find _ _); reflexivity.
  - destruct (s_cover s a0) as [b0|] eqn:E; cbn [fst snd]; auto.
    apply s_cover_some in E. destruct E as [Hin _].
    unfold over. cbn [s_drop s_rec s_cap]. rewrite length_remove_first by auto.
    apply gtb_false. lia.
  - destruct (s_cover s a0); reflexivity.
Qed.

Lemma over_run s ops : has_model s -> contract s ops = true ->
  over (fst (s_run s ops)) = pending (over s) ops (snd (s_run s ops)).
Proof.
  revert s. induction ops as [|o t IH]; intros s Hrep Hc; cbn [s_run contract pending] in *; [reflexivity|].
  apply andb_prop in Hc. destruct Hc as [Ho Ht].
  pose proof (has_model_step _ _ Hrep Ho) as Hrep1.
  assert (Hs : SInv s) by (destruct Hrep as (c & Hi & Hr); eapply R_SInv; eauto).
  pose proof (over_step _ _ Hs Ho) as Hov.
  destruct (s_step s o) as [s1 r]. cbn [fst snd] in *.
  specialize (IH s1 Hrep1 Ht). destruct (s_run s1 t) as [s2 rs]. cbn [fst snd] in *.
  rewrite IH, Hov. reflexivity.
Qed.

(* at most numberOfLines lines, numberOfLines+1 exactly inside the window *)
Theorem length_le_capacity L CL ops : hist_ok L CL ops ->
  exists c outs, model_run L CL ops = Ok (c, outs) /\
    zlen (lines c) <= nlines c + 1 /\
    (zlen (lines c) = nlines c + 1 <-> pending false ops outs = true) /\
    (pending false ops outs = false -> zlen (lines c) <= nlines c).
Proof.
  intros H. destruct (cache_refines_spec _ _ _ H) as (c & E & Hi & Hr).
  exists c. eexists. split; [exact E|]. pose proof (inv_len _ Hi) as Hlen.
  destruct H as [Hg Hc]. destruct (new_refines L CL Hg) as (c0 & _ & Hi0 & Hr0).
  assert (Hrep : has_model (s_new L CL)) by (exists c0; auto).
  pose proof (over_run _ _ Hrep Hc) as Hov.
  assert (H0 : over (s_new L CL) = false).
  { unfold over. cbn [s_new s_rec s_cap]. rewrite zlen_nil. apply gtb_false.
    pose proof (inv_N _ Hi0). rewrite <- (r_cap _ _ Hr0) in H. exact H. }
  rewrite H0 in Hov. rewrite <- Hov. unfold over.
  rewrite (r_rec _ _ Hr), (r_cap _ _ Hr), zlen_map.
  split; auto. split.
  - split; intros Hx; [apply Z.gtb_lt; lia | apply Z.gtb_lt in Hx; lia].
  - intros Hx. destruct (Z.gtb_spec (zlen (lines c)) (nlines c)); [discriminate | lia].
Qed.

(* non-vacuity: a history that satisfies the contract, with its outputs *)

Definition example_history : list op :=
  [OPush 0 [1; 2]; OPush 2 [3; 4]; OGet 1; OWrite 3 [9]; OPush 4 [5; 6];
   OPushW 6 [7; 8]; OEvict 0; OSub [5] 1; OLine 4; OGet 3; OGet 5].

Example example_history_ok : hist_ok 2 4 example_history.
Proof. split; vm_compute; reflexivity. Qed.

(* line 2 is written after its insertion, Get 1 makes line 0 the most recent,
   so PushLine 4 displaces line 2 and reports [3; 9]; the warning push reports
   line 0 as victim; after its eviction two lines are left *)
Example example_history_outputs :
  exists c, model_run 2 4 example_history =
    Ok (c, [RData None; RData None; RByte (Some 2); RUnit; RData (Some [3; 9]);
            RVictim (Some (mkLine 0 2 [1; 2])); RData (Some [1; 2]); RSub (Some (5, [6]));
            RData (Some [5; 6]); RByte None; RByte (Some 6)]) /\
    bases c = [4; 6].
Proof. eexists. split; vm_compute; reflexivity. Qed.

(* without the contract: overlapping lines make a read return a stale byte.
   Lines [0,2) and [1,3) overlap at address 1.  The Write of 9 to address 1
   goes to the most recent covering line (base 1); Get 0 then makes line 0
   the most recent, and Get 1 is served from line 0: it returns the 2 that
   was inserted, not the 9 written last. *)
Theorem overlap_stale_read_refuted :
  exists L CL ops a v,
    geometry_ok L CL = true /\ contract (s_new L CL) ops = false /\
    (exists c outs, model_run L CL (ops ++ [OGet a]) = Ok (c, outs) /\
       last outs RUnit = RByte (Some v)) /\
    last_written L ops a <> Some v.
Proof.
  exists 2, 4, [OPush 0 [1; 2]; OPush 1 [3; 4]; OWrite 1 [9]; OGet 0], 1, 2.
  split; [vm_compute; reflexivity|]. split; [vm_compute; reflexivity|]. split.
  - eexists. eexists. split; vm_compute; reflexivity.
  - vm_compute. discriminate.
Qed.
