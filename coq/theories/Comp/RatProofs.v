(* Proofs about Comp/Rat.v (model of proc/comp/rat.go).

   The ring of one key is summarised by its VIEW: the values a scan of
   Find / FindValues meets, newest arrival first.  The central facts:
     view after Write v   =  firstn length (v :: view before)      (rat_view_write)
     Read                 =  head of the view                      (rat_read_view)
     Find k pred          =  first element of the view with pred   (rat_find_view)
     Values / FindValues  =  Read / Find per key                   (aget_rat_values, aget_rat_findvalues)
   so a table of length n remembers exactly the last n arrivals of each key,
   for every history of writes (no bound on its length).
   entry_ok / rat_ok: every index the code uses is in range (no Go panic) in
   every table reachable from NewRAT(n), n >= 1.
   iter_order: every hint yields a permutation of the keys, and every
   permutation is obtained by some hint. *)
From Coq Require Import ZArith List Bool Arith Lia Permutation.
From Maj Require Export Comp.ListFacts.
From Maj Require Import Base.Outcome Comp.Rat.
Import ListNotations.

Lemma memZ_In k l : memZ k l = true <-> In k l.
Proof.
  unfold memZ. rewrite existsb_exists. split.
  - intros [x [Hin Hx]]. apply Z.eqb_eq in Hx. subst. exact Hin.
  - intros H. exists k. split; [exact H|apply Z.eqb_refl].
Qed.

Section AMapFacts.
  Context {A : Type}.
  Implicit Types m : list (Z * A).

  Lemma aget_aset k k' a m :
    aget k' (aset k a m) = if Z.eqb k' k then Some a else aget k' m.
  Proof.
    induction m as [|[k0 a0] t IH]; cbn [aset aget].
    - destruct (Z.eqb_spec k' k); reflexivity.
    - destruct (Z.eqb_spec k k0) as [->|Hne]; cbn [aget].
      + destruct (Z.eqb_spec k' k0); reflexivity.
      + rewrite IH. destruct (Z.eqb_spec k' k0) as [->|]; [|reflexivity].
        destruct (Z.eqb_spec k0 k); [congruence|reflexivity].
  Qed.

  Lemma memZ_akeys k m :
    memZ k (akeys m) = match aget k m with Some _ => true | None => false end.
  Proof.
    induction m as [|[k0 a0] t IH]; cbn; [reflexivity|].
    destruct (Z.eqb_spec k k0); cbn; [reflexivity|exact IH].
  Qed.

  Lemma akeys_aset k a m :
    akeys (aset k a m) = if memZ k (akeys m) then akeys m else akeys m ++ [k].
  Proof.
    induction m as [|[k0 a0] t IH]; cbn; [reflexivity|].
    destruct (Z.eqb_spec k k0) as [->|Hne]; cbn; [reflexivity|].
    unfold akeys in IH. rewrite IH. fold (memZ k (map fst t)).
    destruct (memZ k (map fst t)); reflexivity.
  Qed.

  Lemma NoDup_akeys_aset k a m : NoDup (akeys m) -> NoDup (akeys (aset k a m)).
  Proof.
    intros H. rewrite akeys_aset. destruct (memZ k (akeys m)) eqn:E; [exact H|].
    apply NoDup_snoc; [exact H|].
    intros Hin. apply memZ_In in Hin. congruence.
  Qed.

  Lemma aget_not_in k m : ~ In k (akeys m) -> aget k m = None.
  Proof.
    intros H. pose proof (memZ_akeys k m) as E.
    destruct (aget k m); [|reflexivity].
    apply memZ_In in E. contradiction.
  Qed.
End AMapFacts.

Lemma iter_order_In hint keys k : In k (iter_order hint keys) <-> In k keys.
Proof.
  unfold iter_order. rewrite in_app_iff, nodup_In, !filter_In. split.
  - intros [[_ H]|[H _]]; [apply memZ_In in H|]; exact H.
  - intros H. destruct (memZ k hint) eqn:E.
    + left. split; [apply memZ_In; exact E|apply memZ_In; exact H].
    + right. split; [exact H|reflexivity].
Qed.

Lemma memZ_iter_order hint keys k : memZ k (iter_order hint keys) = memZ k keys.
Proof.
  destruct (memZ k keys) eqn:E.
  - apply memZ_In, iter_order_In, memZ_In. exact E.
  - destruct (memZ k (iter_order hint keys)) eqn:E2; [|reflexivity].
    apply memZ_In, iter_order_In, memZ_In in E2. congruence.
Qed.

Lemma iter_order_NoDup hint keys : NoDup keys -> NoDup (iter_order hint keys).
Proof.
  intros Hk. unfold iter_order. apply NoDup_app_disj.
  - apply NoDup_nodup.
  - apply NoDup_filter. exact Hk.
  - intros x Ha Hb. rewrite nodup_In, filter_In in Ha. rewrite filter_In in Hb.
    destruct Ha as [Ha _]. destruct Hb as [_ Hb]. cbv beta in Hb. apply memZ_In in Ha. rewrite Ha in Hb. discriminate.
Qed.

(* every hint gives a permutation of the keys *)
Lemma iter_order_perm hint keys : NoDup keys -> Permutation (iter_order hint keys) keys.
Proof.
  intros Hk. apply NoDup_Permutation; [apply iter_order_NoDup; exact Hk|exact Hk|].
  intros x. apply iter_order_In.
Qed.

(* every permutation of the keys is the order of some hint: itself *)
Lemma iter_order_any p keys : NoDup keys -> Permutation p keys -> iter_order p keys = p.
Proof.
  intros Hk Hp. unfold iter_order.
  rewrite filter_true.
  2:{ intros x Hx. apply memZ_In. eapply Permutation_in; eassumption. }
  rewrite filter_false.
  2:{ intros x Hx. apply negb_false_iff, memZ_In. eapply Permutation_in; [apply Permutation_sym|]; eassumption. }
  rewrite app_nil_r. apply nodup_fixed_point.
  eapply Permutation_NoDup; [apply Permutation_sym; exact Hp|exact Hk].
Qed.

(* range over a map, each visited key k updating only entry k: order-free result *)
Lemma fold_keyed_get {B} (F : list (Z * B) -> Z -> list (Z * B)) (res : Z -> option B) :
  (forall m k r, aget r (F m k) =
                 if Z.eqb r k then match res k with Some b => Some b | None => aget r m end else aget r m) ->
  forall order m r,
    aget r (fold_left F order m) =
    if memZ r order then match res r with Some b => Some b | None => aget r m end else aget r m.
Proof.
  intros HF. induction order as [|k t IH]; intros m r; cbn [fold_left]; [reflexivity|].
  rewrite IH, !HF. unfold memZ. cbn [existsb]. fold (memZ r t).
  destruct (Z.eqb_spec r k) as [Heq|Hne]; cbn [orb]; [|reflexivity].
  rewrite Heq. destruct (memZ k t); destruct (res k); reflexivity.
Qed.

(* range over a map, assigning m2[k] = f k v: the result does not depend on the order *)
Lemma fold_aset_get {A B} (vals : list (Z * A)) (g : Z -> A -> option B) order (m : list (Z * B)) r :
  aget r (fold_left (fun m k => match aget k vals with
                                | Some a => match g k a with Some b => aset k b m | None => m end
                                | None => m
                                end) order m)
  = if memZ r order
    then match aget r vals with
         | Some a => match g r a with Some b => Some b | None => aget r m end
         | None => aget r m
         end
    else aget r m.
Proof.
  rewrite (fold_keyed_get _ (fun k => match aget k vals with Some a => g k a | None => None end)).
  - destruct (aget r vals); reflexivity.
  - intros m0 k r0. destruct (aget k vals) as [a|]; [destruct (g k a)|];
      rewrite ?aget_aset; destruct (Z.eqb r0 k); reflexivity.
Qed.

Section RatFacts.
  Context {V : Type}.
  Variable zero : V.
  Notation entry := (@entry V).
  Notation rat := (@rat V).

  Lemma set_nth_length i v (l : list V) : length (set_nth i v l) = length l.
  Proof. revert i. induction l as [|x t IH]; intros [|i]; cbn; auto. Qed.

  Lemma firstn_set_nth i v (l : list V) : (i < length l)%nat ->
    firstn (S i) (set_nth i v l) = firstn i l ++ [v].
  Proof.
    revert i. induction l as [|x t IH]; intros i H; cbn in H; [lia|].
    destruct i; [reflexivity|]. cbn [set_nth]. change (firstn (S (S i)) (x :: set_nth i v t)) with (x :: firstn (S i) (set_nth i v t)).
    rewrite IH by lia. reflexivity.
  Qed.

  Lemma skipn_set_nth i v (l : list V) : skipn (S i) (set_nth i v l) = skipn (S i) l.
  Proof.
    revert i. induction l as [|x t IH]; intros i; [destruct i; reflexivity|].
    destruct i; [reflexivity|]. cbn [set_nth]. change (skipn (S (S i)) (x :: set_nth i v t)) with (skipn (S i) (set_nth i v t)).
    rewrite IH. reflexivity.
  Qed.

  (* every index the code uses on this ring is in range *)
  Definition entry_ok (n : nat) (e : entry) : Prop :=
    length (e_vals e) = n /\ (e_idx e < n)%nat.

  (* the slots a scan meets: idx, idx-1, ..., 0 and, once wrapped, n-1, ..., idx+1 *)
  Definition view (e : entry) : list V :=
    rev (firstn (S (e_idx e)) (e_vals e))
    ++ (if e_wrapped e then rev (skipn (S (e_idx e)) (e_vals e)) else []).

  Lemma first_at_find e pred is : first_at zero e pred is = find pred (map (slot zero e) is).
  Proof. induction is as [|i t IH]; cbn; [reflexivity|]. destruct (pred (slot zero e i)); [reflexivity|exact IH]. Qed.

  Lemma e_find_view n e pred : entry_ok n e -> e_find zero n e pred = find pred (view e).
  Proof.
    intros [Hl Hi]. unfold e_find, view. rewrite !first_at_find, !map_rev.
    unfold slot. rewrite !map_nth_seq by lia. change (skipn 0 (e_vals e)) with (e_vals e).
    rewrite find_app.
    destruct (find pred (rev (firstn (S (e_idx e)) (e_vals e)))); [reflexivity|].
    destruct (e_wrapped e); [|reflexivity].
    rewrite firstn_all2; [reflexivity|]. rewrite skipn_length. lia.
  Qed.

  Lemma view_head e n : entry_ok n e -> exists t, view e = slot zero e (e_idx e) :: t.
  Proof.
    intros [Hl Hi]. unfold view, slot.
    rewrite (firstn_S_nth _ zero) by lia. rewrite rev_app_distr. cbn. eexists. reflexivity.
  Qed.

  (* the entry Write builds for a key that has one *)
  Definition e_write (n : nat) (e : entry) (v : V) : entry :=
    let i := (S (e_idx e)) mod n in
    mkEntry (set_nth i v (e_vals e)) i (e_wrapped e || (i =? 0)%nat).
  (* ... and for a new key *)
  Definition e_first (n : nat) (v : V) : entry := mkEntry (set_nth 0 v (repeat zero n)) 0 false.

  Lemma e_first_ok n v : (1 <= n)%nat -> entry_ok n (e_first n v).
  Proof. intros H. split; unfold e_first; cbn [e_vals e_idx]; [rewrite set_nth_length, repeat_length; reflexivity|lia]. Qed.

  Lemma e_first_view n v : (1 <= n)%nat -> view (e_first n v) = [v].
  Proof. intros H. destruct n; [lia|]. reflexivity. Qed.

  Lemma e_write_ok n e v : entry_ok n e -> entry_ok n (e_write n e v).
  Proof.
    intros [Hl Hi]. split; unfold e_write; cbn [e_vals e_idx]; [rewrite set_nth_length; exact Hl|].
    apply Nat.mod_upper_bound. lia.
  Qed.

  Lemma e_write_view n e v : entry_ok n e -> view (e_write n e v) = firstn n (v :: view e).
  Proof.
    intros [Hl Hi]. unfold e_write, view. cbn [e_vals e_idx e_wrapped].
    destruct n as [|m]; [lia|]. rewrite firstn_cons.
    destruct (Nat.eq_dec (S (e_idx e)) (S m)) as [Heq|Hne].
    - (* the ring wraps: the new value goes to slot 0 *)
      rewrite Heq, Nat.mod_same by lia. rewrite orb_true_r.
      rewrite (firstn_all2 (n := S m) (e_vals e)) by lia.
      rewrite (skipn_all2 (n := S m) (e_vals e)) by lia.
      replace (if e_wrapped e then rev [] else []) with (@nil V) by (destruct (e_wrapped e); reflexivity).
      rewrite app_nil_r.
      destruct (e_vals e) as [|x t]; [cbn in Hl; lia|]. cbn in Hl.
      change (set_nth 0 v (x :: t)) with (v :: t).
      change (firstn 1 (v :: t)) with [v]. change (skipn 1 (v :: t)) with t.
      cbn [rev app]. f_equal. symmetry. apply firstn_app_exact. rewrite rev_length. lia.
    - rewrite Nat.mod_small by lia.
      rewrite firstn_set_nth by lia. rewrite skipn_set_nth. rewrite rev_app_distr. cbn [rev app].
      replace ((S (e_idx e) =? 0)%nat) with false by reflexivity. rewrite orb_false_r.
      f_equal.
      assert (Hla : length (rev (firstn (S (e_idx e)) (e_vals e))) = S (e_idx e)).
      { rewrite rev_length, firstn_length. lia. }
      destruct (e_wrapped e).
      + rewrite (skipn_nth (e_vals e) (S (e_idx e)) zero) by lia. cbn [rev].
        rewrite app_assoc. symmetry. apply firstn_app_exact.
        rewrite app_length, Hla, rev_length, skipn_length. lia.
      + rewrite app_nil_r. symmetry. apply firstn_all2. lia.
  Qed.

  Definition nlen (r : rat) : nat := Z.to_nat (r_len r).

  Definition rat_ok (r : rat) : Prop :=
    (1 <= nlen r)%nat /\ NoDup (akeys (r_tab r)) /\
    forall k e, aget k (r_tab r) = Some e -> entry_ok (nlen r) e.

  (* the last arrivals of key k the table still holds, newest first *)
  Definition rat_view (r : rat) (k : Z) : list V :=
    match aget k (r_tab r) with Some e => view e | None => [] end.

  Lemma rat_new_ok len : (1 <= len)%Z -> rat_ok (rat_new len).
  Proof.
    intros H. split; [unfold nlen; cbn; lia|]. split; [constructor|]. intros k e. cbn. discriminate.
  Qed.

  Lemma rat_new_view len k : rat_view (rat_new len) k = [].
  Proof. reflexivity. Qed.

  Lemma rat_write_o_ok r k v : rat_ok r -> rat_write_o zero r k v = Ok (rat_write zero r k v).
  Proof.
    intros [H _]. unfold rat_write_o, nlen in *. destruct (Z.leb_spec (r_len r) 0); [lia|reflexivity].
  Qed.

  Lemma rat_write_tab r k v :
    rat_write zero r k v =
    mkRat (r_len r) (aset k (match aget k (r_tab r) with
                             | Some e => e_write (nlen r) e v
                             | None => e_first (nlen r) v
                             end) (r_tab r)).
  Proof. unfold rat_write. destruct (aget k (r_tab r)); reflexivity. Qed.

  Lemma rat_write_ok r k v : rat_ok r -> rat_ok (rat_write zero r k v).
  Proof.
    intros (Hn & Hnd & He). rewrite rat_write_tab. split; [exact Hn|]. split.
    - cbn. apply NoDup_akeys_aset. exact Hnd.
    - intros k' e'. unfold nlen. cbn [r_len r_tab]. fold (nlen r). rewrite aget_aset.
      destruct (Z.eqb_spec k' k) as [->|_]; [|apply He].
      intros [= <-]. destruct (aget k (r_tab r)) as [e|] eqn:E.
      + apply e_write_ok. eapply He. exact E.
      + apply e_first_ok. exact Hn.
  Qed.

  Lemma rat_view_write r k v k' : rat_ok r ->
    rat_view (rat_write zero r k v) k' =
    if Z.eqb k' k then firstn (nlen r) (v :: rat_view r k) else rat_view r k'.
  Proof.
    intros (Hn & Hnd & He). rewrite rat_write_tab. unfold rat_view. cbn [r_tab]. rewrite aget_aset.
    destruct (Z.eqb_spec k' k) as [->|_]; [|reflexivity].
    destruct (aget k (r_tab r)) as [e|] eqn:E.
    - apply e_write_view. eapply He. exact E.
    - rewrite e_first_view by exact Hn. destruct (nlen r); [lia|]. cbn. rewrite firstn_nil. reflexivity.
  Qed.

  Lemma rat_read_view r k : rat_ok r -> rat_read zero r k = hd_error (rat_view r k).
  Proof.
    intros (Hn & Hnd & He). unfold rat_read, rat_view.
    destruct (aget k (r_tab r)) as [e|] eqn:E; [|reflexivity].
    destruct (view_head e (nlen r) (He _ _ E)) as [t ->]. reflexivity.
  Qed.

  Lemma rat_read_write r k v q : rat_ok r ->
    rat_read zero (rat_write zero r k v) q = if (q =? k)%Z then Some v else rat_read zero r q.
  Proof.
    intros Hok. rewrite !rat_read_view by (try apply rat_write_ok; exact Hok). rewrite rat_view_write by exact Hok.
    destruct (q =? k)%Z; [|reflexivity]. destruct Hok as [Hn _]. destruct (nlen r); [lia | reflexivity].
  Qed.

  Lemma rat_find_view r k pred : rat_ok r -> rat_find zero r k pred = find pred (rat_view r k).
  Proof.
    intros (Hn & Hnd & He). unfold rat_find, rat_view.
    destruct (aget k (r_tab r)) as [e|] eqn:E; [|reflexivity].
    apply e_find_view. eapply He. exact E.
  Qed.

  Lemma rat_view_length r k : rat_ok r -> (length (rat_view r k) <= nlen r)%nat.
  Proof.
    intros (Hn & Hnd & He). unfold rat_view.
    destruct (aget k (r_tab r)) as [e|] eqn:E; [|cbn; lia].
    destruct (He _ _ E) as [Hl Hi]. unfold view.
    rewrite app_length, rev_length, firstn_length.
    destruct (e_wrapped e); [rewrite rev_length, skipn_length|cbn [length]]; lia.
  Qed.

  (* Values() and FindValues() as maps *)
  Lemma aget_rat_values r k : aget k (rat_values zero r) = rat_read zero r k.
  Proof.
    unfold rat_values, rat_read. induction (r_tab r) as [|[k0 e0] t IH]; cbn; [reflexivity|].
    destruct (Z.eqb k k0); [reflexivity|exact IH].
  Qed.

  Lemma aget_rat_findvalues r pred k : rat_ok r ->
    aget k (rat_findvalues zero r pred) = rat_find zero r k pred.
  Proof.
    intros (_ & Hnd & _). unfold rat_findvalues, rat_find. fold (nlen r).
    generalize (nlen r) as n. intros n. revert Hnd.
    induction (r_tab r) as [|[k0 e0] t IH]; cbn; intros Hnd; [reflexivity|].
    inversion Hnd as [|? ? Hni Hnd']; subst.
    destruct (Z.eqb_spec k k0) as [->|Hne].
    - destruct (e_find zero n e0 pred) eqn:Ef; cbn; [rewrite Z.eqb_refl; reflexivity|].
      apply aget_not_in. intros Hin. apply Hni.
      unfold akeys in Hin. rewrite in_map_iff in Hin. destruct Hin as [[k1 v1] [Hk Hin]]. cbn in Hk. subst k1.
      rewrite in_flat_map in Hin. destruct Hin as [[k2 e2] [Hin2 Hin3]]. cbn in Hin3.
      destruct (e_find zero n e2 pred); [|contradiction]. destruct Hin3 as [[= <- _]|[]].
      change k2 with (fst (k2, e2)). apply in_map. exact Hin2.
    - destruct (e_find zero n e0 pred); cbn; [|apply IH; exact Hnd'].
      destruct (Z.eqb_spec k k0); [contradiction|]. apply IH. exact Hnd'.
  Qed.
End RatFacts.

(* for k, v := range vals { table.Write(k, f v) }: what Read returns afterwards,
   for every iteration order *)
Definition wfold {A} (zero : Z) (f : A -> Z) (vals : list (Z * A)) (order : list Z) (t : @rat Z) : @rat Z :=
  fold_left (fun t k => match aget k vals with
                        | Some a => rat_write zero t k (f a)
                        | None => t
                        end) order t.

Lemma fold_rat_write_read {A} (zero : Z) (f : A -> Z) (vals : list (Z * A)) order :
  forall (t : @rat Z), rat_ok t ->
  rat_ok (wfold zero f vals order t) /\
  forall r, rat_read zero (wfold zero f vals order t) r =
            if memZ r order
            then match aget r vals with Some a => Some (f a) | None => rat_read zero t r end
            else rat_read zero t r.
Proof.
  induction order as [|k rest IH]; intros t Hok; unfold wfold; cbn [fold_left].
  - split; [exact Hok|reflexivity].
  - set (t1 := match aget k vals with Some a => rat_write zero t k (f a) | None => t end).
    assert (Hok1 : rat_ok t1).
    { unfold t1. destruct (aget k vals); [apply rat_write_ok|]; exact Hok. }
    destruct (IH t1 Hok1) as [Hok' Hrd]. unfold wfold in Hok', Hrd. split; [exact Hok'|].
    intros r. rewrite Hrd. unfold memZ. cbn [existsb]. fold (memZ r rest).
    assert (H1 : rat_read zero t1 r = if Z.eqb r k then match aget k vals with Some a => Some (f a) | None => rat_read zero t r end else rat_read zero t r).
    { unfold t1. destruct (aget k vals) as [a|] eqn:Ea.
      - rewrite !rat_read_view by (try apply rat_write_ok; exact Hok).
        rewrite rat_view_write by exact Hok.
        destruct (Z.eqb_spec r k) as [->|]; [|reflexivity].
        destruct Hok as [Hn _]. destruct (nlen t); [lia|reflexivity].
      - destruct (Z.eqb r k); reflexivity. }
    destruct (Z.eqb_spec r k) as [Heq|Hne]; cbn [orb].
    + rewrite H1, Heq. destruct (memZ k rest); [|reflexivity].
      destruct (aget k vals); reflexivity.
    + rewrite H1. reflexivity.
Qed.

Section RatRun.
  Context {V : Type}.
  Variable zero : V.

  Definition rat_writes (r : @rat V) (ws : list (Z * V)) : @rat V :=
    fold_left (fun r kv => rat_write zero r (fst kv) (snd kv)) ws r.

  (* the values written to key k, newest arrival first *)
  Definition arrivals (k : Z) (ws : list (Z * V)) : list V :=
    rev (map snd (filter (fun kv => Z.eqb (fst kv) k) ws)).

  Lemma arrivals_snoc k ws kv :
    arrivals k (ws ++ [kv]) = if Z.eqb k (fst kv) then snd kv :: arrivals k ws else arrivals k ws.
  Proof.
    unfold arrivals. rewrite filter_app, map_app, rev_app_distr. cbn [filter].
    rewrite (Z.eqb_sym k). destruct (Z.eqb (fst kv) k); reflexivity.
  Qed.

  (* a table of length len holds exactly the last len arrivals of every key,
     and every index it uses stays in range *)
  Theorem rat_keeps_last_arrivals len ws : (1 <= len)%Z ->
    rat_ok (rat_writes (rat_new len) ws) /\
    r_len (rat_writes (rat_new len) ws) = len /\
    forall k, rat_view (rat_writes (rat_new len) ws) k = firstn (Z.to_nat len) (arrivals k ws).
  Proof.
    intros Hlen. induction ws as [|kv ws IH] using rev_ind.
    - split; [apply rat_new_ok; exact Hlen|]. split; [reflexivity|].
      intros k. cbn. rewrite firstn_nil. reflexivity.
    - destruct IH as (Hok & Hl & Hv). unfold rat_writes in *. rewrite fold_left_app. cbn [fold_left].
      split; [apply rat_write_ok; exact Hok|]. split; [rewrite rat_write_tab; exact Hl|].
      intros k. rewrite rat_view_write by exact Hok. rewrite arrivals_snoc.
      unfold nlen. rewrite Hl.
      destruct (Z.eqb_spec k (fst kv)) as [->|]; [|apply Hv]. rewrite Hv. apply firstn_cons_firstn.
  Qed.

  Corollary rat_read_last_arrival len ws k : (1 <= len)%Z ->
    rat_read zero (rat_writes (rat_new len) ws) k = hd_error (arrivals k ws).
  Proof.
    intros Hlen. destruct (rat_keeps_last_arrivals len ws Hlen) as (Hok & Hl & Hv).
    rewrite rat_read_view by exact Hok. rewrite Hv.
    destruct (Z.to_nat len) eqn:E; [lia|]. destruct (arrivals k ws); reflexivity.
  Qed.

  Corollary rat_find_newest_match len ws k p : (1 <= len)%Z ->
    rat_find zero (rat_writes (rat_new len) ws) k p = find p (firstn (Z.to_nat len) (arrivals k ws)).
  Proof.
    intros Hlen. destruct (rat_keeps_last_arrivals len ws Hlen) as (Hok & Hl & Hv).
    rewrite rat_find_view by exact Hok. rewrite Hv. reflexivity.
  Qed.

  Corollary rat_values_last_arrival len ws k : (1 <= len)%Z ->
    aget k (rat_values zero (rat_writes (rat_new len) ws)) = hd_error (arrivals k ws).
  Proof. intros Hlen. rewrite aget_rat_values. apply rat_read_last_arrival. exact Hlen. Qed.

  Corollary rat_findvalues_newest_match len ws k p : (1 <= len)%Z ->
    aget k (rat_findvalues zero (rat_writes (rat_new len) ws) p)
    = find p (firstn (Z.to_nat len) (arrivals k ws)).
  Proof.
    intros Hlen. rewrite aget_rat_findvalues by (apply rat_keeps_last_arrivals; exact Hlen).
    apply rat_find_newest_match. exact Hlen.
  Qed.

  (* Write does not panic on any table built with length >= 1 *)
  Corollary rat_write_never_panics len ws k v : (1 <= len)%Z ->
    rat_write_o zero (rat_writes (rat_new len) ws) k v = Ok (rat_write zero (rat_writes (rat_new len) ws) k v).
  Proof. intros Hlen. apply rat_write_o_ok. apply rat_keeps_last_arrivals. exact Hlen. Qed.
End RatRun.

(* a ring of 2 slots, three writes to key 1 with values 10, 20, 30: the oldest is gone *)
Example rat_ring_forgets :
  let r := rat_writes 0%Z (rat_new 2) [(1, 10); (1, 20); (1, 30)]%Z in
  rat_read 0%Z r 1 = Some 30%Z /\
  rat_find 0%Z r 1 (fun v => Z.ltb v 25) = Some 20%Z /\
  rat_find 0%Z r 1 (fun v => Z.ltb v 15) = None /\
  rat_write_o 0%Z (rat_new 0) 1 10%Z = Panic.
Proof. vm_compute. repeat split. Qed.
