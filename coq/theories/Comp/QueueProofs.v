(* Proofs about the H model of proc/comp/queue.go (Comp/Queue.v):
   iteration yields the elements in push order; removing snapshot elements
   during the iteration removes exactly those and keeps the order of the rest;
   IsFull iff Length >= capacity.  All for arbitrary histories. *)
From Coq Require Import ZArith List Bool Lia.
From Maj Require Import Base.Outcome Comp.ListFacts Comp.Bus Comp.BusProofs Comp.Queue.
Import ListNotations.
Open Scope Z_scope.

Theorem isfull_iff q : q_isfull q = true <-> q_length q >= q_cap q.
Proof. unfold q_isfull. rewrite Z.leb_le. lia. Qed.

(* reachable queues: identities are distinct and below the counter *)
Definition q_wf (q : gqueue) : Prop :=
  NoDup (map fst (q_items q)) /\ forall e, In e (q_items q) -> fst e < q_next q.

Lemma filter_subseq {A} (g : A -> bool) l : subseq (filter g l) l.
Proof. induction l as [|x l IH]; simpl; [constructor|]. destruct (g x); [apply sub_take | apply sub_skip]; auto. Qed.

Lemma map_subseq {A B} (f : A -> B) l1 l2 : subseq l1 l2 -> subseq (map f l1) (map f l2).
Proof. induction 1; simpl; [constructor | apply sub_skip | apply sub_take]; auto. Qed.

Lemma wf_new cap : q_wf (q_new cap).
Proof. split; simpl; [constructor | tauto]. Qed.

Lemma wf_push q v : q_wf q -> q_wf (q_push q v).
Proof.
  intros [N B]. split; simpl.
  - rewrite map_app. simpl. apply NoDup_snoc; auto.
    intros Hin. apply in_map_iff in Hin. destruct Hin as (e & He & Hin). specialize (B e Hin). lia.
  - intros e Hin. apply in_app_or in Hin. destruct Hin as [Hin | [<- | []]].
    + specialize (B e Hin). lia.
    + simpl. lia.
Qed.

Lemma wf_remove q e : q_wf q -> q_wf (q_remove q e).
Proof.
  intros [N B]. split; simpl.
  - apply (subseq_NoDup _ (map fst (q_items q))); [apply map_subseq, filter_subseq | exact N].
  - intros x Hin. apply filter_In in Hin. apply B. tauto.
Qed.

Lemma wf_fold (p : Z -> bool) (snap : list elem) : forall q, q_wf q ->
  q_wf (fold_left (fun q e => if p (q_value e) then q_remove q e else q) snap q).
Proof.
  induction snap as [|e snap IH]; intros q W; simpl; auto.
  apply IH. destruct (p (q_value e)); auto. apply wf_remove; auto.
Qed.

Lemma wf_step q o : q_wf q -> q_wf (fst (q_step q o)).
Proof.
  intros W. destruct o; simpl; auto.
  - apply wf_push; auto.
  - apply wf_fold; auto.
Qed.

Theorem wf_run h : forall q, q_wf q -> q_wf (fst (q_run q h)).
Proof.
  induction h as [|o h IH]; intros q W; simpl; auto.
  pose proof (wf_step q o W) as W1. destruct (q_step q o) as [q1 x]. simpl in W1.
  specialize (IH q1 W1). destruct (q_run q1 h). exact IH.
Qed.

Corollary wf_reachable cap h : q_wf (fst (q_run (q_new cap) h)).
Proof. exact (wf_run h (q_new cap) (wf_new cap)). Qed.

(* ITERATION IN PUSH ORDER: after pushing vs onto a queue, the iterator yields
   what was there, then vs, in that order *)
Lemma push_all_items vs : forall q,
  map q_value (q_iterator (fold_left q_push vs q)) = map q_value (q_iterator q) ++ vs.
Proof.
  induction vs as [|v vs IH]; intros q; simpl.
  - rewrite app_nil_r. reflexivity.
  - rewrite IH. unfold q_iterator, q_push. simpl. rewrite map_app. simpl.
    rewrite <- app_assoc. reflexivity.
Qed.

Theorem iter_push_order cap vs :
  map q_value (q_iterator (fold_left q_push vs (q_new cap))) = vs.
Proof. rewrite push_all_items. reflexivity. Qed.

(* REMOVAL DURING ITERATION, general form: the queue after the loop is the
   queue before it, filtered: an element goes iff its identity is that of a
   visited element whose value satisfies p.  filter keeps the order. *)
Lemma fold_remove (p : Z -> bool) (snap : list elem) : forall q,
  q_items (fold_left (fun q e => if p (q_value e) then q_remove q e else q) snap q)
  = filter (fun x => negb (existsb (fun e => (fst x =? fst e) && p (q_value e)) snap)) (q_items q).
Proof.
  induction snap as [|e snap IH]; intros q; simpl.
  - induction (q_items q) as [|x l IHl]; simpl; [reflexivity | f_equal; exact IHl].
  - rewrite IH. destruct (p (q_value e)) eqn:P; simpl.
    + rewrite filter_filter. apply filter_ext. intros x.
      destruct (fst x =? fst e); simpl; reflexivity.
    + apply filter_ext. intros x. rewrite andb_false_r. reflexivity.
Qed.

(* identities are not repeated, so "a visited element with my identity satisfies
   p" says that I was visited and satisfy p: of the visited part l1 exactly the
   elements satisfying p go, the rest l2 stays *)
Lemma filter_visited (p : Z -> bool) (l1 l2 : list elem) : NoDup (map fst (l1 ++ l2)) ->
  filter (fun x => negb (existsb (fun e => (fst x =? fst e) && p (q_value e)) l1)) (l1 ++ l2)
  = filter (fun x => negb (p (q_value x))) l1 ++ l2.
Proof.
  intros N. rewrite filter_app. f_equal.
  - apply filter_ext_in. intros x Hx. f_equal. apply eq_iff_eq_true. rewrite existsb_exists. split.
    + intros (e & He & Hc). apply andb_prop in Hc as [Hid Hp]. apply Z.eqb_eq in Hid.
      rewrite (NoDup_map_inj fst _ N x e); auto using in_or_app.
    + intros Hp. exists x. rewrite Z.eqb_refl. auto.
  - apply filter_true. intros x Hx. apply negb_true_iff, not_true_is_false. rewrite existsb_exists.
    intros (e & He & Hc). apply andb_prop in Hc as [Hid _]. apply Z.eqb_eq in Hid.
    rewrite map_app in N. apply (NoDup_app_not_both _ _ (fst x) N); [rewrite Hid|]; now apply in_map.
Qed.

(* REMOVAL DURING A COMPLETE ITERATION of a reachable queue: exactly the
   elements whose value satisfies p are gone, the others are there in their
   old order, every value was visited once in queue order *)
Theorem iter_remove q p :
  q_wf q ->
  q_items (fst (q_iter q p (-1))) = filter (fun x => negb (p (q_value x))) (q_items q) /\
  snd (q_iter q p (-1)) = map q_value (q_items q).
Proof.
  intros [N _]. unfold q_iter. simpl. split; [|reflexivity]. rewrite fold_remove. unfold q_iterator.
  pose proof (filter_visited p (q_items q) []) as H. rewrite !app_nil_r in H. auto.
Qed.

(* with an early stop after n elements: only visited elements can go *)
Theorem iter_remove_partial q p limit :
  q_wf q -> 0 <= limit ->
  let n := Z.to_nat limit in
  q_items (fst (q_iter q p limit))
  = filter (fun x => negb (p (q_value x))) (firstn n (q_items q)) ++ skipn n (q_items q) /\
  snd (q_iter q p limit) = map q_value (firstn n (q_items q)).
Proof.
  intros [N _] L n. unfold q_iter. destruct (limit <? 0) eqn:E; [apply Z.ltb_lt in E; lia|].
  simpl. fold n. split; [|reflexivity]. rewrite fold_remove. unfold q_iterator.
  rewrite <- (firstn_skipn n (q_items q)) in N |- * at 1. now apply filter_visited.
Qed.

(* over whole histories from NewQueue: the queue always holds a subsequence of
   the pushed values, in push order *)
Fixpoint pushed (h : list qop) : list Z :=
  match h with [] => [] | QPush v :: h' => v :: pushed h' | _ :: h' => pushed h' end.

Theorem queue_order h : forall q,
  subseq (map q_value (q_items (fst (q_run q h)))) (map q_value (q_items q) ++ pushed h).
Proof.
  induction h as [|o h IH]; intros q.
  - simpl. rewrite app_nil_r. apply subseq_refl.
  - simpl. destruct (q_step q o) as [q1 x] eqn:E. specialize (IH q1).
    destruct (q_run q1 h) as [q2 xs]. simpl in *.
    eapply subseq_trans; [|exact IH]. clear IH.
    destruct o; simpl in E; inversion E; subst; simpl.
    + rewrite map_app, <- app_assoc. simpl. apply subseq_refl.
    + apply subseq_refl.
    + apply subseq_refl.
    + apply subseq_app; [|apply subseq_refl]. apply map_subseq. rewrite fold_remove. apply filter_subseq.
Qed.

Corollary queue_order_new cap h :
  subseq (map q_value (q_items (fst (q_run (q_new cap) h)))) (pushed h).
Proof. exact (queue_order h (q_new cap)). Qed.

Example queue_ex :
  let h := [QPush 10; QPush 11; QPush 12; QLength; QIsFull; QIter (pred_of 2) 2; QPush 13; QIsFull;
            QIter (pred_of 1) 0; QIter (pred_of (-11)) (-1); QLength] in
  snd (q_run (q_new 3) h) =
    [QNone; QNone; QNone; QInt 3; QBool true; QList [10; 11]; QNone; QBool true;
     QList []; QList [11; 12; 13]; QInt 2] /\
  map q_value (q_items (fst (q_run (q_new 3) h))) = [12; 13].
Proof. vm_compute. auto. Qed.
