(* Proofs about the MVP-1 / MVP-2 models (Mvp12.v): both compute the sequential
   architectural result (C01), MVP-1's cycle count is the documented sum of
   latencies (C12), MVP-2 is never slower than MVP-1 (C12), neither panics nor
   diverges on a program the sequential machine runs (C07). *)
From Coq Require Import ZArith List Bool Lia.
From Maj Require Import Base.Outcome Base.GoInt Base.GoTypes Isa.Spec Isa.Embed Isa.Seq.
From Maj Require Import Gen.Latency Gen.RiscTables Gen.BytesGo Gen.Opcodes Bytes.Proofs Isa.Refine Mvp.Mvp12.
Import ListNotations.
Open Scope Z_scope.

(* ------------------------------------------------------------------ *)
(* well-formedness and invariants                                       *)

Definition wf_app (app : list instr) : Prop :=
  Forall (fun i => int32 (imm_of (sinstr_of i))) app /\ 4 * Z.of_nat (length app) < 2147483640.

Definition wf_labels (labels : Z -> option Z) : Prop := forall l a, labels l = Some a -> int32 a.

Definition inv (regs mem : list Z) : Prop := Forall int32 regs /\ Forall int8 mem.

Ltac unf_rng :=
  unfold inS, inU in *;
  change (2^(32-1)) with 2147483648 in *; change (2^(16-1)) with 32768 in *; change (2^(8-1)) with 128 in *.

Lemma int32_0 : int32 0. Proof. apply int32_bounds; lia. Qed.
Lemma int8_0 : int8 0. Proof. apply int8_bounds; lia. Qed.

Lemma nth_Forall {A} (P : A -> Prop) l n d : Forall P l -> P d -> P (nth n l d).
Proof.
  intros H Hd. revert n. induction H; intros [|n]; simpl; auto.
Qed.

Lemma rget_int32 regs r : Forall int32 regs -> int32 (rget regs r).
Proof.
  intros H. unfold rget. destruct (r =? 0); [apply int32_0|].
  apply nth_Forall; [assumption | apply int32_0].
Qed.

Lemma upd_Forall {A} (P : A -> Prop) l n v : Forall P l -> P v -> Forall P (upd l n v).
Proof.
  intros H Hv. revert n. induction H; intros n; simpl; [constructor|].
  destruct n; constructor; auto.
Qed.

Lemma rset_int32 regs r v : Forall int32 regs -> int32 v -> Forall int32 (rset regs r v).
Proof. intros. unfold rset. destruct (r =? 0); [assumption|]. apply upd_Forall; assumption. Qed.

Lemma mset_all_int8 mem bs : Forall int8 mem -> Forall (fun p => int8 (snd p)) bs -> Forall int8 (mset_all mem bs).
Proof.
  intros Hm Hb. revert mem Hm. induction Hb as [|[a v] t Hv _ IH]; intros mem Hm; simpl; [assumption|].
  apply IH. unfold mset. apply upd_Forall; assumption.
Qed.

Lemma mget_int8 mem a : Forall int8 mem -> int8 (mget mem a).
Proof. intros. unfold mget. apply nth_Forall; [assumption | apply int8_0]. Qed.

Lemma rset_reg_pair regs rd v :
  rset regs (fst (reg_pair rd v)) (snd (reg_pair rd v)) = rset regs rd v.
Proof.
  unfold reg_pair. destruct (rd =? 0) eqn:E; simpl; [|reflexivity].
  unfold rset. rewrite E. reflexivity.
Qed.

(* ------------------------------------------------------------------ *)
(* facts about the specified effects                                    *)

Lemma s8_range x : int8 (s8 x).
Proof. rewrite s8_wrap. apply wrapS_range. lia. Qed.
Lemma s16_range x : int32 (s16 x).
Proof.
  rewrite s16_wrap. pose proof (wrapS_range 16 x ltac:(lia)) as H. unf_rng. lia.
Qed.
Lemma s8_range32 x : int32 (s8 x).
Proof. pose proof (s8_range x) as H. unf_rng. lia. Qed.

Lemma sra_range x k : 0 <= k -> int32 (s x / 2 ^ k).
Proof.
  intros Hk. pose proof (s_range x) as H. unf_rng.
  assert (0 < 2 ^ k) by (apply Z.pow_pos_nonneg; lia).
  split.
  - apply Z.div_le_lower_bound; [lia|]. nia.
  - apply Z.div_lt_upper_bound; [lia|]. nia.
Qed.

Lemma bool01_range (b : bool) : int32 (if b then 1 else 0).
Proof. destruct b; unf_rng; lia. Qed.

Lemma exec_ranges si rr labels pc mem e :
  wf_labels labels ->
  exec si rr labels pc mem = Ok e ->
  match e with
  | EReg _ v => int32 v
  | EStore bs => Forall (fun p => int8 (snd p)) bs
  | EGoto a => int32 a
  | ELink _ v a => int32 v /\ int32 a
  | _ => True
  end.
Proof.
  intros Hl H. destruct si; exec_inv H;
    try exact I; try apply s_range; try apply s8_range32; try apply s16_range;
    try (apply sra_range; apply shamt_range);
    try (eapply Hl; eassumption);
    try (split; [apply s_range | first [apply s_range | eapply Hl; eassumption]]);
    try (repeat constructor; apply s8_range);
    apply int32_bounds; lia.   (* slt, sltu, slti: 0 or 1 *)
Qed.

Lemma load_addrs_mem_ok si rr mem :
  Forall int8 mem -> mem_ok si (map (mget mem) (load_addrs si rr)).
Proof.
  intros Hm. split.
  - apply Forall_forall. intros x Hx. apply in_map_iff in Hx as (a & <- & _). apply mget_int8; assumption.
  - destruct si; exact I || reflexivity.
Qed.

Lemma cycles_total i : exists c, InstructionType_Cycles (instr_InstructionType i) = Ok c /\ 0 < c.
Proof. destruct i; eexists; (split; [reflexivity | lia]). Qed.

(* which instructions read memory / what the write-back costs *)
Lemma memory_read_nil i rr :
  (match instr_MemoryRead i rr 0 with [] => 0 | _ => MemoryAccess end)
  = if InstructionType_IsMemoryRead (instr_InstructionType i) then MemoryAccess else 0.
Proof. destruct i; reflexivity. Qed.

Definition wb_cost (e : effect) : Z :=
  match e with
  | EReg _ _ | ELink _ _ _ => RegisterAccess
  | EStore _ => MemoryAccess
  | _ => 0
  end.

Lemma wb_cost_instr i rr labels pc mem e :
  exec (sinstr_of i) rr labels pc mem = Ok e ->
  (e = EReturn <-> is_ret i = true) /\
  wb_cost e = (if is_ret i then 0
               else match instr_WriteRegisters i with
                    | _ :: _ => RegisterAccess
                    | [] => if InstructionType_IsMemoryWrite (instr_InstructionType i) then MemoryAccess else 0
                    end).
Proof.
  intros H. destruct i; cbn [sinstr_of] in H; exec_inv H;
    (split; [split; intros; discriminate || reflexivity | reflexivity]).
Qed.

(* ------------------------------------------------------------------ *)
(* one model iteration against one specification step                    *)

Section Refine.
  Variables (app : list instr) (labels : Z -> option Z).
  Hypothesis Happ : wf_app app.
  Hypothesis Hlab : wf_labels labels.
  Let sp := map sinstr_of app.

  Lemma nth_app n si : nth_error sp n = Some si -> exists i, nth_error app n = Some i /\ si = sinstr_of i.
  Proof.
    unfold sp. intros H. rewrite nth_error_map in H. destruct (nth_error app n) eqn:E; [|discriminate].
    injection H as <-. eauto.
  Qed.

  Lemma imm_ok n i : nth_error app n = Some i -> int32 (imm_of (sinstr_of i)).
  Proof.
    intros H. destruct Happ as [Hf _]. rewrite Forall_forall in Hf. apply Hf.
    eapply nth_error_In; eassumption.
  Qed.

  Lemma quot_div pc : 0 <= pc -> Z.quot pc 4 = pc / 4.
  Proof. intros. apply Z.quot_div_nonneg; lia. Qed.

  Lemma pc_next pc i : 0 <= pc -> nth_error app (Z.to_nat (pc / 4)) = Some i -> addS 32 pc 4 = pc + 4 /\ int32 (pc + 4).
  Proof.
    intros Hpc Hn. destruct Happ as [_ Hlen].
    assert (Hlt : (Z.to_nat (pc / 4) < length app)%nat) by (apply nth_error_Some; congruence).
    assert (pc / 4 < Z.of_nat (length app)) by lia.
    assert (pc < 4 * Z.of_nat (length app)) by (pose proof (Z.div_mod pc 4 ltac:(lia)); pose proof (Z.mod_pos_bound pc 4 ltac:(lia)); lia).
    assert (Hr : int32 (pc + 4)) by (unf_rng; lia).
    split; [|assumption]. unfold addS. apply wrapS_id; [lia | assumption].
  Qed.

  (* cycles as a function of the variant, the program and the FORWARD trace of pcs only *)
  Definition rest_cost (pc : Z) : Z :=
    match nth_error app (Z.to_nat (pc / 4)) with Some i => cost1 i - MemoryAccess | None => 0 end.

  Fixpoint tcost (v : variant12) (win : Z * Z) (tr : list Z) : Z :=
    match tr with
    | [] => 0
    | pc :: t => let '(c1, win') := fetch12 v pc win in c1 + rest_cost pc + tcost v win' t
    end.

  Lemma fetch12_bounds v pc win : let '(c1, _) := fetch12 v pc win in 0 < c1 <= MemoryAccess /\ (v = V1 -> c1 = MemoryAccess).
  Proof.
    destruct v; simpl.
    - split; [unfold MemoryAccess; lia | reflexivity].
    - destruct win as [from to]. destruct ((from <=? pc) && (pc <=? to)); (split; [unfold L1Access, MemoryAccess; lia | discriminate]).
  Qed.

  (* One iteration of the Run loop does what one step of the sequential machine does, in
     fetch + rest_cost cycles; the errors the ISA defines come back as error values. *)
  Lemma mrun_step v f regs mem cycle win pc :
    inv regs mem -> int32 pc ->
    let '(c1, win') := fetch12 v pc win in
    let it := mrun v (S f) app labels regs mem cycle win pc in
    match step sp labels (mk_arch regs mem) pc with
    | Next st' pc' =>
        it = mrun v f app labels (Seq.regs st') (Seq.mem st') (cycle + c1 + rest_cost pc) win' pc' /\
        inv (Seq.regs st') (Seq.mem st') /\ int32 pc'
    | Halt st' =>
        it = MDone (match fetch sp pc with Some _ => cycle + c1 + rest_cost pc | None => cycle end) st'
    | Fail e => e = EDivZero \/ e = ELabel -> it = MErr e
    end.
  Proof.
    intros [Hr Hm] Hpc. destruct (fetch12 v pc win) as [c1 win'] eqn:Ef. cbv zeta.
    unfold step, fetch. cbn [Seq.regs Seq.mem mrun].
    destruct (Z.ltb_spec pc 0) as [|Epc]; [intros [|]; discriminate|].
    rewrite (quot_div pc Epc), Ef. pose proof (Z.div_pos pc 4 Epc ltac:(lia)) as Hq.
    destruct (nth_error sp (Z.to_nat (pc / 4))) as [si|] eqn:Enth.
    2:{ (* the pc left the text *)
      apply nth_error_None in Enth. unfold sp in Enth. rewrite map_length in Enth.
      replace (pc / 4 <? Z.of_nat (length app)) with false by (symmetry; apply Z.ltb_ge; lia). reflexivity. }
    destruct (nth_app _ _ Enth) as (i & Ei & ->).
    assert (Hlt : (Z.to_nat (pc / 4) < length app)%nat) by (apply nth_error_Some; congruence).
    replace (pc / 4 <? Z.of_nat (length app)) with true by (symmetry; apply Z.ltb_lt; lia).
    replace (pc / 4 <? 0) with false by (symmetry; apply Z.ltb_ge; exact Hq).
    rewrite Ei, memory_read_exact.
    set (rr := rget regs).
    assert (Hrr : forall r, int32 (rr r)) by (intros r; apply rget_int32; exact Hr).
    destruct (negb (forallb (in_mem mem) (load_addrs (sinstr_of i) rr))); [intros [|]; discriminate|].
    rewrite (run_refines_spec rr labels pc _ 0 Hrr i (imm_ok _ _ Ei) (load_addrs_mem_ok _ rr mem Hm)).
    pose proof (memory_read_nil i rr) as Hmr. rewrite memory_read_exact in Hmr.
    destruct (exec (sinstr_of i) rr labels pc (map (mget mem) (load_addrs (sinstr_of i) rr))) as [e|err|] eqn:Eex;
      cbn [omap]; [|intros _; reflexivity | intros [|]; discriminate].
    destruct (cycles_total i) as (c3 & Ec3 & _). rewrite Ec3.
    pose proof (exec_ranges _ _ _ _ _ _ Hlab Eex) as Hrange.
    destruct (wb_cost_instr _ _ _ _ _ _ Eex) as [_ Hwb].
    destruct (pc_next pc i Epc Ei) as [Hpc4 Hpc4r].
    assert (Hcost : rest_cost pc = cyclesDecode + (match load_addrs (sinstr_of i) rr with [] => 0 | _ => MemoryAccess end)
                                   + c3 + wb_cost e).
    { unfold rest_cost. rewrite Ei. unfold cost1. rewrite Ec3, Hmr, Hwb. ring. }
    rewrite Hcost.
    destruct e as [rd val|bs| |a|rd val a|]; cbn [embed wb_cost Seq.regs Seq.mem].
    - (* register write *)
      pose proof (rset_reg_pair regs rd val) as Ers. destruct (reg_pair rd val) as [r x]. cbn [fst snd] in Ers.
      cbn [Return PcChange RegisterChange Register RegisterValue]. rewrite Hpc4, Ers.
      split; [f_equal; lia | split; [split; [apply rset_int32|]|]]; assumption.
    - (* store *)
      cbn [Return PcChange RegisterChange MemoryChange MemoryChanges]. rewrite Hpc4.
      destruct (negb (forallb (in_mem mem) (map fst bs))); [intros [|]; discriminate|].
      split; [f_equal; lia | split; [split; [|apply mset_all_int8]|]]; assumption.
    - (* fall through *)
      cbn [Return PcChange RegisterChange MemoryChange]. rewrite Hpc4.
      split; [f_equal; lia | split; [split|]]; assumption.
    - (* taken branch / jump *)
      cbn [Return PcChange RegisterChange MemoryChange NextPc].
      split; [f_equal; lia | split; [split|]]; assumption.
    - (* jump and link *)
      pose proof (rset_reg_pair regs rd val) as Ers. destruct (reg_pair rd val) as [r x]. cbn [fst snd] in Ers.
      cbn [Return PcChange RegisterChange Register RegisterValue NextPc]. rewrite Ers.
      split; [f_equal; lia | split; [split; [apply rset_int32|]|]]; tauto.
    - (* ret *)
      cbn [Return]. f_equal. lia.
  Qed.

  (* the executed pcs are pushed on the trace; the cycle counter advances by their tcost *)
  Theorem mrun_refines v : forall fuel regs mem cycle win pc tr st' tr',
    inv regs mem -> int32 pc ->
    run fuel sp labels (mk_arch regs mem) pc tr = Done st' tr' ->
    exists new, tr' = rev new ++ tr /\
                mrun v fuel app labels regs mem cycle win pc = MDone (cycle + tcost v win new) st'.
  Proof.
    induction fuel as [|f IH]; intros regs mem cycle win pc tr st' tr' Hinv Hpc Hrun; [discriminate|].
    cbn [run] in Hrun. pose proof (mrun_step v f regs mem cycle win pc Hinv Hpc) as St.
    destruct (fetch12 v pc win) as [c1 win'] eqn:Ef. cbv zeta in St.
    destruct (step sp labels (mk_arch regs mem) pc) as [[regs1 mem1] pc1|st1|e]; [| |discriminate].
    - destruct St as (-> & Hinv1 & Hpc1).
      destruct (IH _ _ (cycle + c1 + rest_cost pc) win' _ _ _ _ Hinv1 Hpc1 Hrun) as (new & -> & ->).
      exists (pc :: new). cbn [rev tcost]. rewrite Ef, <- app_assoc. split; [reflexivity | f_equal; lia].
    - rewrite St. destruct (fetch sp pc); injection Hrun as <- <-.
      + exists [pc]. cbn [rev List.app tcost]. rewrite Ef. split; [reflexivity | f_equal; lia].
      + exists []. split; [reflexivity | f_equal; cbn [tcost]; lia].
  Qed.

  (* errors of the sequential machine that the ISA defines (division by zero,
     undefined label) are returned as error values, never as a panic or a hang *)
  Theorem mrun_errors v : forall fuel regs mem cycle win pc tr e tr',
    inv regs mem -> int32 pc ->
    run fuel sp labels (mk_arch regs mem) pc tr = Failed e tr' ->
    e = EDivZero \/ e = ELabel ->
    mrun v fuel app labels regs mem cycle win pc = MErr e.
  Proof.
    induction fuel as [|f IH]; intros regs mem cycle win pc tr e0 tr' Hinv Hpc Hrun He; [discriminate|].
    cbn [run] in Hrun. pose proof (mrun_step v f regs mem cycle win pc Hinv Hpc) as St.
    destruct (fetch12 v pc win) as [c1 win']. cbv zeta in St.
    destruct (step sp labels (mk_arch regs mem) pc) as [[regs1 mem1] pc1|st1|e].
    - destruct St as (-> & Hinv1 & Hpc1). eapply IH; eassumption.
    - destruct (fetch sp pc); discriminate.
    - injection Hrun as <- _. apply St, He.
  Qed.

  (* ---- facts about tcost ---- *)
  Lemma rest_cost_nonneg pc : 0 <= rest_cost pc.
  Proof.
    unfold rest_cost. destruct (nth_error app (Z.to_nat (pc / 4))) as [i|]; [|lia].
    unfold cost1. destruct (cycles_total i) as (c & -> & Hc).
    unfold MemoryAccess, cyclesDecode, RegisterAccess.
    destruct (InstructionType_IsMemoryRead (instr_InstructionType i)); destruct (is_ret i);
      destruct (instr_WriteRegisters i); destruct (InstructionType_IsMemoryWrite (instr_InstructionType i)); lia.
  Qed.

  Lemma tcost_lower v win tr : Z.of_nat (length tr) <= tcost v win tr.
  Proof.
    revert win. induction tr as [|pc t IH]; intros win; cbn [tcost length]; [lia|].
    pose proof (fetch12_bounds v pc win) as Hf. destruct (fetch12 v pc win) as [c1 win'].
    specialize (IH win'). pose proof (rest_cost_nonneg pc). lia.
  Qed.

  (* every instruction costs at most fetch + decode + memory read + the slowest
     execute (a load: 50) + the slowest write-back (a store: MemoryAccess) *)
  Lemma rest_cost_upper pc : rest_cost pc <= 1 + MemoryAccess + 50 + MemoryAccess.
  Proof.
    unfold rest_cost. destruct (nth_error app (Z.to_nat (pc / 4))) as [i|]; [|unfold MemoryAccess; lia].
    unfold cost1, MemoryAccess, cyclesDecode, RegisterAccess. destruct i; cbn; lia.
  Qed.

  Lemma tcost_upper v win tr : tcost v win tr <= (2 + 3 * MemoryAccess + 50) * Z.of_nat (length tr).
  Proof.
    revert win. induction tr as [|pc t IH]; intros win; cbn [tcost length]; [lia|].
    pose proof (fetch12_bounds v pc win) as Hf. destruct (fetch12 v pc win) as [c1 win'].
    specialize (IH win'). pose proof (rest_cost_upper pc). unfold MemoryAccess in *. lia.
  Qed.

  Lemma tcost_V2_le_V1 win1 win2 tr : tcost V2 win2 tr <= tcost V1 win1 tr.
  Proof.
    revert win1 win2. induction tr as [|pc t IH]; intros win1 win2; cbn [tcost]; [lia|].
    pose proof (fetch12_bounds V2 pc win2) as Hf2. destruct (fetch12 V2 pc win2) as [c2 win2'].
    cbn [fetch12]. specialize (IH win1 win2'). lia.
  Qed.

  Lemma tcost_V1_sum win tr :
    tcost V1 win tr = fold_right (fun pc acc => MemoryAccess + rest_cost pc + acc) 0 tr.
  Proof. induction tr as [|pc t IH]; cbn [tcost fetch12 fold_right]; [reflexivity|]. rewrite IH. reflexivity. Qed.

  (* ---- the property-level statements ---- *)

  (* C01 (MVP-1, MVP-2): the run returns, without error, the registers and
     memory of the sequential machine; C12: and a cycle count that is a
     function of the program and the executed path only *)
  Theorem mvp12_refines_seq v fuel st st' tr :
    inv (regs st) (mem st) ->
    seq_run fuel sp labels st = Done st' tr ->
    mvp12_run v fuel app labels st = MDone (tcost v init_win (rev tr)) st'.
  Proof.
    intros Hinv Hrun. destruct st as [rg mm].
    destruct (mrun_refines v fuel rg mm 0 init_win 0 [] st' tr Hinv ltac:(unf_rng; lia) Hrun) as (new & -> & Hc).
    rewrite app_nil_r, rev_involutive. exact Hc.
  Qed.

  Theorem mvp12_errors_are_values v fuel st e tr :
    inv (regs st) (mem st) ->
    seq_run fuel sp labels st = Failed e tr -> e = EDivZero \/ e = ELabel ->
    mvp12_run v fuel app labels st = MErr e.
  Proof.
    intros Hinv Hrun He. destruct st as [rg mm]. unfold mvp12_run.
    eapply mrun_errors; try eassumption. unf_rng; lia.
  Qed.

  (* C07 (MVP-1, MVP-2): the run terminates without panic within the fuel the
     sequential machine needs, and the cycle count is bounded by a fixed multiple
     of the number of executed instructions times the memory latency *)
  Theorem mvp12_terminates v fuel st st' tr :
    inv (regs st) (mem st) ->
    seq_run fuel sp labels st = Done st' tr ->
    exists c, mvp12_run v fuel app labels st = MDone c st' /\
              c <= (2 + 3 * MemoryAccess + 50) * Z.of_nat (length tr).
  Proof.
    intros Hinv Hrun. eexists. split; [apply mvp12_refines_seq; eassumption|].
    rewrite <- rev_length. apply tcost_upper.
  Qed.

  (* C12: MVP-1's count is the sum over the executed instructions of
     fetch + decode + optional memory read + execute + write-back *)
  Theorem mvp1_cycles_exact fuel st st' tr :
    inv (regs st) (mem st) ->
    seq_run fuel sp labels st = Done st' tr ->
    exists c, mvp12_run V1 fuel app labels st = MDone c st' /\
              c = fold_right (fun pc acc => MemoryAccess + rest_cost pc + acc) 0 (rev tr) /\
              Z.of_nat (length tr) <= c.
  Proof.
    intros Hinv Hrun. eexists. split; [apply mvp12_refines_seq; eassumption|]. split.
    - apply tcost_V1_sum.
    - rewrite <- rev_length. apply tcost_lower.
  Qed.

  (* C12: MVP-2 is never slower than MVP-1 on the same run *)
  Theorem mvp2_never_slower fuel st st' tr :
    inv (regs st) (mem st) ->
    seq_run fuel sp labels st = Done st' tr ->
    exists c1 c2, mvp12_run V1 fuel app labels st = MDone c1 st' /\
                  mvp12_run V2 fuel app labels st = MDone c2 st' /\ c2 <= c1 /\ Z.of_nat (length tr) <= c2.
  Proof.
    intros Hinv Hrun. do 2 eexists. split; [apply mvp12_refines_seq; eassumption|].
    split; [apply mvp12_refines_seq; eassumption|]. split.
    - apply tcost_V2_le_V1.
    - rewrite <- rev_length. apply tcost_lower.
  Qed.

  (* C12: the count does not depend on operand values when the executed path is the same *)
  Theorem mvp12_value_independent v fuel st1 st2 st1' st2' tr :
    inv (regs st1) (mem st1) -> inv (regs st2) (mem st2) ->
    seq_run fuel sp labels st1 = Done st1' tr ->
    seq_run fuel sp labels st2 = Done st2' tr ->
    exists c, mvp12_run v fuel app labels st1 = MDone c st1' /\ mvp12_run v fuel app labels st2 = MDone c st2'.
  Proof.
    intros H1 H2 R1 R2. eexists. split; apply mvp12_refines_seq; eassumption.
  Qed.
End Refine.
