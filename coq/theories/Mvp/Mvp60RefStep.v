(* Refinement of MVP-6.0 to the sequential machine on register-only programs: the
   invariants of the main loop (FrontI: the fetch / decode / control unit streams; TI: timing
   - idle execute units, empty write-bus queue, the execute bus holds the contiguous tail of
   the dispatched instructions; GI), the potential phi, and one iteration of the main loop up
   to the write units in two halves, each with its share of the potential. *)
From Coq Require Import ZArith List Bool Lia Permutation.
From Maj Require Import Base.Outcome Base.GoInt Base.GoTypes Isa.Spec Isa.Embed Isa.Seq Isa.Refine.
From Maj Require Import Gen.Latency Gen.RiscTables Gen.Opcodes Comp.Cache.
From Maj Require Import Mvp.Mvp12 Mvp.Mvp12Proofs Mvp.Mvp3 Mvp.Mvp3Proofs Mvp.Mvp4Skel Mvp.Mvp4Inv Mvp.Mvp5 Mvp.Mvp60
     Mvp.Mvp60Proofs Mvp.Mvp60RefSem Mvp.Mvp60RefDefs Mvp.Mvp60RefFront Mvp.Mvp60RefBack.
Import ListNotations.
Open Scope Z_scope.

Lemma seq_split {A} (g : nat -> A) : forall l1 l2 a x, l1 ++ l2 = map g (seq a x) ->
  l1 = map g (seq a (length l1)) /\ l2 = map g (seq (a + length l1) (length l2)) /\ x = (length l1 + length l2)%nat.
Proof.
  induction l1 as [|y l1 IH]; intros l2 a x H; cbn [List.app length] in *.
  - rewrite Nat.add_0_r. assert (x = length l2) by (rewrite H, map_length, seq_length; reflexivity). subst x. auto.
  - destruct x as [|x]; [discriminate|]. cbn [seq map] in H. injection H as -> H.
    destruct (IH l2 (S a) x H) as (E1 & E2 & E3). cbn [seq map]. rewrite <- E1.
    replace (a + S (length l1))%nat with (S a + length l1)%nat by lia. split; [reflexivity|]. split; [exact E2 | lia].
Qed.

Lemma seq_join {A} (g : nat -> A) a x y : map g (seq a x) ++ map g (seq (a + x) y) = map g (seq a (x + y)).
Proof. rewrite seq_app, map_app. reflexivity. Qed.

Lemma map_seq_nil {A} (g : nat -> A) a k : [] = map g (seq a k) -> k = O.
Proof. destruct k; [reflexivity | discriminate]. Qed.

Lemma flat_len {T} (b : bbus T) : zlen (flat b) = qlen b + blen b.
Proof. unfold flat, qlen, blen. rewrite zlen_app. unfold zlen. rewrite map_length. reflexivity. Qed.

Lemma BusOK_frame {T} c (b b' : bbus T) : bb_buf b' = bb_buf b -> bb_ql b' = bb_ql b -> bb_bl b' = bb_bl b ->
  qlen b' <= qlen b -> BusOK c b -> BusOK c b'.
Proof. intros E1 E2 E3 E4 [H1 H2 H3 H4]. constructor; rewrite ?E1, ?E2, ?E3; auto. lia. Qed.

Lemma qlen_ge0 {T} (b : bbus T) : 0 <= qlen b. Proof. apply zlen_nonneg. Qed.
Lemma blen_ge0 {T} (b : bbus T) : 0 <= blen b. Proof. apply zlen_nonneg. Qed.

Lemma flat_nil {T} (b : bbus T) : qlen b = 0 -> blen b = 0 -> flat b = [].
Proof. intros A B. unfold flat. rewrite (zlen_zero _ A), (zlen_zero _ B). reflexivity. Qed.

Lemma flat_nil_inv {T} (b : bbus T) : flat b = [] -> bb_q b = [] /\ bb_buf b = [].
Proof.
  unfold flat. intros H. apply app_eq_nil in H as [A B]. split; [exact A|]. destruct (bb_buf b); [reflexivity | discriminate].
Qed.

Lemma filter_len_le {A} (f : A -> bool) l : (length (filter f l) <= length l)%nat.
Proof. induction l as [|x t IH]; cbn [filter length]; [lia|]. destruct (f x); cbn [length]; lia. Qed.

Section Step.
  (* one straight-line segment: it starts at instruction [base] with registers [regs0];
     [off]: slack of the cycle bound (0 for the first segment) *)
  Variables (app : list instr) (labels : Z -> option Z) (regs0 mem0 : list Z) (base : nat) (off : Z).
  Hypothesis Happ : wf_app app.
  Hypothesis Hreg : reg_only app = true.
  Hypothesis Hlen0 : (length regs0 <= 32)%nat.
  Hypothesis Hbase : (base <= length app)%nat.
  Let n := length app.
  Let N := stop_from app base.
  Let M := Nat.max n 1.

  Notation sreg := (sreg app labels regs0 base).
  Notation eff := (eff app labels regs0 base).
  Notation rn := (rn app).
  Notation ik := (ik app).
  Notation BackI := (BackI app labels regs0 mem0 base).
  Notation FetchI := (FetchI app).
  Notation phiF := (phiF app).
  Notation kout := (kout app labels regs0 base).
  Notation plain := (plain app).

  Hypothesis Hsem : forall k, (base <= k <= N)%nat -> (k < n)%nat ->
    exec (sinstr_of (ik k)) (rget (sreg k)) labels (pcz k) [] = Ok (eff k) /\
    (forall a, etarget (eff k) = Some a -> exists t, a = pcz t /\ (k < t <= n)%nat).

  Definition phiM (m : mach) : Z :=
    10 * blen (m_dbus m) + 9 * qlen (m_dbus m) + 8 * blen (m_cbus m) + 7 * qlen (m_cbus m) + 6 * zlen (m_cu m)
    + 5 * blen (m_ebus m) + 4 * qlen (m_ebus m) + 2 * blen (m_wbus m) + qlen (m_wbus m).
  Definition phiR (m : mach) (eus : list eu6) : Z := phiM m + 3 * zlen (eul eus).
  Definition phi (m : mach) (eus : list eu6) : Z := phiF (m_fu m) + phiR m eus.

  (* The streams of the front end, by instruction number: f is the next to be fetched, c the next
     to be decoded, d the next to be dispatched.  The decode bus holds c .. f-1; the queue of the
     control unit followed by the control bus holds d .. min c n - 1. *)
  Record FrontI (d c f : nat) (cyc : Z) (m : mach) : Prop := mkFrontI {
    fr_fetch : FetchI f (m_fu m) (m_l1i m);
    fr_clean : f_clean (m_fu m) = true -> bb_buf (m_dbus m) = [] /\ bb_q (m_dbus m) = [];
    fr_dbus : flat (m_dbus m) = map pcz (seq c (f - c));
    fr_cf : (c <= f)%nat;
    fr_bd : (base <= d)%nat;
    fr_cl : m_cu m ++ flat (m_cbus m) = map rn (seq d (Nat.min c n - d));
    fr_dc : (d <= Nat.min c n)%nat;
    fr_cu : (length (m_cu m) <= 1)%nat;
    fr_flags_f : m_dret m = false -> m_dpbr m = false -> (Nat.min c n <= N)%nat;
    fr_dret_t : m_dret m = true -> (N < n)%nat /\ c = S N /\ is_ret (ik N) = true;
    fr_dpbr_t : m_dpbr m = true -> (N < n)%nat /\ c = S N /\ is_jump (ik N) = true;
    fr_btb : Forall (fun e => fst e < pcz base) (b_btb (m_bu m));
    fr_bsd : BusOK cyc (m_dbus m);
    fr_bc : BusOK cyc (m_cbus m);
    fr_be : BusOK cyc (m_ebus m);
    fr_bw : BusOK cyc (m_wbus m);
    fr_eb : blen (m_ebus m) <= 2 }.

  Lemma front_dN d c f cyc m : FrontI d c f cyc m -> (d <= S N)%nat /\ (d <= n)%nat.
  Proof.
    intros H. pose proof (fr_dc _ _ _ _ _ H). destruct (m_dret m) eqn:E.
    - destruct (fr_dret_t _ _ _ _ _ H E) as (A & B & _). lia.
    - destruct (m_dpbr m) eqn:E2.
      + destruct (fr_dpbr_t _ _ _ _ _ H E2) as (A & B & _). lia.
      + pose proof (fr_flags_f _ _ _ _ _ H E E2). lia.
  Qed.

  (* what Connect does to one bus: the contents stay; entries move from the buffer to the queue
     until the buffer is empty or the queue full *)
  Definition Connected {T} (b b' : bbus T) : Prop :=
    flat b' = flat b /\ qlen b' + blen b' = qlen b + blen b /\ qlen b <= qlen b' /\ (blen b' = 0 \/ qlen b' = 2).

  Lemma connect_bus {T} cyc (b : bbus T) : BusOK cyc b ->
    Connected b (bb_connect b (cyc + 1)) /\ BusOK cyc (bb_connect b (cyc + 1)).
  Proof.
    intros H. destruct (connect_spec cyc b H) as (A & B & C & D & E). split; [|exact B]. repeat split; auto.
    destruct E as [E|E]; [left; unfold blen; rewrite E; reflexivity | right; exact E].
  Qed.

  (* the four Connect calls *)
  Lemma conn_ok d c f cyc m eus : FrontI d c f cyc m -> BackI d m eus ->
    let m1 := connected m (cyc + 1) in
    FrontI d c f cyc m1 /\ BackI d m1 eus /\
    m_fu m1 = m_fu m /\ m_dret m1 = m_dret m /\ m_dpbr m1 = m_dpbr m /\ m_cu m1 = m_cu m /\
    Connected (m_dbus m) (m_dbus m1) /\ Connected (m_cbus m) (m_cbus m1) /\
    Connected (m_ebus m) (m_ebus m1) /\ Connected (m_wbus m) (m_wbus m1).
  Proof.
    intros HF HB. cbv zeta. pose proof HF as [F1 Fc F2 F3 Fb F4 F5 F6 F7 F8 F9 Fbt F10 F11 F12 F13 F14].
    destruct (connect_bus cyc (m_dbus m) F10) as [HD D2]. destruct (connect_bus cyc (m_cbus m) F11) as [HC C2].
    destruct (connect_bus cyc (m_ebus m) F12) as [HE E2]. destruct (connect_bus cyc (m_wbus m) F13) as [HW W2].
    unfold connected. cbn [set_wbus set_ebus set_cbus set_dbus m_fu m_dret m_dpbr m_cu m_dbus m_cbus m_ebus m_wbus].
    split; [|split; [|repeat split; auto; apply HD || apply HC || apply HE || apply HW]].
    - destruct HD as (D1 & _). destruct HC as (C1 & _). destruct HE as (_ & E3 & E4 & _).
      constructor; cbn [set_wbus set_ebus set_cbus set_dbus m_fu m_l1i m_dret m_dpbr m_cu m_bu m_dbus m_cbus m_ebus m_wbus];
        rewrite ?D1, ?C1; auto.
      + intros Hc. destruct (Fc Hc) as [A B]. assert (Hx : flat (bb_connect (m_dbus m) (cyc + 1)) = []) by (rewrite D1; unfold flat; rewrite A, B; reflexivity).
        apply flat_nil_inv in Hx. tauto.
      + pose proof (blen_ge0 (bb_connect (m_ebus m) (cyc + 1))). pose proof (qlen_ge0 (m_ebus m)). lia.
    - eapply BackI_ext; [| | | | | | |exact HB]; cbn [set_wbus set_ebus set_cbus set_dbus m_regs m_pw m_pr m_mem m_l3 m_ebus m_wbus]; auto;
        [apply HE | apply HW].
  Qed.

  Lemma busok_newq {T} cy (b : bbus T) q : BusOK cy b -> zlen q <= 2 ->
    BusOK cy (mk_bb (bb_buf b) q (bb_ql b) (bb_bl b)).
  Proof. intros [H1 H2 H3 H4] Hq. constructor; cbn [bb_buf bb_ql bb_bl]; auto. Qed.

  (* fetchUnit.cycle ; decodeUnit.cycle *)
  Lemma fd_ok d c f cyc m : FrontI d c f cyc m ->
    exists m3 c' f',
      (r <- fu_cycle6 app (cyc + 1) (m_fu m) (m_l1i m) (m_dbus m) ;;
       let '(fu1, l1i1, dbus1) := r in
       du_cycle6 app (cyc + 1) (set_dbus (set_l1i (set_fu m fu1) l1i1) dbus1)) = Ok m3 /\
      FrontI d c' f' (cyc + 1) m3 /\
      m_regs m3 = m_regs m /\ m_mem m3 = m_mem m /\ m_pw m3 = m_pw m /\ m_pr m3 = m_pr m /\ m_l3 m3 = m_l3 m /\
      m_ebus m3 = m_ebus m /\ m_wbus m3 = m_wbus m /\ m_cu m3 = m_cu m /\ bb_q (m_cbus m3) = bb_q (m_cbus m) /\
      phiF (m_fu m3) + 10 * blen (m_dbus m3) + 9 * qlen (m_dbus m3) + 8 * blen (m_cbus m3)
        <= phiF (m_fu m) + 10 * blen (m_dbus m) + 9 * qlen (m_dbus m) + 8 * blen (m_cbus m) /\
      (phiF (m_fu m3) + 10 * blen (m_dbus m3) + 9 * qlen (m_dbus m3) + 8 * blen (m_cbus m3)
        < phiF (m_fu m) + 10 * blen (m_dbus m) + 9 * qlen (m_dbus m) + 8 * blen (m_cbus m) \/
       (((f_co (m_fu m) = FDone /\ phiF (m_fu m3) = phiF (m_fu m) /\ f_complete (m_fu m3) = f_complete (m_fu m)) \/
         (f_co (m_fu m) = FNone /\ bb_canadd (m_dbus m) = false)) /\
        (m_dret m = true \/ m_dpbr m = true \/ bb_q (m_dbus m) = []))).
  Proof using Happ Hlen0 Hbase Hsem.
    intros HF. pose proof HF as [F1 Fc F2 F3 Fb F4 F5 F6 F7 F8 F9 Fbt F10 F11 F12 F13 F14].
    destruct (fu_ok app base Happ cyc f (m_fu m) (m_l1i m) (m_dbus m) F1 F10 Fc) as (fu' & l1i' & k & E & G1 & Gcl & G2 & G3).
    rewrite E. cbn [bind].
    set (dbus2 := bus_push (m_dbus m) (cyc + 2) (map pcz (seq f k))).
    set (m2 := set_dbus (set_l1i (set_fu m fu') l1i') dbus2).
    destruct (seq_split pcz (bb_q (m_dbus m)) (map snd (bb_buf (m_dbus m))) c (f - c) F2) as (Q1 & Q2 & Q3).
    rewrite map_length in Q2, Q3.
    set (len := length (bb_q (m_dbus m))) in *. set (lb := length (bb_buf (m_dbus m))) in *.
    assert (Bd2 : BusOK (cyc + 1) dbus2).
    { unfold dbus2. replace (cyc + 2) with (cyc + 1 + 1) by lia. apply bus_push_ok. eapply busok_mono; [|exact F10]. lia. }
    assert (Bc1 : BusOK (cyc + 1) (m_cbus m)) by (eapply busok_mono; [|exact F11]; lia).
    assert (Be1 : BusOK (cyc + 1) (m_ebus m)) by (eapply busok_mono; [|exact F12]; lia).
    assert (Bw1 : BusOK (cyc + 1) (m_wbus m)) by (eapply busok_mono; [|exact F13]; lia).
    assert (Hb2 : blen dbus2 = blen (m_dbus m) + Z.of_nat k).
    { unfold dbus2, bus_push, blen. cbn [bb_buf]. rewrite zlen_app, stamped_len. unfold zlen. rewrite map_length, seq_length. reflexivity. }
    assert (Hfco : f_co (m_fu m) = FDone -> phiF fu' = phiF (m_fu m) /\ f_complete fu' = f_complete (m_fu m) /\ k = O).
    { intros Hd. unfold fu_cycle6 in E. rewrite Hd in E. injection E as E1 _ E3.
      assert (k = O).
      { apply (f_equal (fun b => zlen (bb_buf b))) in E3. fold dbus2 in E3. fold (blen dbus2) in E3.
        assert (blen (if f_clean (m_fu m) then bb_clean (m_dbus m) else m_dbus m) <= blen (m_dbus m)).
        { destruct (f_clean (m_fu m)); [unfold blen, bb_clean; cbn [bb_buf]; rewrite zlen_nil; apply zlen_nonneg | lia]. }
        unfold blen in *. lia. }
      rewrite <- E1. split; [unfold phiF, phi_co; cbn [f_pc f_co f_rem]; rewrite Hd; reflexivity | split; [reflexivity | assumption]]. }
    destruct (m_dret m || m_dpbr m) eqn:Eidle.
    { (* the decode unit waits: for the ret to drain, or for the jump to be resolved *)
      assert (Hflag : m_dret m = true \/ m_dpbr m = true) by (apply orb_prop; exact Eidle).
      exists m2, c, (f + k)%nat. split; [apply du_idle; exact Hflag|].
      split; [|split; [|split; [|split; [|split; [|split; [|split; [|split; [|split; [|split; [|split]]]]]]]]]]; try reflexivity.
      + constructor; unfold m2; cbn [set_dbus set_l1i set_fu m_fu m_l1i m_bu m_dbus m_cbus m_ebus m_wbus m_cu m_dret m_dpbr]; auto.
        * intros Hx. congruence.
        * unfold dbus2. rewrite bus_push_flat, F2. replace f with (c + (f - c))%nat at 2 by lia. rewrite seq_join. f_equal. f_equal. lia.
        * lia.
      + unfold m2. cbn [set_dbus set_l1i set_fu m_fu m_dbus m_cbus]. fold dbus2. unfold dbus2 at 2, bus_push, qlen. cbn [bb_q]. fold (qlen (m_dbus m)). lia.
      + unfold m2. cbn [set_dbus set_l1i set_fu m_fu m_dbus m_cbus]. fold dbus2.
        assert (Hq2 : qlen dbus2 = qlen (m_dbus m)) by reflexivity.
        assert (Hfl : m_dret m = true \/ m_dpbr m = true \/ bb_q (m_dbus m) = []) by tauto.
        destruct (f_co (m_fu m)) eqn:Eco.
        * destruct (bb_canadd (m_dbus m)) eqn:Eadd; [left; specialize (G3 (or_intror (conj eq_refl eq_refl))); lia|].
          right. split; [right; auto | exact Hfl].
        * left. specialize (G3 (or_introl eq_refl)). lia.
        * right. split; [left; split; [reflexivity | destruct (Hfco eq_refl) as (A & B & _); auto] | exact Hfl]. }
    apply orb_false_iff in Eidle as [Edr Edp].
    (* decode *)
    assert (Hq2 : bb_q (m_dbus m2) = map pcz (seq c len)).
    { unfold m2. cbn [set_dbus m_dbus]. unfold dbus2, bus_push. cbn [bb_q]. exact Q1. }
    assert (Hbc : (base <= c)%nat) by lia.
    destruct (du_ok app base cyc m2 c len Hq2 Hbc (F7 Edr Edp) Edr Edp) as (j & ret' & pbr' & E2 & Hj & Hj0 & Hrt & Hpt & Hrf).
    rewrite E2. unfold m2 at 2 3 4 5. cbn [set_dbus set_l1i set_fu m_dbus m_cbus set_du].
    fold n in E2, Hrt, Hpt, Hrf |- *. fold N in Hrt, Hpt, Hrf |- *.
    eexists _, (c + j)%nat, (f + k)%nat. split; [reflexivity|].
    set (em := Nat.min c n) in *. set (em' := Nat.min (c + j) n) in *.
    assert (Hem : (em <= em')%nat) by (unfold em, em'; clear - Hj; lia).
    match goal with |- FrontI _ _ _ _ ?x /\ _ => set (m3 := x) end.
    assert (P1 : m_fu m3 = fu') by reflexivity.
    assert (P2 : blen (m_dbus m3) = blen (m_dbus m) + Z.of_nat k) by exact Hb2.
    assert (P3 : qlen (m_dbus m3) = Z.of_nat (len - j)).
    { unfold m3, qlen, zlen. cbn [set_cbus set_dbus m_dbus bb_q]. rewrite map_length, seq_length. reflexivity. }
    assert (P4 : blen (m_cbus m3) = blen (m_cbus m) + Z.of_nat (em' - em)).
    { unfold m3, blen, bus_push. cbn [set_cbus m_cbus bb_buf]. rewrite zlen_app, stamped_len. unfold zlen. rewrite map_length, seq_length. reflexivity. }
    assert (P5 : qlen (m_dbus m) = Z.of_nat len) by reflexivity.
    assert (Hemj : (em' - em <= j)%nat) by (unfold em, em'; clear - Hj; lia).
    split; [|split; [|split; [|split; [|split; [|split; [|split; [|split; [|split; [|split; [|split]]]]]]]]]]; try reflexivity.
    + constructor; unfold m3, m2; cbn [set_cbus set_dbus set_du set_l1i set_fu m_fu m_l1i m_bu m_dbus m_cbus m_ebus m_wbus m_cu m_dret m_dpbr]; auto.
      * intros Hx. congruence.
      * (* dbus *)
        unfold flat. cbn [bb_q bb_buf]. unfold dbus2, bus_push. cbn [bb_buf]. rewrite map_app, stamped_snd, Q2.
        replace (c + len)%nat with (c + j + (len - j))%nat by (clear - Hj; lia). rewrite app_assoc, seq_join.
        replace f with (c + j + (len - j + lb))%nat at 1 by (clear - Hj Q3 F3; lia). rewrite seq_join. f_equal. f_equal. clear - Hj Q3 F3. lia.
      * clear - Hj Q3 F3. lia.
      * rewrite bus_push_flat, app_assoc, F4. fold em em'. clearbody em em'. replace em with (d + (em - d))%nat at 2 by (clear - F5; lia).
        rewrite seq_join. f_equal. f_equal. clear - F5 Hem. lia.
      * fold em'. clear - F5 Hem. lia.
      * apply busok_newq; [exact Bd2|]. unfold zlen. rewrite map_length, seq_length. pose proof (bus_q _ _ F10). unfold qlen, zlen in H. fold len in H. lia.
      * replace (cyc + 2) with (cyc + 1 + 1) by lia. apply bus_push_ok. exact Bc1.
    + rewrite P1, P2, P3, P4, P5. clear - G2 Hemj Hj. lia.
    + rewrite P1, P2, P3, P4, P5. clearbody em em'.
      destruct (Nat.eq_dec j 0) as [Ej|Ej]; [|left; clear - G2 Hemj Hj Ej; lia].
      assert (Hlen00 : len = O) by (clear - Hj0 Ej; lia).
      assert (Hq0 : bb_q (m_dbus m) = []) by (unfold len in Hlen00; destruct (bb_q (m_dbus m)); [reflexivity | discriminate]).
      destruct (f_co (m_fu m)) eqn:Eco.
      * destruct (bb_canadd (m_dbus m)) eqn:Eadd; [left; specialize (G3 (or_intror (conj eq_refl eq_refl))); clear - G3 Hemj Hj; lia|].
        right. split; [right; auto | right; right; exact Hq0].
      * left. specialize (G3 (or_introl eq_refl)). clear - G3 Hemj Hj. lia.
      * right. split; [left; split; [reflexivity | destruct (Hfco eq_refl) as (A & B & _); auto] | right; right; exact Hq0].
  Qed.

  Lemma pushable_second_plain m cy r1 k2 : pushable m cy 0 [r1; rn k2] -> plain k2.
  Proof.
    intros (_ & H2 & _). replace (0 + 1) with 1 in H2 by lia.
    destruct (handle_push_hazard _ _ _ _ _ H2) as (_ & Hre & Hbr). cbn [Mvp60RefFront.rn r_instr] in Hre, Hbr.
    split; [|apply Hbr; reflexivity].
    destruct (is_ret (ik k2)) eqn:Er; [|reflexivity]. exfalso. rewrite is_ret_type in Hre. specialize (Hre Er).
    unfold bb_isempty, disp1, add_pending6, set_sb, set_ebus, bb_add in Hre. cbn [m_ebus bb_buf bb_q] in Hre.
    apply andb_prop in Hre as [_ Hb]. apply Z.eqb_eq in Hb. rewrite zlen_app, zlen_cons, zlen_nil in Hb.
    pose proof (zlen_nonneg (bb_buf (m_ebus m))). lia.
  Qed.

  (* controlUnit.cycle *)
  Lemma cu_ok d c f cy m eus : FrontI d c f cy m -> BackI d m eus ->
    exists lp,
      FrontI (d + lp) c f cy (cu_cycle6 cy m) /\ BackI (d + lp) (cu_cycle6 cy m) eus /\
      (lp <= 2)%nat /\ Z.of_nat lp <= 2 - blen (m_ebus m) /\
      m_fu (cu_cycle6 cy m) = m_fu m /\ m_dbus (cu_cycle6 cy m) = m_dbus m /\ m_wbus (cu_cycle6 cy m) = m_wbus m /\
      bb_buf (m_cbus (cu_cycle6 cy m)) = bb_buf (m_cbus m) /\ bb_q (m_ebus (cu_cycle6 cy m)) = bb_q (m_ebus m) /\
      bb_buf (m_ebus (cu_cycle6 cy m)) = bb_buf (m_ebus m) ++ stamped (cy + 1) (map rn (seq d lp)) /\
      (lp = 2%nat -> plain (S d)) /\
      6 * zlen (m_cu (cu_cycle6 cy m)) + 7 * qlen (m_cbus (cu_cycle6 cy m)) + 5 * blen (m_ebus (cu_cycle6 cy m))
        <= 6 * zlen (m_cu m) + 7 * qlen (m_cbus m) + 5 * blen (m_ebus m) /\
      (FL m eus = [] ->
       6 * zlen (m_cu (cu_cycle6 cy m)) + 7 * qlen (m_cbus (cu_cycle6 cy m)) + 5 * blen (m_ebus (cu_cycle6 cy m))
         < 6 * zlen (m_cu m) + 7 * qlen (m_cbus m) + 5 * blen (m_ebus m) \/
       (m_cu m = [] /\ bb_q (m_cbus m) = [])).
  Proof.
    intros HF HB. pose proof HF as [F1 Fc F2 F3 Fb F4 F5 F6 F7 F8 F9 Fbt F10 F11 F12 F13 F14].
    destruct (front_dN _ _ _ _ _ HF) as [HdN Hdn].
    destruct (cu_cycle_spec cy m F6 (bus_bl _ _ F12) F14) as [[Eadd ->]|(Eadd & pre & cu' & q' & E1 & Hp & Hcu' & Hlp & -> & Hw & Hstrict)].
    { exists O. rewrite Nat.add_0_r. cbn [seq map]. unfold stamped. cbn [map]. rewrite app_nil_r.
      pose proof (blen_ge0 (m_ebus m)).
      split; [exact HF|]. split; [exact HB|]. split; [lia|]. split; [change (Z.of_nat 0) with 0; lia|]. repeat (split; [reflexivity|]).
      split; [discriminate|]. split; [lia|].
      intros HFL. exfalso. unfold FL in HFL. apply app_eq_nil in HFL as [HFL _]. apply map_eq_nil in HFL.
      apply flat_nil_inv in HFL as [_ Hb]. unfold bb_canadd in Eadd. rewrite Hb, (bus_bl _ _ F12) in Eadd. discriminate. }
    (* the dispatched runners are the next ones of the stream *)
    assert (Hall : pre ++ (cu' ++ q' ++ map snd (bb_buf (m_cbus m))) = map rn (seq d (Nat.min c n - d))).
    { rewrite <- F4. unfold flat. rewrite (app_assoc (m_cu m)), E1, <- !app_assoc. reflexivity. }
    destruct (seq_split rn _ _ _ _ Hall) as (Hpre & Hrest & Hlen).
    set (lp := length pre) in *.
    assert (Hlp2 : (lp <= 2)%nat).
    { pose proof (blen_ge0 (m_ebus m)). unfold zlen in Hlp. fold lp in Hlp. lia. }
    destruct (dispN_proj cy pre m) as (P1&P2&P3&P4&P5&P6&P7&P8&P9&P10&P11&P12&P13&P14).
    set (m4 := set_cu (set_cbus (dispN m cy pre) (mk_bb (bb_buf (m_cbus m)) q' (bb_ql (m_cbus m)) (bb_bl (m_cbus m)))) cu').
    assert (HdlN : (d + lp <= S N)%nat /\ (d + lp <= n)%nat).
    { rewrite !app_length in Hlen. fold lp in Hlen.
      destruct (m_dret m) eqn:Edr; [destruct (F8 eq_refl) as (A & B & _); lia|].
      destruct (m_dpbr m) eqn:Edp; [destruct (F9 eq_refl) as (A & B & _); lia | pose proof (F7 eq_refl eq_refl); lia]. }
    assert (HB' : BackI (d + lp) m4 eus).
    { eapply BackI_ext with (m := dispN m cy pre); try reflexivity.
      rewrite Hpre. eapply dispN_back with (p := 0); try eassumption; try (fold N; lia); try (fold n; lia).
      rewrite <- Hpre. exact Hp. }
    assert (Hq' : zlen q' <= qlen (m_cbus m)).
    { pose proof (zlen_nonneg pre). pose proof (zlen_nonneg cu'). pose proof (zlen_nonneg q').
      assert (Hsum : zlen (m_cu m) + zlen (bb_q (m_cbus m)) = zlen pre + zlen cu' + zlen q').
      { rewrite <- !zlen_app. rewrite E1. rewrite !zlen_app. lia. }
      unfold qlen. assert (zlen (m_cu m) <= 1) by (unfold zlen; lia). lia. }
    assert (Hbm : bb_buf (m_ebus m4) = bb_buf (m_ebus m) ++ stamped (cy + 1) pre).
    { unfold m4. cbn [set_cu set_cbus m_ebus]. rewrite P14. reflexivity. }
    exists lp.
    split; [|split; [exact HB'|split; [exact Hlp2|split; [|split; [|split; [|split; [|split; [|split; [|split; [|split; [|split]]]]]]]]]]].
    - constructor; unfold m4; cbn [set_cu set_cbus m_fu m_l1i m_bu m_dbus m_cbus m_ebus m_wbus m_cu m_dret m_dpbr];
        rewrite ?P3, ?P6, ?P7, ?P8, ?P10, ?P11, ?P13, ?P14; auto.
      + lia.
      + unfold flat. cbn [bb_q bb_buf]. rewrite Hrest. f_equal. f_equal. rewrite !app_length in *. lia.
      + lia.
      + apply busok_newq; [exact F11 | pose proof (bus_q _ _ F11); lia].
      + apply bus_push_ok. exact F12.
      + unfold bus_push, blen. cbn [bb_buf]. rewrite zlen_app, stamped_len. fold (blen (m_ebus m)). lia.
    - unfold zlen in Hlp. fold lp in Hlp. exact Hlp.
    - unfold m4. cbn [set_cu set_cbus m_fu]. exact P6.
    - unfold m4. cbn [set_cu set_cbus m_dbus]. exact P11.
    - unfold m4. cbn [set_cu set_cbus m_wbus]. exact P13.
    - reflexivity.
    - unfold m4. cbn [set_cu set_cbus m_ebus]. rewrite P14. reflexivity.
    - rewrite Hbm, Hpre. reflexivity.
    - intros Hl2. assert (Hpre2 : pre = [rn d; rn (S d)]) by (rewrite Hpre, Hl2; reflexivity).
      rewrite Hpre2 in Hp. eapply pushable_second_plain. exact Hp.
    - unfold m4. cbn [set_cu set_cbus m_cu m_cbus m_ebus]. rewrite P14. unfold qlen, blen, bus_push. cbn [bb_q bb_buf].
      rewrite zlen_app, stamped_len. fold (blen (m_ebus m)). unfold qlen in Hw. lia.
    - intros HFL. unfold m4. cbn [set_cu set_cbus m_cu m_cbus m_ebus]. rewrite P14. unfold qlen, blen, bus_push. cbn [bb_q bb_buf].
      rewrite zlen_app, stamped_len. fold (blen (m_ebus m)). unfold qlen in Hstrict.
      destruct Hstrict as [Hs|[Hs|(r & t & Er & Hblk)]]; [left; lia | right; exact Hs|]. exfalso.
      (* nothing in flight: the head of the queue cannot be blocked *)
      pose proof (bi_sem _ _ _ _ _ _ _ _ HB) as HS. rewrite HFL in HS.
      assert (Hz : forall p, length p = 32%nat -> (forall s, (s < 32)%nat -> nth s p 0 = 0) -> forall s, nth s p 0 <= 0).
      { intros p Lp Hp0 s. destruct (Nat.lt_ge_cases s 32) as [Hs|Hs]; [rewrite Hp0 by exact Hs; lia|].
        rewrite nth_overflow by lia. lia. }
      assert (Hnh : forall rs ws, has_hazard6 m rs ws = false).
      { intros rs ws. apply no_hazard_intro.
        - apply Hz; [apply (bs_pwlen _ _ _ _ _ _ _ _ _ HS)|]. intros s Hs. rewrite (bs_pw _ _ _ _ _ _ _ _ _ HS s Hs). reflexivity.
        - apply Hz; [apply (bs_prlen _ _ _ _ _ _ _ _ _ HS)|]. intros s Hs. rewrite (bs_pr _ _ _ _ _ _ _ _ _ HS s Hs). reflexivity. }
      assert (Hemp : bb_isempty (m_ebus m) = true).
      { unfold FL in HFL. apply app_eq_nil in HFL as [HFL _]. apply map_eq_nil in HFL. apply flat_nil_inv in HFL as [A B].
        unfold bb_isempty. rewrite A, B. reflexivity. }
      unfold handle_runner in Hblk. rewrite Hemp, Hnh in Hblk. cbn [negb andb] in Hblk. rewrite andb_false_r in Hblk.
      change (0 <? 0) with false in Hblk. cbn [andb] in Hblk. discriminate Hblk.
  Qed.

  Lemma FrontI_mono d c f cy cy' m : cy <= cy' -> FrontI d c f cy m -> FrontI d c f cy' m.
  Proof.
    intros Hc [F1 Fc F2 F3 Fb F4 F5 F6 F7 F8 F9 Fbt F10 F11 F12 F13 F14].
    constructor; auto; eapply busok_mono; eassumption.
  Qed.

  Lemma finish_ok m cy : lines (m_l3 m) = [] -> finish6 m cy = MDone cy (mk_arch (m_regs m) (m_mem m)).
  Proof. intros H. unfold finish6. rewrite H. cbn [flush_lines]. rewrite Z.add_0_r. reflexivity. Qed.

  Lemma isempty_intro {T} (b : bbus T) : qlen b = 0 -> blen b = 0 -> bb_isempty b = true.
  Proof. unfold bb_isempty, qlen, blen. intros -> ->. reflexivity. Qed.

  Lemma wus_empty wus : Forall (fun w => u_co w = WNone) wus -> forallb wu_empty wus = true.
  Proof. intros Hw. apply forallb_forall. intros w Hin. rewrite Forall_forall in Hw. unfold wu_empty. rewrite (Hw w Hin). reflexivity. Qed.

  Lemma eus_empty eus : Forall EuNone eus -> forallb eu_empty eus = true.
  Proof. intros H. apply forallb_forall. intros e Hin. rewrite Forall_forall in H. destruct (H e Hin) as [_ Hc]. unfold eu_empty. rewrite Hc. reflexivity. Qed.

  Lemma kout_ret k : is_ret (ik k) = true -> kout k = mk_euo6 false 0 0 true.
  Proof. intros H. unfold Mvp60RefBack.kout. rewrite H. reflexivity. Qed.

  Lemma kout_jump k : (base <= k <= N)%nat -> (k < n)%nat -> is_jump (ik k) = true -> o_flush (kout k) = true.
  Proof.
    intros H1 H2 Hj. unfold Mvp60RefBack.kout.
    assert (Hr : is_ret (ik k) = false).
    { destruct (is_ret (ik k)) eqn:E; [|reflexivity]. destruct (ret_not_branch _ E). congruence. }
    rewrite Hr, Hj. cbn [orb].
    pose proof (eff_kind app labels regs0 base Hsem k H1 H2) as Hk.
    pose proof (eff_ret app labels regs0 base Hsem k H1 H2) as Hrt.
    pose proof (eff_nostore app labels regs0 base Hreg Hsem k) as Hns.
    destruct (eff k) as [rd v|bs| |a|rd v a|]; cbn [etarget]; try reflexivity; try congruence; exfalso.
    - exact (Hns bs H1 H2 eq_refl).
    - rewrite (proj1 Hrt eq_refl) in Hr. discriminate.
  Qed.

  Lemma kout_cases k : kout k = euo_none \/ kout k = mk_euo6 false 0 0 true \/
    exists a, kout k = mk_euo6 true (pcz k) a false /\ etarget (eff k) = Some a /\ is_ret (ik k) = false.
  Proof.
    unfold Mvp60RefBack.kout. destruct (is_ret (ik k)); [right; left; reflexivity|].
    destruct (etarget (eff k)) as [a|]; [|left; reflexivity].
    destruct (is_jump (ik k) || negb (pcz (S k) =? a)); [right; right; exists a; auto | left; reflexivity].
  Qed.

  (* the timing invariant: between cycles every execute unit is idle, the queue of the
     write bus is empty, and the execute bus holds the most recently dispatched runners *)

  Record TI (x d : nat) (m : mach) (eus : list eu6) (wus : list wu6) : Prop := mkTI {
    ti_eus : Forall EuNone eus;
    ti_wq : bb_q (m_wbus m) = [];
    ti_wb : blen (m_wbus m) <= Z.of_nat (length wus);
    ti_wb2 : blen (m_wbus m) <= 2;
    ti_len : length eus = length wus;
    ti_ebus : flat (m_ebus m) = map rn (seq x (d - x));
    ti_xd : (base <= x <= d)%nat;
    (* two or more units empty the queue of the execute bus in every cycle; two runners in its
       buffer were dispatched in the same cycle, and the second of such a pair is plain *)
    ti_pair : (2 <= length eus)%nat -> bb_q (m_ebus m) = [] /\ (blen (m_ebus m) = 2 -> plain (S x));
    ti_exec : forall k, (base <= k < x)%nat -> kout k = euo_none }.

  (* the invariant of the main loop; x is the oldest instruction not yet executed: the execute
     bus holds x .. d-1, and none before x has asked for a flush or ended the run *)
  Record GI (d c f x : nat) (s : st6) : Prop := mkGI {
    gi_front : FrontI d c f (s_cycle s) (s_m s);
    gi_back : BackI d (s_m s) (s_eus s);
    gi_ti : TI x d (s_m s) (s_eus s) (s_wus s);
    gi_wus : Forall (fun w => u_co w = WNone) (s_wus s);
    gi_wne : s_wus s <> [];
    gi_cyc : Z.of_nat d <= 2 * s_cycle s + off;
    gi_mode : s_mode s = MNormal }.

  Lemma phiM_nn m : 0 <= phiM m.
  Proof.
    unfold phiM. pose proof (blen_ge0 (m_dbus m)). pose proof (qlen_ge0 (m_dbus m)). pose proof (blen_ge0 (m_cbus m)).
    pose proof (qlen_ge0 (m_cbus m)). pose proof (zlen_nonneg (m_cu m)). pose proof (blen_ge0 (m_ebus m)). pose proof (qlen_ge0 (m_ebus m)).
    pose proof (blen_ge0 (m_wbus m)). pose proof (qlen_ge0 (m_wbus m)). lia.
  Qed.

  Lemma phiM_zero m : phiM m <= 0 ->
    zlen (m_cu m) = 0 /\ bb_isempty (m_dbus m) = true /\ bb_isempty (m_cbus m) = true /\
    bb_isempty (m_ebus m) = true /\ bb_isempty (m_wbus m) = true.
  Proof.
    unfold phiM. intros H. pose proof (blen_ge0 (m_dbus m)). pose proof (qlen_ge0 (m_dbus m)). pose proof (blen_ge0 (m_cbus m)).
    pose proof (qlen_ge0 (m_cbus m)). pose proof (zlen_nonneg (m_cu m)). pose proof (blen_ge0 (m_ebus m)). pose proof (qlen_ge0 (m_ebus m)).
    pose proof (blen_ge0 (m_wbus m)). pose proof (qlen_ge0 (m_wbus m)). repeat split; try apply isempty_intro; lia.
  Qed.

  Lemma isempty_iff {T} (b : bbus T) : bb_isempty b = true <-> flat b = [].
  Proof.
    split; [apply isempty_flat|]. intros H. apply flat_nil_inv in H as [A B]. unfold bb_isempty. rewrite A, B. reflexivity.
  Qed.

  Lemma is_empty6_iff m eus wus : is_empty6 m eus wus = true <->
    f_complete (m_fu m) = true /\ m_cu m = [] /\ forallb wu_empty wus = true /\
    flat (m_dbus m) = [] /\ flat (m_cbus m) = [] /\ flat (m_ebus m) = [] /\ flat (m_wbus m) = [] /\ forallb eu_empty eus = true.
  Proof.
    unfold is_empty6. rewrite !andb_true_iff, !isempty_iff, Z.eqb_eq. split.
    - intros [[[[[[[A B] C] D] E] F] G] H]. apply zlen_zero in B. repeat split; assumption.
    - intros (A & B & C & D & E & F & G & H). rewrite B. repeat split; assumption.
  Qed.

  (* nothing anywhere in the pipeline and the fetch unit done: the whole text has been
     dispatched and written back *)
  Lemma empty_done d c f cy m eus wus : FrontI d c f cy m -> BackI d m eus -> Forall EuNone eus ->
    is_empty6 m eus wus = true -> d = n /\ m_regs m = sreg d /\ flat (m_ebus m) = [].
  Proof using Hlen0.
    intros HF HB He Hemp. apply is_empty6_iff in Hemp as (Ec & Hcu & _ & Hfd & Hfc & Hfe & Hfw & _).
    assert (HFL : FL m eus = []) by (unfold FL; rewrite Hfe, Hfw, (eul_none _ He); reflexivity).
    pose proof (bi_sem _ _ _ _ _ _ _ _ HB) as HS. rewrite HFL in HS. apply bs_empty in HS.
    pose proof (fr_dbus _ _ _ _ _ HF) as Hdb. rewrite Hfd in Hdb. apply map_seq_nil in Hdb.
    pose proof (fr_cl _ _ _ _ _ HF) as Hcl. rewrite Hcu, Hfc in Hcl. apply map_seq_nil in Hcl.
    destruct (fi_c _ _ _ _ (fr_fetch _ _ _ _ _ HF) Ec) as (_ & HfM & _).
    pose proof (fr_cf _ _ _ _ _ HF) as Hcf. pose proof (fr_dc _ _ _ _ _ HF) as Hdc.
    split; [fold n in Hcl; clear - Hdb Hcl HfM Hcf Hdc; lia|]. split; [exact HS | exact Hfe].
  Qed.

  (* Connect, fetch, decode, control unit.  Afterwards the write bus is all queue, short enough
     for the write units to empty it, and the queue of the execute bus holds x .. x+lq-1.  The
     potential falls unless an execute unit is about to find work or nothing is left anywhere. *)
  Lemma front_ok d c f x s : GI d c f x s ->
    exists m4 d' c' f' lq,
      front6 app (s_cycle s + 1) (s_m s) = Ok m4 /\
      FrontI d' c' f' (s_cycle s + 1) m4 /\ BackI d' m4 (s_eus s) /\
      bb_q (m_ebus m4) = map rn (seq x lq) /\
      map snd (bb_buf (m_ebus m4)) = map rn (seq (x + lq) (d' - (x + lq))) /\ (x + lq <= d')%nat /\
      bb_buf (m_wbus m4) = [] /\ qlen (m_wbus m4) <= Z.of_nat (length (s_wus s)) /\
      ((2 <= length (s_eus s))%nat -> (lq = 2%nat -> plain (S x)) /\ (blen (m_ebus m4) = 2 -> plain (S (x + lq)))) /\
      Z.of_nat d' <= 2 * (s_cycle s + 1) + off /\
      phi m4 (s_eus s) <= phi (s_m s) (s_eus s) /\
      (phi m4 (s_eus s) < phi (s_m s) (s_eus s) \/ lq <> O \/ is_empty6 m4 (s_eus s) (s_wus s) = true).
  Proof.
    intros [GF GB GT GW GWne GC GM].
    set (m0 := s_m s) in *. set (eus := s_eus s) in *. set (wus := s_wus s) in *. set (cyc := s_cycle s) in *.
    pose proof GT as [T1 T2 T3 T3' T4 T5 T6 T7 T8].
    destruct (conn_ok d c f cyc m0 eus GF GB)
      as (C1 & C2 & C5 & _ & _ & C7 & (_ & D1 & D2 & K1) & (_ & Cc1 & Cc2 & K2) & (C3 & E1 & E2 & K3) & (_ & W1 & W2 & K4)).
    set (m1 := connected m0 (cyc + 1)) in *.
    (* the write bus after Connect: everything is in the queue *)
    assert (Wq0 : qlen (m_wbus m0) = 0) by (unfold qlen; rewrite T2; reflexivity).
    assert (Wb1 : blen (m_wbus m1) = 0 /\ qlen (m_wbus m1) = blen (m_wbus m0)).
    { pose proof (blen_ge0 (m_wbus m1)) as G1. clear - W1 W2 K4 Wq0 T3' G1. lia. }
    destruct Wb1 as [Wb1 Wq1].
    assert (Hconn : phiM m1 + blen (m_wbus m0) <= phiM m0).
    { unfold phiM. rewrite C7. clear - D1 D2 Cc1 Cc2 E1 E2 W1 Wq0 Wb1. lia. }
    destruct (fd_ok d c f cyc m1 C1) as (m3 & c' & f' & Efd & F3 & R1 & R2 & R3 & R4 & R5 & R6 & R7 & R8 & R9 & Pfd & Sfd).
    assert (HB3 : BackI d m3 eus).
    { eapply BackI_ext; [| | | | | | |exact C2]; congruence. }
    assert (Hqc : qlen (m_cbus m3) = qlen (m_cbus m1)) by (unfold qlen; rewrite R9; reflexivity).
    assert (Hfd : phiF (m_fu m3) + phiM m3 <= phiF (m_fu m1) + phiM m1 /\
                  (phiF (m_fu m3) + 10 * blen (m_dbus m3) + 9 * qlen (m_dbus m3) + 8 * blen (m_cbus m3)
                   < phiF (m_fu m1) + 10 * blen (m_dbus m1) + 9 * qlen (m_dbus m1) + 8 * blen (m_cbus m1) ->
                   phiF (m_fu m3) + phiM m3 < phiF (m_fu m1) + phiM m1)).
    { unfold phiM. rewrite R6, R7, R8, Hqc. clear - Pfd. lia. }
    destruct Hfd as [Hfd Hfds].
    destruct (cu_ok d c' f' (cyc + 1) m3 eus F3 HB3) as (lp & F4 & B4 & Hlp2 & Hlpb & Q1 & Q2 & Q3 & Q4 & Q5 & Q6 & Qpl & Pcu & Scu).
    set (m4 := cu_cycle6 (cyc + 1) m3) in *.
    assert (Hbc : blen (m_cbus m4) = blen (m_cbus m3)) by (unfold blen; rewrite Q4; reflexivity).
    assert (Hqe : qlen (m_ebus m4) = qlen (m_ebus m3)) by (unfold qlen; rewrite Q5; reflexivity).
    assert (Hcu : phiF (m_fu m4) + phiM m4 <= phiF (m_fu m3) + phiM m3 /\
                  (6 * zlen (m_cu m4) + 7 * qlen (m_cbus m4) + 5 * blen (m_ebus m4)
                   < 6 * zlen (m_cu m3) + 7 * qlen (m_cbus m3) + 5 * blen (m_ebus m3) ->
                   phiF (m_fu m4) + phiM m4 < phiF (m_fu m3) + phiM m3)).
    { unfold phiM. rewrite Q1, Q2, Q3, Hbc, Hqe. clear - Pcu. lia. }
    destruct Hcu as [Hcu Hcus].
    assert (Efront : front6 app (cyc + 1) m0 = Ok m4).
    { rewrite front6_eq. fold m1.
      destruct (fu_cycle6 app (cyc + 1) (m_fu m1) (m_l1i m1) (m_dbus m1)) as [[[fu1 l1i1] dbus1]| |]; cbn [bind] in Efd; [|discriminate..].
      rewrite Efd. reflexivity. }
    (* the execute bus: the queue is a prefix of the contiguous tail *)
    assert (Hfe4 : flat (m_ebus m4) = map rn (seq x (d + lp - x))).
    { unfold flat. rewrite Q5, Q6, R6, map_app, stamped_snd, app_assoc. fold (flat (m_ebus m1)). rewrite C3, T5.
      replace d with (x + (d - x))%nat at 2 by (clear - T6; lia). rewrite seq_join. f_equal. f_equal. clear - T6. lia. }
    destruct (seq_split rn (bb_q (m_ebus m4)) (map snd (bb_buf (m_ebus m4))) x (d + lp - x) Hfe4) as (Hq4 & Hb4 & Hl4).
    rewrite map_length in Hb4, Hl4.
    set (lq := length (bb_q (m_ebus m4))) in *.
    assert (Hqe1 : qlen (m_ebus m1) = Z.of_nat lq) by (unfold qlen, lq; rewrite Q5, R6; reflexivity).
    assert (Hlb4 : length (bb_buf (m_ebus m4)) = (d + lp - (x + lq))%nat) by (clear - Hl4 T6; lia).
    assert (Hphi_eq : forall m, phi m eus = phiF (m_fu m) + phiM m).
    { intros m. unfold phi, phiR. rewrite (eul_none _ T1). change (zlen (@nil runner)) with 0. lia. }
    assert (Hphi : phi m4 eus + blen (m_wbus m0) <= phi m0 eus).
    { rewrite !Hphi_eq, <- C5. clear - Hconn Hfd Hcu. lia. }
    pose proof (blen_ge0 (m_wbus m0)) as Wge.
    exists m4, (d + lp)%nat, c', f', lq.
    split; [exact Efront|]. split; [exact F4|]. split; [exact B4|]. split; [exact Hq4|].
    split; [rewrite Hb4, Hlb4; reflexivity|]. split; [clear - Hl4 T6; lia|].
    split; [apply zlen_zero; rewrite Q3, R7; exact Wb1|].
    split; [rewrite Q3, R7, Wq1; exact T3|].
    split.
    { (* two units or more: the queue of the execute bus was empty and Connect has moved the whole
         buffer into it; what the buffer holds now was dispatched in this cycle *)
      intros He2. destruct (T7 He2) as [Tq Tp].
      assert (Hq0 : qlen (m_ebus m0) = 0) by (unfold qlen; rewrite Tq; reflexivity).
      assert (Hbe1 : blen (m_ebus m1) = 0 /\ Z.of_nat lq = blen (m_ebus m0)).
      { pose proof (blen_ge0 (m_ebus m1)) as G1. pose proof (fr_eb _ _ _ _ _ GF) as G2. clear - G1 G2 Hq0 E1 E2 K3 Hqe1. lia. }
      destruct Hbe1 as [Hbe1 Hlq]. split.
      - intros Hl2. apply Tp. rewrite <- Hlq, Hl2. reflexivity.
      - intros Hb2.
        assert (Hbl : blen (m_ebus m4) = Z.of_nat lp).
        { unfold blen. rewrite Q6, R6, (zlen_zero _ Hbe1). cbn [List.app]. rewrite stamped_len. unfold zlen. rewrite map_length, seq_length. reflexivity. }
        assert (Hxd : (x + lq)%nat = d).
        { unfold blen, zlen in Hbl. apply Nat2Z.inj in Hbl. clear - Hbl Hlb4 Hl4 T6. lia. }
        rewrite Hxd. apply Qpl. clear - Hbl Hb2. lia. }
    split; [clear - GC Hlp2; lia|].
    split; [clear - Hphi Wge; lia|].
    (* no progress: the write bus and the queue of the execute bus were empty ... *)
    destruct (Z.eq_dec (blen (m_wbus m0)) 0) as [Wz|Wnz]; [|left; clear - Hphi Wge Wnz; lia].
    destruct (Nat.eq_dec lq 0) as [Hlq0|Hlq0]; [|right; left; exact Hlq0].
    assert (Eq0 : qlen (m_ebus m1) = 0) by (rewrite Hqe1, Hlq0; reflexivity).
    assert (Eb0 : blen (m_ebus m1) = 0).
    { pose proof (blen_ge0 (m_ebus m1)) as G1. clear - G1 K3 Eq0. lia. }
    assert (Wq1' : qlen (m_wbus m1) = 0) by (rewrite Wq1; exact Wz).
    assert (HFL3 : FL m3 eus = []).
    { unfold FL. rewrite R6, R7, (eul_none _ T1), !flat_nil by assumption. reflexivity. }
    (* ... so the control unit had nothing to wait for ... *)
    destruct (Scu HFL3) as [Hs|[Hcu0 Hcq0]].
    { left. specialize (Hcus Hs). rewrite !Hphi_eq, <- C5. clear - Hconn Hfd Hcus Wge. lia. }
    assert (Cq0 : qlen (m_cbus m1) = 0) by (rewrite <- Hqc; unfold qlen; rewrite Hcq0; reflexivity).
    assert (Cb0 : blen (m_cbus m1) = 0).
    { pose proof (blen_ge0 (m_cbus m1)) as G1. clear - G1 K2 Cq0. lia. }
    assert (Cu1 : m_cu m1 = []) by (rewrite <- R8; exact Hcu0).
    destruct Sfd as [Hs|[Hfu Hdu]].
    { left. specialize (Hfds Hs). rewrite !Hphi_eq, <- C5. clear - Hconn Hfds Hcu Wge. lia. }
    (* ... nothing is left between decode and write-back, and the stopping instruction cannot
       have been decoded: it would have been executed, and none before x asked for anything *)
    assert (Hxd : x = d).
    { pose proof T5 as Hx. rewrite <- C3, flat_nil in Hx by assumption. apply map_seq_nil in Hx. clear - Hx T6. lia. }
    assert (Hdc : d = Nat.min c n).
    { pose proof (fr_cl _ _ _ _ _ C1) as Hcl. rewrite Cu1, flat_nil in Hcl by assumption. apply map_seq_nil in Hcl.
      pose proof (fr_dc _ _ _ _ _ C1) as Hle. clear - Hcl Hle. lia. }
    pose proof (stop_from_ge app base) as HbN. fold N in HbN.
    assert (Hdq : bb_q (m_dbus m1) = []).
    { destruct Hdu as [Hdr|[Hdp|Hdq]]; [| |exact Hdq]; exfalso.
      - destruct (fr_dret_t _ _ _ _ _ C1 Hdr) as (HNn & Hc & Hret).
        assert (HNx : (base <= N < x)%nat) by (clear - HbN HNn Hc Hdc Hxd; lia).
        pose proof (T8 N HNx) as Hk. rewrite (kout_ret N Hret) in Hk. discriminate.
      - destruct (fr_dpbr_t _ _ _ _ _ C1 Hdp) as (HNn & Hc & Hjmp).
        assert (HNx : (base <= N < x)%nat) by (clear - HbN HNn Hc Hdc Hxd; lia).
        pose proof (T8 N HNx) as Hk. pose proof (kout_jump N (conj HbN (le_n N)) HNn Hjmp) as Hf. rewrite Hk in Hf. discriminate. }
    assert (Dq0 : qlen (m_dbus m1) = 0) by (unfold qlen; rewrite Hdq; reflexivity).
    assert (Db0 : blen (m_dbus m1) = 0).
    { pose proof (blen_ge0 (m_dbus m1)) as G1. clear - G1 K1 Dq0. lia. }
    destruct Hfu as [(Hco & Hfu & Hcomp)|[_ Hnadd]].
    2:{ exfalso. unfold bb_canadd in Hnadd. fold (blen (m_dbus m1)) in Hnadd. rewrite Db0, (bus_bl _ _ (fr_bsd _ _ _ _ _ C1)) in Hnadd. discriminate. }
    (* ... and the fetch unit is done: the machine is empty *)
    right. right.
    assert (Hz1 : phiM m1 = 0) by (unfold phiM; rewrite Cu1, Dq0, Db0, Cq0, Cb0, Eq0, Eb0, Wq1', Wb1; reflexivity).
    assert (Hz4 : phiM m4 <= 0).
    { rewrite Q1 in Hcu. rewrite Hfu in Hfd. clear - Hcu Hfd Hz1. lia. }
    destruct (phiM_zero m4 Hz4) as (Z1 & Z2 & Z3 & Z4 & Z5).
    assert (Hcomp4 : f_complete (m_fu m4) = true).
    { rewrite Q1, Hcomp, C5. destruct (f_complete (m_fu m0)) eqn:Ec; [reflexivity|].
      destruct (fi_nc _ _ _ _ (fr_fetch _ _ _ _ _ GF) Ec) as [_ Hx]. rewrite C5 in Hco. contradiction. }
    unfold is_empty6. rewrite Hcomp4, Z1, Z2, Z3, Z4, Z5, (wus_empty _ GW), (eus_empty _ T1). reflexivity.
  Qed.

  (* the execute units, then the write units.  Every execute unit that finds an instruction in
     the queue of the execute bus runs it at once (j of them), its result goes to the buffer of
     the write bus; the write units empty the queue of the write bus. *)
  Lemma back_ok ord d c f x lq cy m4 eus wus :
    FrontI d c f cy m4 -> BackI d m4 eus -> Forall EuNone eus -> eus <> [] -> length eus = length wus ->
    Forall (fun w => u_co w = WNone) wus -> (base <= x)%nat ->
    bb_q (m_ebus m4) = map rn (seq x lq) ->
    map snd (bb_buf (m_ebus m4)) = map rn (seq (x + lq) (d - (x + lq))) -> (x + lq <= d)%nat ->
    bb_buf (m_wbus m4) = [] -> qlen (m_wbus m4) <= Z.of_nat (length wus) ->
    (forall k, (x < k < x + Nat.min (length eus) lq)%nat -> plain k) ->
    let j := Nat.min (length eus) lq in
    let out := if (lq =? 0)%nat then euo_none else kout x in
    exists m5 m6 eus',
      eus_cycle labels ord cy false m4 eus euo_none = (false, Ok (m5, eus', out)) /\
      wus_cycle m5 wus (-1) = Ok (m6, wus) /\
      (o_flush out = false -> FrontI d c f cy m6) /\
      IInv (m_l1i m6) /\ Forall (fun en => fst en < (if (lq =? 0)%nat then pcz d else pcz (S x))) (b_btb (m_bu m6)) /\
      BusOK cy (m_wbus m6) /\
      (bb_ql (m_dbus m6) = 2 /\ bb_bl (m_dbus m6) = 2 /\ bb_ql (m_cbus m6) = 2 /\ bb_bl (m_cbus m6) = 2 /\
       bb_ql (m_ebus m6) = 2 /\ bb_bl (m_ebus m6) = 2) /\
      BackI d m6 eus' /\ Forall EuNone eus' /\ length eus' = length eus /\
      flat (m_ebus m6) = map rn (seq (x + j) (d - (x + j))) /\
      bb_q (m_ebus m6) = map rn (seq (x + j) (lq - j)) /\ bb_buf (m_ebus m6) = bb_buf (m_ebus m4) /\
      bb_q (m_wbus m6) = [] /\
      bb_buf (m_wbus m6) = map (fun k => (cy + 1, wbn app labels regs0 base k)) (filter (notret app) (seq x j)) /\
      (forall k, In k (seq x j) -> (base <= k < d)%nat /\ (k <= N)%nat /\ (k < n)%nat) /\
      (o_flush out = false -> phi m6 eus' + 2 * Z.of_nat j <= phi m4 eus /\
         (lq = O -> is_empty6 m4 eus wus = true -> is_empty6 m6 eus' wus = true)).
  Proof.
    intros F4 B4 T1 GEne T4 GW Hbx Hq4 Hb4 Hxlq Hwb4 Hwq4 Hplj. cbv zeta.
    assert (Hlq2 : (lq <= 2)%nat).
    { pose proof (bus_q _ _ (fr_be _ _ _ _ _ F4)) as Hx. unfold qlen, zlen in Hx. rewrite Hq4, map_length, seq_length in Hx. lia. }
    set (j := Nat.min (length eus) lq) in *.
    assert (Hj : (j <= lq)%nat) by (unfold j; lia).
    set (bound := if (lq =? 0)%nat then pcz d else pcz (S x)).
    assert (Hbound : pcz base <= bound /\ (lq <> O -> pcz x < bound) /\ bound <= pcz d).
    { unfold bound. destruct lq; cbn [Nat.eqb]; unfold pcz; lia. }
    destruct Hbound as (Hb1 & Hb2 & Hb3).
    assert (Hbtb4 : Forall (fun en => fst en < bound) (b_btb (m_bu m4))).
    { eapply Forall_impl; [|exact (fr_btb _ _ _ _ _ F4)]. cbn beta. intros e He. lia. }
    assert (Hwbl4 : blen (m_wbus m4) = 0) by (unfold blen; rewrite Hwb4; reflexivity).
    destruct (eus_run app labels regs0 mem0 base Happ Hreg Hlen0 Hbase Hsem ord cy d eus bound eus m4 x lq GEne T1 T1 B4
                (fr_bw _ _ _ _ _ F4) ltac:(fold j; lia) Hbtb4 Hb2 Hb3 Hq4
                ltac:(intros _; apply (btb_get_none _ (pcz base)); [exact (fr_btb _ _ _ _ _ F4) | unfold pcz; lia]) Hplj)
      as (m5 & eus' & Ee & A1 & A2 & A3 & A4 & A5 & A6 & A7 & A8 & A9 & A10).
    fold j in A6, A7, A8.
    destruct (wus_ok app labels regs0 mem0 base Hreg Hlen0 Hbase Hsem d eus wus m5 A3 GW)
      as (m6 & Ew & B6 & [V1 V2 V3 V4 V5 V6 V7 V8 V9 V10 V11 V12 V13 V14 V15 V16] & V17 & V18).
    pose proof A5 as [U1 U2 U3 U4 U5 U6 U7 U8 U9 U10 U11 U12 U13 U14 U15 U16 U17].
    assert (Hnf : o_flush (if (lq =? 0)%nat then euo_none else kout x) = false ->
                  m_fu m5 = m_fu m4 /\ m_dpbr m5 = m_dpbr m4 /\ b_btb (m_bu m5) = b_btb (m_bu m4)).
    { intros Hnf. apply A9. destruct lq; [left; reflexivity | right; exact Hnf]. }
    assert (Hq6 : bb_q (m_wbus m6) = []).
    { rewrite V16, U15. apply skipn_all2. unfold qlen, zlen in Hwq4. lia. }
    assert (Hb6 : bb_buf (m_wbus m6) = map (fun k => (cy + 1, wbn app labels regs0 base k)) (filter (notret app) (seq x j))).
    { rewrite V13, A7, Hwb4. reflexivity. }
    exists m5, m6, eus'.
    split; [exact Ee|]. split; [exact Ew|].
    split.
    { intros Hx. destruct (Hnf Hx) as (X1 & X2 & X3). destruct F4 as [G1 Gc G2 G3 Gb G4 G5 G6 G7 G8 G9 Gbt G10 G11 G12 G13 G14].
      constructor; rewrite ?V5, ?V2, ?V8, ?V10, ?V11, ?V6, ?V7, ?V9, ?V12, ?X1, ?X2, ?U5, ?U8, ?U9, ?U10, ?U11, ?X3; auto.
      - eapply BusOK_frame; [exact U12 | exact U13 | exact U14 | | exact G12]. unfold qlen. rewrite A6, Hq4. unfold zlen. rewrite !map_length, !seq_length. lia.
      - unfold blen. rewrite U12. exact G14. }
    split; [rewrite V2, U5; exact (fi_l1 _ _ _ _ (fr_fetch _ _ _ _ _ F4))|].
    split; [rewrite V9; exact A10|]. split; [apply V18; exact A4|].
    split.
    { rewrite V10, V11, V12, U10, U11, U13, U14.
      pose proof (fr_bsd _ _ _ _ _ F4) as [? ? _ _]. pose proof (fr_bc _ _ _ _ _ F4) as [? ? _ _]. pose proof (fr_be _ _ _ _ _ F4) as [? ? _ _]. repeat split; assumption. }
    split; [eapply BackI_eus; [exact T1 | exact A1 | exact B6]|].
    split; [exact A1|]. split; [exact A2|].
    split.
    { rewrite V12. unfold flat. rewrite A6, U12, Hb4.
      replace (x + lq)%nat with (x + j + (lq - j))%nat by lia. rewrite seq_join. f_equal. f_equal. lia. }
    split; [rewrite V12; exact A6|]. split; [rewrite V12; exact U12|].
    split; [exact Hq6|]. split; [exact Hb6|]. split; [exact A8|].
    (* the potential *)
    intros Hx. destruct (Hnf Hx) as (X1 & _ & _).
    assert (Y1 : m_fu m6 = m_fu m4) by (rewrite V5; exact X1).
    assert (Y2 : m_dbus m6 = m_dbus m4) by (rewrite V10; exact U10).
    assert (Y3 : m_cbus m6 = m_cbus m4) by (rewrite V11; exact U11).
    assert (Y4 : m_cu m6 = m_cu m4) by (rewrite V8; exact U9).
    split.
    - assert (Y5 : blen (m_ebus m6) = blen (m_ebus m4)) by (rewrite V12; unfold blen; rewrite U12; reflexivity).
      assert (Y6 : qlen (m_ebus m6) = Z.of_nat (lq - j)) by (rewrite V12; unfold qlen, zlen; rewrite A6, map_length, seq_length; reflexivity).
      assert (Y6' : qlen (m_ebus m4) = Z.of_nat lq) by (unfold qlen, zlen; rewrite Hq4, map_length, seq_length; reflexivity).
      assert (Y7 : blen (m_wbus m6) <= Z.of_nat j).
      { unfold blen, zlen. rewrite Hb6, map_length. pose proof (filter_len_le (notret app) (seq x j)) as Hf. rewrite seq_length in Hf. lia. }
      assert (Y8 : qlen (m_wbus m6) = 0) by (unfold qlen; rewrite Hq6; reflexivity).
      pose proof (qlen_ge0 (m_wbus m4)) as G1.
      unfold phi, phiR, phiM. rewrite (eul_none _ T1), (eul_none _ A1), Y1, Y2, Y3, Y4, Y5, Y6, Y6', Y8, Hwbl4.
      clear - Y7 Hj G1. lia.
    - (* nothing anywhere and nothing executed: still nothing anywhere *)
      intros Hl0 Hemp. apply is_empty6_iff in Hemp as (E1 & E2 & E3 & E4 & E5 & E6 & E7 & E8). apply flat_nil_inv in E6 as [_ E6].
      apply is_empty6_iff. rewrite Y1, Y2, Y3, Y4. repeat (split; [assumption|]).
      unfold flat. rewrite V12, A6, U12, E6, Hq6, Hb6. unfold j. rewrite Hl0, Nat.min_0_r.
      split; [reflexivity|]. split; [reflexivity | apply eus_empty; exact A1].
  Qed.
End Step.
