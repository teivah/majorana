(* Refinement of MVP-6.2 to the sequential machine on register-only programs: an execute unit of
   Mvp62.v that takes an instruction from the execute bus and runs it in the same call follows the
   execute unit of Mvp61.v (Receiver, branch unit, Runner.Run through registerRead = the view, write bus,
   Forwarder, flush request); a conditional branch commits or rolls back the transaction map: the view
   is unchanged because every entry is older than the branch (TxB).  The write units: a write to the
   transaction map is a write to the view. *)
From Coq Require Import ZArith List Bool Lia.
From Maj Require Import Base.Outcome Base.GoInt Base.GoTypes Isa.Spec Isa.Embed Isa.Seq Isa.Refine.
From Maj Require Import Gen.Latency Gen.RiscTables Gen.Opcodes Comp.Cache Comp.Rat Comp.RatProofs Comp.Tx Comp.TxProofs.
From Maj Require Import Mvp.Mvp12 Mvp.Mvp12Proofs Mvp.Mvp3 Mvp.Mvp3Proofs Mvp.Mvp4Skel Mvp.Mvp4Inv Mvp.Mvp4Sim Mvp.Mvp5 Mvp.Mvp60 Mvp.Mvp60RefSem Mvp.Mvp60RefDefs Mvp.Mvp61 Mvp.Mvp62
     Mvp.Mvp61RefFront Mvp.Mvp62RefRel Mvp.Mvp62RefFront.
Import ListNotations.
Open Scope Z_scope.

(* the response of an execute unit *)
Definition OutR (o : eu_out62) (p : resp1) : Prop :=
  Mvp62.p_flush o = Mvp61.p_flush p /\ Mvp62.p_seq o = Mvp61.p_seq p /\ Mvp62.p_pc o = Mvp61.p_pc p /\ Mvp62.p_ret o = Mvp61.p_ret p.

Lemma pre_eq e2 e1 : REi e2 e1 -> pre_flush e2 = eu_pre1 e1.
Proof.
  intros [H1 H2 H3 H4 H5]. unfold pre_flush, eu_pre1. rewrite H4. destruct (u_sid e1 =? 0); [reflexivity|]. cbn [negb andb].
  destruct (x_runner e2) as [r2|], (e_runner (u_e e1)) as [r1|]; cbn [option_map] in H5; try discriminate; [|reflexivity].
  injection H5 as ->. reflexivity.
Qed.

Lemma take_sim sg nch : (forall c c', c < c' -> c' < nch -> sg c < sg c') -> forall chs ch,
  Forall (fun cv : Z * Z => fst cv < nch) chs -> ch < nch ->
  match ch_take chs ch with
  | None => chan_take (map (fun cv => (sg (fst cv), snd cv)) chs) (sg ch) = None
  | Some (v, chs') => chan_take (map (fun cv => (sg (fst cv), snd cv)) chs) (sg ch) = Some (v, map (fun cv => (sg (fst cv), snd cv)) chs') /\
                      Forall (fun cv : Z * Z => fst cv < nch) chs'
  end.
Proof.
  intros Hm. assert (Hinj : forall c c', c < nch -> c' < nch -> sg c = sg c' -> c = c').
  { intros c c' Hc Hc' E. destruct (Z.lt_trichotomy c c') as [H|[H|H]]; [|exact H|].
    - specialize (Hm c c' H Hc'). lia.
    - specialize (Hm c' c H Hc). lia. }
  induction chs as [|[c v] t IH]; intros ch Hall Hch; [reflexivity|]. cbn [ch_take chan_take map fst snd].
  inversion Hall as [|? ? Hc Ht]; subst. cbn [fst] in Hc.
  destruct (Z.eqb_spec c ch) as [->|Hne].
  - rewrite Z.eqb_refl. split; [reflexivity | exact Ht].
  - destruct (Z.eqb_spec (sg c) (sg ch)) as [E|_]; [exfalso; apply Hne; apply Hinj; assumption|].
    specialize (IH ch Ht Hch). destruct (ch_take t ch) as [[w t']|].
    + destruct IH as [E Ht']. rewrite E. split; [reflexivity | constructor; assumption].
    + rewrite IH. reflexivity.
Qed.

(* what a cycle of an execute unit leaves alone: no channel is made, nothing is pushed, the queue of the
   execute bus can only lose its head, the queue of the write bus stays *)
Set Implicit Arguments.
Record Fr (m2 m2' : mach2) (m1 m1' : mach1) : Prop := mkFr {
  fr_nch : x_nch (y_x m1') = x_nch (y_x m1);
  fr_prev : n_prev m2' = n_prev m2;
  fr_nid : n_nid m2' = n_nid m2;
  fr_ebus : forall r, In r (bb_q (n_ebus m2')) -> In r (bb_q (n_ebus m2));
  fr_wq : bb_q (n_wbus m2') = bb_q (n_wbus m2) }.
Unset Implicit Arguments.

Lemma Fr_refl m2 m1 : Fr m2 m2 m1 m1.
Proof. constructor; auto. Qed.

Lemma Fr_trans m2 m2' m2'' m1 m1' m1'' : Fr m2 m2' m1 m1' -> Fr m2' m2'' m1' m1'' -> Fr m2 m2'' m1 m1''.
Proof. intros [A1 A2 A3 A4 A5] [B1 B2 B3 B4 B5]. constructor; try congruence. auto. Qed.

Section Exec.
  Variable app : list instr.
  Let nap := length app.
  Variable labels : Z -> option Z.

  Lemma assert_sim sg m2 m1 r2 rb : RMc nap sg m2 m1 -> q_instr r2 = r_instr rb -> q_pc r2 = r_pc rb ->
    RMc nap sg (bu_assert62 m2 r2) (bu_assert1 m1 rb) /\
    x_fwd (y_x (bu_assert1 m1 rb)) = x_fwd (y_x m1) /\ n_fw (bu_assert62 m2 r2) = n_fw m2 /\
    n_ctx (bu_assert62 m2 r2) = n_ctx m2 /\ x_nch (y_x (bu_assert1 m1 rb)) = x_nch (y_x m1) /\
    n_prev (bu_assert62 m2 r2) = n_prev m2 /\ n_nid (bu_assert62 m2 r2) = n_nid m2 /\ n_ebus (bu_assert62 m2 r2) = n_ebus m2 /\
    n_wbus (bu_assert62 m2 r2) = n_wbus m2.
  Proof.
    intros HK Hi Hpc.
    unfold bu_assert62, bu_assert1, bu_assert6, Ty. rewrite Hi, Hpc, (rm_bu HK).
    destruct (InstructionType_IsUnconditionalBranch (instr_InstructionType (r_instr rb))); cbn [andb].
    - destruct (btb_get (b_btb (m_bu (y_m m1))) (r_pc rb)); (split; [rm_frame HK; congruence | ss; repeat split; reflexivity]).
    - destruct (InstructionType_IsConditionalBranch (instr_InstructionType (r_instr rb))); (split; [rm_frame HK | ss; repeat split; reflexivity]).
  Qed.

  Lemma RM_wbus sg m2 m1 x cy : RM nap sg m2 m1 ->
    RM nap sg (set_n_wbus m2 (bb_add (n_wbus m2) x cy)) (set_m m1 (set_wbus (y_m m1) (bb_add (m_wbus (y_m m1)) x cy))).
  Proof.
    intros HR. rm_frame HR; congruence.
  Qed.

  Lemma RM_resolved sg m2 m1 pc pcTo : RM nap sg m2 m1 -> RM nap sg (bu_resolved62 m2 pc pcTo) (bu_resolved1 m1 pc pcTo).
  Proof.
    intros HR. unfold bu_resolved62, bu_resolved1, bu_resolved6. rm_frame HR; congruence.
  Qed.

  Lemma RM_ctx sg m2 m1 c : RM nap sg m2 m1 -> Vw c (m_regs (y_m m1)) ->
    RM nap sg (set_n_ctx (set_n_pcb m2 false) c) (set_x m1 (xs_pcb (y_x m1) false)).
  Proof.
    intros HR Hv. rm_frame HR.
  Qed.

  Lemma RM_bu sg m2 m1 b : RM nap sg m2 m1 -> RM nap sg (set_n_bu m2 b) (set_m m1 (set_bu (y_m m1) b)).
  Proof.
    intros HR. rm_frame HR.
  Qed.

  Lemma RM_send sg m2 m1 ch v : RM nap sg m2 m1 -> ch < x_nch (y_x m1) ->
    RM nap sg (set_n_chan m2 (n_chan m2 ++ [(sg ch, v)])) (set_x m1 (xs_ch (y_x m1) (x_ch (y_x m1) ++ [(ch, v)]))).
  Proof.
    intros HR Hc. pose proof (rm_chan HR) as Hch. pose proof (rm_chlt HR) as Hlt. rm_frame HR.
    - rewrite Hch, map_app. reflexivity.
    - apply Forall_app. split; [exact Hlt | constructor; [exact Hc | constructor]].
  Qed.

  (* executeUnit.run: e1 / e2 hold the instruction; f = the Forward of the instruction object *)
  Lemma run_sim sg ord cyc b m2 m1 e2 e1 r2 rb :
    RMc nap sg m2 m1 ->
    e_runner (u_e e1) = Some rb -> x_runner e2 = Some r2 -> x_memory e2 = e_memory (u_e e1) -> Mvp62.x_seq e2 = u_sid e1 ->
    q_instr r2 = r_instr rb -> q_pc r2 = r_pc rb -> q_seq r2 = r_seq rb -> nomem (q_instr r2) = true ->
    match u_fw e1 with None => q_fwd r2 = false | Some c => q_fwd r2 = true /\ c < x_nch (y_x m1) /\ sg c = q_id r2 end ->
    fw_get m2 (idx_of (q_pc r2)) = get_fwd m1 (r_pc rb) ->
    Seq.upd (x_fwd (y_x m1)) (iidx (r_pc rb)) no_fwd = repeat no_fwd nap ->
    (forall idx, fwg (aset (idx_of (q_pc r2)) (0, 0) (n_fw m2)) idx = (0, 0)) ->
    TxB (n_ctx m2) b -> b <= q_seq r2 ->
    forall os1 m1' e1' p, eu_run1 labels ord cyc m1 e1 = (os1, Ok (m1', e1', p)) -> p_err p = None ->
    exists os2 m2' e2' o, eu_run62 labels ord cyc m2 e2 = (os2, Ok (m2', e2', o)) /\
      RM nap sg m2' m1' /\ REi e2' e1' /\ OutR o p /\ TxB (n_ctx m2') b /\ Fr m2 m2' m1 m1'.
  Proof.
    intros HK Er1 Er2 Hmem Hsid Hi Hpc Hsq Hnm Hfw F2 F3 F4 HT Hb os1 m1' e1' p E Hperr.
    unfold eu_run1 in E. rewrite Er1 in E. cbv zeta in E. unfold eu_run62. rewrite Er2.
    assert (Erun : instr_Run (q_instr r2) (rr62 m2 r2) labels (q_pc r2) (x_memory e2) 0 =
                   instr_Run (r_instr rb) (rr1 (get_fwd m1 (r_pc rb)) (m_regs (y_m m1))) labels (r_pc rb) (e_memory (u_e e1)) 0).
    { rewrite Hi, Hpc, Hmem. apply instr_Run_ext. intros r. unfold rr62. rewrite (register_read_view _ _ _ r (rm_vw HK)).
      rewrite <- Hpc, F2, Hpc. reflexivity. }
    rewrite Erun. destruct (instr_Run (r_instr rb) _ labels (r_pc rb) (e_memory (u_e e1)) 0) as [exe|er|] eqn:Ex.
    2:{ unfold quiet1 in E. injection E as _ _ _ <-. discriminate Hperr. }
    2:{ discriminate E. }
    assert (Hmc : MemoryChange exe = false) by (eapply nomem_nochange; [|exact Ex]; rewrite <- Hi; exact Hnm).
    (* the Forward is cleared *)
    set (m1c := set_fwd m1 (r_pc rb) no_fwd) in *. set (m2c := fw_set m2 (idx_of (q_pc r2)) (0, 0)).
    assert (HR : RM nap sg m2c m1c).
    { unfold m2c, m1c. rm_frame HK. }
    assert (Hc2 : n_ctx m2c = n_ctx m2) by reflexivity.
    set (e1o := eu_co_set e1 ENone) in *. set (e2o := mk_eu62 ENone (x_memory e2) (x_runner e2) (Mvp62.x_seq e2)).
    assert (HE : REi e2o e1o).
    { unfold e2o, e1o, eu_co_set. constructor; cbn [x_co x_memory Mvp62.x_seq x_runner u_e e_co e_memory e_runner u_sid]; auto.
      rewrite Er1, Er2. cbn [option_map]. rewrite Hsq. reflexivity. }
    unfold eu_run_exe62. fold e2o. cbv zeta.
    destruct (Return exe).
    { unfold quiet1 in E. injection E as <- <- <- <-. eexists _, m2c, e2o, _. split; [reflexivity|].
      split; [exact HR|]. split; [exact HE|]. split; [repeat split|]. split; [rewrite Hc2; exact HT|]. constructor; auto. }
    rewrite Hmc in E |- *. cbn [andb bind] in E |- *.
    rewrite <- Hi, <- Hsq in E.
    set (wx := mk_wb6 (q_seq r2) exe (instr_ReadRegisters (q_instr r2)) (instr_WriteRegisters (q_instr r2))) in *.
    set (m1w := set_m m1c (set_wbus (y_m m1) (bb_add (m_wbus (y_m m1)) wx cyc))) in *.
    set (m2w := set_n_wbus m2c (bb_add (n_wbus m2c) wx cyc)) in *.
    assert (HRw : RM nap sg m2w m1w) by exact (RM_wbus sg m2c m1c wx cyc HR).
    assert (Hcw : n_ctx m2w = n_ctx m2) by reflexivity.
    destruct (u_fw e1) as [ch|].
    - (* Forwarder *)
      destruct Hfw as (Hq & Hch & Hsg). rewrite Hq. cbn [negb].
      destruct (existsb (fun c => fst c =? ch) (x_ch (y_x m1w))); [discriminate E|].
      rewrite Hi in E |- *. destruct (InstructionType_IsBranch (instr_InstructionType (r_instr rb))); [discriminate E|].
      injection E as <- <- <- <-. eexists _, _, e2o, _. split; [reflexivity|].
      rewrite <- Hsg. split.
      { change (RM nap sg (set_n_chan m2w (n_chan m2w ++ [(sg ch, RegisterValue exe)])) (set_x m1w (xs_ch (y_x m1w) (x_ch (y_x m1w) ++ [(ch, RegisterValue exe)])))).
        apply RM_send; [exact HRw | exact Hch]. }
      split; [exact HE|]. split; [repeat split|]. split; [ss; exact HT|]. constructor; auto.
    - rewrite Hfw. cbn [negb]. rewrite Hi in E |- *.
      set (ty := instr_InstructionType (r_instr rb)) in *.
      set (m13 := if InstructionType_IsUnconditionalBranch ty then bu_resolved1 m1w (r_pc rb) (NextPc exe) else m1w) in *.
      set (m23 := if InstructionType_IsUnconditionalBranch ty then bu_resolved62 m2w (q_pc r2) (NextPc exe) else m2w).
      assert (HR3 : RM nap sg m23 m13).
      { unfold m23, m13. rewrite Hpc. destruct (InstructionType_IsUnconditionalBranch ty); [apply RM_resolved|]; exact HRw. }
      assert (Hc3 : n_ctx m23 = n_ctx m2) by (unfold m23; destruct (InstructionType_IsUnconditionalBranch ty); reflexivity).
      set (m14 := if InstructionType_IsConditionalBranch ty then set_x m13 (xs_pcb (y_x m13) false) else m13) in *.
      set (m24 := if InstructionType_IsConditionalBranch ty
                  then if PcChange exe && negb (NextPc exe =? addS 32 (q_pc r2) 4) then bu_taken62 m23 (q_seq r2) else bu_nottaken62 m23
                  else m23).
      assert (HR4 : RM nap sg m24 m14 /\ TxB (n_ctx m24) b).
      { unfold m24, m14. destruct (InstructionType_IsConditionalBranch ty); [|split; [exact HR3 | rewrite Hc3; exact HT]].
        destruct (PcChange exe && negb (NextPc exe =? addS 32 (q_pc r2) 4)).
        - unfold bu_taken62. split; [|ss; apply TxB_rollback]. apply RM_ctx; [exact HR3|].
          apply Vw_rollback; [rewrite Hc3; eapply TxB_mono; [exact Hb | exact HT] | exact (rm_vw HR3)].
        - unfold bu_nottaken62. split; [|ss; apply TxB_commit]. apply RM_ctx; [exact HR3|]. apply Vw_commit. exact (rm_vw HR3). }
      destruct HR4 as [HR4 HT4].
      assert (Hfr : Fr m2 m24 m1 m14).
      { unfold m14, m24, m13, m23, bu_taken62, bu_nottaken62, bu_resolved1, bu_resolved62, bu_resolved6.
        destruct (InstructionType_IsConditionalBranch ty), (InstructionType_IsUnconditionalBranch ty),
          (PcChange exe && negb (NextPc exe =? addS 32 (q_pc r2) 4)); constructor; ss; auto. }
      destruct (PcChange exe).
      + rewrite <- (rm_bu HR4) in E.
        destruct (bu_should_flush6 (n_bu m24) (NextPc exe)) as [b' fl].
        injection E as <- <- <- <-. eexists _, _, e2o, _. split; [reflexivity|].
        split; [apply RM_bu; exact HR4|]. split; [exact HE|].
        split; [destruct fl; repeat split; cbn [Mvp62.p_seq Mvp61.p_seq]; auto|]. split; [ss; exact HT4|]. destruct Hfr. constructor; ss; auto.
      + injection E as <- <- <- <-. eexists _, _, e2o, _. split; [reflexivity|].
        split; [exact HR4|]. split; [exact HE|]. split; [repeat split|]. split; [exact HT4 | exact Hfr].
  Qed.

  Lemma get_fwd_set m pc f : (iidx pc < length (x_fwd (y_x m)))%nat -> get_fwd (set_fwd m pc f) pc = f.
  Proof. intros H. unfold get_fwd, set_fwd. ss. apply supd_nth_eq. exact H. Qed.

  (* the Receiver of an instruction taken from the execute bus: the forwarded value, if one is expected, has
     arrived; it goes into the Forward of the instruction object *)
  Lemma recv_sim sg m2 m1 r2 r1 mem sid : RM nap sg m2 m1 -> RC nap sg (x_nch (y_x m1)) r2 r1 ->
    (forall ch, r_rc r1 = Some ch -> ch_take (x_ch (y_x m1)) ch <> None) ->
    exists m2p m1p r2p e1p f,
      (match q_recv r2 with
       | None => Some (m2, r2)
       | Some id => match chan_take (n_chan m2) id with
                    | None => None
                    | Some (v, ch') => Some (fw_set (set_n_chan m2 ch') (idx_of (q_pc r2)) (q_freg r2, v),
                                             mk_r2 (q_instr r2) (q_pc r2) (q_seq r2) (q_id r2) (q_fwd r2) None (q_freg r2))
                    end
       end) = Some (m2p, r2p) /\
      (match r_rc r1 with
       | None => Some (m1, mk_eu1 (mk_eu6 EPrepare mem (Some (r_b r1))) (r_fw r1) (r_rc r1) (r_freg r1) sid)
       | Some ch => match ch_take (x_ch (y_x m1)) ch with
                    | None => None
                    | Some (v, chs) => Some (set_fwd (set_x m1 (xs_ch (y_x m1) chs)) (r_pc (r_b r1)) (r_freg r1, v),
                                             mk_eu1 (mk_eu6 EPrepare mem (Some (r_b r1))) (r_fw r1) None (r_freg r1) sid)
                    end
       end) = Some (m1p, e1p) /\
      RMc nap sg m2p m1p /\ e_runner (u_e e1p) = Some (r_b r1) /\ u_fw e1p = r_fw r1 /\ e_memory (u_e e1p) = mem /\ u_sid e1p = sid /\
      q_instr r2p = q_instr r2 /\ q_pc r2p = q_pc r2 /\ q_seq r2p = q_seq r2 /\ q_fwd r2p = q_fwd r2 /\ q_id r2p = q_id r2 /\
      fw_get m2p (idx_of (q_pc r2)) = f /\ get_fwd m1p (r_pc (r_b r1)) = f /\
      Seq.upd (x_fwd (y_x m1p)) (iidx (r_pc (r_b r1))) no_fwd = repeat no_fwd nap /\
      (forall idx, fwg (aset (idx_of (q_pc r2)) (0, 0) (n_fw m2p)) idx = (0, 0)) /\
      n_ctx m2p = n_ctx m2 /\ x_nch (y_x m1p) = x_nch (y_x m1) /\ n_prev m2p = n_prev m2 /\ n_nid m2p = n_nid m2 /\
      n_ebus m2p = n_ebus m2 /\ n_wbus m2p = n_wbus m2.
  Proof.
    intros HR [C1 C2 C3 C4 C5 C6 C7] Hnb.
    destruct (r_rc r1) as [ch|] eqn:Erc.
    - destruct C5 as [Eq Hch]. rewrite Eq.
      pose proof (take_sim sg (x_nch (y_x m1)) (sg_mono (rm_sg HR)) (x_ch (y_x m1)) ch (rm_chlt HR) Hch) as Htk.
      rewrite (rm_chan HR).
      destruct (ch_take (x_ch (y_x m1)) ch) as [[v chs]|] eqn:Et; [|exfalso; exact (Hnb ch eq_refl Et)].
      destruct Htk as [Etk Hlt]. rewrite Etk. eexists _, _, _, _, (r_freg r1, v). split; [reflexivity|]. split; [reflexivity|].
      pose proof (rm_fwd HR eq_refl) as Hfwd. pose proof (rm_fw HR eq_refl) as Hfw.
      split; [rm_frame HR; discriminate|].
      rewrite C4. repeat split; ss; auto.
      + rewrite fw_get_fwg. ss. unfold fwg. rewrite aget_aset, Z.eqb_refl. reflexivity.
      + rewrite <- C2. unfold get_fwd. ss. rewrite Hfwd. apply supd_nth_eq. rewrite repeat_length. exact C6.
      + rewrite Hfwd, <- C2, upd_upd. apply upd_repeat.
      + intros idx. unfold fwg. rewrite !aget_aset. destruct (idx =? idx_of (q_pc r2)); [reflexivity|]. apply Hfw.
    - rewrite C5. eexists _, _, _, _, (0, 0). split; [reflexivity|]. split; [reflexivity|]. split; [apply RM_RMc; exact HR|].
      repeat split; ss; auto.
      + apply (rm_fw HR eq_refl).
      + unfold get_fwd. rewrite (rm_fwd HR eq_refl). rewrite <- C2. apply nth_repeat.
      + rewrite (rm_fwd HR eq_refl). apply upd_repeat.
      + intros idx. apply fwg_clear. intros j. rewrite <- fw_get_fwg. apply (rm_fw HR eq_refl).
  Qed.

  (* executeUnit.Cycle of an idle unit that is idle again afterwards *)
  Lemma eu_cycle_sim sg ord cyc b m2 m1 e2 e1 :
    RM nap sg m2 m1 -> REi e2 e1 -> TxB (n_ctx m2) b -> (forall r, In r (bb_q (n_ebus m2)) -> b <= q_seq r) ->
    forall os1 m1' e1' p, eu_cycle1 labels ord cyc m1 e1 = (os1, Ok (m1', e1', p)) -> p_err p = None -> e_co (u_e e1') = ENone ->
    exists os2 m2' e2' o, eu_cycle62 labels ord cyc m2 e2 = (os2, Ok (m2', e2', o)) /\
      RM nap sg m2' m1' /\ REi e2' e1' /\ OutR o p /\ TxB (n_ctx m2') b /\ Fr m2 m2' m1 m1'.
  Proof.
    intros HR HE HT Hq os1 m1' e1' p E Hperr Hidle. unfold eu_cycle1 in E. unfold eu_cycle62. rewrite (pre_eq _ _ HE).
    destruct (eu_pre1 e1).
    { unfold quiet1 in E. injection E as <- <- <- <-. unfold quiet62. eexists _, m2, _, _. split; [reflexivity|]. split; [exact HR|].
      destruct HE as [A1 A2 A3 A4 A5]. split; [|split; [repeat split | split; [exact HT | apply Fr_refl]]].
      unfold eu_flush1, eu_sid_set, eu_co_set. constructor; cbn [x_co x_memory Mvp62.x_seq x_runner u_e e_co e_memory e_runner u_sid]; auto. }
    rewrite (re_co1 HE) in E. rewrite (re_co2 HE).
    pose proof (RBus_get _ _ _ (rm_ebus HR)) as Hget.
    destruct (bb_get (x_ebus (y_x m1))) as [b1' [r1|]].
    2:{ destruct Hget as [Eg _]. rewrite Eg. unfold quiet1 in E. injection E as <- <- <- <-. unfold quiet62. eexists _, m2, e2, _. split; [reflexivity|].
        split; [exact HR|]. split; [exact HE|]. split; [repeat split | split; [exact HT | apply Fr_refl]]. }
    destruct Hget as (b2' & r2 & Eg & Hr & Hb').
    assert (Hin2 : In r2 (bb_q (n_ebus m2))).
    { unfold bb_get in Eg. destruct (bb_q (n_ebus m2)) as [|x q]; [discriminate|]. injection Eg as _ <-. left. reflexivity. }
    assert (Hq2 : bb_q b2' = tl (bb_q (n_ebus m2))).
    { unfold bb_get in Eg. destruct (bb_q (n_ebus m2)) as [|x q]; [discriminate|]. injection Eg as <- _. reflexivity. }
    rewrite Eg.
    set (m1g := set_x m1 (xs_ebus (y_x m1) b1')) in *. set (m2g := set_n_ebus m2 b2').
    assert (HRg : RM nap sg m2g m1g).
    { unfold m2g, m1g. rm_frame HR. }
    pose proof (proj1 Hr) as HCr. destruct Hr as ([C1 C2 C3 C4 C5 C6 C7] & Hid & Hfw).
    unfold eu_prepare1 in E. unfold eu_prepare62.
    change (m_wbus (y_m m1g)) with (m_wbus (y_m m1)) in E. change (n_wbus m2g) with (n_wbus m2). rewrite (rm_wbus HR).
    destruct (bb_canadd (m_wbus (y_m m1))); cbn [negb] in E |- *.
    2:{ unfold quiet1 in E. injection E as _ _ <- _. cbn in Hidle. discriminate Hidle. }
    cbn [u_e e_runner x_runner u_rc u_freg u_fw u_sid e_memory] in E |- *.
    (* Receiver: an empty channel would leave the unit waiting *)
    assert (Hnb : forall ch, r_rc r1 = Some ch -> ch_take (x_ch (y_x m1g)) ch <> None).
    { intros ch Erc Hn. rewrite Erc, Hn in E. unfold quiet1 in E. injection E as _ _ <- _. cbn in Hidle. discriminate Hidle. }
    pose proof (recv_sim sg m2g m1g r2 r1 (e_memory (u_e e1)) (u_sid e1) HRg HCr Hnb) as Hrecv.
    change (n_ctx m2g) with (n_ctx m2) in Hrecv. change (x_nch (y_x m1g)) with (x_nch (y_x m1)) in Hrecv. change (n_prev m2g) with (n_prev m2) in Hrecv.
    change (n_nid m2g) with (n_nid m2) in Hrecv. change (n_ebus m2g) with b2' in Hrecv. change (n_wbus m2g) with (n_wbus m2) in Hrecv.
    destruct Hrecv as (m2p & m1p & r2p & e1p & f & Ercv2 & Ercv1 & HKp & Ep1 & Ep2 & Ep3 & Ep4 & Ei & Epc & Esq & Efw & Eid & F2 & F1 & F3 & F4 & Ec & En & Epv & Eni & Eeb & Ewb).
    rewrite Ercv2. rewrite Ercv1 in E. clear Ercv1 Ercv2.
    (* branch unit *)
    destruct (assert_sim sg m2p m1p r2p (r_b r1) HKp ltac:(rewrite Ei; exact C1) ltac:(rewrite Epc; exact C2))
      as (HKa & Ga1 & Ga2 & Ga3 & Ga4 & Ga5 & Ga6 & Ga7 & Ga8).
    cbn [x_memory x_runner x_co Mvp62.x_seq].
    rewrite (nomem_no_read (q_instr r2p)) by (rewrite Ei; exact C7).
    rewrite (nomem_no_read (r_instr (r_b r1))) in E by (rewrite <- C1; exact C7).
    set (e2r := mk_eu62 ENone (x_memory e2) (Some r2p) (Mvp62.x_seq e2)).
    destruct (run_sim sg ord cyc b (bu_assert62 m2p r2p) (bu_assert1 m1p (r_b r1)) e2r e1p r2p (r_b r1) HKa Ep1 eq_refl
                ltac:(cbn [e2r x_memory]; rewrite Ep3; exact (re_mem HE)) ltac:(cbn [e2r Mvp62.x_seq]; rewrite Ep4; exact (re_seq HE))
                ltac:(rewrite Ei; exact C1) ltac:(rewrite Epc; exact C2) ltac:(rewrite Esq; exact C3) ltac:(rewrite Ei; exact C7)
                ltac:(rewrite Ep2, Ga4, En, Efw, Eid; exact Hfw)
                ltac:(rewrite Epc; unfold fw_get, get_fwd; rewrite Ga2, Ga1; fold (fw_get m2p (idx_of (q_pc r2))); fold (get_fwd m1p (r_pc (r_b r1))); congruence)
                ltac:(rewrite Ga1; exact F3) ltac:(rewrite Epc, Ga2; exact F4)
                ltac:(rewrite Ga3, Ec; exact HT) ltac:(rewrite Esq; apply Hq; exact Hin2)
                _ _ _ _ E Hperr) as (os2 & m2' & e2' & o & E2 & HR' & HE' & HO & HT' & [G1 G2 G3 G4 G5]).
    exists os2, m2', e2', o. split; [exact E2|]. split; [exact HR'|]. split; [exact HE'|]. split; [exact HO|]. split; [exact HT'|].
    constructor.
    - rewrite G1, Ga4, En. reflexivity.
    - rewrite G2, Ga5, Epv. reflexivity.
    - rewrite G3, Ga6, Eni. reflexivity.
    - intros r Hin. apply G4 in Hin. rewrite Ga7, Eeb, Hq2 in Hin. destruct (bb_q (n_ebus m2)); [destruct Hin | right; exact Hin].
    - rewrite G5, Ga8, Ewb. reflexivity.
  Qed.

  Definition AccR (a2 : eu_out62) (a1 : eu_out6) : Prop :=
    Mvp62.p_flush a2 = o_flush a1 /\ Mvp62.p_seq a2 = o_from a1 /\ Mvp62.p_pc a2 = o_pc a1 /\ Mvp62.p_ret a2 = o_ret a1.

  Lemma eus_main_sim sg ord cyc b : forall eus2 eus1, Forall2 REi eus2 eus1 -> forall m2 m1 a2 a1,
    RM nap sg m2 m1 -> TxB (n_ctx m2) b -> (forall r, In r (bb_q (n_ebus m2)) -> b <= q_seq r) -> AccR a2 a1 ->
    forall os m1' eus1' out ae, eus_main labels ord cyc m1 eus1 a1 = (os, EAll m1' eus1' out ae) ->
    Forall (fun e => e_co (u_e e) = ENone) eus1' ->
    exists os2 m2' eus2' out2, eus_main62 labels ord cyc m2 eus2 a2 = (os2, Ok (m2', eus2', out2)) /\
      RM nap sg m2' m1' /\ Forall2 REi eus2' eus1' /\ AccR out2 out /\ TxB (n_ctx m2') b /\ Fr m2 m2' m1 m1'.
  Proof.
    induction 1 as [|e2 e1 t2 t1 He Ht IH]; intros m2 m1 a2 a1 HR HT Hq Ha os m1' eus1' out ae E Hidle.
    - cbn [eus_main] in E. injection E as <- <- <- <- <-. cbn [eus_main62]. eexists _, _, _, _. split; [reflexivity|]. auto 10 using Fr_refl.
    - cbn [eus_main] in E. cbn [eus_main62]. destruct Ha as (A1 & A2 & A3 & A4).
      assert (He' : REi (eu_set_seq (Mvp62.p_seq a2) e2) (eu_sid_set e1 (o_from a1))).
      { destruct He as [B1 B2 B3 B4 B5]. unfold eu_set_seq, eu_sid_set. constructor; cbn [x_co x_memory Mvp62.x_seq x_runner u_e u_sid]; auto. }
      destruct (eu_cycle1 labels ord cyc m1 (eu_sid_set e1 (o_from a1))) as [os1 [[[m1a e1a] p]|er|]] eqn:Ec; try discriminate E.
      destruct (p_err p) eqn:Ep; [discriminate E|].
      destruct (eus_main labels ord cyc m1a t1 _) as [os2 r] eqn:Er.
      destruct r as [m1b t1' acc2 ae2| |]; try discriminate E. injection E as <- <- <- <- <-.
      inversion Hidle as [|? ? Hi1 Hi2]; subst.
      destruct (eu_cycle_sim sg ord cyc b m2 m1 _ _ HR He' HT Hq _ _ _ _ Ec Ep Hi1) as (os2' & m2a & e2a & o & E2 & HRa & HEa & HO & HTa & HFa).
      rewrite E2. destruct HO as (O1 & O2 & O3 & O4).
      assert (Ha' : AccR (acc_step a2 o)
                (mk_euo6 (o_flush a1 || Mvp61.p_flush p)
                   (if Mvp61.p_flush p && (negb (o_flush a1) || (Mvp61.p_seq p <? o_from a1)) then Mvp61.p_seq p else o_from a1)
                   (if Mvp61.p_flush p && (negb (o_flush a1) || (Mvp61.p_seq p <? o_from a1)) then Mvp61.p_pc p else o_pc a1)
                   (o_ret a1 || Mvp61.p_ret p))).
      { unfold acc_step, AccR; cbn [Mvp62.p_flush Mvp62.p_seq Mvp62.p_pc Mvp62.p_ret o_flush o_from o_pc o_ret]; rewrite A1, A2, A3, A4, O1, O2, O3, O4; repeat split; reflexivity. }
      destruct (IH m2a m1a (acc_step a2 o) _ HRa HTa ltac:(intros r Hr; apply Hq; apply (fr_ebus HFa); exact Hr) Ha'
                  _ _ _ _ _ Er Hi2) as (os3 & m2b & t2' & out2 & E3 & HRb & Htb & Hob & HTb & HFb).
      rewrite E3. cbn [bind]. eexists _, _, _, _. split; [reflexivity|]. split; [exact HRb|]. split; [constructor; assumption|].
      split; [exact Hob|]. split; [exact HTb|]. exact (Fr_trans _ _ _ _ _ _ HFa HFb).
  Qed.

  Definition WbFine (x : wb6) : Prop :=
    RegisterChange (w_exe x) = true -> 0 <= Register (w_exe x) < 32 /\ (Register (w_exe x) = 0 -> RegisterValue (w_exe x) = 0).
  Definition dropped (before : Z) (x : wb6) : bool := negb (before =? -1) && (before <? w_seq x).

  Lemma dropped_older before x : w_seq x <= before -> dropped before x = false.
  Proof. intros H. unfold dropped. rewrite (proj2 (Z.ltb_ge _ _) H). apply andb_false_r. Qed.

  Lemma wu_sim sg m2 m1 w bf2 bf1 bn : RM nap sg m2 m1 -> u_co w = WNone -> TxB (n_ctx m2) bn ->
    (forall x, In x (bb_q (m_wbus (y_m m1))) -> WbFine x /\ (dropped bf1 x = false -> w_seq x < bn) /\ dropped bf2 x = dropped bf1 x) ->
    forall b1' w', wu_cycle6 (y_m m1) w bf1 = Ok (b1', w') ->
    exists m2', wu_cycle62 m2 w bf2 = Ok (m2', w') /\ RM nap sg m2' (set_m m1 b1') /\ TxB (n_ctx m2') bn /\
      n_prev m2' = n_prev m2 /\ n_nid m2' = n_nid m2 /\
      (forall x, In x (bb_q (m_wbus b1')) -> In x (bb_q (m_wbus (y_m m1)))).
  Proof.
    intros HR Hw HT Hq b1' w' E. unfold wu_cycle6 in E. unfold wu_cycle62. rewrite Hw in E |- *.
    rewrite (rm_wbus HR). unfold bb_get in E |- *.
    destruct (bb_q (m_wbus (y_m m1))) as [|x q] eqn:Eq.
    { injection E as <- <-. eexists. split; [reflexivity|]. split; [rm_frame HR|]. split; [exact HT|]. ss. rewrite Eq. auto. }
    destruct (Hq x (or_introl eq_refl)) as (Hf & Hs & Hd). fold (dropped bf2 x). fold (dropped bf1 x) in E. rewrite Hd.
    assert (Hin : forall y, In y q -> In y (x :: q)) by (intros y Hy; right; exact Hy).
    destruct (dropped bf1 x).
    { injection E as <- <-. eexists. split; [reflexivity|]. split; [rm_frame HR|]. split; [exact HT|]. ss. auto. }
    specialize (Hs eq_refl).
    destruct (RegisterChange (w_exe x)) eqn:Erc.
    { injection E as <- <-. destruct (Hf Erc) as [Hr0 Hv0]. eexists. split; [reflexivity|].
      split; [rm_frame HR; try congruence; apply Vw_write; assumption|]. split; [ss; apply TxB_write; assumption|]. ss. auto. }
    destruct (MemoryChange (w_exe x)).
    { injection E as <- <-. eexists. split; [reflexivity|]. split; [rm_frame HR|]. split; [exact HT|]. ss. auto. }
    injection E as <- <-. eexists. split; [reflexivity|]. split; [rm_frame HR; congruence|]. split; [exact HT|]. ss. auto.
  Qed.

  Lemma wus_sim sg bf2 bf1 bn : forall wus m2 m1, Forall (fun w => u_co w = WNone) wus -> RM nap sg m2 m1 -> TxB (n_ctx m2) bn ->
    (forall x, In x (bb_q (m_wbus (y_m m1))) -> WbFine x /\ (dropped bf1 x = false -> w_seq x < bn) /\ dropped bf2 x = dropped bf1 x) ->
    forall b1' wus', wus_cycle (y_m m1) wus bf1 = Ok (b1', wus') ->
    exists m2', wus_cycle62 m2 wus bf2 = Ok (m2', wus') /\ RM nap sg m2' (set_m m1 b1') /\ TxB (n_ctx m2') bn /\
      n_prev m2' = n_prev m2 /\ n_nid m2' = n_nid m2.
  Proof.
    induction wus as [|w t IH]; intros m2 m1 Hw HR HT Hq b1' wus' E.
    - cbn [wus_cycle] in E. injection E as <- <-. cbn [wus_cycle62]. exists m2. split; [reflexivity|]. split; [destruct m1; exact HR | auto].
    - cbn [wus_cycle] in E. cbn [wus_cycle62]. inversion Hw as [|? ? Hw1 Hw2]; subst.
      destruct (wu_cycle6 (y_m m1) w bf1) as [[b1a wa]| |] eqn:E1; try discriminate E. cbn [bind fst snd] in E.
      destruct (wu_sim sg m2 m1 w bf2 bf1 bn HR Hw1 HT Hq _ _ E1) as (m2a & E2 & HRa & HTa & G1 & G2 & G3).
      rewrite E2. cbn [bind fst snd].
      destruct (wus_cycle b1a t bf1) as [[b1b wb]| |] eqn:E3; try discriminate E. cbn [bind fst snd] in E. injection E as <- <-.
      destruct (IH m2a (set_m m1 b1a) Hw2 HRa HTa ltac:(intros x Hx; apply Hq; apply G3; exact Hx) _ _ E3) as (m2b & E4 & HRb & HTb & K1 & K2).
      rewrite E4. cbn [bind fst snd]. exists m2b. split; [reflexivity|]. split; [exact HRb|]. split; [exact HTb|]. split; congruence.
  Qed.
End Exec.
