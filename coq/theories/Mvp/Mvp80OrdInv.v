(* Soundness of the ghost flag of the model of MVP-8.0: the invariants of Mvp80OrdInvDefs.v hold initially and are
   preserved by every function of the memory system and by a tick (step8_inv, snoop_arg8_inv, init8_inv). *)
From Coq Require Import ZArith List Bool Lia Permutation.
From Maj Require Import Comp.MapFacts.
From Maj Require Import Base.Outcome Base.GoInt Base.GoTypes Isa.Spec Isa.Seq.
From Maj Require Import Gen.Latency Gen.RiscTables Gen.Opcodes Comp.Cache Comp.Rat Mvp.Mvp12 Mvp.Mvp3 Mvp.Mvp5 Mvp.Mvp60 Mvp.Mvp63 Mvp.Mvp80.
From Maj Require Import Mvp.Mvp60Proofs Mvp.Mvp63Proofs Mvp.Mvp80Proofs Mvp.Mvp80OrdFrame Mvp.Mvp80OrdIds Mvp.Mvp80OrdProofs.
From Maj Require Import Mvp.Mvp80OrdSnoop Mvp.Mvp80OrdCache Mvp.Mvp80OrdInvDefs Mvp.Mvp80OrdCommDefs Mvp.Mvp80OrdCong Mvp.Mvp80OrdWf.
Import ListNotations.
Open Scope Z_scope.

Lemma wrapS32_range : forall x, -2147483648 <= wrapS 32 x < 2147483648.
Proof. intros x. pose proof (wrapS_range 32 x ltac:(lia)) as H. apply int32_bounds in H. exact H. Qed.

Lemma align8_of_mult : forall y n, n <> 0 -> -2147483648 <= y < 2147483648 -> Z.rem y n = 0 -> align8 y n = y.
Proof. intros y n Hn Hy Hr. unfold align8, subS, remS. rewrite Hr, Z.sub_0_r, wrapS32. lia. Qed.

(* getAlignedMemoryAddress is idempotent when the alignment divides 2^32, whatever the address *)
Lemma align8_idem : forall x n m, 0 < n -> n * m = 4294967296 -> align8 (align8 x n) n = align8 x n.
Proof.
  intros x n m Hn Hm. apply align8_of_mult; [lia | apply wrapS32_range |].
  unfold align8, subS, remS. pose proof (Z.quot_rem' x n) as Q.
  replace (x - Z.rem x n) with (n * Z.quot x n) by lia. rewrite wrapS32. set (q := Z.quot x n) in *.
  pose proof (Z.div_mod (n * q + 2147483648) 4294967296 ltac:(lia)) as D.
  set (k := (n * q + 2147483648) / 4294967296) in *.
  assert (E : n * m * k = 4294967296 * k) by (rewrite Hm; reflexivity).
  replace ((n * q + 2147483648) mod 4294967296 - 2147483648) with ((q - m * k) * n) by lia.
  apply Z.rem_mul. lia.
Qed.

Lemma align8_idem64 : forall x, l1_align (l1_align x) = l1_align x.
Proof. intros x. apply (align8_idem x 64 67108864); lia. Qed.

Lemma align8_idem128 : forall x, l3_align (l3_align x) = l3_align x.
Proof. intros x. apply (align8_idem x 128 33554432); lia. Qed.

Lemma align8_range : forall x n, -2147483648 <= align8 x n < 2147483648.
Proof. intros x n. unfold align8, subS. apply wrapS32_range. Qed.

Lemma wf_line_lo : forall n l, n <> 0 -> wf_line n l -> align8 (lo l) n = lo l.
Proof. intros n l Hn (R & M & _). rewrite p31 in R. apply align8_of_mult; [exact Hn | lia | exact M]. Qed.

(* an address covered by a wf line: its alignment is the base of the line *)
Lemma wf_covers_align64 : forall l x, wf_line 64 l -> covers l x = true -> l1_align x = lo l.
Proof. intros l x. exact (covers_align 64 l x n64). Qed.

Lemma wf_covers_align128 : forall l x, wf_line 128 l -> covers l x = true -> l3_align x = lo l.
Proof. intros l x. exact (covers_align 128 l x n128). Qed.

(* the base of the L1 sub line of an address covered by a wf L3 line *)
Lemma wf_covers_sub64 : forall l x, wf_line 128 l -> covers l x = true -> addr_ok (align8 x 64).
Proof.
  intros l x W C. destruct (covers_range 128 l x n128 W C) as (B1 & _ & B2). destruct W as (R & _).
  unfold addr_ok, align8, subS, remS. rewrite Z.rem_mod_nonneg by lia. rewrite wrapS32. lia.
Qed.

Lemma line_get_covers : forall l a v, line_get l a = Ok (Some v) -> covers l a = true.
Proof.
  intros l a v H. unfold line_get in H. fold (covers l a) in H.
  destruct (covers l a); [reflexivity | discriminate].
Qed.

Lemma wf_cache_set : forall n c ls, wf_cache n c -> Forall (wf_line n) ls -> wf_cache n (set_lines c ls).
Proof. intros n c ls [L _] F. split; [exact L | exact F]. Qed.

Lemma get_keeps_wf : forall n c a c' o, 0 < n <= 2^30 -> get c a = Ok (c', o) -> wf_cache n c -> wf_cache n c'.
Proof.
  intros n c a c' o Hn H [L W]. rewrite (get_wf n c a Hn W) in H.
  destruct (fcov (lines c) a) as [l|] eqn:F; injection H as <- _; (split; [exact L|]); [|exact W].
  constructor; [eapply Forall_fcov; eauto | apply Forall_rmcov; exact W].
Qed.

Lemma get_all_wf : forall n addrs c acc c' o, 0 < n <= 2^30 -> get_all c addrs acc = Ok (c', o) -> wf_cache n c -> wf_cache n c'.
Proof.
  intros n addrs c acc c' o Hn. revert c acc c' o. induction addrs as [|a t IH]; intros c acc c' o H W; cbn [get_all] in H.
  - inversion H; subst. exact W.
  - apply bind_ok in H as ([c1 [v|]] & E & H).
    + eapply IH; [exact H|]. eapply get_keeps_wf; eauto.
    + inversion H; subst. eapply get_keeps_wf; eauto.
Qed.

Lemma idx_set_length : forall d i v d', idx_set d i v = Ok d' -> zlen d' = zlen d.
Proof.
  intros d i v d' H. unfold idx_set in H. destruct (_ && _); [|discriminate].
  inversion H; subst. unfold zlen. rewrite upd_length. reflexivity.
Qed.

Lemma set_bytes_length : forall vs d lo_ addr i d', set_bytes d lo_ addr i vs = Ok d' -> zlen d' = zlen d.
Proof.
  induction vs as [|v t IH]; intros d lo_ addr i d' H; cbn [set_bytes] in H.
  - inversion H; reflexivity.
  - apply bind_ok in H as (d1 & E & H). apply IH in H. apply idx_set_length in E. congruence.
Qed.

Lemma write_lines_wf : forall n ls a vs ls', write_lines ls a vs = Ok ls' ->
  Forall (wf_line n) ls -> Forall (wf_line n) ls'.
Proof.
  intros n. induction ls as [|l t IH]; intros a vs ls' H F; cbn [write_lines] in H; [discriminate|].
  inversion F as [|? ? Fl Ft]; subst.
  apply bind_ok in H as (r & E & H). destruct r as [v|].
  - apply bind_ok in H as (d & Ed & H). inversion H; subst. constructor; [|exact Ft].
    apply set_bytes_length in Ed. destruct Fl as (A & B & C & D).
    unfold wf_line. cbn [lo hi data]. repeat split; try assumption; try lia; try congruence.
  - apply bind_ok in H as (t' & Et & H). inversion H; subst. constructor; [exact Fl|]. eapply IH; eauto.
Qed.

Lemma write_wf : forall n c a vs c', write c a vs = Ok c' -> wf_cache n c -> wf_cache n c'.
Proof.
  intros n c a vs c' H W. unfold write in H. apply bind_ok in H as (ls & E & H). inversion H; subst.
  apply wf_cache_set; [exact W|]. eapply write_lines_wf; eauto. exact (proj2 W).
Qed.

Lemma push_line_warn_wf : forall n c addr d c' o, push_line_warn c addr d = Ok (c', o) ->
  wf_cache n c -> wf_line n (new_line c addr d) ->
  wf_cache n c' /\ (forall v, o = Some v -> wf_line n v).
Proof.
  intros n c addr d c' o H W N. unfold push_line_warn in H. cbv zeta in H.
  assert (F : Forall (wf_line n) (new_line c addr d :: lines c)) by (constructor; [exact N | exact (proj2 W)]).
  destruct (_ >? _); injection H as <- <-.
  - split; [apply wf_cache_set; assumption|]. intros v Hv. injection Hv as <-.
    rewrite Forall_forall in F. apply F. apply (last_in (new_line c addr d :: lines c)). discriminate.
  - split; [apply wf_cache_set; assumption|]. intros v Hv. discriminate.
Qed.

Lemma new_line_wf : forall n c addr d, llen c = n -> 0 < n <= 128 -> addr_ok addr -> Z.rem addr n = 0 -> zlen d = n ->
  wf_line n (new_line c addr d).
Proof.
  intros n c addr d L Hn A R Z. unfold wf_line, new_line. cbn [lo hi data].
  repeat split; try assumption; try apply A.
  rewrite L. unfold to_i32. rewrite (wrapS32 n). replace ((n + 2147483648) mod 4294967296 - 2147483648) with n by lia. reflexivity.
Qed.

Lemma existing_lines_forall : forall (P : line -> Prop) c ls, existing_lines c = Ok ls ->
  Forall P (lines c) -> Forall P ls.
Proof.
  intros P c ls H F. unfold existing_lines in H. cbv zeta in H.
  destruct (_ <? 0); [discriminate|]. inversion H; subst. apply Forall_firstn. exact F.
Qed.

Lemma sub_loop_addr : forall ls addrs a d, sub_loop ls addrs 64 = Ok (Some (a, d)) ->
  Forall (wf_line 128) ls -> addr_ok a.
Proof.
  induction ls as [|l t IH]; intros addrs a d H F; cbn [sub_loop] in H; [discriminate|].
  inversion F as [|? ? Fl Ft]; subst.
  destruct addrs as [|a0 rest]; [discriminate|].
  apply bind_ok in H as (r & E & H). destruct r as [v|].
  - change (64 =? 0) with false in H. cbv iota zeta in H. change (64 <? 0) with false in H. cbv iota in H.
    apply bind_ok in H as (dd & _ & H). inversion H; subst.
    apply line_get_covers in E. exact (wf_covers_sub64 l a0 Fl E).
  - eapply IH; eauto.
Qed.

Lemma get_sub_addr : forall c addrs a d, get_sub_cache_line c addrs l1dLineSize = Ok (Some (a, d)) ->
  wf_cache 128 c -> addr_ok a.
Proof.
  intros c addrs a d H W. unfold get_sub_cache_line in H. apply bind_ok in H as (ls & E & H).
  eapply sub_loop_addr; [exact H|]. eapply existing_lines_forall; [exact E | exact (proj2 W)].
Qed.

Lemma fetch_line8_addr : forall mem a f, fetch_line8 mem a l3LineSize8 = Ok f -> addr_ok (fst f).
Proof.
  intros mem a f H. unfold fetch_line8 in H. cbv zeta in H.
  destruct (align8 a l3LineSize8 <? 0) eqn:E.
  - change (0 <? l3LineSize8) with true in H. discriminate.
  - cbn [andb] in H. inversion H; subst. cbn [fst]. apply Z.ltb_ge in E.
    pose proof (align8_range a l3LineSize8). unfold addr_ok. rewrite p31. lia.
Qed.

Lemma ck_eqb_eq : forall a b, ck_eqb a b = true <-> a = b.
Proof.
  intros [a1 a2 a3] [b1 b2 b3]. unfold ck_eqb. cbn [ck_id ck_addr ck_req].
  rewrite !andb_true_iff, !Z.eqb_eq. split.
  - intros [[-> ->] ->]. reflexivity.
  - intros E. inversion E. auto.
Qed.

Lemma ck_eqb_refl : forall a, ck_eqb a a = true.
Proof. intros a. apply ck_eqb_eq. reflexivity. Qed.

Lemma keys_le_refl : forall k, keys_le k k.
Proof. intros k key H. exact H. Qed.

Lemma keys_le_trans : forall k1 k2 k3, keys_le k1 k2 -> keys_le k2 k3 -> keys_le k1 k3.
Proof. intros k1 k2 k3 H1 H2 key H. apply H2. apply H1. exact H. Qed.

Lemma keys_le_same : forall k k', k_states k' = k_states k -> keys_le k k'.
Proof. intros k k' E key H. rewrite E. exact H. Qed.

Lemma cmds_ok_same : forall k k', k_cmds k' = k_cmds k -> k_next k' = k_next k -> cmds_ok k -> cmds_ok k'.
Proof. intros k k' E1 E2 H. unfold cmds_ok in *. rewrite E1, E2. exact H. Qed.

Lemma pget_ck_none : forall key (m : list (cmdk * Z)), pget ck_eqb key m = None -> ~ In key (map fst m).
Proof.
  intros key. induction m as [|[k' v] t IH]; intros H I; [exact I|].
  cbn [pget] in H. destruct (ck_eqb key k') eqn:E; [discriminate|].
  destruct I as [I|I].
  - cbn [fst] in I. subst k'. rewrite ck_eqb_refl in E. discriminate.
  - exact (IH H I).
Qed.

Lemma pset_zz_keeps : forall key key' v (m : list ((Z * Z) * Z)),
  pget zz_eqb key m <> None -> pget zz_eqb key (pset zz_eqb key' v m) <> None.
Proof.
  intros key key' v. induction m as [|[k0 v0] t IH]; intros H; [exfalso; apply H; reflexivity|].
  cbn [pget pset] in *. destruct (zz_eqb key' k0) eqn:E1.
  - cbn [pget]. destruct (zz_eqb key k0) eqn:E2.
    + apply zz_eqb_eq in E1. apply zz_eqb_eq in E2. subst.
      assert (R : zz_eqb k0 k0 = true) by (apply zz_eqb_eq; reflexivity). rewrite R. discriminate.
    + apply zz_eqb_eq in E1. subst. rewrite E2. exact H.
  - cbn [pget]. destruct (zz_eqb key k0); [discriminate|]. apply IH. exact H.
Qed.

Lemma pset_zz_exists : forall key v (m : list ((Z * Z) * Z)), pget zz_eqb key (pset zz_eqb key v m) <> None.
Proof.
  intros key v. assert (R : zz_eqb key key = true) by (apply zz_eqb_eq; reflexivity).
  induction m as [|[k0 v0] t IH]; cbn [pset pget].
  - rewrite R. discriminate.
  - destruct (zz_eqb key k0) eqn:E; cbn [pget]; [rewrite R; discriminate|]. rewrite E. exact IH.
Qed.

Lemma keys_le_pset : forall k key v b, keys_le k (set_states k (pset zz_eqb key v (k_states k)) b).
Proof. intros k key v b key0 H. cbn [set_states k_states]. apply pset_zz_keeps. exact H. Qed.

(* sendNewL1MSICommand / sendNewL3MSICommand *)
Lemma msi_send_ok : forall k key, cmds_ok k -> key_aligned key ->
  cmds_ok (fst (msi_send k key)) /\ k_states (fst (msi_send k key)) = k_states k.
Proof.
  intros k key (N1 & B & N2 & A) KA. unfold msi_send.
  destruct (pget ck_eqb key (k_cmds k)) as [cid|] eqn:E; cbn [fst].
  - split; [repeat split; assumption | reflexivity].
  - split; [|reflexivity]. unfold cmds_ok. cbn [set_cmds k_cmds k_next].
    rewrite !map_app. cbn [map fst snd].
    split; [|split; [|split]].
    + apply NoDup_snoc; [exact N1|]. intros I. apply in_map_iff in I as ([k0 c0] & E0 & I0).
      cbn [snd] in E0. subst c0. apply B in I0. lia.
    + intros key0 cid0 I. apply in_app_or in I as [I|[I|[]]].
      * apply B in I. lia.
      * inversion I; subst. lia.
    + apply NoDup_snoc; [exact N2|]. apply pget_ck_none. exact E.
    + intros key0 cid0 I. apply in_app_or in I as [I|[I|[]]].
      * eapply A; eauto.
      * inversion I; subst. exact KA.
Qed.

(* msiCommandInfo.done() *)
Lemma cmd_done_ok : forall k key cid, cmds_ok k -> cmds_ok (cmd_done k key cid) /\ keys_le k (cmd_done k key cid).
Proof.
  intros k key cid (N1 & B & N2 & A). unfold cmd_done. cbv zeta.
  match goal with |- context [if ?b then ?t else k] => set (k1 := if b then t else k) end.
  assert (E1 : k_cmds k1 = k_cmds k) by (unfold k1; destruct (_ || _); reflexivity).
  assert (E2 : k_next k1 = k_next k) by (unfold k1; destruct (_ || _); reflexivity).
  assert (L : keys_le k k1) by (unfold k1; destruct (_ || _); [apply keys_le_pset | apply keys_le_refl]).
  split.
  - unfold cmds_ok. cbn [set_cmds k_cmds k_next]. rewrite E1, E2. unfold pdel.
    split; [apply NoDup_map_filter; exact N1|]. split; [|split; [apply NoDup_map_filter; exact N2|]].
    + intros key0 cid0 I. apply filter_In in I as [I _]. eapply B; eauto.
    + intros key0 cid0 I. apply filter_In in I as [I _]. eapply A; eauto.
  - intros key0 H. cbn [set_cmds k_states]. apply L. exact H.
Qed.

Lemma sem_put_cmds : forall k a s, k_cmds (sem_put k a s) = k_cmds k /\ k_next (sem_put k a s) = k_next k /\ k_states (sem_put k a s) = k_states k.
Proof. intros. repeat split. Qed.

Lemma sem_put_ok : forall k a s, cmds_ok k -> cmds_ok (sem_put k a s).
Proof. intros k a s H. apply (cmds_ok_same k); [reflexivity | reflexivity | exact H]. Qed.

Lemma l3_setlock_ok : forall k a b, cmds_ok k -> cmds_ok (l3_setlock k a b).
Proof. intros k a b H. apply (cmds_ok_same k); [reflexivity | reflexivity | exact H]. Qed.

Lemma l3_setlock_states : forall k a b, k_states (l3_setlock k a b) = k_states k.
Proof. reflexivity. Qed.

Lemma l3_unlock_ok : forall k a k', l3_unlock k a = Ok k' -> cmds_ok k -> cmds_ok k' /\ k_states k' = k_states k.
Proof.
  intros k a k' H C. unfold l3_unlock in H. destruct (l3_locked k a); [|discriminate].
  inversion H; subst. split; [apply l3_setlock_ok; exact C | reflexivity].
Qed.

(* l1ReadRequest / l1WriteRequest / l1InvalidationRequest *)
Lemma msi_requests_ok : forall sts k id a b k' r, msi_requests sts k id a b = (k', r) ->
  l1_align a = a -> cmds_ok k -> cmds_ok k' /\ k_states k' = k_states k.
Proof.
  induction sts as [|[[eid ea] st] t IH]; intros k id a b k' r H A C; cbn [msi_requests] in H.
  - inversion H; subst. split; [exact C | reflexivity].
  - destruct ((eid =? id) || negb (ea =? a)); [eapply IH; eauto|].
    destruct (st =? st_modified).
    + destruct (msi_send k (mk_ck eid a rq_l1WriteBack)) as [k1 cid] eqn:ES.
      destruct (msi_requests t k1 id a b) as [k2 r2] eqn:ER. inversion H; subst.
      pose proof (msi_send_ok k (mk_ck eid a rq_l1WriteBack) C) as MS. rewrite ES in MS. cbn [fst] in MS.
      destruct (MS A) as [C1 S1]. destruct (IH _ _ _ _ _ _ ER A C1) as [C2 S2].
      split; [exact C2 | congruence].
    + destruct ((st =? st_shared) && b); [|eapply IH; eauto].
      destruct (msi_send k (mk_ck eid a rq_l1Evict)) as [k1 cid] eqn:ES.
      destruct (msi_requests t k1 id a b) as [k2 r2] eqn:ER. inversion H; subst.
      pose proof (msi_send_ok k (mk_ck eid a rq_l1Evict) C) as MS. rewrite ES in MS. cbn [fst] in MS.
      destruct (MS A) as [C1 S1]. destruct (IH _ _ _ _ _ _ ER A C1) as [C2 S2].
      split; [exact C2 | congruence].
Qed.

Lemma run_post_ok : forall k id p k', run_post k id p = Ok k' -> cmds_ok k -> cmds_ok k' /\ keys_le k k'.
Proof.
  intros k id p k' H C. unfold run_post in H. cbv zeta in H.
  apply bind_ok in H as (s & _ & H). inversion H; subst.
  destruct (p_set p) as [st|].
  - split; [apply (cmds_ok_same k); [reflexivity | reflexivity | exact C]|].
    intros key0 H0. cbn [sem_put set_sems k_states set_states]. apply pset_zz_keeps. exact H0.
  - split; [apply sem_put_ok; exact C | apply keys_le_same; reflexivity].
Qed.

Lemma msi_l1rlock_ok : forall k id a k' o, msi_l1rlock k id a = Ok (k', o) ->
  l1_align a = a -> cmds_ok k -> cmds_ok k' /\ k_states k' = k_states k.
Proof.
  intros k id a k' o H A C. unfold msi_l1rlock in H. cbv zeta in H.
  destruct (_ =? st_invalid).
  - destruct (sem_rlock _) as [s|]; [|inversion H; subst; split; [exact C | reflexivity]].
    destruct (msi_requests _ _ _ _ _) as [k2 pend] eqn:ER. inversion H; subst.
    destruct (msi_requests_ok _ _ _ _ _ _ _ ER A (sem_put_ok _ _ _ C)) as [C2 S2]. split; [exact C2 | exact S2].
  - destruct (_ =? st_modified).
    + destruct (sem_lock _); inversion H; subst; split; try exact C; try (apply sem_put_ok; exact C); reflexivity.
    + destruct (_ =? st_shared); [|discriminate].
      destruct (sem_rlock _); inversion H; subst; split; try exact C; try (apply sem_put_ok; exact C); reflexivity.
Qed.

Lemma msi_l1lock_ok : forall k id a k' o, msi_l1lock k id a = Ok (k', o) ->
  l1_align a = a -> cmds_ok k -> cmds_ok k' /\ k_states k' = k_states k.
Proof.
  intros k id a k' o H A C. unfold msi_l1lock in H. cbv zeta in H.
  destruct (_ =? st_invalid).
  - destruct (sem_lock _) as [s|]; [|inversion H; subst; split; [exact C | reflexivity]].
    destruct (msi_requests _ _ _ _ _) as [k2 pend] eqn:ER. inversion H; subst.
    destruct (msi_requests_ok _ _ _ _ _ _ _ ER A (sem_put_ok _ _ _ C)) as [C2 S2]. split; [exact C2 | exact S2].
  - destruct (_ =? st_modified).
    + destruct (sem_lock _); inversion H; subst; split; try exact C; try (apply sem_put_ok; exact C); reflexivity.
    + destruct (_ =? st_shared); [|discriminate].
      destruct (sem_lock _) as [s|]; [|inversion H; subst; split; [exact C | reflexivity]].
      destruct (msi_requests _ _ _ _ _) as [k2 pend] eqn:ER. inversion H; subst.
      destruct (msi_requests_ok _ _ _ _ _ _ _ ER A (sem_put_ok _ _ _ C)) as [C2 S2]. split; [exact C2 | exact S2].
Qed.

Lemma msi_evict_l1_ok : forall k id a e, msi_evict_l1 k id a = Ok e ->
  l1_align a = a -> cmds_ok k -> cmds_ok (fst e) /\ k_states (fst e) = k_states k.
Proof.
  intros k id a e H A C. unfold msi_evict_l1 in H. cbv zeta in H.
  destruct (_ || _); [inversion H; subst; apply msi_send_ok; [exact C | exact A]|].
  destruct (_ =? st_modified); [|discriminate]. inversion H; subst. apply msi_send_ok; [exact C | exact A].
Qed.

Lemma msi_evict_l3_ok : forall k id a, l3_align a = a -> cmds_ok k ->
  cmds_ok (fst (msi_evict_l3 k id a)) /\ k_states (fst (msi_evict_l3 k id a)) = k_states k.
Proof.
  intros k id a A C. unfold msi_evict_l3.
  destruct (aget a (k_l3write k)) as [[|]|]; apply msi_send_ok; try exact C; exact A.
Qed.

Lemma unlock_all_ok : forall addrs k b k', unlock_all k addrs b = Ok k' ->
  k_cmds k' = k_cmds k /\ k_next k' = k_next k /\ k_states k' = k_states k.
Proof.
  induction addrs as [|a t IH]; intros k b k' H; cbn [unlock_all] in H.
  - inversion H; subst. repeat split.
  - apply bind_ok in H as (s & _ & H). apply IH in H. exact H.
Qed.

Lemma mw_ok_msi : forall w k, mw_ok w -> cmds_ok k -> mw_ok (set_wmsi w k).
Proof. intros w k [A _] C. split; [exact A | exact C]. Qed.

Lemma mw_ok_l3 : forall w l3, mw_ok w -> wf_cache l3LineSize8 l3 -> mw_ok (set_wl3 w l3).
Proof. intros w l3 [_ C] A. split; [exact A | exact C]. Qed.

Lemma cc_ok_l1d : forall c l1, cc_ok c -> wf_cache l1dLineSize l1 -> cc_ok (set_l1d c l1).
Proof. intros c l1 (_ & B & C) A. split; [exact A | split; [exact B | exact C]]. Qed.

Lemma cc_ok_read : forall c s, cc_ok c -> rd_ok s -> cc_ok (set_read c s).
Proof. intros c s (A & _ & C) B. split; [exact A | split; [exact B | exact C]]. Qed.

Lemma cc_ok_write : forall c s, cc_ok c -> wr_ok s -> cc_ok (set_write c s).
Proof. intros c s (A & B & _) C. split; [exact A | split; [exact B | exact C]]. Qed.

Lemma check_len_rem : forall (ln : list Z) addr n, negb (zlen ln =? n) || negb (remS 32 addr n =? 0) = false ->
  zlen ln = n /\ Z.rem addr n = 0.
Proof.
  intros ln addr n H. apply orb_false_iff in H as [H1 H2].
  apply negb_false_iff in H1. apply negb_false_iff in H2. apply Z.eqb_eq in H1. apply Z.eqb_eq in H2.
  split; [exact H1 | exact H2].
Qed.

(* pushLineToL1 *)
Lemma cc_push_l1_ok : forall c addr ln p, cc_push_l1 c addr ln = Ok p -> cc_ok c -> addr_ok addr ->
  cc_ok (fst p) /\ c_snoop (fst p) = c_snoop c /\ (forall v, snd p = Some v -> wf_line l1dLineSize v).
Proof.
  intros c addr ln p H CC A. unfold cc_push_l1 in H.
  destruct (negb (zlen ln =? l1dLineSize) || negb (remS 32 addr l1dLineSize =? 0)) eqn:EC; [discriminate|].
  apply check_len_rem in EC as [EL ER].
  apply bind_ok in H as ([l1 o] & EG & H).
  pose proof (get_keeps_wf _ _ _ _ _ n64 EG (proj1 CC)) as W1.
  destruct o as [v|].
  - inversion H; subst. cbn [fst snd]. split; [apply cc_ok_l1d; assumption|]. split; [reflexivity | discriminate].
  - apply bind_ok in H as ([l2 o2] & EP & H). inversion H; subst. cbn [fst snd].
    assert (NL : wf_line l1dLineSize (new_line l1 addr ln)).
    { apply new_line_wf; try assumption; [exact (proj1 W1) | unfold l1dLineSize; lia]. }
    destruct (push_line_warn_wf _ _ _ _ _ _ EP W1 NL) as [W2 V].
    split; [apply cc_ok_l1d; assumption|]. split; [reflexivity | exact V].
Qed.

(* pushLineToL3 *)
Lemma cc_push_l3_ok : forall w addr ln p, cc_push_l3 w addr ln = Ok p -> mw_ok w -> addr_ok addr ->
  mw_ok (fst p) /\ w_msi (fst p) = w_msi w /\ (forall v, snd p = Some v -> wf_line l3LineSize8 v).
Proof.
  intros w addr ln p H MW A. unfold cc_push_l3 in H.
  destruct (negb (zlen ln =? l3LineSize8) || negb (remS 32 addr l3LineSize8 =? 0)) eqn:EC; [discriminate|].
  apply check_len_rem in EC as [EL ER].
  apply bind_ok in H as ([l3 o] & EG & H).
  pose proof (get_keeps_wf _ _ _ _ _ n128 EG (proj1 MW)) as W1.
  destruct o as [v|].
  - inversion H; subst. cbn [fst snd]. split; [apply mw_ok_l3; assumption|]. split; [reflexivity | discriminate].
  - apply bind_ok in H as ([l2 o2] & EP & H). inversion H; subst. cbn [fst snd].
    assert (NL : wf_line l3LineSize8 (new_line l3 addr ln)).
    { apply new_line_wf; try assumption; [exact (proj1 W1) | unfold l3LineSize8; lia]. }
    destruct (push_line_warn_wf _ _ _ _ _ _ EP W1 NL) as [W2 V].
    split; [apply mw_ok_l3; assumption|]. split; [reflexivity | exact V].
Qed.

(* writeToL3 *)
Lemma cc_write_l3_ok : forall w l1a d w', cc_write_l3 w l1a d = Ok w' -> mw_ok w ->
  mw_ok w' /\ k_states (w_msi w') = k_states (w_msi w).
Proof.
  intros w l1a d w' H [A C]. unfold cc_write_l3 in H. cbv zeta in H.
  apply bind_ok in H as (c & E & H). inversion H; subst. cbn [w_msi].
  split; [|reflexivity]. split; [eapply write_wf; eauto|].
  apply (cmds_ok_same (w_msi w)); [reflexivity | reflexivity | exact C].
Qed.

(* cacheController.flush() *)
Lemma cc_flush_inv : forall k c k' c', cc_flush k c = Ok (k', c') -> cmds_ok k -> cc_ok c ->
  cmds_ok k' /\ keys_le k k' /\ cc_ok c' /\ c_snoop c' = c_snoop c.
Proof.
  intros k c k' c' H C CC. unfold cc_flush in H.
  apply bind_ok in H as (k1 & E1 & H). apply bind_ok in H as (k2 & E2 & H). inversion H; subst.
  apply unlock_all_ok in E1 as (A1 & B1 & S1). apply unlock_all_ok in E2 as (A2 & B2 & S2).
  split; [apply (cmds_ok_same k); [congruence | congruence | exact C]|].
  split; [apply keys_le_same; congruence|].
  split; [|reflexivity]. split; [exact (proj1 CC) | split; exact I].
Qed.

(* what a function of the read / write side does to the shared part and to its controller *)
Definition step_ok (w : mw) (c : cc8) (w' : mw) (c' : cc8) : Prop :=
  mw_ok w' /\ cc_ok c' /\ keys_le (w_msi w) (w_msi w') /\ c_snoop c' = c_snoop c.

Lemma step_ok_chain : forall w c w1 c1 w' c', step_ok w1 c1 w' c' ->
  keys_le (w_msi w) (w_msi w1) -> c_snoop c1 = c_snoop c -> step_ok w c w' c'.
Proof.
  intros w c w1 c1 w' c' (A & B & K & S) K1 S1.
  split; [exact A|]. split; [exact B|]. split; [eapply keys_le_trans; eauto | congruence].
Qed.

Lemma rd_stay_ok : forall w c s w' c' r, rd_stay w c s = Ok (w', c', r) -> mw_ok w -> cc_ok c -> rd_ok s ->
  step_ok w c w' c'.
Proof.
  intros w c s w' c' r H MW CC RS. unfold rd_stay in H. inversion H; subst.
  split; [exact MW|]. split; [apply cc_ok_read; assumption|]. split; [apply keys_le_refl | reflexivity].
Qed.

Lemma rd_fin_ok : forall w c addrs data w' c' r, rd_fin w c addrs data = Ok (w', c', r) -> mw_ok w -> cc_ok c ->
  step_ok w c w' c'.
Proof.
  intros w c addrs data w' c' r H MW CC. unfold rd_fin in H.
  destruct (c_post c) as [p|]; [|discriminate].
  apply bind_ok in H as (k & EK & H). apply bind_ok in H as (a0 & _ & H). inversion H; subst.
  destruct (run_post_ok _ _ _ _ EK (proj2 MW)) as [C K].
  split; [apply mw_ok_msi; assumption|].
  split; [split; [exact (proj1 CC) | split; [exact I | exact (proj2 (proj2 CC))]]|].
  split; [exact K | reflexivity].
Qed.

Lemma rd_l1wait_ok : forall w c addrs rem data w' c' r,
  rd_l1wait w c addrs rem data = Ok (w', c', r) -> mw_ok w -> cc_ok c -> step_ok w c w' c'.
Proof.
  intros w c addrs rem data w' c' r H MW CC. unfold rd_l1wait in H.
  destruct (0 <? rem); [eapply rd_stay_ok; eauto; exact I | eapply rd_fin_ok; eauto].
Qed.

Lemma rd_from_l1_ok : forall w c addrs w' c' r, rd_from_l1 w c addrs = Ok (w', c', r) -> mw_ok w -> cc_ok c ->
  step_ok w c w' c'.
Proof.
  intros w c addrs w' c' r H MW CC. unfold rd_from_l1 in H.
  apply bind_ok in H as ([l1 [data|]] & EG & H); [|discriminate].
  pose proof (get_all_wf _ _ _ _ _ _ n64 EG (proj1 CC)) as W1.
  eapply step_ok_chain; [eapply rd_l1wait_ok; [exact H | exact MW | apply cc_ok_l1d; assumption] | apply keys_le_refl | reflexivity].
Qed.

Lemma rd_evict_wait_ok : forall w c addrs cmd w' c' r,
  rd_evict_wait w c addrs cmd = Ok (w', c', r) -> mw_ok w -> cc_ok c -> step_ok w c w' c'.
Proof.
  intros w c addrs cmd w' c' r H MW CC. unfold rd_evict_wait in H.
  destruct (cmd_isdone _ _); [eapply rd_from_l1_ok; eauto | eapply rd_stay_ok; eauto; exact I].
Qed.

Lemma rd_push_l1_ok : forall w c addrs l1a l1dt w' c' r,
  rd_push_l1 w c addrs l1a l1dt = Ok (w', c', r) -> mw_ok w -> cc_ok c -> addr_ok l1a -> step_ok w c w' c'.
Proof.
  intros w c addrs l1a l1dt w' c' r H MW CC A. unfold rd_push_l1 in H.
  apply bind_ok in H as (p & EP & H). destruct (cc_push_l1_ok _ _ _ _ EP CC A) as (CC1 & S1 & V).
  destruct (snd p) as [victim|].
  - apply bind_ok in H as (e & EE & H).
    destruct (msi_evict_l1_ok _ _ _ _ EE (wf_line_lo 64 _ ltac:(lia) (V _ eq_refl)) (proj2 MW)) as [C1 K1].
    eapply step_ok_chain; [eapply rd_stay_ok; [exact H | apply mw_ok_msi; assumption | exact CC1 | exact I]
                          | apply keys_le_same; exact K1 | exact S1].
  - eapply step_ok_chain; [eapply rd_from_l1_ok; [exact H | exact MW | exact CC1] | apply keys_le_refl | exact S1].
Qed.

Lemma rd_sync_ok : forall w c addrs w' c' r, rd_sync w c addrs = Ok (w', c', r) -> mw_ok w -> cc_ok c ->
  step_ok w c w' c'.
Proof.
  intros w c addrs w' c' r H MW CC. unfold rd_sync in H.
  apply bind_ok in H as (s & ES & H). destruct s as [[l1a l1dt]|]; [|discriminate].
  eapply rd_push_l1_ok; eauto. eapply get_sub_addr; [exact ES | exact (proj1 MW)].
Qed.

Lemma rd_l3push_ok : forall w c addrs rem l3a l3d w' c' r,
  rd_l3push w c addrs rem l3a l3d = Ok (w', c', r) -> mw_ok w -> cc_ok c -> addr_ok l3a -> step_ok w c w' c'.
Proof.
  intros w c addrs rem l3a l3d w' c' r H MW CC A. unfold rd_l3push in H.
  destruct (0 <? rem); [eapply rd_stay_ok; eauto|].
  apply bind_ok in H as (p & EP & H). apply bind_ok in H as (a0 & _ & H). apply bind_ok in H as (k & EU & H).
  destruct (cc_push_l3_ok _ _ _ _ EP MW A) as (MW1 & M1 & V).
  destruct (l3_unlock_ok _ _ _ EU (proj2 MW1)) as [C2 S2].
  cbv zeta in H.
  match type of H with rd_sync (set_wmsi _ ?kk) _ _ = _ => assert (KK : cmds_ok kk /\ k_states kk = k_states k) end.
  { destruct (snd p) as [victim|]; [|split; [exact C2 | reflexivity]].
    apply msi_evict_l3_ok; [apply (wf_line_lo 128); [lia | apply V; reflexivity] | exact C2]. }
  destruct KK as [C3 S3].
  eapply step_ok_chain; [eapply rd_sync_ok; [exact H | apply mw_ok_msi; assumption | exact CC] | | reflexivity].
  apply keys_le_same. cbn [set_wmsi w_msi]. congruence.
Qed.

Lemma rd_l3lock_ok : forall w c addrs l3a l3d w' c' r,
  rd_l3lock w c addrs l3a l3d = Ok (w', c', r) -> mw_ok w -> cc_ok c -> addr_ok l3a -> step_ok w c w' c'.
Proof.
  intros w c addrs l3a l3d w' c' r H MW CC A. unfold rd_l3lock in H.
  apply bind_ok in H as (a0 & _ & H).
  destruct (l3_locked _ _); [eapply rd_stay_ok; eauto|].
  eapply step_ok_chain; [eapply rd_l3push_ok; [exact H | apply mw_ok_msi; [exact MW | apply l3_setlock_ok; exact (proj2 MW)] | exact CC | exact A]
                        | apply keys_le_same; reflexivity | reflexivity].
Qed.

Lemma rd_memwait_ok : forall w c addrs rem l3a l3d w' c' r,
  rd_memwait w c addrs rem l3a l3d = Ok (w', c', r) -> mw_ok w -> cc_ok c -> addr_ok l3a -> step_ok w c w' c'.
Proof.
  intros w c addrs rem l3a l3d w' c' r H MW CC A. unfold rd_memwait in H.
  destruct (0 <? rem); [eapply rd_stay_ok; eauto | eapply rd_l3lock_ok; eauto].
Qed.

Lemma rd_l3wait_ok : forall w c addrs rem w' c' r,
  rd_l3wait w c addrs rem = Ok (w', c', r) -> mw_ok w -> cc_ok c -> step_ok w c w' c'.
Proof.
  intros w c addrs rem w' c' r H MW CC. unfold rd_l3wait in H.
  destruct (0 <? rem); [eapply rd_stay_ok; eauto; exact I|].
  apply bind_ok in H as (a0 & _ & H). apply bind_ok in H as ([l3 o] & EG & H).
  pose proof (get_keeps_wf _ _ _ _ _ n128 EG (proj1 MW)) as W1.
  destruct o as [v|].
  - apply bind_ok in H as (s & ES & H). destruct s as [[l1a l1dt]|]; [|discriminate].
    eapply step_ok_chain; [eapply rd_push_l1_ok; [exact H | apply mw_ok_l3; assumption | exact CC | eapply get_sub_addr; [exact ES | exact W1]]
                          | apply keys_le_refl | reflexivity].
  - apply bind_ok in H as (f & EF & H).
    eapply step_ok_chain; [eapply rd_memwait_ok; [exact H | apply mw_ok_l3; assumption | exact CC | eapply fetch_line8_addr; exact EF]
                          | apply keys_le_refl | reflexivity].
Qed.

Lemma rd_pend_ok : forall w c addrs rk pend w' c' r,
  rd_pend w c addrs rk pend = Ok (w', c', r) -> mw_ok w -> cc_ok c -> step_ok w c w' c'.
Proof.
  intros w c addrs rk pend w' c' r H MW CC. unfold rd_pend in H.
  destruct (negb _); [eapply rd_stay_ok; eauto; exact I|].
  destruct rk; [| eapply rd_from_l1_ok; eauto | discriminate].
  apply bind_ok in H as (a0 & _ & H). apply bind_ok in H as (g & _ & H).
  destruct g; [discriminate|]. eapply rd_l3wait_ok; eauto.
Qed.

Lemma rd_start_ok : forall w c addrs w' c' r, rd_start w c addrs = Ok (w', c', r) -> mw_ok w -> cc_ok c ->
  step_ok w c w' c'.
Proof.
  intros w c addrs w' c' r H MW CC. unfold rd_start in H.
  apply bind_ok in H as (a0 & _ & H). cbv zeta in H. apply bind_ok in H as ([k1 o] & EL & H). cbn [fst snd] in H.
  destruct (msi_l1rlock_ok _ _ _ _ _ EL (align8_idem64 a0) (proj2 MW)) as [C1 S1].
  destruct o as [[[rk pend] p]|].
  - eapply step_ok_chain; [eapply rd_pend_ok; [exact H | apply mw_ok_msi; assumption |] | apply keys_le_same; exact S1 | reflexivity].
    split; [exact (proj1 CC) | split; [exact (proj1 (proj2 CC)) | exact (proj2 (proj2 CC))]].
  - inversion H; subst. split; [apply mw_ok_msi; assumption|]. split; [exact CC|].
    split; [apply keys_le_same; exact S1 | reflexivity].
Qed.

Lemma cc_read_cycle_ok : forall w c addrs w' c' r, cc_read_cycle w c addrs = Ok (w', c', r) -> mw_ok w -> cc_ok c ->
  mw_ok w' /\ cc_ok c' /\ keys_le (w_msi w) (w_msi w') /\ c_snoop c' = c_snoop c.
Proof.
  intros w c addrs w' c' r H MW CC. unfold cc_read_cycle in H.
  pose proof (proj1 (proj2 CC)) as RO.
  destruct (c_read c); cbn [rd_ok] in RO.
  - eapply rd_start_ok; eauto.
  - eapply rd_pend_ok; eauto.
  - eapply rd_l3wait_ok; eauto.
  - eapply rd_evict_wait_ok; eauto.
  - eapply rd_memwait_ok; eauto.
  - eapply rd_l3lock_ok; eauto.
  - eapply rd_l3push_ok; eauto.
  - eapply rd_l1wait_ok; eauto.
Qed.

Lemma wr_stay_ok : forall w c s w' c' r, wr_stay w c s = Ok (w', c', r) -> mw_ok w -> cc_ok c -> wr_ok s ->
  step_ok w c w' c'.
Proof.
  intros w c s w' c' r H MW CC RS. unfold wr_stay in H. inversion H; subst.
  split; [exact MW|]. split; [apply cc_ok_write; assumption|]. split; [apply keys_le_refl | reflexivity].
Qed.

Lemma wr_fin_ok : forall w c addrs data w' c' r, wr_fin w c addrs data = Ok (w', c', r) -> mw_ok w -> cc_ok c ->
  step_ok w c w' c'.
Proof.
  intros w c addrs data w' c' r H MW CC. unfold wr_fin in H.
  apply bind_ok in H as (a0 & _ & H). apply bind_ok in H as (l1 & EW & H).
  destruct (c_post c) as [p|]; [|discriminate].
  apply bind_ok in H as (k & EK & H). inversion H; subst.
  destruct (run_post_ok _ _ _ _ EK (proj2 MW)) as [C K].
  split; [apply mw_ok_msi; assumption|].
  split; [split; [eapply write_wf; [exact EW | exact (proj1 CC)] | split; [exact (proj1 (proj2 CC)) | exact I]]|].
  split; [exact K | reflexivity].
Qed.

Lemma wr_final_ok : forall w c addrs data rem w' c' r,
  wr_final w c addrs data rem = Ok (w', c', r) -> mw_ok w -> cc_ok c -> step_ok w c w' c'.
Proof.
  intros w c addrs data rem w' c' r H MW CC. unfold wr_final in H.
  destruct (0 <? rem); [eapply wr_stay_ok; eauto; exact I | eapply wr_fin_ok; eauto].
Qed.

Lemma wr_to_l1_ok : forall w c addrs data w' c' r, wr_to_l1 w c addrs data = Ok (w', c', r) -> mw_ok w -> cc_ok c ->
  step_ok w c w' c'.
Proof. intros w c addrs data w' c' r H MW CC. unfold wr_to_l1 in H. eapply wr_final_ok; eauto. Qed.

Lemma wr_to_l1_after_ok : forall w c addrs data rem w' c' r,
  wr_to_l1_after w c addrs data rem = Ok (w', c', r) -> mw_ok w -> cc_ok c -> step_ok w c w' c'.
Proof.
  intros w c addrs data rem w' c' r H MW CC. unfold wr_to_l1_after in H.
  destruct (0 <? rem); [eapply wr_stay_ok; eauto; exact I | eapply wr_to_l1_ok; eauto].
Qed.

Lemma wr_evict_wait_ok : forall w c addrs data cmd w' c' r,
  wr_evict_wait w c addrs data cmd = Ok (w', c', r) -> mw_ok w -> cc_ok c -> step_ok w c w' c'.
Proof.
  intros w c addrs data cmd w' c' r H MW CC. unfold wr_evict_wait in H.
  destruct (cmd_isdone _ _); [eapply wr_to_l1_after_ok; eauto | eapply wr_stay_ok; eauto; exact I].
Qed.

Lemma wr_push_l1_ok : forall w c addrs data l1a l1dt w' c' r,
  wr_push_l1 w c addrs data l1a l1dt = Ok (w', c', r) -> mw_ok w -> cc_ok c -> addr_ok l1a -> step_ok w c w' c'.
Proof.
  intros w c addrs data l1a l1dt w' c' r H MW CC A. unfold wr_push_l1 in H.
  apply bind_ok in H as (p & EP & H). destruct (cc_push_l1_ok _ _ _ _ EP CC A) as (CC1 & S1 & V).
  destruct (snd p) as [victim|].
  - apply bind_ok in H as (e & EE & H).
    destruct (msi_evict_l1_ok _ _ _ _ EE (wf_line_lo 64 _ ltac:(lia) (V _ eq_refl)) (proj2 MW)) as [C1 K1].
    eapply step_ok_chain; [eapply wr_stay_ok; [exact H | apply mw_ok_msi; assumption | exact CC1 | exact I]
                          | apply keys_le_same; exact K1 | exact S1].
  - eapply step_ok_chain; [eapply wr_to_l1_ok; [exact H | exact MW | exact CC1] | apply keys_le_refl | exact S1].
Qed.

Lemma wr_l1push_ok : forall w c addrs data rem l1a l1dt w' c' r,
  wr_l1push w c addrs data rem l1a l1dt = Ok (w', c', r) -> mw_ok w -> cc_ok c -> addr_ok l1a -> step_ok w c w' c'.
Proof.
  intros w c addrs data rem l1a l1dt w' c' r H MW CC A. unfold wr_l1push in H.
  destruct (0 <? rem); [eapply wr_stay_ok; eauto | eapply wr_push_l1_ok; eauto].
Qed.

Lemma wr_sync_ok : forall w c addrs data w' c' r, wr_sync w c addrs data = Ok (w', c', r) -> mw_ok w -> cc_ok c ->
  step_ok w c w' c'.
Proof.
  intros w c addrs data w' c' r H MW CC. unfold wr_sync in H.
  apply bind_ok in H as (s & ES & H). destruct s as [[l1a l1dt]|]; [|discriminate].
  eapply wr_push_l1_ok; eauto. eapply get_sub_addr; [exact ES | exact (proj1 MW)].
Qed.

Lemma wr_l3evict_wait_ok : forall w c addrs data cmd w' c' r,
  wr_l3evict_wait w c addrs data cmd = Ok (w', c', r) -> mw_ok w -> cc_ok c -> step_ok w c w' c'.
Proof.
  intros w c addrs data cmd w' c' r H MW CC. unfold wr_l3evict_wait in H.
  destruct (cmd_isdone _ _); [eapply wr_sync_ok; eauto | eapply wr_stay_ok; eauto; exact I].
Qed.

Lemma wr_l3wait_ok : forall w c addrs data rem l3a l3d w' c' r,
  wr_l3wait w c addrs data rem l3a l3d = Ok (w', c', r) -> mw_ok w -> cc_ok c -> addr_ok l3a -> step_ok w c w' c'.
Proof.
  intros w c addrs data rem l3a l3d w' c' r H MW CC A. unfold wr_l3wait in H.
  destruct (0 <? rem); [eapply wr_stay_ok; eauto|].
  apply bind_ok in H as (a0 & _ & H).
  destruct (l3_locked _ _); [eapply wr_stay_ok; eauto|].
  apply bind_ok in H as (p & EP & H).
  assert (MW0 : mw_ok (set_wmsi w (l3_setlock (w_msi w) a0 false))).
  { apply mw_ok_msi; [exact MW | apply l3_setlock_ok; exact (proj2 MW)]. }
  destruct (cc_push_l3_ok _ _ _ _ EP MW0 A) as (MW1 & M1 & V).
  assert (K1 : keys_le (w_msi w) (w_msi (fst p))).
  { apply keys_le_same. rewrite M1. reflexivity. }
  destruct (snd p) as [victim|].
  - cbv zeta in H.
    destruct (msi_evict_l3_ok (w_msi (fst p)) (c_id c) (lo victim) (wf_line_lo 128 _ ltac:(lia) (V _ eq_refl)) (proj2 MW1)) as [C2 S2].
    eapply step_ok_chain; [eapply wr_stay_ok; [exact H | apply mw_ok_msi; assumption | exact CC | exact I] | | reflexivity].
    eapply keys_le_trans; [exact K1 | apply keys_le_same; exact S2].
  - eapply step_ok_chain; [eapply wr_sync_ok; [exact H | exact MW1 | exact CC] | exact K1 | reflexivity].
Qed.

Lemma wr_memwait_ok : forall w c addrs data rem l3a l3d w' c' r,
  wr_memwait w c addrs data rem l3a l3d = Ok (w', c', r) -> mw_ok w -> cc_ok c -> addr_ok l3a -> step_ok w c w' c'.
Proof.
  intros w c addrs data rem l3a l3d w' c' r H MW CC A. unfold wr_memwait in H.
  destruct (0 <? rem); [eapply wr_stay_ok; eauto | eapply wr_l3wait_ok; eauto].
Qed.

Lemma wr_pend_ok : forall w c addrs data rk pend w' c' r,
  wr_pend w c addrs data rk pend = Ok (w', c', r) -> mw_ok w -> cc_ok c -> step_ok w c w' c'.
Proof.
  intros w c addrs data rk pend w' c' r H MW CC. unfold wr_pend in H.
  destruct (negb _); [eapply wr_stay_ok; eauto; exact I|].
  destruct rk; [| discriminate | eapply wr_to_l1_ok; eauto].
  apply bind_ok in H as (a0 & _ & H). apply bind_ok in H as ([l3 o] & EG & H).
  pose proof (get_keeps_wf _ _ _ _ _ n128 EG (proj1 MW)) as W1.
  destruct o as [v|].
  - apply bind_ok in H as (s & ES & H). destruct s as [[l1a l1dt]|]; [|discriminate].
    eapply step_ok_chain; [eapply wr_l1push_ok; [exact H | apply mw_ok_l3; assumption | exact CC | eapply get_sub_addr; [exact ES | exact W1]]
                          | apply keys_le_refl | reflexivity].
  - apply bind_ok in H as (f & EF & H).
    eapply step_ok_chain; [eapply wr_memwait_ok; [exact H | apply mw_ok_l3; assumption | exact CC | eapply fetch_line8_addr; exact EF]
                          | apply keys_le_refl | reflexivity].
Qed.

Lemma wr_start_ok : forall w c addrs data w' c' r, wr_start w c addrs data = Ok (w', c', r) -> mw_ok w -> cc_ok c ->
  step_ok w c w' c'.
Proof.
  intros w c addrs data w' c' r H MW CC. unfold wr_start in H.
  apply bind_ok in H as (a0 & _ & H). cbv zeta in H. apply bind_ok in H as ([k1 o] & EL & H). cbn [fst snd] in H.
  destruct (msi_l1lock_ok _ _ _ _ _ EL (align8_idem64 a0) (proj2 MW)) as [C1 S1].
  destruct o as [[[rk pend] p]|].
  - eapply step_ok_chain; [eapply wr_pend_ok; [exact H | apply mw_ok_msi; assumption |] | apply keys_le_same; exact S1 | reflexivity].
    split; [exact (proj1 CC) | split; [exact (proj1 (proj2 CC)) | exact (proj2 (proj2 CC))]].
  - inversion H; subst. split; [apply mw_ok_msi; assumption|]. split; [exact CC|].
    split; [apply keys_le_same; exact S1 | reflexivity].
Qed.

Lemma cc_write_cycle_ok : forall w c addrs data w' c' r, cc_write_cycle w c addrs data = Ok (w', c', r) ->
  mw_ok w -> cc_ok c -> mw_ok w' /\ cc_ok c' /\ keys_le (w_msi w) (w_msi w') /\ c_snoop c' = c_snoop c.
Proof.
  intros w c addrs data w' c' r H MW CC. unfold cc_write_cycle in H.
  pose proof (proj2 (proj2 CC)) as RO.
  destruct (c_write c); cbn [wr_ok] in RO.
  - eapply wr_start_ok; eauto.
  - eapply wr_pend_ok; eauto.
  - eapply wr_l1push_ok; eauto.
  - eapply wr_evict_wait_ok; eauto.
  - eapply wr_to_l1_after_ok; eauto.
  - eapply wr_memwait_ok; eauto.
  - eapply wr_l3wait_ok; eauto.
  - eapply wr_l3evict_wait_ok; eauto.
  - eapply wr_final_ok; eauto.
Qed.

Lemma done_chain_ok : forall k l a b key cid, cmds_ok k ->
  cmds_ok (l3_setlock (cmd_done (set_l3write k l) key cid) a b) /\
  keys_le k (l3_setlock (cmd_done (set_l3write k l) key cid) a b).
Proof.
  intros k l a b key cid C.
  assert (C0 : cmds_ok (set_l3write k l)) by (apply (cmds_ok_same k); [reflexivity | reflexivity | exact C]).
  destruct (cmd_done_ok (set_l3write k l) key cid C0) as [C1 K1].
  split; [apply l3_setlock_ok; exact C1|].
  intros key0 H0. rewrite l3_setlock_states. apply K1. exact H0.
Qed.

Ltac stay_tac := let s' := fresh "s'" in let E := fresh "E" in
  intros s' E; inversion E; subst; cbn [sn_key sn_isl1 sn_kind_ok]; repeat split; auto.

Lemma sn_step_inv : forall w c s w' c' o, sn_step w c s = Ok (w', c', o) -> mw_ok w -> cc_ok c ->
  mw_ok w' /\ cc_ok c' /\ keys_le (w_msi w) (w_msi w') /\ c_snoop c' = c_snoop c /\
  (forall s', o = Some s' -> sn_key s' = sn_key s /\ sn_isl1 s' = sn_isl1 s /\ (sn_kind_ok s -> sn_kind_ok s')).
Proof.
  intros w c s w' c' o H MW CC.
  destruct s as [key cid|key cid|key cid c1 c2 c3|key cid n]; unfold sn_step in H; cbv zeta in H.
  - (* l1Evict *)
    apply bind_ok in H as ([l1 ov] & EE & H). inversion H; subst. cbn [fst].
    destruct (cmd_done_ok (w_msi w) key cid (proj2 MW)) as [C K].
    split; [apply mw_ok_msi; assumption|].
    split; [apply cc_ok_l1d; [exact CC | eapply evict_wf; [exact n64 | exact EE | exact (proj1 CC)]]|].
    split; [exact K|]. split; [reflexivity | discriminate].
  - (* l3Evict *)
    destruct (negb (l3_locked _ _)).
    + inversion H; subst.
      split; [apply mw_ok_msi; [exact MW | apply l3_setlock_ok; exact (proj2 MW)]|]. split; [exact CC|].
      split; [apply keys_le_same; reflexivity|]. split; [reflexivity | stay_tac].
    + apply bind_ok in H as ([l3 ov] & EE & H). inversion H; subst. cbn [fst].
      destruct (done_chain_ok (w_msi w) (aset (ck_addr key) false (k_l3write (w_msi w))) (ck_addr key) false key cid (proj2 MW)) as [C K].
      split; [split; [eapply evict_wf; [exact n128 | exact EE | exact (proj1 MW)] | exact C]|]. split; [exact CC|].
      split; [exact K|]. split; [reflexivity | discriminate].
  - (* l1WriteBack *)
    destruct (0 <? c1).
    { inversion H; subst. split; [exact MW|]. split; [exact CC|]. split; [apply keys_le_refl|]. split; [reflexivity | stay_tac]. }
    apply bind_ok in H as (g & _ & H). destruct g as [memory|]; [|discriminate].
    apply bind_ok in H as ([l3 o3] & EG & H).
    pose proof (get_keeps_wf _ _ _ _ _ n128 EG (proj1 MW)) as W3.
    destruct o3 as [v|].
    + destruct (0 <? c3).
      { inversion H; subst. split; [apply mw_ok_l3; assumption|]. split; [exact CC|]. split; [apply keys_le_refl|].
        split; [reflexivity | stay_tac]. }
      apply bind_ok in H as (w1 & EW & H). apply bind_ok in H as ([l1 ov] & EE & H). cbn [fst snd] in H.
      destruct ov; [|discriminate]. inversion H; subst.
      destruct (cc_write_l3_ok _ _ _ _ EW (mw_ok_l3 _ _ MW W3)) as [MW1 S1].
      destruct (cmd_done_ok (w_msi w1) key cid (proj2 MW1)) as [C K].
      split; [apply mw_ok_msi; assumption|].
      split; [apply cc_ok_l1d; [exact CC | eapply evict_wf; [exact n64 | exact EE | exact (proj1 CC)]]|].
      split; [|split; [reflexivity | discriminate]].
      eapply keys_le_trans; [|exact K]. apply keys_le_same. exact S1.
    + destruct (0 <? c2).
      { inversion H; subst. split; [apply mw_ok_l3; assumption|]. split; [exact CC|]. split; [apply keys_le_refl|].
        split; [reflexivity | stay_tac]. }
      apply bind_ok in H as (mem & _ & H). apply bind_ok in H as ([l1 ov] & EE & H). cbn [fst snd] in H.
      destruct ov; [|discriminate]. inversion H; subst.
      destruct (cmd_done_ok (w_msi w) key cid (proj2 MW)) as [C K].
      split; [split; [exact W3 | exact C]|].
      split; [apply cc_ok_l1d; [exact CC | eapply evict_wf; [exact n64 | exact EE | exact (proj1 CC)]]|].
      split; [exact K|]. split; [reflexivity | discriminate].
  - (* l3WriteBack *)
    destruct (0 <? n).
    { inversion H; subst. split; [exact MW|]. split; [exact CC|]. split; [apply keys_le_refl|]. split; [reflexivity | stay_tac]. }
    destruct (negb (l3_locked _ _)).
    { inversion H; subst.
      split; [apply mw_ok_msi; [exact MW | apply l3_setlock_ok; exact (proj2 MW)]|]. split; [exact CC|].
      split; [apply keys_le_same; reflexivity|]. split; [reflexivity | stay_tac]. }
    apply bind_ok in H as (g & _ & H). destruct g as [memory|]; [|discriminate].
    apply bind_ok in H as (mem & _ & H). apply bind_ok in H as ([l3 ov] & EE & H). cbn [fst snd] in H.
    destruct ov; [|discriminate]. inversion H; subst.
    destruct (done_chain_ok (w_msi w) (aset (ck_addr key) false (k_l3write (w_msi w))) (ck_addr key) false key cid (proj2 MW)) as [C K].
    split; [split; [eapply evict_wf; [exact n128 | exact EE | exact (proj1 MW)] | exact C]|]. split; [exact CC|].
    split; [exact K|]. split; [reflexivity | discriminate].
Qed.

(* the list a run of the snoop list leaves: continuations of a sublist, in order *)
Inductive sn_cont : list snoop_cl -> list snoop_cl -> Prop :=
| sc_nil : sn_cont [] []
| sc_drop : forall s t t', sn_cont t t' -> sn_cont (s :: t) t'
| sc_keep : forall s s' t t', sn_key s' = sn_key s -> sn_isl1 s' = sn_isl1 s ->
    (sn_kind_ok s -> sn_kind_ok s') -> sn_cont t t' -> sn_cont (s :: t) (s' :: t').

Lemma sn_run_inv : forall l w c w' c' l', sn_run w c l = Ok (w', c', l') -> mw_ok w -> cc_ok c ->
  mw_ok w' /\ cc_ok c' /\ keys_le (w_msi w) (w_msi w') /\ c_snoop c' = c_snoop c /\ sn_cont l l'.
Proof.
  induction l as [|s t IH]; intros w c w' c' l' H MW CC; cbn [sn_run] in H.
  - inversion H; subst. split; [exact MW|]. split; [exact CC|]. split; [apply keys_le_refl|]. split; [reflexivity | constructor].
  - apply bind_ok in H as ([[w1 c1] o] & E1 & H). apply bind_ok in H as ([[w2 c2] t'] & E2 & H). inversion H; subst.
    destruct (sn_step_inv _ _ _ _ _ _ E1 MW CC) as (MW1 & CC1 & K1 & S1 & O1).
    destruct (IH _ _ _ _ _ E2 MW1 CC1) as (MW2 & CC2 & K2 & S2 & O2).
    split; [exact MW2|]. split; [exact CC2|]. split; [eapply keys_le_trans; eauto|]. split; [congruence|].
    destruct o as [s'|]; [|constructor; exact O2].
    destruct (O1 s' eq_refl) as (A & C & D). constructor; assumption.
Qed.

Lemma sn_unary_cont : forall k k' id s s', keys_le k k' -> sn_key s' = sn_key s -> sn_isl1 s' = sn_isl1 s ->
  (sn_kind_ok s -> sn_kind_ok s') -> sn_unary k id s -> sn_unary k' id s'.
Proof.
  intros k k' id s s' K EK EI KO (A & B & C & D). unfold sn_unary. rewrite EK, EI.
  split; [apply KO; exact A|]. split; [exact B|]. split; [exact C|]. intros L. apply K. apply D. exact L.
Qed.

Lemma sn_compat_cont : forall s1 s1' s2 s2', sn_key s1' = sn_key s1 -> sn_isl1 s1' = sn_isl1 s1 ->
  sn_key s2' = sn_key s2 -> sn_isl1 s2' = sn_isl1 s2 -> sn_compat s1 s2 -> sn_compat s1' s2'.
Proof. intros s1 s1' s2 s2' K1 I1 K2 I2 H. unfold sn_compat in *. rewrite K1, K2, I1, I2. exact H. Qed.

Lemma sn_cont_unary : forall k k' id l l', sn_cont l l' -> keys_le k k' ->
  Forall (sn_unary k id) l -> Forall (sn_unary k' id) l'.
Proof.
  intros k k' id l l' H K. induction H as [|s t t' H IH|s s' t t' A C D H IH]; intros F.
  - constructor.
  - inversion F; subst. apply IH. assumption.
  - inversion F as [|? ? F1 F2]; subst. constructor; [|apply IH; exact F2].
    eapply sn_unary_cont; eauto.
Qed.

Lemma sn_cont_forall_compat : forall s s' l l', sn_cont l l' -> sn_key s' = sn_key s -> sn_isl1 s' = sn_isl1 s ->
  Forall (sn_compat s) l -> Forall (sn_compat s') l'.
Proof.
  intros s s' l l' H EK EI. induction H as [|s0 t t' H IH|s0 s0' t t' A C D H IH]; intros F.
  - constructor.
  - inversion F; subst. apply IH. assumption.
  - inversion F as [|? ? F1 F2]; subst. constructor; [|apply IH; exact F2].
    eapply sn_compat_cont; [exact EK | exact EI | exact A | exact C | exact F1].
Qed.

Lemma sn_cont_compat : forall l l', sn_cont l l' -> ForallOrdPairs sn_compat l -> ForallOrdPairs sn_compat l'.
Proof.
  intros l l' H. induction H as [|s t t' H IH|s s' t t' A C D H IH]; intros F.
  - constructor.
  - inversion F; subst. apply IH. assumption.
  - inversion F as [|? ? F1 F2]; subst. constructor; [|apply IH; exact F2].
    eapply sn_cont_forall_compat; eauto.
Qed.

Lemma sn_list_ok_cont : forall k k' id l l', sn_cont l l' -> keys_le k k' -> sn_list_ok k id l -> sn_list_ok k' id l'.
Proof.
  intros k k' id l l' H K [U P]. split; [eapply sn_cont_unary; eauto | eapply sn_cont_compat; eauto].
Qed.

Lemma sn_cont_refl : forall l, sn_cont l l.
Proof. induction l as [|s t IH]; [constructor | apply sc_keep; auto]. Qed.

Lemma sn_list_ok_keys_le : forall k k' id l, keys_le k k' -> sn_list_ok k id l -> sn_list_ok k' id l.
Proof. intros k k' id l K H. eapply sn_list_ok_cont; [apply sn_cont_refl | exact K | exact H]. Qed.

Lemma sn_run_list_ok : forall l w c w' c' l' id, sn_run w c l = Ok (w', c', l') -> mw_ok w -> cc_ok c ->
  sn_list_ok (w_msi w) id l -> sn_list_ok (w_msi w') id l'.
Proof.
  intros l w c w' c' l' id H MW CC L. destruct (sn_run_inv _ _ _ _ _ _ H MW CC) as (_ & _ & K & _ & O).
  eapply sn_list_ok_cont; eauto.
Qed.


Lemma sn_closure_some : forall key cid cl, sn_closure key cid = Some cl ->
  sn_key cl = key /\ sn_cid cl = cid /\ sn_kind_ok cl /\ sn_isl1 cl = is_l1_req key.
Proof.
  intros key cid cl H. unfold sn_closure in H. unfold is_l1_req.
  destruct (ck_req key =? rq_l1Evict) eqn:E1.
  { inversion H; subst. apply Z.eqb_eq in E1. cbn [sn_key sn_cid sn_kind_ok sn_isl1]. repeat split; auto. }
  destruct (ck_req key =? rq_l3Evict) eqn:E2.
  { inversion H; subst. apply Z.eqb_eq in E2. cbn [sn_key sn_cid sn_kind_ok sn_isl1]. repeat split; auto.
    rewrite E2. reflexivity. }
  destruct (ck_req key =? rq_l1WriteBack) eqn:E3.
  { inversion H; subst. apply Z.eqb_eq in E3. cbn [sn_key sn_cid sn_kind_ok sn_isl1]. repeat split; auto. }
  destruct (ck_req key =? rq_l3WriteBack) eqn:E4; [|discriminate].
  inversion H; subst. apply Z.eqb_eq in E4. cbn [sn_key sn_cid sn_kind_ok sn_isl1]. repeat split; auto.
Qed.

Lemma l1_req_cases : forall k id key, is_l1_req key = true ->
  (ck_req key = rq_l1Evict /\ sn_accepts k id key = (st_get k id (ck_addr key) =? st_shared)) \/
  (ck_req key = rq_l1WriteBack /\ sn_accepts k id key = (st_get k id (ck_addr key) =? st_modified)).
Proof.
  intros k id key. unfold is_l1_req, sn_accepts.
  destruct (ck_req key =? rq_l1Evict) eqn:E1.
  - intros _. left. apply Z.eqb_eq in E1. split; [exact E1 | reflexivity].
  - cbn [orb]. intros E2. right. apply Z.eqb_eq in E2. split; [exact E2|]. rewrite E2. reflexivity.
Qed.

Lemma st_get_exists : forall k id a, st_get k id a <> st_invalid -> pget zz_eqb (id, a) (k_states k) <> None.
Proof. intros k id a H E. apply H. unfold st_get. rewrite E. reflexivity. Qed.

Lemma accepts_exists : forall k id key, sn_accepts k id key = true -> is_l1_req key = true ->
  pget zz_eqb (id, ck_addr key) (k_states k) <> None.
Proof.
  intros k id key A L. apply st_get_exists.
  destruct (l1_req_cases k id key L) as [[_ E]|[_ E]]; rewrite E in A; apply Z.eqb_eq in A; rewrite A; discriminate.
Qed.

Lemma accepts_l1_same : forall k id key1 key2, sn_accepts k id key1 = true -> sn_accepts k id key2 = true ->
  is_l1_req key1 = true -> is_l1_req key2 = true -> ck_id key1 = ck_id key2 -> ck_addr key1 = ck_addr key2 -> key1 = key2.
Proof.
  intros k id [i1 a1 r1] [i2 a2 r2] A1 A2 L1 L2 EI EA. cbn [ck_id ck_addr] in EI, EA. subst i2 a2.
  destruct (l1_req_cases k id _ L1) as [[R1 E1]|[R1 E1]], (l1_req_cases k id _ L2) as [[R2 E2]|[R2 E2]];
    cbn [ck_req ck_addr] in *; rewrite E1 in A1; rewrite E2 in A2; apply Z.eqb_eq in A1; apply Z.eqb_eq in A2;
    try (subst; reflexivity); rewrite A1 in A2; discriminate.
Qed.

Lemma closures_of_in : forall l cl, In cl (closures_of l) ->
  exists key cid, In (key, cid) l /\ sn_closure key cid = Some cl.
Proof.
  induction l as [|[key cid] t IH]; intros cl H; [destruct H|].
  unfold closures_of in H. cbn [flat_map fst snd] in H. apply in_app_or in H as [H|H].
  - destruct (sn_closure key cid) as [cl0|] eqn:E; [|destruct H]. destruct H as [H|[]]. subst.
    exists key, cid. split; [left; reflexivity | exact E].
  - destruct (IH cl H) as (k0 & c0 & I & E). exists k0, c0. split; [right; exact I | exact E].
Qed.

Lemma closures_compat : forall k id l, no_conflict_pairs (map fst l) -> NoDup (map fst l) ->
  (forall kc, In kc l -> ck_id (fst kc) = id /\ sn_accepts k id (fst kc) = true) ->
  ForallOrdPairs sn_compat (closures_of l).
Proof.
  intros k id. induction l as [|[key cid] t IH]; intros NC ND HA; [constructor|].
  cbn [map fst] in NC, ND. inversion NC as [|? ? NC1 NC2]; subst. inversion ND as [|? ? ND1 ND2]; subst.
  assert (IHt : ForallOrdPairs sn_compat (closures_of t)).
  { apply IH; [exact NC2 | exact ND2 | intros kc I; apply HA; right; exact I]. }
  unfold closures_of. cbn [flat_map fst snd]. fold (closures_of t).
  destruct (sn_closure key cid) as [cl|] eqn:EC; [|exact IHt].
  cbn [app]. constructor; [|exact IHt].
  apply Forall_forall. intros cl2 I2. destruct (closures_of_in _ _ I2) as (key2 & cid2 & I & E2).
  destruct (sn_closure_some _ _ _ EC) as (K1 & _ & _ & L1). destruct (sn_closure_some _ _ _ E2) as (K2 & _ & _ & L2).
  unfold sn_compat. rewrite K1, K2, L1, L2.
  split.
  - rewrite Forall_forall in NC1. apply NC1. apply in_map_iff. exists (key2, cid2). split; [reflexivity | exact I].
  - intros B1 B2 EA.
    destruct (HA (key, cid) (or_introl eq_refl)) as [I1 A1]. destruct (HA (key2, cid2) (or_intror I)) as [I2' A2].
    cbn [fst] in *.
    assert (EK : key = key2) by (eapply accepts_l1_same; eauto; congruence).
    rewrite <- EK in I. apply ND1. apply in_map_iff. exists (key, cid2). split; [reflexivity | exact I].
Qed.

Lemma stale_if_states : forall b w, k_states (w_msi (stale_if b w)) = k_states (w_msi w).
Proof. intros [|] w; reflexivity. Qed.

Lemma stale_if_ok : forall b w, mw_ok w -> mw_ok (stale_if b w).
Proof.
  intros [|] w MW; [|exact MW]. unfold stale_if. apply mw_ok_msi; [exact MW|].
  apply (cmds_ok_same (w_msi w)); [reflexivity | reflexivity | exact (proj2 MW)].
Qed.

Lemma cc_ok_snoop : forall c l, cc_ok c -> cc_ok (set_snoop c l).
Proof. intros c l H. exact H. Qed.

(* coSnoop with an empty list: the closures of the requests addressed to the core *)
Lemma sn_create_branch : forall ord cycle w c w' c',
  c_snoop c = [] ->
  cc_snoop_cycle ord cycle w c = (false, Ok (w', c')) -> mw_ok w -> cc_ok c ->
  mw_ok w' /\ cc_ok c' /\ keys_le (w_msi w) (w_msi w') /\ sn_list_ok (w_msi w') (c_id c') (c_snoop c') /\ c_id c' = c_id c.
Proof.
  intros ord cycle w c w' c' ES H MW CC. unfold cc_snoop_cycle in H. rewrite ES in H. cbv zeta in H.
  set (reqs := filter (fun kc : cmdk * Z => ck_id (fst kc) =? c_id c) (k_cmds (w_msi w))) in *.
  set (order := map_order ord cycle (- (3 + c_id c)) (map snd reqs)) in *.
  change (flat_map (fun cid : Z => filter (fun kc : cmdk * Z => snd kc =? cid) reqs) order) with (snoop_sorted order reqs) in H.
  set (sorted := snoop_sorted order reqs) in *.
  injection H as HF HC.
  destruct MW as [W3 (N1 & B & N2 & A)].
  assert (P : Permutation sorted reqs).
  { apply snoop_sorted_perm. apply NoDup_map_filter. exact N1. }
  assert (IN : forall kc, In kc sorted -> In kc (k_cmds (w_msi w)) /\ ck_id (fst kc) = c_id c).
  { intros kc I. apply (Permutation_in _ P) in I. apply filter_In in I as [I E]. apply Z.eqb_eq in E. auto. }
  rewrite sn_create_all_spec in HC.
  destruct (all_accepted (w_msi w) (c_id c) sorted) eqn:AA; [|discriminate].
  injection HC as <- <-. rewrite ES. cbn [app c_id c_snoop set_snoop].
  unfold all_accepted in AA. rewrite forallb_forall in AA.
  split; [apply stale_if_ok; split; [exact W3 | repeat split; assumption]|].
  split; [apply cc_ok_snoop; exact CC|].
  split; [apply keys_le_same; apply stale_if_states|].
  split; [|reflexivity].
  split.
  - apply Forall_forall. intros cl I. destruct (closures_of_in _ _ I) as (key & cid & IS & EC).
    destruct (sn_closure_some _ _ _ EC) as (K1 & _ & KO & L1).
    destruct (IN _ IS) as [IK EI]. cbn [fst] in EI.
    pose proof (AA _ IS) as AC. cbn [fst snd] in AC. apply andb_true_iff in AC as [AC _].
    unfold sn_unary. rewrite K1, L1. split; [exact KO|]. split; [exact EI|]. split; [eapply A; exact IK|].
    intros L. rewrite stale_if_states. apply accepts_exists; assumption.
  - apply (closures_compat (w_msi w) (c_id c)).
    + apply (no_conflict_pairs_perm (map fst reqs)); [apply Permutation_map; apply Permutation_sym; exact P|].
      apply snoop_order_matters_pairs. exact HF.
    + apply (Permutation_NoDup (l := map fst reqs)); [apply Permutation_map; apply Permutation_sym; exact P|].
      apply NoDup_map_filter. exact N2.
    + intros kc I. split; [apply (IN _ I)|].
      pose proof (AA _ I) as AC. apply andb_true_iff in AC as [AC _]. exact AC.
Qed.

Lemma cc_snoop_cycle_inv : forall ord cycle w c w' c',
  cc_snoop_cycle ord cycle w c = (false, Ok (w', c')) -> mw_ok w -> cc_ok c ->
  sn_list_ok (w_msi w) (c_id c) (c_snoop c) ->
  mw_ok w' /\ cc_ok c' /\ keys_le (w_msi w) (w_msi w') /\ sn_list_ok (w_msi w') (c_id c') (c_snoop c') /\ c_id c' = c_id c.
Proof.
  intros ord cycle w c w' c' H MW CC L.
  destruct (c_snoop c) as [|s0 t0] eqn:ES; [eapply sn_create_branch; eauto|].
  unfold cc_snoop_cycle in H. rewrite ES in H. apply (f_equal snd) in H. cbn [snd] in H.
  apply bind_ok in H as ([[w1 c1] l] & ER & H). inversion H; subst.
  destruct (sn_run_inv _ _ _ _ _ _ ER MW CC) as (MW1 & CC1 & K1 & S1 & O1).
  pose proof (sn_run_id _ _ _ _ _ _ ER) as EI.
  split; [exact MW1|]. split; [apply cc_ok_snoop; exact CC1|]. split; [exact K1|].
  split; [|exact EI]. cbn [c_id c_snoop set_snoop]. rewrite EI.
  eapply sn_list_ok_cont; eauto.
Qed.

(* without the ghost flag: nothing about the new snoop list *)
Lemma cc_snoop_cycle_inv_weak : forall ord cycle w c w' c',
  snd (cc_snoop_cycle ord cycle w c) = Ok (w', c') -> mw_ok w -> cc_ok c ->
  sn_list_ok (w_msi w) (c_id c) (c_snoop c) ->
  mw_ok w' /\ cc_ok c' /\ keys_le (w_msi w) (w_msi w') /\ c_id c' = c_id c.
Proof.
  intros ord cycle w c w' c' H MW CC L. unfold cc_snoop_cycle in H.
  destruct (c_snoop c) as [|s0 t0] eqn:ES; cbn [snd] in H.
  - cbv zeta in H. rewrite sn_create_all_spec in H. destruct (all_accepted _ _ _); [|discriminate].
    injection H as <- <-. split; [apply stale_if_ok; exact MW|]. split; [apply cc_ok_snoop; exact CC|].
    split; [apply keys_le_same; apply stale_if_states | reflexivity].
  - apply bind_ok in H as ([[w1 c1] l] & ER & H). inversion H; subst.
    destruct (sn_run_inv _ _ _ _ _ _ ER MW CC) as (MW1 & CC1 & K1 & S1 & O1).
    split; [exact MW1|]. split; [apply cc_ok_snoop; exact CC1|]. split; [exact K1|].
    exact (sn_run_id _ _ _ _ _ _ ER).
Qed.


Lemma mem_inv_keys_le_tail : forall w w1 (t : list cc8), keys_le (w_msi w) (w_msi w1) ->
  Forall (fun c => sn_list_ok (w_msi w) (c_id c) (c_snoop c)) t ->
  Forall (fun c => sn_list_ok (w_msi w1) (c_id c) (c_snoop c)) t.
Proof.
  intros w w1 t K F. eapply Forall_impl; [|exact F]. intros c H. cbv beta in *. eapply sn_list_ok_keys_le; eauto.
Qed.

(* after coSnoop of the first controller *)
Lemma cc_snoop_cycle_mem_inv : forall ord cycle w c t w1 c1,
  cc_snoop_cycle ord cycle w c = (false, Ok (w1, c1)) -> mem_inv w (c :: t) ->
  mem_inv w1 (c1 :: t) /\ keys_le (w_msi w) (w_msi w1).
Proof.
  intros ord cycle w c t w1 c1 H (MW & FC & FS).
  inversion FC as [|? ? CC FCt]; subst. inversion FS as [|? ? L FSt]; subst.
  destruct (cc_snoop_cycle_inv _ _ _ _ _ _ H MW CC L) as (MW1 & CC1 & K1 & L1 & _).
  split; [|exact K1]. split; [exact MW1|]. split; [constructor; assumption|].
  constructor; [exact L1|]. eapply mem_inv_keys_le_tail; eauto.
Qed.

Lemma snoops_cycle_inv_le : forall ord cycle ccs w w' ccs',
  snoops_cycle ord cycle w ccs = (false, Ok (w', ccs')) -> mem_inv w ccs ->
  mem_inv w' ccs' /\ keys_le (w_msi w) (w_msi w').
Proof.
  intros ord cycle. induction ccs as [|c t IH]; intros w w' ccs' H MI; cbn [snoops_cycle] in H.
  - inversion H; subst. split; [exact MI | apply keys_le_refl].
  - destruct (cc_snoop_cycle ord cycle w c) as [os1 r1] eqn:E1.
    destruct r1 as [[w1 c1]| |]; try (inversion H; fail).
    destruct (snoops_cycle ord cycle w1 t) as [os2 r2] eqn:E2.
    injection H as HO HR. apply orb_false_iff in HO as [-> ->].
    apply bind_ok in HR as ([w2 t'] & -> & HR). cbn [fst snd] in HR. inversion HR; subst.
    destruct (cc_snoop_cycle_mem_inv _ _ _ _ _ _ _ E1 MI) as [(MW1 & FC1 & FS1) K1].
    inversion FC1 as [|? ? CC1 FCt]; subst. inversion FS1 as [|? ? L1 FSt]; subst.
    destruct (IH _ _ _ E2 (conj MW1 (conj FCt FSt))) as [(MW2 & FC2 & FS2) K2].
    split; [|eapply keys_le_trans; eauto].
    split; [exact MW2|]. split; [constructor; assumption|].
    constructor; [eapply sn_list_ok_keys_le; eauto | exact FS2].
Qed.

Lemma snoops_cycle_inv : forall ord cycle w ccs w' ccs',
  snoops_cycle ord cycle w ccs = (false, Ok (w', ccs')) -> mem_inv w ccs -> mem_inv w' ccs'.
Proof. intros ord cycle w ccs w' ccs' H MI. exact (proj1 (snoops_cycle_inv_le _ _ _ _ _ _ H MI)). Qed.

(* the shared L3 of the machine *)
Definition l3x (x : mx) : cache := m_l3 (x_m x).


Lemma set_forward3_l3 : forall x pc reg v, l3x (set_forward3 x pc reg v) = l3x x.
Proof. reflexivity. Qed.
Lemma set_chan3_l3 : forall x c, l3x (set_chan3 x c) = l3x x.
Proof. reflexivity. Qed.
Lemma set_pcb3_l3 : forall x b, l3x (set_pcb3 x b) = l3x x.
Proof. reflexivity. Qed.
Lemma set_ebus3_l3 : forall x b, l3x (set_ebus3 x b) = l3x x.
Proof. reflexivity. Qed.
Lemma set_pend3_l3 : forall x p, l3x (set_pend3 x p) = l3x x.
Proof. reflexivity. Qed.
Lemma set_prev3_l3 : forall x p, l3x (set_prev3 x p) = l3x x.
Proof. reflexivity. Qed.
Lemma set_seq3_l3 : forall x s, l3x (set_seq3 x s) = l3x x.
Proof. reflexivity. Qed.
Lemma set_rats3_l3 : forall x c t, l3x (set_rats3 x c t) = l3x x.
Proof. reflexivity. Qed.
Lemma set_fwd3_l3 : forall x f, l3x (set_fwd3 x f) = l3x x.
Proof. reflexivity. Qed.
Lemma set_next3_l3 : forall x n, l3x (set_next3 x n) = l3x x.
Proof. reflexivity. Qed.
Lemma set_os3_l3 : forall x b, l3x (set_os3 x b) = l3x x.
Proof. reflexivity. Qed.
Lemma or_os_l3 : forall x b, l3x (or_os x b) = l3x x.
Proof. reflexivity. Qed.
Lemma inc_seq3_l3 : forall x, l3x (inc_seq3 x) = l3x x.
Proof. reflexivity. Qed.
Lemma set_m_l3 : forall x m, l3x (set_m x m) = m_l3 m.
Proof. reflexivity. Qed.
Lemma connected3_l3 : forall x cycle, l3x (connected3 x cycle) = l3x x.
Proof. reflexivity. Qed.
Lemma wbus_connect3_l3 : forall x cycle, l3x (wbus_connect3 x cycle) = l3x x.
Proof. reflexivity. Qed.

(* the Mvp60.v helpers on mach *)
Lemma add_pending6_l3 : forall m rs ws, m_l3 (add_pending6 m rs ws) = m_l3 m.
Proof. reflexivity. Qed.
Lemma del_pending6_l3 : forall m rs ws, m_l3 (del_pending6 m rs ws) = m_l3 m.
Proof. reflexivity. Qed.
Lemma do_flush6_l3 : forall m pc, m_l3 (do_flush6 m pc) = m_l3 m.
Proof. reflexivity. Qed.


Lemma rat_commit3_l3 : forall ord cycle x, l3x (rat_commit3 ord cycle x) = l3x x.
Proof. reflexivity. Qed.
Lemma rat_rollback3_l3 : forall ord cycle x s, l3x (rat_rollback3 ord cycle x s) = l3x x.
Proof. reflexivity. Qed.
Lemma fu_reset3_l3 : forall x pc, l3x (fu_reset3 x pc) = l3x x.
Proof. reflexivity. Qed.
Lemma bu_resolved3_l3 : forall x pc pcTo, l3x (bu_resolved3 x pc pcTo) = l3x x.
Proof. reflexivity. Qed.
Lemma do_flush3_l3 : forall x pc, l3x (do_flush3 x pc) = l3x x.
Proof. reflexivity. Qed.


Lemma du_loop3_l3 : forall q app cycle ret pbr cbus x ret' pbr' q' cbus' x',
  du_loop3 q app cycle ret pbr cbus x = Ok (ret', pbr', q', cbus', x') -> l3x x' = l3x x.
Proof.
  induction q as [|pc q IH]; intros app cycle ret pbr cbus x ret' pbr' q' cbus' x' H; simpl in H.
  - inversion H; reflexivity.
  - destruct (nlen6 app <=? Z.quot pc 4); [inversion H; reflexivity|].
    destruct (Z.quot pc 4 <? 0); [discriminate|].
    destruct (nth_error app (Z.to_nat (Z.quot pc 4))) as [i|]; [|discriminate].
    destruct (InstructionType_IsUnconditionalBranch (instr_InstructionType i)); [inversion H; reflexivity|].
    destruct (instr_InstructionType i =? Ret); [inversion H; reflexivity|].
    apply IH in H. exact H.
Qed.

Lemma du_cycle3_l3 : forall app cycle x x', du_cycle3 app cycle x = Ok x' -> l3x x' = l3x x.
Proof.
  intros app cycle x x' H. unfold du_cycle3 in H.
  destruct (m_dret (x_m x)); [inversion H; reflexivity|].
  destruct (m_dpbr (x_m x)); [inversion H; reflexivity|].
  destruct (du_loop3 _ _ _ _ _ _ _) as [[[[[ret pbr] q'] cbus'] x1]| |] eqn:E; simpl in H; try discriminate.
  inversion H; subst. apply du_loop3_l3 in E.
  unfold l3x in *. cbn [x_m set_m m_l3 set_cbus set_dbus set_du]. reflexivity.
Qed.


Lemma push_runner3_l3 : forall x cycle r x' r', push_runner3 x cycle r = Some (x', r') -> l3x x' = l3x x.
Proof.
  intros x cycle r x' r' H. unfold push_runner3 in H.
  destruct (negb (bb_canadd (x_ebus x))); [discriminate|]. inversion H; reflexivity.
Qed.

Lemma push_or_stop3_l3 : forall x cycle r stop p s r' x',
  push_or_stop3 x cycle r stop = (p, s, r', x') -> l3x x' = l3x x.
Proof.
  intros x cycle r stop p s r' x' H. unfold push_or_stop3, push_runner3 in H.
  destruct (negb (bb_canadd (x_ebus x))); inversion H; reflexivity.
Qed.

Lemma handle_runner3_l3 : forall ord cycle x sk pb r p s r' x',
  handle_runner3 ord cycle x sk pb r = (p, s, r', x') -> l3x x' = l3x x.
Proof.
  intros ord cycle x sk pb r p s r' x' H. unfold handle_runner3 in H.
  destruct (_ && pb); [inversion H; subst; reflexivity|].
  destruct (_ && _); [inversion H; subst; reflexivity|].
  destruct (skipped_hazard3 sk (q_instr r)); [inversion H; subst; reflexivity|].
  destruct (zlen (hazards_of x (q_instr r)) =? 0).
  - apply push_or_stop3_l3 in H. exact H.
  - destruct (should_forward3 ord cycle x r (hazards_of x (q_instr r))) as [[pr reg]|].
    + apply push_or_stop3_l3 in H. exact H.
    + destruct (should_rename3 _).
      * apply push_or_stop3_l3 in H. exact H.
      * inversion H; subst; reflexivity.
Qed.

Lemma after_push3_l3 : forall x l r, l3x (fst (after_push3 x l r)) = l3x x.
Proof. intros. unfold after_push3. simpl. destruct (InstructionType_IsConditionalBranch _); reflexivity. Qed.

Lemma cu_pending3_l3 : forall ord cycle ps kept l x st pend l' x',
  cu_pending3 ord cycle ps kept l x = (st, pend, l', x') -> l3x x' = l3x x.
Proof.
  induction ps as [|r t IH]; intros kept l x st pend l' x' H; simpl in H.
  - inversion H; subst; reflexivity.
  - destruct (handle_runner3 ord cycle x (l_skipped l) (l_pbranch l) r) as [[[p s] r1] x1] eqn:EH.
    apply handle_runner3_l3 in EH.
    destruct p.
    + destruct (after_push3 x1 l r1) as [x2 l2] eqn:EA.
      assert (HE : l3x x2 = l3x x1) by (pose proof (after_push3_l3 x1 l r1) as Q; rewrite EA in Q; exact Q).
      destruct s; [inversion H; subst; congruence | apply IH in H; congruence].
    + destruct s; [inversion H; subst; congruence | apply IH in H; congruence].
Qed.

Lemma cu_incoming3_l3 : forall ord cycle q pend l x q' pend' l' x',
  cu_incoming3 ord cycle q pend l x = (q', pend', l', x') -> l3x x' = l3x x.
Proof.
  induction q as [|r0 t IH]; intros pend l x q' pend' l' x' H; simpl in H.
  - destruct (pendingLength <=? zlen pend); inversion H; subst; reflexivity.
  - destruct (pendingLength <=? zlen pend); [inversion H; subst; reflexivity|].
    destruct (handle_runner3 ord cycle x (l_skipped l) (l_pbranch l) (r3_of r0)) as [[[p s] r1] x1] eqn:EH.
    apply handle_runner3_l3 in EH.
    destruct p.
    + destruct (after_push3 x1 l r1) as [x2 l2] eqn:EA.
      assert (HE : l3x x2 = l3x x1) by (pose proof (after_push3_l3 x1 l r1) as Q; rewrite EA in Q; exact Q).
      destruct s; [inversion H; subst; congruence | apply IH in H; congruence].
    + destruct s; [inversion H; subst; congruence | apply IH in H; congruence].
Qed.

Lemma cu_cycle3_l3 : forall ord cycle x, l3x (cu_cycle3 ord cycle x) = l3x x.
Proof.
  intros ord cycle x. unfold cu_cycle3.
  destruct (negb (bb_canadd (x_ebus x))); [reflexivity|].
  destruct (cu_pending3 ord cycle (x_pend x) [] (mk_cul [] [] false) x) as [[[st pend1] l1] x1] eqn:E1.
  apply cu_pending3_l3 in E1.
  destruct st; [exact E1|].
  destruct (cu_incoming3 ord cycle (bb_q (m_cbus (x_m x1))) pend1 l1 x1) as [[[q' pend2] l2] x2] eqn:E2.
  apply cu_incoming3_l3 in E2. rewrite <- E1, <- E2. reflexivity.
Qed.


Lemma wus_cycle3_l3 : forall wus x before x' wus', wus_cycle3 x wus before = Ok (x', wus') -> l3x x' = l3x x.
Proof.
  induction wus as [|w t IH]; intros x before x' wus' H; simpl in H.
  - inversion H; reflexivity.
  - destruct (wu_cycle3 x w before) as [[x1 w1]| |] eqn:E1; simpl in H; try discriminate.
    destruct (wus_cycle3 x1 t before) as [[x2 t']| |] eqn:E2; simpl in H; try discriminate.
    inversion H; subst. apply wu_cycle3_l3 in E1. apply IH in E2. unfold l3x in *. congruence.
Qed.


Lemma cu_cycle8_l3 : forall ord cycle y,
  l3x (y_x (cu_cycle8 ord cycle y)) = l3x (y_x y) /\ y_ccs (cu_cycle8 ord cycle y) = y_ccs y /\
  k_cmds (y_msi (cu_cycle8 ord cycle y)) = k_cmds (y_msi y) /\
  k_states (y_msi (cu_cycle8 ord cycle y)) = k_states (y_msi y) /\
  k_next (y_msi (cu_cycle8 ord cycle y)) = k_next (y_msi y).
Proof.
  intros ord cycle y. unfold cu_cycle8.
  destruct (k_stale (y_msi y)).
  - cbn [y_x y_ccs y_msi set_states k_cmds k_states k_next]. repeat split; reflexivity.
  - cbn [y_x y_ccs y_msi]. repeat split; try reflexivity. apply cu_cycle3_l3.
Qed.

Lemma front8_l3 : forall app ord cycle y y',
  front8 app ord cycle y = Ok y' ->
  l3x (y_x y') = l3x (y_x y) /\ y_ccs y' = y_ccs y /\ k_cmds (y_msi y') = k_cmds (y_msi y) /\
  k_states (y_msi y') = k_states (y_msi y) /\ k_next (y_msi y') = k_next (y_msi y).
Proof.
  intros app ord cycle y y' H. rewrite front8_eq in H.
  destruct (fu_cycle6 app cycle _ _ _) as [[[fu1 l1i1] dbus1]| |]; try discriminate H.
  destruct (du_cycle3 app cycle _) as [x1| |] eqn:ED; try discriminate H.
  injection H as H. subst y'.
  apply du_cycle3_l3 in ED.
  destruct (cu_cycle8_l3 ord cycle (set_x y x1)) as (A & B & C & D & E).
  rewrite A, B, C, D, E. cbn [y_x y_ccs y_msi set_x].
  repeat split; try reflexivity. rewrite ED. reflexivity.
Qed.

(* the same for front3 of Mvp63.v *)
Lemma front3_l3 : forall app ord cycle x x', front3 app ord cycle x = Ok x' -> l3x x' = l3x x.
Proof.
  intros app ord cycle x x' H. rewrite front3_eq in H.
  destruct (fu_cycle6 app cycle _ _ _) as [[[fu1 l1i1] dbus1]| |]; try discriminate H.
  destruct (du_cycle3 app cycle _) as [x1| |] eqn:ED; try discriminate H.
  injection H as H. subst x'. rewrite cu_cycle3_l3. apply du_cycle3_l3 in ED. rewrite ED. reflexivity.
Qed.

Lemma sn_list_ok_states : forall k k' id l, k_states k' = k_states k -> sn_list_ok k id l -> sn_list_ok k' id l.
Proof. intros k k' id l E H. eapply sn_list_ok_keys_le; [apply keys_le_same; exact E | exact H]. Qed.

Lemma my_inv_ext : forall y y', l3x (y_x y') = l3x (y_x y) -> k_cmds (y_msi y') = k_cmds (y_msi y) ->
  k_next (y_msi y') = k_next (y_msi y) -> k_states (y_msi y') = k_states (y_msi y) -> y_ccs y' = y_ccs y ->
  my_inv y -> my_inv y'.
Proof.
  intros y y' E3 EC EN ES ECC ((W3 & C) & FC & FS). unfold my_inv, mem_inv, mw_ok, mw_of in *. cbn [w_l3 w_msi] in *.
  unfold l3x in E3. rewrite E3, ECC.
  split; [split; [exact W3 | apply (cmds_ok_same (y_msi y)); assumption]|]. split; [exact FC|].
  eapply Forall_impl; [|exact FS]. intros c H. cbv beta in *. eapply sn_list_ok_states; eauto.
Qed.

Lemma my_inv_set_x : forall y x', l3x x' = l3x (y_x y) -> my_inv y -> my_inv (set_x y x').
Proof. intros y x' E H. apply (my_inv_ext y); try reflexivity; assumption. Qed.

Lemma mw_of_put : forall y w i c1, mw_of (put_cc (put_mw y w) i c1) = w.
Proof. intros y [m l k] i c1. reflexivity. Qed.

Lemma mw_of_put_mw : forall y w, mw_of (put_mw y w) = w.
Proof. intros y [m l k]. reflexivity. Qed.

(* controller i and the shared part have moved, the other controllers have not *)
Lemma mem_inv_upd : forall w w' ccs i c c1, mem_inv w ccs -> nth_error ccs i = Some c ->
  mw_ok w' -> cc_ok c1 -> keys_le (w_msi w) (w_msi w') -> c_snoop c1 = c_snoop c -> c_id c1 = c_id c ->
  mem_inv w' (set_nth6 ccs i c1).
Proof.
  intros w w' ccs i c c1 (MW & FC & FS) EN MW' CC1 K ES EI.
  split; [exact MW'|]. split; [apply Forall_set_nth6; assumption|].
  pose proof (mem_inv_keys_le_tail w w' ccs K FS) as FS'.
  apply Forall_set_nth6; [exact FS'|]. rewrite ES, EI.
  rewrite Forall_forall in FS'. apply FS'. eapply nth_error_In; eauto.
Qed.

Lemma put_mw_inv : forall y w, mw_ok w -> keys_le (y_msi y) (w_msi w) -> my_inv y -> my_inv (put_mw y w).
Proof.
  intros y w MW K (_ & FC & FS). unfold my_inv. rewrite mw_of_put_mw. split; [exact MW|]. split; [exact FC|].
  exact (mem_inv_keys_le_tail (mw_of y) w (y_ccs y) K FS).
Qed.

Lemma or_os8_inv : forall y b, my_inv y -> my_inv (or_os8 y b).
Proof. intros y b H. unfold or_os8. apply my_inv_set_x; [reflexivity | exact H]. Qed.

Lemma cu_cycle8_inv : forall ord cycle y, my_inv y -> my_inv (cu_cycle8 ord cycle y).
Proof.
  intros ord cycle y H. destruct (cu_cycle8_l3 ord cycle y) as (A & B & C & D & E).
  apply (my_inv_ext y); assumption.
Qed.

Lemma front8_inv : forall app ord cycle y y', front8 app ord cycle y = Ok y' -> my_inv y -> my_inv y'.
Proof.
  intros app ord cycle y y' H MI. destruct (front8_l3 _ _ _ _ _ H) as (A & B & C & D & E).
  apply (my_inv_ext y); assumption.
Qed.

Lemma snoops8_inv : forall ord cycle y y', snoops8 ord cycle y = Ok y' -> y_os y' = false -> my_inv y -> my_inv y'.
Proof.
  intros ord cycle y y' H HO MI. unfold snoops8 in H.
  destruct (snoops_cycle ord cycle (mw_of y) (y_ccs y)) as [os r] eqn:E.
  apply bind_ok in H as ([w1 ccs1] & -> & H). inversion H; subst. cbn [fst snd] in *.
  unfold or_os8, y_os in HO. simpl in HO. apply orb_false_iff in HO as [_ ->].
  apply snoops_cycle_inv in E; [|exact MI].
  apply or_os8_inv. unfold my_inv. cbn [y_ccs set_ccs].
  change (mw_of (set_ccs (put_mw y w1) ccs1)) with (mw_of (put_mw y w1)). rewrite mw_of_put_mw. exact E.
Qed.


Lemma inv_x : forall y x, xframe (y_x y) x -> my_inv y -> my_inv (set_x y x).
Proof. intros y x [E _]. apply my_inv_set_x. exact E. Qed.

Lemma nth_cc_ok : forall y i c, my_inv y -> nth_error (y_ccs y) i = Some c -> cc_ok c.
Proof. intros y i c (_ & FC & _) EN. rewrite Forall_forall in FC. apply FC. eapply nth_error_In; eauto. Qed.

Lemma inv_read : forall y i c addrs w c1 r, nth_error (y_ccs y) i = Some c ->
  cc_read_cycle (mw_of y) c addrs = Ok (w, c1, r) -> my_inv y -> my_inv (put_cc (put_mw y w) i c1).
Proof.
  intros y i c addrs w c1 r EN ER MI.
  destruct (cc_read_cycle_ok _ _ _ _ _ _ ER (proj1 MI) (nth_cc_ok _ _ _ MI EN)) as (MW1 & CC1 & K1 & S1).
  unfold my_inv. rewrite mw_of_put. change (y_ccs (put_cc (put_mw y w) i c1)) with (set_nth6 (y_ccs y) i c1).
  eapply mem_inv_upd; [exact MI | exact EN | exact MW1 | exact CC1 | exact K1 | exact S1 |].
  eapply cc_read_cycle_id; eauto.
Qed.

Lemma inv_write : forall y i c addrs data w c1 r, nth_error (y_ccs y) i = Some c ->
  cc_write_cycle (mw_of y) c addrs data = Ok (w, c1, r) -> my_inv y -> my_inv (put_cc (put_mw y w) i c1).
Proof.
  intros y i c addrs data w c1 r EN EW MI.
  destruct (cc_write_cycle_ok _ _ _ _ _ _ _ EW (proj1 MI) (nth_cc_ok _ _ _ MI EN)) as (MW1 & CC1 & K1 & S1).
  unfold my_inv. rewrite mw_of_put. change (y_ccs (put_cc (put_mw y w) i c1)) with (set_nth6 (y_ccs y) i c1).
  eapply mem_inv_upd; [exact MI | exact EN | exact MW1 | exact CC1 | exact K1 | exact S1 |].
  eapply cc_write_cycle_id; eauto.
Qed.

Lemma inv_flush : forall y i c k c1, nth_error (y_ccs y) i = Some c ->
  cc_flush (y_msi y) c = Ok (k, c1) -> my_inv y -> my_inv (put_cc (set_ymsi y k) i c1).
Proof.
  intros y i c k c1 EN EF MI.
  destruct (cc_flush_inv _ _ _ _ EF (proj2 (proj1 MI)) (nth_cc_ok _ _ _ MI EN)) as (C1 & K1 & CC1 & S1).
  unfold my_inv. change (mem_inv (set_wmsi (mw_of y) k) (set_nth6 (y_ccs y) i c1)).
  eapply mem_inv_upd; [exact MI | exact EN | apply mw_ok_msi; [exact (proj1 MI) | exact C1] | exact CC1 | exact K1 | exact S1 |].
  eapply cc_flush_id; eauto.
Qed.

Lemma eu_cycle8_inv : forall labels ord cycle y i e y' e' o,
  eu_cycle8 labels ord cycle y i e = Ok (y', e', o) -> my_inv y -> my_inv y'.
Proof. exact (eu_cycle8_frame my_inv inv_x inv_read inv_write inv_flush). Qed.

Lemma after_snoops8_inv : forall labels ord s y s', after_snoops8 labels ord s y = VCont s' -> my_inv y -> my_inv (v_y s').
Proof.
  intros labels ord s y s' H MI.
  pose proof (after_snoops8_frame my_inv (fun _ => True) (fun _ _ => I) inv_x inv_read inv_write inv_flush labels ord s y MI) as F.
  rewrite H in F. exact F.
Qed.

Lemma flush_advance8_inv : forall s k seq pc from empty s',
  flush_advance8 s k seq pc from empty = VCont s' -> my_inv (v_y s) -> my_inv (v_y s').
Proof.
  intros s k seq pc from empty s' H MI.
  pose proof (flush_advance8_frame my_inv (fun _ => True) (fun _ _ => I) inv_x inv_flush s k seq pc from empty MI) as F.
  rewrite H in F. exact F.
Qed.

Lemma snoops_then_inv : forall labels ord cycle s y s',
  res_of8 (y_os y) (snoops8 ord cycle y) (after_snoops8 labels ord s) = VCont s' ->
  y_os (v_y s') = false -> my_inv y -> my_inv (v_y s').
Proof.
  intros labels ord cycle s y s' H HO MI.
  apply res_of8_cont in H as (y2 & E2 & H).
  pose proof (after_snoops8_os labels ord s y2) as OS. rewrite H in OS. cbn [res_os8] in OS.
  eapply after_snoops8_inv; [exact H|]. eapply snoops8_inv; [exact E2 | congruence | exact MI].
Qed.

Theorem step8_inv : forall app labels ord s s',
  step8 app labels ord s = VCont s' -> y_os (v_y s') = false -> my_inv (v_y s) -> my_inv (v_y s').
Proof.
  intros app labels ord s s' H HO MI. rewrite step8_eq in H.
  destruct (v_mode s) as [| |seq pc from|k seq pc from empty|] eqn:EM.
  - apply res_of8_cont in H as (y1 & E1 & H). apply front8_inv in E1; [|exact MI].
    eapply snoops_then_inv; eauto.
  - eapply snoops_then_inv; eauto.
  - eapply snoops_then_inv; eauto.
  - destruct (nth_error (v_wus s) k) as [w|]; [|discriminate].
    apply res_of8_cont in H as ([x1 w1] & EW & H).
    apply flush_advance8_inv in H; [exact H|]. cbn [v_y fst].
    apply inv_x; [eapply wu_cycle8_frame; exact EW | exact MI].
  - eapply snoops_then_inv; eauto.
Qed.

Lemma snoop_arg8_inv : forall app ord s cycle y, snoop_arg8 app ord s = Some (cycle, y) -> my_inv (v_y s) -> my_inv y.
Proof.
  intros app ord s cycle y H MI. unfold snoop_arg8 in H.
  destruct (v_mode s).
  - destruct (front8 app ord (v_cycle s + 1) (v_y s)) as [y1| |] eqn:E; try discriminate.
    inversion H; subst. eapply front8_inv; eauto.
  - inversion H; subst. exact MI.
  - inversion H; subst. exact MI.
  - discriminate.
  - inversion H; subst. exact MI.
Qed.

Lemma new_cache_wf : forall n m c, new_cache n m = Ok c -> wf_cache n c.
Proof.
  intros n m c H. unfold new_cache in H. destruct (n =? 0); [discriminate|].
  destruct (negb _); [discriminate|]. inversion H; subst. split; [reflexivity | constructor].
Qed.

Lemma cmds_ok_new : cmds_ok msi_new.
Proof. unfold cmds_ok, msi_new. cbn [k_cmds map]. repeat split; try constructor; intros ? ? []. Qed.

Lemma init8_inv : forall par ord app st s, init8 par ord app st = Ok s -> my_inv (v_y s).
Proof.
  intros par ord app st s H. unfold init8 in H.
  destruct (new_cache l1LineSize l1Size) as [ci| |]; try discriminate.
  destruct (new_cache l3LineSize8 l3Size8) as [c3| |] eqn:E3; try discriminate.
  destruct (new_cache l1dLineSize l1dSize) as [cd| |] eqn:ED; try discriminate.
  cbv zeta in H. inversion H; subst. unfold my_inv, mem_inv, mw_of. cbn [v_y y_x y_msi y_ccs x_m m_mem m_l3].
  apply new_cache_wf in E3. apply new_cache_wf in ED.
  split; [split; [exact E3 | exact cmds_ok_new]|].
  split.
  - apply Forall_forall. intros c I. apply in_map_iff in I as (n & <- & _).
    split; [exact ED | split; exact I].
  - apply Forall_forall. intros c I. apply in_map_iff in I as (n & <- & _).
    cbn [c_snoop]. split; constructor.
Qed.

Print Assumptions cc_read_cycle_ok.
Print Assumptions cc_write_cycle_ok.
Print Assumptions cc_flush_inv.
Print Assumptions sn_run_inv.
Print Assumptions cc_snoop_cycle_inv.
Print Assumptions cc_snoop_cycle_inv_weak.
Print Assumptions snoops_cycle_inv.
Print Assumptions step8_inv.
Print Assumptions snoop_arg8_inv.
Print Assumptions init8_inv.
