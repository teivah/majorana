(* MVP-4 on programs WITH loads and stores, under the hypothesis that every store
   hits in the L1D (its line was loaded before and is still resident): the pipeline
   computes the sequential registers and memory, in a number of cycles that is a
   function of the program and of the events (pc, loaded addresses, stored
   addresses) of the sequential run.  Termination and the bounds come from the
   skeleton of Mvp4mSkel.v (Mvp4mFront.v); that the model follows it, from the
   simulation of the skeleton with store misses (Mvp4sSim.v), of which this one is
   the special case sks_of (Mvp4sFront.v).  See Mvp4Proofs.v for register-only
   programs and for the refutation of the statement without the hypothesis
   (mvp4_cold_store_then_load_refuted). *)
From Coq Require Import ZArith List Bool Lia.
From Maj Require Import Base.Outcome Base.GoInt Base.GoTypes Isa.Spec Isa.Embed Isa.Seq Isa.Refine.
From Maj Require Import Gen.Latency Gen.RiscTables Gen.Opcodes Comp.Cache Comp.CacheSpec Comp.CacheProofs.
From Maj Require Import Mvp.Mvp12 Mvp.Mvp12Proofs Mvp.Mvp3 Mvp.Mvp3Proofs Mvp.Mvp4 Mvp.Mvp4Skel Mvp.Mvp4Inv Mvp.Mvp4Units
     Mvp.Mvp4Front Mvp.Mvp4Sim Mvp.Mvp4Proofs Mvp.Mvp4mSkel Mvp.Mvp4mInv Mvp.Mvp4mFront Mvp.Mvp4mSim
     Mvp.Mvp4sSkel Mvp.Mvp4sFront Mvp.Mvp4sSim.
Import ListNotations.
Open Scope Z_scope.

Definition evs_below (evs : list event) : bool := forallb (fun ev => ev_pc ev <? 2147483644) evs.

Lemma skm_run_more app : forall fuel k a path cyc c,
  skm_run fuel app a path cyc = Some c -> skm_run (fuel + k) app a path cyc = Some c.
Proof. intros fuel k a path cyc c. rewrite !skm_run_erun. apply erun_more. Qed.

(* the fuel for n instructions: pmax + 1 iterations for each, and the potential *)
Lemma fuel_enough phi pmax (r n : nat) : 0 <= phi <= pmax -> (r <= n)%nat ->
  (Z.to_nat phi + r * S (Z.to_nat pmax) < (n + 1) * S (Z.to_nat pmax))%nat.
Proof.
  intros Hp Hr. assert ((r * S (Z.to_nat pmax) <= n * S (Z.to_nat pmax))%nat) by (apply Nat.mul_le_mono_r; exact Hr). lia.
Qed.

(* two runs whose cycle counts are given by the same cost function take the same
   number of cycles, from the larger of the two fuel bounds on *)
Lemma same_cost_same_cycles (run1 run2 : nat -> mres) (cost : nat -> option Z) (K n1 n2 : nat) c1 c2 s1 s2 :
  (forall fuel', ((n1 + 1) * K <= fuel')%nat -> run1 fuel' = MDone c1 s1 /\ cost fuel' = Some c1) ->
  (forall fuel', ((n2 + 1) * K <= fuel')%nat -> run2 fuel' = MDone c2 s2 /\ cost fuel' = Some c2) ->
  forall fuel', ((Nat.max n1 n2 + 1) * K <= fuel')%nat -> run1 fuel' = MDone c1 s1 /\ run2 fuel' = MDone c1 s2.
Proof.
  intros H1 H2 fuel' Hf.
  assert (Hm : ((n1 + 1) * K <= (Nat.max n1 n2 + 1) * K /\ (n2 + 1) * K <= (Nat.max n1 n2 + 1) * K)%nat)
    by (split; apply Nat.mul_le_mono_r; lia).
  destruct (H1 fuel' ltac:(lia)) as [R1 K1]. destruct (H2 fuel' ltac:(lia)) as [R2 K2].
  rewrite K1 in K2. injection K2 as <-. auto.
Qed.

(* the events, the check of the accesses and the outcome of a sequential run in one
   pass over the run: for the examples, which evaluate all three *)
Fixpoint seq_all (fuel : nat) (p : list sinstr) (labels : Z -> option Z) (st : arch) (pc : Z) (tr : list Z)
  : list event * bool * run_result :=
  match fuel with
  | O => ([], true, OutOfFuel)
  | S f =>
      let oi := nth_error p (Z.to_nat (pc / 4)) in
      let ev := (pc, match oi with Some i => load_addrs i (rget (regs st)) | None => [] end,
                     match oi with Some i => store_addrs i (rget (regs st)) | None => [] end) in
      let ok := match oi with
                | Some i => same_line (load_addrs i (rget (regs st))) && same_line (store_addrs i (rget (regs st)))
                | None => true
                end in
      match Seq.step p labels st pc with
      | Next st' pc' => let '(evs, b, r) := seq_all f p labels st' pc' (pc :: tr) in (ev :: evs, ok && b, r)
      | Halt st' => ([ev], ok, match fetch p pc with Some _ => Done st' (pc :: tr) | None => Done st' tr end)
      | Fail e => ([ev], ok, Failed e (pc :: tr))
      end
  end.

Lemma seq_all_spec p labels : forall fuel st pc tr,
  seq_all fuel p labels st pc tr =
  (seq_evs fuel p labels st pc, accesses_okb fuel p labels st pc, Seq.run fuel p labels st pc tr).
Proof.
  induction fuel as [|f IH]; intros st pc tr; [reflexivity|]. cbn [seq_all seq_evs accesses_okb Seq.run].
  destruct (Seq.step p labels st pc) as [st' pc'|st'|e]; [rewrite IH; reflexivity | |]; rewrite andb_true_r; reflexivity.
Qed.

Section Top4m.
  Variables (app : list instr) (labels : Z -> option Z).
  Hypothesis Happ : wf_app app.
  Hypothesis Hlab : wf_labels labels.
  Let sp := map sinstr_of app.

  Lemma in_text_count pc : 0 <= pc ->
    (if pc / 4 <? nlen app then 1%nat else 0%nat) =
    (match nth_error sp (Z.to_nat (pc / 4)) with Some _ => 1%nat | None => 0%nat end).
  Proof.
    intros Hpc. pose proof (Z.div_pos pc 4 Hpc ltac:(lia)).
    destruct (Z.ltb_spec (pc / 4) (nlen app)) as [Hlt|Hge]; unfold nlen in *.
    - destruct (nth_error sp (Z.to_nat (pc / 4))) eqn:E; [reflexivity|].
      apply nth_error_None in E. unfold sp in E. rewrite map_length in E. lia.
    - destruct (nth_error sp (Z.to_nat (pc / 4))) eqn:E; [|reflexivity].
      assert ((Z.to_nat (pc / 4) < length sp)%nat) by (apply nth_error_Some; congruence).
      unfold sp in *. rewrite map_length in *. lia.
  Qed.

  Lemma run_sexecm : forall fuel st pc tr st' tr',
    Seq.run fuel sp labels st pc tr = Done st' tr' -> accesses_ok fuel sp labels st pc ->
    exists rest, seq_evs fuel sp labels st pc = ev_of app st pc :: rest /\
      sexecm app labels st (ev_of app st pc :: rest) st' /\
      (length tr + length rest <= length tr')%nat /\
      length tr' = (length tr + exec_count app (ev_of app st pc :: rest))%nat.
  Proof.
    induction fuel as [|f IH]; intros st pc tr st' tr' H Hacc; [discriminate|].
    cbn [Seq.run seq_evs accesses_ok] in *. destruct Hacc as [Hsl Hacc].
    assert (Hpc : 0 <= pc).
    { unfold Seq.step in H. destruct (Z.ltb_spec pc 0); [discriminate | assumption]. }
    assert (Hsl' : same_line (ev_la (ev_of app st pc)) = true /\ same_line (ev_sa (ev_of app st pc)) = true).
    { unfold ev_of, ev_la, ev_sa. cbn [fst snd]. fold sp. destruct (nth_error sp (Z.to_nat (pc / 4))); [exact Hsl | split; reflexivity]. }
    assert (Hcnt : forall rest, exec_count app (ev_of app st pc :: rest) =
              Nat.add (match nth_error sp (Z.to_nat (pc / 4)) with Some _ => 1%nat | None => 0%nat end) (exec_count app rest)).
    { intros rest. rewrite (exec_count_cons app). cbn [ev_pc ev_of fst]. rewrite (in_text_count pc Hpc). reflexivity. }
    destruct (Seq.step sp labels st pc) as [st1 pc1|st1|e] eqn:Es; [| |discriminate].
    - destruct (IH _ _ _ _ _ H Hacc) as (rest & Hp & Hs & Hl & Hc). rewrite Hp.
      exists (ev_of app st1 pc1 :: rest). split; [reflexivity|].
      split; [eapply SM_next; [exact Es | apply Hsl' | apply Hsl' | exact Hs]|].
      assert (Hin : nth_error sp (Z.to_nat (pc / 4)) <> None).
      { unfold Seq.step in Es. destruct (pc <? 0); [discriminate|]. destruct (nth_error sp (Z.to_nat (pc / 4))); [discriminate | discriminate]. }
      rewrite Hcnt. destruct (nth_error sp (Z.to_nat (pc / 4))); [|congruence]. cbn [length] in *. lia.
    - unfold fetch in H. destruct (Z.ltb_spec pc 0); [lia|].
      exists []. split; [reflexivity|]. rewrite Hcnt.
      destruct (nth_error sp (Z.to_nat (pc / 4))); injection H as <- <-;
        (split; [apply SM_halt; exact Es|]); unfold exec_count; cbn [filter length]; lia.
  Qed.

  Lemma step_class_m st pc : 0 <= pc ->
    match Seq.step sp labels st pc with
    | Halt _ => match nth_error app (Z.to_nat (pc / 4)) with Some i => is_ret i = true | None => True end
    | Next _ pc' => exists i, nth_error app (Z.to_nat (pc / 4)) = Some i /\ is_ret i = false /\
                              (ev_sa (ev_of app st pc) <> [] -> pc' = pc + 4)
    | Fail _ => True
    end.
  Proof.
    intros Hpc. unfold sp. destruct (nth_error app (Z.to_nat (pc / 4))) as [i|] eqn:Hi.
    - rewrite (step_at app labels st pc i Hpc Hi). cbv zeta.
      rewrite (ev_of_at app st pc i Hi). cbn [ev_sa snd].
      destruct (negb _); [exact I|].
      destruct (exec (sinstr_of i) (rget (regs st)) labels pc _) as [e|err|] eqn:Ee; try exact I.
      pose proof (exec_return_is_ret _ _ _ _ _ _ Ee) as Hret.
      pose proof (store_addrs_effect _ _ _ _ _ _ Ee) as Hse.
      assert (Hnr : e <> EReturn -> is_ret i = false).
      { intros Hne. destruct (is_ret i); [|reflexivity]. exfalso. apply Hne, Hret. reflexivity. }
      destruct e; try (exists i; split; [reflexivity|]; split; [apply Hnr; discriminate|]; intros Hs; congruence).
      + destruct (negb _); [exact I|]. exists i. split; [reflexivity|]. split; [apply Hnr; discriminate | reflexivity].
      + apply Hret. reflexivity.
    - assert (Hout : nlen app <= pc / 4).
      { apply nth_error_None in Hi. unfold nlen. pose proof (Z.div_pos pc 4 Hpc ltac:(lia)). lia. }
      rewrite (step_out app labels st pc Hpc Hout). exact I.
  Qed.

  Lemma sexecm_evs_wf st path stf : sexecm app labels st path stf -> evs_below path = true -> evs_wf app path.
  Proof.
    induction 1 as [st pc st' Hs | st pc st' pc' rest stf Hs Hsl1 Hsl2 HS IH]; intros Hb;
      cbn [evs_below forallb] in Hb; apply andb_prop in Hb as [Hb1 Hb2]; apply Z.ltb_lt in Hb1; cbn [ev_pc ev_of fst] in Hb1.
    - assert (Hpc : 0 <= pc) by (unfold Seq.step in Hs; destruct (Z.ltb_spec pc 0); [discriminate | assumption]).
      pose proof (step_class_m st pc Hpc) as Hc. unfold sp in Hc. rewrite Hs in Hc.
      cbn [evs_wf ev_pc ev_of fst]. split; [lia | exact Hc].
    - assert (Hpc : 0 <= pc) by (unfold Seq.step in Hs; destruct (Z.ltb_spec pc 0); [discriminate | assumption]).
      pose proof (step_class_m st pc Hpc) as Hc. unfold sp in Hc. rewrite Hs in Hc.
      destruct Hc as (i & Hi & Hr & Hst).
      cbn [evs_wf]. cbn [ev_pc ev_of fst]. split; [lia|]. split; [eauto|]. split; [exact Hst|].
      apply IH. exact Hb2.
  Qed.

  Lemma init_finvm c0 hev : IInv c0 -> 0 <= ev_pc hev < 2147483644 -> ev_pc hev = 0 -> FInvM app hev (skm_init c0).
  Proof.
    intros HI Hh H0. constructor; cbn [skm_init m_fu m_l1i m_dbus m_ebus m_eu m_pw m_wb m_dt fu_processing eu_processing eu_pending_read eu_memory];
      auto; try discriminate; try lia.
    - exists O. rewrite H0. constructor; cbn [fu_complete fu_pc]; try discriminate; try lia; reflexivity.
    - constructor.
  Qed.

  (* without the termination argument: whenever the cost function is defined, the model
     agrees with it and with the sequential machine (any fuel') *)
  Theorem mvp4_storehit_sim fuel st st' tr fuel' c :
    inv (regs st) (mem st) -> (length (regs st) <= 32)%nat -> mem_small st ->
    accesses_ok fuel sp labels st 0 ->
    seq_run fuel sp labels st = Done st' tr ->
    evs_below (seq_evs fuel sp labels st 0) = true ->
    stores_hit [] (seq_evs fuel sp labels st 0) = true ->
    mvp4_cost_mem fuel' app (seq_evs fuel sp labels st 0) = Some c ->
    mvp4_run fuel' app labels st = MDone c st'.
  Proof.
    intros [Hri Hm8] Hlen Hsm Hacc Hrun Hb Hsh Hc. unfold seq_run in Hrun.
    destruct (run_sexecm fuel st 0 [] st' tr Hrun Hacc) as (rest & Hp & HS & _). rewrite Hp in *.
    exact (sim_cost_s app labels Happ Hlab st rest st' fuel' c Hri Hm8 Hlen Hsm HS (sexecm_evs_wf _ _ _ HS Hb)
                      (stores_hit_no_stale _ _ Hsh) (cost_mem_sm _ _ _ _ Hc)).
  Qed.

  Definition fuel_bound_m (n : nat) : nat := ((n + 1) * Kstepm)%nat.

  Theorem mvp4_run_events fuel st st' tr :
    inv (regs st) (mem st) -> (length (regs st) <= 32)%nat -> mem_small st ->
    accesses_ok fuel sp labels st 0 ->
    seq_run fuel sp labels st = Done st' tr ->
    evs_below (seq_evs fuel sp labels st 0) = true ->
    stores_hit [] (seq_evs fuel sp labels st 0) = true ->
    exists c, (forall fuel', (fuel_bound_m (length tr) <= fuel')%nat ->
                 mvp4_run fuel' app labels st = MDone c st' /\
                 mvp4_cost_mem fuel' app (seq_evs fuel sp labels st 0) = Some c) /\
              Z.of_nat (length tr) <= c <= 2 * Z.of_nat (fuel_bound_m (length tr)) + MemoryAccess * 16.
  Proof.
    intros Hinv Hlen Hsm Hacc Hrun Hb Hsh. pose proof Hrun as Hrun0. unfold seq_run in Hrun.
    destruct (run_sexecm fuel st 0 [] st' tr Hrun Hacc) as (rest & Hp & HS & Hl & Hcnt).
    assert (Hwf : evs_wf app (ev_of app st 0 :: rest)) by (rewrite Hp in Hb; exact (sexecm_evs_wf _ _ _ HS Hb)).
    destruct init_caches as (c0 & E0 & HI0 & HD0 & Hl0).
    assert (Hh0 : 0 <= ev_pc (ev_of app st 0) < 2147483644) by (cbn; lia).
    pose proof (init_finvm c0 (ev_of app st 0) HI0 Hh0 eq_refl) as HF0.
    assert (Hsh0 : sh_inv (skm_init c0) (ev_of app st 0 :: rest)).
    { cbn [sh_inv]. unfold dt_after_load. cbn [skm_init m_eu m_dt eu_pending_read].
      rewrite Hp in Hsh. cbn [stores_hit] in Hsh. apply andb_prop in Hsh. exact Hsh. }
    cbn [length] in Hl, Hcnt.
    set (m := (Z.to_nat (phim (skm_init c0)) + length rest * Kstepm)%nat).
    assert (Hm : (m < fuel_bound_m (length tr))%nat) by (apply fuel_enough; [exact (phim_bounds app _ _ HF0) | lia]).
    destruct (skm_run_term app Happ m rest (skm_init c0) _ 0 (fuel_bound_m (length tr)) HF0 Hwf Hsh0 ltac:(lia) Hm) as (c & Hc & Hcb).
    exists c. split; [|lia].
    intros fuel' Hf'. replace fuel' with (fuel_bound_m (length tr) + (fuel' - fuel_bound_m (length tr)))%nat by lia.
    pose proof (skm_run_more app _ (fuel' - fuel_bound_m (length tr)) _ _ _ _ Hc) as Hc'.
    assert (Hcost : mvp4_cost_mem (fuel_bound_m (length tr) + (fuel' - fuel_bound_m (length tr))) app (seq_evs fuel sp labels st 0) = Some c)
      by (unfold mvp4_cost_mem; rewrite E0, Hp; exact Hc').
    split; [|exact Hcost].
    exact (mvp4_storehit_sim fuel st st' tr _ c Hinv Hlen Hsm Hacc Hrun0 Hb Hsh Hcost).
  Qed.

  (* C05 (MVP-4): loads and stores, every store hits in the L1D *)
  Theorem mvp4_refines_seq_storehit fuel st st' tr :
    inv (regs st) (mem st) -> (length (regs st) <= 32)%nat -> mem_small st ->
    accesses_ok fuel sp labels st 0 ->
    seq_run fuel sp labels st = Done st' tr ->
    evs_below (seq_evs fuel sp labels st 0) = true ->
    stores_hit [] (seq_evs fuel sp labels st 0) = true ->
    exists c, (forall fuel', (fuel_bound_m (length tr) <= fuel')%nat -> mvp4_run fuel' app labels st = MDone c st') /\
              Z.of_nat (length tr) <= c <= 2 * Z.of_nat (fuel_bound_m (length tr)) + MemoryAccess * 16.
  Proof.
    intros Hinv Hlen Hsm Hacc Hrun Hb Hsh.
    destruct (mvp4_run_events fuel st st' tr Hinv Hlen Hsm Hacc Hrun Hb Hsh) as (c & Hc & Hlb).
    exists c. split; [|exact Hlb]. intros fuel' Hf. apply Hc. exact Hf.
  Qed.

  (* C07 (MVP-4): no panic, no error, no divergence *)
  Corollary mvp4_no_panic_mem fuel st st' tr fuel' :
    inv (regs st) (mem st) -> (length (regs st) <= 32)%nat -> mem_small st ->
    accesses_ok fuel sp labels st 0 ->
    seq_run fuel sp labels st = Done st' tr ->
    evs_below (seq_evs fuel sp labels st 0) = true ->
    stores_hit [] (seq_evs fuel sp labels st 0) = true ->
    (fuel_bound_m (length tr) <= fuel')%nat ->
    mvp4_run fuel' app labels st <> MPanic /\ mvp4_run fuel' app labels st <> MOutOfFuel /\
    (forall e, mvp4_run fuel' app labels st <> MErr e).
  Proof.
    intros Hinv Hlen Hsm Hacc Hrun Hb Hsh Hf.
    destruct (mvp4_refines_seq_storehit fuel st st' tr Hinv Hlen Hsm Hacc Hrun Hb Hsh) as (c & Hc & _).
    rewrite (Hc fuel' Hf). repeat split; try discriminate.
  Qed.

  (* C12 (MVP-4): same events, same cycle count *)
  Theorem mvp4_value_independent_mem fuel st1 st2 st1' st2' tr1 tr2 :
    inv (regs st1) (mem st1) -> (length (regs st1) <= 32)%nat -> mem_small st1 -> accesses_ok fuel sp labels st1 0 ->
    inv (regs st2) (mem st2) -> (length (regs st2) <= 32)%nat -> mem_small st2 -> accesses_ok fuel sp labels st2 0 ->
    seq_run fuel sp labels st1 = Done st1' tr1 ->
    seq_run fuel sp labels st2 = Done st2' tr2 ->
    seq_evs fuel sp labels st1 0 = seq_evs fuel sp labels st2 0 ->
    evs_below (seq_evs fuel sp labels st1 0) = true ->
    stores_hit [] (seq_evs fuel sp labels st1 0) = true ->
    exists c, forall fuel', (fuel_bound_m (Nat.max (length tr1) (length tr2)) <= fuel')%nat ->
      mvp4_run fuel' app labels st1 = MDone c st1' /\ mvp4_run fuel' app labels st2 = MDone c st2'.
  Proof.
    intros I1 L1 S1 A1 I2 L2 S2 A2 R1 R2 Hp Hb Hsh.
    destruct (mvp4_run_events fuel st1 st1' tr1 I1 L1 S1 A1 R1 Hb Hsh) as (c1 & Hc1 & _).
    rewrite Hp in Hb, Hsh. destruct (mvp4_run_events fuel st2 st2' tr2 I2 L2 S2 A2 R2 Hb Hsh) as (c2 & Hc2 & _).
    exists c1. rewrite Hp in Hc1.
    exact (same_cost_same_cycles (fun f => mvp4_run f app labels st1) (fun f => mvp4_run f app labels st2)
             (fun f => mvp4_cost_mem f app (seq_evs fuel sp labels st2 0)) Kstepm _ _ c1 c2 _ _ Hc1 Hc2).
  Qed.
End Top4m.

Lemma fuel_bound_m_value n : fuel_bound_m n = ((n + 1) * 1035)%nat.
Proof. reflexivity. Qed.
