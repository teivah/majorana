(* What the simulation of the MVP-5 model with an L1D (Mvp5sSim.v) needs about the
   model's execute unit: eu5_cycle against the value-free execute unit skm_eu of the
   skeletons, executeUnit.run, and one iteration of the Run loop split after the
   execute unit; and that the events of a sequential run satisfy stores_plain.  The
   cache lemmas, the sequential runs as event lists (sexecm) and exec_cases_m are
   those of Mvp4mSim.v. *)
From Coq Require Import ZArith List Bool Lia.
From Maj Require Import Base.Outcome Base.GoInt Base.GoTypes Isa.Spec Isa.Embed Isa.Seq Isa.Refine.
From Maj Require Import Gen.Latency Gen.RiscTables Gen.Opcodes Comp.Cache Comp.CacheSpec Comp.CacheProofs.
From Maj Require Import Mvp.Mvp12 Mvp.Mvp12Proofs Mvp.Mvp3 Mvp.Mvp3Proofs Mvp.Mvp4 Mvp.Mvp5
     Mvp.Mvp4Skel Mvp.Mvp4Inv Mvp.Mvp4Units Mvp.Mvp4Front Mvp.Mvp4Sim Mvp.Mvp4mSkel Mvp.Mvp4mInv Mvp.Mvp4mFront Mvp.Mvp4mSim
     Mvp.Mvp5Skel Mvp.Mvp5Inv Mvp.Mvp5Front Mvp.Mvp5Sim Mvp.Mvp5mSkel Mvp.Mvp5mFront.
Import ListNotations.
Open Scope Z_scope.

Ltac simpv := cbn [v_regs v_mem v_pw v_l1d v_eu v_wbus v_bu v_fu v_du] in *.

Lemma eu5_cycle_m_pending labels regs mem pw l1d ce wbus bu fu du ebus dt la e1 ebus2 dt1 act :
  eu_pending_read ce = true ->
  skm_eu (eu_erase ce) ebus pw dt la = (e1, ebus2, dt1, act) ->
  match act with
  | ANone =>
      eu5_cycle labels (mk_env5 regs mem pw l1d ce wbus bu fu du) ebus
      = inl (Ok (mk_env5 regs mem pw l1d (wait_eu ce) wbus bu fu du, ebus, eu_none)) /\
      e1 = eu_erase (wait_eu ce) /\ dt1 = dt /\ ebus2 = ebus
  | AExec i pc =>
      ebus2 = ebus /\
      e1 = eu_done (mk_eu (eu_processing ce) false (eu_addrs ce) None (eu_remaining ce - 1) (eu_runner ce)) /\
      eu5_cycle labels (mk_env5 regs mem pw l1d ce wbus bu fu du) ebus
      = match load_got l1d mem ce with
        | Ok (d', mem', bytes) =>
            eu5_post (eu5_run labels (mk_env5 regs mem' pw d'
                                             (mk_eu (eu_processing ce) false (eu_addrs ce) None (eu_remaining ce - 1) (eu_runner ce))
                                             wbus bu fu du) i pc bytes) ebus
        | Err er => inl (Err er)
        | Panic => inl Panic
        end
  | AStuck => True
  end.
Proof.
  intros Hpr. unfold skm_eu, eu5_cycle, load_got, set_rem, wait_eu, set_eu.
  cbn [eu_erase eu_pending_read eu_remaining eu_runner eu_memory eu_addrs eu_processing v_regs v_mem v_pw v_l1d v_eu v_wbus v_bu v_fu v_du].
  rewrite Hpr.
  destruct (negb (eu_remaining ce - 1 =? 0)).
  - intros H. injection H as <- <- <- <-. repeat split; reflexivity.
  - destruct (eu_runner ce) as [[i pc]|] eqn:Er.
    + intros H. injection H as <- <- <- <-. split; [reflexivity|]. split; [reflexivity|].
      destruct (eu_memory ce) as [m|]; [reflexivity|].
      destruct (eu_addrs ce) as [|a0 t]; reflexivity.
    + intros H. injection H as <- <- <- <-. exact I.
Qed.

(* the execute unit with no load in flight: count down, stall, issue a load, or execute *)
Lemma eu5_cycle_m_idle labels regs mem pw l1d ce wbus tc ex btb fu du ebus dt la d1 bytes e1 ebus2 dt1 act :
  eu_pending_read ce = false -> eu_memory ce = None -> sbus_can_add wbus = true ->
  (forall i pc, hd_error (q_eu ce ++ q_sb ebus) = Some (i, pc) ->
                pw_hazard pw (instr_ReadRegisters i) = false -> instr_MemoryRead i (rget regs) 0 = la) ->
  (la <> [] -> get_all l1d la [] = Ok (d1, if snd (a_get_all dt la) then Some bytes else None)) ->
  skm_eu ce ebus pw dt la = (e1, ebus2, dt1, act) ->
  match act with
  | ANone =>
      exists tc' ex' ce1 l1d',
        eu5_cycle labels (mk_env5 regs mem pw l1d ce wbus (mk_bu5 tc ex btb) fu du) ebus
        = inl (Ok (mk_env5 regs mem pw l1d' ce1 wbus (mk_bu5 tc' ex' btb) (sk5_assert fu btb (issue_m ce ebus)) du, ebus2, eu_none)) /\
        eu_erase ce1 = e1 /\
        ((l1d' = l1d /\ dt1 = dt /\ eu_pending_read ce1 = false /\ eu_memory ce1 = eu_memory ce) \/
         (la <> [] /\ l1d' = d1 /\ dt1 = fst (a_get_all dt la) /\ eu_pending_read ce1 = true /\
          eu_memory ce1 = (if snd (a_get_all dt la) then Some bytes else eu_memory ce)))
  | AExec i pc =>
      la = [] /\ dt1 = dt /\
      exists e2, e1 = eu_done e2 /\ pw_hazard pw (instr_ReadRegisters i) = false /\
        hd_error (q_eu ce ++ q_sb ebus) = Some (i, pc) /\ issue_m ce ebus = Some (i, pc) /\
        eu5_cycle labels (mk_env5 regs mem pw l1d ce wbus (mk_bu5 tc ex btb) fu du) ebus
        = eu5_post (eu5_run labels (bu5_assert (mk_env5 regs mem pw l1d e2 wbus (mk_bu5 tc ex btb) fu du) i pc) i pc []) ebus2
  | AStuck => True
  end.
Proof.
  intros Hpr Hm Hadd Hmr Hga. unfold skm_eu, eu5_cycle, issue_m, eu_issue, eu_intake, set_rem, eu_erase, set_eu.
  cbn [v_regs v_mem v_pw v_l1d v_eu v_wbus v_bu v_fu v_du].
  rewrite Hpr, Hadd, Hm. unfold q_eu in Hmr.
  destruct (eu_processing ce) eqn:Ep.
  - cbn [negb]. destruct (negb (eu_remaining ce - 1 =? 0)).
    + intros H. injection H as <- <- <- <-. do 4 eexists. split; [reflexivity|].
      split; [cbn; rewrite ?Hpr, ?Hm; reflexivity|]. left. auto.
    + destruct (eu_runner ce) as [[i pc]|] eqn:Er; [|intros H; injection H as <- <- <- <-; exact I].
      destruct (pw_hazard pw (instr_ReadRegisters i)) eqn:Ehz.
      * intros H. injection H as <- <- <- <-. rewrite bu5_assert_eq. simpv.
        do 4 eexists. split; [reflexivity|].
        split; [cbn; rewrite ?Hpr, ?Hm; reflexivity|]. left. auto.
      * rewrite (Hmr i pc eq_refl Ehz).
        destruct la as [|a0 la'].
        -- intros H. injection H as <- <- <- <-. split; [reflexivity|]. split; [reflexivity|].
           eexists. split; [reflexivity|]. split; [exact Ehz|]. split; [unfold q_eu; rewrite ?Ep, ?Er; reflexivity|].
           split; reflexivity.
        -- rewrite bu5_assert_eq. simpv. rewrite (Hga ltac:(discriminate)).
           destruct (snd (a_get_all dt (a0 :: la'))); intros H; injection H as <- <- <- <-;
             do 4 eexists; (split; [reflexivity|]); (split; [cbn; rewrite ?Hpr, ?Hm; reflexivity|]);
             right; (split; [discriminate|]); auto.
  - destruct ebus as [ep ec]. unfold sbus_get. cbn [sb_current sb_pending q_sb] in *.
    destruct ec as [[i pc]|].
    + cbn [negb eu_remaining eu_runner eu_processing eu_pending_read eu_addrs eu_memory].
      fold (cyc_of i).
      destruct (negb (cyc_of i - 1 =? 0)).
      * intros H. injection H as <- <- <- <-. do 4 eexists. split; [reflexivity|].
        split; [cbn; rewrite ?Hpr, ?Hm; reflexivity|]. left. auto.
      * destruct (pw_hazard pw (instr_ReadRegisters i)) eqn:Ehz.
        -- intros H. injection H as <- <- <- <-. rewrite bu5_assert_eq. simpv.
           do 4 eexists. split; [reflexivity|].
           split; [cbn; rewrite ?Hpr, ?Hm; reflexivity|]. left. auto.
        -- rewrite (Hmr i pc eq_refl Ehz).
           destruct la as [|a0 la'].
           ++ intros H. injection H as <- <- <- <-. split; [reflexivity|]. split; [reflexivity|].
              eexists. split; [reflexivity|]. split; [exact Ehz|]. split; [unfold q_eu; rewrite ?Ep; reflexivity|].
              split; reflexivity.
           ++ rewrite bu5_assert_eq. simpv. rewrite (Hga ltac:(discriminate)).
              destruct (snd (a_get_all dt (a0 :: la'))); intros H; injection H as <- <- <- <-;
                do 4 eexists; (split; [reflexivity|]); (split; [cbn; rewrite ?Hpr, ?Hm; reflexivity|]);
                right; (split; [discriminate|]); auto.
    + cbn [negb]. intros H. injection H as <- <- <- <-. do 4 eexists. split; [reflexivity|].
      split; [destruct ce; cbn in *; subst; reflexivity|]. left. auto.
Qed.

Lemma eu5_run_reg_b labels regs mem pw l1d e2 wbus tc ex btb fu du i pc bytes exe :
  instr_Run i (rget regs) labels pc bytes 0 = Ok exe -> Return exe = false -> MemoryChange exe = false ->
  exists tc',
  eu5_run labels (mk_env5 regs mem pw l1d e2 wbus (mk_bu5 tc ex btb) fu du) i pc bytes =
    inl (Ok (mk_env5 regs mem (pw_add pw (instr_WriteRegisters i)) l1d
                     (mk_eu false (eu_pending_read e2) (eu_addrs e2) (eu_memory e2) (eu_remaining e2) (eu_runner e2))
                     (sbus_add wbus (exe, instr_WriteRegisters i))
                     (mk_bu5 tc' ex (if uncond i then btb_add btb pc (NextPc exe) else btb))
                     (if uncond i then fu5_reset fu (NextPc exe) else fu)
                     (if uncond i then false else du),
             if fl5 tc ex exe then mk_euo true (NextPc exe) false else eu_none)).
Proof.
  intros H Hr Hm. unfold eu5_run, fl5, uncond.
  cbn [v_regs v_mem v_pw v_l1d v_eu v_wbus v_bu v_fu v_du]. rewrite H, Hr, Hm. cbn [bind].
  destruct (InstructionType_IsUnconditionalBranch (instr_InstructionType i));
    destruct (PcChange exe); unfold bu5_should_flush; cbn [b5_to_check b5_expectation b5_btb andb];
    destruct tc; cbn [negb andb]; eexists; reflexivity.
Qed.

Lemma eu5_run_store_hit labels regs mem pw l1d e2 wbus bu fu du i pc bs d2 vs a0 v0 t d3 :
  instr_Run i (rget regs) labels pc [] 0 = Ok (embed (EStore bs)) ->
  get_all l1d (map fst bs) [] = Ok (d2, Some vs) ->
  sort_changes bs = (a0, v0) :: t ->
  write d2 a0 (map snd ((a0, v0) :: t)) = Ok d3 ->
  eu5_run labels (mk_env5 regs mem pw l1d e2 wbus bu fu du) i pc [] =
    inl (Ok (mk_env5 regs mem pw d3
                     (mk_eu false (eu_pending_read e2) (eu_addrs e2) (eu_memory e2) (eu_remaining e2) (eu_runner e2))
                     wbus bu fu du, eu_none)).
Proof.
  intros H Hg Hs Hw. unfold eu5_run. cbn [v_regs v_mem v_pw v_l1d v_eu v_wbus v_bu v_fu v_du]. rewrite H.
  cbn [embed Return MemoryChange MemoryChanges]. rewrite Hg. cbn [bind]. rewrite Hs, Hw. reflexivity.
Qed.

Definition m5_tail (f : nat) (app : list instr) (labels : Z -> option Z) (wu : wu_t) (l1i1 : cache)
           (dbus2 : sbus Z) (cycle : Z)
           (r : outcome (eu5_env * sbus (instr * Z) * eu_out) + err_class) : mres :=
  match r with
  | inr e => MErr e
  | inl (Ok (env1, ebus2, o)) =>
      match wu_cycle (v_regs env1) (v_mem env1) (v_pw env1) wu (v_wbus env1) with
      | Ok (regs2, mem2, pw2, wu2, wbus2) =>
          let s2 := mk_m5 regs2 mem2 pw2 l1i1 (v_l1d env1) (v_fu env1) (v_du env1) dbus2 ebus2 (v_eu env1) wbus2 wu2 (v_bu env1) in
          if eo_ret o then
            match m4_drain (S (S (Z.to_nat MemoryAccess * 4)%nat)) regs2 mem2 pw2 wu2 wbus2 cycle false with
            | Ok (regs3, mem3, pw3, wu3, wbus3, cycle3) =>
                m5_finish (mk_m5 regs3 mem3 pw3 l1i1 (v_l1d env1) (v_fu env1) (v_du env1) dbus2 ebus2 (v_eu env1) wbus3 wu3 (v_bu env1)) cycle3
            | _ => MPanic
            end
          else if eo_flush o then
            match m4_drain (S (S (Z.to_nat MemoryAccess * 4)%nat)) regs2 mem2 pw2 wu2 wbus2 cycle true with
            | Ok (regs3, mem3, pw3, wu3, wbus3, cycle3) =>
                let fu3 := mk_fu5 (eo_pc o) (f5_remaining (v_fu env1)) false false (f5_clean (v_fu env1)) in
                let e := v_eu env1 in
                let eu3 := mk_eu false (eu_pending_read e) (eu_addrs e) (eu_memory e) 0 (eu_runner e) in
                m5run f app labels
                      (mk_m5 regs3 mem3 zero_pw l1i1 (v_l1d env1) fu3 false sbus_empty sbus_empty eu3 sbus_empty wu3 (v_bu env1))
                      cycle3
            | _ => MPanic
            end
          else if m5_is_complete s2 then m5_finish s2 cycle
          else m5run f app labels s2 cycle
      | _ => MPanic
      end
  | inl _ => MPanic
  end.

Lemma m5run_S f app labels s cyc :
  m5run (S f) app labels s cyc =
  match fu5_cycle app (t_fu s) (t_l1i s) (t_dbus s) with
  | Ok (fu1, l1i1, dbus1) =>
      match du5_cycle app (t_du s) dbus1 (t_ebus s) with
      | Ok (du1, dbus2, ebus1) =>
          m5_tail f app labels (t_wu s) l1i1 dbus2 (cyc + 1)
                  (eu5_cycle labels (mk_env5 (t_regs s) (t_mem s) (t_pw s) (t_l1d s) (t_eu s) (t_wbus s) (t_bu s) fu1 du1) ebus1)
      | _ => MPanic
      end
  | _ => MPanic
  end.
Proof.
  cbn [m5run]. destruct (fu5_cycle app (t_fu s) (t_l1i s) (t_dbus s)) as [[[fu1 l1i1] dbus1]| |]; reflexivity.
Qed.

(* an instruction that stores is not an unconditional jump *)
Lemma store_addrs_not_uncond i rr : store_addrs (sinstr_of i) rr <> [] -> uncond i = false.
Proof. destruct i; cbn [sinstr_of store_addrs]; intros H; try reflexivity; congruence. Qed.

Section StoresPlain.
  Variables (app : list instr) (labels : Z -> option Z).

  Lemma ev_of_plain st pc : ev_sa (ev_of app st pc) <> [] ->
    forall i, nth_error app (Z.to_nat (ev_pc (ev_of app st pc) / 4)) = Some i -> uncond i = false.
  Proof.
    cbn [ev_pc ev_of fst]. intros Hs i Hi. rewrite (ev_of_at app st pc i Hi) in Hs. cbn [ev_sa snd] in Hs.
    eapply store_addrs_not_uncond. exact Hs.
  Qed.

  Lemma sexecm_stores_plain st path stf : sexecm app labels st path stf -> stores_plain app path.
  Proof.
    induction 1 as [st pc st' Hs | st pc st' pc' rest stf Hs Hsl1 Hsl2 HS IH].
    - constructor; [apply ev_of_plain | constructor].
    - constructor; [apply ev_of_plain | exact IH].
  Qed.
End StoresPlain.
