(* Invariant of the MVP-5 skeleton with store misses (Mvp5sSkel.v): preservation and
   progress.  The front-end part is FM5 (Mvp5mFront.v) of a projection of the skeleton,
   the write side is WInv (Mvp4sFront.v).  At the end, the skeleton in which every
   store hits (Mvp5mSkel.v) as a special case of this one. *)
From Coq Require Import ZArith List Bool Lia.
From Maj Require Import Base.Outcome Base.GoInt Base.GoTypes Isa.Spec Isa.Embed Isa.Seq Isa.Refine.
From Maj Require Import Gen.Latency Gen.RiscTables Gen.Opcodes Comp.Cache Comp.CacheSpec Comp.MapFacts Comp.CacheProofs.
From Maj Require Import Mvp.Mvp12 Mvp.Mvp12Proofs Mvp.Mvp3 Mvp.Mvp3Proofs Mvp.Mvp4 Mvp.Mvp5
     Mvp.Mvp4Skel Mvp.Mvp4Inv Mvp.Mvp4Units Mvp.Mvp4Front Mvp.Mvp4mSkel Mvp.Mvp4mInv Mvp.Mvp4mFront
     Mvp.Mvp5Skel Mvp.Mvp5Inv Mvp.Mvp5Front Mvp.Mvp5mSkel Mvp.Mvp5mFront Mvp.Mvp4sSkel Mvp.Mvp4sFront Mvp.Mvp5sSkel.
Import ListNotations.
Open Scope Z_scope.

(* projections to the skeleton in which every store hits (Mvp5mSkel.v) *)
Definition pmz5 (a : sks5) : skm5 :=
  mk_skm5 (y_fu a) (y_du a) (y_l1i a) (y_dbus a) (y_ebus a) (y_eu a) zero_pw None (y_dt a) (y_btb a).
Definition pmw5 (a : sks5) : skm5 :=
  mk_skm5 (y_fu a) (y_du a) (y_l1i a) (y_dbus a) (y_ebus a) (y_eu a) (y_pw a) (option_map wi_wr (y_wc a)) (y_dt a) (y_btb a).

Record FS5 (app : list instr) (hev : event) (a : sks5) : Prop := mkFS5 {
  z_fm : FM5 app hev (pmz5 a);
  z_pr : eu_pending_read (y_eu a) = true -> y_wp a = None;
  z_I2 : eu_pending_read (y_eu a) = true -> eu_memory (y_eu a) = None ->
         forall x, y_wc a = Some x -> same_line_as (wi_sa x) (ev_la hev) = false;
  z_w : WInv (y_pw a) (y_wp a) (y_wc a) (y_wu a) (y_l1 a) (y_l2 a) }.

Definition ns_inv5 (a : sks5) (path : list event) : Prop :=
  match path with
  | [] => True
  | hev :: rest =>
      (y_l2 a && same_line_as (y_l1 a) (ev_la hev)) = false /\
      ns_tail (dtal (y_eu a) (y_dt a) (ev_la hev)) (y_l1 a) (y_l2 a) hev rest = true
  end.

Lemma ns_inv5_intro a hev rest :
  eu_pending_read (y_eu a) = false ->
  no_stale (y_dt a) (y_l1 a) (y_l2 a) (hev :: rest) = true -> ns_inv5 a (hev :: rest).
Proof.
  intros Hp H. rewrite no_stale_cons in H. apply andb_prop in H as [H1 H2]. apply negb_true_iff in H1.
  cbn [ns_inv5]. unfold dtal. rewrite Hp. auto.
Qed.

Lemma issue_s_spec full e ebus pw dt la e1 ebus2 dt1 act :
  sks_eu full e ebus pw dt la = (e1, ebus2, dt1, act) ->
  match issue_s full e ebus with
  | Some x => act = AExec (fst x) (snd x) \/ (act = ANone /\ q_eu e1 = [x])
  | None => True
  end.
Proof.
  unfold sks_eu, issue_s. destruct (full && negb (eu_pending_read e)); [intros _; exact I | apply issue_m_spec].
Qed.

Lemma issue_s_in full e ebus x : issue_s full e ebus = Some x -> In x (q_eu e ++ olist (sb_current ebus)).
Proof. unfold issue_s. destruct (full && negb (eu_pending_read e)); [discriminate | apply issue_m_in]. Qed.

Lemma sks5_next_spec a fu du l1i1 dbus2 ebus2 e1 add dt1 btb :
  WInv (y_pw a) (y_wp a) (y_wc a) (y_wu a) (y_l1 a) (y_l2 a) ->
  (forall wr sa, add = Some (wr, sa) -> y_wp a = None /\ (length wr <= 1)%nat /\ (sa <> [] -> wr = [])) ->
  let a2 := sks5_next a fu du l1i1 dbus2 ebus2 e1 add dt1 btb in
  pmz5 a2 = mk_skm5 fu du l1i1 dbus2 ebus2 e1 zero_pw None dt1 btb /\ y_eu a2 = e1 /\ y_dt a2 = dt1 /\
  WInv (y_pw a2) (y_wp a2) (y_wc a2) (y_wu a2) (y_l1 a2) (y_l2 a2) /\
  y_l1 a2 = (match add with None => y_l1 a | Some (_, sa) => sa end) /\
  y_l2 a2 = (match add with None => y_l2 a | Some _ => nnil (y_l1 a) end) /\
  (add = None -> y_wp a = None -> y_wp a2 = None /\
     (wu_pending (y_wu a) = false -> y_wc a2 = None) /\ (wu_pending (y_wu a) = true -> y_wc a2 = y_wc a)).
Proof.
  intros HW Hadd. unfold sks5_next. destruct add as [[wr sa]|].
  - destruct (Hadd wr sa eq_refl) as (Hwp & Hl & Hs). rewrite Hwp in HW.
    pose proof (winv_add _ _ _ _ _ wr sa HW Hl Hs) as HW1.
    destruct (sks_wu (pw_add (y_pw a) wr) (y_wu a) (Some (wr, sa, nnil (y_l1 a))) (y_wc a)) as [[[pw2 w2] wp2] wc2] eqn:Ew.
    destruct (winv_wu _ _ _ _ _ _ _ _ _ _ HW1 Ew) as (HW2 & _ & _).
    unfold pmz5. cbn [y_fu y_du y_l1i y_dbus y_ebus y_eu y_dt y_btb y_pw y_wp y_wc y_wu y_l1 y_l2].
    do 3 (split; [reflexivity|]). split; [exact HW2|]. split; [reflexivity|]. split; [reflexivity|]. discriminate.
  - destruct (sks_wu (y_pw a) (y_wu a) (y_wp a) (y_wc a)) as [[[pw2 w2] wp2] wc2] eqn:Ew.
    destruct (winv_wu _ _ _ _ _ _ _ _ _ _ HW Ew) as (HW2 & Hp & Hi).
    unfold pmz5. cbn [y_fu y_du y_l1i y_dbus y_ebus y_eu y_dt y_btb y_pw y_wp y_wc y_wu y_l1 y_l2].
    do 3 (split; [reflexivity|]). split; [exact HW2|]. split; [reflexivity|]. split; [reflexivity|].
    intros _ Hwp. split; [|split].
    + destruct (wu_pending (y_wu a)); [destruct (Hp eq_refl) as [-> _]; assumption | apply (Hi eq_refl)].
    + intros Hw. destruct (Hi Hw) as [_ ->]. assumption.
    + intros Hw. apply (Hp Hw).
Qed.

Lemma sks5_pre_none app a hev rest fu1 l1i1 dbus1 du1 dbus2 ebus1 e1 ebus2 dt1 :
  fu5_cycle app (y_fu a) (y_l1i a) (y_dbus a) = Ok (fu1, l1i1, dbus1) ->
  du5_cycle app (y_du a) dbus1 (y_ebus a) = Ok (du1, dbus2, ebus1) ->
  sks_eu (is_full (y_wp a)) (y_eu a) ebus1 (y_pw a) (y_dt a) (ev_la hev) = (e1, ebus2, dt1, ANone) ->
  sks5_pre app a (hev :: rest) =
    YStep (sks5_next a (sk5_assert fu1 (y_btb a) (issue_s (is_full (y_wp a)) (y_eu a) ebus1)) du1 l1i1 dbus2 ebus2 e1 None dt1 (y_btb a))
          (hev :: rest) 1.
Proof. intros Ef Ed Ee. unfold sks5_pre. rewrite Ef, Ed. cbn [hla]. rewrite Ee. reflexivity. Qed.

Lemma sks5_pre_exec_eq app a hev rest fu1 l1i1 dbus1 du1 dbus2 ebus1 e1 ebus2 dt1 i pc :
  fu5_cycle app (y_fu a) (y_l1i a) (y_dbus a) = Ok (fu1, l1i1, dbus1) ->
  du5_cycle app (y_du a) dbus1 (y_ebus a) = Ok (du1, dbus2, ebus1) ->
  sks_eu (is_full (y_wp a)) (y_eu a) ebus1 (y_pw a) (y_dt a) (ev_la hev) = (e1, ebus2, dt1, AExec i pc) ->
  sks5_pre app a (hev :: rest) =
    sks5_exec a (sk5_assert fu1 (y_btb a) (issue_s (is_full (y_wp a)) (y_eu a) ebus1)) du1 l1i1 dbus2 ebus2 e1 dt1 i pc (hev :: rest).
Proof. intros Ef Ed Ee. unfold sks5_pre. rewrite Ef, Ed. cbn [hla]. rewrite Ee. reflexivity. Qed.

Section FrontS5.
  Variable app : list instr.
  Hypothesis Happ : wf_app app.

  Lemma fm5z_build hev fu du l1i dbus ebus e dt btb :
    0 <= ev_pc hev < 2147483644 ->
    mid_ok app (ev_pc hev) (q_eu e ++ q_sb ebus) du (dclean fu dbus) (to4 fu) ->
    (f5_processing fu = true -> 1 <= f5_remaining fu <= MemoryAccess) ->
    eu_ok e -> IInv l1i -> btb_ok btb ->
    (eu_pending_read e = true -> ev_la hev <> [] /\ (eu_memory e = None -> eu_addrs e = ev_la hev)) ->
    zlen dt <= 16 ->
    FM5 app hev (mk_skm5 fu du l1i dbus ebus e zero_pw None dt btb).
  Proof.
    intros Hh Hmid Hfu Hok HI Hbtb Hmiss Hdt.
    constructor; cbn [rview n_fu n_du n_l1i n_dbus n_ebus n_eu n_pw n_wb n_dt n_btb]; auto.
    apply F5_build; auto; try discriminate. apply eu_ok_run. exact Hok.
  Qed.

  Lemma fronts_flow5 hev a fu1 l1i1 dbus1 du1 dbus2 ebus1 e1 ebus2 dt1 act :
    FS5 app hev a ->
    fu5_cycle app (y_fu a) (y_l1i a) (y_dbus a) = Ok (fu1, l1i1, dbus1) ->
    du5_cycle app (y_du a) dbus1 (y_ebus a) = Ok (du1, dbus2, ebus1) ->
    sks_eu (is_full (y_wp a)) (y_eu a) ebus1 (y_pw a) (y_dt a) (ev_la hev) = (e1, ebus2, dt1, act) ->
    let fuA := sk5_assert fu1 (y_btb a) (issue_s (is_full (y_wp a)) (y_eu a) ebus1) in
    IInv l1i1 /\ (f5_processing fuA = true -> 1 <= f5_remaining fuA <= MemoryAccess) /\
    act <> AStuck /\
    mid_ok app (ev_pc hev) (act_q act ++ q_eu e1 ++ q_sb ebus2) du1 (dclean fuA dbus2) (to4 fuA) /\
    eu_ok e1 /\
    (eu_pending_read e1 = true -> ev_la hev <> [] /\ (eu_memory e1 = None -> eu_addrs e1 = ev_la hev)) /\
    (match act with
     | AExec _ _ => eu_processing e1 = false /\ eu_pending_read e1 = false /\ dt1 = dtal (y_eu a) (y_dt a) (ev_la hev)
     | ANone => dtal e1 dt1 (ev_la hev) = dtal (y_eu a) (y_dt a) (ev_la hev)
     | AStuck => True
     end) /\
    (y_du a = false -> fuA = fu1 /\ f5_clean fu1 = false) /\
    sb_current ebus1 = sb_current (y_ebus a) /\
    (is_full (y_wp a) = true -> eu_pending_read (y_eu a) = false -> eu_pending_read e1 = false /\ act = ANone) /\
    (eu_pending_read (y_eu a) = true -> act = ANone -> eu_memory e1 = eu_memory (y_eu a) /\ eu_pending_read e1 = true).
  Proof.
    intros [[HF Hok _ Hmiss Hdtl] Hpr HI2 HW] Ef Ed Ee fuA.
    destruct (decode_flow5 app Happ (ev_pc hev) (rview (pmz5 a)) _ _ _ _ _ _ HF Ef Ed) as (HI1 & Hfu1 & Hcl & Hec & Hmid).
    cbn [pmz5 rview k5_eu k5_ebus n_eu n_ebus] in Hmid, Hec, Hok, Hmiss. rewrite q_eu_view in Hmid.
    pose proof Hmid as (_ & _ & _ & Hent1).
    destruct (sks_eu_flow app _ _ _ _ _ _ _ _ _ _ Hent1 Hok Hmiss Ee) as (Hns & Hfl & Hok1 & Hmiss1 & Hex & Hfull & Hwait).
    rewrite <- Hfl in Hmid.
    assert (Hx : forall y, issue_s (is_full (y_wp a)) (y_eu a) ebus1 = Some y -> exists rest, act_q act ++ q_eu e1 ++ q_sb ebus2 = y :: rest).
    { intros y Hy. pose proof (issue_s_spec _ _ _ _ _ _ _ _ _ _ Ee) as Hs. rewrite Hy in Hs.
      destruct Hs as [-> | [-> Hq]]; cbn [act_q List.app]; [destruct y; eexists; reflexivity | rewrite Hq; eexists; reflexivity]. }
    pose proof (g_btb _ _ _ HF) as Hbtb. cbn [pmz5 rview k5_btb n_btb] in Hbtb.
    destruct (assert_flow app _ _ _ _ _ (y_btb a) _ Hmid Hcl Hfu1 Hbtb Hx) as [Hmid' Hfu'].
    split; [exact HI1|]. split; [exact Hfu'|]. split; [exact Hns|]. split; [exact Hmid'|].
    split; [exact Hok1|]. split; [exact Hmiss1|]. split; [exact Hex|]. split; [|split; [exact Hec | auto]].
    intros Edu. split; [|exact Hcl]. unfold fuA.
    destruct (issue_s (is_full (y_wp a)) (y_eu a) ebus1) as [[i pc]|] eqn:Ei; [|reflexivity]. cbn [sk5_assert].
    apply issue_s_in in Ei. rewrite Hec in Ei.
    assert (Hin : In (i, pc) (naq (pmz5 a))).
    { unfold naq. cbn [pmz5 n_eu n_ebus]. rewrite q_sb_cur, app_assoc. apply in_or_app. left. exact Ei. }
    pose proof (g_du _ _ _ HF) as Hdu. cbn [rview k5_du] in Hdu. rewrite view_aq in Hdu. cbn [pmz5 n_du] in Hdu. rewrite Edu in Hdu.
    apply du_ok_false in Hdu. rewrite Forall_forall in Hdu. specialize (Hdu _ Hin).
    unfold nonunc in Hdu. cbn [fst] in Hdu. rewrite Hdu. reflexivity.
  Qed.

  Lemma head_entry_s5 hev a fu1 l1i1 dbus1 du1 dbus2 ebus1 i pc :
    FS5 app hev a ->
    fu5_cycle app (y_fu a) (y_l1i a) (y_dbus a) = Ok (fu1, l1i1, dbus1) ->
    du5_cycle app (y_du a) dbus1 (y_ebus a) = Ok (du1, dbus2, ebus1) ->
    hd_error (q_eu (y_eu a) ++ q_sb ebus1) = Some (i, pc) ->
    pc = ev_pc hev /\ nth_error app (Z.to_nat (pc / 4)) = Some i.
  Proof.
    intros HF Ef Ed Hhd.
    destruct (decode_flow5 app Happ (ev_pc hev) (rview (pmz5 a)) _ _ _ _ _ _ (h_front _ _ _ (z_fm _ _ _ HF)) Ef Ed) as (_ & _ & _ & _ & Hmid).
    cbn [pmz5 rview k5_eu k5_ebus n_eu n_ebus] in Hmid. rewrite q_eu_view in Hmid.
    destruct (q_eu (y_eu a) ++ q_sb ebus1) as [|x l]; [discriminate|]. cbn [hd_error] in Hhd. injection Hhd as ->.
    destruct (mid_head app _ _ _ _ _ _ Hmid) as [Hpc [_ Hi]]. cbn [fst snd] in Hpc, Hi. subst pc. auto.
  Qed.

  Theorem fs5_step hev rest a a' path' dc :
    FS5 app hev a -> evs_wf app (hev :: rest) -> stores_plain app (hev :: rest) -> ns_inv5 a (hev :: rest) ->
    sks5_pre app a (hev :: rest) = YStep a' path' dc ->
    exists hev' rest', path' = hev' :: rest' /\ FS5 app hev' a' /\ evs_wf app path' /\ stores_plain app path' /\
      ns_inv5 a' path' /\ (path' = hev :: rest \/ path' = rest).
  Proof.
    intros HF Hwf Hsp Hns H.
    assert (Hsp' : forall nxt rest', rest = nxt :: rest' -> stores_plain app (nxt :: rest')).
    { intros nxt rest' ->. inversion Hsp; assumption. }
    destruct (fu5_cycle app (y_fu a) (y_l1i a) (y_dbus a)) as [[[fu1 l1i1] dbus1]| |] eqn:Ef;
      [|unfold sks5_pre in H; rewrite Ef in H; discriminate|unfold sks5_pre in H; rewrite Ef in H; discriminate].
    destruct (du5_cycle app (y_du a) dbus1 (y_ebus a)) as [[[du1 dbus2] ebus1]| |] eqn:Ed;
      [|unfold sks5_pre in H; rewrite Ef, Ed in H; discriminate|unfold sks5_pre in H; rewrite Ef, Ed in H; discriminate].
    destruct (sks_eu (is_full (y_wp a)) (y_eu a) ebus1 (y_pw a) (y_dt a) (ev_la hev)) as [[[e1 ebus2] dt1] act] eqn:Ee.
    destruct (fronts_flow5 hev a _ _ _ _ _ _ _ _ _ _ HF Ef Ed Ee)
      as (HI1 & Hfu1 & Hnst & Hmid & Hok1 & Hmiss1 & Hex & _ & _ & Hfull & Hwait).
    set (fuA := sk5_assert fu1 (y_btb a) (issue_s (is_full (y_wp a)) (y_eu a) ebus1)) in *.
    pose proof HF as [[HF5 Hok _ Hmiss Hdtl] Hpr HI2 HW].
    pose proof (g_head _ _ _ HF5) as Hh. pose proof (g_btb _ _ _ HF5) as Hbtb. cbn [pmz5 rview k5_btb n_btb] in Hbtb.
    cbn [pmz5 n_eu n_dt] in Hok, Hmiss, Hdtl.
    pose proof (sks_eu_dt_len _ _ _ _ _ _ _ _ _ _ Hdtl Ee) as Hdt1l.
    cbn [ns_inv5] in Hns. destruct Hns as [Hns1 Hns2].
    destruct act as [|i pc|]; [| |congruence].
    - (* nothing executed *)
      rewrite (sks5_pre_none app a hev rest _ _ _ _ _ _ _ _ _ Ef Ed Ee) in H. fold fuA in H.
      destruct (sks5_next_spec a fuA du1 l1i1 dbus2 ebus2 e1 None dt1 (y_btb a) HW ltac:(discriminate))
        as (Epz & Ee1 & Edt & HW2 & El1 & El2 & Hwn).
      set (a2 := sks5_next a fuA du1 l1i1 dbus2 ebus2 e1 None dt1 (y_btb a)) in *.
      assert (Ha : a' = a2 /\ path' = hev :: rest /\ dc = 1) by (split; [|split]; congruence).
      destruct Ha as (-> & -> & ->). clear H.
      cbn [act_q List.app] in Hmid.
      exists hev, rest. split; [reflexivity|]. split; [|split; [exact Hwf|split; [exact Hsp|split; [|auto]]]].
      + assert (Hwpn : eu_pending_read e1 = true -> y_wp a = None)
          by (intros Hp1; apply (wp_free _ _ _ _ Hpr Hfull); left; exact Hp1).
        constructor.
        * rewrite Epz. apply fm5z_build; auto.
        * rewrite Ee1. intros Hp1. apply (Hwn eq_refl (Hwpn Hp1)).
        * rewrite Ee1. intros Hp1 Hm1 x Hx. destruct (Hwn eq_refl (Hwpn Hp1)) as (_ & Hwi & Hwb).
          destruct (wu_pending (y_wu a)) eqn:Ewu; [|rewrite (Hwi eq_refl) in Hx; discriminate].
          rewrite (Hwb eq_refl) in Hx.
          destruct (eu_pending_read (y_eu a)) eqn:Ep0.
          -- destruct (Hwait eq_refl eq_refl) as [Hme _]. apply (HI2 eq_refl); [congruence | exact Hx].
          -- destruct (w_lc _ _ _ _ _ _ HW (Hwpn Hp1) x Hx) as [Hsa Hfl].
             pose proof (w_I1 _ _ _ _ _ _ HW Ewu x Hx) as Hf1. rewrite Hsa. rewrite <- Hfl, Hf1 in Hns1. exact Hns1.
        * exact HW2.
      + cbn [ns_inv5]. rewrite El1, El2, Ee1, Edt. rewrite Hex. auto.
    - (* (i, pc) executed *)
      destruct Hex as (Hp1 & Hpr1 & Hdt1).
      cbn [act_q List.app] in Hmid.
      destruct (mid_head app _ _ _ _ _ _ Hmid) as [Hpc [_ Hi]]. cbn [fst snd] in Hpc, Hi. subst pc.
      assert (Hwp0 : y_wp a = None) by (apply (wp_free _ _ _ _ Hpr Hfull); right; discriminate).
      rewrite (sks5_pre_exec_eq app a hev rest _ _ _ _ _ _ _ _ _ _ _ Ef Ed Ee) in H. fold fuA in H.
      unfold sks5_exec in H. rewrite Z.eqb_refl in H. cbn [negb] in H.
      destruct (is_ret i).
      { destruct rest; [|discriminate]. destruct (sks_wu _ _ _ _) as [[[? ?] ?] ?]. destruct (sks_drain _ _ _ _ _ _ _); discriminate. }
      destruct rest as [|nxt rest']; [discriminate|].
      destruct (evs_wf_tail app _ _ _ Hwf) as [Hwf' Hnext].
      pose proof (addS_next (ev_pc hev) ltac:(lia)) as Hadd.
      assert (Hq_eu : q_eu e1 = []) by (unfold q_eu; rewrite Hp1; reflexivity).
      assert (Hm0 : eu_pending_read e1 = true -> ev_la nxt <> [] /\ (eu_memory e1 = None -> eu_addrs e1 = ev_la nxt))
        by (intros Hx; rewrite Hpr1 in Hx; discriminate).
      unfold ns_tail in Hns2. rewrite <- Hdt1 in Hns2.
      destruct (ev_sa hev) as [|s0 sa'] eqn:Esa.
      + (* not a store *)
        cbv zeta in H. cbn [a_get_all fst] in Hns2.
        set (fuR := if uncond i then fu5_reset fuA (ev_pc nxt) else fuA) in *.
        set (duR := if uncond i then false else du1) in *.
        set (btb' := if uncond i then btb_add (y_btb a) (ev_pc hev) (ev_pc nxt) else y_btb a) in *.
        assert (Hbtb' : btb_ok btb') by (unfold btb'; destruct (uncond i); [apply btb_add_ok; assumption | exact Hbtb]).
        destruct (sks5_next_spec a fuR duR l1i1 dbus2 ebus2 e1 (Some (instr_WriteRegisters i, [])) dt1 btb' HW)
          as (Epz & Ee1 & Edt & HW2 & El1 & El2 & _).
        { intros wr sa Hx. injection Hx as <- <-. split; [exact Hwp0|]. split; [apply write_regs_length | congruence]. }
        set (a2 := sks5_next a fuR duR l1i1 dbus2 ebus2 e1 (Some (instr_WriteRegisters i, [])) dt1 btb') in *.
        destruct (sk5_flush (y_btb a) i (ev_pc hev) (ev_pc nxt)) eqn:Efl.
        * (* flush *)
          destruct (sks_drain drain_fuel (y_pw a2) (y_wu a2) (y_wp a2) (y_wc a2) 1 true) as [[w3 c3]|] eqn:Edr; [|discriminate].
          injection H as <- <- <-.
          exists nxt, rest'. split; [reflexivity|]. split; [|split; [exact Hwf'|split; [exact (Hsp' _ _ eq_refl)|split; [|auto]]]].
          -- constructor; unfold pmz5; cbn [y_fu y_du y_l1i y_dbus y_ebus y_eu y_dt y_btb y_pw y_wp y_wc y_wu y_l1 y_l2].
             ++ apply fm5z_build.
                ** exact Hnext.
                ** cbn [eu_flushed q_eu eu_processing q_sb sbus_empty sb_current sb_pending olist List.app].
                   apply mid_fresh; auto.
                ** discriminate.
                ** unfold eu_ok, eu_flushed. cbn [eu_processing eu_pending_read eu_memory]. rewrite Hpr1.
                   repeat split; try discriminate. intros _. apply Hok1. exact Hpr1.
                ** exact HI1.
                ** exact Hbtb'.
                ** cbn [eu_flushed eu_pending_read]. rewrite Hpr1. discriminate.
                ** exact Hdt1l.
             ++ cbn [eu_flushed eu_pending_read]. rewrite Hpr1. discriminate.
             ++ cbn [eu_flushed eu_pending_read]. rewrite Hpr1. discriminate.
             ++ apply winv_empty. eapply sks_drain_idle. exact Edr.
          -- apply ns_inv5_intro; cbn [y_eu y_dt y_l1 y_l2 eu_flushed eu_pending_read]; [exact Hpr1|]. rewrite El1, El2. exact Hns2.
        * (* no flush *)
          injection H as <- <- <-.
          exists nxt, rest'. split; [reflexivity|]. split; [|split; [exact Hwf'|split; [exact (Hsp' _ _ eq_refl)|split; [|auto]]]].
          -- constructor; rewrite ?Ee1; try (intros Hx; rewrite Hpr1 in Hx; discriminate); [|exact HW2].
             rewrite Epz. unfold sk5_flush in Efl. unfold fuR, duR.
             destruct (uncond i) eqn:Eu.
             ++ (* a jump found in the BTB: the fetch unit is redirected *)
                destruct Hmid as (_ & _ & Hdu' & _). destruct (du_ok_head_unc _ _ _ Hdu' Eu) as [HA0 _].
                rewrite Hq_eu in HA0. cbn [List.app] in HA0.
                apply fm5z_build; auto; try discriminate.
                rewrite Hq_eu, HA0. apply mid_reset. exact Hnext.
             ++ apply negb_false_iff, Z.eqb_eq in Efl. rewrite Hadd in Efl.
                apply fm5z_build; auto.
                rewrite Efl. apply (mid_tail app _ _ _ _ _ _ Hmid). exact Eu.
          -- apply ns_inv5_intro; rewrite ?Ee1, ?Edt; [exact Hpr1|]. rewrite El1, El2. exact Hns2.
      + (* a store; the next pc is pc + 4 *)
        destruct (Z.eqb_spec (ev_pc nxt) (addS 32 (ev_pc hev) 4)) as [Enx|]; cbn [negb] in H; [|discriminate].
        rewrite Hadd in Enx.
        assert (Hdtn : zlen (fst (a_get_all dt1 (s0 :: sa'))) <= 16) by (rewrite a_get_all_len; exact Hdt1l).
        assert (Hun : uncond i = false).
        { apply Forall_inv in Hsp. apply Hsp; [rewrite Esa; discriminate | exact Hi]. }
        assert (Hmidn : mid_ok app (ev_pc nxt) (q_eu e1 ++ q_sb ebus2) du1 (dclean fuA dbus2) (to4 fuA)).
        { rewrite Enx. apply (mid_tail app _ _ _ _ _ _ Hmid). exact Hun. }
        destruct (snd (a_get_all dt1 (s0 :: sa'))) eqn:Ehit.
        * destruct (sks5_next_spec a fuA du1 l1i1 dbus2 ebus2 e1 None (fst (a_get_all dt1 (s0 :: sa'))) (y_btb a) HW ltac:(discriminate))
            as (Epz & Ee1 & Edt & HW2 & El1 & El2 & _).
          set (a2 := sks5_next a fuA du1 l1i1 dbus2 ebus2 e1 None (fst (a_get_all dt1 (s0 :: sa'))) (y_btb a)) in *.
          injection H as <- <- <-.
          exists nxt, rest'. split; [reflexivity|]. split; [|split; [exact Hwf'|split; [exact (Hsp' _ _ eq_refl)|split; [|auto]]]].
          -- constructor; rewrite ?Ee1; try (intros Hx; rewrite Hpr1 in Hx; discriminate); [|exact HW2].
             rewrite Epz. apply fm5z_build; auto.
          -- apply ns_inv5_intro; rewrite ?Ee1, ?Edt; [exact Hpr1|]. rewrite El1, El2. exact Hns2.
        * destruct (sks5_next_spec a fuA du1 l1i1 dbus2 ebus2 e1 (Some ([], s0 :: sa')) (fst (a_get_all dt1 (s0 :: sa'))) (y_btb a) HW)
            as (Epz & Ee1 & Edt & HW2 & El1 & El2 & _).
          { intros wr sa Hx. injection Hx as <- <-. split; [exact Hwp0|]. split; [cbn; lia | reflexivity]. }
          set (a2 := sks5_next a fuA du1 l1i1 dbus2 ebus2 e1 (Some ([], s0 :: sa')) (fst (a_get_all dt1 (s0 :: sa'))) (y_btb a)) in *.
          injection H as <- <- <-.
          exists nxt, rest'. split; [reflexivity|]. split; [|split; [exact Hwf'|split; [exact (Hsp' _ _ eq_refl)|split; [|auto]]]].
          -- constructor; rewrite ?Ee1; try (intros Hx; rewrite Hpr1 in Hx; discriminate); [|exact HW2].
             rewrite Epz. apply fm5z_build; auto.
          -- apply ns_inv5_intro; rewrite ?Ee1, ?Edt; [exact Hpr1|]. rewrite El1, El2. exact Hns2.
  Qed.
End FrontS5.

Section ProgressS5.
  Variable app : list instr.
  Hypothesis Happ : wf_app app.

  Definition phif5 (a : sks5) : Z := phim5 (pmz5 a).
  Definition fcomp5 (a : sks5) : bool :=
    f5_complete (y_fu a) && negb (eu_processing (y_eu a)) && sbus_is_empty (y_dbus a) && sbus_is_empty (y_ebus a).
  Definition phis5 (a : sks5) : Z := (if fcomp5 a then 0 else phif5 a) + wmu (y_wu a) (y_wp a) (y_wc a).

  Lemma phim5_parts fu du l1 dbus ebus e pw wb dt btb :
    phim5 (mk_skm5 fu du l1 dbus ebus e pw wb dt btb) =
    phim5 (mk_skm5 fu du l1 dbus ebus e zero_pw None dt btb) +
    (if eu_processing e && negb (eu_pending_read e) then match wb with Some _ => 1 | None => 0 end else 0).
  Proof. unfold phim5, projm. cbn [n_fu n_du n_l1i n_dbus n_ebus n_eu n_pw n_wb n_dt n_btb]. apply phim_parts. Qed.

  Lemma fs5_fm5w hev a : FS5 app hev a -> eu_pending_read (y_eu a) = false -> y_wp a = None -> FM5 app hev (pmw5 a).
  Proof.
    intros [[HF Hok _ Hmiss Hdtl] Hpr HI2 HW] Hp Hwp.
    constructor; unfold pmw5, rview; cbn [n_fu n_du n_l1i n_dbus n_ebus n_eu n_pw n_wb n_dt n_btb]; auto.
    - pose proof (F5_mid app _ _ HF) as Hmid. unfold aq in Hmid.
      cbn [pmz5 rview k5_fu k5_du k5_l1i k5_dbus k5_ebus k5_eu n_fu n_du n_l1i n_dbus n_ebus n_eu] in Hmid. rewrite q_eu_view in Hmid.
      apply F5_build.
      + exact (g_head _ _ _ HF).
      + exact Hmid.
      + exact (g_fu _ _ _ HF).
      + apply eu_ok_run. exact Hok.
      + exact (g_l1i _ _ _ HF).
      + rewrite (w_pw _ _ _ _ _ _ HW), Hwp. reflexivity.
      + intros wr Hwr. destruct (y_wc a) as [x|] eqn:Ewc; [|discriminate]. injection Hwr as <-.
        apply (w_wr _ _ _ _ _ _ HW x). auto.
      + exact (g_btb _ _ _ HF).
    - intros Hx. cbn [pmz5 n_eu] in *. rewrite Hp in Hx. discriminate.
  Qed.

  Lemma phif5_bounds hev a : FS5 app hev a -> 1 <= phif5 a <= phim_max.
  Proof.
    intros [[HF (Hproc & Hpp & Hmem) _ Hmiss Hdtl] Hpr HI2 HW].
    pose proof (fuphi_bounds (to4 (y_fu a)) (g_fu _ _ _ HF)) as Hf.
    unfold phif5, phim5, phim, projm, pmz5, phim_max in *. cbn [n_fu n_du n_l1i n_dbus n_ebus n_eu n_pw n_wb n_dt n_btb m_fu m_l1i m_dbus m_ebus m_eu m_pw m_wb m_dt] in *.
    destruct (eu_processing (y_eu a)).
    - destruct (Hproc eq_refl) as [Hr _]. unfold Cmax, Rmax, MemoryAccess in *.
      destruct (eu_pending_read (y_eu a)); lia.
    - unfold Cmax, Rmax, MemoryAccess in *.
      destruct (sb_current (y_ebus a)), (sb_pending (y_ebus a)), (sb_current (dclean (y_fu a) (y_dbus a))),
        (sb_pending (dclean (y_fu a) (y_dbus a))); lia.
  Qed.

  Lemma phis5_bounds hev a : FS5 app hev a -> 0 <= phis5 a <= phim_max + 3 * MemoryAccess + 3.
  Proof.
    intros HF. pose proof (phif5_bounds hev a HF). pose proof (wmu_bounds _ _ _ _ _ _ (z_w _ _ _ HF)).
    unfold phis5. destruct (fcomp5 a); unfold phim_max, Cmax, Rmax, MemoryAccess in *; lia.
  Qed.

  (* once the front end is empty it stays empty *)
  Lemma fcomp5_stable hev a fu1 l1i1 dbus1 du1 dbus2 ebus1 e1 ebus2 dt1 act :
    FS5 app hev a -> fcomp5 a = true ->
    fu5_cycle app (y_fu a) (y_l1i a) (y_dbus a) = Ok (fu1, l1i1, dbus1) ->
    du5_cycle app (y_du a) dbus1 (y_ebus a) = Ok (du1, dbus2, ebus1) ->
    sks_eu (is_full (y_wp a)) (y_eu a) ebus1 (y_pw a) (y_dt a) (ev_la hev) = (e1, ebus2, dt1, act) ->
    act = ANone /\ f5_complete (sk5_assert fu1 (y_btb a) (issue_s (is_full (y_wp a)) (y_eu a) ebus1)) = true /\
    eu_processing e1 = false /\ sbus_is_empty dbus2 = true /\ sbus_is_empty ebus2 = true.
  Proof.
    intros HF Hc. unfold fcomp5 in Hc. repeat (apply andb_prop in Hc as [Hc ?]). apply negb_true_iff in H1.
    destruct (h_eu _ _ _ (z_fm _ _ _ HF)) as (_ & Hpp & _). cbn [pmz5 n_eu] in Hpp.
    assert (Hpr : eu_pending_read (y_eu a) = false).
    { destruct (eu_pending_read (y_eu a)); [|reflexivity]. rewrite (Hpp eq_refl) in H1. discriminate. }
    assert (Hd : y_dbus a = mk_sbus None None).
    { unfold sbus_is_empty in H0. destruct (y_dbus a) as [[?|] [?|]]; try discriminate. reflexivity. }
    assert (He : y_ebus a = mk_sbus None None).
    { unfold sbus_is_empty in H. destruct (y_ebus a) as [[?|] [?|]]; try discriminate. reflexivity. }
    intros Ef. unfold fu5_cycle in Ef. cbn [f5_complete] in Ef. rewrite Hc in Ef.
    assert (Hx : f5_complete fu1 = true /\ dbus1 = mk_sbus None None).
    { rewrite Hd in Ef. destruct (f5_clean (y_fu a)); injection Ef as <- _ <-; auto. }
    destruct Hx as [Hfc ->]. clear Ef.
    rewrite He. intros Ed.
    assert (Hy : dbus2 = mk_sbus None None /\ ebus1 = mk_sbus None None).
    { unfold du5_cycle in Ed. destruct (y_du a); cbn [sbus_can_add sb_pending negb sbus_get sb_current] in Ed; split; congruence. }
    destruct Hy as (-> & ->). clear Ed.
    unfold issue_s, issue_m, eu_issue, sks_eu, skm_eu, eu_intake. rewrite Hpr, H1. cbn [sbus_get sb_current sb_pending negb].
    intros Ee. cbn [sk5_assert].
    destruct (is_full (y_wp a) && true); cbn [sk5_assert]; injection Ee as <- <- <- <-; auto.
  Qed.

  Lemma none_phis5 hev a fu1 l1i1 dbus1 du1 dbus2 ebus1 e1 ebus2 dt1 :
    FS5 app hev a ->
    fu5_cycle app (y_fu a) (y_l1i a) (y_dbus a) = Ok (fu1, l1i1, dbus1) ->
    du5_cycle app (y_du a) dbus1 (y_ebus a) = Ok (du1, dbus2, ebus1) ->
    sks_eu (is_full (y_wp a)) (y_eu a) ebus1 (y_pw a) (y_dt a) (ev_la hev) = (e1, ebus2, dt1, ANone) ->
    let fuA := sk5_assert fu1 (y_btb a) (issue_s (is_full (y_wp a)) (y_eu a) ebus1) in
    sks5_complete (sks5_next a fuA du1 l1i1 dbus2 ebus2 e1 None dt1 (y_btb a)) = false ->
    phis5 (sks5_next a fuA du1 l1i1 dbus2 ebus2 e1 None dt1 (y_btb a)) < phis5 a.
  Proof.
    intros HF Ef Ed Ee fuA. pose proof (z_w _ _ _ HF) as HW.
    unfold sks5_next. destruct (sks_wu (y_pw a) (y_wu a) (y_wp a) (y_wc a)) as [[[pw2 w2] wp2] wc2] eqn:Ew.
    set (a2 := mk_sks5 fuA du1 l1i1 dbus2 ebus2 e1 pw2 wp2 wc2 w2 dt1 (y_btb a) (y_l1 a) (y_l2 a)).
    intros Hnc.
    pose proof (wmu_step _ _ _ _ _ _ _ _ _ _ HW Ew) as Hmu.
    destruct (winv_wu _ _ _ _ _ _ _ _ _ _ HW Ew) as (HW2 & Hwp & Hwi).
    pose proof (wmu_bounds _ _ _ _ _ _ HW) as Hb1. pose proof (wmu_bounds _ _ _ _ _ _ HW2) as Hb2.
    pose proof (phif5_bounds hev a HF) as Hpf.
    assert (Hf2 : phif5 a2 = phim5 (mk_skm5 fuA du1 l1i1 dbus2 ebus2 e1 zero_pw None dt1 (y_btb a))) by reflexivity.
    assert (Hc2 : fcomp5 a2 = skm5_complete (mk_skm5 fuA du1 l1i1 dbus2 ebus2 e1 zero_pw None dt1 (y_btb a))).
    { unfold fcomp5, skm5_complete, a2. cbn [y_fu y_eu y_dbus y_ebus n_fu n_eu n_dbus n_ebus n_wb]. rewrite andb_true_r. reflexivity. }
    unfold phis5. cbn [y_wu y_wp y_wc a2]. fold a2.
    destruct (fcomp5 a2) eqn:Efc2.
    - (* the front end is empty: the write side makes progress *)
      assert (Hlt : wmu w2 wp2 wc2 < wmu (y_wu a) (y_wp a) (y_wc a)).
      { destruct Hmu as [(_ & _ & Hwi0 & Hwp0 & Hwc0) | Hlt]; [|exact Hlt]. exfalso.
        destruct (Hwi Hwi0) as [-> ->]. rewrite Hwp0 in *.
        unfold sks_wu in Ew. rewrite Hwi0, Hwc0 in Ew. assert (Hw2 : w2 = y_wu a) by congruence. subst w2.
        unfold sks5_complete, a2 in Hnc. cbn [y_fu y_eu y_wu y_dbus y_ebus y_wp y_wc is_full negb] in Hnc.
        unfold fcomp5, a2 in Efc2. cbn [y_fu y_eu y_dbus y_ebus] in Efc2. rewrite Hwi0 in Hnc.
        repeat (apply andb_prop in Efc2 as [Efc2 ?]). rewrite Hwp0, Efc2, H, H0, H1 in Hnc. cbn in Hnc. discriminate. }
      destruct (fcomp5 a); lia.
    - assert (Efc : fcomp5 a = false).
      { destruct (fcomp5 a) eqn:E; [|reflexivity]. exfalso.
        destruct (fcomp5_stable hev a _ _ _ _ _ _ _ _ _ _ HF E Ef Ed Ee) as (_ & A & B & C & D).
        unfold fcomp5, a2 in Efc2. cbn [y_fu y_eu y_dbus y_ebus] in Efc2. fold fuA in A. rewrite A, B, C, D in Efc2. discriminate. }
      rewrite Efc.
      assert (Hle : wmu w2 wp2 wc2 <= wmu (y_wu a) (y_wp a) (y_wc a)) by (destruct Hmu as [(-> & -> & _) | Hlt]; lia).
      pose proof (z_fm _ _ _ HF) as HFz.
      destruct (h_eu _ _ _ HFz) as (Hproc & Hpp & Hmem0). cbn [pmz5 n_eu] in Hproc, Hpp, Hmem0.
      destruct (eu_pending_read (y_eu a)) eqn:Epr.
      + (* a load in flight: its counter decreases *)
        pose proof (Hpp eq_refl) as Hp. destruct (Hproc Hp) as [Hr Hrun].
        unfold sks_eu, skm_eu in Ee. rewrite Epr, andb_false_r in Ee.
        destruct (Z.eqb_spec (eu_remaining (y_eu a) - 1) 0); cbn [negb] in Ee.
        * destruct (eu_runner (y_eu a)) as [[i pc]|]; discriminate.
        * injection Ee as <- _ _. rewrite Hf2. unfold phif5, phim5, phim, projm, pmz5.
          cbn [n_fu n_du n_l1i n_dbus n_ebus n_eu n_pw n_wb n_dt n_btb m_eu m_wb set_rem eu_processing eu_pending_read eu_remaining].
          rewrite Hp, Epr. lia.
      + destruct (is_full (y_wp a)) eqn:Efl.
        * (* the write bus is full *)
          assert (Hlt : wmu w2 wp2 wc2 < wmu (y_wu a) (y_wp a) (y_wc a)).
          { destruct Hmu as [(_ & _ & _ & Hwp0 & _) | Hlt]; [|exact Hlt]. rewrite Hwp0 in Efl. discriminate. }
          assert (Hphi : phif5 a2 <= phif5 a); [|lia].
          assert (HfuA : fuA = fu1) by (unfold fuA, issue_s; rewrite Epr; reflexivity).
          unfold sks_eu in Ee. rewrite Epr in Ee. cbn [andb negb] in Ee.
          destruct (eu_processing (y_eu a)) eqn:Ep.
          -- unfold eu_intake in Ee. rewrite Ep in Ee. cbn [negb] in Ee. destruct (Hproc eq_refl) as [Hr Hrun].
             rewrite Hf2. unfold phif5, phim5, phim, projm, pmz5.
             cbn [n_fu n_du n_l1i n_dbus n_ebus n_eu n_pw n_wb n_dt n_btb m_eu m_wb]. rewrite Ep, Epr.
             destruct (Z.eqb_spec (eu_remaining (y_eu a) - 1) 0); cbn [negb] in Ee; injection Ee as <- _ _;
               cbn [set_rem eu_processing eu_pending_read eu_remaining]; rewrite Ep, Epr; lia.
          -- destruct (sb_current ebus1) as [[i pc]|] eqn:Ecur.
             ++ unfold eu_intake, sbus_get in Ee. rewrite Ep, Ecur in Ee.
                cbn [negb eu_remaining eu_runner eu_processing eu_addrs eu_memory] in Ee.
                pose proof (cyc_of_bounds i) as Hcy.
                rewrite Hf2. unfold phif5, phim5, phim, projm, pmz5.
                cbn [n_fu n_du n_l1i n_dbus n_ebus n_eu n_pw n_wb n_dt n_btb m_eu m_wb m_ebus m_dbus m_fu]. rewrite Ep.
                pose proof (fuphi_bounds (to4 (y_fu a)) (g_fu _ _ _ (h_front _ _ _ HFz))) as Hfb.
                destruct (Z.eqb_spec (cyc_of i - 1) 0); cbn [negb] in Ee; injection Ee as <- _ _;
                  cbn [set_rem eu_processing eu_pending_read eu_remaining]; unfold Cmax, Rmax, MemoryAccess in *;
                  destruct (sb_current (y_ebus a)), (sb_pending (y_ebus a)), (sb_current (dclean (y_fu a) (y_dbus a))),
                    (sb_pending (dclean (y_fu a) (y_dbus a))); lia.
             ++ assert (Ee' : skm_eu (n_eu (pmz5 a)) ebus1 (n_pw (pmz5 a)) (n_dt (pmz5 a)) (ev_la hev) = (e1, ebus2, dt1, ANone)).
                { cbn [pmz5 n_eu n_pw n_dt]. rewrite (skm_eu_idle_none (y_eu a) ebus1 zero_pw (y_dt a) _ Epr Ep Ecur).
                  unfold eu_intake, sbus_get in Ee. rewrite Ep, Ecur in Ee. cbn [negb] in Ee. exact Ee. }
                assert (Hiss : issue_m (n_eu (pmz5 a)) ebus1 = None).
                { cbn [pmz5 n_eu]. unfold issue_m, eu_issue, eu_intake, sbus_get. rewrite Epr, Ep, Ecur. reflexivity. }
                pose proof (none_phim5 app Happ hev (pmz5 a) fu1 l1i1 dbus1 du1 dbus2 ebus1 e1 ebus2 dt1 HFz Ef Ed Ee') as Hn.
                rewrite Hiss in Hn. cbn [sk5_assert] in Hn. unfold after_nonem5 in Hn. cbn [pmz5 n_pw n_wb n_btb wdel] in Hn.
                rewrite HfuA in Hc2, Hf2. rewrite <- Hc2 in Hn. specialize (Hn eq_refl).
                rewrite Hf2. unfold phif5. lia.
        * (* the write bus has room: as in the skeleton with store hits *)
          assert (Hwp0 : y_wp a = None) by (destruct (y_wp a); [discriminate Efl | reflexivity]).
          pose proof (fs5_fm5w hev a HF Epr Hwp0) as HFm.
          unfold sks_eu in Ee. cbn [andb] in Ee.
          assert (HfuA : fuA = sk5_assert fu1 (y_btb a) (issue_m (y_eu a) ebus1)).
          { unfold fuA, issue_s. rewrite ?Efl. reflexivity. }
          pose proof (none_phim5 app Happ hev (pmw5 a) fu1 l1i1 dbus1 du1 dbus2 ebus1 e1 ebus2 dt1 HFm Ef Ed Ee) as Hn.
          unfold after_nonem5, pmw5 in Hn. cbn [n_fu n_du n_l1i n_dbus n_ebus n_eu n_pw n_wb n_dt n_btb] in Hn.
          rewrite <- HfuA in Hn.
          assert (Hc3 : skm5_complete (mk_skm5 fuA du1 l1i1 dbus2 ebus2 e1 (wdel (y_pw a) (option_map wi_wr (y_wc a))) None dt1 (y_btb a)) = false).
          { rewrite <- Efc2. unfold fcomp5, skm5_complete, a2. cbn [y_fu y_eu y_dbus y_ebus n_fu n_eu n_dbus n_ebus n_wb]. apply andb_true_r. }
          specialize (Hn Hc3).
          rewrite (phim5_parts fuA du1 l1i1 dbus2 ebus2 e1 _ None dt1 (y_btb a)) in Hn.
          rewrite (phim5_parts (y_fu a) (y_du a) (y_l1i a) (y_dbus a) (y_ebus a) (y_eu a) (y_pw a) _ (y_dt a) (y_btb a)) in Hn.
          fold (pmz5 a) in Hn. fold (phif5 a) in Hn. rewrite <- Hf2 in Hn.
          destruct (y_wc a) as [x|] eqn:Ewc; cbn [option_map] in Hn.
          -- assert (Hlt : wmu w2 wp2 wc2 < wmu (y_wu a) (y_wp a) (Some x)).
             { destruct Hmu as [(_ & _ & _ & _ & Hwc0) | Hlt]; [discriminate | exact Hlt]. }
             destruct (eu_processing e1 && negb (eu_pending_read e1)), (eu_processing (y_eu a) && negb (eu_pending_read (y_eu a))); lia.
          -- destruct (eu_processing e1 && negb (eu_pending_read e1)), (eu_processing (y_eu a) && negb (eu_pending_read (y_eu a))); lia.
  Qed.
End ProgressS5.

Section TermS5.
  Variable app : list instr.
  Hypothesis Happ : wf_app app.

  Lemma completes_exit5 hev rest a : FS5 app hev a -> sks5_complete a = true -> evs_wf app (hev :: rest) ->
    rest = [] /\ nlen app <= ev_pc hev / 4.
  Proof.
    intros HF Hc Hwf. apply (completem_exit5 app hev rest (pmz5 a) (z_fm _ _ _ HF)); [|exact Hwf].
    unfold sks5_complete in Hc. repeat (apply andb_prop in Hc as [Hc ?]).
    unfold skm5_complete, pmz5. cbn [n_fu n_eu n_dbus n_ebus n_wb]. rewrite Hc, H4, H2, H1. reflexivity.
  Qed.

  Lemma sks5_pre_exec hev rest a fu1 l1i1 dbus1 du1 dbus2 ebus1 e1 ebus2 dt1 i pc :
    FS5 app hev a -> evs_wf app (hev :: rest) ->
    fu5_cycle app (y_fu a) (y_l1i a) (y_dbus a) = Ok (fu1, l1i1, dbus1) ->
    du5_cycle app (y_du a) dbus1 (y_ebus a) = Ok (du1, dbus2, ebus1) ->
    sks_eu (is_full (y_wp a)) (y_eu a) ebus1 (y_pw a) (y_dt a) (ev_la hev) = (e1, ebus2, dt1, AExec i pc) ->
    match sks5_pre app a (hev :: rest) with
    | YStuck => False
    | YFin dc _ => rest = [] /\ dc = 1
    | YStep _ path' dc => path' = rest /\ 1 <= dc
    end.
  Proof.
    intros HF Hwf Ef Ed Ee.
    destruct (fronts_flow5 app Happ hev a _ _ _ _ _ _ _ _ _ _ HF Ef Ed Ee) as (_ & _ & _ & Hmid & _ & _ & Hex & _ & _ & Hfull & _).
    pose proof (z_w _ _ _ HF) as HW. pose proof (z_pr _ _ _ HF) as Hpr.
    cbn [act_q List.app] in Hmid. destruct (mid_head app _ _ _ _ _ _ Hmid) as [Hpc [_ Hi]]. cbn [fst snd] in Hpc, Hi. subst pc.
    assert (Hwp0 : y_wp a = None) by (apply (wp_free _ _ _ _ Hpr Hfull); right; discriminate).
    rewrite (sks5_pre_exec_eq app a hev rest _ _ _ _ _ _ _ _ _ _ _ Ef Ed Ee).
    set (fuA := sk5_assert fu1 (y_btb a) (issue_s (is_full (y_wp a)) (y_eu a) ebus1)).
    unfold sks5_exec. rewrite Z.eqb_refl. cbn [negb].
    pose proof (g_head _ _ _ (h_front _ _ _ (z_fm _ _ _ HF))) as Hh.
    cbn [evs_wf] in Hwf. destruct Hwf as (_ & Hwf). rewrite Hi in Hwf.
    destruct rest as [|nxt r].
    - rewrite Hwf. destruct (sks_wu (y_pw a) (y_wu a) (y_wp a) (y_wc a)) as [[[pw2 w2] wp2] wc2] eqn:Ew.
      destruct (winv_wu _ _ _ _ _ _ _ _ _ _ HW Ew) as (HW2 & _).
      destruct (winv_drain _ _ _ _ _ _ 0 false HW2) as (w3 & c3 & ->). auto.
    - destruct Hwf as ((i' & Hi' & Hr) & Hst & _). injection Hi' as <-. rewrite Hr.
      destruct (ev_sa hev) as [|s0 sa'] eqn:Esa.
      + cbv zeta.
        set (fuR := if uncond i then fu5_reset fuA (ev_pc nxt) else fuA).
        set (duR := if uncond i then false else du1).
        set (btb' := if uncond i then btb_add (y_btb a) (ev_pc hev) (ev_pc nxt) else y_btb a).
        destruct (sks5_next_spec a fuR duR l1i1 dbus2 ebus2 e1 (Some (instr_WriteRegisters i, [])) dt1 btb' HW)
          as (_ & _ & _ & HW2 & _).
        { intros wr sa Hx. injection Hx as <- <-. split; [exact Hwp0|]. split; [apply write_regs_length | congruence]. }
        set (a2 := sks5_next a fuR duR l1i1 dbus2 ebus2 e1 (Some (instr_WriteRegisters i, [])) dt1 btb') in *.
        destruct (sk5_flush (y_btb a) i (ev_pc hev) (ev_pc nxt)); [|split; [reflexivity | lia]].
        destruct (winv_drain _ _ _ _ _ _ 1 true HW2) as (w3 & c3 & E). rewrite E.
        split; [reflexivity|]. apply sks_drain_ge in E. exact E.
      + rewrite (Hst ltac:(discriminate)).
        pose proof (addS_next (ev_pc hev) ltac:(lia)) as Hadd.
        rewrite Hadd, Z.eqb_refl. cbn [negb].
        destruct (snd (a_get_all dt1 (s0 :: sa'))); split; try reflexivity; lia.
  Qed.

  Theorem sks5_progress hev rest a :
    FS5 app hev a -> evs_wf app (hev :: rest) -> stores_plain app (hev :: rest) -> ns_inv5 a (hev :: rest) ->
    match sks5_cycle app a (hev :: rest) with
    | YStuck => False
    | YFin dc _ => (exec_count app (hev :: rest) <= 1)%nat /\ 1 <= dc
    | YStep a' path' dc => 1 <= dc /\ (path' = rest \/ (path' = hev :: rest /\ phis5 a' < phis5 a))
    end.
  Proof.
    intros HF Hwf Hsp Hns.
    assert (Hpre : match sks5_pre app a (hev :: rest) with
                   | YStuck => False
                   | YFin dc _ => rest = [] /\ dc = 1
                   | YStep a' path' dc => 1 <= dc /\ (path' = rest \/
                       (path' = hev :: rest /\ (sks5_complete a' = false -> phis5 a' < phis5 a)))
                   end).
    { pose proof (h_front _ _ _ (z_fm _ _ _ HF)) as HF5.
      destruct (fu_du5_total app Happ _ _ HF5) as (fu1 & l1i1 & dbus1 & du1 & dbus2 & ebus1 & Ef & Ed).
      cbn [pmz5 rview k5_fu k5_du k5_l1i k5_dbus k5_ebus n_fu n_du n_l1i n_dbus n_ebus] in Ef, Ed.
      destruct (sks_eu (is_full (y_wp a)) (y_eu a) ebus1 (y_pw a) (y_dt a) (ev_la hev)) as [[[e1 ebus2] dt1] act] eqn:Ee.
      destruct act as [|i pc|].
      - rewrite (sks5_pre_none app a hev rest _ _ _ _ _ _ _ _ _ Ef Ed Ee).
        split; [lia|]. right. split; [reflexivity|]. intros Hnc. eapply none_phis5; eassumption.
      - pose proof (sks5_pre_exec hev rest a _ _ _ _ _ _ _ _ _ _ _ HF Hwf Ef Ed Ee) as H.
        destruct (sks5_pre app a (hev :: rest)); auto. destruct H. auto.
      - destruct (fronts_flow5 app Happ hev a _ _ _ _ _ _ _ _ _ _ HF Ef Ed Ee) as (_ & _ & Hns' & _). congruence. }
    unfold sks5_cycle.
    destruct (sks5_pre app a (hev :: rest)) as [a2 p dc|dc dt|] eqn:Ep; [| |contradiction].
    - destruct (fs5_step app Happ hev rest a a2 p dc HF Hwf Hsp Hns Ep) as (hev' & rest' & -> & HF' & Hwf' & _ & _ & _).
      destruct Hpre as [Hdc Hpre].
      destruct (sks5_complete a2) eqn:Ec.
      + destruct (completes_exit5 hev' rest' a2 HF' Ec Hwf') as [-> Hout]. split; [|exact Hdc].
        destruct Hpre as [Hp | [Hp _]].
        * subst rest. rewrite exec_count_cons, (exec_count_out app hev' Hout). destruct (_ <? _); lia.
        * injection Hp as -> <-. rewrite (exec_count_out app hev Hout). lia.
      + split; [exact Hdc|]. destruct Hpre as [Hp | [Hp Hphi]]; [left; exact Hp | right; split; [exact Hp | apply Hphi; reflexivity]].
    - destruct Hpre as [-> ->]. split; [|lia]. rewrite exec_count_cons. unfold exec_count. cbn [filter length]. destruct (_ <? _); lia.
  Qed.

  Definition sks5_eres (r : sks5_res) : eres sks5 :=
    match r with YStep a p dc => EStep a p dc | YFin dc dt => EFin dc dt | YStuck => EStuck end.

  Lemma sks5_run_erun : forall fuel a path cyc,
    sks5_run fuel app a path cyc = erun (fun a path => sks5_eres (sks5_cycle app a path)) fuel a path cyc.
  Proof.
    induction fuel as [|f IH]; intros a path cyc; [reflexivity|]. cbn [sks5_run erun].
    destruct (sks5_cycle app a path); cbn [sks5_eres]; auto.
  Qed.

  Lemma sks5_run_term : forall (m : nat) rest a hev cyc fuel,
    FS5 app hev a -> evs_wf app (hev :: rest) -> stores_plain app (hev :: rest) -> ns_inv5 a (hev :: rest) ->
    (Z.to_nat (phis5 a) + length rest * Ksteps <= m)%nat -> (m < fuel)%nat ->
    exists c, sks5_run fuel app a (hev :: rest) cyc = Some c /\
              cyc + Z.of_nat (exec_count app (hev :: rest)) <= c.
  Proof.
    intros m rest a hev cyc fuel HF Hwf Hsp Hns Hm Hfuel.
    set (P := fun hev rest a => FS5 app hev a /\ evs_wf app (hev :: rest) /\ stores_plain app (hev :: rest) /\ ns_inv5 a (hev :: rest)).
    destruct (erun_term sks5 (fun a path => sks5_eres (sks5_cycle app a path)) P phis5 phis_max (exec_count app) (exec_count_le app))
      with (m := m) (rest := rest) (a := a) (hev := hev) (cyc := cyc) (fuel := S m) as (c & Hc & Hlo);
      [| | |exact (conj HF (conj Hwf (conj Hsp Hns)))|exact Hm|lia|].
    - intros h r b b' p' d (HF1 & Hwf1 & Hsp1 & Hns1) E.
      assert (Epre : sks5_pre app b (h :: r) = YStep b' p' d).
      { unfold sks5_cycle in E. destruct (sks5_pre app b (h :: r)) as [a2 p0 d0|d0 t|]; try discriminate.
        destruct (sks5_complete a2); [discriminate|]. cbn [sks5_eres] in E. congruence. }
      destruct (fs5_step app Happ h r b b' p' d HF1 Hwf1 Hsp1 Hns1 Epre) as (h' & r' & -> & HF' & Hwf' & Hsp' & Hns' & _).
      exists h', r'. split; [reflexivity|]. exact (conj HF' (conj Hwf' (conj Hsp' Hns'))).
    - intros h r b (HF1 & Hwf1 & Hsp1 & Hns1). pose proof (sks5_progress h r b HF1 Hwf1 Hsp1 Hns1) as Hp.
      destruct (sks5_cycle app b (h :: r)); cbn [sks5_eres]; exact Hp.
    - intros h r b (HF1 & _). exact (phis5_bounds app h b HF1).
    - exists c. split; [|exact Hlo]. rewrite sks5_run_erun. replace fuel with (S m + (fuel - S m))%nat by lia. apply erun_more. exact Hc.
  Qed.
End TermS5.

(* the skeleton in which every store hits (Mvp5mSkel.v) is this one with an empty
   pending slot, an idle write unit and no store on the write bus (as sks_of in
   Mvp4sFront.v) *)

Definition sks5_of (a : skm5) : sks5 :=
  mk_sks5 (n_fu a) (n_du a) (n_l1i a) (n_dbus a) (n_ebus a) (n_eu a) (n_pw a) None (option_map hit_item (n_wb a))
          (mk_wu false 0) (n_dt a) (n_btb a) [] false.

Lemma sks5_next_hit a fu du l1i1 dbus2 ebus2 e1 dt1 btb :
  sks5_next (sks5_of a) fu du l1i1 dbus2 ebus2 e1 None dt1 btb =
  sks5_of (mk_skm5 fu du l1i1 dbus2 ebus2 e1 (wdel (n_pw a) (n_wb a)) None dt1 btb).
Proof. unfold sks5_next. cbn [sks5_of y_pw y_wu y_wp y_wc]. rewrite sks_wu_hit. reflexivity. Qed.

Lemma sks5_next_hit_add a fu du l1i1 dbus2 ebus2 e1 wr dt1 btb :
  sks5_next (sks5_of a) fu du l1i1 dbus2 ebus2 e1 (Some (wr, [])) dt1 btb =
  sks5_of (mk_skm5 fu du l1i1 dbus2 ebus2 e1 (wdel (pw_add (n_pw a) wr) (n_wb a)) (Some wr) dt1 btb).
Proof. unfold sks5_next. cbn [sks5_of y_pw y_wu y_wp y_wc y_l1]. rewrite sks_wu_hit. reflexivity. Qed.

Lemma sks5_complete_hit a : sks5_complete (sks5_of a) = skm5_complete a.
Proof.
  unfold sks5_complete, skm5_complete. cbn [sks5_of y_fu y_eu y_wu y_dbus y_ebus y_wp y_wc wu_pending is_full negb].
  rewrite !andb_true_r. destruct (n_wb a); reflexivity.
Qed.

Lemma skm5_cycle_sks app a path :
  match skm5_cycle app a path with
  | M5Step a' p dc => sks5_cycle app (sks5_of a) path = YStep (sks5_of a') p dc
  | M5Fin dc dt => sks5_cycle app (sks5_of a) path = YFin dc dt
  | M5Stuck => True
  end.
Proof.
  assert (Hpre : match skm5_pre app a path with
                 | M5Step a' p dc => sks5_pre app (sks5_of a) path = YStep (sks5_of a') p dc
                 | M5Fin dc dt => sks5_pre app (sks5_of a) path = YFin dc dt
                 | M5Stuck => True
                 end).
  { unfold skm5_pre, sks5_pre, sks_eu, issue_s.
    cbn [sks5_of y_fu y_du y_l1i y_dbus y_ebus y_eu y_pw y_wp y_dt y_btb is_full andb].
    destruct (fu5_cycle app (n_fu a) (n_l1i a) (n_dbus a)) as [[[fu1 l1i1] dbus1]| |]; try exact I.
    destruct (du5_cycle app (n_du a) dbus1 (n_ebus a)) as [[[du1 dbus2] ebus1]| |]; try exact I.
    destruct (skm_eu (n_eu a) ebus1 (n_pw a) (n_dt a) (hla path)) as [[[e1 ebus2] dt1] act].
    destruct act as [|i pc|]; [rewrite sks5_next_hit; reflexivity | | exact I].
    unfold skm5_exec, sks5_exec. destruct path as [|ev rest]; [exact I|]. destruct (negb (ev_pc ev =? pc)); [exact I|].
    destruct (is_ret i).
    - destruct rest; [|exact I]. cbn [sks5_of y_pw y_wu y_wp y_wc]. rewrite sks_wu_hit.
      rewrite (sks_drain_hit _ None). reflexivity.
    - destruct rest as [|nxt r]; [exact I|]. destruct (ev_sa ev) as [|s0 sa'].
      + cbv zeta. rewrite sks5_next_hit_add. cbn [sks5_of y_pw y_wu y_wp y_wc y_l1 y_l2 y_btb n_wb].
        destruct (sk5_flush (n_btb a) i pc (ev_pc nxt)); [|reflexivity].
        rewrite (sks_drain_hit _ (Some _)). reflexivity.
      + destruct (ev_pc nxt =? addS 32 pc 4); [|rewrite andb_false_r; exact I].
        rewrite andb_true_r. cbn [negb]. destruct (snd (a_get_all dt1 (s0 :: sa'))); [|exact I].
        cbn [sks5_of y_btb]. rewrite sks5_next_hit. reflexivity. }
  unfold skm5_cycle, sks5_cycle. destruct (skm5_pre app a path) as [a2 p dc|dc dt|]; [|rewrite Hpre; reflexivity|exact I].
  rewrite Hpre, sks5_complete_hit. destruct (skm5_complete a2); reflexivity.
Qed.

Lemma skm5_run_sks app : forall fuel a path cyc c,
  skm5_run fuel app a path cyc = Some c -> sks5_run fuel app (sks5_of a) path cyc = Some c.
Proof.
  induction fuel as [|f IH]; intros a path cyc c; cbn [skm5_run sks5_run]; [discriminate|].
  pose proof (skm5_cycle_sks app a path) as H.
  destruct (skm5_cycle app a path) as [a' p dc|dc dt|]; [rewrite H; apply IH | rewrite H; auto | discriminate].
Qed.

Lemma cost5_mem_sm fuel app evs c : mvp5_cost_mem fuel app evs = Some c -> mvp5_cost_sm fuel app evs = Some c.
Proof.
  unfold mvp5_cost_mem, mvp5_cost_sm. destruct (new_cache l1LineSize l1Size) as [ci| |]; try discriminate.
  apply (skm5_run_sks app fuel (skm5_init ci)).
Qed.
