(* MVP-4 on programs whose stores may MISS in the L1D, under the hypothesis no_stale
   (Mvp4sSkel.v) on the events of the sequential run: the pipeline computes the
   sequential registers and memory - after the run main memory contains every
   store - in a number of cycles that is a function of the program and of the
   events.  See Mvp4mProofs.v for the special case in which every store hits. *)
From Coq Require Import ZArith List Bool Lia.
From Maj Require Import Base.Outcome Base.GoInt Base.GoTypes Isa.Spec Isa.Embed Isa.Seq Isa.Refine.
From Maj Require Import Gen.Latency Gen.RiscTables Gen.Opcodes Comp.Cache Comp.CacheSpec Comp.CacheProofs.
From Maj Require Import Mvp.Mvp12 Mvp.Mvp12Proofs Mvp.Mvp3 Mvp.Mvp3Proofs Mvp.Mvp4 Mvp.Mvp4Skel Mvp.Mvp4Inv Mvp.Mvp4Units
     Mvp.Mvp4Front Mvp.Mvp4Sim Mvp.Mvp4Proofs Mvp.Mvp4mSkel Mvp.Mvp4mInv Mvp.Mvp4mFront Mvp.Mvp4mSim Mvp.Mvp4mProofs
     Mvp.Mvp4sSkel Mvp.Mvp4sFront Mvp.Mvp4sSim.
Import ListNotations.
Open Scope Z_scope.

Lemma sks_run_more app : forall fuel k a path cyc c,
  sks_run fuel app a path cyc = Some c -> sks_run (fuel + k) app a path cyc = Some c.
Proof. intros fuel k a path cyc c. rewrite !sks_run_erun. apply erun_more. Qed.

Section Top4s.
  Variables (app : list instr) (labels : Z -> option Z).
  Hypothesis Happ : wf_app app.
  Hypothesis Hlab : wf_labels labels.
  Let sp := map sinstr_of app.

  (* what the simulation gives without the termination argument: whenever the skeleton
     (a function of program and events) ends in c cycles, so does the model, with the
     sequential state *)
  Theorem mvp4_storemiss_sim fuel st st' tr fuel' c :
    inv (regs st) (mem st) -> (length (regs st) <= 32)%nat -> mem_small st ->
    accesses_ok fuel sp labels st 0 ->
    seq_run fuel sp labels st = Done st' tr ->
    evs_below (seq_evs fuel sp labels st 0) = true ->
    no_stale [] [] false (seq_evs fuel sp labels st 0) = true ->
    mvp4_cost_sm fuel' app (seq_evs fuel sp labels st 0) = Some c ->
    mvp4_run fuel' app labels st = MDone c st'.
  Proof.
    intros [Hri Hm8] Hlen Hsm Hacc Hrun Hb Hns Hc. unfold seq_run in Hrun.
    destruct (run_sexecm app labels fuel st 0 [] st' tr Hrun Hacc) as (rest & Hp & HS & _).
    fold sp in Hp. rewrite Hp in *.
    exact (sim_cost_s app labels Happ Hlab st rest st' fuel' c Hri Hm8 Hlen Hsm HS (sexecm_evs_wf app labels _ _ _ HS Hb) Hns Hc).
  Qed.

  Definition fuel_bound_s (n : nat) : nat := ((n + 1) * Ksteps)%nat.

  Theorem mvp4_run_events_s fuel st st' tr :
    inv (regs st) (mem st) -> (length (regs st) <= 32)%nat -> mem_small st ->
    accesses_ok fuel sp labels st 0 ->
    seq_run fuel sp labels st = Done st' tr ->
    evs_below (seq_evs fuel sp labels st 0) = true ->
    no_stale [] [] false (seq_evs fuel sp labels st 0) = true ->
    exists c, (forall fuel', (fuel_bound_s (length tr) <= fuel')%nat ->
                 mvp4_run fuel' app labels st = MDone c st' /\
                 mvp4_cost_sm fuel' app (seq_evs fuel sp labels st 0) = Some c) /\
              Z.of_nat (length tr) <= c.
  Proof.
    intros Hinv Hlen Hsm Hacc Hrun Hb Hns.
    pose proof Hrun as Hrun0. unfold seq_run in Hrun.
    destruct (run_sexecm app labels fuel st 0 [] st' tr Hrun Hacc) as (rest & Hp & HS & Hl & Hcnt).
    fold sp in Hp.
    assert (Hwf : evs_wf app (ev_of app st 0 :: rest)) by (rewrite Hp in Hb; exact (sexecm_evs_wf app labels _ _ _ HS Hb)).
    destruct init_caches as (c0 & E0 & HI0 & HD0 & Hl0).
    assert (Hh0 : 0 <= ev_pc (ev_of app st 0) < 2147483644) by (cbn; lia).
    pose proof (init_finvs app c0 (ev_of app st 0) HI0 Hh0 eq_refl) as HF0.
    assert (Hns0 : ns_inv (sks_init c0) (ev_of app st 0 :: rest)).
    { apply ns_inv_intro; [reflexivity | rewrite Hp in Hns; exact Hns]. }
    cbn [length] in Hl, Hcnt.
    set (m := (Z.to_nat (phis (sks_init c0)) + length rest * Ksteps)%nat).
    assert (Hm : (m < fuel_bound_s (length tr))%nat) by (apply fuel_enough; [exact (phis_bounds app _ _ HF0) | lia]).
    destruct (sks_run_term app Happ m rest (sks_init c0) _ 0 (fuel_bound_s (length tr)) HF0 Hwf Hns0 ltac:(lia) Hm) as (c & Hc & Hcb).
    exists c. split; [|lia].
    intros fuel' Hf'. replace fuel' with (fuel_bound_s (length tr) + (fuel' - fuel_bound_s (length tr)))%nat by lia.
    pose proof (sks_run_more app _ (fuel' - fuel_bound_s (length tr)) _ _ _ _ Hc) as Hc'.
    assert (Hcost : mvp4_cost_sm (fuel_bound_s (length tr) + (fuel' - fuel_bound_s (length tr))) app (seq_evs fuel sp labels st 0) = Some c).
    { unfold mvp4_cost_sm. rewrite E0, Hp. exact Hc'. }
    split; [|exact Hcost].
    apply (mvp4_storemiss_sim fuel st st' tr _ c Hinv Hlen Hsm Hacc Hrun0 Hb Hns Hcost).
  Qed.

  (* C05 (MVP-4): loads and stores, stores may miss in the L1D *)
  Theorem mvp4_refines_seq_storemiss fuel st st' tr :
    inv (regs st) (mem st) -> (length (regs st) <= 32)%nat -> mem_small st ->
    accesses_ok fuel sp labels st 0 ->
    seq_run fuel sp labels st = Done st' tr ->
    evs_below (seq_evs fuel sp labels st 0) = true ->
    no_stale [] [] false (seq_evs fuel sp labels st 0) = true ->
    exists c, (forall fuel', (fuel_bound_s (length tr) <= fuel')%nat -> mvp4_run fuel' app labels st = MDone c st') /\
              Z.of_nat (length tr) <= c.
  Proof.
    intros Hinv Hlen Hsm Hacc Hrun Hb Hns.
    destruct (mvp4_run_events_s fuel st st' tr Hinv Hlen Hsm Hacc Hrun Hb Hns) as (c & Hc & Hlb).
    exists c. split; [|exact Hlb]. intros fuel' Hf. apply Hc. exact Hf.
  Qed.

  (* C07 (MVP-4): no panic, no error, no divergence *)
  Corollary mvp4_no_panic_sm fuel st st' tr fuel' :
    inv (regs st) (mem st) -> (length (regs st) <= 32)%nat -> mem_small st ->
    accesses_ok fuel sp labels st 0 ->
    seq_run fuel sp labels st = Done st' tr ->
    evs_below (seq_evs fuel sp labels st 0) = true ->
    no_stale [] [] false (seq_evs fuel sp labels st 0) = true ->
    (fuel_bound_s (length tr) <= fuel')%nat ->
    mvp4_run fuel' app labels st <> MPanic /\ mvp4_run fuel' app labels st <> MOutOfFuel /\
    (forall e, mvp4_run fuel' app labels st <> MErr e).
  Proof.
    intros Hinv Hlen Hsm Hacc Hrun Hb Hns Hf.
    destruct (mvp4_refines_seq_storemiss fuel st st' tr Hinv Hlen Hsm Hacc Hrun Hb Hns) as (c & Hc & _).
    rewrite (Hc fuel' Hf). repeat split; try discriminate.
  Qed.

  (* C12 (MVP-4): same events, same cycle count *)
  Theorem mvp4_value_independent_sm fuel st1 st2 st1' st2' tr1 tr2 :
    inv (regs st1) (mem st1) -> (length (regs st1) <= 32)%nat -> mem_small st1 -> accesses_ok fuel sp labels st1 0 ->
    inv (regs st2) (mem st2) -> (length (regs st2) <= 32)%nat -> mem_small st2 -> accesses_ok fuel sp labels st2 0 ->
    seq_run fuel sp labels st1 = Done st1' tr1 ->
    seq_run fuel sp labels st2 = Done st2' tr2 ->
    seq_evs fuel sp labels st1 0 = seq_evs fuel sp labels st2 0 ->
    evs_below (seq_evs fuel sp labels st1 0) = true ->
    no_stale [] [] false (seq_evs fuel sp labels st1 0) = true ->
    exists c, forall fuel', (fuel_bound_s (Nat.max (length tr1) (length tr2)) <= fuel')%nat ->
      mvp4_run fuel' app labels st1 = MDone c st1' /\ mvp4_run fuel' app labels st2 = MDone c st2'.
  Proof.
    intros I1 L1 S1 A1 I2 L2 S2 A2 R1 R2 Hp Hb Hns.
    destruct (mvp4_run_events_s fuel st1 st1' tr1 I1 L1 S1 A1 R1 Hb Hns) as (c1 & Hc1 & _).
    rewrite Hp in Hb, Hns. destruct (mvp4_run_events_s fuel st2 st2' tr2 I2 L2 S2 A2 R2 Hb Hns) as (c2 & Hc2 & _).
    exists c1. rewrite Hp in Hc1.
    exact (same_cost_same_cycles (fun f => mvp4_run f app labels st1) (fun f => mvp4_run f app labels st2)
             (fun f => mvp4_cost_sm f app (seq_evs fuel sp labels st2 0)) Ksteps _ _ c1 c2 _ _ Hc1 Hc2).
  Qed.
End Top4s.

Lemma fuel_bound_s_value n : fuel_bound_s n = ((n + 1) * 1965)%nat.
Proof. reflexivity. Qed.

Definition st_w : arch := mk_arch (repeat 0 32) (repeat 0 256).

(* three stores that miss followed by a load of the line of the last one: all within
   ONE line (byte stores); the model loses the stores (stale line fetched, then
   flushed over them) *)
Theorem mvp4_three_cold_stores_one_line_refuted :
  let p := [SLi 5 7; SSb 5 0 0; SSb 5 1 0; SSb 5 2 0; SLb 6 2 0; SRet] in
  no_stale [] [] false (seq_evs 20 (map sinstr_of (map instr_of p)) no_lab st_w 0) = false /\
  exists st' tr c st4,
    seq_run 20 p no_lab st_w = Done st' tr /\
    mvp4_run 5000 (map instr_of p) no_lab st_w = MDone c st4 /\
    rget (regs st') 6 = 7 /\ mget (mem st') 2 = 7 /\
    rget (regs st4) 6 = 0 /\ mget (mem st4) 2 = 0.
Proof.
  cbv zeta. split; [vm_compute; reflexivity|].
  do 4 eexists. split; [vm_compute; reflexivity|]. split; [vm_compute; reflexivity|]. vm_compute. repeat split; reflexivity.
Qed.

(* ONE cold store followed by a load of the stored line is inside the hypothesis (the
   theorem applies: always right) ... *)
Example mvp4_one_cold_store_then_load_ok :
  let p := [SLi 5 7; SSw 5 64 0; SLw 6 64 0; SRet] in
  no_stale [] [] false (seq_evs 20 (map sinstr_of (map instr_of p)) no_lab st_w 0) = true /\
  exists st' tr c,
    seq_run 20 p no_lab st_w = Done st' tr /\
    mvp4_run 5000 (map instr_of p) no_lab st_w = MDone c st' /\ rget (regs st') 6 = 7.
Proof.
  cbv zeta. split; [vm_compute; reflexivity|].
  do 3 eexists. split; [vm_compute; reflexivity|]. split; [vm_compute; reflexivity|]. reflexivity.
Qed.

(* ... TWO cold stores followed by a load of the line of the second one are outside the
   hypothesis, but the model is still right on this program: the stale fetch needs a
   third store that keeps the write unit busy while the other two wait in the bus
   (mvp4_cold_store_then_load_refuted, mvp4_three_cold_stores_one_line_refuted) *)
Example mvp4_two_cold_stores_then_load_still_right :
  let p := [SLi 5 7; SSw 5 0 0; SSw 5 64 0; SLw 6 64 0; SRet] in
  no_stale [] [] false (seq_evs 20 (map sinstr_of (map instr_of p)) no_lab st_w 0) = false /\
  exists st' tr c,
    seq_run 20 p no_lab st_w = Done st' tr /\
    mvp4_run 5000 (map instr_of p) no_lab st_w = MDone c st' /\ rget (regs st') 6 = 7.
Proof.
  cbv zeta. split; [vm_compute; reflexivity|].
  do 3 eexists. split; [vm_compute; reflexivity|]. split; [vm_compute; reflexivity|]. reflexivity.
Qed.

(* cold stores followed by a load of a DIFFERENT line, or of the line of a store that is
   not the last one, are inside the hypothesis *)
Example mvp4_cold_stores_then_other_load_ok :
  let p := [SLi 5 7; SSw 5 0 0; SSw 5 128 0; SSw 5 64 0; SLw 6 192 0; SSw 5 0 0; SSw 5 128 0; SSw 5 64 0; SLw 7 128 0; SRet] in
  no_stale [] [] false (seq_evs 20 (map sinstr_of (map instr_of p)) no_lab st_w 0) = true /\
  exists st' tr c,
    seq_run 20 p no_lab st_w = Done st' tr /\
    mvp4_run 9000 (map instr_of p) no_lab st_w = MDone c st' /\ rget (regs st') 7 = 7 /\ mget (mem st') 64 = 7.
Proof.
  cbv zeta. split; [vm_compute; reflexivity|].
  do 3 eexists. split; [vm_compute; reflexivity|]. split; [vm_compute; reflexivity|]. split; reflexivity.
Qed.
