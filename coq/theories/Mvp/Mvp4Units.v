(* Characterisation of the units of the MVP-4 front end (fetch unit, decode unit,
   intake of the execute unit) under the invariant of Mvp4Inv.v. *)
From Coq Require Import ZArith List Bool Lia.
From Maj Require Import Base.Outcome Base.GoInt Base.GoTypes Isa.Spec Isa.Embed Isa.Seq Isa.Refine.
From Maj Require Import Gen.Latency Gen.RiscTables Gen.Opcodes Comp.Cache.
From Maj Require Import Mvp.Mvp12 Mvp.Mvp12Proofs Mvp.Mvp3 Mvp.Mvp3Proofs Mvp.Mvp4 Mvp.Mvp4Skel Mvp.Mvp4Inv.
Import ListNotations.
Open Scope Z_scope.

Definition fuphi (f : fu_t) : Z := if fu_processing f then fu_remaining f else MemoryAccess + 1.

Lemma fu_start l1i pc cpl :
  IInv l1i -> 0 <= pc ->
  exists r0 l1i',
    (g <- get_all l1i [pc] [] ;;
     match g with
     | (c1, Some _) => Ok (mk_fu pc 1 cpl true, c1)
     | (c1, None) =>
         p <- push_line c1 pc (repeat 0 (Z.to_nat l1LineSize)) ;;
         Ok (mk_fu pc MemoryAccess cpl true, fst p)
     end) = Ok (mk_fu pc r0 cpl true, l1i') /\ IInv l1i' /\ (r0 = 1 \/ r0 = MemoryAccess).
Proof.
  intros HI Hpc. destruct (fetch_ok l1i pc HI Hpc) as (c1 & hit & Eg & c2 & Et & HI2 & _ & _).
  rewrite Eg. cbn [bind]. destruct hit as [bytes|]; cbn [fetch_tail] in Et.
  - injection Et as <- _. exists 1, c1. auto.
  - apply bind_ok in Et as (r & Ep & Er). injection Er as <- _. rewrite Ep. cbn [bind].
    exists MemoryAccess, (fst r). auto.
Qed.

Lemma fu_cycle_spec app f l1i dbus :
  IInv l1i -> (fu_complete f = false -> 0 <= fu_pc f /\ fu_pc f + 4 < 2147483648) ->
  (fu_processing f = true -> 1 <= fu_remaining f <= MemoryAccess) ->
  exists f' l1i' dbus', fu_cycle app f l1i dbus = Ok (f', l1i', dbus') /\ IInv l1i' /\
    (fu_processing f' = true -> 1 <= fu_remaining f' <= MemoryAccess) /\
    ((dbus' = dbus /\ fu_pc f' = fu_pc f /\ fu_complete f' = fu_complete f /\
      (fu_complete f = false -> sbus_can_add dbus = true -> fuphi f' < fuphi f))
     \/ (fu_complete f = false /\ sbus_can_add dbus = true /\ dbus' = sbus_add dbus (fu_pc f) /\
         f' = mk_fu (fu_pc f + 4) 0 (nlen app <=? Z.quot (fu_pc f + 4) 4) false)).
Proof.
  intros HI Hb Hrem. unfold fu_cycle.
  destruct (fu_complete f) eqn:Ec.
  { exists f, l1i, dbus. split; [reflexivity|]. split; [assumption|]. split; [assumption|].
    left. repeat split; auto. discriminate. }
  destruct (Hb eq_refl) as [Hpc Hpc4].
  assert (Hadd : addS 32 (fu_pc f) 4 = fu_pc f + 4).
  { unfold addS. apply wrapS_id; [lia|]. apply int32_bounds. lia. }
  assert (Hstart : exists r0 l1i', (if fu_processing f then Ok (f, l1i)
        else
          g <- get_all l1i [fu_pc f] [] ;;
          match g with
          | (c1, Some _) => Ok (mk_fu (fu_pc f) 1 false true, c1)
          | (c1, None) =>
              p <- push_line c1 (fu_pc f) (repeat 0 (Z.to_nat l1LineSize)) ;;
              Ok (mk_fu (fu_pc f) MemoryAccess false true, fst p)
          end) = Ok (mk_fu (fu_pc f) r0 false true, l1i') /\ IInv l1i' /\ 1 <= r0 <= MemoryAccess /\
          r0 = (if fu_processing f then fu_remaining f else r0)).
  { destruct (fu_processing f) eqn:Ep.
    - exists (fu_remaining f), l1i. split; [|auto]. destruct f; cbn in *. subst. reflexivity.
    - destruct (fu_start l1i (fu_pc f) false HI Hpc) as (r0 & l1i' & E & HI' & Hr0).
      exists r0, l1i'. split; [exact E|]. split; [assumption|]. split; [|reflexivity].
      unfold MemoryAccess in *. lia. }
  destruct Hstart as (r0 & l1i' & -> & HI' & Hr0 & Hr0e). cbn [bind fu_pc fu_remaining fu_complete fu_processing].
  destruct (Z.eqb_spec (r0 - 1) 0) as [E0|E0].
  - destruct (sbus_can_add dbus) eqn:Eadd; cbn [negb].
    + do 3 eexists. split; [reflexivity|]. split; [assumption|]. split; [cbn; discriminate|].
      right. rewrite Hadd. repeat split. f_equal. lia.
    + do 3 eexists. split; [reflexivity|]. split; [assumption|]. split; [cbn; unfold MemoryAccess; lia|].
      left. repeat split. discriminate.
  - do 3 eexists. split; [reflexivity|]. split; [assumption|]. split; [cbn; intros _; lia|].
    left. repeat split. intros _ _. unfold fuphi. cbn [fu_processing fu_remaining].
    destruct (fu_processing f); [subst r0; lia | lia].
Qed.

Lemma du_cycle_spec app dbus ebus :
  (forall p, sb_current dbus = Some p -> 0 <= p) ->
  exists dbus' ebus', du_cycle app dbus ebus = Ok (dbus', ebus') /\
    ((sbus_can_add ebus = false /\ dbus' = dbus /\ ebus' = ebus)
     \/ (sbus_can_add ebus = true /\ dbus' = mk_sbus None (sb_pending dbus) /\
         ((sb_current dbus = None /\ ebus' = ebus)
          \/ (exists p, sb_current dbus = Some p /\ nlen app <= p / 4 /\ ebus' = ebus)
          \/ (exists p i, sb_current dbus = Some p /\ p / 4 < nlen app /\
                          nth_error app (Z.to_nat (p / 4)) = Some i /\ ebus' = sbus_add ebus (i, p))))).
Proof.
  intros Hpos. unfold du_cycle. destruct (sbus_can_add ebus) eqn:Eadd; cbn [negb].
  2:{ do 2 eexists. split; [reflexivity|]. left. auto. }
  unfold sbus_get. destruct (sb_current dbus) as [p|] eqn:Ecur.
  2:{ do 2 eexists. split; [reflexivity|]. right. repeat split. left. auto. }
  specialize (Hpos p eq_refl). rewrite (Z.quot_div_nonneg p 4) by lia.
  destruct (Z.leb_spec (nlen app) (p / 4)) as [Hout|Hin].
  { do 2 eexists. split; [reflexivity|]. right. repeat split. right. left. eauto. }
  assert (0 <= p / 4) by (apply Z.div_pos; lia).
  destruct (Z.ltb_spec (p / 4) 0); [lia|].
  destruct (nth_error app (Z.to_nat (p / 4))) as [i|] eqn:En.
  - do 2 eexists. split; [reflexivity|]. right. repeat split. right. right. exists p, i. auto.
  - exfalso. apply nth_error_None in En. unfold nlen in Hin. lia.
Qed.

Lemma q_sb_add {A} (b : sbus A) x : sbus_can_add b = true -> q_sb (sbus_add b x) = q_sb b ++ [x].
Proof.
  unfold sbus_can_add, q_sb, sbus_add. destruct b as [[p|] c]; cbn; [discriminate|]. intros _.
  rewrite app_nil_r. reflexivity.
Qed.

Lemma q_sb_shift {A} (b : sbus A) : q_sb (mk_sbus None (sb_pending b)) = olist (sb_pending b).
Proof. unfold q_sb. cbn. apply app_nil_r. Qed.

Lemma q_sb_cur {A} (b : sbus A) : q_sb b = olist (sb_current b) ++ olist (sb_pending b).
Proof. reflexivity. Qed.

(* the decode unit only moves entries forward: either the flat queue is
   unchanged, or the entry at the head of the decode bus lies outside the text
   and is dropped *)
Lemma du_flow app dbus ebus dbus' ebus' :
  (forall p, sb_current dbus = Some p -> 0 <= p) ->
  Forall (entry_ok app) (q_sb ebus) ->
  du_cycle app dbus ebus = Ok (dbus', ebus') ->
  Forall (entry_ok app) (q_sb ebus') /\
  (map snd (q_sb ebus') ++ q_sb dbus' = map snd (q_sb ebus) ++ q_sb dbus
   \/ (exists p, q_sb dbus = p :: q_sb dbus' /\ nlen app <= p / 4 /\ ebus' = ebus /\ sbus_can_add ebus = true)).
Proof.
  intros Hpos Hent H. destruct (du_cycle_spec app dbus ebus Hpos) as (d & e & E & Hc). rewrite E in H.
  injection H as <- <-. destruct Hc as [(_ & -> & ->) | (Hadd & -> & Hc)]; [auto|].
  rewrite q_sb_shift. rewrite (q_sb_cur dbus).
  destruct Hc as [(Ecur & ->) | [(p & Ecur & Hout & ->) | (p & i & Ecur & Hin & En & ->)]]; rewrite Ecur; cbn [olist List.app].
  - auto.
  - split; [assumption|]. right. exists p. auto.
  - rewrite (q_sb_add ebus _ Hadd). split.
    + apply Forall_app. split; [assumption|]. constructor; [|constructor]. split; cbn [fst snd]; [apply Hpos; assumption | assumption].
    + left. rewrite map_app, <- app_assoc. reflexivity.
Qed.

(* intake of the execute unit *)
Lemma intake_flow app e ebus e1 ebus1 have :
  eu_pending_read e = false ->
  Forall (entry_ok app) (q_eu e ++ q_sb ebus) ->
  (eu_processing e = true -> 1 <= eu_remaining e <= Cmax /\ eu_runner e <> None) ->
  eu_intake e ebus = (e1, ebus1, have) ->
  q_eu e1 ++ q_sb ebus1 = q_eu e ++ q_sb ebus /\
  eu_pending_read e1 = false /\
  have = eu_processing e1 /\
  (eu_processing e1 = true -> 1 <= eu_remaining e1 <= Cmax /\ eu_runner e1 <> None) /\
  (eu_processing e = false -> sb_current ebus = None -> have = false /\ e1 = e) /\
  (eu_processing e = false -> forall x, sb_current ebus = Some x ->
      e1 = mk_eu true false (eu_addrs e) (eu_memory e) (cyc_of (fst x)) (Some x)) /\
  (eu_processing e = true -> e1 = e /\ ebus1 = ebus) /\
  (eu_processing e = false -> ebus1 = mk_sbus None (sb_pending ebus)).
Proof.
  intros Hpr Hent Hproc. unfold eu_intake. destruct (eu_processing e) eqn:Ep.
  - intros H. injection H as <- <- <-. rewrite Ep. repeat split; auto; try discriminate; apply Hproc; reflexivity.
  - unfold sbus_get. destruct (sb_current ebus) as [[i pc]|] eqn:Ecur; intros H; injection H as <- <- <-.
    + unfold q_eu, q_sb. rewrite Ep, Ecur. cbn [eu_processing eu_runner olist List.app eu_pending_read eu_remaining sb_current sb_pending].
      pose proof (cyc_of_bounds i). repeat split; auto; try discriminate; try lia.
      * rewrite app_nil_r. reflexivity.
      * intros _ x Hx. injection Hx as <-. reflexivity.
    + unfold q_eu, q_sb. rewrite Ep, Ecur. cbn [olist List.app sb_current sb_pending].
      repeat split; auto; try discriminate; try (rewrite app_nil_r; reflexivity).
Qed.
