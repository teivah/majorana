(* The pipeline of MVP-6.3 (Mvp63.v) does not look at its L3 as long as no load and no store is executed:
   replacing the L3 cache of the machine state (sl3 c x) commutes with the front end (front3: the four Connect
   calls, fetch, decode, control unit - for EVERY program), with the loop over idle execute units whose queued runners
   are neither loads, stores nor branches (eus_main3_l3), with the write units when no entry of the write bus
   carries a memory change (wus_cycle3_l3), with the end of Run when both L3 hold no line (finish3_l3), and hence
   with the second half of a tick (ret_check3_l3, back3_l3). *)
From Coq Require Import ZArith List Bool Lia.
From Maj Require Import Base.Outcome Base.GoInt Base.GoTypes Isa.Spec Isa.Seq.
From Maj Require Import Gen.Latency Gen.RiscTables Gen.Opcodes Comp.Cache Comp.Rat Mvp.Mvp12 Mvp.Mvp3 Mvp.Mvp5 Mvp.Mvp60 Mvp.Mvp63.
From Maj Require Import Mvp.Mvp60Proofs Mvp.Mvp63Proofs Mvp.Mvp63Class Mvp.Mvp60RefDefs.
From Maj Require Mvp.Mvp4Skel Mvp.Mvp4Inv Mvp.Mvp62RefRel.
Import ListNotations.
Open Scope Z_scope.

Definition ml3 (c : cache) (m : mach) : mach := set_l3 m c (m_pend m).
Definition sl3 (c : cache) (x : mx) : mx := set_m x (ml3 c (x_m x)).

Lemma xm_sl3 c x : x_m (sl3 c x) = ml3 c (x_m x). Proof. reflexivity. Qed.
Lemma xebus_sl3 c x : x_ebus (sl3 c x) = x_ebus x. Proof. reflexivity. Qed.
Lemma xpend_sl3 c x : x_pend (sl3 c x) = x_pend x. Proof. reflexivity. Qed.
Lemma xprev_sl3 c x : x_prev (sl3 c x) = x_prev x. Proof. reflexivity. Qed.
Lemma xpcb_sl3 c x : x_pcb (sl3 c x) = x_pcb x. Proof. reflexivity. Qed.
Lemma xseq_sl3 c x : x_seq (sl3 c x) = x_seq x. Proof. reflexivity. Qed.
Lemma xcrat_sl3 c x : x_crat (sl3 c x) = x_crat x. Proof. reflexivity. Qed.
Lemma xtrat_sl3 c x : x_trat (sl3 c x) = x_trat x. Proof. reflexivity. Qed.
Lemma xfwd_sl3 c x : x_fwd (sl3 c x) = x_fwd x. Proof. reflexivity. Qed.
Lemma xchan_sl3 c x : x_chan (sl3 c x) = x_chan x. Proof. reflexivity. Qed.
Lemma xnext_sl3 c x : x_next (sl3 c x) = x_next x. Proof. reflexivity. Qed.
Lemma xos_sl3 c x : x_os (sl3 c x) = x_os x. Proof. reflexivity. Qed.

Lemma mregs_ml3 c m : m_regs (ml3 c m) = m_regs m. Proof. reflexivity. Qed.
Lemma mmem_ml3 c m : m_mem (ml3 c m) = m_mem m. Proof. reflexivity. Qed.
Lemma mpw_ml3 c m : m_pw (ml3 c m) = m_pw m. Proof. reflexivity. Qed.
Lemma mpr_ml3 c m : m_pr (ml3 c m) = m_pr m. Proof. reflexivity. Qed.
Lemma ml1i_ml3 c m : m_l1i (ml3 c m) = m_l1i m. Proof. reflexivity. Qed.
Lemma ml3_ml3 c m : m_l3 (ml3 c m) = c. Proof. reflexivity. Qed.
Lemma mpend_ml3 c m : m_pend (ml3 c m) = m_pend m. Proof. reflexivity. Qed.
Lemma mfu_ml3 c m : m_fu (ml3 c m) = m_fu m. Proof. reflexivity. Qed.
Lemma mdret_ml3 c m : m_dret (ml3 c m) = m_dret m. Proof. reflexivity. Qed.
Lemma mdpbr_ml3 c m : m_dpbr (ml3 c m) = m_dpbr m. Proof. reflexivity. Qed.
Lemma mcu_ml3 c m : m_cu (ml3 c m) = m_cu m. Proof. reflexivity. Qed.
Lemma mbu_ml3 c m : m_bu (ml3 c m) = m_bu m. Proof. reflexivity. Qed.
Lemma mdbus_ml3 c m : m_dbus (ml3 c m) = m_dbus m. Proof. reflexivity. Qed.
Lemma mcbus_ml3 c m : m_cbus (ml3 c m) = m_cbus m. Proof. reflexivity. Qed.
Lemma mebus_ml3 c m : m_ebus (ml3 c m) = m_ebus m. Proof. reflexivity. Qed.
Lemma mwbus_ml3 c m : m_wbus (ml3 c m) = m_wbus m. Proof. reflexivity. Qed.

Lemma set_m_sl3 c x m : set_m (sl3 c x) m = set_m x m. Proof. reflexivity. Qed.
Lemma set_m_ml3 c x m : set_m x (ml3 c m) = sl3 c (set_m x m). Proof. reflexivity. Qed.
Lemma set_ebus3_sl3 c x b : set_ebus3 (sl3 c x) b = sl3 c (set_ebus3 x b). Proof. reflexivity. Qed.
Lemma set_pend3_sl3 c x b : set_pend3 (sl3 c x) b = sl3 c (set_pend3 x b). Proof. reflexivity. Qed.
Lemma set_prev3_sl3 c x b : set_prev3 (sl3 c x) b = sl3 c (set_prev3 x b). Proof. reflexivity. Qed.
Lemma set_pcb3_sl3 c x b : set_pcb3 (sl3 c x) b = sl3 c (set_pcb3 x b). Proof. reflexivity. Qed.
Lemma set_seq3_sl3 c x b : set_seq3 (sl3 c x) b = sl3 c (set_seq3 x b). Proof. reflexivity. Qed.
Lemma set_rats3_sl3 c x a b : set_rats3 (sl3 c x) a b = sl3 c (set_rats3 x a b). Proof. reflexivity. Qed.
Lemma set_fwd3_sl3 c x b : set_fwd3 (sl3 c x) b = sl3 c (set_fwd3 x b). Proof. reflexivity. Qed.
Lemma set_chan3_sl3 c x b : set_chan3 (sl3 c x) b = sl3 c (set_chan3 x b). Proof. reflexivity. Qed.
Lemma set_next3_sl3 c x b : set_next3 (sl3 c x) b = sl3 c (set_next3 x b). Proof. reflexivity. Qed.
Lemma set_os3_sl3 c x b : set_os3 (sl3 c x) b = sl3 c (set_os3 x b). Proof. reflexivity. Qed.
Lemma inc_seq3_sl3 c x : inc_seq3 (sl3 c x) = sl3 c (inc_seq3 x). Proof. reflexivity. Qed.
Lemma set_forward3_sl3 c x pc r v : set_forward3 (sl3 c x) pc r v = sl3 c (set_forward3 x pc r v). Proof. reflexivity. Qed.
Lemma or_os_sl3 c x b : or_os (sl3 c x) b = sl3 c (or_os x b). Proof. reflexivity. Qed.
Lemma sequence_id_sl3 c x pc : sequence_id (sl3 c x) pc = sequence_id x pc. Proof. reflexivity. Qed.
Lemma hazards_of_sl3 c x i : hazards_of (sl3 c x) i = hazards_of x i. Proof. reflexivity. Qed.
Lemma rr3_sl3 c x pc : rr3 (sl3 c x) pc = rr3 x pc. Proof. reflexivity. Qed.
Lemma wbus_connect3_sl3 c x cy : wbus_connect3 (sl3 c x) cy = sl3 c (wbus_connect3 x cy). Proof. reflexivity. Qed.
Lemma connected3_sl3 c x cy : connected3 (sl3 c x) cy = sl3 c (connected3 x cy). Proof. reflexivity. Qed.
Lemma fu_reset3_sl3 c x pc : fu_reset3 (sl3 c x) pc = sl3 c (fu_reset3 x pc). Proof. reflexivity. Qed.

Lemma set_regs_ml3 c m v : set_regs (ml3 c m) v = ml3 c (set_regs m v). Proof. reflexivity. Qed.
Lemma set_mem_ml3 c m v : set_mem (ml3 c m) v = ml3 c (set_mem m v). Proof. reflexivity. Qed.
Lemma set_sb_ml3 c m a b : set_sb (ml3 c m) a b = ml3 c (set_sb m a b). Proof. reflexivity. Qed.
Lemma set_l1i_ml3 c m v : set_l1i (ml3 c m) v = ml3 c (set_l1i m v). Proof. reflexivity. Qed.
Lemma set_fu_ml3 c m v : set_fu (ml3 c m) v = ml3 c (set_fu m v). Proof. reflexivity. Qed.
Lemma set_du_ml3 c m a b : set_du (ml3 c m) a b = ml3 c (set_du m a b). Proof. reflexivity. Qed.
Lemma set_cu_ml3 c m v : set_cu (ml3 c m) v = ml3 c (set_cu m v). Proof. reflexivity. Qed.
Lemma set_bu_ml3 c m v : set_bu (ml3 c m) v = ml3 c (set_bu m v). Proof. reflexivity. Qed.
Lemma set_dbus_ml3 c m v : set_dbus (ml3 c m) v = ml3 c (set_dbus m v). Proof. reflexivity. Qed.
Lemma set_cbus_ml3 c m v : set_cbus (ml3 c m) v = ml3 c (set_cbus m v). Proof. reflexivity. Qed.
Lemma set_ebus_ml3 c m v : set_ebus (ml3 c m) v = ml3 c (set_ebus m v). Proof. reflexivity. Qed.
Lemma set_wbus_ml3 c m v : set_wbus (ml3 c m) v = ml3 c (set_wbus m v). Proof. reflexivity. Qed.
Lemma add_pending6_ml3 c m a b : add_pending6 (ml3 c m) a b = ml3 c (add_pending6 m a b). Proof. reflexivity. Qed.
Lemma del_pending6_ml3 c m a b : del_pending6 (ml3 c m) a b = ml3 c (del_pending6 m a b). Proof. reflexivity. Qed.

#[export] Hint Rewrite xm_sl3 xebus_sl3 xpend_sl3 xprev_sl3 xpcb_sl3 xseq_sl3 xcrat_sl3 xtrat_sl3 xfwd_sl3 xchan_sl3 xnext_sl3 xos_sl3
  mregs_ml3 mmem_ml3 mpw_ml3 mpr_ml3 ml1i_ml3 ml3_ml3 mpend_ml3 mfu_ml3 mdret_ml3 mdpbr_ml3 mcu_ml3 mbu_ml3 mdbus_ml3 mcbus_ml3 mebus_ml3 mwbus_ml3
  set_m_sl3 set_m_ml3 set_ebus3_sl3 set_pend3_sl3 set_prev3_sl3 set_pcb3_sl3 set_seq3_sl3 set_rats3_sl3 set_fwd3_sl3 set_chan3_sl3
  set_next3_sl3 set_os3_sl3 inc_seq3_sl3 set_forward3_sl3 or_os_sl3 sequence_id_sl3 hazards_of_sl3 rr3_sl3 wbus_connect3_sl3 connected3_sl3
  fu_reset3_sl3 set_regs_ml3 set_mem_ml3 set_sb_ml3 set_l1i_ml3 set_fu_ml3 set_du_ml3 set_cu_ml3 set_bu_ml3 set_dbus_ml3 set_cbus_ml3
  set_ebus_ml3 set_wbus_ml3 add_pending6_ml3 del_pending6_ml3 : l3.

Definition lo_x (c : cache) (o : outcome mx) : outcome mx :=
  match o with Ok x => Ok (sl3 c x) | Err e => Err e | Panic => Panic end.

Lemma du_loop3_l3 c app cycle : forall q ret pbr cbus x,
  du_loop3 q app cycle ret pbr cbus (sl3 c x) =
  match du_loop3 q app cycle ret pbr cbus x with
  | Ok (a, b, q', cb, x') => Ok (a, b, q', cb, sl3 c x')
  | Err e => Err e
  | Panic => Panic
  end.
Proof.
  induction q as [|pc q' IH]; intros ret pbr cbus x; [reflexivity|].
  cbn [du_loop3]. destruct (nlen6 app <=? Z.quot pc 4); [reflexivity|].
  destruct (Z.quot pc 4 <? 0); [reflexivity|].
  destruct (nth_error app (Z.to_nat (Z.quot pc 4))) as [i|]; [|reflexivity].
  cbv zeta. rewrite set_forward3_sl3, sequence_id_sl3.
  destruct (InstructionType_IsUnconditionalBranch _); [reflexivity|].
  destruct (_ =? Ret); [reflexivity|]. apply IH.
Qed.

Lemma du_cycle3_l3 c app cycle x : du_cycle3 app cycle (sl3 c x) = lo_x c (du_cycle3 app cycle x).
Proof.
  unfold du_cycle3. cbv zeta. rewrite xm_sl3, !mdret_ml3, !mdpbr_ml3, !mdbus_ml3, !mcbus_ml3.
  destruct (m_dret (x_m x)); [reflexivity|]. destruct (m_dpbr (x_m x)); [reflexivity|].
  rewrite du_loop3_l3.
  destruct (du_loop3 (bb_q (m_dbus (x_m x))) app cycle false false (m_cbus (x_m x)) x) as [[[[[a b] q'] cb] x1]|er|]; [|reflexivity|reflexivity].
  reflexivity.
Qed.

Lemma push_runner3_l3 c x cycle r :
  push_runner3 (sl3 c x) cycle r = match push_runner3 x cycle r with Some (x', r') => Some (sl3 c x', r') | None => None end.
Proof.
  unfold push_runner3. rewrite xebus_sl3. destruct (negb (bb_canadd (x_ebus x))); [reflexivity|].
  reflexivity.
Qed.

Lemma push_or_stop3_l3 c x cycle r stop :
  push_or_stop3 (sl3 c x) cycle r stop = let '(p, s, r', x') := push_or_stop3 x cycle r stop in (p, s, r', sl3 c x').
Proof. unfold push_or_stop3. rewrite push_runner3_l3. destruct (push_runner3 x cycle r) as [[x' r']|]; reflexivity. Qed.

Lemma should_forward3_l3 c ord cycle x r hz : should_forward3 ord cycle (sl3 c x) r hz = should_forward3 ord cycle x r hz.
Proof. reflexivity. Qed.
Lemma forward_order_matters_l3 c x r : forward_order_matters (sl3 c x) r = forward_order_matters x r.
Proof. reflexivity. Qed.

Lemma handle_runner3_l3 c ord cycle x skipped pb r :
  handle_runner3 ord cycle (sl3 c x) skipped pb r = let '(p, s, r', x') := handle_runner3 ord cycle x skipped pb r in (p, s, r', sl3 c x').
Proof.
  unfold handle_runner3. cbv zeta. rewrite xebus_sl3, xpcb_sl3, hazards_of_sl3, should_forward3_l3.
  destruct (_ && pb); [reflexivity|]. destruct (_ && _); [reflexivity|]. destruct (skipped_hazard3 _ _); [reflexivity|].
  destruct (zlen (hazards_of x (q_instr r)) =? 0); [apply push_or_stop3_l3|].
  destruct (should_forward3 ord cycle x r (hazards_of x (q_instr r))) as [[p reg]|].
  - rewrite xnext_sl3, xos_sl3, forward_order_matters_l3. autorewrite with l3. apply push_or_stop3_l3.
  - destruct (should_rename3 _); [apply push_or_stop3_l3|reflexivity].
Qed.

Lemma after_push3_l3 c x l r : after_push3 (sl3 c x) l r = let '(x', l') := after_push3 x l r in (sl3 c x', l').
Proof. unfold after_push3. cbv zeta. destruct (InstructionType_IsConditionalBranch _); reflexivity. Qed.

Lemma cu_pending3_l3 c ord cycle : forall ps kept l x,
  cu_pending3 ord cycle ps kept l (sl3 c x) = let '(st, q, l', x') := cu_pending3 ord cycle ps kept l x in (st, q, l', sl3 c x').
Proof.
  induction ps as [|r t IH]; intros kept l x; [reflexivity|].
  cbn [cu_pending3]. rewrite handle_runner3_l3.
  destruct (handle_runner3 ord cycle x (l_skipped l) (l_pbranch l) r) as [[[push stop] r1] x1].
  destruct push.
  - rewrite after_push3_l3. destruct (after_push3 x1 l r1) as [x2 l2]. destruct stop; [reflexivity|apply IH].
  - destruct stop; [reflexivity|apply IH].
Qed.

Lemma cu_incoming3_l3 c ord cycle : forall q pend l x,
  cu_incoming3 ord cycle q pend l (sl3 c x) = let '(q', p', l', x') := cu_incoming3 ord cycle q pend l x in (q', p', l', sl3 c x').
Proof.
  induction q as [|r0 q' IH]; intros pend l x; cbn [cu_incoming3].
  - destruct (pendingLength <=? zlen pend); reflexivity.
  - destruct (pendingLength <=? zlen pend); [reflexivity|]. rewrite handle_runner3_l3.
    destruct (handle_runner3 ord cycle x (l_skipped l) (l_pbranch l) (r3_of r0)) as [[[push stop] r1] x1].
    destruct push.
    + rewrite after_push3_l3. destruct (after_push3 x1 l r1) as [x2 l2]. destruct stop; [reflexivity|apply IH].
    + destruct stop; [reflexivity|apply IH].
Qed.

Lemma cu_cycle3_l3 c ord cycle x : cu_cycle3 ord cycle (sl3 c x) = sl3 c (cu_cycle3 ord cycle x).
Proof.
  unfold cu_cycle3. rewrite xebus_sl3, xpend_sl3. destruct (negb (bb_canadd (x_ebus x))); [reflexivity|].
  rewrite cu_pending3_l3. destruct (cu_pending3 ord cycle (x_pend x) [] (mk_cul [] [] false) x) as [[[st p1] l1] x1].
  destruct st; [reflexivity|].
  rewrite xm_sl3, mcbus_ml3, cu_incoming3_l3.
  destruct (cu_incoming3 ord cycle (bb_q (m_cbus (x_m x1))) p1 l1 x1) as [[[q' p2] l2] x2].
  reflexivity.
Qed.

Lemma front3_l3 c app ord cycle x : front3 app ord cycle (sl3 c x) = lo_x c (front3 app ord cycle x).
Proof.
  rewrite !front3_eq, connected3_sl3. rewrite xm_sl3, mfu_ml3, ml1i_ml3, mdbus_ml3.
  destruct (fu_cycle6 app cycle (m_fu (x_m (connected3 x cycle))) (m_l1i (x_m (connected3 x cycle))) (m_dbus (x_m (connected3 x cycle))))
    as [[[fu1 l1i1] dbus1]|er|]; [|reflexivity|reflexivity].
  autorewrite with l3. rewrite du_cycle3_l3.
  destruct (du_cycle3 app cycle _) as [x1|er|]; [|reflexivity|reflexivity].
  cbn [lo_x]. rewrite cu_cycle3_l3. reflexivity.
Qed.

Definition NMB (r : runner3) : Prop := Mvp4Skel.nomem (q_instr r) = true /\ nobranch (q_instr r) = true.

Definition lo3 (c : cache) (o : outcome (mx * eu3 * eu_out3)) : outcome (mx * eu3 * eu_out3) :=
  match o with Ok (x, e, out) => Ok (sl3 c x, e, out) | Err e => Err e | Panic => Panic end.
Definition lr3 (c : cache) (r : eu_res3) : eu_res3 := (fst r, lo3 c (snd r)).

Lemma bu_assert3_sl3 c x r : bu_assert3 (sl3 c x) r = sl3 c (bu_assert3 x r).
Proof.
  unfold bu_assert3. cbv zeta. rewrite xm_sl3, mbu_ml3.
  destruct (InstructionType_IsUnconditionalBranch _); [destruct (btb_get _ _); reflexivity|].
  destruct (InstructionType_IsConditionalBranch _); reflexivity.
Qed.

Lemma eu_run3_l3 c labels ord cycle x e r : g_runner e = Some r -> NMB r ->
  eu_run3 labels ord cycle (sl3 c x) e = lr3 c (eu_run3 labels ord cycle x e).
Proof.
  intros ER [HN HB]. unfold eu_run3. rewrite ER. cbv zeta. rewrite rr3_sl3.
  destruct (instr_Run (q_instr r) (rr3 x (q_pc r)) labels (q_pc r) (g_memory e) 0) as [exe|er|] eqn:EX; [|reflexivity|reflexivity].
  rewrite (Mvp62RefRel.nomem_nochange _ _ _ _ _ _ _ HN EX).
  rewrite (run_nobranch_pc _ _ _ _ _ _ _ HN HB EX).
  destruct (Return exe); [reflexivity|].
  cbn [andb bind]. cbv beta iota zeta. unfold lr3. cbn [fst snd].
  destruct (q_fwder r) as [ch|].
  - change (x_chan (set_m (set_forward3 (sl3 c x) (q_pc r) 0 0)
              (set_wbus (x_m (set_forward3 (sl3 c x) (q_pc r) 0 0))
                 (bb_add (m_wbus (x_m (set_forward3 (sl3 c x) (q_pc r) 0 0)))
                    (mk_wb6 (q_seq r) exe (instr_ReadRegisters (q_instr r)) (instr_WriteRegisters (q_instr r))) cycle))))
      with (x_chan x).
    change (x_chan (set_m (set_forward3 x (q_pc r) 0 0)
              (set_wbus (x_m (set_forward3 x (q_pc r) 0 0))
                 (bb_add (m_wbus (x_m (set_forward3 x (q_pc r) 0 0)))
                    (mk_wb6 (q_seq r) exe (instr_ReadRegisters (q_instr r)) (instr_WriteRegisters (q_instr r))) cycle))))
      with (x_chan x).
    destruct (aget ch (x_chan x)); [reflexivity|]. destruct (InstructionType_IsBranch _); reflexivity.
  - rewrite (nobranch_uncond _ HB), (nobranch_cond _ HB). reflexivity.
Qed.

Lemma eu_prepare3_l3 c labels ord cycle x e r : g_runner e = Some r -> NMB r ->
  eu_prepare3 labels ord cycle (sl3 c x) e = lr3 c (eu_prepare3 labels ord cycle x e).
Proof.
  intros ER HN. unfold eu_prepare3. rewrite xm_sl3, mwbus_ml3, ER, xchan_sl3.
  destruct (negb (bb_canadd (m_wbus (x_m x)))); [reflexivity|].
  destruct (q_recv r) as [ch|].
  - destruct (aget ch (x_chan x)) as [v|]; [|reflexivity]. cbv beta iota zeta.
    rewrite set_chan3_sl3, set_forward3_sl3, bu_assert3_sl3, rr3_sl3.
    rewrite !Mvp4Inv.nomem_no_read by exact (proj1 HN).
    apply (eu_run3_l3 c labels ord cycle _ _ (mk_r3 (q_r r) (q_id r) (q_fwder r) None (q_freg r))); [reflexivity|exact HN].
  - cbv beta iota zeta. rewrite bu_assert3_sl3, rr3_sl3.
    rewrite !Mvp4Inv.nomem_no_read by exact (proj1 HN).
    apply (eu_run3_l3 c labels ord cycle _ _ r); [reflexivity|exact HN].
Qed.

Lemma eu_cycle3_l3 c labels ord cycle x e : g_co e = ENone -> Forall NMB (bb_q (x_ebus x)) ->
  eu_cycle3 labels ord cycle (sl3 c x) e = lr3 c (eu_cycle3 labels ord cycle x e).
Proof.
  intros HC HQ. unfold eu_cycle3. destruct (eu_pre3 e); [reflexivity|]. rewrite HC, xebus_sl3. unfold bb_get.
  destruct (bb_q (x_ebus x)) as [|r q'] eqn:EQ; [reflexivity|]. inversion HQ as [|? ? HN HT]; subst.
  rewrite set_ebus3_sl3. apply (eu_prepare3_l3 c labels ord cycle _ _ r); [reflexivity|exact HN].
Qed.

(* the execute bus after a unit has run *)
Lemma eu_run3_fr labels ord cycle x e r os x' e' o : eu_run3 labels ord cycle x e = (os, Ok (x', e', o)) -> g_runner e = Some r -> NMB r ->
  x_ebus x' = x_ebus x.
Proof.
  intros H ER [HN HB]. unfold eu_run3, quiet3 in H. rewrite ER in H. cbv zeta in H.
  destruct (instr_Run (q_instr r) (rr3 x (q_pc r)) labels (q_pc r) (g_memory e) 0) as [exe|er|] eqn:EX; [| |discriminate H].
  2: { inversion H; subst. reflexivity. }
  rewrite (Mvp62RefRel.nomem_nochange _ _ _ _ _ _ _ HN EX) in H.
  rewrite (run_nobranch_pc _ _ _ _ _ _ _ HN HB EX) in H.
  destruct (Return exe); [inversion H; subst; reflexivity|].
  cbn [andb bind] in H. cbv beta iota zeta in H.
  destruct (q_fwder r) as [ch|].
  - destruct (aget ch _); [discriminate H|]. destruct (InstructionType_IsBranch _); [discriminate H|]. inversion H; subst. reflexivity.
  - rewrite (nobranch_uncond _ HB), (nobranch_cond _ HB) in H. inversion H; subst. reflexivity.
Qed.

Lemma eu_prepare3_fr labels ord cycle x e r os x' e' o : eu_prepare3 labels ord cycle x e = (os, Ok (x', e', o)) -> g_runner e = Some r -> NMB r ->
  x_ebus x' = x_ebus x.
Proof.
  intros H ER HN. unfold eu_prepare3, quiet3 in H. rewrite ER in H.
  destruct (negb (bb_canadd (m_wbus (x_m x)))); [inversion H; subst; reflexivity|].
  destruct (q_recv r) as [ch|].
  - destruct (aget ch (x_chan x)) as [v|]; [|inversion H; subst; reflexivity]. cbv beta iota zeta in H.
    rewrite Mvp4Inv.nomem_no_read in H by exact (proj1 HN).
    apply (eu_run3_fr _ _ _ _ _ (mk_r3 (q_r r) (q_id r) (q_fwder r) None (q_freg r))) in H; [|reflexivity|exact HN].
    rewrite H, bu_assert3_ebus. reflexivity.
  - cbv beta iota zeta in H. rewrite Mvp4Inv.nomem_no_read in H by exact (proj1 HN).
    apply (eu_run3_fr _ _ _ _ _ r) in H; [|reflexivity|exact HN].
    rewrite H, bu_assert3_ebus. reflexivity.
Qed.

Lemma eu_cycle3_fr labels ord cycle x e os x' e' o : eu_cycle3 labels ord cycle x e = (os, Ok (x', e', o)) -> g_co e = ENone ->
  Forall NMB (bb_q (x_ebus x)) -> Forall NMB (bb_q (x_ebus x')).
Proof.
  intros H HC HQ. unfold eu_cycle3, quiet3 in H. destruct (eu_pre3 e); [inversion H; subst; exact HQ|]. rewrite HC in H. unfold bb_get in H.
  destruct (bb_q (x_ebus x)) as [|r q'] eqn:EQ; [inversion H; subst; rewrite EQ; exact HQ|]. inversion HQ as [|? ? HN HT]; subst.
  apply (eu_prepare3_fr _ _ _ _ _ r) in H; [|reflexivity|exact HN]. rewrite H. exact HT.
Qed.

Definition lo_eus {A} (c : cache) (o : outcome (mx * list eu3 * A)) : outcome (mx * list eu3 * A) :=
  match o with Ok (x, l, a) => Ok (sl3 c x, l, a) | Err e => Err e | Panic => Panic end.

Lemma eus_main3_l3 c labels ord cycle : forall eus x acc, Forall (fun e => g_co e = ENone) eus -> Forall NMB (bb_q (x_ebus x)) ->
  eus_main3 labels ord cycle (sl3 c x) eus acc =
  (fst (eus_main3 labels ord cycle x eus acc), lo_eus c (snd (eus_main3 labels ord cycle x eus acc))).
Proof.
  induction eus as [|e t IH]; intros x acc HE HQ; [reflexivity|]. inversion HE as [|? ? HE1 HET]; subst.
  cbn [eus_main3]. cbv zeta.
  rewrite (eu_cycle3_l3 c labels ord cycle x (mk_eu3 (g_co e) (g_memory e) (g_runner e) (y_seq acc)) HE1 HQ).
  destruct (eu_cycle3 labels ord cycle x (mk_eu3 (g_co e) (g_memory e) (g_runner e) (y_seq acc))) as [os1 r1] eqn:E1.
  unfold lr3. cbn [fst snd].
  destruct r1 as [[[x1 e1] o]|er|]; cbn [lo3]; [|reflexivity|reflexivity].
  destruct (y_err o); [reflexivity|].
  pose proof (eu_cycle3_fr _ _ _ _ _ _ _ _ _ E1 HE1 HQ) as HQ1.
  rewrite (IH x1 _ HET HQ1).
  destruct (eus_main3 labels ord cycle x1 t _) as [os2 r]. cbn [fst snd].
  destruct r as [[[x2 t'] a2]|er|]; reflexivity.
Qed.

Definition MC (x : mx) : Prop := Forall (fun e => MemoryChange (w_exe e) = false) (bb_q (m_wbus (x_m x))).

Definition lo_w {A} (c : cache) (o : outcome (mx * A)) : outcome (mx * A) :=
  match o with Ok (x, a) => Ok (sl3 c x, a) | Err e => Err e | Panic => Panic end.

Lemma wu_cycle3_l3 c x w b : u_co w = WNone -> MC x -> wu_cycle3 (sl3 c x) w b = lo_w c (wu_cycle3 x w b).
Proof.
  intros HW HQ. unfold wu_cycle3. rewrite HW. cbv zeta. rewrite xm_sl3, mwbus_ml3. unfold bb_get. unfold MC in HQ.
  destruct (bb_q (m_wbus (x_m x))) as [|e t]; cbv beta iota zeta; [reflexivity|]. inversion HQ as [|? ? H1 HT]; subst.
  destruct (negb (b =? -1) && (b <? w_seq e)); [reflexivity|]. destruct (RegisterChange (w_exe e)); [reflexivity|]. rewrite H1. reflexivity.
Qed.

(* a write unit takes the head of the queue of the write bus or leaves the queue alone *)
Lemma wu_cycle3_queue x w b x' w' (P : wb6 -> Prop) : wu_cycle3 x w b = Ok (x', w') -> u_co w = WNone -> MC x ->
  Forall P (bb_q (m_wbus (x_m x))) -> Forall P (bb_q (m_wbus (x_m x'))).
Proof.
  intros H HW HQ HP. unfold wu_cycle3 in H. rewrite HW in H. cbv zeta in H. unfold bb_get in H. unfold MC in *.
  destruct (bb_q (m_wbus (x_m x))) as [|e t] eqn:EQ; cbv beta iota zeta in H.
  - inversion H; subst. cbn [set_m x_m set_wbus m_wbus]. rewrite EQ. constructor.
  - inversion HQ as [|? ? H1 _]; subst. inversion HP as [|? ? _ HT]; subst.
    destruct (negb (b =? -1) && (b <? w_seq e)); [inversion H; subst; exact HT|].
    destruct (RegisterChange (w_exe e)); [inversion H; subst; exact HT|].
    rewrite H1 in H. inversion H; subst. exact HT.
Qed.

Lemma wu_cycle3_mc x w b x' w' : wu_cycle3 x w b = Ok (x', w') -> u_co w = WNone -> MC x -> MC x'.
Proof. intros H HW HQ. exact (wu_cycle3_queue _ _ _ _ _ _ H HW HQ HQ). Qed.

Lemma wus_cycle3_l3 c : forall wus x b, Forall (fun u => u_co u = WNone) wus -> MC x ->
  wus_cycle3 (sl3 c x) wus b = lo_w c (wus_cycle3 x wus b).
Proof.
  induction wus as [|w t IH]; intros x b HW HQ; [reflexivity|]. inversion HW as [|? ? HW1 HWT]; subst.
  cbn [wus_cycle3]. rewrite (wu_cycle3_l3 c x w b HW1 HQ).
  destruct (wu_cycle3 x w b) as [[x1 w1]|er|] eqn:E1; [|reflexivity|reflexivity].
  cbn [lo_w bind fst snd]. rewrite (IH x1 b HWT (wu_cycle3_mc _ _ _ _ _ E1 HW1 HQ)).
  destruct (wus_cycle3 x1 t b) as [[x2 t2]|er|]; reflexivity.
Qed.

Lemma finish3_l3 c ord x cy : lines c = [] -> lines (m_l3 (x_m x)) = [] -> finish3 ord (sl3 c x) cy = finish3 ord x cy.
Proof. intros H1 H2. unfold finish3. rewrite xm_sl3, ml3_ml3, mmem_ml3, H1, H2. reflexivity. Qed.

Lemma is_empty3_l3 c x eus wus : is_empty3 (sl3 c x) eus wus = is_empty3 x eus wus.
Proof. reflexivity. Qed.

Definition sl3s (c : cache) (s : st3) : st3 := mk_st3 (sl3 c (t_x s)) (t_eus s) (t_wus s) (t_cycle s) (t_mode s).
Definition lift_step (c : cache) (r : step_res3) : step_res3 :=
  match r with TDone r os => TDone r os | TCont s' => TCont (sl3s c s') end.

Lemma ret_check3_l3 c ord x eus wus cy : lines c = [] -> lines (m_l3 (x_m x)) = [] ->
  ret_check3 ord (mk_st3 (sl3 c x) eus wus cy NRet) = lift_step c (ret_check3 ord (mk_st3 x eus wus cy NRet)).
Proof.
  intros H1 H2. unfold ret_check3. cbn [t_eus t_wus t_x t_cycle]. rewrite xm_sl3, mwbus_ml3.
  destruct (forallb eu_empty3 eus && forallb wu_empty wus && bb_isempty (m_wbus (x_m x))); cbn [lift_step]; [|reflexivity].
  rewrite (finish3_l3 c ord x cy H1 H2). reflexivity.
Qed.

Lemma back3_l3 c ord s cy x eus1 o : lines c = [] -> MC x -> Forall (fun u => u_co u = WNone) (t_wus s) ->
  (forall b x1 wus1, wus_cycle3 x (t_wus s) b = Ok (x1, wus1) -> lines (m_l3 (x_m x1)) = []) ->
  back3 ord (sl3s c s) cy (sl3 c x, eus1, o) = lift_step c (back3 ord s cy (x, eus1, o)).
Proof.
  intros H1 HQ HW HL. unfold back3. cbn [sl3s t_wus]. destruct (y_err o); [reflexivity|].
  rewrite (wus_cycle3_l3 c (t_wus s) x _ HW HQ).
  destruct (wus_cycle3 x (t_wus s) (if y_flush o then y_seq o else -1)) as [[x1 wus1]|er|] eqn:EW; [|reflexivity|reflexivity].
  cbn [lo_w res_of3]. pose proof (HL _ _ _ EW) as HL1.
  destruct (y_ret o).
  - rewrite wbus_connect3_sl3. apply ret_check3_l3; [exact H1|exact HL1].
  - destruct (y_flush o); [reflexivity|]. rewrite is_empty3_l3.
    destruct (is_empty3 x1 eus1 wus1); [|reflexivity]. cbn [lift_step]. rewrite (finish3_l3 c ord x1 cy H1 HL1). reflexivity.
Qed.

Print Assumptions front3_l3.
Print Assumptions eus_main3_l3.
Print Assumptions wus_cycle3_l3.
Print Assumptions finish3_l3.
Print Assumptions back3_l3.
