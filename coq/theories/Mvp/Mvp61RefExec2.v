(* MVP-6.1 refinement: an idle execute unit takes ANY instruction x of the segment from the head of the
   execute bus - conditional branches and jumps included - and runs it at once (eu_exec2); the response
   is bresp x: nothing, ret, or a flush request with the sequence id of x and the target.  exec_fin is
   the end of run() for an instruction without Forwarder (jump resolved, pendingConditionalBranch
   cleared, shouldFlush). *)
From Coq Require Import ZArith List Bool Lia Permutation.
From Maj Require Import Base.Outcome Base.GoInt Base.GoTypes Isa.Spec Isa.Embed Isa.Seq Isa.Refine.
From Maj Require Import Gen.Latency Gen.RiscTables Gen.Opcodes Comp.Cache.
From Maj Require Import Mvp.Mvp12 Mvp.Mvp12Proofs Mvp.Mvp3 Mvp.Mvp3Proofs Mvp.Mvp4Skel Mvp.Mvp4Inv Mvp.Mvp5 Mvp.Mvp60 Mvp.Mvp61
     Mvp.Mvp60RefSem Mvp.Mvp60RefDefs Mvp.Mvp60RefFront Mvp.Mvp60RefBack Mvp.Mvp60RefStep
     Mvp.Mvp61RefSem Mvp.Mvp61RefFront Mvp.Mvp61RefBack Mvp.Mvp61RefInv Mvp.Mvp61RefExec.
Import ListNotations.
Open Scope Z_scope.

(* the end of run() when the runner has no Forwarder *)
Definition exec_fin (m2 : mach1) (ty pc : Z) (exe : execution) (sidv : Z) : mach1 * resp1 :=
  let m3 := if InstructionType_IsUnconditionalBranch ty then bu_resolved1 m2 pc (NextPc exe) else m2 in
  let m4 := if InstructionType_IsConditionalBranch ty then set_x m3 (xs_pcb (y_x m3) false) else m3 in
  if PcChange exe then
    let '(b', fl) := bu_should_flush6 (m_bu (y_m m4)) (NextPc exe) in
    (set_m m4 (set_bu (y_m m4) b'), if fl then mk_resp1 true sidv (NextPc exe) false None else resp0)
  else (m4, resp0).

(* what an execute unit leaves alone, whatever it executes *)
Record EuFrameW (m m1 : mach1) : Prop := mkEFW {
  w1_regs : m_regs (y_m m1) = m_regs (y_m m); w1_mem : m_mem (y_m m1) = m_mem (y_m m);
  w1_pw : m_pw (y_m m1) = m_pw (y_m m); w1_pr : m_pr (y_m m1) = m_pr (y_m m);
  w1_l1i : m_l1i (y_m m1) = m_l1i (y_m m); w1_l3 : m_l3 (y_m m1) = m_l3 (y_m m); w1_pend : m_pend (y_m m1) = m_pend (y_m m);
  w1_dret : m_dret (y_m m1) = m_dret (y_m m); w1_cu : m_cu (y_m m1) = m_cu (y_m m);
  w1_dbus : m_dbus (y_m m1) = m_dbus (y_m m); w1_cbus : m_cbus (y_m m1) = m_cbus (y_m m); w1_ebus : m_ebus (y_m m1) = m_ebus (y_m m);
  w1_wq : bb_q (m_wbus (y_m m1)) = bb_q (m_wbus (y_m m)); w1_wql : bb_ql (m_wbus (y_m m1)) = bb_ql (m_wbus (y_m m));
  w1_wbl : bb_bl (m_wbus (y_m m1)) = bb_bl (m_wbus (y_m m));
  w1_fwd : x_fwd (y_x m1) = x_fwd (y_x m); w1_xcu : x_cu (y_x m1) = x_cu (y_x m);
  w1_prev : x_prev (y_x m1) = x_prev (y_x m); w1_xcbus : x_cbus (y_x m1) = x_cbus (y_x m);
  w1_nch : x_nch (y_x m1) = x_nch (y_x m); w1_nid : x_nid (y_x m1) = x_nid (y_x m);
  w1_ebuf : bb_buf (x_ebus (y_x m1)) = bb_buf (x_ebus (y_x m)); w1_eql : bb_ql (x_ebus (y_x m1)) = bb_ql (x_ebus (y_x m));
  w1_ebl : bb_bl (x_ebus (y_x m1)) = bb_bl (x_ebus (y_x m)) }.

Lemma EuFrameW_refl m : EuFrameW m m.
Proof. constructor; reflexivity. Qed.
Lemma EuFrameW_trans a b c : EuFrameW a b -> EuFrameW b c -> EuFrameW a c.
Proof. intros [] []. constructor; congruence. Qed.
Lemma EuFrame1_W m m1 : EuFrame1 m m1 -> EuFrameW m m1.
Proof. intros []. constructor; assumption. Qed.

(* exec_fin changes the branch unit, the fetch unit (a resolved jump), the decode flag,
   ctx.sequenceID and pendingConditionalBranch only *)
Lemma exec_fin_frame m2 ty pc exe sidv :
  let m5 := fst (exec_fin m2 ty pc exe sidv) in
  EuFrameW m2 m5 /\ m_wbus (y_m m5) = m_wbus (y_m m2) /\ x_ebus (y_x m5) = x_ebus (y_x m2) /\ x_ch (y_x m5) = x_ch (y_x m2) /\
  (x_pcb (y_x m5) = true -> x_pcb (y_x m2) = true /\ InstructionType_IsConditionalBranch ty = false) /\
  (InstructionType_IsUnconditionalBranch ty = false ->
     m_fu (y_m m5) = m_fu (y_m m2) /\ m_dpbr (y_m m5) = m_dpbr (y_m m2) /\ b_btb (m_bu (y_m m5)) = b_btb (m_bu (y_m m2)) /\
     x_seq (y_x m5) = x_seq (y_x m2)) /\
  b_btb (m_bu (y_m m5)) = (if InstructionType_IsUnconditionalBranch ty then btb_add (b_btb (m_bu (y_m m2))) pc (NextPc exe) else b_btb (m_bu (y_m m2))) /\
  (x_seq (y_x m5) = x_seq (y_x m2) \/ x_seq (y_x m5) = addS 32 (x_seq (y_x m2)) 1).
Proof.
  cbv zeta. unfold exec_fin.
  destruct (InstructionType_IsUnconditionalBranch ty), (InstructionType_IsConditionalBranch ty), (PcChange exe);
    unfold bu_should_flush6, bu_resolved1, bu_resolved6, inc_seq;
    cbn [set_m set_x y_m y_x set_bu set_fu set_du m_bu b_check b_expect b_btb xs_pcb xs_seq];
    repeat match goal with |- context [if ?c then _ else _] => destruct c end;
    cbn [fst set_m set_x y_m y_x set_bu set_fu set_du m_bu m_wbus m_fu m_dpbr b_check b_expect b_btb xs_pcb xs_seq x_pcb x_ebus x_ch x_seq];
    (split; [constructor; reflexivity|]); repeat split; try reflexivity; try discriminate; auto;
    try (destruct (y_x m2); reflexivity); try (intros H; destruct (y_x m2); cbn in H; try discriminate H; auto);
    try (left; destruct (y_x m2); reflexivity); try (right; destruct (y_x m2); reflexivity).
Qed.

Section Exec2.
  Variables (app : list instr) (labels : Z -> option Z) (regs0 mem0 : list Z) (base : nat) (sq : Z).
  Hypothesis Happ : wf_app app.
  Hypothesis Hreg : reg_only app = true.
  Hypothesis Hrng : regs_in_range app = true.
  Hypothesis Hlen32 : length regs0 = 32%nat.
  Hypothesis Hbase : (base <= length app)%nat.
  Let n := length app.
  Let N := stop_from app base.
  Hypothesis Hsq : 0 <= sq /\ 1000 * sq + 4 * Z.of_nat n < 2147483648.

  Notation sreg := (sreg app labels regs0 base).
  Notation eff := (eff app labels regs0 base).
  Notation ik := (ik app).
  Notation rnq := (rnq app sq).
  Notation sid := (sid sq).
  Notation CoreI := (CoreI app labels regs0 mem0 base sq).
  Notation BackSemF := (BackSemF app labels regs0 base).
  Notation FL1 := (FL1 sq).
  Notation wbq := (wbq app labels regs0 base sq).
  Notation regval := (regval app labels regs0 base).

  Hypothesis Hsem : forall k, (base <= k <= N)%nat -> (k < n)%nat ->
    exec (sinstr_of (ik k)) (rget (sreg k)) labels (pcz k) [] = Ok (eff k) /\
    (forall a, etarget (eff k) = Some a -> exists t, a = pcz t /\ (k < t <= n)%nat).
  Hypothesis Hr32 : Forall int32 regs0.

  Set Default Proof Using "All".
  Notation "'IA' L" := (L app labels regs0 mem0 base sq Happ Hreg Hrng Hlen32 Hbase Hsq Hsem) (at level 10, L at level 9, only parsing).
  Notation "'IE' L" := (L app labels regs0 mem0 base sq Happ Hreg Hrng Hlen32 Hbase Hsq Hsem Hr32) (at level 10, L at level 9, only parsing).

  (* the response of the unit that executes instruction k *)
  Definition bresp (k : nat) : resp1 :=
    if is_ret (ik k) then mk_resp1 false 0 0 true None else
    match etarget (eff k) with
    | Some a => if is_jump (ik k) || negb (pcz (S k) =? a) then mk_resp1 true (sid k) a false None else resp0
    | None => resp0
    end.

  Lemma bresp_plain k : (base <= k <= N)%nat -> (k < n)%nat -> notbr app k -> bresp k = presp app k.
  Proof.
    intros H1 H2 Hb. unfold bresp, Mvp61RefExec.presp. destruct (is_ret (ik k)) eqn:Er; [reflexivity|].
    rewrite (IA eff_plain k H1 H2 Er Hb). reflexivity.
  Qed.

  Lemma bresp_err k : p_err (bresp k) = None.
  Proof. unfold bresp. destruct (is_ret (ik k)); [reflexivity|]. destruct (etarget (eff k)); [|reflexivity]. destruct (_ || _); reflexivity. Qed.

  (* the branch unit after assert *)
  Definition bua (b : bu6) (k : nat) : bu6 :=
    if is_jump (ik k) then mk_bu6 true (-1) (b_btb b)
    else if condbr (ik k) then mk_bu6 true (addS 32 (pcz k) 4) (b_btb b)
    else mk_bu6 false (b_expect b) (b_btb b).

  Lemma addS_pcz k : (k < n)%nat -> addS 32 (pcz k) 4 = pcz (S k).
  Proof.
    intros H. rewrite pcz_S. unfold addS. apply wrapS_id; [lia|]. pose proof (n_small app Happ). fold n in H0. apply int32_bounds. unfold pcz. lia.
  Qed.

  (* shouldFlush after the assert of instruction k *)
  Lemma fin_resp m2 k : (base <= k <= N)%nat -> (k < n)%nat -> is_ret (ik k) = false ->
    m_bu (y_m m2) = bua (m_bu (y_m m2)) k ->
    snd (exec_fin m2 (instr_InstructionType (ik k)) (pcz k) (embed (eff k)) (sid k)) = bresp k.
  Proof.
    intros H1 H2 Hnr Hbu. destruct (IA embed_flags1 k H1 H2) as (_ & _ & Hpc & Hnp).
    pose proof (eff_kind app labels regs0 base Hsem k H1 H2) as Hkind. destruct (Hsem k H1 H2) as [_ Htgt].
    unfold exec_fin, bresp. rewrite Hnr, Hpc. fold (is_jump (ik k)). fold (condbr (ik k)).
    destruct (etarget (eff k)) as [a|] eqn:Ea.
    2:{ destruct (is_jump (ik k)), (condbr (ik k)); reflexivity. }
    rewrite (Hnp a eq_refl). destruct (Htgt a eq_refl) as (t & -> & Ht).
    destruct (is_jump (ik k)) eqn:Ej.
    - (* resolved jump: the branch unit keeps check = true, expectation -1 *)
      cbn [orb]. unfold bu_resolved1, bu_resolved6, inc_seq, bu_should_flush6.
      destruct (condbr (ik k)); cbn [set_m set_x y_m y_x set_bu set_fu set_du m_bu b_check b_expect b_btb xs_pcb xs_seq];
        rewrite Hbu; unfold bua; rewrite Ej; cbn [b_check b_expect negb];
        (assert (Hneg : (-1 =? pcz t) = false) by (apply Z.eqb_neq; unfold pcz; lia)); rewrite Hneg; reflexivity.
    - assert (Hc : condbr (ik k) = true).
      { destruct (eff k) as [rd v|bs| |a'|rd v a'|]; cbn [etarget] in Ea; try discriminate; try congruence.
        destruct Hkind as [Hx|[_ Hx]]; [congruence | exact Hx]. }
      rewrite Hc. cbn [orb]. unfold bu_should_flush6. cbn [set_x y_m]. rewrite Hbu. unfold bua. rewrite Ej, Hc. cbn [b_check b_expect negb].
      rewrite (addS_pcz k H2). destruct (pcz (S k) =? pcz t); reflexivity.
  Qed.

  Lemma bresp_flush_jump k : (base <= k <= N)%nat -> (k < n)%nat -> is_jump (ik k) = true -> p_flush (bresp k) = true.
  Proof.
    intros H1 H2 Hj. unfold bresp.
    assert (Hr : is_ret (ik k) = false).
    { destruct (is_ret (ik k)) eqn:E; [|reflexivity]. destruct (ret_not_branch _ E). congruence. }
    rewrite Hr, Hj. cbn [orb].
    pose proof (eff_kind app labels regs0 base Hsem k H1 H2) as Hk.
    pose proof (IA eff_ret1 k H1 H2) as Hrt.
    pose proof (eff_nostore app labels regs0 base Hreg Hsem k) as Hns.
    destruct (eff k) as [rd v|bs| |a|rd v a|]; cbn [etarget]; try reflexivity; try congruence; exfalso.
    - exact (Hns bs H1 H2 eq_refl).
    - rewrite (proj1 Hrt eq_refl) in Hr. discriminate.
  Qed.

  (* an idle unit takes x - any instruction of the segment - from the head of the execute bus and runs it at once *)
  Lemma eu_exec2 ord cy d P m e r qt bound :
    CoreI d P m -> EuNone1 e -> eu_pre1 e = false -> BusOK cy (m_wbus (y_m m)) -> bb_canadd (m_wbus (y_m m)) = true ->
    bb_q (x_ebus (y_x m)) = r :: qt ->
    (is_jump (ik (kr1 r)) = true -> btb_get (b_btb (m_bu (y_m m))) (pcz (kr1 r)) = None) ->
    Forall (fun en => fst en < bound) (b_btb (m_bu (y_m m))) -> pcz (kr1 r) < bound ->
    exists m1 e1, eu_cycle1 labels ord cy m e = (false, Ok (m1, e1, bresp (kr1 r))) /\ EuNone1 e1 /\ u_sid e1 = u_sid e /\
      e_runner (u_e e1) = Some (rnq (kr1 r)) /\
      CoreI d P m1 /\ BusOK cy (m_wbus (y_m m1)) /\ EuFrameW m m1 /\
      bb_q (x_ebus (y_x m1)) = qt /\
      bb_buf (m_wbus (y_m m1)) = bb_buf (m_wbus (y_m m)) ++ (if is_ret (ik (kr1 r)) then [] else [(cy + 1, wbq (kr1 r))]) /\
      (base <= kr1 r < d)%nat /\ (kr1 r <= N)%nat /\ (kr1 r < n)%nat /\ r_b r = rnq (kr1 r) /\
      (p_flush (bresp (kr1 r)) = false ->
         m_fu (y_m m1) = m_fu (y_m m) /\ m_dpbr (y_m m1) = m_dpbr (y_m m) /\ b_btb (m_bu (y_m m1)) = b_btb (m_bu (y_m m)) /\ x_seq (y_x m1) = x_seq (y_x m)) /\
      Forall (fun en => fst en < bound) (b_btb (m_bu (y_m m1))) /\
      (x_seq (y_x m1) = x_seq (y_x m) \/ x_seq (y_x m1) = addS 32 (x_seq (y_x m)) 1).
  Proof.
    intros HC [Hmem Hco] Hpre HW Hadd Hq Hget Hbtb Hxb.
    assert (HEB : EB m = r :: (qt ++ map snd (bb_buf (x_ebus (y_x m))))) by (unfold EB, flat; rewrite Hq; reflexivity).
    set (E2 := qt ++ map snd (bb_buf (x_ebus (y_x m)))) in *.
    pose proof (c_fwd _ _ _ _ _ _ _ _ _ HC) as H8.
    assert (Hr : RunOK1 app base sq d r) by (pose proof (c_e _ _ _ _ _ _ _ _ _ HC) as H1; rewrite HEB in H1; inversion H1; assumption).
    destruct (IA RunOK1_kr d r Hr) as (Hkd & HkN & Hkn & Hrb). set (x := kr1 r) in *.
    assert (HxF : In x (FL1 m)) by (unfold Mvp61RefInv.FL1; rewrite HEB; left; reflexivity).
    set (ty := instr_InstructionType (ik x)).
    destruct ((IE recv_ok) d P m r E2 HC HEB) as (fs & chs & f & HS & Hfv & Hrc & Hndc & Hk & Hv & Hfwk). fold x in Hfv.
    pose proof ((IE run_val) d (m_regs (y_m m)) (m_pw (y_m m)) (m_pr (y_m m)) (FL1 m) fs x f HS HxF ltac:(lia) Hkn Hfv) as Hrun.
    destruct (IA embed_flags1 x ltac:(lia) Hkn) as (Hret & Hmc & Hpc & _).
    (* a Forwarder belongs to an instruction that is neither a ret nor a branch *)
    assert (Hfwnb : forall ch, r_fw r = Some ch -> is_ret (ik x) = false /\ InstructionType_IsBranch ty = false).
    { intros ch Ef. apply (c_fwr _ _ _ _ _ _ _ _ _ HC r ch ltac:(rewrite HEB; left; reflexivity) Ef). }
    set (ebus' := mk_bb (bb_buf (x_ebus (y_x m))) qt (bb_ql (x_ebus (y_x m))) (bb_bl (x_ebus (y_x m)))).
    set (bu' := bua (m_bu (y_m m)) x).
    set (xx := xs_ch (xs_ebus (y_x m) ebus') chs).
    set (m2 := mk_m1 (set_wbus (set_bu (y_m m) bu') (bb_add (m_wbus (y_m m)) (wbq x) cy)) xx).
    set (m1 := if is_ret (ik x) then mk_m1 (set_bu (y_m m) bu') xx
               else match r_fw r with
                    | Some ch => set_x m2 (xs_ch xx (chs ++ [(ch, regval x)]))
                    | None => fst (exec_fin m2 ty (pcz x) (embed (eff x)) (sid x))
                    end).
    set (e1 := mk_eu1 (mk_eu6 ENone (e_memory (u_e e)) (Some (r_b r))) (r_fw r) None (r_freg r) (u_sid e)).
    assert (Hbu2 : m_bu (y_m m2) = bua (m_bu (y_m m2)) x) by (unfold m2, bu', bua; cbn [y_m set_wbus set_bu m_bu]; destruct (is_jump (ik x)), (condbr (ik x)); reflexivity).
    assert (Ecyc : eu_cycle1 labels ord cy m e = (false, Ok (m1, mk_eu1 (mk_eu6 ENone (e_memory (u_e e)) (Some (r_b r))) (r_fw r)
                       None (r_freg r) (u_sid e), bresp x))).
    { unfold eu_cycle1. rewrite Hpre. rewrite Hco. unfold bb_get. rewrite Hq. fold ebus'.
      unfold eu_prepare1. cbn [y_m set_x]. rewrite Hadd. cbn [negb u_e e_runner u_rc u_fw u_freg u_sid e_memory y_x xs_ebus x_ch].
      rewrite Hrb. cbn [Mvp61RefFront.rnq r_pc r_instr].
      assert (Hgot : forall mb (eb : eu1), y_m mb = y_m m -> x_fwd (y_x mb) = Seq.upd (repeat no_fwd n) x f \/ (f = no_fwd /\ x_fwd (y_x mb) = repeat no_fwd n) ->
                e_runner (u_e eb) = Some (rnq x) -> e_memory (u_e eb) = [] -> u_fw eb = r_fw r ->
                xs_fwd (y_x mb) (repeat no_fwd n) = xx ->
                eu_run1 labels ord cy (bu_assert1 mb (rnq x)) eb = (false, Ok (m1, eu_co_set eb ENone, bresp x))).
      { intros mb eb Ey Efw Er Em Ef Hxx.
        assert (Eb1 : bu_assert1 mb (rnq x) = set_m mb (set_bu (y_m m) bu')).
        { unfold bu_assert1, bu_assert6. cbn [Mvp61RefFront.rnq r_instr r_pc]. unfold bu', bua.
          change (InstructionType_IsUnconditionalBranch (instr_InstructionType (ik x))) with (is_jump (ik x)).
          change (InstructionType_IsConditionalBranch (instr_InstructionType (ik x))) with (condbr (ik x)).
          cbn [set_m y_m]. rewrite Ey. destruct (is_jump (ik x)) eqn:Ej.
          - rewrite (Hget eq_refl). reflexivity.
          - cbn [andb]. destruct (condbr (ik x)); reflexivity. }
        rewrite Eb1. unfold eu_run1. rewrite Er. cbn [Mvp61RefFront.rnq r_instr r_pc r_seq]. rewrite Em.
        assert (Egf : get_fwd (set_m mb (set_bu (y_m m) bu')) (pcz x) = f).
        { unfold get_fwd. cbn [set_m y_x]. rewrite (iidx_pcz x). destruct Efw as [Efw|[-> Efw]]; rewrite Efw.
          - apply supd_nth_eq. rewrite repeat_length. exact Hkn.
          - apply nth_repeat. }
        rewrite Egf. cbn [set_m y_m set_bu m_regs]. rewrite Hrun.
        assert (Esf : set_fwd (set_m mb (set_bu (y_m m) bu')) (pcz x) no_fwd = mk_m1 (set_bu (y_m m) bu') xx).
        { unfold set_fwd. cbn [set_m y_x y_m set_x]. rewrite (iidx_pcz x). rewrite <- Hxx.
          destruct Efw as [Efw|[_ Efw]]; rewrite Efw; [rewrite upd_upd|]; rewrite upd_repeat; reflexivity. }
        rewrite Esf. rewrite Hret. unfold bresp, m1. destruct (is_ret (ik x)) eqn:Eret; [reflexivity|].
        rewrite Hmc. cbn [andb bind]. rewrite Ef. cbn [y_m set_wbus m_wbus set_bu].
        change (mk_wb6 (Mvp61RefFront.sid sq x) (embed (eff x)) (instr_ReadRegisters (ik x)) (instr_WriteRegisters (ik x))) with (wbq x).
        change (set_m (mk_m1 (set_bu (y_m m) bu') xx) (set_wbus (set_bu (y_m m) bu') (bb_add (m_wbus (y_m m)) (wbq x) cy))) with m2.
        destruct (r_fw r) as [ch|] eqn:Ef'.
        - destruct (Hfwnb ch eq_refl) as [_ Hnbr]. fold ty. rewrite Hnbr.
          assert (Hxch : x_ch (y_x m2) = chs) by reflexivity. rewrite Hxch, (existsb_keys ch _ (Hfwk ch eq_refl)).
          unfold Mvp61RefInv.regval.
          (* not a branch: nothing, whatever the effect *)
          unfold InstructionType_IsBranch in Hnbr. apply orb_false_iff in Hnbr as [Hu Hc].
          rewrite (IA eff_plain x ltac:(lia) Hkn Eret ltac:(unfold notbr, InstructionType_IsBranch; fold ty; rewrite Hu, Hc; reflexivity)). reflexivity.
        - fold ty. pose proof (fin_resp m2 x ltac:(lia) Hkn Eret Hbu2) as Hfr. fold ty in Hfr.
          unfold exec_fin in Hfr |- *. unfold bresp in Hfr. rewrite Eret in Hfr.
          destruct (PcChange (embed (eff x))); [|rewrite <- Hfr; reflexivity].
          destruct (bu_should_flush6 _ _) as [b' fl]. cbn [fst snd] in Hfr |- *. rewrite <- Hfr. reflexivity. }
      cbn [y_x set_x xs_ebus x_ch]. destruct f as [f1 f2]. destruct (r_rc r) as [ch|] eqn:Erc.
      - destruct Hrc as (Et & Ef1). cbn [fst snd] in Et, Ef1. subst f1. rewrite Et.
        rewrite (nomem_no_read _ _ _ (IA ik_nomem1 x)).
        rewrite Hgot; [| reflexivity | left; unfold set_fwd; cbn [set_x y_x xs_ch xs_fwd x_fwd xs_ebus]; rewrite (iidx_pcz x), H8; reflexivity
                       | reflexivity | exact Hmem | reflexivity |].
        + unfold eu_co_set. cbn [u_e e_memory e_runner u_fw u_rc u_freg u_sid e_co]. reflexivity.
        + unfold xx, set_fwd. cbn [set_x y_x]. destruct (y_x m) as [a1 a2 a3 a4 a5 a6 a7 a8 a9 a10]. cbn in H8 |- *. rewrite H8. reflexivity.
      - destruct Hrc as [-> Ef]. injection Ef as -> ->.
        rewrite (nomem_no_read _ _ _ (IA ik_nomem1 x)).
        rewrite Hgot; [| reflexivity | right; split; [reflexivity | exact H8]
                       | reflexivity | exact Hmem | reflexivity |].
        + unfold eu_co_set. cbn [u_e e_memory e_runner u_fw u_rc u_freg u_sid e_co]. reflexivity.
        + unfold xx. cbn [set_x y_x]. destruct (y_x m) as [a1 a2 a3 a4 a5 a6 a7 a8 a9 a10]. cbn in H8 |- *. rewrite H8. reflexivity. }
    exists m1, e1. split; [exact Ecyc|].
    split; [split; [exact Hmem | reflexivity]|]. split; [reflexivity|]. split; [unfold e1; cbn [u_e e_runner]; rewrite Hrb; reflexivity|].
    (* the machine afterwards, relative to m2 / m *)
    destruct (exec_fin_frame m2 ty (pcz x) (embed (eff x)) (sid x)) as (Ffr & Fwb & Feb & Fch & Fpcb & Fnj & Fbtb & Fseq).
    set (m5 := fst (exec_fin m2 ty (pcz x) (embed (eff x)) (sid x))) in *.
    assert (Hfwret : is_ret (ik x) = true -> r_fw r = None).
    { intros Er. destruct (r_fw r) as [ch|] eqn:Ef; [|reflexivity]. destruct (Hfwnb ch eq_refl) as [Hx _]. congruence. }
    set (chs' := if is_ret (ik x) then chs else match r_fw r with Some ch => chs ++ [(ch, regval x)] | None => chs end).
    assert (Xch : x_ch (y_x m1) = chs').
    { unfold m1, chs'. destruct (is_ret (ik x)); [reflexivity|]. destruct (r_fw r); [reflexivity | exact Fch]. }
    assert (Xeb : x_ebus (y_x m1) = ebus').
    { unfold m1. destruct (is_ret (ik x)); [reflexivity|]. destruct (r_fw r); [reflexivity | exact Feb]. }
    assert (HE1 : EB m1 = E2) by (unfold EB; rewrite Xeb; reflexivity).
    assert (Xwb : m_wbus (y_m m1) = if is_ret (ik x) then m_wbus (y_m m) else bb_add (m_wbus (y_m m)) (wbq x) cy).
    { unfold m1. destruct (is_ret (ik x)); [reflexivity|]. destruct (r_fw r); [reflexivity | exact Fwb]. }
    assert (HW1 : WB m1 = WB m ++ (if is_ret (ik x) then [] else [wbq x])).
    { unfold WB. rewrite Xwb. destruct (is_ret (ik x)); [rewrite app_nil_r; reflexivity | apply add_flat]. }
    assert (HFW : EuFrameW m m1).
    { unfold m1. destruct (is_ret (ik x)); [constructor; reflexivity|]. destruct (r_fw r); [constructor; reflexivity|].
      eapply EuFrameW_trans; [|exact Ffr]. constructor; reflexivity. }
    assert (Hpcb1 : x_pcb (y_x m1) = true -> x_pcb (y_x m) = true /\ condbr (ik x) = false).
    { unfold m1. destruct (is_ret (ik x)) eqn:Eret.
      - cbn [y_x xx xs_ch xs_ebus x_pcb]. intros Hp. split; [destruct (y_x m); exact Hp | apply (ret_not_branch _ Eret)].
      - destruct (r_fw r) as [ch|] eqn:Ef.
        + intros Hp. split; [destruct (y_x m); exact Hp|]. destruct (Hfwnb ch eq_refl) as [_ Hb]. unfold InstructionType_IsBranch in Hb. apply orb_false_iff in Hb as [_ Hb]. exact Hb.
        + intros Hp. destruct (Fpcb Hp) as [A B]. split; [destruct (y_x m); exact A | exact B]. }
    assert (HC1 : CoreI d P m1).
    { apply ((IE core_exec) d P m m1 r E2 chs chs' HC HEB Hndc Hk Hv); try (apply HFW); try assumption.
      - unfold chs', fwl. destruct (is_ret (ik x)) eqn:Er; [rewrite (Hfwret eq_refl), app_nil_r; reflexivity|].
        destruct (r_fw r); [rewrite keys_app; reflexivity | rewrite app_nil_r; reflexivity].
      - intros c v Hin. unfold chs' in Hin. destruct (is_ret (ik x)); [left; exact Hin|]. destruct (r_fw r) as [ch|]; [|left; exact Hin].
        apply in_app_or in Hin as [Hin|[Hin|[]]]; [left; exact Hin | right; injection Hin as <- <-; auto]. }
    split; [exact HC1|]. split.
    { rewrite Xwb. destruct (is_ret (ik x)); [exact HW | apply add_ok; exact HW]. }
    split; [exact HFW|]. split; [rewrite Xeb; reflexivity|]. split.
    { rewrite Xwb. destruct (is_ret (ik x)); [rewrite app_nil_r; reflexivity | reflexivity]. }
    split; [exact Hkd|]. split; [exact HkN|]. split; [exact Hkn|]. split; [exact Hrb|].
    (* the front end and the BTB *)
    assert (Hbtb2 : b_btb (m_bu (y_m m2)) = b_btb (m_bu (y_m m))) by (unfold m2, bu', bua; cbn [y_m set_wbus set_bu m_bu]; destruct (is_jump (ik x)), (condbr (ik x)); reflexivity).
    assert (Hseq2 : x_seq (y_x m2) = x_seq (y_x m)) by (unfold m2, xx; cbn [y_x]; destruct (y_x m); reflexivity).
    split; [|split].
    3:{ unfold m1. destruct (is_ret (ik x)); [left; unfold xx; cbn [y_x]; destruct (y_x m); reflexivity|].
        destruct (r_fw r); [left; unfold xx; cbn [set_x y_x]; destruct (y_x m); reflexivity|]. fold m5. rewrite <- Hseq2. exact Fseq. }
    - intros Hnf. unfold m1. destruct (is_ret (ik x)) eqn:Eret.
      + cbn [y_m y_x set_bu m_fu m_dpbr m_bu]. unfold bu', bua. repeat split; try (destruct (is_jump (ik x)), (condbr (ik x)); reflexivity); try (unfold xx; destruct (y_x m); reflexivity).
      + destruct (r_fw r) as [ch|] eqn:Ef.
        * cbn [set_x y_m y_x m2 set_wbus set_bu m_fu m_dpbr m_bu]. unfold bu', bua. repeat split; try (destruct (is_jump (ik x)), (condbr (ik x)); reflexivity); try (unfold xx; destruct (y_x m); reflexivity).
        * assert (Hnj : InstructionType_IsUnconditionalBranch ty = false).
          { change (InstructionType_IsUnconditionalBranch ty) with (is_jump (ik x)). destruct (is_jump (ik x)) eqn:Ej; [|reflexivity]. rewrite (bresp_flush_jump x ltac:(lia) Hkn Ej) in Hnf. discriminate. }
          destruct (Fnj Hnj) as (A & B & C & D). rewrite A, B, C, D, Hbtb2. repeat split; try (unfold m2, xx; cbn [y_x]; destruct (y_x m); reflexivity).
    - unfold m1. destruct (is_ret (ik x)) eqn:Eret.
      + cbn [y_m set_bu m_bu]. unfold bu', bua. destruct (is_jump (ik x)), (condbr (ik x)); exact Hbtb.
      + destruct (r_fw r) as [ch|] eqn:Ef.
        * cbn [set_x y_m]. rewrite Hbtb2. exact Hbtb.
        * fold m5. rewrite Fbtb, Hbtb2. destruct (InstructionType_IsUnconditionalBranch ty); [|exact Hbtb].
          apply btb_add_bound; assumption.
  Qed.
End Exec2.
