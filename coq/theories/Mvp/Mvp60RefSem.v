(* Refinement of MVP-6.0 (Mvp60.v) to the sequential machine on register-only
   programs: the value-level core, independent of the machine.

   Instructions are numbered by their position k in the text (pc = 4k).  Between two
   flushes the machine follows the fall-through path from [base]; [sreg k] is the
   register file of the sequential machine before instruction k of that path
   (sreg base = regs0).  The out-of-order back end of
   MVP-6.0 is abstracted to
     d   : the number of instructions dispatched so far (dispatch is in order),
     F   : the list of instructions in flight (dispatched, not yet written back),
     rg  : the register file, pw / pr : the two scoreboards,
   and [BackSem d rg pw pr F] is the invariant that makes it correct:
     - window independence: an instruction j in flight is independent (no RAW, no
       WAW, no WAR on a tracked register slot) of every younger dispatched
       instruction k, whether k is still in flight or has already written back;
     - the scoreboards count exactly the declared registers of F;
     - a register slot written by some j in F still holds its value BEFORE j
       ([sreg j]); a slot written by nobody in F holds its value after all d
       dispatched instructions ([sreg d]).
   It comes in two layers.  [BackSemW d rg F] - no WAW, no WAR, the register file -
   already carries dispatch, write-back in any order, and the squash of a wrong
   path (bw_squash); it is all that survives while a flush drains the write bus,
   and all that MVP-6.1 shares, where operands may be forwarded.  [BackSem] adds
   the absence of RAW and the scoreboards.
   The lemmas: dispatch of a hazard-free instruction (bs_dispatch), write-back
   in any order (bs_writeback), an instruction in flight reads its sequential
   operands whenever it executes (bs_reads), invariance under permutation.

   Register numbers are arbitrary integers in the model; the machine works on
   "slots": slot (r) = Z.to_nat r for r <> 0 (all negative numbers share slot 0,
   which is different from the hard-wired x0).  Slots >= 32 are not tracked by the
   scoreboards; they are harmless because the register file has at most 32
   entries (hypothesis), so they always read 0. *)
From Coq Require Import ZArith List Bool Lia Permutation.
From Maj Require Import Base.Outcome Base.GoInt Base.GoTypes Isa.Spec Isa.Embed Isa.Seq Isa.Refine.
From Maj Require Import Gen.Opcodes Mvp.Mvp12 Mvp.Mvp12Proofs Mvp.Mvp3Proofs.
Import ListNotations.
Open Scope Z_scope.

Definition slots (rs : list Z) : list nat := map Z.to_nat (filter (fun r => negb (r =? 0)) rs).

Definition cnt1 (l : list nat) (s : nat) : Z := Z.of_nat (count_occ Nat.eq_dec l s).

Fixpoint cnt (f : nat -> list nat) (F : list nat) (s : nat) : Z :=
  match F with
  | [] => 0
  | j :: t => cnt1 (f j) s + cnt f t s
  end.

Lemma cnt1_nonneg l s : 0 <= cnt1 l s.
Proof. unfold cnt1. lia. Qed.

Lemma cnt1_pos l s : 0 < cnt1 l s <-> In s l.
Proof. unfold cnt1. rewrite (count_occ_In Nat.eq_dec). lia. Qed.

Lemma cnt1_zero l s : cnt1 l s = 0 <-> ~ In s l.
Proof. unfold cnt1. rewrite (count_occ_not_In Nat.eq_dec). lia. Qed.

Lemma cnt_nonneg f F s : 0 <= cnt f F s.
Proof. induction F as [|j t IH]; cbn [cnt]; [lia|]. pose proof (cnt1_nonneg (f j) s). lia. Qed.

Lemma cnt_zero f F s : cnt f F s = 0 <-> (forall j, In j F -> ~ In s (f j)).
Proof.
  induction F as [|j t IH]; cbn [cnt].
  - split; [intros _ j [] | reflexivity].
  - pose proof (cnt1_nonneg (f j) s). pose proof (cnt_nonneg f t s). split.
    + intros H1 j' [<-|Hj]; [apply cnt1_zero; lia | apply IH; [lia | exact Hj]].
    + intros Hall. assert (cnt1 (f j) s = 0) by (apply cnt1_zero, Hall; left; reflexivity).
      assert (cnt f t s = 0) by (apply IH; intros j' Hj'; apply Hall; right; exact Hj'). lia.
Qed.

Lemma cnt_zero_elim f F s j : cnt f F s = 0 -> In j F -> ~ In s (f j).
Proof. intros H. apply (proj1 (cnt_zero f F s) H). Qed.

Lemma cnt_perm f F F' s : Permutation F F' -> cnt f F s = cnt f F' s.
Proof. induction 1; cbn [cnt]; lia. Qed.

Lemma cnt_app f F G s : cnt f (F ++ G) s = cnt f F s + cnt f G s.
Proof. induction F as [|j t IH]; cbn [cnt app]; lia. Qed.

Lemma slots_in rs s : In s (slots rs) <-> exists r, In r rs /\ r <> 0 /\ Z.to_nat r = s.
Proof.
  unfold slots. rewrite in_map_iff. split.
  - intros (r & Hr & Hin). apply filter_In in Hin as [Hin Hnz]. exists r. repeat split; auto.
    intros ->. discriminate.
  - intros (r & Hin & Hnz & Hr). exists r. split; [exact Hr|]. apply filter_In. split; [exact Hin|].
    destruct (Z.eqb_spec r 0); [contradiction | reflexivity].
Qed.

Lemma slots_single rd : slots [rd] = if rd =? 0 then [] else [Z.to_nat rd].
Proof. unfold slots. cbn [filter]. destruct (rd =? 0); reflexivity. Qed.

Lemma nth_rset rg rd v s :
  nth s (rset rg rd v) 0 =
  if negb (rd =? 0) && Nat.eqb (Z.to_nat rd) s && Nat.ltb s (length rg) then v else nth s rg 0.
Proof.
  unfold rset. destruct (rd =? 0) eqn:E0; cbn [negb andb]; [reflexivity|].
  destruct (Nat.eqb_spec (Z.to_nat rd) s) as [<-|Hne]; cbn [andb].
  - destruct (Nat.ltb_spec (Z.to_nat rd) (length rg)) as [Hlt|Hge].
    + apply supd_nth_eq. exact Hlt.
    + rewrite nth_overflow; [|rewrite supd_length; exact Hge]. rewrite nth_overflow by exact Hge. reflexivity.
  - apply supd_nth_neq. exact Hne.
Qed.

Lemma rset_length rg rd v : length (rset rg rd v) = length rg.
Proof. unfold rset. destruct (rd =? 0); [reflexivity | apply supd_length]. Qed.

Lemma rget_nth rg r : rget rg r = if r =? 0 then 0 else nth (Z.to_nat r) rg 0.
Proof. reflexivity. Qed.

(* an EReg result is always in the int32 range (no hypothesis on the labels) *)
Lemma exec_reg_range si rr labels pc mem rd v : exec si rr labels pc mem = Ok (EReg rd v) -> int32 v.
Proof.
  intros H. destruct si; cbn [exec] in H; unfold branch in H;
    repeat match type of H with
           | context [if ?c then _ else _] => destruct c eqn:?
           | context [match labels ?l with Some _ => _ | None => _ end] => destruct (labels l) eqn:?
           end; try discriminate; injection H as <- <-;
    try (unf_rng; lia); try apply s_range; try apply s8_range32; try apply s16_range; try apply bool01_range;
    try (apply sra_range; apply shamt_range).
Qed.

Lemma exec_link_range si rr labels pc mem rd v a : exec si rr labels pc mem = Ok (ELink rd v a) -> int32 v.
Proof.
  intros H. destruct si; cbn [exec] in H; unfold branch in H;
    repeat match type of H with
           | context [if ?c then _ else _] => destruct c eqn:?
           | context [match labels ?l with Some _ => _ | None => _ end] => destruct (labels l) eqn:?
           end; try discriminate; injection H as <- <- <-; apply s_range.
Qed.

Section Sem.
  (* [base]: the index at which the current straight-line segment starts (0 for a whole
     straight-line program; the target of the last taken jump otherwise); [regs0]: the
     register file at that point *)
  Variables (app : list instr) (labels : Z -> option Z) (regs0 : list Z) (base : nat).
  Hypothesis Hlen0 : (length regs0 <= 32)%nat.
  Hypothesis Hr32 : Forall int32 regs0.

  Definition dfl : instr := I_nop mk_nop.
  Definition ik (k : nat) : instr := nth k app dfl.
  Definition pcz (k : nat) : Z := 4 * Z.of_nat k.
  Definition rsl (k : nat) : list nat := slots (instr_ReadRegisters (ik k)).
  Definition wsl (k : nat) : list nat := slots (instr_WriteRegisters (ik k)).

  Definition eff_at (k : nat) (rg : list Z) : effect :=
    match exec (sinstr_of (ik k)) (rget rg) labels (pcz k) [] with Ok e => e | _ => EFall end.
  (* the register effect of an instruction (jal / jalr write the link register) *)
  Definition apply_eff (e : effect) (rg : list Z) : list Z :=
    match e with EReg rd v | ELink rd v _ => rset rg rd v | _ => rg end.
  (* the register file of the sequential machine before instruction k of a straight-line
     (fall-through) run that starts at [base] with [regs0] *)
  Fixpoint sreg (k : nat) : list Z :=
    match k with
    | O => regs0
    | S k' => if (k' <? base)%nat then regs0 else apply_eff (eff_at k' (sreg k')) (sreg k')
    end.
  Definition eff (k : nat) : effect := eff_at k (sreg k).

  Lemma sreg_S k : (base <= k)%nat -> sreg (S k) = apply_eff (eff k) (sreg k).
  Proof. intros H. cbn [sreg]. destruct (Nat.ltb_spec k base); [lia | reflexivity]. Qed.

  Lemma sreg_base k : (k <= base)%nat -> sreg k = regs0.
  Proof. destruct k as [|k]; [reflexivity|]. intros H. cbn [sreg]. destruct (Nat.ltb_spec k base); [reflexivity | lia]. Qed.

  Lemma apply_eff_length e rg : length (apply_eff e rg) = length rg.
  Proof. destruct e; cbn [apply_eff]; try reflexivity; apply rset_length. Qed.

  Lemma sreg_length k : length (sreg k) = length regs0.
  Proof.
    induction k as [|k IH]; [reflexivity|]. cbn [sreg]. destruct (k <? base)%nat; [reflexivity|].
    rewrite apply_eff_length. exact IH.
  Qed.

  (* what an effect can write is declared *)
  Lemma eff_at_wsl k rg : match eff_at k rg with EReg rd _ | ELink rd _ _ => wsl k = slots [rd] | _ => True end.
  Proof.
    unfold eff_at. destruct (exec (sinstr_of (ik k)) (rget rg) labels (pcz k) []) as [e| |] eqn:E; try exact I.
    destruct e; try exact I; apply spec_writes_sound in E; unfold wsl; rewrite write_registers_exact, E; reflexivity.
  Qed.

  Lemma nth_rset_other rg rd v s : ~ In s (slots [rd]) -> nth s (rset rg rd v) 0 = nth s rg 0.
  Proof.
    intros Hn. rewrite nth_rset. rewrite slots_single in Hn.
    destruct (rd =? 0) eqn:E0; cbn [negb andb]; [reflexivity|].
    destruct (Nat.eqb_spec (Z.to_nat rd) s) as [<-|]; cbn [andb]; [|reflexivity].
    exfalso. apply Hn. left. reflexivity.
  Qed.

  Lemma apply_other k rg0 rg s : ~ In s (wsl k) -> nth s (apply_eff (eff_at k rg0) rg) 0 = nth s rg 0.
  Proof.
    intros Hn. pose proof (eff_at_wsl k rg0) as Hw. destruct (eff_at k rg0); cbn [apply_eff]; try reflexivity;
      apply nth_rset_other; rewrite <- Hw; exact Hn.
  Qed.

  Lemma sreg_S_other k s : ~ In s (wsl k) -> nth s (sreg (S k)) 0 = nth s (sreg k) 0.
  Proof.
    intros H. destruct (Nat.lt_ge_cases k base) as [Hlt|Hge].
    - rewrite !sreg_base by lia. reflexivity.
    - rewrite sreg_S by exact Hge. apply apply_other. exact H.
  Qed.

  (* a slot nobody in [a, b) writes is the same before a and before b *)
  Lemma sreg_stable s a b : (a <= b)%nat -> (forall k, (a <= k < b)%nat -> ~ In s (wsl k)) ->
    nth s (sreg b) 0 = nth s (sreg a) 0.
  Proof.
    intros Hab. induction Hab as [|b Hab IH]; intros H; [reflexivity|].
    rewrite sreg_S_other by (apply H; lia). apply IH. intros k Hk. apply H. lia.
  Qed.

  Lemma apply_eff_int32 k rg0 rg : Forall int32 rg -> Forall int32 (apply_eff (eff_at k rg0) rg).
  Proof.
    intros H. unfold eff_at. destruct (exec (sinstr_of (ik k)) (rget rg0) labels (pcz k) []) as [e| |] eqn:E; try exact H.
    destruct e; cbn [apply_eff]; try exact H; (apply rset_int32; [exact H|]);
      [eapply exec_reg_range; exact E | eapply exec_link_range; exact E].
  Qed.

  Lemma sreg_int32 k : Forall int32 (sreg k).
  Proof.
    induction k as [|k IH]; [exact Hr32|]. cbn [sreg]. destruct (k <? base)%nat; [exact Hr32|].
    apply apply_eff_int32. exact IH.
  Qed.

  (* no WAW, no WAR *)
  Definition indepW (j k : nat) : Prop :=
    forall s, (s < 32)%nat -> (In s (wsl j) -> ~ In s (wsl k)) /\ (In s (rsl j) -> ~ In s (wsl k)).

  (* the part of the invariant that does not speak of operands or scoreboards; while a flush
     drains the write bus, dropped wrong-path entries stay in F as ghosts *)
  Record BackSemW (d : nat) (rg : list Z) (F : list nat) : Prop := mkBSW {
    bw_nodup : NoDup F;
    bw_lt : forall j, In j F -> (base <= j < d)%nat;
    bw_ind : forall j k, In j F -> (j < k < d)%nat -> indepW j k;
    bw_rlen : length rg = length regs0;
    bw_r32 : Forall int32 rg;
    bw_rA : forall s j, (s < length regs0)%nat -> In j F -> In s (wsl j) -> nth s rg 0 = nth s (sreg j) 0;
    bw_rB : forall s, (s < length regs0)%nat -> (forall j, In j F -> ~ In s (wsl j)) -> nth s rg 0 = nth s (sreg d) 0 }.

  Lemma bw_perm d rg F F' : Permutation F F' -> BackSemW d rg F -> BackSemW d rg F'.
  Proof.
    intros HP [H1 H2 H3 H8 H9 HA HB].
    assert (Hin : forall j, In j F' -> In j F) by (intros j Hj; eapply Permutation_in; [apply Permutation_sym; exact HP | exact Hj]).
    constructor; auto.
    - eapply Permutation_NoDup; eassumption.
    - intros s Hs Hno. apply HB; [exact Hs|]. intros j Hj. apply Hno. eapply Permutation_in; eassumption.
  Qed.

  Lemma bw_pair d rg F j j' : BackSemW d rg F -> In j F -> In j' F -> (j < j')%nat -> indepW j j'.
  Proof. intros H Hj Hj' Hlt. apply (bw_ind _ _ _ H); [exact Hj|]. split; [exact Hlt | apply (bw_lt _ _ _ H j'); exact Hj']. Qed.

  Lemma bw_writer_unique d rg F j j' s : BackSemW d rg F -> (s < 32)%nat ->
    In j F -> In j' F -> In s (wsl j) -> In s (wsl j') -> j = j'.
  Proof.
    intros H Hs Hj Hj' Hw Hw'. destruct (Nat.lt_trichotomy j j') as [Hlt|[Heq|Hgt]]; [|exact Heq|]; exfalso.
    - exact (proj1 (bw_pair _ _ _ _ _ H Hj Hj' Hlt s Hs) Hw Hw').
    - exact (proj1 (bw_pair _ _ _ _ _ H Hj' Hj Hgt s Hs) Hw' Hw).
  Qed.

  (* nobody between an instruction in flight and the dispatch point writes what it writes *)
  Lemma bw_stable d rg F j s : BackSemW d rg F -> In j F -> (s < 32)%nat -> In s (wsl j) ->
    nth s (sreg d) 0 = nth s (sreg (S j)) 0.
  Proof.
    intros H Hj Hs Hw. pose proof (bw_lt _ _ _ H j Hj) as Hjd.
    apply sreg_stable; [apply Hjd|]. intros k Hk Hwk.
    exact (proj1 (bw_ind _ _ _ H j k Hj Hk s Hs) Hw Hwk).
  Qed.

  (* dispatch of an instruction that writes no slot an instruction in flight reads or writes *)
  Lemma bw_dispatch d rg F : BackSemW d rg F -> (base <= d)%nat ->
    (forall s, (s < 32)%nat -> In s (wsl d) -> cnt wsl F s = 0 /\ cnt rsl F s = 0) ->
    BackSemW (S d) rg (d :: F).
  Proof.
    intros [H1 H2 H3 H8 H9 HA HB] Hbd Hhf. constructor; auto.
    - constructor; [|exact H1]. intros Hin. apply H2 in Hin. lia.
    - intros j [<-|Hj]; [lia|]. apply H2 in Hj. lia.
    - intros j k [<-|Hj] Hk; [lia|]. destruct (Nat.eq_dec k d) as [->|Hne]; [|apply H3; [exact Hj | lia]].
      intros s Hs. split; intros Hj' Hwd; destruct (Hhf s Hs Hwd) as [Zw Zr].
      + exact (cnt_zero_elim _ _ _ _ Zw Hj Hj').
      + exact (cnt_zero_elim _ _ _ _ Zr Hj Hj').
    - intros s j Hs [<-|Hj] Hw; [|apply HA; assumption].
      apply HB; [exact Hs|]. intros j Hj. apply (cnt_zero_elim _ _ _ _ (proj1 (Hhf s (Nat.lt_le_trans _ _ _ Hs Hlen0) Hw)) Hj).
    - intros s Hs Hno. rewrite sreg_S_other by (apply Hno; left; reflexivity).
      apply HB; [exact Hs|]. intros j Hj. apply Hno. right. exact Hj.
  Qed.

  Definition eff_writes_reg (e : effect) : Prop :=
    (exists rd v, e = EReg rd v) \/ (exists rd v a, e = ELink rd v a).

  (* write-back, in any order: j's effect, computed on ITS sequential operands, is applied to the file *)
  Lemma bw_writeback d rg F j : BackSemW d rg (j :: F) ->
    (forall s, In s (wsl j) -> eff_writes_reg (eff j)) -> BackSemW d (apply_eff (eff j) rg) F.
  Proof.
    intros H Heff. pose proof H as [H1 H2 H3 H8 H9 HA HB].
    assert (Hjd : (base <= j < d)%nat) by (apply H2; left; reflexivity).
    assert (HjF : ~ In j F) by (inversion H1; assumption).
    constructor.
    - inversion H1; assumption.
    - intros j' Hj'. apply H2. right. exact Hj'.
    - intros j' k Hj' Hk. apply H3; [right; exact Hj' | exact Hk].
    - rewrite apply_eff_length. exact H8.
    - apply apply_eff_int32. exact H9.
    - intros s j' Hs Hj' Hw. unfold eff. rewrite apply_other.
      + apply HA; [exact Hs | right; exact Hj' | exact Hw].
      + intros Hwj. apply HjF.
        rewrite (bw_writer_unique _ _ _ j j' s H (Nat.lt_le_trans _ _ _ Hs Hlen0) (or_introl eq_refl) (or_intror Hj') Hwj Hw). exact Hj'.
    - intros s Hs Hno. destruct (in_dec Nat.eq_dec s (wsl j)) as [Hw|Hnw].
      + (* the slot j writes: its new value is the one after j, and nobody in (j, d) writes it *)
        rewrite (bw_stable _ _ _ j s H (or_introl eq_refl) (Nat.lt_le_trans _ _ _ Hs Hlen0) Hw).
        rewrite sreg_S by lia. pose proof (eff_at_wsl j (sreg j)) as Hwj. fold (eff j) in Hwj.
        assert (Hrs : exists rd v, apply_eff (eff j) = (fun r => rset r rd v) /\ wsl j = slots [rd]).
        { destruct (Heff s Hw) as [(rd & v & Ee)|(rd & v & a & Ee)]; rewrite Ee in *; exists rd, v; split; auto. }
        destruct Hrs as (rd & v & -> & Hwj'). rewrite !nth_rset.
        rewrite sreg_length, H8.
        rewrite Hwj', slots_single in Hw. destruct (rd =? 0); [destruct Hw|]. destruct Hw as [<-|[]].
        rewrite Nat.eqb_refl, (proj2 (Nat.ltb_lt _ _) Hs). reflexivity.
      + unfold eff. rewrite apply_other by exact Hnw. apply HB; [exact Hs|].
        intros j' [<-|Hj']; [exact Hnw | apply Hno; exact Hj'].
  Qed.

  (* an instruction that writes nothing leaves without a trace *)
  Lemma bw_drop d rg F j : BackSemW d rg (j :: F) -> wsl j = [] -> BackSemW d rg F.
  Proof.
    intros [H1 H2 H3 H8 H9 HA HB] Hw. constructor; auto.
    - inversion H1; assumption.
    - intros j' Hj'. apply H2. right. exact Hj'.
    - intros j' k Hj' Hk. apply H3; [right; exact Hj' | exact Hk].
    - intros s j' Hs Hj' Hw'. apply HA; [exact Hs | right; exact Hj' | exact Hw'].
    - intros s Hs Hno. apply HB; [exact Hs|]. intros j' [<-|Hj']; [rewrite Hw; intros [] | apply Hno; exact Hj'].
  Qed.

  Lemma bw_empty d rg : BackSemW d rg [] -> rg = sreg d.
  Proof.
    intros H. apply (nth_ext _ _ 0 0).
    - rewrite sreg_length. apply (bw_rlen _ _ _ H).
    - intros s Hs. rewrite (bw_rlen _ _ _ H) in Hs. apply (bw_rB _ _ _ H); [exact Hs|]. intros j [].
  Qed.

  Lemma bw_init : BackSemW base regs0 [].
  Proof.
    constructor; auto.
    - constructor.
    - intros j [].
    - intros j k [].
    - intros s j _ [].
    - intros s Hs _. rewrite sreg_base by lia. reflexivity.
  Qed.

  (* a slot is written by an instruction in flight or by none *)
  Lemma writer_dec F s : {j | In j F /\ In s (wsl j)} + {forall j, In j F -> ~ In s (wsl j)}.
  Proof.
    induction F as [|j F [(j' & Hj' & Hw)|Hno]].
    - right. intros j [].
    - left. exists j'. split; [right; exact Hj' | exact Hw].
    - destruct (in_dec Nat.eq_dec s (wsl j)) as [Hw|Hnw].
      + left. exists j. split; [left; reflexivity | exact Hw].
      + right. intros j' [<-|Hj']; [exact Hnw | apply Hno; exact Hj'].
  Qed.

  (* squashing the wrong path: when exactly the instructions younger than E are left (none of them
     written back), the register file is the sequential one after E *)
  Lemma bw_squash d rg F E : BackSemW d rg F -> (E < d)%nat ->
    (forall k, In k F <-> (E < k < d)%nat) -> rg = sreg (S E).
  Proof.
    intros [H1 H2 H3 H8 H9 HA HB] HEd HF. apply (nth_ext _ _ 0 0).
    - rewrite sreg_length. exact H8.
    - intros s Hs. rewrite H8 in Hs. pose proof (Nat.lt_le_trans _ _ _ Hs Hlen0) as Hs32.
      destruct (writer_dec F s) as [(j & Hj & Hw)|Hno].
      + rewrite (HA s j Hs Hj Hw). pose proof (proj1 (HF j) Hj) as Hjr.
        apply sreg_stable; [lia|]. intros k Hk Hwk.
        assert (Hk' : In k F) by (apply HF; lia).
        exact (proj1 (H3 k j Hk' ltac:(lia) s Hs32) Hwk Hw).
      + rewrite (HB s Hs Hno).
        apply sreg_stable; [lia|]. intros k Hk. apply Hno, HF. lia.
  Qed.

  Record BackSem (d : nat) (rg pw pr : list Z) (F : list nat) : Prop := mkBS {
    bs_w : BackSemW d rg F;
    bs_raw : forall j k, In j F -> (j < k < d)%nat -> forall s, (s < 32)%nat -> In s (wsl j) -> ~ In s (rsl k);
    bs_pwlen : length pw = 32%nat;
    bs_prlen : length pr = 32%nat;
    bs_pw : forall s, (s < 32)%nat -> nth s pw 0 = cnt wsl F s;
    bs_pr : forall s, (s < 32)%nat -> nth s pr 0 = cnt rsl F s }.

  Lemma bs_perm d rg pw pr F F' : Permutation F F' -> BackSem d rg pw pr F -> BackSem d rg pw pr F'.
  Proof.
    intros HP [Hw Hraw H4 H5 H6 H7]. constructor; auto.
    - eapply bw_perm; eassumption.
    - intros j k Hj. apply Hraw. eapply Permutation_in; [apply Permutation_sym; exact HP | exact Hj].
    - intros s Hs. rewrite H6 by exact Hs. apply cnt_perm. exact HP.
    - intros s Hs. rewrite H7 by exact Hs. apply cnt_perm. exact HP.
  Qed.

  (* an instruction in flight reads its sequential operands: no older one in flight writes them
     (RAW), it has not lost them to a younger one (WAR), and what nobody in flight writes is
     unchanged since it was dispatched *)
  Lemma bs_slot_read d rg pw pr F j s : BackSem d rg pw pr F -> In j F -> In s (rsl j) ->
    nth s rg 0 = nth s (sreg j) 0.
  Proof.
    intros [Hw Hraw _ _ _ _] Hj Hr.
    destruct (Nat.lt_ge_cases s (length regs0)) as [Hs|Hs].
    2:{ rewrite !nth_overflow; [reflexivity | rewrite sreg_length; exact Hs | rewrite (bw_rlen _ _ _ Hw); exact Hs]. }
    assert (Hs32 : (s < 32)%nat) by lia.
    pose proof (bw_lt _ _ _ Hw j Hj) as Hjd.
    destruct (writer_dec F s) as [(j' & Hj' & Hw')|Hno].
    - destruct (Nat.lt_trichotomy j' j) as [Hlt|[->|Hgt]].
      + exfalso. exact (Hraw j' j Hj' (conj Hlt (proj2 Hjd)) s Hs32 Hw' Hr).
      + apply (bw_rA _ _ _ Hw); assumption.
      + exfalso. exact (proj2 (bw_pair _ _ _ _ _ Hw Hj Hj' Hgt s Hs32) Hr Hw').
    - rewrite (bw_rB _ _ _ Hw s Hs Hno).
      apply sreg_stable; [lia|]. intros k Hk Hwk.
      destruct (Nat.eq_dec k j) as [->|Hne]; [exact (Hno j Hj Hwk)|].
      exact (proj2 (bw_ind _ _ _ Hw j k Hj ltac:(lia) s Hs32) Hr Hwk).
  Qed.

  Lemma bs_reads d rg pw pr F j r : BackSem d rg pw pr F -> In j F -> In r (instr_ReadRegisters (ik j)) ->
    rget rg r = rget (sreg j) r.
  Proof.
    intros H Hj Hr. rewrite !rget_nth. destruct (Z.eqb_spec r 0) as [|Hnz]; [reflexivity|].
    eapply bs_slot_read; [exact H | exact Hj|]. apply slots_in. exists r. auto.
  Qed.

  (* the instruction computes its sequential effect *)
  Lemma bs_exec d rg pw pr F j : BackSem d rg pw pr F -> In j F ->
    exec (sinstr_of (ik j)) (rget rg) labels (pcz j) [] = exec (sinstr_of (ik j)) (rget (sreg j)) labels (pcz j) [].
  Proof.
    intros H Hj. apply spec_reads_sound. intros r Hr. rewrite <- read_registers_exact in Hr.
    eapply bs_reads; eassumption.
  Qed.

  (* what the scoreboard check of the control unit establishes for instruction k *)
  Definition hazard_free (F : list nat) (k : nat) : Prop :=
    forall s, (s < 32)%nat ->
      (In s (rsl k) -> cnt wsl F s = 0) /\ (In s (wsl k) -> cnt wsl F s = 0 /\ cnt rsl F s = 0).

  Lemma bs_dispatch d rg pw pr pw' pr' F : BackSem d rg pw pr F -> (base <= d)%nat -> hazard_free F d ->
    length pw' = 32%nat -> length pr' = 32%nat ->
    (forall s, (s < 32)%nat -> nth s pw' 0 = nth s pw 0 + cnt1 (wsl d) s) ->
    (forall s, (s < 32)%nat -> nth s pr' 0 = nth s pr 0 + cnt1 (rsl d) s) ->
    BackSem (S d) rg pw' pr' (d :: F).
  Proof.
    intros [Hw Hraw H4 H5 H6 H7] Hbd Hhf Hl1 Hl2 Hpw Hpr. constructor; auto.
    - apply bw_dispatch; [exact Hw | exact Hbd|]. intros s Hs. apply (Hhf s Hs).
    - intros j k [<-|Hj] Hk; [lia|]. destruct (Nat.eq_dec k d) as [->|Hne]; [|apply Hraw; [exact Hj | lia]].
      intros s Hs Hwj Hrd. exact (cnt_zero_elim _ _ _ _ (proj1 (Hhf s Hs) Hrd) Hj Hwj).
    - intros s Hs. rewrite Hpw, H6 by exact Hs. cbn [cnt]. lia.
    - intros s Hs. rewrite Hpr, H7 by exact Hs. cbn [cnt]. lia.
  Qed.

  Lemma bs_writeback d rg pw pr pw' pr' F j : BackSem d rg pw pr (j :: F) ->
    (forall s, In s (wsl j) -> eff_writes_reg (eff j)) ->
    length pw' = 32%nat -> length pr' = 32%nat ->
    (forall s, (s < 32)%nat -> nth s pw' 0 = nth s pw 0 - cnt1 (wsl j) s) ->
    (forall s, (s < 32)%nat -> nth s pr' 0 = nth s pr 0 - cnt1 (rsl j) s) ->
    BackSem d (apply_eff (eff j) rg) pw' pr' F.
  Proof.
    intros [Hw Hraw H4 H5 H6 H7] Heff Hl1 Hl2 Hpw Hpr. constructor; auto.
    - apply bw_writeback; assumption.
    - intros j' k Hj'. apply Hraw. right. exact Hj'.
    - intros s Hs. rewrite Hpw, H6 by exact Hs. cbn [cnt]. lia.
    - intros s Hs. rewrite Hpr, H7 by exact Hs. cbn [cnt]. lia.
  Qed.

  (* an instruction without declared registers (ret, nop) leaves the flight without a trace *)
  Lemma bs_drop d rg pw pr F j : BackSem d rg pw pr (j :: F) -> wsl j = [] -> rsl j = [] -> BackSem d rg pw pr F.
  Proof.
    intros [Hw Hraw H4 H5 H6 H7] Ew Er. constructor; auto.
    - eapply bw_drop; eassumption.
    - intros j' k Hj'. apply Hraw. right. exact Hj'.
    - intros s Hs. rewrite H6 by exact Hs. cbn [cnt]. rewrite Ew. reflexivity.
    - intros s Hs. rewrite H7 by exact Hs. cbn [cnt]. rewrite Er. reflexivity.
  Qed.

  (* nothing in flight: the register file is the sequential one *)
  Lemma bs_empty d rg pw pr : BackSem d rg pw pr [] -> rg = sreg d.
  Proof. intros H. apply bw_empty, (bs_w _ _ _ _ _ H). Qed.

  Lemma bs_init pw pr : pw = repeat 0 32 -> pr = repeat 0 32 -> BackSem base regs0 pw pr [].
  Proof.
    intros -> ->. constructor; try reflexivity.
    - apply bw_init.
    - intros j k [].
    - intros s Hs. cbn [cnt]. apply nth_repeat.
    - intros s Hs. cbn [cnt]. apply nth_repeat.
  Qed.
End Sem.
