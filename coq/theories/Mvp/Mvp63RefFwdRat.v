(* Refinement of MVP-6.3 to the sequential machine on single-assignment register-only programs with FORWARD
   control flow - the register alias tables (generalises Mvp63RefRat.v to a segment base and a sequence id).

   The invariant TabOK w crat trat of Mvp63RefFwdDefs.v (the two tables show the sequential register file
   sreg w of the segment; every tag of transactionRAT is below sid w) is

     tab_init        established by ctx.InitRAT();
     tab_write /     preserved by the write-back of instruction w of the segment (the write unit writes
     tab_nowrite     (sid w, value) into transactionRAT iff exe.RegisterChange);
     tab_commit      preserved by ctx.RATCommit(), whatever the order of the map iteration;
     tab_rollback    preserved by ctx.RATRollback(T) for every T at or above sid w: every slot of
                     transactionRAT that Read returns is then older than T, so FindValues returns what Values does;
     tab_finish      RATCommit ; RATFlush writes sreg w into ctx.Registers;
     tab_rebase      re-read as the invariant of the next segment (registers sreg w, base t, sequence id sq'). *)
From Coq Require Import ZArith List Bool Lia Permutation.
From Maj Require Import Base.Outcome Base.GoInt Base.GoTypes Isa.Spec Isa.Embed Isa.Seq Isa.Refine.
From Maj Require Import Gen.Latency Gen.RiscTables Gen.Opcodes Comp.Cache Comp.Rat Comp.RatProofs.
From Maj Require Import Mvp.Mvp12 Mvp.Mvp12Proofs Mvp.Mvp3 Mvp.Mvp3Proofs Mvp.Mvp4Skel Mvp.Mvp4Inv Mvp.Mvp5 Mvp.Mvp60
     Mvp.Mvp60RefSem Mvp.Mvp60RefDefs Mvp.Mvp60RefFront Mvp.Mvp60RefBack Mvp.Mvp60RefStep Mvp.Mvp63 Mvp.Mvp63RefDefs Mvp.Mvp63RefInv
     Mvp.Mvp63RefRat Mvp.Mvp63RefFwdDefs.
Import ListNotations.
Open Scope Z_scope.

(* ------------------------------------------------------------------ *)
(* registerRead and the two tables                                      *)

Lemma reg_read3_tview fw crat trat r : reg_read3 fw crat trat r = if r =? fst fw then snd fw else tview crat trat r.
Proof. reflexivity. Qed.

Lemma tview_new crat r : tview crat (rat_new ratLength) r = match rat_read 0 crat r with Some v => v | None => 0 end.
Proof. reflexivity. Qed.

Lemma sid3_S sq k : sid3 sq (S k) = sid3 sq k + 4.
Proof. unfold sid3, pcz. lia. Qed.

Lemma in_rng_true r : 0 <= r < 32 -> (0 <=? r) && (r <? 32) = true.
Proof. intros H. destruct (Z.leb_spec 0 r), (Z.ltb_spec r 32); try reflexivity; lia. Qed.

Lemma in_rng_false r : ~ 0 <= r < 32 -> (0 <=? r) && (r <? 32) = false.
Proof. intros H. destruct (Z.leb_spec 0 r), (Z.ltb_spec r 32); try reflexivity; lia. Qed.

Section FwdRat.
  Variables (app : list instr) (labels : Z -> option Z) (regs0 : list Z) (base : nat).
  Hypothesis Hrng : regs_ok app = true.
  Hypothesis Hlen0 : length regs0 = 32%nat.
  Hypothesis Hx0 : nth 0 regs0 0 = 0.

  Notation sreg := (sreg app labels regs0 base).
  Notation eff := (eff app labels regs0 base).
  Notation ik := (ik app).
  Notation exeb := (exeb app labels regs0 base).
  Notation vw := (vw app labels regs0 base).

  Lemma len_le32 : (length regs0 <= 32)%nat.
  Proof. rewrite Hlen0. apply le_n. Qed.

  (* ---------------------------------------------------------------- *)
  (* the sequential register file of the segment                       *)

  Lemma sreg_len32 k : length (sreg k) = 32%nat.
  Proof. rewrite sreg_length. exact Hlen0. Qed.

  (* slot 0 is never written *)
  Lemma sreg_x0 k : nth 0 (sreg k) 0 = 0.
  Proof.
    transitivity (nth 0 (sreg 0) 0); [|exact Hx0]. apply sreg_stable; [exact len_le32 | lia|].
    intros j _ Hin. unfold Mvp60RefSem.wsl in Hin. apply slots_in in Hin as (r & Hr & Hnz & Hz).
    pose proof (wrs_rng app Hrng j r Hr). lia.
  Qed.

  (* ---------------------------------------------------------------- *)
  (* the execution record of instruction k and the register file       *)

  Lemma effb_wrs k rd : (match eff k with EReg r _ | ELink r _ _ => r = rd | _ => False end) -> wrs app k = [rd].
  Proof. apply eff_wrs_at. Qed.

  Lemma exeb_change k : RegisterChange (exeb k) = true ->
    0 <= Register (exeb k) < 32 /\ (Register (exeb k) = 0 -> RegisterValue (exeb k) = 0) /\
    forall rg, apply_eff (eff k) rg = rset rg (Register (exeb k)) (RegisterValue (exeb k)).
  Proof.
    pose proof (effb_wrs k) as Hw. unfold Mvp63RefFwdDefs.exeb.
    destruct (eff k) as [rd v|bs| |a|rd v a|]; cbn [embed]; try discriminate;
      unfold reg_pair; destruct (Z.eqb_spec rd 0) as [->|Hnz]; cbn; intros _.
    - split; [lia|]. split; [reflexivity|]. intros rg. reflexivity.
    - split; [|split; [intros; contradiction | reflexivity]].
      apply (wrs_rng app Hrng k). rewrite (Hw rd eq_refl). left. reflexivity.
    - split; [lia|]. split; [reflexivity|]. intros rg. reflexivity.
    - split; [|split; [intros; contradiction | reflexivity]].
      apply (wrs_rng app Hrng k). rewrite (Hw rd eq_refl). left. reflexivity.
  Qed.

  Lemma exeb_nochange k : RegisterChange (exeb k) = false -> forall rg, apply_eff (eff k) rg = rg.
  Proof.
    unfold Mvp63RefFwdDefs.exeb. destruct (eff k) as [rd v|bs| |a|rd v a|]; cbn [embed]; try reflexivity;
      unfold reg_pair; destruct (rd =? 0); cbn; discriminate.
  Qed.

  Lemma vw_in w r : 0 <= r < 32 -> vw w r = nth (Z.to_nat r) (sreg w) 0.
  Proof. intros H. unfold Mvp63RefFwdDefs.vw. rewrite in_rng_true by exact H. reflexivity. Qed.

  Lemma vw_out w r : ~ 0 <= r < 32 -> vw w r = 0.
  Proof. intros H. unfold Mvp63RefFwdDefs.vw. rewrite in_rng_false by exact H. reflexivity. Qed.

  Lemma vw_zero w : vw w 0 = 0.
  Proof. rewrite vw_in by lia. apply sreg_x0. Qed.

  Lemma vw_S_write w : (base <= w)%nat -> RegisterChange (exeb w) = true ->
    0 <= Register (exeb w) < 32 /\
    forall r, vw (S w) r = if r =? Register (exeb w) then RegisterValue (exeb w) else vw w r.
  Proof.
    intros Hb Hc. destruct (exeb_change w Hc) as (Hr & Hz & Ha). split; [exact Hr|]. intros r.
    set (R := Register (exeb w)) in *. set (V := RegisterValue (exeb w)) in *.
    destruct (Z.eqb_spec r R) as [->|Hne].
    - rewrite vw_in by exact Hr. rewrite (sreg_S app labels regs0 base len_le32 w Hb), Ha, nth_rset, sreg_len32.
      destruct (Z.eqb_spec R 0) as [E0|Hnz]; cbn [negb andb].
      + rewrite (Hz E0), E0. apply sreg_x0.
      + rewrite Nat.eqb_refl. cbn [andb]. destruct (Nat.ltb_spec (Z.to_nat R) 32); [reflexivity | lia].
    - destruct (Z_le_dec 0 r) as [H0|H0]; [destruct (Z_lt_dec r 32) as [H1|H1]|].
      + rewrite !vw_in by lia. rewrite (sreg_S app labels regs0 base len_le32 w Hb), Ha, nth_rset.
        destruct (Nat.eqb_spec (Z.to_nat R) (Z.to_nat r)) as [En|_]; [lia|]. rewrite andb_false_r. reflexivity.
      + rewrite !vw_out by lia. reflexivity.
      + rewrite !vw_out by lia. reflexivity.
  Qed.

  Lemma vw_S_nowrite w : (base <= w)%nat -> RegisterChange (exeb w) = false -> forall r, vw (S w) r = vw w r.
  Proof.
    intros Hb Hc r. unfold Mvp63RefFwdDefs.vw. rewrite (sreg_S app labels regs0 base len_le32 w Hb), (exeb_nochange w Hc). reflexivity.
  Qed.

  (* a register nobody in [w, k) writes *)
  Lemma vw_stable w k q : (base <= w <= k)%nat -> 0 < q < 32 -> (forall j, (w <= j < k)%nat -> ~ In q (wrs app j)) ->
    vw w q = rget (sreg k) q.
  Proof.
    intros Hwk Hq Hno. rewrite vw_in by lia. rewrite rget_nth. destruct (Z.eqb_spec q 0); [lia|].
    symmetry. apply sreg_stable; [exact len_le32 | lia|]. intros j Hj Hin.
    apply (wsl_in app Hrng j q ltac:(lia)) in Hin. exact (Hno j Hj Hin).
  Qed.

  (* the value a later reader of register r gets from the writer p of r *)
  Lemma fwd_valueq p k r : ssa app = true -> (base <= p < k)%nat -> (k <= length app)%nat -> In r (wrs app p) -> 0 < r ->
    (exists e, exec (sinstr_of (ik p)) (rget (sreg p)) labels (pcz p) [] = Ok e) ->
    rget (sreg k) r = RegisterValue (exeb p).
  Proof. apply (fwd_value_at app labels regs0 base Hrng Hlen0). Qed.

  (* ---------------------------------------------------------------- *)
  (* ranges                                                            *)

  Section R32.
    Hypothesis Hr32 : Forall int32 regs0.

    Lemma sreg_r32 k : Forall int32 (sreg k).
    Proof. apply sreg_int32. exact Hr32. Qed.

    Lemma vw_int32 w r : int32 (vw w r).
    Proof.
      unfold Mvp63RefFwdDefs.vw. destruct ((0 <=? r) && (r <? 32)); [|apply int32_0].
      apply nth_Forall; [apply sreg_r32 | apply int32_0].
    Qed.

    Lemma exeb_val_int32 k : int32 (RegisterValue (exeb k)).
    Proof. apply embed_val_int32. Qed.
  End R32.
  (* ---------------------------------------------------------------- *)
  (* the invariant of the two tables; sq: ctx.sequenceID of the segment *)
  Section Tab.
  Variable sq : Z.
  Notation sid := (sid sq).
  Notation TabOK := (TabOK app labels regs0 base sq).

  Lemma sid_S k : sid (S k) = sid k + 4.
  Proof. apply sid3_S. Qed.

  (* ---------------------------------------------------------------- *)
  (* write-back                                                        *)

  Lemma tab_write w crat trat : TabOK w crat trat -> (base <= w)%nat -> RegisterChange (exeb w) = true ->
    TabOK (S w) crat (rat_write tu0 trat (Register (exeb w)) (sid w, RegisterValue (exeb w))).
  Proof.
    intros [Hco Hto Hck Htk Hvw Htt] Hb Hc. destruct (vw_S_write w Hb Hc) as [Hr Hv].
    set (R := Register (exeb w)) in *. set (V := RegisterValue (exeb w)) in *.
    pose proof (fun q => rat_read_write tu0 trat R (sid w, V) q Hto) as Hrw.
    constructor.
    - exact Hco.
    - apply rat_write_ok. exact Hto.
    - exact Hck.
    - intros r. rewrite Hrw. destruct (Z.eqb_spec r R) as [->|_]; [intros _; exact Hr | apply Htk].
    - intros r. rewrite Hv. unfold tview. rewrite Hrw. destruct (r =? R); [reflexivity|]. apply Hvw.
    - intros r v. rewrite Hrw, sid_S. destruct (r =? R).
      + intros [= <-]. cbn [fst]. lia.
      + intros H. apply Htt in H. lia.
  Qed.

  Lemma tab_nowrite w crat trat : TabOK w crat trat -> (base <= w)%nat -> RegisterChange (exeb w) = false ->
    TabOK (S w) crat trat.
  Proof.
    intros [Hco Hto Hck Htk Hvw Htt] Hb Hc. constructor; try assumption.
    - intros r. rewrite (vw_S_nowrite w Hb Hc). apply Hvw.
    - intros r v H. apply Htt in H. rewrite sid_S. lia.
  Qed.

  (* ---------------------------------------------------------------- *)
  (* the next segment                                                  *)

  Lemma tab_rebase w crat trat t sq' : TabOK w crat trat -> sid w <= sid3 sq' t ->
    Mvp63RefFwdDefs.TabOK app labels (sreg w) t sq' t crat trat.
  Proof.
    intros [Hco Hto Hck Htk Hvw Htt] Hs. constructor; try assumption.
    - intros r. rewrite Hvw. unfold Mvp63RefFwdDefs.vw.
      rewrite (sreg_base app labels (sreg w) t ltac:(rewrite sreg_len32; apply le_n) t (le_n t)). reflexivity.
    - intros r v H. apply Htt in H. unfold Mvp63RefFwdDefs.sid. lia.
  Qed.

  (* every slot Read returns is older than T: FindValues finds it first *)
  Lemma findvalues_read w crat trat T : TabOK w crat trat -> sid w <= T ->
    forall r, aget r (rat_findvalues tu0 trat (fun u => fst u <? T)) = rat_read tu0 trat r.
  Proof.
    intros H HT r. pose proof (tb_tok _ _ _ _ _ _ _ _ H) as Hto. pose proof (tb_ttag _ _ _ _ _ _ _ _ H r) as Htt.
    rewrite aget_rat_findvalues, rat_find_view by exact Hto. rewrite rat_read_view in * by exact Hto.
    destruct (rat_view trat r) as [|v t]; cbn [find hd_error] in *; [reflexivity|].
    specialize (Htt v eq_refl). destruct (Z.ltb_spec (fst v) T); [reflexivity | lia].
  Qed.

  (* ord: the order of the Go map iterations *)
  Section Ord.
  Variable ord : Z -> Z -> list Z -> list Z.

  (* ---------------------------------------------------------------- *)
  (* RATCommit / RATRollback                                           *)

  (* for k, v := range vals { committedRAT.Write(k, v.value) } ; transactionRAT = NewRAT, when vals is what
     transactionRAT.Read returns *)
  Lemma tab_commit_gen w crat trat cy vals : TabOK w crat trat -> (forall r, aget r vals = rat_read tu0 trat r) ->
    TabOK w (commit_vals ord cy crat vals) (rat_new ratLength).
  Proof.
    intros [Hco Hto Hck Htk Hvw Htt] Hvals.
    assert (Ecv : commit_vals ord cy crat vals = wfold 0 (fun tu : Z * Z => snd tu) vals (map_order ord cy (-1) (akeys vals)) crat) by reflexivity.
    rewrite Ecv. destruct (fold_rat_write_read 0 (fun tu : Z * Z => snd tu) vals (map_order ord cy (-1) (akeys vals)) crat Hco) as [Hok' Hrd'].
    set (crat' := wfold 0 (fun tu : Z * Z => snd tu) vals (map_order ord cy (-1) (akeys vals)) crat) in *.
    assert (Hread : forall r, rat_read 0 crat' r = match rat_read tu0 trat r with Some a => Some (snd a) | None => rat_read 0 crat r end).
    { intros r. rewrite Hrd'. unfold map_order. rewrite memZ_iter_order, memZ_akeys, Hvals. destruct (rat_read tu0 trat r); reflexivity. }
    constructor.
    - exact Hok'.
    - apply rat_new_ok. unfold ratLength. lia.
    - intros r. rewrite Hread. destruct (rat_read tu0 trat r) as [a|] eqn:E; [|apply Hck].
      split; [intros _; apply Htk; rewrite E; discriminate | intros _; discriminate].
    - intros r H. exfalso. apply H. reflexivity.
    - intros r. rewrite tview_new, Hread, <- Hvw. unfold tview. destruct (rat_read tu0 trat r); reflexivity.
    - intros r v H. discriminate H.
  Qed.

  Lemma tab_commit w crat trat cy : TabOK w crat trat ->
    TabOK w (commit_vals ord cy crat (rat_values tu0 trat)) (rat_new ratLength).
  Proof. intros H. apply tab_commit_gen with (trat := trat); [exact H|]. intros r. apply aget_rat_values. Qed.

  Lemma tab_rollback w crat trat cy T : TabOK w crat trat -> sid w <= T ->
    TabOK w (commit_vals ord cy crat (rat_findvalues tu0 trat (fun u => fst u <? T))) (rat_new ratLength).
  Proof. intros H HT. apply tab_commit_gen with (trat := trat); [exact H|]. apply (findvalues_read w crat trat T H HT). Qed.

  (* ---------------------------------------------------------------- *)
  (* RATFlush                                                          *)

  Lemma tab_flush w x cy : TabOK w (x_crat x) (x_trat x) -> (forall r, rat_read tu0 (x_trat x) r = None) ->
    length (m_regs (x_m x)) = 32%nat -> rat_flush3 ord cy x = sreg w.
  Proof.
    intros [Hco Hto Hck Htk Hvw Htt] Hemp Hregs. unfold rat_flush3.
    assert (Hread : forall r, rat_read 0 (x_crat x) r = if (0 <=? r) && (r <? 32) then Some (vw w r) else None).
    { intros r. specialize (Hvw r). unfold tview in Hvw. rewrite Hemp in Hvw. specialize (Hck r).
      destruct (Z_le_dec 0 r) as [H0|H0]; [destruct (Z_lt_dec r 32) as [H1|H1]|].
      - rewrite in_rng_true by lia. destruct (rat_read 0 (x_crat x) r) as [v|]; [rewrite Hvw; reflexivity|].
        exfalso. apply (proj2 Hck); [lia | reflexivity].
      - rewrite in_rng_false by lia. destruct (rat_read 0 (x_crat x) r) as [v|]; [|reflexivity].
        exfalso. assert (0 <= r < 32) by (apply Hck; discriminate). lia.
      - rewrite in_rng_false by lia. destruct (rat_read 0 (x_crat x) r) as [v|]; [|reflexivity].
        exfalso. assert (0 <= r < 32) by (apply Hck; discriminate). lia. }
    set (cvals := rat_values 0 (x_crat x)).
    assert (Haget : forall k, aget k cvals = if (0 <=? k) && (k <? 32) then Some (vw w k) else None).
    { intros k. unfold cvals. rewrite aget_rat_values. apply Hread. }
    apply (nth_ext _ _ 0 0).
    - rewrite flush_fold_length, Hregs, sreg_len32. reflexivity.
    - intros s Hs. rewrite flush_fold_length, Hregs in Hs.
      rewrite flush_fold.
      + unfold map_order. rewrite memZ_iter_order, memZ_akeys, Haget.
        rewrite in_rng_true by lia. rewrite vw_in by lia. rewrite Nat2Z.id. reflexivity.
      + intros k v Hk. rewrite Haget in Hk. destruct (Z.leb_spec 0 k); [assumption | discriminate].
      + rewrite Hregs. exact Hs.
  Qed.

  (* RATCommit ; RATFlush *)
  Lemma tab_finish w x cy : TabOK w (x_crat x) (x_trat x) -> length (m_regs (x_m x)) = 32%nat ->
    rat_flush3 ord cy (rat_commit3 ord cy x) = sreg w.
  Proof.
    intros H Hregs. apply tab_flush.
    - unfold rat_commit3. cbn [x_crat x_trat set_rats3]. apply tab_commit. exact H.
    - intros r. reflexivity.
    - exact Hregs.
  Qed.

  End Ord.
  End Tab.
End FwdRat.

(* ctx.InitRAT() *)
Lemma tab_init app labels ord regs : length regs = 32%nat ->
  TabOK app labels regs 0 0 0 (init_rat3 ord regs) (rat_new ratLength).
Proof.
  intros Hl. destruct (init_rat_read ord regs) as [Hok Hrd]. rewrite Hl in Hrd. change (Z.of_nat 32) with 32 in Hrd.
  constructor.
  - exact Hok.
  - apply rat_new_ok. unfold ratLength. lia.
  - intros r. rewrite Hrd. destruct (Z_le_dec 0 r) as [H0|H0]; [destruct (Z_lt_dec r 32) as [H1|H1]|].
    + rewrite in_rng_true by lia. split; [intros _; lia | intros _; discriminate].
    + rewrite in_rng_false by lia. split; [intros H; exfalso; apply H; reflexivity | lia].
    + rewrite in_rng_false by lia. split; [intros H; exfalso; apply H; reflexivity | lia].
  - intros r H. exfalso. apply H. reflexivity.
  - intros r. rewrite tview_new, Hrd. unfold vw. cbn [sreg]. destruct ((0 <=? r) && (r <? 32)); reflexivity.
  - intros r v H. discriminate H.
Qed.

Print Assumptions reg_read3_tview.
Print Assumptions vw_zero.
Print Assumptions vw_int32.
Print Assumptions exeb_val_int32.
Print Assumptions vw_S_write.
Print Assumptions vw_S_nowrite.
Print Assumptions vw_stable.
Print Assumptions fwd_valueq.
Print Assumptions tab_write.
Print Assumptions tab_nowrite.
Print Assumptions tab_commit.
Print Assumptions tab_rollback.
Print Assumptions tab_finish.
Print Assumptions tab_init.
Print Assumptions tab_rebase.
Print Assumptions sreg_len32.
Print Assumptions sreg_x0.
Print Assumptions sreg_r32.
