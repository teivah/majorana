(* Soundness of the ghost flag of the model of MVP-8.0: an l1WriteBack closure of address a and an L3
   closure (l3Evict / l3WriteBack) of address b on a DIFFERENT L3 line commute (sn_swap_stmt of Mvp80OrdCommDefs.v).

   Both closures are rewritten into their closed forms (sn_step_W1, sn_step_l3 of Mvp80OrdWf.v).  No line of the L3
   covers both a and b, so what the search for b finds is not disturbed by removing, moving to the front or rewriting
   the line of a (fcov_rmcov, rmcov_comm, fcov_cons_nc); the 64 bytes written to memory at a and the 128 bytes at b are
   disjoint; in the directory cmd_done commutes literally with the updates of l3Lock / l3Write, two cmd_done by
   cmd_done_comm, two updates of l3Write at different keys up to aget. *)
From Coq Require Import ZArith List Bool Lia.
From Maj Require Import Base.Outcome Base.GoInt Base.GoTypes Isa.Spec Isa.Seq.
From Maj Require Import Gen.Latency Gen.RiscTables Gen.Opcodes Comp.Cache Comp.Rat Mvp.Mvp12 Mvp.Mvp3 Mvp.Mvp5 Mvp.Mvp60 Mvp.Mvp63 Mvp.Mvp80.
From Maj Require Import Mvp.Mvp80OrdSnoop Mvp.Mvp80OrdCache Mvp.Mvp80OrdInvDefs Mvp.Mvp80OrdCommDefs Mvp.Mvp80OrdWf.
Import ListNotations.
Open Scope Z_scope.

Lemma ranges_disj : forall a b, 0 <= a < 2^31 -> 0 <= b < 2^31 ->
  l1_align a = a -> l3_align b = b -> l3_align a <> l3_align b -> a + 64 <= b \/ b + 128 <= a.
Proof.
  intros a b Ha Hb. unfold l1_align, l3_align, align8, l1dLineSize, l3LineSize8, subS, remS.
  rewrite !wrapS32. rewrite p31 in *. rewrite !Z.rem_mod_nonneg by lia. intros A B N. lia.
Qed.

Lemma conflict_W1_L3 : forall k1 k2, ck_req k1 = rq_l1WriteBack -> is_l1_req k2 = false ->
  sn_conflict k1 k2 = false -> l3_align (ck_addr k1) <> l3_align (ck_addr k2).
Proof.
  intros k1 k2 H1 H2 H. unfold is_l1_req in H2. apply orb_false_iff in H2 as [E W].
  unfold sn_conflict in H. rewrite H1, E, W in H. cbn [orb andb] in H.
  change (rq_l1WriteBack =? rq_l1Evict) with false in H. cbv iota in H. rewrite andb_false_r in H.
  apply Z.eqb_neq. exact H.
Qed.

(* normal form of a directory after two closures: l3_setlock (set_l3write (cmd_done (cmd_done ..))) *)
Lemma cmd_done_setlock : forall k b v key cid, cmd_done (l3_setlock k b v) key cid = l3_setlock (cmd_done k key cid) b v.
Proof. exact Mvp80OrdWf.cmd_done_setlock. Qed.

Lemma cmd_done_setwrite : forall k m key cid, cmd_done (set_l3write k m) key cid = set_l3write (cmd_done k key cid) m.
Proof. exact cmd_done_setl3write. Qed.

Lemma setwrite_setlock : forall k b v m, set_l3write (l3_setlock k b v) m = l3_setlock (set_l3write k m) b v.
Proof. reflexivity. Qed.

Lemma setwrite_setwrite : forall k m m', set_l3write (set_l3write k m) m' = set_l3write k m'.
Proof. reflexivity. Qed.

Lemma l3write_setlock : forall k b v, k_l3write (l3_setlock k b v) = k_l3write k.
Proof. reflexivity. Qed.

Lemma l3write_cmd_done : forall k key cid, k_l3write (cmd_done k key cid) = k_l3write k.
Proof. exact k_l3write_cmd_done. Qed.

Lemma l3write_setwrite : forall k m, k_l3write (set_l3write k m) = m.
Proof. reflexivity. Qed.

Global Hint Rewrite cmd_done_setlock cmd_done_setwrite setwrite_setlock setwrite_setwrite
  l3write_setlock l3write_cmd_done l3write_setwrite : msin.

Ltac msi := unfold l3msi; autorewrite with msin;
  first [ apply msi_equiv_refl
        | apply setlock_setl3write_equiv; [apply cmd_done_comm; assumption | intros; first [reflexivity | apply aset_swap; assumption]] ].

Theorem swap_W1_L3 : forall k1 c1 x y z wb k2 c2 n, sn_swap_stmt (SnL1WriteBack k1 c1 x y z) (l3cl wb k2 c2 n).
Proof.
  intros k1 i1 n1 n2 n3 wb k2 i2 m w c MW CC Ux Uy Cxy.
  destruct (0 <? n1) eqn:E1.
  { apply (swap_idle_l _ _ (Some (SnL1WriteBack k1 i1 (n1 - 1) n2 n3))). intros w' c'. cbn [sn_step]. rewrite E1. reflexivity. }
  destruct (wb && (0 <? m)) eqn:En.
  { eapply swap_idle_r. intros w' c'. apply sn_step_count. exact En. }
  destruct w as [mem l3 k]. destruct l3 as [nl ll ls]. cbn [w_msi] in *.
  destruct MW as [[_ W3L] _]. destruct CC as [[_ W1L] _]. cbn [w_l3 lines] in W3L.
  change l3LineSize8 with 128 in W3L. change l1dLineSize with 64 in W1L.
  pose proof (unary_l1 _ _ _ Ux eq_refl) as A1. pose proof (unary_l3 _ _ _ Uy (l3cl_isl1 _ _ _ _)) as B3.
  pose proof (unary_pget _ _ _ Ux) as P1. pose proof (unary_pget _ _ _ Uy) as P2.
  pose proof (kind_isl1 _ (proj1 Uy)) as Ky. destruct Ux as (Kx & _). destruct Cxy as [Cf _].
  rewrite ?l3cl_key, ?l3cl_isl1 in *. cbn [sn_kind_ok sn_key] in *.
  pose proof (conflict_W1_L3 k1 k2 Kx Ky Cf) as NE.
  pose proof (nocov_l3 ls _ _ W3L NE) as NB. pose proof (nocov_sym _ _ _ NB) as NB'.
  assert (NE' : ck_addr k2 <> l3_align (ck_addr k1)) by (rewrite <- B3; congruence).
  unfold sn2. rewrite sn_step_W1 by wfs. rewrite sn_step_l3 by wfs. cbn [lines]. rewrite E1, En.
  destruct wb; cbn [andb l3data] in En |- *.
  1: destruct (fcov ls (ck_addr k2)) as [l'|] eqn:F3b.
  all: destruct (negb (l3_locked k (ck_addr k2))) eqn:LK.
  all: (destruct (fcov (lines (c_l1d c)) (ck_addr k1)) as [l1|] eqn:F1; [|go NB NB'; fin NB]).
  all: destruct (fcov ls (ck_addr k1)) as [l|] eqn:F3a.
  all: try (pose proof (fcov_nocov _ _ _ _ NB F3a) as Cl; pose proof (Forall_fcov _ _ _ _ W3L F3a) as WL).
  all: try (destruct (0 <? n3) eqn:E3; [go NB NB'; fin NB|]).
  all: try (destruct (0 <? n2) eqn:E2; [go NB NB'; fin NB|]).
  all: go NB NB'; fin NB; try msi.
  (* the two write-backs to memory: 64 bytes at a, 128 bytes at b, disjoint *)
  all: destruct (fcov_some _ _ _ F1) as [_ C1]; pose proof (Forall_fcov _ _ _ _ W1L F1) as WL1;
    destruct (fcov_some _ _ _ F3b) as [_ C'']; pose proof (Forall_fcov _ _ _ _ W3L F3b) as WL';
    destruct (covers_range 64 l1 _ n64 WL1 C1) as (RA & _ & RA'); destruct (covers_range 128 l' _ n128 WL' C'') as (RB & _ & RB');
    destruct WL1 as (L1 & _ & _ & D1); destruct WL' as (L' & _ & _ & D');
    pose proof (ranges_disj (ck_addr k1) (ck_addr k2) ltac:(lia) ltac:(lia) A1 B3 NE) as DJ;
    apply sb_sb_comm_Z; [lia | lia | rewrite D1, D'; exact DJ].
Qed.

Theorem swap_W1_E3 : forall k1 c1 x y z k2 c2, sn_swap_stmt (SnL1WriteBack k1 c1 x y z) (SnL3Evict k2 c2).
Proof. intros k1 c1 x y z k2 c2. exact (swap_W1_L3 k1 c1 x y z false k2 c2 0). Qed.

Theorem swap_W1_W3 : forall k1 c1 x y z k2 c2 n, sn_swap_stmt (SnL1WriteBack k1 c1 x y z) (SnL3WriteBack k2 c2 n).
Proof. intros k1 c1 x y z k2 c2 n. exact (swap_W1_L3 k1 c1 x y z true k2 c2 n). Qed.

Print Assumptions swap_W1_E3.
Print Assumptions swap_W1_W3.
