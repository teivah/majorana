(* Refinement of MVP-6.2 to the sequential machine: non-vacuity examples and the findings
   that show why the hypotheses of Mvp62RefProofs.v are there (all by vm_compute on the faithful
   model Mvp62.v). *)
From Coq Require Import ZArith List Bool Lia.
From Maj Require Import Base.Outcome Base.GoInt Isa.Spec Isa.Seq Isa.Refine Gen.Opcodes.
From Maj Require Import Mvp.Mvp12 Mvp.Mvp12Proofs Mvp.Mvp4Skel Mvp.Mvp4Proofs Mvp.Mvp60 Mvp.Mvp61 Mvp.Mvp62 Mvp.Mvp60RefDefs Mvp.Mvp60RefProofs Mvp.Mvp60RefBranch
     Mvp.Mvp61RefFront Mvp.Mvp61RefProofs Mvp.Mvp62RefProofs.
Import ListNotations.
Open Scope Z_scope.

(* FINDING.  Why (nth 0 (regs st) 0 = 0): nop ; li x5,1 ; add x6,x5,x0 with ctx.Registers[zero] = 7.
   registerRead(ctx, forward, reg, 0) of proc/mvp6-2 returns forward.Value when reg == forward.Register,
   otherwise the Transaction entry / ctx.Registers[reg] - also for reg == zero.  With the empty Forward
   {zero, 0} the zero register reads 0; but the add is dispatched with x5 FORWARDED, its Forward is {x5, 1},
   and x0 is read from ctx.Registers: x6 = 1 + 7.  (The sequential machine and MVP-6.1's model read 0.) *)
Theorem mvp62_x0_refuted :
  let p := [SNop; SLi 5 1; SAdd 6 5 0] in
  let st := mk_arch (7 :: repeat 0 31) (repeat 0 8) in
  wf_app (map instr_of p) /\ straight (map instr_of p) = true /\ reg_only (map instr_of p) = true /\
  regs_in_range (map instr_of p) = true /\ length (regs st) = 32%nat /\ nth 0 (regs st) 0 = 7 /\
  exists st' tr c st6,
    seq_run 10 p no_lab st = Done st' tr /\
    mvp62_run 2 (ord_policy 0) 3000 (map instr_of p) no_lab st = MDone c st6 /\
    mvp61_run 2 (ord_policy 0) (pord_policy 0) 3000 (map instr_of p) no_lab st = MDone c st' /\
    rget (regs st') 6 = 1 /\ rget (regs st6) 6 = 8.
Proof.
  cbv zeta. split; [|split; [|split; [|split; [|split; [|split]]]]].
  - split; [|vm_compute; reflexivity]. repeat constructor; vm_compute; discriminate.
  - vm_compute. reflexivity.
  - vm_compute. reflexivity.
  - vm_compute. reflexivity.
  - vm_compute. reflexivity.
  - reflexivity.
  - do 4 eexists. split; [vm_compute; reflexivity|]. split; [vm_compute; reflexivity|]. split; [vm_compute; reflexivity|].
    vm_compute. split; reflexivity.
Qed.

(* programs WITH loads and stores: false at two or more execute units, as for MVP-6.0 / 6.1 (no memory
   dependence is tracked): lw x6,0(x0) ; li x5,7 ; sw x5,0(x0) ; lw x6,0(x0) : expected x6 = 7, mem[0] = 7 *)
Theorem mvp62_memory_order_refuted :
  let p := [SLw 6 0 0; SLi 5 7; SSw 5 0 0; SLw 6 0 0] in
  let st := mk_arch (repeat 0 32) (repeat 0 256) in
  wf_app (map instr_of p) /\ straight (map instr_of p) = true /\ regs_in_range (map instr_of p) = true /\
  exists st' tr st6,
    seq_run 20 p no_lab st = Done st' tr /\
    mvp62_run 2 (ord_policy 0) 5000 (map instr_of p) no_lab st = MDone 985 st6 /\
    rget (regs st') 6 = 7 /\ mget (mem st') 0 = 7 /\
    rget (regs st6) 6 = 0 /\ mget (mem st6) 0 = 0.
Proof.
  cbv zeta. split; [|split; [|split]].
  - split; [|vm_compute; reflexivity]. repeat constructor; vm_compute; discriminate.
  - vm_compute. reflexivity.
  - vm_compute. reflexivity.
  - do 3 eexists. split; [vm_compute; reflexivity|]. split; [vm_compute; reflexivity|]. vm_compute. repeat split; reflexivity.
Qed.

(* why (regs_in_range app): nop ; li x40,9 ; li x5,7 ; add x6,x40,x5.  Register 40 is not tracked by the
   32-slot scoreboard, so the add has ONE hazard (x5); both li were pushed in the previous cycle and
   shouldUseForwarding takes the first that matches - li x40 - : x40 is forwarded (9; sequentially x40
   does not exist and reads 0) and x5 is read before its producer has written back: x6 = 9, not 7. *)
Theorem mvp62_register_number_refuted :
  let p := [SNop; SLi 40 9; SLi 5 7; SAdd 6 40 5] in
  wf_app (map instr_of p) /\ straight (map instr_of p) = true /\ reg_only (map instr_of p) = true /\
  regs_in_range (map instr_of p) = false /\
  exists st' tr c st6,
    seq_run 10 p no_lab zero_state = Done st' tr /\
    mvp62_run 2 (ord_policy 0) 3000 (map instr_of p) no_lab zero_state = MDone c st6 /\
    rget (regs st') 6 = 7 /\ rget (regs st6) 6 = 9.
Proof.
  cbv zeta. split; [|split; [|split; [|split]]].
  - split; [|vm_compute; reflexivity]. repeat constructor; vm_compute; discriminate.
  - vm_compute. reflexivity.
  - vm_compute. reflexivity.
  - vm_compute. reflexivity.
  - do 4 eexists. split; [vm_compute; reflexivity|]. split; [vm_compute; reflexivity|]. vm_compute. split; reflexivity.
Qed.

(* why (length (regs st) = 32): li x7,5 ; addi x3,x7,1 with a register file of 5 entries.  ctx.Registers is a
   map: x7 exists in MVP-6.2 (and the final state has the 32 registers); the list-based sequential
   machine drops the write to x7 *)
Theorem mvp62_short_register_file_refuted :
  let p := [SLi 7 5; SAddi 3 7 1] in
  let st := mk_arch (repeat 0 5) (repeat 0 64) in
  wf_app (map instr_of p) /\ straight (map instr_of p) = true /\ reg_only (map instr_of p) = true /\
  regs_in_range (map instr_of p) = true /\
  exists st' tr c st6,
    seq_run 10 p no_lab st = Done st' tr /\
    mvp62_run 2 (ord_policy 0) 3000 (map instr_of p) no_lab st = MDone c st6 /\
    rget (regs st') 3 = 1 /\ rget (regs st6) 3 = 6 /\ length (regs st6) = 32%nat.
Proof.
  cbv zeta. split; [|split; [|split; [|split]]].
  - split; [|vm_compute; reflexivity]. repeat constructor; vm_compute; discriminate.
  - vm_compute. reflexivity.
  - vm_compute. reflexivity.
  - vm_compute. reflexivity.
  - do 4 eexists. split; [vm_compute; reflexivity|]. split; [vm_compute; reflexivity|]. vm_compute. repeat split; reflexivity.
Qed.

(* FINDING (as for MVP-6.0 / 6.1, SYS-wrong-path-error-6x): the forward theorem does not extend to div / rem.
   li x5,0 ; beq x5,x5,L ; div x6,x5,x5 ; L: li x7,9 - with two or more execute units the div is executed on the
   wrong path in the cycle in which the branch is resolved: Run returns "division by zero".  The speculative
   register state protects registers, not the error path. *)
Theorem mvp62_taken_branch_shadow_error_refuted :
  let app := map instr_of shadow_div_prog in
  wf_app app /\ reg_only app = true /\ regs_in_range app = true /\ one_forward_branch app shadow_labels = true /\
  exists st' tr,
    seq_run 10 (map sinstr_of app) shadow_labels zero_state = Done st' tr /\
    length tr = 3%nat /\ rget (regs st') 7 = 9 /\
    mvp62_run 1 (ord_policy 0) 3000 app shadow_labels zero_state = MDone 323 st' /\
    mvp62_run 2 (ord_policy 0) 3000 app shadow_labels zero_state = MErr EDivZero /\
    mvp62_run 3 (ord_policy 0) 3000 app shadow_labels zero_state = MErr EDivZero /\
    mvp62_run 4 (ord_policy 0) 3000 app shadow_labels zero_state = MErr EDivZero.
Proof.
  cbv zeta. split; [|split; [|split; [|split]]].
  - split; [|vm_compute; reflexivity]. repeat constructor; vm_compute; discriminate.
  - vm_compute. reflexivity.
  - vm_compute. reflexivity.
  - vm_compute. reflexivity.
  - do 2 eexists. split; [vm_compute; reflexivity|]. split; [reflexivity|]. split; [vm_compute; reflexivity|].
    split; [vm_compute; reflexivity|]. split; [vm_compute; reflexivity|]. split; vm_compute; reflexivity.
Qed.

Lemma zero_state_int32 : Forall int32 (regs zero_state).
Proof. apply Forall_forall. intros x Hx. apply repeat_spec in Hx. subst x. apply int32_0. Qed.

(* non-vacuity, straight-line class: the example of Props/C01_mvp61.v (chained forwarded RAW dependences,
   WAW, WAR, a ret with an instruction behind it), three execute / write units *)
Definition ex62_prog : list sinstr :=
  [SLi 5 3; SAddi 6 5 1; SAdd 7 5 6; SLi 5 9; SMul 8 7 5; SAddi 7 8 2;
   SSub 9 7 5; SLi 8 1; SAdd 10 8 9; SMv 5 10; SXor 11 5 6; SAddi 12 11 1; SSlli 13 12 2; SRet; SLi 14 1].

Example mvp62_example :
  let app := map instr_of ex62_prog in
  wf_app app /\ straight app = true /\ reg_only app = true /\ regs_in_range app = true /\
  Forall int32 (regs zero_state) /\ length (regs zero_state) = 32%nat /\ nth 0 (regs zero_state) 0 = 0 /\
  exists st' tr c,
    seq_run 100 (map sinstr_of app) no_lab zero_state = Done st' tr /\
    mvp62_run 3 (ord_policy 0) (fuel_bound61 (length app)) app no_lab zero_state = MDone c st' /\
    length tr = 14%nat /\ c = 335 /\ (Z.of_nat (length tr) + 1) / 2 <= c /\
    rget (regs st') 5 = 57 /\ rget (regs st') 7 = 65 /\ rget (regs st') 13 = 248 /\ rget (regs st') 14 = 0.
Proof.
  cbv zeta. split; [|split; [|split; [|split; [|split; [|split; [|split]]]]]].
  - split; [|vm_compute; reflexivity]. cbn [map ex62_prog instr_of]. repeat constructor; vm_compute; discriminate.
  - vm_compute. reflexivity.
  - vm_compute. reflexivity.
  - vm_compute. reflexivity.
  - exact zero_state_int32.
  - vm_compute. reflexivity.
  - reflexivity.
  - do 3 eexists. split; [vm_compute; reflexivity|]. split; [vm_compute; reflexivity|].
    vm_compute. repeat split; try reflexivity; discriminate.
Qed.

(* non-vacuity, forward class - the register-only form of the README's example against speculative
   execution: li x7,4 ; li x5,3 ; beq x5,x5,L ; li x7,99 ; addi x8,x7,1 ; L: addi x9,x7,5 ; mul x10,x9,x9 ; ret ; li x11,1.
   The branch is TAKEN; its shadow writes x7, which is live afterwards (x9 = x7 + 5), and x8.  With three
   execute / write units the shadow is dispatched and executed; it leaves no trace: x7 = 4, x8 = 0, x9 = 9. *)
Definition exf62_prog : list sinstr := [SLi 7 4; SLi 5 3; SBeq 5 5 1; SLi 7 99; SAddi 8 7 1; SAddi 9 7 5; SMul 10 9 9; SRet; SLi 11 1].
Definition exf62_labels : Z -> option Z := lookup [(1, 20)].

Example mvp62_forward_example :
  let app := map instr_of exf62_prog in
  wf_app app /\ reg_only app = true /\ regs_in_range app = true /\ fwd_ok app exf62_labels = true /\ seq_ids_fit app /\
  Forall int32 (regs zero_state) /\ length (regs zero_state) = 32%nat /\ nth 0 (regs zero_state) 0 = 0 /\
  exists st' tr c,
    seq_run 100 (map sinstr_of app) exf62_labels zero_state = Done st' tr /\
    mvp62_run 3 (ord_policy 0) (fuel_bound61_fwd (length app)) app exf62_labels zero_state = MDone c st' /\
    length tr = 6%nat /\ c = 329 /\
    rget (regs st') 7 = 4 /\ rget (regs st') 8 = 0 /\ rget (regs st') 9 = 9 /\ rget (regs st') 10 = 81 /\ rget (regs st') 11 = 0.
Proof.
  cbv zeta. split; [|split; [|split; [|split; [|split; [|split; [|split; [|split]]]]]]].
  - split; [|vm_compute; reflexivity]. cbn [map exf62_prog instr_of]. repeat constructor; vm_compute; discriminate.
  - vm_compute. reflexivity.
  - vm_compute. reflexivity.
  - vm_compute. reflexivity.
  - vm_compute. reflexivity.
  - exact zero_state_int32.
  - vm_compute. reflexivity.
  - reflexivity.
  - do 3 eexists. split; [vm_compute; reflexivity|]. split; [vm_compute; reflexivity|].
    vm_compute. repeat split; reflexivity.
Qed.
