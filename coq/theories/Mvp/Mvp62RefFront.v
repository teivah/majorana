(* Refinement of MVP-6.2 to the sequential machine on register-only programs: the front half
   of an iteration of the main loop of Mvp62.v follows the one of Mvp61.v: the four Connect calls, the
   fetch unit (the same function), the decode unit, the control unit (handleRunner, hazards,
   shouldUseForwarding: a new channel extends sg by the identity of the sender). *)
From Coq Require Import ZArith List Bool Lia.
From Maj Require Import Base.Outcome Base.GoInt Base.GoTypes Isa.Spec Isa.Embed Isa.Seq Isa.Refine.
From Maj Require Import Gen.Latency Gen.RiscTables Gen.Opcodes Comp.Cache Comp.Rat Comp.RatProofs Comp.Tx Comp.TxProofs.
From Maj Require Import Mvp.Mvp12 Mvp.Mvp12Proofs Mvp.Mvp3 Mvp.Mvp3Proofs Mvp.Mvp4Skel Mvp.Mvp4Inv Mvp.Mvp4Sim Mvp.Mvp5 Mvp.Mvp60 Mvp.Mvp60RefSem Mvp.Mvp60RefDefs Mvp.Mvp61 Mvp.Mvp62
     Mvp.Mvp61RefFront Mvp.Mvp61RefStep Mvp.Mvp62Proofs Mvp.Mvp62RefRel.
Import ListNotations.
Open Scope Z_scope.

Definition fwg (fw : list (Z * (Z * Z))) (idx : Z) : Z * Z := match aget idx fw with Some f => f | None => (0, 0) end.
Lemma fw_get_fwg m idx : fw_get m idx = fwg (n_fw m) idx. Proof. reflexivity. Qed.

Lemma fwg_clear fw i idx : (forall j, fwg fw j = (0, 0)) -> fwg (aset i (0, 0) fw) idx = (0, 0).
Proof. intros H. unfold fwg. rewrite aget_aset. destruct (idx =? i); [reflexivity | apply H]. Qed.

Section Front.
  Variable app : list instr.
  Hypothesis Hro : reg_only app = true.
  Let nap := length app.

  Lemma du_loop_sim sg nch cyc sq x : Mvp61.x_seq x = sq -> forall q ret pbr cb2 cb1 fw2,
    RBus (RRu nap sg nch) cb2 cb1 -> (forall j, fwg fw2 j = (0, 0)) ->
    match du_loop1 q app cyc ret pbr x (repeat no_fwd nap) cb1 with
    | Ok (ret', pbr', q', fwd', cb1') =>
        exists cb2' fw2', du_loop62 q app cyc sq ret pbr cb2 fw2 = Ok (ret', pbr', q', cb2', fw2') /\
          RBus (RRu nap sg nch) cb2' cb1' /\ fwd' = repeat no_fwd nap /\ (forall j, fwg fw2' j = (0, 0))
    | Err e => du_loop62 q app cyc sq ret pbr cb2 fw2 = Err e
    | Panic => du_loop62 q app cyc sq ret pbr cb2 fw2 = Panic
    end.
  Proof.
    intros Hsq. induction q as [|pc q IH]; intros ret pbr cb2 cb1 fw2 Hcb Hfw; cbn [du_loop1 du_loop62].
    - eexists _, _. split; [reflexivity|]. auto.
    - destruct (nlen6 app <=? Z.quot pc 4) eqn:E1.
      { eexists _, _. split; [reflexivity|]. auto. }
      destruct (Z.quot pc 4 <? 0) eqn:E2; [reflexivity|].
      unfold iidx. destruct (nth_error app (Z.to_nat (Z.quot pc 4))) as [i|] eqn:Ei; [|reflexivity].
      rewrite upd_repeat.
      assert (Hrng : (iidx pc < nap)%nat).
      { unfold iidx, nap. apply Z.leb_gt in E1. apply Z.ltb_ge in E2. unfold nlen6 in E1. lia. }
      assert (Hr : RRu nap sg nch (mk_r2 i pc (addS 32 pc (mulS 32 sq 1000)) 0 false None 0)
                                  (mk_r1 (mk_runner i pc (Mvp61.seq_id x pc)) 0 None None Zero)).
      { split; [|split; reflexivity]. constructor; cbn [q_instr q_pc q_seq q_freg q_recv r_b r_instr r_pc r_seq r_freg r_rc]; auto.
        - unfold Mvp61.seq_id. rewrite Hsq. reflexivity.
        - pose proof Hro as Hro'. unfold reg_only in Hro'. rewrite forallb_forall in Hro'. apply Hro'. eapply nth_error_In. exact Ei. }
      pose proof (RBus_add _ _ _ _ _ cyc Hcb Hr) as Hcb'.
      pose proof (fun j => fwg_clear fw2 (idx_of pc) j Hfw) as Hfw'.
      destruct (InstructionType_IsUnconditionalBranch (instr_InstructionType i)).
      { eexists _, _. split; [reflexivity|]. auto. }
      destruct (instr_InstructionType i =? Ret).
      { eexists _, _. split; [reflexivity|]. auto. }
      apply IH; assumption.
  Qed.

  Lemma RM_ext sg sg' m2 m1 : RM nap sg m2 m1 -> (forall c, c < x_nch (y_x m1) -> sg' c = sg c) -> RM nap sg' m2 m1.
  Proof.
    intros HR He. pose proof (rm_chan HR) as Hch. pose proof (rm_chlt HR) as Hlt. pose proof (rm_sg HR) as [A B].
    destruct HR; constructor; auto.
    - eapply Forall2_impl; [|eassumption]. intros a b. apply RRu_ext; [exact He | lia].
    - eapply Forall2_impl; [|eassumption]. intros a b. apply RRp_ext; [exact He | lia].
    - eapply RBus_impl; [|eassumption]. intros a b. apply RRu_ext; [exact He | lia].
    - eapply RBus_impl; [|eassumption]. intros a b. apply RRp_ext; [exact He | lia].
    - rewrite Hch. apply map_ext_in. intros [c v] Hin. rewrite Forall_forall in Hlt. specialize (Hlt _ Hin). cbn [fst snd] in *. rewrite (He c Hlt). reflexivity.
    - constructor.
      + intros c c' Hc Hc'. rewrite !He by lia. apply A; assumption.
      + intros c Hc. rewrite He by lia. apply B. exact Hc.
  Qed.

  (* pushRunner *)
  Definition pobj2 (m : mach2) (r : runner2) : runner2 := mk_r2 (q_instr r) (q_pc r) (q_seq r) (n_nid m) (q_fwd r) (q_recv r) (q_freg r).
  Definition push2 (m : mach2) (cy : Z) (r : runner2) : mach2 :=
    add_pending62 (set_n_nid (set_n_ebus m (bb_add (n_ebus m) (pobj2 m r) cy)) (n_nid m + 1)) (Rd r) (Wr r).
  Definition pobj1 (m : mach1) (r : runner1) : runner1 := mk_r1 (r_b r) (x_nid (y_x m)) (r_fw r) (r_rc r) (r_freg r).
  Definition push1 (m : mach1) (cy : Z) (r : runner1) : mach1 :=
    let x := y_x m in
    let i := r_instr (r_b r) in
    mk_m1 (add_pending6 (y_m m) (instr_ReadRegisters i) (instr_WriteRegisters i))
          (xs_nid (xs_ebus x (bb_add (x_ebus x) (pobj1 m r) cy)) (x_nid x + 1)).

  Lemma push_runner62_eq m cy r : push_runner62 m cy r = if negb (bb_canadd (n_ebus m)) then None else Some (push2 m cy r, pobj2 m r).
  Proof. reflexivity. Qed.
  Lemma push_runner1_eq m cy r : push_runner1 m cy r = if negb (bb_canadd (x_ebus (y_x m))) then (false, r, m) else (true, pobj1 m r, push1 m cy r).
  Proof. reflexivity. Qed.

  Lemma pobj_rel sg m2 m1 r2 r1 : RM nap sg m2 m1 -> RRu nap sg (x_nch (y_x m1)) r2 r1 ->
    RRp nap sg (x_nch (y_x m1)) (pobj2 m2 r2) (pobj1 m1 r1).
  Proof.
    intros HR ([C1 C2 C3 C4 C5 C6 C7] & Hf1 & Hf2). unfold pobj2, pobj1. split; [|split].
    - constructor; cbn [q_instr q_pc q_seq q_freg q_recv r_b r_rc r_freg]; auto.
    - cbn [q_id r_id]. apply (rm_nid HR).
    - cbn [r_fw q_fwd]. rewrite Hf1. exact Hf2.
  Qed.

  Lemma push_sim sg m2 m1 cy r2 r1 : RM nap sg m2 m1 -> RRu nap sg (x_nch (y_x m1)) r2 r1 ->
    RM nap sg (push2 m2 cy r2) (push1 m1 cy r1).
  Proof.
    intros HR Hr. pose proof (pobj_rel sg m2 m1 r2 r1 HR Hr) as Hp. pose proof (rc_i (proj1 Hr)) as C1.
    pose proof (rm_pw HR) as Hpw. pose proof (rm_pr HR) as Hpr. pose proof (rm_sg HR) as [A B].
    unfold push2, push1. rm_frame HR.
    - unfold Wr. rewrite C1, Hpw. reflexivity.
    - unfold Rd. rewrite C1, Hpr. reflexivity.
    - apply RBus_add; assumption.
    - lia.
    - constructor; [exact A|]. intros c Hc. specialize (B c Hc). lia.
  Qed.

  (* previousRunner.Forwarder = ch *)
  Definition setf1 (m : mach1) (id : Z) : mach1 :=
    set_x m (xs_nch (xs_ebus (y_x m) (set_forwarder (x_ebus (y_x m)) id (x_nch (y_x m)))) (x_nch (y_x m) + 1)).
  Definition setf2 (m : mach2) (id : Z) : mach2 := set_n_ebus m (bb_map (mark_fwd id) (n_ebus m)).
  Definition sg_ext (sg : Z -> Z) (ch id : Z) : Z -> Z := fun c => if c =? ch then id else sg c.

  Lemma sg_ext_below sg ch id c : c < ch -> sg_ext sg ch id c = sg c.
  Proof. intros Hc. unfold sg_ext. destruct (Z.eqb_spec c ch); [lia | reflexivity]. Qed.

  Lemma setf_rr sg nch id1 id2 r2 r1 : id2 = id1 + 1 -> RRp nap sg nch r2 r1 ->
    RRp nap (sg_ext sg nch id2) (nch + 1) (mark_fwd id2 r2)
        (if r_id r1 =? id1 then mk_r1 (r_b r1) (r_id r1) (Some nch) (r_rc r1) (r_freg r1) else r1).
  Proof.
    intros Hid Hr. pose proof (sg_ext_below sg nch id2) as He.
    pose proof (RRp_ext nap sg _ nch (nch + 1) r2 r1 He ltac:(lia) Hr) as Hr'.
    destruct Hr' as (C & Hi & Hf). unfold mark_fwd.
    destruct (Z.eqb_spec (q_id r2) id2) as [E2|E2], (Z.eqb_spec (r_id r1) id1) as [E|E]; try lia.
    2:{ split; [exact C | split; [exact Hi | exact Hf]]. }
    destruct C as [C1 C2 C3 C4 C5 C6 C7]. split; [|split].
    - constructor; cbn [q_instr q_pc q_seq q_freg q_recv r_b r_rc r_freg]; auto.
    - cbn [q_id r_id]. exact Hi.
    - cbn [r_fw q_fwd q_id]. split; [reflexivity|]. split; [lia|]. unfold sg_ext. rewrite Z.eqb_refl. lia.
  Qed.

  Lemma setf_sim sg m2 m1 id1 id2 : RM nap sg m2 m1 -> id2 = id1 + 1 -> id2 < n_nid m2 ->
    (forall c, c < x_nch (y_x m1) -> sg c < id2) ->
    RM nap (sg_ext sg (x_nch (y_x m1)) id2) (setf2 m2 id2) (setf1 m1 id1).
  Proof.
    intros HR Hid Hlt Hsg. set (nch := x_nch (y_x m1)). set (sg' := sg_ext sg nch id2).
    pose proof (sg_ext_below sg nch id2 : forall c, c < nch -> sg' c = sg c) as He.
    pose proof (RM_ext sg sg' m2 m1 HR He) as HR'.
    pose proof (rm_chlt HR') as Hlt'. pose proof (rm_sg HR') as [A B].
    assert (Hu : forall a b, RRu nap sg' nch a b -> RRu nap sg' (nch + 1) a b) by (intros a b; apply RRu_ext; [auto | lia]).
    assert (Hp : forall a b, RRp nap sg' nch a b -> RRp nap sg' (nch + 1) a b) by (intros a b; apply RRp_ext; [auto | lia]).
    destruct (rm_ebus HR) as (B1 & B2 & B3 & B4). fold nch in B1, B2.
    unfold setf2, setf1. rm_frame HR'.
    - eapply Forall2_impl; [exact Hu | eassumption].
    - eapply Forall2_impl; [exact Hp | eassumption].
    - eapply RBus_impl; [exact Hu | eassumption].
    - unfold bb_map, set_forwarder. split; [|split; [|split]]; cbn [bb_buf bb_q bb_ql bb_bl]; auto.
      + clear - B1 Hid. induction B1 as [|[a x] [a' y] l2 l1 [Ea Hr] _ IH]; cbn [map]; constructor; [|exact IH].
        cbn [fst snd] in *. split; [exact Ea|]. apply setf_rr; assumption.
      + clear - B2 Hid. induction B2 as [|x y l2 l1 Hr _ IH]; cbn [map]; constructor; [|exact IH]. apply setf_rr; assumption.
    - eapply Forall_impl; [|exact Hlt']. cbv beta. intros a Ha. fold nch in Ha. lia.
    - constructor.
      + intros c c' Hc Hc'. destruct (Z.eq_dec c' nch) as [->|Hne].
        * rewrite (He c Hc). unfold sg', sg_ext. rewrite Z.eqb_refl. apply Hsg. exact Hc.
        * apply A; lia.
      + intros c Hc. destruct (Z.eq_dec c nch) as [->|Hne]; [unfold sg', sg_ext; rewrite Z.eqb_refl; exact Hlt | apply B; lia].
  Qed.

  (* the hazard list of Mvp61.v and the hazard counts of Mvp62.v *)
  Lemma hz_L1 (c : Z -> bool) reads :
    let L := flat_map (fun r => if c r then [(HRaw, r)] else []) reads in
    zlen L = zlen (filter c reads) /\ Forall (fun p => fst p = HRaw) L.
  Proof.
    cbv zeta. induction reads as [|r t [IH1 IH2]]; [split; [reflexivity | constructor]|].
    cbn [flat_map filter]. destruct (c r); cbn [List.app]; [|split; assumption].
    split; [rewrite !zlen_cons, IH1; reflexivity | constructor; [reflexivity | exact IH2]].
  Qed.

  Lemma hz_L2 (a b : Z -> bool) writes :
    let L := flat_map (fun w => if w =? 0 then [] else (if a w then [(HWaw, w)] else []) ++ (if b w then [(HWar, w)] else [])) writes in
    zlen L = zlen (filter (fun x => negb (x =? 0) && a x) writes) + zlen (filter (fun x => negb (x =? 0) && b x) writes) /\
    Forall (fun p => fst p <> HRaw) L.
  Proof.
    cbv zeta. induction writes as [|w t [IH1 IH2]]; [split; [reflexivity | constructor]|].
    cbn [flat_map filter]. destruct (w =? 0); cbn [negb andb List.app]; [split; assumption|].
    destruct (a w), (b w); cbn [List.app]; rewrite ?zlen_cons; (split; [lia | repeat (constructor; [discriminate|]); exact IH2]).
  Qed.

  Lemma hz_cases (b : mach) m2 r2 reads writes : n_pw m2 = m_pw b -> n_pr m2 = m_pr b -> Rd r2 = reads -> Wr r2 = writes ->
    match hazards3 b reads writes with
    | [] => hz_raw m2 r2 + hz_waw m2 r2 + hz_war m2 r2 = 0
    | [(t, _)] => hz_raw m2 r2 + hz_waw m2 r2 + hz_war m2 r2 = 1 /\ (if t =? HRaw then hz_raw m2 r2 = 1 else hz_raw m2 r2 = 0)
    | _ :: _ :: _ => 2 <= hz_raw m2 r2 + hz_waw m2 r2 + hz_war m2 r2
    end.
  Proof.
    intros Hpw Hpr Hrd Hwr. unfold hazards3, hz_raw, hz_waw, hz_war. rewrite Hpw, Hpr, Hrd, Hwr.
    destruct (hz_L1 (fun r => negb (r =? 0) && (0 <? sb_get (m_pw b) r)) reads) as [A1 A2].
    destruct (hz_L2 (fun w => 0 <? sb_get (m_pw b) w) (fun w => 0 <? sb_get (m_pr b) w) writes) as [B1 B2].
    cbv beta zeta in A1, A2, B1, B2.
    set (R1 := zlen (filter _ reads)) in *. set (W1 := zlen (filter (fun x => negb (x =? 0) && (0 <? sb_get (m_pw b) x)) writes)) in *.
    set (W2 := zlen (filter (fun x => negb (x =? 0) && (0 <? sb_get (m_pr b) x)) writes)) in *.
    set (L1 := flat_map _ reads) in *. set (L2 := flat_map _ writes) in *.
    pose proof (zlen_nonneg L1). pose proof (zlen_nonneg L2).
    destruct L1 as [|[t1 x1] [|y1 L1]]; cbn [List.app].
    - destruct L2 as [|[t2 x2] [|y2 L2]]; rewrite ?zlen_cons, ?zlen_nil in *.
      + lia.
      + split; [lia|]. inversion B2 as [|? ? Hne _]. cbn [fst] in Hne. unfold HRaw in *. destruct (Z.eqb_spec t2 0); [contradiction | lia].
      + pose proof (zlen_nonneg L2). lia.
    - inversion A2 as [|? ? He _]. cbn [fst] in He. subst t1.
      destruct L2 as [|y2 L2]; rewrite ?zlen_cons, ?zlen_nil in *.
      + split; [lia|]. cbn. lia.
      + pose proof (zlen_nonneg L2). lia.
    - rewrite ?zlen_cons in *. pose proof (zlen_nonneg L1). lia.
  Qed.

  Lemma fwd_match_eq p reads : Mvp61.fwd_match p reads = Mvp62.fwd_match (instr_WriteRegisters (r_instr (r_b p))) reads.
  Proof.
    unfold Mvp61.fwd_match. induction (instr_WriteRegisters (r_instr (r_b p))) as [|w t IH]; [reflexivity|].
    cbn [Mvp62.fwd_match]. destruct (find _ reads); [reflexivity | exact IH].
  Qed.

  Lemma cands_rel sg nch reads : forall pv2 pv1, Forall2 (RRp nap sg nch) pv2 pv1 ->
    Forall2 (fun a b => RRp nap sg nch (fst a) (fst b) /\ snd a = snd b /\ In (fst a) pv2)
      (flat_map (fun p => match Mvp62.fwd_match (Wr p) reads with Some reg => [(p, reg)] | None => [] end) pv2)
      (flat_map (fun p => match Mvp61.fwd_match p reads with Some rd => [(p, rd)] | None => [] end) pv1).
  Proof.
    induction 1 as [|p2 p1 l2 l1 Hp _ IH]; [constructor|]. cbn [flat_map]. rewrite fwd_match_eq. unfold Wr at 1.
    rewrite (rc_i (proj1 Hp)).
    assert (IH' : Forall2 (fun a b => RRp nap sg nch (fst a) (fst b) /\ snd a = snd b /\ In (fst a) (p2 :: l2))
      (flat_map (fun p => match Mvp62.fwd_match (Wr p) reads with Some reg => [(p, reg)] | None => [] end) l2)
      (flat_map (fun p => match Mvp61.fwd_match p reads with Some rd => [(p, rd)] | None => [] end) l1)).
    { eapply Forall2_impl; [|exact IH]. cbv beta. intros a b (A & B & C). split; [exact A|]. split; [exact B | right; exact C]. }
    destruct (Mvp62.fwd_match _ reads); cbn [List.app]; [|exact IH'].
    constructor; [|exact IH']. cbn [fst snd]. split; [exact Hp|]. split; [reflexivity | left; reflexivity].
  Qed.

  Definition pord0 : Z -> Z -> Z := fun _ _ => 0.

  Set Implicit Arguments.
  (* inside controlUnit.cycle: cl / cur = the runners pushed so far in this cycle, nid0 = the next identity when it began *)
  Record CUI (sg : Z -> Z) (nid0 : Z) (m2 : mach2) (m1 : mach1) (cl : list runner2) (cur : list runner1) : Prop := mkCUI {
    ci_rm : RM nap sg m2 m1;
    ci_cur : Forall2 (RRp nap sg (x_nch (y_x m1))) cl cur;
    ci_ids : forall p, In p cl -> nid0 <= q_id p < n_nid m2;
    ci_sg0 : forall c, c < x_nch (y_x m1) -> sg c < nid0;
    ci_nid : nid0 <= n_nid m2 }.
  Unset Implicit Arguments.

  Definition PrevOK0 (sg : Z -> Z) (m2 : mach2) (nch nid0 : Z) : Prop :=
    forall p, In p (n_prev m2) -> q_id p < nid0 /\ forall c, c < nch -> sg c < q_id p.

  (* a push keeps CUI *)
  Lemma CUI_push sg nid0 m2 m1 cl cur cy r2 r1 : CUI sg nid0 m2 m1 cl cur -> RRu nap sg (x_nch (y_x m1)) r2 r1 ->
    CUI sg nid0 (push2 m2 cy r2) (push1 m1 cy r1) (cl ++ [pobj2 m2 r2]) (cur ++ [pobj1 m1 r1]).
  Proof.
    intros [H1 H2 H3 H4 H5] Hr. constructor.
    - apply push_sim; assumption.
    - unfold push1. ss. apply Forall2_app; [exact H2|]. constructor; [|constructor]. apply pobj_rel; assumption.
    - unfold push2. ss. intros p Hp. apply in_app_or in Hp as [Hp|[<-|[]]].
      + specialize (H3 p Hp). lia.
      + cbn [pobj2 q_id]. lia.
    - unfold push1. ss. exact H4.
    - unfold push2. ss. lia.
  Qed.

  (* a Forwarder is set on a runner pushed in the previous cycle *)
  Lemma CUI_setf sg nid0 m2 m1 cl cur id1 id2 : CUI sg nid0 m2 m1 cl cur -> id2 = id1 + 1 -> id2 < nid0 ->
    (forall c, c < x_nch (y_x m1) -> sg c < id2) ->
    CUI (sg_ext sg (x_nch (y_x m1)) id2) nid0 (setf2 m2 id2) (setf1 m1 id1) cl cur.
  Proof.
    intros [K1 K2 K3 K4 K5] Hid Hlt Hsg. set (nch := x_nch (y_x m1)) in *.
    constructor; auto.
    - apply setf_sim; [exact K1 | exact Hid | lia | exact Hsg].
    - eapply Forall2_impl; [|exact K2]. intros a b. apply RRp_ext; [apply sg_ext_below | unfold setf1; ss; lia].
    - unfold setf1. ss. intros c Hc. destruct (Z.eq_dec c nch) as [->|Hne]; [unfold sg_ext; rewrite Z.eqb_refl; exact Hlt|].
      rewrite sg_ext_below by lia. apply K4. lia.
  Qed.

  (* what relates the results of handleRunner: res2 in MVP-6.2, res1 in MVP-6.1 *)
  Definition HandleR sg nid0 (m2 : mach2) (m1 : mach1) (l : cu_loc) (cur : list runner1) (r1 : runner1)
             (res2 : bool * bool * bool * mach2 * cu_loc * runner2) (res1 : bool * bool * bool * runner1 * runner1 * mach1) : Prop :=
    let '(push2, stop2, g, m2', l', r2') := res2 in
    let '(os, push, stop, r1', obj1, m1') := res1 in
    push2 = push /\ stop2 = stop /\
    exists sg', (forall c, c < x_nch (y_x m1) -> sg' c = sg c) /\ x_nch (y_x m1) <= x_nch (y_x m1') /\
      n_prev m2' = n_prev m2 /\ x_prev (y_x m1') = x_prev (y_x m1) /\
      r_instr (r_b r1') = r_instr (r_b r1) /\
      (if push then CUI sg' nid0 m2' m1' (c_cur l ++ [r2']) (cur ++ [obj1]) /\ l' = mk_cul (c_cur l ++ [r2']) (c_skip l) (c_pb l) /\
                    q_instr r2' = r_instr (r_b r1)
       else CUI sg' nid0 m2' m1' (c_cur l) cur /\ l' = l /\ RRu nap sg' (x_nch (y_x m1')) r2' r1' /\ stop = true) /\
      (stop = false -> sg' = sg /\ x_nch (y_x m1') = x_nch (y_x m1)).

  (* handleRunner gives up: nothing changes, the loop stops *)
  Lemma HandleR_blocked sg nid0 m2 m1 l cur r2 r1 os : CUI sg nid0 m2 m1 (c_cur l) cur -> RRu nap sg (x_nch (y_x m1)) r2 r1 ->
    HandleR sg nid0 m2 m1 l cur r1 (false, true, false, m2, l, r2) (os, false, true, r1, r1, m1).
  Proof.
    intros HC Hr. split; [reflexivity|]. split; [reflexivity|]. exists sg. split; [auto|]. split; [lia|]. repeat (split; [reflexivity|]).
    split; [|discriminate]. auto.
  Qed.

  Lemma handle_sim sg nid0 cyc m2 m1 l cur r2 r1 :
    CUI sg nid0 m2 m1 (c_cur l) cur -> c_skip l = [] -> PrevOK0 sg m2 (x_nch (y_x m1)) nid0 ->
    RRu nap sg (x_nch (y_x m1)) r2 r1 ->
    HandleR sg nid0 m2 m1 l cur r1 (handle_runner62 m2 cyc l r2) (handle_runner1 pord0 m1 cyc (c_pb l) [] r1).
  Proof.
    intros HC Hsk HP Hr.
    pose proof (ci_rm HC) as HR.
    pose proof Hr as ([C1 C2 C3 C4 C5 C6 C7] & Hf1 & Hf2).
    unfold handle_runner1, handle_runner62. cbv zeta.
    replace (skip_hazard (c_skip l) r2) with false by (rewrite Hsk; reflexivity). unfold Ty. rewrite C1.
    cbn [existsb skipped_hazard].
    rewrite (RBus_isempty _ _ _ (rm_ebus HR)), (rm_pcb HR).
    set (ty := instr_InstructionType (r_instr (r_b r1))).
    destruct (InstructionType_IsBranch ty && c_pb l); [apply HandleR_blocked; assumption|].
    destruct ((ty =? Ret) && (negb (bb_isempty (x_ebus (y_x m1))) || x_pcb (y_x m1))); [apply HandleR_blocked; assumption|].
    pose proof (hz_cases (y_m m1) m2 r2 (instr_ReadRegisters (r_instr (r_b r1))) (instr_WriteRegisters (r_instr (r_b r1)))
                  (rm_pw HR) (rm_pr HR) ltac:(unfold Rd; rewrite C1; reflexivity) ltac:(unfold Wr; rewrite C1; reflexivity)) as Hhz.
    destruct (hazards3 (y_m m1) (instr_ReadRegisters (r_instr (r_b r1))) (instr_WriteRegisters (r_instr (r_b r1)))) as [|[t hr] [|h2 hz]] eqn:Ehz.
    - (* no hazard *)
      rewrite Hhz. cbn [Z.eqb]. rewrite push_runner62_eq, push_runner1_eq.
      rewrite (RBus_canadd _ _ _ (rm_ebus HR)). destruct (bb_canadd (x_ebus (y_x m1))); cbn [negb]; [|apply HandleR_blocked; assumption].
      split; [reflexivity|]. split; [reflexivity|]. exists sg.
      split; [auto|]. split; [unfold push1; ss; lia|]. split; [reflexivity|]. split; [reflexivity|]. split; [reflexivity|].
      split; [|intros _; split; reflexivity]. split; [apply CUI_push; assumption|]. split; [reflexivity | exact C1].
    - (* one hazard *)
      destruct Hhz as [Htot Hraw]. rewrite Htot. cbn [Z.eqb andb]. unfold should_forward.
      destruct (t =? HRaw) eqn:Et; cbn [negb].
      2:{ rewrite Hraw. cbn [Z.eqb]. apply HandleR_blocked; assumption. }
      rewrite Hraw. cbn [Z.eqb]. unfold fwd_candidates.
      pose proof (cands_rel sg (x_nch (y_x m1)) (instr_ReadRegisters (r_instr (r_b r1))) _ _ (rm_prev HR)) as Hcd.
      unfold Rd. rewrite C1.
      destruct Hcd as [|[p2 reg2] [p1 reg1] cd2 cd1 (Hp & Hreg & Hin) Hcd']; cbn [fst snd] in *.
      { rewrite zlen_nil. cbn [Z.eqb]. apply HandleR_blocked; assumption. }
      subst reg2. rewrite zlen_cons.
      assert (Hz : (zlen cd1 + 1 =? 0) = false) by (pose proof (zlen_nonneg cd1); apply Z.eqb_neq; lia). rewrite Hz.
      unfold pord0. rewrite Z.mod_0_l by (pose proof (zlen_nonneg cd1); lia). cbn [Z.to_nat nth_error].
      fold (setf1 m1 (r_id p1)). fold (setf2 m2 (q_id p2)).
      destruct (HP p2 Hin) as [Hp2a Hp2b]. destruct Hp as (Cp & Hidp & Hfp).
      pose proof (CUI_setf sg nid0 m2 m1 (c_cur l) cur (r_id p1) (q_id p2) HC Hidp Hp2a Hp2b) as HC'.
      pose proof (ci_rm HC') as HR'.
      set (nch := x_nch (y_x m1)) in *. set (sg' := sg_ext sg nch (q_id p2)) in *.
      assert (He : forall c, c < nch -> sg' c = sg c) by (intros c Hc; apply sg_ext_below; exact Hc).
      assert (Hnch' : x_nch (y_x (setf1 m1 (r_id p1))) = nch + 1) by reflexivity.
      set (r1n := mk_r1 (r_b r1) (r_id r1) (r_fw r1) (Some nch) reg1) in *.
      set (r2n := mk_r2 (r_instr (r_b r1)) (q_pc r2) (q_seq r2) (q_id r2) (q_fwd r2) (Some (q_id p2)) reg1).
      assert (Hrn : RRu nap sg' (x_nch (y_x (setf1 m1 (r_id p1)))) r2n r1n).
      { rewrite Hnch'. split; [|split; [exact Hf1 | exact Hf2]].
        constructor; cbn [q_instr q_pc q_seq q_freg q_recv r_b r_rc r_freg r1n r2n]; auto.
        - split; [|lia]. unfold sg', sg_ext. rewrite Z.eqb_refl. reflexivity.
        - rewrite <- C1. exact C7. }
      rewrite push_runner62_eq, push_runner1_eq.
      rewrite (RBus_canadd _ _ _ (rm_ebus HR')). destruct (bb_canadd (x_ebus (y_x (setf1 m1 (r_id p1))))); cbn [negb].
      + split; [reflexivity|]. split; [reflexivity|]. exists sg'.
        split; [exact He|]. split; [unfold push1; ss; lia|]. split; [reflexivity|]. split; [reflexivity|]. split; [reflexivity|].
        split; [|discriminate]. split; [apply CUI_push; assumption|]. split; reflexivity.
      + split; [reflexivity|]. split; [reflexivity|]. exists sg'.
        split; [exact He|]. split; [rewrite Hnch'; lia|]. split; [reflexivity|]. split; [reflexivity|]. split; [reflexivity|].
        split; [|discriminate]. split; [exact HC'|]. split; [reflexivity|]. split; [exact Hrn | reflexivity].
    - (* two or more hazards *)
      assert (E0 : (hz_raw m2 r2 + hz_waw m2 r2 + hz_war m2 r2 =? 0) = false) by (apply Z.eqb_neq; lia).
      assert (E1 : (hz_raw m2 r2 + hz_waw m2 r2 + hz_war m2 r2 =? 1) = false) by (apply Z.eqb_neq; lia).
      rewrite E0, E1. cbn [andb should_forward]. apply HandleR_blocked; assumption.
  Qed.

  Lemma CUI_ext_rel sg sg' nch nch' (l2 : list runner2) (l1 : list runner1) :
    (forall c, c < nch -> sg' c = sg c) -> nch <= nch' -> Forall2 (RRu nap sg nch) l2 l1 -> Forall2 (RRu nap sg' nch') l2 l1.
  Proof. intros He Hn. apply Forall2_impl. intros a b. apply RRu_ext; assumption. Qed.

  Lemma after_push_sim sg nid0 m2 m1 cl l cur pb r2 r1' : CUI sg nid0 m2 m1 cl cur -> q_instr r2 = r_instr (r_b r1') -> c_pb l = pb ->
    CUI sg nid0 (fst (cu_after_push m2 l r2)) (snd (after_push m1 pb true r1')) cl cur /\
    c_pb (snd (cu_after_push m2 l r2)) = fst (after_push m1 pb true r1') /\
    c_skip (snd (cu_after_push m2 l r2)) = c_skip l /\ c_cur (snd (cu_after_push m2 l r2)) = c_cur l /\
    n_prev (fst (cu_after_push m2 l r2)) = n_prev m2 /\ x_prev (y_x (snd (after_push m1 pb true r1'))) = x_prev (y_x m1) /\
    x_nch (y_x (snd (after_push m1 pb true r1'))) = x_nch (y_x m1).
  Proof.
    intros [K1 K2 K3 K4 K5] Hi Hpb. unfold cu_after_push, after_push, Ty. rewrite Hi. cbn [fst snd andb].
    set (ty := instr_InstructionType (r_instr (r_b r1'))).
    assert (HCp : forall b, CUI sg nid0 (set_n_pcb m2 b) (set_x m1 (xs_pcb (y_x m1) b)) cl cur).
    { intros b. constructor; ss; auto. rm_frame K1. }
    destruct (InstructionType_IsConditionalBranch ty), (InstructionType_IsBranch ty); cbn [c_pb c_skip c_cur]; ss;
      (split; [try apply HCp; constructor; assumption|]); repeat split; try reflexivity; rewrite ?Hpb, ?orb_true_r, ?orb_false_r; reflexivity.
  Qed.

  (* one runner through handleRunner and the bookkeeping of the two loops; a runner that is not pushed stops the loop *)
  Lemma cu_step_sim sg nid0 cyc m2 m1 l cur r2 r1 :
    CUI sg nid0 m2 m1 (c_cur l) cur -> c_skip l = [] -> PrevOK0 sg m2 (x_nch (y_x m1)) nid0 -> RRu nap sg (x_nch (y_x m1)) r2 r1 ->
    forall os push stop r1' obj1 m1a pb' m1b,
      handle_runner1 pord0 m1 cyc (c_pb l) [] r1 = (os, push, stop, r1', obj1, m1a) -> after_push m1a (c_pb l) push r1' = (pb', m1b) ->
    exists sg' g m2b l2 r2', cu_step62 m2 cyc l r2 = (push, stop, g, m2b, l2, r2') /\
      (forall c, c < x_nch (y_x m1) -> sg' c = sg c) /\ x_nch (y_x m1) <= x_nch (y_x m1b) /\
      n_prev m2b = n_prev m2 /\ x_prev (y_x m1b) = x_prev (y_x m1) /\
      CUI sg' nid0 m2b m1b (c_cur l2) (if push then cur ++ [obj1] else cur) /\
      (if push then c_skip l2 = [] /\ c_pb l2 = pb' else stop = true /\ RRu nap sg' (x_nch (y_x m1b)) r2' r1') /\
      (stop = false -> sg' = sg /\ x_nch (y_x m1b) = x_nch (y_x m1)).
  Proof.
    intros HC Hsk HP Hr os push stop r1' obj1 m1a pb' m1b Eh Eap.
    pose proof (handle_sim sg nid0 cyc m2 m1 l cur r2 r1 HC Hsk HP Hr) as Hh. rewrite Eh in Hh.
    unfold cu_step62. destruct (handle_runner62 m2 cyc l r2) as [[[[[push2 stop2] g1] m2a] l1] r2'].
    destruct Hh as (-> & -> & sg1 & He1 & Hn1 & Hpv2 & Hpv1 & Hins & Hcase & Hns).
    destruct push.
    - destruct Hcase as (HC1 & -> & Hi2).
      destruct (after_push_sim sg1 nid0 m2a m1a _ (mk_cul (c_cur l ++ [r2']) (c_skip l) (c_pb l)) (cur ++ [obj1]) (c_pb l) r2' r1' HC1
                  ltac:(rewrite Hi2, Hins; reflexivity) eq_refl) as (HC2 & Hpb2 & Hsk2 & Hcu2 & Hq2 & Hq1 & Hnch2).
      rewrite Eap in HC2, Hpb2, Hq1, Hnch2. cbn [fst snd] in HC2, Hpb2, Hq1, Hnch2.
      destruct (cu_after_push m2a _ r2') as [m2b l2]. cbn [fst snd c_cur c_skip] in *.
      exists sg1, g1, m2b, l2, r2'. rewrite Hnch2, Hcu2. split; [reflexivity|]. split; [exact He1|]. split; [exact Hn1|].
      split; [congruence|]. split; [congruence|]. split; [exact HC2|]. split; [split; [rewrite Hsk2; exact Hsk | exact Hpb2] | exact Hns].
    - destruct Hcase as (HC1 & -> & Hr' & ->). cbn [after_push andb] in Eap. injection Eap as _ <-.
      exists sg1, g1, m2a, (mk_cul (c_cur l) (c_skip l ++ [r2']) (c_pb l)), r2'. cbn [c_cur]. auto 10.
  Qed.

  Lemma rev_rel sg nch (k2 : list runner2) (k1 : list runner1) : Forall2 (RRu nap sg nch) k2 k1 -> Forall2 (RRu nap sg nch) (rev k2) (rev k1).
  Proof. induction 1; cbn [rev]; [constructor|]. apply Forall2_app; [assumption|]. constructor; [assumption | constructor]. Qed.

  Lemma cu_pending_sim nid0 cyc : forall ps2 ps1 kept2 kept1 sg m2 m1 l cur g,
    Forall2 (RRu nap sg (x_nch (y_x m1))) ps2 ps1 -> Forall2 (RRu nap sg (x_nch (y_x m1))) kept2 kept1 ->
    CUI sg nid0 m2 m1 (c_cur l) cur -> c_skip l = [] -> PrevOK0 sg m2 (x_nch (y_x m1)) nid0 ->
    forall os stopped q1 pb' sk' cur' m1', cu_pending1 pord0 ps1 kept1 m1 cyc (c_pb l) [] cur = (os, stopped, q1, pb', sk', cur', m1') ->
    exists sg' q2 m2' l' g', cu_pending62 ps2 kept2 m2 cyc l g = (stopped, q2, m2', l', g') /\
      (forall c, c < x_nch (y_x m1) -> sg' c = sg c) /\ x_nch (y_x m1) <= x_nch (y_x m1') /\
      n_prev m2' = n_prev m2 /\ x_prev (y_x m1') = x_prev (y_x m1) /\
      Forall2 (RRu nap sg' (x_nch (y_x m1'))) q2 q1 /\ CUI sg' nid0 m2' m1' (c_cur l') cur' /\
      (stopped = false -> sk' = [] /\ c_skip l' = [] /\ c_pb l' = pb' /\ PrevOK0 sg' m2' (x_nch (y_x m1')) nid0).
  Proof.
    induction ps2 as [|r2 t2 IH]; intros ps1 kept2 kept1 sg m2 m1 l cur g Hps Hk HC Hsk HP os stopped q1 pb' sk' cur' m1' E;
      destruct ps1 as [|r1 t1]; try (inversion Hps; fail).
    - cbn [cu_pending1] in E. inversion E; subst os stopped q1 pb' sk' cur' m1'. cbn [cu_pending62]. exists sg. eexists _, _, _, _. split; [reflexivity|].
      split; [auto|]. split; [lia|]. split; [reflexivity|]. split; [reflexivity|].
      split; [apply rev_rel; exact Hk|]. split; [exact HC|]. intros _. auto.
    - assert (Hr : RRu nap sg (x_nch (y_x m1)) r2 r1) by (inversion Hps; assumption).
      assert (Ht : Forall2 (RRu nap sg (x_nch (y_x m1))) t2 t1) by (inversion Hps; assumption).
      cbn [cu_pending1] in E. rewrite cu_pending62_cons.
      destruct (handle_runner1 pord0 m1 cyc (c_pb l) [] r1) as [[[[[os1 push] stop] r1'] obj1] m1a] eqn:Eh.
      destruct (after_push m1a (c_pb l) push r1') as [pbn m1b] eqn:Eap.
      destruct (cu_step_sim sg nid0 cyc m2 m1 l cur r2 r1 HC Hsk HP Hr _ _ _ _ _ _ _ _ Eh Eap)
        as (sg1 & g1 & m2b & l2 & r2' & -> & He1 & Hn1 & Hpv2 & Hpv1 & HC2 & Hcase & Hns).
      destruct stop.
      + inversion E; subst os stopped q1 pb' sk' cur' m1'. exists sg1. eexists _, _, _, _. split; [reflexivity|].
        split; [exact He1|]. split; [exact Hn1|]. split; [exact Hpv2|]. split; [exact Hpv1|]. split; [|split; [exact HC2 | discriminate]].
        apply Forall2_app; [apply rev_rel|]; apply (CUI_ext_rel sg sg1 _ _ _ _ He1 Hn1); [|exact Ht].
        destruct push; [exact Hk | constructor; assumption].
      + destruct (Hns eq_refl) as [-> Enb]. destruct push; [|destruct Hcase as [Hx _]; discriminate Hx]. destruct Hcase as [Hsk2 <-].
        cbv iota in E.
        destruct (cu_pending1 pord0 t1 kept1 m1b cyc (c_pb l2) [] (cur ++ [obj1])) as [[[[[[os2 st2] qq] pb2] sk2] cur2] m1c] eqn:Erec.
        inversion E; subst os stopped q1 pb' sk' cur' m1'.
        destruct (IH t1 kept2 kept1 sg m2b m1b l2 (cur ++ [obj1]) (g || g1) ltac:(rewrite Enb; exact Ht) ltac:(rewrite Enb; exact Hk) HC2 Hsk2
                    ltac:(rewrite Enb; intros p Hp; apply HP; rewrite <- Hpv2; exact Hp) _ _ _ _ _ _ _ Erec)
          as (sg3 & q2 & m2c & l3 & g3 & E3 & He3 & Hn3 & Hp3 & Hp3' & Hq3 & HC3 & Hst3).
        exists sg3, q2, m2c, l3, g3. rewrite Enb in He3, Hn3. split; [exact E3|]. split; [exact He3|]. split; [exact Hn3|].
        split; [congruence|]. split; [congruence|]. split; [exact Hq3|]. split; [exact HC3 | exact Hst3].
  Qed.

  Lemma cu_incoming_sim nid0 cyc : forall q2 q1 pend2 pend1 sg m2 m1 l cur g,
    Forall2 (RRu nap sg (x_nch (y_x m1))) q2 q1 -> Forall2 (RRu nap sg (x_nch (y_x m1))) pend2 pend1 ->
    CUI sg nid0 m2 m1 (c_cur l) cur -> c_skip l = [] -> PrevOK0 sg m2 (x_nch (y_x m1)) nid0 ->
    forall os q1' pend1' cur' m1', cu_incoming1 pord0 q1 pend1 m1 cyc (c_pb l) [] cur = (os, q1', pend1', cur', m1') ->
    exists sg' q2' pend2' m2' l' g', cu_incoming62 q2 pend2 m2 cyc l g = (q2', pend2', m2', l', g') /\
      (forall c, c < x_nch (y_x m1) -> sg' c = sg c) /\ x_nch (y_x m1) <= x_nch (y_x m1') /\
      Forall2 (RRu nap sg' (x_nch (y_x m1'))) q2' q1' /\ Forall2 (RRu nap sg' (x_nch (y_x m1'))) pend2' pend1' /\
      CUI sg' nid0 m2' m1' (c_cur l') cur'.
  Proof.
    induction q2 as [|r2 t2 IH]; intros q1 pend2 pend1 sg m2 m1 l cur g Hq Hpd HC Hsk HP os q1' pend1' cur' m1' E;
      destruct q1 as [|r1 t1]; try (inversion Hq; fail).
    - exists sg. destruct (pendingLength <=? zlen pend1) eqn:El;
        [cbn [cu_incoming1] in E; rewrite El in E | cbn [cu_incoming1] in E; rewrite El in E];
        inversion E; subst os q1' pend1' cur' m1'; cbn [cu_incoming62]; rewrite (F2_len _ _ _ Hpd), El;
        (eexists _, _, _, _, _; split; [reflexivity|]; split; [auto|]; split; [lia|]; split; [exact Hq|]; split; [exact Hpd | exact HC]).
    - assert (Hr : RRu nap sg (x_nch (y_x m1)) r2 r1) by (inversion Hq; assumption).
      assert (Ht : Forall2 (RRu nap sg (x_nch (y_x m1))) t2 t1) by (inversion Hq; assumption).
      cbn [cu_incoming1] in E. rewrite cu_incoming62_cons, (F2_len _ _ _ Hpd).
      destruct (pendingLength <=? zlen pend1) eqn:El.
      { inversion E; subst os q1' pend1' cur' m1'. exists sg. eexists _, _, _, _, _. split; [reflexivity|]. split; [auto|]. split; [lia|]. split; [exact Hq|]. split; [exact Hpd | exact HC]. }
      destruct (handle_runner1 pord0 m1 cyc (c_pb l) [] r1) as [[[[[os1 push] stop] r1'] obj1] m1a] eqn:Eh.
      destruct (after_push m1a (c_pb l) push r1') as [pbn m1b] eqn:Eap.
      destruct (cu_step_sim sg nid0 cyc m2 m1 l cur r2 r1 HC Hsk HP Hr _ _ _ _ _ _ _ _ Eh Eap)
        as (sg1 & g1 & m2b & l2 & r2' & -> & He1 & Hn1 & Hpv2 & Hpv1 & HC2 & Hcase & Hns).
      destruct stop.
      + inversion E; subst os q1' pend1' cur' m1'. exists sg1. eexists _, _, _, _, _. split; [reflexivity|]. split; [exact He1|]. split; [exact Hn1|].
        split; [eapply CUI_ext_rel; eassumption|]. split; [|exact HC2].
        destruct push; [eapply CUI_ext_rel; eassumption|].
        apply Forall2_app; [eapply CUI_ext_rel; eassumption | constructor; [exact (proj2 Hcase) | constructor]].
      + destruct (Hns eq_refl) as [-> Enb]. destruct push; [|destruct Hcase as [Hx _]; discriminate Hx]. destruct Hcase as [Hsk2 <-].
        cbv iota in E.
        destruct (cu_incoming1 pord0 t1 pend1 m1b cyc (c_pb l2) [] (cur ++ [obj1])) as [[[[os2 qq] pd2] cur2] m1c] eqn:Erec.
        inversion E; subst os q1' pend1' cur' m1'.
        destruct (IH t1 pend2 pend1 sg m2b m1b l2 (cur ++ [obj1]) (g || g1) ltac:(rewrite Enb; exact Ht) ltac:(rewrite Enb; exact Hpd) HC2 Hsk2
                    ltac:(rewrite Enb; intros p Hp; apply HP; rewrite <- Hpv2; exact Hp) _ _ _ _ _ Erec)
          as (sg3 & q2' & pd2' & m2c & l3 & g3 & E3 & He3 & Hn3 & Hq3 & Hpd3 & HC3).
        exists sg3, q2', pd2', m2c, l3, g3. rewrite Enb in He3, Hn3. split; [exact E3|]. split; [exact He3|]. split; [exact Hn3|].
        split; [exact Hq3|]. split; [exact Hpd3 | exact HC3].
  Qed.

  (* the deferred function of controlUnit.cycle: the pendings, and the runners pushed now become the previous ones *)
  Lemma cu_finish_sim sg nid0 m2 m1 cl cur pd2 pd1 : CUI sg nid0 m2 m1 cl cur -> Forall2 (RRu nap sg (x_nch (y_x m1))) pd2 pd1 ->
    RM nap sg (set_n_prev (set_n_cu m2 pd2) cl) (set_x m1 (xs_prev (xs_cu (y_x m1) pd1) cur)) /\
    PrevOK sg (set_n_prev (set_n_cu m2 pd2) cl) (x_nch (y_x m1)).
  Proof.
    intros [K1 J2 J3 J4 J5] Hpd. split.
    - rm_frame K1.
    - intros p Hp. ss. specialize (J3 p Hp). split; [lia|]. intros c Hc. specialize (J4 c Hc). lia.
  Qed.

  (* what is left of the queue of the control bus *)
  Lemma CUI_cbus_q sg nid0 m2 m1 cl cur q2 q1 : CUI sg nid0 m2 m1 cl cur -> Forall2 (RRu nap sg (x_nch (y_x m1))) q2 q1 ->
    CUI sg nid0 (set_n_cbus m2 (mk_bb (bb_buf (n_cbus m2)) q2 (bb_ql (n_cbus m2)) (bb_bl (n_cbus m2))))
                (set_x m1 (xs_cbus (y_x m1) (mk_bb (bb_buf (x_cbus (y_x m1))) q1 (bb_ql (x_cbus (y_x m1))) (bb_bl (x_cbus (y_x m1)))))) cl cur.
  Proof.
    intros [K J2 J3 J4 J5] Hq. destruct (rm_cbus K) as (K1 & K2 & K3 & K4).
    constructor; ss; auto. rm_frame K. split; [|split; [|split]]; cbn [bb_buf bb_q bb_ql bb_bl]; auto.
  Qed.

  Lemma cu_cycle_sim sg cyc m2 m1 : RM nap sg m2 m1 -> PrevOK sg m2 (x_nch (y_x m1)) ->
    exists sg', RM nap sg' (fst (cu_cycle62 cyc m2)) (snd (cu_cycle1 pord0 cyc m1)) /\
      PrevOK sg' (fst (cu_cycle62 cyc m2)) (x_nch (y_x (snd (cu_cycle1 pord0 cyc m1)))).
  Proof.
    intros HR HP. unfold cu_cycle62, cu_cycle1. rewrite (RBus_canadd _ _ _ (rm_ebus HR)).
    destruct (bb_canadd (x_ebus (y_x m1))); cbn [negb fst snd].
    2:{ exists sg. split; [rm_frame HR | intros p Hp; ss; destruct Hp]. }
    set (nid0 := n_nid m2).
    assert (HC0 : CUI sg nid0 m2 m1 [] []).
    { constructor; [exact HR | constructor | intros p [] | | unfold nid0; lia]. intros c Hc. apply (sg_lt (rm_sg HR)). exact Hc. }
    assert (HP0 : PrevOK0 sg m2 (x_nch (y_x m1)) nid0) by (intros p Hp; apply HP; exact Hp).
    destruct (cu_pending1 pord0 (x_cu (y_x m1)) [] m1 cyc false [] []) as [[[[[[os1 stopped] pend1] pb1] sk1] cur1] m1a] eqn:E1.
    destruct (cu_pending_sim nid0 cyc (n_cu m2) (x_cu (y_x m1)) [] [] sg m2 m1 (mk_cul [] [] false) [] false (rm_cu HR) (Forall2_nil _) HC0 eq_refl HP0
                _ _ _ _ _ _ _ E1) as (sg1 & q2 & m2a & l1 & g1 & E2 & He1 & Hn1 & Hpv2 & Hpv1 & Hq & HC1 & Hst).
    rewrite E2. destruct stopped; cbn [fst snd].
    - exists sg1. exact (cu_finish_sim _ _ _ _ _ _ _ _ HC1 Hq).
    - destruct (Hst eq_refl) as (-> & Hsk1 & Hpb1 & HP1). subst pb1.
      destruct (cu_incoming1 pord0 (bb_q (x_cbus (y_x m1a))) pend1 m1a cyc (c_pb l1) [] cur1) as [[[[os2 q1'] pend2] cur2] m1b] eqn:E3.
      destruct (rm_cbus (ci_rm HC1)) as (B1 & B2 & B3 & B4).
      destruct (cu_incoming_sim nid0 cyc _ _ q2 pend1 sg1 m2a m1a l1 cur1 g1 B2 Hq HC1 Hsk1 HP1 _ _ _ _ _ E3)
        as (sg2 & q2' & pd2' & m2b & l2 & g2 & E4 & He2 & Hn2 & Hq2 & Hpd2 & HC2).
      rewrite E4. cbn [fst snd]. exists sg2.
      exact (cu_finish_sim _ _ _ _ _ _ _ _ (CUI_cbus_q _ _ _ _ _ _ _ _ HC2 Hq2) Hpd2).
  Qed.

  Lemma du_cycle_sim sg cyc m2 m1 : RM nap sg m2 m1 ->
    match du_cycle1 app cyc m1 with
    | Ok m1' => exists m2', du_cycle62 app cyc m2 = Ok m2' /\ RM nap sg m2' m1' /\ n_prev m2' = n_prev m2 /\ n_nid m2' = n_nid m2 /\
                            x_nch (y_x m1') = x_nch (y_x m1)
    | Err e => du_cycle62 app cyc m2 = Err e
    | Panic => du_cycle62 app cyc m2 = Panic
    end.
  Proof.
    intros HR. unfold du_cycle1, du_cycle62. rewrite (rm_dret HR), (rm_dpbr HR).
    destruct (m_dret (y_m m1)); [exists m2; auto|]. destruct (m_dpbr (y_m m1)); [exists m2; auto|].
    rewrite (rm_dbus HR), (rm_fwd HR eq_refl).
    pose proof (du_loop_sim sg (x_nch (y_x m1)) cyc (n_seq m2) (y_x m1) (eq_sym (rm_seq HR)) (bb_q (m_dbus (y_m m1))) false false
                  (n_cbus m2) (x_cbus (y_x m1)) (n_fw m2) (rm_cbus HR) (rm_fw HR eq_refl)) as Hl.
    destruct (du_loop1 (bb_q (m_dbus (y_m m1))) app cyc false false (y_x m1) (repeat no_fwd nap) (x_cbus (y_x m1))) as [[[[[ret pbr] q'] fwd'] cb1']|e|]; cbn [bind].
    - destruct Hl as (cb2' & fw2' & El & Hcb & -> & Hfw). fold nap. rewrite El. cbn [bind]. eexists. split; [reflexivity|].
      split; [rm_frame HR | ss; auto].
    - fold nap. rewrite Hl. reflexivity.
    - fold nap. rewrite Hl. reflexivity.
  Qed.

  (* the four Connect calls *)
  Definition conn2 (m : mach2) (c : Z) : mach2 :=
    set_n_wbus (set_n_ebus (set_n_cbus (set_n_dbus m (bb_connect (n_dbus m) c)) (bb_connect (n_cbus m) c)) (bb_connect (n_ebus m) c)) (bb_connect (n_wbus m) c).
  Lemma conn_sim sg c m2 m1 : RM nap sg m2 m1 -> RM nap sg (conn2 m2 c) (conn1 m1 c).
  Proof.
    intros HR. unfold conn2, conn1. rm_frame HR; try (apply RBus_connect; assumption); congruence.
  Qed.

  (* the three units that run once the buses are connected *)
  Definition units62 (cyc : Z) (m : mach2) : outcome (mach2 * bool) :=
    r <- fu_cycle6 app cyc (n_fu m) (n_l1i m) (n_dbus m) ;;
    let '(fu1, l1i1, dbus1) := r in
    m <- du_cycle62 app cyc (set_n_dbus (set_n_l1i (set_n_fu m fu1) l1i1) dbus1) ;;
    Ok (cu_cycle62 cyc m).
  Definition units1 (cyc : Z) (m : mach1) : outcome (bool * mach1) :=
    r <- fu_cycle6 app cyc (m_fu (y_m m)) (m_l1i (y_m m)) (m_dbus (y_m m)) ;;
    let '(fu1, l1i1, dbus1) := r in
    m <- du_cycle1 app cyc (mk_m1 (set_dbus (set_l1i (set_fu (y_m m) fu1) l1i1) dbus1) (y_x m)) ;;
    Ok (cu_cycle1 pord0 cyc m).

  Lemma front62_units cyc m : front62 app cyc m = units62 cyc (conn2 m cyc).
  Proof. unfold front62, units62, conn2. cbv zeta. reflexivity. Qed.
  Lemma front1_units cyc m : front1 app pord0 cyc m = units1 cyc (conn1 m cyc).
  Proof. reflexivity. Qed.

  Lemma fetched_sim sg m2 m1 fu l1i dbus : RM nap sg m2 m1 ->
    RM nap sg (set_n_dbus (set_n_l1i (set_n_fu m2 fu) l1i) dbus) (mk_m1 (set_dbus (set_l1i (set_fu (y_m m1) fu) l1i) dbus) (y_x m1)).
  Proof.
    intros HR. rm_frame HR.
  Qed.

  Lemma units_sim sg cyc m2 m1 : RM nap sg m2 m1 -> PrevOK sg m2 (x_nch (y_x m1)) ->
    forall os0 m4, units1 cyc m1 = Ok (os0, m4) ->
    exists sg' m2' g, units62 cyc m2 = Ok (m2', g) /\ RM nap sg' m2' m4 /\ PrevOK sg' m2' (x_nch (y_x m4)).
  Proof.
    intros HR HP os0 m4. unfold units1, units62. rewrite (rm_fu HR), (rm_l1i HR), (rm_dbus HR).
    destruct (fu_cycle6 app cyc (m_fu (y_m m1)) (m_l1i (y_m m1)) (m_dbus (y_m m1))) as [[[fu1 l1i1] dbus1]|e|]; cbn [bind]; try discriminate.
    pose proof (du_cycle_sim sg cyc _ _ (fetched_sim sg m2 m1 fu1 l1i1 dbus1 HR)) as Hdu.
    destruct (du_cycle1 app cyc _) as [m1e|e|]; cbn [bind]; try discriminate.
    destruct Hdu as (m2e & -> & HRe & Hpv & Hnid & Hnch). cbn [bind]. intros E. injection E as E.
    assert (HPe : PrevOK sg m2e (x_nch (y_x m1e))).
    { rewrite Hnch. intros p Hp. rewrite Hpv in Hp. rewrite Hnid. apply HP. exact Hp. }
    destruct (cu_cycle_sim sg cyc m2e m1e HRe HPe) as (sg' & HR' & HP'). rewrite E in HR', HP'.
    exists sg', (fst (cu_cycle62 cyc m2e)), (snd (cu_cycle62 cyc m2e)). split; [|split; assumption].
    destruct (cu_cycle62 cyc m2e); reflexivity.
  Qed.

  Lemma front_sim sg cyc m2 m1 : RM nap sg m2 m1 -> PrevOK sg m2 (x_nch (y_x m1)) ->
    forall os0 m4, front1 app pord0 cyc m1 = Ok (os0, m4) ->
    exists sg' m2' g, front62 app cyc m2 = Ok (m2', g) /\ RM nap sg' m2' m4 /\ PrevOK sg' m2' (x_nch (y_x m4)).
  Proof.
    intros HR HP. rewrite front1_units, front62_units. apply (units_sim sg); [apply conn_sim; exact HR | exact HP].
  Qed.
End Front.
