(* Refinement of MVP-6.3 to the sequential machine on single-assignment, register-only,
   straight-line programs: the execute units and the write units at machine level.

   eu_head_eq    executeUnit.Cycle of an idle unit when the execute bus has a head: the unit takes it,
                 receives its forwarded operand (if it has a Receiver: the channel holds the value,
                 head_operands), runs it at once (register-only: no memory wait) with the sequential
                 operands, sends the result to its Forwarder (if any), pushes it on the write bus and is
                 idle again; the machine afterwards is exec_head;
   BI_exec_head  exec_head keeps the back-end invariant with xe + 1 (the ret: nothing is left in flight
                 behind it, the invariant holds with d = xe = N);
   eus_main_plain, eus_main_ret   the loop over the execute units of the main loop: min (units, queue length)
                 heads, or the ret alone;
   eus_drain_idle the loop of the drain loop after ret over idle units;
   wus_ok3       the loop over the write units: min (units, queue length) results are written to
                 transactionRAT in order. *)
From Coq Require Import ZArith List Bool Lia Permutation.
From Maj Require Import Base.Outcome Base.GoInt Base.GoTypes Isa.Spec Isa.Embed Isa.Seq Isa.Refine.
From Maj Require Import Gen.Latency Gen.RiscTables Gen.Opcodes Comp.Cache Comp.Rat Comp.RatProofs.
From Maj Require Import Mvp.Mvp12 Mvp.Mvp12Proofs Mvp.Mvp3 Mvp.Mvp3Proofs Mvp.Mvp4Skel Mvp.Mvp4Inv Mvp.Mvp5 Mvp.Mvp60
     Mvp.Mvp60RefSem Mvp.Mvp60RefDefs Mvp.Mvp60RefFront Mvp.Mvp60RefBack Mvp.Mvp60RefStep Mvp.Mvp63 Mvp.Mvp63RefDefs Mvp.Mvp63RefInv.
Import ListNotations.
Open Scope Z_scope.

Lemma mx_eq (a b : mx) : x_m a = x_m b -> x_ebus a = x_ebus b -> x_pend a = x_pend b -> x_prev a = x_prev b ->
  x_pcb a = x_pcb b -> x_seq a = x_seq b -> x_crat a = x_crat b -> x_trat a = x_trat b -> x_fwd a = x_fwd b ->
  x_chan a = x_chan b -> x_next a = x_next b -> x_os a = x_os b -> a = b.
Proof. destruct a, b; cbn; intros; subst; reflexivity. Qed.

Lemma upd3_repeat {A} (a : A) n i : Seq.upd (repeat a n) i a = repeat a n.
Proof. revert i. induction n as [|n IH]; intros [|i]; cbn; try reflexivity. rewrite IH. reflexivity. Qed.

Lemma upd3_upd {A} (l : list A) i a b : Seq.upd (Seq.upd l i a) i b = Seq.upd l i b.
Proof. revert i. induction l as [|h t IH]; intros [|i]; cbn; try reflexivity. rewrite IH. reflexivity. Qed.

Lemma nth_repeat_same {A} (a : A) n i : nth i (repeat a n) a = a.
Proof. revert i. induction n as [|n IH]; intros [|i]; cbn; try reflexivity. apply IH. Qed.

Lemma aget_filter_none {A} k ch (m : list (Z * A)) : aget k m = None -> aget k (filter (fun p => negb (fst p =? ch)) m) = None.
Proof.
  induction m as [|[k' a] t IH]; cbn [aget filter fst]; [reflexivity|].
  destruct (k =? k') eqn:E; [discriminate|]. intros H. destruct (negb (k' =? ch)); [cbn [aget]; rewrite E|]; apply IH; exact H.
Qed.

Lemma set_m_same x : set_m x (x_m x) = x. Proof. destruct x; reflexivity. Qed.

(* two different entries of a list do not receive on the same channel *)
Lemma recvs_head_ne r l a ch ch' : NoDup (recvs (r :: l)) -> q_recv r = Some ch -> In a l -> q_recv a = Some ch' -> ch' <> ch.
Proof.
  intros Hnd Hr Ha Hc. change (r :: l) with ([r] ++ l) in Hnd. rewrite recvs_app in Hnd. unfold recvs at 1 in Hnd. cbn [flat_map] in Hnd.
  rewrite Hr in Hnd. cbn [List.app] in Hnd. inversion Hnd as [|? ? Hni _]; subst. intros ->. apply Hni. eapply recvs_in; eassumption.
Qed.

Lemma fwds_head_ne r l a ch ch' : NoDup (fwds (r :: l)) -> q_fwder r = Some ch -> In a l -> q_fwder a = Some ch' -> ch' <> ch.
Proof.
  intros Hnd Hr Ha Hc. change (r :: l) with ([r] ++ l) in Hnd. rewrite fwds_app in Hnd. unfold fwds at 1 in Hnd. cbn [flat_map] in Hnd.
  rewrite Hr in Hnd. cbn [List.app] in Hnd. inversion Hnd as [|? ? Hni _]; subst. intros ->. apply Hni. eapply fwds_in; eassumption.
Qed.

Lemma Forall_filter3 {A} (P : A -> Prop) f l : Forall P l -> Forall P (filter f l).
Proof. induction 1 as [|a t Ha _ IH]; cbn [filter]; [constructor|]. destruct (f a); [constructor; assumption | exact IH]. Qed.

Lemma aget_snoc_new {A} c (m : list (Z * A)) v : aget c m = None -> aget c (m ++ [(c, v)]) = Some v.
Proof. intros H. rewrite (aget_app_none _ _ _ H). cbn [aget]. rewrite Z.eqb_refl. reflexivity. Qed.

Lemma canadd_lt3 {T} (b : bbus T) : bb_bl b = 2 -> blen b < 2 -> bb_canadd b = true.
Proof. intros Hbl Hb. unfold bb_canadd, blen in *. rewrite Hbl. apply negb_true_iff, Z.eqb_neq. lia. Qed.

(* an execute unit between two ticks *)
Definition EuIdle (e : eu3) : Prop := g_co e = ENone /\ g_memory e = [].

(* ------------------------------------------------------------------ *)
(* what executeUnit.Cycle does to the channels, the branch unit and the execute bus *)

Definition rchan (x : mx) (r : runner3) : list (Z * Z) :=
  match q_recv r with Some ch => filter (fun p => negb (fst p =? ch)) (x_chan x) | None => x_chan x end.
Definition schan (c : list (Z * Z)) (r : runner3) (v : Z) : list (Z * Z) :=
  match q_fwder r with Some ch => c ++ [(ch, v)] | None => c end.
Definition bu_idle (m : mach) : mach := set_bu m (mk_bu6 false (b_expect (m_bu m)) (b_btb (m_bu m))).
Definition ebus_tl (b : bbus runner3) : bbus runner3 := mk_bb (bb_buf b) (tl (bb_q b)) (bb_ql b) (bb_bl b).
(* the runner struct the unit keeps *)
Definition recvd (r : runner3) : runner3 :=
  match q_recv r with Some _ => mk_r3 (q_r r) (q_id r) (q_fwder r) None (q_freg r) | None => r end.

Lemma fwd_idx_pcz k : fwd_idx (pcz k) = k.
Proof. unfold fwd_idx. rewrite pcz_quot. apply Nat2Z.id. Qed.

Lemma chan_lt x r v b : Forall (fun p => fst p < b) (x_chan x) -> (forall ch, q_fwder r = Some ch -> ch < b) ->
  Forall (fun p => fst p < b) (rchan x r) /\ Forall (fun p => fst p < b) (schan (rchan x r) r v).
Proof.
  intros H Hf. assert (H1 : Forall (fun p => fst p < b) (rchan x r)) by (unfold rchan; destruct (q_recv r); [apply Forall_filter3|]; exact H).
  split; [exact H1|]. unfold schan. destruct (q_fwder r) as [ch|]; [|exact H1].
  apply Forall_app. split; [exact H1|]. constructor; [cbn [fst]; apply Hf; reflexivity | constructor].
Qed.

(* ------------------------------------------------------------------ *)
(* frames and idle units                                               *)

(* what the execute units leave alone *)
Record EuFrame3 (x x' : mx) : Prop := mkEF3 {
  e3_pend : x_pend x' = x_pend x; e3_prev : x_prev x' = x_prev x;
  e3_ebuf : bb_buf (x_ebus x') = bb_buf (x_ebus x); e3_eql : bb_ql (x_ebus x') = bb_ql (x_ebus x);
  e3_ebl : bb_bl (x_ebus x') = bb_bl (x_ebus x);
  e3_fu : m_fu (x_m x') = m_fu (x_m x); e3_l1i : m_l1i (x_m x') = m_l1i (x_m x);
  e3_dret : m_dret (x_m x') = m_dret (x_m x); e3_dpbr : m_dpbr (x_m x') = m_dpbr (x_m x);
  e3_cu : m_cu (x_m x') = m_cu (x_m x); e3_dbus : m_dbus (x_m x') = m_dbus (x_m x);
  e3_cbus : m_cbus (x_m x') = m_cbus (x_m x); e3_mebus : m_ebus (x_m x') = m_ebus (x_m x);
  e3_btb : b_btb (m_bu (x_m x')) = b_btb (m_bu (x_m x));
  e3_wq : bb_q (m_wbus (x_m x')) = bb_q (m_wbus (x_m x)); e3_wql : bb_ql (m_wbus (x_m x')) = bb_ql (m_wbus (x_m x));
  e3_wbl : bb_bl (m_wbus (x_m x')) = bb_bl (m_wbus (x_m x)) }.

Lemma EuFrame3_refl x : EuFrame3 x x.
Proof. constructor; reflexivity. Qed.
Lemma EuFrame3_trans a b c : EuFrame3 a b -> EuFrame3 b c -> EuFrame3 a c.
Proof. intros [] []. constructor; congruence. Qed.

Record WuFrame3 (x x' : mx) : Prop := mkWF3 {
  w3_ebus : x_ebus x' = x_ebus x; w3_pend : x_pend x' = x_pend x; w3_prev : x_prev x' = x_prev x;
  w3_fu : m_fu (x_m x') = m_fu (x_m x); w3_l1i : m_l1i (x_m x') = m_l1i (x_m x);
  w3_dret : m_dret (x_m x') = m_dret (x_m x); w3_dpbr : m_dpbr (x_m x') = m_dpbr (x_m x);
  w3_cu : m_cu (x_m x') = m_cu (x_m x); w3_bu : m_bu (x_m x') = m_bu (x_m x); w3_dbus : m_dbus (x_m x') = m_dbus (x_m x);
  w3_cbus : m_cbus (x_m x') = m_cbus (x_m x); w3_mebus : m_ebus (x_m x') = m_ebus (x_m x);
  w3_wbuf : bb_buf (m_wbus (x_m x')) = bb_buf (m_wbus (x_m x));
  w3_wql : bb_ql (m_wbus (x_m x')) = bb_ql (m_wbus (x_m x)); w3_wbl : bb_bl (m_wbus (x_m x')) = bb_bl (m_wbus (x_m x)) }.

Lemma WuFrame3_refl x : WuFrame3 x x.
Proof. constructor; reflexivity. Qed.
Lemma WuFrame3_trans a b c : WuFrame3 a b -> WuFrame3 b c -> WuFrame3 a c.
Proof. intros [] []. constructor; congruence. Qed.

Lemma wu_frame3 x wu before x' wu' : u_co wu = WNone -> wu_cycle3 x wu before = Ok (x', wu') -> WuFrame3 x x'.
Proof.
  intros Hco. unfold wu_cycle3. rewrite Hco. unfold bb_get.
  destruct (bb_q (m_wbus (x_m x))) as [|c q'].
  - intros H. injection H as <- <-. constructor; reflexivity.
  - destruct (negb (before =? -1) && (before <? w_seq c)); [intros H; injection H as <- <-; constructor; reflexivity|].
    destruct (RegisterChange (w_exe c)); [intros H; injection H as <- <-; constructor; reflexivity|].
    destruct (MemoryChange (w_exe c)); intros H; injection H as <- <-; constructor; reflexivity.
Qed.

Lemma wu_idle3 x wu before : u_co wu = WNone -> bb_q (m_wbus (x_m x)) = [] -> wu_cycle3 x wu before = Ok (x, wu).
Proof.
  intros Hco Hq. unfold wu_cycle3. rewrite Hco. unfold bb_get. rewrite Hq.
  rewrite set_wbus_same, set_m_same. reflexivity.
Qed.

Lemma eus_empty3 eus : Forall EuIdle eus -> forallb eu_empty3 eus = true.
Proof. intros H. apply forallb_forall. intros e Hin. rewrite Forall_forall in H. destruct (H e Hin) as [Hc _]. unfold eu_empty3. rewrite Hc. reflexivity. Qed.

Lemma wus_empty3 wus : Forall (fun u => u_co u = WNone) wus -> forallb wu_empty wus = true.
Proof. intros Hw. apply forallb_forall. intros u Hin. rewrite Forall_forall in Hw. unfold wu_empty. rewrite (Hw u Hin). reflexivity. Qed.

Lemma eu_idle3 labels ord cy x e : g_co e = ENone -> g_seq e = 0 -> bb_q (x_ebus x) = [] ->
  eu_cycle3 labels ord cy x e = (false, Ok (x, e, yo_none)).
Proof.
  intros Hco Hseq Hq. unfold eu_cycle3, eu_pre3. rewrite Hseq. change (0 =? 0) with true. cbv iota. rewrite Hco. unfold bb_get. rewrite Hq. reflexivity.
Qed.

Lemma eus_main_idle labels ord cy x b : forall eus, Forall EuIdle eus -> bb_q (x_ebus x) = [] ->
  exists eus', eus_main3 labels ord cy x eus (mk_euo3 false 0 0 b None) = (false, Ok (x, eus', mk_euo3 false 0 0 b None)) /\
               Forall EuIdle eus' /\ length eus' = length eus.
Proof.
  induction eus as [|e t IH]; intros He Hq.
  - exists []. cbn [eus_main3]. repeat split. constructor.
  - inversion He as [|? ? [Hco Hmem] He2]; subst. destruct (IH He2 Hq) as (t' & E & A1 & A2).
    cbn [eus_main3 y_seq]. rewrite (eu_idle3 labels ord cy x (mk_eu3 (g_co e) (g_memory e) (g_runner e) 0) Hco eq_refl Hq). cbn [yo_none y_err y_flush y_seq y_pc y_ret andb orb].
    rewrite orb_false_r. rewrite E. cbn [bind orb]. eexists. split; [reflexivity|].
    split; [constructor; [split; assumption | exact A1] | cbn [length]; lia].
Qed.

Section Exec.
  Variables (app : list instr) (labels : Z -> option Z) (regs0 mem0 : list Z) (ord : Z -> Z -> list Z -> list Z).
  Hypothesis Happ : wf_app app.
  Hypothesis Hstr : straight app = true.
  Hypothesis Hreg : reg_only app = true.
  Hypothesis Hssa : ssa app = true.
  Hypothesis Hrng : regs_ok app = true.
  Hypothesis Hlen0 : length regs0 = 32%nat.
  Hypothesis Hr32 : Forall int32 regs0.
  Hypothesis Hx0 : nth 0 regs0 0 = 0.
  Let n := length app.
  Let N := stop_from app 0.

  Notation sreg := (sreg app labels regs0 0).
  Notation eff := (eff app labels regs0 0).
  Notation rn := (rn app).
  Notation ik := (ik app).
  Notation wsl := (wsl app).
  Notation rsl := (rsl app).
  Notation wbn := (wbn app labels regs0 0).
  Notation exe := (exe app labels regs0).
  Notation tv := (tv app labels regs0).
  Notation rds := (rds app).
  Notation wrs := (wrs app).
  Notation BI := (BI app labels regs0 mem0).

  Hypothesis Hsem : forall k, (0 <= k <= N)%nat -> (k < n)%nat ->
    exec (sinstr_of (ik k)) (rget (sreg k)) labels (pcz k) [] = Ok (eff k) /\
    (forall a, etarget (eff k) = Some a -> exists t, a = pcz t /\ (k < t <= n)%nat).

  (* every lemma of the section takes all its hypotheses, so that callers pass one list of arguments *)
  Set Default Proof Using "All".

  Definition out_of (k : nat) : eu_out3 := if is_ret (ik k) then mk_euo3 false 0 0 true None else yo_none.

  (* ---------------------------------------------------------------- *)
  (* run                                                                *)

  (* the machine after coRun of instruction k, carried by runner r *)
  Definition run_res (x : mx) (cy : Z) (r : runner3) (k : nat) : mx :=
    let x0 := set_forward3 x (pcz k) 0 0 in
    if is_ret (ik k) then x0 else
    let x1 := set_m x0 (set_wbus (x_m x0) (bb_add (m_wbus (x_m x0)) (wbn k) cy)) in
    match q_fwder r with
    | None => x1
    | Some ch => set_chan3 x1 (x_chan x1 ++ [(ch, RegisterValue (exe k))])
    end.

  Lemma eu_run_eq cy k x e r : g_runner e = Some r -> q_r r = rn k -> g_memory e = [] ->
    instr_Run (ik k) (rr3 x (pcz k)) labels (pcz k) [] 0 = Ok (exe k) -> (k <= N)%nat -> (k < n)%nat ->
    (forall ch, q_fwder r = Some ch -> aget ch (x_chan x) = None) ->
    eu_run3 labels ord cy x e = (false, Ok (run_res x cy r k, mk_eu3 ENone [] (Some r) (g_seq e), out_of k)).
  Proof.
    intros Hr Hqr Hmem Hrun HkN Hkn Hfw.
    destruct (exe_flags app labels regs0 Hstr Hreg Hlen0 Hsem k HkN Hkn) as (Fr & Fm & Fp).
    assert (Hi : q_instr r = ik k) by (apply (q_instr_rn app); exact Hqr).
    assert (Hpc : q_pc r = pcz k) by (unfold q_pc; rewrite Hqr; reflexivity).
    assert (Hsq : q_seq r = pcz k) by (unfold q_seq; rewrite Hqr; reflexivity).
    unfold eu_run3, run_res, out_of. rewrite Hr. cbv zeta. rewrite Hi, Hpc, Hsq, Hmem, Hrun, Fr.
    destruct (is_ret (ik k)) eqn:Eret; [reflexivity|].
    rewrite Fm. cbn [andb bind]. cbv iota beta.
    pose proof (ik_nobr app Hstr k) as Hnb.
    rewrite (nobranch_uncond _ Hnb), (nobranch_cond _ Hnb), (nobranch_branch _ Hnb), Fp.
    unfold Mvp60RefBack.wbn. fold (exe k).
    destruct (q_fwder r) as [ch|] eqn:Ef; [|reflexivity].
    cbn [x_chan set_m set_forward3 set_fwd3]. rewrite (Hfw ch eq_refl). reflexivity.
  Qed.

  (* ---------------------------------------------------------------- *)
  (* prepareRun on the head of the execute bus                          *)


  (* the machine after an idle execute unit has taken the head r = instruction k and executed it *)
  Definition exec_head (x : mx) (cy : Z) (r : runner3) (k : nat) : mx :=
    let m1 := bu_idle (x_m x) in
    mk_mx (if is_ret (ik k) then m1 else set_wbus m1 (bb_add (m_wbus m1) (wbn k) cy))
          (ebus_tl (x_ebus x)) (x_pend x) (x_prev x) (x_pcb x) (x_seq x) (x_crat x) (x_trat x) (x_fwd x)
          (if is_ret (ik k) then rchan x r else schan (rchan x r) r (RegisterValue (exe k))) (x_next x) (x_os x).


  Lemma bu_assert_plain x k : bu_assert3 x (rn k) = set_m x (bu_idle (x_m x)).
  Proof.
    unfold bu_assert3. cbn [Mvp60RefFront.rn r_instr]. pose proof (ik_nobr app Hstr k) as Hnb.
    rewrite (nobranch_uncond _ Hnb), (nobranch_cond _ Hnb). reflexivity.
  Qed.

  Lemma eu_head_eq cy dp d xe w pl pv x e r q' :
    BI dp d xe w pl pv x -> bb_q (x_ebus x) = r :: q' -> EuIdle e -> g_seq e = 0 ->
    bb_canadd (m_wbus (x_m x)) = true ->
    eu_cycle3 labels ord cy x e = (false, Ok (exec_head x cy r xe, mk_eu3 ENone [] (Some (recvd r)) 0, out_of xe)).
  Proof.
    intros HB Hq [Hco Hmem] Hseq Hca.
    assert (Hfl : flat (x_ebus x) = r :: (q' ++ map snd (bb_buf (x_ebus x)))) by (unfold flat; rewrite Hq; reflexivity).
    destruct (head_entry app labels regs0 mem0 ord Hlen0 Hsem _ _ _ _ _ _ _ _ _ HB Hfl) as (Hqr & Hkq & Hxd).
    destruct (head_operands app labels regs0 mem0 ord Happ Hreg Hssa Hrng Hlen0 Hr32 Hx0 Hsem _ _ _ _ _ _ _ _ _ HB Hfl) as (Hch & _ & _ & Hrun).
    pose proof (bi_xeN _ _ _ _ _ _ _ _ _ _ _ HB) as HxN. pose proof (bi_dn _ _ _ _ _ _ _ _ _ _ _ HB) as [Hdn _].
    pose proof (bi_fwd _ _ _ _ _ _ _ _ _ _ _ HB) as Hfwd.
    assert (Hxn : (xe < n)%nat) by (fold n in Hdn; lia).
    assert (Hin : In r (flat (x_ebus x))) by (rewrite Hfl; left; reflexivity).
    pose proof (bi_fwder _ _ _ _ _ _ _ _ _ _ _ HB) as Hfo. rewrite Forall_forall in Hfo. specialize (Hfo r Hin).
    assert (Hpc : q_pc r = pcz xe) by (unfold q_pc; rewrite Hqr; reflexivity).
    unfold eu_cycle3, eu_pre3. rewrite Hseq. change (0 =? 0) with true. cbv iota. rewrite Hco. unfold bb_get. rewrite Hq.
    unfold eu_prepare3. cbn [x_m set_ebus3 g_runner g_co g_memory g_seq x_chan]. rewrite Hca. cbn [negb].
    set (xa := set_ebus3 x (mk_bb (bb_buf (x_ebus x)) q' (bb_ql (x_ebus x)) (bb_bl (x_ebus x)))).
    assert (Hnm : forall rr, instr_MemoryRead (ik xe) rr 0 = []) by (intros rr; apply nomem_no_read; apply (ik_nomem app Hreg)).
    destruct (q_recv r) as [ch|] eqn:Erc.
    - destruct (Hch ch eq_refl) as (v & Hv). cbn [x_chan xa set_ebus3]. rewrite Hv.
      unfold q_instr, q_pc. cbn [q_r]. rewrite Hqr, bu_assert_plain. cbn [Mvp60RefFront.rn r_instr r_pc]. rewrite Hnm.
      match goal with |- eu_run3 _ _ _ ?x1 ?e1 = _ => set (xb := x1); set (eb := e1) end.
      rewrite (eu_run_eq cy xe xb eb (mk_r3 (rn xe) (q_id r) (q_fwder r) None (q_freg r)) eq_refl eq_refl Hmem).
      + unfold recvd. rewrite Erc, Hqr. f_equal. f_equal. f_equal. f_equal.
        unfold run_res, exec_head, rchan, schan. rewrite Erc. cbn [q_fwder].
        destruct (is_ret (ik xe)); [|destruct (q_fwder r)]; apply mx_eq; unfold xb, xa;
          cbn [x_m x_ebus x_pend x_prev x_pcb x_seq x_crat x_trat x_fwd x_chan x_next x_os set_m set_ebus3 set_forward3 set_fwd3 set_chan3];
          try reflexivity; try (unfold ebus_tl; rewrite Hq; reflexivity);
          rewrite !fwd_idx_pcz, upd3_upd, Hfwd; apply upd3_repeat.
      + unfold rr3, xb, xa. cbn [x_m x_ebus x_crat x_trat x_fwd set_m set_ebus3 set_forward3 set_fwd3 set_chan3].
        rewrite !fwd_idx_pcz, supd_nth_eq by (rewrite Hfwd, repeat_length; exact Hxn).
        unfold head_fw in Hrun. rewrite Erc, Hv in Hrun. exact Hrun.
      + exact HxN.
      + exact Hxn.
      + intros c Hc. cbn [q_fwder] in Hc. unfold xb, xa. cbn [x_chan set_m set_ebus3 set_forward3 set_fwd3 set_chan3].
        apply aget_filter_none. apply (Hfo c Hc).
    - unfold q_instr, q_pc. rewrite Hqr, bu_assert_plain. cbn [Mvp60RefFront.rn r_instr r_pc]. rewrite Hnm.
      match goal with |- eu_run3 _ _ _ ?x1 ?e1 = _ => set (xb := x1); set (eb := e1) end.
      rewrite (eu_run_eq cy xe xb eb r eq_refl Hqr Hmem).
      + unfold recvd. rewrite Erc. f_equal. f_equal. f_equal. f_equal.
        unfold run_res, exec_head, rchan, schan. rewrite Erc.
        destruct (is_ret (ik xe)); [|destruct (q_fwder r)]; apply mx_eq; unfold xb, xa;
          cbn [x_m x_ebus x_pend x_prev x_pcb x_seq x_crat x_trat x_fwd x_chan x_next x_os set_m set_ebus3 set_forward3 set_fwd3 set_chan3];
          try reflexivity; try (unfold ebus_tl; rewrite Hq; reflexivity);
          rewrite ?fwd_idx_pcz, Hfwd; apply upd3_repeat.
      + unfold rr3, xb, xa. cbn [x_m x_ebus x_crat x_trat x_fwd set_m set_ebus3].
        rewrite Hfwd, nth_repeat_same. unfold head_fw in Hrun. rewrite Erc in Hrun. exact Hrun.
      + exact HxN.
      + exact Hxn.
      + intros c Hc. unfold xb, xa. cbn [x_chan set_m set_ebus3]. apply (Hfo c Hc).
  Qed.

  (* ---------------------------------------------------------------- *)
  (* the invariant after the head has been executed                     *)


  Lemma BI_exec_head cy dp d xe w pl pv x r q' :
    BI dp d xe w pl pv x -> bb_q (x_ebus x) = r :: q' -> (forall p, In p pv -> (xe < kq p)%nat) ->
    (is_ret (ik xe) = false -> BI dp d (S xe) w pl pv (exec_head x cy r xe)) /\
    (is_ret (ik xe) = true -> pl = [] -> pv = [] -> xe = N /\ d = S N /\ BI dp xe xe w [] [] (exec_head x cy r xe)).
  Proof.
    intros HB Hq Hpv.
    set (E' := q' ++ map snd (bb_buf (x_ebus x))).
    assert (Hfl : flat (x_ebus x) = r :: E') by (unfold flat, E'; rewrite Hq; reflexivity).
    destruct (head_entry app labels regs0 mem0 ord Hlen0 Hsem _ _ _ _ _ _ _ _ _ HB Hfl) as (Hqr & Hkq & Hxd).
    pose proof HB as [bi_ord0 bi_dn0 bi_xeN0 bi_ret0 bi_ebus0 bi_wbus0 bi_pwlen0 bi_prlen0 bi_pw0 bi_pr0 bi_cok0 bi_crat0 bi_tok0 bi_trat0 bi_fwd0 bi_seq0
      bi_pcb0 bi_chan0 bi_idnd0 bi_idlt0 bi_read0 bi_recv0 bi_fwder0 bi_rnd0 bi_rlt0 bi_pendr0 bi_pend10 bi_pendf0 bi_prev0 bi_prevnd0 bi_regs0 bi_mem0 bi_l30 bi_os0 bi_fnd0].
    rewrite Hfl in *.
    assert (Hxn : (xe < n)%nat) by (fold n in bi_dn0; lia).
    assert (Hfl' : flat (ebus_tl (x_ebus x)) = E') by (unfold flat, ebus_tl, E'; cbn [bb_q bb_buf]; rewrite Hq; reflexivity).
    assert (HE' : map q_r E' = map rn (seq (S xe) (d - S xe))).
    { replace (d - xe)%nat with (S (d - S xe)) in bi_ebus0 by lia. cbn [seq map] in bi_ebus0. injection bi_ebus0 as _ H. exact H. }
    assert (HE'k : forall a, In a E' -> (S xe <= kq a < d)%nat).
    { intros a Ha. destruct (map_rn_in app _ _ _ _ HE' Ha) as (k & Hk & _ & Ek). lia. }
    assert (Hfo : FwdOK (x_chan x) (x_next x) r) by (inversion bi_fwder0; assumption).
    set (v := RegisterValue (exe xe)).
    destruct (chan_lt x r v (x_next x) bi_chan0 ltac:(intros c Hc; apply (Hfo c Hc))) as [Hcl1 Hcl2].
    assert (Hrc : forall a, In a (r :: E' ++ pl) -> RecvOK app labels regs0 xe (r :: E') (x_chan x) a).
    { rewrite Forall_forall in bi_recv0. exact bi_recv0. }
    split.
    - intros Hnr.
      assert (HxN : (S xe <= N)%nat).
      { destruct (Nat.eq_dec xe N) as [E|]; [|lia]. exfalso. rewrite (proj2 (is_ret_N app labels regs0 Hstr Hlen0 Hsem xe bi_xeN0 Hxn) E) in Hnr. discriminate. }
      (* channels after the step *)
      assert (Hget_old : forall a c val, In a (E' ++ pl) -> q_recv a = Some c -> aget c (x_chan x) = Some val ->
                aget c (schan (rchan x r) r v) = Some val).
      { intros a c val Ha Hc Hval.
        assert (H1 : aget c (rchan x r) = Some val).
        { unfold rchan. destruct (q_recv r) as [rch|] eqn:Er; [|exact Hval]. rewrite aget_filter_ne; [exact Hval|].
          eapply recvs_head_ne; [exact bi_rnd0 | exact Er | exact Ha | exact Hc]. }
        unfold schan. destruct (q_fwder r); [apply aget_app_some|]; exact H1. }
      constructor; unfold exec_head; rewrite ?Hnr;
        cbn [x_ebus x_m x_crat x_trat x_fwd x_seq x_pcb x_chan x_next x_os bu_idle set_bu set_wbus m_pw m_pr m_regs m_mem m_l3 m_wbus];
        rewrite ?Hfl', ?add_flat; try assumption.
      + lia.
      + intros Hlt. specialize (bi_ret0 Hlt). lia.
      + rewrite bi_wbus0. replace (S xe - w)%nat with (S (xe - w)) by lia. rewrite seq_snoc, map_app. cbn [map].
        replace (w + (xe - w))%nat with xe by lia. reflexivity.
      + cbn [map] in bi_idnd0. inversion bi_idnd0; assumption.
      + inversion bi_idlt0; assumption.
      + inversion bi_read0; assumption.
      + apply Forall_forall. intros a Ha c Hc. destruct (Hrc a (or_intror Ha) c Hc) as (A & p & B & C & D).
        split; [exact A|]. exists p. split; [exact B|]. split; [exact C|].
        destruct D as [(D1 & rp & D2 & D3 & D4)|(D1 & D2)].
        * destruct (Nat.eq_dec p xe) as [->|Hne].
          -- right. split; [lia|]. assert (rp = r).
             { destruct D2 as [<-|D2]; [reflexivity|]. exfalso. specialize (HE'k rp D2). lia. }
             subst rp. unfold schan. rewrite D4. apply aget_snoc_new. unfold rchan.
             destruct (q_recv r); [apply aget_filter_none|]; apply (Hfo c D4).
          -- left. split; [lia|]. exists rp. split; [|auto]. destruct D2 as [<-|D2]; [lia | exact D2].
        * right. split; [lia|]. eapply Hget_old; eassumption.
      + apply Forall_forall. intros a Ha c Hc. rewrite Forall_forall in bi_fwder0. destruct (bi_fwder0 a (or_intror Ha) c Hc) as [G1 G2].
        split; [|exact G2]. unfold schan.
        assert (H1 : aget c (rchan x r) = None) by (unfold rchan; destruct (q_recv r); [apply aget_filter_none|]; exact G1).
        destruct (q_fwder r) as [fch|] eqn:Ef; [|exact H1]. rewrite (aget_app_none _ _ _ H1). cbn [aget].
        destruct (Z.eqb_spec c fch) as [->|]; [|reflexivity]. exfalso.
        exact (fwds_head_ne r E' a fch fch bi_fnd0 Ef Ha Hc eq_refl).
      + change ((r :: E') ++ pl) with ([r] ++ (E' ++ pl)) in bi_rnd0. rewrite recvs_app in bi_rnd0. apply NoDup_app_r in bi_rnd0. exact bi_rnd0.
      + change ((r :: E') ++ pl) with ([r] ++ (E' ++ pl)) in bi_rlt0. rewrite recvs_app in bi_rlt0. apply Forall_app in bi_rlt0. apply bi_rlt0.
      + intros p Hp. destruct (bi_prev0 p Hp) as ([<-|A] & B & C); [specialize (Hpv _ Hp); lia | auto].
      + change (r :: E') with ([r] ++ E') in bi_fnd0. rewrite fwds_app in bi_fnd0. apply NoDup_app_r in bi_fnd0. exact bi_fnd0.
    - intros Hret -> ->.
      assert (HxeN : xe = N) by (apply (is_ret_N app labels regs0 Hstr Hlen0 Hsem); assumption).
      assert (HdN : d = S N) by lia.
      assert (HE'nil : E' = []).
      { apply (f_equal (@length _)) in HE'. rewrite !map_length, seq_length in HE'. destruct E'; [reflexivity | cbn in HE'; lia]. }
      split; [exact HxeN|]. split; [exact HdN|].
      destruct (ret_slots app xe Hret) as [Hrs Hws].
      assert (Hcnt : forall f, f xe = [] -> forall s, cnt f (seq w (d - w)) s = cnt f (seq w (xe - w)) s).
      { intros f Hf s. replace (d - w)%nat with (S (xe - w)) by lia. rewrite seq_snoc, cnt_app. cbn [cnt].
        replace (w + (xe - w))%nat with xe by lia. rewrite Hf. unfold cnt1. cbn. lia. }
      constructor; unfold exec_head; rewrite ?Hret;
        cbn [x_ebus x_m x_crat x_trat x_fwd x_seq x_pcb x_chan x_next x_os bu_idle set_bu set_wbus m_pw m_pr m_regs m_mem m_l3 m_wbus];
        rewrite ?Hfl', ?HE'nil; cbn [List.app map recvs fwds flat_map length]; try assumption; try (constructor; fail).
      + lia.
      + split; [fold n; lia | lia].
      + intros; lia.
      + rewrite Nat.sub_diag. reflexivity.
      + intros s Hs. rewrite bi_pw0 by exact Hs. apply Hcnt. exact Hws.
      + intros s Hs. rewrite bi_pr0 by exact Hs. apply Hcnt. exact Hrs.
      + intros p [].
  Qed.

  (* ---------------------------------------------------------------- *)
  (* the loop over the execute units                                    *)


  Lemma exec_head_frame x cy r k : EuFrame3 x (exec_head x cy r k).
  Proof. constructor; unfold exec_head, bu_idle, ebus_tl; destruct (is_ret (ik k)); reflexivity. Qed.

  Lemma exec_head_wbus x cy r k : m_wbus (x_m (exec_head x cy r k)) = if is_ret (ik k) then m_wbus (x_m x) else bb_add (m_wbus (x_m x)) (wbn k) cy.
  Proof. unfold exec_head, bu_idle. destruct (is_ret (ik k)); reflexivity. Qed.

  Lemma exec_head_q x cy r k : bb_q (x_ebus (exec_head x cy r k)) = tl (bb_q (x_ebus x)).
  Proof. reflexivity. Qed.

  Notation acc_of b := (mk_euo3 false 0 0 b None).



  (* no ret in flight: min (units, queue length) heads are executed *)
  Lemma eus_main_plain cy dp d w pl pv b : forall eus x xe lq,
    Forall EuIdle eus -> BI dp d xe w pl pv x -> (d <= N)%nat -> length (bb_q (x_ebus x)) = lq -> (xe + lq <= dp)%nat ->
    BusOK cy (m_wbus (x_m x)) -> blen (m_wbus (x_m x)) + Z.of_nat (Nat.min (length eus) lq) <= 2 ->
    exists x' eus',
      eus_main3 labels ord cy x eus (acc_of b) = (false, Ok (x', eus', acc_of b)) /\
      Forall EuIdle eus' /\ length eus' = length eus /\ BI dp d (xe + Nat.min (length eus) lq) w pl pv x' /\ EuFrame3 x x' /\
      bb_q (x_ebus x') = skipn (Nat.min (length eus) lq) (bb_q (x_ebus x)) /\
      BusOK cy (m_wbus (x_m x')) /\
      bb_buf (m_wbus (x_m x')) = bb_buf (m_wbus (x_m x)) ++ map (fun k => (cy + 1, wbn k)) (seq xe (Nat.min (length eus) lq)).
  Proof.
    induction eus as [|e t IH]; intros x xe lq He HB HdN Hlq Hdp HW Hcap.
    - exists x, []. cbn [eus_main3 length Nat.min seq map skipn]. rewrite Nat.add_0_r, app_nil_r.
      split; [reflexivity|]. split; [constructor|]. split; [reflexivity|]. split; [exact HB|]. split; [apply EuFrame3_refl|]. auto.
    - inversion He as [|? ? He1 He2]; subst.
      destruct (bb_q (x_ebus x)) as [|r q'] eqn:Eq.
      + cbn [length]. rewrite Nat.min_0_r. cbn [seq map skipn]. rewrite Nat.add_0_r, app_nil_r.
        destruct (eus_main_idle labels ord cy x b (e :: t) He Eq) as (eus' & E & A1 & A2).
        exists x, eus'. split; [exact E|]. split; [exact A1|]. split; [exact A2|]. split; [exact HB|]. split; [apply EuFrame3_refl|]. auto.
      + cbn [length] in Hdp, Hcap |- *. cbn [Nat.min] in Hcap |- *.
        assert (Hfl : flat (x_ebus x) = r :: (q' ++ map snd (bb_buf (x_ebus x)))) by (unfold flat; rewrite Eq; reflexivity).
        destruct (head_entry app labels regs0 mem0 ord Hlen0 Hsem _ _ _ _ _ _ _ _ _ HB Hfl) as (Hqr & Hkq & Hxd).
        assert (Hnr : is_ret (ik xe) = false).
        { destruct (is_ret (ik xe)) eqn:Er; [|reflexivity]. exfalso.
          assert (xe = N) by (apply (is_ret_N app labels regs0 Hstr Hlen0 Hsem); [exact (bi_xeN _ _ _ _ _ _ _ _ _ _ _ HB) | fold n; pose proof (bi_dn _ _ _ _ _ _ _ _ _ _ _ HB); lia | exact Er]). lia. }
        assert (Hadd : bb_canadd (m_wbus (x_m x)) = true) by (apply canadd_lt3; [apply (bus_bl _ _ HW) | lia]).
        assert (Hpvk : forall p, In p pv -> (xe < kq p)%nat).
        { intros p Hp. destruct (bi_prev _ _ _ _ _ _ _ _ _ _ _ HB p Hp) as (_ & _ & C). lia. }
        destruct (BI_exec_head cy dp d xe w pl pv x r q' HB Eq Hpvk) as [HB1 _]. specialize (HB1 Hnr).
        destruct He1 as [Hco Hmem].
        cbn [eus_main3 y_seq].
        rewrite (eu_head_eq cy dp d xe w pl pv x (mk_eu3 (g_co e) (g_memory e) (g_runner e) 0) r q' HB Eq (conj Hco Hmem) eq_refl Hadd).
        unfold out_of. rewrite Hnr. cbn [yo_none y_err y_flush y_seq y_pc y_ret andb orb]. rewrite orb_false_r.
        set (x1 := exec_head x cy r xe) in *.
        assert (HW1 : BusOK cy (m_wbus (x_m x1))) by (unfold x1; rewrite exec_head_wbus, Hnr; apply add_ok; exact HW).
        assert (Hb1 : bb_buf (m_wbus (x_m x1)) = bb_buf (m_wbus (x_m x)) ++ [(cy + 1, wbn xe)]) by (unfold x1; rewrite exec_head_wbus, Hnr; reflexivity).
        assert (Hq1 : bb_q (x_ebus x1) = q') by (unfold x1; rewrite exec_head_q, Eq; reflexivity).
        destruct (IH x1 (S xe) (length q') He2 HB1 HdN ltac:(rewrite Hq1; reflexivity) ltac:(lia) HW1
                    ltac:(unfold blen in *; rewrite Hb1, zlen_app, zlen_cons, zlen_nil; lia))
          as (x' & t' & E & A1 & A2 & A3 & A4 & A5 & A6 & A7).
        rewrite E. cbn [bind orb]. exists x', (mk_eu3 ENone [] (Some (recvd r)) 0 :: t').
        split; [reflexivity|]. split; [constructor; [split; reflexivity | exact A1]|]. split; [cbn [length]; lia|].
        split; [replace (xe + S (Nat.min (length t) (length q')))%nat with (S xe + Nat.min (length t) (length q'))%nat by lia; exact A3|].
        split; [eapply EuFrame3_trans; [apply exec_head_frame | exact A4]|].
        split; [rewrite A5, Hq1; reflexivity|]. split; [exact A6|].
        rewrite A7, Hb1. cbn [seq map]. rewrite <- app_assoc. reflexivity.
  Qed.

  (* the ret at the head of the execute bus: the first unit executes it, nothing else is in flight behind it *)
  Lemma eus_main_ret cy dp d w pv x r eus :
    eus <> [] -> Forall EuIdle eus -> BI dp d N w [] pv x -> bb_q (x_ebus x) = [r] -> is_ret (ik N) = true ->
    bb_canadd (m_wbus (x_m x)) = true ->
    exists x' eus',
      eus_main3 labels ord cy x eus (acc_of false) = (false, Ok (x', eus', acc_of true)) /\
      Forall EuIdle eus' /\ length eus' = length eus /\ d = S N /\ BI dp N N w [] [] x' /\ EuFrame3 x x' /\
      bb_q (x_ebus x') = [] /\ m_wbus (x_m x') = m_wbus (x_m x).
  Proof.
    intros Hne He HB Hq Hret Hadd. destruct eus as [|e t]; [contradiction|]. inversion He as [|? ? [Hco Hmem] He2]; subst.
    pose proof (BI_noprev _ _ _ _ _ _ _ _ _ _ _ HB) as HB0.
    destruct (BI_exec_head cy dp d N w [] [] x r [] HB0 Hq ltac:(intros p [])) as [_ HB1].
    destruct (HB1 Hret eq_refl eq_refl) as (_ & HdN & HB2).
    cbn [eus_main3 y_seq].
    rewrite (eu_head_eq cy dp d N w [] pv x (mk_eu3 (g_co e) (g_memory e) (g_runner e) 0) r [] HB Hq (conj Hco Hmem) eq_refl Hadd).
    unfold out_of. rewrite Hret. cbn [y_err y_flush y_seq y_pc y_ret andb orb].
    set (x1 := exec_head x cy r N) in *.
    assert (Hq1 : bb_q (x_ebus x1) = []) by (unfold x1; rewrite exec_head_q, Hq; reflexivity).
    destruct (eus_main_idle labels ord cy x1 true t He2 Hq1) as (t' & E & A1 & A2).
    rewrite E. cbn [bind orb]. exists x1, (mk_eu3 ENone [] (Some (recvd r)) 0 :: t').
    split; [reflexivity|]. split; [constructor; [split; reflexivity | exact A1]|]. split; [cbn [length]; lia|].
    split; [exact HdN|]. split; [exact HB2|]. split; [apply exec_head_frame|]. split; [exact Hq1|].
    unfold x1. rewrite exec_head_wbus, Hret. reflexivity.
  Qed.

  (* the drain loop after ret: idle units are skipped *)
  Lemma eus_drain_idle cy x : forall eus, Forall EuIdle eus -> eus_drain3 labels ord cy x eus = (false, Ok (x, eus, None)).
  Proof.
    induction 1 as [|e t [Hco _] _ IH]; [reflexivity|]. cbn [eus_drain3]. unfold eu_empty3. rewrite Hco, IH. reflexivity.
  Qed.


  (* ---------------------------------------------------------------- *)
  (* the write units                                                    *)


  Lemma wus_ok3 dp d xe pl pv : forall wus x w, Forall (fun u => u_co u = WNone) wus -> BI dp d xe w pl pv x ->
    exists x', wus_cycle3 x wus (-1) = Ok (x', wus) /\
      BI dp d xe (w + Nat.min (length wus) (length (bb_q (m_wbus (x_m x))))) pl pv x' /\ WuFrame3 x x' /\
      bb_q (m_wbus (x_m x')) = skipn (length wus) (bb_q (m_wbus (x_m x))).
  Proof.
    induction wus as [|u t IH]; intros x w Hw HB.
    - exists x. cbn [wus_cycle3 length Nat.min skipn]. rewrite Nat.add_0_r. split; [reflexivity|]. split; [exact HB|]. split; [apply WuFrame3_refl | reflexivity].
    - inversion Hw as [|? ? Hu Ht]; subst. cbn [wus_cycle3].
      destruct (bb_q (m_wbus (x_m x))) as [|c q'] eqn:Eq.
      + rewrite (wu_idle3 x u (-1) Hu Eq). cbn [bind fst snd].
        destruct (IH x w Ht HB) as (x' & E & A1 & A2 & A3). rewrite E. cbn [bind fst snd]. exists x'.
        rewrite Eq in *. cbn [length] in *. rewrite Nat.min_0_r in *. split; [reflexivity|]. split; [exact A1|]. split; [exact A2|].
        rewrite A3. destruct (length t); reflexivity.
      + destruct (wu_take_ok app labels regs0 mem0 ord Hstr Hreg Hlen0 Hsem dp d xe w pl pv x u c q' HB Hu Eq)
          as (x1 & E1 & B1 & B2 & B3 & B4 & B5 & B6).
        rewrite E1. cbn [bind fst snd]. pose proof (wu_frame3 x u (-1) x1 u Hu E1) as F1.
        destruct (IH x1 (S w) Ht B1) as (x' & E & A1 & A2 & A3). rewrite E. cbn [bind fst snd]. exists x'.
        split; [reflexivity|]. rewrite B5 in A1, A3. cbn [length Nat.min skipn].
        split; [replace (w + S (Nat.min (length t) (length q')))%nat with (S w + Nat.min (length t) (length q'))%nat by lia; exact A1|].
        split; [eapply WuFrame3_trans; eassumption | exact A3].
  Qed.

End Exec.
