(* MVP-6.1 refinement: one tick of Run in each of its loops: the main loop (step_normal2), the drain loop
   after ret (step_ret1), and the flush branch - `for {` with the execute units (step_flushO: every unit
   is idle, so it only connects the write bus) and the write-back loop of a write unit (step_flushW:
   entries younger than the flushing instruction are dropped by their sequence id), after which CPU.flush
   leaves a fresh machine at the target (Fresh1). *)
From Coq Require Import ZArith List Bool Lia Permutation.
From Maj Require Import Mvp.Mvp60Proofs.
From Maj Require Import Comp.ListFacts.
From Maj Require Import Base.Outcome Base.GoInt Base.GoTypes Isa.Spec Isa.Embed Isa.Seq Isa.Refine.
From Maj Require Import Gen.Latency Gen.RiscTables Gen.Opcodes Comp.Cache.
From Maj Require Import Mvp.Mvp12 Mvp.Mvp12Proofs Mvp.Mvp3 Mvp.Mvp3Proofs Mvp.Mvp4Skel Mvp.Mvp4Inv Mvp.Mvp5 Mvp.Mvp60 Mvp.Mvp61
     Mvp.Mvp60RefSem Mvp.Mvp60RefDefs Mvp.Mvp60RefFront Mvp.Mvp60RefBack Mvp.Mvp60RefStep Mvp.Mvp60RefStep2
     Mvp.Mvp61RefSem Mvp.Mvp61RefFront Mvp.Mvp61RefBack Mvp.Mvp61RefInv Mvp.Mvp61RefCu Mvp.Mvp61RefExec Mvp.Mvp61RefExec2
     Mvp.Mvp61RefStep Mvp.Mvp61RefStep2.
Import ListNotations.
Open Scope Z_scope.

Lemma run1_S app labels ord pord s s' fuel : step1 app labels ord pord s = TCont s' ->
  run1_st (S fuel) app labels ord pord s = run1_st fuel app labels ord pord s'.
Proof. intros H. cbn [run1_st]. rewrite H. reflexivity. Qed.

Lemma run1_done app labels ord pord s r os fuel : step1 app labels ord pord s = TDone r os ->
  run1_st (S fuel) app labels ord pord s = inl (r, os).
Proof. intros H. cbn [run1_st]. rewrite H. reflexivity. Qed.

(* the machine right after a flush to instruction t (or at start: t = 0): empty pipeline,
   fetch unit at 4t, registers R, ctx.sequenceID = sq; the runners the execute units still hold
   are older than every instruction of the new segment *)
Record Fresh1 (app : list instr) (mem0 : list Z) (sq : Z) (t : nat) (R : list Z) (s : st1) : Prop := mkFresh1 {
  h_regs : m_regs (y_m (t_m s)) = R;
  h_mem : m_mem (y_m (t_m s)) = mem0;
  h_pw : m_pw (y_m (t_m s)) = zero_sb;
  h_pr : m_pr (y_m (t_m s)) = zero_sb;
  h_l3 : lines (m_l3 (y_m (t_m s))) = [];
  h_pc : f_pc (m_fu (y_m (t_m s))) = pcz t;
  h_comp : f_complete (m_fu (y_m (t_m s))) = false;
  h_co : f_co (m_fu (y_m (t_m s))) = FNone;
  h_l1i : IInv (m_l1i (y_m (t_m s)));
  h_dret : m_dret (y_m (t_m s)) = false;
  h_dpbr : m_dpbr (y_m (t_m s)) = false;
  h_cu : m_cu (y_m (t_m s)) = [];
  h_btb : Forall (fun en => fst en < pcz t) (b_btb (m_bu (y_m (t_m s))));
  h_dbus : m_dbus (y_m (t_m s)) = bb_new 2 2;
  h_cbus6 : bb_isempty (m_cbus (y_m (t_m s))) = true;
  h_ebus6 : bb_isempty (m_ebus (y_m (t_m s))) = true;
  h_wbus : m_wbus (y_m (t_m s)) = bb_new 2 2;
  h_seq : x_seq (y_x (t_m s)) = sq;
  h_fwd : x_fwd (y_x (t_m s)) = repeat no_fwd (length app);
  h_xcu : x_cu (y_x (t_m s)) = [];
  h_prev : x_prev (y_x (t_m s)) = [];
  h_pcb : x_pcb (y_x (t_m s)) = false;
  h_xcbus : x_cbus (y_x (t_m s)) = bb_new 2 2;
  h_xebus : x_ebus (y_x (t_m s)) = bb_new 2 2;
  h_ch : NoDup (keys (x_ch (y_x (t_m s)))) /\ Forall (fun c => c < x_nch (y_x (t_m s))) (keys (x_ch (y_x (t_m s))));
  h_eus : Forall EuNone1 (t_eus s);
  h_wus : Forall (fun w => u_co w = WNone) (t_wus s);
  h_wne : t_wus s <> [];
  h_len : length (t_eus s) = length (t_wus s);
  h_mode : t_mode s = NNormal;
  h_stale : Forall (StaleLt (pcz t + 1000 * sq)) (t_eus s) }.

Lemma bb_clean_new {T} (b : bbus T) : bb_ql b = 2 -> bb_bl b = 2 -> bb_clean b = bb_new 2 2.
Proof. intros A B. unfold bb_clean, bb_new. rewrite A, B. reflexivity. Qed.

Lemma merge1_none acc : merge1 acc resp0 = acc.
Proof. unfold merge1. cbn [resp0 p_flush p_ret andb]. rewrite !orb_false_r. destruct acc; reflexivity. Qed.

Section Step3.
  Variables (app : list instr) (labels : Z -> option Z) (regs0 mem0 : list Z) (base : nat) (sq : Z) (off : Z).
  Hypothesis Happ : wf_app app.
  Hypothesis Hreg : reg_only app = true.
  Hypothesis Hrng : regs_in_range app = true.
  Hypothesis Hlen32 : length regs0 = 32%nat.
  Hypothesis Hbase : (base <= length app)%nat.
  Let n := length app.
  Let N := stop_from app base.
  Hypothesis Hsq : 0 <= sq /\ 1000 * sq + 4 * Z.of_nat n < 2147483648.

  Notation sreg := (sreg app labels regs0 base).
  Notation eff := (eff app labels regs0 base).
  Notation ik := (ik app).
  Notation rnq := (rnq app sq).
  Notation sid := (sid sq).
  Notation CoreI := (CoreI app labels regs0 mem0 base sq).
  Notation FL1 := (FL1 sq).
  Notation FrontI1 := (FrontI1 app base sq).
  Notation phi1 := (phi1 app).
  Notation GI1 := (GI1 app labels regs0 mem0 base sq off).
  Notation TI1 := (TI1 app labels regs0 base sq).
  Notation bresp := (bresp app labels regs0 base sq).
  Notation wbq := (wbq app labels regs0 base sq).
  Notation WbOK1 := (WbOK1 app labels regs0 base sq).
  Notation BackSemW := (BackSemW app labels regs0 base).
  Notation kw1 := (kw1 sq).

  Hypothesis Hsem : forall k, (base <= k <= N)%nat -> (k < n)%nat ->
    exec (sinstr_of (ik k)) (rget (sreg k)) labels (pcz k) [] = Ok (eff k) /\
    (forall a, etarget (eff k) = Some a -> exists t, a = pcz t /\ (k < t <= n)%nat).
  Hypothesis Hr32 : Forall int32 regs0.

  Set Default Proof Using "All".
  Notation "'IA' L" := (L app labels regs0 mem0 base sq Happ Hreg Hrng Hlen32 Hbase Hsq Hsem) (at level 10, L at level 9, only parsing).
  Notation "'IE' L" := (L app labels regs0 mem0 base sq Happ Hreg Hrng Hlen32 Hbase Hsq Hsem Hr32) (at level 10, L at level 9, only parsing).
  Notation "'IS' L" := (L app labels regs0 mem0 base sq off Happ Hreg Hrng Hlen32 Hbase Hsq Hsem Hr32) (at level 10, L at level 9, only parsing).

  (* what a finished run looks like *)
  Definition Fin1 (r : mres) : Prop :=
    exists cf xe, r = MDone cf (mk_arch (sreg xe) mem0) /\ (base <= xe <= n)%nat /\
      (forall k, (base <= k < xe)%nat -> bresp k = resp0) /\
      ((xe = n /\ Z.of_nat xe <= 2 * cf + off) \/
       ((xe < n)%nat /\ is_ret (ik xe) = true /\ Z.of_nat (S xe) <= 2 * cf + off)).

  (* drain loop after ret *)
  Record GR1 (d : nat) (s : st1) : Prop := mkGR1 {
    r1_core : CoreI d (x_cu (y_x (t_m s))) (t_m s);
    r1_eus : Forall EuNone1 (t_eus s);
    r1_wus : Forall (fun w => u_co w = WNone) (t_wus s);
    r1_wne : t_wus s <> [];
    r1_N : (N < n)%nat /\ d = S N /\ is_ret (ik N) = true;
    r1_ebus : EB (t_m s) = [];
    r1_wb : bb_buf (m_wbus (y_m (t_m s))) = [];
    r1_wq : bb_q (m_wbus (y_m (t_m s))) <> [];
    r1_bw : BusOK (t_cycle s) (m_wbus (y_m (t_m s)));
    r1_exec : forall k, (base <= k < N)%nat -> bresp k = resp0;
    r1_cyc : Z.of_nat d <= 2 * t_cycle s + off;
    r1_mode : t_mode s = NRet }.

  Lemma sreg_ret1 k : (base <= k)%nat -> is_ret (ik k) = true -> sreg (S k) = sreg k.
  Proof.
    intros Hb H. rewrite (sreg_S app labels regs0 base (IA Hlen0)) by assumption. unfold Mvp60RefSem.eff, eff_at. rewrite (is_ret_exec _ _ _ _ _ H). reflexivity.
  Qed.

  Lemma eus_drain_skip ord cy m : forall eus, Forall EuNone1 eus -> eus_drain labels ord cy m eus = (false, EAll m eus euo_none true).
  Proof.
    induction 1 as [|e t [_ Hc] _ IH]; [reflexivity|]. cbn [eus_drain]. unfold eu_empty1, eu_empty. rewrite Hc. rewrite IH. reflexivity.
  Qed.

  Lemma eus_flush_skip ord cy m acc : forall eus, Forall EuNone1 eus -> eus_flush labels ord cy m eus acc = (false, EAll m eus acc true).
  Proof.
    induction 1 as [|e t [_ Hc] _ IH]; [reflexivity|]. cbn [eus_flush]. unfold eu_empty1, eu_empty. rewrite Hc. rewrite IH. reflexivity.
  Qed.

  (* the drain loop is entered / continued: connect the write bus, then its condition *)
  Lemma ret_tail1 d cyc m6 eus wus os : CoreI d (x_cu (y_x m6)) m6 -> Forall EuNone1 eus ->
    Forall (fun w => u_co w = WNone) wus -> wus <> [] ->
    (N < n)%nat /\ d = S N /\ is_ret (ik N) = true -> EB m6 = [] ->
    (bb_q (m_wbus (y_m m6)) = [] /\ blen (m_wbus (y_m m6)) <= 2) \/ bb_buf (m_wbus (y_m m6)) = [] -> BusOK cyc (m_wbus (y_m m6)) ->
    (forall k, (base <= k < N)%nat -> bresp k = resp0) -> Z.of_nat d <= 2 * cyc + off ->
    let m7 := on_wbus m6 (fun w => bb_connect w (cyc + 1)) in
    let s2 := mk_st1 m7 eus wus (cyc + 1) NRet os in
    (ret_check1 s2 = TCont s2 /\ GR1 d s2 /\ qlen (m_wbus (y_m m7)) = qlen (m_wbus (y_m m6)) + blen (m_wbus (y_m m6))) \/
    (exists r, ret_check1 s2 = TDone r os /\ Fin1 r).
  Proof.
    intros HB He Hw Hwne HN Hebus Hqb HW Hex Hcyc. cbv zeta.
    set (m7 := on_wbus m6 (fun w => bb_connect w (cyc + 1))).
    assert (Q2 : bb_buf (bb_connect (m_wbus (y_m m6)) (cyc + 1)) = []).
    { destruct Hqb as [[Hq Hb2]|Hb]; [apply (connect_allq cyc (m_wbus (y_m m6)) HW Hq Hb2) | apply (connect_nobuf cyc (m_wbus (y_m m6)) HW Hb)]. }
    destruct (connect_spec cyc (m_wbus (y_m m6)) HW) as (W1 & W2 & W3 & W4 & W5).
    assert (B7 : CoreI d (x_cu (y_x m7)) m7).
    { eapply (IA CoreI_ext); [| | | | | | | | | | | | |exact HB]; try reflexivity. exact W1. }
    unfold ret_check1. cbn [t_eus t_wus t_m t_cycle t_os]. rewrite (IS eus_empty1' _ He), (wus_empty _ Hw). cbn [andb].
    destruct (bb_isempty (m_wbus (y_m m7))) eqn:Edone.
    - right. eexists. split; [reflexivity|]. destruct HN as (HNn & HdN & Hret).
      rewrite (finish_ok (y_m m7) (cyc + 1) (c_l3 _ _ _ _ _ _ _ _ _ B7)). exists (cyc + 1), N.
      assert (HFL : FL1 m7 = []).
      { unfold Mvp61RefInv.FL1. change (EB m7) with (EB m6). rewrite Hebus. unfold WB. rewrite (isempty_flat _ Edone). reflexivity. }
      destruct (c_sem _ _ _ _ _ _ _ _ _ B7) as (fs & HS & _). rewrite HFL in HS. apply (bf_empty app labels regs0 base) in HS.
      pose proof (stop_from_ge app base) as HbN. fold N in HbN.
      rewrite HS, (c_mem _ _ _ _ _ _ _ _ _ B7), HdN, (sreg_ret1 N HbN Hret). split; [reflexivity|].
      split; [lia|]. split; [exact Hex|]. right. split; [exact HNn|]. split; [exact Hret | lia].
    - left. split; [reflexivity|]. split.
      + constructor; cbn [t_m t_eus t_wus t_cycle t_mode]; auto.
        * unfold m7, on_wbus. cbn [set_m y_m set_wbus m_wbus]. intros Hx. unfold bb_isempty in Edone. unfold m7, on_wbus in Edone. cbn [set_m y_m set_wbus m_wbus] in Edone.
          rewrite Hx, Q2 in Edone. discriminate.
        * unfold m7, on_wbus. cbn [set_m y_m set_wbus m_wbus]. eapply busok_mono; [|exact W2]. lia.
        * lia.
      + unfold m7, on_wbus. cbn [set_m y_m set_wbus m_wbus].
        assert (blen (bb_connect (m_wbus (y_m m6)) (cyc + 1)) = 0) by (unfold blen; rewrite Q2; reflexivity). lia.
  Qed.

  Lemma step_ret1 ord pord d s : GR1 d s ->
    (exists s', step1 app labels ord pord s = TCont s' /\ GR1 d s' /\ qlen (m_wbus (y_m (t_m s'))) < qlen (m_wbus (y_m (t_m s)))) \/
    (exists r os, step1 app labels ord pord s = TDone r os /\ Fin1 r).
  Proof.
    intros [GB GE GW GWne GN Geb Gwb Gwq Gbw Gex Gcyc Gmode].
    unfold step1. rewrite Gmode. rewrite (eus_drain_skip ord (t_cycle s) (t_m s) (t_eus s) GE).
    destruct ((IE wus_ok1) d (x_cu (y_x (t_m s))) (t_wus s) (t_m s) GB GW)
      as (b6 & Ew & B6 & [_ _ _ _ _ _ _ _ _ _ _ _ V13 _ _ V16] & _ & V18).
    rewrite Ew. cbn [res_of1].
    set (m6 := set_m (t_m s) b6) in *.
    assert (Hq6 : qlen (m_wbus (y_m m6)) < qlen (m_wbus (y_m (t_m s)))).
    { change (y_m m6) with b6. unfold qlen, zlen. rewrite V16, skipn_length. destruct (bb_q (m_wbus (y_m (t_m s)))); [contradiction|].
      destruct (t_wus s); [contradiction|]. cbn [length]. lia. }
    destruct (ret_tail1 d (t_cycle s) m6 (t_eus s) (t_wus s) (t_os s || false) B6 GE GW GWne GN Geb
                ltac:(right; change (y_m m6) with b6; rewrite V13; exact Gwb) (V18 _ Gbw) Gex Gcyc) as [(E & G2 & P2)|(r & E & HF)].
    - left. eexists. split; [exact E|]. split; [exact G2|]. cbn [t_m].
      assert (blen (m_wbus (y_m m6)) = 0) by (change (y_m m6) with b6; unfold blen; rewrite V13, Gwb; reflexivity). lia.
    - right. exists r, (t_os s || false). split; [exact E | exact HF].
  Qed.


  (* draining the write bus before CPU.flush: entries younger than E are dropped *)
  Record FlushI1 (d E : nat) (m : mach1) (D : list nat) : Prop := mkFL1 {
    fl1_w : Forall (WbOK1 d) (WB m);
    fl1_sem : BackSemW d (m_regs (y_m m)) (map kw1 (WB m) ++ D);
    fl1_mem : m_mem (y_m m) = mem0;
    fl1_l3 : lines (m_l3 (y_m m)) = [];
    fl1_D : forall k, In k D -> (E < k)%nat;
    fl1_all : forall k, (E < k < d)%nat -> In k (map kw1 (WB m) ++ D) }.

  (* the state in the flush branch requested by instruction E (target: instruction t) *)
  Record GF1 (d E t : nat) (s : st1) : Prop := mkGF1 {
    gf1_fl : exists D, FlushI1 d E (t_m s) D;
    gf1_eus : Forall EuNone1 (t_eus s);
    gf1_stale : Forall (StaleLt (pcz t + 1000 * sq)) (t_eus s);
    gf1_len : length (t_eus s) = length (t_wus s);
    gf1_wus : Forall (fun w => u_co w = WNone) (t_wus s);
    gf1_wne : t_wus s <> [];
    gf1_l1i : IInv (m_l1i (y_m (t_m s)));
    gf1_btb : Forall (fun en => fst en < pcz t) (b_btb (m_bu (y_m (t_m s))));
    gf1_E : (base <= E < d)%nat /\ (E < t <= n)%nat /\ (d <= n)%nat /\ (E <= N)%nat;
    gf1_exec : forall k, (base <= k < E)%nat -> bresp k = resp0;
    gf1_out : bresp E = mk_resp1 true (sid E) (pcz t) false None;
    gf1_bw : BusOK (t_cycle s) (m_wbus (y_m (t_m s)));
    gf1_par : bb_ql (m_dbus (y_m (t_m s))) = 2 /\ bb_bl (m_dbus (y_m (t_m s))) = 2 /\ bb_ql (x_cbus (y_x (t_m s))) = 2 /\ bb_bl (x_cbus (y_x (t_m s))) = 2 /\
              bb_ql (x_ebus (y_x (t_m s))) = 2 /\ bb_bl (x_ebus (y_x (t_m s))) = 2;
    gf1_x : x_fwd (y_x (t_m s)) = repeat no_fwd n /\ NoDup (keys (x_ch (y_x (t_m s)))) /\
            Forall (fun c => c < x_nch (y_x (t_m s))) (keys (x_ch (y_x (t_m s)))) /\ sq <= x_seq (y_x (t_m s)) <= sq + 2;
    gf1_mode : match t_mode s with
               | NFlushO from seq pc => seq = sid E /\ pc = pcz t /\ bb_q (m_wbus (y_m (t_m s))) = [] /\ 0 < blen (m_wbus (y_m (t_m s))) <= 2
               | NFlushW k ie from seq pc => k = O /\ ie = true /\ seq = sid E /\ pc = pcz t /\
                                             bb_buf (m_wbus (y_m (t_m s))) = [] /\ bb_q (m_wbus (y_m (t_m s))) <> []
               | _ => False
               end }.

  Lemma sid_inj_lt a b : sid a < sid b <-> (a < b)%nat.
  Proof. unfold Mvp61RefFront.sid, pcz. lia. Qed.

  Lemma wu_flush_step1 d E m D w : FlushI1 d E m D -> u_co w = WNone ->
    exists b1 D', wu_cycle6 (y_m m) w (sid E) = Ok (b1, w) /\ FlushI1 d E (set_m m b1) D' /\ WuFrame (y_m m) b1.
  Proof.
    intros [H3 H4 H5 H6 H7 H8] Hco. unfold wu_cycle6. rewrite Hco. unfold bb_get.
    destruct (bb_q (m_wbus (y_m m))) as [|x0 q'] eqn:Eq.
    { exists (y_m m), D. rewrite set_wbus_same. split; [reflexivity|]. split; [destruct m; constructor; assumption|]. constructor; try reflexivity. rewrite Eq. reflexivity. }
    set (ma := set_wbus (y_m m) (mk_bb (bb_buf (m_wbus (y_m m))) q' (bb_ql (m_wbus (y_m m))) (bb_bl (m_wbus (y_m m))))).
    assert (Hflat : WB m = x0 :: flat (m_wbus ma)).
    { unfold WB, flat, ma. cbn [set_wbus m_wbus bb_q bb_buf]. rewrite Eq. reflexivity. }
    assert (Hx : WbOK1 d x0) by (rewrite Hflat in H3; inversion H3; assumption).
    destruct Hx as (k & Hkd & HkN & Hkn & Hnr & ->).
    assert (Hw' : Forall (WbOK1 d) (flat (m_wbus ma))) by (rewrite Hflat in H3; inversion H3; assumption).
    cbn [Mvp61RefInv.wbq w_seq]. fold (wbq k).
    assert (Hneg : (sid E =? -1) = false) by (apply Z.eqb_neq; unfold Mvp61RefFront.sid, pcz; lia). rewrite Hneg. cbn [negb andb].
    destruct (Z.ltb_spec (sid E) (sid k)) as [Hlt|Hge].
    - (* younger than the flushing instruction: dropped; it stays in the invariant as a ghost *)
      apply sid_inj_lt in Hlt.
      exists ma, (k :: D). split; [reflexivity|]. split.
      + constructor; change (WB (set_m m ma)) with (flat (m_wbus ma)); change (y_m (set_m m ma)) with ma; auto.
        * eapply bw_perm; [|exact H4]. rewrite Hflat. cbn [map]. rewrite (IA kw1_wbq). perm_nat.
        * intros k0 [<-|Hk0]; [lia | apply H7; exact Hk0].
        * intros k0 Hk0. specialize (H8 k0 Hk0). rewrite Hflat in H8. cbn [map] in H8. rewrite (IA kw1_wbq) in H8.
          rewrite in_app_iff in *. cbn [In] in *. tauto.
      + constructor; try reflexivity. cbn [ma set_wbus m_wbus bb_q]. rewrite Eq. reflexivity.
    - (* written back *)
      assert (HkE : (k <= E)%nat) by (destruct (Nat.le_gt_cases k E) as [H|H]; [exact H | apply sid_inj_lt in H; lia]).
      cbn [Mvp61RefInv.wbq w_exe w_reads w_writes].
      destruct ((IE wb_apply1) ma k w ltac:(lia) Hkn Hnr) as (b1 & E1 & R1 & R2 & R3 & R4 & R5 & R6 & R7 & R8 & R9 & R10 & R11 & R12 & R13 & R14 & R15 & R16).
      exists b1, D. split; [exact E1|]. split.
      + constructor; unfold WB; change (y_m (set_m m b1)) with b1; rewrite ?R16, ?R1, ?R4, ?R6; auto.
        * change (m_regs ma) with (m_regs (y_m m)). apply (bw_writeback app labels regs0 base (IA Hlen0)).
          -- eapply bw_perm; [|exact H4]. rewrite Hflat. cbn [map List.app]. rewrite (IA kw1_wbq). apply Permutation_refl.
          -- intros s Hs. eapply (IA eff_writes1); try eassumption. lia.
        * intros k0 Hk0. specialize (H8 k0 Hk0). rewrite Hflat in H8. cbn [map List.app In] in H8. rewrite (IA kw1_wbq) in H8.
          destruct H8 as [<-|H8]; [lia | exact H8].
      + constructor; rewrite ?R4, ?R5, ?R6, ?R7, ?R8, ?R9, ?R10, ?R11, ?R12, ?R13, ?R14, ?R15, ?R16; try reflexivity.
        cbn [ma set_wbus m_wbus bb_q]. rewrite Eq. reflexivity.
  Qed.

  (* one tick of the write-back loop of the flush branch *)
  Lemma step_flushW ord pord d E t s : GF1 d E t s -> (exists k ie from seq pc, t_mode s = NFlushW k ie from seq pc) ->
    (exists s', step1 app labels ord pord s = TCont s' /\ GF1 d E t s' /\ (exists k ie from seq pc, t_mode s' = NFlushW k ie from seq pc) /\
                qlen (m_wbus (y_m (t_m s'))) < qlen (m_wbus (y_m (t_m s)))) \/
    (exists s' sq', step1 app labels ord pord s = TCont s' /\ Fresh1 app mem0 sq' t (sreg (S E)) s' /\ sq < sq' <= sq + 3 /\
                    t_cycle s' = t_cycle s + Flush).
  Proof.
    intros [(D & GFl) GE Gst Glen GW GWne Gl1 Gbtb GEt Gex Gout Gbw Gpar Gx Gmode] (k0 & ie0 & from0 & seq0 & pc0 & Em).
    rewrite Em in Gmode. destruct Gmode as (-> & -> & -> & -> & Gwb & Gwq).
    unfold step1. rewrite Em.
    destruct (t_wus s) as [|w0 wt] eqn:Ewus; [contradiction|]. cbn [nth_error].
    assert (Hw0 : u_co w0 = WNone) by (inversion GW; assumption).
    destruct (wu_flush_step1 d E (t_m s) D w0 GFl Hw0)
      as (b1 & D' & Ew & F1 & [R1 R2 R3 _ R5 _ _ R14 R6 R11 R12 R13 R7 R8 R9 R10]).
    rewrite Ew. cbn [res_of1 fst snd]. rewrite (set_nth6_same (w0 :: wt) 0 w0 eq_refl).
    unfold flush_advance1. cbn [t_wus t_m t_eus t_cycle t_os skipn set_m y_m].
    assert (Hb1 : bb_buf (m_wbus b1) = []) by (rewrite R7; exact Gwb).
    destruct Gpar as (P1 & P2 & P3 & P4 & P5 & P6). destruct Gx as (X1 & X2 & X3 & X4).
    destruct (bb_q (m_wbus b1)) as [|y q1] eqn:Eq1.
    - (* the write bus is empty: m.flush(pc) *)
      right. assert (Hemp : bb_isempty (m_wbus b1) = true) by (unfold bb_isempty; rewrite Eq1, Hb1; reflexivity).
      rewrite Hemp, (flush_next_none _ 0 GW). eexists. exists (x_seq (y_x (t_m s)) + 1). split; [reflexivity|]. split; [|split; [lia | reflexivity]].
      destruct GEt as (HE1 & HE2 & Hdn & HEN). destruct F1 as [W1 W2 W3 W4 W5 W6].
      assert (Hfl : WB (set_m (t_m s) b1) = []) by (unfold WB, flat; cbn [set_m y_m]; rewrite Eq1, Hb1; reflexivity).
      rewrite Hfl in W2, W6. cbn [map List.app] in W2, W6.
      assert (Hregs : m_regs b1 = sreg (S E)).
      { eapply (bw_squash app labels regs0 base (IA Hlen0)); [exact W2 | lia|]. intros k. split.
        - intros Hk. split; [apply W5; exact Hk | apply (bw_lt _ _ _ _ _ _ _ W2 k Hk)].
        - intros Hk. apply W6. exact Hk. }
      destruct Gbw as [B1 B2 _ _].
      assert (Hinc : addS 32 (x_seq (y_x (t_m s))) 1 = x_seq (y_x (t_m s)) + 1).
      { unfold addS. apply wrapS_id; [lia|]. apply int32_bounds. destruct Hsq. lia. }
      cbn [set_m y_m] in W3, W4.
      constructor; cbn [t_m t_eus t_wus t_mode do_flush1 inc_seq set_x y_m y_x xs_seq do_flush6 m_regs m_mem m_pw m_pr m_l3 m_fu m_l1i m_dret m_dpbr m_cu m_bu
                          m_dbus m_cbus m_ebus m_wbus fu_flush6 f_pc f_complete f_co x_seq x_fwd x_cu x_prev x_pcb x_cbus x_ebus x_ch x_nch set_m];
        rewrite ?R1, ?R2, ?R3, ?R6; auto.
      + rewrite <- R1. exact W3.
      + rewrite <- R3. exact W4.
      + apply bb_clean_new; rewrite R11; assumption.
      + apply bb_clean_new; rewrite ?R8, ?R9; assumption.
      + apply bb_clean_new; assumption.
      + apply bb_clean_new; assumption.
      + apply Forall_forall. intros e He. apply in_map_iff in He as (e0 & <- & He0). rewrite Forall_forall in GE. destruct (GE e0 He0) as [A _]. split; [exact A | reflexivity].
      + rewrite map_length. exact Glen.
      + apply Forall_forall. intros e He. apply in_map_iff in He as (e0 & <- & He0). rewrite Forall_forall in Gst. specialize (Gst e0 He0).
        intros r Hr. unfold eu_flush1, eu_sid_set, eu_co_set in Hr. cbn [u_e e_runner] in Hr. specialize (Gst r Hr). lia.
    - (* go on *)
      left. assert (Hemp : bb_isempty (m_wbus b1) = false) by (unfold bb_isempty; rewrite Eq1; reflexivity).
      rewrite Hemp, flush_next_some. eexists. split; [reflexivity|]. split; [|split; [cbn [t_mode]; eauto 6|]].
      + constructor; cbn [t_m t_eus t_wus t_cycle t_mode set_m y_m y_x]; rewrite ?R2, ?R6, ?R11; auto.
        * exists D'. exact F1.
        * destruct Gbw as [B1 B2 B3 B4]. constructor; rewrite ?R7, ?R8, ?R9; auto.
          unfold qlen in *. rewrite Eq1, R10. destruct (bb_q (m_wbus (y_m (t_m s)))); cbn [tl skipn]; rewrite ?zlen_cons in *; lia.
        * repeat split; assumption.
        * repeat split; try assumption. rewrite Eq1. discriminate.
      + cbn [t_m set_m y_m]. unfold qlen. rewrite Eq1, R10. destruct (bb_q (m_wbus (y_m (t_m s)))); [contradiction|]. cbn [tl skipn]. rewrite zlen_cons. lia.
  Qed.
  (* the `for {` of the flush branch: every execute unit is empty; Connect; on to the write units *)
  Lemma step_flushO ord pord d E t s : GF1 d E t s -> (exists from seq pc, t_mode s = NFlushO from seq pc) ->
    exists s', step1 app labels ord pord s = TCont s' /\ GF1 d E t s' /\ (exists k ie from seq pc, t_mode s' = NFlushW k ie from seq pc) /\
               t_cycle s' = t_cycle s + 1.
  Proof.
    intros [(D & GFl) GE Gst Glen GW GWne Gl1 Gbtb GEt Gex Gout Gbw Gpar Gx Gmode] (from0 & seq0 & pc0 & Em).
    rewrite Em in Gmode. destruct Gmode as (-> & -> & Gq & Gb).
    unfold step1. rewrite Em. rewrite (eus_flush_skip ord from0 (t_m s) (mk_euo6 true (sid E) (pcz t) false) (t_eus s) GE).
    cbn [o_from o_pc].
    assert (BW' : BusOK (t_cycle s + 1) (m_wbus (y_m (t_m s)))) by (eapply busok_mono; [|exact Gbw]; lia).
    destruct (connect_allq (t_cycle s + 1) (m_wbus (y_m (t_m s))) BW' Gq ltac:(lia)) as (Q1 & Q2 & Q3 & Q4).
    destruct (connect_spec (t_cycle s + 1) (m_wbus (y_m (t_m s))) BW') as (W1 & W2 & _).
    unfold flush_advance1. cbn [t_wus t_m t_eus t_cycle t_os skipn on_wbus set_m y_m set_wbus m_wbus].
    set (wb7 := bb_connect (m_wbus (y_m (t_m s))) (t_cycle s + 1 + 1)) in *.
    assert (Hq7 : bb_q wb7 <> []).
    { rewrite Q1. intros Hx. apply map_eq_nil in Hx. unfold blen in Gb. rewrite Hx in Gb. cbn in Gb. lia. }
    assert (Hemp : bb_isempty wb7 = false) by (unfold bb_isempty; destruct (bb_q wb7); [contradiction | reflexivity]).
    rewrite Hemp. destruct (t_wus s) as [|w0 wt] eqn:Ewus; [contradiction|]. rewrite flush_next_some.
    eexists. split; [reflexivity|]. split; [|split; [cbn [t_mode]; eauto 6 | reflexivity]].
    destruct GFl as [F1 F2 F3 F4 F5 F6].
    constructor; cbn [t_m t_eus t_wus t_cycle t_mode set_m y_m y_x set_wbus m_wbus m_l1i m_bu m_dbus]; auto.
    - exists D. constructor; unfold WB, on_wbus; cbn [set_m y_m set_wbus m_wbus m_regs m_mem m_l3]; fold wb7; rewrite ?W1; auto.
    - unfold on_wbus. cbn [set_m y_m set_wbus m_wbus]. fold wb7. repeat split; try reflexivity; [exact Q2 | exact Hq7].
  Qed.

  Definition phis1 (s : st1) : Z := phi1 (t_m s).

  Lemma bresp_cases k : bresp k = resp0 \/ (is_ret (ik k) = true /\ bresp k = mk_resp1 false 0 0 true None) \/
    exists a, bresp k = mk_resp1 true (sid k) a false None /\ etarget (eff k) = Some a /\ is_ret (ik k) = false /\
              (is_jump (ik k) = true \/ pcz (S k) <> a).
  Proof.
    unfold Mvp61RefExec2.bresp. destruct (is_ret (ik k)); [right; left; auto|].
    destruct (etarget (eff k)) as [a|]; [|left; reflexivity].
    destruct (is_jump (ik k)) eqn:Ej; cbn [orb].
    - right. right. exists a. auto.
    - destruct (Z.eqb_spec (pcz (S k)) a); cbn [negb]; [left; reflexivity|]. right. right. exists a. auto.
  Qed.

  (* an empty machine in the main loop has run the whole text *)
  Lemma empty_fin1 d c f x s : GI1 d c f x s -> is_empty1 (t_m s) (t_eus s) (t_wus s) = true ->
    Fin1 (finish6 (y_m (t_m s)) (t_cycle s)).
  Proof.
    intros [GF GB _ [_ _ _ _ _ T5 T6 T8 _] _ _ GC _] Eemp. set (m := t_m s) in *.
    unfold is_empty1, is_empty6 in Eemp. repeat (apply andb_prop in Eemp as [Eemp ?]).
    rewrite (finish_ok (y_m m) (t_cycle s) (c_l3 _ _ _ _ _ _ _ _ _ GB)). exists (t_cycle s), d.
    assert (Hfd : flat (m_dbus (y_m m)) = []) by (apply isempty_flat; assumption).
    assert (Hfc : flat (x_cbus (y_x m)) = []) by (apply isempty_flat; assumption).
    assert (Hfe : EB m = []) by (apply isempty_flat; assumption).
    assert (Hfw : WB m = []) by (apply isempty_flat; assumption).
    assert (Hcu : x_cu (y_x m) = []) by (apply zlen_zero; apply Z.eqb_eq; assumption).
    assert (HFL : FL1 m = []) by (unfold Mvp61RefInv.FL1; rewrite Hfe, Hfw; reflexivity).
    destruct (c_sem _ _ _ _ _ _ _ _ _ GB) as (fs & HS & _). rewrite HFL in HS. apply (bf_empty app labels regs0 base) in HS.
    (* nothing on the buses: the decode unit has passed the end of the text, everything decoded has been
       dispatched, everything dispatched executed *)
    pose proof (f1_dbus _ _ _ _ _ _ _ _ GF) as Hdb. rewrite Hfd in Hdb. symmetry in Hdb. apply map_eq_nil in Hdb.
    apply (f_equal (@length nat)) in Hdb. rewrite seq_length in Hdb. cbn [length] in Hdb.
    pose proof (f1_cb _ _ _ _ _ _ _ _ GF) as Hcl. rewrite Hcu, Hfc in Hcl. cbn [length] in Hcl. symmetry in Hcl. apply map_eq_nil in Hcl.
    apply (f_equal (@length nat)) in Hcl. rewrite seq_length in Hcl. cbn [length] in Hcl.
    assert (Ecomp : f_complete (m_fu (y_m m)) = true) by assumption.
    destruct (fi_c _ _ _ _ (f1_fetch _ _ _ _ _ _ _ _ GF) Ecomp) as (_ & HfM & _).
    pose proof (f1_cf _ _ _ _ _ _ _ _ GF) as Hcf. pose proof (f1_dc _ _ _ _ _ _ _ _ GF) as Hdc. rewrite Hcu in Hdc. cbn [length] in Hdc.
    pose proof (f1_bd _ _ _ _ _ _ _ _ GF) as Hbd.
    assert (Hdn : d = n) by (fold n in Hcl, Hdc; clear - Hdb Hcl HfM Hcf Hdc; lia).
    assert (Hxd : x = d).
    { rewrite Hfe in T5. symmetry in T5. apply map_eq_nil in T5. apply (f_equal (@length nat)) in T5.
      rewrite seq_length in T5. cbn [length] in T5. clear - T5 T6. lia. }
    rewrite HS, (c_mem _ _ _ _ _ _ _ _ _ GB). split; [reflexivity|]. split; [clear - Hbd Hdn; lia|].
    split; [rewrite <- Hxd; exact T8|]. left. split; [exact Hdn | exact GC].
  Qed.

  Lemma step_normal2 ord pord d c f x s : GI1 d c f x s ->
    (exists s' d' c' f' x', step1 app labels ord pord s = TCont s' /\ GI1 d' c' f' x' s' /\ phis1 s' < phis1 s) \/
    (exists r os, step1 app labels ord pord s = TDone r os /\ Fin1 r) \/
    (exists s' d', step1 app labels ord pord s = TCont s' /\ GR1 d' s') \/
    (exists s' d' E t, step1 app labels ord pord s = TCont s' /\ GF1 d' E t s' /\ (exists from seq pc, t_mode s' = NFlushO from seq pc)).
  Proof.
    intros HG.
    destruct ((IS normal_ok2) ord pord d c f x s HG)
      as (os0 & m4 & m5 & b6 & eus' & d' & c' & f' & lq & Efront & Ee & Ew & HF6 & B6 & P6 & A1 & A2 & A2' & Hrb6 & Hxj & Hq6 & Hb6 & Hj2 & Hseq & Hrtt &
          Hcyc & Hdn & HdN & Hl1 & Hbtb & HW6 & Hpar & Hsq6 & Hphi).
    cbv zeta in *.
    destruct HG as [GF0 GB GP GT GW GWne GC GM]. pose proof GT as [T1 T2 T3 T3' T4 T5 T6 T8 T9].
    set (j := Nat.min (length (t_eus s)) lq) in *. set (m6 := set_m m5 b6) in *.
    set (out := fold_left merge1 (map bresp (seq x j)) euo_none) in *.
    assert (Hblen6 : blen (m_wbus (y_m m6)) <= Z.of_nat j).
    { unfold blen, zlen. rewrite Hb6, map_length. pose proof (filter_len_le (notret1 app) (seq x j)) as Hx. rewrite seq_length in Hx. lia. }
    assert (Hjw : (j <= length (t_wus s))%nat) by (unfold j; lia).
    unfold step1. rewrite GM, Efront. cbn [res_of1]. rewrite Ee. unfold back1. rewrite Ew. cbn [res_of1]. fold m6.
    (* no ret, no flush: the loop goes on or ends *)
    set (rn := if is_empty1 m6 eus' (t_wus s) then TDone (finish6 (y_m m6) (t_cycle s + 1)) (t_os s || os0 || false)
               else TCont (mk_st1 m6 eus' (t_wus s) (t_cycle s + 1) NNormal (t_os s || os0 || false))).
    assert (Hcont : out = euo_none -> (forall k, (x <= k < x + j)%nat -> bresp k = resp0) ->
      (exists s' d' c' f' x', rn = TCont s' /\ GI1 d' c' f' x' s' /\ phis1 s' < phis1 s) \/ (exists r os, rn = TDone r os /\ Fin1 r)).
    { intros Hout Hall. unfold rn.
      assert (Hnf : forall k, (x <= k < x + j)%nat -> p_flush (bresp k) = false) by (intros k Hk; rewrite (Hall k Hk); reflexivity).
      specialize (HF6 Hnf). destruct (Hphi Hnf) as [Hle Hlt].
      assert (Hexec : forall k, (base <= k < x + j)%nat -> bresp k = resp0).
      { intros k Hk. destruct (Nat.lt_ge_cases k x) as [Hkx|Hkx]; [apply T8; lia | apply Hall; lia]. }
      assert (HG' : GI1 d' c' f' (x + j) (mk_st1 m6 eus' (t_wus s) (t_cycle s + 1) NNormal (t_os s || os0 || false))).
      { constructor; cbn [t_m t_eus t_wus t_cycle t_mode]; auto.
        constructor; auto; try lia; try (rewrite A2; exact T4). }
      destruct (is_empty1 m6 eus' (t_wus s)) eqn:Eemp.
      - right. eexists _, _. split; [reflexivity|]. exact (empty_fin1 _ _ _ _ _ HG' Eemp).
      - left. eexists _, d', c', f', (x + j)%nat. split; [reflexivity|]. split; [exact HG'|].
        destruct Hlt as [Hlt|[_ Hx]]; [exact Hlt | congruence]. }
    (* the ret has been executed: drain loop *)
    set (rr := ret_check1 (mk_st1 (on_wbus m6 (fun w => bb_connect w (t_cycle s + 1 + 1))) eus' (t_wus s) (t_cycle s + 1 + 1) NRet (t_os s || os0 || false))).
    assert (Hretc : is_ret (ik x) = true -> (0 < j)%nat ->
      (exists s' d', rr = TCont s' /\ GR1 d' s') \/ (exists r os, rr = TDone r os /\ Fin1 r)).
    { intros Hret Hj0. unfold rr. destruct (Hrtt x ltac:(lia) Hret) as (_ & HxN & Hj1 & Hd').
      destruct (Hseq x ltac:(lia)) as (X1 & X2 & X3).
      assert (Hebus : EB m6 = []).
      { apply (f_equal (@length runner)) in Hrb6. rewrite !map_length, seq_length in Hrb6. destruct (EB m6); [reflexivity | cbn [length] in Hrb6; lia]. }
      assert (HNf : (N < n)%nat /\ d' = S N /\ is_ret (ik N) = true).
      { fold N in HxN, Hd'. rewrite <- HxN. split; [exact X3|]. split; [rewrite HxN; exact Hd' | exact Hret]. }
      destruct (ret_tail1 d' (t_cycle s + 1) m6 eus' (t_wus s) (t_os s || os0 || false) B6 A1 GW GWne
                  HNf Hebus ltac:(left; split; [exact Hq6 | lia]) HW6
                  ltac:(intros k Hk; apply T8; lia) Hcyc) as [(E & G2 & _)|(r & E & HFin)].
      - left. eexists _, d'. split; [exact E | exact G2].
      - right. exists r, (t_os s || os0 || false). split; [exact E | exact HFin]. }
    (* a flush is requested by E, the first instruction of the group that asks for one *)
    assert (Hflc : forall E a, (x <= E < x + j)%nat -> bresp E = mk_resp1 true (sid E) a false None -> etarget (eff E) = Some a ->
      is_ret (ik E) = false -> (is_jump (ik E) = true \/ pcz (S E) <> a) ->
      (forall k, (x <= k < E)%nat -> bresp k = resp0) -> (forall k, (x <= k < x + j)%nat -> is_ret (ik k) = false) ->
      exists t, a = pcz t /\
        GF1 d' E t (mk_st1 m6 (map (fun e => eu_sid_set e (sid E)) eus') (t_wus s) (t_cycle s + 1) (NFlushO (t_cycle s + 1) (sid E) a) (t_os s || os0 || false))).
    { intros E a HE Hb Ea Hnr Hwhy Hbefore Hnoret.
      destruct (Hseq E HE) as (X1 & X2 & X3).
      destruct (Hsem E ltac:(lia) X3) as [_ Htgt]. destruct (Htgt a Ea) as (t & -> & Ht). exists t. split; [reflexivity|].
      assert (Hkr6 : map kr1 (EB m6) = seq (x + j) (d' - (x + j))) by (apply (IS kr1_of_rb); exact Hrb6).
      assert (Hxjt : (x + j <= t)%nat).
      { destruct (Nat.le_gt_cases (x + j) (S E)) as [H|H]; [lia|].
        destruct Hwhy as [Hj|Hne].
        - (* a jump is the instruction at which decoding stops: nothing is dispatched behind it *)
          exfalso. assert (E = N).
          { destruct (Nat.eq_dec E N) as [|Hne]; [assumption|]. exfalso.
            pose proof (stop_from_before app dfl base E ltac:(fold N; lia)) as Hs. unfold is_stop in Hs. apply orb_false_iff in Hs as [_ Hs].
            unfold Mvp60RefSem.ik in Hj. congruence. }
          lia.
        - assert (t <> S E) by (intros ->; apply Hne; reflexivity). lia. }
      assert (HWB6 : WB m6 = map (wbq) (filter (notret1 app) (seq x j))).
      { unfold WB, flat. rewrite Hq6, Hb6, map_map. reflexivity. }
      assert (Hkw6 : map kw1 (WB m6) = filter (notret1 app) (seq x j)).
      { rewrite HWB6, map_map. rewrite <- (map_id (filter _ _)) at 2. apply map_ext. intros k. apply (IA kw1_wbq). }
      destruct (c_ch _ _ _ _ _ _ _ _ _ B6) as [C1 C2 C3 C4 C5 C6].
      constructor; cbn [t_m t_eus t_wus t_cycle t_mode]; auto.
      - exists (map kr1 (EB m6)). constructor.
        + exact (c_w _ _ _ _ _ _ _ _ _ B6).
        + destruct (c_sem _ _ _ _ _ _ _ _ _ B6) as (fs & HS & _). eapply bw_perm; [|apply (bf_weak _ _ _ _ _ _ _ _ _ _ HS)].
          unfold Mvp61RefInv.FL1. apply Permutation_app_comm.
        + exact (c_mem _ _ _ _ _ _ _ _ _ B6).
        + exact (c_l3 _ _ _ _ _ _ _ _ _ B6).
        + intros k Hk. rewrite Hkr6 in Hk. apply in_seq in Hk. lia.
        + intros k Hk. rewrite Hkw6, Hkr6. apply in_or_app. destruct (Nat.lt_ge_cases k (x + j)) as [Hlt|Hge].
          * left. apply filter_In. split; [apply in_seq; lia|]. unfold notret1. rewrite (Hnoret k ltac:(lia)). reflexivity.
          * right. apply in_seq. lia.
      - apply Forall_forall. intros e He. apply in_map_iff in He as (e0 & <- & He0). rewrite Forall_forall in A1. exact (A1 e0 He0).
      - apply Forall_forall. intros e He. apply in_map_iff in He as (e0 & <- & He0). rewrite Forall_forall in A2'. specialize (A2' e0 He0).
        intros r Hr. cbn [eu_sid_set u_e] in Hr. specialize (A2' r Hr). unfold Mvp61RefFront.sid, pcz in *. lia.
      - rewrite map_length, A2. exact T4.
      - eapply Forall_impl; [|exact Hbtb]. cbn beta. intros en Hen. unfold pcz in *. lia.
      - intros k Hk. destruct (Nat.lt_ge_cases k x) as [Hkx|Hkx]; [apply T8; lia | apply Hbefore; lia].
      - destruct Hpar as (Pa1 & Pa2 & Pa3 & Pa4 & Pa5 & Pa6 & _). repeat split; assumption.
      - split; [exact (c_fwd _ _ _ _ _ _ _ _ _ B6)|]. split; [exact (NoDup_app_r _ _ C2)|]. split.
        + apply Forall_forall. intros c0 Hc0. rewrite Forall_forall in C1. apply C1. apply in_or_app. left. exact Hc0.
        + lia.
      - split; [reflexivity|]. split; [reflexivity|]. split; [exact Hq6|].
        split; [|lia]. unfold blen, zlen. rewrite Hb6, map_length.
        assert (Hin : In E (filter (notret1 app) (seq x j))) by (apply filter_In; split; [apply in_seq; lia | unfold notret1; rewrite Hnr; reflexivity]).
        destruct (filter (notret1 app) (seq x j)); [destruct Hin | cbn [length]; lia]. }
    (* the cases: zero, one or two instructions executed *)
    destruct j as [|[|[|j3]]] eqn:Ej; [| | |lia].
    - (* nothing executed *)
      cbn [seq map fold_left] in out. subst out. cbn [o_ret o_flush euo_none].
      destruct (Hcont eq_refl ltac:(intros k Hk; lia)) as [H|H]; [left; exact H | right; left; exact H].
    - (* one instruction *)
      cbn [seq map fold_left] in out.
      destruct (bresp_cases x) as [H0|[(Hret & Hr)|(a & Hf & Ea & Hnr & Hwhy)]].
      + unfold out. rewrite H0, merge1_none. cbn [o_ret o_flush euo_none].
        destruct (Hcont ltac:(unfold out; rewrite H0, merge1_none; reflexivity) ltac:(intros k Hk; replace k with x by lia; exact H0)) as [H|H]; [left; exact H | right; left; exact H].
      + unfold out. rewrite Hr. unfold merge1; cbn [o_ret o_flush o_from o_pc euo_none p_flush p_ret p_seq p_pc andb orb negb].
        destruct (Hretc Hret ltac:(lia)) as [H|H]; [right; right; left; exact H | right; left; exact H].
      + unfold out. rewrite Hf. unfold merge1; cbn [o_ret o_flush o_from o_pc euo_none p_flush p_ret p_seq p_pc andb orb negb].
        destruct (Hflc x a ltac:(lia) Hf Ea Hnr Hwhy ltac:(intros k Hk; lia) ltac:(intros k Hk; replace k with x by lia; exact Hnr)) as (t & -> & G).
        right. right. right. eexists _, d', x, t. split; [reflexivity|]. split; [exact G | cbn [t_mode]; eauto].
    - (* two instructions: no ret among them *)
      cbn [seq map fold_left] in out.
      assert (Hnr0 : is_ret (ik x) = false).
      { destruct (is_ret (ik x)) eqn:Er; [|reflexivity]. destruct (Hrtt x ltac:(lia) Er) as (_ & _ & Hx & _). discriminate. }
      assert (Hnr1 : is_ret (ik (S x)) = false).
      { destruct (is_ret (ik (S x))) eqn:Er; [|reflexivity]. destruct (Hrtt (S x) ltac:(lia) Er) as (Hx & _). lia. }
      assert (Hnoret : forall k, (x <= k < x + 2)%nat -> is_ret (ik k) = false).
      { intros k Hk. destruct (Nat.eq_dec k x) as [->|]; [exact Hnr0|]. replace k with (S x) by lia. exact Hnr1. }
      destruct (bresp_cases x) as [H0|[(Hret & _)|(a & Hf & Ea & Hnr & Hwhy)]]; [| congruence |].
      + destruct (bresp_cases (S x)) as [H1|[(Hret & _)|(a & Hf & Ea & Hnr & Hwhy)]]; [| congruence |].
        * unfold out. rewrite H0, H1, !merge1_none. cbn [o_ret o_flush euo_none].
          destruct (Hcont ltac:(unfold out; rewrite H0, H1, !merge1_none; reflexivity)
                      ltac:(intros k Hk; destruct (Nat.eq_dec k x) as [->|]; [exact H0 | replace k with (S x) by lia; exact H1])) as [H|H];
            [left; exact H | right; left; exact H].
        * unfold out. rewrite H0, merge1_none, Hf. unfold merge1; cbn [o_ret o_flush o_from o_pc euo_none p_flush p_ret p_seq p_pc andb orb negb].
          destruct (Hflc (S x) a ltac:(lia) Hf Ea Hnr Hwhy ltac:(intros k Hk; replace k with x by lia; exact H0) Hnoret) as (t & -> & G).
          right. right. right. eexists _, d', (S x), t. split; [reflexivity|]. split; [exact G | cbn [t_mode]; eauto].
      + (* the first one asks for the flush; whatever the second one answers, the first one wins *)
        assert (Hout : out = mk_euo6 true (sid x) a false).
        { unfold out. rewrite Hf. unfold merge1; cbn [o_ret o_flush o_from o_pc euo_none p_flush p_ret p_seq p_pc andb orb negb].
          destruct (bresp_cases (S x)) as [H1|[(Hret & _)|(a1 & Hf1 & _)]]; [rewrite H1; reflexivity | congruence|].
          rewrite Hf1. unfold merge1; cbn [o_ret o_flush o_from o_pc euo_none p_flush p_ret p_seq p_pc andb orb negb].
          assert (Hlt : (sid (S x) <? sid x) = false) by (apply Z.ltb_ge; unfold Mvp61RefFront.sid, pcz; lia). rewrite Hlt. reflexivity. }
        rewrite Hout. cbn [o_ret o_flush o_from o_pc].
        destruct (Hflc x a ltac:(lia) Hf Ea Hnr Hwhy ltac:(intros k Hk; lia) Hnoret) as (t & -> & G).
        right. right. right. eexists _, d', x, t. split; [reflexivity|]. split; [exact G | cbn [t_mode]; eauto].
  Qed.
End Step3.
