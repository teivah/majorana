(* Refinement of MVP-6.3 to the sequential machine on single-assignment register-only programs with FORWARD
   control flow - one tick of Run in the main loop and in the drain loop after ret, on the invariants G3q / GR3q
   of Mvp63RefFwdDefs.v.

     step_ret3q      one tick of the drain loop after ret: the loop goes on with a shorter write-bus queue, or Run
                     returns the sequential result;
     tick_front      the front half of a tick of the main loop (Connect, fetch, decode, control unit) and what it
                     does to the potential phiX;
     step_normal3q   one tick of the main loop: the loop goes on and the potential phiX decreases, or Run returns,
                     or the ret has been executed (drain loop), or an instruction E has asked for a flush (GF3: the
                     invariant of the flush loops). *)
From Coq Require Import ZArith List Bool Lia Permutation.
From Maj Require Import Base.Outcome Base.GoInt Base.GoTypes Isa.Spec Isa.Embed Isa.Seq Isa.Refine.
From Maj Require Import Gen.Latency Gen.RiscTables Gen.Opcodes Comp.Cache Comp.Rat Comp.RatProofs.
From Maj Require Import Mvp.Mvp12 Mvp.Mvp12Proofs Mvp.Mvp3 Mvp.Mvp3Proofs Mvp.Mvp4Skel Mvp.Mvp4Inv Mvp.Mvp5 Mvp.Mvp60
     Mvp.Mvp60RefSem Mvp.Mvp60RefDefs Mvp.Mvp60RefFront Mvp.Mvp60RefBack Mvp.Mvp60RefStep Mvp.Mvp60RefStep2
     Mvp.Mvp63 Mvp.Mvp63Proofs Mvp.Mvp63RefDefs Mvp.Mvp63RefInv Mvp.Mvp63RefExec Mvp.Mvp63RefRat Mvp.Mvp63RefStep
     Mvp.Mvp63RefFwdDefs Mvp.Mvp63RefFwdRat Mvp.Mvp63RefFwdFront Mvp.Mvp63RefFwdInv Mvp.Mvp63RefFwdExec.
Import ListNotations.
Open Scope Z_scope.

Lemma idle_setseq s eus : Forall EuIdle eus -> Forall EuIdle (map (fun e => mk_eu3 (g_co e) (g_memory e) (g_runner e) s) eus).
Proof. intros H. apply Forall_forall. intros e He. apply in_map_iff in He as (e0 & <- & H0). rewrite Forall_forall in H. exact (H e0 H0). Qed.

Lemma stale_setseq b s eus : Forall (StaleOK b) eus -> Forall (StaleOK b) (map (fun e => mk_eu3 (g_co e) (g_memory e) (g_runner e) s) eus).
Proof. intros H. apply Forall_forall. intros e He. apply in_map_iff in He as (e0 & <- & H0). rewrite Forall_forall in H. apply StaleOK_seq. exact (H e0 H0). Qed.

Section FwdStep.
  Variables (app : list instr) (labels : Z -> option Z) (regs0 mem0 : list Z) (base : nat) (sq : Z) (ord : Z -> Z -> list Z -> list Z).
  Hypothesis Happ : wf_app app.
  Hypothesis Hreg : reg_only app = true.
  Hypothesis Hssa : ssa app = true.
  Hypothesis Hrng : regs_ok app = true.
  Hypothesis Hlen0 : length regs0 = 32%nat.
  Hypothesis Hr32 : Forall int32 regs0.
  Hypothesis Hx0 : nth 0 regs0 0 = 0.
  Hypothesis Hbase : (base <= length app)%nat.
  Hypothesis Hsq : 0 <= sq /\ 1000 * sq + 4 * Z.of_nat (length app) + 4 < 2147483648.
  Let n := length app.
  Let N := stop_from app base.

  Notation sreg := (sreg app labels regs0 base).
  Notation eff := (eff app labels regs0 base).
  Notation ik := (ik app).
  Notation kout := (kout app labels regs0 base).
  Notation sid := (sid sq).
  Notation rnq := (rnq app sq).
  Notation wbq := (wbq app labels regs0 base sq).
  Notation TabOK := (TabOK app labels regs0 base sq).
  Notation BIq := (BIq app labels regs0 mem0 base sq).
  Notation FIq := (FIq app labels regs0 mem0 base sq).
  Notation FrontI := (FrontI app base).
  Notation phiF := (phiF app).
  Notation G3q := (G3q app labels regs0 mem0 base sq).
  Notation GR3q := (GR3q app labels regs0 mem0 base sq).
  Notation GF3 := (GF3 app labels regs0 mem0 base sq).
  Notation Fin3q := (Fin3q app labels regs0 mem0 base).

  Hypothesis Hsem : forall k, (base <= k <= N)%nat -> (k < n)%nat ->
    exec (sinstr_of (ik k)) (rget (sreg k)) labels (pcz k) [] = Ok (eff k) /\
    (forall a, etarget (eff k) = Some a -> exists t, a = pcz t /\ (k < t <= n)%nat).
  Hypothesis Htot : forall k rr, (k < n)%nat -> exists e, exec (sinstr_of (ik k)) rr labels (pcz k) [] = Ok e.

  Set Default Proof Using "All".
  Notation "'IE' L" := (L app labels regs0 mem0 base sq ord Happ Hreg Hssa Hrng Hlen0 Hr32 Hx0 Hbase Hsq Hsem Htot) (at level 10, L at level 9, only parsing).

  (* ---------------------------------------------------------------- *)
  (* Run returns                                                        *)

  Lemma finish3_okq dp d xe w pl pv x cy : BIq dp d xe w pl pv x ->
    finish3 ord x cy = MDone cy (mk_arch (sreg w) mem0).
  Proof.
    intros HB. unfold finish3. rewrite (bq_l3 _ _ _ _ _ _ _ _ _ _ _ _ _ HB). cbn [flush_lines]. rewrite Z.add_0_r.
    rewrite (tab_finish app labels regs0 base Hlen0 sq ord w x cy (bq_tab _ _ _ _ _ _ _ _ _ _ _ _ _ HB) (bq_regs _ _ _ _ _ _ _ _ _ _ _ _ _ HB)).
    rewrite (bq_mem _ _ _ _ _ _ _ _ _ _ _ _ _ HB). reflexivity.
  Qed.

  (* the run ends at the end of the text: everything has been written back *)
  Lemma fin_endq dp pl pv x cy : BIq dp n n n pl pv x -> Fin3q (finish3 ord x cy).
  Proof.
    intros HB. rewrite (finish3_okq _ _ _ _ _ _ _ cy HB).
    pose proof (bq_ord _ _ _ _ _ _ _ _ _ _ _ _ _ HB) as [Ho _].
    exists (Z.of_nat n - 2 * cy), cy, n. split; [reflexivity|]. split; [fold n; lia|].
    split; [exact (bq_exec _ _ _ _ _ _ _ _ _ _ _ _ _ HB)|]. left. split; [reflexivity | lia].
  Qed.

  (* ... or behind the ret *)
  Lemma fin_retq dp x cy : BIq dp N N N [] [] x -> (N < n)%nat -> is_ret (ik N) = true -> Fin3q (finish3 ord x cy).
  Proof.
    intros HB HNn Hret. rewrite (finish3_okq _ _ _ _ _ _ _ cy HB).
    pose proof (bq_ord _ _ _ _ _ _ _ _ _ _ _ _ _ HB) as [Ho _]. fold N in Ho.
    exists (Z.of_nat (S N) - 2 * cy), cy, N. split; [reflexivity|]. split; [fold n; lia|].
    split; [exact (bq_exec _ _ _ _ _ _ _ _ _ _ _ _ _ HB)|]. right. split; [exact HNn|]. split; [exact Hret | lia].
  Qed.

  (* ---------------------------------------------------------------- *)
  (* the drain loop after ret                                           *)

  Lemma wbus_nil_wq dp d xe w pl pv x : BIq dp d xe w pl pv x -> flat (m_wbus (x_m x)) = [] -> w = xe.
  Proof.
    intros HB Hfl. pose proof (bq_wbus _ _ _ _ _ _ _ _ _ _ _ _ _ HB) as Hw. rewrite Hfl in Hw. symmetry in Hw. apply map_eq_nil in Hw.
    apply (f_equal (@length nat)) in Hw. rewrite seq_length in Hw. cbn [length] in Hw.
    pose proof (bq_ord _ _ _ _ _ _ _ _ _ _ _ _ _ HB). lia.
  Qed.

  (* the drain loop is entered / continued: connect the write bus, then its condition *)
  Lemma ret_tail3q dp w cyc x6 eus wus : BIq dp N N w [] [] x6 -> Forall EuIdle eus ->
    Forall (fun u => u_co u = WNone) wus -> wus <> [] -> (N < n)%nat /\ is_ret (ik N) = true ->
    (bb_q (m_wbus (x_m x6)) = [] /\ blen (m_wbus (x_m x6)) <= 2) \/ bb_buf (m_wbus (x_m x6)) = [] -> BusOK cyc (m_wbus (x_m x6)) ->
    let x7 := wbus_connect3 x6 (cyc + 1) in
    let s2 := mk_st3 x7 eus wus (cyc + 1) NRet in
    (ret_check3 ord s2 = TCont s2 /\ GR3q w s2 /\ qlen (m_wbus (x_m x7)) = qlen (m_wbus (x_m x6)) + blen (m_wbus (x_m x6))) \/
    (exists r, ret_check3 ord s2 = TDone r false /\ Fin3q r).
  Proof.
    intros HB He Hw Hwne HN Hqb HW. cbv zeta.
    set (x7 := wbus_connect3 x6 (cyc + 1)).
    assert (Q2 : bb_buf (bb_connect (m_wbus (x_m x6)) (cyc + 1)) = []).
    { destruct Hqb as [[Hq Hb2]|Hb]; [apply (connect_allq cyc (m_wbus (x_m x6)) HW Hq Hb2) | apply (connect_nobuf cyc (m_wbus (x_m x6)) HW Hb)]. }
    destruct (connect_spec cyc (m_wbus (x_m x6)) HW) as (W1 & W2 & W3 & W4 & W5).
    assert (B7 : BIq dp N N w [] [] x7).
    { eapply BI_ext; [..|exact HB]; try reflexivity. exact W1. }
    unfold ret_check3. cbn [t_eus t_wus t_x t_cycle]. rewrite (eus_empty3 _ He), (wus_empty3 _ Hw). cbn [andb].
    rewrite (bq_os _ _ _ _ _ _ _ _ _ _ _ _ _ B7).
    destruct (bb_isempty (m_wbus (x_m x7))) eqn:Edone.
    - right. eexists. split; [reflexivity|]. destruct HN as (HNn & Hret).
      assert (HwN : w = N) by (eapply wbus_nil_wq; [exact B7 | apply isempty_flat; exact Edone]). subst w.
      apply (fin_retq dp x7 (cyc + 1) B7 HNn Hret).
    - left. split; [reflexivity|]. split.
      + constructor; cbn [t_x t_eus t_wus t_cycle t_mode]; auto.
        * exists dp. exact B7.
        * intros Hx. unfold bb_isempty in Edone. unfold x7, wbus_connect3 in Edone, Hx. cbn [x_m set_m set_wbus m_wbus] in Edone, Hx.
          rewrite Hx, Q2 in Edone. discriminate.
        * unfold x7, wbus_connect3. cbn [x_m set_m set_wbus m_wbus]. eapply busok_mono; [|exact W2]. lia.
      + unfold x7, wbus_connect3. cbn [x_m set_m set_wbus m_wbus].
        assert (blen (bb_connect (m_wbus (x_m x6)) (cyc + 1)) = 0) by (unfold blen; rewrite Q2; reflexivity). lia.
  Qed.

  Lemma step_ret3q w s : GR3q w s ->
    (exists s' w', step3 app labels ord s = TCont s' /\ GR3q w' s' /\ qlen (m_wbus (x_m (t_x s'))) < qlen (m_wbus (x_m (t_x s)))) \/
    (exists r, step3 app labels ord s = TDone r false /\ Fin3q r).
  Proof.
    intros [(dp & GB) GN GE GW GWne Gwb Gwq Gbw Gmode].
    unfold step3. rewrite Gmode. rewrite (eus_drain_idleq labels ord (t_cycle s) (t_x s) _ GE). cbn [orb res_of3].
    rewrite or_os_false.
    destruct (IE wus_ok3q dp N N [] [] (t_wus s) (t_x s) w GW GB) as (x2 & Ew & B2 & F2 & Q2).
    rewrite Ew. cbn [res_of3].
    set (w' := (w + Nat.min (length (t_wus s)) (length (bb_q (m_wbus (x_m (t_x s))))))%nat) in *.
    assert (Hq6 : qlen (m_wbus (x_m x2)) < qlen (m_wbus (x_m (t_x s)))).
    { unfold qlen, zlen. rewrite Q2, skipn_length. destruct (bb_q (m_wbus (x_m (t_x s)))); [contradiction|].
      destruct (t_wus s); [contradiction|]. cbn [length]. lia. }
    assert (HW2 : BusOK (t_cycle s) (m_wbus (x_m x2))).
    { destruct F2. eapply BusOK_frame; [eassumption | eassumption | eassumption | | exact Gbw]. lia. }
    destruct (ret_tail3q dp w' (t_cycle s) x2 (t_eus s) (t_wus s) B2 GE GW GWne GN
                ltac:(right; rewrite (w3_wbuf _ _ F2); exact Gwb) HW2) as [(E & G2 & P2)|(r & E & HF)].
    - left. eexists _, w'. split; [exact E|]. split; [exact G2|]. cbn [t_x].
      assert (blen (m_wbus (x_m x2)) = 0) by (unfold blen; rewrite (w3_wbuf _ _ F2), Gwb; reflexivity). lia.
    - right. exists r. split; [exact E | exact HF].
  Qed.
  (* ---------------------------------------------------------------- *)
  (* one tick of the main loop                                          *)

  Notation acc_of b := (mk_euo3 false 0 0 b None).

  Lemma BIq_flat_len dp d xe w pl pv x : BIq dp d xe w pl pv x -> qlen (x_ebus x) + blen (x_ebus x) = Z.of_nat (d - xe).
  Proof.
    intros HB. rewrite <- flat_len. pose proof (bq_ebus _ _ _ _ _ _ _ _ _ _ _ _ _ HB) as H. apply (f_equal (@length _)) in H.
    rewrite !map_length, seq_length in H. unfold zlen. rewrite H. reflexivity.
  Qed.

  Lemma BIq_wflat_len dp d xe w pl pv x : BIq dp d xe w pl pv x -> qlen (m_wbus (x_m x)) + blen (m_wbus (x_m x)) = Z.of_nat (xe - w).
  Proof.
    intros HB. rewrite <- flat_len. pose proof (bq_wbus _ _ _ _ _ _ _ _ _ _ _ _ _ HB) as H. apply (f_equal (@length _)) in H.
    rewrite !map_length, seq_length in H. unfold zlen. rewrite H. reflexivity.
  Qed.

  Lemma front3_okq x c x3 fu1 l1i1 dbus1 :
    fu_cycle6 app c (m_fu (x_m (connected3 x c))) (m_l1i (x_m (connected3 x c))) (m_dbus (x_m (connected3 x c))) = Ok (fu1, l1i1, dbus1) ->
    du_cycle3 app c (set_m (connected3 x c) (set_dbus (set_l1i (set_fu (x_m (connected3 x c)) fu1) l1i1) dbus1)) = Ok x3 ->
    front3 app ord c x = Ok (cu_cycle3 ord c x3).
  Proof. intros H1 H2. rewrite front3_eq, H1, H2. reflexivity. Qed.

  (* phiX weighs an entry of the pipeline by the stages it still has to pass, so a stage that moves entries lowers
     it.  The front half of a tick (the Connect calls, fetch, decode, the control unit, which dispatches lp
     instructions) does not raise the potential, and lowers it unless the queue of the execute bus holds work for
     the units or the front is drained: the fetch unit is complete and nothing else weighs anything. *)
  Lemma tick_front dp d c f xe w cyc x0 :
    FrontI (d + length (x_pend x0)) c f cyc (untag_m (x_m x0)) -> TagOK sq (m_cbus (x_m x0)) -> m_cu (x_m x0) = [] ->
    BIq dp d xe w (x_pend x0) (x_prev x0) x0 -> BusOK cyc (x_ebus x0) -> blen (x_ebus x0) <= 2 ->
    bb_q (m_wbus (x_m x0)) = [] -> blen (m_wbus (x_m x0)) <= 2 ->
    exists x4 lp c' f',
      front3 app ord (cyc + 1) x0 = Ok x4 /\
      BIq d (d + lp) xe w (x_pend x4) (x_prev x4) x4 /\
      FrontI (d + lp + length (x_pend x4)) c' f' (cyc + 1) (untag_m (x_m x4)) /\ TagOK sq (m_cbus (x_m x4)) /\
      m_cu (x_m x4) = [] /\ BusOK (cyc + 1) (x_ebus x4) /\ blen (x_ebus x4) <= 2 /\
      (xe + length (bb_q (x_ebus x4)) <= d)%nat /\
      bb_buf (m_wbus (x_m x4)) = [] /\ qlen (m_wbus (x_m x4)) = blen (m_wbus (x_m x0)) /\
      phiX app x4 <= phiX app x0 /\
      (phiX app x4 < phiX app x0 \/ bb_q (x_ebus x4) <> [] \/
       (f_complete (m_fu (x_m x4)) = true /\ phiX app x4 = phiF (m_fu (x_m x4)))).
  Proof.
    intros GF GT Gcu GB Gbe Geb Gwq Gwb2.
    set (D := (d + length (x_pend x0))%nat) in *.
    (* 1. the four Connect calls *)
    destruct (conn3_okq app base sq D c f cyc x0 GF GT Gbe) as (C1 & CT & CE & C3 & C4 & C5 & C6 & C6' & C7 & D1 & D2 & Cc1 & Cc2 & E1 & E2 & K1 & K2 & K3).
    set (x1 := connected3 x0 (cyc + 1)) in *.
    pose proof (fr_bw _ _ _ _ _ _ _ GF) as HW0. cbn [untag_m set_cbus m_wbus] in HW0.
    destruct (connect_allq cyc (m_wbus (x_m x0)) HW0 Gwq Gwb2) as (Wq1 & Wb1 & _ & _).
    assert (W1q : qlen (m_wbus (x_m x1)) = blen (m_wbus (x_m x0))).
    { unfold qlen, blen, zlen. change (m_wbus (x_m x1)) with (bb_connect (m_wbus (x_m x0)) (cyc + 1)). rewrite Wq1, map_length. reflexivity. }
    assert (W1b : bb_buf (m_wbus (x_m x1)) = []) by exact Wb1.
    assert (Gwq0 : qlen (m_wbus (x_m x0)) = 0) by (unfold qlen; rewrite Gwq; reflexivity).
    assert (HB1 : BIq dp d xe w (x_pend x0) (x_prev x0) x1).
    { eapply BI_ext; [..|exact GB]; try reflexivity; assumption. }
    assert (P01 : phiX app x1 + blen (m_wbus (x_m x0)) <= phiX app x0).
    { unfold phiX. change (x_pend x1) with (x_pend x0). unfold blen at 4. rewrite C5, W1q, W1b, Gwq0.
      change (zlen (@nil (Z * wb6))) with 0. clear - D1 D2 Cc1 Cc2 E1 E2. lia. }
    (* 2. fetch + decode *)
    destruct (fd_ok3q app labels regs0 base sq Happ (len_le32 regs0 Hlen0) Hbase Hsq Hsem D c f cyc x1 C1 CT
                (bq_seq _ _ _ _ _ _ _ _ _ _ _ _ _ HB1) (bq_fwd _ _ _ _ _ _ _ _ _ _ _ _ _ HB1))
      as (fu1 & l1i1 & dbus1 & m3 & c' & f' & Efu & Efd & F3 & T3 & R1 & R2 & R3 & R4 & R5 & R6 & R7 & R8 & R9 & Pfd & Sfd).
    set (x3 := set_m x1 m3) in *.
    assert (HB3 : BIq dp d xe w (x_pend x3) (x_prev x3) x3).
    { eapply BI_ext; [..|exact HB1]; try reflexivity; cbn [x3 x_m set_m]; congruence. }
    assert (Hcu3 : m_cu (x_m x3) = []) by (cbn [x3 x_m set_m]; rewrite R8, C7; exact Gcu).
    assert (HE3 : BusOK (cyc + 1) (x_ebus x3)) by (eapply busok_mono; [|exact CE]; lia).
    assert (P13 : phiX app x3 - phiX app x1 =
                  phiF (m_fu m3) + 10 * blen (m_dbus m3) + 9 * qlen (m_dbus m3) + 8 * blen (m_cbus m3)
                  - (phiF (m_fu (x_m x1)) + 10 * blen (m_dbus (x_m x1)) + 9 * qlen (m_dbus (x_m x1)) + 8 * blen (m_cbus (x_m x1)))).
    { unfold phiX. cbn [x3 x_m x_pend x_ebus set_m]. unfold qlen at 2 6. rewrite R9, R7. ring. }
    (* 3. the control unit *)
    destruct (cu_cycle_okq app labels regs0 mem0 base sq ord Hssa Hrng Hlen0 Hbase Hsem (cyc + 1) dp d xe w c' f' x3 HB3 F3 T3 Hcu3 HE3)
      as (lp & HB4 & F4 & T4 & Hcu4 & HE4 & Q1 & Q2 & Q3 & Q4 & Q5 & Q6 & Hprog & _).
    set (x4 := cu_cycle3 ord (cyc + 1) x3) in *.
    pose proof (BIq_flat_len _ _ _ _ _ _ _ HB3) as L3. pose proof (BIq_flat_len _ _ _ _ _ _ _ HB4) as L4.
    pose proof (BIq_wflat_len _ _ _ _ _ _ _ GB) as LW0.
    pose proof (bq_ord _ _ _ _ _ _ _ _ _ _ _ _ _ GB) as [Hord0 Hord0'].
    destruct (front_cl_lenq app base _ _ _ _ _ F3 Hcu3) as [N3 N3'].
    destruct (front_cl_lenq app base _ _ _ _ _ F4 Hcu4) as [N4 N4'].
    change (x_ebus x3) with (x_ebus x1) in *. change (x_m x3) with m3 in *. change (x_pend x3) with (x_pend x0) in *. fold D in N3, N3'.
    assert (Y3b : blen (m_cbus (x_m x4)) = blen (m_cbus m3)) by (unfold blen, x4; rewrite cu_cycle3_cbuf; reflexivity).
    pose proof (blen_ge0 (x_ebus x1)) as Gbe1. pose proof (qlen_ge0 (x_ebus x0)) as Gqe0.
    assert (P34 : phiX app x4 + 2 * Z.of_nat lp = phiX app x3).
    { unfold phiX. change (x_ebus x3) with (x_ebus x1). change (x_m x3) with m3. change (x_pend x3) with (x_pend x0).
      rewrite Q1, Q2, Q4, Q5, Y3b. unfold zlen at 1 2. clear - N3 N3' N4 N4' L3 L4 Q1 Y3b Hord0' Gbe1. lia. }
    exists x4, lp, c', f'.
    split; [exact (front3_okq x0 (cyc + 1) x3 fu1 l1i1 dbus1 Efu Efd)|].
    split; [exact HB4|]. split; [exact F4|]. split; [exact T4|]. split; [exact Hcu4|]. split; [exact HE4|].
    split.
    { apply (mvp63_dispatch_width ord (cyc + 1) x3); unfold ebus_ok; change (x_ebus x3) with (x_ebus x1);
        rewrite (bus_bl _ _ HE3); [reflexivity|]. fold (blen (x_ebus x1)). clear - E1 E2 Geb Gqe0. lia. }
    split; [unfold qlen, zlen in Q1, L3; clear - Q1 L3 Gbe1 Hord0'; lia|].
    split; [rewrite Q2, R7; exact W1b|].
    split; [rewrite Q2, R7; exact W1q|].
    pose proof (blen_ge0 (m_wbus (x_m x0))) as Gbw0.
    split; [clear - P01 P13 P34 Pfd Gbw0; lia|].
    (* progress *)
    destruct (Z.eq_dec (blen (m_wbus (x_m x0))) 0) as [Wz|Wnz]; [|left; clear - P01 P13 P34 Pfd Gbw0 Wnz; lia].
    destruct (Nat.eq_dec lp 0) as [Hlpz|Hlpz]; [|left; clear - P01 P13 P34 Pfd Gbw0 Hlpz; lia].
    destruct Sfd as [Hs|[Hfu Hdu]]; [left; clear - P01 P13 P34 Hs Gbw0; lia|].
    destruct (bb_q (x_ebus x4)) as [|r4 q4] eqn:Eq4; [|right; left; discriminate].
    right. right.
    assert (Eq0 : qlen (x_ebus x1) = 0) by (rewrite <- Q1; unfold qlen; rewrite Eq4; reflexivity).
    assert (Eb0 : blen (x_ebus x1) = 0) by (clear - K3 Eq0; lia).
    assert (Hxd : xe = d) by (clear - L3 Eq0 Eb0 Hord0'; lia).
    assert (Hwd : w = d) by (clear - Hxd LW0 Gwq0 Wz Hord0; lia).
    assert (Hpq : x_pend x0 = [] /\ bb_q (m_cbus m3) = []).
    { pose proof (Hprog (flat_nil _ Eq0 Eb0) Hwd) as Hp. rewrite Hlpz in Hp.
      destruct (x_pend x0) as [|p0 pt]; [destruct (bb_q (m_cbus m3)) as [|c0 ct]; [auto|]|]; exfalso.
      - specialize (Hp ltac:(right; discriminate)). lia.
      - specialize (Hp ltac:(left; discriminate)). lia. }
    destruct Hpq as [Hp0 Hcq0].
    assert (Cq0 : qlen (m_cbus (x_m x1)) = 0) by (unfold qlen; rewrite <- R9, Hcq0; reflexivity).
    assert (Cb0 : blen (m_cbus (x_m x1)) = 0) by (clear - K2 Cq0; lia).
    destruct (front_cl_lenq app base _ _ _ _ _ C1 ltac:(rewrite C7; exact Gcu)) as [N1 N1'].
    assert (Hdc : d = Nat.min c n).
    { unfold D in N1, N1'. rewrite Hp0 in N1, N1'. cbn [length] in N1, N1'. fold n in N1, N1'. clear - N1 N1' Cq0 Cb0. lia. }
    pose proof (bq_xeN _ _ _ _ _ _ _ _ _ _ _ _ _ GB) as HxN. fold N in HxN.
    assert (Hdq : bb_q (m_dbus (x_m x1)) = []).
    { destruct Hdu as [Hdr|[Hdp|Hdq]]; [| |exact Hdq]; exfalso.
      - destruct (fr_dret_t _ _ _ _ _ _ _ C1 Hdr) as (HNn & Hc & _). fold n N in HNn, Hc. clear - HNn Hc Hdc HxN Hxd. lia.
      - destruct (fr_dpbr_t _ _ _ _ _ _ _ C1 Hdp) as (HNn & Hc & _). fold n N in HNn, Hc. clear - HNn Hc Hdc HxN Hxd. lia. }
    assert (Dq0 : qlen (m_dbus (x_m x1)) = 0) by (unfold qlen; rewrite Hdq; reflexivity).
    assert (Db0 : blen (m_dbus (x_m x1)) = 0) by (clear - K1 Dq0; lia).
    destruct Hfu as [(Hco & Hfu & Hcomp)|[_ Hnadd]].
    2:{ exfalso. unfold bb_canadd in Hnadd. fold (blen (m_dbus (x_m x1))) in Hnadd.
        pose proof (fr_bsd _ _ _ _ _ _ _ C1) as Hbsd. cbn [untag_m set_cbus m_dbus] in Hbsd. rewrite Db0, (bus_bl _ _ Hbsd) in Hnadd. discriminate. }
    split.
    - rewrite Q4, Hcomp, C5. destruct (f_complete (m_fu (x_m x0))) eqn:Ec; [reflexivity|].
      pose proof (fr_fetch _ _ _ _ _ _ _ GF) as Hft. cbn [untag_m set_cbus m_fu m_l1i] in Hft.
      destruct (fi_nc _ _ _ _ Hft Ec) as [_ Hx]. rewrite C5 in Hco. contradiction.
    - (* everything but the fetch unit weighed nothing already, and the fetch unit has kept its weight *)
      assert (P0 : phiX app x0 = phiF (m_fu (x_m x0))).
      { unfold phiX. rewrite Hp0, Gwq0, Wz. change (zlen (@nil runner3)) with 0.
        pose proof (blen_ge0 (m_dbus (x_m x0))). pose proof (qlen_ge0 (m_dbus (x_m x0))).
        pose proof (blen_ge0 (m_cbus (x_m x0))). pose proof (qlen_ge0 (m_cbus (x_m x0))). pose proof (blen_ge0 (x_ebus x0)).
        clear - D1 Cc1 E1 Dq0 Db0 Cq0 Cb0 Eq0 Eb0 Gqe0 H H0 H1 H2 H3. lia. }
      rewrite Q4, Hfu, C5.
      assert (P4 : phiF (m_fu (x_m x0)) <= phiX app x4).
      { unfold phiX. rewrite Q4, Hfu, C5.
        pose proof (blen_ge0 (m_dbus (x_m x4))). pose proof (qlen_ge0 (m_dbus (x_m x4))).
        pose proof (blen_ge0 (m_cbus (x_m x4))). pose proof (qlen_ge0 (m_cbus (x_m x4))). pose proof (zlen_nonneg (x_pend x4)).
        pose proof (blen_ge0 (x_ebus x4)). pose proof (qlen_ge0 (x_ebus x4)).
        pose proof (blen_ge0 (m_wbus (x_m x4))). pose proof (qlen_ge0 (m_wbus (x_m x4))).
        clear - H H0 H1 H2 H3 H4 H5 H6 H7. lia. }
      clear - P0 P4 P01 P13 P34 Pfd Gbw0. lia.
  Qed.

  (* the write units have emptied the queue of the write bus *)
  Lemma wus_all x5 x6 cy (wus : list wu6) : WuFrame3 x5 x6 ->
    bb_q (m_wbus (x_m x6)) = skipn (length wus) (bb_q (m_wbus (x_m x5))) -> (length (bb_q (m_wbus (x_m x5))) <= length wus)%nat ->
    BusOK cy (m_wbus (x_m x5)) -> bb_q (m_wbus (x_m x6)) = [] /\ BusOK cy (m_wbus (x_m x6)).
  Proof.
    intros WF Hq Hle HW. assert (Hq' : bb_q (m_wbus (x_m x6)) = []) by (rewrite Hq; apply skipn_all2; exact Hle).
    split; [exact Hq'|]. eapply BusOK_frame; [exact (w3_wbuf _ _ WF) | exact (w3_wql _ _ WF) | exact (w3_wbl _ _ WF) | | exact HW].
    unfold qlen. rewrite Hq'. apply zlen_nonneg.
  Qed.

  (* a drained pipeline *)
  Lemma quiet_empty x eus wus : f_complete (m_fu (x_m x)) = true -> phiX app x <= phiF (m_fu (x_m x)) ->
    Forall EuIdle eus -> Forall (fun u => u_co u = WNone) wus -> is_empty3 x eus wus = true.
  Proof.
    intros Hc Hp He Hw.
    (* rewriting, not unfolding: the kernel is slow to convert a hypothesis about phiX to one about the sum *)
    assert (E : phiX app x = phiF (m_fu (x_m x)) + 10 * blen (m_dbus (x_m x)) + 9 * qlen (m_dbus (x_m x)) + 8 * blen (m_cbus (x_m x))
                + 7 * qlen (m_cbus (x_m x)) + 7 * zlen (x_pend x) + 5 * blen (x_ebus x) + 4 * qlen (x_ebus x)
                + 2 * blen (m_wbus (x_m x)) + qlen (m_wbus (x_m x))) by reflexivity.
    rewrite E in Hp. clear E.
    pose proof (blen_ge0 (m_dbus (x_m x))). pose proof (qlen_ge0 (m_dbus (x_m x))).
    pose proof (blen_ge0 (m_cbus (x_m x))). pose proof (qlen_ge0 (m_cbus (x_m x))). pose proof (zlen_nonneg (x_pend x)).
    pose proof (blen_ge0 (x_ebus x)). pose proof (qlen_ge0 (x_ebus x)).
    pose proof (blen_ge0 (m_wbus (x_m x))). pose proof (qlen_ge0 (m_wbus (x_m x))).
    unfold is_empty3. rewrite Hc, (wus_empty3 _ Hw), (eus_empty3 _ He).
    rewrite (isempty_intro (m_dbus (x_m x))), (isempty_intro (m_cbus (x_m x))), (isempty_intro (x_ebus x)), (isempty_intro (m_wbus (x_m x))) by lia.
    replace (zlen (x_pend x)) with 0 by lia. reflexivity.
  Qed.

  Lemma step_normal3q dp d c f xe w s : G3q dp d c f xe w s ->
    (exists s' dp' d' c' f' xe' w', step3 app labels ord s = TCont s' /\ G3q dp' d' c' f' xe' w' s' /\
                                    phiX app (t_x s') < phiX app (t_x s)) \/
    (exists r, step3 app labels ord s = TDone r false /\ Fin3q r) \/
    (exists s' w', step3 app labels ord s = TCont s' /\ GR3q w' s') \/
    (exists s' w' E t sqx, step3 app labels ord s = TCont s' /\ GF3 w' E t sqx s').
  Proof.
    intros [GF GT Gcu GB Gbe Geb Ge Gst Gw Gwne Glen Gwq Gwb Gwb2 Gmode].
    set (x0 := t_x s) in *. set (cyc := t_cycle s) in *. set (eus := t_eus s) in *. set (wus := t_wus s) in *.
    assert (GEne : eus <> []) by (intros E; apply Gwne; destruct wus; [reflexivity | rewrite E in Glen; discriminate]).
    destruct (tick_front dp d c f xe w cyc x0 GF GT Gcu GB Gbe Geb Gwq Gwb2)
      as (x4 & lp & c' & f' & Efront & HB4 & F4 & T4 & Hcu4 & HE4 & Hbe4 & Hlqd & Hwb4 & Hwq4 & Ple & Plt).
    pose proof (fr_bw _ _ _ _ _ _ _ F4) as HW4. cbn [untag_m set_cbus m_wbus] in HW4.
    pose proof (fr_btb _ _ _ _ _ _ _ F4) as Hbtb4. cbn [untag_m set_cbus m_bu] in Hbtb4.
    pose proof (front_dN app labels regs0 base (len_le32 regs0 Hlen0) Hbase Hsem _ _ _ _ _ F4) as HdN4.
    set (nw := length (bb_q (m_wbus (x_m x4)))).
    assert (Hnwle : (nw <= length wus)%nat) by (unfold qlen, zlen in Hwq4; fold nw in Hwq4; clear - Hwq4 Gwb; lia).
    set (lq := length (bb_q (x_ebus x4))) in *.
    assert (Hlq2 : (lq <= 2)%nat) by (pose proof (bus_q _ _ HE4) as Hx; unfold qlen, zlen in Hx; fold lq in Hx; clear - Hx; lia).
    assert (Hb4 : blen (m_wbus (x_m x4)) = 0) by (unfold blen; rewrite Hwb4; reflexivity).
    (* the execute units *)
    destruct (IE eus_main_q (cyc + 1) d (d + lp)%nat w (x_pend x4) (x_prev x4) eus x4 xe Ge Gst HB4 Hlqd
                 (proj1 HdN4) Hbtb4 HW4 HE4 ltac:(fold lq; rewrite Hb4; clear - Hlq2; lia))
      as (x5 & eus' & o & Ee & A1 & A2 & Hout).
    fold lq in Hout.
    assert (Hstep : step3 app labels ord s = back3 ord s (cyc + 1) (x5, eus', o)).
    { unfold step3. rewrite Gmode. fold x0 cyc eus wus. rewrite Efront. cbn [res_of3]. change yo_none with (acc_of false). rewrite Ee.
      cbn [res_of3 orb]. rewrite or_os_false. reflexivity. }
    rewrite Hstep. clear Hstep.
    destruct Hout as [(Ho & [P1 HB5 EF5 Hq5 HW5 Hbuf5])|[(Ho & j & R1' & R2' & R3' & R4' & R5' & HB5 & EF5 & Hq5 & HW5 & Hbuf5 & Hjlt)|
                      (j & t & sqx & Ho & HF5 & FF5 & Hst5 & HW5 & Hbl5)]]; subst o.
    - (* j instructions were executed, nothing reported *)
      set (j := Nat.min (length eus) lq) in *.
      assert (Hjq : (j <= lq)%nat) by apply Nat.le_min_r. assert (Hje : (j <= length eus)%nat) by apply Nat.le_min_l.
      assert (Hb5 : blen (m_wbus (x_m x5)) = blen (m_wbus (x_m x4)) + Z.of_nat j).
      { unfold blen. rewrite Hbuf5, zlen_app. unfold zlen at 2. rewrite map_length, seq_length. reflexivity. }
      unfold back3. cbn [y_err y_flush y_ret].
      destruct (IE wus_ok3q d (d + lp)%nat (xe + j)%nat (x_pend x4) (x_prev x4) wus x5 w Gw HB5) as (x6 & Ew & HB6 & WF6 & Hq6).
      fold wus. rewrite Ew. cbn [res_of3].
      (* the write units take everything *)
      destruct (wus_all x5 x6 (cyc + 1) wus WF6 Hq6 ltac:(rewrite (e3_wq _ _ EF5); exact Hnwle) HW5) as [Hq6' HW6].
      rewrite (e3_wq _ _ EF5) in HB6. fold nw in HB6. replace (Nat.min (length wus) nw) with nw in HB6 by (clear - Hnwle; lia).
      assert (Ypend : x_pend x6 = x_pend x4) by (rewrite (w3_pend _ _ WF6), (e3_pend _ _ EF5); reflexivity).
      assert (Yprev : x_prev x6 = x_prev x4) by (rewrite (w3_prev _ _ WF6), (e3_prev _ _ EF5); reflexivity).
      assert (Y7 : blen (m_wbus (x_m x6)) = Z.of_nat j) by (unfold blen; rewrite (w3_wbuf _ _ WF6); fold (blen (m_wbus (x_m x5))); rewrite Hb5, Hb4; reflexivity).
      assert (HF6 : FrontI (d + lp + length (x_pend x6)) c' f' (cyc + 1) (untag_m (x_m x6))).
      { rewrite Ypend. destruct EF5, WF6. apply (FrontI_frameq app base _ _ _ _ (x_m x4) (x_m x6) F4); [congruence..|exact HW6]. }
      assert (HT6 : TagOK sq (m_cbus (x_m x6))) by (rewrite (w3_cbus _ _ WF6), (e3_cbus _ _ EF5); exact T4).
      assert (HB6' : BIq d (d + lp) (xe + j) (w + nw) (x_pend x6) (x_prev x6) x6) by (rewrite Ypend, Yprev; exact HB6).
      assert (Hcu6 : m_cu (x_m x6) = []) by (rewrite (w3_cu _ _ WF6), (e3_cu _ _ EF5); exact Hcu4).
      assert (Heb65 : x_ebus x6 = x_ebus x5) by exact (w3_ebus _ _ WF6).
      assert (HE6 : BusOK (cyc + 1) (x_ebus x6)).
      { rewrite Heb65. eapply BusOK_frame; [exact (e3_ebuf _ _ EF5) | exact (e3_eql _ _ EF5) | exact (e3_ebl _ _ EF5) | | exact HE4].
        unfold qlen, zlen. rewrite Hq5, skipn_length. lia. }
      pose proof (phiX_back app x4 x5 x6 j EF5 WF6 Hq5 Hjq Hb5 Hq6') as P46.
      pose proof (qlen_ge0 (m_wbus (x_m x4))) as Gqw4.
      destruct (is_empty3 x6 eus' wus) eqn:Eemp.
      + (* Run returns *)
        right. left. rewrite (bq_os _ _ _ _ _ _ _ _ _ _ _ _ _ HB6'). eexists. split; [reflexivity|].
        apply (is_empty3_idle x6 eus' wus A1 Gw) in Eemp. destruct Eemp as (Eemp & Hpe & Hfd & Hfc & Hfe & Hfw).
        pose proof (fr_dbus _ _ _ _ _ _ _ HF6) as Hdb. cbn [untag_m set_cbus m_dbus] in Hdb. rewrite Hfd in Hdb. symmetry in Hdb. apply map_eq_nil in Hdb.
        apply (f_equal (@length nat)) in Hdb. rewrite seq_length in Hdb. cbn [length] in Hdb.
        destruct (front_cl_lenq app base _ _ _ _ _ HF6 Hcu6) as [Hcl Hdc6].
        rewrite <- flat_len, Hfc in Hcl. change (zlen (@nil runner)) with 0 in Hcl.
        pose proof (fr_fetch _ _ _ _ _ _ _ HF6) as Hft6. cbn [untag_m set_cbus m_fu m_l1i] in Hft6.
        destruct (fi_c _ _ _ _ Hft6 Eemp) as (_ & HfM & _).
        pose proof (fr_cf _ _ _ _ _ _ _ HF6) as Hcf6.
        rewrite Hpe in Hcl, Hdc6, HB6'. cbn [length] in Hcl, Hdc6. fold n in Hcl, Hdc6.
        assert (Hd'n : (d + lp)%nat = n) by (clear - Hcl Hdc6 Hdb Hcf6 HfM; fold n in HfM; lia).
        pose proof (BIq_flat_len _ _ _ _ _ _ _ HB6') as L6.
        assert (Hxe : (xe + j)%nat = (d + lp)%nat).
        { pose proof (qlen_ge0 (x_ebus x6)) as Hg1. pose proof (blen_ge0 (x_ebus x6)) as Hg2.
          assert (Hz : zlen (flat (x_ebus x6)) = 0) by (rewrite Hfe; reflexivity). rewrite flat_len in Hz.
          pose proof (bq_ord _ _ _ _ _ _ _ _ _ _ _ _ _ HB6') as [_ Ho6]. clear - Hz L6 Ho6 Hg1 Hg2. lia. }
        assert (Hw6 : (w + nw)%nat = (xe + j)%nat) by (eapply wbus_nil_wq; [exact HB6' | exact Hfw]).
        rewrite Hw6, Hxe, Hd'n in HB6'.
        apply (fin_endq d [] (x_prev x6) x6 (cyc + 1) HB6').
      + (* the loop goes on *)
        left. eexists _, d, (d + lp)%nat, c', f', (xe + j)%nat, (w + nw)%nat. split; [reflexivity|]. split.
        * constructor; cbn [t_x t_eus t_wus t_cycle t_mode].
          -- exact HF6.
          -- exact HT6.
          -- exact Hcu6.
          -- exact HB6'.
          -- exact HE6.
          -- rewrite Heb65. unfold blen. rewrite (e3_ebuf _ _ EF5). exact Hbe4.
          -- exact A1.
          -- exact P1.
          -- exact Gw.
          -- exact Gwne.
          -- congruence.
          -- exact Hq6'.
          -- rewrite Y7. clear - Hje Glen. lia.
          -- rewrite Y7. clear - Hjq Hlq2. lia.
          -- reflexivity.
        * cbn [t_x]. fold x0. destruct Plt as [Plt|[Plt|[Hc4 Pq]]].
          -- clear - P46 Ple Plt Gqw4. lia.
          -- assert (0 < j)%nat; [|clear - P46 Ple Gqw4 H; lia].
             unfold j. destruct eus; [contradiction|]. unfold lq. destruct (bb_q (x_ebus x4)); [contradiction|]. cbn [length Nat.min]. lia.
          -- exfalso. rewrite (quiet_empty x6 eus' wus) in Eemp; [discriminate | | | exact A1 | exact Gw].
             ++ rewrite (w3_fu _ _ WF6), (e3_fu _ _ EF5). exact Hc4.
             ++ rewrite (w3_fu _ _ WF6), (e3_fu _ _ EF5), <- Pq. clear - P46 Gqw4. lia.
    - (* the ret has been executed: the drain loop is entered *)
      unfold back3. cbn [y_err y_flush y_ret].
      rewrite R5' in *.
      destruct (IE wus_ok3q d N N [] [] wus x5 w Gw HB5) as (x6 & Ew & HB6 & WF6 & Hq6).
      fold wus. rewrite Ew. cbn [res_of3].
      destruct (wus_all x5 x6 (cyc + 1) wus WF6 Hq6 ltac:(rewrite (e3_wq _ _ EF5); exact Hnwle) HW5) as [Hq6' HW6].
      assert (Hb6 : blen (m_wbus (x_m x6)) <= 2).
      { unfold blen. rewrite (w3_wbuf _ _ WF6), Hbuf5, zlen_app. fold (blen (m_wbus (x_m x4))). rewrite Hb4. unfold zlen. rewrite map_length, seq_length.
        clear - Hjlt Hlq2. lia. }
      destruct (ret_tail3q d _ (cyc + 1) x6 eus' wus HB6 A1 Gw Gwne (conj R3' R4') ltac:(left; split; [exact Hq6' | exact Hb6]) HW6)
        as [(E & G2 & _)|(r0 & E & HFin)].
      + right. right. left. eexists _, _. split; [exact E | exact G2].
      + right. left. exists r0. split; [exact E | exact HFin].
    - (* instruction E = xe + j has asked for a flush *)
      set (E := (xe + j)%nat) in *.
      unfold back3. cbn [y_err y_flush y_ret y_seq y_pc].
      destruct (IE wus_okf E t sqx wus x5 w Gw HF5) as (x6 & Ew & HF6 & WF6 & Hq6).
      fold wus. rewrite Ew. cbn [res_of3].
      destruct (wus_all x5 x6 (cyc + 1) wus WF6 Hq6 ltac:(rewrite (ff_wq _ _ FF5); exact Hnwle) HW5) as [Hq6' HW6].
      assert (Hb6 : blen (m_wbus (x_m x6)) <= 2).
      { unfold blen. rewrite (w3_wbuf _ _ WF6). fold (blen (m_wbus (x_m x5))). rewrite Hb4 in Hbl5.
        pose proof (Nat.le_min_r (length eus) lq). clear - Hbl5 Hlq2 H. lia. }
      set (w' := (w + Nat.min (length wus) (length (bb_q (m_wbus (x_m x5)))))%nat) in *.
      right. right. right. eexists _, w', E, t, sqx. split; [reflexivity|].
      destruct HF6 as [G1 G2 G3 (j0 & junk & Gj & Gq & Gb & Gjk) G5 G6 G7 G8 G9 G10 G11 G12 G13].
      pose proof (fr_fetch _ _ _ _ _ _ _ F4) as Hft4. cbn [untag_m set_cbus m_fu m_l1i] in Hft4.
      pose proof (fr_bsd _ _ _ _ _ _ _ F4) as Hbsd4. cbn [untag_m set_cbus m_dbus] in Hbsd4.
      pose proof (fr_bc _ _ _ _ _ _ _ F4) as Hbc4. cbn [untag_m set_cbus m_cbus] in Hbc4.
      pose proof (fr_be _ _ _ _ _ _ _ F4) as Hbe4'. cbn [untag_m set_cbus m_ebus] in Hbe4'.
      constructor; cbn [t_x t_eus t_wus t_cycle t_mode]; try assumption.
      + exists junk. split; [|exact Gjk]. unfold flat. rewrite Gq, Gb, app_assoc. f_equal.
        rewrite seq_join. f_equal. f_equal. clear - Gj. lia.
      + rewrite (w3_l1i _ _ WF6), (ff_l1i _ _ FF5). exact (fi_l1 _ _ _ _ Hft4).
      + rewrite (w3_ebus _ _ WF6), (ff_eql _ _ FF5), (ff_ebl _ _ FF5). split; [apply (bus_ql _ _ HE4) | apply (bus_bl _ _ HE4)].
      + rewrite (w3_dbus _ _ WF6), (w3_cbus _ _ WF6), (w3_mebus _ _ WF6), (ff_dbus _ _ FF5), (ff_cbus _ _ FF5), (ff_mebus _ _ FF5).
        split; [apply (bus_ql _ _ Hbsd4)|]. split; [apply (bus_bl _ _ Hbsd4)|].
        split; [apply (bus_ql _ _ Hbc4)|]. split; [apply (bus_bl _ _ Hbc4)|].
        split; [apply (bus_ql _ _ Hbe4') | apply (bus_bl _ _ Hbe4')].
      + apply idle_setseq. exact A1.
      + apply stale_setseq. exact Hst5.
      + rewrite map_length. congruence.
      + left. exists (cyc + 1). split; [reflexivity|]. split; [exact Hq6' | exact Hb6].
  Qed.
End FwdStep.

Print Assumptions step_ret3q.
Print Assumptions step_normal3q.
