(* The invariant of the MVP-4 skeleton (Mvp4Skel.v) and basic facts about
   instructions that neither load nor store. *)
From Coq Require Import ZArith List Bool Lia.
From Maj Require Import Base.Outcome Base.GoInt Base.GoTypes Isa.Spec Isa.Embed Isa.Seq Isa.Refine.
From Maj Require Import Gen.Latency Gen.RiscTables Gen.Opcodes Comp.Cache.
From Maj Require Import Mvp.Mvp12 Mvp.Mvp12Proofs Mvp.Mvp3 Mvp.Mvp3Proofs Mvp.Mvp4 Mvp.Mvp4Skel.
Import ListNotations.
Open Scope Z_scope.

(* ------------------------------------------------------------------ *)
(* instructions                                                         *)

Definition Cmax : Z := 50.

Lemma cyc_of_bounds i : 1 <= cyc_of i <= Cmax.
Proof. destruct i; vm_compute; split; discriminate. Qed.

Lemma nomem_no_read i rr seq : nomem i = true -> instr_MemoryRead i rr seq = [].
Proof. destruct i; try reflexivity; intros H; vm_compute in H; discriminate H. Qed.

Lemma nomem_load_addrs i rr : nomem i = true -> load_addrs (sinstr_of i) rr = [].
Proof. intros H. rewrite <- (memory_read_exact i rr 0). apply nomem_no_read; assumption. Qed.

Lemma nomem_mem_ok i : nomem i = true -> mem_ok (sinstr_of i) [].
Proof. destruct i; try (intros _; split; [constructor | exact I]); intros H; vm_compute in H; discriminate H. Qed.

Lemma nomem_no_store i rr labels pc m bs : nomem i = true -> exec (sinstr_of i) rr labels pc m <> Ok (EStore bs).
Proof.
  destruct i; try (intros H; vm_compute in H; discriminate H); intros _; cbn [sinstr_of exec]; unfold branch;
    repeat match goal with
           | |- context [if ?c then _ else _] => destruct c
           | |- context [match labels ?l with Some _ => _ | None => _ end] => destruct (labels l)
           end; discriminate.
Qed.

Lemma write_regs_length i : (length (instr_WriteRegisters i) <= 1)%nat.
Proof. destruct i; cbn; lia. Qed.

Definition uncond (i : instr) : bool := InstructionType_IsUnconditionalBranch (instr_InstructionType i).
Definition condbr (i : instr) : bool := InstructionType_IsConditionalBranch (instr_InstructionType i).

(* which instructions can change the pc, and how the branch unit classifies them *)
Lemma exec_branch_class i rr labels pc m e :
  exec (sinstr_of i) rr labels pc m = Ok e ->
  match e with
  | EReg _ _ | EFall => uncond i = false
  | EGoto _ => uncond i = true \/ (uncond i = false /\ condbr i = true)
  | ELink _ _ _ => uncond i = true
  | _ => True
  end.
Proof.
  intros H. destruct i; cbn [sinstr_of exec] in H; unfold branch in H;
    repeat match type of H with
           | context [if ?c then _ else _] => destruct c
           | context [match labels ?l with Some _ => _ | None => _ end] => destruct (labels l)
           end; try discriminate; injection H as <-; try exact I; try reflexivity;
    solve [left; reflexivity | right; split; reflexivity].
Qed.

Lemma exec_return_is_ret i rr labels pc m e :
  exec (sinstr_of i) rr labels pc m = Ok e -> (e = EReturn <-> is_ret i = true).
Proof. intros H. exact (proj1 (wb_cost_instr _ _ _ _ _ _ H)). Qed.

(* ------------------------------------------------------------------ *)
(* the in-flight queue of the front end                                 *)

Definition olist {A} (o : option A) : list A := match o with Some x => [x] | None => [] end.
Definition q_sb {A} (b : sbus A) : list A := olist (sb_current b) ++ olist (sb_pending b).
Definition q_eu (e : eu_t) : list (instr * Z) := if eu_processing e then olist (eu_runner e) else [].
Definition q_parts (e : eu_t) (ebus : sbus (instr * Z)) (dbus : sbus Z) : list Z :=
  map snd (q_eu e) ++ map snd (q_sb ebus) ++ q_sb dbus.
Definition qlist (a : sk) : list Z := q_parts (k_eu a) (k_ebus a) (k_dbus a).

Definition consec4 (h : Z) (n : nat) : list Z := map (fun j => h + 4 * Z.of_nat j) (seq 0 n).

Definition entry_ok (app : list instr) (x : instr * Z) : Prop :=
  0 <= snd x /\ nth_error app (Z.to_nat (snd x / 4)) = Some (fst x).

Definition pwof (wb : option (list Z)) : list Z :=
  match wb with Some wr => pw_add zero_pw wr | None => zero_pw end.

(* the part of the invariant that speaks about the queue of length n starting at
   [head] and the fetch unit *)
Record FQ (app : list instr) (head : Z) (n : nat) (q : list Z) (f : fu_t) : Prop := mkFQ {
  q_eq : q = consec4 head n;
  q_pc : fu_complete f = false -> fu_pc f = head + 4 * Z.of_nat n;
  q_end : fu_complete f = true -> nlen app <= (head + 4 * Z.of_nat n) / 4;
  q_in2 : (2 <= n)%nat -> (head + 4 * (Z.of_nat n - 2)) / 4 < nlen app;
  q_in1 : (1 <= n)%nat -> fu_complete f = false -> (head + 4 * (Z.of_nat n - 1)) / 4 < nlen app }.

Record FInv (app : list instr) (head : Z) (a : sk) : Prop := mkF {
  f_head : 0 <= head < 2147483644;
  f_q : exists n, FQ app head n (qlist a) (k_fu a);
  f_ent : Forall (entry_ok app) (q_eu (k_eu a) ++ q_sb (k_ebus a));
  f_fu : fu_processing (k_fu a) = true -> 1 <= fu_remaining (k_fu a) <= MemoryAccess;
  f_eu : eu_processing (k_eu a) = true -> 1 <= eu_remaining (k_eu a) <= Cmax /\ eu_runner (k_eu a) <> None;
  f_pr : eu_pending_read (k_eu a) = false;
  f_l1i : IInv (k_l1i a);
  f_pw : k_pw a = pwof (k_wb a);
  f_wb : forall wr, k_wb a = Some wr -> (length wr <= 1)%nat }.

(* what a path must look like for the skeleton (no values involved): every pc
   but the last is the pc of a non-ret instruction, the last one is a ret or
   lies outside the text; all are in [0, 2^31 - 4) *)
Fixpoint path_wf (app : list instr) (path : list Z) : Prop :=
  match path with
  | [] => False
  | pc :: rest =>
      0 <= pc < 2147483644 /\
      match rest with
      | [] => match nth_error app (Z.to_nat (pc / 4)) with Some i => is_ret i = true | None => True end
      | _ :: _ => (exists i, nth_error app (Z.to_nat (pc / 4)) = Some i /\ is_ret i = false) /\ path_wf app rest
      end
  end.

(* ------------------------------------------------------------------ *)
(* consec4                                                              *)

Lemma consec4_length h n : length (consec4 h n) = n.
Proof. unfold consec4. rewrite map_length, seq_length. reflexivity. Qed.

Lemma consec4_S h n : consec4 h (S n) = h :: consec4 (h + 4) n.
Proof.
  unfold consec4. cbn [seq map]. rewrite <- seq_shift, map_map. f_equal; [lia|].
  apply map_ext. intros j. lia.
Qed.

Lemma consec4_snoc h n : consec4 h (S n) = consec4 h n ++ [h + 4 * Z.of_nat n].
Proof. unfold consec4. rewrite seq_S, map_app. reflexivity. Qed.

Lemma consec4_app h n m : consec4 h (n + m) = consec4 h n ++ consec4 (h + 4 * Z.of_nat n) m.
Proof.
  revert h. induction n as [|n IH]; intros h.
  - replace (h + 4 * Z.of_nat 0) with h by lia. reflexivity.
  - cbn [Nat.add]. rewrite !consec4_S, IH. cbn [app].
    replace (h + 4 * Z.of_nat (S n)) with (h + 4 + 4 * Z.of_nat n) by lia. reflexivity.
Qed.

Lemma consec4_in h n p : In p (consec4 h n) -> h <= p /\ p <= h + 4 * (Z.of_nat n - 1).
Proof.
  unfold consec4. intros H. apply in_map_iff in H as (j & <- & Hj). apply in_seq in Hj. lia.
Qed.

Lemma consec4_nonneg h n p : 0 <= h -> In p (consec4 h n) -> 0 <= p.
Proof. intros Hh Hp. apply consec4_in in Hp. lia. Qed.

Lemma consec4_nth head k j : (j < k)%nat -> In (head + 4 * Z.of_nat j) (consec4 head k).
Proof. intros H. unfold consec4. apply in_map_iff. exists j. split; [reflexivity|]. apply in_seq. lia. Qed.

Lemma app_inj_len {A} (a c b d : list A) : length a = length c -> a ++ b = c ++ d -> a = c /\ b = d.
Proof.
  revert c. induction a as [|x a IH]; intros [|y c] Hl H; cbn in *; try discriminate; auto.
  injection H as -> H. destruct (IH c ltac:(lia) H) as [-> ->]. auto.
Qed.

Lemma cons_inj {A} (x y : A) l m : x :: l = y :: m -> x = y /\ l = m.
Proof. intros H. inversion H. auto. Qed.

(* splitting a consecutive list at a known prefix *)
Lemma consec4_split l1 l2 h n : l1 ++ l2 = consec4 h n ->
  l1 = consec4 h (length l1) /\ l2 = consec4 (h + 4 * Z.of_nat (length l1)) (length l2) /\ n = (length l1 + length l2)%nat.
Proof.
  intros H. assert (Hn : n = (length l1 + length l2)%nat).
  { apply (f_equal (@length Z)) in H. rewrite app_length, consec4_length in H. lia. }
  subst n. rewrite consec4_app in H. apply app_inj_len in H as [H1 H2]; [|rewrite consec4_length; reflexivity].
  auto.
Qed.
