(* Refinement of MVP-6.0 to the sequential machine on register-only programs: the program
   class, where the decode unit stops, the flat view of the buffered buses, and elementary
   facts about the buses and the scoreboard operations. *)
From Coq Require Import ZArith List Bool Lia Permutation.
From Maj Require Export Comp.MapFacts.
From Maj Require Import Base.Outcome Base.GoInt Base.GoTypes Isa.Spec Isa.Embed Isa.Seq Isa.Refine.
From Maj Require Import Gen.Latency Gen.RiscTables Gen.Opcodes Comp.Cache.
From Maj Require Import Mvp.Mvp12 Mvp.Mvp12Proofs Mvp.Mvp3 Mvp.Mvp3Proofs Mvp.Mvp4Skel Mvp.Mvp5 Mvp.Mvp60 Mvp.Mvp60RefSem.
Import ListNotations.
Open Scope Z_scope.

(* no branch and no jump in the text (ret is neither) *)
Definition nobranch (i : instr) : bool := negb (InstructionType_IsBranch (instr_InstructionType i)).
Definition straight (app : list instr) : bool := forallb nobranch app.

Lemma is_ret_type i : (instr_InstructionType i =? Ret) = is_ret i.
Proof. destruct i; reflexivity. Qed.

Lemma is_ret_regs i : is_ret i = true -> instr_ReadRegisters i = [] /\ instr_WriteRegisters i = [].
Proof. destruct i; try discriminate. auto. Qed.

Lemma is_ret_exec i rr labels pc m : is_ret i = true -> exec (sinstr_of i) rr labels pc m = Ok EReturn.
Proof. destruct i; try discriminate. reflexivity. Qed.

Lemma nobranch_uncond i : nobranch i = true -> InstructionType_IsUnconditionalBranch (instr_InstructionType i) = false.
Proof. unfold nobranch, InstructionType_IsBranch. intros H. apply negb_true_iff, orb_false_iff in H. apply H. Qed.

Lemma nobranch_branch i : nobranch i = true -> InstructionType_IsBranch (instr_InstructionType i) = false.
Proof. unfold nobranch. intros H. apply negb_true_iff in H. exact H. Qed.

Lemma nobranch_cond i : nobranch i = true -> InstructionType_IsConditionalBranch (instr_InstructionType i) = false.
Proof. unfold nobranch, InstructionType_IsBranch. intros H. apply negb_true_iff, orb_false_iff in H. apply H. Qed.

(* what a register-only non-branch instruction can do *)
Lemma class_exec i rr labels pc e : nomem i = true -> nobranch i = true ->
  exec (sinstr_of i) rr labels pc [] = Ok e ->
  (is_ret i = true /\ e = EReturn) \/ (is_ret i = false /\ (e = EFall \/ exists rd v, e = EReg rd v)).
Proof.
  intros Hm Hb H. destruct i; try (vm_compute in Hm; discriminate Hm); try (vm_compute in Hb; discriminate Hb);
    cbn [sinstr_of exec] in H;
    repeat match type of H with context [if ?c then _ else _] => destruct c end;
    try discriminate; injection H as <-;
    solve [left; split; reflexivity | right; split; [reflexivity|]; solve [left; reflexivity | right; eauto]].
Qed.

Lemma dfl_class : nomem dfl = true /\ nobranch dfl = true /\ is_ret dfl = false.
Proof. repeat split. Qed.

(* where the decode unit stops: the first ret or unconditional jump at or after b *)

Definition is_jump (i : instr) : bool := InstructionType_IsUnconditionalBranch (instr_InstructionType i).
Definition is_stop (i : instr) : bool := is_ret i || is_jump i.

Fixpoint first_stop (l : list instr) : nat :=
  match l with
  | [] => O
  | i :: t => if is_stop i then O else S (first_stop t)
  end.

Definition stop_from (app : list instr) (b : nat) : nat := (b + first_stop (skipn b app))%nat.

Lemma first_stop_le l : (first_stop l <= length l)%nat.
Proof. induction l as [|i t IH]; cbn [first_stop length]; [lia|]. destruct (is_stop i); lia. Qed.

Lemma first_stop_before l d k : (k < first_stop l)%nat -> is_stop (nth k l d) = false.
Proof.
  revert k. induction l as [|i t IH]; intros k H; cbn [first_stop] in H; [lia|].
  destruct (is_stop i) eqn:E; [lia|]. destruct k as [|k]; cbn [nth]; [exact E | apply IH; lia].
Qed.

Lemma first_stop_at l d : (first_stop l < length l)%nat -> is_stop (nth (first_stop l) l d) = true.
Proof.
  induction l as [|i t IH]; cbn [first_stop length]; [lia|].
  destruct (is_stop i) eqn:E; cbn [nth]; [auto | intros H; apply IH; lia].
Qed.

Lemma nth_skipn {A} (l : list A) b i d : nth i (skipn b l) d = nth (b + i) l d.
Proof.
  revert l. induction b as [|b IH]; intros l; [reflexivity|]. destruct l as [|x l]; cbn [skipn Nat.add nth].
  - destruct i; reflexivity.
  - apply IH.
Qed.

Lemma stop_from_ge app b : (b <= stop_from app b)%nat.
Proof. unfold stop_from. lia. Qed.

Lemma stop_from_le app b : (b <= length app)%nat -> (stop_from app b <= length app)%nat.
Proof. intros H. unfold stop_from. pose proof (first_stop_le (skipn b app)). rewrite skipn_length in H0. lia. Qed.

Lemma stop_from_before app d b k : (b <= k < stop_from app b)%nat -> is_stop (nth k app d) = false.
Proof.
  intros H. unfold stop_from in H. replace k with (b + (k - b))%nat by lia. rewrite <- nth_skipn.
  apply first_stop_before. lia.
Qed.

Lemma stop_from_at app d b : (stop_from app b < length app)%nat -> is_stop (nth (stop_from app b) app d) = true.
Proof.
  intros H. unfold stop_from in *. rewrite <- nth_skipn. apply first_stop_at. rewrite skipn_length. lia.
Qed.

Definition flat {T} (b : bbus T) : list T := bb_q b ++ map snd (bb_buf b).
Definition qlen {T} (b : bbus T) : Z := zlen (bb_q b).
Definition blen {T} (b : bbus T) : Z := zlen (bb_buf b).

Record BusOK {T} (cyc : Z) (b : bbus T) : Prop := mkBus {
  bus_ql : bb_ql b = 2;
  bus_bl : bb_bl b = 2;
  bus_q : qlen b <= 2;
  bus_st : Forall (fun x => fst x <= cyc + 1) (bb_buf b) }.

Lemma connect_loop_spec {T} ql c : forall (buf : list (Z * T)) q q' buf',
  bb_connect_loop ql c q buf = (q', buf') ->
  q' ++ map snd buf' = q ++ map snd buf /\
  zlen q' + zlen buf' = zlen q + zlen buf /\ zlen q <= zlen q' /\
  (exists pre, buf = pre ++ buf') /\
  (zlen q <= ql -> zlen q' <= ql) /\
  (Forall (fun x => fst x <= c) buf -> buf' = [] \/ zlen q' = ql).
Proof.
  induction buf as [|[a t] buf IH]; intros q q' buf' H; cbn [bb_connect_loop] in H.
  - injection H as <- <-. split; [reflexivity|]. split; [lia|]. split; [lia|]. split; [exists []; reflexivity|].
    split; [auto|]. intros _. left. reflexivity.
  - destruct (Z.eqb_spec (zlen q) ql) as [Eq|Nq].
    { injection H as <- <-. split; [reflexivity|]. split; [lia|]. split; [lia|]. split; [exists []; reflexivity|].
      split; [auto|]. intros _. right. exact Eq. }
    destruct (Z.gtb_spec a c) as [Hgt|Hle].
    { injection H as <- <-. split; [reflexivity|]. split; [lia|]. split; [lia|]. split; [exists []; reflexivity|].
      split; [auto|]. intros Hf. inversion Hf as [|x l Hx _]; subst. cbn [fst] in Hx. lia. }
    apply IH in H as (H1 & H2 & H3 & (pre & H4) & H5 & H6). rewrite ?zlen_app, ?zlen_cons, ?zlen_nil in *.
    split; [|split; [|split; [|split; [|split]]]].
    + rewrite H1, <- app_assoc. reflexivity.
    + lia.
    + lia.
    + exists ((a, t) :: pre). rewrite H4. reflexivity.
    + intros Hq. apply H5. lia.
    + intros Hf. apply H6. inversion Hf; assumption.
Qed.

Lemma connect_spec {T} cyc (b : bbus T) : BusOK cyc b ->
  let b' := bb_connect b (cyc + 1) in
  flat b' = flat b /\ BusOK cyc b' /\ qlen b' + blen b' = qlen b + blen b /\ qlen b <= qlen b' /\
  (bb_buf b' = [] \/ qlen b' = 2).
Proof.
  intros [Hql Hbl Hq Hst]. cbv zeta. unfold bb_connect. rewrite Hql.
  destruct (Z.eqb_spec (zlen (bb_q b)) 2) as [E|E].
  { repeat split; auto; try lia. }
  destruct (bb_connect_loop 2 (cyc + 1) (bb_q b) (bb_buf b)) as [q' buf'] eqn:EL.
  apply connect_loop_spec in EL as (H1 & H2 & H3 & (pre & H4) & H5 & H6).
  unfold flat, qlen, blen in *. cbn [bb_q bb_buf bb_ql bb_bl].
  split; [exact H1|]. split; [|split; [lia|split; [lia|]]].
  - constructor; cbn [bb_q bb_buf bb_ql bb_bl];
      [reflexivity | exact Hbl | unfold qlen; cbn [bb_q]; apply H5; exact Hq
      | rewrite H4 in Hst; apply Forall_app in Hst; apply Hst].
  - apply H6. exact Hst.
Qed.

Lemma add_flat {T} (b : bbus T) t c : flat (bb_add b t c) = flat b ++ [t].
Proof. unfold flat, bb_add. cbn [bb_q bb_buf]. rewrite map_app, app_assoc. reflexivity. Qed.

Lemma add_ok {T} cyc (b : bbus T) t : BusOK cyc b -> BusOK cyc (bb_add b t cyc).
Proof.
  intros [H1 H2 H3 H4]. constructor; cbn [bb_add bb_ql bb_bl bb_buf]; auto.
  apply Forall_app. split; [exact H4|]. constructor; [cbn [fst]; lia | constructor].
Qed.

Lemma busok_mono {T} cyc cyc' (b : bbus T) : cyc <= cyc' -> BusOK cyc b -> BusOK cyc' b.
Proof.
  intros Hc [H1 H2 H3 H4]. constructor; auto. eapply Forall_impl; [|exact H4]. cbn beta. intros x Hx. lia.
Qed.

Lemma sb_set_nth p r v s : nth s (sb_set p r v) 0 =
  if Nat.eqb (Z.to_nat r) s && Nat.ltb s (length p) then v else nth s p 0.
Proof.
  unfold sb_set. destruct (Nat.eqb_spec (Z.to_nat r) s) as [<-|Hne]; cbn [andb].
  - destruct (Nat.ltb_spec (Z.to_nat r) (length p)) as [Hlt|Hge].
    + apply supd_nth_eq. exact Hlt.
    + rewrite nth_overflow; [|rewrite supd_length; exact Hge]. rewrite nth_overflow by exact Hge. reflexivity.
  - apply supd_nth_neq. exact Hne.
Qed.

Lemma sb_set_length p r v : length (sb_set p r v) = length p.
Proof. apply supd_length. Qed.

Lemma sb_incr_length rs : forall p, length (sb_incr p rs) = length p.
Proof. induction rs as [|r t IH]; intros p; cbn [sb_incr]; [reflexivity|]. destruct (r =? 0); rewrite IH; [|rewrite sb_set_length]; reflexivity. Qed.

Lemma sb_decr_length rs : forall p, length (sb_decr p rs) = length p.
Proof. induction rs as [|r t IH]; intros p; cbn [sb_decr]; [reflexivity|]. destruct (r =? 0); rewrite IH; [|rewrite sb_set_length]; reflexivity. Qed.

Lemma cnt1_slots_cons r t s : cnt1 (slots (r :: t)) s =
  (if negb (r =? 0) && Nat.eqb (Z.to_nat r) s then 1 else 0) + cnt1 (slots t) s.
Proof.
  unfold slots, cnt1. cbn [filter]. destruct (r =? 0); cbn [negb andb map]; [lia|].
  cbn [count_occ]. destruct (Nat.eq_dec (Z.to_nat r) s) as [E|E].
  - apply Nat.eqb_eq in E. rewrite E. lia.
  - apply Nat.eqb_neq in E. rewrite E. lia.
Qed.

Lemma sb_incr_nth rs : forall p s, (s < length p)%nat -> nth s (sb_incr p rs) 0 = nth s p 0 + cnt1 (slots rs) s.
Proof.
  induction rs as [|r t IH]; intros p s Hs; cbn [sb_incr].
  - unfold cnt1, slots. cbn. lia.
  - rewrite cnt1_slots_cons. destruct (r =? 0) eqn:E0; cbn [negb andb].
    + rewrite IH by exact Hs. lia.
    + rewrite IH by (rewrite sb_set_length; exact Hs). rewrite sb_set_nth. unfold sb_get.
      destruct (Nat.eqb_spec (Z.to_nat r) s) as [<-|]; cbn [andb].
      * destruct (Nat.ltb_spec (Z.to_nat r) (length p)); [lia | lia].
      * lia.
Qed.

(* the decrement never reaches the clamp when the counter covers the registers removed *)
Lemma sb_decr_nth rs : forall p s, (s < length p)%nat ->
  (forall s', (s' < length p)%nat -> cnt1 (slots rs) s' <= nth s' p 0) ->
  nth s (sb_decr p rs) 0 = nth s p 0 - cnt1 (slots rs) s.
Proof.
  induction rs as [|r t IH]; intros p s Hs Hc; cbn [sb_decr].
  - unfold cnt1, slots. cbn. lia.
  - rewrite cnt1_slots_cons. destruct (r =? 0) eqn:E0; cbn [negb andb].
    + rewrite IH; [lia | exact Hs|]. intros s' Hs'. specialize (Hc s' Hs'). rewrite cnt1_slots_cons, E0 in Hc.
      cbn [negb andb] in Hc. lia.
    + assert (Hx : forall s', (s' < length p)%nat ->
                nth s' (sb_set p r (if sb_get p r - 1 <=? 0 then 0 else sb_get p r - 1)) 0
                = nth s' p 0 - (if Nat.eqb (Z.to_nat r) s' then 1 else 0)).
      { intros s' Hs'. rewrite sb_set_nth. unfold sb_get.
        destruct (Nat.eqb_spec (Z.to_nat r) s') as [<-|]; cbn [andb]; [|lia].
        destruct (Nat.ltb_spec (Z.to_nat r) (length p)); [|lia].
        specialize (Hc _ Hs'). rewrite cnt1_slots_cons, E0, Nat.eqb_refl in Hc. cbn [negb andb] in Hc.
        pose proof (cnt1_nonneg (slots t) (Z.to_nat r)).
        destruct (Z.leb_spec (nth (Z.to_nat r) p 0 - 1) 0); lia. }
      rewrite IH.
      * rewrite Hx by exact Hs. lia.
      * rewrite sb_set_length. exact Hs.
      * intros s' Hs'. rewrite sb_set_length in Hs'. rewrite Hx by exact Hs'. specialize (Hc s' Hs').
        rewrite cnt1_slots_cons, E0 in Hc. cbn [negb andb] in Hc. lia.
Qed.

(* has_hazard6 = false, on slots *)
Lemma no_hazard_slots m reads writes : length (m_pw m) = 32%nat -> length (m_pr m) = 32%nat ->
  has_hazard6 m reads writes = false ->
  forall s, (s < 32)%nat ->
    (In s (slots reads) -> nth s (m_pw m) 0 <= 0) /\
    (In s (slots writes) -> nth s (m_pw m) 0 <= 0 /\ nth s (m_pr m) 0 <= 0).
Proof.
  intros Hl1 Hl2 H s Hs. unfold has_hazard6 in H. apply orb_false_iff in H as [Hr Hw]. split.
  - intros Hin. apply slots_in in Hin as (r & Hin & Hnz & <-).
    assert (Hx : negb (r =? 0) && (0 <? sb_get (m_pw m) r) = false).
    { destruct (negb (r =? 0) && (0 <? sb_get (m_pw m) r)) eqn:E; [|reflexivity].
      rewrite <- Hr. symmetry. apply existsb_exists. exists r. auto. }
    destruct (Z.eqb_spec r 0); [contradiction|]. cbn [negb andb] in Hx. apply Z.ltb_ge in Hx. exact Hx.
  - intros Hin. apply slots_in in Hin as (w & Hin & Hnz & <-).
    assert (Hx : negb (w =? 0) && ((0 <? sb_get (m_pw m) w) || (0 <? sb_get (m_pr m) w)) = false).
    { destruct (negb (w =? 0) && ((0 <? sb_get (m_pw m) w) || (0 <? sb_get (m_pr m) w))) eqn:E; [|reflexivity].
      rewrite <- Hw. symmetry. apply existsb_exists. exists w. auto. }
    destruct (Z.eqb_spec w 0); [contradiction|]. cbn [negb andb] in Hx. apply orb_false_iff in Hx as [H1 H2].
    apply Z.ltb_ge in H1, H2. auto.
Qed.

(* no counter positive anywhere: no hazard, whatever the registers *)
Lemma no_hazard_intro m reads writes :
  (forall s, nth s (m_pw m) 0 <= 0) -> (forall s, nth s (m_pr m) 0 <= 0) -> has_hazard6 m reads writes = false.
Proof.
  intros H1 H2. unfold has_hazard6, sb_get. apply orb_false_iff. split.
  - apply not_true_is_false. intros H. apply existsb_exists in H as (r & _ & H). apply andb_prop in H as [_ H].
    apply Z.ltb_lt in H. specialize (H1 (Z.to_nat r)). lia.
  - apply not_true_is_false. intros H. apply existsb_exists in H as (r & _ & H). apply andb_prop in H as [_ H].
    apply orb_prop in H as [H|H]; apply Z.ltb_lt in H; [specialize (H1 (Z.to_nat r)) | specialize (H2 (Z.to_nat r))]; lia.
Qed.
