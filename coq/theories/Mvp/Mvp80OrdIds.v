(* The identifiers of the cache controllers of MVP-8.0 (Mvp80.v) are an invariant of the step function: c_id of a
   controller is set by init8 to its index, every function of cc.go that returns a controller keeps it, and so a tick
   keeps the list ids8 y = map c_id (y_ccs y). *)
From Coq Require Import ZArith List Bool Lia.
From Maj Require Import Base.Outcome Base.GoInt Base.GoTypes Isa.Spec Isa.Seq.
From Maj Require Import Gen.Latency Gen.RiscTables Gen.Opcodes Comp.Cache Comp.Rat Mvp.Mvp12 Mvp.Mvp3 Mvp.Mvp5 Mvp.Mvp60 Mvp.Mvp63 Mvp.Mvp80.
From Maj Require Import Mvp.Mvp60Proofs Mvp.Mvp63Proofs Mvp.Mvp80Proofs Mvp.Mvp80OrdFrame.
Import ListNotations.
Open Scope Z_scope.

(* H : f .. = Ok (.., c', ..) is one of the leaves left by split_hyp: a literal result, or a call of a
   function whose lemma L is known *)
Ltac leaf_lit H := inversion H; subst; reflexivity.
Ltac leaf_by L H := apply L in H; simpl in H; first [exact H | congruence].

Lemma rd_stay_id : forall w c s w' c' r, rd_stay w c s = Ok (w', c', r) -> c_id c' = c_id c.
Proof. intros w c s w' c' r H. unfold rd_stay in H. leaf_lit H. Qed.

Lemma rd_fin_id : forall w c addrs data w' c' r, rd_fin w c addrs data = Ok (w', c', r) -> c_id c' = c_id c.
Proof.
  intros w c addrs data w' c' r H. unfold rd_fin, bind in H.
  split_hyp H; try discriminate. leaf_lit H.
Qed.

Lemma rd_l1wait_id : forall w c addrs rem data w' c' r,
  rd_l1wait w c addrs rem data = Ok (w', c', r) -> c_id c' = c_id c.
Proof.
  intros w c addrs rem data w' c' r H. unfold rd_l1wait in H.
  destruct (0 <? rem); [leaf_by rd_stay_id H | leaf_by rd_fin_id H].
Qed.

Lemma rd_from_l1_id : forall w c addrs w' c' r, rd_from_l1 w c addrs = Ok (w', c', r) -> c_id c' = c_id c.
Proof.
  intros w c addrs w' c' r H. unfold rd_from_l1, bind in H.
  split_hyp H; try discriminate. leaf_by rd_l1wait_id H.
Qed.

Lemma rd_evict_wait_id : forall w c addrs cmd w' c' r,
  rd_evict_wait w c addrs cmd = Ok (w', c', r) -> c_id c' = c_id c.
Proof.
  intros w c addrs cmd w' c' r H. unfold rd_evict_wait in H.
  destruct (cmd_isdone _ _); [leaf_by rd_from_l1_id H | leaf_by rd_stay_id H].
Qed.

Lemma cc_push_l1_id : forall c addr ln p, cc_push_l1 c addr ln = Ok p -> c_id (fst p) = c_id c.
Proof.
  intros c addr ln p H. unfold cc_push_l1, bind in H.
  split_hyp H; try discriminate; inversion H; subst; reflexivity.
Qed.

Lemma rd_push_l1_id : forall w c addrs l1a l1dt w' c' r,
  rd_push_l1 w c addrs l1a l1dt = Ok (w', c', r) -> c_id c' = c_id c.
Proof.
  intros w c addrs l1a l1dt w' c' r H. unfold rd_push_l1 in H.
  apply bind_ok in H as (p & EP & H). apply cc_push_l1_id in EP.
  destruct (snd p) as [victim|].
  - apply bind_ok in H as (e & _ & H). apply rd_stay_id in H. congruence.
  - apply rd_from_l1_id in H. congruence.
Qed.

Lemma rd_sync_id : forall w c addrs w' c' r, rd_sync w c addrs = Ok (w', c', r) -> c_id c' = c_id c.
Proof.
  intros w c addrs w' c' r H. unfold rd_sync, bind in H.
  split_hyp H; try discriminate. leaf_by rd_push_l1_id H.
Qed.

Lemma rd_l3push_id : forall w c addrs rem l3a l3d w' c' r,
  rd_l3push w c addrs rem l3a l3d = Ok (w', c', r) -> c_id c' = c_id c.
Proof.
  intros w c addrs rem l3a l3d w' c' r H. unfold rd_l3push in H.
  destruct (0 <? rem); [leaf_by rd_stay_id H|].
  apply bind_ok in H as (p & _ & H). apply bind_ok in H as (a0 & _ & H). apply bind_ok in H as (k & _ & H).
  leaf_by rd_sync_id H.
Qed.

Lemma rd_l3lock_id : forall w c addrs l3a l3d w' c' r,
  rd_l3lock w c addrs l3a l3d = Ok (w', c', r) -> c_id c' = c_id c.
Proof.
  intros w c addrs l3a l3d w' c' r H. unfold rd_l3lock in H.
  apply bind_ok in H as (a0 & _ & H).
  destruct (l3_locked _ _); [leaf_by rd_stay_id H | leaf_by rd_l3push_id H].
Qed.

Lemma rd_memwait_id : forall w c addrs rem l3a l3d w' c' r,
  rd_memwait w c addrs rem l3a l3d = Ok (w', c', r) -> c_id c' = c_id c.
Proof.
  intros w c addrs rem l3a l3d w' c' r H. unfold rd_memwait in H.
  destruct (0 <? rem); [leaf_by rd_stay_id H | leaf_by rd_l3lock_id H].
Qed.

Lemma rd_l3wait_id : forall w c addrs rem w' c' r,
  rd_l3wait w c addrs rem = Ok (w', c', r) -> c_id c' = c_id c.
Proof.
  intros w c addrs rem w' c' r H. unfold rd_l3wait in H.
  destruct (0 <? rem); [leaf_by rd_stay_id H|].
  apply bind_ok in H as (a0 & _ & H). apply bind_ok in H as ([l3 [v|]] & _ & H).
  - apply bind_ok in H as (s & _ & H). destruct s as [[l1a l1dt]|]; [|discriminate].
    leaf_by rd_push_l1_id H.
  - apply bind_ok in H as (f & _ & H). leaf_by rd_memwait_id H.
Qed.

Lemma rd_pend_id : forall w c addrs rk pend w' c' r,
  rd_pend w c addrs rk pend = Ok (w', c', r) -> c_id c' = c_id c.
Proof.
  intros w c addrs rk pend w' c' r H. unfold rd_pend in H.
  destruct (negb _); [leaf_by rd_stay_id H|].
  destruct rk; [| leaf_by rd_from_l1_id H | discriminate].
  apply bind_ok in H as (a0 & _ & H). apply bind_ok in H as (g & _ & H).
  destruct g; [discriminate|]. leaf_by rd_l3wait_id H.
Qed.

Lemma rd_start_id : forall w c addrs w' c' r, rd_start w c addrs = Ok (w', c', r) -> c_id c' = c_id c.
Proof.
  intros w c addrs w' c' r H. unfold rd_start in H.
  apply bind_ok in H as (a0 & _ & H). cbv zeta in H. apply bind_ok in H as (x & _ & H).
  destruct (snd x) as [[[rk pend] p]|]; [leaf_by rd_pend_id H | leaf_lit H].
Qed.

Lemma cc_read_cycle_id : forall w c addrs w' c' r,
  cc_read_cycle w c addrs = Ok (w', c', r) -> c_id c' = c_id c.
Proof.
  intros w c addrs w' c' r H. unfold cc_read_cycle in H. destruct (c_read c).
  - leaf_by rd_start_id H.
  - leaf_by rd_pend_id H.
  - leaf_by rd_l3wait_id H.
  - leaf_by rd_evict_wait_id H.
  - leaf_by rd_memwait_id H.
  - leaf_by rd_l3lock_id H.
  - leaf_by rd_l3push_id H.
  - leaf_by rd_l1wait_id H.
Qed.

Lemma wr_stay_id : forall w c s w' c' b, wr_stay w c s = Ok (w', c', b) -> c_id c' = c_id c.
Proof. intros w c s w' c' b H. unfold wr_stay in H. leaf_lit H. Qed.

Lemma wr_fin_id : forall w c addrs data w' c' b, wr_fin w c addrs data = Ok (w', c', b) -> c_id c' = c_id c.
Proof.
  intros w c addrs data w' c' b H. unfold wr_fin, bind in H.
  split_hyp H; try discriminate. leaf_lit H.
Qed.

Lemma wr_final_id : forall w c addrs data rem w' c' b,
  wr_final w c addrs data rem = Ok (w', c', b) -> c_id c' = c_id c.
Proof.
  intros w c addrs data rem w' c' b H. unfold wr_final in H.
  destruct (0 <? rem); [leaf_by wr_stay_id H | leaf_by wr_fin_id H].
Qed.

Lemma wr_to_l1_id : forall w c addrs data w' c' b, wr_to_l1 w c addrs data = Ok (w', c', b) -> c_id c' = c_id c.
Proof. intros w c addrs data w' c' b H. unfold wr_to_l1 in H. leaf_by wr_final_id H. Qed.

Lemma wr_to_l1_after_id : forall w c addrs data rem w' c' b,
  wr_to_l1_after w c addrs data rem = Ok (w', c', b) -> c_id c' = c_id c.
Proof.
  intros w c addrs data rem w' c' b H. unfold wr_to_l1_after in H.
  destruct (0 <? rem); [leaf_by wr_stay_id H | leaf_by wr_to_l1_id H].
Qed.

Lemma wr_evict_wait_id : forall w c addrs data cmd w' c' b,
  wr_evict_wait w c addrs data cmd = Ok (w', c', b) -> c_id c' = c_id c.
Proof.
  intros w c addrs data cmd w' c' b H. unfold wr_evict_wait in H.
  destruct (cmd_isdone _ _); [leaf_by wr_to_l1_after_id H | leaf_by wr_stay_id H].
Qed.

Lemma wr_push_l1_id : forall w c addrs data l1a l1dt w' c' b,
  wr_push_l1 w c addrs data l1a l1dt = Ok (w', c', b) -> c_id c' = c_id c.
Proof.
  intros w c addrs data l1a l1dt w' c' b H. unfold wr_push_l1 in H.
  apply bind_ok in H as (p & EP & H). apply cc_push_l1_id in EP.
  destruct (snd p) as [victim|].
  - apply bind_ok in H as (e & _ & H). apply wr_stay_id in H. congruence.
  - apply wr_to_l1_id in H. congruence.
Qed.

Lemma wr_l1push_id : forall w c addrs data rem l1a l1dt w' c' b,
  wr_l1push w c addrs data rem l1a l1dt = Ok (w', c', b) -> c_id c' = c_id c.
Proof.
  intros w c addrs data rem l1a l1dt w' c' b H. unfold wr_l1push in H.
  destruct (0 <? rem); [leaf_by wr_stay_id H | leaf_by wr_push_l1_id H].
Qed.

Lemma wr_sync_id : forall w c addrs data w' c' b, wr_sync w c addrs data = Ok (w', c', b) -> c_id c' = c_id c.
Proof.
  intros w c addrs data w' c' b H. unfold wr_sync, bind in H.
  split_hyp H; try discriminate. leaf_by wr_push_l1_id H.
Qed.

Lemma wr_l3evict_wait_id : forall w c addrs data cmd w' c' b,
  wr_l3evict_wait w c addrs data cmd = Ok (w', c', b) -> c_id c' = c_id c.
Proof.
  intros w c addrs data cmd w' c' b H. unfold wr_l3evict_wait in H.
  destruct (cmd_isdone _ _); [leaf_by wr_sync_id H | leaf_by wr_stay_id H].
Qed.

Lemma wr_l3wait_id : forall w c addrs data rem l3a l3d w' c' b,
  wr_l3wait w c addrs data rem l3a l3d = Ok (w', c', b) -> c_id c' = c_id c.
Proof.
  intros w c addrs data rem l3a l3d w' c' b H. unfold wr_l3wait in H.
  destruct (0 <? rem); [leaf_by wr_stay_id H|].
  apply bind_ok in H as (a0 & _ & H).
  destruct (l3_locked _ _); [leaf_by wr_stay_id H|].
  apply bind_ok in H as (p & _ & H).
  destruct (snd p) as [victim|]; [cbv zeta in H; leaf_by wr_stay_id H | leaf_by wr_sync_id H].
Qed.

Lemma wr_memwait_id : forall w c addrs data rem l3a l3d w' c' b,
  wr_memwait w c addrs data rem l3a l3d = Ok (w', c', b) -> c_id c' = c_id c.
Proof.
  intros w c addrs data rem l3a l3d w' c' b H. unfold wr_memwait in H.
  destruct (0 <? rem); [leaf_by wr_stay_id H | leaf_by wr_l3wait_id H].
Qed.

Lemma wr_pend_id : forall w c addrs data rk pend w' c' b,
  wr_pend w c addrs data rk pend = Ok (w', c', b) -> c_id c' = c_id c.
Proof.
  intros w c addrs data rk pend w' c' b H. unfold wr_pend in H.
  destruct (negb _); [leaf_by wr_stay_id H|].
  destruct rk; [| discriminate | leaf_by wr_to_l1_id H].
  apply bind_ok in H as (a0 & _ & H). apply bind_ok in H as ([l3 [v|]] & _ & H).
  - apply bind_ok in H as (s & _ & H). destruct s as [[l1a l1dt]|]; [|discriminate].
    leaf_by wr_l1push_id H.
  - apply bind_ok in H as (f & _ & H). leaf_by wr_memwait_id H.
Qed.

Lemma wr_start_id : forall w c addrs data w' c' b, wr_start w c addrs data = Ok (w', c', b) -> c_id c' = c_id c.
Proof.
  intros w c addrs data w' c' b H. unfold wr_start in H.
  apply bind_ok in H as (a0 & _ & H). cbv zeta in H. apply bind_ok in H as (x & _ & H).
  destruct (snd x) as [[[rk pend] p]|]; [leaf_by wr_pend_id H | leaf_lit H].
Qed.

Lemma cc_write_cycle_id : forall w c addrs data w' c' b,
  cc_write_cycle w c addrs data = Ok (w', c', b) -> c_id c' = c_id c.
Proof.
  intros w c addrs data w' c' b H. unfold cc_write_cycle in H. destruct (c_write c).
  - leaf_by wr_start_id H.
  - leaf_by wr_pend_id H.
  - leaf_by wr_l1push_id H.
  - leaf_by wr_evict_wait_id H.
  - leaf_by wr_to_l1_after_id H.
  - leaf_by wr_memwait_id H.
  - leaf_by wr_l3wait_id H.
  - leaf_by wr_l3evict_wait_id H.
  - leaf_by wr_final_id H.
Qed.

Lemma cc_flush_id : forall k c k' c', cc_flush k c = Ok (k', c') -> c_id c' = c_id c.
Proof.
  intros k c k' c' H. unfold cc_flush in H.
  apply bind_ok in H as (k1 & _ & H). apply bind_ok in H as (k2 & _ & H). leaf_lit H.
Qed.

Lemma sn_step_id : forall w c s w' c' o, sn_step w c s = Ok (w', c', o) -> c_id c' = c_id c.
Proof.
  intros w c s w' c' o H. unfold sn_step, bind in H.
  destruct s; cbv zeta in H; split_hyp H; try discriminate; inversion H; subst; reflexivity.
Qed.

Lemma sn_run_id : forall l w c w' c' l', sn_run w c l = Ok (w', c', l') -> c_id c' = c_id c.
Proof.
  induction l as [|s t IH]; intros w c w' c' l' H; cbn [sn_run] in H.
  - leaf_lit H.
  - apply bind_ok in H as ([[w1 c1] o] & E1 & H).
    apply bind_ok in H as ([[w2 c2] t'] & E2 & H).
    inversion H; subst. apply sn_step_id in E1. apply IH in E2. congruence.
Qed.

Lemma sn_create_id : forall w c key cid w' c', sn_create w c key cid = Ok (w', c') -> c_id c' = c_id c.
Proof.
  intros w c key cid w' c' H. unfold sn_create in H. cbv zeta in H.
  split_hyp H; try discriminate; inversion H; subst; reflexivity.
Qed.

Lemma sn_create_all_id : forall reqs w c w' c', sn_create_all w c reqs = Ok (w', c') -> c_id c' = c_id c.
Proof.
  induction reqs as [|[key cid] t IH]; intros w c w' c' H; cbn [sn_create_all] in H.
  - leaf_lit H.
  - apply bind_ok in H as ([w1 c1] & E1 & H). cbn [fst snd] in H.
    apply sn_create_id in E1. apply IH in H. congruence.
Qed.

Lemma cc_snoop_cycle_id : forall ord cycle w c w' c',
  snd (cc_snoop_cycle ord cycle w c) = Ok (w', c') -> c_id c' = c_id c.
Proof.
  intros ord cycle w c w' c' H. unfold cc_snoop_cycle in H.
  destruct (c_snoop c) as [|s0 t0] eqn:ES; cbn [snd] in H.
  - apply sn_create_all_id in H. exact H.
  - apply bind_ok in H as ([[w1 c1] l] & E1 & H). inversion H; subst.
    apply sn_run_id in E1. exact E1.
Qed.

Lemma snoops_cycle_id : forall ord cycle ccs w w' ccs',
  snd (snoops_cycle ord cycle w ccs) = Ok (w', ccs') -> map c_id ccs' = map c_id ccs.
Proof.
  intros ord cycle. induction ccs as [|c t IH]; intros w w' ccs' H; cbn [snoops_cycle] in H.
  - cbn [snd] in H. inversion H; reflexivity.
  - destruct (cc_snoop_cycle ord cycle w c) as [os1 r1] eqn:E1.
    destruct r1 as [[w1 c1]| |]; cbn [snd] in H; try discriminate.
    destruct (snoops_cycle ord cycle w1 t) as [os2 r2] eqn:E2. cbn [snd] in H.
    apply bind_ok in H as ([w2 t'] & Ez & H). inversion H; subst. cbn [fst snd map].
    f_equal.
    + apply (cc_snoop_cycle_id ord cycle w c w1 c1). rewrite E1. reflexivity.
    + eapply (IH w1). rewrite E2. reflexivity.
Qed.

Definition ids8 (y : my) : list Z := map c_id (y_ccs y).

Lemma map_set_nth6 : forall {A B} (f : A -> B) (l : list A) i c c1,
  nth_error l i = Some c -> f c1 = f c -> map f (set_nth6 l i c1) = map f l.
Proof.
  intros A B f. induction l as [|h t IH]; intros i c c1 HN HF.
  - reflexivity.
  - destruct i as [|i]; cbn [set_nth6 map].
    + cbn [nth_error] in HN. inversion HN; subst. rewrite HF. reflexivity.
    + cbn [nth_error] in HN. f_equal. eapply IH; eauto.
Qed.

Lemma put_mw_ids : forall y w, ids8 (put_mw y w) = ids8 y.
Proof. reflexivity. Qed.

Lemma put_cc_ids : forall y i c c1,
  nth_error (y_ccs y) i = Some c -> c_id c1 = c_id c -> ids8 (put_cc y i c1) = ids8 y.
Proof.
  intros y i c c1 HN HC. unfold ids8, put_cc. cbn [y_ccs set_ccs].
  eapply map_set_nth6; eauto.
Qed.

Lemma set_x_ids : forall y x, ids8 (set_x y x) = ids8 y.
Proof. reflexivity. Qed.

Lemma set_ymsi_ids : forall y k, ids8 (set_ymsi y k) = ids8 y.
Proof. reflexivity. Qed.

Lemma or_os8_ids : forall y b, ids8 (or_os8 y b) = ids8 y.
Proof. reflexivity. Qed.

Lemma wbus_connect8_ids : forall y cycle, ids8 (wbus_connect8 y cycle) = ids8 y.
Proof. reflexivity. Qed.

Lemma cu_cycle8_ids : forall ord cycle y, ids8 (cu_cycle8 ord cycle y) = ids8 y.
Proof. intros ord cycle y. unfold cu_cycle8. destruct (k_stale (y_msi y)); reflexivity. Qed.

Lemma front8_ids : forall app ord cycle y y', front8 app ord cycle y = Ok y' -> ids8 y' = ids8 y.
Proof.
  intros app ord cycle y y' H. unfold front8 in H. cbv zeta in H.
  apply bind_ok in H as ([[fu1 l1i1] dbus1] & _ & H).
  apply bind_ok in H as (x & _ & H).
  inversion H; subst. rewrite cu_cycle8_ids. reflexivity.
Qed.

Lemma snoops8_ids : forall ord cycle y y', snoops8 ord cycle y = Ok y' -> ids8 y' = ids8 y.
Proof.
  intros ord cycle y y' H. unfold snoops8 in H.
  destruct (snoops_cycle ord cycle (mw_of y) (y_ccs y)) as [os r] eqn:E.
  apply bind_ok in H as ([w1 ccs1] & Ez & H). inversion H; subst.
  change (map c_id ccs1 = map c_id (y_ccs y)).
  apply (snoops_cycle_id ord cycle (y_ccs y) (mw_of y) w1 ccs1). rewrite E. reflexivity.
Qed.

Section Ids.

Variable L : list Z.
Let P (y : my) : Prop := ids8 y = L.

Lemma ids_x : forall y x, xframe (y_x y) x -> P y -> P (set_x y x).
Proof. intros y x _ H. exact H. Qed.

Lemma ids_put_cc : forall y i c c1, nth_error (y_ccs y) i = Some c -> c_id c1 = c_id c -> P y -> P (put_cc y i c1).
Proof. intros y i c c1 EN EC HP. unfold P. rewrite (put_cc_ids y i c c1 EN EC). exact HP. Qed.

Lemma ids_read : forall y i c addrs w c1 r, nth_error (y_ccs y) i = Some c ->
  cc_read_cycle (mw_of y) c addrs = Ok (w, c1, r) -> P y -> P (put_cc (put_mw y w) i c1).
Proof. intros y i c addrs w c1 r EN ER. apply (ids_put_cc (put_mw y w) i c c1 EN). eapply cc_read_cycle_id; eauto. Qed.

Lemma ids_write : forall y i c addrs data w c1 r, nth_error (y_ccs y) i = Some c ->
  cc_write_cycle (mw_of y) c addrs data = Ok (w, c1, r) -> P y -> P (put_cc (put_mw y w) i c1).
Proof. intros y i c addrs data w c1 r EN EW. apply (ids_put_cc (put_mw y w) i c c1 EN). eapply cc_write_cycle_id; eauto. Qed.

Lemma ids_flush : forall y i c k c1, nth_error (y_ccs y) i = Some c ->
  cc_flush (y_msi y) c = Ok (k, c1) -> P y -> P (put_cc (set_ymsi y k) i c1).
Proof. intros y i c k c1 EN EF. apply (ids_put_cc (set_ymsi y k) i c c1 EN). eapply cc_flush_id; eauto. Qed.

Definition after_snoops8_ids := after_snoops8_frame P (fun _ => True) (fun _ _ => I) ids_x ids_read ids_write ids_flush.
Definition flush_advance8_ids := flush_advance8_frame P (fun _ => True) (fun _ _ => I) ids_x ids_flush.

End Ids.

Theorem step8_ids : forall app labels ord s s',
  step8 app labels ord s = VCont s' -> ids8 (v_y s') = ids8 (v_y s).
Proof.
  intros app labels ord s s' H. rewrite step8_eq in H.
  assert (A : forall cycle y, ids8 y = ids8 (v_y s) ->
            res_of8 (y_os y) (snoops8 ord cycle y) (after_snoops8 labels ord s) = VCont s' -> ids8 (v_y s') = ids8 (v_y s)).
  { intros cycle y E K. apply res_of8_cont in K as (y2 & E2 & K). apply snoops8_ids in E2.
    pose proof (after_snoops8_ids (ids8 (v_y s)) labels ord s y2 ltac:(congruence)) as F. rewrite K in F. exact F. }
  destruct (v_mode s) as [| |seq pc from|k seq pc from empty|]; try (eapply A; [reflexivity | exact H]).
  - apply res_of8_cont in H as (y1 & E1 & H). apply front8_ids in E1. eapply A; eauto.
  - destruct (nth_error (v_wus s) k) as [w|]; [|discriminate].
    apply res_of8_cont in H as ([x1 w1] & _ & H).
    match type of H with flush_advance8 ?s0 _ _ _ _ _ = _ =>
      pose proof (flush_advance8_ids (ids8 (v_y s)) s0 k seq pc from empty eq_refl) as F end.
    rewrite H in F. exact F.
Qed.

(* any number of steps *)
Lemma run8_st_ids : forall fuel app labels ord s s',
  run8_st fuel app labels ord s = inr s' -> ids8 (v_y s') = ids8 (v_y s).
Proof.
  induction fuel as [|f IH]; intros app labels ord s s' H; cbn [run8_st] in H.
  - inversion H; reflexivity.
  - destruct (step8 app labels ord s) as [r os|s1] eqn:ES; [discriminate|].
    apply step8_ids in ES. apply IH in H. congruence.
Qed.

Lemma init8_ids : forall par ord app st s,
  init8 par ord app st = Ok s -> ids8 (v_y s) = map Z.of_nat (seq 0 par).
Proof.
  intros par ord app st s H. unfold init8 in H.
  destruct (new_cache l1LineSize l1Size) as [ci| |]; try discriminate.
  destruct (new_cache l3LineSize8 l3Size8) as [c3| |]; try discriminate.
  destruct (new_cache l1dLineSize l1dSize) as [cd| |]; try discriminate.
  cbv zeta in H. inversion H; subst. unfold ids8. cbn [v_y y_ccs].
  rewrite map_map. apply map_ext. intros a. reflexivity.
Qed.

Corollary seq_ids_nonneg : forall par, Forall (fun z => 0 <= z) (map Z.of_nat (seq 0 par)).
Proof.
  intros par. apply Forall_forall. intros z HZ.
  apply in_map_iff in HZ as (n & <- & _). lia.
Qed.

(* the ids of every reachable state are 0 .. par-1, in order *)
Corollary reach8_ids : forall par ord app labels st s fuel s',
  init8 par ord app st = Ok s -> run8_st fuel app labels ord s = inr s' ->
  ids8 (v_y s') = map Z.of_nat (seq 0 par).
Proof.
  intros par ord app labels st s fuel s' HI HR.
  apply run8_st_ids in HR. apply init8_ids in HI. congruence.
Qed.

Print Assumptions step8_ids.
Print Assumptions init8_ids.
