(* Invariant, its preservation and progress for the MVP-5 skeleton with loads and
   store hits (Mvp5mSkel.v).  The front-end part of the invariant is F5 (Mvp5Inv.v)
   of the register-only rview of the skeleton; the execute-unit part is the one of
   MVP-4 (Mvp4mInv.v / Mvp4mFront.v). *)
From Coq Require Import ZArith List Bool Lia.
From Maj Require Import Base.Outcome Base.GoInt Base.GoTypes Isa.Spec Isa.Embed Isa.Seq Isa.Refine.
From Maj Require Import Gen.Latency Gen.RiscTables Gen.Opcodes Comp.Cache Comp.CacheSpec Comp.MapFacts Comp.CacheProofs.
From Maj Require Import Mvp.Mvp12 Mvp.Mvp12Proofs Mvp.Mvp3 Mvp.Mvp3Proofs Mvp.Mvp4 Mvp.Mvp5
     Mvp.Mvp4Skel Mvp.Mvp4Inv Mvp.Mvp4Units Mvp.Mvp4Front Mvp.Mvp4mSkel Mvp.Mvp4mInv Mvp.Mvp4mFront
     Mvp.Mvp5Skel Mvp.Mvp5Inv Mvp.Mvp5Front Mvp.Mvp5mSkel.
Import ListNotations.
Open Scope Z_scope.

(* the execute unit as the front-end invariant sees it: only whether it holds an
   instruction, and which *)
Definition eu_view (e : eu_t) : eu_t := mk_eu (eu_processing e) false (eu_addrs e) (eu_memory e) 1 (eu_runner e).

Lemma q_eu_view e : q_eu (eu_view e) = q_eu e.
Proof. reflexivity. Qed.

Definition rview (a : skm5) : sk5 :=
  mk_sk5 (n_fu a) (n_du a) (n_l1i a) (n_dbus a) (n_ebus a) (eu_view (n_eu a)) (n_pw a) (n_wb a) (n_btb a).

Definition projm (a : skm5) : skm :=
  mk_skm (to4 (n_fu a)) (n_l1i a) (dclean (n_fu a) (n_dbus a)) (n_ebus a) (n_eu a) (n_pw a) (n_wb a) (n_dt a).

Definition naq (a : skm5) : list (instr * Z) := q_eu (n_eu a) ++ q_sb (n_ebus a).

Record FM5 (app : list instr) (hev : event) (a : skm5) : Prop := mkFM5 {
  h_front : F5 app (ev_pc hev) (rview a);
  h_eu : eu_ok (n_eu a);
  h_pr : eu_pending_read (n_eu a) = true -> n_wb a = None;
  h_miss : eu_pending_read (n_eu a) = true ->
           ev_la hev <> [] /\ (eu_memory (n_eu a) = None -> eu_addrs (n_eu a) = ev_la hev);
  h_dt : zlen (n_dt a) <= 16 }.

(* every store of the remaining path will hit *)
Definition sh_inv5 (a : skm5) (path : list event) : Prop :=
  match path with
  | [] => True
  | hev :: rest =>
      snd (a_get_all (dtal (n_eu a) (n_dt a) (ev_la hev)) (ev_sa hev)) = true /\
      stores_hit (fst (a_get_all (dtal (n_eu a) (n_dt a) (ev_la hev)) (ev_sa hev))) rest = true
  end.

(* a store instruction is not an unconditional jump (the events of a sequential run
   satisfy this, sexecm_stores_plain in Mvp5mSim.v) *)
Definition stores_plain (app : list instr) (path : list event) : Prop :=
  Forall (fun ev => ev_sa ev <> [] -> forall i, nth_error app (Z.to_nat (ev_pc ev / 4)) = Some i -> uncond i = false) path.

Ltac simpn := cbn [rview n_fu n_du n_l1i n_dbus n_ebus n_eu n_pw n_wb n_dt n_btb] in *.

Section FrontM5.
  Variable app : list instr.
  Hypothesis Happ : wf_app app.

  (* building the front-end invariant from its pieces *)
  Lemma F5_build head fu du l1i dbus ebus e pw wb btb :
    0 <= head < 2147483644 ->
    mid_ok app head (q_eu e ++ q_sb ebus) du (dclean fu dbus) (to4 fu) ->
    (f5_processing fu = true -> 1 <= f5_remaining fu <= MemoryAccess) ->
    (eu_processing e = true -> eu_runner e <> None) ->
    IInv l1i -> pw = pwof wb -> (forall wr, wb = Some wr -> (length wr <= 1)%nat) -> btb_ok btb ->
    F5 app head (mk_sk5 fu du l1i dbus ebus (eu_view e) pw wb btb).
  Proof.
    intros Hh (HA & Hq & Hdu & Hent) Hfu Hrun HI Hpw Hwb Hbtb.
    constructor; unfold aq; cbn [k5_fu k5_du k5_l1i k5_dbus k5_ebus k5_eu k5_pw k5_wb k5_btb]; rewrite ?q_eu_view; auto.
    intros Hp. cbn [eu_view eu_processing eu_remaining eu_runner] in *. split; [unfold Cmax; lia | auto].
  Qed.

  Lemma F5_mid head a : F5 app head a ->
    mid_ok app head (aq a) (k5_du a) (dclean (k5_fu a) (k5_dbus a)) (to4 (k5_fu a)).
  Proof. intros [Hh HA Hq Hdu Hent _ _ _ _ _ _ _]. repeat split; assumption. Qed.

  (* the effect of the branch unit's assert on the fetched part of the queue *)
  Lemma assert_flow head A2 du1 dbus2 fu1 btb x :
    mid_ok app head A2 du1 dbus2 (to4 fu1) -> f5_clean fu1 = false ->
    (f5_processing fu1 = true -> 1 <= f5_remaining fu1 <= MemoryAccess) ->
    btb_ok btb ->
    (forall y, x = Some y -> exists rest, A2 = y :: rest) ->
    mid_ok app head A2 du1 (dclean (sk5_assert fu1 btb x) dbus2) (to4 (sk5_assert fu1 btb x)) /\
    (f5_processing (sk5_assert fu1 btb x) = true -> 1 <= f5_remaining (sk5_assert fu1 btb x) <= MemoryAccess).
  Proof.
    intros (HA & (g & n & Hq & Hg & Hgd) & Hdu & Hent) Hcl Hfu Hbtb Hx.
    assert (Hsame : mid_ok app head A2 du1 (dclean fu1 dbus2) (to4 fu1)).
    { split; [exact HA|]. split; [|split; assumption]. exists g, n. split; [apply fq_clean_false; assumption | auto]. }
    destruct x as [[i pc]|]; cbn [sk5_assert]; [|auto].
    destruct (uncond i) eqn:Eu; [|auto].
    destruct (btb_get btb pc) as [t|] eqn:Eb; [|auto].
    destruct (Hx _ eq_refl) as [rest ->].
    destruct (du_ok_head_unc _ _ _ Hdu Eu) as [_ ->].
    split; [|exact Hfu].
    split; [exact HA|]. split; [|split; assumption].
    exists t, O. split; [apply fq_reset|]. split; [eapply btb_get_ok; eassumption | discriminate].
  Qed.

  Lemma issue_m_spec e ebus pw dt la e1 ebus2 dt1 act :
    skm_eu e ebus pw dt la = (e1, ebus2, dt1, act) ->
    match issue_m e ebus with
    | Some x => act = AExec (fst x) (snd x) \/ (act = ANone /\ q_eu e1 = [x])
    | None => True
    end.
  Proof.
    unfold skm_eu, issue_m, eu_issue. destruct (eu_pending_read e); [intros _; exact I|].
    destruct (eu_intake e ebus) as [[em eb1] have] eqn:Ei.
    pose proof (intake_have _ _ _ _ _ Ei) as Hh.
    destruct have; cbn [negb]; [|intros _; exact I].
    destruct (negb (eu_remaining em - 1 =? 0)); [intros _; exact I|].
    destruct (eu_runner em) as [[i pc]|] eqn:Er; [|intros _; exact I].
    destruct (pw_hazard pw (instr_ReadRegisters i)).
    { intros H. injection H as <- <- <- <-. right. split; [reflexivity|].
      unfold q_eu, set_rem. cbn [eu_processing eu_runner]. rewrite <- Hh, Er. reflexivity. }
    destruct la as [|a0 la'].
    - intros H. injection H as <- <- <- <-. left. reflexivity.
    - destruct (snd (a_get_all dt (a0 :: la'))); intros H; injection H as <- <- <- <-; right; (split; [reflexivity|]);
        unfold q_eu; cbn [eu_processing eu_runner]; rewrite <- Hh, ?Er; reflexivity.
  Qed.

  Lemma issue_m_in e ebus x : issue_m e ebus = Some x -> In x (q_eu e ++ olist (sb_current ebus)).
  Proof. unfold issue_m. destruct (eu_pending_read e); [discriminate | apply eu_issue_in]. Qed.

  Lemma view_aq a : aq (rview a) = naq a.
  Proof. reflexivity. Qed.

  Lemma frontm_flow5 hev a fu1 l1i1 dbus1 du1 dbus2 ebus1 e1 ebus2 dt1 act :
    FM5 app hev a ->
    fu5_cycle app (n_fu a) (n_l1i a) (n_dbus a) = Ok (fu1, l1i1, dbus1) ->
    du5_cycle app (n_du a) dbus1 (n_ebus a) = Ok (du1, dbus2, ebus1) ->
    skm_eu (n_eu a) ebus1 (n_pw a) (n_dt a) (ev_la hev) = (e1, ebus2, dt1, act) ->
    let fuA := sk5_assert fu1 (n_btb a) (issue_m (n_eu a) ebus1) in
    IInv l1i1 /\ (f5_processing fuA = true -> 1 <= f5_remaining fuA <= MemoryAccess) /\
    act <> AStuck /\
    mid_ok app (ev_pc hev) (act_q act ++ q_eu e1 ++ q_sb ebus2) du1 (dclean fuA dbus2) (to4 fuA) /\
    eu_ok e1 /\
    (eu_pending_read e1 = true -> ev_la hev <> [] /\ (eu_memory e1 = None -> eu_addrs e1 = ev_la hev)) /\
    (match act with
     | AExec _ _ => eu_processing e1 = false /\ eu_pending_read e1 = false /\ dt1 = dtal (n_eu a) (n_dt a) (ev_la hev)
     | ANone => dtal e1 dt1 (ev_la hev) = dtal (n_eu a) (n_dt a) (ev_la hev)
     | AStuck => True
     end) /\
    (n_du a = false -> fuA = fu1 /\ f5_clean fu1 = false) /\
    sb_current ebus1 = sb_current (n_ebus a).
  Proof.
    intros [HF Hok Hpr Hmiss Hdtl] Ef Ed Ee fuA.
    destruct (decode_flow5 app Happ (ev_pc hev) (rview a) _ _ _ _ _ _ HF Ef Ed) as (HI1 & Hfu1 & Hcl & Hec & Hmid).
    cbn [rview k5_eu k5_ebus] in Hmid, Hec. rewrite q_eu_view in Hmid.
    pose proof Hmid as (_ & _ & _ & Hent1).
    destruct (skm_eu_flow app _ _ _ _ _ _ _ _ _ Hent1 Hok Hmiss Ee) as (Hns & Hfl & Hok1 & Hmiss1 & Hex).
    rewrite <- Hfl in Hmid.
    assert (Hx : forall y, issue_m (n_eu a) ebus1 = Some y -> exists rest, act_q act ++ q_eu e1 ++ q_sb ebus2 = y :: rest).
    { intros y Hy. pose proof (issue_m_spec _ _ _ _ _ _ _ _ _ Ee) as Hs. rewrite Hy in Hs.
      destruct Hs as [-> | [-> Hq]]; cbn [act_q List.app]; [destruct y; eexists; reflexivity | rewrite Hq; eexists; reflexivity]. }
    destruct (assert_flow _ _ _ _ _ (n_btb a) _ Hmid Hcl Hfu1 (g_btb _ _ _ HF) Hx) as [Hmid' Hfu'].
    split; [exact HI1|]. split; [exact Hfu'|]. split; [exact Hns|]. split; [exact Hmid'|].
    split; [exact Hok1|]. split; [exact Hmiss1|]. split; [exact Hex|]. split; [|exact Hec].
    intros Edu. split; [|exact Hcl]. unfold fuA.
    destruct (issue_m (n_eu a) ebus1) as [[i pc]|] eqn:Ei; [|reflexivity]. cbn [sk5_assert].
    apply issue_m_in in Ei. rewrite Hec in Ei.
    assert (Hin : In (i, pc) (naq a)).
    { unfold naq. rewrite q_sb_cur, app_assoc. apply in_or_app. left. exact Ei. }
    pose proof (g_du _ _ _ HF) as Hdu. cbn [rview k5_du] in Hdu. rewrite view_aq, Edu in Hdu.
    apply du_ok_false in Hdu. rewrite Forall_forall in Hdu. specialize (Hdu _ Hin).
    unfold nonunc in Hdu. cbn [fst] in Hdu. rewrite Hdu. reflexivity.
  Qed.

  Lemma mid_tail head x A du dbus f :
    mid_ok app head (x :: A) du dbus f -> uncond (fst x) = false -> mid_ok app (head + 4) A du dbus f.
  Proof.
    intros (HA & (g & n & Hq & Hg & Hgd) & Hdu & Hent) Hu.
    cbn [map length] in HA. rewrite consec4_S in HA. apply cons_inj in HA as [_ HA].
    split; [exact HA|]. split; [|split; [apply (du_ok_tail _ _ _ Hdu Hu) | inversion Hent; assumption]].
    exists g, n. split; [exact Hq|]. split; [exact Hg|]. intros Hd. rewrite (Hgd Hd). cbn [length]. lia.
  Qed.

  Lemma mid_head head x A du dbus f : mid_ok app head (x :: A) du dbus f -> snd x = head /\ entry_ok app x.
  Proof.
    intros (HA & _ & _ & Hent). cbn [map length] in HA. rewrite consec4_S in HA. apply cons_inj in HA as [-> _].
    split; [reflexivity | inversion Hent; assumption].
  Qed.

  Lemma mid_fresh next f du :
    0 <= next < 2147483644 -> f5_complete f = false -> f5_pc f = next ->
    du = false -> mid_ok app next [] du (dclean f sbus_empty) (to4 f).
  Proof.
    intros Hn Hc Hp ->. split; [reflexivity|]. split; [|split; [constructor; constructor | constructor]].
    exists next, O. split; [apply fq_fresh; assumption|]. split; [exact Hn | intros _; cbn [length]; lia].
  Qed.

  Lemma mid_reset next f d :
    0 <= next < 2147483644 -> mid_ok app next [] false (dclean (fu5_reset f next) d) (to4 (fu5_reset f next)).
  Proof.
    intros Hn. split; [reflexivity|]. split; [|split; [constructor; constructor | constructor]].
    exists next, O. split; [apply fq_reset|]. split; [exact Hn | intros _; cbn [length]; lia].
  Qed.

  Lemma eu_ok_run e : eu_ok e -> eu_processing e = true -> eu_runner e <> None.
  Proof. intros (H & _ & _) Hp. apply H. exact Hp. Qed.

  Theorem fm5_step hev rest a a' path' dc :
    FM5 app hev a -> evs_wf app (hev :: rest) -> stores_plain app (hev :: rest) -> sh_inv5 a (hev :: rest) ->
    skm5_pre app a (hev :: rest) = M5Step a' path' dc ->
    exists hev' rest', path' = hev' :: rest' /\ FM5 app hev' a' /\ evs_wf app path' /\ stores_plain app path' /\
      sh_inv5 a' path' /\ (path' = hev :: rest \/ path' = rest).
  Proof.
    intros HF Hwf Hsp Hsh H. unfold skm5_pre in H.
    assert (Hsp' : forall nxt rest', rest = nxt :: rest' -> stores_plain app (nxt :: rest')).
    { intros nxt rest' ->. inversion Hsp; assumption. }
    destruct (fu5_cycle app (n_fu a) (n_l1i a) (n_dbus a)) as [[[fu1 l1i1] dbus1]| |] eqn:Ef; try discriminate.
    destruct (du5_cycle app (n_du a) dbus1 (n_ebus a)) as [[[du1 dbus2] ebus1]| |] eqn:Ed; try discriminate.
    cbn [hla] in H.
    destruct (skm_eu (n_eu a) ebus1 (n_pw a) (n_dt a) (ev_la hev)) as [[[e1 ebus2] dt1] act] eqn:Ee.
    destruct (frontm_flow5 hev a _ _ _ _ _ _ _ _ _ _ HF Ef Ed Ee)
      as (HI1 & Hfu1 & Hns & Hmid & Hok1 & Hmiss1 & Hex & _ & _).
    set (fuA := sk5_assert fu1 (n_btb a) (issue_m (n_eu a) ebus1)) in *.
    pose proof (h_dt _ _ _ HF) as Hdtl.
    pose proof (skm_eu_dt_len _ _ _ _ _ _ _ _ _ Hdtl Ee) as Hdt1l.
    pose proof (h_front _ _ _ HF) as HF5. pose proof (g_head _ _ _ HF5) as Hh.
    pose proof (g_pw _ _ _ HF5) as Hpw. pose proof (g_wb _ _ _ HF5) as Hwb. pose proof (g_btb _ _ _ HF5) as Hbtb.
    cbn [rview k5_pw k5_wb k5_btb] in Hpw, Hwb, Hbtb.
    cbn [sh_inv5] in Hsh. destruct Hsh as [Hsh1 Hsh2].
    destruct act as [|i pc|]; [| |discriminate].
    - (* nothing executed *)
      injection H as <- <- <-. cbn [act_q List.app] in Hmid.
      exists hev, rest. split; [reflexivity|]. split; [|split; [exact Hwf|split; [exact Hsp|split; [|auto]]]].
      + constructor; cbn [rview n_fu n_du n_l1i n_dbus n_ebus n_eu n_pw n_wb n_dt n_btb]; auto.
        * apply F5_build; simpn; auto; [apply eu_ok_run; exact Hok1 | rewrite Hpw; apply wdel_pwof; exact Hwb | discriminate].
      + cbn [sh_inv5 n_eu n_dt]. rewrite Hex. auto.
    - (* (i, pc) executed *)
      destruct Hex as (Hp1 & Hpr1 & Hdt1).
      cbn [act_q List.app] in Hmid.
      destruct (mid_head _ _ _ _ _ _ Hmid) as [Hpc _]. cbn [snd] in Hpc. subst pc.
      unfold skm5_exec in H. rewrite Z.eqb_refl in H. cbn [negb] in H.
      destruct (is_ret i); [destruct rest; discriminate|].
      destruct rest as [|nxt rest']; [discriminate|].
      destruct (evs_wf_tail app _ _ _ Hwf) as [Hwf' Hnext].
      pose proof (addS_next (ev_pc hev) ltac:(lia)) as Hadd.
      assert (Hq_eu : q_eu e1 = []) by (unfold q_eu; rewrite Hp1; reflexivity).
      assert (Hshn : forall e' dtn, eu_pending_read e' = false -> dtn = fst (a_get_all dt1 (ev_sa hev)) ->
                snd (a_get_all (dtal e' dtn (ev_la nxt)) (ev_sa nxt)) = true /\
                stores_hit (fst (a_get_all (dtal e' dtn (ev_la nxt)) (ev_sa nxt))) rest' = true).
      { intros e' dtn He' ->. unfold dtal. rewrite He'.
        rewrite Hdt1. cbn [stores_hit] in Hsh2. apply andb_prop in Hsh2. exact Hsh2. }
      assert (Hok_done : eu_ok e1 /\ eu_pending_read e1 = false) by auto.
      destruct (ev_sa hev) as [|s0 sa'] eqn:Esa.
      + (* not a store *)
        cbv zeta in H.
        destruct (sk5_flush (n_btb a) i (ev_pc hev) (ev_pc nxt)) eqn:Efl; injection H as <- <- <-.
        * (* flush *)
          exists nxt, rest'. split; [reflexivity|]. split; [|split; [exact Hwf'|split; [exact (Hsp' _ _ eq_refl)|split; [|auto]]]].
          -- constructor; cbn [rview n_fu n_du n_l1i n_dbus n_ebus n_eu n_pw n_wb n_dt n_btb].
             ++ apply F5_build; simpn; auto; try discriminate.
                ** cbn [eu_flushed q_eu eu_processing q_sb sbus_empty sb_current sb_pending olist List.app].
                   apply mid_fresh; auto.
                ** destruct (uncond i); [apply btb_add_ok; assumption | exact Hbtb].
             ++ unfold eu_ok, eu_flushed. cbn [eu_processing eu_pending_read eu_memory]. rewrite Hpr1.
                repeat split; try discriminate. intros _. apply Hok1. exact Hpr1.
             ++ cbn [eu_flushed eu_pending_read]. rewrite Hpr1. discriminate.
             ++ cbn [eu_flushed eu_pending_read]. rewrite Hpr1. discriminate.
             ++ exact Hdt1l.
          -- cbn [sh_inv5 n_eu n_dt]. apply Hshn; [cbn [eu_flushed eu_pending_read]; exact Hpr1 | reflexivity].
        * (* no flush *)
          unfold sk5_flush in Efl.
          destruct (uncond i) eqn:Eu.
          -- (* a jump found in the BTB: the fetch unit is redirected *)
             destruct Hmid as (_ & _ & Hdu' & _). destruct (du_ok_head_unc _ _ _ Hdu' Eu) as [HA0 _].
             rewrite Hq_eu in HA0. cbn [List.app] in HA0.
             exists nxt, rest'. split; [reflexivity|]. split; [|split; [exact Hwf'|split; [exact (Hsp' _ _ eq_refl)|split; [|auto]]]].
             ++ constructor; cbn [rview n_fu n_du n_l1i n_dbus n_ebus n_eu n_pw n_wb n_dt n_btb]; auto.
                ** apply F5_build; simpn; auto.
                   --- rewrite Hq_eu, HA0. apply mid_reset. exact Hnext.
                   --- rewrite Hp1. discriminate.
                   --- rewrite Hpw. apply wdel_add_pwof; [exact Hwb | apply write_regs_length].
                   --- intros wr Hwr. injection Hwr as <-. apply write_regs_length.
                   --- apply btb_add_ok; assumption.
                ** rewrite Hpr1. discriminate.
                ** rewrite Hpr1. discriminate.
             ++ cbn [sh_inv5 n_eu n_dt]. apply Hshn; [exact Hpr1 | reflexivity].
          -- apply negb_false_iff, Z.eqb_eq in Efl. rewrite Hadd in Efl.
             exists nxt, rest'. split; [reflexivity|]. split; [|split; [exact Hwf'|split; [exact (Hsp' _ _ eq_refl)|split; [|auto]]]].
             ++ constructor; cbn [rview n_fu n_du n_l1i n_dbus n_ebus n_eu n_pw n_wb n_dt n_btb]; auto.
                ** apply F5_build; simpn; auto.
                   --- rewrite Efl. apply (mid_tail _ _ _ _ _ _ Hmid). exact Eu.
                   --- apply eu_ok_run; exact Hok1.
                   --- rewrite Hpw. apply wdel_add_pwof; [exact Hwb | apply write_regs_length].
                   --- intros wr Hwr. injection Hwr as <-. apply write_regs_length.
                ** rewrite Hpr1. discriminate.
                ** rewrite Hpr1. discriminate.
             ++ cbn [sh_inv5 n_eu n_dt]. apply Hshn; [exact Hpr1 | reflexivity].
      + (* a store that hits; the next pc is pc + 4 *)
        destruct (snd (a_get_all dt1 (s0 :: sa'))) eqn:Ehit; cbn [andb] in H; [|discriminate].
        destruct (Z.eqb_spec (ev_pc nxt) (addS 32 (ev_pc hev) 4)) as [Enx|]; [|discriminate].
        rewrite Hadd in Enx.
        injection H as <- <- <-.
        pose proof (mid_head _ _ _ _ _ _ Hmid) as [_ [_ Hi]]. cbn [fst snd] in Hi.
        exists nxt, rest'. split; [reflexivity|]. split; [|split; [exact Hwf'|split; [exact (Hsp' _ _ eq_refl)|split; [|auto]]]].
        * constructor; cbn [rview n_fu n_du n_l1i n_dbus n_ebus n_eu n_pw n_wb n_dt n_btb]; auto.
          -- apply F5_build; simpn; auto.
             ++ rewrite Enx. apply (mid_tail _ _ _ _ _ _ Hmid). cbn [fst].
                (* a store is not an unconditional jump: stores_plain *)
                apply Forall_inv in Hsp. apply Hsp; [rewrite Esa; discriminate | exact Hi].
             ++ apply eu_ok_run; exact Hok1.
             ++ rewrite Hpw. apply wdel_pwof. exact Hwb.
             ++ discriminate.
          -- rewrite Hpr1. discriminate.
          -- change (zlen (fst (a_get_all dt1 (s0 :: sa'))) <= 16). rewrite a_get_all_len. exact Hdt1l.
        * cbn [sh_inv5 n_eu n_dt]. apply Hshn; [exact Hpr1 | reflexivity].
  Qed.

  Definition phim5 (a : skm5) : Z := phim (projm a).

  (* when the decode unit is not stalled, the MVP-5 skeleton satisfies the MVP-4 invariant *)
  Lemma projm_finvm hev a : FM5 app hev a -> n_du a = false -> FInvM app hev (projm a).
  Proof.
    intros [HF (Hproc & Hpp & Hmem) Hpr Hmiss Hdtl] Edu.
    pose proof (proj_finv app (ev_pc hev) (rview a) HF Edu) as [Hh Hq Hent _ _ _ HI Hpw Hwb].
    pose proof (g_fu _ _ _ HF) as Hfu.
    constructor; cbn [projm m_fu m_l1i m_dbus m_ebus m_eu m_pw m_wb m_dt]; auto.
  Qed.

  Lemma phim5_bounds hev a : FM5 app hev a -> 0 <= phim5 a <= phim_max.
  Proof.
    intros [HF (Hproc & Hpp & Hmem) Hpr Hmiss Hdtl].
    pose proof (fuphi_bounds (to4 (n_fu a)) (g_fu _ _ _ HF)) as Hf.
    unfold phim5, phim, projm, phim_max. cbn [m_fu m_l1i m_dbus m_ebus m_eu m_pw m_wb m_dt]. destruct (eu_processing (n_eu a)).
    - destruct (Hproc eq_refl) as [Hr _]. unfold Cmax, Rmax, MemoryAccess in *.
      destruct (eu_pending_read (n_eu a)), (n_wb a); lia.
    - unfold Cmax, Rmax, MemoryAccess in *.
      destruct (sb_current (n_ebus a)), (sb_pending (n_ebus a)), (sb_current (dclean (n_fu a) (n_dbus a))),
        (sb_pending (dclean (n_fu a) (n_dbus a))); lia.
  Qed.

  Lemma completem_exit5 hev rest a : FM5 app hev a -> skm5_complete a = true -> evs_wf app (hev :: rest) ->
    rest = [] /\ nlen app <= ev_pc hev / 4.
  Proof.
    intros HF Hc Hwf. pose proof (complete_out5 app (ev_pc hev) (rview a) (h_front _ _ _ HF) Hc) as Hout.
    split; [exact (evs_wf_out app _ _ Hwf Hout) | exact Hout].
  Qed.

  Lemma skm5_pre_exec hev rest a fu1 l1i1 dbus1 du1 dbus2 ebus1 e1 ebus2 dt1 i pc :
    FM5 app hev a -> evs_wf app (hev :: rest) -> sh_inv5 a (hev :: rest) ->
    fu5_cycle app (n_fu a) (n_l1i a) (n_dbus a) = Ok (fu1, l1i1, dbus1) ->
    du5_cycle app (n_du a) dbus1 (n_ebus a) = Ok (du1, dbus2, ebus1) ->
    skm_eu (n_eu a) ebus1 (n_pw a) (n_dt a) (ev_la hev) = (e1, ebus2, dt1, AExec i pc) ->
    match skm5_pre app a (hev :: rest) with
    | M5Stuck => False
    | M5Fin _ _ => rest = []
    | M5Step _ path' _ => path' = rest
    end.
  Proof.
    intros HF Hwf Hsh Ef Ed Ee.
    destruct (frontm_flow5 hev a _ _ _ _ _ _ _ _ _ _ HF Ef Ed Ee) as (_ & _ & _ & Hmid & _ & _ & Hex & _).
    destruct Hex as (_ & _ & Hdt1).
    cbn [act_q List.app] in Hmid. destruct (mid_head _ _ _ _ _ _ Hmid) as [Hpc [_ Hi]]. cbn [fst snd] in Hpc, Hi. subst pc.
    unfold skm5_pre. rewrite Ef, Ed. cbn [hla]. rewrite Ee. unfold skm5_exec. rewrite Z.eqb_refl. cbn [negb].
    pose proof (g_head _ _ _ (h_front _ _ _ HF)) as Hh.
    cbn [evs_wf] in Hwf. destruct Hwf as (_ & Hwf). rewrite Hi in Hwf.
    destruct rest as [|nxt r].
    - rewrite Hwf. reflexivity.
    - destruct Hwf as ((i' & Hi' & Hr) & Hst & _). injection Hi' as <-. rewrite Hr.
      cbn [sh_inv5] in Hsh. destruct Hsh as [Hsh1 _].
      destruct (ev_sa hev) as [|s0 sa'] eqn:Esa.
      + cbv zeta. destruct (sk5_flush (n_btb a) i (ev_pc hev) (ev_pc nxt)); reflexivity.
      + rewrite Hdt1, Hsh1. rewrite (Hst ltac:(discriminate)).
        pose proof (addS_next (ev_pc hev) ltac:(lia)) as Hadd.
        rewrite Hadd, Z.eqb_refl. reflexivity.
  Qed.

  Definition after_nonem5 (a : skm5) fuA du1 l1i1 dbus2 ebus2 e1 dt1 : skm5 :=
    mk_skm5 fuA du1 l1i1 dbus2 ebus2 e1 (wdel (n_pw a) (n_wb a)) None dt1 (n_btb a).

  Lemma skm5_pre_none hev rest a fu1 l1i1 dbus1 du1 dbus2 ebus1 e1 ebus2 dt1 :
    fu5_cycle app (n_fu a) (n_l1i a) (n_dbus a) = Ok (fu1, l1i1, dbus1) ->
    du5_cycle app (n_du a) dbus1 (n_ebus a) = Ok (du1, dbus2, ebus1) ->
    skm_eu (n_eu a) ebus1 (n_pw a) (n_dt a) (ev_la hev) = (e1, ebus2, dt1, ANone) ->
    skm5_pre app a (hev :: rest) =
      M5Step (after_nonem5 a (sk5_assert fu1 (n_btb a) (issue_m (n_eu a) ebus1)) du1 l1i1 dbus2 ebus2 e1 dt1) (hev :: rest) 1.
  Proof. intros Ef Ed Ee. unfold skm5_pre. rewrite Ef, Ed. cbn [hla]. rewrite Ee. reflexivity. Qed.

  (* stalled decode unit: the decoded part is not empty and only it moves *)
  Lemma nonem_phi5_stalled hev a fuA l1i1 dbus2 e1 ebus2 dt1 :
    FM5 app hev a -> n_du a = true ->
    skm_eu (n_eu a) (n_ebus a) (n_pw a) (n_dt a) (ev_la hev) = (e1, ebus2, dt1, ANone) ->
    phim5 (after_nonem5 a fuA true l1i1 dbus2 ebus2 e1 dt1) < phim5 a.
  Proof.
    intros HF Edu Ee.
    destruct a as [f du l1i dbus ebus e pw wb dt btb]. simpn.
    destruct HF as [HF5 (Heu & Hpp & Hmem) Hpr Hmiss Hdtl]. simpn.
    pose proof (g_du _ _ _ HF5) as Hdu. pose proof (g_pw _ _ _ HF5) as Hpw.
    unfold aq in Hdu. cbn [rview k5_du k5_eu k5_ebus k5_pw k5_wb] in Hdu, Hpw. simpn. rewrite q_eu_view in Hdu. subst du.
    apply du_ok_true in Hdu.
    unfold phim5, phim, projm, after_nonem5. simpn. cbn [m_fu m_l1i m_dbus m_ebus m_eu m_pw m_wb m_dt].
    destruct (eu_pending_read e) eqn:Epr.
    { (* a load in flight *)
      pose proof (Hpp eq_refl) as Hp. rewrite Hp. destruct (Heu Hp) as [Hr Hrun].
      unfold skm_eu in Ee. rewrite Epr in Ee.
      destruct (Z.eqb_spec (eu_remaining e - 1) 0); cbn [negb] in Ee.
      - destruct (eu_runner e) as [[i pc]|]; discriminate.
      - injection Ee as <- <- <-. cbn [set_rem eu_processing eu_pending_read eu_remaining]. rewrite Hp, Epr. lia. }
    assert (Hsk : skm_eu e ebus pw dt (ev_la hev) =
              let '(e1, ebus1', have) := eu_intake e ebus in
              if negb have then (e1, ebus1', dt, ANone) else
              let rem := eu_remaining e1 - 1 in
              if negb (rem =? 0) then (set_rem e1 rem, ebus1', dt, ANone) else
              match eu_runner e1 with
              | None => (e1, ebus1', dt, AStuck)
              | Some (i, pc) =>
                  if pw_hazard pw (instr_ReadRegisters i) then (set_rem e1 1, ebus1', dt, ANone)
                  else match ev_la hev with
                       | _ :: _ =>
                           if snd (a_get_all dt (ev_la hev))
                           then (mk_eu (eu_processing e1) true (eu_addrs e1) (Some []) L1Access (eu_runner e1), ebus1',
                                 fst (a_get_all dt (ev_la hev)), ANone)
                           else (mk_eu (eu_processing e1) true (ev_la hev) (eu_memory e1) MemoryAccess (eu_runner e1), ebus1',
                                 fst (a_get_all dt (ev_la hev)), ANone)
                       | [] => (eu_done (set_rem e1 rem), ebus1', dt, AExec i pc)
                       end
              end) by (unfold skm_eu; rewrite Epr; reflexivity).
    pose proof Ee as Ee0. rewrite Hsk in Ee. clear Hsk.
    destruct (eu_processing e) eqn:Ep.
    - (* the execute unit is counting down *)
      unfold eu_intake in Ee. rewrite Ep in Ee. cbn [negb] in Ee. destruct (Heu eq_refl) as [Hr Hrun].
      destruct (Z.eqb_spec (eu_remaining e - 1) 0); cbn [negb] in Ee.
      + destruct (eu_runner e) as [[i pc]|]; [|congruence].
        destruct (pw_hazard pw (instr_ReadRegisters i)) eqn:Ehz.
        * injection Ee as <- <- <-. cbn [set_rem eu_processing eu_pending_read eu_remaining]. rewrite Ep, Epr.
          subst pw. apply pwof_hazard in Ehz. destruct wb; [lia | congruence].
        * destruct (ev_la hev) as [|a0 la']; [discriminate|].
          destruct (snd (a_get_all dt (a0 :: la'))); injection Ee as <- <- <-;
            cbn [eu_processing eu_pending_read eu_remaining]; rewrite Ep; unfold L1Access, Rmax, MemoryAccess; destruct wb; lia.
      + injection Ee as <- <- <-. cbn [set_rem eu_processing eu_pending_read eu_remaining]. rewrite Ep, Epr. destruct wb; lia.
    - destruct ebus as [ep ec]. cbn [sb_current sb_pending] in *.
      destruct ec as [[i pc]|].
      + (* the head is in the execute bus, current slot *)
        unfold eu_intake, sbus_get in Ee. rewrite Ep in Ee.
        cbn [sb_current sb_pending negb eu_remaining eu_runner eu_processing eu_addrs eu_memory] in Ee.
        pose proof (cyc_of_bounds i) as Hc.
        destruct (Z.eqb_spec (cyc_of i - 1) 0); cbn [negb] in Ee.
        * destruct (pw_hazard pw (instr_ReadRegisters i)).
          -- injection Ee as <- <- <-. cbn [set_rem eu_processing eu_pending_read eu_remaining]. unfold Cmax, Rmax, MemoryAccess. lia.
          -- destruct (ev_la hev) as [|a0 la']; [discriminate|].
             destruct (snd (a_get_all dt (a0 :: la'))); injection Ee as <- <- <-;
               cbn [eu_processing eu_pending_read eu_remaining]; unfold L1Access, Cmax, Rmax, MemoryAccess; lia.
        * injection Ee as <- <- <-. cbn [set_rem eu_processing eu_pending_read eu_remaining]. unfold Cmax, Rmax, MemoryAccess in *. lia.
      + rewrite (skm_eu_idle_none e (mk_sbus ep None) pw dt _ Epr Ep eq_refl) in Ee0. injection Ee0 as <- <- <-. rewrite Ep.
        cbn [sb_current sb_pending].
        destruct ep as [x|]; [lia|]. exfalso. apply Hdu. unfold q_eu, q_sb. rewrite Ep. reflexivity.
  Qed.

  (* a cycle in which nothing is executed lowers the potential *)
  Lemma none_phim5 hev (P : skm5) fu1 l1i1 dbus1 du1 dbus2 ebus1 e1 ebus2 dt1 :
    FM5 app hev P ->
    fu5_cycle app (n_fu P) (n_l1i P) (n_dbus P) = Ok (fu1, l1i1, dbus1) ->
    du5_cycle app (n_du P) dbus1 (n_ebus P) = Ok (du1, dbus2, ebus1) ->
    skm_eu (n_eu P) ebus1 (n_pw P) (n_dt P) (ev_la hev) = (e1, ebus2, dt1, ANone) ->
    skm5_complete (after_nonem5 P (sk5_assert fu1 (n_btb P) (issue_m (n_eu P) ebus1)) du1 l1i1 dbus2 ebus2 e1 dt1) = false ->
    phim5 (after_nonem5 P (sk5_assert fu1 (n_btb P) (issue_m (n_eu P) ebus1)) du1 l1i1 dbus2 ebus2 e1 dt1) < phim5 P.
  Proof.
    intros HF Ef Ed Ee Hnc.
    destruct (n_du P) eqn:Edu.
    - rewrite du5_stalled in Ed. injection Ed as <- <- <-. eapply nonem_phi5_stalled; eassumption.
    - assert (Ed' : du5_cycle app (n_du P) dbus1 (n_ebus P) = Ok (du1, dbus2, ebus1)) by (rewrite Edu; exact Ed).
      destruct (frontm_flow5 hev P _ _ _ _ _ _ _ _ _ _ HF Ef Ed' Ee) as (_ & _ & _ & _ & _ & _ & _ & Hnr & _).
      destruct (Hnr Edu) as [Hnr1 Hcl]. rewrite Hnr1 in *.
      pose proof (fu5_cycle_inv _ _ _ _ _ _ _ Ef) as [Ef4 _].
      destruct (du5_false _ _ _ _ _ _ Ed) as [Ed4 _].
      pose proof (nonem_phi app Happ hev (projm P) (to4 fu1) l1i1 dbus1 dbus2 ebus1 e1 ebus2 dt1
                    (projm_finvm hev P HF Edu) Ef4 Ed4 Ee) as Hphi.
      unfold phim5. unfold projm at 1, after_nonem5. cbn [n_fu n_du n_l1i n_dbus n_ebus n_eu n_pw n_wb n_dt n_btb].
      unfold dclean at 1. rewrite Hcl. apply Hphi.
      unfold skm5_complete, after_nonem5 in Hnc. cbn [n_fu n_du n_l1i n_dbus n_ebus n_eu n_pw n_wb n_dt n_btb] in Hnc. exact Hnc.
  Qed.

  (* under the front-end invariant the fetch unit and the decode unit do not fail *)
  Lemma fu_du5_total head K : F5 app head K ->
    exists fu1 l1i1 dbus1 du1 dbus2 ebus1,
      fu5_cycle app (k5_fu K) (k5_l1i K) (k5_dbus K) = Ok (fu1, l1i1, dbus1) /\
      du5_cycle app (k5_du K) dbus1 (k5_ebus K) = Ok (du1, dbus2, ebus1).
  Proof.
    intros [Hh HA (g & n & Hq & Hg & Hgd) Hdu Hent Hfu _ _ HI Hpw Hwb Hbtb].
    assert (Hfok : exists fu1 l1i1 dbus1, fu5_cycle app (k5_fu K) (k5_l1i K) (k5_dbus K) = Ok (fu1, l1i1, dbus1)).
    { rewrite fu5_cycle_to4.
      destruct (fu_cycle_spec app (to4 (k5_fu K)) (k5_l1i K) (dclean (k5_fu K) (k5_dbus K)) HI) as (f' & c' & d' & E & _).
      - intros Hc. rewrite (q_pc _ _ _ _ _ Hq Hc). pose proof (nlen_small app Happ). destruct n as [|n]; [lia|].
        pose proof (q_in1 _ _ _ _ _ Hq ltac:(lia) Hc). lia.
      - exact Hfu.
      - rewrite E. eauto. }
    destruct Hfok as (fu1 & l1i1 & dbus1 & Ef). exists fu1, l1i1, dbus1. rewrite Ef.
    destruct (k5_du K); [rewrite du5_stalled; eauto 6|].
    pose proof (fu5_cycle_inv _ _ _ _ _ _ _ Ef) as [Ef4 _].
    destruct (fq_fu app Happ g n [] _ _ _ _ _ _ Hg Hq HI Hfu Ef4) as (_ & _ & [n1 Hq1] & _).
    destruct (du5_cycle_spec app dbus1 (k5_ebus K) (fq_cur_nonneg app g _ _ _ _ ltac:(lia) Hq1)) as (du' & d' & e' & E & _).
    rewrite E. eauto 6.
  Qed.

  Theorem skm5_progress hev rest a :
    FM5 app hev a -> evs_wf app (hev :: rest) -> stores_plain app (hev :: rest) -> sh_inv5 a (hev :: rest) ->
    match skm5_cycle app a (hev :: rest) with
    | M5Stuck => False
    | M5Fin dc _ => (exec_count app (hev :: rest) <= 1)%nat
    | M5Step a' path' _ => path' = rest \/ (path' = hev :: rest /\ phim5 a' < phim5 a)
    end.
  Proof.
    intros HF Hwf Hsp Hsh.
    assert (Hpre : match skm5_pre app a (hev :: rest) with
                   | M5Stuck => False
                   | M5Fin _ _ => rest = []
                   | M5Step a' path' _ => path' = rest \/
                       (path' = hev :: rest /\ (skm5_complete a' = false -> phim5 a' < phim5 a))
                   end).
    { pose proof (h_front _ _ _ HF) as HF5.
      destruct (fu_du5_total _ _ HF5) as (fu1 & l1i1 & dbus1 & du1 & dbus2 & ebus1 & Ef & Ed).
      cbn [rview k5_fu k5_du k5_l1i k5_dbus k5_ebus] in Ef, Ed.
      destruct (skm_eu (n_eu a) ebus1 (n_pw a) (n_dt a) (ev_la hev)) as [[[e1 ebus2] dt1] act] eqn:Ee.
      destruct act as [|i pc|].
      - rewrite (skm5_pre_none hev rest a _ _ _ _ _ _ _ _ _ Ef Ed Ee).
        right. split; [reflexivity|]. intros Hnc. exact (none_phim5 hev a _ _ _ _ _ _ _ _ _ HF Ef Ed Ee Hnc).
      - pose proof (skm5_pre_exec hev rest a _ _ _ _ _ _ _ _ _ _ _ HF Hwf Hsh Ef Ed Ee) as H.
        destruct (skm5_pre app a (hev :: rest)); auto.
      - destruct (frontm_flow5 hev a _ _ _ _ _ _ _ _ _ _ HF Ef Ed Ee) as (_ & _ & Hns & _). congruence. }
    unfold skm5_cycle.
    destruct (skm5_pre app a (hev :: rest)) as [a2 p dc|dc dt|] eqn:Ep; [| |contradiction].
    - destruct (fm5_step hev rest a a2 p dc HF Hwf Hsp Hsh Ep) as (hev' & rest' & -> & HF' & Hwf' & _ & _ & _).
      destruct (skm5_complete a2) eqn:Ec.
      + destruct (completem_exit5 hev' rest' a2 HF' Ec Hwf') as [-> Hout].
        destruct Hpre as [Hp | [Hp _]].
        * subst rest. rewrite (exec_count_cons app), (exec_count_out app hev' Hout). destruct (_ <? _); lia.
        * injection Hp as -> <-. rewrite (exec_count_out app hev Hout). lia.
      + destruct Hpre as [Hp | [Hp Hphi]]; [left; exact Hp | right; split; [exact Hp | apply Hphi; reflexivity]].
    - subst rest. rewrite (exec_count_cons app). unfold exec_count. cbn [filter length]. destruct (_ <? _); lia.
  Qed.

  Lemma skm5_cycle_dc a path :
    match skm5_cycle app a path with
    | M5Fin dc _ => dc = 1 \/ dc = 2
    | M5Step _ _ dc => dc = 1 \/ dc = 2
    | M5Stuck => True
    end.
  Proof.
    assert (Hpre : match skm5_pre app a path with
                   | M5Fin dc _ => dc = 1
                   | M5Step _ _ dc => dc = 1 \/ dc = 2
                   | M5Stuck => True
                   end).
    { unfold skm5_pre.
      destruct (fu5_cycle app (n_fu a) (n_l1i a) (n_dbus a)) as [[[fu1 l1i1] dbus1]| |]; try exact I.
      destruct (du5_cycle app (n_du a) dbus1 (n_ebus a)) as [[[du1 dbus2] ebus1]| |]; try exact I.
      destruct (skm_eu (n_eu a) ebus1 (n_pw a) (n_dt a) _) as [[[e1 ebus2] dt1] act].
      destruct act as [|i pc|]; try exact I; auto. unfold skm5_exec.
      destruct path as [|ev rest]; try exact I. destruct (negb (ev_pc ev =? pc)); try exact I.
      destruct (is_ret i); [destruct rest; auto|]. destruct rest as [|nxt r]; try exact I.
      destruct (ev_sa ev).
      - cbv zeta. destruct (sk5_flush (n_btb a) i pc (ev_pc nxt)); auto.
      - destruct (_ && _); auto. }
    unfold skm5_cycle. destruct (skm5_pre app a path) as [a2 p dc|dc dt|]; auto.
    destruct (skm5_complete a2); auto.
  Qed.

  Lemma skm5_cycle_fin_dt hev rest a dc dt :
    FM5 app hev a -> evs_wf app (hev :: rest) -> stores_plain app (hev :: rest) -> sh_inv5 a (hev :: rest) ->
    skm5_cycle app a (hev :: rest) = M5Fin dc dt -> zlen dt <= 16.
  Proof.
    intros HF Hwf Hsp Hsh H. unfold skm5_cycle in H.
    destruct (skm5_pre app a (hev :: rest)) as [a2 p d|d t|] eqn:Ep; [| |discriminate].
    - destruct (fm5_step hev rest a a2 p d HF Hwf Hsp Hsh Ep) as (hev' & rest' & _ & HF' & _).
      destruct (skm5_complete a2); [|discriminate]. injection H as _ <-. exact (h_dt _ _ _ HF').
    - injection H as _ <-. unfold skm5_pre in Ep.
      destruct (fu5_cycle app (n_fu a) (n_l1i a) (n_dbus a)) as [[[fu1 l1i1] dbus1]| |]; try discriminate.
      destruct (du5_cycle app (n_du a) dbus1 (n_ebus a)) as [[[du1 dbus2] ebus1]| |]; try discriminate.
      cbn [hla] in Ep.
      destruct (skm_eu (n_eu a) ebus1 (n_pw a) (n_dt a) (ev_la hev)) as [[[e1 ebus2] dt1] act] eqn:Ee.
      pose proof (skm_eu_dt_len _ _ _ _ _ _ _ _ _ (h_dt _ _ _ HF) Ee) as Hl.
      destruct act as [|i pc|]; try discriminate. unfold skm5_exec in Ep.
      destruct (negb (ev_pc hev =? pc)); try discriminate.
      destruct (is_ret i).
      + destruct rest; [injection Ep as _ <-; exact Hl | discriminate].
      + destruct rest as [|nxt r]; try discriminate. destruct (ev_sa hev).
        * cbv zeta in Ep. destruct (sk5_flush (n_btb a) i pc (ev_pc nxt)); discriminate.
        * destruct (_ && _); discriminate.
  Qed.

  Definition skm5_eres (r : skm5_res) : eres skm5 :=
    match r with M5Step a p dc => EStep a p dc | M5Fin dc dt => EFin dc dt | M5Stuck => EStuck end.

  Lemma skm5_run_erun : forall fuel a path cyc,
    skm5_run fuel app a path cyc = erun (fun a path => skm5_eres (skm5_cycle app a path)) fuel a path cyc.
  Proof.
    induction fuel as [|f IH]; intros a path cyc; [reflexivity|]. cbn [skm5_run erun].
    destruct (skm5_cycle app a path); cbn [skm5_eres]; auto.
  Qed.

  Lemma skm5_run_term : forall (m : nat) rest a hev cyc fuel,
    FM5 app hev a -> evs_wf app (hev :: rest) -> stores_plain app (hev :: rest) -> sh_inv5 a (hev :: rest) ->
    (Z.to_nat (phim5 a) + length rest * Kstepm <= m)%nat -> (m < fuel)%nat ->
    exists c, skm5_run fuel app a (hev :: rest) cyc = Some c /\
              cyc + Z.of_nat (exec_count app (hev :: rest)) <= c <= cyc + 2 * (Z.of_nat m + 1) + MemoryAccess * 16.
  Proof.
    intros m rest a hev cyc fuel HF Hwf Hsp Hsh Hm Hfuel.
    set (P := fun hev rest a => FM5 app hev a /\ evs_wf app (hev :: rest) /\ stores_plain app (hev :: rest) /\ sh_inv5 a (hev :: rest)).
    assert (Hstep : forall h r b b' p' d, P h r b -> skm5_eres (skm5_cycle app b (h :: r)) = EStep b' p' d ->
                      exists h' r', p' = h' :: r' /\ P h' r' b').
    { intros h r b b' p' d (HF1 & Hwf1 & Hsp1 & Hsh1) E.
      assert (Epre : skm5_pre app b (h :: r) = M5Step b' p' d).
      { unfold skm5_cycle in E. destruct (skm5_pre app b (h :: r)) as [a2 p0 d0|d0 t|]; try discriminate.
        destruct (skm5_complete a2); [discriminate|]. cbn [skm5_eres] in E. congruence. }
      destruct (fm5_step h r b b' p' d HF1 Hwf1 Hsp1 Hsh1 Epre) as (h' & r' & -> & HF' & Hwf' & Hsp' & Hsh' & _).
      exists h', r'. split; [reflexivity|]. exact (conj HF' (conj Hwf' (conj Hsp' Hsh'))). }
    assert (Hdc : forall h r b, match skm5_eres (skm5_cycle app b (h :: r)) with
                                | EStep _ _ dc | EFin dc _ => 1 <= dc <= 2 | EStuck => True end).
    { intros h r b. pose proof (skm5_cycle_dc b (h :: r)) as H. destruct (skm5_cycle app b (h :: r)); cbn [skm5_eres]; lia. }
    destruct (erun_term skm5 (fun a path => skm5_eres (skm5_cycle app a path)) P phim5 phim_max (exec_count app) (exec_count_le app) Hstep)
      with (m := m) (rest := rest) (a := a) (hev := hev) (cyc := cyc) (fuel := S m) as (c & Hc & Hlo);
      [| |exact (conj HF (conj Hwf (conj Hsp Hsh)))|exact Hm|lia|].
    - intros h r b (HF1 & Hwf1 & Hsp1 & Hsh1). pose proof (skm5_progress h r b HF1 Hwf1 Hsp1 Hsh1) as Hp. specialize (Hdc h r b).
      destruct (skm5_cycle app b (h :: r)); cbn [skm5_eres] in *; [split; [lia | exact Hp] | split; [exact Hp | lia] | exact Hp].
    - intros h r b (HF1 & _). exact (phim5_bounds h b HF1).
    - assert (Hup : c <= cyc + 2 * Z.of_nat (S m) + MemoryAccess * 16).
      { apply (erun_upper skm5 (fun a path => skm5_eres (skm5_cycle app a path)) P Hstep) with (rest := rest) (a := a) (hev := hev);
          [|exact (conj HF (conj Hwf (conj Hsp Hsh)))|exact Hc].
        intros h r b (HF1 & Hwf1 & Hsp1 & Hsh1). specialize (Hdc h r b). pose proof (skm5_cycle_fin_dt h r b) as Hdt.
        destruct (skm5_cycle app b (h :: r)) as [? ? d0|d0 t|]; cbn [skm5_eres] in *;
          [lia | split; [lia | exact (Hdt d0 t HF1 Hwf1 Hsp1 Hsh1 eq_refl)] | exact I]. }
      exists c. split; [|lia]. rewrite skm5_run_erun. replace fuel with (S m + (fuel - S m))%nat by lia. apply erun_more. exact Hc.
  Qed.

  Lemma init_fm5 c0 hev : IInv c0 -> ev_pc hev = 0 -> FM5 app hev (skm5_init c0).
  Proof.
    intros HI H0. constructor; cbn [skm5_init n_fu n_du n_l1i n_dbus n_ebus n_eu n_pw n_wb n_dt n_btb eu_pending_read];
      try discriminate.
    - rewrite H0. unfold rview. cbn [skm5_init n_fu n_du n_l1i n_dbus n_ebus n_eu n_pw n_wb n_dt n_btb].
      apply F5_build; auto; try discriminate; try lia.
      + cbn [q_eu eu_processing q_sb sbus_empty sb_current sb_pending olist List.app].
        apply mid_fresh; auto; lia.
      + constructor.
    - unfold eu_ok. cbn [eu_processing eu_pending_read eu_memory]. repeat split; discriminate.
  Qed.
End FrontM5.
