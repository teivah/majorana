(* Refinement of MVP-6.2 to the sequential machine on register-only programs: one tick of Run.
   A state of Mvp62.v related (RS) to a state of Mvp61.v that satisfies the invariant of the proof of
   MVP-6.1 (GI1 / GR1 / GF1 of Mvp61RefStep2.v, Mvp61RefStep3.v) makes the same step: same mode, same
   cycle counter, related machines.  The invariant on the transaction map: in the main loop every
   entry is older than the oldest instruction that has not executed (TxB (sid x)); in the flush
   loops older than or equal to the flushing branch. *)
From Coq Require Import ZArith List Bool Lia Permutation.
From Maj Require Import Base.Outcome Base.GoInt Base.GoTypes Isa.Spec Isa.Embed Isa.Seq Isa.Refine.
From Maj Require Import Gen.Latency Gen.RiscTables Gen.Opcodes Comp.Cache Comp.Rat Comp.RatProofs Comp.Tx Comp.TxProofs.
From Maj Require Import Mvp.Mvp12 Mvp.Mvp12Proofs Mvp.Mvp3 Mvp.Mvp3Proofs Mvp.Mvp4Skel Mvp.Mvp4Inv Mvp.Mvp4Sim Mvp.Mvp5 Mvp.Mvp60 Mvp.Mvp61
     Mvp.Mvp60RefSem Mvp.Mvp60RefDefs Mvp.Mvp60RefFront Mvp.Mvp60RefBack Mvp.Mvp60RefStep Mvp.Mvp60RefStep2
     Mvp.Mvp61RefSem Mvp.Mvp61RefFront Mvp.Mvp61RefBack Mvp.Mvp61RefInv Mvp.Mvp61RefCu Mvp.Mvp61RefExec Mvp.Mvp61RefExec2
     Mvp.Mvp61RefStep Mvp.Mvp61RefStep2 Mvp.Mvp61RefStep3.
From Maj Require Import Mvp.Mvp62 Mvp.Mvp62Proofs Mvp.Mvp62RefRel Mvp.Mvp62RefFront Mvp.Mvp62RefExec.
Import ListNotations.
Open Scope Z_scope.

(* the loops of Run *)
Definition ModeR (o2 : mode62) (o1 : mode1) : Prop :=
  match o2, o1 with
  | Mvp62.NNormal, Mvp61.NNormal => True
  | Mvp62.NRet, Mvp61.NRet => True
  | NFlushE sq pc fromc, NFlushO fromc1 sq1 pc1 => sq = sq1 /\ pc = pc1 /\ fromc = fromc1
  | Mvp62.NFlushW k sq pc fromc ie, Mvp61.NFlushW k1 ie1 fromc1 sq1 pc1 => k = k1 /\ sq = sq1 /\ pc = pc1 /\ fromc = fromc1 /\ ie = ie1
  | _, _ => False
  end.

Record RS (nap : nat) (sg : Z -> Z) (s2 : st62) (s1 : st1) : Prop := mkRS {
  rs_m : RM nap sg (Mvp62.t_m s2) (Mvp61.t_m s1);
  rs_prev : PrevOK sg (Mvp62.t_m s2) (x_nch (y_x (Mvp61.t_m s1)));
  rs_eus : Forall2 REi (Mvp62.t_eus s2) (Mvp61.t_eus s1);
  rs_wus : Mvp62.t_wus s2 = Mvp61.t_wus s1;
  rs_cyc : Mvp62.t_cycle s2 = Mvp61.t_cycle s1;
  rs_mode : ModeR (Mvp62.t_mode s2) (Mvp61.t_mode s1) }.

(* the results of a step *)
Definition StepR (nap : nat) (b : Z) (r2 : step_res62) (r1 : step_res1) : Prop :=
  match r1 with
  | Mvp61.TDone r _ => forall cf st, r = MDone cf st -> exists os2, r2 = Mvp62.TDone r os2
  | Mvp61.TCont s1' => exists sg' s2', r2 = Mvp62.TCont s2' /\ RS nap sg' s2' s1' /\ TxB (n_ctx (Mvp62.t_m s2')) b
  end.

Lemma RS_intro nap sg m2 m1 eus2 eus1 wus cy o2 o1 os2 os1 :
  RM nap sg m2 m1 -> PrevOK sg m2 (x_nch (y_x m1)) -> Forall2 REi eus2 eus1 -> ModeR o2 o1 ->
  RS nap sg (mk_st62 m2 eus2 wus cy o2 os2) (mk_st1 m1 eus1 wus cy o1 os1).
Proof. intros. constructor; auto. Qed.

Lemma StepR_cont nap b sg s2' s1' : RS nap sg s2' s1' -> TxB (n_ctx (Mvp62.t_m s2')) b -> StepR nap b (Mvp62.TCont s2') (Mvp61.TCont s1').
Proof. intros H HT. exists sg, s2'. auto. Qed.

Lemma StepR_done nap b r os2 os1 : StepR nap b (Mvp62.TDone r os2) (Mvp61.TDone r os1).
Proof. intros cf st _. exists os2. reflexivity. Qed.

Lemma idle_empty eus2 eus1 : Forall2 REi eus2 eus1 ->
  forallb eu_empty62 eus2 = true /\ forallb eu_empty1 eus1 = true /\ forallb eu_empty (map u_e eus1) = true.
Proof.
  induction 1 as [|e2 e1 t2 t1 [H1 H2 H3 H4 H5] _ (IH1 & IH2 & IH3)]; [repeat split|]. cbn [forallb map].
  rewrite IH1, IH2, IH3. unfold eu_empty62, eu_empty1, eu_empty. rewrite H1, H2. repeat split.
Qed.

(* CPU.isEmpty: the same seven conditions in another order; the buses of the embedded MVP-6.0 machine stay empty *)
Lemma is_empty_sim nap sg m2 m1 eus2 eus1 wus : RM nap sg m2 m1 -> Forall2 REi eus2 eus1 ->
  m_cu (y_m m1) = [] -> bb_isempty (m_cbus (y_m m1)) = true -> bb_isempty (m_ebus (y_m m1)) = true ->
  is_empty62 m2 eus2 wus = is_empty1 m1 eus1 wus.
Proof.
  intros HR HE Hcu Hcb Heb. destruct (idle_empty _ _ HE) as (E2 & _ & E1).
  unfold is_empty62, is_empty1, is_empty6. rewrite Hcu, Hcb, Heb, E2, E1.
  rewrite (rm_fu HR), (rm_dbus HR), (rm_wbus HR), (F2_len _ _ _ (rm_cu HR)),
    (RBus_isempty _ _ _ (rm_cbus HR)), (RBus_isempty _ _ _ (rm_ebus HR)).
  change (zlen (@nil runner) =? 0) with true. rewrite !andb_true_r.
  apply Bool.eq_iff_eq_true. rewrite !andb_true_iff. tauto.
Qed.

Lemma finish_sim nap sg m2 m1 cy : RM nap sg m2 m1 -> finish62 m2 cy = finish6 (y_m m1) cy.
Proof.
  intros HR. unfold finish62, finish6. rewrite (rm_l3 HR), (rm_mem HR).
  destruct (flush_lines _ _ 0) as [[mem' c]| |]; try reflexivity. rewrite (regs_of_commit _ _ (rm_vw HR)). reflexivity.
Qed.

Lemma RM_wbus_set nap sg m2 m1 w : RM nap sg m2 m1 -> RM nap sg (set_n_wbus m2 w) (set_m m1 (set_wbus (y_m m1) w)).
Proof. intros HR. rm_frame HR. Qed.

(* the drain loop is entered or continued: writeBus.Connect, then its condition *)
Lemma ret_check_sim nap sg bn m2 m1 eus2 eus1 wus cy os2 os1 :
  RM nap sg m2 m1 -> PrevOK sg m2 (x_nch (y_x m1)) -> Forall2 REi eus2 eus1 -> TxB (n_ctx m2) bn ->
  StepR nap bn (ret_check62 (mk_st62 (set_n_wbus m2 (bb_connect (n_wbus m2) cy)) eus2 wus cy Mvp62.NRet os2))
               (ret_check1 (mk_st1 (on_wbus m1 (fun w => bb_connect w cy)) eus1 wus cy Mvp61.NRet os1)).
Proof.
  intros HR HP HE HT. destruct (idle_empty _ _ HE) as (Hem2 & Hem1 & _).
  unfold ret_check1, ret_check62, on_wbus.
  cbn [Mvp62.t_eus Mvp62.t_wus Mvp62.t_m Mvp61.t_eus Mvp61.t_wus Mvp61.t_m Mvp62.t_cycle Mvp61.t_cycle Mvp62.t_os Mvp61.t_os].
  rewrite Hem2, Hem1, (rm_wbus HR). ss.
  pose proof (RM_wbus_set nap sg m2 m1 (bb_connect (m_wbus (y_m m1)) cy) HR) as HR'.
  destruct (_ && _).
  - rewrite (finish_sim _ _ _ _ _ HR'). apply StepR_done.
  - apply (StepR_cont _ _ sg); [|exact HT]. apply RS_intro; auto. exact I.
Qed.

Lemma F2_in {A B} (P : A -> B -> Prop) l2 l1 a : Forall2 P l2 l1 -> In a l2 -> exists b, In b l1 /\ P a b.
Proof. induction 1 as [|x y t2 t1 Hp _ IH]; intros Hin; [destruct Hin|]. destruct Hin as [<-|Hin]; [exists y; split; [left; reflexivity | exact Hp]|]. destruct (IH Hin) as (b & Hb & Hpb). exists b. split; [right; exact Hb | exact Hpb]. Qed.

Section Step62.
  Variables (app : list instr) (labels : Z -> option Z) (regs0 mem0 : list Z) (base : nat) (sq : Z) (off : Z).
  Hypothesis Happ : wf_app app.
  Hypothesis Hreg : reg_only app = true.
  Hypothesis Hrng : regs_in_range app = true.
  Hypothesis Hlen32 : length regs0 = 32%nat.
  Hypothesis Hbase : (base <= length app)%nat.
  Let n := length app.
  Let N := stop_from app base.
  Hypothesis Hsq : 0 <= sq /\ 1000 * sq + 4 * Z.of_nat n < 2147483648.

  Notation sreg := (sreg app labels regs0 base).
  Notation eff := (eff app labels regs0 base).
  Notation ik := (ik app).
  Notation rnq := (rnq app sq).
  Notation sid := (sid sq).
  Notation wbq := (wbq app labels regs0 base sq).
  Notation bresp := (bresp app labels regs0 base sq).
  Notation GI1 := (GI1 app labels regs0 mem0 base sq off).
  Notation GR1 := (GR1 app labels regs0 mem0 base sq off).
  Notation GF1 := (GF1 app labels regs0 mem0 base sq).
  Notation Fin1 := (Fin1 app labels regs0 mem0 base sq off).
  Notation CoreI := (CoreI app labels regs0 mem0 base sq).
  Notation FrontI1 := (FrontI1 app base sq).
  Notation WbOK1 := (WbOK1 app labels regs0 base sq).

  Hypothesis Hsem : forall k, (base <= k <= N)%nat -> (k < n)%nat ->
    exec (sinstr_of (ik k)) (rget (sreg k)) labels (pcz k) [] = Ok (eff k) /\
    (forall a, etarget (eff k) = Some a -> exists t, a = pcz t /\ (k < t <= n)%nat).
  Hypothesis Hr32 : Forall int32 regs0.

  (* The lemmas of Mvp61Ref*.v were closed over sections with these same variables and hypotheses, every lemma
     over all of them ("All"); the same is done here, so that a lemma L of theirs is used as (IA L) or, where
     its section also had off and Hr32, as (IS L): L applied to the present context. *)
  Set Default Proof Using "All".
  Notation "'IA' L" := (L app labels regs0 mem0 base sq Happ Hreg Hrng Hlen32 Hbase Hsq Hsem) (at level 10, L at level 9, only parsing).
  Notation "'IS' L" := (L app labels regs0 mem0 base sq off Happ Hreg Hrng Hlen32 Hbase Hsq Hsem Hr32) (at level 10, L at level 9, only parsing).

  Notation RS := (RS n).
  Notation StepR := (StepR n).

  (* the indices of the invariant of the main loop are determined by the state *)
  Lemma FrontI1_unique d c f cy m d' c' f' cy' : FrontI1 d c f cy m -> FrontI1 d' c' f' cy' m -> d = d'.
  Proof.
    intros H H'. pose proof (fi_pc _ _ _ _ (f1_fetch _ _ _ _ _ _ _ _ H)) as P. pose proof (fi_pc _ _ _ _ (f1_fetch _ _ _ _ _ _ _ _ H')) as P'.
    assert (Ef : f = f') by (unfold pcz in *; lia). subst f'.
    pose proof (f1_dbus _ _ _ _ _ _ _ _ H) as D. pose proof (f1_dbus _ _ _ _ _ _ _ _ H') as D'.
    pose proof (f1_cf _ _ _ _ _ _ _ _ H). pose proof (f1_cf _ _ _ _ _ _ _ _ H').
    assert (Ec : c = c'). { apply (f_equal (@length Z)) in D, D'. rewrite map_length, seq_length in D, D'. lia. } subst c'.
    pose proof (f1_cb _ _ _ _ _ _ _ _ H) as B. pose proof (f1_cb _ _ _ _ _ _ _ _ H') as B'.
    pose proof (f1_dc _ _ _ _ _ _ _ _ H). pose proof (f1_dc _ _ _ _ _ _ _ _ H').
    apply (f_equal (@length runner1)) in B, B'. rewrite map_length, seq_length in B, B'. lia.
  Qed.

  Lemma GI1_x d c f x s dd cc ff xx : GI1 d c f x s -> FrontI1 dd cc ff (Mvp61.t_cycle s) (Mvp61.t_m s) ->
    map r_b (EB (Mvp61.t_m s)) = map rnq (seq xx (dd - xx)) -> (xx <= dd)%nat -> x = xx.
  Proof.
    intros HG HF HE Hx. pose proof (FrontI1_unique _ _ _ _ _ _ _ _ _ (g1_front _ _ _ _ _ _ _ _ _ _ _ _ HG) HF) as <-.
    pose proof (g1_ti _ _ _ _ _ _ _ _ _ _ _ _ HG) as HT. pose proof (t1_ebus _ _ _ _ _ _ _ _ _ _ HT) as E1. pose proof (t1_xd _ _ _ _ _ _ _ _ _ _ HT) as X1.
    rewrite HE in E1. apply (f_equal (@length runner)) in E1. rewrite !map_length, !seq_length in E1. lia.
  Qed.

  (* what waits in the write bus *)
  Lemma wbok_fine dd wx : WbOK1 dd wx -> WbFine wx /\ exists k, wx = wbq k /\ (k < dd)%nat.
  Proof.
    intros (k & Hkd & HkN & Hkn & Hnr & ->). split; [|exists k; split; [reflexivity | lia]].
    unfold WbFine. cbn [Mvp61RefInv.wbq w_exe]. destruct (Hsem k ltac:(lia) Hkn) as [He _].
    pose proof (spec_writes_sound _ _ _ _ _ _ He) as Hws. rewrite <- write_registers_exact in Hws.
    intros Hrc. split; [|apply zero_register_write].
    destruct (eff k) as [rd v| | | |rd v a|]; cbn [embed RegisterChange] in Hrc |- *; try discriminate Hrc.
    - pose proof ((IA ik_write_ok) k rd ltac:(rewrite Hws; left; reflexivity)) as Hok. unfold reg_ok in Hok. apply andb_prop in Hok as [A B].
      apply Z.leb_le in A. apply Z.ltb_lt in B. unfold reg_pair. destruct (rd =? 0); cbn [Register]; lia.
    - pose proof ((IA ik_write_ok) k rd ltac:(rewrite Hws; left; reflexivity)) as Hok. unfold reg_ok in Hok. apply andb_prop in Hok as [A B].
      apply Z.leb_le in A. apply Z.ltb_lt in B. unfold reg_pair. destruct (rd =? 0); cbn [Register]; lia.
  Qed.

  Lemma wb_old d c f x s wx : GI1 d c f x s -> In wx (WB (Mvp61.t_m s)) -> WbFine wx /\ w_seq wx < sid x.
  Proof.
    intros HG Hin. pose proof (g1_core _ _ _ _ _ _ _ _ _ _ _ _ HG) as HC. pose proof (g1_ti _ _ _ _ _ _ _ _ _ _ _ _ HG) as HT.
    pose proof (c_w _ _ _ _ _ _ _ _ _ HC) as Hw. rewrite Forall_forall in Hw. destruct (wbok_fine d wx (Hw wx Hin)) as [Hf (k & -> & Hk)].
    split; [exact Hf|]. cbn [Mvp61RefInv.wbq w_seq]. apply (IS sid_lt).
    destruct (c_sem _ _ _ _ _ _ _ _ _ HC) as (fs & HB & _). pose proof (bf_nodup _ _ _ _ _ _ _ _ _ _ HB) as Hnd. unfold Mvp61RefInv.FL1 in Hnd.
    rewrite ((IS kr1_of_rb) _ _ _ (t1_ebus _ _ _ _ _ _ _ _ _ _ HT)) in Hnd.
    destruct (Nat.lt_ge_cases k x) as [Hlt|Hge]; [exact Hlt|]. exfalso.
    apply (NoDup_app_not_both _ _ k Hnd).
    - apply in_seq. pose proof (t1_xd _ _ _ _ _ _ _ _ _ _ HT). lia.
    - apply in_map_iff. exists (wbq k). split; [apply (IA kw1_wbq) | exact Hin].
  Qed.

  (* the responses of the units that ran *)
  Lemma merge_from x0 : forall ks acc, (forall k, In k ks -> (x0 <= k)%nat) -> (o_flush acc = true -> sid x0 <= o_from acc) ->
    o_flush (fold_left merge1 (map bresp ks) acc) = true -> sid x0 <= o_from (fold_left merge1 (map bresp ks) acc).
  Proof.
    induction ks as [|k t IH]; intros acc Hk Ha; cbn [map fold_left]; [exact Ha|].
    apply IH; [intros k' Hk'; apply Hk; right; exact Hk'|].
    unfold merge1. cbn [o_flush o_from]. intros Hfl.
    destruct (Mvp61.p_flush (bresp k)) eqn:Ep; cbn [andb].
    - destruct (negb (o_flush acc) || (Mvp61.p_seq (bresp k) <? o_from acc)) eqn:Et.
      + destruct ((IS bresp_cases) k) as [E|[[_ E]|(a & E & _)]]; rewrite E in Ep |- *; try discriminate Ep. cbn [Mvp61.p_seq].
        apply (IS sid_le). apply Hk. left. reflexivity.
      + apply orb_false_elim in Et as [Et _]. apply negb_false_iff in Et. apply Ha. exact Et.
    - rewrite orb_false_r in Hfl. apply Ha. exact Hfl.
  Qed.

  Lemma merge_nofl : forall ks acc, o_flush (fold_left merge1 (map bresp ks) acc) = false ->
    o_flush acc = false /\ forall k, In k ks -> Mvp61.p_flush (bresp k) = false.
  Proof.
    induction ks as [|k t IH]; intros acc H; cbn [map fold_left] in H; [split; [exact H | intros k []]|].
    destruct (IH _ H) as [H1 H2]. unfold merge1 in H1. cbn [o_flush] in H1. apply orb_false_elim in H1 as [H1 H1'].
    split; [exact H1|]. intros k' [<-|Hk']; [exact H1' | apply H2; exact Hk'].
  Qed.

  Lemma REi_setseq eus2 eus1 v : Forall2 REi eus2 eus1 -> Forall2 REi (map (eu_set_seq v) eus2) (map (fun e => eu_sid_set e v) eus1).
  Proof.
    induction 1 as [|e2 e1 t2 t1 [B1 B2 B3 B4 B5] _ IH]; cbn [map]; constructor; [|exact IH].
    unfold eu_set_seq, eu_sid_set. constructor; cbn [x_co x_memory Mvp62.x_seq x_runner u_e u_sid]; auto.
  Qed.

  (* what the execute units of MVP-6.1 find when they start: the execute bus holds instructions from x on,
     the queue of the write bus results older than x *)
  Lemma front_queues d c f x s os0 m4 : GI1 d c f x s ->
    front1 app pord0 (Mvp61.t_cycle s + 1) (Mvp61.t_m s) = Ok (os0, m4) ->
    (forall r, In r (EB m4) -> exists k, (x <= k)%nat /\ r_b r = rnq k) /\
    (forall wx, In wx (bb_q (m_wbus (y_m m4))) -> WbFine wx /\ w_seq wx < sid x).
  Proof.
    intros HG Efront. pose proof HG as [GF GB GP GT GW GWne GC GM].
    set (m0 := Mvp61.t_m s) in *. set (cyc := Mvp61.t_cycle s) in *.
    destruct (IA conn_ok1 d c f cyc m0 GF GB GP) as (C1 & C2 & C3 & C4 & CP & _).
    set (m1c := conn1 m0 (cyc + 1)) in *.
    destruct (IA fd_ok1 d c f cyc m1c C1 (f1_seq _ _ _ _ _ _ _ _ C1) (c_fwd _ _ _ _ _ _ _ _ _ C2))
      as (m3 & c'' & f'' & Efd & F3 & R1 & R2 & R3 & R4 & R5 & R7 & (cb & Rx) & _).
    assert (Rcu : x_cu (y_x m3) = x_cu (y_x m1c)) by (rewrite Rx; destruct (y_x m1c); reflexivity).
    assert (Reb : x_ebus (y_x m3) = x_ebus (y_x m1c)) by (rewrite Rx; destruct (y_x m1c); reflexivity).
    assert (Rpv : x_prev (y_x m3) = x_prev (y_x m1c)) by (rewrite Rx; destruct (y_x m1c); reflexivity).
    assert (HEB3 : EB m3 = EB m1c) by (unfold EB; rewrite Reb; reflexivity).
    assert (HWB3 : WB m3 = WB m1c) by (unfold WB; rewrite R7; reflexivity).
    assert (HB3 : CoreI d (x_cu (y_x m3)) m3).
    { rewrite Rcu. eapply (IA CoreI_ext); [exact HEB3 | exact HWB3 | exact R1 | exact R3 | exact R4 | exact R2 | exact R5 | | | | | | |exact C2];
        rewrite Rx; destruct (y_x m1c); reflexivity. }
    assert (HP3 : forall p, In p (x_prev (y_x m3)) -> In p (EB m3) /\ r_fw p = None) by (rewrite Rpv, HEB3; exact CP).
    destruct (IA cu_ok1 pord0 d c'' f'' (cyc + 1) m3 F3 HB3 HP3) as (lp & _ & _ & _ & _ & _ & _ & _ & _ & Q3 & _ & _ & _ & _ & _ & _ & Q7 & _).
    assert (Em4 : snd (cu_cycle1 pord0 (cyc + 1) m3) = m4).
    { rewrite front1_eq in Efront. fold m1c in Efront. rewrite Efd in Efront. cbn [bind] in Efront.
      destruct (cu_cycle1 pord0 (cyc + 1) m3). injection Efront as _ <-. reflexivity. }
    rewrite Em4 in Q3, Q7. split.
    - intros r Hr. apply (in_map r_b) in Hr. rewrite Q7, HEB3, C3, (t1_ebus _ _ _ _ _ _ _ _ _ _ GT) in Hr.
      pose proof (t1_xd _ _ _ _ _ _ _ _ _ _ GT) as Hxd. clear - Hr Hxd.
      apply in_app_or in Hr as [Hr|Hr]; apply in_map_iff in Hr as (k & <- & Hk); apply in_seq in Hk; exists k; (split; [lia | reflexivity]).
    - intros wx Hwx. apply (wb_old d c f x s wx HG). fold m0. rewrite <- C4. unfold WB, flat. rewrite <- R7, <- Q3. apply in_or_app. left. exact Hwx.
  Qed.

  (* one iteration of the main loop *)
  Lemma normal_core sg ord d c f x s2 s1 : RS sg s2 s1 -> GI1 d c f x s1 -> TxB (n_ctx (Mvp62.t_m s2)) (sid x) ->
    StepR (sid x) (step62 app labels ord s2) (step1 app labels ord pord0 s1) /\
    (forall s1' d' c' f' x', step1 app labels ord pord0 s1 = Mvp61.TCont s1' -> GI1 d' c' f' x' s1' -> (x <= x')%nat) /\
    (forall s1' fr sq0 pc0, step1 app labels ord pord0 s1 = Mvp61.TCont s1' -> Mvp61.t_mode s1' = NFlushO fr sq0 pc0 -> sid x <= sq0).
  Proof.
    intros [HR HP HE Hwus Hcyc Hmode] HG HT.
    destruct ((IS normal_ok2) ord pord0 d c f x s1 HG)
      as (os0 & m4 & m5 & b6 & eus' & d' & c' & f' & lq & Efront & Ee & Ew & HF6 & B6 & P6 & A1 & A2 & A2' & Hrb6 & Hxj & Hq6 & Hb6 & Hj2 & Hseq & Hrtt &
          Hcyc6 & Hdn & HdN & Hl1 & Hbtb & HW6 & Hpar & Hsq6 & Hphi).
    cbv zeta in *.
    destruct (front_queues d c f x s1 os0 m4 HG Efront) as [Hrb4 Hwq4].
    pose proof (g1_wus _ _ _ _ _ _ _ _ _ _ _ _ HG) as GW. pose proof (g1_mode _ _ _ _ _ _ _ _ _ _ _ _ HG) as GM.
    set (m0 := Mvp61.t_m s1) in *. set (cyc := Mvp61.t_cycle s1) in *. set (j := Nat.min (length (Mvp61.t_eus s1)) lq) in *.
    (* the machine of MVP-6.2 *)
    destruct (front_sim app Hreg sg (cyc + 1) _ _ HR HP _ _ Efront) as (sg' & m24 & g & Ef2 & HR4 & HP4).
    assert (Hq4 : forall r, In r (bb_q (n_ebus m24)) -> sid x <= q_seq r).
    { intros r2 Hr2. destruct (rm_ebus HR4) as (_ & B2 & _).
      destruct (F2_in _ _ _ _ B2 Hr2) as (r1 & Hr1 & Hab).
      assert (Hin1 : In r1 (EB m4)) by (unfold EB, flat; apply in_or_app; left; exact Hr1).
      destruct (Hrb4 r1 Hin1) as (k & Hk & Ek). destruct Hab as ([Z1 Z2 Z3 Z4 Z5 Z6 Z7] & _). rewrite Z3, Ek. cbn [Mvp61RefFront.rnq r_seq].
      apply (IS sid_le). exact Hk. }
    assert (Hidle : Forall (fun e => e_co (u_e e) = ENone) eus') by (eapply Forall_impl; [|exact A1]; intros e [_ He0]; exact He0).
    destruct (eus_main_sim app labels sg' ord (cyc + 1) (sid x) _ _ HE m24 m4 euo62_none euo_none HR4
                ltac:(rewrite (front62_ctx _ _ _ _ _ Ef2); exact HT)
                Hq4 ltac:(repeat split) _ _ _ _ _ Ee Hidle)
      as (os2 & m25 & eus2' & out2 & Ee2 & HR5 & HE5 & HA5 & HT5 & [N1 N2 N3 _ N4]).
    set (out := fold_left merge1 (map bresp (seq x j)) euo_none) in *.
    destruct HA5 as (O1 & O2 & O3 & O4).
    assert (Hfrom : o_flush out = true -> sid x <= o_from out).
    { apply merge_from; [intros k Hk; apply in_seq in Hk; lia | discriminate]. }
    assert (Hwq5 : forall wx, In wx (bb_q (m_wbus (y_m m5))) -> WbFine wx /\ (dropped (-1) wx = false -> w_seq wx < sid x) /\
              dropped (if Mvp62.p_flush out2 then Mvp62.p_seq out2 else -1) wx = dropped (-1) wx).
    { intros wx Hwx. rewrite <- (rm_wbus HR5), N4, (rm_wbus HR4) in Hwx. destruct (Hwq4 wx Hwx) as [Hf Hs]. split; [exact Hf|]. split; [intros _; exact Hs|].
      rewrite O1, O2. destruct (o_flush out) eqn:Efl; [|reflexivity].
      apply dropped_older. exact (Z.lt_le_incl _ _ (Z.lt_le_trans _ _ _ Hs (Hfrom eq_refl))). }
    destruct (wus_sim app sg' (if Mvp62.p_flush out2 then Mvp62.p_seq out2 else -1) (-1) (sid x) (Mvp61.t_wus s1) m25 m5 GW HR5 HT5 Hwq5 _ _ Ew)
      as (m26 & Ew2 & HR6 & HT6 & M1 & M2).
    set (m6 := set_m m5 b6) in *.
    assert (HP6 : PrevOK sg' m26 (x_nch (y_x m6))).
    { intros p Hp. rewrite M1, N2 in Hp. rewrite M2, N3. change (x_nch (y_x m6)) with (x_nch (y_x m5)). rewrite N1. apply HP4. exact Hp. }
    (* the two steps *)
    assert (Hm2 : Mvp62.t_mode s2 = Mvp62.NNormal) by (rewrite GM in Hmode; destruct (Mvp62.t_mode s2); try contradiction; reflexivity).
    assert (E1s : step1 app labels ord pord0 s1 =
      if o_ret out then ret_check1 (mk_st1 (on_wbus m6 (fun w => bb_connect w (cyc + 1 + 1))) eus' (Mvp61.t_wus s1) (cyc + 1 + 1) Mvp61.NRet (Mvp61.t_os s1 || os0 || false))
      else if o_flush out then Mvp61.TCont (mk_st1 m6 (map (fun e => eu_sid_set e (o_from out)) eus') (Mvp61.t_wus s1) (cyc + 1) (NFlushO (cyc + 1) (o_from out) (o_pc out)) (Mvp61.t_os s1 || os0 || false))
      else if is_empty1 m6 eus' (Mvp61.t_wus s1) then Mvp61.TDone (finish6 (y_m m6) (cyc + 1)) (Mvp61.t_os s1 || os0 || false)
      else Mvp61.TCont (mk_st1 m6 eus' (Mvp61.t_wus s1) (cyc + 1) Mvp61.NNormal (Mvp61.t_os s1 || os0 || false))).
    { unfold step1. rewrite GM. fold cyc m0. rewrite Efront. cbn [res_of1]. rewrite Ee. unfold back1. rewrite Ew. cbn [res_of1]. reflexivity. }
    set (os2' := Mvp62.t_os s2 || g || os2).
    assert (E2s : step62 app labels ord s2 =
      if Mvp62.p_ret out2 then ret_check62 (mk_st62 (set_n_wbus m26 (bb_connect (n_wbus m26) (cyc + 1 + 1))) eus2' (Mvp61.t_wus s1) (cyc + 1 + 1) Mvp62.NRet os2')
      else if Mvp62.p_flush out2 then Mvp62.TCont (mk_st62 m26 (map (eu_set_seq (Mvp62.p_seq out2)) eus2') (Mvp61.t_wus s1) (cyc + 1) (NFlushE (Mvp62.p_seq out2) (Mvp62.p_pc out2) (cyc + 1)) os2')
      else if is_empty62 m26 eus2' (Mvp61.t_wus s1) then Mvp62.TDone (finish62 m26 (cyc + 1)) os2'
      else Mvp62.TCont (mk_st62 m26 eus2' (Mvp61.t_wus s1) (cyc + 1) Mvp62.NNormal os2')).
    { unfold step62. rewrite Hm2, Hcyc. fold cyc. rewrite Ef2. cbn [res_of62]. rewrite Ee2. cbn [res_of62]. unfold back62. rewrite Hwus, Ew2. cbn [res_of62]. reflexivity. }
    rewrite E1s, E2s, O1, O2, O3, O4. clear E2s.
    split; [|split].
    - (* the results *)
      destruct (o_ret out); [apply (ret_check_sim _ sg'); assumption|].
      destruct (o_flush out).
      { apply (StepR_cont _ _ sg'); [|exact HT6]. apply RS_intro; [exact HR6 | exact HP6 | apply REi_setseq; exact HE5 | cbn; auto]. }
      destruct Hpar as (_ & _ & _ & _ & _ & _ & Hp1 & Hp2 & Hp3). rewrite (is_empty_sim _ _ _ _ _ _ _ HR6 HE5 Hp1 Hp2 Hp3).
      destruct (is_empty1 m6 eus' (Mvp61.t_wus s1)).
      + rewrite (finish_sim _ _ _ _ _ HR6). apply StepR_done.
      + apply (StepR_cont _ _ sg'); [|exact HT6]. apply RS_intro; auto. exact I.
    - (* x does not decrease *)
      intros s1' d1 c1 f1 x1 Es HG1.
      destruct (o_ret out) eqn:Eret.
      { unfold ret_check1 in Es. destruct (_ && _) in Es; [discriminate|]. injection Es as <-. pose proof (g1_mode _ _ _ _ _ _ _ _ _ _ _ _ HG1) as Hm. cbn in Hm. discriminate. }
      destruct (o_flush out) eqn:Efl.
      { injection Es as <-. pose proof (g1_mode _ _ _ _ _ _ _ _ _ _ _ _ HG1) as Hm. cbn in Hm. discriminate. }
      destruct (is_empty1 m6 eus' (Mvp61.t_wus s1)); [discriminate|]. injection Es as <-.
      destruct (merge_nofl _ _ Efl) as [_ Hnf].
      assert (Hnf' : forall k, (x <= k < x + j)%nat -> Mvp61.p_flush (bresp k) = false) by (intros k Hk; apply Hnf; apply in_seq; lia).
      pose proof (GI1_x _ _ _ _ _ d' c' f' (x + j)%nat HG1 (HF6 Hnf') Hrb6 Hxj) as ->. lia.
    - intros s1' fr sq0 pc0 Es Hmd.
      destruct (o_ret out) eqn:Eret.
      { unfold ret_check1 in Es. destruct (_ && _) in Es; [discriminate|]. injection Es as <-. cbn in Hmd. discriminate. }
      destruct (o_flush out) eqn:Efl.
      { injection Es as <-. cbn in Hmd. injection Hmd as _ <- _. apply Hfrom. reflexivity. }
      destruct (is_empty1 m6 eus' (Mvp61.t_wus s1)); [discriminate|]. injection Es as <-. cbn in Hmd. discriminate.
  Qed.

  (* idle execute units are skipped by the drain loop and by the flush loop *)
  Lemma eus_drain62_skip ord cy m : forall eus, forallb eu_empty62 eus = true -> eus_drain62 labels ord cy m eus = (false, Ok (m, eus)).
  Proof.
    induction eus as [|e t IH]; intros H; [reflexivity|]. cbn [forallb] in H. apply andb_prop in H as [H1 H2]. cbn [eus_drain62]. rewrite H1, (IH H2). reflexivity.
  Qed.

  Lemma eus_inner62_skip ord cy m sq0 pc0 : forall eus, forallb eu_empty62 eus = true -> eus_inner62 labels ord cy m eus sq0 pc0 = (false, Ok (m, eus, sq0, pc0)).
  Proof.
    induction eus as [|e t IH]; intros H; [reflexivity|]. cbn [forallb] in H. apply andb_prop in H as [H1 H2]. cbn [eus_inner62]. rewrite H1, (IH H2). reflexivity.
  Qed.


  (* the drain loop after ret *)
  Lemma ret_core sg ord d bn s2 s1 : RS sg s2 s1 -> GR1 d s1 -> TxB (n_ctx (Mvp62.t_m s2)) bn -> sid d <= bn ->
    StepR bn (step62 app labels ord s2) (step1 app labels ord pord0 s1).
  Proof.
    intros [HR HP HE Hwus Hcyc Hmode] HG HT Hbn. pose proof HG as [RC RE RW RWne RN REB RWb RWq RBw Rex Rcy RM].
    assert (Hm2 : Mvp62.t_mode s2 = Mvp62.NRet) by (rewrite RM in Hmode; destruct (Mvp62.t_mode s2); try contradiction; reflexivity).
    destruct (idle_empty _ _ HE) as (Hem2 & Hem1 & _).
    unfold step1, step62. rewrite RM, Hm2. rewrite ((IS eus_drain_skip) ord _ _ _ RE), (eus_drain62_skip ord _ _ _ Hem2). cbn [res_of62 fst snd orb].
    assert (Hwq : forall wx, In wx (bb_q (m_wbus (y_m (Mvp61.t_m s1)))) -> WbFine wx /\ (dropped (-1) wx = false -> w_seq wx < bn) /\ dropped (-1) wx = dropped (-1) wx).
    { intros wx Hwx. pose proof (c_w _ _ _ _ _ _ _ _ _ RC) as Hw. rewrite Forall_forall in Hw.
      destruct (wbok_fine d wx (Hw wx ltac:(unfold WB, flat; apply in_or_app; left; exact Hwx))) as [Hf (k & -> & Hk)].
      split; [exact Hf|]. split; [|reflexivity]. intros _. cbn [Mvp61RefInv.wbq w_seq]. pose proof ((IS sid_lt) k d Hk). lia. }
    destruct (wus_cycle (y_m (Mvp61.t_m s1)) (Mvp61.t_wus s1) (-1)) as [[b6 wus1]|e|] eqn:Ew; cbn [res_of1].
    2:{ intros cf st Hx. discriminate Hx. }
    2:{ intros cf st Hx. discriminate Hx. }
    destruct (wus_sim app sg (-1) (-1) bn _ _ _ RW HR HT Hwq _ _ Ew) as (m26 & Ew2 & HR6 & HT6 & M1 & M2).
    rewrite Hwus, Ew2. cbn [res_of62]. rewrite Hcyc.
    apply (ret_check_sim _ sg); [exact HR6 | | exact HE | exact HT6].
    intros p Hp. ss. rewrite M1 in Hp. rewrite M2. apply HP. exact Hp.
  Qed.

  Lemma do_flush_sim sg m2 m1 pc : RM n sg m2 m1 -> RM n sg (do_flush62 m2 pc) (do_flush1 m1 pc).
  Proof.
    intros HR. unfold do_flush62, do_flush1, do_flush6. rm_frame HR; try congruence; try (apply RBus_clean; assumption).
  Qed.

  Lemma REi_flush eus2 eus1 : Forall2 REi eus2 eus1 ->
    Forall2 REi (map (fun e => mk_eu62 ENone (x_memory e) (x_runner e) 0) eus2) (map eu_flush1 eus1).
  Proof.
    induction 1 as [|e2 e1 t2 t1 [B1 B2 B3 B4 B5] _ IH]; cbn [map]; constructor; [|exact IH].
    unfold eu_flush1, eu_sid_set, eu_co_set. constructor; cbn [x_co x_memory Mvp62.x_seq x_runner u_e u_sid e_co e_memory e_runner]; auto.
  Qed.

  (* the loops of the write units inside the flush branch *)
  Lemma flush_adv_sim sg bn s2 s1 k ie fr sq0 pc0 : RM n sg (Mvp62.t_m s2) (Mvp61.t_m s1) -> PrevOK sg (Mvp62.t_m s2) (x_nch (y_x (Mvp61.t_m s1))) ->
    Forall2 REi (Mvp62.t_eus s2) (Mvp61.t_eus s1) -> Mvp62.t_wus s2 = Mvp61.t_wus s1 -> Mvp62.t_cycle s2 = Mvp61.t_cycle s1 ->
    TxB (n_ctx (Mvp62.t_m s2)) bn ->
    StepR bn (flush_adv62 s2 k sq0 pc0 fr ie) (flush_advance1 s1 k ie fr sq0 pc0).
  Proof.
    intros HR HP HE Hwus Hcyc HT. unfold flush_adv62, flush_advance1. rewrite Hwus, Hcyc, (rm_wbus HR).
    destruct (flush_next (skipn k (Mvp61.t_wus s1)) k (bb_isempty (m_wbus (y_m (Mvp61.t_m s1))))) as [k'|]; [|destruct ie];
      (apply (StepR_cont _ _ sg); [|exact HT]); apply RS_intro; auto; try (cbn; auto; fail).
    - apply do_flush_sim. exact HR.
    - intros p Hp. unfold do_flush62 in Hp. ss. destruct Hp.
    - apply REi_flush. exact HE.
  Qed.

  (* one tick inside the flush branch *)
  Lemma flush_core sg ord d E t s2 s1 : RS sg s2 s1 -> GF1 d E t s1 -> TxB (n_ctx (Mvp62.t_m s2)) (sid E + 1) ->
    StepR (sid E + 1) (step62 app labels ord s2) (step1 app labels ord pord0 s1).
  Proof.
    intros [HR HP HE Hwus Hcyc Hmode] HG HT. pose proof HG as [[D GFl] Geus Gst Glen Gwus Gwne Gl1 Gbtb GE Gex Gout Gbw Gpar Gx Gmode].
    destruct (idle_empty _ _ HE) as (Hem2 & Hem1 & _).
    unfold step1, step62. destruct (Mvp61.t_mode s1) as [| |fr sq0 pc0|k ie fr sq0 pc0] eqn:Em; try contradiction.
    - (* the execute units *)
      destruct (Mvp62.t_mode s2) as [| |sq2 pc2 fr2|] eqn:Em2; try contradiction. destruct Hmode as (-> & -> & ->).
      rewrite ((IS eus_flush_skip) ord _ _ _ _ Geus), (eus_inner62_skip ord _ _ _ _ _ Hem2). cbn [orb o_from o_pc]. rewrite Hem2.
      unfold on_wbus. rewrite Hcyc.
      apply (flush_adv_sim sg); cbn [Mvp62.t_eus Mvp62.t_wus Mvp62.t_m Mvp61.t_eus Mvp61.t_wus Mvp61.t_m Mvp62.t_cycle Mvp61.t_cycle]; auto.
      rewrite (rm_wbus HR). apply RM_wbus_set. exact HR.
    - (* a write unit *)
      destruct (Mvp62.t_mode s2) as [| | |k2 sq2 pc2 fr2 ie2] eqn:Em2; try contradiction. destruct Hmode as (-> & -> & -> & -> & ->).
      rewrite Hwus. destruct (nth_error (Mvp61.t_wus s1) k) as [w|] eqn:Ek; [|intros cf st Hx; discriminate Hx].
      destruct Gmode as (_ & _ & -> & _).
      assert (Hw : u_co w = WNone) by (rewrite Forall_forall in Gwus; apply Gwus; eapply nth_error_In; exact Ek).
      assert (Hwq : forall wx, In wx (bb_q (m_wbus (y_m (Mvp61.t_m s1)))) -> WbFine wx /\ (dropped (sid E) wx = false -> w_seq wx < sid E + 1) /\ dropped (sid E) wx = dropped (sid E) wx).
      { intros wx Hwx. pose proof (fl1_w _ _ _ _ _ _ _ _ _ _ GFl) as Hwo. rewrite Forall_forall in Hwo.
        destruct (wbok_fine d wx (Hwo wx ltac:(unfold WB, flat; apply in_or_app; left; exact Hwx))) as [Hf _].
        split; [exact Hf|]. split; [|reflexivity]. unfold dropped. intros Hd. apply andb_false_iff in Hd as [Hd|Hd].
        - apply negb_false_iff, Z.eqb_eq in Hd. unfold Mvp61RefFront.sid, pcz in Hd. lia.
        - apply Z.ltb_ge in Hd. lia. }
      destruct (wu_cycle6 (y_m (Mvp61.t_m s1)) w (sid E)) as [[b1 w']|e|] eqn:Ew; cbn [res_of1]; try (intros cf st Hx; discriminate Hx).
      destruct (wu_sim app sg _ _ w (sid E) (sid E) (sid E + 1) HR Hw HT Hwq _ _ Ew) as (m2' & Ew2 & HR' & HT' & M1 & M2 & _).
      rewrite Ew2. cbn [res_of62 fst snd].
      apply (flush_adv_sim sg); cbn [Mvp62.t_eus Mvp62.t_wus Mvp62.t_m Mvp61.t_eus Mvp61.t_wus Mvp61.t_m Mvp62.t_cycle Mvp61.t_cycle]; auto.
      intros p Hp. ss. rewrite M1 in Hp. rewrite M2. apply HP. exact Hp.
  Qed.
End Step62.
