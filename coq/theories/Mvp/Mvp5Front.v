(* The skeleton of MVP-5 (Mvp5Skel.v) keeps its invariant (Mvp5Inv.v), never gets
   stuck on a well-formed path, and makes progress: the potential of MVP-4 (on the
   decode bus as the fetch unit will see it) decreases in every cycle in which no
   instruction is executed. *)
From Coq Require Import ZArith List Bool Lia.
From Maj Require Import Base.Outcome Base.GoInt Base.GoTypes Isa.Spec Isa.Embed Isa.Seq Isa.Refine.
From Maj Require Import Gen.Latency Gen.RiscTables Gen.Opcodes Comp.Cache Comp.CacheProofs.
From Maj Require Import Mvp.Mvp12 Mvp.Mvp12Proofs Mvp.Mvp3 Mvp.Mvp3Proofs Mvp.Mvp4 Mvp.Mvp5
     Mvp.SkelRun Mvp.Mvp4Skel Mvp.Mvp4Inv Mvp.Mvp4Units Mvp.Mvp4Front Mvp.Mvp5Skel Mvp.Mvp5Inv.
Import ListNotations.
Open Scope Z_scope.

Lemma sbus_add_neq {T} (b : sbus T) x : sbus_can_add b = true -> sbus_add b x <> b.
Proof. unfold sbus_can_add. intros H E. rewrite <- E in H. discriminate. Qed.

(* du_cycle_spec, with the stall flag the decode unit of MVP-5 leaves *)
Lemma du5_cycle_spec app dbus ebus :
  (forall p, sb_current dbus = Some p -> 0 <= p) ->
  exists du' dbus' ebus', du5_cycle app false dbus ebus = Ok (du', dbus', ebus') /\
    du_cycle app dbus ebus = Ok (dbus', ebus') /\ sb_current ebus' = sb_current ebus /\
    ((sbus_can_add ebus = false /\ dbus' = dbus /\ ebus' = ebus /\ du' = false)
     \/ (sbus_can_add ebus = true /\ dbus' = mk_sbus None (sb_pending dbus) /\
         ((sb_current dbus = None /\ ebus' = ebus /\ du' = false)
          \/ (exists p, sb_current dbus = Some p /\ nlen app <= p / 4 /\ ebus' = ebus /\ du' = false)
          \/ (exists p i, sb_current dbus = Some p /\ p / 4 < nlen app /\
                          nth_error app (Z.to_nat (p / 4)) = Some i /\ ebus' = sbus_add ebus (i, p) /\ du' = uncond i)))).
Proof.
  intros Hpos. destruct (du_cycle_spec app dbus ebus Hpos) as (d & e & E & Hc).
  destruct (du5_false_ok app dbus ebus d e E) as [du1 E5]. exists du1, d, e.
  split; [exact E5|]. split; [exact E|]. destruct (du5_false _ _ _ _ _ _ E5) as [_ Hd].
  (* the flag is set exactly when an instruction went onto the execute bus *)
  assert (Hkeep : e = ebus -> du1 = false).
  { intros ->. destruct Hd as [[Hd _] | (i & p & Hadd & Hd & _)]; [exact Hd|]. symmetry in Hd. apply sbus_add_neq in Hd; tauto. }
  assert (Hput : forall i p, sbus_can_add ebus = true -> e = sbus_add ebus (i, p) -> du1 = uncond i).
  { intros i p Hadd ->. destruct Hd as [[_ Hd] | (i' & p' & _ & Hd & ->)]; [apply sbus_add_neq in Hd; tauto|].
    injection Hd as <- _. reflexivity. }
  destruct Hc as [(Hadd & -> & ->) | (Hadd & -> & [(Ecur & ->) | [(p & Ecur & Hout & ->) | (p & i & Ecur & Hin & En & ->)]])];
    (split; [reflexivity|]).
  - left. auto.
  - right. split; [exact Hadd|]. split; [reflexivity|]. left. auto.
  - right. split; [exact Hadd|]. split; [reflexivity|]. right. left. exists p. auto.
  - right. split; [exact Hadd|]. split; [reflexivity|]. right. right. exists p, i.
    rewrite (Hput i p Hadd eq_refl). auto.
Qed.

Lemma intake_have e ebus e1 ebus1 have : eu_intake e ebus = (e1, ebus1, have) -> have = eu_processing e1.
Proof.
  unfold eu_intake. destruct (eu_processing e) eqn:Ep.
  - intros H. injection H as <- <- <-. symmetry. exact Ep.
  - unfold sbus_get. destruct (sb_current ebus) as [[i pc]|]; intros H; injection H as <- <- <-; [reflexivity | symmetry; exact Ep].
Qed.

Lemma eu_issue_spec e ebus pw e1 ebus2 act :
  sk_eu e ebus pw = (e1, ebus2, act) ->
  match eu_issue e ebus with
  | Some x => act = AExec (fst x) (snd x) \/ (act = ANone /\ q_eu e1 = [x])
  | None => match act with AExec _ _ => False | _ => True end
  end.
Proof.
  unfold sk_eu, eu_issue. destruct (eu_intake e ebus) as [[em eb1] have] eqn:Ei.
  pose proof (intake_have _ _ _ _ _ Ei) as Hh.
  destruct have; cbn [negb].
  2:{ intros H. injection H as <- <- <-. exact I. }
  destruct (negb (eu_remaining em - 1 =? 0)).
  { intros H. injection H as <- <- <-. exact I. }
  destruct (eu_runner em) as [[i pc]|] eqn:Er.
  - destruct (pw_hazard pw (instr_ReadRegisters i)); intros H; injection H as <- <- <-.
    + right. split; [reflexivity|]. unfold q_eu, set_rem. cbn [eu_processing eu_runner]. rewrite <- Hh, Er. reflexivity.
    + left. reflexivity.
  - intros H. injection H as <- <- <-. exact I.
Qed.

Lemma eu_issue_exec e ebus pw e1 ebus2 i pc :
  sk_eu e ebus pw = (e1, ebus2, AExec i pc) -> eu_issue e ebus = Some (i, pc).
Proof.
  intros H. pose proof (eu_issue_spec _ _ _ _ _ _ H) as Hs.
  destruct (eu_issue e ebus) as [[i0 pc0]|]; [|contradiction].
  destruct Hs as [Hs | [Hs _]]; [|discriminate]. cbn [fst snd] in Hs. injection Hs as <- <-. reflexivity.
Qed.

Lemma eu_issue_in e ebus x : eu_issue e ebus = Some x -> In x (q_eu e ++ olist (sb_current ebus)).
Proof.
  unfold eu_issue, eu_intake. destruct (eu_processing e) eqn:Ep.
  - cbn [negb]. destruct (negb (eu_remaining e - 1 =? 0)); [discriminate|]. intros Hr.
    unfold q_eu. rewrite Ep, Hr. left. reflexivity.
  - unfold sbus_get. destruct (sb_current ebus) as [[i pc]|]; cbn [negb eu_remaining eu_runner]; [|discriminate].
    destruct (negb (cyc_of i - 1 =? 0)); [discriminate|]. intros H. injection H as <-.
    unfold q_eu. rewrite Ep. left. reflexivity.
Qed.

(* the skeleton as a machine of SkelRun.v *)
Definition sk5_view (r : sk5_res) : gres sk5 Z :=
  match r with K5Step a p dc => GStep a p dc | K5Done dc => GDone dc | K5Stuck => GStuck end.
Definition sk5_cyc (app : list instr) (a : sk5) (path : list Z) : gres sk5 Z := sk5_view (sk5_cycle app a path).

Lemma sk5_run_grun app : forall fuel a path cyc, sk5_run fuel app a path cyc = grun (sk5_cyc app) fuel a path cyc.
Proof.
  induction fuel as [|f IH]; intros a path cyc; [reflexivity|]. cbn [sk5_run grun]. unfold sk5_cyc.
  destruct (sk5_cycle app a path); cbn [sk5_view]; auto.
Qed.

Section Front5.
  Variable app : list instr.
  Hypothesis Happ : wf_app app.

  Lemma entry_in_text x : entry_ok app x -> snd x / 4 < nlen app.
  Proof.
    intros [H0 Hn]. assert ((Z.to_nat (snd x / 4) < length app)%nat) by (apply nth_error_Some; congruence).
    pose proof (Z.div_pos (snd x) 4 H0 ltac:(lia)). unfold nlen. lia.
  Qed.

  (* the state of the queue between the decode unit and the execute unit *)
  Definition mid_ok (head : Z) (A1 : list (instr * Z)) (du1 : bool) (dbus2 : sbus Z) (f4 : fu_t) : Prop :=
    map snd A1 = consec4 head (length A1) /\
    (exists g n, FQ app g n (q_sb dbus2) f4 /\ 0 <= g < 2147483644 /\
                 (du1 = false -> g = head + 4 * Z.of_nat (length A1))) /\
    du_ok du1 A1 /\ Forall (entry_ok app) A1.

  Lemma decode_flow5 head a fu1 l1i1 dbus1 du1 dbus2 ebus1 :
    F5 app head a ->
    fu5_cycle app (k5_fu a) (k5_l1i a) (k5_dbus a) = Ok (fu1, l1i1, dbus1) ->
    du5_cycle app (k5_du a) dbus1 (k5_ebus a) = Ok (du1, dbus2, ebus1) ->
    IInv l1i1 /\ (f5_processing fu1 = true -> 1 <= f5_remaining fu1 <= MemoryAccess) /\ f5_clean fu1 = false /\
    sb_current ebus1 = sb_current (k5_ebus a) /\
    mid_ok head (q_eu (k5_eu a) ++ q_sb ebus1) du1 dbus2 (to4 fu1).
  Proof.
    intros [Hh HA (g & n & Hq & Hg & Hgd) Hdu Hent Hfu Heu Hpr HI Hpw Hwb Hbtb] Ef Ed.
    apply fu5_cycle_inv in Ef as [Ef Hcl].
    destruct (fq_fu app Happ g n [] _ _ _ _ _ _ Hg Hq HI Hfu Ef) as (HI1 & Hfu1 & [n1 Hq1] & Hcur & _).
    cbn [List.app] in Hq1.
    split; [exact HI1|]. split; [exact Hfu1|]. split; [exact Hcl|].
    pose proof (fun p => fq_cur_nonneg app g n1 [] dbus1 _ p (proj1 Hg) Hq1) as Hpos.
    unfold aq in *.
    destruct (k5_du a) eqn:Edu.
    - (* the decode unit is stalled *)
      rewrite du5_stalled in Ed. injection Ed as <- <- <-. split; [reflexivity|].
      split; [exact HA|]. split; [|split; assumption].
      exists g, n1. split; [exact Hq1|]. split; [exact Hg | discriminate].
    - specialize (Hgd eq_refl).
      destruct (du5_cycle_spec app dbus1 (k5_ebus a) Hpos) as (du' & d' & e' & E & _ & Hec & Hc).
      rewrite Ed in E. injection E as -> -> ->. split; [exact Hec|].
      pose proof (du_ok_false _ Hdu) as Hnu.
      destruct Hc as [(_ & -> & -> & ->) | (Hadd & -> & [(Ecur & -> & ->) | [(p & Ecur & Hout & -> & ->) | (p & i & Ecur & Hin & En & -> & ->)]])].
      + split; [exact HA|]. split; [|split; assumption]. exists g, n1. auto.
      + split; [exact HA|]. split; [|split; assumption]. exists g, n1.
        split; [|auto]. rewrite q_sb_shift. rewrite q_sb_cur, Ecur in Hq1. exact Hq1.
      + split; [exact HA|]. split; [|split; assumption]. exists g, O.
        split; [|auto]. rewrite q_sb_shift. rewrite q_sb_cur, Ecur in Hq1. cbn [olist List.app] in Hq1.
        destruct (fq_drop app g n1 [] p _ _ ltac:(lia) Hq1 Hout) as (-> & _ & Hq'). exact Hq'.
      + rewrite q_sb_cur, Ecur in Hq1. cbn [olist List.app] in Hq1.
        destruct (fq_head _ _ _ _ _ _ Hq1) as (-> & m & ->).
        rewrite (q_sb_add _ _ Hadd), app_assoc.
        pose proof nlen_small app Happ as Hsmall.
        split; [|split; [|split]].
        * rewrite map_app, app_length, HA. cbn [map snd length]. rewrite Nat.add_1_r, consec4_snoc, <- Hgd. reflexivity.
        * exists (g + 4), m. split; [rewrite q_sb_shift; apply fq_shift; exact Hq1|].
          split; [lia|]. intros _. rewrite app_length. cbn [length]. lia.
        * apply (du_ok_snoc _ (i, g)). exact Hnu.
        * apply Forall_app. split; [exact Hent|]. constructor; [|constructor]. split; cbn [fst snd]; [lia | exact En].
  Qed.

  Lemma front_flow5 head a fu1 l1i1 dbus1 du1 dbus2 ebus1 e1 ebus2 act :
    F5 app head a ->
    fu5_cycle app (k5_fu a) (k5_l1i a) (k5_dbus a) = Ok (fu1, l1i1, dbus1) ->
    du5_cycle app (k5_du a) dbus1 (k5_ebus a) = Ok (du1, dbus2, ebus1) ->
    sk_eu (k5_eu a) ebus1 (k5_pw a) = (e1, ebus2, act) ->
    IInv l1i1 /\ (f5_processing fu1 = true -> 1 <= f5_remaining fu1 <= MemoryAccess) /\ f5_clean fu1 = false /\
    act <> AStuck /\
    mid_ok head (act_q act ++ q_eu e1 ++ q_sb ebus2) du1 dbus2 (to4 fu1) /\
    eu_pending_read e1 = false /\
    (eu_processing e1 = true -> 1 <= eu_remaining e1 <= Cmax /\ eu_runner e1 <> None) /\
    (match act with AExec _ _ => eu_processing e1 = false | _ => True end) /\
    (k5_du a = false -> sk5_assert fu1 (k5_btb a) (eu_issue (k5_eu a) ebus1) = fu1).
  Proof.
    intros HF Ef Ed Ee.
    destruct (decode_flow5 head a _ _ _ _ _ _ HF Ef Ed) as (HI1 & Hfu1 & Hcl & Hec & Hmid).
    destruct HF as [Hh HA _ Hdu Hent Hfu Heu Hpr HI Hpw Hwb Hbtb].
    pose proof Hmid as (_ & _ & _ & Hent1).
    destruct (sk_eu_flow app _ _ _ _ _ _ Hpr Hent1 Heu Ee) as (Hns & Hfl & Hpr1 & Heu1 & Hex).
    rewrite Hfl. repeat (split; [assumption|]).
    intros Edu. destruct (eu_issue (k5_eu a) ebus1) as [[i pc]|] eqn:Ei; [|reflexivity]. cbn [sk5_assert].
    apply eu_issue_in in Ei. rewrite Hec in Ei.
    assert (Hin : In (i, pc) (aq a)).
    { unfold aq. rewrite q_sb_cur, app_assoc. apply in_or_app. left. exact Ei. }
    rewrite Edu in Hdu. apply du_ok_false in Hdu. rewrite Forall_forall in Hdu. specialize (Hdu _ Hin).
    unfold nonunc in Hdu. cbn [fst] in Hdu. rewrite Hdu. reflexivity.
  Qed.

  Definition after_none5 (a : sk5) fuA du1 l1i1 dbus2 ebus2 e1 : sk5 :=
    mk_sk5 fuA du1 l1i1 dbus2 ebus2 e1 (wdel (k5_pw a) (k5_wb a)) None (k5_btb a).

  Lemma fq_clean_false g n f d : f5_clean f = false -> FQ app g n (q_sb d) (to4 f) -> FQ app g n (q_sb (dclean f d)) (to4 f).
  Proof. intros H. unfold dclean. rewrite H. auto. Qed.

  Lemma f5_none head a fu1 l1i1 dbus1 du1 dbus2 ebus1 e1 ebus2 :
    F5 app head a ->
    fu5_cycle app (k5_fu a) (k5_l1i a) (k5_dbus a) = Ok (fu1, l1i1, dbus1) ->
    du5_cycle app (k5_du a) dbus1 (k5_ebus a) = Ok (du1, dbus2, ebus1) ->
    sk_eu (k5_eu a) ebus1 (k5_pw a) = (e1, ebus2, ANone) ->
    F5 app head (after_none5 a (sk5_assert fu1 (k5_btb a) (eu_issue (k5_eu a) ebus1)) du1 l1i1 dbus2 ebus2 e1).
  Proof.
    intros HF Ef Ed Ee.
    destruct (front_flow5 head a _ _ _ _ _ _ _ _ _ HF Ef Ed Ee) as (HI1 & Hfu1 & Hcl & Hns & Hmid & Hpr' & Heu' & _ & _).
    cbn [act_q List.app] in Hmid. destruct Hmid as (HA' & (g & n & Hq & Hg & Hgd) & Hdu' & Hent').
    pose proof (eu_issue_spec _ _ _ _ _ _ Ee) as Hiss.
    destruct HF as [Hh _ _ _ _ _ _ _ _ Hpw Hwb Hbtb].
    assert (Hcase : sk5_assert fu1 (k5_btb a) (eu_issue (k5_eu a) ebus1) = fu1 \/
                    exists t, sk5_assert fu1 (k5_btb a) (eu_issue (k5_eu a) ebus1) = fu5_reset fu1 t /\
                              0 <= t < 2147483644 /\ du1 = true).
    { destruct (eu_issue (k5_eu a) ebus1) as [[i pc]|]; [|left; reflexivity]. cbn [sk5_assert].
      destruct (uncond i) eqn:Eu; [|left; reflexivity].
      destruct (btb_get (k5_btb a) pc) as [t|] eqn:Eb; [|left; reflexivity].
      right. exists t. split; [reflexivity|]. split; [eapply btb_get_ok; eassumption|].
      destruct Hiss as [Hiss | [_ Hiss]]; [discriminate|]. rewrite Hiss in Hdu'. cbn [List.app] in Hdu'.
      apply (du_ok_head_unc _ _ _ Hdu'). exact Eu. }
    destruct Hcase as [-> | (t & -> & Ht & ->)].
    - constructor; cbn [after_none5 k5_fu k5_du k5_l1i k5_dbus k5_ebus k5_eu k5_pw k5_wb k5_btb]; unfold aq;
        cbn [k5_eu k5_ebus]; auto.
      + exists g, n. split; [apply fq_clean_false; assumption | auto].
      + rewrite Hpw. apply wdel_pwof. exact Hwb.
      + discriminate.
    - constructor; cbn [after_none5 k5_fu k5_du k5_l1i k5_dbus k5_ebus k5_eu k5_pw k5_wb k5_btb]; unfold aq;
        cbn [k5_eu k5_ebus]; auto.
      + exists t, O. split; [apply fq_reset|]. split; [exact Ht | discriminate].
      + rewrite Hpw. apply wdel_pwof. exact Hwb.
      + discriminate.
  Qed.

  Theorem f5_step head rest a a' path' dc :
    F5 app head a -> path_wf app (head :: rest) ->
    sk5_cyc app a (head :: rest) = GStep a' path' dc ->
    exists head' rest', path' = head' :: rest' /\ F5 app head' a' /\ path_wf app path'.
  Proof.
    intros HF Hwf H. unfold sk5_cyc, sk5_cycle in H.
    destruct (fu5_cycle app (k5_fu a) (k5_l1i a) (k5_dbus a)) as [[[fu1 l1i1] dbus1]| |] eqn:Ef; try discriminate.
    destruct (du5_cycle app (k5_du a) dbus1 (k5_ebus a)) as [[[du1 dbus2] ebus1]| |] eqn:Ed; try discriminate.
    destruct (sk_eu (k5_eu a) ebus1 (k5_pw a)) as [[e1 ebus2] act] eqn:Ee.
    destruct act as [|i pc|]; [| |discriminate].
    - (* nothing executed *)
      pose proof (f5_none head a _ _ _ _ _ _ _ _ HF Ef Ed Ee) as HF'. unfold after_none5 in HF'.
      destruct (sk5_complete _); [discriminate|]. injection H as <- <- <-.
      exists head, rest. auto.
    - (* (i, pc) executed *)
      destruct (front_flow5 head a _ _ _ _ _ _ _ _ _ HF Ef Ed Ee) as (HI1 & Hfu1 & Hcl & Hns & Hmid & Hpr' & Heu' & Hex & _).
      rewrite (eu_issue_exec _ _ _ _ _ _ _ Ee) in H. cbn [sk5_assert] in H.
      destruct HF as [Hh _ _ _ _ _ _ _ _ Hpw Hwb Hbtb].
      cbn [act_q List.app] in Hmid. destruct Hmid as (HA' & (g & n & Hq & Hg & Hgd) & Hdu' & Hent').
      cbn [map snd length] in HA'. rewrite consec4_S in HA'. apply cons_inj in HA' as [-> HA'].
      rewrite Z.eqb_refl in H. cbn [negb] in H.
      destruct (is_ret i); [destruct rest; discriminate|].
      destruct rest as [|next rest']; [discriminate|].
      destruct (path_wf_tail _ _ _ _ Hwf) as [Hwf' Hnext].
      assert (Hq_eu : q_eu e1 = []) by (unfold q_eu; rewrite Hex; reflexivity).
      destruct (sk5_flush (k5_btb a) i head next) eqn:Efl; injection H as <- <- <-.
      + (* flush *)
        exists next, rest'. split; [reflexivity|]. split; [|auto].
        constructor; cbn [k5_fu k5_du k5_l1i k5_dbus k5_ebus k5_eu k5_pw k5_wb k5_btb f5_processing]; unfold aq;
          cbn [k5_eu k5_ebus eu_flushed q_eu eu_processing eu_pending_read q_sb sbus_empty sb_current sb_pending olist List.app map length];
          auto; try discriminate; try constructor.
        * exists next, O. split; [apply fq_fresh; reflexivity|]. split; [exact Hnext | intros _; lia].
        * constructor.
        * destruct (uncond i); [apply btb_add_ok; assumption | exact Hbtb].
      + (* no flush *)
        unfold sk5_flush in Efl.
        destruct (uncond i) eqn:Eu.
        * (* an unconditional jump found in the BTB: the fetch unit is redirected, nothing is flushed *)
          destruct (du_ok_head_unc _ _ _ Hdu' Eu) as [HA0 _].
          rewrite Hq_eu in HA0. cbn [List.app] in HA0.
          destruct (btb_get (k5_btb a) head) as [t|]; [|discriminate].
          exists next, rest'. split; [reflexivity|]. split; [|auto].
          constructor; cbn [k5_fu k5_du k5_l1i k5_dbus k5_ebus k5_eu k5_pw k5_wb k5_btb]; unfold aq;
            cbn [k5_eu k5_ebus fu5_reset f5_processing f5_remaining]; rewrite ?Hq_eu, ?HA0; cbn [List.app map length]; auto.
          -- exists next, O. split; [apply fq_reset|]. split; [exact Hnext | intros _; lia].
          -- constructor. constructor.
          -- rewrite Hpw. apply wdel_add_pwof; [exact Hwb | apply write_regs_length].
          -- intros wr Hwr. injection Hwr as <-. apply write_regs_length.
          -- apply btb_add_ok; assumption.
        * apply negb_false_iff, Z.eqb_eq in Efl.
          assert (Hadd : addS 32 head 4 = head + 4).
          { unfold addS. apply wrapS_id; [lia|]. apply int32_bounds. lia. }
          rewrite Hadd in Efl. subst next.
          exists (head + 4), rest'. split; [reflexivity|]. split; [|auto].
          constructor; cbn [k5_fu k5_du k5_l1i k5_dbus k5_ebus k5_eu k5_pw k5_wb k5_btb]; unfold aq;
            cbn [k5_eu k5_ebus]; auto.
          -- exists g, n. split; [apply fq_clean_false; assumption|]. split; [exact Hg|].
             intros Hd. rewrite (Hgd Hd). cbn [length]. lia.
          -- apply (du_ok_tail _ _ _ Hdu'). exact Eu.
          -- inversion Hent'; assumption.
          -- rewrite Hpw. apply wdel_add_pwof; [exact Hwb | apply write_regs_length].
          -- intros wr Hwr. injection Hwr as <-. apply write_regs_length.
  Qed.
End Front5.

(* the MVP-4 skeleton an MVP-5 skeleton looks like to its fetch unit *)
Definition sk_to4 (a : sk5) : sk :=
  mk_sk (to4 (k5_fu a)) (k5_l1i a) (dclean (k5_fu a) (k5_dbus a)) (k5_ebus a) (k5_eu a) (k5_pw a) (k5_wb a).

Definition phi5 (a : sk5) : Z := phi (sk_to4 a).

Section Progress5.
  Variable app : list instr.
  Hypothesis Happ : wf_app app.

  (* the j-th entry of the decoded part lies in the text *)
  Lemma aq_in_text head (A : list (instr * Z)) j :
    map snd A = consec4 head (length A) -> Forall (entry_ok app) A -> (j < length A)%nat ->
    (head + 4 * Z.of_nat j) / 4 < nlen app.
  Proof.
    intros HA Hent Hj. pose proof (consec4_nth head (length A) j Hj) as Hin. rewrite <- HA in Hin.
    apply in_map_iff in Hin as (x & Hx & Hin). rewrite Forall_forall in Hent. specialize (Hent x Hin).
    rewrite <- Hx. apply entry_in_text. exact Hent.
  Qed.

  (* when the decode unit is not stalled, the MVP-5 skeleton satisfies the MVP-4 invariant *)
  Lemma proj_finv head a : F5 app head a -> k5_du a = false -> FInv app head (sk_to4 a).
  Proof.
    intros [Hh HA (g & n & Hq & Hg & Hgd) Hdu Hent Hfu Heu Hpr HI Hpw Hwb Hbtb] Edu.
    specialize (Hgd Edu). unfold aq in *.
    constructor; cbn [sk_to4 k_fu k_l1i k_dbus k_ebus k_eu k_pw k_wb]; auto.
    exists (length (q_eu (k5_eu a) ++ q_sb (k5_ebus a)) + n)%nat.
    set (A := q_eu (k5_eu a) ++ q_sb (k5_ebus a)) in *. set (k := length A) in *.
    destruct Hq as [Hq Hpc Hend Hin2 Hin1].
    constructor.
    - unfold qlist, sk_to4. cbn [k_eu k_ebus k_dbus]. rewrite q_parts_alt. fold A. rewrite HA, Hq, consec4_app, <- Hgd. reflexivity.
    - intros Hc. rewrite (Hpc Hc). lia.
    - intros Hc. specialize (Hend Hc). replace (head + 4 * Z.of_nat (k + n)) with (g + 4 * Z.of_nat n) by lia. exact Hend.
    - intros H2. destruct (Nat.le_gt_cases 2 n) as [Hn|Hn].
      + specialize (Hin2 Hn). replace (head + 4 * (Z.of_nat (k + n) - 2)) with (g + 4 * (Z.of_nat n - 2)) by lia. exact Hin2.
      + replace (head + 4 * (Z.of_nat (k + n) - 2)) with (head + 4 * Z.of_nat (k + n - 2)) by lia.
        apply (aq_in_text head A); auto. fold k. lia.
    - intros H1 Hc. destruct (Nat.le_gt_cases 1 n) as [Hn|Hn].
      + specialize (Hin1 Hn Hc). replace (head + 4 * (Z.of_nat (k + n) - 1)) with (g + 4 * (Z.of_nat n - 1)) by lia. exact Hin1.
      + replace (head + 4 * (Z.of_nat (k + n) - 1)) with (head + 4 * Z.of_nat (k + n - 1)) by lia.
        apply (aq_in_text head A); auto. fold k. lia.
  Qed.

  Lemma phi5_bounds head a : F5 app head a -> 0 <= phi5 a <= phi_max.
  Proof. intros HF. exact (phi_range (sk_to4 a) (g_fu _ _ _ HF) (g_eu _ _ _ HF)). Qed.

  Lemma aq_nil a : eu_processing (k5_eu a) = false -> sbus_is_empty (k5_ebus a) = true -> aq a = [].
  Proof.
    intros Hp He. unfold aq, q_eu, q_sb. rewrite Hp. unfold sbus_is_empty in He.
    destruct (sb_pending (k5_ebus a)), (sb_current (k5_ebus a)); try discriminate. reflexivity.
  Qed.

  Lemma complete_out5 head a : F5 app head a -> sk5_complete a = true -> nlen app <= head / 4.
  Proof.
    intros HF Hc. unfold sk5_complete in Hc. repeat (apply andb_prop in Hc as [Hc ?]).
    apply negb_true_iff in H2. pose proof (aq_nil a H2 H0) as HA.
    destruct HF as [Hh _ (g & n & Hq & Hg & Hgd) Hdu _ _ _ _ _ _ _ _].
    rewrite HA in Hdu, Hgd. assert (Edu : k5_du a = false).
    { destruct (k5_du a); [|reflexivity]. apply du_ok_true in Hdu. congruence. }
    specialize (Hgd Edu). cbn [length] in Hgd.
    assert (Hd : dclean (k5_fu a) (k5_dbus a) = sbus_empty).
    { unfold dclean. destruct (f5_clean (k5_fu a)); [reflexivity|]. unfold sbus_is_empty in H1.
      destruct (k5_dbus a) as [[?|] [?|]]; try discriminate. reflexivity. }
    rewrite Hd in Hq. destruct Hq as [Hq _ Hend _ _]. destruct n; [|discriminate].
    specialize (Hend Hc). replace (g + 4 * Z.of_nat 0) with head in Hend by lia. exact Hend.
  Qed.

  (* stalled decode unit: the decoded part is not empty and only it moves *)
  Lemma none_phi5_stalled head a fuA l1i1 dbus2 e1 ebus2 :
    F5 app head a -> k5_du a = true ->
    sk_eu (k5_eu a) (k5_ebus a) (k5_pw a) = (e1, ebus2, ANone) ->
    phi5 (after_none5 a fuA true l1i1 dbus2 ebus2 e1) < phi5 a.
  Proof.
    intros [Hh _ _ Hdu _ _ Heu _ _ Hpw _ _] Edu Ee. rewrite Edu in Hdu. apply du_ok_true in Hdu.
    unfold phi5, phi, sk_to4, after_none5. cbn [k5_fu k5_l1i k5_dbus k5_ebus k5_eu k5_pw k5_wb k_fu k_l1i k_dbus k_ebus k_eu k_pw k_wb].
    destruct (phi_x_decr (k5_eu a) (k5_ebus a) (k5_ebus a) (k5_pw a) (k5_wb a) e1 ebus2 Heu Hpw eq_refl (fun _ => eq_refl) Ee)
      as (v & v' & -> & -> & Hlt); [|exact Hlt].
    intros Hn. apply phi_x_none in Hn as [Ep Eb]. apply Hdu. unfold aq, q_eu, q_sb. rewrite Ep, Eb. reflexivity.
  Qed.

  Theorem sk5_progress head rest a :
    F5 app head a -> path_wf app (head :: rest) ->
    match sk5_cyc app a (head :: rest) with
    | GStuck => False
    | GDone _ => rest = []
    | GStep a' path' _ => path' = rest \/ (path' = head :: rest /\ phi5 a' < phi5 a)
    end.
  Proof.
    intros HF Hwf.
    pose proof HF as [Hh HA (g & n & Hq & Hg & Hgd) Hdu Hent Hfu Heu Hpr HI Hpw Hwb Hbtb].
    (* the fetch unit does not fail *)
    assert (Hfok : exists fu1 l1i1 dbus1, fu5_cycle app (k5_fu a) (k5_l1i a) (k5_dbus a) = Ok (fu1, l1i1, dbus1)).
    { rewrite fu5_cycle_to4.
      destruct (fu_cycle_spec app (to4 (k5_fu a)) (k5_l1i a) (dclean (k5_fu a) (k5_dbus a)) HI) as (f' & c' & d' & E & _).
      - intros Hc. rewrite (q_pc _ _ _ _ _ Hq Hc). pose proof (nlen_small app Happ). destruct n as [|n]; [lia|].
        pose proof (q_in1 _ _ _ _ _ Hq ltac:(lia) Hc). lia.
      - exact Hfu.
      - rewrite E. eauto. }
    destruct Hfok as (fu1 & l1i1 & dbus1 & Ef).
    assert (Hdok : exists du1 dbus2 ebus1, du5_cycle app (k5_du a) dbus1 (k5_ebus a) = Ok (du1, dbus2, ebus1)).
    { destruct (k5_du a); [rewrite du5_stalled; eauto|].
      pose proof (fu5_cycle_inv _ _ _ _ _ _ _ Ef) as [Ef4 _].
      destruct (fq_fu app Happ g n [] _ _ _ _ _ _ Hg Hq HI Hfu Ef4) as (_ & _ & [n1 Hq1] & _). cbn [List.app] in Hq1.
      destruct (du5_cycle_spec app dbus1 (k5_ebus a)) as (du' & d' & e' & E & _); [|eauto].
      intros p. exact (fq_cur_nonneg app g n1 [] dbus1 _ p (proj1 Hg) Hq1). }
    destruct Hdok as (du1 & dbus2 & ebus1 & Ed).
    destruct (sk_eu (k5_eu a) ebus1 (k5_pw a)) as [[e1 ebus2] act] eqn:Ee.
    destruct act as [|i pc|].
    - unfold sk5_cyc, sk5_cycle. rewrite Ef, Ed, Ee.
      pose proof (f5_none app Happ head a _ _ _ _ _ _ _ _ HF Ef Ed Ee) as HF2.
      destruct (sk5_complete _) eqn:Ec; cbn [sk5_view].
      + eapply path_wf_out; [exact Hwf|]. eapply complete_out5; [exact HF2 | exact Ec].
      + right. split; [reflexivity|].
        destruct (k5_du a) eqn:Edu.
        * rewrite du5_stalled in Ed. injection Ed as <- <- <-. eapply none_phi5_stalled; eassumption.
        * assert (Ed' : du5_cycle app (k5_du a) dbus1 (k5_ebus a) = Ok (du1, dbus2, ebus1)) by (rewrite Edu; exact Ed).
          destruct (front_flow5 app Happ head a _ _ _ _ _ _ _ _ _ HF Ef Ed' Ee) as (_ & _ & Hcl & _ & _ & _ & _ & _ & Hnr).
          rewrite (Hnr Edu) in *.
          pose proof (fu5_cycle_inv _ _ _ _ _ _ _ Ef) as [Ef4 _].
          destruct (du5_false _ _ _ _ _ _ Ed) as [Ed4 _].
          pose proof (none_phi app Happ head (sk_to4 a) (to4 fu1) l1i1 dbus1 dbus2 ebus1 e1 ebus2 (proj_finv head a HF Edu) Ef4 Ed4 Ee) as Hphi.
          unfold phi5. unfold sk_to4 at 1, after_none5. cbn [k5_fu k5_du k5_l1i k5_dbus k5_ebus k5_eu k5_pw k5_wb k5_btb].
          unfold dclean at 1. rewrite Hcl. apply Hphi.
          unfold sk5_complete, after_none5 in Ec. cbn [k5_fu k5_du k5_l1i k5_dbus k5_ebus k5_eu k5_pw k5_wb k5_btb] in Ec.
          exact Ec.
    - (* the instruction at the head of the queue is the one the path expects *)
      destruct (front_flow5 app Happ head a _ _ _ _ _ _ _ _ _ HF Ef Ed Ee) as (_ & _ & _ & _ & Hmid & _).
      cbn [act_q List.app] in Hmid. destruct Hmid as (HA' & _ & _ & Hent').
      cbn [map snd length] in HA'. rewrite consec4_S in HA'. apply cons_inj in HA' as [-> _].
      inversion Hent' as [|x l [_ Hi] _]; subst x l. cbn [fst snd] in Hi.
      unfold sk5_cyc, sk5_cycle. rewrite Ef, Ed, Ee, Z.eqb_refl. cbn [negb].
      cbn [path_wf] in Hwf. destruct Hwf as (_ & Hwf). rewrite Hi in Hwf.
      destruct rest as [|next r].
      + rewrite Hwf. reflexivity.
      + destruct Hwf as ((i' & Hi' & Hr) & _). injection Hi' as <-. rewrite Hr.
        destruct (sk5_flush (k5_btb a) i head next); left; reflexivity.
    - destruct (front_flow5 app Happ head a _ _ _ _ _ _ _ _ _ HF Ef Ed Ee) as (_ & _ & _ & Hns & _). congruence.
  Qed.

  Lemma sk5_cycle_dc a path :
    match sk5_cyc app a path with
    | GDone dc => dc = 1
    | GStep _ _ dc => dc = 1 \/ dc = 2
    | GStuck => True
    end.
  Proof.
    unfold sk5_cyc, sk5_cycle.
    destruct (fu5_cycle app (k5_fu a) (k5_l1i a) (k5_dbus a)) as [[[fu1 l1i1] dbus1]| |]; try exact I.
    destruct (du5_cycle app (k5_du a) dbus1 (k5_ebus a)) as [[[du1 dbus2] ebus1]| |]; try exact I.
    destruct (sk_eu (k5_eu a) ebus1 (k5_pw a)) as [[e1 ebus2] act].
    destruct act as [|i pc|]; try exact I.
    - destruct (sk5_complete _); cbn [sk5_view]; auto.
    - destruct path as [|p rest]; try exact I. destruct (negb (p =? pc)); try exact I.
      destruct (is_ret i); [destruct rest; cbn [sk5_view]; auto|]. destruct rest as [|next r]; try exact I.
      destruct (sk5_flush (k5_btb a) i pc next); cbn [sk5_view]; auto.
  Qed.
End Progress5.
