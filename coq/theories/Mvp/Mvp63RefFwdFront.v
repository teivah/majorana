(* Refinement of MVP-6.3 to the sequential machine on single-assignment register-only programs with FORWARD
   control flow - the front end.

   After a flush ctx.sequenceID = sq > 0 and the decode unit tags the runner of instruction k with
   sid3 sq k = pcz k + 1000 sq, so the control bus no longer holds the runners rn app k the front-end invariant
   Mvp60RefStep.FrontI speaks about.  The bridge: erase the tags (untag_m) and keep the fact that every runner
   of the control bus carries the tag of the current sequence id (TagOK).

     sequence_id_sq     ctx.SequenceID(pc) = sid3 sq k;
     untag_* / TagOK_*  elementary facts;
     du_cycle3_untag    decodeUnit.cycle of MVP-6.3 is that of MVP-6.0 on the untagged machine;
     fd_ok3q, conn3_okq the versions of Mvp63RefStep.fd_ok3 / conn3_ok for FrontI (untag_m m) + TagOK;
     front_mincq, front_cqq, FrontI_cuq, FrontI_frameq, front_cl_lenq
                        Mvp63RefInv.front_minc_b .. front_cl_len_b through untag_m;
     fresh3_front, fresh3_phi   a Fresh3 state satisfies the front-end invariant at base t; its potential. *)
From Coq Require Import ZArith List Bool Lia Permutation.
From Maj Require Import Base.Outcome Base.GoInt Base.GoTypes Isa.Spec Isa.Embed Isa.Seq Isa.Refine.
From Maj Require Import Gen.Latency Gen.RiscTables Gen.Opcodes Comp.Cache Comp.Rat Comp.RatProofs.
From Maj Require Import Mvp.Mvp12 Mvp.Mvp12Proofs Mvp.Mvp3 Mvp.Mvp3Proofs Mvp.Mvp4Skel Mvp.Mvp4Inv Mvp.Mvp5 Mvp.Mvp60
     Mvp.Mvp60RefSem Mvp.Mvp60RefDefs Mvp.Mvp60RefFront Mvp.Mvp60RefBack Mvp.Mvp60RefStep Mvp.Mvp60RefStep2
     Mvp.Mvp63 Mvp.Mvp63Proofs Mvp.Mvp63RefDefs Mvp.Mvp63RefInv Mvp.Mvp63RefExec Mvp.Mvp63RefRat
     Mvp.Mvp63RefStep Mvp.Mvp63RefFwdDefs.
Import ListNotations.
Open Scope Z_scope.

(* ------------------------------------------------------------------ *)
(* erasing the tags: the buses                                          *)

Definition untag_p (p : Z * runner) : Z * runner := (fst p, untag_r (snd p)).

Lemma untag_b_eq b : untag_b b = mk_bb (map untag_p (bb_buf b)) (map untag_r (bb_q b)) (bb_ql b) (bb_bl b).
Proof. reflexivity. Qed.

Lemma map_snd_untag buf : map snd (map untag_p buf) = map untag_r (map snd buf).
Proof. rewrite !map_map. reflexivity. Qed.

Lemma flat_untag b : flat (untag_b b) = map untag_r (flat b).
Proof. unfold flat. rewrite untag_b_eq. cbn [bb_q bb_buf]. rewrite map_app, map_snd_untag. reflexivity. Qed.

Lemma blen_untag b : blen (untag_b b) = blen b.
Proof. unfold blen, zlen. rewrite untag_b_eq. cbn [bb_buf]. rewrite map_length. reflexivity. Qed.
Lemma qlen_untag b : qlen (untag_b b) = qlen b.
Proof. unfold qlen, zlen. rewrite untag_b_eq. cbn [bb_q]. rewrite map_length. reflexivity. Qed.
Lemma bb_ql_untag b : bb_ql (untag_b b) = bb_ql b. Proof. reflexivity. Qed.
Lemma bb_bl_untag b : bb_bl (untag_b b) = bb_bl b. Proof. reflexivity. Qed.
Lemma bb_q_untag b : bb_q (untag_b b) = map untag_r (bb_q b). Proof. reflexivity. Qed.
Lemma bb_buf_untag b : bb_buf (untag_b b) = map untag_p (bb_buf b). Proof. reflexivity. Qed.

Lemma bb_canadd_untag b : bb_canadd (untag_b b) = bb_canadd b.
Proof. unfold bb_canadd. fold (blen (untag_b b)) (blen b). rewrite blen_untag. reflexivity. Qed.
Lemma bb_isempty_untag b : bb_isempty (untag_b b) = bb_isempty b.
Proof.
  unfold bb_isempty. fold (blen (untag_b b)) (blen b) (qlen (untag_b b)) (qlen b). rewrite blen_untag, qlen_untag. reflexivity.
Qed.

Lemma untag_add b r c : untag_b (bb_add b r c) = bb_add (untag_b b) (untag_r r) c.
Proof. unfold bb_add. rewrite !untag_b_eq. cbn [bb_buf bb_q bb_ql bb_bl]. rewrite map_app. reflexivity. Qed.

Lemma untag_new ql bl : untag_b (bb_new ql bl) = bb_new ql bl. Proof. reflexivity. Qed.
Lemma untag_clean b : untag_b (bb_clean b) = bb_clean (untag_b b). Proof. reflexivity. Qed.

Lemma untag_push b c l : untag_b (bus_push b c l) = bus_push (untag_b b) c (map untag_r l).
Proof.
  unfold bus_push. rewrite !untag_b_eq. cbn [bb_buf bb_q bb_ql bb_bl]. rewrite map_app. unfold stamped. rewrite !map_map. reflexivity.
Qed.

(* bb_connect_loop only looks at stamps and lengths *)
Lemma untag_connect_loop ql c : forall buf q,
  bb_connect_loop ql c (map untag_r q) (map untag_p buf) =
  (map untag_r (fst (bb_connect_loop ql c q buf)), map untag_p (snd (bb_connect_loop ql c q buf))).
Proof.
  induction buf as [|[a t] buf IH]; intros q; cbn [map bb_connect_loop untag_p fst snd]; [reflexivity|].
  unfold zlen. rewrite map_length. fold (zlen q).
  destruct (zlen q =? ql); [reflexivity|]. destruct (a >? c); [reflexivity|].
  specialize (IH (q ++ [t])). rewrite map_app in IH. exact IH.
Qed.

Lemma untag_connect b c : untag_b (bb_connect b c) = bb_connect (untag_b b) c.
Proof.
  unfold bb_connect. rewrite bb_ql_untag, bb_q_untag, bb_buf_untag, bb_bl_untag.
  unfold zlen at 2. rewrite map_length. fold (zlen (bb_q b)).
  destruct (zlen (bb_q b) =? bb_ql b); [reflexivity|].
  rewrite untag_connect_loop. destruct (bb_connect_loop (bb_ql b) c (bb_q b) (bb_buf b)) as [q' buf']. reflexivity.
Qed.

Lemma BusOK_untag c b : BusOK c (untag_b b) <-> BusOK c b.
Proof.
  split; intros [H1 H2 H3 H4]; constructor; rewrite ?bb_ql_untag, ?bb_bl_untag, ?qlen_untag in *; auto.
  - rewrite bb_buf_untag in H4. apply Forall_forall. intros p Hp. rewrite Forall_forall in H4.
    apply (H4 (untag_p p)). apply in_map. exact Hp.
  - rewrite bb_buf_untag. apply Forall_forall. intros p Hp. apply in_map_iff in Hp as (p0 & <- & Hp0).
    rewrite Forall_forall in H4. exact (H4 p0 Hp0).
Qed.

(* the flat view of a bus does not change in Connect, whatever the bus *)
Lemma flat_connect_any {T} (b : bbus T) c : flat (bb_connect b c) = flat b.
Proof.
  unfold bb_connect. destruct (zlen (bb_q b) =? bb_ql b); [reflexivity|].
  destruct (bb_connect_loop (bb_ql b) c (bb_q b) (bb_buf b)) as [q' buf'] eqn:E.
  apply connect_loop_spec in E as (E & _). exact E.
Qed.

(* ------------------------------------------------------------------ *)
(* erasing the tags: the machine                                        *)

Lemma untag_m_regs m : m_regs (untag_m m) = m_regs m. Proof. reflexivity. Qed.
Lemma untag_m_mem m : m_mem (untag_m m) = m_mem m. Proof. reflexivity. Qed.
Lemma untag_m_pw m : m_pw (untag_m m) = m_pw m. Proof. reflexivity. Qed.
Lemma untag_m_pr m : m_pr (untag_m m) = m_pr m. Proof. reflexivity. Qed.
Lemma untag_m_l1i m : m_l1i (untag_m m) = m_l1i m. Proof. reflexivity. Qed.
Lemma untag_m_l3 m : m_l3 (untag_m m) = m_l3 m. Proof. reflexivity. Qed.
Lemma untag_m_pend m : m_pend (untag_m m) = m_pend m. Proof. reflexivity. Qed.
Lemma untag_m_fu m : m_fu (untag_m m) = m_fu m. Proof. reflexivity. Qed.
Lemma untag_m_dret m : m_dret (untag_m m) = m_dret m. Proof. reflexivity. Qed.
Lemma untag_m_dpbr m : m_dpbr (untag_m m) = m_dpbr m. Proof. reflexivity. Qed.
Lemma untag_m_cu m : m_cu (untag_m m) = m_cu m. Proof. reflexivity. Qed.
Lemma untag_m_bu m : m_bu (untag_m m) = m_bu m. Proof. reflexivity. Qed.
Lemma untag_m_dbus m : m_dbus (untag_m m) = m_dbus m. Proof. reflexivity. Qed.
Lemma untag_m_ebus m : m_ebus (untag_m m) = m_ebus m. Proof. reflexivity. Qed.
Lemma untag_m_wbus m : m_wbus (untag_m m) = m_wbus m. Proof. reflexivity. Qed.
Lemma untag_m_cbus m : m_cbus (untag_m m) = untag_b (m_cbus m). Proof. reflexivity. Qed.

Lemma untag_set_dbus m b : untag_m (set_dbus m b) = set_dbus (untag_m m) b. Proof. reflexivity. Qed.
Lemma untag_set_l1i m c : untag_m (set_l1i m c) = set_l1i (untag_m m) c. Proof. reflexivity. Qed.
Lemma untag_set_fu m f : untag_m (set_fu m f) = set_fu (untag_m m) f. Proof. reflexivity. Qed.
Lemma untag_set_wbus m b : untag_m (set_wbus m b) = set_wbus (untag_m m) b. Proof. reflexivity. Qed.
Lemma untag_set_ebus m b : untag_m (set_ebus m b) = set_ebus (untag_m m) b. Proof. reflexivity. Qed.
Lemma untag_set_sb m pw pr : untag_m (set_sb m pw pr) = set_sb (untag_m m) pw pr. Proof. reflexivity. Qed.
Lemma untag_set_du m r p : untag_m (set_du m r p) = set_du (untag_m m) r p. Proof. reflexivity. Qed.
Lemma untag_set_bu m b : untag_m (set_bu m b) = set_bu (untag_m m) b. Proof. reflexivity. Qed.
Lemma untag_set_cu m l : untag_m (set_cu m l) = set_cu (untag_m m) l. Proof. reflexivity. Qed.
Lemma untag_set_regs m l : untag_m (set_regs m l) = set_regs (untag_m m) l. Proof. reflexivity. Qed.
Lemma untag_set_l3 m c p : untag_m (set_l3 m c p) = set_l3 (untag_m m) c p. Proof. reflexivity. Qed.
Lemma untag_set_cbus m b : untag_m (set_cbus m b) = set_cbus (untag_m m) (untag_b b). Proof. reflexivity. Qed.

(* ------------------------------------------------------------------ *)
(* the tags                                                             *)

Definition Tagged (sq : Z) (r : runner) : Prop := r_seq r = r_pc r + 1000 * sq.

Lemma TagOK_eq sq b : TagOK sq b <-> Forall (Tagged sq) (flat b).
Proof. reflexivity. Qed.

Lemma TagOK_flat sq b b' : flat b' = flat b -> TagOK sq b -> TagOK sq b'.
Proof. unfold TagOK. intros ->. auto. Qed.

Lemma TagOK_connect sq b c : TagOK sq b -> TagOK sq (bb_connect b c).
Proof. apply TagOK_flat. apply flat_connect_any. Qed.

Lemma TagOK_add sq b r c : TagOK sq b -> r_seq r = r_pc r + 1000 * sq -> TagOK sq (bb_add b r c).
Proof. unfold TagOK. intros H Hr. rewrite add_flat. apply Forall_app. split; [exact H|]. constructor; [exact Hr | constructor]. Qed.

Lemma TagOK_new sq ql bl : TagOK sq (bb_new ql bl).
Proof. unfold TagOK, flat, bb_new. cbn. constructor. Qed.

Lemma TagOK_clean sq b : TagOK sq (bb_clean b).
Proof. unfold TagOK, flat, bb_clean. cbn. constructor. Qed.

(* the queue is replaced by tagged runners *)
Lemma TagOK_newq sq b q : TagOK sq b -> Forall (Tagged sq) q -> TagOK sq (mk_bb (bb_buf b) q (bb_ql b) (bb_bl b)).
Proof.
  unfold TagOK, flat. cbn [bb_q bb_buf]. intros H Hq. apply Forall_app in H as [_ H]. apply Forall_app. split; assumption.
Qed.

(* ... by a sublist *)
Lemma TagOK_subq sq b q : TagOK sq b -> incl q (bb_q b) -> TagOK sq (mk_bb (bb_buf b) q (bb_ql b) (bb_bl b)).
Proof.
  intros H Hi. apply TagOK_newq; [exact H|]. unfold TagOK, flat in H. apply Forall_app in H as [H _].
  apply Forall_forall. intros r Hr. rewrite Forall_forall in H. apply H, Hi, Hr.
Qed.

Lemma TagOK_skipn sq b t : TagOK sq b -> TagOK sq (mk_bb (bb_buf b) (skipn t (bb_q b)) (bb_ql b) (bb_bl b)).
Proof.
  intros H. apply TagOK_subq; [exact H|]. intros r Hr. rewrite <- (firstn_skipn t (bb_q b)). apply in_or_app. right. exact Hr.
Qed.

(* untag_r is injective on the runners of one sequence id *)
Lemma untag_r_inj sq r r' : Tagged sq r -> Tagged sq r' -> untag_r r = untag_r r' -> r = r'.
Proof.
  unfold Tagged, untag_r. destruct r as [i p s], r' as [i' p' s']. cbn [r_instr r_pc r_seq]. intros -> -> H.
  injection H as -> ->. reflexivity.
Qed.

Lemma untag_map_inj sq : forall l l', Forall (Tagged sq) l -> Forall (Tagged sq) l' -> map untag_r l = map untag_r l' -> l = l'.
Proof.
  induction l as [|r l IH]; intros [|r' l'] H H' E; cbn [map] in E; try discriminate; [reflexivity|].
  apply Forall_cons_iff in H as [Hr Hl]. apply Forall_cons_iff in H' as [Hr' Hl']. 
  assert (E1 : untag_r r = untag_r r') by congruence. assert (E2 : map untag_r l = map untag_r l') by congruence.
  f_equal; [exact (untag_r_inj sq r r' Hr Hr' E1) | apply IH; assumption].
Qed.

Lemma TagOK_q sq b : TagOK sq b -> Forall (Tagged sq) (bb_q b).
Proof. unfold TagOK, flat. intros H. apply Forall_app in H. apply H. Qed.

Section Runners.
  Variables (app : list instr) (sq : Z).

  Lemma untag_rnq k : untag_r (rnq app sq k) = rn app k.
  Proof. reflexivity. Qed.

  Lemma rnq_tagged k : Tagged sq (rnq app sq k).
  Proof. reflexivity. Qed.

  Lemma rnq_seq k : r_seq (rnq app sq k) = r_pc (rnq app sq k) + 1000 * sq.
  Proof. reflexivity. Qed.

  Lemma untag_rn_inv r k : untag_r r = rn app k -> r_seq r = r_pc r + 1000 * sq -> r = rnq app sq k.
  Proof.
    intros H Ht. apply (untag_r_inj sq); [exact Ht | apply rnq_tagged | rewrite untag_rnq; exact H].
  Qed.

  Lemma map_untag_rnq l : map untag_r (map (rnq app sq) l) = map (rn app) l.
  Proof. rewrite map_map. reflexivity. Qed.

  Lemma rnq_all_tagged l : Forall (Tagged sq) (map (rnq app sq) l).
  Proof. apply Forall_forall. intros r Hr. apply in_map_iff in Hr as (k & <- & _). apply rnq_tagged. Qed.

  (* a tagged list that is a list of rn's once untagged is the list of the rnq's *)
  Lemma untag_map_rn_inv l ks : Forall (Tagged sq) l -> map untag_r l = map (rn app) ks -> l = map (rnq app sq) ks.
  Proof.
    intros H E. apply (untag_map_inj sq); [exact H | apply rnq_all_tagged | rewrite map_untag_rnq; exact E].
  Qed.
End Runners.

(* ------------------------------------------------------------------ *)
(* the three Connect calls on the machine of MVP-6.0                    *)

Definition connm (m : mach) (c : Z) : mach :=
  set_wbus (set_cbus (set_dbus m (bb_connect (m_dbus m) c)) (bb_connect (m_cbus m) c)) (bb_connect (m_wbus m) c).

Lemma connected3_m x c : x_m (connected3 x c) = connm (x_m x) c.
Proof. reflexivity. Qed.

Lemma untag_connm m c : untag_m (connm m c) = connm (untag_m m) c.
Proof.
  unfold connm, untag_m. cbn [set_wbus set_cbus set_dbus m_regs m_mem m_pw m_pr m_l1i m_l3 m_pend m_fu m_dret m_dpbr m_cu m_bu m_dbus m_cbus m_ebus m_wbus].
  rewrite untag_connect. reflexivity.
Qed.

Lemma busok_new3 {T} cyc : BusOK cyc (@bb_new T 2 2).
Proof. constructor; try reflexivity; [unfold qlen, bb_new; cbn; lia | constructor]. Qed.

Lemma FrontI_connm app base D c f cyc m : Mvp60RefStep.FrontI app base D c f cyc m -> Mvp60RefStep.FrontI app base D c f cyc (connm m (cyc + 1)).
Proof.
  intros HF. pose proof HF as [F1 Fc F2 F3 Fb F4 F5 F6 F7 F8 F9 Fbt F10 F11 F12 F13 F14].
  destruct (connect_spec cyc (m_dbus m) F10) as (D1 & D2 & D3 & D4 & D5).
  destruct (connect_spec cyc (m_cbus m) F11) as (C1 & C2 & C3 & C4 & C5).
  destruct (connect_spec cyc (m_wbus m) F13) as (W1 & W2 & W3 & W4 & W5).
  unfold connm.
  constructor; cbn [set_wbus set_cbus set_dbus m_fu m_l1i m_dret m_dpbr m_cu m_bu m_dbus m_cbus m_ebus m_wbus];
    rewrite ?D1, ?C1; auto.
  intros Hc. destruct (Fc Hc) as [A B]. assert (Hx : flat (bb_connect (m_dbus m) (cyc + 1)) = []) by (rewrite D1; unfold flat; rewrite A, B; reflexivity).
  apply flat_nil_inv in Hx. tauto.
Qed.

(* ------------------------------------------------------------------ *)
(* the front end of one segment                                         *)

Section FwdFront.
  Variables (app : list instr) (labels : Z -> option Z) (regs0 : list Z) (base : nat) (sq : Z) (ord : Z -> Z -> list Z -> list Z).
  Hypothesis Happ : wf_app app.
  Hypothesis Hlen0le : (length regs0 <= 32)%nat.
  Hypothesis Hbase : (base <= length app)%nat.
  Hypothesis Hsq : 0 <= sq /\ 1000 * sq + 4 * Z.of_nat (length app) + 4 < 2147483648.
  Let n := length app.
  Let N := stop_from app base.

  Notation sreg := (sreg app labels regs0 base).
  Notation eff := (eff app labels regs0 base).
  Notation rn := (rn app).
  Notation rnq := (rnq app sq).
  Notation ik := (ik app).
  Notation FrontI := (Mvp60RefStep.FrontI app base).
  Notation phiF := (phiF app).

  Hypothesis Hsem : forall k, (base <= k <= N)%nat -> (k < n)%nat ->
    exec (sinstr_of (ik k)) (rget (sreg k)) labels (pcz k) [] = Ok (eff k) /\
    (forall a, etarget (eff k) = Some a -> exists t, a = pcz t /\ (k < t <= n)%nat).

  (* ctx.SequenceID(pc) *)
  Lemma sequence_id_sq x k : x_seq x = sq -> (k < n)%nat -> sequence_id x (pcz k) = sid3 sq k.
  Proof using Hsq.
    intros Hs Hk. unfold n in Hk. unfold sequence_id, sid3, addS, mulS. rewrite Hs.
    assert (B0 : 0 < 32) by (clear; lia).
    assert (B1 : int32 (sq * 1000)) by (apply int32_bounds; clear - Hsq; lia).
    assert (B2 : int32 (pcz k + 1000 * sq)) by (apply int32_bounds; unfold pcz; clear - Hsq Hk; lia).
    rewrite (wrapS_id 32 (sq * 1000) B0 B1). rewrite (Z.mul_comm sq 1000). exact (wrapS_id 32 _ B0 B2).
  Qed.

  Lemma set_forward3_idq x pc : x_fwd x = repeat (0, 0) n -> set_forward3 x pc 0 0 = x.
  Proof using Type. intros H. unfold set_forward3. rewrite H, upd3_repeat, <- H. apply set_fwd3_same. Qed.

  (* the decode unit *)
  Lemma du_loop3_untag cycle : forall l ret pbr cbus x, x_seq x = sq -> x_fwd x = repeat (0, 0) n -> TagOK sq cbus ->
    match du_loop (map pcz l) app cycle ret pbr (untag_b cbus) with
    | Ok (a, b, c, d) => exists cb, du_loop3 (map pcz l) app cycle ret pbr cbus x = Ok (a, b, c, cb, x) /\ untag_b cb = d /\ TagOK sq cb
    | Err e => du_loop3 (map pcz l) app cycle ret pbr cbus x = Err e
    | Panic => du_loop3 (map pcz l) app cycle ret pbr cbus x = Panic
    end.
  Proof using Hsq.
    induction l as [|k t IH]; intros ret pbr cbus x Hs Hf Ht; cbn [map du_loop3 du_loop].
    - exists cbus. auto.
    - rewrite pcz_quot. unfold nlen6. fold n.
      destruct (Z.leb_spec (Z.of_nat n) (Z.of_nat k)) as [Hout|Hin]; [exists cbus; auto|].
      destruct (Z.of_nat k <? 0); [reflexivity|]. destruct (nth_error app (Z.to_nat (Z.of_nat k))) as [i|]; [|reflexivity].
      cbv zeta. rewrite (set_forward3_idq x (pcz k) Hf).
      rewrite (sequence_id_sq x k Hs ltac:(clear - Hin; lia)).
      set (cb1 := bb_add cbus (mk_runner i (pcz k) (sid3 sq k)) cycle).
      assert (Hu : untag_b cb1 = bb_add (untag_b cbus) (mk_runner i (pcz k) (pcz k)) cycle) by (unfold cb1; apply untag_add).
      assert (Ht1 : TagOK sq cb1) by (unfold cb1; apply TagOK_add; [exact Ht | reflexivity]).
      rewrite <- Hu.
      destruct (InstructionType_IsUnconditionalBranch (instr_InstructionType i)); [exists cb1; auto|].
      destruct (instr_InstructionType i =? Ret); [exists cb1; auto|]. apply IH; assumption.
  Qed.

  Lemma du_cycle3_untag cycle x l : x_seq x = sq -> x_fwd x = repeat (0, 0) n -> bb_q (m_dbus (x_m x)) = map pcz l ->
    TagOK sq (m_cbus (x_m x)) ->
    match du_cycle6 app cycle (untag_m (x_m x)) with
    | Ok m' => exists m3, du_cycle3 app cycle x = Ok (set_m x m3) /\ untag_m m3 = m' /\ TagOK sq (m_cbus m3)
    | Err e => du_cycle3 app cycle x = Err e
    | Panic => du_cycle3 app cycle x = Panic
    end.
  Proof using Hsq.
    intros Hs Hf Hq Ht. unfold du_cycle3, du_cycle6. rewrite untag_m_dret, untag_m_dpbr, untag_m_dbus, untag_m_cbus.
    destruct (m_dret (x_m x)); [exists (x_m x); rewrite set_m_same; auto|].
    destruct (m_dpbr (x_m x)); [exists (x_m x); rewrite set_m_same; auto|].
    rewrite Hq. pose proof (du_loop3_untag cycle l false false (m_cbus (x_m x)) x Hs Hf Ht) as HL.
    destruct (du_loop (map pcz l) app cycle false false (untag_b (m_cbus (x_m x)))) as [[[[a b] c] d]| |].
    - destruct HL as (cb & E & Hu & Ht'). rewrite E. cbn [bind].
      eexists. split; [reflexivity|]. split; [|exact Ht'].
      rewrite untag_set_cbus, Hu. reflexivity.
    - rewrite HL. reflexivity.
    - rewrite HL. reflexivity.
  Qed.

  Lemma du_cycle3_untag_ok cycle x l m' : x_seq x = sq -> x_fwd x = repeat (0, 0) n -> bb_q (m_dbus (x_m x)) = map pcz l ->
    TagOK sq (m_cbus (x_m x)) -> du_cycle6 app cycle (untag_m (x_m x)) = Ok m' ->
    exists m3, du_cycle3 app cycle x = Ok (set_m x m3) /\ untag_m m3 = m' /\ TagOK sq (m_cbus m3).
  Proof using Hsq.
    intros Hs Hf Hq Ht E. pose proof (du_cycle3_untag cycle x l Hs Hf Hq Ht) as H. rewrite E in H. exact H.
  Qed.

  (* fetchUnit.cycle ; decodeUnit.cycle *)
  Lemma fd_ok3q d c f cyc x : FrontI d c f cyc (untag_m (x_m x)) -> TagOK sq (m_cbus (x_m x)) -> x_seq x = sq -> x_fwd x = repeat (0, 0) n ->
    exists fu1 l1i1 dbus1 m3 c' f',
      fu_cycle6 app (cyc + 1) (m_fu (x_m x)) (m_l1i (x_m x)) (m_dbus (x_m x)) = Ok (fu1, l1i1, dbus1) /\
      du_cycle3 app (cyc + 1) (set_m x (set_dbus (set_l1i (set_fu (x_m x) fu1) l1i1) dbus1)) = Ok (set_m x m3) /\
      FrontI d c' f' (cyc + 1) (untag_m m3) /\ TagOK sq (m_cbus m3) /\
      m_regs m3 = m_regs (x_m x) /\ m_mem m3 = m_mem (x_m x) /\ m_pw m3 = m_pw (x_m x) /\ m_pr m3 = m_pr (x_m x) /\ m_l3 m3 = m_l3 (x_m x) /\
      m_ebus m3 = m_ebus (x_m x) /\ m_wbus m3 = m_wbus (x_m x) /\ m_cu m3 = m_cu (x_m x) /\ bb_q (m_cbus m3) = bb_q (m_cbus (x_m x)) /\
      phiF (m_fu m3) + 10 * blen (m_dbus m3) + 9 * qlen (m_dbus m3) + 8 * blen (m_cbus m3)
        <= phiF (m_fu (x_m x)) + 10 * blen (m_dbus (x_m x)) + 9 * qlen (m_dbus (x_m x)) + 8 * blen (m_cbus (x_m x)) /\
      (phiF (m_fu m3) + 10 * blen (m_dbus m3) + 9 * qlen (m_dbus m3) + 8 * blen (m_cbus m3)
        < phiF (m_fu (x_m x)) + 10 * blen (m_dbus (x_m x)) + 9 * qlen (m_dbus (x_m x)) + 8 * blen (m_cbus (x_m x)) \/
       (((f_co (m_fu (x_m x)) = FDone /\ phiF (m_fu m3) = phiF (m_fu (x_m x)) /\ f_complete (m_fu m3) = f_complete (m_fu (x_m x))) \/
         (f_co (m_fu (x_m x)) = FNone /\ bb_canadd (m_dbus (x_m x)) = false)) /\
        (m_dret (x_m x) = true \/ m_dpbr (x_m x) = true \/ bb_q (m_dbus (x_m x)) = []))).
  Proof using Happ Hlen0le Hbase Hsq Hsem.
    intros HF Ht Hs Hf. set (m := x_m x) in *.
    destruct (fd_ok app labels regs0 base Happ Hlen0le Hbase Hsem d c f cyc (untag_m m) HF)
      as (m3' & c' & f' & E & HF' & R1 & R2 & R3 & R4 & R5 & R6 & R7 & R8 & R9 & P1 & P2).
    pose proof HF as [F1 Fc F2 F3 Fb F4 F5 F6 F7 F8 F9 Fbt F10 F11 F12 F13 F14].
    destruct (fu_ok app base Happ cyc f (m_fu m) (m_l1i m) (m_dbus m) F1 F10 Fc) as (fu' & l1i' & k & Efu & _).
    set (dbus1 := bus_push (m_dbus m) (cyc + 2) (map pcz (seq f k))) in *.
    assert (E' : du_cycle6 app (cyc + 1) (untag_m (set_dbus (set_l1i (set_fu m fu') l1i') dbus1)) = Ok m3').
    { rewrite untag_m_fu, untag_m_l1i, untag_m_dbus, Efu in E. exact E. }
    clear E.
    destruct (seq_split pcz (bb_q (m_dbus m)) (map snd (bb_buf (m_dbus m))) c (f - c) F2) as (Q1 & _ & _).
    set (x2 := set_m x (set_dbus (set_l1i (set_fu m fu') l1i') dbus1)).
    destruct (du_cycle3_untag_ok (cyc + 1) x2 (seq c (length (bb_q (m_dbus m)))) m3' Hs Hf Q1 Ht E') as (m3 & ED & Hu & Ht3).
    subst m3'.
    exists fu', l1i', dbus1, m3, c', f'.
    split; [exact Efu|]. split; [exact ED|]. split; [exact HF'|]. split; [exact Ht3|].
    split; [exact R1|]. split; [exact R2|]. split; [exact R3|]. split; [exact R4|]. split; [exact R5|].
    split; [exact R6|]. split; [exact R7|]. split; [exact R8|].
    rewrite !untag_m_cbus, !blen_untag in P1, P2.
    split; [|split; [exact P1 | exact P2]].
    rewrite !untag_m_cbus, !bb_q_untag in R9.
    apply (untag_map_inj sq); [apply TagOK_q; exact Ht3 | apply TagOK_q; exact Ht | exact R9].
  Qed.

  (* the four Connect calls *)
  Lemma conn3_okq D c f cyc x : FrontI D c f cyc (untag_m (x_m x)) -> TagOK sq (m_cbus (x_m x)) -> BusOK cyc (x_ebus x) ->
    let x1 := connected3 x (cyc + 1) in
    FrontI D c f cyc (untag_m (x_m x1)) /\ TagOK sq (m_cbus (x_m x1)) /\ BusOK cyc (x_ebus x1) /\
    flat (x_ebus x1) = flat (x_ebus x) /\ flat (m_wbus (x_m x1)) = flat (m_wbus (x_m x)) /\
    m_fu (x_m x1) = m_fu (x_m x) /\ m_dret (x_m x1) = m_dret (x_m x) /\ m_dpbr (x_m x1) = m_dpbr (x_m x) /\ m_cu (x_m x1) = m_cu (x_m x) /\
    qlen (m_dbus (x_m x1)) + blen (m_dbus (x_m x1)) = qlen (m_dbus (x_m x)) + blen (m_dbus (x_m x)) /\ qlen (m_dbus (x_m x)) <= qlen (m_dbus (x_m x1)) /\
    qlen (m_cbus (x_m x1)) + blen (m_cbus (x_m x1)) = qlen (m_cbus (x_m x)) + blen (m_cbus (x_m x)) /\ qlen (m_cbus (x_m x)) <= qlen (m_cbus (x_m x1)) /\
    qlen (x_ebus x1) + blen (x_ebus x1) = qlen (x_ebus x) + blen (x_ebus x) /\ qlen (x_ebus x) <= qlen (x_ebus x1) /\
    (blen (m_dbus (x_m x1)) = 0 \/ qlen (m_dbus (x_m x1)) = 2) /\ (blen (m_cbus (x_m x1)) = 0 \/ qlen (m_cbus (x_m x1)) = 2) /\
    (blen (x_ebus x1) = 0 \/ qlen (x_ebus x1) = 2).
  Proof using Type.
    intros HF Ht HE. cbv zeta. pose proof HF as [F1 Fc F2 F3 Fb F4 F5 F6 F7 F8 F9 Fbt F10 F11 F12 F13 F14].
    set (m := x_m x) in *.
    assert (F11' : BusOK cyc (m_cbus m)) by (apply BusOK_untag; exact F11).
    destruct (connect_spec cyc (m_dbus m) F10) as (D1 & D2 & D3 & D4 & D5).
    destruct (connect_spec cyc (m_cbus m) F11') as (C1 & C2 & C3 & C4 & C5).
    destruct (connect_spec cyc (x_ebus x) HE) as (E1 & E2 & E3 & E4 & E5).
    destruct (connect_spec cyc (m_wbus m) F13) as (W1 & W2 & W3 & W4 & W5).
    assert (X : forall T (b : bbus T), bb_buf b = [] \/ qlen b = 2 -> blen b = 0 \/ qlen b = 2).
    { intros T b [A|A]; [left; unfold blen; rewrite A; reflexivity | right; exact A]. }
    split; [rewrite connected3_m, untag_connm; apply FrontI_connm; exact HF|].
    split; [rewrite connected3_m; unfold connm; cbn [set_wbus set_cbus m_cbus]; apply TagOK_connect; exact Ht|].
    unfold connected3. fold m. cbn [x_m x_ebus set_ebus3 set_m set_wbus set_cbus set_dbus m_fu m_dret m_dpbr m_cu m_dbus m_cbus m_wbus].
    split; [exact E2|]. split; [exact E1|]. split; [exact W1|].
    repeat split; auto; lia.
  Qed.

  (* the control unit and the frame *)
  Lemma front_mincq D c f cy m : FrontI D c f cy (untag_m m) -> (Nat.min c n <= S N)%nat.
  Proof using Type. apply front_minc_b. Qed.

  (* the queue of the control bus is the head of the stream *)
  Lemma front_cqq D c f cy m : FrontI D c f cy (untag_m m) -> TagOK sq (m_cbus m) -> m_cu m = [] ->
    bb_q (m_cbus m) = map rnq (seq D (length (bb_q (m_cbus m)))) /\ (D + length (bb_q (m_cbus m)) <= Nat.min c n)%nat.
  Proof using Type.
    intros H Ht Hcu. destruct (front_cq_b app base _ _ _ _ _ H Hcu) as [A B]. fold n in B.
    rewrite untag_m_cbus, bb_q_untag, map_length in A, B. split; [|exact B].
    apply untag_map_rn_inv; [apply TagOK_q; exact Ht | exact A].
  Qed.

  (* the control unit took t runners from the queue of the control bus *)
  Lemma FrontI_cuq D c f cy m pw pr t : FrontI D c f cy (untag_m m) -> TagOK sq (m_cbus m) -> m_cu m = [] ->
    (t <= length (bb_q (m_cbus m)))%nat ->
    let m' := set_cbus (set_sb m pw pr) (mk_bb (bb_buf (m_cbus m)) (map rnq (seq (D + t) (length (bb_q (m_cbus m)) - t)))
                                                (bb_ql (m_cbus m)) (bb_bl (m_cbus m))) in
    FrontI (D + t) c f cy (untag_m m') /\ TagOK sq (m_cbus m').
  Proof using Type.
    intros H Ht Hcu Hle. cbv zeta. split.
    - assert (Hle' : (t <= length (bb_q (m_cbus (untag_m m))))%nat) by (rewrite untag_m_cbus, bb_q_untag, map_length; exact Hle).
      pose proof (FrontI_cu_b app base D c f cy (untag_m m) pw pr t H Hcu Hle') as H'.
      rewrite untag_m_cbus, bb_q_untag, map_length in H'.
      rewrite untag_set_cbus, untag_set_sb, untag_b_eq. cbn [bb_buf bb_q bb_ql bb_bl]. rewrite map_untag_rnq. exact H'.
    - cbn [set_cbus m_cbus]. apply TagOK_newq; [exact Ht | apply rnq_all_tagged].
  Qed.

  Lemma FrontI_frameq D c f cy m m' : FrontI D c f cy (untag_m m) ->
    m_fu m' = m_fu m -> m_l1i m' = m_l1i m -> m_dret m' = m_dret m -> m_dpbr m' = m_dpbr m -> m_cu m' = m_cu m ->
    m_dbus m' = m_dbus m -> m_cbus m' = m_cbus m -> m_ebus m' = m_ebus m -> b_btb (m_bu m') = b_btb (m_bu m) ->
    BusOK cy (m_wbus m') -> FrontI D c f cy (untag_m m').
  Proof using Type.
    intros H E1 E2 E3 E4 E5 E6 E7 E8 E9 HW.
    apply (FrontI_frame_b app base D c f cy (untag_m m) (untag_m m') H); try assumption.
    rewrite !untag_m_cbus, E7. reflexivity.
  Qed.

  Lemma front_cl_lenq D c f cy m : FrontI D c f cy (untag_m m) -> m_cu m = [] ->
    qlen (m_cbus m) + blen (m_cbus m) = Z.of_nat (Nat.min c n - D) /\ (D <= Nat.min c n)%nat.
  Proof using Type.
    intros H Hcu. destruct (front_cl_len_b app base _ _ _ _ _ H Hcu) as [A B].
    rewrite untag_m_cbus, qlen_untag, blen_untag in A. split; [exact A | exact B].
  Qed.
End FwdFront.

(* ------------------------------------------------------------------ *)
(* a fresh state                                                     *)

Lemma fresh3_front app labels mem0 t sq R s : Fresh3 app labels mem0 t sq R s -> (t <= length app)%nat ->
  Mvp60RefStep.FrontI app t t t t (t_cycle s) (untag_m (x_m (t_x s))) /\ TagOK sq (m_cbus (x_m (t_x s))) /\ m_cu (x_m (t_x s)) = [].
Proof.
  intros HFr Ht.
  pose proof (h3_pc _ _ _ _ _ _ _ HFr) as Hpc. pose proof (h3_comp _ _ _ _ _ _ _ HFr) as Hcomp. pose proof (h3_co _ _ _ _ _ _ _ HFr) as Hco. pose proof (h3_l1i _ _ _ _ _ _ _ HFr) as Hl1i.
  pose proof (h3_dret _ _ _ _ _ _ _ HFr) as Hdret. pose proof (h3_dpbr _ _ _ _ _ _ _ HFr) as Hdpbr. pose proof (h3_cu _ _ _ _ _ _ _ HFr) as Hcu. pose proof (h3_btb _ _ _ _ _ _ _ HFr) as Hbtb.
  pose proof (h3_dbus _ _ _ _ _ _ _ HFr) as Hdbus. pose proof (h3_cbus _ _ _ _ _ _ _ HFr) as Hcbus. pose proof (h3_mebus _ _ _ _ _ _ _ HFr) as Hmebus. pose proof (h3_wbus _ _ _ _ _ _ _ HFr) as Hwbus.
  split; [|split; [rewrite Hcbus; apply TagOK_new | exact Hcu]].
  constructor; rewrite ?untag_m_cbus, ?untag_m_fu, ?untag_m_l1i, ?untag_m_dret, ?untag_m_dpbr, ?untag_m_cu, ?untag_m_bu, ?untag_m_dbus,
    ?untag_m_ebus, ?untag_m_wbus, ?Hdbus, ?Hcbus, ?Hmebus, ?Hwbus, ?Hcu, ?untag_new; try apply busok_new3; auto; try lia.
  - constructor; auto.
    + rewrite Hco. discriminate.
    + intros _. split; [lia | rewrite Hco; discriminate].
    + rewrite Hcomp. discriminate.
  - rewrite Nat.sub_diag. reflexivity.
  - replace (Nat.min t (length app) - t)%nat with O by lia. reflexivity.
  - intros _ _. pose proof (stop_from_ge app t). lia.
  - rewrite Hdret. discriminate.
  - rewrite Hdpbr. discriminate.
  - unfold blen, bb_new. cbn. lia.
Qed.

Lemma fresh3_phi app labels mem0 t sq R s : Fresh3 app labels mem0 t sq R s ->
  Mvp63RefStep.phiX app (t_x s) + 3 < Z.of_nat (400 * length app + 1600).
Proof.
  intros HFr.
  pose proof (h3_pc _ _ _ _ _ _ _ HFr) as Hpc. pose proof (h3_co _ _ _ _ _ _ _ HFr) as Hco. pose proof (h3_dbus _ _ _ _ _ _ _ HFr) as Hdbus. pose proof (h3_cbus _ _ _ _ _ _ _ HFr) as Hcbus.
  pose proof (h3_wbus _ _ _ _ _ _ _ HFr) as Hwbus. pose proof (h3_ebus _ _ _ _ _ _ _ HFr) as Hebus. pose proof (h3_pend _ _ _ _ _ _ _ HFr) as Hpend.
  unfold phiX. rewrite Hdbus, Hcbus, Hwbus, Hebus, Hpend. unfold phiF, phi_co. rewrite Hpc, Hco.
  unfold blen, qlen, zlen, bb_new. cbn [bb_buf bb_q length]. unfold MemoryAccess, pcz. lia.
Qed.

Print Assumptions sequence_id_sq.
Print Assumptions untag_connect.
Print Assumptions BusOK_untag.
Print Assumptions du_cycle3_untag.
Print Assumptions fd_ok3q.
Print Assumptions conn3_okq.
Print Assumptions front_mincq.
Print Assumptions front_cqq.
Print Assumptions FrontI_cuq.
Print Assumptions FrontI_frameq.
Print Assumptions front_cl_lenq.
Print Assumptions fresh3_front.
Print Assumptions fresh3_phi.
