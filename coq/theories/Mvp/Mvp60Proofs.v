(* Facts about the cycle-level model of MVP-6.0 (Mvp60.v) that hold for every program: a run
   that returns reports at least one cycle; the control unit never fills the execute bus
   beyond its buffer length, and since NewCPU builds that bus with busSize = 2 at most two
   instructions are dispatched in any cycle, whatever the number of execute units; a run that
   ends with the ghost flag clear returns the same result for all iteration orders of the
   stores' MemoryChanges maps. *)
From Coq Require Import ZArith List Bool Lia.
From Maj Require Import Comp.MapFacts.
From Maj Require Import Base.Outcome Base.GoInt Base.GoTypes Isa.Spec Isa.Seq.
From Maj Require Import Gen.Latency Gen.RiscTables Gen.Opcodes Comp.Cache Mvp.Mvp12 Mvp.Mvp3 Mvp.Mvp5 Mvp.Mvp60.
Import ListNotations.
Open Scope Z_scope.

Lemma flush_lines_ge : forall ls mem c0 mem' c,
  flush_lines ls mem c0 = Ok (mem', c) -> c0 <= c.
Proof.
  induction ls as [|l t IH]; intros mem c0 mem' c H; simpl in H.
  - inversion H; lia.
  - destruct (write_to_memory mem (lo l) (data l)) eqn:E; simpl in H; try discriminate.
    apply IH in H. unfold MemoryAccess in H. lia.
Qed.

Lemma finish6_ge : forall m cycle c st, finish6 m cycle = MDone c st -> cycle <= c.
Proof.
  intros m cycle c st H. unfold finish6 in H.
  destruct (flush_lines (lines (m_l3 m)) (m_mem m) 0) as [[mem' c']| |] eqn:E; try discriminate.
  inversion H; subst. apply flush_lines_ge in E. lia.
Qed.

(* [cyc_ge c r]: a step result that ends Run reports at least c cycles, one that goes on has
   counted at least c *)
Definition cyc_ge (c : Z) (r : step_res) : Prop :=
  match r with SDone (MDone c' _) _ => c <= c' | SDone _ _ => True | SCont s' => c <= s_cycle s' end.

Lemma cyc_ge_mono : forall c c' r, c' <= c -> cyc_ge c r -> cyc_ge c' r.
Proof. intros c c' r Hc. destruct r as [[c0 st| | |] os|s']; cbn [cyc_ge]; lia. Qed.

Lemma res_of_cyc : forall A c os (o : outcome A) k, (forall x, cyc_ge c (k x)) -> cyc_ge c (res_of os o k).
Proof. intros A c os o k H. destruct o; cbn [res_of cyc_ge]; auto. Qed.

Lemma finish6_cyc : forall c m cycle os, c <= cycle -> cyc_ge c (SDone (finish6 m cycle) os).
Proof.
  intros c m cycle os Hc. cbn [cyc_ge]. destruct (finish6 m cycle) as [c0 st| | |] eqn:E; [|exact I..].
  apply finish6_ge in E. lia.
Qed.

Lemma ret_check_cyc : forall s, cyc_ge (s_cycle s) (ret_check s).
Proof. intros s. unfold ret_check. destruct (_ && _); [apply finish6_cyc | cbn [cyc_ge s_cycle]]; lia. Qed.

(* the flush loop never ends Run *)
Lemma flush_advance_cyc : forall s k from pc, cyc_ge (s_cycle s) (flush_advance s k from pc).
Proof. intros. unfold flush_advance. destruct (flush_next _ _ _); cbn [cyc_ge s_cycle]; unfold Flush; lia. Qed.

Lemma back6_cyc : forall s cycle os x, cyc_ge cycle (back6 s cycle os x).
Proof.
  intros s cycle os [[m eus1] o]. unfold back6. apply res_of_cyc. intros [m2 wus1].
  destruct (o_ret o); [eapply cyc_ge_mono; [|apply ret_check_cyc]; cbn [s_cycle]; lia|].
  destruct (o_flush o); [eapply cyc_ge_mono; [|apply flush_advance_cyc]; cbn [s_cycle]; lia|].
  destruct (is_empty6 _ _ _); [apply finish6_cyc | cbn [cyc_ge s_cycle]]; lia.
Qed.

Lemma drain6_cyc : forall s os x, cyc_ge (s_cycle s + 1) (drain6 s os x).
Proof.
  intros s os [[m eus1] o]. unfold drain6. apply res_of_cyc. intros [m2 wus1].
  eapply cyc_ge_mono; [|apply ret_check_cyc]. cbn [s_cycle]. lia.
Qed.

(* every tick counts at least one cycle *)
Lemma step6_cyc : forall app labels ord s, cyc_ge (s_cycle s + 1) (step6 app labels ord s).
Proof.
  intros app labels ord s. unfold step6. destruct (s_mode s).
  - apply res_of_cyc. intros m1. destruct (eus_cycle _ _ _ _ _ _ _) as [os1 re]. apply res_of_cyc. intros x. apply back6_cyc.
  - destruct (eus_cycle _ _ _ _ _ _ _) as [os1 re]. apply res_of_cyc. intros x. apply drain6_cyc.
  - destruct (nth_error (s_wus s) k); [|exact I]. apply res_of_cyc. intros x.
    eapply cyc_ge_mono; [|apply flush_advance_cyc]. cbn [s_cycle]. lia.
Qed.

Lemma run6_st_cycles : forall fuel app labels ord s c st os,
  run6_st fuel app labels ord s = inl (MDone c st, os) -> s_cycle s + 1 <= c.
Proof.
  induction fuel as [|f IH]; intros app labels ord s c st os H; simpl in H; try discriminate.
  pose proof (step6_cyc app labels ord s) as Hs.
  destruct (step6 app labels ord s) as [r os'|s'].
  - inversion H; subst. exact Hs.
  - apply IH in H. cbn [cyc_ge] in Hs. lia.
Qed.

Lemma run6_cycles : forall fuel app labels ord s c st os,
  run6 fuel app labels ord s = (MDone c st, os) -> s_cycle s + 1 <= c.
Proof.
  intros fuel app labels ord s c st os H. unfold run6 in H.
  destruct (run6_st fuel app labels ord s) as [r|s'] eqn:E; try discriminate.
  subst r. now apply run6_st_cycles in E.
Qed.

Theorem mvp60_cycles_pos : forall par ord fuel app labels st c st',
  mvp60_run par ord fuel app labels st = MDone c st' -> 1 <= c.
Proof.
  intros par ord fuel app labels st c st' H. unfold mvp60_run in H.
  destruct (mvp60_run_os par ord fuel app labels st) as [r os] eqn:E. simpl in H. subst r.
  unfold mvp60_run_os, init6 in E.
  destruct (new_cache l1LineSize l1Size); try discriminate.
  destruct (new_cache l3LineSize l3Size); try discriminate.
  apply run6_cycles in E. simpl in E. lia.
Qed.

(* number of entries in the buffer of the execute bus / its bufferLength *)
Definition ebuf (m : mach) : Z := zlen (bb_buf (m_ebus m)).
Definition ebl (m : mach) : Z := bb_bl (m_ebus m).

Lemma set_nth6_same {A} (l : list A) n x : nth_error l n = Some x -> set_nth6 l n x = l.
Proof.
  revert n. induction l as [|h t IH]; intros [|n] H; cbn in *; try discriminate.
  - injection H as ->. reflexivity.
  - rewrite (IH n H). reflexivity.
Qed.

Lemma Forall_set_nth6 {A} (P : A -> Prop) l i a : Forall P l -> P a -> Forall P (set_nth6 l i a).
Proof.
  revert i. induction l as [|h t IH]; intros i HL HA; [constructor|].
  inversion HL as [|? ? H1 H2]; subst. destruct i as [|i]; cbn [set_nth6]; constructor; auto.
Qed.

(* handleRunner: every refusal is a stop; a push adds exactly one entry *)
Lemma handle_runner_spec : forall m cycle pushed r push stop m',
  handle_runner m cycle pushed r = (push, stop, m') ->
  stop = negb push /\ ebl m' = ebl m /\ ebuf m' = ebuf m + (if push then 1 else 0) /\
  m_cu m' = m_cu m /\ m_cbus m' = m_cbus m.
Proof.
  intros m cycle pushed r push stop m' H. unfold handle_runner in H.
  destruct (_ && _) in H; [inversion H; subst; repeat split; simpl; lia|].
  destruct (_ && _) in H; [inversion H; subst; repeat split; simpl; lia|].
  destruct (has_hazard6 _ _ _) in H; inversion H; subst; repeat split; simpl; try lia.
  unfold ebuf. simpl. apply zlen_app1.
Qed.

Lemma cu_pending_spec : forall ps kept m cycle remaining pushed stopped rem' pushed' pend' m',
  cu_pending ps kept m cycle remaining pushed = (stopped, rem', pushed', pend', m') ->
  ebl m' = ebl m /\ ebuf m' - ebuf m = remaining - rem' /\ 0 <= remaining - rem' <= Z.of_nat (length ps) /\
  (stopped = false -> pend' = rev kept) /\ (length pend' <= length kept + length ps)%nat /\
  m_cbus m' = m_cbus m.
Proof.
  induction ps as [|r t IH]; intros kept m cycle remaining pushed stopped rem' pushed' pend' m' H; simpl in H.
  - inversion H; subst. rewrite rev_length. repeat split; simpl; try lia.
  - destruct (handle_runner m cycle pushed r) as [[push stop] m1] eqn:E.
    apply handle_runner_spec in E. destruct E as [Es [E1 [E2 [_ E4]]]]. subst stop.
    destruct push; simpl in H.
    + apply IH in H. destruct H as [H1 [H2 [H3 [H4 [H5 H6]]]]].
      rewrite H1, E1, H6, E4. repeat split; auto; simpl length; try lia.
    + inversion H; subst. rewrite !app_length, rev_length. simpl length.
      repeat split; auto; simpl length; try lia; try discriminate.
Qed.

Lemma cu_incoming_spec : forall q pend m cycle remaining pushed q' pend' m',
  cu_incoming q pend m cycle remaining pushed = (q', pend', m') ->
  ebl m' = ebl m /\ ebuf m <= ebuf m' <= ebuf m + Z.max 0 remaining /\
  (length pend' <= length pend + 1)%nat.
Proof.
  induction q as [|r q IH]; intros pend m cycle remaining pushed q' pend' m' H.
  - simpl in H. destruct (negb _) in H; inversion H; subst; repeat split; lia.
  - simpl in H. destruct (negb ((0 <? remaining) && negb (pendingLength <=? zlen pend))) eqn:Ec.
    + inversion H; subst; repeat split; lia.
    + assert (0 < remaining) as Hr.
      { apply negb_false_iff in Ec. apply andb_true_iff in Ec. destruct Ec as [Ec _]. now apply Z.ltb_lt in Ec. }
      destruct (handle_runner m cycle pushed r) as [[push stop] m1] eqn:E.
      apply handle_runner_spec in E. destruct E as [Es [E1 [E2 _]]]. subst stop.
      destruct push; simpl in H.
      * apply IH in H. destruct H as [H1 [H2 H3]]. rewrite H1, E1. repeat split; lia.
      * inversion H; subst. rewrite app_length. simpl length. repeat split; lia.
Qed.

(* controlUnit.cycle keeps the execute bus within its buffer length and its
   own queue at one element at most *)
Theorem cu_dispatch_bound : forall cycle m,
  (length (m_cu m) <= 1)%nat -> ebuf m <= ebl m ->
  ebl (cu_cycle6 cycle m) = ebl m /\
  ebuf m <= ebuf (cu_cycle6 cycle m) <= ebl m /\
  (length (m_cu (cu_cycle6 cycle m)) <= 1)%nat.
Proof.
  intros cycle m Hq Hb. unfold cu_cycle6.
  destruct (negb (bb_canadd (m_ebus m))) eqn:Eca; [repeat split; lia|].
  assert (1 <= bb_remaining (m_ebus m)) as Hrem.
  { apply negb_false_iff in Eca. unfold bb_canadd in Eca. apply negb_true_iff in Eca.
    apply Z.eqb_neq in Eca. unfold bb_remaining. unfold ebuf, ebl in Hb. lia. }
  destruct (cu_pending (m_cu m) [] m cycle (bb_remaining (m_ebus m)) 0) as [[[[stopped rem1] pushed1] pend1] m1] eqn:E1.
  apply cu_pending_spec in E1. destruct E1 as [A1 [A2 [A3 [A4 [A5 A6]]]]]. simpl in A5.
  assert (bb_remaining (m_ebus m) = ebl m - ebuf m) as Er by reflexivity.
  destruct stopped.
  - unfold ebl, ebuf in *. simpl. repeat split; lia.
  - rewrite (A4 eq_refl). simpl rev.
    destruct (cu_incoming (bb_q (m_cbus m1)) [] m1 cycle rem1 pushed1) as [[q' pend2] m2] eqn:E2.
    apply cu_incoming_spec in E2. destruct E2 as [B1 [B2 B3]]. simpl in B3.
    unfold ebl, ebuf in *. simpl. repeat split; lia.
Qed.

(* hence the number of instructions dispatched in one cycle is bounded by the
   free room of the execute bus, itself at most its bufferLength (busSize = 2
   in NewCPU, independently of the number of execute units) *)
Corollary cu_dispatch_le_buslen : forall cycle m,
  (length (m_cu m) <= 1)%nat -> ebuf m <= ebl m ->
  ebuf (cu_cycle6 cycle m) - ebuf m <= ebl m.
Proof.
  intros cycle m Hq Hb. destruct (cu_dispatch_bound cycle m Hq Hb) as [_ [H _]].
  pose proof (zlen_nonneg (bb_buf (m_ebus m))). unfold ebuf in *. lia.
Qed.

(* the ghost flag is sound: a run that ends with the flag clear is the same for every
   iteration order of the stores' maps *)

(* ord returns one of the orders the map can be iterated in *)
Definition ord_ok (ord : Z -> Z -> list Z -> list Z) : Prop :=
  forall cycle pc keys, In (ord cycle pc keys) (all_orders keys).

Lemma zlist_eqb_eq : forall a b, zlist_eqb a b = true -> a = b.
Proof.
  induction a as [|x a IH]; destruct b as [|y b]; simpl; intros H; try discriminate; auto.
  apply andb_true_iff in H. destruct H as [H1 H2]. apply Z.eqb_eq in H1. f_equal; auto.
Qed.

Lemma line_eqb_eq : forall a b, line_eqb a b = true -> a = b.
Proof.
  intros [l1 h1 d1] [l2 h2 d2] H. unfold line_eqb in H. simpl in H.
  apply andb_true_iff in H. destruct H as [H H3]. apply andb_true_iff in H. destruct H as [H1 H2].
  apply Z.eqb_eq in H1. apply Z.eqb_eq in H2. apply zlist_eqb_eq in H3. subst. reflexivity.
Qed.

Lemma lines_eqb_eq : forall a b, lines_eqb a b = true -> a = b.
Proof.
  induction a as [|x a IH]; destruct b as [|y b]; simpl; intros H; try discriminate; auto.
  apply andb_true_iff in H. destruct H as [H1 H2]. apply line_eqb_eq in H1. f_equal; auto.
Qed.

Lemma cache_eqb_eq : forall a b, cache_eqb a b = true -> a = b.
Proof.
  intros [n1 l1 ls1] [n2 l2 ls2] H. unfold cache_eqb in H. simpl in H.
  apply andb_true_iff in H. destruct H as [H H3]. apply andb_true_iff in H. destruct H as [H1 H2].
  apply Z.eqb_eq in H1. apply Z.eqb_eq in H2. apply lines_eqb_eq in H3. subst. reflexivity.
Qed.

Lemma pend_eqb_eq : forall a b, pend_eqb a b = true -> a = b.
Proof.
  induction a as [|[x1 x2] a IH]; destruct b as [|[y1 y2] b]; simpl; intros H; try discriminate; auto.
  apply andb_true_iff in H. destruct H as [H H3]. apply andb_true_iff in H. destruct H as [H1 H2].
  apply Z.eqb_eq in H1. apply Z.eqb_eq in H2. subst. f_equal; auto.
Qed.

(* a continuation that does not look at the bytes of a hit cannot tell two
   lookups apart that l3_same identifies with a third *)
Lemma l3_same_bind : forall A r1 r2 r0 (k : cache * list (Z * Z) * l3res -> outcome A),
  l3_same r1 r0 = true -> l3_same r2 r0 = true ->
  (forall c p b1 b2, k (c, p, L3Hit b1) = k (c, p, L3Hit b2)) ->
  bind r1 k = bind r2 k.
Proof.
  intros A r1 r2 r0 k H1 H2 Hk.
  destruct r1 as [[[c1 p1] res1]| |], r0 as [[[c0 p0] res0]| |]; simpl in H1; try discriminate;
  destruct r2 as [[[c2 p2] res2]| |]; simpl in H2; try discriminate; auto.
  apply andb_true_iff in H1. destruct H1 as [H1 K1]. apply andb_true_iff in H1. destruct H1 as [C1 P1].
  apply andb_true_iff in H2. destruct H2 as [H2 K2]. apply andb_true_iff in H2. destruct H2 as [C2 P2].
  apply cache_eqb_eq in C1. apply cache_eqb_eq in C2. apply pend_eqb_eq in P1. apply pend_eqb_eq in P2. subst.
  simpl. destruct res1, res0; try discriminate; destruct res2; try discriminate; auto.
Qed.

Lemma som_false : forall c p keys o,
  store_order_matters c p keys = false -> In o (all_orders keys) ->
  l3_same (get_from_l3 c p o []) (get_from_l3 c p keys []) = true.
Proof.
  intros c p keys o H Hin. unfold store_order_matters in H. apply negb_false_iff in H.
  rewrite forallb_forall in H. now apply H.
Qed.

Lemma eu_run_exe_ord : forall ord1 ord2 cycle m e r exe,
  ord_ok ord1 -> ord_ok ord2 ->
  negb (Return exe) && MemoryChange exe &&
    store_order_matters (m_l3 m) (m_pend m) (map fst (sort_changes (MemoryChanges exe))) = false ->
  eu_run_exe ord1 cycle m e r exe = eu_run_exe ord2 cycle m e r exe.
Proof.
  intros ord1 ord2 cycle m e r exe O1 O2 H. unfold eu_run_exe.
  destruct (Return exe); [reflexivity|].
  destruct (MemoryChange exe); [|reflexivity].
  simpl in H.
  f_equal.
  apply l3_same_bind with (r0 := get_from_l3 (m_l3 m) (m_pend m) (map fst (sort_changes (MemoryChanges exe))) []).
  - apply som_false; auto.
  - apply som_false; auto.
  - intros; reflexivity.
Qed.

Lemma eu_run6_fst : forall labels ord1 ord2 cycle m e,
  fst (eu_run6 labels ord1 cycle m e) = fst (eu_run6 labels ord2 cycle m e).
Proof.
  intros. unfold eu_run6. destruct (e_runner e); [|reflexivity].
  destruct (instr_Run _ _ _ _ _ _); reflexivity.
Qed.

Lemma eu_run6_ord : forall labels ord1 ord2 cycle m e,
  ord_ok ord1 -> ord_ok ord2 -> fst (eu_run6 labels ord1 cycle m e) = false ->
  eu_run6 labels ord1 cycle m e = eu_run6 labels ord2 cycle m e.
Proof.
  intros labels ord1 ord2 cycle m e O1 O2 H. unfold eu_run6 in *.
  destruct (e_runner e); [|reflexivity].
  destruct (instr_Run _ _ _ _ _ _); try reflexivity.
  simpl in H. f_equal. now apply eu_run_exe_ord.
Qed.

Lemma eu_prepare6_ord : forall labels ord1 ord2 cycle m e,
  ord_ok ord1 -> ord_ok ord2 -> fst (eu_prepare6 labels ord1 cycle m e) = false ->
  eu_prepare6 labels ord1 cycle m e = eu_prepare6 labels ord2 cycle m e.
Proof.
  intros labels ord1 ord2 cycle m e O1 O2 H. unfold eu_prepare6 in *.
  destruct (negb (bb_canadd (m_wbus m))); [reflexivity|].
  destruct (e_runner e); [|reflexivity].
  destruct (instr_MemoryRead _ _ _); [|reflexivity].
  now apply eu_run6_ord.
Qed.

Lemma eu_cycle6_ord : forall labels ord1 ord2 cycle m e,
  ord_ok ord1 -> ord_ok ord2 -> fst (eu_cycle6 labels ord1 cycle m e) = false ->
  eu_cycle6 labels ord1 cycle m e = eu_cycle6 labels ord2 cycle m e.
Proof.
  intros labels ord1 ord2 cycle m e O1 O2 H. unfold eu_cycle6 in *.
  destruct (e_co e).
  - destruct (bb_get (m_ebus m)) as [ebus' [r|]]; [|reflexivity]. now apply eu_prepare6_ord.
  - now apply eu_prepare6_ord.
  - destruct (0 <? rem); [reflexivity|]. now apply eu_run6_ord.
  - destruct (0 <? rem); [reflexivity|].
    destruct (eu_fill6 m e addrs) as [[m1 e1]| |]; try reflexivity. now apply eu_run6_ord.
Qed.

Lemma eus_cycle_ord : forall labels ord1 ord2 cycle skip eus m acc,
  ord_ok ord1 -> ord_ok ord2 -> fst (eus_cycle labels ord1 cycle skip m eus acc) = false ->
  eus_cycle labels ord1 cycle skip m eus acc = eus_cycle labels ord2 cycle skip m eus acc.
Proof.
  intros labels ord1 ord2 cycle skip eus. induction eus as [|e t IH]; intros m acc O1 O2 H; [reflexivity|].
  simpl in *. destruct (skip && eu_empty e).
  - destruct (eus_cycle labels ord1 cycle skip m t acc) as [os r] eqn:E1.
    simpl in H. subst os.
    rewrite <- (IH m acc O1 O2) by (rewrite E1; reflexivity). rewrite E1. reflexivity.
  - destruct (eu_cycle6 labels ord1 cycle m e) as [os1 r1] eqn:E1.
    assert (os1 = false) as Hos1.
    { destruct r1 as [[[m1 e1] o]| |]; simpl in H; auto.
      destruct (eus_cycle labels ord1 cycle skip m1 t _) as [os2 r]. simpl in H.
      apply orb_false_iff in H. tauto. }
    subst os1.
    rewrite <- (eu_cycle6_ord labels ord1 ord2 cycle m e O1 O2) by (rewrite E1; reflexivity). rewrite E1.
    destruct r1 as [[[m1 e1] o]| |]; try reflexivity.
    match goal with |- context [eus_cycle labels ord1 cycle skip m1 t ?a] =>
      destruct (eus_cycle labels ord1 cycle skip m1 t a) as [os2 r] eqn:E2;
      simpl in H; subst os2;
      rewrite <- (IH m1 a O1 O2) by (rewrite E2; reflexivity); rewrite E2 end.
    reflexivity.
Qed.

(* the flag a step ends with *)
Definition res_os (r : step_res) : bool := match r with SDone _ os => os | SCont s' => s_os s' end.

Lemma res_of_os : forall A os (o : outcome A) k,
  (forall x, res_os (k x) = os) -> res_os (res_of os o k) = os.
Proof. intros A os o k H. destruct o; simpl; auto. Qed.

Lemma ret_check_os : forall s, res_os (ret_check s) = s_os s.
Proof. intros s. unfold ret_check. destruct (_ && _); reflexivity. Qed.

Lemma flush_advance_os : forall s k from pc, res_os (flush_advance s k from pc) = s_os s.
Proof. intros. unfold flush_advance. destruct (flush_next _ _ _); reflexivity. Qed.

Lemma back6_os : forall s cycle os x, res_os (back6 s cycle os x) = os.
Proof.
  intros s cycle os [[m eus1] o]. unfold back6. apply res_of_os. intros [m2 wus1].
  destruct (o_ret o); [apply ret_check_os|].
  destruct (o_flush o); [apply flush_advance_os|].
  destruct (is_empty6 m2 eus1 wus1); reflexivity.
Qed.

Lemma drain6_os : forall s os x, res_os (drain6 s os x) = os.
Proof.
  intros s os [[m eus1] o]. unfold drain6. apply res_of_os. intros [m2 wus1]. apply ret_check_os.
Qed.

Lemma step6_ord : forall app labels ord1 ord2 s,
  ord_ok ord1 -> ord_ok ord2 -> res_os (step6 app labels ord1 s) = false ->
  step6 app labels ord1 s = step6 app labels ord2 s /\ s_os s = false.
Proof.
  intros app labels ord1 ord2 s O1 O2 H. unfold step6 in *.
  destruct (s_mode s).
  - destruct (front6 app (s_cycle s + 1) (s_m s)) as [m1| |]; cbn [res_of] in *; auto.
    destruct (eus_cycle labels ord1 (s_cycle s + 1) false m1 (s_eus s) euo_none) as [os1 re] eqn:E1.
    pose proof (eus_cycle_ord labels ord1 ord2 (s_cycle s + 1) false (s_eus s) m1 euo_none O1 O2) as HE.
    rewrite E1 in HE. cbn [fst] in HE.
    rewrite res_of_os in H by (intros x; apply back6_os).
    apply orb_false_iff in H. destruct H as [Hs Ho]. subst os1.
    rewrite <- HE by reflexivity. auto.
  - destruct (eus_cycle labels ord1 (s_cycle s) true (s_m s) (s_eus s) euo_none) as [os1 re] eqn:E1.
    pose proof (eus_cycle_ord labels ord1 ord2 (s_cycle s) true (s_eus s) (s_m s) euo_none O1 O2) as HE.
    rewrite E1 in HE. cbn [fst] in HE.
    rewrite res_of_os in H by (intros x; apply drain6_os).
    apply orb_false_iff in H. destruct H as [Hs Ho]. subst os1.
    rewrite <- HE by reflexivity. auto.
  - split; [reflexivity|].
    destruct (nth_error (s_wus s) k); [|exact H].
    rewrite res_of_os in H; auto. intros x. rewrite flush_advance_os. reflexivity.
Qed.

(* the flag a run ends with *)
Definition final_os (r : (mres * bool) + st6) : bool :=
  match r with inl (_, os) => os | inr s' => s_os s' end.

Theorem run6_st_ord_irrelevant : forall fuel app labels ord1 ord2 s,
  ord_ok ord1 -> ord_ok ord2 -> final_os (run6_st fuel app labels ord1 s) = false ->
  run6_st fuel app labels ord1 s = run6_st fuel app labels ord2 s /\ s_os s = false.
Proof.
  induction fuel as [|f IH]; intros app labels ord1 ord2 s O1 O2 H; simpl in *; [auto|].
  destruct (step6 app labels ord1 s) as [r os|s'] eqn:E.
  - simpl in H. subst os.
    destruct (step6_ord app labels ord1 ord2 s O1 O2) as [E2 Hs]; [rewrite E; reflexivity|].
    rewrite <- E2, E. auto.
  - destruct (IH app labels ord1 ord2 s' O1 O2 H) as [R Hs'].
    destruct (step6_ord app labels ord1 ord2 s O1 O2) as [E2 Hs]; [rewrite E; exact Hs'|].
    rewrite <- E2, E. auto.
Qed.

(* a run of MVP-6.0 that ends with the ghost flag clear returns the same result
   whatever the iteration orders of the stores' MemoryChanges maps *)
Theorem run6_ord_irrelevant : forall par fuel app labels st ord1 ord2 r,
  ord_ok ord1 -> ord_ok ord2 ->
  mvp60_run_os par ord1 fuel app labels st = (r, false) ->
  mvp60_run_os par ord2 fuel app labels st = (r, false).
Proof.
  intros par fuel app labels st ord1 ord2 r O1 O2 H. unfold mvp60_run_os in *.
  destruct (init6 par st) as [s| |]; auto.
  unfold run6 in *.
  destruct (run6_st_ord_irrelevant fuel app labels ord1 ord2 s O1 O2) as [E _].
  - destruct (run6_st fuel app labels ord1 s) as [[r1 os1]|s1]; inversion H; reflexivity.
  - rewrite <- E. exact H.
Qed.

(* the uniform policies of the correspondence check (ord_policy k, k = 0..23) on the 4-key map of a
   sw and the 2-key map of a sh are iteration orders in the sense of ord_ok *)
Lemma ord_policy_ok4 : forall a b c d k, (k < 24)%nat ->
  In (perm_of (Z.of_nat k) [a; b; c; d]) (all_orders [a; b; c; d]).
Proof.
  intros a b c d k Hk. unfold all_orders. apply in_map_iff. exists k. split; [reflexivity|].
  apply in_seq. simpl. lia.
Qed.

Lemma ord_policy_ok2 : forall a b k, (k < 24)%nat ->
  In (perm_of (Z.of_nat k) [a; b]) (all_orders [a; b]).
Proof.
  intros a b k Hk.
  do 24 (destruct k as [|k]; [cbv; tauto|]). lia.
Qed.

(* an invariant of every run: the control unit always finds its own queue with at most one
   runner and the execute bus within its buffer length 2; hence at most two dispatches in
   every cycle *)

(* the control-unit queue and the buffer of the execute bus are untouched *)
Definition same_cu (m m' : mach) : Prop :=
  m_cu m' = m_cu m /\ bb_buf (m_ebus m') = bb_buf (m_ebus m) /\ bb_bl (m_ebus m') = bb_bl (m_ebus m).

Lemma same_cu_refl : forall m, same_cu m m.
Proof. intros; repeat split. Qed.
Lemma same_cu_trans : forall a b c, same_cu a b -> same_cu b c -> same_cu a c.
Proof. unfold same_cu. intros a b c [A1 [A2 A3]] [B1 [B2 B3]]. repeat split; congruence. Qed.

Ltac crush :=
  repeat match goal with
         | H : context [match ?x with _ => _ end] |- _ => destruct x eqn:?; try discriminate
         end;
  repeat match goal with
         | H : Ok _ = Ok _ |- _ => inversion H; clear H; subst
         | H : (_, _) = (_, _) |- _ => inversion H; clear H; subst
         end.

Lemma eu_run_exe_same : forall ord cycle m e r exe m' e' o,
  eu_run_exe ord cycle m e r exe = Ok (m', e', o) -> same_cu m m'.
Proof.
  intros ord cycle m e r exe m' e' o H. unfold eu_run_exe, bind in H.
  crush; unfold same_cu; simpl; auto.
Qed.

Lemma eu_run6_same : forall labels ord cycle m e m' e' o,
  snd (eu_run6 labels ord cycle m e) = Ok (m', e', o) -> same_cu m m'.
Proof.
  intros labels ord cycle m e m' e' o H. unfold eu_run6, quiet in H.
  destruct (e_runner e); [|discriminate].
  destruct (instr_Run _ _ _ _ _ _); try discriminate. simpl in H. now apply eu_run_exe_same in H.
Qed.

Lemma bu_assert6_same : forall m r, same_cu m (bu_assert6 m r).
Proof.
  intros m r. unfold bu_assert6.
  destruct (InstructionType_IsUnconditionalBranch _); [destruct (btb_get _ _)|destruct (InstructionType_IsConditionalBranch _)];
    unfold same_cu; simpl; auto.
Qed.

Lemma eu_prepare6_same : forall labels ord cycle m e m' e' o,
  snd (eu_prepare6 labels ord cycle m e) = Ok (m', e', o) -> same_cu m m'.
Proof.
  intros labels ord cycle m e m' e' o H. unfold eu_prepare6, quiet in H.
  destruct (negb (bb_canadd (m_wbus m))); [simpl in H; inversion H; subst; apply same_cu_refl|].
  destruct (e_runner e) as [r|]; [|discriminate].
  destruct (instr_MemoryRead _ _ _).
  - apply eu_run6_same in H. eapply same_cu_trans; [apply bu_assert6_same|exact H].
  - simpl in H. unfold bind in H.
    eapply same_cu_trans; [apply (bu_assert6_same m r)|].
    crush; unfold same_cu; simpl; auto.
Qed.

Lemma eu_fill6_same : forall m e addrs m1 e1, eu_fill6 m e addrs = Ok (m1, e1) -> same_cu m m1.
Proof.
  intros m e addrs m1 e1 H. unfold eu_fill6, bind in H.
  crush; unfold same_cu; simpl; auto.
Qed.

Lemma eu_cycle6_same : forall labels ord cycle m e m' e' o,
  snd (eu_cycle6 labels ord cycle m e) = Ok (m', e', o) -> same_cu m m'.
Proof.
  intros labels ord cycle m e m' e' o H. unfold eu_cycle6, quiet in H.
  destruct (e_co e).
  - unfold bb_get in H. destruct (bb_q (m_ebus m)) as [|r q].
    + simpl in H. inversion H; subst. apply same_cu_refl.
    + apply eu_prepare6_same in H. eapply same_cu_trans; [|exact H]. unfold same_cu; simpl; auto.
  - now apply eu_prepare6_same in H.
  - destruct (0 <? rem); [simpl in H; inversion H; subst; apply same_cu_refl|]. now apply eu_run6_same in H.
  - destruct (0 <? rem); [simpl in H; inversion H; subst; apply same_cu_refl|].
    destruct (eu_fill6 m e addrs) as [[m1 e1]| |] eqn:E; try discriminate.
    apply eu_fill6_same in E. apply eu_run6_same in H. eapply same_cu_trans; eauto.
Qed.

Lemma eus_cycle_same : forall labels ord cycle skip eus m acc m' eus' acc',
  snd (eus_cycle labels ord cycle skip m eus acc) = Ok (m', eus', acc') -> same_cu m m'.
Proof.
  intros labels ord cycle skip eus. induction eus as [|e t IH]; intros m acc m' eus' acc' H; simpl in H.
  - inversion H; subst. apply same_cu_refl.
  - destruct (skip && eu_empty e).
    + destruct (eus_cycle labels ord cycle skip m t acc) as [os r] eqn:E. simpl in H.
      destruct r as [[[m2 t'] acc2]| |]; simpl in H; try discriminate. inversion H; subst.
      apply (IH m acc m' t' acc'). rewrite E. reflexivity.
    + destruct (eu_cycle6 labels ord cycle m e) as [os1 r1] eqn:E1.
      destruct r1 as [[[m1 e1] o]| |]; try discriminate.
      assert (same_cu m m1) as S1 by (apply (eu_cycle6_same labels ord cycle m e m1 e1 o); rewrite E1; reflexivity).
      match type of H with context [eus_cycle labels ord cycle skip m1 t ?a] =>
        destruct (eus_cycle labels ord cycle skip m1 t a) as [os2 r] eqn:E2; simpl in H;
        destruct r as [[[m2 t'] acc2]| |]; simpl in H; try discriminate; inversion H; subst;
        eapply same_cu_trans; [exact S1|]; apply (IH m1 a m' t' acc'); rewrite E2; reflexivity end.
Qed.

Lemma wu_cycle6_same : forall m w before m' w', wu_cycle6 m w before = Ok (m', w') -> same_cu m m'.
Proof.
  intros m w before m' w' H. unfold wu_cycle6, bb_get in H.
  crush; unfold same_cu; simpl; auto.
Qed.

Lemma wus_cycle_same : forall wus m before m' wus', wus_cycle m wus before = Ok (m', wus') -> same_cu m m'.
Proof.
  induction wus as [|w t IH]; intros m before m' wus' H; simpl in H.
  - inversion H; subst. apply same_cu_refl.
  - unfold bind in H. destruct (wu_cycle6 m w before) as [[m1 w1]| |] eqn:E; try discriminate.
    simpl in H. destruct (wus_cycle m1 t before) as [[m2 t']| |] eqn:E2; try discriminate.
    inversion H; subst. simpl. eapply same_cu_trans; [eapply wu_cycle6_same; eauto|eapply IH; eauto].
Qed.

Lemma du_cycle6_same : forall app cycle m m', du_cycle6 app cycle m = Ok m' -> same_cu m m'.
Proof.
  intros app cycle m m' H. unfold du_cycle6, bind in H.
  crush; unfold same_cu; simpl; auto.
Qed.

Definition inv6 (m : mach) : Prop := (length (m_cu m) <= 1)%nat /\ ebuf m <= ebl m /\ ebl m = 2.

Lemma same_cu_inv : forall m m', same_cu m m' -> inv6 m -> inv6 m'.
Proof.
  unfold same_cu, inv6, ebuf, ebl. intros m m' [A [B C]] [I1 [I2 I3]]. rewrite A, B, C. auto.
Qed.

Lemma bb_connect_loop_len : forall T ql c (buf : list (Z * T)) q q' buf',
  bb_connect_loop ql c q buf = (q', buf') -> (length buf' <= length buf)%nat.
Proof.
  induction buf as [|[a t] buf IH]; intros q q' buf' H; simpl in H.
  - inversion H; auto.
  - destruct (zlen q =? ql); [inversion H; auto|].
    destruct (a >? c); [inversion H; auto|]. apply IH in H. simpl. lia.
Qed.

Lemma bb_connect_buf : forall T (b : bbus T) c,
  zlen (bb_buf (bb_connect b c)) <= zlen (bb_buf b) /\ bb_bl (bb_connect b c) = bb_bl b.
Proof.
  intros T b c. unfold bb_connect. destruct (zlen (bb_q b) =? bb_ql b); [split; [lia|reflexivity]|].
  destruct (bb_connect_loop (bb_ql b) c (bb_q b) (bb_buf b)) as [q buf] eqn:E. simpl.
  apply bb_connect_loop_len in E. unfold zlen. split; [lia|reflexivity].
Qed.

(* the four Connect calls at the beginning of a cycle *)
Definition connected (m : mach) (cycle : Z) : mach :=
  set_wbus (set_ebus (set_cbus (set_dbus m (bb_connect (m_dbus m) cycle)) (bb_connect (m_cbus m) cycle))
                     (bb_connect (m_ebus m) cycle)) (bb_connect (m_wbus m) cycle).

Lemma front6_eq : forall app cycle m,
  front6 app cycle m =
  match fu_cycle6 app cycle (m_fu (connected m cycle)) (m_l1i (connected m cycle)) (m_dbus (connected m cycle)) with
  | Ok (fu1, l1i1, dbus1) =>
      match du_cycle6 app cycle (set_dbus (set_l1i (set_fu (connected m cycle) fu1) l1i1) dbus1) with
      | Ok mdu => Ok (cu_cycle6 cycle mdu)
      | Err e => Err e
      | Panic => Panic
      end
  | Err e => Err e
  | Panic => Panic
  end.
Proof. reflexivity. Qed.

Lemma connected_inv : forall m cycle f l d2,
  inv6 m -> inv6 (set_dbus (set_l1i (set_fu (connected m cycle) f) l) d2).
Proof.
  intros m cycle f l d2 [I1 [I2 I3]].
  destruct (bb_connect_buf _ (m_ebus m) cycle) as [C1 C2].
  unfold inv6, ebuf, ebl in *.
  cbn [connected m_cu m_ebus set_dbus set_l1i set_fu set_wbus set_ebus set_cbus]. rewrite C2. repeat split; auto; lia.
Qed.

(* front6 hands the control unit a machine satisfying the invariant, and keeps it *)
Theorem front6_inv : forall app cycle m m',
  inv6 m -> front6 app cycle m = Ok m' ->
  exists mdu, inv6 mdu /\ m' = cu_cycle6 cycle mdu /\ inv6 m'.
Proof.
  intros app cycle m m' I H. rewrite front6_eq in H.
  destruct (fu_cycle6 app cycle _ _ _) as [[[fu1 l1i1] dbus1]| |]; try discriminate H.
  destruct (du_cycle6 app cycle _) as [mdu| |] eqn:Ed; try discriminate H.
  injection H as H. subst m'. apply du_cycle6_same in Ed.
  assert (inv6 mdu) as Idu by (apply (same_cu_inv _ _ Ed); now apply connected_inv).
  exists mdu. split; [exact Idu|]. split; [reflexivity|].
  destruct Idu as [J1 [J2 J3]]. destruct (cu_dispatch_bound cycle mdu J1 J2) as [K1 [K2 K3]].
  unfold inv6. rewrite K1. repeat split; [exact K3 | lia | exact J3].
Qed.

(* at most two instructions are dispatched per cycle *)
Corollary dispatch_width : forall cycle mdu,
  inv6 mdu -> 0 <= ebuf (cu_cycle6 cycle mdu) - ebuf mdu <= 2.
Proof.
  intros cycle mdu [J1 [J2 J3]]. destruct (cu_dispatch_bound cycle mdu J1 J2) as [_ [K _]].
  pose proof (zlen_nonneg (bb_buf (m_ebus mdu))). unfold ebuf in *. lia.
Qed.

Lemma set_wbus_inv : forall m x, inv6 m -> inv6 (set_wbus m x).
Proof. intros m x I. exact I. Qed.

Lemma do_flush6_inv : forall m pc, inv6 m -> inv6 (do_flush6 m pc).
Proof.
  intros m pc [I1 [I2 I3]]. unfold inv6, ebuf, ebl in *. simpl. repeat split; auto; unfold zlen; simpl; lia.
Qed.

Lemma ret_check_inv : forall s s', inv6 (s_m s) -> ret_check s = SCont s' -> inv6 (s_m s').
Proof.
  intros s s' I H. unfold ret_check in H. destruct (_ && _); try discriminate. inversion H; subst. exact I.
Qed.

Lemma flush_advance_inv : forall s k from pc s',
  inv6 (s_m s) -> flush_advance s k from pc = SCont s' -> inv6 (s_m s').
Proof.
  intros s k from pc s' I H. unfold flush_advance in H.
  destruct (flush_next _ _ _); inversion H; subst; simpl; auto. now apply do_flush6_inv.
Qed.

Lemma back6_inv : forall s cycle os m eus o s',
  inv6 m -> back6 s cycle os (m, eus, o) = SCont s' -> inv6 (s_m s').
Proof.
  intros s cycle os m eus o s' I H. unfold back6 in H.
  destruct (wus_cycle m (s_wus s) (-1)) as [[m2 wus1]| |] eqn:E; cbn [res_of] in H; try discriminate.
  apply wus_cycle_same in E. pose proof (same_cu_inv _ _ E I) as I2.
  destruct (o_ret o); [apply ret_check_inv in H; auto|].
  destruct (o_flush o); [apply flush_advance_inv in H; auto|].
  destruct (is_empty6 m2 eus wus1); try discriminate. inversion H; subst. exact I2.
Qed.

Lemma drain6_inv : forall s os m eus o s',
  inv6 m -> drain6 s os (m, eus, o) = SCont s' -> inv6 (s_m s').
Proof.
  intros s os m eus o s' I H. unfold drain6 in H.
  destruct (wus_cycle m (s_wus s) (-1)) as [[m2 wus1]| |] eqn:E; cbn [res_of] in H; try discriminate.
  apply wus_cycle_same in E. pose proof (same_cu_inv _ _ E I) as I2.
  apply ret_check_inv in H; auto.
Qed.

Theorem step6_inv : forall app labels ord s s',
  inv6 (s_m s) -> step6 app labels ord s = SCont s' -> inv6 (s_m s').
Proof.
  intros app labels ord s s' I H. unfold step6 in H.
  destruct (s_mode s).
  - destruct (front6 app (s_cycle s + 1) (s_m s)) as [m1| |] eqn:Ef; cbn [res_of] in H; try discriminate.
    destruct (front6_inv _ _ _ _ I Ef) as [mdu [_ [_ I1]]].
    destruct (eus_cycle labels ord (s_cycle s + 1) false m1 (s_eus s) euo_none) as [os1 re] eqn:E.
    destruct re as [[[m2 eus1] o]| |]; cbn [res_of] in H; try discriminate.
    assert (same_cu m1 m2) as S by (eapply eus_cycle_same; rewrite E; reflexivity).
    eapply back6_inv; [|exact H]. eapply same_cu_inv; eauto.
  - destruct (eus_cycle labels ord (s_cycle s) true (s_m s) (s_eus s) euo_none) as [os1 re] eqn:E.
    destruct re as [[[m2 eus1] o]| |]; cbn [res_of] in H; try discriminate.
    assert (same_cu (s_m s) m2) as S by (eapply eus_cycle_same; rewrite E; reflexivity).
    eapply drain6_inv; [|exact H]. eapply same_cu_inv; eauto.
  - destruct (nth_error (s_wus s) k); try discriminate.
    destruct (wu_cycle6 (s_m s) w from) as [[m2 w2]| |] eqn:E; cbn [res_of] in H; try discriminate.
    apply wu_cycle6_same in E. eapply flush_advance_inv; [|exact H]. simpl. eapply same_cu_inv; eauto.
Qed.

Lemma init6_inv : forall par st s, init6 par st = Ok s -> inv6 (s_m s).
Proof.
  intros par st s H. unfold init6 in H.
  destruct (new_cache l1LineSize l1Size); try discriminate.
  destruct (new_cache l3LineSize l3Size); try discriminate.
  inversion H; subst. unfold inv6, ebuf, ebl, zlen. simpl. repeat split; lia.
Qed.

(* every state a run of MVP-6.0 goes through satisfies the invariant *)
Theorem run6_st_inv : forall fuel app labels ord s s',
  inv6 (s_m s) -> run6_st fuel app labels ord s = inr s' -> inv6 (s_m s').
Proof.
  induction fuel as [|f IH]; intros app labels ord s s' I H; simpl in H.
  - inversion H; subst. exact I.
  - destruct (step6 app labels ord s) as [r os|s1] eqn:E; try discriminate.
    eapply IH; [|exact H]. eapply step6_inv; eauto.
Qed.


(* in every cycle of every run of MVP-6.0 (any parallelism, any program) the control unit is
   handed a machine mdu satisfying the invariant and dispatches at most two instructions *)
Theorem mvp60_dispatch_width : forall par st s0 fuel app labels ord s m',
  init6 par st = Ok s0 ->
  run6_st fuel app labels ord s0 = inr s ->
  front6 app (s_cycle s + 1) (s_m s) = Ok m' ->
  exists mdu, m' = cu_cycle6 (s_cycle s + 1) mdu /\ 0 <= ebuf m' - ebuf mdu <= 2.
Proof.
  intros par st s0 fuel app labels ord s m' Hi Hr Hf.
  apply init6_inv in Hi. pose proof (run6_st_inv _ _ _ _ _ _ Hi Hr) as I.
  destruct (front6_inv _ _ _ _ I Hf) as [mdu [Idu [E _]]].
  exists mdu. split; [exact E|]. subst m'. now apply dispatch_width.
Qed.

Print Assumptions mvp60_cycles_pos.
Print Assumptions cu_dispatch_bound.
Print Assumptions run6_ord_irrelevant.
Print Assumptions mvp60_dispatch_width.
