(* Lock-step simulation MVP-7.0 / MVP-6.3 on programs without loads and stores - part 2: the loops over the execute
   units (main loop, drain loop after ret, flush loop, final loop), the second half of a tick (back7 / back3), the
   flush, and ONE TICK:
     step_sim    in every mode but the final loop of MVP-7.0, step3 on the projected state is the projection of step7
                 (proj_res: a state of MVP-7.0 that has just entered its final loop is projected to the RETURN of
                 MVP-6.3 - cycle += mmu.flush(); RATCommit; RATFlush at that cycle), and the invariant is kept;
     step_final  the final loop of MVP-7.0 runs exactly once: no snoop, every unit skipped, then export, RATCommit,
                 RATFlush one cycle later. *)
From Coq Require Import ZArith List Bool Lia.
From Maj Require Import Base.Outcome Base.GoInt Base.GoTypes Isa.Spec Isa.Seq.
From Maj Require Import Gen.Latency Gen.RiscTables Gen.Opcodes Comp.Cache Comp.Rat Comp.RatProofs Mvp.Mvp12 Mvp.Mvp3 Mvp.Mvp5 Mvp.Mvp60 Mvp.Mvp63 Mvp.Mvp70.
From Maj Require Import Mvp.Mvp60Proofs Mvp.Mvp63Proofs Mvp.Mvp63Class Mvp.Mvp70Proofs Mvp.Mvp70Sim63Defs.
Import ListNotations.
Open Scope Z_scope.

Definition lift_eus {A} (o : outcome (w7 * list eu7 * A)) : outcome (mx * list eu3 * A) :=
  match o with Ok (w', eus', a) => Ok (w_x w', map eu_of eus', a) | Err e => Err e | Panic => Panic end.

Definition mode_of (m : mode7) : mode3 :=
  match m with
  | QNormal => NNormal | QRet => NRet | QFlushE a b c => NFlushE a b c
  | QFlushW k a b c d => NFlushW k a b c d | QFinal => NNormal
  end.

Definition st3_of (s : st7) : st3 :=
  mk_st3 (w_x (v_w s)) (map eu_of (v_eus s)) (v_wus s) (v_cycle s) (mode_of (v_mode s)).

(* a step of MVP-7.0 seen from MVP-6.3: entering the final loop is the return of MVP-6.3 *)
Definition proj_res (ord : Z -> Z -> list Z -> list Z) (r : step_res7) : step_res3 :=
  match r with
  | UDone r os => TDone r os
  | UCont s' =>
      match v_mode s' with
      | QFinal => TDone (finish3 ord (w_x (v_w s')) (v_cycle s')) (v_os (v_w s'))
      | _ => TCont (st3_of s')
      end
  end.

Section Loops.
  Variable NN : Prop.
  Variable app : list instr.
  Hypothesis Happ : reg_only app = true.
  Hypothesis Hnn : NN -> wregs_nonneg app = true.

  Notation PX := (PX NN).
  Notation INV := (INV NN).
  Notation EU := (EU NN).

  Lemma forallb_empty_of : forall eus, Forall EU eus -> forallb eu_empty3 (map eu_of eus) = forallb eu_empty7 eus.
  Proof.
    induction eus as [|e t IH]; intros H; [reflexivity|]. inversion H as [|? ? H1 HT]; subst.
    cbn [map forallb]. rewrite (eu_empty3_of NN e H1), (IH HT). reflexivity.
  Qed.

  Definition set_hseq (e : eu7) (s : Z) : eu7 := mk_eu7 (h_co e) (h_memory e) (h_runner e) s (h_cc e).

  Lemma EU_set_hseq : forall e s, EU e -> EU (set_hseq e s).
  Proof. intros e s H. exact H. Qed.

  (* --- the main loop over the execute units --- *)

  Lemma eus_main_sim : forall labels ord cycle eus id w acc,
    INV w -> Forall EU eus ->
    eus_main3 labels ord cycle (w_x w) (map eu_of eus) acc = (false, lift_eus (eus_main7 hooks70 labels ord cycle id w eus acc)).
  Proof.
    intros labels ord cycle. induction eus as [|e t IH]; intros id w acc HI HE; [reflexivity|].
    cbn [map eus_main3 eus_main7]. cbv zeta. inversion HE as [|? ? HE1 HET]; subst.
    change (mk_eu3 (g_co (eu_of e)) (g_memory (eu_of e)) (g_runner (eu_of e)) (y_seq acc)) with (eu_of (set_hseq e (y_seq acc))).
    change (mk_eu7 (h_co e) (h_memory e) (h_runner e) (y_seq acc) (h_cc e)) with (set_hseq e (y_seq acc)).
    rewrite (eu_cycle_sim NN labels ord cycle id w (set_hseq e (y_seq acc)) HI (EU_set_hseq e _ HE1)).
    destruct (eu_cycle7 hooks70 labels ord cycle id w (set_hseq e (y_seq acc))) as [[[w1 e1] o]|er|] eqn:E1;
      [|reflexivity|reflexivity].
    cbn [lift7 bind].
    destruct (eu_cycle7_inv NN app Hnn _ _ _ _ _ _ _ _ _ E1 HI (EU_set_hseq e _ HE1)) as [HI1 HE1'].
    destruct (y_err o) eqn:EO; [reflexivity|].
    fold (acc_next acc o).
    rewrite (IH (id + 1) w1 (acc_next acc o) HI1 HET).
    destruct (eus_main7 hooks70 labels ord cycle (id + 1) w1 t (acc_next acc o)) as [[[w2 t'] a2]|er|]; reflexivity.
  Qed.

  Lemma eus_main7_inv : forall labels ord cycle eus id w acc w' eus' o,
    eus_main7 hooks70 labels ord cycle id w eus acc = Ok (w', eus', o) -> INV w -> Forall EU eus -> INV w' /\ Forall EU eus'.
  Proof.
    intros labels ord cycle. induction eus as [|e t IH]; intros id w acc w' eus' o H HI HE; cbn [eus_main7] in H.
    - inversion H; subst. split; [exact HI|constructor].
    - inversion HE as [|? ? HE1 HET]; subst. cbv zeta in H.
      apply bind_ok in H as ([[w1 e1] o1] & E1 & H).
      apply (eu_cycle7_inv NN app Hnn) in E1; [|exact HI|exact HE1]. destruct E1 as [HI1 HE1'].
      destruct (y_err o1).
      + inversion H; subst. split; [exact HI1|constructor; assumption].
      + apply bind_ok in H as ([[w2 t'] acc2] & E2 & H). inversion H; subst.
        apply IH in E2; [|exact HI1|exact HET]. destruct E2 as [A B]. split; [exact A|constructor; assumption].
  Qed.

  (* --- the drain loop after ret --- *)

  Lemma eus_drain_sim : forall labels ord cycle eus id w,
    INV w -> Forall EU eus ->
    eus_drain3 labels ord cycle (w_x w) (map eu_of eus) = (false, lift_eus (eus_drain7 hooks70 labels ord cycle id w eus)).
  Proof.
    intros labels ord cycle. induction eus as [|e t IH]; intros id w HI HE; [reflexivity|].
    cbn [map eus_drain3 eus_drain7]. inversion HE as [|? ? HE1 HET]; subst.
    rewrite (eu_empty3_of NN e HE1). destruct (eu_empty7 e).
    - rewrite (IH (id + 1) w HI HET).
      destruct (eus_drain7 hooks70 labels ord cycle (id + 1) w t) as [[[w2 t'] a2]|er|]; reflexivity.
    - rewrite (eu_cycle_sim NN labels ord cycle id w e HI HE1).
      destruct (eu_cycle7 hooks70 labels ord cycle id w e) as [[[w1 e1] o]|er|] eqn:E1; [|reflexivity|reflexivity].
      cbn [lift7 bind].
      destruct (eu_cycle7_inv NN app Hnn _ _ _ _ _ _ _ _ _ E1 HI HE1) as [HI1 HE1'].
      destruct (y_err o) eqn:EO; [reflexivity|].
      rewrite (IH (id + 1) w1 HI1 HET).
      destruct (eus_drain7 hooks70 labels ord cycle (id + 1) w1 t) as [[[w2 t'] a2]|er|]; reflexivity.
  Qed.

  Lemma eus_drain7_inv : forall labels ord cycle eus id w w' eus' er,
    eus_drain7 hooks70 labels ord cycle id w eus = Ok (w', eus', er) -> INV w -> Forall EU eus -> INV w' /\ Forall EU eus'.
  Proof.
    intros labels ord cycle. induction eus as [|e t IH]; intros id w w' eus' er H HI HE; cbn [eus_drain7] in H.
    - inversion H; subst. split; [exact HI|constructor].
    - inversion HE as [|? ? HE1 HET]; subst. destruct (eu_empty7 e).
      + apply bind_ok in H as ([[w2 t'] er2] & E2 & H). inversion H; subst.
        apply IH in E2; [|exact HI|exact HET]. destruct E2 as [A B]. split; [exact A|constructor; assumption].
      + apply bind_ok in H as ([[w1 e1] o1] & E1 & H).
        apply (eu_cycle7_inv NN app Hnn) in E1; [|exact HI|exact HE1]. destruct E1 as [HI1 HE1'].
        destruct (y_err o1).
        * inversion H; subst. split; [exact HI1|constructor; assumption].
        * apply bind_ok in H as ([[w2 t'] er2] & E2 & H). inversion H; subst.
          apply IH in E2; [|exact HI1|exact HET]. destruct E2 as [A B]. split; [exact A|constructor; assumption].
  Qed.

  (* --- the loop over the execute units inside the flush loop --- *)

  Lemma eus_flush_sim : forall labels ord from eus id w acc,
    INV w -> Forall EU eus ->
    eus_flush3 labels ord from (w_x w) (map eu_of eus) acc = (false, lift_eus (eus_flush7 hooks70 labels ord from id w eus acc)).
  Proof.
    intros labels ord from. induction eus as [|e t IH]; intros id w acc HI HE; [reflexivity|].
    cbn [map eus_flush3 eus_flush7]. inversion HE as [|? ? HE1 HET]; subst.
    rewrite (eu_empty3_of NN e HE1). cbn [hooks70 k_pending negb]. rewrite andb_true_r. destruct (eu_empty7 e).
    - rewrite (IH (id + 1) w acc HI HET).
      destruct (eus_flush7 hooks70 labels ord from (id + 1) w t acc) as [[[w2 t'] a2]|er|]; reflexivity.
    - rewrite (eu_cycle_sim NN labels ord from id w e HI HE1).
      destruct (eu_cycle7 hooks70 labels ord from id w e) as [[[w1 e1] o]|er|] eqn:E1; [|reflexivity|reflexivity].
      cbn [lift7 bind].
      destruct (eu_cycle7_inv NN app Hnn _ _ _ _ _ _ _ _ _ E1 HI HE1) as [HI1 HE1'].
      destruct (y_err o) eqn:EO; [reflexivity|]. cbv zeta.
      rewrite (IH (id + 1) w1 _ HI1 HET).
      match goal with |- context [eus_flush7 ?a ?b ?c ?d ?e ?f ?g ?h] => destruct (eus_flush7 a b c d e f g h) as [[[w2 t'] a2]|er|] end;
        reflexivity.
  Qed.

  Lemma eus_flush7_inv : forall labels ord from eus id w acc w' eus' acc',
    eus_flush7 hooks70 labels ord from id w eus acc = Ok (w', eus', acc') -> INV w -> Forall EU eus -> INV w' /\ Forall EU eus'.
  Proof.
    intros labels ord from. induction eus as [|e t IH]; intros id w acc w' eus' acc' H HI HE; cbn [eus_flush7] in H.
    - inversion H; subst. split; [exact HI|constructor].
    - inversion HE as [|? ? HE1 HET]; subst. destruct (eu_empty7 e && negb (k_pending hooks70 w (h_seq e))).
      + apply bind_ok in H as ([[w2 t'] acc2] & E2 & H). inversion H; subst.
        apply IH in E2; [|exact HI|exact HET]. destruct E2 as [A B]. split; [exact A|constructor; assumption].
      + apply bind_ok in H as ([[w1 e1] o1] & E1 & H).
        apply (eu_cycle7_inv NN app Hnn) in E1; [|exact HI|exact HE1]. destruct E1 as [HI1 HE1'].
        destruct (y_err o1).
        * inversion H; subst. split; [exact HI1|constructor; assumption].
        * cbv zeta in H. apply bind_ok in H as ([[w2 t'] acc2] & E2 & H). inversion H; subst.
          apply IH in E2; [|exact HI1|exact HET]. destruct E2 as [A B]. split; [exact A|constructor; assumption].
  Qed.

  (* --- the final loop: every unit is empty and its controller idle --- *)

  Lemma CC_idle : forall c, CC c -> cc_idle c = true.
  Proof. intros c (A & B & _). unfold cc_idle. rewrite A, B. reflexivity. Qed.

  Lemma eus_final7_idle : forall hk labels ord cycle eus id w,
    Forall EU eus -> forallb eu_empty7 eus = true -> eus_final7 hk labels ord cycle id w eus = Ok (w, eus, true).
  Proof.
    intros hk labels ord cycle. induction eus as [|e t IH]; intros id w HE HB; [reflexivity|].
    inversion HE as [|? ? (_ & _ & HC) HET]; subst. cbn [forallb] in HB. apply andb_true_iff in HB as [B1 B2].
    cbn [eus_final7]. rewrite B1, (CC_idle _ HC). cbn [andb]. rewrite (IH (id + 1) w HET B2). reflexivity.
  Qed.

  Definition SI (s : st7) : Prop :=
    INV (v_w s) /\ Forall EU (v_eus s) /\ Forall WU (v_wus s) /\ (v_mode s = QFinal -> forallb eu_empty7 (v_eus s) = true).

  Definition res_SI (r : step_res7) : Prop := match r with UCont s' => SI s' | UDone _ _ => True end.

  Lemma res_of7_SI : forall {A} os (o : outcome A) k, (forall x, o = Ok x -> res_SI (k x)) -> res_SI (res_of7 os o k).
  Proof. intros A os o k H. apply res_of7_prop; [exact H|intros e; exact I|exact I]. Qed.

  (* --- condition of the drain loop after ret --- *)

  Lemma ret_check_sim : forall ord w eus wus cycle, Forall EU eus ->
    ret_check3 ord (mk_st3 (w_x w) (map eu_of eus) wus cycle NRet) = proj_res ord (ret_check7 (mk_st7 w eus wus cycle QRet)).
  Proof.
    intros ord w eus wus cycle HE. unfold ret_check3, ret_check7. cbn [t_eus t_wus t_x t_cycle v_eus v_wus v_w v_cycle].
    rewrite (forallb_empty_of eus HE).
    destruct (forallb eu_empty7 eus && forallb wu_empty wus && bb_isempty (m_wbus (x_m (w_x w)))); reflexivity.
  Qed.

  Lemma ret_check7_SI : forall w eus wus cycle, INV w -> Forall EU eus -> Forall WU wus ->
    res_SI (ret_check7 (mk_st7 w eus wus cycle QRet)).
  Proof.
    intros w eus wus cycle HI HE HW. unfold ret_check7. cbn [v_eus v_wus v_w v_cycle].
    destruct (forallb eu_empty7 eus) eqn:EB; cbn [andb].
    - destruct (forallb wu_empty wus && bb_isempty (m_wbus (x_m (w_x w)))); cbn [res_SI];
        (split; [exact HI|split; [exact HE|split; [exact HW|intros HM; first [exact EB|discriminate HM]]]]).
    - cbn [res_SI]. split; [exact HI|split; [exact HE|split; [exact HW|intros HM; discriminate HM]]].
  Qed.

  (* --- the flush --- *)

  Lemma flush_advance_sim : forall ord s k seq pc from empty, Forall EU (v_eus s) ->
    flush_advance3 (st3_of s) k seq pc from empty = proj_res ord (flush_advance7 s k seq pc from empty).
  Proof.
    intros ord s k seq pc from empty HE. unfold flush_advance3, flush_advance7.
    cbn [st3_of t_wus t_x t_eus t_cycle].
    destruct (flush_next (skipn k (v_wus s)) k (bb_isempty (m_wbus (x_m (w_x (v_w s)))))) as [k'|]; [reflexivity|].
    destruct empty; [|reflexivity].
    rewrite (eus_flush_all7_idle NN (v_eus s) (w_i (v_w s)) HE). cbn [res_of7 fst snd proj_res v_mode st3_of v_w v_eus v_wus v_cycle mode_of].
    unfold st3_of. cbn [v_w v_eus v_wus v_cycle v_mode mode_of set_wi set_wx w_x]. rewrite !map_map. reflexivity.
  Qed.

  Lemma flush_advance7_SI : forall s k seq pc from empty, INV (v_w s) -> Forall EU (v_eus s) -> Forall WU (v_wus s) ->
    res_SI (flush_advance7 s k seq pc from empty).
  Proof.
    intros s k seq pc from empty HI HE HW. unfold flush_advance7.
    destruct (flush_next _ _ _) as [k'|].
    - cbn [res_SI]. split; [exact HI|split; [exact HE|split; [exact HW|intros HM; discriminate HM]]].
    - destruct empty.
      + rewrite (eus_flush_all7_idle NN (v_eus s) (w_i (v_w s)) HE). cbn [res_of7 fst snd res_SI].
        split; [|split; [|split; [exact HW|intros HM; discriminate HM]]].
        * cbn [v_w]. split; [exact (proj1 HI)|]. cbn [set_wi set_wx w_x]. apply do_flush3_px. exact (proj2 HI).
        * cbn [v_eus]. apply Forall_map. eapply Forall_impl; [|exact HE]. intros e (_ & HR & HC).
          split; [left; reflexivity|]. split; [exact HR|exact HC].
      + cbn [res_SI]. split; [exact HI|split; [exact HE|split; [exact HW|intros HM; discriminate HM]]].
  Qed.

  (* --- the second half of an iteration of the main loop --- *)

  Lemma is_empty_of : forall x eus wus, Forall EU eus -> is_empty3 x (map eu_of eus) wus = is_empty7 x eus wus.
  Proof. intros x eus wus HE. unfold is_empty3, is_empty7. rewrite (forallb_empty_of eus HE). reflexivity. Qed.

  Lemma back_sim : forall ord s cycle w eus1 o, INV w -> Forall EU eus1 -> Forall WU (v_wus s) ->
    back3 ord (st3_of s) cycle (w_x w, map eu_of eus1, o) = proj_res ord (back7 s cycle (w, eus1, o)).
  Proof.
    intros ord s cycle w eus1 o HI HE HW. unfold back3, back7.
    destruct (y_err o); [reflexivity|].
    cbn [st3_of t_wus]. rewrite (wus_cycle_sim NN (v_wus s) (w_x w) _ (proj2 HI) HW).
    destruct (wus_cycle7 (w_x w) (v_wus s) (if y_flush o then y_seq o else -1)) as [[x1 wus1]|er|] eqn:EW;
      [|reflexivity|reflexivity].
    cbn [res_of3 res_of7]. cbv zeta.
    destruct (y_ret o).
    - exact (ret_check_sim ord (w_connect7 (set_wx w x1) (cycle + 1)) eus1 wus1 (cycle + 1) HE).
    - destruct (y_flush o).
      + cbn [proj_res v_mode]. unfold st3_of. cbn [v_mode v_w v_eus v_wus v_cycle mode_of set_wx w_x]. rewrite !map_map. reflexivity.
      + rewrite (is_empty_of x1 eus1 wus1 HE). destruct (is_empty7 x1 eus1 wus1); reflexivity.
  Qed.

  Lemma back7_SI : forall s cycle w eus1 o, INV w -> Forall EU eus1 -> Forall WU (v_wus s) ->
    res_SI (back7 s cycle (w, eus1, o)).
  Proof.
    intros s cycle w eus1 o HI HE HW. unfold back7.
    destruct (y_err o); [exact I|].
    apply res_of7_SI. intros [x1 wus1] EW. cbv zeta.
    apply (wus_cycle7_px NN) in EW; [|exact (proj2 HI)]. destruct EW as [HP1 EWU]. subst wus1.
    assert (HI1 : INV (set_wx w x1)) by (apply INV_set_wx; assumption).
    destruct (y_ret o).
    - apply ret_check7_SI; [|exact HE|exact HW]. unfold w_connect7. apply INV_set_wx; [exact HI1|].
      apply wbus_connect3_px. exact HP1.
    - destruct (y_flush o).
      + cbn [res_SI]. split; [exact HI1|]. split; [|split; [exact HW|intros HM; discriminate HM]].
        cbn [v_eus]. apply Forall_map. eapply Forall_impl; [|exact HE]. intros e HEe. exact HEe.
      + destruct (is_empty7 x1 eus1 (v_wus s)) eqn:EE; cbn [res_SI].
        * split; [exact HI1|split; [exact HE|split; [exact HW|]]]. intros _. cbn [v_eus].
          unfold is_empty7 in EE. apply andb_true_iff in EE as [_ EE]. exact EE.
        * split; [exact HI1|split; [exact HE|split; [exact HW|intros HM; discriminate HM]]].
  Qed.

  Theorem step_sim : forall labels ord s, SI s -> v_mode s <> QFinal ->
    step3 app labels ord (st3_of s) = proj_res ord (step7 hooks70 app labels ord s) /\
    res_SI (step7 hooks70 app labels ord s).
  Proof.
    intros labels ord s (HI & HE & HW & _) HM. unfold step3, step7. cbv zeta.
    destruct s as [w eus wus cyc md]. cbn [v_w v_eus v_wus v_cycle v_mode] in *.
    cbn [st3_of t_x t_eus t_wus t_cycle t_mode v_w v_eus v_wus v_cycle v_mode].
    destruct md as [| |seq pc from|k seq pc from empty|]; cbn [mode_of]; [| | | |contradiction].
    - (* the main loop *)
      cbn [hooks70 k_front]. unfold v_os.
      destruct (front3 app ord (cyc + 1) (w_x w)) as [x1|er|] eqn:EF; cbn [bind res_of3 res_of7 proj_res];
        [|split; [reflexivity|exact I]|split; [reflexivity|exact I]].
      assert (HI1 : INV (set_wx w x1)).
      { apply INV_set_wx; [exact HI|]. eapply (front3_px NN app Happ Hnn); [exact EF|exact (proj2 HI)]. }
      rewrite (snoops7_idle NN hooks70 eus 0 (set_wx w x1) (proj1 HI1) HE). cbn [res_of7 fst snd].
      pose proof (eus_main_sim labels ord (cyc + 1) eus 0 (set_wx w x1) yo_none HI1 HE) as ES.
      cbn [set_wx w_x] in ES. rewrite ES. clear ES.
      destruct (eus_main7 hooks70 labels ord (cyc + 1) 0 (set_wx w x1) eus yo_none) as [[[w2 eus1] o]|er|] eqn:EM;
        cbn [lift_eus res_of3 res_of7 proj_res set_wx w_x]; rewrite ?orb_false_r;
        [|split; [reflexivity|exact I]|split; [reflexivity|exact I]].
      apply eus_main7_inv in EM; [|exact HI1|exact HE]. destruct EM as [HI2 HE2].
      rewrite or_os_false. split.
      + exact (back_sim ord (mk_st7 w eus wus cyc QNormal) (cyc + 1) w2 eus1 o HI2 HE2 HW).
      + exact (back7_SI (mk_st7 w eus wus cyc QNormal) (cyc + 1) w2 eus1 o HI2 HE2 HW).
    - (* the drain loop after ret *)
      unfold v_os.
      rewrite (snoops7_idle NN hooks70 eus 0 w (proj1 HI) HE). cbn [res_of7 fst snd].
      rewrite (eus_drain_sim labels ord cyc eus 0 w HI HE).
      destruct (eus_drain7 hooks70 labels ord cyc 0 w eus) as [[[w1 eus1] er]|er|] eqn:ED;
        cbn [lift_eus res_of3 res_of7 proj_res]; rewrite ?orb_false_r;
        [|split; [reflexivity|exact I]|split; [reflexivity|exact I]].
      apply eus_drain7_inv in ED; [|exact HI|exact HE]. destruct ED as [HI1 HE1].
      rewrite or_os_false. destruct er as [e|]; [split; [reflexivity|exact I]|].
      rewrite (wus_cycle_sim NN wus (w_x w1) (-1) (proj2 HI1) HW).
      destruct (wus_cycle7 (w_x w1) wus (-1)) as [[x2 wus1]|er|] eqn:EW; cbn [res_of3 res_of7 proj_res];
        [|split; [reflexivity|exact I]|split; [reflexivity|exact I]].
      apply (wus_cycle7_px NN) in EW; [|exact (proj2 HI1)]. destruct EW as [HP2 EWU]. subst wus1.
      split.
      + exact (ret_check_sim ord (w_connect7 (set_wx w1 x2) (cyc + 1)) eus1 wus (cyc + 1) HE1).
      + apply ret_check7_SI; [|exact HE1|exact HW]. unfold w_connect7.
        apply INV_set_wx; [apply INV_set_wx; [exact HI1|exact HP2]|].
        apply wbus_connect3_px. exact HP2.
    - (* the flush loop: the execute units *)
      unfold v_os.
      rewrite (snoops7_idle NN hooks70 eus 0 w (proj1 HI) HE). cbn [res_of7 fst snd].
      rewrite (eus_flush_sim labels ord from eus 0 w (mk_fla true seq pc None) HI HE).
      destruct (eus_flush7 hooks70 labels ord from 0 w eus (mk_fla true seq pc None)) as [[[w1 eus1] acc]|er|] eqn:ED;
        cbn [lift_eus res_of3 res_of7 proj_res]; rewrite ?orb_false_r;
        [|split; [reflexivity|exact I]|split; [reflexivity|exact I]].
      apply eus_flush7_inv in ED; [|exact HI|exact HE]. destruct ED as [HI1 HE1].
      rewrite or_os_false. destruct (a_err acc); [split; [reflexivity|exact I]|].
      assert (HI2 : INV (w_connect7 w1 (cyc + 1 + 1))).
      { unfold w_connect7. apply INV_set_wx; [exact HI1|]. apply wbus_connect3_px. exact (proj2 HI1). }
      split.
      + exact (flush_advance_sim ord (mk_st7 (w_connect7 w1 (cyc + 1 + 1)) eus1 wus (cyc + 1) (QFlushE seq pc from))
                 0 (a_seq acc) (a_pc acc) from (a_empty acc) HE1).
      + apply flush_advance7_SI; assumption.
    - (* the flush loop: write unit k *)
      unfold v_os.
      destruct (nth_error wus k) as [u|] eqn:EN; [|split; [reflexivity|exact I]].
      assert (HWk : WU u). { rewrite Forall_forall in HW. apply HW. eapply nth_error_In; exact EN. }
      rewrite (wu_cycle_sim NN (w_x w) u seq (proj2 HI) HWk).
      destruct (wu_cycle7 (w_x w) u seq) as [[x1 u1]|er|] eqn:EW; cbn [res_of3 res_of7 proj_res fst snd];
        [|split; [reflexivity|exact I]|split; [reflexivity|exact I]].
      apply (wu_cycle7_px NN) in EW; [|exact (proj2 HI)]. destruct EW as [HP1 EU1]. subst u1.
      split.
      + exact (flush_advance_sim ord (mk_st7 (set_wx w x1) eus (set_nth6 wus k u) cyc (QFlushW k seq pc from empty))
                 k seq pc from empty HE).
      + apply flush_advance7_SI; cbn [v_w v_eus v_wus].
        * apply INV_set_wx; assumption.
        * exact HE.
        * apply Forall_set_nth6; assumption.
  Qed.

  (* the final loop finds nothing to do, whatever the hooks *)
  Theorem step_final_hk : forall hk labels ord s, SI s -> v_mode s = QFinal ->
    step7 hk app labels ord s = UDone (finish7 ord (v_w s) (v_eus s) (v_cycle s + 1)) (v_os (v_w s)).
  Proof.
    intros hk labels ord s (HI & HE & HW & HF) HM. unfold step7. rewrite HM. cbv zeta.
    rewrite (snoops7_idle NN hk (v_eus s) 0 (v_w s) (proj1 HI) HE). cbn [res_of7 fst snd].
    rewrite (eus_final7_idle hk labels ord (v_cycle s + 1) (v_eus s) 0 (v_w s) HE (HF HM)). cbn [res_of7].
    assert (HQ : forallb (fun e => match c_snoop (h_cc e) with [] => true | _ => false end) (v_eus s) = true).
    { apply forallb_forall. intros e HIn. rewrite Forall_forall in HE. destruct (HE e HIn) as (_ & _ & (_ & _ & C & _)).
      rewrite C. reflexivity. }
    rewrite HQ. reflexivity.
  Qed.

  Theorem step_final : forall labels ord s, SI s -> v_mode s = QFinal ->
    step7 hooks70 app labels ord s = UDone (finish7 ord (v_w s) (v_eus s) (v_cycle s + 1)) (v_os (v_w s)).
  Proof. exact (step_final_hk hooks70). Qed.
End Loops.

Print Assumptions eus_main_sim.
Print Assumptions step_sim.
Print Assumptions step_final.
