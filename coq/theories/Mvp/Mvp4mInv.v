(* The invariant of the MVP-4 skeleton with loads and store hits (Mvp4mSkel.v). *)
From Coq Require Import ZArith List Bool Lia.
From Maj Require Import Base.Outcome Base.GoInt Base.GoTypes Isa.Spec Isa.Embed Isa.Seq Isa.Refine.
From Maj Require Import Gen.Latency Gen.RiscTables Gen.Opcodes Comp.Cache.
From Maj Require Import Mvp.Mvp12 Mvp.Mvp12Proofs Mvp.Mvp3 Mvp.Mvp3Proofs Mvp.Mvp4 Mvp.Mvp4Skel Mvp.Mvp4Inv Mvp.Mvp4mSkel.
Import ListNotations.
Open Scope Z_scope.

Definition qlistm (a : skm) : list Z := q_parts (m_eu a) (m_ebus a) (m_dbus a).

Definition Rmax : Z := MemoryAccess.

Record FInvM (app : list instr) (hev : event) (a : skm) : Prop := mkFM {
  fm_head : 0 <= ev_pc hev < 2147483644;
  fm_q : exists n, FQ app (ev_pc hev) n (qlistm a) (m_fu a);
  fm_ent : Forall (entry_ok app) (q_eu (m_eu a) ++ q_sb (m_ebus a));
  fm_fu : fu_processing (m_fu a) = true -> 1 <= fu_remaining (m_fu a) <= MemoryAccess;
  fm_eu : eu_processing (m_eu a) = true ->
          1 <= eu_remaining (m_eu a) <= (if eu_pending_read (m_eu a) then Rmax else Cmax) /\ eu_runner (m_eu a) <> None;
  fm_pr : eu_pending_read (m_eu a) = true -> eu_processing (m_eu a) = true /\ m_wb a = None;
  fm_mem : eu_pending_read (m_eu a) = false -> eu_memory (m_eu a) = None;
  fm_miss : eu_pending_read (m_eu a) = true ->
            ev_la hev <> [] /\ (eu_memory (m_eu a) = None -> eu_addrs (m_eu a) = ev_la hev);
  fm_l1i : IInv (m_l1i a);
  fm_pw : m_pw a = pwof (m_wb a);
  fm_wb : forall wr, m_wb a = Some wr -> (length wr <= 1)%nat;
  fm_dt : zlen (m_dt a) <= 16 }.

(* what a sequence of events must look like for the skeleton: as path_wf on the pcs,
   and a store is followed by the next instruction in the text *)
Fixpoint evs_wf (app : list instr) (path : list event) : Prop :=
  match path with
  | [] => False
  | ev :: rest =>
      0 <= ev_pc ev < 2147483644 /\
      match rest with
      | [] => match nth_error app (Z.to_nat (ev_pc ev / 4)) with Some i => is_ret i = true | None => True end
      | nxt :: _ => (exists i, nth_error app (Z.to_nat (ev_pc ev / 4)) = Some i /\ is_ret i = false) /\
                    (ev_sa ev <> [] -> ev_pc nxt = ev_pc ev + 4) /\ evs_wf app rest
      end
  end.

(* number of events inside the program text (= executed instructions) *)
Definition exec_count (app : list instr) (path : list event) : nat :=
  length (filter (fun ev => ev_pc ev / 4 <? nlen app) path).

(* the L1D tags once the load of the head event is complete *)
Definition dt_after_load (a : skm) (hev : event) : list Z :=
  if eu_pending_read (m_eu a) then
    match eu_memory (m_eu a) with
    | Some _ => m_dt a
    | None => fst (a_get_all (a_fill (m_dt a) (hd 0 (ev_la hev))) (ev_la hev))
    end
  else fst (a_load (m_dt a) (ev_la hev)).

(* every store of the remaining path will hit *)
Definition sh_inv (a : skm) (path : list event) : Prop :=
  match path with
  | [] => True
  | hev :: rest =>
      snd (a_get_all (dt_after_load a hev) (ev_sa hev)) = true /\
      stores_hit (fst (a_get_all (dt_after_load a hev) (ev_sa hev))) rest = true
  end.
