(* Lock-step simulation MVP-7.0 / MVP-6.3 on programs without loads and stores - part 3: the end of Run, whole runs,
   the theorems.

   RESULT.  On a program whose text contains no load and no store, at every number of cores, for every initial
   state and every fuel, MVP-7.0 (Mvp70.v) returns what MVP-6.3 (Mvp63.v) returns - registers, memory, ghost flag,
   the same error or panic - ONE CYCLE AND ONE TICK LATER: the loop that mvp7-0/cpu.go runs after the main loop
   (snoops, busy units) runs exactly once and finds nothing to do; the memory system is never used.
     mvp70_regonly_sim_mvp63            for every order function, if the program writes no register with a negative
                                        number (wregs_nonneg; implied by regs_ok of Mvp63RefDefs.v; every parsed
                                        program satisfies it)
     mvp70_regonly_sim_mvp63_stable     for every program without loads / stores, if the order function does not
                                        depend on the cycle on the alias-table maps (ord_stable)
     mvp70_regonly_sim_mvp63_refuted    without either hypothesis the statement is FALSE OF THE MODEL: RATFlush
                                        (rat_flush3) writes ctx.Registers[k] as Seq.upd regs (Z.to_nat k), which sends a
                                        negative register number to slot 0; MVP-7.0 ranges over the committed table one
                                        cycle later than MVP-6.3, so an order function that changes with the cycle
                                        orders the keys -1 and 0 differently.  Witness: `li x(-1), 5` (one
                                        instruction), registers [7; 8], the order "ascending in even cycles,
                                        descending in odd cycles": x0 = 5 on MVP-6.3, x0 = 7 on MVP-7.0.  (An artefact
                                        of the list model of the Go map ctx.Registers; unreachable from parsed text.)
     mvp70_regonly_outoffuel            a run of MVP-6.3 that exhausts its fuel: so does MVP-7.0 with the same fuel,
                                        same ghost flag
     mvp70_regonly_memsys_idle          in every state MVP-7.0 reaches the directory is msi_new, every controller is
                                        idle, no unit is in the closures around cc.read / cc.write
   The order-independence of RATCommit ; RATFlush (fin_indep) needs well-formed tables with non-negative keys
   (RK of Mvp70Sim63Defs.v), an invariant of the run.

   TRANSPORT of the MVP-6.3 refinement theorem (Mvp63RefProofs.v) to MVP-7.0:
     mvp70_run_ssa_straight, mvp70_refines_seq_ssa_straight, mvp70_ghost_clear_ssa_straight,
     mvp70_terminates_ssa_straight, mvp70_no_panic_ssa_straight, mvp70_ssa_example_any. *)
From Coq Require Import ZArith List Bool Lia.
From Maj Require Import Base.Outcome Base.GoInt Base.GoTypes Isa.Spec Isa.Seq Isa.Refine.
From Maj Require Import Gen.Latency Gen.RiscTables Gen.Opcodes Comp.Cache Comp.Rat Comp.RatProofs Mvp.Mvp12 Mvp.Mvp12Proofs Mvp.Mvp3 Mvp.Mvp5 Mvp.Mvp60 Mvp.Mvp63 Mvp.Mvp70.
From Maj Require Import Mvp.Mvp60Proofs Mvp.Mvp63Proofs Mvp.Mvp63Class Mvp.Mvp70Proofs Mvp.Mvp70Sim63Defs Mvp.Mvp70Sim63Loops.
From Maj Require Import Mvp.Mvp4Skel Mvp.Mvp60RefDefs Mvp.Mvp63RefDefs Mvp.Mvp63RefRat Mvp.Mvp63RefProofs.
Import ListNotations.
Open Scope Z_scope.

(* the result of MVP-7.0 that corresponds to a result of MVP-6.3: one more cycle *)
Definition plus_one_cycle (r : mres) : mres :=
  match r with MDone c s => MDone (c + 1) s | other => other end.

(* the order function does not depend on the cycle on the alias-table maps (pc = -1) *)
Definition ord_stable (ord : Z -> Z -> list Z -> list Z) : Prop :=
  forall c keys, ord (c + 1) (-1) keys = ord c (-1) keys.

Lemma fin_indep : forall ord1 c1 ord2 c2 x,
  rat_ok (x_crat x) ->
  (forall k v, rat_read 0 (x_crat x) k = Some v -> 0 <= k) ->
  (forall k v, rat_read tu0 (x_trat x) k = Some v -> 0 <= k) ->
  rat_flush3 ord1 c1 (rat_commit3 ord1 c1 x) = rat_flush3 ord2 c2 (rat_commit3 ord2 c2 x).
Proof.
  intros ord1 c1 ord2 c2 x HO HK HT. unfold rat_flush3, rat_commit3. cbn [x_crat x_m set_rats3].
  set (tvals := rat_values tu0 (x_trat x)).
  assert (HTV : forall k v, aget k tvals = Some v -> 0 <= k).
  { intros k v H. unfold tvals in H. rewrite aget_rat_values in H. eapply HT. exact H. }
  assert (E : forall ord c, commit_vals ord c (x_crat x) tvals
                            = wfold 0 (fun tu : Z * Z => snd tu) tvals (map_order ord c (-1) (akeys tvals)) (x_crat x)) by reflexivity.
  rewrite !E.
  destruct (fold_rat_write_read 0 (fun tu : Z * Z => snd tu) tvals (map_order ord1 c1 (-1) (akeys tvals)) (x_crat x) HO) as [_ R1].
  destruct (fold_rat_write_read 0 (fun tu : Z * Z => snd tu) tvals (map_order ord2 c2 (-1) (akeys tvals)) (x_crat x) HO) as [_ R2].
  set (cr1 := wfold 0 (fun tu : Z * Z => snd tu) tvals (map_order ord1 c1 (-1) (akeys tvals)) (x_crat x)) in *.
  set (cr2 := wfold 0 (fun tu : Z * Z => snd tu) tvals (map_order ord2 c2 (-1) (akeys tvals)) (x_crat x)) in *.
  assert (RR : forall r, rat_read 0 cr1 r = rat_read 0 cr2 r).
  { intros r. rewrite R1, R2. unfold map_order. rewrite !memZ_iter_order. reflexivity. }
  assert (NN1 : forall k v, rat_read 0 cr1 k = Some v -> 0 <= k).
  { intros k v H. rewrite R1 in H. destruct (memZ k _); [|eapply HK; exact H].
    destruct (aget k tvals) eqn:EA; [eapply HTV; exact EA|eapply HK; exact H]. }
  set (v1 := rat_values 0 cr1). set (v2 := rat_values 0 cr2).
  assert (A12 : forall k, aget k v1 = aget k v2).
  { intros k. unfold v1, v2. rewrite !aget_rat_values. apply RR. }
  assert (N1 : forall k v, aget k v1 = Some v -> 0 <= k).
  { intros k v H. unfold v1 in H. rewrite aget_rat_values in H. eapply NN1. exact H. }
  assert (N2 : forall k v, aget k v2 = Some v -> 0 <= k).
  { intros k v H. rewrite <- A12 in H. eapply N1. exact H. }
  apply (nth_ext _ _ 0 0).
  - rewrite !flush_fold_length. reflexivity.
  - intros s Hs. rewrite flush_fold_length in Hs.
    rewrite (flush_fold v1 N1 _ _ s Hs), (flush_fold v2 N2 _ _ s Hs).
    unfold map_order. rewrite !memZ_iter_order, !memZ_akeys, A12. reflexivity.
Qed.

(* RATCommit ; RATFlush gives the same registers one cycle later *)
Definition FA (ord : Z -> Z -> list Z -> list Z) (x : mx) : Prop :=
  forall c, rat_flush3 ord (c + 1) (rat_commit3 ord (c + 1) x) = rat_flush3 ord c (rat_commit3 ord c x).

Lemma FA_stable : forall ord x, ord_stable ord -> FA ord x.
Proof.
  intros ord x H c. unfold rat_flush3, rat_commit3, commit_vals, map_order. cbn [x_crat x_m set_rats3].
  rewrite !(H c). reflexivity.
Qed.

Lemma FA_nonneg : forall ord x, PX True x -> FA ord x.
Proof.
  intros ord x (_ & _ & _ & _ & _ & HR) c. destruct (HR I) as (R1 & R2 & R3 & R4).
  apply fin_indep; assumption.
Qed.

Lemma finish_sim : forall NN ord w eus c, INV NN w -> FA ord (w_x w) ->
  finish7 ord w eus (c + 1) = plus_one_cycle (finish3 ord (w_x w) c).
Proof.
  intros NN ord w eus c [I1 (P1 & _)] HF. unfold finish7, finish3.
  rewrite (export7_idle (w_i w) eus 0 (w_mem w) 0) by (rewrite I1; reflexivity).
  rewrite P1. cbn [flush_lines plus_one_cycle]. rewrite (HF c). unfold w_mem. f_equal. lia.
Qed.

Section Runs.
  Variable NN : Prop.
  Variable app : list instr.
  Hypothesis Happ : reg_only app = true.
  Hypothesis Hnn : NN -> wregs_nonneg app = true.
  Variable ord : Z -> Z -> list Z -> list Z.
  Hypothesis Hfa : forall x, PX NN x -> FA ord x.

  Notation SI := (SI NN).

  Lemma run_sim : forall labels fuel s, SI s -> v_mode s <> QFinal ->
    match run3_st fuel app labels ord (st3_of s) with
    | inl (r, os) => run7_st hooks70 (S fuel) app labels ord s = inl (plus_one_cycle r, os)
    | inr s3 => exists s', run7_st hooks70 fuel app labels ord s = inr s' /\ s3 = st3_of s' /\ SI s' /\ v_mode s' <> QFinal
    end.
  Proof.
    intros labels. induction fuel as [|f IH]; intros s HS HM.
    - cbn [run3_st run7_st]. exists s. split; [reflexivity|split; [reflexivity|split; assumption]].
    - cbn [run3_st]. destruct (step_sim NN app Happ Hnn labels ord s HS HM) as [E3 HR]. rewrite E3.
      change (run7_st hooks70 (S (S f)) app labels ord s)
        with (match step7 hooks70 app labels ord s with
              | UDone r os => inl (r, os)
              | UCont s' => run7_st hooks70 (S f) app labels ord s'
              end).
      change (run7_st hooks70 (S f) app labels ord s)
        with (match step7 hooks70 app labels ord s with
              | UDone r os => inl (r, os)
              | UCont s' => run7_st hooks70 f app labels ord s'
              end).
      destruct (step7 hooks70 app labels ord s) as [r os|s1] eqn:E7; cbn [proj_res].
      + (* an error or a panic in the same tick *)
        destruct r as [c st| | |]; try reflexivity.
        exfalso. apply HM. exact (proj1 (step7_done _ _ _ _ _ _ _ _ E7)).
      + cbn [res_SI] in HR. destruct (v_mode s1) eqn:EM1.
        * specialize (IH s1 HR ltac:(rewrite EM1; discriminate)).
          destruct (run3_st f app labels ord (st3_of s1)) as [[r os]|s3]; exact IH.
        * specialize (IH s1 HR ltac:(rewrite EM1; discriminate)).
          destruct (run3_st f app labels ord (st3_of s1)) as [[r os]|s3]; exact IH.
        * specialize (IH s1 HR ltac:(rewrite EM1; discriminate)).
          destruct (run3_st f app labels ord (st3_of s1)) as [[r os]|s3]; exact IH.
        * specialize (IH s1 HR ltac:(rewrite EM1; discriminate)).
          destruct (run3_st f app labels ord (st3_of s1)) as [[r os]|s3]; exact IH.
        * (* MVP-6.3 returns; MVP-7.0 runs its final loop once *)
          cbn [run7_st]. rewrite (step_final NN app labels ord s1 HR EM1).
          pose proof HR as (HI & _).
          rewrite (finish_sim NN ord (v_w s1) (v_eus s1) (v_cycle s1) HI (Hfa _ (proj2 HI))). reflexivity.
  Qed.
End Runs.

(* --- NewCPU establishes the invariant --- *)

Lemma init_sim : forall NN par ord app st s7,
  init7 par ord app st = Ok s7 ->
  init3 par ord app st = Ok (st3_of s7) /\ SI NN s7 /\ v_mode s7 <> QFinal.
Proof.
  intros NN par ord app st s7 H. unfold init7 in H.
  destruct (init3 par ord app st) as [s3| |] eqn:E3; try discriminate.
  destruct (new_cache l1LineSize l1Size) as [l1d| |] eqn:EC; try discriminate.
  inversion H; subst. clear H.
  unfold init3 in E3. rewrite EC in E3.
  destruct (new_cache l3LineSize l3Size) as [c3| |] eqn:EL; try discriminate.
  cbv zeta in E3. inversion E3; subst. clear E3.
  pose proof (new_cache_lines _ _ _ EL) as H3.
  split; [|split].
  - unfold st3_of. cbn [v_w v_eus v_wus v_cycle v_mode w_x t_x t_wus mode_of]. rewrite map_repeat. reflexivity.
  - split; [|split; [|split]].
    + cbn [v_w t_x]. split; [reflexivity|]. cbn [w_x]. unfold PX.
      cbn [x_m x_ebus x_pend m_l3 m_cbus m_wbus].
      split; [exact H3|]. split; [apply on_bus_new|]. split; [apply on_bus_new|]. split; [constructor|].
      split; [apply on_bus_new|].
      intros _. cbn [x_crat x_trat]. destruct (init_rat_read ord (regs st)) as [A B].
      split; [exact A|]. split; [apply rat_new_ok; unfold ratLength; lia|]. split.
      * intros k v HK. rewrite B in HK. destruct (0 <=? k) eqn:E0; [apply Z.leb_le; exact E0|discriminate].
      * intros k v HK. discriminate HK.
    + cbn [v_eus]. apply Forall_forall. intros e HE. apply repeat_spec in HE. subst.
      split; [left; reflexivity|]. split; [intros r Hr; discriminate Hr|]. repeat split.
    + cbn [v_wus t_wus]. apply Forall_forall. intros w HW. apply repeat_spec in HW. subst. reflexivity.
    + intros HM. discriminate HM.
  - discriminate.
Qed.

Lemma init7_of_init3 : forall par ord app st s3, init3 par ord app st = Ok s3 -> exists s7, init7 par ord app st = Ok s7.
Proof.
  intros par ord app st s3 H. unfold init7. rewrite H.
  destruct (new_cache l1LineSize l1Size) as [l1d| |] eqn:EC; [eexists; reflexivity| |]; vm_compute in EC; discriminate.
Qed.

Section Main.
  Variable NN : Prop.
  Variable app : list instr.
  Hypothesis Happ : reg_only app = true.
  Hypothesis Hnn : NN -> wregs_nonneg app = true.
  Variable ord : Z -> Z -> list Z -> list Z.
  Hypothesis Hfa : forall x, PX NN x -> FA ord x.

  Lemma regonly_sim_gen : forall par fuel labels st r os,
    r <> MOutOfFuel ->
    mvp63_run_os par ord fuel app labels st = (r, os) ->
    mvp70_run_os par ord (S fuel) app labels st = (plus_one_cycle r, os).
  Proof.
    intros par fuel labels st r os HR H. unfold mvp63_run_os in H. unfold mvp70_run_os.
    destruct (init3 par ord app st) as [s3| |] eqn:E3.
    - destruct (init7_of_init3 _ _ _ _ _ E3) as [s7 E7]. rewrite E7.
      destruct (init_sim NN _ _ _ _ _ E7) as (E3' & HS & HM). rewrite E3 in E3'. inversion E3'; subst s3.
      pose proof (run_sim NN app Happ Hnn ord Hfa labels fuel s7 HS HM) as RS.
      destruct (run3_st fuel app labels ord (st3_of s7)) as [[r' os']|s3'].
      + inversion H; subst. rewrite RS. reflexivity.
      + inversion H; subst. contradiction HR; reflexivity.
    - inversion H; subst. unfold init7. rewrite E3. reflexivity.
    - inversion H; subst. unfold init7. rewrite E3. reflexivity.
  Qed.

  Lemma regonly_outoffuel_gen : forall par fuel labels st os,
    mvp63_run_os par ord fuel app labels st = (MOutOfFuel, os) ->
    mvp70_run_os par ord fuel app labels st = (MOutOfFuel, os).
  Proof.
    intros par fuel labels st os H. unfold mvp63_run_os in H. unfold mvp70_run_os.
    destruct (init3 par ord app st) as [s3| |] eqn:E3; try discriminate.
    destruct (init7_of_init3 _ _ _ _ _ E3) as [s7 E7]. rewrite E7.
    destruct (init_sim NN _ _ _ _ _ E7) as (E3' & HS & HM). rewrite E3 in E3'. inversion E3'; subst s3.
    pose proof (run_sim NN app Happ Hnn ord Hfa labels fuel s7 HS HM) as RS.
    destruct (run3_st fuel app labels ord (st3_of s7)) as [[r' os']|s3'].
    - inversion H; subst.
      (* a tick of MVP-7.0 never answers MOutOfFuel *)
      exfalso. eapply run7_st_oof. exact RS.
    - destruct RS as (s' & E & -> & _ & _). rewrite E. inversion H; subst. reflexivity.
  Qed.

  Lemma run7_SI : forall labels fuel s s', SI NN s -> run7_st hooks70 fuel app labels ord s = inr s' -> SI NN s'.
  Proof.
    intros labels. induction fuel as [|f IH]; intros s s' HS H; cbn [run7_st] in H.
    - inversion H; subst. exact HS.
    - destruct (v_mode s) eqn:EM.
      5: { rewrite (step_final NN app labels ord s HS EM) in H. discriminate. }
      all: destruct (step_sim NN app Happ Hnn labels ord s HS ltac:(rewrite EM; discriminate)) as [_ HR];
           destruct (step7 hooks70 app labels ord s) as [r os|s1]; [discriminate|]; exact (IH s1 s' HR H).
  Qed.

  (* the memory system is idle in every state reached *)
  Lemma regonly_memsys_idle_gen : forall par fuel labels st s s',
    init7 par ord app st = Ok s -> run7_st hooks70 fuel app labels ord s = inr s' ->
    w_i (v_w s') = msi_new /\ Forall (fun e => CC (h_cc e) /\ (h_co e = HNone \/ h_co e = HPrepare)) (v_eus s') /\
    Forall (fun u => u_co u = WNone) (v_wus s').
  Proof.
    intros par fuel labels st s s' E7 ER.
    destruct (init_sim NN _ _ _ _ _ E7) as (_ & HS & _).
    destruct (run7_SI labels fuel s s' HS ER) as ((I1 & _) & HE & HW & _). split; [exact I1|]. split; [|exact HW].
    eapply Forall_impl; [|exact HE]. intros e (A & _ & C). split; assumption.
  Qed.
End Main.

(* --- for every order function, when no register number written by the program is negative --- *)

Lemma regs_ok_wregs_nonneg : forall app, regs_ok app = true -> wregs_nonneg app = true.
Proof.
  intros app H. unfold regs_ok in H. unfold wregs_nonneg. rewrite forallb_forall in *. intros i Hi.
  specialize (H i Hi). unfold reg_rng in H. rewrite forallb_forall in *. intros r Hr.
  specialize (H r ltac:(apply in_or_app; right; exact Hr)). apply andb_true_iff in H as [H _]. exact H.
Qed.

Theorem mvp70_regonly_sim_mvp63 : forall app, reg_only app = true -> wregs_nonneg app = true ->
  forall par ord fuel labels st r os,
  r <> MOutOfFuel ->
  mvp63_run_os par ord fuel app labels st = (r, os) ->
  mvp70_run_os par ord (S fuel) app labels st = (plus_one_cycle r, os).
Proof.
  intros app HA HW par ord. exact (regonly_sim_gen True app HA (fun _ => HW) ord (fun x HP => FA_nonneg ord x HP) par).
Qed.

Theorem mvp70_regonly_outoffuel : forall app, reg_only app = true -> wregs_nonneg app = true ->
  forall par ord fuel labels st os,
  mvp63_run_os par ord fuel app labels st = (MOutOfFuel, os) ->
  mvp70_run_os par ord fuel app labels st = (MOutOfFuel, os).
Proof.
  intros app HA HW par ord. exact (regonly_outoffuel_gen True app HA (fun _ => HW) ord (fun x HP => FA_nonneg ord x HP) par).
Qed.

(* the architectural result alone: registers and memory of a run that returns *)
Corollary mvp70_regonly_same_state : forall app, reg_only app = true -> wregs_nonneg app = true ->
  forall par ord fuel labels st c st',
  mvp63_run par ord fuel app labels st = MDone c st' ->
  mvp70_run par ord (S fuel) app labels st = MDone (c + 1) st'.
Proof.
  intros app HA HW par ord fuel labels st c st' H. unfold mvp63_run in H. unfold mvp70_run.
  destruct (mvp63_run_os par ord fuel app labels st) as [r os] eqn:E. cbn [fst] in H. subst r.
  rewrite (mvp70_regonly_sim_mvp63 app HA HW par ord fuel labels st (MDone c st') os ltac:(discriminate) E). reflexivity.
Qed.

(* --- for every program without loads / stores, when the order function ignores the cycle on the RAT maps --- *)

Theorem mvp70_regonly_sim_mvp63_stable : forall app, reg_only app = true ->
  forall par ord fuel labels st r os,
  ord_stable ord ->
  r <> MOutOfFuel ->
  mvp63_run_os par ord fuel app labels st = (r, os) ->
  mvp70_run_os par ord (S fuel) app labels st = (plus_one_cycle r, os).
Proof.
  intros app HA par ord fuel labels st r os HS.
  exact (regonly_sim_gen False app HA (fun F => match F with end) ord (fun x _ => FA_stable ord x HS) par fuel labels st r os).
Qed.

Theorem mvp70_regonly_outoffuel_stable : forall app, reg_only app = true ->
  forall par ord fuel labels st os,
  ord_stable ord ->
  mvp63_run_os par ord fuel app labels st = (MOutOfFuel, os) ->
  mvp70_run_os par ord fuel app labels st = (MOutOfFuel, os).
Proof.
  intros app HA par ord fuel labels st os HS.
  exact (regonly_outoffuel_gen False app HA (fun F => match F with end) ord (fun x _ => FA_stable ord x HS) par fuel labels st os).
Qed.

(* --- the memory system of MVP-7.0 is never used (every program without loads / stores, every order) --- *)

Theorem mvp70_regonly_memsys_idle : forall app, reg_only app = true ->
  forall par ord fuel labels st s s',
  init7 par ord app st = Ok s -> run7_st hooks70 fuel app labels ord s = inr s' ->
  w_i (v_w s') = msi_new /\
  Forall (fun e => CC (h_cc e) /\ (h_co e = HNone \/ h_co e = HPrepare)) (v_eus s') /\
  Forall (fun u => u_co u = WNone) (v_wus s').
Proof.
  intros app HA par ord fuel labels st s s'.
  exact (regonly_memsys_idle_gen False app HA (fun F => match F with end) ord par fuel labels st s s').
Qed.

(* --- without either hypothesis the statement is false of the model --- *)

Definition alt_ord : Z -> Z -> list Z -> list Z := fun c _ l => if Z.even c then l else rev l.
Definition neg_prog : list instr := [I_li (mk_li (-1) 5)].
Definition neg_st : arch := mk_arch [7; 8] [].

Lemma neg_runs :
  reg_only neg_prog = true /\ wregs_nonneg neg_prog = false /\
  mvp63_run_os 1 alt_ord 400 neg_prog no_labels neg_st = (MDone 314 (mk_arch [5; 8] []), false) /\
  mvp70_run_os 1 alt_ord 401 neg_prog no_labels neg_st = (MDone 315 (mk_arch [7; 8] []), false) /\
  mvp70_run_os 1 ord_asc 401 neg_prog no_labels neg_st = (MDone 315 (mk_arch [5; 8] []), false) /\
  mvp70_run_os 1 ord_desc 401 neg_prog no_labels neg_st = (MDone 315 (mk_arch [7; 8] []), false).
Proof. vm_compute. repeat split. Qed.

Theorem mvp70_regonly_sim_mvp63_refuted :
  ~ (forall app, reg_only app = true ->
     forall par ord fuel labels st r os,
     r <> MOutOfFuel ->
     mvp63_run_os par ord fuel app labels st = (r, os) ->
     mvp70_run_os par ord (S fuel) app labels st = (plus_one_cycle r, os)).
Proof.
  intros H. destruct neg_runs as (HA & _ & E3 & E7 & _).
  assert (NF : MDone 314 (mk_arch [5; 8] []) <> MOutOfFuel) by discriminate.
  pose proof (H neg_prog HA 1%nat alt_ord 400%nat no_labels neg_st (MDone 314 (mk_arch [5; 8] [])) false NF E3) as H1.
  rewrite E7 in H1. cbn [plus_one_cycle] in H1. discriminate H1.
Qed.

Definition fuel_bound70 (n : nat) : nat := S (fuel_bound63 n).

(* what "every run of at least B ticks returns (MDone c st', false)" says about results, whatever the variant *)
Section Bounded.
  Variables (run_os : nat -> mres * bool) (B : nat) (c : Z) (st' : arch).
  Hypothesis Hrun : forall fuel', (B <= fuel')%nat -> run_os fuel' = (MDone c st', false).

  Lemma bounded_result : forall fuel', (B <= fuel')%nat -> fst (run_os fuel') = MDone c st'.
  Proof. intros fuel' Hf. rewrite (Hrun fuel' Hf). reflexivity. Qed.

  Lemma bounded_ghost : forall fuel', (B <= fuel')%nat -> snd (run_os fuel') = false.
  Proof. intros fuel' Hf. rewrite (Hrun fuel' Hf). reflexivity. Qed.

  Lemma bounded_no_panic : forall fuel', (B <= fuel')%nat ->
    fst (run_os fuel') <> MPanic /\ fst (run_os fuel') <> MOutOfFuel /\ (forall e, fst (run_os fuel') <> MErr e).
  Proof. intros fuel' Hf. rewrite (Hrun fuel' Hf). repeat split; discriminate. Qed.
End Bounded.

Lemma half_cycles : forall n c, n + 2 <= 2 * c -> (n + 1) / 2 + 1 <= c.
Proof. intros n c H. lia. Qed.

Section Straight70.
  Variables (app : list instr) (labels : Z -> option Z).
  Hypothesis Happ : wf_app app.
  Hypothesis Hstr : straight app = true.
  Hypothesis Hreg : reg_only app = true.
  Hypothesis Hssa : ssa app = true.
  Hypothesis Hrng : regs_ok app = true.

  Variables (par : nat) (fuel : nat) (st st' : arch) (tr : list Z).
  Hypothesis Hpar : (1 <= par)%nat.
  Hypothesis Hr32 : Forall int32 (regs st).
  Hypothesis Hlen : length (regs st) = 32%nat.
  Hypothesis Hx0 : nth 0 (regs st) 0 = 0.
  Hypothesis Hrun : seq_run fuel (map sinstr_of app) labels st = Done st' tr.

  (* MVP-7.0 computes the sequential registers and memory on single-assignment register-only straight-line
     programs: every number of cores, every iteration order of Go's maps, all fuels from fuel_bound70 (length app)
     on; the ghost flag stays clear; one cycle more than MVP-6.3 *)
  Theorem mvp70_run_ssa_straight ord :
    exists c, (forall fuel', (fuel_bound70 (length app) <= fuel')%nat -> mvp70_run_os par ord fuel' app labels st = (MDone c st', false)) /\
              Z.of_nat (length tr) + 2 <= 2 * c /\
              (forall fuel', (fuel_bound63 (length app) <= fuel')%nat -> mvp63_run_os par ord fuel' app labels st = (MDone (c - 1) st', false)).
  Proof.
    destruct (mvp63_run_ssa_straight app labels Happ Hstr Hreg Hssa Hrng par fuel st st' tr Hpar Hr32 Hlen Hx0 Hrun ord) as (c & H & Hb).
    exists (c + 1). split; [|split; [lia|]].
    - intros fuel' Hf. unfold fuel_bound70 in Hf. destruct fuel' as [|f]; [lia|].
      apply (mvp70_regonly_sim_mvp63 app Hreg (regs_ok_wregs_nonneg app Hrng) par ord f labels st (MDone c st') false); [discriminate|].
      apply H. lia.
    - intros fuel' Hf. replace (c + 1 - 1) with c by lia. apply H. exact Hf.
  Qed.

  Theorem mvp70_refines_seq_ssa_straight ord :
    exists c, forall fuel', (fuel_bound70 (length app) <= fuel')%nat -> mvp70_run par ord fuel' app labels st = MDone c st'.
  Proof.
    destruct (mvp70_run_ssa_straight ord) as (c & H & _). exists c.
    exact (bounded_result (fun f => mvp70_run_os par ord f app labels st) _ _ _ H).
  Qed.

  Theorem mvp70_ghost_clear_ssa_straight ord fuel' : (fuel_bound70 (length app) <= fuel')%nat ->
    snd (mvp70_run_os par ord fuel' app labels st) = false.
  Proof.
    destruct (mvp70_run_ssa_straight ord) as (c & H & _).
    exact (bounded_ghost (fun f => mvp70_run_os par ord f app labels st) _ _ _ H fuel').
  Qed.

  Theorem mvp70_terminates_ssa_straight ord :
    exists c, mvp70_run par ord (fuel_bound70 (length app)) app labels st = MDone c st' /\ (Z.of_nat (length tr) + 1) / 2 + 1 <= c.
  Proof.
    destruct (mvp70_run_ssa_straight ord) as (c & H1 & H2 & _). exists c.
    split; [exact (bounded_result (fun f => mvp70_run_os par ord f app labels st) _ _ _ H1 _ (le_n _))|exact (half_cycles _ _ H2)].
  Qed.

  Corollary mvp70_no_panic_ssa_straight ord fuel' : (fuel_bound70 (length app) <= fuel')%nat ->
    mvp70_run par ord fuel' app labels st <> MPanic /\ mvp70_run par ord fuel' app labels st <> MOutOfFuel /\
    (forall e, mvp70_run par ord fuel' app labels st <> MErr e).
  Proof.
    destruct (mvp70_run_ssa_straight ord) as (c & H & _).
    exact (bounded_no_panic (fun f => mvp70_run_os par ord f app labels st) _ _ _ H fuel').
  Qed.
End Straight70.

(* the 14-instruction example of Mvp63RefProofs.v satisfies the hypotheses of the refinement theorems *)
Definition ex63_app : list instr := map instr_of ex63_prog.

Lemma ex63_class :
  wf_app ex63_app /\ straight ex63_app = true /\ reg_only ex63_app = true /\ ssa ex63_app = true /\ regs_ok ex63_app = true /\
  Forall int32 (regs zero32) /\ length (regs zero32) = 32%nat /\ nth 0 (regs zero32) 0 = 0 /\
  exists st', seq_run 100 (map sinstr_of ex63_app) no_labels zero32 = Done st' (rev (map (fun k => 4 * Z.of_nat k) (seq 0 14))).
Proof.
  unfold ex63_app. split; [split; [|vm_compute; reflexivity]; unfold ex63_prog; cbn [map]; repeat constructor; vm_compute; discriminate|].
  do 4 (split; [vm_compute; reflexivity|]).
  split; [unfold zero32; cbn [regs repeat]; repeat constructor; vm_compute; discriminate|].
  split; [reflexivity|]. split; [reflexivity|]. eexists. vm_compute. reflexivity.
Qed.

(* at every number of cores and for EVERY order function *)
Corollary mvp70_ssa_example_any par ord : (1 <= par)%nat ->
  exists c st', seq_run 100 (map sinstr_of (map instr_of ex63_prog)) no_labels zero32 = Done st' (rev (map (fun k => 4 * Z.of_nat k) (seq 0 14))) /\
    (forall fuel, (fuel_bound70 14 <= fuel)%nat -> mvp70_run_os par ord fuel (map instr_of ex63_prog) no_labels zero32 = (MDone c st', false)) /\
    rget (regs st') 18 = 251 /\ 8 <= c.
Proof.
  intros Hpar. destruct (mvp63_ssa_example_any par ord Hpar) as (c & st' & Hs & Hc & R18 & Hb).
  exists (c + 1), st'. split; [exact Hs|]. split; [|split; [exact R18|lia]].
  intros fuel Hf. unfold fuel_bound70 in Hf. destruct fuel as [|f]; [lia|].
  pose proof ex63_class as (_ & _ & Hreg & _ & Hrng & _).
  apply (mvp70_regonly_sim_mvp63 _ Hreg (regs_ok_wregs_nonneg _ Hrng) par ord f no_labels zero32 (MDone c st') false); [discriminate|].
  apply Hc. lia.
Qed.

(* the same example with its cycle counts: one and three cores, three orders; the hypotheses of the theorem hold *)
Example mvp70_ssa_example :
  let app := map instr_of ex63_prog in
  straight app = true /\ reg_only app = true /\ ssa app = true /\ regs_ok app = true /\ wregs_nonneg app = true /\
  exists st' tr,
    seq_run 100 (map sinstr_of app) no_labels zero32 = Done st' tr /\ length tr = 14%nat /\
    mvp63_run_os 3 ord_asc 3000 app no_labels zero32 = (MDone 332 st', false) /\
    mvp70_run_os 1 ord_asc 3001 app no_labels zero32 = (MDone 334 st', false) /\
    mvp70_run_os 3 ord_asc 3001 app no_labels zero32 = (MDone 333 st', false) /\
    mvp70_run_os 3 ord_desc 3001 app no_labels zero32 = (MDone 333 st', false) /\
    mvp70_run_os 3 alt_ord 3001 app no_labels zero32 = (MDone 333 st', false) /\
    rget (regs st') 9 = 63 /\ rget (regs st') 13 = 57 /\ rget (regs st') 18 = 251.
Proof.
  cbv zeta. fold ex63_app. pose proof ex63_class as (_ & Hstr & Hreg & Hssa & Hrng & _).
  pose proof (regs_ok_wregs_nonneg _ Hrng) as Hnn.
  do 5 (split; [assumption|]).
  eexists. eexists. split; [vm_compute; reflexivity|]. split; [reflexivity|]. split; [vm_compute; reflexivity|].
  (* the runs of MVP-7.0 are those of MVP-6.3 one tick earlier, which are computed *)
  assert (S7 : forall par ord c st', mvp63_run_os par ord 3000 ex63_app no_labels zero32 = (MDone (c - 1) st', false) ->
               mvp70_run_os par ord 3001 ex63_app no_labels zero32 = (MDone c st', false)).
  { intros par ord c st' E. rewrite (mvp70_regonly_sim_mvp63 _ Hreg Hnn par ord 3000 _ _ (MDone (c - 1) st') false ltac:(discriminate) E).
    cbn [plus_one_cycle]. do 2 f_equal. lia. }
  do 4 (split; [apply S7; vm_compute; reflexivity|]).
  repeat split; vm_compute; reflexivity.
Qed.

(* a program outside the class of the refinement theorem (a taken branch, a flush, a wrong-path instruction, a
   forwarding chain with a write-after-read): the lock-step theorem applies all the same *)
Definition ro70_prog : list instr :=
  [I_li (mk_li 5 11); I_beq (mk_beq 0 0 1); I_add (mk_add 6 5 5); I_li (mk_li 10 9);
   I_mul (mk_mul 6 10 5); I_add (mk_add 7 6 5); I_li (mk_li 5 77); I_ret mk_ret].
Example mvp70_regonly_example :
  reg_only ro70_prog = true /\ wregs_nonneg ro70_prog = true /\
  forall par, In par [1; 2; 3; 4]%nat ->
    fst (mvp63_run_os par ord_asc 3000 ro70_prog (one_label 12) (st_of [] [(0, 5); (70, 3)])) <> MOutOfFuel /\
    mvp70_run_os par ord_asc 3001 ro70_prog (one_label 12) (st_of [] [(0, 5); (70, 3)]) =
      (plus_one_cycle (fst (mvp63_run_os par ord_asc 3000 ro70_prog (one_label 12) (st_of [] [(0, 5); (70, 3)]))),
       snd (mvp63_run_os par ord_asc 3000 ro70_prog (one_label 12) (st_of [] [(0, 5); (70, 3)]))).
Proof.
  split; [reflexivity|]. split; [reflexivity|]. intros par HP.
  (* MVP-6.3 ends within 3000 ticks by computation; MVP-7.0 follows it by the simulation theorem *)
  assert (HR : fst (mvp63_run_os par ord_asc 3000 ro70_prog (one_label 12) (st_of [] [(0, 5); (70, 3)])) <> MOutOfFuel)
    by (destruct HP as [<-|[<-|[<-|[<-|[]]]]]; vm_compute; discriminate).
  split; [exact HR|]. exact (mvp70_regonly_sim_mvp63 ro70_prog eq_refl eq_refl par ord_asc 3000 _ _ _ _ HR (surjective_pairing _)).
Qed.

Print Assumptions fin_indep.
Print Assumptions mvp70_regonly_sim_mvp63.
Print Assumptions mvp70_regonly_outoffuel.
Print Assumptions mvp70_regonly_sim_mvp63_stable.
Print Assumptions mvp70_regonly_memsys_idle.
Print Assumptions mvp70_regonly_sim_mvp63_refuted.
Print Assumptions mvp70_run_ssa_straight.
Print Assumptions mvp70_terminates_ssa_straight.
Print Assumptions mvp70_ssa_example_any.
Print Assumptions mvp70_ssa_example.
Print Assumptions mvp70_regonly_example.
