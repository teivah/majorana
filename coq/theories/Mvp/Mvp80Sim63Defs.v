(* Lock-step simulation MVP-8.0 / MVP-6.3 on programs without loads and stores: definitions and the per-unit
   lemmas for the execute units UNDER EXPLICIT HYPOTHESES (the unconditional statement is false:
   Mvp80Sim63Refute.v).

   Projection: eu_of maps an execute unit of MVP-8.0 (HNone / HPrepare) to the unit of MVP-6.3 (ENone / EPrepare)
   with the same memory, runner and sequence id; the machine y_x is shared (type mx).
   Hypotheses of the unit lemmas (conditions over the MVP-8.0 state at the call):
     rd_agree   : registerRead of MVP-8.0 on behalf of the runner's sequence id returns what the newest-slot read
                  of MVP-6.3 returns, for every register;
     eu_pending8 = false when the Pre hook fires;
     y_pref = [] (no runner has an execution-unit preference).
   Conclusions are EQUATIONS  eu_xxx3 .. (y_x y) (eu_of e) = (false, lift8 (eu_xxx8 .. y i e)). *)
From Coq Require Import ZArith List Bool Lia.
From Maj Require Import Base.Outcome Base.GoInt Base.GoTypes Isa.Spec Isa.Seq.
From Maj Require Import Gen.Latency Gen.RiscTables Gen.Opcodes Comp.Cache Comp.Rat Mvp.Mvp12 Mvp.Mvp3 Mvp.Mvp5 Mvp.Mvp60 Mvp.Mvp63 Mvp.Mvp80.
From Maj Require Import Mvp.Mvp60Proofs Mvp.Mvp63Proofs Mvp.Mvp63Class Mvp.Mvp80Proofs Mvp.Mvp80RegOnly Mvp.Mvp80RegOnly63.
From Maj Require Mvp.Mvp62RefRel Mvp.Mvp70Sim63Mvp71.
Import ListNotations.
Open Scope Z_scope.

Definition co_of (c : eu_co8) : eu_co := match c with HPrepare => EPrepare | _ => ENone end.
Definition eu_of (e : eu8) : eu3 := mk_eu3 (co_of (h_co e)) (h_memory e) (h_runner e) (h_seq e).
Definition mode_of (m : mode8) : mode3 :=
  match m with
  | PNormal => NNormal | PRet => NRet | PFlushE a b c => NFlushE a b c
  | PFlushW k a b c d => NFlushW k a b c d | PFinal => NNormal
  end.
Definition st3_of (s : st8) : st3 :=
  mk_st3 (y_x (v_y s)) (map eu_of (v_eus s)) (v_wus s) (v_cycle s) (mode_of (v_mode s)).

Definition lift8 (o : eu_res8) : outcome (mx * eu3 * eu_out3) :=
  match o with Ok (y', e', out) => Ok (y_x y', eu_of e', out) | Err er => Err er | Panic => Panic end.

(* the two register readers agree for this runner in this machine state *)
Definition rd_agree (x : mx) (r : runner3) : Prop :=
  forall reg, rr8 x (q_pc r) (q_seq r) reg = rr3 x (q_pc r) reg.

(* the reads of prepareRun + run agree: after the receive and branchUnit.assert *)
Definition prep_agree (x : mx) (r : runner3) : Prop :=
  forall x0 r1, Mvp70Sim63Mvp71.recv3 x r = Some (x0, r1) -> rd_agree (bu_assert3 x0 (q_r r1)) r1.

Definition pre8 (e : eu8) : bool :=
  if h_seq e =? 0 then false else match h_runner e with None => false | Some r => h_seq e <? q_seq r end.

(* the conditions under which one call of executeUnit.Cycle of MVP-8.0 is the call of MVP-6.3 *)
Definition eu_cond (y : my) (e : eu8) : Prop :=
  y_pref y = [] /\
  (pre8 e = true -> eu_pending8 y e = false) /\
  (pre8 e = false ->
     match h_co e with
     | HNone => forall r b', bb_get (x_ebus (y_x y)) = (b', Some r) -> prep_agree (set_ebus3 (y_x y) b') r
     | _ => forall r, h_runner e = Some r -> prep_agree (y_x y) r
     end).

Lemma eu_pre3_of : forall e, eu_pre3 (eu_of e) = pre8 e.
Proof. reflexivity. Qed.

(* pick without preferences is Get *)
Lemma pick8_nil : forall id q, pick8 [] id q = match q with [] => None | r :: t => Some (r, t) end.
Proof. intros id [|r t]; reflexivity. Qed.

Lemma eu_run_sim : forall labels ord cycle y i e,
  (forall r, h_runner e = Some r -> NM r /\ rd_agree (y_x y) r) ->
  eu_run3 labels ord cycle (y_x y) (eu_of e) = (false, lift8 (eu_run8 labels ord cycle y i e)).
Proof.
  intros labels ord cycle y i e H. unfold eu_run3, eu_run8. cbn [eu_of g_runner g_memory g_seq g_co].
  destruct (h_runner e) as [r|] eqn:ER; [|reflexivity].
  destruct (H r eq_refl) as [HN HA]. cbv zeta.
  rewrite (instr_Run_seq0 _ _ _ _ _ (q_seq r)).
  rewrite (Mvp62RefRel.instr_Run_ext _ _ _ labels (q_pc r) (h_memory e) 0 HA).
  destruct (instr_Run (q_instr r) (rr3 (y_x y) (q_pc r)) labels (q_pc r) (h_memory e) 0) as [exe|er|] eqn:EX;
    [|reflexivity|reflexivity].
  rewrite (nomem_no_change _ _ _ _ _ _ _ HN EX).
  destruct (Return exe); [reflexivity|].
  cbn [andb bind]. cbv beta iota.
  destruct (q_fwder r) as [ch|].
  - destruct (aget ch _); [reflexivity|]. destruct (InstructionType_IsBranch _); reflexivity.
  - destruct (PcChange exe); [|reflexivity].
    destruct (bu_should_flush6 _ _) as [b' fl]. reflexivity.
Qed.

Lemma eu_prepare_sim : forall labels ord cycle y i e,
  (forall r, h_runner e = Some r -> NM r /\ prep_agree (y_x y) r) ->
  eu_prepare3 labels ord cycle (y_x y) (eu_of e) = (false, lift8 (eu_prepare8 labels ord cycle y i e)).
Proof.
  intros labels ord cycle y i e H. unfold eu_prepare3, eu_prepare8. cbv zeta.
  destruct (negb (bb_canadd (m_wbus (x_m (y_x y))))); [reflexivity|].
  cbn [eu_of g_runner g_memory g_seq g_co].
  destruct (h_runner e) as [r|] eqn:ER; [|reflexivity].
  destruct (H r eq_refl) as [HN HA]. unfold prep_agree in HA.
  fold (Mvp70Sim63Mvp71.recv3 (y_x y) r).
  destruct (Mvp70Sim63Mvp71.recv3 (y_x y) r) as [[x0 r1]|] eqn:EV; [|reflexivity].
  assert (HN1 : NM r1).
  { unfold Mvp70Sim63Mvp71.recv3 in EV. destruct (q_recv r) as [ch|].
    - destruct (aget ch _); [|discriminate]. inversion EV; subst. exact HN.
    - inversion EV; subst. exact HN. }
  rewrite !nomem_no_read by exact HN1.
  exact (eu_run_sim labels ord cycle (set_x y (bu_assert3 x0 (q_r r1))) i
           (mk_eu8 (h_co e) (h_memory e) (Some r1) (h_seq e))
           (runner_some _ _ _ _ _ (conj HN1 (HA x0 r1 eq_refl)))).
Qed.

Section Units.
  Variables (mem0 : list Z) (c3 : cache) (k0 : msi8) (ccs0 : list cc8).
  Hypothesis Hccs : Forall cc_idle ccs0.
  Notation INV := (INV mem0 c3 k0 ccs0).

  Lemma eu_cycle_sim : forall labels ord cycle y i e,
    INV y -> EU e -> (i < length ccs0)%nat -> eu_cond y e ->
    eu_cycle3 labels ord cycle (y_x y) (eu_of e) = (false, lift8 (eu_cycle8 labels ord cycle y i e)).
  Proof.
    intros labels ord cycle y i e HI [HC HR] Hi (C1 & C2 & C3).
    unfold eu_cycle3, eu_cycle8. rewrite eu_pre3_of. cbv zeta. fold (pre8 e).
    destruct (pre8 e) eqn:EP.
    - rewrite (C2 eq_refl). unfold eu_flush8.
      pose proof HI as (I1 & I2 & I3).
      destruct (nth_error (y_ccs y) i) as [c|] eqn:EN.
      2: { exfalso. apply nth_error_None in EN. rewrite I2 in EN. lia. }
      assert (HCI : cc_idle c).
      { rewrite I2 in EN. apply nth_error_In in EN. rewrite Forall_forall in Hccs. apply Hccs. exact EN. }
      rewrite (cc_flush_idle (y_msi y) c HCI). reflexivity.
    - specialize (C3 eq_refl).
      change (g_co (eu_of e)) with (co_of (h_co e)).
      destruct HC as [HC|HC]; rewrite HC in C3 |- *; cbn [co_of].
      + rewrite C1, pick8_nil. unfold bb_get in C3 |- *.
        destruct (bb_q (x_ebus (y_x y))) as [|r q'] eqn:EQ; [reflexivity|].
        pose proof HI as (I1 & I2 & (P1 & P2 & P3 & P4 & P5)).
        assert (HN : NM r). { destruct P4 as [_ P4]. rewrite EQ in P4. inversion P4; assumption. }
        exact (eu_prepare_sim labels ord cycle
                 (set_x y (set_ebus3 (y_x y) (mk_bb (bb_buf (x_ebus (y_x y))) q' (bb_ql (x_ebus (y_x y))) (bb_bl (x_ebus (y_x y))))))
                 i (mk_eu8 HPrepare (h_memory e) (Some r) (h_seq e))
                 (runner_some _ _ _ _ _ (conj HN (C3 r _ eq_refl)))).
      + apply eu_prepare_sim. intros r Hr. split; [apply HR; exact Hr|apply C3; exact Hr].
  Qed.
End Units.

Print Assumptions eu_run_sim.
Print Assumptions eu_prepare_sim.
Print Assumptions eu_cycle_sim.
