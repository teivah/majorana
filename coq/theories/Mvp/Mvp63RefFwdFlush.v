(* Refinement of MVP-6.3 to the sequential machine on single-assignment register-only programs with FORWARD
   control flow - the two flush loops of Run.

   Instruction E of the segment (a jump or a taken conditional branch, target: instruction t) reported a flush.
   The main loop handed over to the mode  NFlushE (sid E) (pcz t) from  and the invariant GF3 of
   Mvp63RefFwdDefs.v holds.  From there:

     step_E   one tick in mode NFlushE: every execute unit is idle and is skipped, writeBus.Connect moves the
              whole buffer (at most two entries) to the queue; when the write bus is empty CPU.flush runs at
              once (Fresh3), otherwise mode NFlushW 0 with 1..2 entries in the queue;
     step_W   one tick in mode NFlushW k: write unit k takes the oldest entry of the queue.  An entry wbq w with
              w <= E is written back (TabOK advances by tab_write / tab_nowrite of Mvp63RefFwdRat.v), an entry of
              the wrong path (tag above sid E) is dropped; when the queue is empty afterwards CPU.flush runs
              (Fresh3 by tab_rebase), otherwise the mode stays NFlushW k with one entry less;
     flush_W  induction on the number of entries left on the write bus;
     flush_run_tight   GF3 -> Fresh3 after k ticks, 1 <= k <= 3 (one tick NFlushE, at most two entries: the queue
              is empty in mode NFlushE and the buffer holds at most 2, the buffer is empty in mode NFlushW
              and the queue holds at most bb_ql = 2; the tick that empties the queue also does CPU.flush);
     flush_run         the same with 8, the ticks seg_bound63 sets aside for the flush loops.

   The premise sqx < 2147483647 of every lemma from fresh_of on: CPU.flush increments ctx.sequenceID with int32
   arithmetic (inc_seq3 = addS 32 (x_seq x) 1) and Fresh3 asks for x_seq = sqx + 1; GF3 bounds sqx from below only. *)
From Coq Require Import ZArith List Bool Lia Permutation.
From Maj Require Import Mvp.Mvp60Proofs.
From Maj Require Import Base.Outcome Base.GoInt Base.GoTypes Isa.Spec Isa.Embed Isa.Seq Isa.Refine.
From Maj Require Import Gen.Latency Gen.RiscTables Gen.Opcodes Comp.Cache Comp.Rat Comp.RatProofs.
From Maj Require Import Mvp.Mvp12 Mvp.Mvp12Proofs Mvp.Mvp3 Mvp.Mvp3Proofs Mvp.Mvp4Skel Mvp.Mvp4Inv Mvp.Mvp5 Mvp.Mvp60
     Mvp.Mvp60RefSem Mvp.Mvp60RefDefs Mvp.Mvp60RefFront Mvp.Mvp60RefBack Mvp.Mvp60RefStep Mvp.Mvp60RefStep2
     Mvp.Mvp63 Mvp.Mvp63Proofs Mvp.Mvp63RefDefs Mvp.Mvp63RefInv Mvp.Mvp63RefExec Mvp.Mvp63RefRat Mvp.Mvp63RefStep
     Mvp.Mvp63RefFwdDefs Mvp.Mvp63RefFwdRat Mvp.Mvp63RefFwdExec.
Import ListNotations.
Open Scope Z_scope.

(* ------------------------------------------------------------------ *)
(* generic facts                                                        *)

Lemma Forall_skipn3 {A} (P : A -> Prop) k : forall l, Forall P l -> Forall P (skipn k l).
Proof.
  induction k as [|k IH]; intros l H; [exact H|]. destruct l as [|a l]; [constructor|].
  cbn [skipn]. apply IH. inversion H; assumption.
Qed.

Lemma skipn_cons3 {A} k (l : list A) : (k < length l)%nat -> exists a r, skipn k l = a :: r.
Proof.
  intros H. destruct (skipn k l) as [|a r] eqn:E; [|eauto].
  apply (f_equal (@length A)) in E. rewrite skipn_length in E. cbn [length] in E. lia.
Qed.

Lemma clean_new3 {T} (b : bbus T) : bb_ql b = 2 -> bb_bl b = 2 -> bb_clean b = bb_new 2 2.
Proof. intros A B. unfold bb_clean, bb_new. rewrite A, B. reflexivity. Qed.

(* the mode is that of the loop of a write unit *)
Definition isW (s : st3) : Prop := match t_mode s with NFlushW _ _ _ _ _ => True | _ => False end.
(* entries on the write bus *)
Definition wlen (s : st3) : nat := length (flat (m_wbus (x_m (t_x s)))).

(* the write bus without the head of its queue *)
Definition wb_tl (x : mx) (q' : list wb6) : mach :=
  set_wbus (x_m x) (mk_bb (bb_buf (m_wbus (x_m x))) q' (bb_ql (m_wbus (x_m x))) (bb_bl (m_wbus (x_m x)))).

(* ------------------------------------------------------------------ *)
(* writeUnit.Cycle drops an entry of the wrong path                     *)

Lemma wu3_drop x wu before c q' : u_co wu = WNone -> bb_q (m_wbus (x_m x)) = c :: q' ->
  before <> -1 -> before < w_seq c -> wu_cycle3 x wu before = Ok (set_m x (wb_tl x q'), wu).
Proof.
  intros H Hq H1 H2. unfold wu_cycle3, bb_get. rewrite H, Hq.
  assert (E1 : (before =? -1) = false) by (apply Z.eqb_neq; exact H1).
  assert (E2 : (before <? w_seq c) = true) by (apply Z.ltb_lt; exact H2).
  rewrite E1, E2. reflexivity.
Qed.

Section Flush.
  Variables (app : list instr) (labels : Z -> option Z) (regs0 mem0 : list Z) (base : nat) (sq : Z)
            (ord : Z -> Z -> list Z -> list Z).
  Hypothesis Happ : wf_app app.
  Hypothesis Hreg : reg_only app = true.
  Hypothesis Hrng : regs_ok app = true.
  Hypothesis Hlen0 : length regs0 = 32%nat.
  Hypothesis Hx0 : nth 0 regs0 0 = 0.
  Hypothesis Hbase : (base <= length app)%nat.
  Hypothesis Hsq : 0 <= sq.
  Let n := length app.
  Let N := stop_from app base.
  Hypothesis Hsem : forall k, (base <= k <= N)%nat -> (k < n)%nat ->
    exec (sinstr_of (ik app k)) (rget (sreg app labels regs0 base k)) labels (pcz k) [] = Ok (eff app labels regs0 base k) /\
    (forall a, etarget (eff app labels regs0 base k) = Some a -> exists t, a = pcz t /\ (k < t <= n)%nat).

  Notation sreg := (sreg app labels regs0 base).
  Notation TabOK := (TabOK app labels regs0 base sq).
  Notation exeb := (exeb app labels regs0 base).
  Notation wbq := (wbq app labels regs0 base sq).
  Notation sid := (sid sq).
  Notation GF3 := (GF3 app labels regs0 mem0 base sq).
  Notation Fresh3 := (Fresh3 app labels mem0).
  Notation step3 := (step3 app labels ord).

  Lemma run_S s s' fuel : step3 s = TCont s' -> run3_st (S fuel) app labels ord s = run3_st fuel app labels ord s'.
  Proof. intros H. cbn [run3_st]. rewrite H. reflexivity. Qed.

  (* ---------------------------------------------------------------- *)
  (* idle execute units inside the flush loop                          *)

  Lemma eus_flush_idle from x acc : forall eus, Forall EuIdle eus ->
    eus_flush3 labels ord from x eus acc = (false, Ok (x, eus, acc)).
  Proof.
    induction 1 as [|e t [He _] _ IH]; [reflexivity|]. cbn [eus_flush3]. unfold eu_empty3. rewrite He, IH. reflexivity.
  Qed.

  (* ---------------------------------------------------------------- *)
  (* GF3 is carried to a state that differs in the write bus, the tables, the scoreboard, the cycle, the mode *)

  Lemma GF3_frame w w' E t sqx s s' : GF3 w E t sqx s ->
    (base <= w' <= S E)%nat ->
    (exists junk, flat (m_wbus (x_m (t_x s'))) = map wbq (seq w' (S E - w')) ++ junk /\
                  Forall (fun c => sid E < w_seq c) junk) ->
    BusOK (t_cycle s') (m_wbus (x_m (t_x s'))) ->
    TabOK w' (x_crat (t_x s')) (x_trat (t_x s')) ->
    ((exists from, t_mode s' = NFlushE (sid E) (pcz t) from /\
                   bb_q (m_wbus (x_m (t_x s'))) = [] /\ blen (m_wbus (x_m (t_x s'))) <= 2) \/
     (exists k from, t_mode s' = NFlushW k (sid E) (pcz t) from true /\ (k < length (t_wus s'))%nat /\
                     bb_buf (m_wbus (x_m (t_x s'))) = [])) ->
    x_fwd (t_x s') = x_fwd (t_x s) -> x_seq (t_x s') = x_seq (t_x s) ->
    x_chan (t_x s') = x_chan (t_x s) -> x_next (t_x s') = x_next (t_x s) ->
    m_regs (x_m (t_x s')) = m_regs (x_m (t_x s)) -> m_mem (x_m (t_x s')) = m_mem (x_m (t_x s)) ->
    m_l3 (x_m (t_x s')) = m_l3 (x_m (t_x s)) -> x_os (t_x s') = x_os (t_x s) ->
    m_l1i (x_m (t_x s')) = m_l1i (x_m (t_x s)) -> m_bu (x_m (t_x s')) = m_bu (x_m (t_x s)) ->
    x_ebus (t_x s') = x_ebus (t_x s) -> m_dbus (x_m (t_x s')) = m_dbus (x_m (t_x s)) ->
    m_cbus (x_m (t_x s')) = m_cbus (x_m (t_x s)) -> m_ebus (x_m (t_x s')) = m_ebus (x_m (t_x s)) ->
    t_eus s' = t_eus s -> t_wus s' = t_wus s ->
    GF3 w' E t sqx s'.
  Proof.
    intros G Hw Hbus Hbw Htab Hmode E1 E2 E3 E4 E5 E6 E7 E8 E9 E10 E11 E12 E13 E14 E15 E16.
    destruct G as [GE Gex Gout _ _ _ Gfwd Gseq Gchan Gregs Gmem Gl3 Gos Gl1 Gbtb Gebl Gmb Geus Gst Gwus Gwne Glen _].
    constructor; rewrite ?E1, ?E2, ?E3, ?E4, ?E5, ?E6, ?E7, ?E8, ?E9, ?E10, ?E11, ?E12, ?E13, ?E14, ?E15, ?E16; try assumption.
    - destruct GE as (_ & G2). split; [exact Hw | exact G2].
    - rewrite E16 in Hmode. exact Hmode.
  Qed.

  (* ---------------------------------------------------------------- *)
  (* CPU.flush once everything up to E has been written back            *)

  Lemma fresh_of E t sqx s : sqx < 2147483647 -> GF3 (S E) E t sqx s ->
    Fresh3 t (sqx + 1) (sreg (S E))
      (mk_st3 (do_flush3 (t_x s) (pcz t)) (map eu_flush3 (t_eus s)) (t_wus s) (t_cycle s + Flush) NNormal).
  Proof.
    intros Hsqx [GE Gex Gout Gwb Gbw Gtab Gfwd [Gseq Gsq] Gchan Gregs Gmem Gl3 Gos Gl1 Gbtb [Ge1 Ge2] Gmb Geus Gst Gwus Gwne Glen _].
    destruct Gmb as (P1 & P2 & P3 & P4 & P5 & P6). destruct Gbw as [B1 B2 _ _].
    destruct GE as (Hw & HEN & HEn & HEt).
    assert (Hinc : addS 32 sqx 1 = sqx + 1).
    { unfold addS. apply wrapS_id; [lia|]. unfold inS. change (2 ^ (32 - 1)) with 2147483648. clear - Hsq Gsq Hsqx. lia. }
    constructor;
      cbn [t_x t_eus t_wus t_cycle t_mode do_flush3 inc_seq3 set_pcb3 set_prev3 set_pend3 set_ebus3 set_seq3 set_m
           x_m x_ebus x_pend x_prev x_pcb x_seq x_crat x_trat x_fwd x_chan x_next x_os
           do_flush6 m_regs m_mem m_pw m_pr m_l3 m_fu m_l1i m_dret m_dpbr m_cu m_bu m_dbus m_cbus m_ebus m_wbus
           fu_flush6 f_pc f_complete f_co]; try assumption; try reflexivity.
    - apply clean_new3; assumption.
    - apply clean_new3; assumption.
    - apply clean_new3; assumption.
    - apply clean_new3; assumption.
    - apply clean_new3; assumption.
    - rewrite Gseq. exact Hinc.
    - apply (tab_rebase app labels regs0 base Hlen0 sq (S E)); [exact Gtab|]. unfold Mvp63RefFwdDefs.sid, sid3, pcz. clear - Gsq HEt. lia.
    - apply Forall_forall. intros e He. apply in_map_iff in He as (e0 & <- & He0).
      rewrite Forall_forall in Geus. destruct (Geus e0 He0) as [_ A]. split; [reflexivity | exact A].
    - apply Forall_forall. intros e He. apply in_map_iff in He as (e0 & <- & He0).
      rewrite Forall_forall in Gst. intros r Hr. cbn [eu_flush3 g_runner] in Hr. pose proof (Gst e0 He0 r Hr) as Hlt.
      unfold Mvp63RefFwdDefs.sid, sid3, pcz in *. clear - Hlt Gsq HEt. lia.
    - rewrite map_length. exact Glen.
  Qed.

  (* ---------------------------------------------------------------- *)
  (* after a call of write unit k: the loop condition of the write units, `if isEmpty { break }`, m.flush *)

  Lemma advance_W w E t sqx x eus wus cy md0 k from : sqx < 2147483647 ->
    GF3 w E t sqx (mk_st3 x eus wus cy (NFlushW k (sid E) (pcz t) from true)) ->
    exists s', flush_advance3 (mk_st3 x eus wus cy md0) k (sid E) (pcz t) from true = TCont s' /\
      ((s' = mk_st3 x eus wus cy (NFlushW k (sid E) (pcz t) from true) /\ flat (m_wbus (x_m x)) <> []) \/
       Fresh3 t (sqx + 1) (sreg (S E)) s').
  Proof.
    intros Hsqx G. pose proof (f3_mode _ _ _ _ _ _ _ _ _ _ _ G) as Hm. cbn [t_mode t_x t_wus] in Hm.
    destruct Hm as [(fr & Hm & _)|(k0 & fr & Hm & Hk & Hbuf)]; [discriminate|]. injection Hm as <- <-.
    pose proof (f3_wus _ _ _ _ _ _ _ _ _ _ _ G) as GW. cbn [t_wus] in GW.
    unfold flush_advance3. cbn [t_x t_eus t_wus t_cycle].
    destruct (bb_q (m_wbus (x_m x))) as [|c q'] eqn:Eq.
    - assert (Hemp : bb_isempty (m_wbus (x_m x)) = true) by (unfold bb_isempty; rewrite Eq, Hbuf; reflexivity).
      rewrite Hemp, (flush_next_none _ k (Forall_skipn3 _ k _ GW)). eexists. split; [reflexivity|]. right.
      destruct (f3_wbus _ _ _ _ _ _ _ _ _ _ _ G) as (junk & Hfl & _). cbn [t_x] in Hfl.
      unfold flat in Hfl. rewrite Eq, Hbuf in Hfl. cbn [map List.app] in Hfl. symmetry in Hfl.
      apply app_eq_nil in Hfl as [Hfl _]. apply map_eq_nil in Hfl. apply (f_equal (@length nat)) in Hfl.
      rewrite seq_length in Hfl. cbn [length] in Hfl.
      pose proof (f3_E _ _ _ _ _ _ _ _ _ _ _ G) as (Hw & _).
      assert (HwE : w = S E) by lia. subst w.
      exact (fresh_of E t sqx _ Hsqx G).
    - assert (Hemp : bb_isempty (m_wbus (x_m x)) = false) by (unfold bb_isempty; rewrite Eq; reflexivity).
      rewrite Hemp. destruct (skipn_cons3 k wus Hk) as (a & r & Esk). rewrite Esk, flush_next_some.
      eexists. split; [reflexivity|]. left. split; [reflexivity|]. unfold flat. rewrite Eq. discriminate.
  Qed.

  (* ---------------------------------------------------------------- *)
  (* one tick in mode NFlushE                                          *)

  Lemma step_E w E t sqx s from : sqx < 2147483647 -> GF3 w E t sqx s -> t_mode s = NFlushE (sid E) (pcz t) from ->
    exists s', step3 s = TCont s' /\
      (Fresh3 t (sqx + 1) (sreg (S E)) s' \/ (GF3 w E t sqx s' /\ isW s' /\ (1 <= wlen s' <= 2)%nat)).
  Proof.
    intros Hsqx G Hmode. destruct s as [x eus wus cy md]. cbn [t_mode] in Hmode. subst md.
    pose proof (f3_mode _ _ _ _ _ _ _ _ _ _ _ G) as Hm. cbn [t_mode t_x t_wus] in Hm.
    destruct Hm as [(fr & _ & Hq & Hbl)|(k0 & fr & Hm & _)]; [|discriminate].
    pose proof (f3_eus _ _ _ _ _ _ _ _ _ _ _ G) as GE. cbn [t_eus] in GE.
    pose proof (f3_bw _ _ _ _ _ _ _ _ _ _ _ G) as GB. cbn [t_cycle t_x] in GB.
    pose proof (f3_wne _ _ _ _ _ _ _ _ _ _ _ G) as GWne. cbn [t_wus] in GWne.
    assert (GB1 : BusOK (cy + 1) (m_wbus (x_m x))) by (eapply busok_mono; [|exact GB]; lia).
    destruct (connect_allq (cy + 1) (m_wbus (x_m x)) GB1 Hq Hbl) as (Q1 & Q2 & Q3 & Q4).
    destruct (connect_spec (cy + 1) (m_wbus (x_m x)) GB1) as (W1 & W2 & _).
    unfold Mvp63.step3. cbn [t_mode t_x t_eus t_wus t_cycle]. rewrite (eus_flush_idle from x _ eus GE).
    cbv beta iota zeta. cbn [orb res_of3 a_err a_seq a_pc a_empty]. rewrite or_os_false.
    set (x1 := wbus_connect3 x (cy + 1 + 1)).
    assert (G1 : GF3 w E t sqx (mk_st3 x1 eus wus (cy + 1) (NFlushW 0 (sid E) (pcz t) from true))).
    { eapply (GF3_frame w w E t sqx _ _ G); cbn [t_x t_eus t_wus t_cycle t_mode]; try reflexivity.
      - apply (f3_E _ _ _ _ _ _ _ _ _ _ _ G).
      - unfold x1. cbn [wbus_connect3 set_m x_m set_wbus m_wbus]. rewrite W1. exact (f3_wbus _ _ _ _ _ _ _ _ _ _ _ G).
      - unfold x1. cbn [wbus_connect3 set_m x_m set_wbus m_wbus]. exact W2.
      - unfold x1. cbn [wbus_connect3 set_m x_crat x_trat]. exact (f3_tab _ _ _ _ _ _ _ _ _ _ _ G).
      - right. exists O, from. split; [reflexivity|]. split.
        + destruct wus; [contradiction | cbn [length]; lia].
        + unfold x1. cbn [wbus_connect3 set_m x_m set_wbus m_wbus]. exact Q2. }
    destruct (advance_W w E t sqx x1 eus wus (cy + 1) (NFlushE (sid E) (pcz t) from) 0 from Hsqx G1) as (s' & Eadv & Hs').
    exists s'. split; [exact Eadv|]. destruct Hs' as [[-> Hne]|HF]; [right | left; exact HF].
    split; [exact G1|]. split; [exact I|]. unfold wlen. cbn [t_x].
    unfold x1 in *. cbn [wbus_connect3 set_m x_m set_wbus m_wbus] in *.
    assert (Hl : (length (flat (bb_connect (m_wbus (x_m x)) (cy + 1 + 1))) <= 2)%nat).
    { rewrite W1. unfold flat. rewrite Hq. cbn [List.app]. rewrite map_length. unfold blen, zlen in Hbl. lia. }
    destruct (flat (bb_connect (m_wbus (x_m x)) (cy + 1 + 1))); [contradiction | cbn [length] in *; lia].
  Qed.

  (* ---------------------------------------------------------------- *)
  (* one tick in mode NFlushW                                          *)

  Lemma step_W w E t sqx s : sqx < 2147483647 -> GF3 w E t sqx s -> isW s ->
    exists s', step3 s = TCont s' /\
      (Fresh3 t (sqx + 1) (sreg (S E)) s' \/
       exists w', GF3 w' E t sqx s' /\ isW s' /\ (1 <= wlen s' < wlen s)%nat).
  Proof.
    intros Hsqx G HW. destruct s as [x eus wus cy md]. unfold isW in HW. cbn [t_mode] in HW.
    pose proof (f3_mode _ _ _ _ _ _ _ _ _ _ _ G) as Hm. cbn [t_mode t_x t_wus] in Hm.
    destruct Hm as [(fr & Hm & _)|(k & from & Hm & Hk & Hbuf)]; [rewrite Hm in HW; destruct HW|]. subst md. clear HW.
    pose proof (f3_wus _ _ _ _ _ _ _ _ _ _ _ G) as GW. cbn [t_wus] in GW.
    pose proof (f3_bw _ _ _ _ _ _ _ _ _ _ _ G) as GB. cbn [t_cycle t_x] in GB.
    pose proof (f3_E _ _ _ _ _ _ _ _ _ _ _ G) as (Hw & HEN & HEn & HEt).
    pose proof (f3_tab _ _ _ _ _ _ _ _ _ _ _ G) as GT. cbn [t_x] in GT.
    destruct (nth_error wus k) as [wu|] eqn:Enth; [|apply nth_error_None in Enth; lia].
    assert (Hco : u_co wu = WNone) by (rewrite Forall_forall in GW; apply GW; eapply nth_error_In; exact Enth).
    unfold Mvp63.step3. cbn [t_mode t_x t_eus t_wus t_cycle]. rewrite Enth.
    (* what is common to the three cases: the state after the call, its invariant, flush_advance3 *)
    assert (Hfin : forall x' w', wu_cycle3 x wu (sid E) = Ok (x', wu) ->
              GF3 w' E t sqx (mk_st3 x' eus wus cy (NFlushW k (sid E) (pcz t) from true)) ->
              (length (flat (m_wbus (x_m x'))) < length (flat (m_wbus (x_m x))) \/ flat (m_wbus (x_m x')) = [])%nat ->
              exists s', res_of3 (x_os x) (wu_cycle3 x wu (sid E)) (fun r =>
                           flush_advance3 (mk_st3 (fst r) eus (set_nth6 wus k (snd r)) cy (NFlushW k (sid E) (pcz t) from true))
                                          k (sid E) (pcz t) from true) = TCont s' /\
                (Fresh3 t (sqx + 1) (sreg (S E)) s' \/
                 exists w', GF3 w' E t sqx s' /\ isW s' /\
                   (1 <= wlen s' < wlen (mk_st3 x eus wus cy (NFlushW k (sid E) (pcz t) from true)))%nat)).
    { intros x' w' Ew G' Hlen. rewrite Ew. cbn [res_of3 fst snd]. rewrite (set_nth6_same wus k wu Enth).
      destruct (advance_W w' E t sqx x' eus wus cy (NFlushW k (sid E) (pcz t) from true) k from Hsqx G') as (s' & Eadv & Hs').
      exists s'. split; [exact Eadv|]. destruct Hs' as [[-> Hne]|HF]; [right | left; exact HF].
      exists w'. split; [exact G'|]. split; [exact I|]. unfold wlen. cbn [t_x].
      destruct Hlen as [Hlen|Hlen]; [|contradiction].
      destruct (flat (m_wbus (x_m x'))); [contradiction | cbn [length] in *; lia]. }
    destruct (bb_q (m_wbus (x_m x))) as [|c q'] eqn:Eq.
    - (* nothing on the bus *)
      apply (Hfin x w (wu_idle3 x wu (sid E) Hco Eq) G). right. unfold flat. rewrite Eq, Hbuf. reflexivity.
    - destruct (f3_wbus _ _ _ _ _ _ _ _ _ _ _ G) as (junk & Hfl & Hj). cbn [t_x] in Hfl.
      assert (Hfl0 : flat (m_wbus (x_m x)) = c :: q') by (unfold flat; rewrite Eq, Hbuf; cbn [map]; apply app_nil_r).
      rewrite Hfl0 in Hfl.
      assert (Hflat' : forall m', m_wbus m' = m_wbus (wb_tl x q') -> flat (m_wbus m') = q').
      { intros m' ->. unfold wb_tl, flat. cbn [set_wbus m_wbus bb_q bb_buf]. rewrite Hbuf. cbn [map]. apply app_nil_r. }
      assert (Hbus' : forall m', m_wbus m' = m_wbus (wb_tl x q') -> BusOK cy (m_wbus m')).
      { intros m' ->. unfold wb_tl. cbn [set_wbus m_wbus].
        eapply BusOK_frame; [| | | |exact GB]; cbn [bb_buf bb_ql bb_bl]; try reflexivity.
        unfold qlen. cbn [bb_q]. rewrite Eq, zlen_cons. lia. }
      assert (Hmode' : forall m', m_wbus m' = m_wbus (wb_tl x q') ->
                (exists fr, NFlushW k (sid E) (pcz t) from true = NFlushE (sid E) (pcz t) fr /\
                            bb_q (m_wbus m') = [] /\ blen (m_wbus m') <= 2) \/
                (exists k0 fr, NFlushW k (sid E) (pcz t) from true = NFlushW k0 (sid E) (pcz t) fr true /\
                               (k0 < length wus)%nat /\ bb_buf (m_wbus m') = [])).
      { intros m' ->. right. exists k, from. split; [reflexivity|]. split; [exact Hk|].
        unfold wb_tl. cbn [set_wbus m_wbus bb_buf]. exact Hbuf. }
      destruct (S E - w)%nat as [|m] eqn:Em.
      + (* an entry of the wrong path: dropped *)
        cbn [seq map List.app] in Hfl. subst junk. assert (HwE : w = S E) by lia. subst w.
        assert (Hc : sid E < w_seq c) by (inversion Hj; assumption).
        assert (Hnn : 0 <= sid E) by (unfold Mvp63RefFwdDefs.sid, sid3, pcz; clear - Hsq; lia).
        assert (Ew : wu_cycle3 x wu (sid E) = Ok (set_m x (wb_tl x q'), wu)).
        { apply (wu3_drop x wu (sid E) c q' Hco Eq); [lia | exact Hc]. }
        apply (Hfin _ (S E) Ew).
        * eapply (GF3_frame (S E) (S E) E t sqx _ _ G); cbn [t_x t_eus t_wus t_cycle t_mode set_m x_m x_crat x_trat]; try reflexivity.
          -- lia.
          -- exists q'. split; [|inversion Hj; assumption]. rewrite Hflat' by reflexivity.
             replace (S E - S E)%nat with O by lia. reflexivity.
          -- apply Hbus'. reflexivity.
          -- exact GT.
          -- apply Hmode'. reflexivity.
        * left. cbn [set_m x_m]. rewrite Hflat' by reflexivity. rewrite Hfl0. cbn [length]. lia.
      + (* the result of instruction w <= E: written back *)
        cbn [seq map List.app] in Hfl. injection Hfl as Hc Hq'. subst c.
        assert (HwE : (w <= E)%nat) by lia.
        assert (Hjunk' : exists junk0, q' = map wbq (seq (S w) (S E - S w)) ++ junk0 /\ Forall (fun c0 => sid E < w_seq c0) junk0).
        { exists junk. split; [|exact Hj]. rewrite Hq'. f_equal. f_equal. f_equal. lia. }
        assert (Ew : wu_cycle3 x wu (sid E) = Ok (wu_took app labels regs0 base sq x w q', wu)).
        { apply (wu_take_gen app labels regs0 base sq Hreg Hsem x wu w q' (sid E) Hco Eq); [fold N; lia | fold n; lia|].
          right. apply sid_le. exact HwE. }
        pose proof (TabOK_wb app labels regs0 base sq Hrng Hlen0 Hx0 w _ _ GT ltac:(lia)) as GT'.
        apply (Hfin _ (S w) Ew).
        * eapply (GF3_frame w (S w) E t sqx _ _ G); cbn [t_x t_eus t_wus t_cycle t_mode]; try reflexivity;
            try (unfold wu_took; destruct (RegisterChange (exeb w)); reflexivity).
          -- lia.
          -- rewrite Hflat' by reflexivity. exact Hjunk'.
          -- apply Hbus'. reflexivity.
          -- unfold wu_took. destruct (RegisterChange (exeb w)); exact GT'.
          -- apply Hmode'. reflexivity.
        * left. rewrite Hflat' by reflexivity. rewrite Hfl0. cbn [length]. lia.
  Qed.

  (* ---------------------------------------------------------------- *)
  (* the loops of the write units, by induction on the entries left     *)

  Lemma flush_W : forall (m w E t : nat) sqx s, sqx < 2147483647 -> GF3 w E t sqx s -> isW s -> (wlen s <= m)%nat ->
    exists k s', (1 <= k <= Nat.max 1 m)%nat /\
      (forall extra, run3_st (k + extra) app labels ord s = run3_st extra app labels ord s') /\
      Fresh3 t (sqx + 1) (sreg (S E)) s'.
  Proof.
    induction m as [|m IH]; intros w E t sqx s Hsqx G HW Hl.
    - destruct (step_W w E t sqx s Hsqx G HW) as (s' & Es & [HF|(w' & _ & _ & Hlen)]); [|lia].
      exists 1%nat, s'. split; [lia|]. split; [|exact HF]. intros extra. apply run_S. exact Es.
    - destruct (step_W w E t sqx s Hsqx G HW) as (s' & Es & [HF|(w' & G' & HW' & Hlen)]).
      + exists 1%nat, s'. split; [lia|]. split; [|exact HF]. intros extra. apply run_S. exact Es.
      + destruct (IH w' E t sqx s' Hsqx G' HW' ltac:(lia)) as (k & s'' & Hk & Hrun & HF).
        exists (S k), s''. split; [lia|]. split; [|exact HF]. intros extra.
        change (S k + extra)%nat with (S (k + extra)). rewrite (run_S s s' _ Es). apply Hrun.
  Qed.

  Lemma wlen_W w E t sqx s : GF3 w E t sqx s -> isW s -> (wlen s <= 2)%nat.
  Proof.
    intros G HW. pose proof (f3_mode _ _ _ _ _ _ _ _ _ _ _ G) as Hm. unfold isW in HW.
    destruct Hm as [(fr & Hm & _)|(k & from & _ & _ & Hbuf)]; [rewrite Hm in HW; destruct HW|].
    destruct (f3_bw _ _ _ _ _ _ _ _ _ _ _ G) as [_ _ Hq _]. unfold wlen, flat. rewrite Hbuf. cbn [map].
    rewrite app_nil_r. unfold qlen, zlen in Hq. lia.
  Qed.

  (* ---------------------------------------------------------------- *)
  (* from the request of the flush to the state right after CPU.flush   *)

  Theorem flush_run_tight w E t sqx s : sqx < 2147483647 -> GF3 w E t sqx s ->
    exists k s', (1 <= k <= 3)%nat /\
      (forall extra, run3_st (k + extra) app labels ord s = run3_st extra app labels ord s') /\
      Fresh3 t (sqx + 1) (sreg (S E)) s'.
  Proof.
    intros Hsqx G. destruct (f3_mode _ _ _ _ _ _ _ _ _ _ _ G) as [(from & Hm & _)|(k & from & Hm & _)].
    - destruct (step_E w E t sqx s from Hsqx G Hm) as (s1 & Es & [HF|(G1 & HW1 & Hl1)]).
      + exists 1%nat, s1. split; [lia|]. split; [|exact HF]. intros extra. apply run_S. exact Es.
      + destruct (flush_W 2 w E t sqx s1 Hsqx G1 HW1 ltac:(lia)) as (k & s2 & Hk & Hrun & HF).
        exists (S k), s2. split; [lia|]. split; [|exact HF]. intros extra.
        change (S k + extra)%nat with (S (k + extra)). rewrite (run_S s s1 _ Es). apply Hrun.
    - assert (HW : isW s) by (unfold isW; rewrite Hm; exact I).
      destruct (flush_W 2 w E t sqx s Hsqx G HW (wlen_W w E t sqx s G HW)) as (k' & s2 & Hk & Hrun & HF).
      exists k', s2. split; [lia|]. split; [exact Hrun | exact HF].
  Qed.

  Theorem flush_run w E t sqx s : sqx < 2147483647 -> GF3 w E t sqx s ->
    exists k s', (1 <= k <= 8)%nat /\
      (forall extra, run3_st (k + extra) app labels ord s = run3_st extra app labels ord s') /\
      Fresh3 t (sqx + 1) (sreg (S E)) s'.
  Proof.
    intros Hsqx G. destruct (flush_run_tight w E t sqx s Hsqx G) as (k & s' & Hk & Hrun & HF).
    exists k, s'. split; [lia|]. split; [exact Hrun | exact HF].
  Qed.
End Flush.

Print Assumptions flush_run.
