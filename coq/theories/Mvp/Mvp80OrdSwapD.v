(* Soundness of the ghost flag of the model of MVP-8.0: two l1WriteBack closures of one snoop list that are
   about the two different 64-byte halves of ONE L3 line commute (sn_swap_stmt of Mvp80OrdCommDefs.v): both find the
   same line of the L3 (or both miss it), so the refresh of its LRU position by the first does not matter to the second;
   their stores go to different halves of that line, or of memory. *)
From Coq Require Import ZArith List Bool Lia.
From Maj Require Import Comp.MapFacts.
From Maj Require Import Base.Outcome Base.GoInt Base.GoTypes Isa.Spec Isa.Seq.
From Maj Require Import Gen.Latency Gen.RiscTables Gen.Opcodes Comp.Cache Comp.Rat Mvp.Mvp12 Mvp.Mvp3 Mvp.Mvp5 Mvp.Mvp60 Mvp.Mvp63 Mvp.Mvp80.
From Maj Require Import Mvp.Mvp80OrdSnoop Mvp.Mvp80OrdCache Mvp.Mvp80OrdInvDefs Mvp.Mvp80OrdCommDefs Mvp.Mvp80OrdCong Mvp.Mvp80OrdWf.
Import ListNotations.
Open Scope Z_scope.

Lemma zlen_upd : forall d n v, zlen (upd d n v) = zlen d.
Proof. exact MapFacts.zlen_upd. Qed.

Lemma is_l1_req_wb : forall k, ck_req k = rq_l1WriteBack -> is_l1_req k = true.
Proof. intros k E. unfold is_l1_req. rewrite E. reflexivity. Qed.

Lemma conflict_wb : forall k1 k2, ck_req k1 = rq_l1WriteBack -> ck_req k2 = rq_l1WriteBack ->
  sn_conflict k1 k2 = false -> l3_align (ck_addr k1) = l3_align (ck_addr k2).
Proof.
  intros k1 k2 E1 E2 H. unfold sn_conflict in H. rewrite E1, E2 in H.
  change (negb (l3_align (ck_addr k1) =? l3_align (ck_addr k2)) = false) in H.
  apply negb_false_iff in H. apply Z.eqb_eq in H. exact H.
Qed.

(* an aligned address found in the L1: the base of its line *)
Lemma l1_hit : forall ls a l, Forall (wf_line 64) ls -> fcov ls a = Some l -> l1_align a = a ->
  0 <= a /\ a + 64 < 2^31 /\ a mod 64 = 0 /\ zlen (data l) = 64.
Proof.
  intros ls a l W F A. destruct (fcov_some _ _ _ F) as [_ C]. pose proof (Forall_fcov _ _ _ _ W F) as Wl.
  pose proof (covers_align 64 l a n64 Wl C) as E. change (l1_align a = lo l) in E. rewrite A in E.
  destruct (covers_range 64 l a n64 Wl C) as (_ & _ & R). destruct Wl as (L & M & _ & D).
  rewrite Z.rem_mod_nonneg in M by lia. subst a. auto with zarith.
Qed.

Theorem swap_W1_W1 : forall k1 c1 x1 y1 z1 k2 c2 x2 y2 z2,
  sn_swap_stmt (SnL1WriteBack k1 c1 x1 y1 z1) (SnL1WriteBack k2 c2 x2 y2 z2).
Proof.
  intros k1 i1 x1 y1 z1 k2 i2 x2 y2 z2 [mem l3 k] c [[_ W3] _] [[_ W1] _] Ux Uy [Cf Ne].
  destruct (0 <? x1) eqn:X1.
  { apply (swap_idle_l _ _ (Some (SnL1WriteBack k1 i1 (x1 - 1) y1 z1))). intros w' c'. cbn [sn_step]. rewrite X1. reflexivity. }
  destruct (0 <? x2) eqn:X2.
  { apply (swap_idle_r _ _ (Some (SnL1WriteBack k2 i2 (x2 - 1) y2 z2))). intros w' c'. cbn [sn_step]. rewrite X2. reflexivity. }
  cbn [w_l3 w_msi] in *. change l3LineSize8 with 128 in W3. change l1dLineSize with 64 in W1.
  pose proof (unary_l1 _ _ _ Ux eq_refl) as Aa. pose proof (unary_l1 _ _ _ Uy eq_refl) as Ab.
  pose proof (unary_pget _ _ _ Ux) as P1. pose proof (unary_pget _ _ _ Uy) as P2.
  pose proof (conflict_wb _ _ (proj1 Ux) (proj1 Uy) Cf) as E3.
  specialize (Ne eq_refl eq_refl). cbn [sn_key] in *.
  pose proof (nocov_l1 _ _ _ W1 Aa Ab Ne) as NC. pose proof (nocov_sym _ _ _ NC) as NC'.
  unfold sn2. rewrite !sn_step_W1 by wfs. rewrite X1, X2.
  destruct (fcov (lines (c_l1d c)) (ck_addr k1)) as [la|] eqn:F1a; destruct (fcov (lines (c_l1d c)) (ck_addr k2)) as [lb|] eqn:F1b.
  - (* both lines are in the L1: the L3 has one line for both addresses, or none *)
    destruct (l1_hit _ _ _ W1 F1a Aa) as (Ra & Ra' & Ma & Da). destruct (l1_hit _ _ _ W1 F1b Ab) as (Rb & Rb' & Mb & Db).
    assert (SC : forall l, In l (lines l3) -> covers l (ck_addr k1) = covers l (ck_addr k2)).
    { intros l I. rewrite Forall_forall in W3. specialize (W3 l I).
      destruct (covers l (ck_addr k1)) eqn:Ca, (covers l (ck_addr k2)) eqn:Cb; try reflexivity.
      - rewrite (covers_same_align 128 l _ (ck_addr k2) n128 W3 Ca ltac:(lia) E3) in Cb. discriminate.
      - rewrite (covers_same_align 128 l _ (ck_addr k1) n128 W3 Cb ltac:(lia) (eq_sym E3)) in Ca. discriminate. }
    destruct (fcov_same_cover _ _ _ SC) as [F3 R3]. rewrite <- F3, <- R3, <- E3.
    destruct (fcov (lines l3) (ck_addr k1)) as [l|] eqn:F3a.
    + destruct (fcov_some _ _ _ F3a) as [I3 Ca]. pose proof Ca as Cb. rewrite (SC l I3) in Cb.
      pose proof (Forall_fcov _ _ _ _ W3 F3a) as WL.
      destruct (half_line la l _ (Forall_fcov _ _ _ _ W1 F1a) WL (proj2 (fcov_some _ _ _ F1a)) Ca Aa) as [_ Ha].
      destruct (half_line lb l _ (Forall_fcov _ _ _ _ W1 F1b) WL (proj2 (fcov_some _ _ _ F1b)) Cb Ab) as [_ Hb].
      destruct (0 <? z1) eqn:Z1; destruct (0 <? z2) eqn:Z2; go NC NC'; rewrite <- ?R3, <- ?E3; go NC NC'; fin NC.
      * unfold set_lines. cbn [nlines llen]. do 3 f_equal. apply sb_sb_comm_Z; [lia | lia |]. rewrite Da, Db. lia.
      * rewrite ?k_l3write_cmd_done, !cmd_done_setl3write.
        do 2 (apply set_l3write_equiv; [|reflexivity]). apply cmd_done_comm; assumption.
    + destruct (0 <? y1) eqn:Y1; destruct (0 <? y2) eqn:Y2; go NC NC'; rewrite <- ?F3; go NC NC'; fin NC.
      * apply sb_sb_comm_Z; [lia | lia |]. rewrite Da, Db. lia.
      * apply cmd_done_comm; assumption.
  - (* the line of the second closure is not in the L1: panic("memory address should exist") in both orders *)
    cbn [bind orel_sw].
    destruct (fcov (lines l3) (ck_addr k1)) as [l|] eqn:F3a;
      [pose proof (Forall_fcov _ _ _ _ W3 F3a) as WL; destruct (0 <? z1) | destruct (0 <? y1)]; go NC NC'; exact I.
  - cbn [bind orel_sw].
    destruct (fcov (lines l3) (ck_addr k2)) as [l|] eqn:F3b;
      [pose proof (Forall_fcov _ _ _ _ W3 F3b) as WL; destruct (0 <? z2) | destruct (0 <? y2)]; go NC NC'; exact I.
  - exact I.
Qed.

Print Assumptions swap_W1_W1.
