(* MVP-6.1 refinement: the control unit.  CUI is the invariant inside controlUnit.cycle (lp runners
   pushed so far in this cycle); handle_ok is one call of handleRunner with the bookkeeping of cycle();
   cu_pending_ok / cu_incoming_ok are its two loops. *)
From Coq Require Import ZArith List Bool Lia Permutation.
From Maj Require Import Base.Outcome Base.GoInt Base.GoTypes Isa.Spec Isa.Embed Isa.Seq Isa.Refine.
From Maj Require Import Gen.Latency Gen.RiscTables Gen.Opcodes Comp.Cache.
From Maj Require Import Mvp.Mvp12 Mvp.Mvp12Proofs Mvp.Mvp3 Mvp.Mvp3Proofs Mvp.Mvp4Skel Mvp.Mvp4Inv Mvp.Mvp5 Mvp.Mvp60 Mvp.Mvp61
     Mvp.Mvp60RefSem Mvp.Mvp60RefDefs Mvp.Mvp60RefFront Mvp.Mvp60RefBack Mvp.Mvp60RefStep
     Mvp.Mvp61RefSem Mvp.Mvp61RefFront Mvp.Mvp61RefBack Mvp.Mvp61RefInv.
Import ListNotations.
Open Scope Z_scope.

(* what the control unit leaves alone *)
Record CuFrame (m0 m : mach1) : Prop := mkCuF {
  cf_regs : m_regs (y_m m) = m_regs (y_m m0); cf_mem : m_mem (y_m m) = m_mem (y_m m0);
  cf_l1i : m_l1i (y_m m) = m_l1i (y_m m0); cf_l3 : m_l3 (y_m m) = m_l3 (y_m m0); cf_pend : m_pend (y_m m) = m_pend (y_m m0);
  cf_fu : m_fu (y_m m) = m_fu (y_m m0); cf_dret : m_dret (y_m m) = m_dret (y_m m0); cf_dpbr : m_dpbr (y_m m) = m_dpbr (y_m m0);
  cf_cu : m_cu (y_m m) = m_cu (y_m m0); cf_bu : m_bu (y_m m) = m_bu (y_m m0); cf_dbus : m_dbus (y_m m) = m_dbus (y_m m0);
  cf_cbus : m_cbus (y_m m) = m_cbus (y_m m0); cf_ebus : m_ebus (y_m m) = m_ebus (y_m m0); cf_wbus : m_wbus (y_m m) = m_wbus (y_m m0);
  cf_seq : x_seq (y_x m) = x_seq (y_x m0); cf_fwd : x_fwd (y_x m) = x_fwd (y_x m0); cf_xcu : x_cu (y_x m) = x_cu (y_x m0);
  cf_prev : x_prev (y_x m) = x_prev (y_x m0); cf_xcbus : x_cbus (y_x m) = x_cbus (y_x m0); cf_ch : x_ch (y_x m) = x_ch (y_x m0) }.

Lemma CuFrame_refl m : CuFrame m m.
Proof. constructor; reflexivity. Qed.
Lemma CuFrame_trans a b c : CuFrame a b -> CuFrame b c -> CuFrame a c.
Proof. intros [] []. constructor; congruence. Qed.
Lemma CuFrame_push1 m cy r : CuFrame m (push1 m cy r).
Proof. constructor; reflexivity. Qed.
Lemma CuFrame_setf m id : CuFrame m (setf m id).
Proof. constructor; reflexivity. Qed.
Lemma CuFrame_pcb m v : CuFrame m (set_x m (xs_pcb (y_x m) v)).
Proof. constructor; reflexivity. Qed.

Lemma BusOK_setf cy bus id ch : BusOK cy bus -> BusOK cy (set_forwarder bus id ch).
Proof.
  intros [H1 H2 H3 H4]. destruct (set_forwarder_len bus id ch) as (A & B & C & D & E). constructor; rewrite ?C, ?D, ?A; auto.
  apply Forall_forall. intros e He. assert (Hin : In (fst e) (map fst (bb_buf (set_forwarder bus id ch)))) by (apply in_map; exact He).
  rewrite E in Hin. apply in_map_iff in Hin as (e0 & E0 & Hin0). rewrite Forall_forall in H4. rewrite <- E0. apply H4. exact Hin0.
Qed.

Section Cu.
  Variables (app : list instr) (labels : Z -> option Z) (regs0 mem0 : list Z) (base : nat) (sq : Z).
  Hypothesis Happ : wf_app app.
  Hypothesis Hreg : reg_only app = true.
  Hypothesis Hrng : regs_in_range app = true.
  Hypothesis Hlen32 : length regs0 = 32%nat.
  Hypothesis Hbase : (base <= length app)%nat.
  Let n := length app.
  Let N := stop_from app base.
  Hypothesis Hsq : 0 <= sq /\ 1000 * sq + 4 * Z.of_nat n < 2147483648.

  Notation sreg := (sreg app labels regs0 base).
  Notation eff := (eff app labels regs0 base).
  Notation ik := (ik app).
  Notation rnq := (rnq app sq).
  Notation r1q := (r1q app sq).
  Notation CoreI := (CoreI app labels regs0 mem0 base sq).
  Notation BackSemF := (BackSemF app labels regs0 base).
  Notation FL1 := (FL1 sq).

  Hypothesis Hsem : forall k, (base <= k <= N)%nat -> (k < n)%nat ->
    exec (sinstr_of (ik k)) (rget (sreg k)) labels (pcz k) [] = Ok (eff k) /\
    (forall a, etarget (eff k) = Some a -> exists t, a = pcz t /\ (k < t <= n)%nat).

  Set Default Proof Using "All".
  Notation "'IA' L" := (L app labels regs0 mem0 base sq Happ Hreg Hrng Hlen32 Hbase Hsq Hsem) (at level 10, L at level 9, only parsing).

  (* inside controlUnit.cycle: lp runners pushed so far, cur = the objects pushed, P = the
     runner being handled; st = a forwarding channel has been made (the loops are over) *)
  Record CUI (cy : Z) (m0 : mach1) (d0 lp : nat) (cur : list runner1) (st : bool) (P : list runner1) (m : mach1) : Prop := mkCUI {
    cu_core : CoreI (d0 + lp) P m;
    cu_frame : CuFrame m0 m;
    cu_q : qlen (x_ebus (y_x m)) = qlen (x_ebus (y_x m0));
    cu_b : blen (x_ebus (y_x m)) = blen (x_ebus (y_x m0)) + Z.of_nat lp;
    cu_rb : map r_b (EB m) = map r_b (EB m0) ++ map rnq (seq d0 lp);
    cu_bus : BusOK cy (x_ebus (y_x m));
    cu_b2 : blen (x_ebus (y_x m)) <= 2;
    cu_prevF : st = false -> forall p, In p (x_prev (y_x m0)) -> In p (EB m) /\ r_fw p = None;
    cu_previd : forall p, In p (x_prev (y_x m0)) -> r_id p < x_nid (y_x m0);
    cu_cur : Forall (fun o => In o (map snd (bb_buf (x_ebus (y_x m)))) /\ r_fw o = None /\ x_nid (y_x m0) <= r_id o) cur;
    cu_nid : x_nid (y_x m0) <= x_nid (y_x m) }.

  Lemma EB_nil_empty m : FL1 m = [] -> bb_isempty (x_ebus (y_x m)) = true /\ EB m = [].
  Proof.
    intros H. unfold Mvp61RefInv.FL1 in H. apply app_eq_nil in H as [H _]. apply map_eq_nil in H. split; [|exact H].
    unfold EB in H. apply flat_nil_inv in H as [A B]. unfold bb_isempty. rewrite A, B. reflexivity.
  Qed.

  Lemma core_zero_sb d P m : CoreI d P m -> FL1 m = [] ->
    (forall s, nth s (m_pw (y_m m)) 0 <= 0) /\ (forall s, nth s (m_pr (y_m m)) 0 <= 0).
  Proof.
    intros HC HF. destruct (c_sem _ _ _ _ _ _ _ _ _ HC) as (fs & HS & _). rewrite HF in HS.
    assert (Hz : forall p, length p = 32%nat -> (forall s, (s < 32)%nat -> nth s p 0 = 0) -> forall s, nth s p 0 <= 0).
    { intros p Lp Hp0 s. destruct (Nat.lt_ge_cases s 32) as [Hs|Hs]; [rewrite Hp0 by exact Hs; lia|]. rewrite nth_overflow by lia. lia. }
    split; apply Hz.
    - apply (bf_pwlen _ _ _ _ _ _ _ _ _ _ HS).
    - intros s Hs. rewrite (bf_pw _ _ _ _ _ _ _ _ _ _ HS s Hs). reflexivity.
    - apply (bf_prlen _ _ _ _ _ _ _ _ _ _ HS).
    - intros s Hs. rewrite (bf_pr _ _ _ _ _ _ _ _ _ _ HS s Hs). reflexivity.
  Qed.

  Lemma core_pcb d P m : CoreI d P m -> (exists r, In r (EB m) /\ condbr (r_instr (r_b r)) = true) ->
    CoreI d P (set_x m (xs_pcb (y_x m) true)).
  Proof.
    intros [H1 H2 H3 H4 H5 H6 H7 H8 H9 H10 H11 H12 H13 H14] Hex.
    constructor; auto. eapply (IA ChI_ext); [| | |exact H11]; reflexivity.
  Qed.

  (* CUI after a push *)
  Lemma cui_push cy m0 d0 lp cur st r m : CUI cy m0 d0 lp cur st [r] m -> bb_canadd (x_ebus (y_x m)) = true ->
    CoreI (S (d0 + lp)) [] (push1 m cy r) -> forall st', (st' = false -> st = false) ->
    CUI cy m0 d0 (S lp) (cur ++ [pobj m r]) st' [] (push1 m cy r).
  Proof.
    intros [G1 G2 G3 G4 G5 G6 G7 G8 G9 G10 G11] Hadd HC st' Hst.
    pose proof (c_P _ _ _ _ _ _ _ _ _ G1) as HP. inversion HP as [|? ? (Hrb & Hrf & _) _]; subst.
    assert (Hb : blen (x_ebus (y_x (push1 m cy r))) = blen (x_ebus (y_x m)) + 1).
    { unfold blen, push1. cbn [y_x xs_nid xs_ebus x_ebus bb_add bb_buf]. rewrite zlen_app, zlen_cons, zlen_nil. lia. }
    assert (Hb2 : blen (x_ebus (y_x m)) < 2).
    { unfold bb_canadd in Hadd. apply negb_true_iff, Z.eqb_neq in Hadd. rewrite (bus_bl _ _ G6) in Hadd. unfold blen in *. lia. }
    constructor.
    - replace (d0 + S lp)%nat with (S (d0 + lp)) by lia. exact HC.
    - eapply CuFrame_trans; [exact G2 | apply CuFrame_push1].
    - rewrite <- G3. reflexivity.
    - rewrite Hb, G4. lia.
    - rewrite EB_push1, map_app, G5, seq_S, map_app, <- app_assoc. cbn [map pobj r_b]. rewrite Hrb. reflexivity.
    - unfold push1. cbn [y_x xs_nid xs_ebus x_ebus]. apply add_ok. exact G6.
    - rewrite Hb. lia.
    - intros E p Hp. destruct (G8 (Hst E) p Hp) as [A B]. split; [rewrite EB_push1; apply in_or_app; left; exact A | exact B].
    - exact G9.
    - apply Forall_app. split.
      + eapply Forall_impl; [|exact G10]. cbn beta. intros o (A & B & C). split; [|split; assumption].
        unfold push1. cbn [y_x xs_nid xs_ebus x_ebus bb_add bb_buf]. rewrite map_app. apply in_or_app. left. exact A.
      + constructor; [|constructor]. split; [|split].
        * unfold push1. cbn [y_x xs_nid xs_ebus x_ebus bb_add bb_buf]. rewrite map_app. apply in_or_app. right. left. reflexivity.
        * exact Hrf.
        * exact G11.
    - unfold push1. cbn [y_x xs_nid x_nid]. lia.
  Qed.

  (* CUI after the Forwarder update *)
  Lemma cui_setf cy m0 d0 lp cur P P' m p : CUI cy m0 d0 lp cur false P m -> In p (x_prev (y_x m0)) ->
    CoreI (d0 + lp) P' (setf m (r_id p)) -> CUI cy m0 d0 lp cur true P' (setf m (r_id p)).
  Proof.
    intros [G1 G2 G3 G4 G5 G6 G7 G8 G9 G10 G11] Hp HC.
    destruct (set_forwarder_len (x_ebus (y_x m)) (r_id p) (x_nch (y_x m))) as (A & B & C & D & E).
    constructor; auto.
    - eapply CuFrame_trans; [exact G2 | apply CuFrame_setf].
    - rewrite <- G3. exact A.
    - rewrite <- G4. exact B.
    - rewrite EB_setf. destruct (map_setfw_b (r_id p) (x_nch (y_x m)) (EB m)) as [Mb _]. rewrite Mb. exact G5.
    - apply BusOK_setf. exact G6.
    - unfold setf. cbn [y_x set_x xs_nch xs_ebus x_ebus]. rewrite B. exact G7.
    - discriminate.
    - eapply Forall_impl; [|exact G10]. cbn beta. intros o (Ha & Hb & Hc). split; [|split; assumption].
      unfold setf, set_forwarder. cbn [y_x set_x xs_nch xs_ebus x_ebus bb_buf]. rewrite map_map. cbn [snd].
      apply in_map_iff in Ha as (e & <- & He). apply in_map_iff. exists e. split; [|exact He].
      unfold setfw. destruct (Z.eqb_spec (r_id (snd e)) (r_id p)) as [Ei|Ei]; [|reflexivity]. specialize (G9 p Hp). lia.
  Qed.

  Lemma cui_pcb cy m0 d0 lp cur st P m : CUI cy m0 d0 lp cur st P m ->
    (exists r, In r (EB m) /\ condbr (r_instr (r_b r)) = true) -> CUI cy m0 d0 lp cur st P (set_x m (xs_pcb (y_x m) true)).
  Proof.
    intros [G1 G2 G3 G4 G5 G6 G7 G8 G9 G10 G11] Hex. constructor; auto.
    - apply core_pcb; assumption.
    - eapply CuFrame_trans; [exact G2 | apply CuFrame_pcb].
  Qed.

  Lemma cui_P cy m0 d0 lp cur st P P' m : CUI cy m0 d0 lp cur st P m -> CoreI (d0 + lp) P' m -> CUI cy m0 d0 lp cur st P' m.
  Proof. intros [G1 G2 G3 G4 G5 G6 G7 G8 G9 G10 G11] HC. constructor; auto. Qed.

  Lemma cui_st cy m0 d0 lp cur P m : CUI cy m0 d0 lp cur false P m -> CUI cy m0 d0 lp cur true P m.
  Proof. intros [G1 G2 G3 G4 G5 G6 G7 G8 G9 G10 G11]. constructor; auto; discriminate. Qed.

  (* What one call of handleRunner, with the bookkeeping of cycle(), leaves: the runner is blocked and the
     loop stops (with r, or with r' = r plus a Receiver, in the pending queue), or it has been pushed. *)
  Definition Handled cy m0 d0 lp cur m pb r (res : bool * bool * bool * runner1 * runner1 * mach1) : Prop :=
    let '(os, push, stop, r', obj, m1) := res in
    let m2 := snd (after_push m1 pb push r') in
    (push = false /\ stop = true /\ CUI cy m0 d0 lp cur true [r] m2 /\ CUI cy m0 d0 lp cur true [r'] m2 /\ FL1 m <> []) \/
    (push = true /\ CUI cy m0 d0 (S lp) (cur ++ [obj]) stop [] m2 /\ (fst (after_push m1 pb push r') = true -> FL1 m2 <> [])).

  (* It is stated for an empty skipped list: a call that does not push stops the loop
     (Mvp61Proofs.handle_runner1_spec), so the loops never reach a second runner with a non-empty one. *)
  Lemma handle_ok pord cy m0 d0 lp cur m pb r :
    CUI cy m0 d0 lp cur false [r] m -> (d0 + lp < n)%nat -> (d0 + lp <= N)%nat -> (base <= d0)%nat ->
    (pb = true -> FL1 m <> []) ->
    Handled cy m0 d0 lp cur m pb r (handle_runner1 pord m cy pb [] r).
  Proof.
    intros HG Hdn HdN Hbd Hpb. set (d := (d0 + lp)%nat) in *.
    pose proof (cu_core _ _ _ _ _ _ _ _ HG) as HC.
    pose proof (c_P _ _ _ _ _ _ _ _ _ HC) as HP. inversion HP as [|? ? (Hrb & Hrf & Hone) _]; subst.
    assert (Hri : r_instr (r_b r) = ik d) by (rewrite Hrb; reflexivity).
    (* the blocked outcome *)
    assert (Hblk : forall os0 : bool, FL1 m <> [] -> Handled cy m0 d0 lp cur m pb r (os0, false, true, r, r, m)).
    { intros os0 Hne. left. unfold after_push. cbn [andb snd].
      split; [reflexivity|]. split; [reflexivity|]. split; [apply cui_st; exact HG|]. split; [apply cui_st; exact HG | exact Hne]. }
    unfold handle_runner1. rewrite Hri.
    destruct (InstructionType_IsBranch (instr_InstructionType (ik d)) && pb) eqn:Eb.
    { apply (Hblk false). apply andb_prop in Eb as [_ Epb]. apply Hpb. exact Epb. }
    destruct ((instr_InstructionType (ik d) =? Ret) && (negb (bb_isempty (x_ebus (y_x m))) || x_pcb (y_x m))) eqn:Eret.
    { apply (Hblk false). intros HF. destruct (EB_nil_empty m HF) as [Hemp HEn]. rewrite Hemp in Eret. cbn [negb orb] in Eret.
      apply andb_prop in Eret as [_ Epc]. destruct (c_pcb _ _ _ _ _ _ _ _ _ HC Epc) as (r0 & Hin & _). rewrite HEn in Hin. destruct Hin. }
    cbn [skipped_hazard existsb].
    destruct (c_sem _ _ _ _ _ _ _ _ _ HC) as (fs & HS & Hlk).
    assert (Hretgate : is_ret (ik d) = true -> EB m = []).
    { intros Hr. rewrite <- is_ret_type in Hr. rewrite Hr in Eret. cbn [andb] in Eret. apply orb_false_iff in Eret as [Ee _].
      apply negb_false_iff in Ee. apply isempty_flat. exact Ee. }
    (* what a successful push gives *)
    assert (Hpush : forall m' r0 st' stop (G : CUI cy m0 d0 lp cur st' [r0] m'), (stop = false -> st' = false) -> r_b r0 = r_b r ->
              bb_canadd (x_ebus (y_x m')) = true -> CoreI (S d) [] (push1 m' cy r0) ->
              CUI cy m0 d0 (S lp) (cur ++ [pobj m' r0]) stop [] (snd (after_push (push1 m' cy r0) pb true r0)) /\
              (fst (after_push (push1 m' cy r0) pb true r0) = true -> FL1 (snd (after_push (push1 m' cy r0) pb true r0)) <> [])).
    { intros m' r0 st' stop G Hst Hb0 Hadd HC'.
      assert (G' : CUI cy m0 d0 (S lp) (cur ++ [pobj m' r0]) stop [] (push1 m' cy r0)) by (eapply cui_push; eauto).
      assert (HEne : forall mm, EB mm = EB (push1 m' cy r0) -> FL1 mm <> []).
      { intros mm E HF. unfold Mvp61RefInv.FL1 in HF. apply app_eq_nil in HF as [HF _]. rewrite E, EB_push1, map_app in HF.
        apply app_eq_nil in HF as [_ HF]. discriminate HF. }
      unfold after_push. cbn [andb]. rewrite Hb0, Hri.
      destruct (InstructionType_IsConditionalBranch (instr_InstructionType (ik d))) eqn:Ec; cbn [fst snd].
      - split; [|intros _; apply HEne; reflexivity]. apply cui_pcb; [exact G'|].
        exists (pobj m' r0). split; [rewrite EB_push1; apply in_or_app; right; left; reflexivity|].
        unfold pobj. cbn [r_b]. rewrite Hb0, Hri. exact Ec.
      - split; [exact G'|]. intros _. apply HEne. reflexivity. }
    destruct (hazards3 (y_m m) (instr_ReadRegisters (ik d)) (instr_WriteRegisters (ik d))) as [|h0 ht] eqn:Ehz.
    - (* no hazard: pushRunner *)
      rewrite push_runner1_eq. destruct (bb_canadd (x_ebus (y_x m))) eqn:Eadd; cbn [negb].
      + right. split; [reflexivity|].
        apply (Hpush m r false false HG (fun _ => eq_refl) eq_refl Eadd).
        apply ((IA push_core) d m r cy HC); auto; try lia.
        eapply (IA haz_nil); eassumption.
      + assert (HFne : FL1 m <> []).
        { intros HF. destruct (EB_nil_empty m HF) as [_ HEn]. unfold bb_canadd in Eadd. apply negb_false_iff, Z.eqb_eq in Eadd.
          unfold EB, flat in HEn. apply app_eq_nil in HEn as [_ HEn]. apply map_eq_nil in HEn. rewrite HEn, (bus_bl _ _ (cu_bus _ _ _ _ _ _ _ _ HG)) in Eadd. discriminate. }
        exact (Hblk false HFne).
    - (* hazards: shouldUseForwarding *)
      assert (HFne : FL1 m <> []).
      { intros HF. destruct (core_zero_sb d [r] m HC HF) as [Z1 Z2].
        rewrite (hazards3_zero (y_m m) _ _ Z1 Z2) in Ehz. discriminate. }
      destruct (should_forward pord cy (x_prev (y_x m)) (h0 :: ht) (instr_ReadRegisters (ik d))) as [os sf] eqn:Esf.
      destruct sf as [[p reg]|].
      2:{ exact (Hblk os HFne). }
      destruct (should_forward_spec _ _ _ _ _ _ _ _ Esf) as ((rh & Eh) & Hpin & Hfm).
      destruct (fwd_match_spec _ _ _ Hfm) as (Hregr & Hnz & Hregw).
      rewrite (cf_prev _ _ (cu_frame _ _ _ _ _ _ _ _ HG)) in Hpin.
      destruct (cu_prevF _ _ _ _ _ _ _ _ HG eq_refl p Hpin) as [HpE Hpf].
      destruct ((IA setf_core) d m r p reg HC HdN Hdn HpE Hpf Hregw Hnz Hregr) as [HC1 HC2].
      change (set_x m (xs_nch (xs_ebus (y_x m) (set_forwarder (x_ebus (y_x m)) (r_id p) (x_nch (y_x m)))) (x_nch (y_x m) + 1)))
        with (setf m (r_id p)).
      set (m1 := setf m (r_id p)) in *. set (r1 := mk_r1 (r_b r) (r_id r) (r_fw r) (Some (x_nch (y_x m))) reg) in *.
      pose proof (cui_setf cy m0 d0 lp cur [r] [r] m p HG Hpin HC1) as G1.
      pose proof (cui_setf cy m0 d0 lp cur [r] [r1] m p HG Hpin HC2) as G2. fold m1 in G1, G2.
      rewrite push_runner1_eq. destruct (bb_canadd (x_ebus (y_x m1))) eqn:Eadd; cbn [negb].
      + right. split; [reflexivity|].
        apply (Hpush m1 r1 true true G2 ltac:(discriminate) eq_refl Eadd).
        apply ((IA push_core) d m1 r1 cy HC2); auto; try lia.
        * (* the single hazard is the forwarded register *)
          assert (HFL : FL1 m1 = FL1 m).
          { unfold Mvp61RefInv.FL1, m1. rewrite EB_setf, map_map. f_equal. apply map_ext. intros r0. unfold kr1.
            destruct (setfw_b (r_id p) (x_nch (y_x m)) r0) as (E & _). rewrite E. reflexivity. }
          rewrite HFL. change (rcreg r1) with (Some reg). rewrite Eh in Ehz.
          apply ((IA haz_single) d m fs rh reg HS Ehz Hregr Hnz).
          pose proof (c_e _ _ _ _ _ _ _ _ _ HC) as He. rewrite Forall_forall in He.
          destruct ((IA RunOK1_kr) d p (He p HpE)) as (_ & _ & _ & Epb).
          assert (HjF : In (kr1 p) (FL1 m)) by (unfold Mvp61RefInv.FL1; apply in_or_app; left; apply in_map; exact HpE).
          assert (Hw : In (Z.to_nat reg) (wsl app (kr1 p))).
          { apply slots_in. exists reg. rewrite Epb in Hregw. auto. }
          pose proof (cnt_member_ge1 (wsl app) (FL1 m) (kr1 p) (Z.to_nat reg) HjF) as Hge.
          pose proof (proj2 (cnt1_pos (wsl app (kr1 p)) (Z.to_nat reg)) Hw). lia.
        * intros Hr. specialize (Hretgate Hr). rewrite Hretgate in HpE. destruct HpE.
      + left. unfold after_push. cbn [andb snd].
        split; [reflexivity|]. split; [reflexivity|]. split; [exact G1|]. split; [exact G2 | exact HFne].
  Qed.
  Lemma cui_from_bus cy m0 d0 lp cur m : CUI cy m0 d0 lp cur false [] m ->
    CUI cy m0 d0 lp cur false [r1q (d0 + lp)] m.
  Proof.
    intros HG. eapply cui_P; [exact HG|]. apply (IA core_P_none); [exact (cu_core _ _ _ _ _ _ _ _ HG) | reflexivity | reflexivity | reflexivity].
  Qed.

  (* for !u.pendings.IsFull() { runner := u.inBus.Get(); ... } *)
  Lemma cu_incoming_ok pord cy m0 d0 : forall q lp cur m pb,
    CUI cy m0 d0 lp cur false [] m -> q = map r1q (seq (d0 + lp) (length q)) ->
    (d0 + lp + length q <= n)%nat -> (d0 + lp + length q <= S N)%nat -> (base <= d0)%nat ->
    (pb = true -> FL1 m <> []) ->
    exists os q' pend' cur' m' lp' st',
      cu_incoming1 pord q [] m cy pb [] cur = (os, q', pend', cur', m') /\
      CUI cy m0 d0 lp' cur' st' pend' m' /\ (lp <= lp')%nat /\ (length pend' <= 1)%nat /\
      (lp' - lp + length pend' + length q' = length q)%nat /\
      q' = map r1q (seq (d0 + lp' + length pend') (length q')) /\
      (FL1 m = [] -> q <> [] -> (lp < lp')%nat).
  Proof.
    induction q as [|r q' IH]; intros lp cur m pb HG Hq Hn HN Hbd Hpb.
    - exists false, [], [], cur, m, lp, false. cbn [cu_incoming1]. change (pendingLength <=? zlen (@nil runner1)) with false. cbn iota.
      split; [reflexivity|]. split; [exact HG|]. split; [lia|]. split; [cbn; lia|]. split; [cbn; lia|]. split; [reflexivity|]. intros _ Hx. contradiction.
    - cbn [length seq map] in Hq. injection Hq as Hr Hq'. cbn [length] in Hn, HN.
      cbn [cu_incoming1]. change (pendingLength <=? zlen (@nil runner1)) with false. cbn iota.
      pose proof (cui_from_bus cy m0 d0 lp cur m HG) as HG1. rewrite <- Hr in HG1.
      pose proof (handle_ok pord cy m0 d0 lp cur m pb r HG1 ltac:(lia) ltac:(lia) Hbd Hpb) as Hcase.
      destruct (handle_runner1 pord m cy pb [] r) as [[[[[os push] stop] r'] obj] m1]. unfold Handled in Hcase. cbv zeta in Hcase.
      destruct (after_push m1 pb push r') as [pb' m2] eqn:Eap. cbn [fst snd] in Hcase.
      destruct Hcase as [(-> & -> & G1 & G2 & HFne)|(-> & G & Hpb')].
      + exists os, q', [r'], cur, m2, lp, true. cbn [List.app]. split; [reflexivity|]. split; [exact G2|]. split; [lia|]. split; [cbn; lia|].
        split; [cbn [length]; lia|]. split; [cbn [length]; rewrite Hq' at 1; f_equal; f_equal; lia|]. intros HF. contradiction.
      + destruct stop.
        * exists os, q', [], (cur ++ [obj]), m2, (S lp), true. split; [reflexivity|]. split; [exact G|]. split; [lia|]. split; [cbn; lia|].
          split; [cbn [length]; lia|]. split; [cbn [length]; rewrite Hq' at 1; f_equal; f_equal; lia|]. intros _ _. lia.
        * destruct (IH (S lp) (cur ++ [obj]) m2 pb' G ltac:(rewrite Hq' at 1; f_equal; f_equal; lia) ltac:(lia) ltac:(lia) Hbd Hpb')
            as (os2 & q2 & pend2 & cur2 & m3 & lp2 & st2 & E2 & G2 & A1 & A2 & A3 & A4 & _).
          rewrite E2. exists (os || os2), q2, pend2, cur2, m3, lp2, st2. split; [reflexivity|]. split; [exact G2|]. split; [lia|]. split; [exact A2|].
          split; [cbn [length]; lia|]. split; [exact A4|]. intros _ _. lia.
  Qed.

  (* for elem := range u.pendings.Iterator() *)
  Lemma cu_pending_ok pord cy m0 d0 ps : CUI cy m0 d0 0 [] false ps m0 -> (length ps <= 1)%nat ->
    (d0 + length ps <= n)%nat -> (d0 + length ps <= S N)%nat -> (base <= d0)%nat ->
    exists os stopped pend1 pb1 sk1 cur1 m1 lp1 st1,
      cu_pending1 pord ps [] m0 cy false [] [] = (os, stopped, pend1, pb1, sk1, cur1, m1) /\
      CUI cy m0 d0 lp1 cur1 st1 pend1 m1 /\ (lp1 + length pend1 = length ps)%nat /\
      (stopped = false -> pend1 = [] /\ st1 = false /\ sk1 = []) /\
      (pb1 = true -> FL1 m1 <> []) /\
      (FL1 m0 = [] -> ps <> [] -> (0 < lp1)%nat).
  Proof.
    intros HG Hlen Hn HN Hbd. destruct ps as [|r [|r2 t]]; [| |cbn [length] in Hlen; lia].
    - exists false, false, [], false, [], [], m0, O, false. cbn [cu_pending1 rev]. split; [reflexivity|]. split; [exact HG|].
      split; [reflexivity|]. split; [auto|]. split; [discriminate|]. intros _ Hx. contradiction.
    - cbn [length] in Hn, HN. cbn [cu_pending1].
      pose proof (handle_ok pord cy m0 d0 0 [] m0 false r HG ltac:(lia) ltac:(lia) Hbd ltac:(discriminate)) as Hcase.
      destruct (handle_runner1 pord m0 cy false [] r) as [[[[[os push] stop] r'] obj] m1]. unfold Handled in Hcase. cbv zeta in Hcase.
      destruct (after_push m1 false push r') as [pb' m2] eqn:Eap. cbn [fst snd] in Hcase.
      destruct Hcase as [(-> & -> & G1 & G2 & HFne)|(-> & G & Hpb')].
      + exists os, true, [r], pb', ([] ++ [r']), [], m2, O, true. cbn [rev List.app]. split; [reflexivity|]. split; [exact G1|].
        split; [reflexivity|]. split; [discriminate|]. split.
        * unfold after_push in Eap. cbn [andb orb] in Eap. injection Eap as <- _. discriminate.
        * intros HF. contradiction.
      + cbn [List.app] in G. destruct stop.
        * exists os, true, [], pb', [], [obj], m2, 1%nat, true. cbn [rev List.app]. split; [reflexivity|]. split; [exact G|].
          split; [reflexivity|]. split; [discriminate|]. split; [exact Hpb'|]. intros _ _. lia.
        * exists (os || false), false, [], pb', [], [obj], m2, 1%nat, false. cbn [cu_pending1 rev List.app]. split; [reflexivity|]. split; [exact G|].
          split; [reflexivity|]. split; [auto|]. split; [exact Hpb'|]. intros _ _. lia.
  Qed.
End Cu.
