(* Skeleton machines: a control state K that is driven, iteration by iteration of
   the Run loop, by the list of events (pcs) the sequential run produces.  What the
   proofs about such a machine share is said here once: it terminates when a
   bounded potential decreases in every iteration that does not consume an event,
   and a model that follows it for one iteration follows it for the whole run.
   At the end: what makes a model run by fuel insensitive to spare fuel. *)
From Coq Require Import ZArith List Lia.
From Maj Require Import Isa.Seq Mvp.Mvp12.
Import ListNotations.
Open Scope Z_scope.

(* one iteration: go on (dc = cycles counted by it), finish, or no such iteration *)
Inductive gres (K E : Type) :=
| GStep (a : K) (path : list E) (dc : Z)
| GDone (dc : Z)
| GStuck.
Arguments GStep {K E}. Arguments GDone {K E}. Arguments GStuck {K E}.

Section SkelRun.
  Variables (K E : Type) (cycle : K -> list E -> gres K E).

  Fixpoint grun (fuel : nat) (a : K) (path : list E) (cyc : Z) : option Z :=
    match fuel with
    | O => None
    | S f =>
        match cycle a path with
        | GStep a' path' dc => grun f a' path' (cyc + dc)
        | GDone dc => Some (cyc + dc)
        | GStuck => None
        end
    end.

  Lemma grun_more : forall fuel k a path cyc c,
    grun fuel a path cyc = Some c -> grun (fuel + k) a path cyc = Some c.
  Proof.
    induction fuel as [|f IH]; intros k a path cyc c H; [discriminate|]. cbn [grun Nat.add] in *.
    destruct (cycle a path) as [a' path' dc|dc|]; auto.
  Qed.

  (* Inv head a: the invariant of the machine when [head] is the next event *)
  Variables (Inv : E -> K -> Prop) (wf : list E -> Prop) (pot : K -> Z) (pmax : Z).

  Hypothesis inv_step : forall head rest a a' path' dc,
    Inv head a -> wf (head :: rest) -> cycle a (head :: rest) = GStep a' path' dc ->
    exists head' rest', path' = head' :: rest' /\ Inv head' a' /\ wf path'.
  Hypothesis progress : forall head rest a,
    Inv head a -> wf (head :: rest) ->
    match cycle a (head :: rest) with
    | GStuck => False
    | GDone _ => rest = []
    | GStep a' path' _ => path' = rest \/ (path' = head :: rest /\ pot a' < pot a)
    end.
  Hypothesis cycle_dc : forall a path,
    match cycle a path with
    | GDone dc => dc = 1
    | GStep _ _ dc => dc = 1 \/ dc = 2
    | GStuck => True
    end.
  Hypothesis pot_bounds : forall head a, Inv head a -> 0 <= pot a <= pmax.

  (* iterations allowed per event *)
  Variable kstep : nat.
  Hypothesis kstep_eq : kstep = S (Z.to_nat pmax).

  (* The measure of a run: kstep iterations for every event still to come, plus the
     potential.  An iteration that keeps its event lowers the potential, one that
     consumes it may raise the potential to pmax. *)
  Lemma measure_step p p' (n n' m : nat) :
    0 <= p <= pmax -> 0 <= p' <= pmax ->
    (S n' = n \/ (n' = n /\ p' < p)) ->
    (Z.to_nat p + n * kstep <= m)%nat ->
    (1 <= m /\ Z.to_nat p' + n' * kstep <= m - 1)%nat.
  Proof. rewrite kstep_eq. intros Hp Hp' [<- | [-> Hlt]] Hm; cbn [Nat.mul] in *; lia. Qed.

  (* at most pmax + 1 iterations between two events; every iteration counts one or
     two cycles *)
  Lemma grun_term : forall (m : nat) rest a head cyc fuel,
    Inv head a -> wf (head :: rest) ->
    (Z.to_nat (pot a) + length rest * kstep <= m)%nat -> (m < fuel)%nat ->
    exists c, grun fuel a (head :: rest) cyc = Some c /\
              cyc + Z.of_nat (length (head :: rest)) <= c <= cyc + 2 * (Z.of_nat m + 1).
  Proof.
    induction m as [m IH] using lt_wf_ind. intros rest a head cyc fuel HF Hwf Hm Hfuel.
    destruct fuel as [|f]; [lia|]. cbn [grun].
    pose proof (progress head rest a HF Hwf) as Hp.
    pose proof (cycle_dc a (head :: rest)) as Hdc.
    destruct (cycle a (head :: rest)) as [a' path' dc|dc|] eqn:Ec; [| |contradiction].
    - destruct (inv_step head rest a a' path' dc HF Hwf Ec) as (head' & rest' & -> & HF' & Hwf').
      assert (Hn : S (length rest') = length rest \/ (length rest' = length rest /\ pot a' < pot a)).
      { destruct Hp as [<- | [Hp Hlt]]; [left; reflexivity | right]. injection Hp as _ ->. auto. }
      destruct (measure_step (pot a) (pot a') _ _ m (pot_bounds head a HF) (pot_bounds head' a' HF') Hn Hm) as [Hm1 Hm'].
      destruct (IH (m - 1)%nat ltac:(lia) rest' a' head' (cyc + dc) f HF' Hwf' Hm' ltac:(lia)) as (c & Hc & Hb).
      exists c. split; [exact Hc|]. cbn [length] in *. lia.
    - subst rest dc. exists (cyc + 1). split; [reflexivity|]. cbn [length]. lia.
  Qed.

  (* a model (states St, run by fuel) that is the skeleton plus the values of the
     sequential machine, which goes through the events [sx st path stf] *)
  Variables (St : Type) (mrun : nat -> St -> Z -> mres).
  Variables (R : St -> K -> arch -> Prop) (sx : arch -> list E -> arch -> Prop).

  Hypothesis sim_step : forall f a head rest cyc s st stf,
    R s a st -> Inv head a -> sx st (head :: rest) stf ->
    match cycle a (head :: rest) with
    | GStuck => True
    | GDone dc => mrun (S f) s cyc = MDone (cyc + dc) stf
    | GStep a' path' dc =>
        exists s' st', mrun (S f) s cyc = mrun f s' (cyc + dc) /\ R s' a' st' /\ sx st' path' stf
    end.

  Lemma grun_sim : forall fuel a head rest cyc s st stf c,
    R s a st -> Inv head a -> wf (head :: rest) -> sx st (head :: rest) stf ->
    grun fuel a (head :: rest) cyc = Some c ->
    mrun fuel s cyc = MDone c stf.
  Proof.
    induction fuel as [|f IH]; intros a head rest cyc s st stf c HR HF Hwf HS H; [discriminate|].
    cbn [grun] in H.
    pose proof (sim_step f a head rest cyc s st stf HR HF HS) as Hsim.
    destruct (cycle a (head :: rest)) as [a' path' dc|dc|] eqn:Ec; [| |discriminate].
    - destruct Hsim as (s' & st1 & -> & HR' & HS').
      destruct (inv_step head rest a a' path' dc HF Hwf Ec) as (head' & rest' & -> & HF' & Hwf').
      eapply IH; eassumption.
    - injection H as <-. exact Hsim.
  Qed.

  (* from fuel n on, both runs end in the same number of cycles *)
  Lemma grun_run (n : nat) a head rest s st stf :
    Inv head a -> wf (head :: rest) -> R s a st -> sx st (head :: rest) stf ->
    (Z.to_nat (pot a) + length rest * kstep < n)%nat ->
    exists c, (forall fuel, (n <= fuel)%nat ->
                 mrun fuel s 0 = MDone c stf /\ grun fuel a (head :: rest) 0 = Some c) /\
              Z.of_nat (length (head :: rest)) <= c <= 2 * Z.of_nat n.
  Proof.
    intros HF Hwf HR HS Hn.
    destruct (grun_term _ rest a head 0 n HF Hwf (Nat.le_refl _) Hn) as (c & Hc & Hcb).
    exists c. split; [|lia].
    intros fuel Hf. replace fuel with (n + (fuel - n))%nat by lia. apply (grun_more _ (fuel - n)%nat) in Hc.
    split; [|exact Hc]. eapply grun_sim; eassumption.
  Qed.
End SkelRun.

Arguments grun {K E} cycle fuel a path cyc.

(* A model is run by fuel (iterations of the Run loop): an iteration either ends the
   run, whatever fuel is left, or hands over to the next one.  From that alone, more
   fuel does not change a finished run and every iteration counts a cycle. *)
Section FuelRun.
  Variables (St : Type) (run : nat -> St -> Z -> mres).
  Hypothesis run_O : forall s cyc, run O s cyc = MOutOfFuel.
  Hypothesis run_S : forall s cyc,
    (exists r, (forall f, run (S f) s cyc = r) /\ forall c st, r = MDone c st -> cyc + 1 <= c) \/
    (exists s' cyc', cyc + 1 <= cyc' /\ forall f, run (S f) s cyc = run f s' cyc').

  Lemma fuel_run_ge : forall fuel s cyc c st, run fuel s cyc = MDone c st -> cyc + 1 <= c.
  Proof.
    induction fuel as [|f IH]; intros s cyc c st H; [rewrite run_O in H; discriminate|].
    destruct (run_S s cyc) as [(r & Hr & Hc) | (s' & cyc' & Hle & Hr)]; rewrite Hr in H.
    - exact (Hc c st H).
    - apply IH in H. lia.
  Qed.

  Lemma fuel_run_more : forall fuel k s cyc c st,
    run fuel s cyc = MDone c st -> run (fuel + k) s cyc = MDone c st.
  Proof.
    induction fuel as [|f IH]; intros k s cyc c st H; [rewrite run_O in H; discriminate|]. cbn [Nat.add].
    destruct (run_S s cyc) as [(r & Hr & _) | (s' & cyc' & _ & Hr)]; rewrite Hr in H; rewrite Hr; auto.
  Qed.
End FuelRun.

(* closes the "ends here" alternative of run_S when the result is not MDone *)
Ltac run_ends := left; eexists; split; [intros; reflexivity | try discriminate].
