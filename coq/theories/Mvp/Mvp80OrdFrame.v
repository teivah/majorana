(* What the pipeline of MVP-8.0 (Mvp80.v) does to the state of the memory system, once for all invariants.

   After the snoops a tick changes the machine `my` in two ways only: the pipeline part y_x is replaced (set_x) - and
   then neither the shared L3 inside it nor the ghost flag move (xframe) - or controller i and the shared part are
   replaced by what cc.read.Cycle, cc.write.Cycle or cc.flush returned for controller i.  A predicate on `my` that
   survives these four moves (section Frame) therefore survives every loop over the execute units and the rest of
   the tick (after_snoops8_frame).  Instances: the list of controller ids (Mvp80OrdIds.v), the ghost flag
   (Mvp80OrdProofs.v), the invariants of the memory system (Mvp80OrdInv.v). *)
From Coq Require Import ZArith List Bool Lia.
From Maj Require Import Base.Outcome Base.GoInt Base.GoTypes Isa.Spec Isa.Seq.
From Maj Require Import Gen.Latency Gen.RiscTables Gen.Opcodes Comp.Cache Comp.Rat Mvp.Mvp12 Mvp.Mvp3 Mvp.Mvp5 Mvp.Mvp60 Mvp.Mvp63 Mvp.Mvp80.
From Maj Require Import Mvp.Mvp60Proofs Mvp.Mvp63Proofs Mvp.Mvp80Proofs.
Import ListNotations.
Open Scope Z_scope.

Definition xframe (x x' : mx) : Prop := m_l3 (x_m x') = m_l3 (x_m x) /\ x_os x' = x_os x.

Lemma xframe_refl : forall x, xframe x x.
Proof. intros x. split; reflexivity. Qed.

Lemma xframe_trans : forall x1 x2 x3, xframe x1 x2 -> xframe x2 x3 -> xframe x1 x3.
Proof. intros x1 x2 x3 [A B] [A' B']. split; congruence. Qed.

Lemma bu_assert3_l3 : forall x r, m_l3 (x_m (bu_assert3 x r)) = m_l3 (x_m x).
Proof.
  intros. unfold bu_assert3.
  destruct (InstructionType_IsUnconditionalBranch _).
  - destruct (btb_get _ _); reflexivity.
  - destruct (InstructionType_IsConditionalBranch _); reflexivity.
Qed.

Lemma bu_assert3_frame : forall x r, xframe x (bu_assert3 x r).
Proof. intros x r. split; [apply bu_assert3_l3 | apply bu_assert3_os]. Qed.

Lemma bu_resolved3_os : forall x pc npc, x_os (bu_resolved3 x pc npc) = x_os x.
Proof. intros. unfold bu_resolved3. repeat match goal with |- context [match ?e with _ => _ end] => destruct e end; reflexivity. Qed.

Lemma wu_cycle6_l3 : forall m w before m' w', wu_cycle6 m w before = Ok (m', w') -> m_l3 m' = m_l3 m.
Proof.
  intros m w before m' w' H. unfold wu_cycle6 in H.
  split_hyp H; simpl in *; try discriminate; inversion H; subst; simpl; auto.
Qed.

Lemma wu_cycle3_l3 : forall x w before x' w', wu_cycle3 x w before = Ok (x', w') -> m_l3 (x_m x') = m_l3 (x_m x).
Proof.
  intros x w before x' w' H. unfold wu_cycle3 in H.
  destruct (u_co w).
  - destruct (bb_get (m_wbus (x_m x))) as [wbus' got].
    destruct got as [c|]; [|inversion H; reflexivity].
    destruct (negb (before =? -1) && (before <? w_seq c)); [inversion H; reflexivity|].
    destruct (RegisterChange (w_exe c)); [inversion H; reflexivity|].
    destruct (MemoryChange (w_exe c)); inversion H; reflexivity.
  - apply bind_ok in H as ([m1 w1] & E & H). apply wu_cycle6_l3 in E.
    inversion H; subst. exact E.
Qed.

Lemma wu_cycle8_frame : forall x w before x' w', wu_cycle8 x w before = Ok (x', w') -> xframe x x'.
Proof.
  intros x w before x' w' H. unfold wu_cycle8 in H.
  assert (G : wu_cycle3 x w before = Ok (x', w')).
  { destruct (bb_q (m_wbus (x_m x))); [exact H|]. destruct (_ && _); [discriminate | exact H]. }
  split; [eapply wu_cycle3_l3; eauto | eapply wu_cycle3_os; eauto].
Qed.

Lemma wus_cycle8_frame : forall wus x before x' wus', wus_cycle8 x wus before = Ok (x', wus') -> xframe x x'.
Proof.
  induction wus as [|w t IH]; intros x before x' wus' H; cbn [wus_cycle8] in H.
  - inversion H; subst. apply xframe_refl.
  - apply bind_ok in H as ([x1 w1] & E1 & H). apply bind_ok in H as ([x2 t'] & E2 & H).
    inversion H; subst. cbn [fst] in *. eapply xframe_trans; [eapply wu_cycle8_frame; eauto | eapply IH; eauto].
Qed.

(* the flag a step ends with *)
Definition res_os8 (r : step_res8) : bool := match r with VDone _ os => os | VCont s' => y_os (v_y s') end.

Lemma res_of8_cont : forall {A} os (o : outcome A) k s',
  res_of8 os o k = VCont s' -> exists x, o = Ok x /\ k x = VCont s'.
Proof. intros A os o k s' H. destruct o; simpl in H; try discriminate. eauto. Qed.

Definition after_snoops8 (labels : Z -> option Z) (ord : Z -> Z -> list Z -> list Z) (s : st8) (y : my) : step_res8 :=
  match v_mode s with
  | PNormal =>
      let cycle := v_cycle s + 1 in
      res_of8 (y_os y) (eus_main8 labels ord cycle y 0 (v_eus s) yo_none) (back8 s cycle)
  | PRet =>
      res_of8 (y_os y) (eus_drain8 labels ord (v_cycle s) y 0 (v_eus s)) (fun z =>
      let '(y1, eus1, er) := z in
      match er with
      | Some e => VDone (MErr e) (y_os y1)
      | None =>
          res_of8 (y_os y1) (wus_cycle8 (y_x y1) (v_wus s) (-1)) (fun r =>
          let cycle := v_cycle s + 1 in
          ret_check8 (mk_st8 (wbus_connect8 (set_x y1 (fst r)) cycle) eus1 (snd r) cycle PRet))
      end)
  | PFlushE seq pc from =>
      let cycle := v_cycle s + 1 in
      res_of8 (y_os y) (eus_flush8 labels ord from y 0 (v_eus s) (mk_fla true seq pc None)) (fun z =>
      let '(y1, eus1, acc) := z in
      match a_err acc with
      | Some er => VDone (MErr er) (y_os y1)
      | None =>
          flush_advance8 (mk_st8 (wbus_connect8 y1 (cycle + 1)) eus1 (v_wus s) cycle (v_mode s))
                         0 (a_seq acc) (a_pc acc) from (a_empty acc)
      end)
  | PFlushW k seq pc from empty => VDone MPanic (y_os y)
  | PFinal =>
      let cycle := v_cycle s + 1 in
      let quiet := forallb cc_snoop_isstart (y_ccs (v_y s)) in
      res_of8 (y_os y) (eus_final8 labels ord cycle y 0 (v_eus s)) (fun z =>
      let '(y1, eus1, busy) := z in
      if quiet && negb busy then VDone (finish8 ord y1 cycle) (y_os y1)
      else VCont (mk_st8 y1 eus1 (v_wus s) cycle PFinal))
  end.

(* a tick = (front end) ; snoops8 ; after_snoops8 *)
Lemma step8_eq : forall app labels ord s,
  step8 app labels ord s =
  match v_mode s with
  | PNormal =>
      res_of8 (y_os (v_y s)) (front8 app ord (v_cycle s + 1) (v_y s)) (fun y =>
      res_of8 (y_os y) (snoops8 ord (v_cycle s + 1) y) (after_snoops8 labels ord s))
  | PRet => res_of8 (y_os (v_y s)) (snoops8 ord (v_cycle s) (v_y s)) (after_snoops8 labels ord s)
  | PFlushE _ _ _ | PFinal => res_of8 (y_os (v_y s)) (snoops8 ord (v_cycle s + 1) (v_y s)) (after_snoops8 labels ord s)
  | PFlushW k seq pc from empty =>
      match nth_error (v_wus s) k with
      | None => VDone MPanic (y_os (v_y s))
      | Some w =>
          res_of8 (y_os (v_y s)) (wu_cycle8 (y_x (v_y s)) w seq) (fun r =>
          flush_advance8 (mk_st8 (set_x (v_y s) (fst r)) (v_eus s) (set_nth6 (v_wus s) k (snd r)) (v_cycle s) (v_mode s)) k seq pc from empty)
      end
  end.
Proof.
  intros. unfold step8, after_snoops8. destruct (v_mode s); reflexivity.
Qed.

Section Frame.

(* P: the property of the machine; Pd: what it says of the flag a run ends with *)
Variable P : my -> Prop.
Variable Pd : bool -> Prop.
Hypothesis P_os : forall y, P y -> Pd (y_os y).
Hypothesis P_x : forall y x, xframe (y_x y) x -> P y -> P (set_x y x).
Hypothesis P_read : forall y i c addrs w c1 r, nth_error (y_ccs y) i = Some c ->
  cc_read_cycle (mw_of y) c addrs = Ok (w, c1, r) -> P y -> P (put_cc (put_mw y w) i c1).
Hypothesis P_write : forall y i c addrs data w c1 r, nth_error (y_ccs y) i = Some c ->
  cc_write_cycle (mw_of y) c addrs data = Ok (w, c1, r) -> P y -> P (put_cc (put_mw y w) i c1).
Hypothesis P_flush : forall y i c k c1, nth_error (y_ccs y) i = Some c ->
  cc_flush (y_msi y) c = Ok (k, c1) -> P y -> P (put_cc (set_ymsi y k) i c1).

Definition res_frame (r : step_res8) : Prop := match r with VDone _ os => Pd os | VCont s => P (v_y s) end.

Lemma res_of8_frame : forall A os (o : outcome A) k, Pd os -> (forall x, o = Ok x -> res_frame (k x)) -> res_frame (res_of8 os o k).
Proof. intros A os [x|e|] k H K; cbn [res_of8 res_frame]; auto. Qed.

Lemma eu_flush8_frame : forall y i e y' e', eu_flush8 y i e = Ok (y', e') -> P y -> P y'.
Proof.
  intros y i e y' e' H HP. unfold eu_flush8 in H.
  destruct (nth_error (y_ccs y) i) as [c|] eqn:EN; [|discriminate].
  apply bind_ok in H as ([k1 c1] & EF & H). inversion H; subst. eapply P_flush; eauto.
Qed.

Lemma eu_write8_frame : forall y i e addrs data y' e' o, eu_write8 y i e addrs data = Ok (y', e', o) -> P y -> P y'.
Proof.
  intros y i e addrs data y' e' o H HP. unfold eu_write8 in H.
  destruct (nth_error (y_ccs y) i) as [c|] eqn:EN; [|discriminate].
  apply bind_ok in H as ([[w c1] done] & EW & H). inversion H; subst. eapply P_write; eauto.
Qed.

(* the pipeline state an execute unit leaves: forwards, RATs, branch unit, buses, channels only *)
Ltac xframe_tac := split;
  [ reflexivity
  | unfold y_os in *; simpl; rewrite ?bu_resolved3_os; reflexivity ].

Lemma eu_run8_frame : forall labels ord cycle y i e y' e' o,
  eu_run8 labels ord cycle y i e = Ok (y', e', o) -> P y -> P y'.
Proof.
  intros labels ord cycle y i e y' e' o H HP. unfold eu_run8 in H. cbv zeta in H.
  destruct (h_runner e) as [r|]; [|discriminate].
  destruct (instr_Run _ _ _ _ _ _) as [exe|er|]; [| inversion H; subst; apply P_x; [xframe_tac | exact HP] | discriminate].
  destruct (Return exe); [inversion H; subst; apply P_x; [xframe_tac | exact HP]|].
  destruct (MemoryChange exe).
  { eapply eu_write8_frame; [exact H|]. apply P_x; [xframe_tac | exact HP]. }
  split_hyp H; try discriminate; inversion H; subst; (apply P_x; [xframe_tac | exact HP]).
Qed.

Lemma eu_read8_frame : forall labels ord cycle y i e addrs y' e' o,
  eu_read8 labels ord cycle y i e addrs = Ok (y', e', o) -> P y -> P y'.
Proof.
  intros labels ord cycle y i e addrs y' e' o H HP. unfold eu_read8 in H.
  destruct (nth_error (y_ccs y) i) as [c|] eqn:EN; [|discriminate].
  apply bind_ok in H as ([[w c1] res] & ER & H). cbv zeta in H.
  pose proof (P_read _ _ _ _ _ _ _ EN ER HP) as HP1.
  destruct res as [d|]; [eapply eu_run8_frame; eauto | inversion H; subst; exact HP1].
Qed.

Lemma eu_prepare8_frame : forall labels ord cycle y i e y' e' o,
  eu_prepare8 labels ord cycle y i e = Ok (y', e', o) -> P y -> P y'.
Proof.
  intros labels ord cycle y i e y' e' o H HP. unfold eu_prepare8 in H. cbv zeta in H.
  destruct (negb _); [inversion H; subst; exact HP|].
  destruct (h_runner e) as [r|]; [|discriminate].
  match type of H with context [match ?rcv with Some _ => _ | None => _ end] =>
    destruct rcv as [[x0 r1]|] eqn:ER end; [|inversion H; subst; exact HP].
  assert (HX : xframe (y_x y) x0).
  { destruct (q_recv r); [|inversion ER; apply xframe_refl].
    destruct (aget z (x_chan (y_x y))); [|discriminate]. inversion ER; split; reflexivity. }
  assert (HP1 : P (set_x y (bu_assert3 x0 (q_r r1)))).
  { apply P_x; [|exact HP]. eapply xframe_trans; [exact HX | apply bu_assert3_frame]. }
  destruct (instr_MemoryRead _ _ _); [eapply eu_run8_frame | eapply eu_read8_frame]; eauto.
Qed.

Lemma eu_cycle8_frame : forall labels ord cycle y i e y' e' o,
  eu_cycle8 labels ord cycle y i e = Ok (y', e', o) -> P y -> P y'.
Proof.
  intros labels ord cycle y i e y' e' o H HP. unfold eu_cycle8 in H. cbv zeta in H.
  match type of H with (if ?pre then _ else _) = _ => destruct pre end.
  - destruct (eu_pending8 y e); [discriminate|].
    apply bind_ok in H as ([y1 e1] & EF & H). inversion H; subst. eapply eu_flush8_frame; eauto.
  - destruct (h_co e).
    + destruct (pick8 _ _ _) as [[r q']|]; [|inversion H; subst; exact HP].
      eapply eu_prepare8_frame; [exact H|]. apply P_x; [split; reflexivity | exact HP].
    + eapply eu_prepare8_frame; eauto.
    + eapply eu_read8_frame; eauto.
    + eapply eu_write8_frame; eauto.
Qed.

Lemma eus_main8_frame : forall labels ord cycle eus y i acc y' eus' o,
  eus_main8 labels ord cycle y i eus acc = Ok (y', eus', o) -> P y -> P y'.
Proof.
  intros labels ord cycle. induction eus as [|e t IH]; intros y i acc y' eus' o H HP; cbn [eus_main8] in H.
  - inversion H; subst. exact HP.
  - apply bind_ok in H as ([[y1 e1] o1] & E1 & H). apply eu_cycle8_frame in E1; [|exact HP].
    destruct (y_err o1); [inversion H; subst; exact E1|].
    cbv zeta in H. apply bind_ok in H as ([[y2 t'] acc2] & E2 & H). inversion H; subst. eapply IH; eauto.
Qed.

Lemma eus_drain8_frame : forall labels ord cycle eus y i y' eus' er,
  eus_drain8 labels ord cycle y i eus = Ok (y', eus', er) -> P y -> P y'.
Proof.
  intros labels ord cycle. induction eus as [|e t IH]; intros y i y' eus' er H HP; cbn [eus_drain8] in H.
  - inversion H; subst. exact HP.
  - destruct (eu_empty8 e).
    + apply bind_ok in H as ([[y2 t'] er2] & E2 & H). inversion H; subst. eapply IH; eauto.
    + apply bind_ok in H as ([[y1 e1] o1] & E1 & H). apply eu_cycle8_frame in E1; [|exact HP].
      destruct (y_err o1); [inversion H; subst; exact E1|].
      apply bind_ok in H as ([[y2 t'] er2] & E2 & H). inversion H; subst. eapply IH; eauto.
Qed.

Lemma eus_flush8_frame : forall labels ord from eus y i acc y' eus' acc',
  eus_flush8 labels ord from y i eus acc = Ok (y', eus', acc') -> P y -> P y'.
Proof.
  intros labels ord from. induction eus as [|e t IH]; intros y i acc y' eus' acc' H HP; cbn [eus_flush8] in H.
  - inversion H; subst. exact HP.
  - destruct (eu_empty8 e && negb (eu_pending8 y e)).
    + apply bind_ok in H as ([[y2 t'] acc2] & E2 & H). inversion H; subst. eapply IH; eauto.
    + apply bind_ok in H as ([[y1 e1] o1] & E1 & H). apply eu_cycle8_frame in E1; [|exact HP].
      destruct (y_err o1); [inversion H; subst; exact E1|].
      cbv zeta in H. apply bind_ok in H as ([[y2 t'] acc2] & E2 & H). inversion H; subst. eapply IH; eauto.
Qed.

Lemma eus_final8_frame : forall labels ord cycle eus y i y' eus' b,
  eus_final8 labels ord cycle y i eus = Ok (y', eus', b) -> P y -> P y'.
Proof.
  intros labels ord cycle. induction eus as [|e t IH]; intros y i y' eus' b H HP; cbn [eus_final8] in H.
  - inversion H; subst. exact HP.
  - cbv zeta in H.
    match type of H with (if ?cond then _ else _) = _ => destruct cond end.
    + apply bind_ok in H as ([[y2 t'] b2] & E2 & H). inversion H; subst. eapply IH; eauto.
    + destruct (nth_error (y_ccs y) i); [|discriminate].
      apply bind_ok in H as ([[y1 e1] o1] & E1 & H). apply eu_cycle8_frame in E1; [|exact HP].
      apply bind_ok in H as ([[y2 t'] b2] & E2 & H). inversion H; subst. eapply IH; eauto.
Qed.

Lemma eus_flush_all8_frame : forall eus y i y' eus', eus_flush_all8 y i eus = Ok (y', eus') -> P y -> P y'.
Proof.
  induction eus as [|e t IH]; intros y i y' eus' H HP; cbn [eus_flush_all8] in H.
  - inversion H; subst. exact HP.
  - apply bind_ok in H as ([y1 e1] & E1 & H). apply eu_flush8_frame in E1; [|exact HP].
    apply bind_ok in H as ([y2 t'] & E2 & H). cbn [fst snd] in *. inversion H; subst. eapply IH; eauto.
Qed.

Lemma ret_check8_frame : forall s, P (v_y s) -> res_frame (ret_check8 s).
Proof. intros s HP. unfold ret_check8. destruct (_ && _); exact HP. Qed.

Lemma wbus_connect8_frame : forall y cycle, P y -> P (wbus_connect8 y cycle).
Proof. intros y cycle HP. unfold wbus_connect8. apply P_x; [split; reflexivity | exact HP]. Qed.

Lemma flush_advance8_frame : forall s k seq pc from empty, P (v_y s) -> res_frame (flush_advance8 s k seq pc from empty).
Proof.
  intros s k seq pc from empty HP. unfold flush_advance8.
  destruct (flush_next _ _ _); [exact HP|]. destruct empty; [|exact HP].
  assert (HP1 : P (set_x (v_y s) (do_flush3 (y_x (v_y s)) pc))) by (apply P_x; [split; reflexivity | exact HP]).
  apply res_of8_frame; [apply P_os; exact HP1|].
  intros [y1 eus1] E. cbn [res_frame v_y fst]. eapply eus_flush_all8_frame; eauto.
Qed.

Lemma back8_frame : forall s cycle y eus o, P y -> res_frame (back8 s cycle (y, eus, o)).
Proof.
  intros s cycle y eus o HP. unfold back8. destruct (y_err o); [apply P_os; exact HP|].
  apply res_of8_frame; [apply P_os; exact HP|]. intros [x2 wus1] E. cbn [fst snd].
  assert (HP1 : P (set_x y x2)) by (apply P_x; [eapply wus_cycle8_frame; exact E | exact HP]).
  destruct (y_ret o); [apply ret_check8_frame; apply wbus_connect8_frame; exact HP1|].
  destruct (y_flush o); [exact HP1|]. destruct (is_empty8 _ _ _); exact HP1.
Qed.

Theorem after_snoops8_frame : forall labels ord s y, P y -> res_frame (after_snoops8 labels ord s y).
Proof.
  intros labels ord s y HP. unfold after_snoops8.
  destruct (v_mode s) as [| | seq pc from | k seq pc from empty |].
  - apply res_of8_frame; [apply P_os; exact HP|]. intros [[y2 eus2] o] E2. apply back8_frame. eapply eus_main8_frame; eauto.
  - apply res_of8_frame; [apply P_os; exact HP|]. intros [[y2 eus2] er] E2. apply eus_drain8_frame in E2; [|exact HP].
    destruct er; [apply P_os; exact E2|].
    apply res_of8_frame; [apply P_os; exact E2|]. intros [x2 wus1] E3. cbn [fst snd].
    apply ret_check8_frame. apply wbus_connect8_frame. apply P_x; [eapply wus_cycle8_frame; exact E3 | exact E2].
  - apply res_of8_frame; [apply P_os; exact HP|]. intros [[y2 eus2] acc] E2. apply eus_flush8_frame in E2; [|exact HP].
    destruct (a_err acc); [apply P_os; exact E2|].
    apply flush_advance8_frame. apply wbus_connect8_frame. exact E2.
  - apply P_os. exact HP.
  - apply res_of8_frame; [apply P_os; exact HP|]. intros [[y2 eus2] busy] E2. apply eus_final8_frame in E2; [|exact HP].
    destruct (_ && _); [apply P_os|]; exact E2.
Qed.

End Frame.
