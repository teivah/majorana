(* Facts about the cycle-level model of MVP-8.0 (Mvp80.v).

   1. step8_tick_ok: how a tick can end (an error or a panic; going on without the cycle counter going back; from the
      final loop only, the result of Run one cycle later at least); mvp80_cycles_pos: a run that returns reports at
      least one cycle.
   2. cu_dispatch_bound8 / mvp80_dispatch_width: the control unit never fills the execute bus beyond its buffer
      length (2): at most two instructions are dispatched per cycle whatever the number of cores.
   3. Witnesses, closed by vm_compute on the model (the Go code gives the same lines, bin/one_m80.py):
        wrong_path_store_panics  a mispredicted branch with a wrong-path store in flight: the stale key of l1LockSems
                                 (cacheController.flush deletes from the wrong map) is unlocked twice -> panic
        load_overtakes_store     no memory ordering between cores: a load returns the value from before an older store
        store_keeps_scoreboard   a store never removes its registers from the scoreboard: PendingReadRegisters of
                                 its registers stay at 1 for ever *)
From Coq Require Import ZArith List Bool Lia.
From Maj Require Import Base.Outcome Base.GoInt Base.GoTypes Isa.Spec Isa.Seq.
From Maj Require Import Gen.Latency Gen.RiscTables Gen.Opcodes Comp.Cache Comp.Rat Mvp.Mvp12 Mvp.Mvp3 Mvp.Mvp5 Mvp.Mvp60 Mvp.Mvp63 Mvp.Mvp80.
From Maj Require Import Mvp.Mvp60Proofs Mvp.Mvp63Proofs Mvp.Mvp63Class.
Import ListNotations.
Open Scope Z_scope.

Lemma cc_writeback_lines_ge : forall ls w id cycles w' c,
  cc_writeback_lines ls w id cycles = Ok (w', c) -> cycles <= c.
Proof.
  induction ls as [|l t IH]; intros w id cycles w' c H; simpl in H.
  - inversion H; lia.
  - destruct (negb _) in H.
    + now apply IH in H.
    + destruct (get (w_l3 w) (lo l)) as [[l3 [v|]]| |]; simpl in H; try discriminate.
      * destruct (l3_locked _ _) in H; try discriminate.
        destruct (cc_write_l3 _ _ _) in H; simpl in H; try discriminate.
        apply IH in H. unfold L3Access in H. lia.
      * destruct (write_to_memory _ _ _) in H; simpl in H; try discriminate.
        apply IH in H. unfold MemoryAccess in H. lia.
Qed.

Lemma ccs_writeback_ge : forall ccs w cycles w' c,
  ccs_writeback w ccs cycles = Ok (w', c) -> cycles <= c.
Proof.
  induction ccs as [|cc t IH]; intros w cycles w' c H; simpl in H.
  - inversion H; lia.
  - destruct (cc_writeback w cc) as [[w1 c1]| |] eqn:E; simpl in H; try discriminate.
    apply IH in H. unfold cc_writeback in E.
    destruct (existing_lines (c_l1d cc)); simpl in E; try discriminate.
    apply cc_writeback_lines_ge in E. lia.
Qed.

Lemma l3_writeback_lines_ge : forall ls w cycles w' c,
  l3_writeback_lines ls w cycles = Ok (w', c) -> cycles <= c.
Proof.
  induction ls as [|l t IH]; intros w cycles w' c H; simpl in H.
  - inversion H; lia.
  - destruct (l3_locked _ _) in H; try discriminate.
    destruct (write_to_memory _ _ _) in H; simpl in H; try discriminate.
    apply IH in H. unfold MemoryAccess in H. lia.
Qed.

Lemma finish8_ge : forall ord y cycle c st, finish8 ord y cycle = MDone c st -> cycle <= c.
Proof.
  intros ord y cycle c st H. unfold finish8 in H.
  destruct (ccs_writeback (mw_of y) (y_ccs y) 0) as [[w1 c1]| |] eqn:E1; simpl in H; try discriminate.
  destruct (l3_writeback_lines (lines (w_l3 w1)) w1 0) as [[w2 c2]| |] eqn:E2; simpl in H; try discriminate.
  inversion H; subst. apply ccs_writeback_ge in E1. apply l3_writeback_lines_ge in E2. lia.
Qed.

(* a tick as Mvp63Class.v sees it: the result of Run, or the cycle counter of the state Run goes on from *)
Definition seen8 (r : step_res8) : mres + Z :=
  match r with VDone m _ => inl m | VCont s' => inr (v_cycle s') end.

Lemma res_of8_prop : forall A os (o : outcome A) k (P : step_res8 -> Prop),
  (forall x, o = Ok x -> P (k x)) -> (forall e, P (VDone (MErr e) os)) -> P (VDone MPanic os) -> P (res_of8 os o k).
Proof. intros A os o k P H1 H2 H3. destruct o; simpl; auto. Qed.

Lemma res_of8_goes_on : forall A n os (o : outcome A) k,
  (forall x, goes_on n (seen8 (k x))) -> goes_on n (seen8 (res_of8 os o k)).
Proof.
  intros A n os o k H. apply (res_of8_prop A os o k (fun r => goes_on n (seen8 r))); [intros x _; apply H|intros e; exact I|exact I].
Qed.

Lemma ret_check8_goes_on : forall s, goes_on (v_cycle s) (seen8 (ret_check8 s)).
Proof. intros s. unfold ret_check8. destruct (_ && _); simpl; lia. Qed.

Lemma flush_advance8_goes_on : forall s k seq pc from empty, goes_on (v_cycle s) (seen8 (flush_advance8 s k seq pc from empty)).
Proof.
  intros s k seq pc from empty. unfold flush_advance8.
  destruct (flush_next _ _ _); [simpl; lia|]. destruct empty; [|simpl; lia].
  apply res_of8_goes_on. intros r. simpl. unfold Flush. lia.
Qed.

Lemma back8_goes_on : forall s cycle z, goes_on cycle (seen8 (back8 s cycle z)).
Proof.
  intros s cycle [[y eus1] o]. unfold back8. destruct (y_err o); [exact I|].
  apply res_of8_goes_on. intros r.
  destruct (y_ret o); [apply (goes_on_le _ (cycle + 1)); [lia|exact (ret_check8_goes_on (mk_st8 _ _ _ (cycle + 1) _))]|].
  destruct (y_flush o); [simpl; lia|]. destruct (is_empty8 _ _ _); simpl; lia.
Qed.

Lemma step8_tick_ok : forall app labels ord s,
  tick_ok (v_mode s = PFinal) (v_cycle s) (seen8 (step8 app labels ord s)).
Proof.
  intros app labels ord s. unfold step8.
  destruct (v_mode s) as [| | seq pc from | k seq pc from empty |].
  - apply goes_on_tick_ok. apply res_of8_goes_on. intros y1. apply res_of8_goes_on. intros y2.
    apply res_of8_goes_on. intros z. apply (goes_on_le _ (v_cycle s + 1)); [lia|apply back8_goes_on].
  - apply goes_on_tick_ok. apply res_of8_goes_on. intros y1. apply res_of8_goes_on. intros [[y2 eus1] er].
    destruct er; [exact I|]. apply res_of8_goes_on. intros r.
    apply (goes_on_le _ (v_cycle s + 1)); [lia|exact (ret_check8_goes_on (mk_st8 _ _ _ (v_cycle s + 1) _))].
  - apply goes_on_tick_ok. apply res_of8_goes_on. intros y1. apply res_of8_goes_on. intros [[y2 eus1] acc].
    destruct (a_err acc); [exact I|].
    apply (goes_on_le _ (v_cycle s + 1)); [lia|exact (flush_advance8_goes_on (mk_st8 _ _ _ (v_cycle s + 1) _) _ _ _ _ _)].
  - apply goes_on_tick_ok. destruct (nth_error (v_wus s) k); [|exact I].
    apply res_of8_goes_on. intros r. exact (flush_advance8_goes_on (mk_st8 _ _ _ (v_cycle s) _) _ _ _ _ _).
  - apply (res_of8_prop _ _ _ _ (fun r => tick_ok _ _ (seen8 r))); [|intros e; exact I|exact I]. intros y1 _.
    apply (res_of8_prop _ _ _ _ (fun r => tick_ok _ _ (seen8 r))); [|intros e; exact I|exact I]. intros [[y2 eus1] busy] _.
    destruct (_ && _); [|simpl; lia].
    pose proof (finish8_ge ord y2 (v_cycle s + 1)) as G.
    destruct (finish8 ord y2 (v_cycle s + 1)) as [c st| | |] eqn:E; [|exact I|exact I|].
    + split; [reflexivity|]. eapply G. reflexivity.
    + unfold finish8 in E. destruct (bind _ _) as [[w c]| |]; discriminate E.
Qed.

Lemma run8_st_cycles : forall fuel app labels ord s c st os,
  0 <= v_cycle s ->
  run8_st fuel app labels ord s = inl (MDone c st, os) -> 1 <= c.
Proof.
  induction fuel as [|f IH]; intros app labels ord s c st os Hs H; simpl in H; try discriminate.
  pose proof (step8_tick_ok app labels ord s) as T.
  destruct (step8 app labels ord s) as [r os'|s'].
  - inversion H; subst. destruct T as [_ T]. lia.
  - simpl in T. eapply IH; [|exact H]. lia.
Qed.

(* a run that returns reports at least one cycle *)
Theorem mvp80_cycles_pos : forall par ord fuel app labels st c st',
  mvp80_run par ord fuel app labels st = MDone c st' -> 1 <= c.
Proof.
  intros par ord fuel app labels st c st' H. unfold mvp80_run, mvp80_run_os in H.
  destruct (init8 par ord app st) as [s| |] eqn:EI; try discriminate.
  destruct (run8_st fuel app labels ord s) as [[r os]|s'] eqn:ER; simpl in H; try discriminate.
  subst r. eapply run8_st_cycles; [|exact ER].
  unfold init8 in EI.
  destruct (new_cache l1LineSize l1Size); try discriminate.
  destruct (new_cache l3LineSize8 l3Size8); try discriminate.
  destruct (new_cache l1dLineSize l1dSize); try discriminate.
  inversion EI; simpl; lia.
Qed.

(* controlUnit.cycle keeps the buffer of the execute bus within its length *)
Theorem cu_dispatch_bound8 : forall ord cycle y,
  ebus_ok (y_x y) ->
  ebus_ok (y_x (cu_cycle8 ord cycle y)) /\ bb_bl (x_ebus (y_x (cu_cycle8 ord cycle y))) = bb_bl (x_ebus (y_x y)).
Proof.
  intros ord cycle y Hx. unfold cu_cycle8.
  destruct (k_stale (y_msi y)); simpl; [auto |].
  apply cu_dispatch_bound3; exact Hx.
Qed.

Corollary mvp80_dispatch_width : forall ord cycle y,
  bb_bl (x_ebus (y_x y)) = 2 -> ebus_ok (y_x y) ->
  zlen (bb_buf (x_ebus (y_x (cu_cycle8 ord cycle y)))) <= 2.
Proof.
  intros ord cycle y HB Hx. destruct (cu_dispatch_bound8 ord cycle y Hx) as [H1 H2].
  unfold ebus_ok in H1. rewrite H2, HB in H1. exact H1.
Qed.

(* lw t1, 0(zero) ; beq zero, zero, L1 ; sw t0, 64(zero) ; L1: li a0, 9 ; ret
   The branch is mispredicted while the wrong-path store holds the write lock of its line.  With three cores the
   store's unit drops it in its Pre hook (executeUnit.flush -> cacheController.flush: Unlock, but the key is
   deleted from the WRONG map and stays in l1LockSems); CPU.flush then flushes every controller again and the
   semaphore is unlocked a second time: panic("write is negative").  With one or two cores the store has not
   started when the flush comes. *)
Definition wps_prog : list instr :=
  [I_lw (mk_lw 6 0 0); I_beq (mk_beq 0 0 1); I_sw (mk_sw 5 64 0); I_li (mk_li 10 9); I_ret mk_ret].
Example wrong_path_store_panics :
  reg_of (mvp80_run 2 ord_asc 4000 wps_prog (one_label 12) (st_of [(5, 7)] [])) 10 = Some 9 /\
  mvp80_run 3 ord_asc 4000 wps_prog (one_label 12) (st_of [(5, 7)] []) = MPanic.
Proof. vm_compute. split; reflexivity. Qed.

(* lw t1, 0(zero) ; lw t2, 4(zero) ; lw t3, 8(zero) ; sw t0, 12(zero) ; lw a0, 12(zero) ; ret     t0 = 7
   No memory ordering: with three cores the last load is served before the store of the same word is performed
   and returns the old value 0; with one core it returns 7. *)
Definition stale_prog : list instr :=
  [I_lw (mk_lw 6 0 0); I_lw (mk_lw 7 4 0); I_lw (mk_lw 28 8 0); I_sw (mk_sw 5 12 0); I_lw (mk_lw 10 12 0); I_ret mk_ret].
Example load_overtakes_store :
  reg_of (mvp80_run 1 ord_asc 4000 stale_prog no_labels (st_of [(5, 7)] [])) 10 = Some 7 /\
  reg_of (mvp80_run 3 ord_asc 4000 stale_prog no_labels (st_of [(5, 7)] [])) 10 = Some 0.
Proof. vm_compute. split; reflexivity. Qed.

(* li t0, 11 ; sw t0, 8(zero): a store is never put on the write bus and nothing else removes its registers from
   the scoreboard: in the snapshot after 600 ticks the store is done (its line is modified in L1; ctx.Memory is only
   written at the very end) and PendingReadRegisters[t0] is still 1 *)
Definition stsb_prog : list instr := [I_li (mk_li 5 11); I_sw (mk_sw 5 8 0); I_li (mk_li 6 1); I_ret mk_ret].
Example store_keeps_scoreboard :
  match mvp80_run_snap 1 ord_asc 600 stsb_prog no_labels (st_of [] []) with
  | inr (_, _, pw, pr, _, _) => (nth 5 pw 0, nth 5 pr 0)
  | inl _ => (-1, -1)
  end = (0, 1).
Proof. vm_compute. reflexivity. Qed.

Print Assumptions mvp80_cycles_pos.
Print Assumptions cu_dispatch_bound8.
Print Assumptions wrong_path_store_panics.
