(* Refinement of MVP-6.3 to the sequential machine on single-assignment register-only programs with FORWARD
   control flow - the execute units and the write units on the back-end invariant BIq.
   An idle unit takes the head of the execute bus (eu_head_gen, whatever the instruction computes: exec_gen); by what
   the instruction reports (kout_cases) the invariant advances (BIq_exec_plain, BIq_exec_ret) or the flush loops
   are entered with FIq, the back-end part of GF3 (FIq_exec_flush), possibly after one shadow instruction on the
   wrong path (eu_shadowq); eus_main_q is the loop over the units, wus_ok3q / wus_okf the write units on BIq / FIq. *)
From Coq Require Import ZArith List Bool Lia Permutation.
From Maj Require Import Base.Outcome Base.GoInt Base.GoTypes Isa.Spec Isa.Embed Isa.Seq Isa.Refine.
From Maj Require Import Gen.Latency Gen.RiscTables Gen.Opcodes Comp.Cache Comp.Rat Comp.RatProofs.
From Maj Require Import Mvp.Mvp12 Mvp.Mvp12Proofs Mvp.Mvp3 Mvp.Mvp3Proofs Mvp.Mvp4Skel Mvp.Mvp4Inv Mvp.Mvp5 Mvp.Mvp60
     Mvp.Mvp60RefSem Mvp.Mvp60RefDefs Mvp.Mvp60RefFront Mvp.Mvp60RefBack Mvp.Mvp60RefStep Mvp.Mvp60RefStep2
     Mvp.Mvp63 Mvp.Mvp63RefDefs Mvp.Mvp63RefInv Mvp.Mvp63RefExec Mvp.Mvp63RefFwdDefs Mvp.Mvp63RefFwdRat Mvp.Mvp63RefFwdInv.
Import ListNotations.
Open Scope Z_scope.

(* ------------------------------------------------------------------ *)
(* small facts that do not depend on the program                        *)

Lemma wu_frame3q x wu before x' wu' : u_co wu = WNone -> wu_cycle3 x wu before = Ok (x', wu') -> WuFrame3 x x'.
Proof. apply wu_frame3. Qed.

Lemma eus_drain_idleq labels ord cy x : forall eus, Forall EuIdle eus -> eus_drain3 labels ord cy x eus = (false, Ok (x, eus, None)).
Proof.
  induction 1 as [|e t [Hco _] _ IH]; [reflexivity|]. cbn [eus_drain3]. unfold eu_empty3. rewrite Hco, IH. reflexivity.
Qed.

Lemma StaleOK_mono b b' e : b <= b' -> StaleOK b e -> StaleOK b' e.
Proof. intros H Hs r Hr. specialize (Hs r Hr). lia. Qed.

Lemma StaleOK_seq b e s : StaleOK b e -> StaleOK b (mk_eu3 (g_co e) (g_memory e) (g_runner e) s).
Proof. intros H r Hr. apply H. exact Hr. Qed.

(* the Pre hook of a unit whose stale runner is older than the flushing instruction *)
Lemma eu_pre3_stale e b : StaleOK b e -> g_seq e = 0 \/ b <= g_seq e -> eu_pre3 e = false.
Proof.
  intros Hs Hg. unfold eu_pre3. destruct (Z.eqb_spec (g_seq e) 0) as [|Hnz]; [reflexivity|].
  destruct (g_runner e) as [r|] eqn:Er; [|reflexivity]. specialize (Hs r Er). apply Z.ltb_ge. lia.
Qed.

Section FwdExec.
  Variables (app : list instr) (labels : Z -> option Z) (regs0 mem0 : list Z) (base : nat) (sq : Z) (ord : Z -> Z -> list Z -> list Z).
  Hypothesis Happ : wf_app app.
  Hypothesis Hreg : reg_only app = true.
  Hypothesis Hssa : ssa app = true.
  Hypothesis Hrng : regs_ok app = true.
  Hypothesis Hlen0 : length regs0 = 32%nat.
  Hypothesis Hr32 : Forall int32 regs0.
  Hypothesis Hx0 : nth 0 regs0 0 = 0.
  Hypothesis Hbase : (base <= length app)%nat.
  Hypothesis Hsq : 0 <= sq /\ 1000 * sq + 4 * Z.of_nat (length app) + 4 < 2147483648.
  Let n := length app.
  Let N := stop_from app base.

  Notation sreg := (sreg app labels regs0 base).
  Notation eff := (eff app labels regs0 base).
  Notation ik := (ik app).
  Notation wsl := (wsl app).
  Notation rsl := (rsl app).
  Notation rds := (rds app).
  Notation wrs := (wrs app).
  Notation kout := (kout app labels regs0 base).
  Notation sid := (sid sq).
  Notation exeb := (exeb app labels regs0 base).
  Notation rnq := (rnq app sq).
  Notation wbq := (wbq app labels regs0 base sq).
  Notation vw := (vw app labels regs0 base).
  Notation TabOK := (TabOK app labels regs0 base sq).
  Notation BIq := (BIq app labels regs0 mem0 base sq).
  Notation RecvOKq := (RecvOKq app labels regs0 base).
  Notation ReadOK := (ReadOK app).

  Hypothesis Hsem : forall k, (base <= k <= N)%nat -> (k < n)%nat ->
    exec (sinstr_of (ik k)) (rget (sreg k)) labels (pcz k) [] = Ok (eff k) /\
    (forall a, etarget (eff k) = Some a -> exists t, a = pcz t /\ (k < t <= n)%nat).
  (* wrong-path execution cannot fail *)
  Hypothesis Htot : forall k rr, (k < n)%nat -> exists e, exec (sinstr_of (ik k)) rr labels (pcz k) [] = Ok e.

  Set Default Proof Using "All".

  (* ---------------------------------------------------------------- *)
  (* indices, tags, runners                                             *)

  Lemma N_len : (N <= n)%nat. Proof. exact (N_le app base Hbase). Qed.
  Lemma base_N : (base <= N)%nat. Proof. exact (Mvp63RefFwdInv.base_N app base). Qed.

  Lemma q_pc_rnq r k : q_r r = rnq k -> q_pc r = pcz k.
  Proof. intros H. unfold q_pc. rewrite H. reflexivity. Qed.

  Lemma q_seq_rnq r k : q_r r = rnq k -> q_seq r = sid k.
  Proof. intros H. unfold q_seq. rewrite H. reflexivity. Qed.

  Lemma sid_lt j k : (j < k)%nat -> sid j < sid k.
  Proof using Type. intros H. unfold Mvp63RefFwdDefs.sid, sid3, pcz. clear - H. lia. Qed.

  Lemma sid_le j k : (j <= k)%nat -> sid j <= sid k.
  Proof using Type. intros H. unfold Mvp63RefFwdDefs.sid, sid3, pcz. clear - H. lia. Qed.

  Lemma sid_nonneg k : 0 <= sid k.
  Proof. unfold Mvp63RefFwdDefs.sid, sid3, pcz. lia. Qed.

  Lemma sid_eq k : sid k = pcz k + 1000 * sq.
  Proof. reflexivity. Qed.

  Lemma ebus_entryq dp d xe w pl pv x e : BIq dp d xe w pl pv x -> In e (flat (x_ebus x)) ->
    exists k, (xe <= k < d)%nat /\ q_r e = rnq k /\ kq e = k.
  Proof. exact (ebus_entry app labels regs0 mem0 base sq dp d xe w pl pv x e). Qed.

  Lemma head_entryq dp d xe w pl pv x r E' : BIq dp d xe w pl pv x -> flat (x_ebus x) = r :: E' ->
    q_r r = rnq xe /\ kq r = xe /\ (xe < d)%nat.
  Proof.
    intros HB Hfl. pose proof (bq_ebus _ _ _ _ _ _ _ _ _ _ _ _ _ HB) as He. rewrite Hfl in He. cbn [map] in He.
    destruct (d - xe)%nat as [|m] eqn:Em; [discriminate|]. cbn [seq map] in He. injection He as He _.
    split; [exact He|]. split; [apply (kq_rn app sq); exact He | lia].
  Qed.

  (* ---------------------------------------------------------------- *)
  (* the instructions of the segment                                    *)

  Lemma stop_N k : (base <= k <= N)%nat -> (k < n)%nat -> (is_stop (ik k) = true <-> k = N).
  Proof.
    intros H1 H2. split.
    - intros Hs. destruct (Nat.eq_dec k N) as [|Hne]; [assumption|]. exfalso.
      pose proof (stop_from_before app dfl base k ltac:(fold N; lia)) as Hf. unfold Mvp60RefSem.ik in Hs. congruence.
    - intros ->. exact (stop_from_at app dfl base H2).
  Qed.

  Lemma ret_is_Nq k : (base <= k <= N)%nat -> (k < n)%nat -> is_ret (ik k) = true -> k = N.
  Proof. intros H1 _. exact (is_ret_N app labels regs0 mem0 base sq ord Hlen0 Hbase Hsem k H1). Qed.

  Lemma jump_is_Nq k : (base <= k <= N)%nat -> (k < n)%nat -> is_jump (ik k) = true -> k = N.
  Proof. intros H1 _. exact (is_jump_N app labels regs0 mem0 base sq ord Hlen0 Hbase Hsem k H1). Qed.

  Lemma flagsq k : (base <= k <= N)%nat -> (k < n)%nat ->
    Return (exeb k) = is_ret (ik k) /\ MemoryChange (exeb k) = false /\
    PcChange (exeb k) = (match etarget (eff k) with Some _ => true | None => false end) /\
    (forall a, etarget (eff k) = Some a -> NextPc (exeb k) = a).
  Proof using Hreg Hsem. exact (embed_flags app labels regs0 base Hreg Hsem k). Qed.

  Lemma addS_pczq k : (k < n)%nat -> addS 32 (pcz k) 4 = pcz (S k).
  Proof.
    intros Hk. rewrite pcz_S. unfold addS. apply wrapS_id; [lia|]. pose proof (n_small app Happ) as H. fold n in H.
    apply int32_bounds. unfold pcz. lia.
  Qed.

  Lemma pcz_inj j k : pcz j = pcz k -> j = k.
  Proof. unfold pcz. lia. Qed.

  (* what instruction k of the segment (not the ret) reports *)
  Lemma kout_cases k : (base <= k <= N)%nat -> (k < n)%nat -> is_ret (ik k) = false ->
    (is_jump (ik k) = true /\ k = N /\ exists t, (k < t <= n)%nat /\ PcChange (exeb k) = true /\ NextPc (exeb k) = pcz t /\
        kout k = mk_euo6 true (pcz k) (pcz t) false) \/
    (is_jump (ik k) = false /\ condbr (ik k) = true /\ exists t, (S k < t <= n)%nat /\ PcChange (exeb k) = true /\ NextPc (exeb k) = pcz t /\
        kout k = mk_euo6 true (pcz k) (pcz t) false) \/
    (is_jump (ik k) = false /\ kout k = euo_none /\ (k < N)%nat /\
     (PcChange (exeb k) = false \/ (condbr (ik k) = true /\ PcChange (exeb k) = true /\ NextPc (exeb k) = pcz (S k)))).
  Proof.
    intros H1 H2 Hnr. destruct (flagsq k H1 H2) as (_ & _ & Hpc & Hnp).
    pose proof (eff_kind app labels regs0 base Hsem k H1 H2) as Hkind. destruct (Hsem k H1 H2) as [He Htgt].
    pose proof (eff_ret app labels regs0 base Hsem k H1 H2) as Hr.
    assert (HkN : is_jump (ik k) = false -> (k < N)%nat).
    { intros Hj. destruct (Nat.eq_dec k N) as [E|NE]; [|lia]. exfalso.
      pose proof (proj2 (stop_N k H1 H2) E) as Hs. unfold is_stop in Hs. rewrite Hnr, Hj in Hs. discriminate. }
    unfold Mvp60RefBack.kout. rewrite Hnr.
    destruct (eff k) as [rd v|bs| |a|rd v a|] eqn:Ee; cbn [etarget] in *.
    - right. right. split; [exact Hkind|]. split; [reflexivity|]. split; [apply HkN; exact Hkind|]. left. exact Hpc.
    - exfalso. exact (eff_nostore app labels regs0 base Hreg Hsem k bs H1 H2 Ee).
    - right. right. split; [exact Hkind|]. split; [reflexivity|]. split; [apply HkN; exact Hkind|]. left. exact Hpc.
    - destruct (Htgt a eq_refl) as (t & -> & Ht). specialize (Hnp _ eq_refl).
      destruct Hkind as [Hj|[Hj Hc]].
      + left. split; [exact Hj|]. split; [apply jump_is_Nq; assumption|]. exists t. rewrite Hj. cbn [orb]. auto.
      + rewrite Hj. cbn [orb]. destruct (Z.eqb_spec (pcz (S k)) (pcz t)) as [E|NE]; cbn [negb].
        * right. right. split; [reflexivity|]. split; [reflexivity|]. split; [apply HkN; exact Hj|]. right. rewrite E. auto.
        * right. left. split; [reflexivity|]. split; [exact Hc|]. exists t. split; [|auto].
          assert (t <> S k) by (intros ->; apply NE; reflexivity). lia.
    - destruct (Htgt a eq_refl) as (t & -> & Ht). specialize (Hnp _ eq_refl).
      left. split; [exact Hkind|]. split; [apply jump_is_Nq; assumption|]. exists t. rewrite Hkind. cbn [orb]. auto.
    - exfalso. rewrite (proj1 Hr eq_refl) in Hnr. discriminate.
  Qed.

  Lemma kout_ret_q k : is_ret (ik k) = true -> kout k = mk_euo6 false 0 0 true.
  Proof. intros H. unfold Mvp60RefBack.kout. rewrite H. reflexivity. Qed.

  (* an instruction that reports nothing and is not the ret is before N *)
  Lemma kout_none_lt k : (base <= k <= N)%nat -> (k < n)%nat -> kout k = euo_none -> (k < N)%nat /\ is_ret (ik k) = false /\ is_jump (ik k) = false.
  Proof.
    intros H1 H2 Hk. destruct (is_ret (ik k)) eqn:Er; [rewrite (kout_ret_q k Er) in Hk; discriminate|].
    destruct (kout_cases k H1 H2 Er) as [(_ & _ & t & _ & _ & _ & E)|[(_ & _ & t & _ & _ & _ & E)|(Hj & _ & Hlt & _)]];
      [rewrite E in Hk; discriminate | rewrite E in Hk; discriminate | auto].
  Qed.
  (* ---------------------------------------------------------------- *)
  (* the instruction at the head of the execute bus reads its sequential operands *)

  Lemma tables_viewq dp d xe w pl pv x q : BIq dp d xe w pl pv x -> tview (x_crat x) (x_trat x) q = vw w q.
  Proof. intros HB. apply (tb_view _ _ _ _ _ _ _ _ (bq_tab _ _ _ _ _ _ _ _ _ _ _ _ _ HB)). Qed.

  Lemma tview_int32 w crat trat q : TabOK w crat trat -> int32 (tview crat trat q).
  Proof. intros H. rewrite (tb_view _ _ _ _ _ _ _ _ H). apply (vw_int32 app labels regs0 base Hr32). Qed.

  Lemma ik_imm_q k : (k < n)%nat -> int32 (imm_of (sinstr_of (ik k))).
  Proof. intros H. destruct Happ as [Hf _]. rewrite Forall_forall in Hf. apply Hf. apply nth_In. exact H. Qed.

  Theorem head_operandsq dp d xe w pl pv x r E' : BIq dp d xe w pl pv x -> flat (x_ebus x) = r :: E' ->
    (forall ch, q_recv r = Some ch -> exists v, aget ch (x_chan x) = Some v) /\
    (forall q, In q (rds xe) -> reg_read3 (head_fw x r) (x_crat x) (x_trat x) q = rget (sreg xe) q) /\
    (forall q, int32 (reg_read3 (head_fw x r) (x_crat x) (x_trat x) q)) /\
    instr_Run (ik xe) (reg_read3 (head_fw x r) (x_crat x) (x_trat x)) labels (pcz xe) [] 0 = Ok (exeb xe).
  Proof.
    intros HB Hfl. destruct (head_entryq _ _ _ _ _ _ _ _ _ HB Hfl) as (Hqr & Hkq & Hxd).
    pose proof (bq_ord _ _ _ _ _ _ _ _ _ _ _ _ _ HB) as [Hord Hxed]. pose proof (bq_xeN _ _ _ _ _ _ _ _ _ _ _ _ _ HB) as HxN.
    pose proof (bq_dn _ _ _ _ _ _ _ _ _ _ _ _ _ HB) as [Hdn _]. fold n in Hdn. fold N in HxN.
    assert (Hin : In r (flat (x_ebus x))) by (rewrite Hfl; left; reflexivity).
    pose proof (bq_recv _ _ _ _ _ _ _ _ _ _ _ _ _ HB) as Hrc. apply Forall_app in Hrc as [Hrc _]. rewrite Forall_forall in Hrc. specialize (Hrc r Hin).
    pose proof (bq_read _ _ _ _ _ _ _ _ _ _ _ _ _ HB) as Hrd. rewrite Forall_forall in Hrd. specialize (Hrd r Hin). unfold Mvp63RefInv.ReadOK in Hrd. rewrite Hkq in Hrd.
    pose proof (bq_tab _ _ _ _ _ _ _ _ _ _ _ _ _ HB) as Htab.
    (* the channel of the head holds the value of the writer *)
    assert (Hch : forall ch, q_recv r = Some ch -> q_freg r <> 0 /\ exists p, (base <= p < xe)%nat /\ In (q_freg r) (wrs p) /\
                    aget ch (x_chan x) = Some (RegisterValue (exeb p))).
    { intros ch Hc. destruct (Hrc ch Hc) as (A & p & B & C & D). rewrite Hkq in B. split; [exact A|]. exists p.
      destruct D as [(D1 & _)|(D1 & D2)]; [lia|]. auto. }
    assert (Hview : forall q, In q (rds xe) -> q <> 0 -> (forall j, (w <= j < xe)%nat -> ~ In q (wrs j)) -> vw w q = rget (sreg xe) q).
    { intros q Hq Hnz Hno. pose proof (rds_rng app Hrng xe q Hq) as Hr.
      apply (vw_stable app labels regs0 base Hrng Hlen0); [lia | lia | exact Hno]. }
    assert (Hreads : forall q, In q (rds xe) -> reg_read3 (head_fw x r) (x_crat x) (x_trat x) q = rget (sreg xe) q).
    { intros q Hq. rewrite reg_read3_tview. unfold head_fw. destruct (q_recv r) as [ch|] eqn:Erc.
      - destruct (Hch ch eq_refl) as (Hfz & p & Hp & Hw & Hv). rewrite Hv. cbn [fst snd].
        destruct (Z.eqb_spec q (q_freg r)) as [->|Hne].
        + symmetry. pose proof (wrs_rng app Hrng p _ Hw).
          apply (fwd_valueq app labels regs0 base Hrng Hlen0 p xe (q_freg r) Hssa); [lia | fold n; lia | exact Hw | lia|].
          destruct (Hsem p ltac:(lia) ltac:(lia)) as [He _]. eexists. exact He.
        + rewrite (tb_view _ _ _ _ _ _ _ _ Htab). destruct (Z.eq_dec q 0) as [->|Hqz].
          * rewrite (vw_zero app labels regs0 base Hrng Hlen0 Hx0). reflexivity.
          * destruct (Hrd q Hq Hqz) as [[_ A]|A]; [contradiction | apply Hview; assumption].
      - cbn [fst snd]. destruct (Z.eqb_spec q 0) as [->|Hqz]; [reflexivity|].
        rewrite (tb_view _ _ _ _ _ _ _ _ Htab). destruct (Hrd q Hq Hqz) as [[A _]|A]; [congruence | apply Hview; assumption]. }
    assert (H32 : forall q, int32 (reg_read3 (head_fw x r) (x_crat x) (x_trat x) q)).
    { intros q. rewrite reg_read3_tview. destruct (q =? fst (head_fw x r)).
      - unfold head_fw. destruct (q_recv r) as [ch|] eqn:Erc; [|apply int32_0].
        destruct (Hch ch eq_refl) as (_ & p & _ & _ & Hv). rewrite Hv. cbn [snd]. apply (exeb_val_int32 app labels regs0 base).
      - apply (tview_int32 w). exact Htab. }
    split; [intros ch Hc; destruct (Hch ch Hc) as (_ & p & _ & _ & Hv); eauto|]. split; [exact Hreads|]. split; [exact H32|].
    rewrite (run_refines_spec _ labels (pcz xe) [] 0 H32 (ik xe) (ik_imm_q xe ltac:(lia)) (nomem_mem_ok _ (ik_nomem app Hreg xe))).
    assert (Hex : exec (sinstr_of (ik xe)) (reg_read3 (head_fw x r) (x_crat x) (x_trat x)) labels (pcz xe) []
                  = exec (sinstr_of (ik xe)) (rget (sreg xe)) labels (pcz xe) []).
    { apply spec_reads_sound. intros q Hq. rewrite <- read_registers_exact in Hq. apply Hreads. exact Hq. }
    rewrite Hex. destruct (Hsem xe ltac:(lia) ltac:(lia)) as [He _]. rewrite He. reflexivity.
  Qed.

  (* on the wrong path: any int32 operands, the instruction cannot fail, does not store, is not the ret *)
  Lemma wrong_run k rr : (k < n)%nat -> (forall q, int32 (rr q)) -> is_ret (ik k) = false ->
    exists e, instr_Run (ik k) rr labels (pcz k) [] 0 = Ok (embed e) /\ Return (embed e) = false /\ MemoryChange (embed e) = false.
  Proof.
    intros Hk H32 Hnr. destruct (Htot k rr Hk) as (e & He). exists e.
    rewrite (run_refines_spec _ labels (pcz k) [] 0 H32 (ik k) (ik_imm_q k Hk) (nomem_mem_ok _ (ik_nomem app Hreg k))), He.
    split; [reflexivity|].
    pose proof (exec_return_is_ret _ _ _ _ _ _ He) as Hr. pose proof (fun bs => nomem_no_store _ rr labels (pcz k) [] bs (ik_nomem app Hreg k)) as Hs.
    destruct e as [rd v|bs| |a|rd v a|]; cbn [embed].
    - destruct (reg_pair rd v). split; reflexivity.
    - exfalso. exact (Hs bs He).
    - split; reflexivity.
    - split; reflexivity.
    - destruct (reg_pair rd v). split; reflexivity.
    - exfalso. rewrite (proj1 Hr eq_refl) in Hnr. discriminate.
  Qed.
  (* ---------------------------------------------------------------- *)
  (* executeUnit.Cycle of an idle unit on the head of the execute bus, whatever the instruction computes *)

  (* btbBranchUnit.assert when the BTB has no entry for the instruction *)
  Definition bu_as (b : bu6) (k : nat) : bu6 :=
    if is_jump (ik k) then mk_bu6 true (-1) (b_btb b)
    else if condbr (ik k) then mk_bu6 true (addS 32 (pcz k) 4) (b_btb b)
    else mk_bu6 false (b_expect b) (b_btb b).

  Lemma bu_assert3_none x k : btb_get (b_btb (m_bu (x_m x))) (pcz k) = None ->
    bu_assert3 x (rnq k) = set_m x (set_bu (x_m x) (bu_as (m_bu (x_m x)) k)).
  Proof.
    intros H. unfold bu_assert3, bu_as, is_jump, condbr. cbn [Mvp63RefFwdDefs.rnq r_instr r_pc].
    destruct (InstructionType_IsUnconditionalBranch _); [rewrite H; reflexivity|].
    destruct (InstructionType_IsConditionalBranch _); reflexivity.
  Qed.

  (* coRun of instruction k with execution record exe, from the state xc (forward field already cleared);
     fw = the Forwarder channel of the runner *)
  Definition run_gen (xc : mx) (cy : Z) (fw : option Z) (k : nat) (exe : execution) : mx * eu_out3 :=
    if Return exe then (xc, mk_euo3 false 0 0 true None) else
    let x1 := set_m xc (set_wbus (x_m xc) (bb_add (m_wbus (x_m xc))
                 (mk_wb6 (sid k) exe (instr_ReadRegisters (ik k)) (instr_WriteRegisters (ik k))) cy)) in
    match fw with
    | Some ch => (set_chan3 x1 (x_chan x1 ++ [(ch, RegisterValue exe)]), yo_none)
    | None =>
        let x2 := if is_jump (ik k) then bu_resolved3 x1 (pcz k) (NextPc exe) else x1 in
        let x3 := if condbr (ik k) then
                    if PcChange exe && negb (NextPc exe =? addS 32 (pcz k) 4)
                    then rat_rollback3 ord cy (set_pcb3 x2 false) (sid k)
                    else rat_commit3 ord cy (set_pcb3 x2 false)
                  else x2 in
        if PcChange exe then
          (set_m x3 (set_bu (x_m x3) (fst (bu_should_flush6 (m_bu (x_m x3)) (NextPc exe)))),
           if snd (bu_should_flush6 (m_bu (x_m x3)) (NextPc exe)) then mk_euo3 true (sid k) (NextPc exe) false None else yo_none)
        else (x3, yo_none)
    end.

  Lemma eu_run_gen cy k xb e r exe : g_runner e = Some r -> q_r r = rnq k -> g_memory e = [] ->
    instr_Run (ik k) (rr3 xb (pcz k)) labels (pcz k) [] 0 = Ok exe -> MemoryChange exe = false ->
    (forall ch, q_fwder r = Some ch -> aget ch (x_chan xb) = None /\ InstructionType_IsBranch (instr_InstructionType (ik k)) = false) ->
    eu_run3 labels ord cy xb e =
      (false, Ok (fst (run_gen (set_forward3 xb (pcz k) 0 0) cy (q_fwder r) k exe), mk_eu3 ENone [] (Some r) (g_seq e),
                  snd (run_gen (set_forward3 xb (pcz k) 0 0) cy (q_fwder r) k exe))).
  Proof.
    intros Hr Hqr Hmem Hrun Hmc Hfw.
    pose proof (q_instr_rn app sq r k Hqr) as Hi. pose proof (q_pc_rnq r k Hqr) as Hpc. pose proof (q_seq_rnq r k Hqr) as Hsq'.
    unfold eu_run3, run_gen. rewrite Hr. cbv zeta. rewrite Hi, Hpc, Hsq', Hmem, Hrun.
    destruct (Return exe); [reflexivity|].
    rewrite Hmc. cbn [andb bind]. cbv iota beta.
    destruct (q_fwder r) as [ch|] eqn:Ef.
    - destruct (Hfw ch eq_refl) as [Hn Hb]. cbn [x_chan set_m set_forward3 set_fwd3]. rewrite Hn, Hb. reflexivity.
    - unfold is_jump, condbr. destruct (PcChange exe); [|reflexivity].
      match goal with |- context [bu_should_flush6 ?b ?p] => destruct (bu_should_flush6 b p) as [b' fl] end. reflexivity.
  Qed.

  (* the state after the unit has taken the head r = instruction k, received, asserted *)
  Definition pre_run (x : mx) (r : runner3) (k : nat) : mx :=
    mk_mx (set_bu (x_m x) (bu_as (m_bu (x_m x)) k)) (ebus_tl (x_ebus x)) (x_pend x) (x_prev x) (x_pcb x) (x_seq x)
          (x_crat x) (x_trat x) (x_fwd x) (rchan x r) (x_next x) (x_os x).

  Definition exec_gen (x : mx) (cy : Z) (r : runner3) (k : nat) (exe : execution) : mx * eu_out3 :=
    run_gen (pre_run x r k) cy (q_fwder r) k exe.

  Lemma eu_head_gen cy x e r q' k exe :
    bb_q (x_ebus x) = r :: q' -> EuIdle e -> eu_pre3 e = false -> q_r r = rnq k -> (k < n)%nat ->
    x_fwd x = repeat (0, 0) n -> bb_canadd (m_wbus (x_m x)) = true ->
    btb_get (b_btb (m_bu (x_m x))) (pcz k) = None ->
    (forall ch, q_recv r = Some ch -> exists v, aget ch (x_chan x) = Some v) ->
    (forall ch, q_fwder r = Some ch -> aget ch (x_chan x) = None /\ InstructionType_IsBranch (instr_InstructionType (ik k)) = false) ->
    instr_Run (ik k) (reg_read3 (head_fw x r) (x_crat x) (x_trat x)) labels (pcz k) [] 0 = Ok exe -> MemoryChange exe = false ->
    eu_cycle3 labels ord cy x e =
      (false, Ok (fst (exec_gen x cy r k exe), mk_eu3 ENone [] (Some (recvd r)) (g_seq e), snd (exec_gen x cy r k exe))).
  Proof.
    intros Hq [Hco Hmem] Hpre Hqr Hkn Hfwd Hca Hbtb Hch Hfo Hrun Hmc.
    unfold eu_cycle3. rewrite Hpre, Hco. unfold bb_get. rewrite Hq.
    unfold eu_prepare3. cbn [x_m set_ebus3 g_runner g_co g_memory g_seq x_chan]. rewrite Hca. cbn [negb].
    set (xa := set_ebus3 x (mk_bb (bb_buf (x_ebus x)) q' (bb_ql (x_ebus x)) (bb_bl (x_ebus x)))).
    assert (Hnm : forall rr, instr_MemoryRead (ik k) rr 0 = []) by (intros rr; apply nomem_no_read; apply (ik_nomem app Hreg)).
    unfold exec_gen.
    destruct (q_recv r) as [ch|] eqn:Erc.
    - destruct (Hch ch eq_refl) as (v & Hv). cbn [x_chan xa set_ebus3]. rewrite Hv.
      unfold q_instr, q_pc. cbn [q_r]. rewrite Hqr. rewrite bu_assert3_none by exact Hbtb.
      cbn [Mvp63RefFwdDefs.rnq r_instr r_pc]. rewrite Hnm.
      match goal with |- eu_run3 _ _ _ ?x1 ?e1 = _ => set (xb := x1); set (eb := e1) end.
      rewrite (eu_run_gen cy k xb eb (mk_r3 (rnq k) (q_id r) (q_fwder r) None (q_freg r)) exe eq_refl eq_refl Hmem).
      + assert (Hxb : set_forward3 xb (pcz k) 0 0 = pre_run x r k).
        { apply mx_eq; unfold xb, xa, pre_run, rchan; rewrite ?Erc;
            cbn [x_m x_ebus x_pend x_prev x_pcb x_seq x_crat x_trat x_fwd x_chan x_next x_os set_m set_ebus3 set_forward3 set_fwd3 set_chan3];
            try reflexivity; try (unfold ebus_tl; rewrite Hq; reflexivity).
          rewrite !fwd_idx_pcz, upd3_upd, Hfwd. apply upd3_repeat. }
        rewrite Hxb. cbn [q_fwder g_seq eb]. unfold recvd. rewrite Erc, Hqr. reflexivity.
      + unfold rr3, xb, xa. cbn [x_m x_ebus x_crat x_trat x_fwd set_m set_ebus3 set_forward3 set_fwd3 set_chan3].
        rewrite !fwd_idx_pcz, supd_nth_eq by (rewrite Hfwd, repeat_length; exact Hkn).
        unfold head_fw in Hrun. rewrite Erc, Hv in Hrun. exact Hrun.
      + exact Hmc.
      + intros c Hc. cbn [q_fwder] in Hc. destruct (Hfo c Hc) as [A B]. split; [|exact B].
        unfold xb, xa. cbn [x_chan set_m set_ebus3 set_forward3 set_fwd3 set_chan3]. apply aget_filter_none. exact A.
    - unfold q_instr, q_pc. rewrite Hqr. rewrite bu_assert3_none by exact Hbtb.
      cbn [Mvp63RefFwdDefs.rnq r_instr r_pc]. rewrite Hnm.
      match goal with |- eu_run3 _ _ _ ?x1 ?e1 = _ => set (xb := x1); set (eb := e1) end.
      rewrite (eu_run_gen cy k xb eb r exe eq_refl Hqr Hmem).
      + assert (Hxb : set_forward3 xb (pcz k) 0 0 = pre_run x r k).
        { apply mx_eq; unfold xb, xa, pre_run, rchan; rewrite ?Erc;
            cbn [x_m x_ebus x_pend x_prev x_pcb x_seq x_crat x_trat x_fwd x_chan x_next x_os set_m set_ebus3 set_forward3 set_fwd3 set_chan3];
            try reflexivity; try (unfold ebus_tl; rewrite Hq; reflexivity).
          rewrite ?fwd_idx_pcz, Hfwd. apply upd3_repeat. }
        rewrite Hxb. cbn [g_seq eb]. unfold recvd. rewrite Erc. reflexivity.
      + unfold rr3, xb, xa. cbn [x_m x_ebus x_crat x_trat x_fwd set_m set_ebus3].
        rewrite Hfwd, nth_repeat_same. unfold head_fw in Hrun. rewrite Erc in Hrun. exact Hrun.
      + exact Hmc.
      + intros c Hc. unfold xb, xa. cbn [x_chan set_m set_ebus3]. apply (Hfo c Hc).
  Qed.
  (* ---------------------------------------------------------------- *)
  (* the head reports nothing (kout xe = euo_none): a plain instruction, a branch that is not taken or goes
     to the next instruction                                            *)

  Lemma jump_not_cond i : is_jump i = true -> condbr i = false.
  Proof. destruct i; try discriminate; reflexivity. Qed.

  Lemma notbranch_flags k : InstructionType_IsBranch (instr_InstructionType (ik k)) = false ->
    is_jump (ik k) = false /\ condbr (ik k) = false.
  Proof. unfold InstructionType_IsBranch, is_jump, condbr. intros H. apply orb_false_iff in H. exact H. Qed.

  Definition exec_plainq (x : mx) (cy : Z) (r : runner3) (k : nat) (bu' : bu6) : mx :=
    mk_mx (set_wbus (set_bu (x_m x) bu') (bb_add (m_wbus (x_m x)) (wbq k) cy))
          (ebus_tl (x_ebus x)) (x_pend x) (x_prev x) (if condbr (ik k) then false else x_pcb x) (x_seq x)
          (if condbr (ik k) then commit_vals ord cy (x_crat x) (rat_values tu0 (x_trat x)) else x_crat x)
          (if condbr (ik k) then rat_new ratLength else x_trat x) (x_fwd x)
          (schan (rchan x r) r (RegisterValue (exeb k))) (x_next x) (x_os x).

  Lemma exec_gen_plain x cy r k : (base <= k <= N)%nat -> (k < n)%nat -> kout k = euo_none ->
    (forall ch, q_fwder r = Some ch -> InstructionType_IsBranch (instr_InstructionType (ik k)) = false) ->
    exists bu', b_btb bu' = b_btb (m_bu (x_m x)) /\ exec_gen x cy r k (exeb k) = (exec_plainq x cy r k bu', yo_none).
  Proof.
    intros H1 H2 Hk Hfo. destruct (kout_none_lt k H1 H2 Hk) as (HkN & Hnr & Hj).
    destruct (flagsq k H1 H2) as (Hret & _). rewrite Hnr in Hret.
    destruct (kout_cases k H1 H2 Hnr) as [(_ & _ & t & _ & _ & _ & E)|[(_ & _ & t & _ & _ & _ & E)|(_ & _ & _ & Hpc)]];
      [rewrite E in Hk; discriminate | rewrite E in Hk; discriminate |].
    unfold exec_gen, run_gen. rewrite Hret. cbv zeta. unfold pre_run, bu_as. rewrite Hj.
    destruct (q_fwder r) as [ch|] eqn:Ef.
    - destruct (notbranch_flags k (Hfo ch eq_refl)) as [_ Hc].
      exists (mk_bu6 false (b_expect (m_bu (x_m x))) (b_btb (m_bu (x_m x)))). split; [reflexivity|].
      unfold exec_plainq, schan. rewrite Ef, Hc. reflexivity.
    - destruct (condbr (ik k)) eqn:Ec.
      + destruct Hpc as [Hp|(_ & Hp & Hnp)].
        * rewrite Hp. cbn [andb].
          exists (mk_bu6 true (addS 32 (pcz k) 4) (b_btb (m_bu (x_m x)))). split; [reflexivity|].
          unfold exec_plainq, schan. rewrite Ef, Ec. reflexivity.
        * rewrite Hp, Hnp, (addS_pczq k H2), Z.eqb_refl. cbn [negb andb].
          exists (mk_bu6 false (pcz (S k)) (b_btb (m_bu (x_m x)))). split; [reflexivity|].
          unfold exec_plainq, schan, bu_should_flush6, rat_commit3. rewrite Ef, Ec.
          cbn [x_m set_m set_wbus set_bu set_pcb3 set_rats3 m_bu b_check b_expect b_btb negb fst snd]. rewrite Z.eqb_refl. reflexivity.
      + destruct Hpc as [Hp|(Hc & _)]; [|congruence]. rewrite Hp.
        exists (mk_bu6 false (b_expect (m_bu (x_m x))) (b_btb (m_bu (x_m x)))). split; [reflexivity|].
        unfold exec_plainq, schan. rewrite Ef, Ec. reflexivity.
  Qed.
  Lemma BIq_exec_plain cy dp d xe w pl pv x r q' bu' :
    BIq dp d xe w pl pv x -> bb_q (x_ebus x) = r :: q' -> (forall p, In p pv -> (xe < kq p)%nat) -> kout xe = euo_none ->
    BIq dp d (S xe) w pl pv (exec_plainq x cy r xe bu').
  Proof.
    intros HB Hq Hpv Hko.
    set (E' := q' ++ map snd (bb_buf (x_ebus x))).
    assert (Hfl : flat (x_ebus x) = r :: E') by (unfold flat, E'; rewrite Hq; reflexivity).
    destruct (head_entryq _ _ _ _ _ _ _ _ _ HB Hfl) as (Hqr & Hkq & Hxd).
    pose proof HB as HBd; dBI HBd; destruct bq_ord0 as [bi_ordw bi_ord0].
    rewrite Hfl in *. fold n N in bq_dn0, bq_xeN0, bq_ret0.
    assert (Hxn : (xe < n)%nat) by lia.
    destruct (kout_none_lt xe ltac:(lia) Hxn Hko) as (HxN & Hnr & Hj).
    assert (Hfl' : flat (ebus_tl (x_ebus x)) = E') by (unfold flat, ebus_tl, E'; cbn [bb_q bb_buf]; rewrite Hq; reflexivity).
    assert (HE' : map q_r E' = map rnq (seq (S xe) (d - S xe))).
    { replace (d - xe)%nat with (S (d - S xe)) in bq_ebus0 by lia. cbn [seq map] in bq_ebus0. injection bq_ebus0 as _ H. exact H. }
    assert (HE'k : forall a, In a E' -> (S xe <= kq a < d)%nat).
    { intros a Ha. destruct (map_rn_in app sq _ _ _ _ HE' Ha) as (k & Hk & _ & Ek). lia. }
    assert (Hfo : FwdOKq (x_chan x) (x_next x) r) by (inversion bq_fwder0; assumption).
    set (v := RegisterValue (exeb xe)).
    destruct (chan_lt x r v (x_next x) bq_chan0 ltac:(intros c Hc; apply (Hfo c Hc))) as [Hcl1 Hcl2].
    assert (Hrc : forall a, In a (r :: E' ++ pl) -> RecvOKq xe (r :: E') (x_chan x) a).
    { rewrite Forall_forall in bq_recv0. exact bq_recv0. }
    (* channels after the step *)
    assert (Hget_old : forall a c val, In a (E' ++ pl) -> q_recv a = Some c -> aget c (x_chan x) = Some val ->
              aget c (schan (rchan x r) r v) = Some val).
    { intros a c val Ha Hc Hval.
      assert (H1 : aget c (rchan x r) = Some val).
      { unfold rchan. destruct (q_recv r) as [rch|] eqn:Er; [|exact Hval]. rewrite aget_filter_ne; [exact Hval|].
        eapply recvs_head_ne; [exact bq_rnd0 | exact Er | exact Ha | exact Hc]. }
      unfold schan. destruct (q_fwder r); [apply aget_app_some|]; exact H1. }
    constructor; unfold exec_plainq;
      cbn [x_ebus x_m x_crat x_trat x_fwd x_seq x_pcb x_chan x_next x_os set_bu set_wbus m_pw m_pr m_regs m_mem m_l3 m_wbus];
      rewrite ?Hfl', ?add_flat; try assumption.
    - lia.
    - fold N. intros Hlt Hret. specialize (bq_ret0 Hlt Hret). lia.
    - intros k Hk. destruct (Nat.eq_dec k xe) as [->|Hne]; [exact Hko | apply bq_exec0; lia].
    - rewrite bq_wbus0. replace (S xe - w)%nat with (S (xe - w)) by lia. rewrite seq_snoc, map_app. cbn [map].
      replace (w + (xe - w))%nat with xe by lia. reflexivity.
    - destruct (condbr (ik xe)); [apply (tab_commit app labels regs0 base Hlen0) | ]; exact bq_tab0.
    - destruct (condbr (ik xe)) eqn:Ec; [discriminate|]. intros Hp. destruct (bq_pcb0 Hp) as (r0 & [<-|Hin] & Hc0); [|eauto].
      rewrite Hkq in Hc0. congruence.
    - cbn [map] in bq_idnd0. inversion bq_idnd0; assumption.
    - inversion bq_idlt0; assumption.
    - inversion bq_read0; assumption.
    - apply Forall_forall. intros a Ha c Hc. destruct (Hrc a (or_intror Ha) c Hc) as (A & p & B & C & D).
      split; [exact A|]. exists p. split; [exact B|]. split; [exact C|].
      destruct D as [(D1 & rp & D2 & D3 & D4)|(D1 & D2)].
      + destruct (Nat.eq_dec p xe) as [->|Hne].
        * right. split; [lia|]. assert (rp = r).
          { destruct D2 as [<-|D2]; [reflexivity|]. exfalso. specialize (HE'k rp D2). lia. }
          subst rp. unfold schan. rewrite D4. apply aget_snoc_new. unfold rchan.
          destruct (q_recv r); [apply aget_filter_none|]; apply (Hfo c D4).
        * left. split; [lia|]. exists rp. split; [|auto]. destruct D2 as [<-|D2]; [lia | exact D2].
      + right. split; [lia|]. eapply Hget_old; eassumption.
    - apply Forall_forall. intros a Ha c Hc. rewrite Forall_forall in bq_fwder0. destruct (bq_fwder0 a (or_intror Ha) c Hc) as (G1 & G2 & G3).
      split; [|split; [exact G2 | exact G3]]. unfold schan.
      assert (H1 : aget c (rchan x r) = None) by (unfold rchan; destruct (q_recv r); [apply aget_filter_none|]; exact G1).
      destruct (q_fwder r) as [fch|] eqn:Ef; [|exact H1]. rewrite (aget_app_none _ _ _ H1). cbn [aget].
      destruct (Z.eqb_spec c fch) as [->|]; [|reflexivity]. exfalso.
      exact (fwds_head_ne r E' a fch fch bq_fnd0 Ef Ha Hc eq_refl).
    - change ((r :: E') ++ pl) with ([r] ++ (E' ++ pl)) in bq_rnd0. rewrite recvs_app in bq_rnd0. apply NoDup_app_r in bq_rnd0. exact bq_rnd0.
    - change ((r :: E') ++ pl) with ([r] ++ (E' ++ pl)) in bq_rlt0. rewrite recvs_app in bq_rlt0. apply Forall_app in bq_rlt0. apply bq_rlt0.
    - intros p Hp. destruct (bq_prev0 p Hp) as ([<-|A] & B & C); [specialize (Hpv _ Hp); lia | auto].
    - change (r :: E') with ([r] ++ E') in bq_fnd0. rewrite fwds_app in bq_fnd0. apply NoDup_app_r in bq_fnd0. exact bq_fnd0.
  Qed.
  (* ---------------------------------------------------------------- *)
  (* the head is the ret                                                *)

  Lemma exec_gen_ret x cy r k : (base <= k <= N)%nat -> (k < n)%nat -> is_ret (ik k) = true ->
    exec_gen x cy r k (exeb k) = (pre_run x r k, mk_euo3 false 0 0 true None).
  Proof.
    intros H1 H2 Hr. destruct (flagsq k H1 H2) as (Hret & _). rewrite Hr in Hret.
    unfold exec_gen, run_gen. rewrite Hret. reflexivity.
  Qed.

  Lemma BIq_exec_ret dp d xe w pv x r q' :
    BIq dp d xe w [] pv x -> bb_q (x_ebus x) = r :: q' -> is_ret (ik xe) = true ->
    xe = N /\ d = S N /\ (N < n)%nat /\ q' = [] /\ BIq dp xe xe w [] [] (pre_run x r xe).
  Proof.
    intros HB0 Hq Hret. pose proof (BI_noprev app labels regs0 mem0 base sq _ _ _ _ _ _ _ HB0) as HB.
    set (E' := q' ++ map snd (bb_buf (x_ebus x))).
    assert (Hfl : flat (x_ebus x) = r :: E') by (unfold flat, E'; rewrite Hq; reflexivity).
    destruct (head_entryq _ _ _ _ _ _ _ _ _ HB Hfl) as (Hqr & Hkq & Hxd).
    pose proof HB as HBd; dBI HBd; destruct bq_ord0 as [bi_ordw bi_ord0].
    rewrite Hfl in *. fold n N in bq_dn0, bq_xeN0, bq_ret0.
    assert (Hxn : (xe < n)%nat) by lia.
    assert (HxeN : xe = N) by (apply ret_is_Nq; [lia | exact Hxn | exact Hret]).
    assert (HdN : d = S N) by lia.
    assert (Hfl' : flat (ebus_tl (x_ebus x)) = E') by (unfold flat, ebus_tl, E'; cbn [bb_q bb_buf]; rewrite Hq; reflexivity).
    assert (HE' : map q_r E' = map rnq (seq (S xe) (d - S xe))).
    { replace (d - xe)%nat with (S (d - S xe)) in bq_ebus0 by lia. cbn [seq map] in bq_ebus0. injection bq_ebus0 as _ H. exact H. }
    assert (HE'nil : E' = []).
    { apply (f_equal (@length _)) in HE'. rewrite !map_length, seq_length in HE'. destruct E'; [reflexivity | cbn in HE'; lia]. }
    assert (Hq'nil : q' = []) by (unfold E' in HE'nil; apply app_eq_nil in HE'nil; apply HE'nil).
    split; [exact HxeN|]. split; [exact HdN|]. split; [lia|]. split; [exact Hq'nil|].
    destruct (ret_slots app xe Hret) as [Hrs Hws].
    assert (Hcnt : forall f, f xe = [] -> forall s, cnt f (seq w (d - w)) s = cnt f (seq w (xe - w)) s).
    { intros f Hf s. replace (d - w)%nat with (S (xe - w)) by lia. rewrite seq_snoc, cnt_app. cbn [cnt].
      replace (w + (xe - w))%nat with xe by lia. rewrite Hf. unfold cnt1. cbn. lia. }
    constructor; unfold pre_run;
      cbn [x_ebus x_m x_crat x_trat x_fwd x_seq x_pcb x_chan x_next x_os set_bu set_wbus m_pw m_pr m_regs m_mem m_l3 m_wbus];
      rewrite ?Hfl', ?HE'nil; cbn [List.app map recvs fwds flat_map length]; try assumption; try (constructor; fail).
    - lia.
    - split; [fold n; lia | fold N; lia].
    - intros; fold N; lia.
    - rewrite Nat.sub_diag. reflexivity.
    - intros s Hs. rewrite bq_pw0 by exact Hs. apply Hcnt. exact Hws.
    - intros s Hs. rewrite bq_pr0 by exact Hs. apply Hcnt. exact Hrs.
    - intros Hp. exfalso. destruct (bq_pcb0 Hp) as (r0 & Hin & Hc0). rewrite HE'nil in Hin. destruct Hin as [<-|[]].
      rewrite Hkq in Hc0. destruct (ret_not_branch _ Hret) as [_ Hc]. congruence.
    - unfold rchan. destruct (q_recv r); [apply Forall_filter3|]; exact bq_chan0.
    - intros p [].
  Qed.
  (* ---------------------------------------------------------------- *)
  (* what every execution leaves alone / does, whatever it computes     *)

  Record ExFrame (x x' : mx) : Prop := mkXF {
    xf_pend : x_pend x' = x_pend x; xf_prev : x_prev x' = x_prev x;
    xf_ebus : x_ebus x' = ebus_tl (x_ebus x);
    xf_fwd : x_fwd x' = x_fwd x; xf_next : x_next x' = x_next x; xf_os : x_os x' = x_os x;
    xf_regs : m_regs (x_m x') = m_regs (x_m x); xf_mem : m_mem (x_m x') = m_mem (x_m x);
    xf_pw : m_pw (x_m x') = m_pw (x_m x); xf_pr : m_pr (x_m x') = m_pr (x_m x);
    xf_l1i : m_l1i (x_m x') = m_l1i (x_m x); xf_l3 : m_l3 (x_m x') = m_l3 (x_m x); xf_mpend : m_pend (x_m x') = m_pend (x_m x);
    xf_dret : m_dret (x_m x') = m_dret (x_m x); xf_cu : m_cu (x_m x') = m_cu (x_m x);
    xf_dbus : m_dbus (x_m x') = m_dbus (x_m x); xf_cbus : m_cbus (x_m x') = m_cbus (x_m x); xf_mebus : m_ebus (x_m x') = m_ebus (x_m x);
    xf_wq : bb_q (m_wbus (x_m x')) = bb_q (m_wbus (x_m x)); xf_wql : bb_ql (m_wbus (x_m x')) = bb_ql (m_wbus (x_m x));
    xf_wbl : bb_bl (m_wbus (x_m x')) = bb_bl (m_wbus (x_m x)) }.

  Ltac eg_cases r k exe :=
    unfold exec_gen, run_gen, pre_run; cbv zeta;
    destruct (Return exe); [|destruct (q_fwder r); [|destruct (is_jump (ik k)), (condbr (ik k)), (PcChange exe); cbn [andb];
       try destruct (negb (NextPc exe =? addS 32 (pcz k) 4))]].

  Lemma exec_gen_frame x cy r k exe : ExFrame x (fst (exec_gen x cy r k exe)).
  Proof. eg_cases r k exe; constructor; reflexivity. Qed.

  Lemma exec_gen_wbuf x cy r k exe : Return exe = false ->
    bb_buf (m_wbus (x_m (fst (exec_gen x cy r k exe)))) =
    bb_buf (m_wbus (x_m x)) ++ [(cy + 1, mk_wb6 (sid k) exe (instr_ReadRegisters (ik k)) (instr_WriteRegisters (ik k)))].
  Proof. intros Hr. eg_cases r k exe; try discriminate Hr; reflexivity. Qed.

  Lemma exec_gen_chan x cy r k exe : Return exe = false ->
    x_chan (fst (exec_gen x cy r k exe)) = schan (rchan x r) r (RegisterValue exe).
  Proof. intros Hr. unfold schan. eg_cases r k exe; try discriminate Hr; reflexivity. Qed.

  Lemma exec_gen_tab x cy r k exe w : TabOK w (x_crat x) (x_trat x) -> sid w <= sid k ->
    TabOK w (x_crat (fst (exec_gen x cy r k exe))) (x_trat (fst (exec_gen x cy r k exe))).
  Proof.
    intros Ht Hs. eg_cases r k exe;
      cbn [fst x_crat x_trat set_m set_chan3 set_pcb3 rat_rollback3 rat_commit3 set_rats3 bu_resolved3 fu_reset3 inc_seq3 set_seq3 x_m];
      first [exact Ht | apply (tab_commit app labels regs0 base Hlen0); exact Ht | apply (tab_rollback app labels regs0 base Hlen0); [exact Ht | exact Hs]].
  Qed.

  Lemma exec_gen_seq x cy r k exe :
    x_seq (fst (exec_gen x cy r k exe)) = x_seq x \/
    (x_seq (fst (exec_gen x cy r k exe)) = addS 32 (x_seq x) 1 /\ is_jump (ik k) = true).
  Proof. destruct (is_jump (ik k)) eqn:Ej; eg_cases r k exe; try rewrite Ej; try (left; reflexivity); right; split; reflexivity. Qed.

  Lemma exec_gen_btb x cy r k exe :
    b_btb (m_bu (x_m (fst (exec_gen x cy r k exe)))) = b_btb (m_bu (x_m x)) \/
    b_btb (m_bu (x_m (fst (exec_gen x cy r k exe)))) = btb_add (b_btb (m_bu (x_m x))) (pcz k) (NextPc exe).
  Proof.
    unfold exec_gen, run_gen, pre_run, bu_as, bu_should_flush6; cbv zeta.
    destruct (is_jump (ik k)), (condbr (ik k));
      (destruct (Return exe); [|destruct (q_fwder r); [|destruct (PcChange exe); cbn [andb];
         try destruct (negb (NextPc exe =? addS 32 (pcz k) 4))]]);
      try (left; reflexivity); try (right; reflexivity).
  Qed.

  Lemma exec_gen_out x cy r k exe : let o := snd (exec_gen x cy r k exe) in
    y_err o = None /\ y_ret o = Return exe /\ (y_flush o = true -> y_seq o = sid k /\ y_pc o = NextPc exe).
  Proof.
    cbv zeta. eg_cases r k exe; cbn [snd];
      try match goal with |- context [if ?c then mk_euo3 _ _ _ _ _ else _] => destruct c end;
      cbn [y_err y_ret y_flush y_seq y_pc yo_none]; repeat split; try discriminate.
  Qed.
  (* ---------------------------------------------------------------- *)
  (* the head asks for a flush: the jump at N, or a conditional branch taken to t >= E + 2 *)

  Definition exec_flushq (x : mx) (cy : Z) (r : runner3) (k t : nat) : mx :=
    if is_jump (ik k) then
      mk_mx (set_du (set_fu (set_wbus (set_bu (x_m x) (mk_bu6 false (-1) (btb_add (b_btb (m_bu (x_m x))) (pcz k) (pcz t))))
                                      (bb_add (m_wbus (x_m x)) (wbq k) cy))
                            (fu_reset6 (m_fu (x_m x)) (pcz t)))
                    (m_dret (x_m x)) false)
            (ebus_tl (x_ebus x)) (x_pend x) (x_prev x) (x_pcb x) (addS 32 (x_seq x) 1) (x_crat x) (x_trat x) (x_fwd x)
            (rchan x r) (x_next x) (x_os x)
    else
      mk_mx (set_wbus (set_bu (x_m x) (mk_bu6 false (pcz (S k)) (b_btb (m_bu (x_m x))))) (bb_add (m_wbus (x_m x)) (wbq k) cy))
            (ebus_tl (x_ebus x)) (x_pend x) (x_prev x) false (x_seq x)
            (commit_vals ord cy (x_crat x) (rat_findvalues tu0 (x_trat x) (fun u => fst u <? sid k))) (rat_new ratLength) (x_fwd x)
            (rchan x r) (x_next x) (x_os x).

  Lemma exec_gen_flush x cy r k t : (base <= k <= N)%nat -> (k < n)%nat ->
    kout k = mk_euo6 true (pcz k) (pcz t) false -> q_fwder r = None ->
    exec_gen x cy r k (exeb k) = (exec_flushq x cy r k t, mk_euo3 true (sid k) (pcz t) false None) /\
    (k < t <= n)%nat /\ (is_jump (ik k) = true -> k = N) /\ (is_jump (ik k) = false -> condbr (ik k) = true /\ (S k < t)%nat).
  Proof.
    intros H1 H2 Hk Ef.
    assert (Hnr : is_ret (ik k) = false) by (destruct (is_ret (ik k)) eqn:Er; [rewrite (kout_ret_q k Er) in Hk; discriminate | reflexivity]).
    destruct (flagsq k H1 H2) as (Hret & _). rewrite Hnr in Hret.
    assert (Hneg : forall u, (-1 =? pcz u) = false) by (intros u; apply Z.eqb_neq; unfold pcz; lia).
    destruct (kout_cases k H1 H2 Hnr) as [(Hj & HkN & t' & Ht & Hp & Hnp & E)|[(Hj & Hc & t' & Ht & Hp & Hnp & E)|(_ & E & _)]].
    - rewrite E in Hk. injection Hk as Hk. apply pcz_inj in Hk. subst t'.
      split; [|split; [exact Ht|split; [intros _; exact HkN | congruence]]].
      unfold exec_gen, run_gen. rewrite Hret, Ef. cbv zeta. unfold pre_run, bu_as, exec_flushq. rewrite Hj, (jump_not_cond _ Hj), Hp, Hnp.
      unfold bu_should_flush6, bu_resolved3, fu_reset3, inc_seq3.
      cbn [x_m x_seq set_m set_wbus set_bu set_fu set_du set_seq3 m_bu m_fu m_dret b_check b_expect b_btb negb fst snd].
      rewrite Hneg. reflexivity.
    - rewrite E in Hk. injection Hk as Hk. apply pcz_inj in Hk. subst t'.
      split; [|split; [lia|split; [congruence | intros _; split; [exact Hc | lia]]]].
      unfold exec_gen, run_gen. rewrite Hret, Ef. cbv zeta. unfold pre_run, bu_as, exec_flushq. rewrite Hj, Hc, Hp, Hnp, (addS_pczq k H2).
      assert (Hne : (pcz t =? pcz (S k)) = false) by (apply Z.eqb_neq; unfold pcz; lia).
      assert (Hne' : (pcz (S k) =? pcz t) = false) by (apply Z.eqb_neq; unfold pcz; lia).
      rewrite Hne. cbn [negb andb]. unfold bu_should_flush6, rat_rollback3.
      cbn [x_m set_m set_wbus set_bu set_pcb3 set_rats3 m_bu b_check b_expect b_btb negb fst snd].
      rewrite Hne'. reflexivity.
    - rewrite E in Hk. discriminate.
  Qed.

  (* the back-end part of the invariant of the flush loops (Mvp63RefFwdDefs.GF3): the write bus holds the results
     w .. E (its queue: a prefix of them) and, behind them, results of the wrong path *)
  Record FIq (w E t : nat) (sqx : Z) (x : mx) : Prop := mkFIq {
    fi_E : (base <= w <= S E)%nat /\ (base <= E <= N)%nat /\ (E < n)%nat /\ (E < t <= n)%nat;
    fi_exec : forall k, (base <= k < E)%nat -> kout k = euo_none;
    fi_out : kout E = mk_euo6 true (pcz E) (pcz t) false;
    fi_wq : exists j junk, (w + j <= S E)%nat /\ bb_q (m_wbus (x_m x)) = map wbq (seq w j) /\
              map snd (bb_buf (m_wbus (x_m x))) = map wbq (seq (w + j) (S E - (w + j))) ++ junk /\
              Forall (fun c => sid E < w_seq c) junk;
    fi_tab : TabOK w (x_crat x) (x_trat x);
    fi_fwd : x_fwd x = repeat (0, 0) n;
    fi_seq : x_seq x = sqx /\ sq <= sqx <= sq + 1;
    fi_chan : Forall (fun p => fst p < x_next x) (x_chan x);
    fi_regs : length (m_regs (x_m x)) = 32%nat;
    fi_mem : m_mem (x_m x) = mem0;
    fi_l3 : lines (m_l3 (x_m x)) = [];
    fi_os : x_os x = false;
    fi_btb : Forall (fun en => fst en < pcz t) (b_btb (m_bu (x_m x))) }.

  Lemma addS_sq : addS 32 sq 1 = sq + 1.
  Proof. unfold addS. apply wrapS_id; [lia|]. apply int32_bounds. lia. Qed.

  Lemma rchan_lt x r b : Forall (fun p => fst p < b) (x_chan x) -> Forall (fun p => fst p < b) (rchan x r).
  Proof. intros H. unfold rchan. destruct (q_recv r); [apply Forall_filter3|]; exact H. Qed.

  Lemma btb_bound_mono btb a b : Forall (fun en : Z * Z => fst en < a) btb -> a <= b -> Forall (fun en : Z * Z => fst en < b) btb.
  Proof. intros H Hab. eapply Forall_impl; [|exact H]. cbn beta. intros en He. lia. Qed.

  Lemma FIq_exec_flush cy dp d xe w pl pv x r q' t :
    BIq dp d xe w pl pv x -> bb_q (x_ebus x) = r :: q' -> kout xe = mk_euo6 true (pcz xe) (pcz t) false -> (xe < t <= n)%nat ->
    (is_jump (ik xe) = false -> (S xe < t)%nat) ->
    Forall (fun en => fst en < pcz base) (b_btb (m_bu (x_m x))) ->
    FIq w xe t (if is_jump (ik xe) then sq + 1 else sq) (exec_flushq x cy r xe t).
  Proof.
    intros HB Hq Hko Ht Hjt Hbtb.
    pose proof HB as HBd; dBI HBd; destruct bq_ord0 as [bi_ordw bi_ord0].
    fold n N in bq_dn0, bq_xeN0, bq_ret0.
    destruct (seq_split wbq (bb_q (m_wbus (x_m x))) (map snd (bb_buf (m_wbus (x_m x)))) w (xe - w) bq_wbus0) as (Q1 & Q2 & Q3).
    set (j := length (bb_q (m_wbus (x_m x)))) in *. rewrite map_length in Q2, Q3.
    assert (Hwq : exists j0 junk, (w + j0 <= S xe)%nat /\ bb_q (m_wbus (x_m x)) = map wbq (seq w j0) /\
              map snd (bb_buf (m_wbus (x_m x)) ++ [(cy + 1, wbq xe)]) = map wbq (seq (w + j0) (S xe - (w + j0))) ++ junk /\
              Forall (fun c => sid xe < w_seq c) junk).
    { exists j, []. split; [lia|]. split; [exact Q1|]. split; [|constructor]. rewrite map_app, Q2, app_nil_r. cbn [map snd].
      replace (S xe - (w + j))%nat with (S (length (bb_buf (m_wbus (x_m x))))) by lia. rewrite seq_snoc, map_app. cbn [map].
      replace (w + j + length (bb_buf (m_wbus (x_m x))))%nat with xe by lia. reflexivity. }
    assert (Hpb : pcz base <= pcz xe) by (unfold pcz; lia).
    assert (Hpt : pcz xe < pcz t) by (unfold pcz; lia).
    unfold exec_flushq. destruct (is_jump (ik xe)) eqn:Ej; constructor;
      cbn [x_m x_seq x_crat x_trat x_fwd x_chan x_next x_os set_du set_fu set_wbus set_bu m_wbus m_regs m_mem m_l3 m_bu b_btb bb_add bb_q bb_buf];
      try assumption; try (apply rchan_lt; assumption).
    - repeat split; try fold N; lia.
    - rewrite bq_seq0. split; [apply addS_sq | lia].
    - apply btb_add_bound; [eapply btb_bound_mono; [exact Hbtb | lia] | exact Hpt].
    - repeat split; try fold N; lia.
    - apply (tab_rollback app labels regs0 base Hlen0); [exact bq_tab0 | apply sid_le; lia].
    - split; [exact bq_seq0 | lia].
    - eapply btb_bound_mono; [exact Hbtb | lia].
  Qed.
  (* ---------------------------------------------------------------- *)
  (* the shadow: the instruction behind a taken conditional branch, executed on the wrong path *)

  Lemma FIq_shadow cy w E t x r k exe :
    FIq w E t sq x -> (E < k)%nat -> (k < t)%nat -> Return exe = false ->
    (forall ch, q_fwder r = Some ch -> ch < x_next x) ->
    exists sqx, FIq w E t sqx (fst (exec_gen x cy r k exe)).
  Proof.
    intros [F1 F2 F3 (j & junk & Fj & Fq & Fb & Fjk) F5 F6 [F7 F7'] F8 F9 F10 F11 F12 F13] HEk Hkt Hret Hfw.
    pose proof (exec_gen_frame x cy r k exe) as XF. set (x' := fst (exec_gen x cy r k exe)) in *.
    exists (x_seq x'). constructor; try assumption.
    - exists j, (junk ++ [mk_wb6 (sid k) exe (instr_ReadRegisters (ik k)) (instr_WriteRegisters (ik k))]).
      split; [exact Fj|]. split; [rewrite (xf_wq _ _ XF); exact Fq|]. split.
      + unfold x'. rewrite (exec_gen_wbuf x cy r k exe Hret), map_app, Fb, app_assoc. reflexivity.
      + apply Forall_app. split; [exact Fjk|]. constructor; [|constructor]. cbn [w_seq]. apply sid_lt. exact HEk.
    - apply exec_gen_tab; [exact F5 | apply sid_le; lia].
    - rewrite (xf_fwd _ _ XF). exact F6.
    - split; [reflexivity|]. destruct (exec_gen_seq x cy r k exe) as [E1|[E1 _]]; fold x' in E1; rewrite E1, F7; [lia | rewrite addS_sq; lia].
    - unfold x'. rewrite (exec_gen_chan x cy r k exe Hret). fold x'. rewrite (xf_next _ _ XF).
      apply (chan_lt x r (RegisterValue exe) (x_next x) F8 Hfw).
    - rewrite (xf_regs _ _ XF). exact F9.
    - rewrite (xf_mem _ _ XF). exact F10.
    - rewrite (xf_l3 _ _ XF). exact F11.
    - rewrite (xf_os _ _ XF). exact F12.
    - destruct (exec_gen_btb x cy r k exe) as [E1|E1]; fold x' in E1; rewrite E1; [exact F13|].
      apply btb_add_bound; [exact F13 | unfold pcz; lia].
  Qed.

  Lemma eu_shadowq cy w E t x e r q' :
    FIq w E t sq x -> bb_q (x_ebus x) = r :: q' -> q_r r = rnq (S E) -> (S E < n)%nat -> (S E < t)%nat -> is_ret (ik (S E)) = false ->
    EuIdle e -> eu_pre3 e = false -> bb_canadd (m_wbus (x_m x)) = true ->
    btb_get (b_btb (m_bu (x_m x))) (pcz (S E)) = None ->
    (forall ch, q_recv r = Some ch -> exists v, aget ch (x_chan x) = Some v /\ int32 v) ->
    (forall ch, q_fwder r = Some ch -> aget ch (x_chan x) = None /\ ch < x_next x /\
                                       InstructionType_IsBranch (instr_InstructionType (ik (S E))) = false) ->
    exists x' o sqx, eu_cycle3 labels ord cy x e = (false, Ok (x', mk_eu3 ENone [] (Some (recvd r)) (g_seq e), o)) /\
      FIq w E t sqx x' /\ ExFrame x x' /\ (exists c, bb_buf (m_wbus (x_m x')) = bb_buf (m_wbus (x_m x)) ++ [(cy + 1, c)]) /\
      y_err o = None /\ y_ret o = false /\ (y_flush o = true -> y_seq o = sid (S E)).
  Proof.
    intros HF Hq Hqr HSn HSt Hnr He Hpre Hca Hbtb Hrc Hfo.
    assert (H32 : forall q, int32 (reg_read3 (head_fw x r) (x_crat x) (x_trat x) q)).
    { intros q. rewrite reg_read3_tview. destruct (q =? fst (head_fw x r)).
      - unfold head_fw. destruct (q_recv r) as [ch|] eqn:Erc; [|apply int32_0].
        destruct (Hrc ch eq_refl) as (v & Hv & Hv32). rewrite Hv. exact Hv32.
      - apply (tview_int32 w). exact (fi_tab _ _ _ _ _ HF). }
    destruct (wrong_run (S E) _ HSn H32 Hnr) as (e0 & Hrun & Hret & Hmc).
    exists (fst (exec_gen x cy r (S E) (embed e0))), (snd (exec_gen x cy r (S E) (embed e0))).
    destruct (FIq_shadow cy w E t x r (S E) (embed e0) HF ltac:(lia) HSt Hret ltac:(intros c Hc; apply (Hfo c Hc))) as (sqx & HF').
    exists sqx. split.
    - apply (eu_head_gen cy x e r q' (S E) (embed e0) Hq He Hpre Hqr HSn (fi_fwd _ _ _ _ _ HF) Hca Hbtb).
      + intros ch Hc. destruct (Hrc ch Hc) as (v & Hv & _). eauto.
      + intros ch Hc. destruct (Hfo ch Hc) as (A & _ & B). auto.
      + exact Hrun.
      + exact Hmc.
    - split; [exact HF'|]. split; [apply exec_gen_frame|]. split; [eexists; apply exec_gen_wbuf; exact Hret|].
      destruct (exec_gen_out x cy r (S E) (embed e0)) as (A & B & C). split; [exact A|]. split; [rewrite B; exact Hret|].
      intros Hf. apply (C Hf).
  Qed.
  (* ---------------------------------------------------------------- *)
  (* an idle unit takes the head of the execute bus (correct path)      *)

  Lemma head_ready dp d xe w pl pv x r q' : BIq dp d xe w pl pv x -> bb_q (x_ebus x) = r :: q' ->
    Forall (fun en => fst en < pcz base) (b_btb (m_bu (x_m x))) ->
    q_r r = rnq xe /\ (base <= xe <= N)%nat /\ (xe < n)%nat /\ (xe < d)%nat /\ x_fwd x = repeat (0, 0) n /\
    btb_get (b_btb (m_bu (x_m x))) (pcz xe) = None /\
    (forall ch, q_recv r = Some ch -> exists v, aget ch (x_chan x) = Some v) /\
    (forall ch, q_fwder r = Some ch -> aget ch (x_chan x) = None /\ InstructionType_IsBranch (instr_InstructionType (ik xe)) = false) /\
    instr_Run (ik xe) (reg_read3 (head_fw x r) (x_crat x) (x_trat x)) labels (pcz xe) [] 0 = Ok (exeb xe) /\
    MemoryChange (exeb xe) = false.
  Proof.
    intros HB Hq Hbtb.
    assert (Hfl : flat (x_ebus x) = r :: (q' ++ map snd (bb_buf (x_ebus x)))) by (unfold flat; rewrite Hq; reflexivity).
    destruct (head_entryq _ _ _ _ _ _ _ _ _ HB Hfl) as (Hqr & Hkq & Hxd).
    destruct (head_operandsq _ _ _ _ _ _ _ _ _ HB Hfl) as (Hch & _ & _ & Hrun).
    pose proof (bq_ord _ _ _ _ _ _ _ _ _ _ _ _ _ HB) as [Hord _]. pose proof (bq_xeN _ _ _ _ _ _ _ _ _ _ _ _ _ HB) as HxN.
    pose proof (bq_dn _ _ _ _ _ _ _ _ _ _ _ _ _ HB) as [Hdn _]. fold n in Hdn. fold N in HxN.
    assert (Hin : In r (flat (x_ebus x))) by (rewrite Hfl; left; reflexivity).
    pose proof (bq_fwder _ _ _ _ _ _ _ _ _ _ _ _ _ HB) as Hfo. rewrite Forall_forall in Hfo. specialize (Hfo r Hin).
    split; [exact Hqr|]. split; [lia|]. split; [lia|]. split; [exact Hxd|]. split; [exact (bq_fwd _ _ _ _ _ _ _ _ _ _ _ _ _ HB)|].
    split; [apply (btb_get_none _ _ _ Hbtb); unfold pcz; lia|]. split; [exact Hch|].
    split; [intros ch Hc; destruct (Hfo ch Hc) as (A & _ & B); rewrite (q_instr_rn app sq r xe Hqr) in B; auto|].
    split; [exact Hrun|]. destruct (flagsq xe ltac:(lia) ltac:(lia)) as (_ & Hm & _). exact Hm.
  Qed.

  Lemma eu_step_q cy dp d xe w pl pv x e r q' : BIq dp d xe w pl pv x -> bb_q (x_ebus x) = r :: q' ->
    Forall (fun en => fst en < pcz base) (b_btb (m_bu (x_m x))) ->
    EuIdle e -> eu_pre3 e = false -> bb_canadd (m_wbus (x_m x)) = true ->
    eu_cycle3 labels ord cy x e =
      (false, Ok (fst (exec_gen x cy r xe (exeb xe)), mk_eu3 ENone [] (Some (recvd r)) (g_seq e), snd (exec_gen x cy r xe (exeb xe)))).
  Proof.
    intros HB Hq Hbtb He Hpre Hca.
    destruct (head_ready _ _ _ _ _ _ _ _ _ HB Hq Hbtb) as (Hqr & _ & Hxn & _ & Hfwd & Hget & Hch & Hfo & Hrun & Hmc).
    exact (eu_head_gen cy x e r q' xe (exeb xe) Hq He Hpre Hqr Hxn Hfwd Hca Hget Hch Hfo Hrun Hmc).
  Qed.

  Lemma recvd_qr r : q_r (recvd r) = q_r r.
  Proof. unfold recvd. destruct (q_recv r); reflexivity. Qed.

  Lemma flush_is_branch k t : (base <= k <= N)%nat -> (k < n)%nat -> kout k = mk_euo6 true (pcz k) (pcz t) false ->
    InstructionType_IsBranch (instr_InstructionType (ik k)) = true.
  Proof.
    intros H1 H2 Hk.
    assert (Hnr : is_ret (ik k) = false) by (destruct (is_ret (ik k)) eqn:Er; [rewrite (kout_ret_q k Er) in Hk; discriminate | reflexivity]).
    unfold InstructionType_IsBranch. fold (is_jump (ik k)) (condbr (ik k)).
    destruct (kout_cases k H1 H2 Hnr) as [(Hj & _)|[(_ & Hc & _)|(_ & E & _)]].
    - rewrite Hj. reflexivity.
    - rewrite Hc. apply orb_true_r.
    - rewrite E in Hk. discriminate.
  Qed.

  (* the units between two ticks when nothing is left in the queue of the execute bus *)
  Lemma eu_idle_q cy x e : g_co e = ENone -> eu_pre3 e = false -> bb_q (x_ebus x) = [] ->
    eu_cycle3 labels ord cy x e = (false, Ok (x, e, yo_none)).
  Proof. intros Hco Hpre Hq. unfold eu_cycle3. rewrite Hpre, Hco. unfold bb_get. rewrite Hq. reflexivity. Qed.

  Lemma eus_main_idle_q cy x f s p rt b : forall eus, Forall EuIdle eus -> Forall (StaleOK b) eus -> s = 0 \/ b <= s ->
    bb_q (x_ebus x) = [] ->
    exists eus', eus_main3 labels ord cy x eus (mk_euo3 f s p rt None) = (false, Ok (x, eus', mk_euo3 f s p rt None)) /\
                 Forall EuIdle eus' /\ Forall (StaleOK b) eus' /\ length eus' = length eus.
  Proof.
    induction eus as [|e t IH]; intros He Hs Hsb Hq.
    - exists []. cbn [eus_main3]. repeat split; constructor.
    - inversion He as [|? ? [Hco Hmem] He2]; subst. inversion Hs as [|? ? Hs1 Hs2]; subst.
      destruct (IH He2 Hs2 Hsb Hq) as (t' & E & A1 & A2 & A3).
      cbn [eus_main3 y_seq].
      assert (Hpre : eu_pre3 (mk_eu3 (g_co e) (g_memory e) (g_runner e) s) = false).
      { apply (eu_pre3_stale _ b); [apply StaleOK_seq; exact Hs1 | exact Hsb]. }
      rewrite (eu_idle_q cy x (mk_eu3 (g_co e) (g_memory e) (g_runner e) s) Hco Hpre Hq).
      cbn [yo_none y_err y_flush y_seq y_pc y_ret andb orb]. rewrite !orb_false_r. rewrite E. cbn [bind orb].
      eexists. split; [reflexivity|].
      split; [constructor; [split; assumption | exact A1]|]. split; [constructor; [apply StaleOK_seq; exact Hs1 | exact A2]|]. cbn [length]; lia.
  Qed.

  (* what the units leave alone even when one of them asks for a flush *)
  Record EuFrameF (x x' : mx) : Prop := mkEFF {
    ff_ebuf : bb_buf (x_ebus x') = bb_buf (x_ebus x); ff_eql : bb_ql (x_ebus x') = bb_ql (x_ebus x);
    ff_ebl : bb_bl (x_ebus x') = bb_bl (x_ebus x);
    ff_l1i : m_l1i (x_m x') = m_l1i (x_m x); ff_dret : m_dret (x_m x') = m_dret (x_m x); ff_cu : m_cu (x_m x') = m_cu (x_m x);
    ff_dbus : m_dbus (x_m x') = m_dbus (x_m x); ff_cbus : m_cbus (x_m x') = m_cbus (x_m x); ff_mebus : m_ebus (x_m x') = m_ebus (x_m x);
    ff_wq : bb_q (m_wbus (x_m x')) = bb_q (m_wbus (x_m x)); ff_wql : bb_ql (m_wbus (x_m x')) = bb_ql (m_wbus (x_m x));
    ff_wbl : bb_bl (m_wbus (x_m x')) = bb_bl (m_wbus (x_m x)) }.

  Lemma EuFrameF_refl x : EuFrameF x x.
  Proof. constructor; reflexivity. Qed.
  Lemma EuFrameF_trans a b c : EuFrameF a b -> EuFrameF b c -> EuFrameF a c.
  Proof. intros [] []. constructor; congruence. Qed.
  Lemma EuFrame3_F x x' : EuFrame3 x x' -> EuFrameF x x'.
  Proof. intros []. constructor; assumption. Qed.
  Lemma ExFrame_F x x' : ExFrame x x' -> EuFrameF x x'.
  Proof. intros []. constructor; try assumption; rewrite xf_ebus0; reflexivity. Qed.
  Lemma ExFrame_3 x x' : ExFrame x x' -> m_fu (x_m x') = m_fu (x_m x) -> m_dpbr (x_m x') = m_dpbr (x_m x) ->
    b_btb (m_bu (x_m x')) = b_btb (m_bu (x_m x)) -> EuFrame3 x x'.
  Proof. intros [] H1 H2 H3. constructor; try assumption; rewrite xf_ebus0; reflexivity. Qed.

  Lemma exec_flushq_frame x cy r k t : ExFrame x (exec_flushq x cy r k t).
  Proof. unfold exec_flushq. destruct (is_jump (ik k)); constructor; reflexivity. Qed.

  Lemma exec_plainq_frame x cy r k bu' : b_btb bu' = b_btb (m_bu (x_m x)) -> EuFrame3 x (exec_plainq x cy r k bu').
  Proof. intros H. constructor; try reflexivity. exact H. Qed.

  Lemma pre_run_frame x r k : EuFrame3 x (pre_run x r k).
  Proof. constructor; try reflexivity. unfold pre_run, bu_as. cbn [x_m set_bu m_bu]. destruct (is_jump (ik k)); [reflexivity|]. destruct (condbr (ik k)); reflexivity. Qed.
  Lemma exec_flushq_wbus x cy r k t : m_wbus (x_m (exec_flushq x cy r k t)) = bb_add (m_wbus (x_m x)) (wbq k) cy.
  Proof. unfold exec_flushq. destruct (is_jump (ik k)); reflexivity. Qed.

  Lemma exec_flushq_btb x cy r k t : is_jump (ik k) = false -> b_btb (m_bu (x_m (exec_flushq x cy r k t))) = b_btb (m_bu (x_m x)).
  Proof. intros H. unfold exec_flushq. rewrite H. reflexivity. Qed.

  Lemma exec_flushq_chan x cy r k t : x_chan (exec_flushq x cy r k t) = rchan x r.
  Proof. unfold exec_flushq. destruct (is_jump (ik k)); reflexivity. Qed.

  Lemma busok_snoc {T} cy (b b' : bbus T) c : BusOK cy b -> bb_buf b' = bb_buf b ++ [(cy + 1, c)] -> bb_q b' = bb_q b ->
    bb_ql b' = bb_ql b -> bb_bl b' = bb_bl b -> BusOK cy b'.
  Proof.
    intros [H1 H2 H3 H4] E1 E2 E3 E4. constructor; rewrite ?E3, ?E4; auto.
    - unfold qlen. rewrite E2. exact H3.
    - rewrite E1. apply Forall_app. split; [exact H4|]. constructor; [cbn [fst]; lia | constructor].
  Qed.

  (* the rest of the loop once the head has asked for a flush: at most one more instruction, the shadow *)
  Lemma eus_after_flush cy dp d xe w pl pv x r q' t : forall eus,
    BIq dp d xe w pl pv x -> bb_q (x_ebus x) = r :: q' ->
    Forall (fun en => fst en < pcz base) (b_btb (m_bu (x_m x))) ->
    kout xe = mk_euo6 true (pcz xe) (pcz t) false ->
    Forall EuIdle eus -> Forall (StaleOK (sid xe)) eus ->
    BusOK cy (m_wbus (x_m x)) -> BusOK cy (x_ebus x) ->
    blen (m_wbus (x_m x)) + Z.of_nat (Nat.min (S (length eus)) (S (length q'))) <= 2 ->
    exists x' eus' sqx,
      eus_main3 labels ord cy (exec_flushq x cy r xe t) eus (mk_euo3 true (sid xe) (pcz t) false None)
        = (false, Ok (x', eus', mk_euo3 true (sid xe) (pcz t) false None)) /\
      Forall EuIdle eus' /\ length eus' = length eus /\ Forall (StaleOK (sid (S (S xe)))) eus' /\
      FIq w xe t sqx x' /\ EuFrameF x x' /\ BusOK cy (m_wbus (x_m x')) /\
      blen (m_wbus (x_m x')) <= blen (m_wbus (x_m x)) + Z.of_nat (Nat.min (S (length eus)) (S (length q'))).
  Proof.
    intros eus HB Hq Hbtb Hko He Hst HW HE Hcap.
    destruct (head_ready _ _ _ _ _ _ _ _ _ HB Hq Hbtb) as (Hqr & Hrg & Hxn & Hxd & Hfwd & Hget & Hch & Hfo & Hrun & Hmc).
    pose proof (flush_is_branch xe t Hrg Hxn Hko) as Hbr.
    assert (Ef : q_fwder r = None).
    { destruct (q_fwder r) as [ch|] eqn:E; [|reflexivity]. destruct (Hfo ch eq_refl) as [_ B]. congruence. }
    destruct (exec_gen_flush x cy r xe t Hrg Hxn Hko Ef) as (_ & Ht & HjN & Hjc).
    pose proof (FIq_exec_flush cy _ _ _ _ _ _ _ r q' t HB Hq Hko Ht ltac:(intros Hj; apply (Hjc Hj)) Hbtb) as HF1.
    set (x1 := exec_flushq x cy r xe t) in *.
    pose proof (exec_flushq_frame x cy r xe t) as XF1. fold x1 in XF1.
    assert (Hw1 : m_wbus (x_m x1) = bb_add (m_wbus (x_m x)) (wbq xe) cy) by apply exec_flushq_wbus.
    assert (HW1 : BusOK cy (m_wbus (x_m x1))) by (rewrite Hw1; apply add_ok; exact HW).
    assert (Hb1 : blen (m_wbus (x_m x1)) = blen (m_wbus (x_m x)) + 1).
    { rewrite Hw1. unfold blen, bb_add. cbn [bb_buf]. rewrite zlen_app, zlen_cons, zlen_nil. lia. }
    assert (Hq1 : bb_q (x_ebus x1) = q') by (rewrite (xf_ebus _ _ XF1); unfold ebus_tl; cbn [bb_q]; rewrite Hq; reflexivity).
    assert (Hmono : forall e, StaleOK (sid xe) e -> StaleOK (sid (S (S xe))) e).
    { intros e. apply StaleOK_mono. apply sid_le. lia. }
    destruct eus as [|e t'].
    - exists x1, [], (if is_jump (ik xe) then sq + 1 else sq). cbn [eus_main3 length Nat.min]. split; [reflexivity|].
      split; [constructor|]. split; [reflexivity|]. split; [constructor|]. split; [exact HF1|]. split; [apply ExFrame_F; exact XF1|].
      split; [exact HW1|]. rewrite Hb1. lia.
    - destruct q' as [|r2 q''].
      + destruct (eus_main_idle_q cy x1 true (sid xe) (pcz t) false (sid xe) (e :: t') He Hst ltac:(right; lia) Hq1) as (eus' & E & A1 & A2 & A3).
        exists x1, eus', (if is_jump (ik xe) then sq + 1 else sq). split; [exact E|]. split; [exact A1|]. split; [exact A3|].
        split; [eapply Forall_impl; [|exact A2]; exact Hmono|]. split; [exact HF1|]. split; [apply ExFrame_F; exact XF1|].
        split; [exact HW1|]. rewrite Hb1. cbn [length Nat.min]. lia.
      + (* the shadow *)
        inversion He as [|? ? He1 He2]; subst. inversion Hst as [|? ? Hs1 Hs2]; subst.
        pose proof HB as HBd; dBI HBd; destruct bq_ord0 as [bi_ordw bi_ord0].
        fold n N in bq_dn0, bq_xeN0, bq_ret0.
        set (E' := q'' ++ map snd (bb_buf (x_ebus x))).
        assert (Hfl : flat (x_ebus x) = r :: r2 :: E') by (unfold flat, E'; rewrite Hq; reflexivity).
        rewrite Hfl in *.
        assert (Hd2 : (S (S xe) <= d)%nat).
        { apply (f_equal (@length _)) in bq_ebus0. rewrite !map_length, seq_length in bq_ebus0. cbn [length] in bq_ebus0. lia. }
        assert (Hqr2 : q_r r2 = rnq (S xe)).
        { replace (d - xe)%nat with (S (S (d - S (S xe)))) in bq_ebus0 by lia. cbn [seq map] in bq_ebus0. injection bq_ebus0 as _ Hx2 _. exact Hx2. }
        assert (Ej : is_jump (ik xe) = false).
        { destruct (is_jump (ik xe)) eqn:Ej; [|reflexivity]. exfalso. specialize (HjN eq_refl). lia. }
        destruct (Hjc Ej) as [Hc HSt].
        rewrite Ej in HF1.
        assert (Hq''nil : q'' = []).
        { pose proof (bus_q _ _ HE) as Hql. unfold qlen in Hql. rewrite Hq, !zlen_cons in Hql. apply zlen_zero. pose proof (zlen_nonneg q''). lia. }
        subst q''.
        assert (HSn : (S xe < n)%nat) by lia.
        assert (Hnr2 : is_ret (ik (S xe)) = false).
        { destruct (is_ret (ik (S xe))) eqn:Er; [|reflexivity]. exfalso.
          assert (HSN : S xe = N) by (apply ret_is_Nq; [lia | exact HSn | exact Er]).
          assert (N <= xe)%nat by (apply bq_ret0; [lia | rewrite <- HSN; exact Er]). lia. }
        assert (Hpre2 : eu_pre3 (mk_eu3 (g_co e) (g_memory e) (g_runner e) (sid xe)) = false).
        { apply (eu_pre3_stale _ (sid xe)); [apply StaleOK_seq; exact Hs1 | right; cbn [g_seq]; lia]. }
        assert (Hca1 : bb_canadd (m_wbus (x_m x1)) = true).
        { apply canadd_lt3; [apply (bus_bl _ _ HW1)|]. rewrite Hb1. cbn [length Nat.min] in Hcap. lia. }
        assert (Hget1 : btb_get (b_btb (m_bu (x_m x1))) (pcz (S xe)) = None).
        { unfold x1. rewrite (exec_flushq_btb x cy r xe t Ej). apply (btb_get_none _ _ _ Hbtb). unfold pcz. lia. }
        assert (Hchan1 : x_chan x1 = rchan x r) by apply exec_flushq_chan.
        assert (Hin2 : In r2 (r :: r2 :: E')) by (right; left; reflexivity).
        assert (Hrc2 : forall ch, q_recv r2 = Some ch -> exists v, aget ch (x_chan x1) = Some v /\ int32 v).
        { intros ch Hc2. rewrite Forall_forall in bq_recv0. destruct (bq_recv0 r2 ltac:(apply in_or_app; left; exact Hin2) ch Hc2) as (_ & p & Hp & _ & D).
          rewrite (kq_rn app sq r2 (S xe) Hqr2) in Hp.
          destruct D as [(D1 & rp & D2 & D3 & D4)|(D1 & D2)].
          - exfalso. assert (p = xe) by lia. subst p.
            assert (rp = r).
            { destruct D2 as [<-|D2]; [reflexivity|]. exfalso.
              assert (HE'2 : map q_r (r2 :: E') = map rnq (seq (S xe) (d - S xe))).
              { replace (d - xe)%nat with (S (d - S xe)) in bq_ebus0 by lia. cbn [seq map] in bq_ebus0. injection bq_ebus0 as _ Hx3. exact Hx3. }
              destruct (map_rn_in app sq _ _ _ _ HE'2 D2) as (k & Hk & _ & Ek). lia. }
            subst rp. congruence.
          - exists (RegisterValue (exeb p)). split; [|apply (exeb_val_int32 app labels regs0 base)].
            rewrite Hchan1. unfold rchan. destruct (q_recv r) as [rch|] eqn:Er; [|exact D2]. rewrite aget_filter_ne; [exact D2|].
            eapply recvs_head_ne; [exact bq_rnd0 | exact Er | left; reflexivity | exact Hc2]. }
        assert (Hfo2 : forall ch, q_fwder r2 = Some ch -> aget ch (x_chan x1) = None /\ ch < x_next x1 /\
                          InstructionType_IsBranch (instr_InstructionType (ik (S xe))) = false).
        { intros ch Hc2. rewrite Forall_forall in bq_fwder0. destruct (bq_fwder0 r2 Hin2 ch Hc2) as (A & B & C).
          rewrite (q_instr_rn app sq r2 (S xe) Hqr2) in C. rewrite Hchan1, (xf_next _ _ XF1). split; [|auto].
          unfold rchan. destruct (q_recv r); [apply aget_filter_none|]; exact A. }
        destruct (eu_shadowq cy w xe t x1 (mk_eu3 (g_co e) (g_memory e) (g_runner e) (sid xe)) r2 [] HF1 Hq1 Hqr2 HSn HSt Hnr2 He1 Hpre2 Hca1 Hget1 Hrc2 Hfo2)
          as (x2 & o & sqx & Ecy & HF2 & XF2 & (c & Hbuf2) & Herr & Hret & Hfl2).
        assert (Htake : y_flush o && (negb true || (y_seq o <? sid xe)) = false).
        { destruct (y_flush o) eqn:Efl; [|reflexivity]. rewrite (Hfl2 eq_refl). cbn [negb orb andb]. apply Z.ltb_ge. apply sid_le. lia. }
        assert (Hq2 : bb_q (x_ebus x2) = []) by (rewrite (xf_ebus _ _ XF2); unfold ebus_tl; cbn [bb_q]; rewrite Hq1; reflexivity).
        destruct (eus_main_idle_q cy x2 true (sid xe) (pcz t) false (sid xe) t' He2 Hs2 ltac:(right; lia) Hq2) as (eus' & E & A1 & A2 & A3).
        cbn [eus_main3 y_seq]. rewrite Ecy, Herr. cbn [y_flush y_seq y_pc y_ret]. rewrite Htake, Hret. cbn [orb]. rewrite E. cbn [bind orb].
        eexists x2, _, sqx. split; [reflexivity|].
        split; [constructor; [split; reflexivity | exact A1]|]. split; [cbn [length]; lia|].
        split.
        { constructor; [|eapply Forall_impl; [|exact A2]; exact Hmono].
          intros rr Hrr. cbn [g_runner] in Hrr. injection Hrr as <-. unfold q_seq. rewrite recvd_qr, Hqr2. cbn [Mvp63RefFwdDefs.rnq r_seq]. apply sid_lt. lia. }
        split; [exact HF2|]. split; [eapply EuFrameF_trans; apply ExFrame_F; eassumption|].
        split.
        { eapply (busok_snoc cy _ _ c HW1 Hbuf2); [exact (xf_wq _ _ XF2) | exact (xf_wql _ _ XF2) | exact (xf_wbl _ _ XF2)]. }
        unfold blen at 1. rewrite Hbuf2, zlen_app, zlen_cons, zlen_nil. fold (blen (m_wbus (x_m x1))). rewrite Hb1. cbn [length Nat.min]. lia.
  Qed.
  (* ---------------------------------------------------------------- *)
  (* the loop over the execute units of the main loop                   *)

  Notation acc_of b := (mk_euo3 false 0 0 b None).

  (* j heads were executed, none of them reported anything *)
  Record EuPlain (cy : Z) (dp d xe w : nat) (pl pv : list runner3) (x x' : mx) (eus' : list eu3) (j : nat) : Prop := mkEuPlain {
    up_stale : Forall (StaleOK (sid (xe + j))) eus';
    up_bi : BIq dp d (xe + j) w pl pv x';
    up_frame : EuFrame3 x x';
    up_q : bb_q (x_ebus x') = skipn j (bb_q (x_ebus x));
    up_bw : BusOK cy (m_wbus (x_m x'));
    up_buf : bb_buf (m_wbus (x_m x')) = bb_buf (m_wbus (x_m x)) ++ map (fun k => (cy + 1, wbq k)) (seq xe j) }.

  Lemma eus_main_q cy dp d w pl pv : forall eus x xe,
    Forall EuIdle eus -> Forall (StaleOK (sid xe)) eus -> BIq dp d xe w pl pv x ->
    (xe + length (bb_q (x_ebus x)) <= dp)%nat -> (d + length pl <= S N)%nat ->
    Forall (fun en => fst en < pcz base) (b_btb (m_bu (x_m x))) ->
    BusOK cy (m_wbus (x_m x)) -> BusOK cy (x_ebus x) ->
    blen (m_wbus (x_m x)) + Z.of_nat (Nat.min (length eus) (length (bb_q (x_ebus x)))) <= 2 ->
    exists x' eus' o, eus_main3 labels ord cy x eus (acc_of false) = (false, Ok (x', eus', o)) /\
      Forall EuIdle eus' /\ length eus' = length eus /\
      ((o = acc_of false /\ EuPlain cy dp d xe w pl pv x x' eus' (Nat.min (length eus) (length (bb_q (x_ebus x))))) \/
       (o = acc_of true /\ exists j, (xe + j)%nat = N /\ d = S N /\ (N < n)%nat /\ is_ret (ik N) = true /\ pl = [] /\
           BIq dp N N w [] [] x' /\ EuFrame3 x x' /\ bb_q (x_ebus x') = [] /\ BusOK cy (m_wbus (x_m x')) /\
           bb_buf (m_wbus (x_m x')) = bb_buf (m_wbus (x_m x)) ++ map (fun k => (cy + 1, wbq k)) (seq xe j) /\
           (j < Nat.min (length eus) (length (bb_q (x_ebus x))))%nat) \/
       (exists j t sqx, o = mk_euo3 true (sid (xe + j)) (pcz t) false None /\ FIq w (xe + j) t sqx x' /\ EuFrameF x x' /\
           Forall (StaleOK (sid (S (S (xe + j))))) eus' /\ BusOK cy (m_wbus (x_m x')) /\
           blen (m_wbus (x_m x')) <= blen (m_wbus (x_m x)) + Z.of_nat (Nat.min (length eus) (length (bb_q (x_ebus x)))))).
  Proof.
    induction eus as [|e t IH]; intros x xe He Hst HB Hdp Hpl Hbtb HW HE Hcap.
    - exists x, [], (acc_of false). cbn [eus_main3 length Nat.min]. split; [reflexivity|]. split; [constructor|]. split; [reflexivity|].
      left. split; [reflexivity|]. constructor; rewrite ?Nat.add_0_r; cbn [seq map skipn]; rewrite ?app_nil_r; auto. apply EuFrame3_refl.
    - inversion He as [|? ? He1 He2]; subst. inversion Hst as [|? ? Hs1 Hs2]; subst.
      destruct (bb_q (x_ebus x)) as [|r q'] eqn:Eq.
      + destruct (eus_main_idle_q cy x false 0 0 false (sid xe) (e :: t) He Hst ltac:(left; reflexivity) Eq) as (eus' & E & A1 & A2 & A3).
        exists x, eus', (acc_of false). split; [exact E|]. split; [exact A1|]. split; [exact A3|].
        left. split; [reflexivity|]. cbn [length]. rewrite Nat.min_0_r.
        constructor; rewrite ?Nat.add_0_r; cbn [seq map skipn]; rewrite ?app_nil_r; auto. apply EuFrame3_refl.
      + cbn [length] in Hdp, Hcap |- *. cbn [Nat.min] in Hcap |- *.
        destruct (head_ready _ _ _ _ _ _ _ _ _ HB Eq Hbtb) as (Hqr & Hrg & Hxn & Hxd & Hfwd & Hget & Hch & Hfo & Hrun & Hmc).
        assert (Hca : bb_canadd (m_wbus (x_m x)) = true) by (apply canadd_lt3; [apply (bus_bl _ _ HW) | lia]).
        assert (Hpre : eu_pre3 (mk_eu3 (g_co e) (g_memory e) (g_runner e) 0) = false).
        { apply (eu_pre3_stale _ (sid xe)); [apply StaleOK_seq; exact Hs1 | left; reflexivity]. }
        pose proof (eu_step_q cy _ _ _ _ _ _ x (mk_eu3 (g_co e) (g_memory e) (g_runner e) 0) r q' HB Eq Hbtb He1 Hpre Hca) as Ecy.
        cbn [g_seq] in Ecy.
        assert (Hrst : forall b, (xe < b)%nat -> StaleOK (sid b) (mk_eu3 ENone [] (Some (recvd r)) 0)).
        { intros b Hb rr Hrr. cbn [g_runner] in Hrr. injection Hrr as <-. unfold q_seq. rewrite recvd_qr, Hqr. cbn [Mvp63RefFwdDefs.rnq r_seq]. apply sid_lt. exact Hb. }
        assert (Hpvk : forall p, In p pv -> (xe < kq p)%nat).
        { intros p Hp. destruct (bq_prev _ _ _ _ _ _ _ _ _ _ _ _ _ HB p Hp) as (_ & _ & C). lia. }
        destruct (is_ret (ik xe)) eqn:Eret.
        * (* the ret *)
          assert (HxeN : xe = N) by (apply ret_is_Nq; assumption).
          pose proof (bq_dn _ _ _ _ _ _ _ _ _ _ _ _ _ HB) as [_ HdN]. fold N in HdN.
          destruct pl as [|p0 pl0]; [|exfalso; cbn [length] in Hpl; lia].
          destruct (BIq_exec_ret _ _ _ _ _ _ _ _ HB Eq Eret) as (_ & HdSN & HNn & Hq'nil & HB1). subst q'.
          rewrite (exec_gen_ret x cy r xe Hrg Hxn Eret) in Ecy. cbn [fst snd] in Ecy.
          set (x1 := pre_run x r xe) in *.
          assert (Hq1 : bb_q (x_ebus x1) = []) by (unfold x1, pre_run, ebus_tl; cbn [x_ebus bb_q]; rewrite Eq; reflexivity).
          destruct (eus_main_idle_q cy x1 false 0 0 true (sid xe) t He2 Hs2 ltac:(left; reflexivity) Hq1) as (t' & E & A1 & A2 & A3).
          cbn [eus_main3 y_seq]. rewrite Ecy. cbn [y_err y_flush y_seq y_pc y_ret andb orb]. rewrite E. cbn [bind orb].
          eexists x1, _, (acc_of true). split; [reflexivity|]. split; [constructor; [split; reflexivity | exact A1]|]. split; [cbn [length]; lia|].
          right. left. split; [reflexivity|]. exists O. rewrite Nat.add_0_r. split; [exact HxeN|]. split; [exact HdSN|]. split; [exact HNn|].
          split; [rewrite <- HxeN; exact Eret|]. split; [reflexivity|]. rewrite <- HxeN. split; [exact HB1|]. split; [apply pre_run_frame|].
          split; [exact Hq1|]. split; [exact HW|]. split; [cbn [seq map]; rewrite app_nil_r; reflexivity | lia].
        * assert (Hko : kout xe = euo_none \/ exists t0, kout xe = mk_euo6 true (pcz xe) (pcz t0) false).
          { destruct (kout_cases xe Hrg Hxn Eret) as [(_ & _ & t0 & _ & _ & _ & E)|[(_ & _ & t0 & _ & _ & _ & E)|(_ & E & _)]]; eauto. }
          destruct Hko as [Hko|(t0 & Hko)].
          -- (* nothing reported *)
             destruct (exec_gen_plain x cy r xe Hrg Hxn Hko ltac:(intros ch Hc; apply (Hfo ch Hc))) as (bu' & Hbu & Heq).
             rewrite Heq in Ecy. cbn [fst snd] in Ecy.
             pose proof (BIq_exec_plain cy _ _ _ _ _ _ x r q' bu' HB Eq Hpvk Hko) as HB1.
             set (x1 := exec_plainq x cy r xe bu') in *.
             assert (Hq1 : bb_q (x_ebus x1) = q') by (unfold x1, exec_plainq, ebus_tl; cbn [x_ebus bb_q]; rewrite Eq; reflexivity).
             assert (Hw1 : m_wbus (x_m x1) = bb_add (m_wbus (x_m x)) (wbq xe) cy) by reflexivity.
             assert (HW1 : BusOK cy (m_wbus (x_m x1))) by (rewrite Hw1; apply add_ok; exact HW).
             assert (Hb1 : blen (m_wbus (x_m x1)) = blen (m_wbus (x_m x)) + 1).
             { rewrite Hw1. unfold blen, bb_add. cbn [bb_buf]. rewrite zlen_app, zlen_cons, zlen_nil. lia. }
             assert (HE1 : BusOK cy (x_ebus x1)).
             { eapply (BusOK_frame cy (x_ebus x)); [reflexivity | reflexivity | reflexivity | | exact HE].
               unfold qlen. rewrite Hq1, Eq, zlen_cons. lia. }
             pose proof (exec_plainq_frame x cy r xe bu' Hbu) as EF1. fold x1 in EF1.
             destruct (IH x1 (S xe) He2 ltac:(eapply Forall_impl; [|exact Hs2]; intros e0; apply StaleOK_mono; apply sid_le; lia) HB1
                          ltac:(rewrite Hq1; lia) Hpl ltac:(rewrite (e3_btb _ _ EF1); exact Hbtb) HW1 HE1 ltac:(rewrite Hq1, Hb1; lia))
               as (x' & t' & o & E & A1 & A2 & Hout).
             cbn [eus_main3 y_seq]. rewrite Ecy. cbn [yo_none y_err y_flush y_seq y_pc y_ret andb orb]. rewrite E. cbn [bind orb].
             eexists x', _, o. split; [reflexivity|]. split; [constructor; [split; reflexivity | exact A1]|]. split; [cbn [length]; lia|].
             rewrite Hq1 in Hout.
             destruct Hout as [(Ho & [P1 P2 P3 P4 P5 P6])|[(Ho & j & R1 & R2 & R3 & R4 & R5 & R6 & R7 & R8 & R9 & R10 & R11)|(j & t1 & sqx & F1 & F2 & F3 & F4 & F5 & F6)]].
             ++ left. split; [exact Ho|]. set (j := Nat.min (length t) (length q')) in *.
                constructor; rewrite ?Nat.add_succ_r.
                ** constructor; [apply Hrst; lia | exact P1].
                ** exact P2.
                ** eapply EuFrame3_trans; eassumption.
                ** rewrite P4, Hq1, Eq. reflexivity.
                ** exact P5.
                ** rewrite P6. unfold x1, exec_plainq, bb_add. cbn [x_m set_wbus m_wbus bb_buf seq map]. rewrite <- app_assoc. reflexivity.
             ++ right. left. split; [exact Ho|]. exists (S j). rewrite Nat.add_succ_r. split; [exact R1|]. split; [exact R2|]. split; [exact R3|].
                split; [exact R4|]. split; [exact R5|]. split; [exact R6|]. split; [eapply EuFrame3_trans; eassumption|]. split; [exact R8|].
                split; [exact R9|]. split; [|lia].
                rewrite R10. unfold x1, exec_plainq, bb_add. cbn [x_m set_wbus m_wbus bb_buf seq map]. rewrite <- app_assoc. reflexivity.
             ++ right. right. exists (S j), t1, sqx. rewrite Nat.add_succ_r. split; [exact F1|]. split; [exact F2|].
                split; [eapply EuFrameF_trans; [apply EuFrame3_F; exact EF1 | exact F3]|].
                split; [constructor; [apply Hrst; lia | exact F4]|]. split; [exact F5|]. rewrite Hb1 in F6. lia.
          -- (* a flush *)
             assert (Ef : q_fwder r = None).
             { destruct (q_fwder r) as [ch|] eqn:E0; [|reflexivity]. destruct (Hfo ch eq_refl) as [_ B].
               rewrite (flush_is_branch xe t0 Hrg Hxn Hko) in B. discriminate. }
             destruct (exec_gen_flush x cy r xe t0 Hrg Hxn Hko Ef) as (Heq & _).
             rewrite Heq in Ecy. cbn [fst snd] in Ecy.
             destruct (eus_after_flush cy _ _ _ _ _ _ x r q' t0 t HB Eq Hbtb Hko He2 Hs2 HW HE Hcap)
               as (x' & t' & sqx & E & A1 & A2 & A3 & A4 & A5 & A6 & A7).
             cbn [eus_main3 y_seq]. rewrite Ecy. cbn [y_err y_flush y_seq y_pc y_ret andb orb negb]. rewrite E. cbn [bind orb].
             eexists x', _, _. split; [reflexivity|]. split; [constructor; [split; reflexivity | exact A1]|]. split; [cbn [length]; lia|].
             right. right. exists O, t0, sqx. rewrite Nat.add_0_r. split; [reflexivity|]. split; [exact A4|]. split; [exact A5|].
             split; [constructor; [apply Hrst; lia | exact A3]|]. split; [exact A6 | exact A7].
  Qed.
  (* ---------------------------------------------------------------- *)
  (* the write units                                                    *)

  (* a write unit has taken the result of instruction k from the queue of the write bus *)
  Definition wu_took (x : mx) (k : nat) (q' : list wb6) : mx :=
    let m := set_wbus (x_m x) (mk_bb (bb_buf (m_wbus (x_m x))) q' (bb_ql (m_wbus (x_m x))) (bb_bl (m_wbus (x_m x)))) in
    let x1 := if RegisterChange (exeb k)
              then set_rats3 x (x_crat x) (rat_write tu0 (x_trat x) (Register (exeb k)) (sid k, RegisterValue (exeb k)))
              else x in
    set_m x1 (del_pending6 m (instr_ReadRegisters (ik k)) (instr_WriteRegisters (ik k))).

  Lemma wu_take_gen x wu k q' before : u_co wu = WNone -> bb_q (m_wbus (x_m x)) = wbq k :: q' ->
    (base <= k <= N)%nat -> (k < n)%nat -> before = -1 \/ sid k <= before ->
    wu_cycle3 x wu before = Ok (wu_took x k q', wu).
  Proof using Hreg Hsem.
    intros Hco Hq H1 H2 Hb. destruct (flagsq k H1 H2) as (_ & Hm & _).
    unfold wu_cycle3, wu_took. rewrite Hco. unfold bb_get. rewrite Hq. cbn [Mvp63RefFwdDefs.wbq w_seq w_exe w_reads w_writes].
    assert (Hd : negb (before =? -1) && (before <? sid k) = false).
    { destruct Hb as [->|Hb]; [reflexivity|]. apply andb_false_iff. right. apply Z.ltb_ge. exact Hb. }
    rewrite Hd. destruct (RegisterChange (exeb k)); [reflexivity|]. rewrite Hm. reflexivity.
  Qed.

  Lemma WuFrame3_reflq x : WuFrame3 x x.
  Proof. apply WuFrame3_refl. Qed.
  Lemma wu_took_frame x k q' : WuFrame3 x (wu_took x k q').
  Proof. unfold wu_took. destruct (RegisterChange (exeb k)); constructor; reflexivity. Qed.

  Lemma wu_took_q x k q' : bb_q (m_wbus (x_m (wu_took x k q'))) = q'.
  Proof. unfold wu_took. destruct (RegisterChange (exeb k)); reflexivity. Qed.

  Lemma TabOK_wb w crat trat : TabOK w crat trat -> (base <= w)%nat ->
    TabOK (S w) crat (if RegisterChange (exeb w) then rat_write tu0 trat (Register (exeb w)) (sid w, RegisterValue (exeb w)) else trat).
  Proof using Hrng Hlen0 Hx0.
    intros H Hb. destruct (RegisterChange (exeb w)) eqn:E.
    - apply (tab_write app labels regs0 base Hrng Hlen0 Hx0); assumption.
    - apply (tab_nowrite app labels regs0 base); assumption.
  Qed.

  Theorem wu_take_okq dp d xe w pl pv x c q' : BIq dp d xe w pl pv x -> bb_q (m_wbus (x_m x)) = c :: q' ->
    c = wbq w /\ (base <= w <= N)%nat /\ (w < n)%nat /\ (w < xe)%nat /\ BIq dp d xe (S w) pl pv (wu_took x w q').
  Proof.
    intros HB Hq. pose proof HB as HBd; dBI HBd; destruct bq_ord0 as [bi_ordw bi_ord0].
    fold n N in bq_dn0, bq_xeN0, bq_ret0.
    assert (Hfl : flat (m_wbus (x_m x)) = c :: q' ++ map snd (bb_buf (m_wbus (x_m x)))) by (unfold flat; rewrite Hq; reflexivity).
    rewrite bq_wbus0 in Hfl. destruct (xe - w)%nat as [|m] eqn:Em; [discriminate|]. cbn [seq map] in Hfl. injection Hfl as Hc Hrest.
    assert (Hwx : (w < xe)%nat) by lia.
    split; [symmetry; exact Hc|]. split; [lia|]. split; [lia|]. split; [exact Hwx|].
    (* the scoreboards *)
    assert (Lw : length (sb_decr (m_pw (x_m x)) (wrs w)) = 32%nat) by (rewrite sb_decr_length; exact bq_pwlen0).
    assert (Lr : length (sb_decr (m_pr (x_m x)) (rds w)) = 32%nat) by (rewrite sb_decr_length; exact bq_prlen0).
    pose proof (sb_decr_seq wrs _ w d ltac:(lia) bq_pwlen0 bq_pw0) as Cw.
    pose proof (sb_decr_seq rds _ w d ltac:(lia) bq_prlen0 bq_pr0) as Cr.
    assert (Hread' : Forall (ReadOK (S w)) (flat (x_ebus x))).
    { eapply Forall_impl; [|exact bq_read0]. intros a Ha q Hq' Hqz. destruct (Ha q Hq' Hqz) as [A|A]; [left; exact A | right; intros j Hj; apply A; lia]. }
    assert (Hwb' : q' ++ map snd (bb_buf (m_wbus (x_m x))) = map wbq (seq (S w) (xe - S w))).
    { rewrite <- Hrest. f_equal. f_equal. lia. }
    pose proof (TabOK_wb w _ _ bq_tab0 ltac:(lia)) as Htab'.
    unfold wu_took. destruct (RegisterChange (exeb w)) eqn:Erc;
      constructor; cbn [x_ebus x_m x_crat x_trat x_fwd x_seq x_pcb x_chan x_next x_os set_rats3 set_m del_pending6 set_sb set_wbus
                        m_pw m_pr m_regs m_mem m_l3 m_wbus]; try assumption; try lia.
  Qed.

  Lemma wus_ok3q dp d xe pl pv : forall wus x w, Forall (fun u => u_co u = WNone) wus -> BIq dp d xe w pl pv x ->
    exists x', wus_cycle3 x wus (-1) = Ok (x', wus) /\
      BIq dp d xe (w + Nat.min (length wus) (length (bb_q (m_wbus (x_m x))))) pl pv x' /\ WuFrame3 x x' /\
      bb_q (m_wbus (x_m x')) = skipn (length wus) (bb_q (m_wbus (x_m x))).
  Proof.
    induction wus as [|u t IH]; intros x w Hw HB.
    - exists x. cbn [wus_cycle3 length Nat.min skipn]. rewrite Nat.add_0_r. split; [reflexivity|]. split; [exact HB|]. split; [constructor; reflexivity | reflexivity].
    - inversion Hw as [|? ? Hu Ht]; subst. cbn [wus_cycle3].
      destruct (bb_q (m_wbus (x_m x))) as [|c q'] eqn:Eq.
      + rewrite (wu_idle3 x u (-1) Hu Eq). cbn [bind fst snd].
        destruct (IH x w Ht HB) as (x' & E & A1 & A2 & A3). rewrite E. cbn [bind fst snd]. exists x'.
        rewrite Eq in *. cbn [length] in *. rewrite Nat.min_0_r in *. split; [reflexivity|]. split; [exact A1|]. split; [exact A2|].
        rewrite A3. destruct (length t); reflexivity.
      + destruct (wu_take_okq _ _ _ _ _ _ _ c q' HB Eq) as (Hc & Hr1 & Hr2 & Hr3 & HB1). subst c.
        rewrite (wu_take_gen x u w q' (-1) Hu Eq Hr1 Hr2 ltac:(left; reflexivity)). cbn [bind fst snd].
        destruct (IH (wu_took x w q') (S w) Ht HB1) as (x' & E & A1 & A2 & A3). rewrite E. cbn [bind fst snd]. exists x'.
        split; [reflexivity|]. rewrite wu_took_q in A1, A3. cbn [length Nat.min skipn].
        split; [replace (w + S (Nat.min (length t) (length q')))%nat with (S w + Nat.min (length t) (length q'))%nat by lia; exact A1|].
        split; [eapply WuFrame3_trans; [apply wu_took_frame | exact A2] | exact A3].
  Qed.
  (* the write units in the tick in which instruction E asked for a flush (before = the tag of E) *)
  Lemma wu_take_okf w E t sqx x c q' : FIq w E t sqx x -> bb_q (m_wbus (x_m x)) = c :: q' ->
    c = wbq w /\ (base <= w <= N)%nat /\ (w < n)%nat /\ (w <= E)%nat /\ FIq (S w) E t sqx (wu_took x w q').
  Proof.
    intros [(F1a & F1b & F1c & F1d) F2 F3 (j & junk & Fj & Fq & Fb & Fjk) F5 F6 F7 F8 F9 F10 F11 F12 F13] Hq.
    rewrite Hq in Fq. destruct j as [|j]; [discriminate|]. cbn [seq map] in Fq. injection Fq as Hc Hq'.
    split; [exact Hc|]. split; [lia|]. split; [lia|]. split; [lia|].
    pose proof (TabOK_wb w _ _ F5 ltac:(lia)) as Htab'.
    unfold wu_took. destruct (RegisterChange (exeb w)) eqn:Erc;
      constructor; cbn [x_ebus x_m x_crat x_trat x_fwd x_seq x_pcb x_chan x_next x_os set_rats3 set_m del_pending6 set_sb set_wbus
                        m_pw m_pr m_regs m_mem m_l3 m_wbus m_bu bb_q bb_buf]; try assumption; try lia;
      exists j, junk; (split; [lia|]); (split; [exact Hq'|]); (split; [|exact Fjk]);
      rewrite Fb; replace (S w + j)%nat with (w + S j)%nat by lia; reflexivity.
  Qed.

  Lemma wus_okf E t sqx : forall wus x w, Forall (fun u => u_co u = WNone) wus -> FIq w E t sqx x ->
    exists x', wus_cycle3 x wus (sid E) = Ok (x', wus) /\
      FIq (w + Nat.min (length wus) (length (bb_q (m_wbus (x_m x))))) E t sqx x' /\ WuFrame3 x x' /\
      bb_q (m_wbus (x_m x')) = skipn (length wus) (bb_q (m_wbus (x_m x))).
  Proof.
    induction wus as [|u t0 IH]; intros x w Hw HF.
    - exists x. cbn [wus_cycle3 length Nat.min skipn]. rewrite Nat.add_0_r. split; [reflexivity|]. split; [exact HF|]. split; [constructor; reflexivity | reflexivity].
    - inversion Hw as [|? ? Hu Ht]; subst. cbn [wus_cycle3].
      destruct (bb_q (m_wbus (x_m x))) as [|c q'] eqn:Eq.
      + rewrite (wu_idle3 x u (sid E) Hu Eq). cbn [bind fst snd].
        destruct (IH x w Ht HF) as (x' & E0 & A1 & A2 & A3). rewrite E0. cbn [bind fst snd]. exists x'.
        rewrite Eq in *. cbn [length] in *. rewrite Nat.min_0_r in *. split; [reflexivity|]. split; [exact A1|]. split; [exact A2|].
        rewrite A3. destruct (length t0); reflexivity.
      + destruct (wu_take_okf _ _ _ _ _ c q' HF Eq) as (Hc & Hr1 & Hr2 & Hr3 & HF1). subst c.
        rewrite (wu_take_gen x u w q' (sid E) Hu Eq Hr1 Hr2 ltac:(right; apply sid_le; exact Hr3)). cbn [bind fst snd].
        destruct (IH (wu_took x w q') (S w) Ht HF1) as (x' & E0 & A1 & A2 & A3). rewrite E0. cbn [bind fst snd]. exists x'.
        split; [reflexivity|]. rewrite wu_took_q in A1, A3. cbn [length Nat.min skipn].
        split; [replace (w + S (Nat.min (length t0) (length q')))%nat with (S w + Nat.min (length t0) (length q'))%nat by lia; exact A1|].
        split; [eapply WuFrame3_trans; [apply wu_took_frame | exact A2] | exact A3].
  Qed.
End FwdExec.

Print Assumptions head_operandsq.
Print Assumptions eu_head_gen.
Print Assumptions BIq_exec_plain.
Print Assumptions BIq_exec_ret.
Print Assumptions FIq_exec_flush.
Print Assumptions eu_shadowq.
Print Assumptions eus_after_flush.
Print Assumptions eus_main_q.
Print Assumptions wu_take_okq.
Print Assumptions wus_ok3q.
Print Assumptions wus_okf.
Print Assumptions eus_drain_idleq.
