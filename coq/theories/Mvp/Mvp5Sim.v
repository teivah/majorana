(* The MVP-5 model on a register-only program is, cycle for cycle, its skeleton
   (Mvp5Skel.v) plus the values of the sequential machine. *)
From Coq Require Import ZArith List Bool Lia.
From Maj Require Import Base.Outcome Base.GoInt Base.GoTypes Isa.Spec Isa.Embed Isa.Seq Isa.Refine.
From Maj Require Import Gen.Latency Gen.RiscTables Gen.Opcodes Comp.Cache Comp.CacheProofs.
From Maj Require Import Mvp.Mvp12 Mvp.Mvp12Proofs Mvp.Mvp3 Mvp.Mvp3Proofs Mvp.Mvp4 Mvp.Mvp5
     Mvp.SkelRun Mvp.Mvp4Skel Mvp.Mvp4Inv Mvp.Mvp4Units Mvp.Mvp4Front Mvp.Mvp4Sim Mvp.Mvp5Skel Mvp.Mvp5Inv Mvp.Mvp5Front.
Import ListNotations.
Open Scope Z_scope.

(* toCheck and expectation after btbBranchUnit.assert *)
Definition asrt (btb : list (Z * Z)) (tc : bool) (ex : Z) (i : instr) (pc : Z) : bool * Z :=
  if uncond i then match btb_get btb pc with None => (true, -1) | Some _ => (false, ex) end
  else if condbr i then (true, addS 32 pc 4) else (false, ex).

Lemma bu5_assert_eq regs mem pw l1d e wbus tc ex btb fu du i pc :
  bu5_assert (mk_env5 regs mem pw l1d e wbus (mk_bu5 tc ex btb) fu du) i pc =
  mk_env5 regs mem pw l1d e wbus (mk_bu5 (fst (asrt btb tc ex i pc)) (snd (asrt btb tc ex i pc)) btb)
          (sk5_assert fu btb (Some (i, pc))) du.
Proof.
  unfold bu5_assert, asrt, sk5_assert, uncond, condbr.
  cbn [v_regs v_mem v_pw v_l1d v_eu v_wbus v_bu v_fu v_du b5_to_check b5_expectation b5_btb].
  destruct (InstructionType_IsUnconditionalBranch (instr_InstructionType i)).
  - destruct (btb_get btb pc); reflexivity.
  - destruct (InstructionType_IsConditionalBranch (instr_InstructionType i)); reflexivity.
Qed.

Definition eu5_post (r : outcome (eu5_env * eu_out) + err_class) (ebus : sbus (instr * Z))
  : outcome (eu5_env * sbus (instr * Z) * eu_out) + err_class :=
  match r with
  | inr er => inr er
  | inl (Ok (env2, o)) => inl (Ok (set_eu env2 (clear_runner (v_eu env2)), ebus, o))
  | inl (Err er) => inl (Err er)
  | inl Panic => inl Panic
  end.

(* as Mvp4Sim.eu_cycle_sk; the branch unit's assert may redirect the fetch unit *)
Lemma eu5_cycle_sk labels regs mem pw l1d e wbus tc ex btb fu du ebus e1 ebus2 act :
  eu_pending_read e = false -> sbus_can_add wbus = true ->
  sk_eu e ebus pw = (e1, ebus2, act) ->
  match act with
  | ANone => exists tc' ex', eu5_cycle labels (mk_env5 regs mem pw l1d e wbus (mk_bu5 tc ex btb) fu du) ebus
                             = inl (Ok (mk_env5 regs mem pw l1d e1 wbus (mk_bu5 tc' ex' btb)
                                                (sk5_assert fu btb (eu_issue e ebus)) du, ebus2, eu_none))
  | AExec i pc =>
      instr_MemoryRead i (rget regs) 0 = [] ->
      exists e2, e1 = eu_done e2 /\ pw_hazard pw (instr_ReadRegisters i) = false /\
        eu5_cycle labels (mk_env5 regs mem pw l1d e wbus (mk_bu5 tc ex btb) fu du) ebus
        = eu5_post (eu5_run labels (bu5_assert (mk_env5 regs mem pw l1d e2 wbus (mk_bu5 tc ex btb) fu du) i pc) i pc []) ebus2
  | AStuck => True
  end.
Proof.
  intros Hpr Hadd. unfold sk_eu, eu5_cycle, eu_issue, eu_intake, cyc_of, set_rem.
  cbn [v_regs v_mem v_pw v_l1d v_eu v_wbus v_bu v_fu v_du]. rewrite Hpr, Hadd.
  set (T := if eu_processing e then _ else _). destruct T as [[em eb1] have].
  destruct have; cbn [negb]; [|intros H; injection H as <- <- <-; do 2 eexists; reflexivity].
  destruct (negb (eu_remaining em - 1 =? 0)); [intros H; injection H as <- <- <-; do 2 eexists; reflexivity|].
  destruct (eu_runner em) as [[i pc]|]; [|intros H; injection H as <- <- <-; exact I].
  destruct (pw_hazard pw (instr_ReadRegisters i)) eqn:Ehz; intros H; injection H as <- <- <-.
  - unfold set_eu at 2. cbn [v_regs v_mem v_pw v_l1d v_eu v_wbus v_bu v_fu v_du].
    rewrite bu5_assert_eq. do 2 eexists. reflexivity.
  - intros Hmr. rewrite Hmr. eexists. split; [reflexivity|]. split; [exact Ehz | reflexivity].
Qed.

Lemma eu5_run_ret labels env i pc :
  instr_Run i (rget (v_regs env)) labels pc [] 0 = Ok (embed EReturn) ->
  eu5_run labels env i pc [] = inl (Ok (env, mk_euo false 0 true)).
Proof. intros H. unfold eu5_run. rewrite H. reflexivity. Qed.

(* the flush decision of executeUnit.run, given toCheck and expectation *)
Definition fl5 (tc : bool) (ex : Z) (exe : execution) : bool := PcChange exe && tc && negb (ex =? NextPc exe).

Lemma eu5_run_reg labels regs mem pw l1d e2 wbus tc ex btb fu du i pc exe :
  instr_Run i (rget regs) labels pc [] 0 = Ok exe -> Return exe = false -> MemoryChange exe = false ->
  exists tc',
  eu5_run labels (mk_env5 regs mem pw l1d e2 wbus (mk_bu5 tc ex btb) fu du) i pc [] =
    inl (Ok (mk_env5 regs mem (pw_add pw (instr_WriteRegisters i)) l1d
                     (mk_eu false (eu_pending_read e2) (eu_addrs e2) (eu_memory e2) (eu_remaining e2) (eu_runner e2))
                     (sbus_add wbus (exe, instr_WriteRegisters i))
                     (mk_bu5 tc' ex (if uncond i then btb_add btb pc (NextPc exe) else btb))
                     (if uncond i then fu5_reset fu (NextPc exe) else fu)
                     (if uncond i then false else du),
             if fl5 tc ex exe then mk_euo true (NextPc exe) false else eu_none)).
Proof.
  intros H Hr Hm. unfold eu5_run, fl5, uncond.
  cbn [v_regs v_mem v_pw v_l1d v_eu v_wbus v_bu v_fu v_du]. rewrite H, Hr, Hm. cbn [bind].
  destruct (InstructionType_IsUnconditionalBranch (instr_InstructionType i));
    destruct (PcChange exe); unfold bu5_should_flush; cbn [b5_to_check b5_expectation b5_btb andb];
    destruct tc; cbn [negb andb]; eexists; reflexivity.
Qed.

(* the flush decision of MVP-5 from the one of MVP-4 (Mvp4Sim.exec_cases) *)
Lemma flush5_agree btb tc ex i pc next exe :
  snd (flush_dec (bu_assert (mk_bu false 0) i pc) exe) = sk_flush i pc next ->
  (sk_flush i pc next = true -> NextPc exe = next) ->
  (uncond i = true -> NextPc exe = next) /\
  fl5 (fst (asrt btb tc ex i pc)) (snd (asrt btb tc ex i pc)) exe = sk5_flush btb i pc next /\
  (sk5_flush btb i pc next = true -> NextPc exe = next).
Proof.
  unfold flush_dec, bu_assert, sk_flush, asrt, sk5_flush, fl5, bu_should_flush. fold (uncond i) (condbr i).
  destruct (uncond i) eqn:Eu; cbn [orb].
  - cbn [bu_to_check bu_expectation negb]. intros Hfl Hn. specialize (Hn eq_refl).
    split; [auto|]. split; [|auto].
    destruct (PcChange exe); cbn [snd] in Hfl; [|discriminate].
    destruct (btb_get btb pc); cbn [fst snd andb]; [reflexivity | exact Hfl].
  - intros Hfl Hn. split; [discriminate|]. split; [|exact Hn].
    destruct (condbr i); cbn [fst snd bu_to_check bu_expectation negb] in *.
    + rewrite <- Hfl. destruct (PcChange exe); reflexivity.
    + rewrite <- Hfl. destruct (PcChange exe); cbn [snd andb]; rewrite ?andb_false_r; reflexivity.
Qed.

Lemma finish5_reg regs mem pw l1i l1d fu du dbus ebus eu wbus wu bu cyc :
  lines l1d = [] ->
  m5_finish (mk_m5 regs mem pw l1i l1d fu du dbus ebus eu wbus wu bu) cyc = MDone cyc (mk_arch regs mem).
Proof. intros H. unfold m5_finish. cbn [t_l1d t_mem t_regs]. rewrite H. cbn [flush_lines]. rewrite Z.add_0_r. reflexivity. Qed.

Lemma complete5_agree regs mem pw pw' l1i l1d fu du dbus ebus eu w bu btb :
  m5_is_complete (mk_m5 regs mem pw l1i l1d fu du dbus ebus eu (mk_sbus None None) (mk_wu false w) bu)
  = sk5_complete (mk_sk5 fu du l1i dbus ebus eu pw' None btb).
Proof.
  unfold m5_is_complete, sk5_complete.
  cbn [t_fu t_eu t_wu t_dbus t_ebus t_wbus k5_fu k5_eu k5_dbus k5_ebus k5_wb wu_pending].
  destruct (f5_complete fu), (eu_processing eu), (sbus_is_empty dbus), (sbus_is_empty ebus); reflexivity.
Qed.

Lemma complete5_false regs mem pw l1i l1d fu du dbus ebus eu x w bu :
  m5_is_complete (mk_m5 regs mem pw l1i l1d fu du dbus ebus eu (mk_sbus None (Some x)) (mk_wu false w) bu) = false.
Proof. unfold m5_is_complete. cbn [t_wbus sbus_is_empty sb_pending sb_current]. apply andb_false_r. Qed.

Section Sim5.
  Variables (app : list instr) (labels : Z -> option Z).
  Hypothesis Happ : wf_app app.
  Hypothesis Hlab : wf_labels labels.
  Hypothesis Hreg : reg_only app = true.

  (* the model state [s] is the skeleton [a] plus the values of the sequential state [st] *)
  Inductive R5 : m5state -> sk5 -> arch -> Prop :=
  | R5_intro a rg l1d w tc ex cur st :
      lines l1d = [] -> VR rg cur (k5_wb a) st ->
      R5 (mk_m5 rg (mem st) (k5_pw a) (k5_l1i a) l1d (k5_fu a) (k5_du a) (k5_dbus a) (k5_ebus a) (k5_eu a)
                (mk_sbus None cur) (mk_wu false w) (mk_bu5 tc ex (k5_btb a))) a st.

  Lemma sim_step5 f a head rest cyc s st stf :
    R5 s a st -> F5 app head a -> sexec app labels st (head :: rest) stf ->
    match sk5_cyc app a (head :: rest) with
    | GStuck => True
    | GDone dc => m5run (S f) app labels s cyc = MDone (cyc + dc) stf
    | GStep a' path' dc =>
        exists s' st', m5run (S f) app labels s cyc = m5run f app labels s' (cyc + dc) /\
                       R5 s' a' st' /\ sexec app labels st' path' stf
    end.
  Proof.
    intros HR HF HS.
    destruct HR as [a rg l1d w tc ex cur st Hl HV].
    pose proof (vr_wr _ _ _ _ HV) as Hcw. pose proof (vr_regs _ _ _ _ HV) as Hregs.
    pose proof HF as [Hh _ _ _ _ _ _ Hpr _ Hpw _ _].
    pose proof (vr_item_ok _ _ _ _ HV) as Hitem1.
    unfold sk5_cyc, sk5_cycle.
    cbn [m5run t_fu t_du t_l1i t_dbus t_ebus t_regs t_mem t_pw t_l1d t_eu t_wbus t_bu t_wu].
    destruct (fu5_cycle app (k5_fu a) (k5_l1i a) (k5_dbus a)) as [[[fu1 l1i1] dbus1]| |] eqn:Ef; try exact I.
    destruct (du5_cycle app (k5_du a) dbus1 (k5_ebus a)) as [[[du1 dbus2] ebus1]| |] eqn:Ed; try exact I.
    destruct (sk_eu (k5_eu a) ebus1 (k5_pw a)) as [[e1 ebus2] act] eqn:Ee.
    destruct act as [|i pc|]; [| |exact I].
    - (* nothing executed this cycle *)
      destruct (eu5_cycle_sk labels rg (mem st) (k5_pw a) l1d (k5_eu a) (mk_sbus None cur) tc ex (k5_btb a) fu1 du1
                             ebus1 e1 ebus2 _ Hpr eq_refl Ee) as (tc' & ex' & Eeu).
      rewrite Eeu. cbn [v_regs v_mem v_pw v_l1d v_eu v_wbus v_bu v_fu v_du eu_none eo_ret eo_flush].
      rewrite (wu_cycle_reg rg (mem st) (k5_pw a) w None cur Hitem1).
      rewrite (complete5_agree _ _ _ (wdel (k5_pw a) (k5_wb a)) _ _ _ _ _ _ _ _ _ (k5_btb a)). rewrite Hcw.
      pose proof (f5_none app Happ head a _ _ _ _ _ _ _ _ HF Ef Ed Ee) as HF2. unfold after_none5 in HF2.
      destruct (sk5_complete _) eqn:Ec; cbn [sk5_view].
      + rewrite finish5_reg by exact Hl.
        rewrite (sexec_out _ _ _ _ _ _ HS (complete_out5 app head _ HF2 Ec)), <- Hregs. destruct st; reflexivity.
      + eexists _, st. split; [reflexivity|]. split; [|exact HS].
        exact (R5_intro (mk_sk5 _ du1 l1i1 dbus2 ebus2 e1 (wdel (k5_pw a) (k5_wb a)) None (k5_btb a))
                        _ l1d w tc' ex' None st Hl (vr_drain _ _ _ _ HV)).
    - (* (i, pc) is executed *)
      destruct (Z.eqb_spec head pc) as [<-|]; cbn [negb]; [|exact I].
      destruct (front_flow5 app Happ head a _ _ _ _ _ _ _ _ _ HF Ef Ed Ee) as (_ & _ & _ & _ & Hmid & _).
      destruct Hmid as (_ & _ & _ & Hent').
      cbn [act_q List.app] in Hent'. inversion Hent' as [|x l [_ Hi] _]; subst x l. cbn [fst snd] in Hi.
      pose proof (nomem_nth app Hreg _ _ Hi) as Hnm.
      destruct (eu5_cycle_sk labels rg (mem st) (k5_pw a) l1d (k5_eu a) (mk_sbus None cur) tc ex (k5_btb a) fu1 du1
                  ebus1 e1 ebus2 _ Hpr eq_refl Ee (nomem_no_read i _ _ Hnm)) as (e2 & -> & Hhz & Eeu).
      rewrite Eeu. rewrite bu5_assert_eq. rewrite (eu_issue_exec _ _ _ _ _ _ _ Ee).
      pose proof (exec_cases app labels Happ Hlab Hreg st rg head i (mk_bu false 0) Hh Hi (vr_rg _ _ _ _ HV) (vr_st _ _ _ _ HV)
                    (vr_reads _ _ _ _ _ _ HV Hpw Hhz)) as Hcases.
      inversion HS as [? ? ? Hs|? ? st' next rest' ? Hs HS']; subst; rewrite Hs in Hcases.
      + (* the run halts here: ret *)
        destruct Hcases as (-> & Hret & Hrun). rewrite Hret. cbn [sk5_view].
        rewrite eu5_run_ret by exact Hrun.
        cbn [eu5_post set_eu v_regs v_mem v_pw v_l1d v_eu v_wbus v_bu v_fu v_du eo_ret eo_flush].
        rewrite (wu_cycle_reg rg (mem st) (k5_pw a) w None cur Hitem1).
        rewrite drain_empty. rewrite finish5_reg by exact Hl. rewrite <- Hregs. destruct st; reflexivity.
      + destruct Hcases as (Hret & e & Hrun & Hr & Hm & Hit & Hrel & Hregs' & Hmem' & Hsi' & Hfl & Hnpc).
        rewrite Hret.
        destruct (eu5_run_reg labels rg (mem st) (k5_pw a) l1d e2 (mk_sbus None cur)
                    (fst (asrt (k5_btb a) tc ex i head)) (snd (asrt (k5_btb a) tc ex i head)) (k5_btb a)
                    (sk5_assert fu1 (k5_btb a) (Some (i, head))) du1 i head (embed e) Hrun Hr Hm) as (tc' & Erun).
        rewrite Erun.
        pose proof (sexec_head_nonneg _ _ _ _ _ _ HS') as Hnext. specialize (Hfl Hnext).
        destruct (flush5_agree (k5_btb a) tc ex i head next (embed e) Hfl Hnpc) as (Hunc & Hfl5 & Hnpc5).
        rewrite Hfl5.
        assert (Hfu_eq : (if uncond i then fu5_reset (sk5_assert fu1 (k5_btb a) (Some (i, head))) (NextPc (embed e))
                          else sk5_assert fu1 (k5_btb a) (Some (i, head)))
                         = (if uncond i then fu5_reset (sk5_assert fu1 (k5_btb a) (Some (i, head))) next
                            else sk5_assert fu1 (k5_btb a) (Some (i, head)))).
        { destruct (uncond i); [rewrite (Hunc eq_refl)|]; reflexivity. }
        assert (Hbtb_eq : (if uncond i then btb_add (k5_btb a) head (NextPc (embed e)) else k5_btb a)
                          = (if uncond i then btb_add (k5_btb a) head next else k5_btb a)).
        { destruct (uncond i); [rewrite (Hunc eq_refl)|]; reflexivity. }
        rewrite Hfu_eq, Hbtb_eq.
        cbn [eu5_post set_eu v_regs v_mem v_pw v_l1d v_eu v_wbus v_bu v_fu v_du]. rewrite sbus_add_mk.
        rewrite (wu_cycle_reg rg (mem st) _ w _ cur Hitem1).
        destruct (sk5_flush (k5_btb a) i head next) eqn:Esf; cbn [sk5_view].
        * (* not predicted / mispredicted: drain and flush *)
          cbn [eo_ret eo_flush eo_pc].
          rewrite (drain_one _ _ _ _ w _ _ true Hit). cbn [fst snd]. rewrite (Hnpc5 eq_refl).
          eexists _, st'. split; [replace (cyc + 2) with (cyc + 1 + 1) by lia; reflexivity|]. split; [|exact HS'].
          rewrite <- Hmem'.
          exact (R5_intro (mk_sk5 (mk_fu5 next _ false false _) false l1i1 sbus_empty sbus_empty (eu_flushed (eu_done e2)) zero_pw None _)
                          _ l1d w tc' _ None st' Hl (vr_drain _ _ _ _ (vr_push _ _ _ _ _ _ _ HV Hit Hrel Hregs' Hsi'))).
        * cbn [eo_ret eo_flush]. rewrite complete5_false.
          eexists _, st'. split; [reflexivity|]. split; [|exact HS'].
          rewrite <- Hmem', Hcw.
          exact (R5_intro (mk_sk5 _ _ l1i1 dbus2 ebus2 (eu_done e2) (wdel (pw_add (k5_pw a) (instr_WriteRegisters i)) (k5_wb a))
                                  (Some (instr_WriteRegisters i)) _)
                          _ l1d w tc' _ _ st' Hl (vr_push _ _ _ _ _ _ _ HV Hit Hrel Hregs' Hsi')).
  Qed.
End Sim5.
