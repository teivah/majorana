(* Auxiliary definitions for the proofs about the MVP-4 model (Mvp4.v).
   Nothing here changes the model; everything is either a predicate used in the
   statements (reg_only, seq_path, path_below) or a proof device:

   - the "skeleton" of the pipeline: the control part of an m4state (fetch unit,
     L1I, the two front-end latches, the execute unit's counter, the scoreboard,
     the shape of the write bus) without any register VALUE.  One skeleton cycle
     is driven by the path (the pcs the sequential machine visits): it is the
     only information the control needs (is the executed branch followed by
     pc+4 or not).  Mvp4Sim.v shows that the model on a register-only
     program is, cycle for cycle, the skeleton plus the sequential values. *)
From Coq Require Import ZArith List Bool Lia.
From Maj Require Import Base.Outcome Base.GoInt Base.GoTypes Isa.Spec Isa.Seq Isa.Refine.
From Maj Require Import Gen.Latency Gen.RiscTables Gen.Opcodes Comp.Cache Mvp.Mvp12 Mvp.Mvp3 Mvp.Mvp4.
Import ListNotations.
Open Scope Z_scope.

(* ------------------------------------------------------------------ *)
(* predicates used in the statements                                    *)

(* no load and no store instruction in the program text *)
Definition nomem (i : instr) : bool :=
  negb (InstructionType_IsMemoryRead (instr_InstructionType i)) &&
  negb (InstructionType_IsMemoryWrite (instr_InstructionType i)).
Definition reg_only (app : list instr) : bool := forallb nomem app.

(* the pcs the sequential machine visits, in order, INCLUDING the one at which
   it halts (the pc of the ret, or the first pc outside the text) *)
Fixpoint seq_path (fuel : nat) (p : list sinstr) (labels : Z -> option Z) (st : arch) (pc : Z) : list Z :=
  match fuel with
  | O => []
  | S f => pc :: match Seq.step p labels st pc with
                 | Next st' pc' => seq_path f p labels st' pc'
                 | _ => []
                 end
  end.

(* every visited pc is below 2^31 - 4 (pc + 4 does not wrap).  Inside the text
   this follows from wf_app; it is a hypothesis on the pc at which the run leaves
   the text only (a jalr / label to an address in the last 4 bytes of the
   int32 range) *)
Definition path_below (path : list Z) : bool := forallb (fun pc => pc <? 2147483644) path.

(* ------------------------------------------------------------------ *)
(* the skeleton                                                         *)

Definition cyc_of (i : instr) : Z :=
  match InstructionType_Cycles (instr_InstructionType i) with Ok c => c | _ => 0 end.

Record sk := mk_sk { k_fu : fu_t; k_l1i : cache; k_dbus : sbus Z; k_ebus : sbus (instr * Z);
                     k_eu : eu_t; k_pw : list Z;
                     k_wb : option (list Z) (* declared write registers of the entry in the write bus *) }.

Inductive eu_act := ANone | AExec (i : instr) (pc : Z) | AStuck.

Definition eu_intake (e : eu_t) (ebus : sbus (instr * Z)) : eu_t * sbus (instr * Z) * bool :=
  if eu_processing e then (e, ebus, true)
  else
    let '(ebus', got) := sbus_get ebus in
    match got with
    | None => (e, ebus', false)
    | Some (i, pc) => (mk_eu true false (eu_addrs e) (eu_memory e) (cyc_of i) (Some (i, pc)), ebus', true)
    end.

Definition set_rem (e : eu_t) (r : Z) : eu_t :=
  mk_eu (eu_processing e) (eu_pending_read e) (eu_addrs e) (eu_memory e) r (eu_runner e).
Definition eu_done (e : eu_t) : eu_t :=
  mk_eu false (eu_pending_read e) (eu_addrs e) (eu_memory e) (eu_remaining e) None.

(* executeUnit.cycle without values: what the unit does this cycle *)
Definition sk_eu (e : eu_t) (ebus : sbus (instr * Z)) (pw : list Z) : eu_t * sbus (instr * Z) * eu_act :=
  let '(e1, ebus1, have) := eu_intake e ebus in
  if negb have then (e1, ebus1, ANone) else
  let rem := eu_remaining e1 - 1 in
  if negb (rem =? 0) then (set_rem e1 rem, ebus1, ANone) else
  match eu_runner e1 with
  | None => (e1, ebus1, AStuck)
  | Some (i, pc) =>
      if pw_hazard pw (instr_ReadRegisters i) then (set_rem e1 1, ebus1, ANone)
      else (eu_done (set_rem e1 rem), ebus1, AExec i pc)
  end.

Definition wdel (pw : list Z) (wb : option (list Z)) : list Z :=
  match wb with Some wr => pw_del pw wr | None => pw end.

(* does executing (i, pc), followed on the path by [next], flush the pipeline *)
Definition sk_flush (i : instr) (pc next : Z) : bool :=
  InstructionType_IsUnconditionalBranch (instr_InstructionType i) || negb (next =? addS 32 pc 4).

Definition sk_complete (a : sk) : bool :=
  fu_complete (k_fu a) && negb (eu_processing (k_eu a)) &&
  sbus_is_empty (k_dbus a) && sbus_is_empty (k_ebus a) &&
  match k_wb a with None => true | Some _ => false end.

Inductive sk_res :=
| KStep (a : sk) (path : list Z) (dc : Z)    (* dc: cycles counted by this iteration of the Run loop *)
| KDone (dc : Z)
| KStuck.

Definition sk_cycle (app : list instr) (a : sk) (path : list Z) : sk_res :=
  match fu_cycle app (k_fu a) (k_l1i a) (k_dbus a) with
  | Ok (fu1, l1i1, dbus1) =>
      match du_cycle app dbus1 (k_ebus a) with
      | Ok (dbus2, ebus1) =>
          let '(e1, ebus2, act) := sk_eu (k_eu a) ebus1 (k_pw a) in
          match act with
          | AStuck => KStuck
          | ANone =>
              let a2 := mk_sk fu1 l1i1 dbus2 ebus2 e1 (wdel (k_pw a) (k_wb a)) None in
              if sk_complete a2 then KDone 1 else KStep a2 path 1
          | AExec i pc =>
              match path with
              | [] => KStuck
              | p :: rest =>
                  if negb (p =? pc) then KStuck
                  else if is_ret i then match rest with [] => KDone 1 | _ :: _ => KStuck end
                  else match rest with
                       | [] => KStuck
                       | next :: _ =>
                           let wr := instr_WriteRegisters i in
                           if sk_flush i pc next then
                             KStep (mk_sk (mk_fu next (fu_remaining fu1) false false) l1i1 sbus_empty sbus_empty
                                          e1 zero_pw None) rest 2
                           else
                             KStep (mk_sk fu1 l1i1 dbus2 ebus2 e1 (wdel (pw_add (k_pw a) wr) (k_wb a)) (Some wr)) rest 1
                       end
              end
          end
      | _ => KStuck
      end
  | _ => KStuck
  end.

Fixpoint sk_run (fuel : nat) (app : list instr) (a : sk) (path : list Z) (cycle : Z) : option Z :=
  match fuel with
  | O => None
  | S f =>
      match sk_cycle app a path with
      | KStep a' path' dc => sk_run f app a' path' (cycle + dc)
      | KDone dc => Some (cycle + dc)
      | KStuck => None
      end
  end.

Definition sk_init (ci : cache) : sk :=
  mk_sk (mk_fu 0 0 false false) ci sbus_empty sbus_empty (mk_eu false false [] None 0 None) zero_pw None.

(* the cycle count of MVP-4 on a register-only program, as a function of the
   program and the path only *)
Definition mvp4_cost (fuel : nat) (app : list instr) (path : list Z) : option Z :=
  match new_cache l1LineSize l1Size with
  | Ok ci => sk_run fuel app (sk_init ci) path 0
  | _ => None
  end.
