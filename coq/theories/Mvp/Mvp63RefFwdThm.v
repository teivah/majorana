(* Refinement of MVP-6.3 to the sequential machine on single-assignment register-only programs with FORWARD control
   flow - mvp63_run_ssa_forward_core of Mvp63RefFwdProofs.v under the names the property files and Mvp70Sim63Fwd.v use,
   and its corollary: no panic, no error, no exhausted budget, ghost flag clear.  The files of the proof are listed at the
   head of Props/C01_mvp63_fwd.v. *)
From Coq Require Import ZArith List Bool Lia Permutation.
From Maj Require Import Base.Outcome Base.GoInt Base.GoTypes Isa.Spec Isa.Embed Isa.Seq Isa.Refine Gen.Opcodes.
From Maj Require Import Gen.Latency Gen.RiscTables Comp.Cache Comp.Rat Comp.RatProofs.
From Maj Require Import Mvp.Mvp12 Mvp.Mvp12Proofs Mvp.Mvp3 Mvp.Mvp3Proofs Mvp.Mvp4Skel Mvp.Mvp4Inv Mvp.Mvp5 Mvp.Mvp60 Mvp.Mvp60Proofs
     Mvp.Mvp60RefSem Mvp.Mvp60RefDefs Mvp.Mvp60RefFront Mvp.Mvp60RefBack Mvp.Mvp60RefStep Mvp.Mvp60RefStep2 Mvp.Mvp60RefSeg Mvp.Mvp60RefProofs
     Mvp.Mvp63 Mvp.Mvp63Proofs Mvp.Mvp63RefDefs Mvp.Mvp63RefStep Mvp.Mvp63RefProofs
     Mvp.Mvp63RefFwdDefs Mvp.Mvp63RefFwdStep Mvp.Mvp63RefFwdProofs.
Import ListNotations.
Open Scope Z_scope.

Section Thm3.
  Variables (app : list instr) (labels : Z -> option Z).
  Hypothesis Happ : wf_app app.
  Hypothesis Hreg : reg_only app = true.
  Hypothesis Hssa : ssa app = true.
  Hypothesis Hrng : regs_ok app = true.
  Hypothesis Hfwd : fwd_ok app labels = true.

  (* no instruction of the class fails, whatever the registers: wrong-path execution included *)
  Lemma htot3 k rr : (k < length app)%nat -> exists e, exec (sinstr_of (ik app k)) rr labels (pcz k) [] = Ok e.
  Proof. exact (fwd_tot app labels Hfwd k rr). Qed.

  Hypothesis Hfit : seq_ids_fit3 app.

  Theorem mvp63_refines_seq_ssa_forward par ord fuel st st' tr : (1 <= par)%nat ->
    Forall int32 (regs st) -> length (regs st) = 32%nat -> nth 0 (regs st) 0 = 0 ->
    seq_run fuel (map sinstr_of app) labels st = Done st' tr ->
    exists c, forall fuel', (fuel_bound63_fwd (length app) <= fuel')%nat -> mvp63_run_os par ord fuel' app labels st = (MDone c st', false).
  Proof. exact (mvp63_run_ssa_forward_core app labels Happ Hreg Hssa Hrng Hfwd Hfit par ord fuel st st' tr). Qed.

  Corollary mvp63_no_panic_ssa_forward par ord fuel st st' tr : (1 <= par)%nat ->
    Forall int32 (regs st) -> length (regs st) = 32%nat -> nth 0 (regs st) 0 = 0 ->
    seq_run fuel (map sinstr_of app) labels st = Done st' tr ->
    forall fuel', (fuel_bound63_fwd (length app) <= fuel')%nat ->
      mvp63_run par ord fuel' app labels st <> MPanic /\ mvp63_run par ord fuel' app labels st <> MOutOfFuel /\
      (forall e, mvp63_run par ord fuel' app labels st <> MErr e) /\ snd (mvp63_run_os par ord fuel' app labels st) = false.
  Proof.
    intros Hpar HR HlR Hx0 Hrun fuel' Hf.
    destruct (mvp63_refines_seq_ssa_forward par ord fuel st st' tr Hpar HR HlR Hx0 Hrun) as (c & Hc).
    unfold mvp63_run. rewrite (Hc fuel' Hf). cbn [fst snd]. repeat split; try discriminate.
  Qed.
End Thm3.

Print Assumptions mvp63_refines_seq_ssa_forward.
Print Assumptions mvp63_no_panic_ssa_forward.
