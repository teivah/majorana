(* The MVP-5 model on a program whose stores may miss in the L1D is, cycle for cycle,
   its skeleton (Mvp5sSkel.v) plus the values of the sequential machine.  The write
   side (write bus, write unit, drain, landed memory) is that of Mvp4sSim.v; the front
   end and the branch unit are those of Mvp5mSim.v. *)
From Coq Require Import ZArith List Bool Lia.
From Maj Require Import Base.Outcome Base.GoInt Base.GoTypes Isa.Spec Isa.Embed Isa.Seq Isa.Refine.
From Maj Require Import Gen.Latency Gen.RiscTables Gen.Opcodes Comp.Cache Comp.CacheSpec Comp.MapFacts Comp.CacheProofs.
From Maj Require Import Mvp.Mvp12 Mvp.Mvp12Proofs Mvp.Mvp3 Mvp.Mvp3Proofs Mvp.Mvp4 Mvp.Mvp5
     Mvp.Mvp4Skel Mvp.Mvp4Inv Mvp.Mvp4Units Mvp.Mvp4Front Mvp.Mvp4Sim Mvp.Mvp4mSkel Mvp.Mvp4mInv Mvp.Mvp4mFront Mvp.Mvp4mSim
     Mvp.Mvp5Skel Mvp.Mvp5Inv Mvp.Mvp5Front Mvp.Mvp5Sim Mvp.Mvp5mSkel Mvp.Mvp5mFront Mvp.Mvp5mSim
     Mvp.Mvp4sSkel Mvp.Mvp4sFront Mvp.Mvp4sSim Mvp.Mvp5sSkel Mvp.Mvp5sFront.
Import ListNotations.
Open Scope Z_scope.

Lemma eu5_cycle_s_full labels regs mem pw l1d ce wbus bu fu du ebus dt la e1 ebus2 dt1 act :
  eu_pending_read ce = false -> eu_memory ce = None -> sbus_can_add wbus = false ->
  sks_eu true ce ebus pw dt la = (e1, ebus2, dt1, act) ->
  act = ANone /\ dt1 = dt /\
  eu5_cycle labels (mk_env5 regs mem pw l1d ce wbus bu fu du) ebus = inl (Ok (mk_env5 regs mem pw l1d e1 wbus bu fu du, ebus2, eu_none)) /\
  eu_pending_read e1 = false /\ eu_memory e1 = None.
Proof.
  intros Hpr Hm Hadd. unfold sks_eu, eu5_cycle, eu_intake, set_rem, set_eu.
  cbn [v_regs v_mem v_pw v_l1d v_eu v_wbus v_bu v_fu v_du].
  rewrite Hpr, Hadd. cbn [andb negb].
  destruct (eu_processing ce) eqn:Ep.
  - cbn [negb]. destruct (negb (eu_remaining ce - 1 =? 0)); intros H; injection H as <- <- <- <-;
      cbn [eu_pending_read eu_memory]; rewrite ?Hpr, ?Hm; auto.
  - unfold sbus_get. destruct (sb_current ebus) as [[i pc]|].
    + cbn [negb eu_remaining eu_runner eu_processing eu_pending_read eu_addrs eu_memory]. fold (cyc_of i).
      destruct (negb (cyc_of i - 1 =? 0)); intros H; injection H as <- <- <- <-; cbn [eu_pending_read eu_memory]; rewrite ?Hm; auto.
    + cbn [negb]. intros H. injection H as <- <- <- <-. rewrite Hpr, Hm. repeat split; auto; destruct ce; reflexivity.
Qed.

Lemma eu5_run_store_miss labels regs mem pw l1d e2 wbus bu fu du i pc bs d2 :
  instr_Run i (rget regs) labels pc [] 0 = Ok (embed (EStore bs)) -> uncond i = false ->
  get_all l1d (map fst bs) [] = Ok (d2, None) ->
  eu5_run labels (mk_env5 regs mem pw l1d e2 wbus bu fu du) i pc [] =
    inl (Ok (mk_env5 regs mem (pw_add pw (instr_WriteRegisters i)) d2
                     (mk_eu false (eu_pending_read e2) (eu_addrs e2) (eu_memory e2) (eu_remaining e2) (eu_runner e2))
                     (sbus_add wbus (embed (EStore bs), instr_WriteRegisters i)) bu fu du, eu_none)).
Proof.
  intros H Hu Hg. unfold eu5_run, uncond in *. cbn [v_regs v_mem v_pw v_l1d v_eu v_wbus v_bu v_fu v_du]. rewrite H.
  cbn [embed Return MemoryChange MemoryChanges PcChange]. rewrite Hg. cbn [bind]. rewrite Hu. reflexivity.
Qed.

Section SimS5.
  Variables (app : list instr) (labels : Z -> option Z).
  Hypothesis Happ : wf_app app.
  Hypothesis Hlab : wf_labels labels.

  Inductive RMs5 (la : list Z) : m5state -> sks5 -> arch -> Prop :=
  | RMs5_intro a rg m l1d sc tc ex wp wc ce st :
      WR l1d sc st rg m wp wc (y_wp a) (y_wc a) -> s_rec sc = y_dt a ->
      Forall int32 (regs st) -> Forall int8 (mem st) ->
      eu_erase ce = y_eu a ->
      (forall bytes, eu_memory ce = Some bytes -> bytes = map (mget (mem st)) la) ->
      (eu_pending_read ce = true -> eu_memory ce = None -> forall x, In x la -> view sc x = None) ->
      (eu_pending_read ce = true -> wp = None /\
         forall i pc, eu_runner ce = Some (i, pc) -> forall r, In r (instr_ReadRegisters i) -> rget (regs st) r = rget rg r) ->
      RMs5 la (mk_m5 rg m (y_pw a) (y_l1i a) l1d (y_fu a) (y_du a) (y_dbus a) (y_ebus a) ce (mk_sbus wp wc) (y_wu a)
                     (mk_bu5 tc ex (y_btb a))) a st.

  (* the end of an iteration in which nothing special (no ret, no flush) happens *)
  Lemma tail_step5 f cyc la st rg m pw1 l1d sc ce1 wp1 wc tc1 ex1 btb1 fuX duX l1i1 dbus2 ebus2 w swp1 swc pw2 w2 swp2 swc2 e1 l1 l2 :
    WR l1d sc st rg m wp1 wc swp1 swc -> Forall int32 (regs st) -> Forall int8 (mem st) ->
    eu_erase ce1 = e1 ->
    (forall bytes, eu_memory ce1 = Some bytes -> bytes = map (mget (mem st)) la) ->
    (eu_pending_read ce1 = true -> eu_memory ce1 = None -> forall x, In x la -> view sc x = None) ->
    (eu_pending_read ce1 = true -> wp1 = None /\
       forall i pc, eu_runner ce1 = Some (i, pc) -> forall r, In r (instr_ReadRegisters i) -> rget (regs st) r = rget rg r) ->
    sks_wu pw1 w swp1 swc = (pw2, w2, swp2, swc2) ->
    exists s',
      m5_tail f app labels w l1i1 dbus2 (cyc + 1)
              (inl (Ok (mk_env5 rg m pw1 l1d ce1 (mk_sbus wp1 wc) (mk_bu5 tc1 ex1 btb1) fuX duX, ebus2, eu_none)))
      = (if m5_is_complete s' then m5_finish s' (cyc + 1) else m5run f app labels s' (cyc + 1)) /\
      m5_is_complete s' = sks5_complete (mk_sks5 fuX duX l1i1 dbus2 ebus2 e1 pw2 swp2 swc2 w2 (s_rec sc) btb1 l1 l2) /\
      RMs5 la s' (mk_sks5 fuX duX l1i1 dbus2 ebus2 e1 pw2 swp2 swc2 w2 (s_rec sc) btb1 l1 l2) st.
  Proof.
    intros HW Hi3 Hm8 He Hb Hu Hrd Ew.
    destruct (wu_step _ _ _ _ _ _ _ _ _ _ _ _ _ _ _ HW Hi3 Ew) as (rg' & m' & wp' & wc' & Ewu & HW' & Hrg).
    exists (mk_m5 rg' m' pw2 l1i1 l1d fuX duX dbus2 ebus2 ce1 (mk_sbus wp' wc') w2 (mk_bu5 tc1 ex1 btb1)).
    split; [|split].
    - unfold m5_tail. cbn [v_regs v_mem v_pw v_l1d v_eu v_wbus v_bu v_fu v_du eu_none eo_ret eo_flush]. rewrite Ewu. reflexivity.
    - unfold m5_is_complete, sks5_complete.
      cbn [t_fu t_eu t_wu t_dbus t_ebus t_wbus y_fu y_eu y_wu y_dbus y_ebus y_wp y_wc].
      pose proof (omap_full _ _ _ _ (wr_sp _ _ _ _ _ _ _ _ _ HW')) as H1. pose proof (omap_full _ _ _ _ (wr_sc _ _ _ _ _ _ _ _ _ HW')) as H2.
      assert (Hemp : sbus_is_empty (mk_sbus wp' wc') = negb (is_full swp2) && negb (is_full swc2)).
      { rewrite <- H1, <- H2. unfold sbus_is_empty. cbn [sb_pending sb_current]. destruct wp', wc'; reflexivity. }
      rewrite Hemp, <- He, andb_assoc. unfold eu_erase. cbn [eu_processing]. reflexivity.
    - apply (RMs5_intro la (mk_sks5 fuX duX l1i1 dbus2 ebus2 e1 pw2 swp2 swc2 w2 (s_rec sc) btb1 l1 l2) rg' m' l1d sc tc1 ex1 wp' wc' ce1 st); auto.
      intros Hp. destruct (Hrd Hp) as [Hwp1 Hr]. subst wp1.
      assert (Hwp' : wp' = None).
      { pose proof (omap_none_r _ _ _ (wr_sp _ _ _ _ _ _ _ _ _ HW)) as S1.
        assert (S2 : swp2 = None).
        { unfold sks_wu in Ew. destruct (wu_pending w); [injection Ew as _ _ <- _; exact S1|].
          destruct swc as [x|]; [destruct (wi_sa x)|]; injection Ew as _ _ <- _; reflexivity. }
        pose proof (wr_sp _ _ _ _ _ _ _ _ _ HW') as S3. rewrite S2 in S3. apply omap_none in S3. exact S3. }
      split; [exact Hwp'|]. intros i pc Hrun r Hin. subst wp'.
      destruct Hrg as [[_ ->] | [_ ->]]; [apply (Hr i pc Hrun r Hin)|].
      pose proof (wr_regs _ _ _ _ _ _ _ _ _ HW) as R1. cbn [cur_regs] in R1. rewrite R1. reflexivity.
  Qed.

  Lemma finish_s5 la s a st hev rest stf cyc :
    RMs5 la s a st -> FS5 app hev a -> sks5_complete a = true -> evs_wf app (hev :: rest) ->
    sexecm app labels st (hev :: rest) stf ->
    m5_finish s cyc = MDone (cyc + MemoryAccess * zlen (y_dt a)) stf.
  Proof.
    intros HR HF Hc Hwf HS.
    destruct HR as [a rg m l1d sc tc ex wp wc ce st HW Hdt Hi3 Hm8 Hce Hbytes Hunc Hrd].
    destruct (completes_exit5 app hev rest a HF Hc Hwf) as [_ Hout].
    destruct (sexecm_out app labels _ _ _ _ HS Hout) as [-> _].
    unfold sks5_complete in Hc. repeat (apply andb_prop in Hc as [Hc ?]).
    apply negb_true_iff in H, H0.
    assert (E1 : y_wp a = None) by (destruct (y_wp a); [discriminate | reflexivity]).
    assert (E2 : y_wc a = None) by (destruct (y_wc a); [discriminate | reflexivity]).
    rewrite E1, E2 in HW.
    pose proof (omap_none _ _ _ (wr_sp _ _ _ _ _ _ _ _ _ HW)). pose proof (omap_none _ _ _ (wr_sc _ _ _ _ _ _ _ _ _ HW)). subst wp wc.
    destruct (wr_empty_mem _ _ _ _ _ HW) as [Hregs HV].
    unfold m5_finish. cbn [t_l1d t_mem t_regs]. rewrite (flush_ok _ _ _ _ HV), Hdt. rewrite <- Hregs. destruct st; reflexivity.
  Qed.

  Lemma sim_exec_s5 f a hev rest st stf fuA du1 l1i1 dbus2 ebus2 cyc rg m' d' sc' e2 wc tc ex i bytes :
    WR d' sc' st rg m' None wc None (y_wc a) -> y_wp a = None ->
    Forall int32 (regs st) -> Forall int8 (mem st) ->
    (forall r, In r (instr_ReadRegisters i) -> rget (regs st) r = rget rg r) ->
    0 <= ev_pc hev < 2147483644 -> nth_error app (Z.to_nat (ev_pc hev / 4)) = Some i ->
    bytes = map (mget (mem st)) (ev_la hev) ->
    eu_memory e2 = None -> eu_pending_read e2 = false ->
    (ev_la hev = [] -> exists tc0 ex0, tc = fst (asrt (y_btb a) tc0 ex0 i (ev_pc hev)) /\
                                       ex = snd (asrt (y_btb a) tc0 ex0 i (ev_pc hev))) ->
    sexecm app labels st (hev :: rest) stf ->
    match sks5_exec a fuA du1 l1i1 dbus2 ebus2 (eu_done e2) (s_rec sc') i (ev_pc hev) (hev :: rest) with
    | YStuck => True
    | YFin dc dt =>
        m5_tail f app labels (y_wu a) l1i1 dbus2 (cyc + 1)
                (eu5_post (eu5_run labels (mk_env5 rg m' (y_pw a) d' e2 (mk_sbus None wc) (mk_bu5 tc ex (y_btb a)) fuA du1)
                                   i (ev_pc hev) bytes) ebus2)
        = MDone (cyc + dc + MemoryAccess * zlen dt) stf
    | YStep a' path' dc =>
        exists s' st',
          m5_tail f app labels (y_wu a) l1i1 dbus2 (cyc + 1)
                  (eu5_post (eu5_run labels (mk_env5 rg m' (y_pw a) d' e2 (mk_sbus None wc) (mk_bu5 tc ex (y_btb a)) fuA du1)
                                     i (ev_pc hev) bytes) ebus2)
          = (if m5_is_complete s' then m5_finish s' (cyc + dc) else m5run f app labels s' (cyc + dc)) /\
          m5_is_complete s' = sks5_complete a' /\ RMs5 (hla path') s' a' st' /\ sexecm app labels st' path' stf
    end.
  Proof.
    intros HW Hwp0 Hsi Hm8 Hread Hh Hi Hbytes Hem Hepr Hbu HS.
    destruct (wr_landed _ _ _ _ _ _ _ HW) as (msl & HV & _ & Hl). pose proof (wr_i1 _ _ _ _ _ _ _ _ _ HW) as Hri.
    destruct (sexecm_head app labels _ _ _ _ HS) as [Hev _].
    pose proof (ev_of_at app st (ev_pc hev) i Hi) as Hevi. rewrite <- Hev in Hevi.
    assert (Hla : ev_la hev = load_addrs (sinstr_of i) (rget (regs st))) by (rewrite Hevi; reflexivity).
    assert (Hsa : ev_sa hev = store_addrs (sinstr_of i) (rget (regs st))) by (rewrite Hevi; reflexivity).
    pose proof (exec_cases_m app labels Happ Hlab st rg (ev_pc hev) i (mk_bu false 0) Hh Hi Hri Hsi Hm8 Hread) as Hcases.
    cbv zeta in Hcases. rewrite <- Hla, <- Hbytes in Hcases.
    unfold sks5_exec. rewrite Z.eqb_refl. cbn [negb].
    inversion HS as [? pc0 ? Hs Hp|? pc0 st' pc' rest' ? Hs Hsl1 Hsl2 HS' Hp]; subst.
    - (* the run halts here: ret *)
      cbn [ev_pc ev_of fst] in Hcases. rewrite Hs in Hcases. destruct Hcases as (-> & Hret & Hl0 & Hrun). rewrite Hret.
      rewrite Hl0 in Hrun |- *. cbn [map] in Hrun |- *.
      rewrite eu5_run_ret by exact Hrun. rewrite Hwp0.
      destruct (sks_wu (y_pw a) (y_wu a) None (y_wc a)) as [[[pw2 w2] swp2] swc2] eqn:Ew.
      destruct (sks_drain drain_fuel pw2 w2 swp2 swc2 0 false) as [[w3 c3]|] eqn:Edr; [|exact I].
      cbn [eu5_post set_eu m5_tail v_regs v_mem v_pw v_l1d v_eu v_wbus v_bu v_fu v_du eo_ret eo_flush].
      destruct (wu_step _ _ _ _ _ _ _ _ _ _ _ _ _ _ _ HW Hsi Ew) as (rg' & m1 & wp' & wc' & Ewu & HW' & _). rewrite Ewu.
      pose proof (sks_drain_shift _ _ _ _ _ _ _ _ _ (cyc + 1) Edr) as Edr'. rewrite Z.add_0_l in Edr'.
      destruct (drain_sim _ _ _ _ _ _ _ _ _ _ _ _ _ _ _ _ HW' Hsi Edr') as (rg3 & m3 & pw3 & Ed & HW3).
      unfold drain_fuel in Ed. rewrite Ed.
      destruct (wr_empty_mem _ _ _ _ _ HW3) as [Hregs3 HV3].
      unfold m5_finish. cbn [t_l1d t_mem t_regs]. rewrite (flush_ok _ _ _ _ HV3).
      assert (Hc0 : c3 = 0).
      { clear - Edr. revert Edr. generalize drain_fuel pw2 w2 swp2 swc2.
        induction n as [|n IH]; intros pw w wp wc0; cbn [sks_drain]; [discriminate|].
        destruct (negb (wu_pending w) && negb (is_full wp) && negb (is_full wc0)); [intros H; injection H as _ <-; reflexivity|].
        destruct (sks_wu pw w wp wc0) as [[[? ?] ?] ?]. apply IH. }
      rewrite Hc0, <- Hregs3. destruct st as [r0 m0]; cbn [Seq.regs Seq.mem]. rewrite Z.add_0_l. reflexivity.
    - (* an instruction with a successor *)
      set (hev := ev_of app st pc0) in *. set (nxt := ev_of app st' pc') in *.
      cbn [ev_pc ev_of fst] in Hcases. fold hev in Hcases.
      change (ev_pc hev) with pc0 in *. rewrite Hs in Hcases.
      destruct Hcases as (Hret & Hin & e & Hrun & Hsi' & Hm8' & Hcase). rewrite Hret.
      assert (Hnext : 0 <= pc') by (destruct (sexecm_head app labels _ _ _ _ HS') as [_ Hx]; exact Hx).
      change (ev_pc nxt) with pc'.
      destruct Hcase as [(Hns & Hsa0 & Hr & Hm & Hit & Hrel & Hregs' & Hmem' & Hfl & Hnpc & Hpcl)
                        | (bs & -> & Hl0 & Hne & Hfst & Hinb & Hregs' & Hmem' & ->)].
      + (* not a store *)
        rewrite Hsa, Hsa0. cbv zeta.
        destruct (eu5_run_reg_b labels rg m' (y_pw a) d' e2 (mk_sbus None wc) tc ex (y_btb a) fuA du1 i pc0 _ (embed e) Hrun Hr Hm)
          as (tc' & Erun).
        rewrite Erun. clear Erun.
        specialize (Hfl Hnext).
        assert (Hdec : (uncond i = true -> NextPc (embed e) = pc') /\
                       fl5 tc ex (embed e) = sk5_flush (y_btb a) i pc0 pc' /\
                       (sk5_flush (y_btb a) i pc0 pc' = true -> NextPc (embed e) = pc')).
        { destruct (PcChange (embed e)) eqn:Epc.
          - destruct (Hbu (Hpcl eq_refl)) as (tc0 & ex0 & -> & ->).
            exact (flush5_agree (y_btb a) tc0 ex0 i pc0 pc' (embed e) Hfl Hnpc).
          - assert (Hsf : sk_flush i pc0 pc' = false) by (rewrite <- Hfl; unfold flush_dec; rewrite Epc; reflexivity).
            unfold sk_flush in Hsf. apply orb_false_elim in Hsf as [Hu Hn]. fold (uncond i) in Hu.
            split; [rewrite Hu; discriminate|].
            unfold fl5, sk5_flush. rewrite Epc, Hu, Hn. split; [reflexivity | discriminate]. }
        destruct Hdec as (Hunc & Hfl5 & Hnpc5). rewrite Hfl5.
        assert (Hfu_eq : (if uncond i then fu5_reset fuA (NextPc (embed e)) else fuA)
                         = (if uncond i then fu5_reset fuA pc' else fuA)).
        { destruct (uncond i); [rewrite (Hunc eq_refl)|]; reflexivity. }
        assert (Hbtb_eq : (if uncond i then btb_add (y_btb a) pc0 (NextPc (embed e)) else y_btb a)
                          = (if uncond i then btb_add (y_btb a) pc0 pc' else y_btb a)).
        { destruct (uncond i); [rewrite (Hunc eq_refl)|]; reflexivity. }
        rewrite Hfu_eq, Hbtb_eq.
        set (wr := instr_WriteRegisters i) in *.
        set (fuR := if uncond i then fu5_reset fuA pc' else fuA).
        set (duR := if uncond i then false else du1).
        set (btb' := if uncond i then btb_add (y_btb a) pc0 pc' else y_btb a).
        pose proof (wr_push_reg _ _ _ st' _ _ _ _ _ wr (nnil (y_l1 a)) HW Hit Hrel Hregs' Hmem') as HW1.
        unfold sks5_next.
        destruct (sks_wu (pw_add (y_pw a) wr) (y_wu a) (Some (wr, [], nnil (y_l1 a))) (y_wc a)) as [[[pw2 w2] swp2] swc2] eqn:Ew.
        cbn [y_pw y_wu y_wp y_wc y_l1 y_l2].
        cbn [eu5_post set_eu v_regs v_mem v_pw v_l1d v_eu v_wbus v_bu v_fu v_du]. rewrite sbus_add_mk.
        destruct (sk5_flush (y_btb a) i pc0 pc') eqn:Esf.
        * (* the pipeline is flushed: the write unit drains *)
          destruct (sks_drain drain_fuel pw2 w2 swp2 swc2 1 true) as [[w3 c3]|] eqn:Edr; [|exact I].
          unfold m5_tail, set_eu. cbn [v_regs v_mem v_pw v_l1d v_eu v_wbus v_bu v_fu v_du eo_ret eo_flush eo_pc].
          destruct (wu_step _ _ _ _ _ _ _ _ _ _ _ _ _ _ _ HW1 Hsi' Ew) as (rg' & m1 & wp' & wc' & Ewu & HW' & _).
          unfold wb_item in *. rewrite Ewu.
          pose proof (sks_drain_shift _ _ _ _ _ _ _ _ _ cyc Edr) as Edr'. replace (1 + cyc) with (cyc + 1) in Edr' by lia.
          destruct (drain_sim _ _ _ _ _ _ _ _ _ _ _ _ _ _ _ _ HW' Hsi' Edr') as (rg3 & m3 & pw3 & Ed & HW3).
          unfold drain_fuel in Ed. unfold wb_item in *. rewrite Ed. rewrite (Hnpc5 eq_refl).
          eexists _, st'. split; [|split; [|split; [|exact HS']]].
          -- replace (c3 + cyc) with (cyc + c3) by lia. symmetry. apply if_false_r. reflexivity.
          -- reflexivity.
          -- cbn [hla]. fold nxt.
             apply (RMs5_intro (ev_la nxt)
                      (mk_sks5 (mk_fu5 pc' (f5_remaining fuR) false false (f5_clean fuR)) false l1i1 sbus_empty sbus_empty
                               (eu_flushed (eu_done e2)) zero_pw None None w3 (s_rec sc') btb' [] (nnil (y_l1 a)))
                      rg3 m3 d' sc' tc' ex None None (eu_flushed (eu_done e2)) st'); auto; try discriminate;
               try solve [intros b Hb; cbn in Hb; rewrite Hem in Hb; discriminate];
               try solve [intros Hp; cbn in Hp; rewrite Hepr in Hp; discriminate].
             apply eu_erase_id. cbn. exact Hem.
        * destruct (tail_step5 f cyc (ev_la nxt) st' rg m' (pw_add (y_pw a) wr) d' sc' (eu_done e2) (Some (embed e, wr)) wc
                               tc' ex btb' fuR duR l1i1 dbus2 ebus2 (y_wu a) _ _ pw2 w2 swp2 swc2 (eu_done e2) [] (nnil (y_l1 a))
                               HW1 Hsi' Hm8') as (s' & Et & Hc & HR'); auto.
          -- apply eu_erase_id. exact Hem.
          -- intros b Hb. cbn in Hb. rewrite Hem in Hb. discriminate.
          -- intros Hp. cbn in Hp. rewrite Hepr in Hp. discriminate.
          -- intros Hp. cbn in Hp. rewrite Hepr in Hp. discriminate.
          -- exists s', st'. split; [exact Et|]. split; [exact Hc|]. split; [exact HR' | exact HS'].
      + (* a store *)
        rewrite Hsa in Hsl2 |- *. rewrite <- Hfst in Hsl2 |- *.
        assert (Hcs : map fst bs = consec (hd 0 (map fst bs)) (length bs)).
        { rewrite <- (map_length fst bs). rewrite Hfst.
          apply (store_addrs_consec _ _ (mem st)); [rewrite <- Hfst; exact Hinb|].
          pose proof (v_small _ _ _ _ HV) as Hs0. unfold zlen in *. rewrite <- Hl. exact Hs0. }
        destruct (pc_next app Happ pc0 i ltac:(lia) Hi) as [Hpc4 _]. rewrite Hpc4, Z.eqb_refl. cbn [negb].
        assert (Hbytes0 : map (mget (mem st)) (ev_la hev) = []) by (rewrite Hl0; reflexivity).
        rewrite Hbytes0 in Hrun |- *.
        assert (Hwr0 : instr_WriteRegisters i = []).
        { apply (store_wr_nil i (rget (regs st))). rewrite <- Hfst. destruct bs; [congruence | discriminate]. }
        assert (Hun : uncond i = false).
        { apply (store_addrs_not_uncond i (rget (regs st))). rewrite <- Hfst. destruct bs; [congruence | discriminate]. }
        assert (Hex : exists s0 sa', map fst bs = s0 :: sa') by (destruct bs as [|[b0 v0] t0]; [congruence | cbn; eauto]).
        destruct Hex as (s0 & sa' & Emf).
        destruct (snd (a_get_all (s_rec sc') (map fst bs))) eqn:Ehit; rewrite Emf.
        * (* it hits in the L1D *)
          destruct (wr_store_hit _ _ _ st' _ _ _ _ bs HW Hne Hcs Hinb Hsl2 Ehit Hregs' Hmem')
            as (c1 & vs & v0 & t & c' & sc3 & Eg & Es & Ew & HW1 & Hr3).
          rewrite (eu5_run_store_hit _ _ _ _ _ _ _ _ _ _ _ _ _ _ _ _ _ _ _ Hrun Eg Es Ew).
          unfold sks5_next. rewrite Hwp0.
          destruct (sks_wu (y_pw a) (y_wu a) None (y_wc a)) as [[[pw2 w2] swp2] swc2] eqn:Ewu.
          cbn [eu5_post set_eu v_regs v_mem v_pw v_l1d v_eu v_wbus v_bu v_fu v_du].
          destruct (tail_step5 f cyc (ev_la nxt) st' rg m' (y_pw a) c' sc3 (eu_done e2) None wc
                               tc ex (y_btb a) fuA du1 l1i1 dbus2 ebus2 (y_wu a) _ _ pw2 w2 swp2 swc2 (eu_done e2) (y_l1 a) (y_l2 a)
                               HW1 Hsi' Hm8') as (s' & Et & Hc & HR'); auto.
          -- apply eu_erase_id. exact Hem.
          -- intros b Hb. cbn in Hb. rewrite Hem in Hb. discriminate.
          -- intros Hp. cbn in Hp. rewrite Hepr in Hp. discriminate.
          -- intros Hp. cbn in Hp. rewrite Hepr in Hp. discriminate.
          -- rewrite Hr3, Emf in Hc, HR'. exists s', st'. split; [exact Et|]. split; [exact Hc|]. split; [exact HR' | exact HS'].
        * (* it misses: the store is put on the write bus *)
          destruct (wr_store_miss _ _ _ st' _ _ _ _ bs (nnil (y_l1 a)) HW Hne Hinb Hsl2 Ehit Hregs' Hmem')
            as (c1 & sc1 & Eg & HW1 & Hr1).
          rewrite (eu5_run_store_miss _ _ _ _ _ _ _ _ _ _ _ _ _ _ Hrun Hun Eg). rewrite Hwr0.
          unfold sks5_next.
          change (pw_add (y_pw a) []) with (y_pw a).
          destruct (sks_wu (y_pw a) (y_wu a) (Some ([], s0 :: sa', nnil (y_l1 a))) (y_wc a)) as [[[pw2 w2] swp2] swc2] eqn:Ewu.
          cbn [eu5_post set_eu v_regs v_mem v_pw v_l1d v_eu v_wbus v_bu v_fu v_du]. rewrite sbus_add_mk.
          rewrite Emf in HW1.
          destruct (tail_step5 f cyc (ev_la nxt) st' rg m' (y_pw a) c1 sc1 (eu_done e2) (Some (embed (EStore bs), [])) wc
                               tc ex (y_btb a) fuA du1 l1i1 dbus2 ebus2 (y_wu a) _ _ pw2 w2 swp2 swc2 (eu_done e2) (s0 :: sa') (nnil (y_l1 a))
                               HW1 Hsi' Hm8') as (s' & Et & Hc & HR'); auto.
          -- apply eu_erase_id. exact Hem.
          -- intros b Hb. cbn in Hb. rewrite Hem in Hb. discriminate.
          -- intros Hp. cbn in Hp. rewrite Hepr in Hp. discriminate.
          -- intros Hp. cbn in Hp. rewrite Hepr in Hp. discriminate.
          -- rewrite Hr1, Emf in Hc, HR'. exists s', st'. split; [exact Et|]. split; [exact Hc|]. split; [exact HR' | exact HS'].
  Qed.

  Lemma sim_pre_s5 f a hev rest cyc s st stf :
    RMs5 (ev_la hev) s a st -> FS5 app hev a -> ns_inv5 a (hev :: rest) -> sexecm app labels st (hev :: rest) stf ->
    match sks5_pre app a (hev :: rest) with
    | YStuck => True
    | YFin dc dt => m5run (S f) app labels s cyc = MDone (cyc + dc + MemoryAccess * zlen dt) stf
    | YStep a' path' dc =>
        exists s' st',
          m5run (S f) app labels s cyc
          = (if m5_is_complete s' then m5_finish s' (cyc + dc) else m5run f app labels s' (cyc + dc)) /\
          m5_is_complete s' = sks5_complete a' /\ RMs5 (hla path') s' a' st' /\ sexecm app labels st' path' stf
    end.
  Proof.
    intros HR HF Hns HS.
    destruct HR as [a rg m l1d sc tc ex wp wc ce st HW Hdt Hsi Hm8 Hce Hbytes Hunc Hrd].
    pose proof HF as [[HF5 Hok _ Hmiss _] Hpr HI2 HWI]. cbn [pmz5 n_eu] in Hok, Hmiss.
    pose proof (g_head _ _ _ HF5) as Hh.
    rewrite m5run_S. cbn [t_fu t_du t_l1i t_dbus t_ebus t_regs t_mem t_pw t_l1d t_eu t_wbus t_bu t_wu].
    destruct (fu5_cycle app (y_fu a) (y_l1i a) (y_dbus a)) as [[[fu1 l1i1] dbus1]| |] eqn:Ef;
      [|unfold sks5_pre; rewrite Ef; exact I|unfold sks5_pre; rewrite Ef; exact I].
    destruct (du5_cycle app (y_du a) dbus1 (y_ebus a)) as [[[du1 dbus2] ebus1]| |] eqn:Ed;
      [|unfold sks5_pre; rewrite Ef, Ed; exact I|unfold sks5_pre; rewrite Ef, Ed; exact I].
    destruct (sks_eu (is_full (y_wp a)) (y_eu a) ebus1 (y_pw a) (y_dt a) (ev_la hev)) as [[[e1 ebus2] dt1] act] eqn:Ee.
    destruct (fronts_flow5 app Happ hev a _ _ _ _ _ _ _ _ _ _ HF Ef Ed Ee)
      as (_ & _ & Hnst & Hmid & Hok1 & Hmiss1 & Hex & _ & _ & Hfull & Hwait).
    pose proof HW as [_ Hregs _ _ Hlen Hsp Hsc _ Hgc].
    pose proof (sexecm_head app labels _ _ _ _ HS) as [Hev Hpc0].
    destruct (eu_pending_read ce) eqn:Epr.
    - (* a load is in flight *)
      assert (Hprs : eu_pending_read (y_eu a) = true) by (rewrite <- Hce; exact Epr).
      pose proof (Hpr Hprs) as Hwp0.
      assert (Hwpn : wp = None) by (rewrite Hwp0 in Hsp; apply omap_none in Hsp; exact Hsp). subst wp.
      cbn [cur_regs] in Hregs.
      destruct (Hmiss Hprs) as [Hlane Haddrs].
      destruct (sexecm_loads app labels _ _ _ _ HS Hlane) as [Hin Hsl].
      assert (Hiss : issue_s (is_full (y_wp a)) (y_eu a) ebus1 = None).
      { unfold issue_s, issue_m. rewrite Hprs, andb_false_r. reflexivity. }
      assert (Ee' : skm_eu (eu_erase ce) ebus1 (y_pw a) (y_dt a) (ev_la hev) = (e1, ebus2, dt1, act)).
      { rewrite Hce. unfold sks_eu in Ee. rewrite Hprs, andb_false_r in Ee. exact Ee. }
      pose proof (eu5_cycle_m_pending labels rg m (y_pw a) l1d ce (mk_sbus None wc) (mk_bu5 tc ex (y_btb a)) fu1 du1
                    ebus1 (y_dt a) (ev_la hev) e1 ebus2 dt1 act Epr Ee') as Heu.
      destruct act as [|i pc|]; [| |congruence].
      + (* still waiting *)
        destruct Heu as (Eeu & He1 & Hd1 & Heb). subst e1 dt1 ebus2. rewrite Eeu.
        rewrite (sks5_pre_none app a hev rest _ _ _ _ _ _ _ _ _ Ef Ed Ee). rewrite Hiss. cbn [sk5_assert]. unfold sks5_next.
        destruct (sks_wu (y_pw a) (y_wu a) (y_wp a) (y_wc a)) as [[[pw2 w2] swp2] swc2] eqn:Ew.
        rewrite Hwp0 in HW.
        destruct (tail_step5 f cyc (ev_la hev) st rg m (y_pw a) l1d sc (wait_eu ce) None wc tc ex (y_btb a) fu1 du1 l1i1 dbus2 ebus1 (y_wu a)
                             None (y_wc a) pw2 w2 swp2 swc2 (eu_erase (wait_eu ce)) (y_l1 a) (y_l2 a) HW Hsi Hm8 eq_refl)
          as (s' & Et & Hc & HR').
        * intros b Hb. apply Hbytes. exact Hb.
        * intros _ Hn. apply (Hunc eq_refl Hn).
        * intros _. split; [reflexivity|]. intros i pc Hrun r Hinr. apply (proj2 (Hrd eq_refl) i pc Hrun r Hinr).
        * rewrite <- Hwp0. exact Ew.
        * rewrite Hdt in Hc, HR'. exists s', st. split; [exact Et|]. split; [exact Hc|]. split; [exact HR' | exact HS].
      + (* the load completes and the instruction is executed *)
        destruct Heu as (Heb & He1 & Eeu). subst ebus2 e1. rewrite Eeu.
        destruct Hex as (_ & _ & Hdt1).
        cbn [act_q List.app] in Hmid.
        destruct (mid_head app _ _ _ _ _ _ Hmid) as [Hpc [_ Hi]]. cbn [fst snd] in Hpc, Hi. subst pc.
        rewrite (sks5_pre_exec_eq app a hev rest _ _ _ _ _ _ _ _ _ _ _ Ef Ed Ee). rewrite Hiss. cbn [sk5_assert].
        set (e2 := mk_eu (eu_processing ce) false (eu_addrs ce) None (eu_remaining ce - 1) (eu_runner ce)).
        rewrite Hwp0 in HW.
        assert (Hgot : exists d' sc' m', load_got l1d m ce = Ok (d', m', map (mget (mem st)) (ev_la hev)) /\
                         WR d' sc' st rg m' None wc None (y_wc a) /\ s_rec sc' = dt1).
        { unfold load_got. rewrite Hdt1. unfold dtal. rewrite Hprs.
          assert (Hme : eu_memory (y_eu a) = option_map (fun _ => []) (eu_memory ce)) by (rewrite <- Hce; reflexivity).
          rewrite Hme. destruct (eu_memory ce) as [bytes|] eqn:Em.
          - exists l1d, sc, m. rewrite (Hbytes bytes eq_refl). cbn [option_map]. auto.
          - cbn [option_map].
            assert (Ha : eu_addrs ce = ev_la hev) by (rewrite <- Haddrs; [rewrite <- Hce; reflexivity | rewrite Hme; reflexivity]).
            rewrite Ha. destruct (ev_la hev) as [|a0 t] eqn:Ela; [congruence|].
            assert (HI2' : forall y, y_wc a = Some y -> same_line_as (wi_sa y) (a0 :: t) = false).
            { intros y Hy. apply (HI2 Hprs); [rewrite Hme; reflexivity | exact Hy]. }
            destruct (wr_load_complete l1d sc st rg m wc (y_wc a) a0 t HW Hin Hsl (Hunc eq_refl eq_refl) HI2')
              as (c3 & sc3 & m3 & E3 & HW3 & Hr3).
            exists c3, sc3, m3. split; [exact E3|]. split; [exact HW3|]. rewrite Hr3, Hdt. reflexivity. }
        destruct Hgot as (d' & sc' & m' & -> & HW' & Hdt').
        rewrite <- Hdt'.
        replace (eu_done (mk_eu (eu_processing (eu_erase ce)) false (eu_addrs (eu_erase ce)) None (eu_remaining (eu_erase ce) - 1) (eu_runner (eu_erase ce))))
          with (eu_done e2) by reflexivity.
        apply (sim_exec_s5 f a hev rest st stf fu1 du1 l1i1 dbus2 ebus1 cyc rg m' d' sc' e2 wc tc ex i _ HW' Hwp0 Hsi Hm8);
          auto; try discriminate.
        * assert (Hrun : eu_runner ce = Some (i, ev_pc hev)).
          { unfold skm_eu in Ee'. cbn [eu_erase eu_pending_read eu_remaining eu_runner] in Ee'. rewrite Epr in Ee'.
            destruct (negb (eu_remaining ce - 1 =? 0)); [discriminate|].
            destruct (eu_runner ce) as [[i0 pc0]|]; [|discriminate].
            assert (Ha : AExec i0 pc0 = AExec i (ev_pc hev)) by congruence. injection Ha as -> ->. reflexivity. }
          exact (proj2 (Hrd eq_refl) i (ev_pc hev) Hrun).
        * intros H0. congruence.
    - (* no load in flight *)
      assert (Hprs : eu_pending_read (y_eu a) = false) by (rewrite <- Hce; exact Epr).
      destruct Hok as (_ & _ & Hmem0).
      assert (Hmc : eu_memory ce = None) by (apply erase_mem_none; rewrite Hce; apply Hmem0; exact Hprs).
      assert (Hcee : y_eu a = ce) by (rewrite <- Hce; apply eu_erase_id; exact Hmc).
      pose proof (omap_full _ _ _ _ Hsp) as Hfw.
      destruct (is_full (y_wp a)) eqn:Efl.
      + (* the write bus is full: the execute unit stalls, the branch unit is not consulted *)
        assert (Ee0 : sks_eu (is_full (y_wp a)) (y_eu a) ebus1 (y_pw a) (y_dt a) (ev_la hev) = (e1, ebus2, dt1, act))
          by (rewrite Efl; exact Ee).
        assert (Hiss : issue_s (is_full (y_wp a)) (y_eu a) ebus1 = None).
        { unfold issue_s. rewrite Efl, Hprs. reflexivity. }
        destruct wp as [xw|]; [|discriminate].
        rewrite Hcee in Ee.
        destruct (eu5_cycle_s_full labels rg m (y_pw a) l1d ce (mk_sbus (Some xw) wc) (mk_bu5 tc ex (y_btb a)) fu1 du1 ebus1 (y_dt a) (ev_la hev)
                    e1 ebus2 dt1 act Epr Hmc eq_refl Ee) as (Hact & Hd1 & Eeu & Hp1 & Hm1). subst act dt1.
        rewrite Eeu. rewrite (sks5_pre_none app a hev rest _ _ _ _ _ _ _ _ _ Ef Ed Ee0). rewrite Hiss. cbn [sk5_assert]. unfold sks5_next.
        destruct (sks_wu (y_pw a) (y_wu a) (y_wp a) (y_wc a)) as [[[pw2 w2] swp2] swc2] eqn:Ew.
        destruct (tail_step5 f cyc (ev_la hev) st rg m (y_pw a) l1d sc e1 (Some xw) wc tc ex (y_btb a) fu1 du1 l1i1 dbus2 ebus2 (y_wu a)
                             (y_wp a) (y_wc a) pw2 w2 swp2 swc2 e1 (y_l1 a) (y_l2 a) HW Hsi Hm8) as (s' & Et & Hc & HR').
        * apply eu_erase_id. exact Hm1.
        * intros b Hb. rewrite Hm1 in Hb. discriminate.
        * intros Hp. rewrite Hp1 in Hp. discriminate.
        * intros Hp. rewrite Hp1 in Hp. discriminate.
        * exact Ew.
        * rewrite Hdt in Hc, HR'. exists s', st. split; [exact Et|]. split; [exact Hc|]. split; [exact HR' | exact HS].
      + assert (Ee0 : sks_eu (is_full (y_wp a)) (y_eu a) ebus1 (y_pw a) (y_dt a) (ev_la hev) = (e1, ebus2, dt1, act))
          by (rewrite Efl; exact Ee).
        assert (Hiss : issue_s (is_full (y_wp a)) (y_eu a) ebus1 = issue_m ce ebus1).
        { unfold issue_s. rewrite Efl, Hcee. reflexivity. }
        assert (Hwp0 : y_wp a = None) by (destruct (y_wp a); [discriminate Efl | reflexivity]).
        destruct wp as [xw|]; [discriminate|].
        cbn [cur_regs] in Hregs.
        unfold sks_eu in Ee. cbn [andb] in Ee. rewrite Hcee in Ee.
        rewrite Hwp0 in HW.
        assert (Hpw : y_pw a = pwof (cur_wr wc)).
        { rewrite (w_pw _ _ _ _ _ _ HWI), Hwp0, (shape_wr wc (y_wc a) Hsc). reflexivity. }
        assert (Hrelc : forall x, wc = Some x -> wb_rel (fst x) (snd x)) by (intros x Hx; apply (Hgc x Hx)).
        assert (Hmr : forall i pc, hd_error (q_eu ce ++ q_sb ebus1) = Some (i, pc) ->
                  pw_hazard (y_pw a) (instr_ReadRegisters i) = false -> instr_MemoryRead i (rget rg) 0 = ev_la hev).
        { intros i pc Hhd Hhz. rewrite <- Hcee in Hhd.
          destruct (head_entry_s5 app Happ hev a _ _ _ _ _ _ i pc HF Ef Ed Hhd) as [-> Hi].
          rewrite memory_read_exact.
          pose proof (reads_agree_s (y_pw a) rg wc st i Hlen Hpw Hrelc Hregs Hhz) as Hread.
          rewrite read_registers_exact in Hread.
          destruct (spec_reads_sound (sinstr_of i) (rget (regs st)) (rget rg) labels 0 [] Hread) as (_ & Hla & _).
          rewrite <- Hla. rewrite Hev, (ev_of_at app st (ev_pc hev) i Hi). reflexivity. }
        assert (Hga : exists d1 sc1, ev_la hev <> [] ->
                  get_all l1d (ev_la hev) [] =
                    Ok (d1, if snd (a_get_all (y_dt a) (ev_la hev)) then Some (map (mget (mem st)) (ev_la hev)) else None) /\
                  WR d1 sc1 st rg m None wc None (y_wc a) /\ s_rec sc1 = fst (a_get_all (y_dt a) (ev_la hev)) /\
                  (snd (a_get_all (y_dt a) (ev_la hev)) = false -> forall x, In x (ev_la hev) -> view sc1 x = None)).
        { destruct (ev_la hev) as [|a0 t] eqn:Ela.
          - exists l1d, sc. intros H0. congruence.
          - destruct (sexecm_loads app labels _ _ _ _ HS ltac:(rewrite Ela; discriminate)) as [Hin Hsl]. rewrite Ela in Hin, Hsl.
            destruct (wr_load_issue l1d sc st rg m wc (y_wc a) a0 t HW Hin Hsl) as (c1 & sc1 & Eg & HW1 & Hr1 & Hu).
            rewrite Hdt in Eg, Hr1, Hu. exists c1, sc1. intros _. auto. }
        destruct Hga as (d1 & sc1 & Hga).
        pose proof (eu5_cycle_m_idle labels rg m (y_pw a) l1d ce (mk_sbus None wc) tc ex (y_btb a) fu1 du1 ebus1 (y_dt a) (ev_la hev) d1
                      (map (mget (mem st)) (ev_la hev)) e1 ebus2 dt1 act Epr Hmc eq_refl Hmr (fun H0 => proj1 (Hga H0)) Ee) as Heu.
        destruct act as [|i pc|]; [| |congruence].
        * (* nothing executed *)
          destruct Heu as (tc' & ex' & ce1 & l1d' & Eeu & Her & Hcase). rewrite Eeu.
          rewrite (sks5_pre_none app a hev rest _ _ _ _ _ _ _ _ _ Ef Ed Ee0). rewrite Hiss. unfold sks5_next.
          destruct (sks_wu (y_pw a) (y_wu a) (y_wp a) (y_wc a)) as [[[pw2 w2] swp2] swc2] eqn:Ew.
          rewrite Hwp0 in Ew.
          destruct Hcase as [(-> & -> & Hp1 & Hm1) | (Hlane & -> & -> & Hp1 & Hm1)].
          -- destruct (tail_step5 f cyc (ev_la hev) st rg m (y_pw a) l1d sc ce1 None wc tc' ex' (y_btb a)
                                  (sk5_assert fu1 (y_btb a) (issue_m ce ebus1)) du1 l1i1 dbus2 ebus2 (y_wu a)
                                  None (y_wc a) pw2 w2 swp2 swc2 e1 (y_l1 a) (y_l2 a) HW Hsi Hm8 Her) as (s' & Et & Hc & HR').
             ++ intros b Hb. rewrite Hm1, Hmc in Hb. discriminate.
             ++ intros Hp. rewrite Hp1 in Hp. discriminate.
             ++ intros Hp. rewrite Hp1 in Hp. discriminate.
             ++ exact Ew.
             ++ rewrite Hdt in Hc, HR'. exists s', st. split; [exact Et|]. split; [exact Hc|]. split; [exact HR' | exact HS].
          -- destruct (Hga Hlane) as (_ & HW1 & Hr1 & Hu1).
             destruct (tail_step5 f cyc (ev_la hev) st rg m (y_pw a) d1 sc1 ce1 None wc tc' ex' (y_btb a)
                                  (sk5_assert fu1 (y_btb a) (issue_m ce ebus1)) du1 l1i1 dbus2 ebus2 (y_wu a)
                                  None (y_wc a) pw2 w2 swp2 swc2 e1 (y_l1 a) (y_l2 a) HW1 Hsi Hm8 Her) as (s' & Et & Hc & HR').
             ++ intros b Hb. rewrite Hm1 in Hb. destruct (snd (a_get_all (y_dt a) (ev_la hev))); [|rewrite Hmc in Hb; discriminate].
                injection Hb as <-. reflexivity.
             ++ intros _ Hn. rewrite Hm1 in Hn. destruct (snd (a_get_all (y_dt a) (ev_la hev))); [discriminate|]. apply Hu1. reflexivity.
             ++ intros _. split; [reflexivity|]. intros i pc Hrun r Hinr.
                assert (Hp1' : eu_pending_read e1 = true) by (rewrite <- Her; exact Hp1).
                destruct (skm_eu_issue ce ebus1 (y_pw a) (y_dt a) (ev_la hev) e1 ebus2 _ Epr Ee Hp1') as (i' & pc' & Hr' & _ & Hhz).
                rewrite <- Her in Hr'. cbn [eu_erase eu_runner] in Hr'. rewrite Hrun in Hr'. injection Hr' as <- <-.
                apply (reads_agree_s (y_pw a) rg wc st i Hlen Hpw Hrelc Hregs Hhz r Hinr).
             ++ exact Ew.
             ++ rewrite Hr1 in Hc, HR'. exists s', st. split; [exact Et|]. split; [exact Hc|]. split; [exact HR' | exact HS].
        * (* (i, pc) is executed directly: it does not load *)
          destruct Heu as (Hla0 & -> & e2 & -> & Hhz & Hhd & Hissm & Eeu). rewrite Eeu. rewrite bu5_assert_eq.
          rewrite <- Hcee in Hhd. destruct (head_entry_s5 app Happ hev a _ _ _ _ _ _ i pc HF Ef Ed Hhd) as [-> Hi].
          rewrite (sks5_pre_exec_eq app a hev rest _ _ _ _ _ _ _ _ _ _ _ Ef Ed Ee0). rewrite Hiss, Hissm.
          destruct Hex as (_ & Hpe & _). rewrite <- Hdt.
          destruct Hok1 as (_ & _ & Hm2). specialize (Hm2 Hpe).
          apply (sim_exec_s5 f a hev rest st stf _ du1 l1i1 dbus2 ebus2 cyc rg m l1d sc e2 wc _ _ i []
                   HW Hwp0 Hsi Hm8); auto.
          -- apply (reads_agree_s (y_pw a) rg wc st i Hlen Hpw Hrelc Hregs Hhz).
          -- rewrite Hla0. reflexivity.
          -- intros _. exists tc, ex. split; reflexivity.
  Qed.

  Lemma sim_step_s5 f a hev rest cyc s st stf :
    RMs5 (ev_la hev) s a st -> FS5 app hev a -> evs_wf app (hev :: rest) -> stores_plain app (hev :: rest) ->
    ns_inv5 a (hev :: rest) -> sexecm app labels st (hev :: rest) stf ->
    match sks5_cycle app a (hev :: rest) with
    | YStuck => True
    | YFin dc dt => m5run (S f) app labels s cyc = MDone (cyc + dc + MemoryAccess * zlen dt) stf
    | YStep a' path' dc =>
        exists s' st', m5run (S f) app labels s cyc = m5run f app labels s' (cyc + dc) /\
                       RMs5 (hla path') s' a' st' /\ sexecm app labels st' path' stf
    end.
  Proof.
    intros HR HF Hwf Hsp Hns HS. pose proof (sim_pre_s5 f a hev rest cyc s st stf HR HF Hns HS) as Hpre.
    unfold sks5_cycle. destruct (sks5_pre app a (hev :: rest)) as [a2 p dc|dc dt|] eqn:Ep; [|exact Hpre|exact I].
    destruct Hpre as (s' & st' & E & Hc & HR' & HS').
    destruct (fs5_step app Happ hev rest a a2 p dc HF Hwf Hsp Hns Ep) as (hev' & rest' & -> & HF' & Hwf' & _).
    rewrite E, Hc. destruct (sks5_complete a2) eqn:Ec.
    - apply (finish_s5 _ _ _ _ hev' rest' _ _ HR' HF' Ec Hwf' HS').
    - eexists _, st'. split; [reflexivity|]. split; assumption.
  Qed.

  Lemma sim_run_s5 : forall fuel a hev rest cyc s st stf c,
    RMs5 (ev_la hev) s a st -> FS5 app hev a -> evs_wf app (hev :: rest) -> stores_plain app (hev :: rest) ->
    ns_inv5 a (hev :: rest) -> sexecm app labels st (hev :: rest) stf ->
    sks5_run fuel app a (hev :: rest) cyc = Some c ->
    m5run fuel app labels s cyc = MDone c stf.
  Proof.
    induction fuel as [|f IH]; intros a hev rest cyc s st stf c HR HF Hwf Hsp Hns HS H; [discriminate|].
    cbn [sks5_run] in H.
    pose proof (sim_step_s5 f a hev rest cyc s st stf HR HF Hwf Hsp Hns HS) as Hsim.
    destruct (sks5_cycle app a (hev :: rest)) as [a' path' dc|dc dt|] eqn:Ec; [| |discriminate].
    - destruct Hsim as (s' & st1 & -> & HR' & HS').
      assert (Epre : sks5_pre app a (hev :: rest) = YStep a' path' dc).
      { unfold sks5_cycle in Ec. destruct (sks5_pre app a (hev :: rest)) as [a2 p d|d t|]; try discriminate.
        destruct (sks5_complete a2); [discriminate | exact Ec]. }
      destruct (fs5_step app Happ hev rest a a' path' dc HF Hwf Hsp Hns Epre) as (hev' & rest' & -> & HF' & Hwf' & Hsp' & Hns' & _).
      eapply IH; eassumption.
    - injection H as <-. exact Hsim.
  Qed.

  Lemma init_fs5 c0 hev : IInv c0 -> ev_pc hev = 0 -> FS5 app hev (sks5_init c0).
  Proof.
    intros HI H0. constructor.
    - exact (init_fm5 app c0 hev HI H0).
    - discriminate.
    - discriminate.
    - apply winv_empty. reflexivity.
  Qed.

  (* the whole run, without the termination argument (as sim_cost_s in Mvp4sSim.v) *)
  Theorem sim_cost_s5 st rest stf fuel c :
    Forall int32 (regs st) -> Forall int8 (mem st) -> (length (regs st) <= 32)%nat -> mem_small st ->
    sexecm app labels st (ev_of app st 0 :: rest) stf -> evs_wf app (ev_of app st 0 :: rest) ->
    no_stale [] [] false (ev_of app st 0 :: rest) = true ->
    mvp5_cost_sm fuel app (ev_of app st 0 :: rest) = Some c ->
    mvp5_run fuel app labels st = MDone c stf.
  Proof.
    intros Hri Hm8 Hlen Hsm HS Hwf Hns Hc.
    destruct init_caches as (c0 & E0 & HI0 & HD0 & Hl0).
    unfold mvp5_cost_sm in Hc. rewrite E0 in Hc. unfold mvp5_run. rewrite E0.
    eapply sim_run_s5; [| | exact Hwf | exact (sexecm_stores_plain app labels _ _ _ HS) | | exact HS | exact Hc].
    - destruct st as [rg mm]. cbn [regs mem] in *.
      apply (RMs5_intro (ev_la (ev_of app (mk_arch rg mm) 0)) (sks5_init c0) rg mm c0 (s_new 64 1024) false 0 None None
                        (mk_eu false false [] None 0 None) (mk_arch rg mm)); auto; try discriminate.
      constructor; cbn [regs mem cur_regs papply sks5_init y_wp y_wc option_map]; auto; try discriminate.
      exists mm. split; [apply init_VInv; assumption | reflexivity].
    - apply init_fs5; [exact HI0 | reflexivity].
    - apply ns_inv5_intro; [reflexivity | exact Hns].
  Qed.
End SimS5.
