(* Theorems about the MVP-5 model (Mvp5.v: the MVP-4 pipeline plus a branch target
   buffer, the decode stall after an unconditional jump, the fetch redirect) on
   register-only programs: it computes the sequential result (C01), in a number of
   cycles that depends on the program and the path only (C12; the BTB content is a
   function of the path), at least one cycle per executed instruction, and
   terminates within a bound that is linear in the number of executed
   instructions, without panic (C07).

   Structure as for MVP-4: Mvp5Skel.v (skeleton), Mvp5Inv.v / Mvp5Front.v (invariant
   and progress), Mvp5Sim.v (model = skeleton + sequential values, cycle for cycle).
   Everything about the sequential machine and the paths, and the derivation of the
   theorems of Props/C01_mvp5.v from mvp5_run_path, is that of Mvp4Sim.v /
   Mvp4Proofs.v. *)
From Coq Require Import ZArith List Bool Lia.
From Maj Require Import Base.Outcome Base.GoInt Base.GoTypes Isa.Spec Isa.Embed Isa.Seq Isa.Refine.
From Maj Require Import Gen.Latency Gen.RiscTables Gen.Opcodes Comp.Cache Comp.CacheProofs.
From Maj Require Import Mvp.Mvp12 Mvp.Mvp12Proofs Mvp.Mvp3 Mvp.Mvp3Proofs Mvp.Mvp4 Mvp.Mvp5
     Mvp.SkelRun Mvp.Mvp4Skel Mvp.Mvp4Inv Mvp.Mvp4Units Mvp.Mvp4Front Mvp.Mvp4Sim Mvp.Mvp4Proofs
     Mvp.Mvp5Skel Mvp.Mvp5Inv Mvp.Mvp5Front Mvp.Mvp5Sim.
Import ListNotations.
Open Scope Z_scope.

Lemma m5run_iter app labels s cyc :
  (exists r, (forall f, m5run (S f) app labels s cyc = r) /\ forall c st, r = MDone c st -> cyc + 1 <= c) \/
  (exists s' cyc', cyc + 1 <= cyc' /\ forall f, m5run (S f) app labels s cyc = m5run f app labels s' cyc').
Proof.
  cbn [m5run].
  destruct (fu5_cycle app (t_fu s) (t_l1i s) (t_dbus s)) as [[[fu1 l1i1] dbus1]| |]; [|run_ends..].
  destruct (du5_cycle app (t_du s) dbus1 (t_ebus s)) as [[[du1 dbus2] ebus1]| |]; [|run_ends..].
  destruct (eu5_cycle labels _ ebus1) as [[[[env1 ebus2] o]| |]|]; [|run_ends..].
  destruct (wu_cycle _ _ _ _ _) as [[[[[regs2 mem2] pw2] wu2] wbus2]| |]; [|run_ends..].
  destruct (eo_ret o).
  { destruct (m4_drain _ _ _ _ _ _ _ _) as [[[[[[regs3 mem3] pw3] wu3] wbus3] cycle3]| |] eqn:Ed; [|run_ends..].
    run_ends. intros c st H. apply drain_ge in Ed. apply finish_ge in H. lia. }
  destruct (eo_flush o).
  { destruct (m4_drain _ _ _ _ _ _ _ _) as [[[[[[regs3 mem3] pw3] wu3] wbus3] cycle3]| |] eqn:Ed; [|run_ends..].
    right. do 2 eexists. split; [|reflexivity]. apply drain_ge in Ed. lia. }
  destruct (m5_is_complete _).
  - run_ends. intros c st H. apply finish_ge in H. lia.
  - right. do 2 eexists. split; [|reflexivity]. lia.
Qed.

Theorem mvp5_cycles_at_least_one fuel app labels st c st' :
  mvp5_run fuel app labels st = MDone c st' -> 1 <= c.
Proof.
  unfold mvp5_run. destruct (new_cache l1LineSize l1Size) as [ci| |]; try discriminate.
  intros H. apply (fuel_run_ge _ (fun f => m5run f app labels) (fun _ _ => eq_refl) (m5run_iter app labels)) in H. lia.
Qed.

Lemma mvp5_run_more app labels fuel k st c st' :
  mvp5_run fuel app labels st = MDone c st' -> mvp5_run (fuel + k) app labels st = MDone c st'.
Proof.
  unfold mvp5_run. destruct (new_cache l1LineSize l1Size) as [ci| |]; try discriminate.
  apply (fuel_run_more _ (fun f => m5run f app labels) (fun _ _ => eq_refl) (m5run_iter app labels)).
Qed.

Section Top5.
  Variables (app : list instr) (labels : Z -> option Z).
  Hypothesis Happ : wf_app app.
  Hypothesis Hlab : wf_labels labels.
  Hypothesis Hreg : reg_only app = true.
  Let sp := map sinstr_of app.

  Lemma init_f5 c0 : IInv c0 -> F5 app 0 (sk5_init c0).
  Proof.
    intros HI. constructor; unfold aq;
      cbn [sk5_init k5_fu k5_du k5_l1i k5_dbus k5_ebus k5_eu k5_pw k5_wb k5_btb f5_processing eu_processing eu_pending_read
           q_eu q_sb sbus_empty sb_current sb_pending olist List.app map length];
      auto; try discriminate; try lia.
    - exists 0, O. split; [|split; [lia | intros _; lia]].
      constructor; cbn [to4 f5_complete f5_pc fu_complete fu_pc]; try discriminate; try lia; reflexivity.
    - constructor. constructor.
    - constructor.
  Qed.

  (* the run of the model as a function of the path; the fuel bound is the one of MVP-4 *)
  Theorem mvp5_run_path fuel st st' tr :
    inv (regs st) (mem st) -> (length (regs st) <= 32)%nat ->
    seq_run fuel sp labels st = Done st' tr ->
    path_below (seq_path fuel sp labels st 0) = true ->
    exists c, (forall fuel', (fuel_bound (length tr) <= fuel')%nat ->
                 mvp5_run fuel' app labels st = MDone c st' /\
                 mvp5_cost fuel' app (seq_path fuel sp labels st 0) = Some c) /\
              Z.of_nat (length tr) <= c <= 2 * Z.of_nat (fuel_bound (length tr)).
  Proof.
    intros [Hri _] Hlen Hrun Hb. unfold seq_run in Hrun.
    destruct (run_sexec app labels fuel st 0 [] st' tr Hrun) as (rest & Hp & HS & Hl).
    fold sp in Hp. rewrite Hp in *. pose proof (sexec_path_wf app labels Hreg _ _ _ HS Hb) as Hwf.
    destruct init_caches as (c0 & E0 & HI0 & _ & Hl0).
    pose proof (init_f5 c0 HI0) as HF0.
    assert (Hrest : (length rest <= length tr)%nat) by (cbn [length] in Hl; lia).
    destruct st as [rg mm]. cbn [regs mem] in *.
    assert (HR0 : R5 (mk_m5 rg mm zero_pw c0 c0 (mk_fu5 0 0 false false false) false sbus_empty sbus_empty
                            (mk_eu false false [] None 0 None) sbus_empty (mk_wu false 0) (mk_bu5 false 0 []))
                     (sk5_init c0) (mk_arch rg mm)).
    { apply (R5_intro (sk5_init c0) rg c0 0 false 0 None (mk_arch rg mm) Hl0). constructor; auto; discriminate. }
    destruct (grun_run _ _ (sk5_cyc app) (F5 app) (path_wf app) phi5 phi_max (f5_step app Happ) (sk5_progress app Happ)
                (sk5_cycle_dc app) (phi5_bounds app) Kstep eq_refl _ (fun f => m5run f app labels) R5 (sexec app labels)
                (sim_step5 app labels Happ Hlab Hreg) (fuel_bound (length tr)) _ 0 rest _ _ st' HF0 Hwf HR0 HS
                (fuel_bound_enough _ _ _ (phi5_bounds app 0 _ HF0) Hrest)) as (c & Hc & Hcb).
    exists c. split; [|cbn [length] in Hcb, Hl; lia].
    intros fuel' Hf. unfold mvp5_run, mvp5_cost. rewrite E0, sk5_run_grun. exact (Hc fuel' Hf).
  Qed.
End Top5.

(* What the proof shows about a WRONG prediction (a jalr whose target changed since
   it was recorded): it is not corrected by a pipeline flush.  An unconditional jump
   found in the BTB never flushes (btbBranchUnit.assert clears toCheck), whatever the
   recorded target; executeUnit.run then always redirects the fetch unit to the
   RESOLVED target with cleanPending (notifyJumpAddressResolved), and since the
   decode unit has been stalled from the moment the jump was decoded, nothing
   fetched along the predicted path ever got past the decode latch. *)
Lemma mvp5_predicted_jump_never_flushes btb i pc t next :
  uncond i = true -> btb_get btb pc = Some t -> sk5_flush btb i pc next = false.
Proof. intros Hu Hb. unfold sk5_flush. rewrite Hu, Hb. reflexivity. Qed.

Lemma mvp5_unknown_jump_always_flushes btb i pc next :
  uncond i = true -> btb_get btb pc = None -> sk5_flush btb i pc next = true.
Proof. intros Hu Hb. unfold sk5_flush. rewrite Hu, Hb. reflexivity. Qed.

(* why the hypotheses are there: the same witnesses as for MVP-4.
   path_below: a jump to an address in the last four bytes of the int32 range ends
   the sequential run, but the fetch unit fetches the target, its next pc wraps
   around, and the decode unit indexes the program with a negative number: panic *)
Theorem mvp5_exit_near_int32_max_panics_refuted :
  let p := [SJalr 0 0 2147483646] in
  wf_app (map instr_of p) /\ reg_only (map instr_of p) = true /\
  (exists st' tr, seq_run 10 (map sinstr_of (map instr_of p)) no_lab zero_state = Done st' tr) /\
  path_below (seq_path 10 (map sinstr_of (map instr_of p)) no_lab zero_state 0) = false /\
  mvp5_run 2000 (map instr_of p) no_lab zero_state = MPanic.
Proof.
  cbv zeta. split; [|split; [|split; [|split]]].
  - split; [|vm_compute; reflexivity]. repeat constructor; vm_compute; discriminate.
  - vm_compute. reflexivity.
  - (* lazy, not vm_compute: Z.to_nat (pc / 4) is a unary number of 2^29 successors *)
    do 2 eexists. lazy. reflexivity.
  - lazy. reflexivity.
  - vm_compute. reflexivity.
Qed.

(* the cycle count is a function of the PATH, not of the trace of executed pcs *)
Theorem mvp5_same_trace_different_cycles_refuted :
  let p := [SJalr 0 5 0] in
  exists st1' st2' tr,
    seq_run 10 (map sinstr_of (map instr_of p)) no_lab (state_x5 4) = Done st1' tr /\
    seq_run 10 (map sinstr_of (map instr_of p)) no_lab (state_x5 1000) = Done st2' tr /\
    mvp5_run 2000 (map instr_of p) no_lab (state_x5 4) = MDone 314 st1' /\
    mvp5_run 2000 (map instr_of p) no_lab (state_x5 1000) = MDone 622 st2'.
Proof. cbv zeta. do 3 eexists. repeat split; vm_compute; reflexivity. Qed.

(* programs WITH loads and stores: as for MVP-4, the unrestricted statement of C01 is
   false for the faithful model ("cold-store-then-load") *)
Theorem mvp5_cold_store_then_load_refuted :
  let p := [SLi 5 7; SSw 5 0 0; SSw 5 128 0; SSw 5 64 0; SLw 6 64 0; SRet] in
  let st := mk_arch (repeat 0 32) (repeat 0 256) in
  exists st' tr c st5,
    seq_run 20 p no_lab st = Done st' tr /\
    mvp5_run 5000 (map instr_of p) no_lab st = MDone c st5 /\
    rget (regs st') 6 = 7 /\ mget (mem st') 64 = 7 /\
    rget (regs st5) 6 = 0 /\ mget (mem st5) 64 = 0.
Proof. cbv zeta. do 4 eexists. split; [vm_compute; reflexivity|]. split; [vm_compute; reflexivity|]. vm_compute. repeat split; reflexivity. Qed.

(* why (length (regs st) <= 32) is a hypothesis: the scoreboard has 32 entries *)
Theorem mvp5_more_than_32_registers_refuted :
  let p := [SLi 35 7; SAddi 36 35 1; SRet] in
  let st := mk_arch (repeat 0 40) (repeat 0 64) in
  exists st' tr c st5,
    seq_run 10 p no_lab st = Done st' tr /\
    mvp5_run 2000 (map instr_of p) no_lab st = MDone c st5 /\
    nth 36 (regs st') 0 = 8 /\ nth 36 (regs st5) 0 = 1.
Proof. cbv zeta. do 4 eexists. split; [vm_compute; reflexivity|]. split; [vm_compute; reflexivity|]. vm_compute. split; reflexivity. Qed.
