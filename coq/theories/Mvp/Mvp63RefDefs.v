(* Refinement of MVP-6.3 (Mvp63.v) to the sequential machine on SINGLE-ASSIGNMENT, register-only,
   straight-line programs: the program class (ssa, regs_ok), its consequences on the
   numbered instructions, what the register alias table holds after the first w instructions
   have written back (tv) and how that relates to the sequential register file (sreg of
   Mvp60RefSem.v).

   ssa app: every register other than x0 is written by at most one instruction of the text and no
   instruction reads a register that a LATER instruction writes (an instruction may read the
   register it writes): there is neither WAW nor WAR, only RAW. *)
From Coq Require Import ZArith List Bool Lia Permutation.
From Maj Require Import Base.Outcome Base.GoInt Base.GoTypes Isa.Spec Isa.Embed Isa.Seq Isa.Refine.
From Maj Require Import Gen.Latency Gen.RiscTables Gen.Opcodes Comp.Cache Comp.Rat Comp.RatProofs.
From Maj Require Import Mvp.Mvp12 Mvp.Mvp12Proofs Mvp.Mvp3 Mvp.Mvp3Proofs Mvp.Mvp4Skel Mvp.Mvp4Inv Mvp.Mvp5 Mvp.Mvp60
     Mvp.Mvp60RefSem Mvp.Mvp60RefDefs Mvp.Mvp60RefFront Mvp.Mvp60RefBack Mvp.Mvp63.
Import ListNotations.
Open Scope Z_scope.

(* ------------------------------------------------------------------ *)
(* the program class                                                    *)

(* no register other than x0 is in both lists *)
Definition nz_disj (a b : list Z) : bool := forallb (fun r => (r =? 0) || negb (memZ r b)) a.

Fixpoint ssa (l : list instr) : bool :=
  match l with
  | [] => true
  | i :: t =>
      forallb (fun j => nz_disj (instr_WriteRegisters i) (instr_WriteRegisters j) &&
                        nz_disj (instr_ReadRegisters i) (instr_WriteRegisters j)) t && ssa t
  end.

(* register numbers are x0 .. x31 *)
Definition reg_rng (i : instr) : bool :=
  forallb (fun r => (0 <=? r) && (r <? 32)) (instr_ReadRegisters i ++ instr_WriteRegisters i).
Definition regs_ok (app : list instr) : bool := forallb reg_rng app.

Lemma nz_disj_spec a b r : nz_disj a b = true -> In r a -> r <> 0 -> ~ In r b.
Proof.
  unfold nz_disj. intros H Ha Hnz Hb. rewrite forallb_forall in H. specialize (H r Ha).
  apply orb_prop in H as [H|H]; [apply Z.eqb_eq in H; contradiction|].
  apply negb_true_iff in H. assert (memZ r b = true) by (apply memZ_In; exact Hb). congruence.
Qed.

Lemma ssa_nth l d : ssa l = true -> forall j k, (j < k < length l)%nat ->
  nz_disj (instr_WriteRegisters (nth j l d)) (instr_WriteRegisters (nth k l d)) = true /\
  nz_disj (instr_ReadRegisters (nth j l d)) (instr_WriteRegisters (nth k l d)) = true.
Proof.
  induction l as [|i t IH]; intros H j k Hjk; cbn [length] in Hjk; [lia|].
  cbn [ssa] in H. apply andb_prop in H as [H1 H2].
  destruct k as [|k]; [lia|]. destruct j as [|j]; cbn [nth].
  - rewrite forallb_forall in H1. specialize (H1 (nth k t d) ltac:(apply nth_In; lia)).
    apply andb_prop in H1. exact H1.
  - apply IH; [exact H2 | lia].
Qed.

Section Class.
  Variables (app : list instr).
  Hypothesis Hssa : ssa app = true.
  Hypothesis Hrng : regs_ok app = true.
  Let n := length app.
  Notation ik := (ik app).

  Definition rds (k : nat) : list Z := instr_ReadRegisters (ik k).
  Definition wrs (k : nat) : list Z := instr_WriteRegisters (ik k).

  (* S1: one writer per register *)
  Lemma ssa_waw j k r : (j < k < n)%nat -> In r (wrs j) -> r <> 0 -> ~ In r (wrs k).
  Proof. intros Hjk. destruct (ssa_nth app dfl Hssa j k Hjk) as [A _]. apply nz_disj_spec. exact A. Qed.

  (* S2: no write after read *)
  Lemma ssa_war j k r : (j < k < n)%nat -> In r (rds j) -> r <> 0 -> ~ In r (wrs k).
  Proof. intros Hjk. destruct (ssa_nth app dfl Hssa j k Hjk) as [_ A]. apply nz_disj_spec. exact A. Qed.

  Lemma ik_rng k : reg_rng (ik k) = true.
  Proof.
    unfold Mvp60RefSem.ik. destruct (Nat.lt_ge_cases k n) as [H|H].
    - unfold regs_ok in Hrng. rewrite forallb_forall in Hrng. apply Hrng. apply nth_In. exact H.
    - rewrite nth_overflow by exact H. reflexivity.
  Qed.

  Lemma ik_reg_rng k r : In r (rds k ++ wrs k) -> 0 <= r < 32.
  Proof.
    intros H. pose proof (ik_rng k) as Hk. unfold reg_rng in Hk. rewrite forallb_forall in Hk.
    specialize (Hk r H). apply andb_prop in Hk as [A B]. apply Z.leb_le in A. apply Z.ltb_lt in B. lia.
  Qed.

  Lemma rds_rng k r : In r (rds k) -> 0 <= r < 32.
  Proof. intros H. apply (ik_reg_rng k), in_or_app. left. exact H. Qed.

  Lemma wrs_rng k r : In r (wrs k) -> 0 <= r < 32.
  Proof. intros H. apply (ik_reg_rng k), in_or_app. right. exact H. Qed.

  (* slots of Mvp60RefSem.v and register numbers *)
  Lemma slots_in_rng l r : (forall q, In q l -> 0 <= q < 32) -> 0 < r -> (In (Z.to_nat r) (slots l) <-> In r l).
  Proof.
    intros Hl Hr. rewrite slots_in. split.
    - intros (r' & Hin & Hnz & E). pose proof (Hl r' Hin). assert (r' = r) by lia. subst. exact Hin.
    - intros H. exists r. repeat split; auto; lia.
  Qed.

  Lemma wsl_in k r : 0 < r -> (In (Z.to_nat r) (wsl app k) <-> In r (wrs k)).
  Proof. apply slots_in_rng, wrs_rng. Qed.

  Lemma rsl_in k r : 0 < r -> (In (Z.to_nat r) (rsl app k) <-> In r (rds k)).
  Proof. apply slots_in_rng, rds_rng. Qed.
End Class.

(* ------------------------------------------------------------------ *)
(* the execution record of an instruction of the segment that starts at base *)

Section ExeAt.
  Variables (app : list instr) (labels : Z -> option Z) (regs0 : list Z) (base : nat).
  Hypothesis Hrng : regs_ok app = true.
  Hypothesis Hlen0 : length regs0 = 32%nat.
  Notation ik := (ik app).
  Notation sreg := (sreg app labels regs0 base).
  Notation eff := (eff app labels regs0 base).

  Lemma eff_wrs_at k rd : (match eff k with EReg r _ | ELink r _ _ => r = rd | _ => False end) -> wrs app k = [rd].
  Proof.
    unfold Mvp60RefSem.eff, eff_at. destruct (exec (sinstr_of (ik k)) (rget (sreg k)) labels (pcz k) []) as [e| |] eqn:E; try contradiction.
    intros H. apply spec_writes_sound in E. unfold wrs. rewrite write_registers_exact.
    destruct e; try contradiction; subst; exact E.
  Qed.

  Lemma embed_val_int32 k : int32 (RegisterValue (embed (eff k))).
  Proof.
    unfold Mvp60RefSem.eff, eff_at.
    destruct (exec (sinstr_of (ik k)) (rget (sreg k)) labels (pcz k) []) as [e| |] eqn:E; try apply int32_0.
    destruct e as [rd v|bs| |a|rd v a|]; cbn [embed]; try apply int32_0; unfold reg_pair; destruct (rd =? 0); cbn; try apply int32_0.
    - eapply exec_reg_range; exact E.
    - eapply exec_link_range; exact E.
  Qed.

  (* the value a later reader of register r gets from the writer p of r *)
  Lemma fwd_value_at p k r : ssa app = true -> (base <= p < k)%nat -> (k <= length app)%nat -> In r (wrs app p) -> 0 < r ->
    (exists e, exec (sinstr_of (ik p)) (rget (sreg p)) labels (pcz p) [] = Ok e) ->
    rget (sreg k) r = RegisterValue (embed (eff p)).
  Proof.
    intros Hssa Hpk Hkn Hw Hr (e & He).
    assert (Hl32 : (length regs0 <= 32)%nat) by lia.
    pose proof (wrs_rng app Hrng p r Hw) as Hrr.
    assert (Hst : nth (Z.to_nat r) (sreg k) 0 = nth (Z.to_nat r) (sreg (S p)) 0).
    { apply sreg_stable; [exact Hl32 | lia|]. intros j Hj Hin. apply (wsl_in app Hrng j r Hr) in Hin.
      exact (ssa_waw app Hssa p j r ltac:(lia) Hw ltac:(lia) Hin). }
    rewrite rget_nth. destruct (Z.eqb_spec r 0); [lia|]. rewrite Hst, (sreg_S app labels regs0 base Hl32 p) by lia.
    pose proof (spec_writes_sound _ _ _ _ _ _ He) as Hws. unfold wrs in Hw. rewrite write_registers_exact in Hw.
    unfold Mvp60RefSem.eff, eff_at. rewrite He.
    assert (Hfin : forall v, nth (Z.to_nat r) (rset (sreg p) r v) 0 = v).
    { intros v. rewrite nth_rset. destruct (Z.eqb_spec r 0); [lia|]. rewrite Nat.eqb_refl. cbn [negb andb].
      rewrite sreg_length, Hlen0. destruct (Nat.ltb_spec (Z.to_nat r) 32); [reflexivity | lia]. }
    destruct e as [rd v|bs| |a|rd v a|]; rewrite Hws in Hw; cbn [In] in Hw; try contradiction.
    - destruct Hw as [<-|[]]. cbn [apply_eff embed]. unfold reg_pair. destruct (Z.eqb_spec rd 0); [lia|]. cbn [RegisterValue]. apply Hfin.
    - destruct Hw as [<-|[]]. cbn [apply_eff embed]. unfold reg_pair. destruct (Z.eqb_spec rd 0); [lia|]. cbn [RegisterValue]. apply Hfin.
  Qed.
End ExeAt.

(* ------------------------------------------------------------------ *)
(* the alias table and the sequential register file                     *)

Section Tv.
  Variables (app : list instr) (labels : Z -> option Z) (regs0 : list Z).
  Hypothesis Hssa : ssa app = true.
  Hypothesis Hrng : regs_ok app = true.
  Hypothesis Hlen0 : length regs0 = 32%nat.
  Let n := length app.
  Notation ik := (ik app).
  Notation sreg := (sreg app labels regs0 0).
  Notation eff := (eff app labels regs0 0).

  (* the execution record of instruction k *)
  Definition exe (k : nat) : execution := embed (eff k).

  (* the newest slot of transactionRAT for register r once instructions 0 .. w-1 have written back *)
  Fixpoint tv (w : nat) (r : Z) : option (Z * Z) :=
    match w with
    | O => None
    | S k => if RegisterChange (exe k) && (Register (exe k) =? r) then Some (pcz k, RegisterValue (exe k)) else tv k r
    end.

  (* what registerRead finds in the two tables *)
  Definition view (w : nat) (r : Z) : Z :=
    match tv w r with Some sv => snd sv | None => if (0 <=? r) && (r <? 32) then nth (Z.to_nat r) regs0 0 else 0 end.

  Lemma exe_reg k : RegisterChange (exe k) = true ->
    (Register (exe k) = 0 /\ RegisterValue (exe k) = 0) \/
    (Register (exe k) <> 0 /\ exists v, (eff k = EReg (Register (exe k)) v \/ exists a, eff k = ELink (Register (exe k)) v a) /\
                                RegisterValue (exe k) = v).
  Proof.
    unfold exe. destruct (eff k) as [rd v|bs| |a|rd v a|]; cbn [embed]; try discriminate.
    - unfold reg_pair. destruct (Z.eqb_spec rd 0) as [->|Hnz]; cbn; intros _; [left; auto | right]. split; [exact Hnz|]. exists v. auto.
    - unfold reg_pair. destruct (Z.eqb_spec rd 0) as [->|Hnz]; cbn; intros _; [left; auto | right]. split; [exact Hnz|]. exists v. eauto.
  Qed.

  Lemma eff_wrs k rd : (match eff k with EReg r _ | ELink r _ _ => r = rd | _ => False end) -> wrs app k = [rd].
  Proof. apply eff_wrs_at. Qed.

  Lemma eff_nowr k : (match eff k with EReg _ _ | ELink _ _ _ => False | _ => True end) ->
    forall s, nth s (sreg (S k)) 0 = nth s (sreg k) 0.
  Proof.
    intros H s. rewrite sreg_S by lia. destruct (eff k); try contradiction; reflexivity.
  Qed.

  (* the view of the tables is the sequential register file *)
  Lemma view_sreg w r : 0 < r < 32 -> view w r = nth (Z.to_nat r) (sreg w) 0.
  Proof.
    intros Hr. unfold view. induction w as [|k IH]; cbn [tv].
    - destruct (Z.leb_spec 0 r), (Z.ltb_spec r 32); try lia. reflexivity.
    - destruct (RegisterChange (exe k)) eqn:Erc; cbn [andb].
      + destruct (exe_reg k Erc) as [[E0 _]|(Hnz & v & He & Ev)].
        * rewrite E0. destruct (Z.eqb_spec 0 r); [lia|]. rewrite IH.
          unfold exe in Erc, E0. rewrite sreg_S by lia.
          destruct (eff k) as [rd v|bs| |a|rd v a|]; cbn [embed] in *; try discriminate; cbn [apply_eff];
            unfold reg_pair in *; destruct (Z.eqb_spec rd 0) as [->|]; cbn in E0; try lia; reflexivity.
        * destruct (Z.eqb_spec (Register (exe k)) r) as [Er|Ner].
          -- cbn [snd]. rewrite sreg_S by lia. rewrite Ev.
             assert (Ha : apply_eff (eff k) (sreg k) = rset (sreg k) r v) by (destruct He as [->|(a & ->)]; rewrite Er; reflexivity).
             rewrite Ha, nth_rset. destruct (Z.eqb_spec r 0); [lia|]. rewrite Nat.eqb_refl. cbn [negb andb].
             rewrite sreg_length, Hlen0. destruct (Nat.ltb_spec (Z.to_nat r) 32); [reflexivity | lia].
          -- rewrite IH. rewrite sreg_S by lia.
             assert (Ha : apply_eff (eff k) (sreg k) = rset (sreg k) (Register (exe k)) v) by (destruct He as [->|(a & ->)]; reflexivity).
             rewrite Ha, nth_rset. destruct (Nat.eqb_spec (Z.to_nat (Register (exe k))) (Z.to_nat r)) as [En|]; [|rewrite andb_false_r; reflexivity].
             exfalso. assert (Hw : wrs app k = [Register (exe k)]) by (apply eff_wrs; destruct He as [->|(a & ->)]; reflexivity).
             pose proof (wrs_rng app Hrng k (Register (exe k)) ltac:(rewrite Hw; left; reflexivity)). lia.
      + rewrite IH. symmetry. apply eff_nowr. unfold exe in Erc.
        destruct (eff k) as [rd v|bs| |a|rd v a|]; cbn [embed] in Erc; try exact I; unfold reg_pair in Erc; destruct (rd =? 0); discriminate.
  Qed.

  (* slot 0 of the tables: never anything but 0 *)
  Lemma view_zero w : nth 0 regs0 0 = 0 -> view w 0 = 0.
  Proof.
    intros H0. unfold view. induction w as [|k IH]; cbn [tv]; [cbn; exact H0|].
    destruct (RegisterChange (exe k)) eqn:Erc; cbn [andb]; [|exact IH].
    destruct (Z.eqb_spec (Register (exe k)) 0) as [E|]; [|exact IH]. cbn [snd].
    destruct (exe_reg k Erc) as [[_ Ev]|[Hnz _]]; [exact Ev | contradiction].
  Qed.

  (* a key outside x0..x31 is in neither table *)
  Lemma tv_rng w r : tv w r <> None -> 0 <= r < 32.
  Proof.
    induction w as [|k IH]; cbn [tv]; [congruence|].
    destruct (RegisterChange (exe k)) eqn:Erc; cbn [andb]; [|exact IH].
    destruct (Z.eqb_spec (Register (exe k)) r) as [E|]; [|exact IH]. intros _. subst r.
    destruct (exe_reg k Erc) as [[E0 _]|(Hnz & v & He & Ev)]; [lia|].
    assert (Hw : wrs app k = [Register (exe k)]) by (apply eff_wrs; destruct He as [->|(a & ->)]; reflexivity).
    apply (wrs_rng app Hrng k). rewrite Hw. left. reflexivity.
  Qed.

  Hypothesis Hr32 : Forall int32 regs0.

  Lemma exe_val_int32 k : int32 (RegisterValue (exe k)).
  Proof. apply embed_val_int32. Qed.

  Lemma view_int32 w r : int32 (view w r).
  Proof.
    unfold view. destruct (tv w r) as [sv|] eqn:E.
    - revert E. induction w as [|k IH]; cbn [tv]; [discriminate|].
      destruct (RegisterChange (exe k) && (Register (exe k) =? r)); [|exact IH].
      intros H. injection H as <-. cbn [snd]. apply exe_val_int32.
    - destruct ((0 <=? r) && (r <? 32)); [|apply int32_0]. apply nth_Forall; [exact Hr32 | apply int32_0].
  Qed.

  Lemma fwd_value p k r : (p < k <= n)%nat -> In r (wrs app p) -> 0 < r ->
    (exists e, exec (sinstr_of (ik p)) (rget (sreg p)) labels (pcz p) [] = Ok e) ->
    rget (sreg k) r = RegisterValue (exe p).
  Proof. intros Hpk. apply (fwd_value_at app labels regs0 0 Hrng Hlen0 p k r Hssa); fold n; lia. Qed.
End Tv.
