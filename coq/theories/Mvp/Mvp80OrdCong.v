(* Every function of the model of MVP-8.0 (Mvp80.v) is a CONGRUENCE for msi_equiv (Mvp80OrdSnoop.v):
   two directories that only differ in the representation of k_done (used as a set) and of k_l3lock / k_l3write
   (used as maps) are indistinguishable for the memory system and for the pipeline, with the SAME order function on
   both sides and everything else literally equal: first the functions of msi.go, then those of cc.go over the
   shared part mw, then the machine my, the tick and the run. *)
From Coq Require Import ZArith List Bool Lia.
From Maj Require Import Base.Outcome Base.GoInt Base.GoTypes Isa.Spec Isa.Seq.
From Maj Require Import Gen.Latency Gen.RiscTables Gen.Opcodes Comp.Cache Comp.Rat Comp.RatProofs Mvp.Mvp12 Mvp.Mvp3 Mvp.Mvp5 Mvp.Mvp60 Mvp.Mvp63 Mvp.Mvp80.
From Maj Require Import Mvp.Mvp80OrdSnoop.
Import ListNotations.
Open Scope Z_scope.

Definition orel {A} (R : A -> A -> Prop) (o1 o2 : outcome A) : Prop :=
  match o1, o2 with Ok a, Ok b => R a b | Err e1, Err e2 => e1 = e2 | Panic, Panic => True | _, _ => False end.

Definition mw_equiv (w1 w2 : mw) : Prop := w_mem w1 = w_mem w2 /\ w_l3 w1 = w_l3 w2 /\ msi_equiv (w_msi w1) (w_msi w2).
Definition my_equiv (y1 y2 : my) : Prop :=
  y_x y1 = y_x y2 /\ msi_equiv (y_msi y1) (y_msi y2) /\ y_copy y1 = y_copy y2 /\ y_pref y1 = y_pref y2 /\ y_ccs y1 = y_ccs y2.
Definition st_equiv (s1 s2 : st8) : Prop :=
  my_equiv (v_y s1) (v_y s2) /\ v_eus s1 = v_eus s2 /\ v_wus s1 = v_wus s2 /\ v_cycle s1 = v_cycle s2 /\ v_mode s1 = v_mode s2.
Definition res_equiv (r1 r2 : step_res8) : Prop :=
  match r1, r2 with
  | VDone a os1, VDone b os2 => a = b /\ os1 = os2
  | VCont s1, VCont s2 => st_equiv s1 s2
  | _, _ => False
  end.

(* results: a related first component, the rest equal *)
Definition krel2 {B} (r1 r2 : msi8 * B) : Prop := msi_equiv (fst r1) (fst r2) /\ snd r1 = snd r2.
Definition wrel2 {B} (r1 r2 : mw * B) : Prop := mw_equiv (fst r1) (fst r2) /\ snd r1 = snd r2.
Definition wrel3 {B C} (r1 r2 : mw * B * C) : Prop :=
  mw_equiv (fst (fst r1)) (fst (fst r2)) /\ snd (fst r1) = snd (fst r2) /\ snd r1 = snd r2.
Definition yrel2 {B} (r1 r2 : my * B) : Prop := my_equiv (fst r1) (fst r2) /\ snd r1 = snd r2.
Definition yrel3 {B C} (r1 r2 : my * B * C) : Prop :=
  my_equiv (fst (fst r1)) (fst (fst r2)) /\ snd (fst r1) = snd (fst r2) /\ snd r1 = snd r2.

Lemma orel_refl : forall A (R : A -> A -> Prop) o, (forall a, R a a) -> orel R o o.
Proof. intros A R [a|e|] H; cbn [orel]; auto. Qed.

Lemma orel_bind : forall A B (R : A -> A -> Prop) (S : B -> B -> Prop) m1 m2 f g,
  orel R m1 m2 -> (forall a b, R a b -> orel S (f a) (g b)) -> orel S (bind m1 f) (bind m2 g).
Proof.
  intros A B R S [a|e|] [b|e'|] f g H K; cbn [orel bind] in *; try contradiction; auto.
Qed.

Lemma orel_impl : forall A (R S : A -> A -> Prop) o1 o2, (forall a b, R a b -> S a b) -> orel R o1 o2 -> orel S o1 o2.
Proof. intros A R S [a|e|] [b|e'|] K H; cbn [orel] in *; auto. Qed.

Lemma mw_equiv_refl : forall w, mw_equiv w w.
Proof. intros w. unfold mw_equiv. split; [reflexivity|]. split; [reflexivity|]. apply msi_equiv_refl. Qed.

Lemma my_equiv_refl : forall y, my_equiv y y.
Proof. intros y. unfold my_equiv. split; [reflexivity|]. split; [apply msi_equiv_refl|]. repeat split. Qed.

Lemma st_equiv_refl : forall s, st_equiv s s.
Proof. intros s. unfold st_equiv. split; [apply my_equiv_refl|]. repeat split. Qed.

Create HintDb cong.

(* split a hypothesis msi_equiv k1 k2 into equal fields *)
Ltac msi_destruct k1 k2 H :=
  destruct k1 as [?s1 ?st1 ?sl1 ?cm1 ?d1 ?n1 ?ll1 ?lw1], k2 as [?s2 ?st2 ?sl2 ?cm2 ?d2 ?n2 ?ll2 ?lw2];
  unfold msi_equiv in H; cbn [k_sems k_states k_stale k_cmds k_done k_next k_l3lock k_l3write] in H;
  destruct H as (?Hs & ?Hst & ?Hsl & ?Hcm & ?Hn & ?Hd & ?Hll & ?Hlw); subst.

Ltac msi_fields := cbn [k_sems k_states k_stale k_cmds k_done k_next k_l3lock k_l3write
                         set_sems set_states set_cmds set_l3lock set_l3write].

(* prove msi_equiv of two records with literally equal other fields *)
Ltac msi_close := unfold msi_equiv; msi_fields; repeat split; try reflexivity; try assumption.

Lemma aget_aset_ext : forall (A : Type) a b (v : A) m1 m2,
  (forall x, aget x m1 = aget x m2) -> aget a (aset b v m1) = aget a (aset b v m2).
Proof. intros A a b v m1 m2 H. rewrite !aget_aset. rewrite H. reflexivity. Qed.

Lemma memZ_snoc_ext : forall cid x l1 l2, (forall c, memZ c l1 = memZ c l2) -> memZ cid (l1 ++ [x]) = memZ cid (l2 ++ [x]).
Proof. intros cid x l1 l2 H. rewrite !memZ_app, H. reflexivity. Qed.

Lemma set_sems_equiv : forall k1 k2 s, msi_equiv k1 k2 -> msi_equiv (set_sems k1 s) (set_sems k2 s).
Proof. intros k1 k2 s H. msi_destruct k1 k2 H. msi_close. Qed.

Lemma set_states_equiv : forall k1 k2 s b, msi_equiv k1 k2 -> msi_equiv (set_states k1 s b) (set_states k2 s b).
Proof. intros k1 k2 s b H. msi_destruct k1 k2 H. msi_close. Qed.

Lemma set_cmds_equiv : forall k1 k2 c d1 d2 n, msi_equiv k1 k2 -> (forall cid, memZ cid d1 = memZ cid d2) ->
  msi_equiv (set_cmds k1 c d1 n) (set_cmds k2 c d2 n).
Proof. intros k1 k2 c d1 d2 n H D. msi_destruct k1 k2 H. msi_close. Qed.

Lemma set_l3lock_equiv : forall k1 k2 l1 l2, msi_equiv k1 k2 -> (forall a, aget a l1 = aget a l2) ->
  msi_equiv (set_l3lock k1 l1) (set_l3lock k2 l2).
Proof. intros k1 k2 l1 l2 H D. msi_destruct k1 k2 H. msi_close. Qed.

Lemma set_l3write_equiv : forall k1 k2 l1 l2, msi_equiv k1 k2 -> (forall a, aget a l1 = aget a l2) ->
  msi_equiv (set_l3write k1 l1) (set_l3write k2 l2).
Proof. intros k1 k2 l1 l2 H D. msi_destruct k1 k2 H. msi_close. Qed.

(* the form in which the model writes k_l3write *)
Lemma set_l3write_aset_equiv : forall k1 k2 a b, msi_equiv k1 k2 ->
  msi_equiv (set_l3write k1 (aset a b (k_l3write k1))) (set_l3write k2 (aset a b (k_l3write k2))).
Proof.
  intros k1 k2 a b H. apply set_l3write_equiv; [exact H|].
  intros x. apply aget_aset_ext. destruct H as (_ & _ & _ & _ & _ & _ & _ & W). exact W.
Qed.

Lemma sem_put_equiv : forall k1 k2 a s, msi_equiv k1 k2 -> msi_equiv (sem_put k1 a s) (sem_put k2 a s).
Proof. intros k1 k2 a s H. unfold sem_put. msi_destruct k1 k2 H. msi_close. Qed.

Lemma msi_send_equiv : forall k1 k2 key, msi_equiv k1 k2 -> krel2 (msi_send k1 key) (msi_send k2 key).
Proof.
  intros k1 k2 key H. unfold msi_send, krel2. msi_destruct k1 k2 H. msi_fields.
  destruct (pget ck_eqb key cm2); cbn [fst snd]; (split; [msi_close | reflexivity]).
Qed.

Lemma cmd_done_equiv : forall k1 k2 key cid, msi_equiv k1 k2 -> msi_equiv (cmd_done k1 key cid) (cmd_done k2 key cid).
Proof.
  intros k1 k2 key cid H. unfold cmd_done. msi_destruct k1 k2 H.
  destruct ((ck_req key =? rq_l1Evict) || (ck_req key =? rq_l1WriteBack)); msi_fields; msi_close;
    intros c; apply memZ_snoc_ext; assumption.
Qed.

Lemma msi_requests_equiv : forall sts k1 k2 id a on_shared, msi_equiv k1 k2 ->
  krel2 (msi_requests sts k1 id a on_shared) (msi_requests sts k2 id a on_shared).
Proof.
  induction sts as [|[[eid ea] st] t IH]; intros k1 k2 id a on_shared H; cbn [msi_requests].
  - split; [exact H | reflexivity].
  - destruct ((eid =? id) || negb (ea =? a)); [apply IH; exact H|].
    destruct (st =? st_modified).
    + pose proof (msi_send_equiv k1 k2 (mk_ck eid a rq_l1WriteBack) H) as S.
      destruct (msi_send k1 _) as [k1' c1], (msi_send k2 _) as [k2' c2]. destruct S as [S1 S2]. cbn [fst snd] in S1, S2. subst c2.
      pose proof (IH k1' k2' id a on_shared S1) as R.
      destruct (msi_requests t k1' _ _ _) as [k1'' r1], (msi_requests t k2' _ _ _) as [k2'' r2].
      destruct R as [R1 R2]. cbn [fst snd] in R1, R2. subst r2. split; [exact R1 | reflexivity].
    + destruct ((st =? st_shared) && on_shared); [|apply IH; exact H].
      pose proof (msi_send_equiv k1 k2 (mk_ck eid a rq_l1Evict) H) as S.
      destruct (msi_send k1 _) as [k1' c1], (msi_send k2 _) as [k2' c2]. destruct S as [S1 S2]. cbn [fst snd] in S1, S2. subst c2.
      pose proof (IH k1' k2' id a on_shared S1) as R.
      destruct (msi_requests t k1' _ _ _) as [k1'' r1], (msi_requests t k2' _ _ _) as [k2'' r2].
      destruct R as [R1 R2]. cbn [fst snd] in R1, R2. subst r2. split; [exact R1 | reflexivity].
Qed.

Lemma run_post_equiv : forall k1 k2 id p, msi_equiv k1 k2 -> orel msi_equiv (run_post k1 id p) (run_post k2 id p).
Proof.
  intros k1 k2 id p H. unfold run_post.
  assert (E : msi_equiv (match p_set p with Some st => set_states k1 (pset zz_eqb (id, p_addr p) st (k_states k1)) true | None => k1 end)
                        (match p_set p with Some st => set_states k2 (pset zz_eqb (id, p_addr p) st (k_states k2)) true | None => k2 end)).
  { destruct (p_set p); [|exact H]. replace (k_states k2) with (k_states k1) by (destruct H as (_ & B & _); exact B).
    apply set_states_equiv. exact H. }
  cbv zeta. revert E.
  generalize (match p_set p with Some st => set_states k1 (pset zz_eqb (id, p_addr p) st (k_states k1)) true | None => k1 end).
  generalize (match p_set p with Some st => set_states k2 (pset zz_eqb (id, p_addr p) st (k_states k2)) true | None => k2 end).
  intros kb ka E. rewrite (sem_get_equiv ka kb _ E).
  destruct (if p_w p then _ else _); cbn [bind orel]; auto. apply sem_put_equiv. exact E.
Qed.

Lemma msi_lock_tail : forall k1 k2 a s id b (rk : rkind) (p : post), msi_equiv k1 k2 ->
  orel (@krel2 (option (rkind * list Z * post)))
    (let '(k2', pend) := msi_requests (k_states k1) (sem_put k1 a s) id a b in Ok (k2', Some (rk, pend, p)))
    (let '(k2', pend) := msi_requests (k_states k2) (sem_put k2 a s) id a b in Ok (k2', Some (rk, pend, p))).
Proof.
  intros k1 k2 a s id b rk p H.
  replace (k_states k2) with (k_states k1) by (destruct H as (_ & B & _); exact B).
  pose proof (msi_requests_equiv (k_states k1) _ _ id a b (sem_put_equiv k1 k2 a s H)) as R.
  destruct (msi_requests _ (sem_put k1 a s) _ _ _) as [k1' r1], (msi_requests _ (sem_put k2 a s) _ _ _) as [k2' r2].
  destruct R as [R1 R2]. cbn [fst snd] in R1, R2. subst r2. cbn [orel]. split; [exact R1 | reflexivity].
Qed.

Lemma krel2_ok : forall B k1 k2 (b : B), msi_equiv k1 k2 -> orel (@krel2 B) (Ok (k1, b)) (Ok (k2, b)).
Proof. intros B k1 k2 b H. cbn [orel]. split; [exact H | reflexivity]. Qed.

Lemma msi_l1rlock_equiv : forall k1 k2 id a, msi_equiv k1 k2 -> orel krel2 (msi_l1rlock k1 id a) (msi_l1rlock k2 id a).
Proof.
  intros k1 k2 id a H. unfold msi_l1rlock. cbv zeta.
  rewrite (st_get_equiv k1 k2 id a H), (sem_get_equiv k1 k2 a H).
  destruct (st_get k2 id a =? st_invalid).
  { destruct (sem_rlock _); [apply msi_lock_tail; exact H | apply krel2_ok; exact H]. }
  destruct (st_get k2 id a =? st_modified).
  { destruct (sem_lock _); apply krel2_ok; [apply sem_put_equiv|]; exact H. }
  destruct (st_get k2 id a =? st_shared); [|exact I].
  destruct (sem_rlock _); apply krel2_ok; [apply sem_put_equiv|]; exact H.
Qed.

Lemma msi_l1lock_equiv : forall k1 k2 id a, msi_equiv k1 k2 -> orel krel2 (msi_l1lock k1 id a) (msi_l1lock k2 id a).
Proof.
  intros k1 k2 id a H. unfold msi_l1lock. cbv zeta.
  rewrite (st_get_equiv k1 k2 id a H), (sem_get_equiv k1 k2 a H).
  destruct (st_get k2 id a =? st_invalid).
  { destruct (sem_lock _); [apply msi_lock_tail; exact H | apply krel2_ok; exact H]. }
  destruct (st_get k2 id a =? st_modified).
  { destruct (sem_lock _); apply krel2_ok; [apply sem_put_equiv|]; exact H. }
  destruct (st_get k2 id a =? st_shared); [|exact I].
  destruct (sem_lock _); [apply msi_lock_tail; exact H | apply krel2_ok; exact H].
Qed.

Lemma msi_evict_l1_equiv : forall k1 k2 id a, msi_equiv k1 k2 -> orel krel2 (msi_evict_l1 k1 id a) (msi_evict_l1 k2 id a).
Proof.
  intros k1 k2 id a H. unfold msi_evict_l1. cbv zeta. rewrite (st_get_equiv k1 k2 id a H).
  destruct (_ || _); [cbn [orel]; apply msi_send_equiv; exact H|].
  destruct (_ =? st_modified); [cbn [orel]; apply msi_send_equiv; exact H | exact I].
Qed.

Lemma msi_evict_l3_equiv : forall k1 k2 id a, msi_equiv k1 k2 -> krel2 (msi_evict_l3 k1 id a) (msi_evict_l3 k2 id a).
Proof.
  intros k1 k2 id a H. unfold msi_evict_l3.
  replace (aget a (k_l3write k1)) with (aget a (k_l3write k2)) by (destruct H as (_ & _ & _ & _ & _ & _ & _ & W); symmetry; apply W).
  destruct (aget a (k_l3write k2)) as [[|]|]; apply msi_send_equiv; exact H.
Qed.

Lemma l3_setlock_equiv : forall k1 k2 a b, msi_equiv k1 k2 -> msi_equiv (l3_setlock k1 a b) (l3_setlock k2 a b).
Proof.
  intros k1 k2 a b H. unfold l3_setlock. apply set_l3lock_equiv; [exact H|].
  intros x. apply aget_aset_ext. destruct H as (_ & _ & _ & _ & _ & _ & L & _). exact L.
Qed.

Lemma l3_unlock_equiv : forall k1 k2 a, msi_equiv k1 k2 -> orel msi_equiv (l3_unlock k1 a) (l3_unlock k2 a).
Proof.
  intros k1 k2 a H. unfold l3_unlock. rewrite (l3_locked_equiv k1 k2 a H).
  destruct (l3_locked k2 a); cbn [orel]; [apply l3_setlock_equiv; exact H | exact I].
Qed.

Lemma unlock_all_equiv : forall addrs k1 k2 w, msi_equiv k1 k2 -> orel msi_equiv (unlock_all k1 addrs w) (unlock_all k2 addrs w).
Proof.
  induction addrs as [|a t IH]; intros k1 k2 w H; cbn [unlock_all]; [exact H|].
  rewrite (sem_get_equiv k1 k2 a H).
  destruct (if w then _ else _); cbn [bind orel]; auto. apply IH. apply sem_put_equiv. exact H.
Qed.

Lemma forallb_isdone_equiv : forall k1 k2 l, msi_equiv k1 k2 -> forallb (cmd_isdone k1) l = forallb (cmd_isdone k2) l.
Proof.
  intros k1 k2 l H. induction l as [|c t IH]; [reflexivity|]. cbn [forallb].
  rewrite (cmd_isdone_equiv k1 k2 c H), IH. reflexivity.
Qed.

Lemma set_stale_equiv : forall k1 k2 b, msi_equiv k1 k2 -> msi_equiv (set_states k1 (k_states k1) b) (set_states k2 (k_states k2) b).
Proof.
  intros k1 k2 b H. replace (k_states k2) with (k_states k1) by (destruct H as (_ & B & _); exact B).
  apply set_states_equiv. exact H.
Qed.

Lemma msi_evict_l3_fst : forall k1 k2 id a, msi_equiv k1 k2 -> msi_equiv (fst (msi_evict_l3 k1 id a)) (fst (msi_evict_l3 k2 id a)).
Proof. intros k1 k2 id a H. apply (msi_evict_l3_equiv k1 k2 id a H). Qed.

Lemma msi_evict_l3_snd : forall k1 k2 id a, msi_equiv k1 k2 -> snd (msi_evict_l3 k1 id a) = snd (msi_evict_l3 k2 id a).
Proof. intros k1 k2 id a H. apply (msi_evict_l3_equiv k1 k2 id a H). Qed.

Lemma mk_mw_equiv : forall m l k1 k2, msi_equiv k1 k2 -> mw_equiv (mk_mw m l k1) (mk_mw m l k2).
Proof. intros m l k1 k2 H. unfold mw_equiv. cbn [w_mem w_l3 w_msi]. split; [reflexivity|]. split; [reflexivity | exact H]. Qed.

#[export] Hint Resolve msi_equiv_refl set_sems_equiv set_states_equiv set_stale_equiv set_l3write_aset_equiv sem_put_equiv
  cmd_done_equiv l3_setlock_equiv msi_evict_l3_fst mk_mw_equiv mw_equiv_refl
  run_post_equiv msi_l1rlock_equiv msi_l1lock_equiv msi_evict_l1_equiv l3_unlock_equiv unlock_all_equiv : cong.

Ltac mw_destruct w1 w2 H :=
  destruct w1 as [?m1 ?l1 ?k1], w2 as [?m2 ?l2 ?k2]; unfold mw_equiv in H; cbn [w_mem w_l3 w_msi] in H;
  destruct H as (?Hm & ?Hl & ?Hk); subst.

Ltac my_destruct y1 y2 H :=
  destruct y1 as [?x1 ?k1 ?cp1 ?pf1 ?ccs1], y2 as [?x2 ?k2 ?cp2 ?pf2 ?ccs2]; unfold my_equiv in H;
  cbn [y_x y_msi y_copy y_pref y_ccs] in H; destruct H as (?Hx & ?Hk & ?Hcp & ?Hpf & ?Hccs); subst.

Ltac mw_cbn := cbn [fst snd w_mem w_l3 w_msi set_wmsi set_wl3 set_wmem
                      y_x y_msi y_copy y_pref y_ccs set_x set_ymsi set_ccs mw_of put_mw put_cc or_os8 wbus_connect8 y_os].

(* a hypothesis produced by orel_bind *)
Ltac rel_destruct :=
  repeat match goal with
  | H : wrel3 ?a ?b |- _ =>
      destruct a as [[? ?] ?], b as [[? ?] ?]; unfold wrel3 in H; cbn [fst snd] in H; destruct H as (? & ? & ?); subst
  | H : wrel2 ?a ?b |- _ =>
      destruct a as [? ?], b as [? ?]; unfold wrel2 in H; cbn [fst snd] in H; destruct H as (? & ?); subst
  | H : krel2 ?a ?b |- _ =>
      destruct a as [? ?], b as [? ?]; unfold krel2 in H; cbn [fst snd] in H; destruct H as (? & ?); subst
  | H : yrel3 ?a ?b |- _ =>
      destruct a as [[? ?] ?], b as [[? ?] ?]; unfold yrel3 in H; cbn [fst snd] in H; destruct H as (? & ? & ?); subst
  | H : yrel2 ?a ?b |- _ =>
      destruct a as [? ?], b as [? ?]; unfold yrel2 in H; cbn [fst snd] in H; destruct H as (? & ?); subst
  | H : mw_equiv ?a ?b |- _ => is_var a; is_var b; mw_destruct a b H
  | H : my_equiv ?a ?b |- _ => is_var a; is_var b; my_destruct a b H
  end.

Ltac rel_close :=
  match goal with
  | |- wrel3 _ _ => unfold wrel3; cbn [fst snd]; split; [solve [eauto 12 with cong] | split; reflexivity]
  | |- wrel2 _ _ => unfold wrel2; cbn [fst snd]; split; [solve [eauto 12 with cong] | reflexivity]
  | |- krel2 _ _ => unfold krel2; cbn [fst snd]; split; [solve [eauto 12 with cong] | reflexivity]
  | |- yrel3 _ _ => unfold yrel3; cbn [fst snd]; split; [solve [eauto 12 with cong] | split; reflexivity]
  | |- yrel2 _ _ => unfold yrel2; cbn [fst snd]; split; [solve [eauto 12 with cong] | reflexivity]
  | |- mw_equiv _ _ => solve [eauto 12 with cong]
  | |- my_equiv _ _ => solve [eauto 12 with cong]
  | |- msi_equiv _ _ => solve [eauto 12 with cong]
  end.

Ltac cong1 :=
  match goal with
  | H : msi_equiv ?k1 ?k2 |- context [forallb (cmd_isdone ?k1) ?l] => rewrite (forallb_isdone_equiv k1 k2 l H)
  | H : msi_equiv ?k1 ?k2 |- context [cmd_isdone ?k1 ?c] => rewrite (cmd_isdone_equiv k1 k2 c H)
  | H : msi_equiv ?k1 ?k2 |- context [l3_locked ?k1 ?a] => rewrite (l3_locked_equiv k1 k2 a H)
  | H : msi_equiv ?k1 ?k2 |- context [st_get ?k1 ?i ?a] => rewrite (st_get_equiv k1 k2 i a H)
  | |- orel _ (Ok _) (Ok _) => cbn [orel]; rel_close
  | |- orel _ Panic Panic => exact I
  | |- orel _ (Err _) (Err _) => reflexivity
  | |- orel _ (bind ?m _) (bind ?m _) => destruct m; cbn [bind]
  | |- orel _ (if ?b then _ else _) (if ?b then _ else _) => destruct b
  | |- orel _ (match ?e with _ => _ end) (match ?e with _ => _ end) => destruct e
  | |- orel _ (bind _ _) (bind _ _) => eapply orel_bind; [solve [eauto 12 with cong] | intros ? ? ?Hr; rel_destruct]
  end.

Ltac cong := repeat (mw_cbn; cong1); try solve [eauto 12 with cong].

Ltac mw_start :=
  intros; match goal with H : mw_equiv ?w1 ?w2 |- _ => mw_destruct w1 w2 H end.

Lemma cc_push_l3_equiv : forall w1 w2 addr ln, mw_equiv w1 w2 -> orel wrel2 (cc_push_l3 w1 addr ln) (cc_push_l3 w2 addr ln).
Proof. mw_start. unfold cc_push_l3. cong. Qed.

Lemma cc_write_l3_equiv : forall w1 w2 l1a d, mw_equiv w1 w2 -> orel mw_equiv (cc_write_l3 w1 l1a d) (cc_write_l3 w2 l1a d).
Proof. mw_start. unfold cc_write_l3. cong. Qed.

#[export] Hint Resolve cc_push_l3_equiv cc_write_l3_equiv : cong.

Lemma rd_stay_equiv : forall w1 w2 c s, mw_equiv w1 w2 -> orel wrel3 (rd_stay w1 c s) (rd_stay w2 c s).
Proof. mw_start. unfold rd_stay. cong. Qed.
#[export] Hint Resolve rd_stay_equiv : cong.

Lemma rd_fin_equiv : forall w1 w2 c addrs data, mw_equiv w1 w2 -> orel wrel3 (rd_fin w1 c addrs data) (rd_fin w2 c addrs data).
Proof. mw_start. unfold rd_fin. cong. Qed.
#[export] Hint Resolve rd_fin_equiv : cong.

Lemma rd_l1wait_equiv : forall w1 w2 c addrs rem data, mw_equiv w1 w2 ->
  orel wrel3 (rd_l1wait w1 c addrs rem data) (rd_l1wait w2 c addrs rem data).
Proof. mw_start. unfold rd_l1wait. cong. Qed.
#[export] Hint Resolve rd_l1wait_equiv : cong.

Lemma rd_from_l1_equiv : forall w1 w2 c addrs, mw_equiv w1 w2 -> orel wrel3 (rd_from_l1 w1 c addrs) (rd_from_l1 w2 c addrs).
Proof. mw_start. unfold rd_from_l1. cong. Qed.
#[export] Hint Resolve rd_from_l1_equiv : cong.

Lemma rd_evict_wait_equiv : forall w1 w2 c addrs cmd, mw_equiv w1 w2 ->
  orel wrel3 (rd_evict_wait w1 c addrs cmd) (rd_evict_wait w2 c addrs cmd).
Proof. mw_start. unfold rd_evict_wait. cong. Qed.
#[export] Hint Resolve rd_evict_wait_equiv : cong.

Lemma rd_push_l1_equiv : forall w1 w2 c addrs l1a l1dt, mw_equiv w1 w2 ->
  orel wrel3 (rd_push_l1 w1 c addrs l1a l1dt) (rd_push_l1 w2 c addrs l1a l1dt).
Proof. mw_start. unfold rd_push_l1. cong. Qed.
#[export] Hint Resolve rd_push_l1_equiv : cong.

Lemma rd_sync_equiv : forall w1 w2 c addrs, mw_equiv w1 w2 -> orel wrel3 (rd_sync w1 c addrs) (rd_sync w2 c addrs).
Proof. mw_start. unfold rd_sync. cong. Qed.
#[export] Hint Resolve rd_sync_equiv : cong.

Lemma rd_l3push_equiv : forall w1 w2 c addrs rem l3a l3d, mw_equiv w1 w2 ->
  orel wrel3 (rd_l3push w1 c addrs rem l3a l3d) (rd_l3push w2 c addrs rem l3a l3d).
Proof.
  mw_start. unfold rd_l3push. cong.
  match goal with |- context [match ?o with Some _ => _ | None => _ end] => destruct o end; cong.
Qed.
#[export] Hint Resolve rd_l3push_equiv : cong.

Lemma rd_l3lock_equiv : forall w1 w2 c addrs l3a l3d, mw_equiv w1 w2 ->
  orel wrel3 (rd_l3lock w1 c addrs l3a l3d) (rd_l3lock w2 c addrs l3a l3d).
Proof. mw_start. unfold rd_l3lock. cong. Qed.
#[export] Hint Resolve rd_l3lock_equiv : cong.

Lemma rd_memwait_equiv : forall w1 w2 c addrs rem l3a l3d, mw_equiv w1 w2 ->
  orel wrel3 (rd_memwait w1 c addrs rem l3a l3d) (rd_memwait w2 c addrs rem l3a l3d).
Proof. mw_start. unfold rd_memwait. cong. Qed.
#[export] Hint Resolve rd_memwait_equiv : cong.

Lemma rd_l3wait_equiv : forall w1 w2 c addrs rem, mw_equiv w1 w2 ->
  orel wrel3 (rd_l3wait w1 c addrs rem) (rd_l3wait w2 c addrs rem).
Proof. mw_start. unfold rd_l3wait. cong. Qed.
#[export] Hint Resolve rd_l3wait_equiv : cong.

Lemma rd_pend_equiv : forall w1 w2 c addrs rk pend, mw_equiv w1 w2 ->
  orel wrel3 (rd_pend w1 c addrs rk pend) (rd_pend w2 c addrs rk pend).
Proof. mw_start. unfold rd_pend. cong. Qed.
#[export] Hint Resolve rd_pend_equiv : cong.

Lemma rd_start_equiv : forall w1 w2 c addrs, mw_equiv w1 w2 -> orel wrel3 (rd_start w1 c addrs) (rd_start w2 c addrs).
Proof. mw_start. unfold rd_start. cong. Qed.
#[export] Hint Resolve rd_start_equiv : cong.

Theorem cc_read_cycle_equiv : forall w1 w2 c addrs, mw_equiv w1 w2 ->
  orel wrel3 (cc_read_cycle w1 c addrs) (cc_read_cycle w2 c addrs).
Proof. intros. unfold cc_read_cycle. destruct (c_read c); eauto 12 with cong. Qed.
#[export] Hint Resolve cc_read_cycle_equiv : cong.

Lemma wr_stay_equiv : forall w1 w2 c s, mw_equiv w1 w2 -> orel wrel3 (wr_stay w1 c s) (wr_stay w2 c s).
Proof. mw_start. unfold wr_stay. cong. Qed.
#[export] Hint Resolve wr_stay_equiv : cong.

Lemma wr_fin_equiv : forall w1 w2 c addrs data, mw_equiv w1 w2 -> orel wrel3 (wr_fin w1 c addrs data) (wr_fin w2 c addrs data).
Proof. mw_start. unfold wr_fin. cong. Qed.
#[export] Hint Resolve wr_fin_equiv : cong.

Lemma wr_final_equiv : forall w1 w2 c addrs data rem, mw_equiv w1 w2 ->
  orel wrel3 (wr_final w1 c addrs data rem) (wr_final w2 c addrs data rem).
Proof. mw_start. unfold wr_final. cong. Qed.
#[export] Hint Resolve wr_final_equiv : cong.

Lemma wr_to_l1_equiv : forall w1 w2 c addrs data, mw_equiv w1 w2 -> orel wrel3 (wr_to_l1 w1 c addrs data) (wr_to_l1 w2 c addrs data).
Proof. intros. unfold wr_to_l1. eauto 12 with cong. Qed.
#[export] Hint Resolve wr_to_l1_equiv : cong.

Lemma wr_to_l1_after_equiv : forall w1 w2 c addrs data rem, mw_equiv w1 w2 ->
  orel wrel3 (wr_to_l1_after w1 c addrs data rem) (wr_to_l1_after w2 c addrs data rem).
Proof. mw_start. unfold wr_to_l1_after. cong. Qed.
#[export] Hint Resolve wr_to_l1_after_equiv : cong.

Lemma wr_evict_wait_equiv : forall w1 w2 c addrs data cmd, mw_equiv w1 w2 ->
  orel wrel3 (wr_evict_wait w1 c addrs data cmd) (wr_evict_wait w2 c addrs data cmd).
Proof. mw_start. unfold wr_evict_wait. cong. Qed.
#[export] Hint Resolve wr_evict_wait_equiv : cong.

Lemma wr_push_l1_equiv : forall w1 w2 c addrs data l1a l1dt, mw_equiv w1 w2 ->
  orel wrel3 (wr_push_l1 w1 c addrs data l1a l1dt) (wr_push_l1 w2 c addrs data l1a l1dt).
Proof. mw_start. unfold wr_push_l1. cong. Qed.
#[export] Hint Resolve wr_push_l1_equiv : cong.

Lemma wr_l1push_equiv : forall w1 w2 c addrs data rem l1a l1dt, mw_equiv w1 w2 ->
  orel wrel3 (wr_l1push w1 c addrs data rem l1a l1dt) (wr_l1push w2 c addrs data rem l1a l1dt).
Proof. mw_start. unfold wr_l1push. cong. Qed.
#[export] Hint Resolve wr_l1push_equiv : cong.

Lemma wr_sync_equiv : forall w1 w2 c addrs data, mw_equiv w1 w2 -> orel wrel3 (wr_sync w1 c addrs data) (wr_sync w2 c addrs data).
Proof. mw_start. unfold wr_sync. cong. Qed.
#[export] Hint Resolve wr_sync_equiv : cong.

Lemma wr_l3evict_wait_equiv : forall w1 w2 c addrs data cmd, mw_equiv w1 w2 ->
  orel wrel3 (wr_l3evict_wait w1 c addrs data cmd) (wr_l3evict_wait w2 c addrs data cmd).
Proof. mw_start. unfold wr_l3evict_wait. cong. Qed.
#[export] Hint Resolve wr_l3evict_wait_equiv : cong.

Lemma wr_l3wait_equiv : forall w1 w2 c addrs data rem l3a l3d, mw_equiv w1 w2 ->
  orel wrel3 (wr_l3wait w1 c addrs data rem l3a l3d) (wr_l3wait w2 c addrs data rem l3a l3d).
Proof.
  mw_start. unfold wr_l3wait. cong.
  match goal with H : msi_equiv ?a ?b |- context [snd (msi_evict_l3 ?a ?i ?x)] => rewrite (msi_evict_l3_snd a b i x H) end.
  cong.
Qed.
#[export] Hint Resolve wr_l3wait_equiv : cong.

Lemma wr_memwait_equiv : forall w1 w2 c addrs data rem l3a l3d, mw_equiv w1 w2 ->
  orel wrel3 (wr_memwait w1 c addrs data rem l3a l3d) (wr_memwait w2 c addrs data rem l3a l3d).
Proof. mw_start. unfold wr_memwait. cong. Qed.
#[export] Hint Resolve wr_memwait_equiv : cong.

Lemma wr_pend_equiv : forall w1 w2 c addrs data rk pend, mw_equiv w1 w2 ->
  orel wrel3 (wr_pend w1 c addrs data rk pend) (wr_pend w2 c addrs data rk pend).
Proof. mw_start. unfold wr_pend. cong. Qed.
#[export] Hint Resolve wr_pend_equiv : cong.

Lemma wr_start_equiv : forall w1 w2 c addrs data, mw_equiv w1 w2 -> orel wrel3 (wr_start w1 c addrs data) (wr_start w2 c addrs data).
Proof. mw_start. unfold wr_start. cong. Qed.
#[export] Hint Resolve wr_start_equiv : cong.

Theorem cc_write_cycle_equiv : forall w1 w2 c addrs data, mw_equiv w1 w2 ->
  orel wrel3 (cc_write_cycle w1 c addrs data) (cc_write_cycle w2 c addrs data).
Proof. intros. unfold cc_write_cycle. destruct (c_write c); eauto 12 with cong. Qed.
#[export] Hint Resolve cc_write_cycle_equiv : cong.

Lemma sn_step_equiv : forall w1 w2 c s, mw_equiv w1 w2 -> orel wrel3 (sn_step w1 c s) (sn_step w2 c s).
Proof. mw_start. unfold sn_step. destruct s; cong. Qed.
#[export] Hint Resolve sn_step_equiv : cong.

Lemma sn_run_equiv : forall l w1 w2 c, mw_equiv w1 w2 -> orel wrel3 (sn_run w1 c l) (sn_run w2 c l).
Proof.
  induction l as [|s t IH]; intros w1 w2 c H; cbn [sn_run].
  - cong.
  - cong.
Qed.
#[export] Hint Resolve sn_run_equiv : cong.

Lemma sn_create_equiv : forall w1 w2 c key cid, mw_equiv w1 w2 -> orel wrel2 (sn_create w1 c key cid) (sn_create w2 c key cid).
Proof. mw_start. unfold sn_create. cong. Qed.
#[export] Hint Resolve sn_create_equiv : cong.

Lemma sn_create_all_equiv : forall reqs w1 w2 c, mw_equiv w1 w2 -> orel wrel2 (sn_create_all w1 c reqs) (sn_create_all w2 c reqs).
Proof.
  induction reqs as [|[key cid] t IH]; intros w1 w2 c H; cbn [sn_create_all]; cong.
Qed.
#[export] Hint Resolve sn_create_all_equiv : cong.

Theorem cc_snoop_cycle_equiv : forall ord cycle w1 w2 c, mw_equiv w1 w2 ->
  fst (cc_snoop_cycle ord cycle w1 c) = fst (cc_snoop_cycle ord cycle w2 c) /\
  orel wrel2 (snd (cc_snoop_cycle ord cycle w1 c)) (snd (cc_snoop_cycle ord cycle w2 c)).
Proof.
  intros ord cycle w1 w2 c H. unfold cc_snoop_cycle. destruct (c_snoop c) as [|s0 t0]; cbn [fst snd].
  - replace (k_cmds (w_msi w2)) with (k_cmds (w_msi w1)) by (destruct H as (_ & _ & (_ & _ & _ & C & _)); exact C).
    split; [reflexivity|]. eauto 12 with cong.
  - split; [reflexivity|]. cong.
Qed.

Theorem snoops_cycle_equiv : forall ord cycle ccs w1 w2, mw_equiv w1 w2 ->
  fst (snoops_cycle ord cycle w1 ccs) = fst (snoops_cycle ord cycle w2 ccs) /\
  orel wrel2 (snd (snoops_cycle ord cycle w1 ccs)) (snd (snoops_cycle ord cycle w2 ccs)).
Proof.
  intros ord cycle. induction ccs as [|c t IH]; intros w1 w2 H; cbn [snoops_cycle].
  - cbn [fst snd]. split; [reflexivity|]. cong.
  - destruct (cc_snoop_cycle_equiv ord cycle w1 w2 c H) as [F S].
    destruct (cc_snoop_cycle ord cycle w1 c) as [os1 r1], (cc_snoop_cycle ord cycle w2 c) as [os2 r2].
    cbn [fst snd] in F, S. subst os2.
    destruct r1 as [[wa ca]|e1|], r2 as [[wb cb]|e2|]; cbn [orel] in S; try contradiction.
    + destruct S as [S1 S2]. cbn [fst snd] in S1, S2. subst cb.
      destruct (IH wa wb S1) as [F2 S2].
      destruct (snoops_cycle ord cycle wa t) as [osa ra], (snoops_cycle ord cycle wb t) as [osb rb].
      cbn [fst snd] in F2, S2 |- *. subst osb. split; [reflexivity|].
      eapply orel_bind; [exact S2|]. intros a b R. rel_destruct. cong.
    + subst e2. cbn [fst snd orel]. split; reflexivity.
    + cbn [fst snd orel]. split; [reflexivity | exact I].
Qed.

Lemma cc_flush_equiv : forall k1 k2 c, msi_equiv k1 k2 -> orel krel2 (cc_flush k1 c) (cc_flush k2 c).
Proof. intros k1 k2 c H. unfold cc_flush. cong. Qed.
#[export] Hint Resolve cc_flush_equiv : cong.

Lemma cc_writeback_lines_equiv : forall ls w1 w2 id cycles, mw_equiv w1 w2 ->
  orel wrel2 (cc_writeback_lines ls w1 id cycles) (cc_writeback_lines ls w2 id cycles).
Proof.
  induction ls as [|l t IH]; intros w1 w2 id cycles H; cbn [cc_writeback_lines].
  - cong.
  - mw_destruct w1 w2 H. cong.
Qed.
#[export] Hint Resolve cc_writeback_lines_equiv : cong.

Lemma cc_writeback_equiv : forall w1 w2 c, mw_equiv w1 w2 -> orel wrel2 (cc_writeback w1 c) (cc_writeback w2 c).
Proof. intros. unfold cc_writeback. cong. Qed.
#[export] Hint Resolve cc_writeback_equiv : cong.

Lemma ccs_writeback_equiv : forall ccs w1 w2 cycles, mw_equiv w1 w2 ->
  orel wrel2 (ccs_writeback w1 ccs cycles) (ccs_writeback w2 ccs cycles).
Proof.
  induction ccs as [|c t IH]; intros w1 w2 cycles H; cbn [ccs_writeback]; cong.
Qed.
#[export] Hint Resolve ccs_writeback_equiv : cong.

Lemma l3_writeback_lines_equiv : forall ls w1 w2 cycles, mw_equiv w1 w2 ->
  orel wrel2 (l3_writeback_lines ls w1 cycles) (l3_writeback_lines ls w2 cycles).
Proof.
  induction ls as [|l t IH]; intros w1 w2 cycles H; cbn [l3_writeback_lines].
  - cong.
  - mw_destruct w1 w2 H. cong.
Qed.
#[export] Hint Resolve l3_writeback_lines_equiv : cong.

Lemma mk_my_equiv : forall x k1 k2 cp pf ccs, msi_equiv k1 k2 -> my_equiv (mk_my x k1 cp pf ccs) (mk_my x k2 cp pf ccs).
Proof.
  intros x k1 k2 cp pf ccs H. unfold my_equiv. cbn [y_x y_msi y_copy y_pref y_ccs].
  split; [reflexivity|]. split; [exact H|]. split; [reflexivity|]. split; reflexivity.
Qed.
#[export] Hint Resolve mk_my_equiv my_equiv_refl : cong.

Ltac my_start :=
  intros; match goal with H : my_equiv ?y1 ?y2 |- _ => my_destruct y1 y2 H end.

Lemma mw_of_equiv : forall y1 y2, my_equiv y1 y2 -> mw_equiv (mw_of y1) (mw_of y2).
Proof. my_start. mw_cbn. eauto 12 with cong. Qed.

Lemma put_mw_equiv : forall y1 y2 w1 w2, my_equiv y1 y2 -> mw_equiv w1 w2 -> my_equiv (put_mw y1 w1) (put_mw y2 w2).
Proof. my_start. rel_destruct. mw_cbn. eauto 12 with cong. Qed.

Lemma put_cc_equiv : forall y1 y2 i c, my_equiv y1 y2 -> my_equiv (put_cc y1 i c) (put_cc y2 i c).
Proof. my_start. mw_cbn. eauto 12 with cong. Qed.

Lemma set_x_equiv : forall y1 y2 x, my_equiv y1 y2 -> my_equiv (set_x y1 x) (set_x y2 x).
Proof. my_start. mw_cbn. eauto 12 with cong. Qed.

Lemma set_ymsi_equiv : forall y1 y2 k1 k2, my_equiv y1 y2 -> msi_equiv k1 k2 -> my_equiv (set_ymsi y1 k1) (set_ymsi y2 k2).
Proof. my_start. mw_cbn. eauto 12 with cong. Qed.

Lemma set_ccs_equiv : forall y1 y2 l, my_equiv y1 y2 -> my_equiv (set_ccs y1 l) (set_ccs y2 l).
Proof. my_start. mw_cbn. eauto 12 with cong. Qed.

Lemma eu_preference8_equiv : forall y1 y2 r, my_equiv y1 y2 -> eu_preference8 y1 r = eu_preference8 y2 r.
Proof. my_start. reflexivity. Qed.

Lemma cu_cycle8_equiv : forall ord cycle y1 y2, my_equiv y1 y2 -> my_equiv (cu_cycle8 ord cycle y1) (cu_cycle8 ord cycle y2).
Proof.
  my_start. msi_destruct k1 k2 Hk. unfold cu_cycle8. mw_cbn. msi_fields.
  destruct sl2.
  - apply mk_my_equiv. msi_close.
  - apply mk_my_equiv. msi_close.
Qed.
#[export] Hint Resolve cu_cycle8_equiv : cong.

Lemma front8_equiv : forall app ord cycle y1 y2, my_equiv y1 y2 -> orel my_equiv (front8 app ord cycle y1) (front8 app ord cycle y2).
Proof. my_start. unfold front8. cong. Qed.
#[export] Hint Resolve front8_equiv : cong.

Lemma snoops8_equiv : forall ord cycle y1 y2, my_equiv y1 y2 -> orel my_equiv (snoops8 ord cycle y1) (snoops8 ord cycle y2).
Proof.
  my_start. unfold snoops8. mw_cbn.
  match goal with |- orel _ (let '(_, _) := snoops_cycle _ _ ?wa ?cs in _) (let '(_, _) := snoops_cycle _ _ ?wb _ in _) =>
    assert (W : mw_equiv wa wb) by eauto 12 with cong;
    destruct (snoops_cycle_equiv ord cycle cs wa wb W) as [F S];
    destruct (snoops_cycle ord cycle wa cs) as [osa ra], (snoops_cycle ord cycle wb cs) as [osb rb]
  end.
  cbn [fst snd] in F, S. subst osb.
  eapply orel_bind; [exact S|]. intros a b R. rel_destruct. cong.
Qed.
#[export] Hint Resolve snoops8_equiv : cong.

Lemma eu_flush8_equiv : forall y1 y2 i e, my_equiv y1 y2 -> orel yrel2 (eu_flush8 y1 i e) (eu_flush8 y2 i e).
Proof. my_start. unfold eu_flush8. cong. Qed.
#[export] Hint Resolve eu_flush8_equiv : cong.

Lemma eu_write8_equiv : forall y1 y2 i e addrs data, my_equiv y1 y2 ->
  orel yrel3 (eu_write8 y1 i e addrs data) (eu_write8 y2 i e addrs data).
Proof. my_start. unfold eu_write8. cong. Qed.
#[export] Hint Resolve eu_write8_equiv : cong.

Lemma eu_run8_equiv : forall labels ord cycle y1 y2 i e, my_equiv y1 y2 ->
  orel yrel3 (eu_run8 labels ord cycle y1 i e) (eu_run8 labels ord cycle y2 i e).
Proof. my_start. unfold eu_run8. cong. Qed.
#[export] Hint Resolve eu_run8_equiv : cong.

Lemma eu_read8_equiv : forall labels ord cycle y1 y2 i e addrs, my_equiv y1 y2 ->
  orel yrel3 (eu_read8 labels ord cycle y1 i e addrs) (eu_read8 labels ord cycle y2 i e addrs).
Proof. my_start. unfold eu_read8. cong. Qed.
#[export] Hint Resolve eu_read8_equiv : cong.

Lemma eu_prepare8_equiv : forall labels ord cycle y1 y2 i e, my_equiv y1 y2 ->
  orel yrel3 (eu_prepare8 labels ord cycle y1 i e) (eu_prepare8 labels ord cycle y2 i e).
Proof. my_start. unfold eu_prepare8. cong. Qed.
#[export] Hint Resolve eu_prepare8_equiv : cong.

Lemma eu_pending8_equiv : forall y1 y2 e, my_equiv y1 y2 -> eu_pending8 y1 e = eu_pending8 y2 e.
Proof. my_start. reflexivity. Qed.

Lemma eu_cycle8_equiv : forall labels ord cycle y1 y2 i e, my_equiv y1 y2 ->
  orel yrel3 (eu_cycle8 labels ord cycle y1 i e) (eu_cycle8 labels ord cycle y2 i e).
Proof. my_start. unfold eu_cycle8, eu_pending8. cong. Qed.
#[export] Hint Resolve eu_cycle8_equiv : cong.

Lemma eus_main8_equiv : forall labels ord cycle eus y1 y2 i acc, my_equiv y1 y2 ->
  orel yrel3 (eus_main8 labels ord cycle y1 i eus acc) (eus_main8 labels ord cycle y2 i eus acc).
Proof.
  intros labels ord cycle. induction eus as [|e t IH]; intros y1 y2 i acc H; cbn [eus_main8]; cong.
Qed.
#[export] Hint Resolve eus_main8_equiv : cong.

Lemma eus_drain8_equiv : forall labels ord cycle eus y1 y2 i, my_equiv y1 y2 ->
  orel yrel3 (eus_drain8 labels ord cycle y1 i eus) (eus_drain8 labels ord cycle y2 i eus).
Proof.
  intros labels ord cycle. induction eus as [|e t IH]; intros y1 y2 i H; cbn [eus_drain8]; cong.
Qed.
#[export] Hint Resolve eus_drain8_equiv : cong.

Lemma eus_flush8_equiv : forall labels ord from eus y1 y2 i acc, my_equiv y1 y2 ->
  orel yrel3 (eus_flush8 labels ord from y1 i eus acc) (eus_flush8 labels ord from y2 i eus acc).
Proof.
  intros labels ord from. induction eus as [|e t IH]; intros y1 y2 i acc H; cbn [eus_flush8];
    [|rewrite (eu_pending8_equiv y1 y2 e H)]; cong.
Qed.
#[export] Hint Resolve eus_flush8_equiv : cong.

Lemma eus_final8_equiv : forall labels ord cycle eus y1 y2 i, my_equiv y1 y2 ->
  orel yrel3 (eus_final8 labels ord cycle y1 i eus) (eus_final8 labels ord cycle y2 i eus).
Proof.
  intros labels ord cycle. induction eus as [|e t IH]; intros y1 y2 i H; cbn [eus_final8].
  - cong.
  - replace (y_ccs y2) with (y_ccs y1) by (destruct H as (_ & _ & _ & _ & C); exact C). cong.
Qed.
#[export] Hint Resolve eus_final8_equiv : cong.

Lemma eus_flush_all8_equiv : forall eus y1 y2 i, my_equiv y1 y2 ->
  orel yrel2 (eus_flush_all8 y1 i eus) (eus_flush_all8 y2 i eus).
Proof.
  induction eus as [|e t IH]; intros y1 y2 i H; cbn [eus_flush_all8]; cong.
Qed.
#[export] Hint Resolve eus_flush_all8_equiv : cong.

(* the end of Run: the results are EQUAL *)
Theorem finish8_equiv : forall ord y1 y2 cycle, my_equiv y1 y2 -> finish8 ord y1 cycle = finish8 ord y2 cycle.
Proof.
  my_start. unfold finish8.
  match goal with |- match ?A with _ => _ end = match ?B with _ => _ end =>
    assert (R : orel wrel2 A B) by cong; destruct A as [[wa ca]|ea|], B as [[wb cb]|eb|]; cbn [orel] in R; try contradiction;
    try reflexivity
  end.
  destruct R as [R1 R2]. cbn [fst snd] in R1, R2. subst cb. mw_destruct wa wb R1. mw_cbn. reflexivity.
Qed.

Lemma wbus_connect8_equiv : forall y1 y2 cycle, my_equiv y1 y2 -> my_equiv (wbus_connect8 y1 cycle) (wbus_connect8 y2 cycle).
Proof. my_start. mw_cbn. eauto 12 with cong. Qed.

Lemma mk_st8_equiv : forall y1 y2 eus wus cycle mode, my_equiv y1 y2 ->
  st_equiv (mk_st8 y1 eus wus cycle mode) (mk_st8 y2 eus wus cycle mode).
Proof.
  intros. unfold st_equiv. cbn [v_y v_eus v_wus v_cycle v_mode].
  split; [assumption|]. split; [reflexivity|]. split; [reflexivity|]. split; reflexivity.
Qed.
#[export] Hint Resolve mk_st8_equiv : cong.

Lemma yrel3_mk : forall B C y1 y2 (b : B) (c : C), my_equiv y1 y2 -> yrel3 (y1, b, c) (y2, b, c).
Proof. intros. unfold yrel3. cbn [fst snd]. split; [assumption|]. split; reflexivity. Qed.
#[export] Hint Resolve yrel3_mk : cong.

Ltac st_destruct s1 s2 H :=
  destruct s1 as [?y1 ?eus1 ?wus1 ?cyc1 ?md1], s2 as [?y2 ?eus2 ?wus2 ?cyc2 ?md2]; unfold st_equiv in H;
  cbn [v_y v_eus v_wus v_cycle v_mode] in H; destruct H as (?Hy & ?He & ?Hw & ?Hc & ?Hmd); subst;
  match goal with Hy : my_equiv ?a ?b |- _ => my_destruct a b Hy end.

Ltac st_start := intros; match goal with H : st_equiv ?s1 ?s2 |- _ => st_destruct s1 s2 H end.

Ltac st_cbn := try unfold y_os; cbn [v_y v_eus v_wus v_cycle v_mode]; mw_cbn.

Lemma res_of8_equiv : forall A (R : A -> A -> Prop) os o1 o2 k1 k2,
  orel R o1 o2 -> (forall a b, R a b -> res_equiv (k1 a) (k2 b)) -> res_equiv (res_of8 os o1 k1) (res_of8 os o2 k2).
Proof.
  intros A R os [a|e|] [b|e'|] k1 k2 H K; cbn [orel res_of8 res_equiv] in *; try contradiction; auto.
  subst. auto.
Qed.

Ltac rcong1 :=
  match goal with
  | |- res_equiv (VDone _ _) (VDone _ _) =>
      cbn [res_equiv]; split; [first [reflexivity | apply finish8_equiv; solve [eauto 12 with cong]] | reflexivity]
  | |- res_equiv (VCont _) (VCont _) => cbn [res_equiv]; solve [eauto 12 with cong]
  | |- res_equiv (res_of8 ?os ?o _) (res_of8 ?os ?o _) => destruct o; cbn [res_of8]
  | |- res_equiv (if ?b then _ else _) (if ?b then _ else _) => destruct b
  | |- res_equiv (match ?e with _ => _ end) (match ?e with _ => _ end) => destruct e
  | |- res_equiv (res_of8 _ _ _) (res_of8 _ _ _) =>
      eapply res_of8_equiv; [solve [eauto 12 with cong] | intros ? ? ?Hr; rel_destruct]
  end.

Ltac rcong := repeat (st_cbn; rcong1); try solve [eauto 12 with cong].

Lemma ret_check8_equiv : forall s1 s2, st_equiv s1 s2 -> res_equiv (ret_check8 s1) (ret_check8 s2).
Proof. st_start. unfold ret_check8. rcong. Qed.
#[export] Hint Resolve ret_check8_equiv : cong.

Lemma flush_advance8_equiv : forall s1 s2 k seq pc from empty, st_equiv s1 s2 ->
  res_equiv (flush_advance8 s1 k seq pc from empty) (flush_advance8 s2 k seq pc from empty).
Proof. st_start. unfold flush_advance8. rcong. Qed.
#[export] Hint Resolve flush_advance8_equiv : cong.

Lemma back8_equiv : forall s1 s2 cycle z1 z2, st_equiv s1 s2 -> yrel3 z1 z2 ->
  res_equiv (back8 s1 cycle z1) (back8 s2 cycle z2).
Proof. st_start. rel_destruct. unfold back8. rcong. Qed.
#[export] Hint Resolve back8_equiv : cong.

Theorem step8_equiv : forall app labels ord s1 s2, st_equiv s1 s2 ->
  res_equiv (step8 app labels ord s1) (step8 app labels ord s2).
Proof.
  st_start. unfold step8. st_cbn. destruct md2.
  - rcong.
  - rcong.
  - rcong.
  - rcong.
  - rcong.
Qed.

Theorem run8_st_equiv : forall fuel app labels ord s1 s2, st_equiv s1 s2 ->
  match run8_st fuel app labels ord s1, run8_st fuel app labels ord s2 with
  | inl r1, inl r2 => r1 = r2
  | inr a, inr b => st_equiv a b
  | _, _ => False
  end.
Proof.
  induction fuel as [|f IH]; intros app labels ord s1 s2 H; cbn [run8_st]; [exact H|].
  pose proof (step8_equiv app labels ord s1 s2 H) as S.
  destruct (step8 app labels ord s1) as [r1 os1|s1'], (step8 app labels ord s2) as [r2 os2|s2']; cbn [res_equiv] in S;
    try contradiction.
  - destruct S as [-> ->]. reflexivity.
  - apply IH. exact S.
Qed.

Print Assumptions step8_equiv.
Print Assumptions run8_st_equiv.
