(* The invariant of the MVP-5 skeleton (Mvp5Skel.v), and the units of the MVP-5
   front end expressed through those of MVP-4.

   The in-flight queue of MVP-4 (execute unit ++ execute bus ++ decode bus, the
   fetch unit continuing it) is split in two:
     - the DECODED part  A = execute unit ++ execute bus: consecutive pcs starting
       at the head of the path, an unconditional jump can only be its last entry,
       and the decode unit is stalled (pendingBranchResolution) iff it is;
     - the FETCHED part: the decode bus AS THE FETCH UNIT WILL SEE IT (emptied if
       the clean flag is set) and the fetch unit: consecutive pcs starting at some
       g; g continues A when the decode unit is not stalled; when it is stalled g
       is arbitrary (a sequential successor of the jump or a BTB prediction,
       possibly wrong) - that part is thrown away when the jump executes. *)
From Coq Require Import ZArith List Bool Lia.
From Maj Require Import Base.Outcome Base.GoInt Base.GoTypes Isa.Spec Isa.Embed Isa.Seq Isa.Refine.
From Maj Require Import Gen.Latency Gen.RiscTables Gen.Opcodes Comp.Cache.
From Maj Require Import Mvp.Mvp12 Mvp.Mvp12Proofs Mvp.Mvp3 Mvp.Mvp3Proofs Mvp.Mvp4 Mvp.Mvp5
     Mvp.Mvp4Skel Mvp.Mvp4Inv Mvp.Mvp4Units Mvp.Mvp4Front Mvp.Mvp5Skel.
Import ListNotations.
Open Scope Z_scope.

(* the fetch unit of MVP-5 is the one of MVP-4 behind the clean flag *)
Definition to4 (f : fu5_t) : fu_t := mk_fu (f5_pc f) (f5_remaining f) (f5_complete f) (f5_processing f).
Definition of4 (f : fu_t) : fu5_t := mk_fu5 (fu_pc f) (fu_remaining f) (fu_complete f) (fu_processing f) false.
Definition dclean (f : fu5_t) (dbus : sbus Z) : sbus Z := if f5_clean f then sbus_empty else dbus.

Lemma to4_of4 f : to4 (of4 f) = f.
Proof. destruct f; reflexivity. Qed.

Lemma fu5_cycle_to4 app f l1i dbus :
  fu5_cycle app f l1i dbus =
  match fu_cycle app (to4 f) l1i (dclean f dbus) with
  | Ok (f', c, d) => Ok (of4 f', c, d)
  | Err e => Err e
  | Panic => Panic
  end.
Proof.
  destruct f as [pc rem cpl proc cl]. unfold fu5_cycle, fu_cycle, to4, dclean, of4.
  cbn [f5_pc f5_remaining f5_complete f5_processing f5_clean fu_pc fu_remaining fu_complete fu_processing].
  destruct cpl; [reflexivity|].
  destruct proc.
  - cbn [bind f5_pc f5_remaining f5_complete f5_processing fu_pc fu_remaining fu_complete fu_processing].
    destruct (rem - 1 =? 0); [destruct (sbus_can_add _)|]; reflexivity.
  - destruct (get_all l1i [pc] []) as [[c1 [bs|]]| |]; cbn [bind]; try reflexivity.
    + cbn [f5_pc f5_remaining f5_complete f5_processing fu_pc fu_remaining fu_complete fu_processing].
      destruct (1 - 1 =? 0); [destruct (sbus_can_add _)|]; reflexivity.
    + destruct (push_line c1 pc _) as [p| |]; cbn [bind]; reflexivity.
Qed.

Lemma fu5_cycle_inv app f l1i dbus fu1 l1i1 dbus1 :
  fu5_cycle app f l1i dbus = Ok (fu1, l1i1, dbus1) ->
  fu_cycle app (to4 f) l1i (dclean f dbus) = Ok (to4 fu1, l1i1, dbus1) /\ f5_clean fu1 = false.
Proof.
  rewrite fu5_cycle_to4. destruct (fu_cycle app (to4 f) l1i (dclean f dbus)) as [[[f' c] d]| |]; try discriminate.
  intros H. injection H as <- <- <-. rewrite to4_of4. split; reflexivity.
Qed.

Lemma du5_stalled app dbus ebus : du5_cycle app true dbus ebus = Ok (true, dbus, ebus).
Proof. reflexivity. Qed.

Lemma du5_false app dbus ebus du1 dbus2 ebus1 :
  du5_cycle app false dbus ebus = Ok (du1, dbus2, ebus1) ->
  du_cycle app dbus ebus = Ok (dbus2, ebus1) /\
  ((du1 = false /\ ebus1 = ebus) \/
   (exists i p, sbus_can_add ebus = true /\ ebus1 = sbus_add ebus (i, p) /\ du1 = uncond i)).
Proof.
  unfold du5_cycle, du_cycle. destruct (negb (sbus_can_add ebus)) eqn:Ea.
  { intros H. injection H as <- <- <-. auto. }
  apply negb_false_iff in Ea.
  destruct (sbus_get dbus) as [dbus' got]. destruct got as [pc|].
  2:{ intros H. injection H as <- <- <-. auto. }
  destruct (nlen app <=? Z.quot pc 4). { intros H. injection H as <- <- <-. auto. }
  destruct (Z.quot pc 4 <? 0); [discriminate|].
  destruct (nth_error app (Z.to_nat (Z.quot pc 4))) as [i|]; [|discriminate].
  intros H. injection H as <- <- <-. split; [reflexivity|]. right. exists i, pc. auto.
Qed.

Lemma du5_false_ok app dbus ebus dbus2 ebus1 :
  du_cycle app dbus ebus = Ok (dbus2, ebus1) -> exists du1, du5_cycle app false dbus ebus = Ok (du1, dbus2, ebus1).
Proof.
  unfold du5_cycle, du_cycle. destruct (negb (sbus_can_add ebus)).
  { intros H. injection H as <- <-. eauto. }
  destruct (sbus_get dbus) as [dbus' got]. destruct got as [pc|].
  2:{ intros H. injection H as <- <-. eauto. }
  destruct (nlen app <=? Z.quot pc 4). { intros H. injection H as <- <-. eauto. }
  destruct (Z.quot pc 4 <? 0); [discriminate|].
  destruct (nth_error app (Z.to_nat (Z.quot pc 4))) as [i|]; [|discriminate].
  intros H. injection H as <- <-. eauto.
Qed.

Definition nonunc (x : instr * Z) : Prop := uncond (fst x) = false.

Inductive du_ok : bool -> list (instr * Z) -> Prop :=
| DU_plain A : Forall nonunc A -> du_ok false A
| DU_jump A j : Forall nonunc A -> uncond (fst j) = true -> du_ok true (A ++ [j]).

Lemma du_ok_false A : du_ok false A -> Forall nonunc A.
Proof. intros H. inversion H. assumption. Qed.

Lemma du_ok_true A : du_ok true A -> A <> [].
Proof. intros H. inversion H. destruct A0; discriminate. Qed.

Lemma du_ok_snoc A y : Forall nonunc A -> du_ok (uncond (fst y)) (A ++ [y]).
Proof.
  intros H. destruct (uncond (fst y)) eqn:E.
  - apply DU_jump; assumption.
  - apply DU_plain. apply Forall_app. split; [assumption|]. constructor; [exact E | constructor].
Qed.

Lemma du_ok_head_unc du x A : du_ok du (x :: A) -> uncond (fst x) = true -> A = [] /\ du = true.
Proof.
  intros H Hx. remember (x :: A) as L eqn:EL. destruct H as [B HB|B j HB Hj].
  - subst B. apply Forall_inv in HB. unfold nonunc in HB. congruence.
  - destruct B as [|b B]; cbn in EL; injection EL as E1 E2; subst.
    + auto.
    + apply Forall_inv in HB. unfold nonunc in HB. congruence.
Qed.

Lemma du_ok_tail du x A : du_ok du (x :: A) -> uncond (fst x) = false -> du_ok du A.
Proof.
  intros H Hx. remember (x :: A) as L eqn:EL. destruct H as [B HB|B j HB Hj].
  - subst B. apply DU_plain. eapply Forall_inv_tail. exact HB.
  - destruct B as [|b B]; cbn in EL; injection EL as E1 E2; subst.
    + congruence.
    + apply DU_jump; [eapply Forall_inv_tail; exact HB | exact Hj].
Qed.

Definition btb_ok (b : list (Z * Z)) : Prop := Forall (fun e => 0 <= snd e < 2147483644) b.

Lemma btb_get_ok b pc t : btb_ok b -> btb_get b pc = Some t -> 0 <= t < 2147483644.
Proof.
  induction b as [|[p d] b IH]; cbn [btb_get]; [discriminate|]. intros H. inversion H; subst.
  destruct (p =? pc); [intros E; injection E as <-; assumption | apply IH; assumption].
Qed.

Lemma btb_update_ok b pc d b' : btb_ok b -> 0 <= d < 2147483644 -> btb_update b pc d = Some b' -> btb_ok b'.
Proof.
  revert b'. induction b as [|[p x] b IH]; intros b' H Hd; cbn [btb_update]; [discriminate|]. inversion H; subst.
  destruct (p =? pc).
  - intros E. injection E as <-. constructor; assumption.
  - destruct (btb_update b pc d) as [t'|]; [|discriminate]. intros E. injection E as <-.
    constructor; [assumption|]. apply IH; auto.
Qed.

Lemma btb_add_ok b pc d : btb_ok b -> 0 <= d < 2147483644 -> btb_ok (btb_add b pc d).
Proof.
  intros H Hd. unfold btb_add. destruct (btb_update b pc d) as [b'|] eqn:E.
  - eapply btb_update_ok; eassumption.
  - assert (Hn : btb_ok [(pc, d)]) by (constructor; [exact Hd | constructor]).
    destruct (Nat.eqb (length b) btb_length); apply Forall_app; split; auto.
    destruct b; [constructor|]. inversion H; assumption.
Qed.

Definition aq (a : sk5) : list (instr * Z) := q_eu (k5_eu a) ++ q_sb (k5_ebus a).

Record F5 (app : list instr) (head : Z) (a : sk5) : Prop := mkF5 {
  g_head : 0 <= head < 2147483644;
  g_A : map snd (aq a) = consec4 head (length (aq a));
  g_q : exists g n, FQ app g n (q_sb (dclean (k5_fu a) (k5_dbus a))) (to4 (k5_fu a)) /\ 0 <= g < 2147483644 /\
                    (k5_du a = false -> g = head + 4 * Z.of_nat (length (aq a)));
  g_du : du_ok (k5_du a) (aq a);
  g_ent : Forall (entry_ok app) (aq a);
  g_fu : f5_processing (k5_fu a) = true -> 1 <= f5_remaining (k5_fu a) <= MemoryAccess;
  g_eu : eu_processing (k5_eu a) = true -> 1 <= eu_remaining (k5_eu a) <= Cmax /\ eu_runner (k5_eu a) <> None;
  g_pr : eu_pending_read (k5_eu a) = false;
  g_l1i : IInv (k5_l1i a);
  g_pw : k5_pw a = pwof (k5_wb a);
  g_wb : forall wr, k5_wb a = Some wr -> (length wr <= 1)%nat;
  g_btb : btb_ok (k5_btb a) }.

(* the fetched part right after a redirect of the fetch unit to t *)
Lemma fq_fresh app t f : f5_complete f = false -> f5_pc f = t -> FQ app t 0 (q_sb (dclean f sbus_empty)) (to4 f).
Proof.
  intros Hc Hp. assert (Hd : dclean f sbus_empty = @sbus_empty Z) by (unfold dclean; destruct (f5_clean f); reflexivity).
  rewrite Hd. constructor; cbn [to4 fu_pc fu_complete]; try (rewrite Hc; discriminate); try reflexivity; try lia.
Qed.

Lemma fq_reset app f t : FQ app t 0 (q_sb (dclean (fu5_reset f t) sbus_empty)) (to4 (fu5_reset f t)).
Proof. apply fq_fresh; reflexivity. Qed.

Lemma dclean_reset f t d : dclean (fu5_reset f t) d = sbus_empty.
Proof. reflexivity. Qed.
