(* Soundness of the ghost flag of the model of MVP-8.0: the commutation of two compatible snoop closures
   (sn_swap_stmt of Mvp80OrdCommDefs.v) for every pair in which one closure is an SnL1Evict.  An l1Evict removes a line
   of the L1 and completes its command; two L1 closures of one list are about different lines of the L1, an L3 closure
   does not touch the L1 at all. *)
From Coq Require Import ZArith List Bool Lia.
From Maj Require Import Base.Outcome Base.GoInt Base.GoTypes Isa.Spec Isa.Seq.
From Maj Require Import Gen.Latency Gen.RiscTables Gen.Opcodes Comp.Cache Comp.Rat Comp.RatProofs Mvp.Mvp12 Mvp.Mvp3 Mvp.Mvp5 Mvp.Mvp60 Mvp.Mvp63 Mvp.Mvp80.
From Maj Require Import Mvp.Mvp80OrdSnoop Mvp.Mvp80OrdCache Mvp.Mvp80OrdInvDefs Mvp.Mvp80OrdCommDefs Mvp.Mvp80OrdCong Mvp.Mvp80OrdWf.
Import ListNotations.
Open Scope Z_scope.

Ltac sn_cbn := cbn [bind fst snd negb andb w_msi w_l3 w_mem set_wmsi c_l1d set_l1d lines set_lines nlines llen orel_sw].

(* the directory after both closures: the callback of the l1Evict passes the updates of l3Lock / l3Write *)
Ltac dir_tac := unfold l3msi; rewrite ?k_l3write_cmd_done, ?cmd_done_setlock, ?cmd_done_setl3write;
  first [ apply msi_equiv_refl
        | apply setlock_setl3write_equiv; [apply cmd_done_comm; assumption | reflexivity]
        | apply set_l3write_equiv; [apply cmd_done_comm; assumption | reflexivity]
        | apply cmd_done_comm; assumption ].

Theorem swap_E1_E1 : forall k1 c1 k2 c2, sn_swap_stmt (SnL1Evict k1 c1) (SnL1Evict k2 c2).
Proof.
  intros k1 c1 k2 c2 [mem l3 k] c _ [[_ W1] _] U1 U2 [_ Cd]. cbn [w_msi] in *. change l1dLineSize with 64 in W1.
  pose proof (unary_l1 _ _ _ U1 eq_refl) as A1. pose proof (unary_l1 _ _ _ U2 eq_refl) as A2.
  pose proof (unary_pget _ _ _ U1) as P1. pose proof (unary_pget _ _ _ U2) as P2.
  specialize (Cd eq_refl eq_refl). cbn [sn_key] in *.
  unfold sn2. rewrite !sn_step_E1 by wfs. sn_cbn. rewrite !sn_step_E1 by wfs. sn_cbn.
  rewrite (rmcov_comm _ _ _ (nocov_l1 _ _ _ W1 A1 A2 Cd)).
  apply swapped_intro; try reflexivity. sn_cbn. dir_tac.
Qed.

Theorem swap_E1_L3 : forall k1 c1 wb k2 c2 n, sn_swap_stmt (SnL1Evict k1 c1) (l3cl wb k2 c2 n).
Proof.
  intros k1 c1 wb k2 c2 n [mem l3 k] c [[_ W3] _] [[_ W1] _] U1 U2 _.
  cbn [w_l3 w_msi] in *. change l3LineSize8 with 128 in W3. change l1dLineSize with 64 in W1.
  pose proof (unary_pget _ _ _ U1) as P1. pose proof (unary_pget _ _ _ U2) as P2. rewrite l3cl_key in P2. cbn [sn_key] in P1.
  unfold sn2. rewrite sn_step_E1, sn_step_l3 by wfs. sn_cbn. rewrite sn_step_l3 by wfs. rewrite l3_locked_cmd_done.
  destruct (wb && (0 <? n)); sn_cbn.
  { rewrite sn_step_E1 by wfs. sn_cbn. apply swapped_intro; try reflexivity. apply msi_equiv_refl. }
  destruct (l3_locked k (ck_addr k2)); sn_cbn.
  - destruct (l3data wb mem l3 (ck_addr k2)) as [d| e |]; sn_cbn; [|reflexivity|exact I].
    rewrite sn_step_E1 by wfs. sn_cbn. apply swapped_intro; try reflexivity. sn_cbn. dir_tac.
  - rewrite sn_step_E1 by wfs. sn_cbn. apply swapped_intro; try reflexivity. sn_cbn. dir_tac.
Qed.

Theorem swap_E1_W1 : forall k1 c1 k2 c2 a b d, sn_swap_stmt (SnL1Evict k1 c1) (SnL1WriteBack k2 c2 a b d).
Proof.
  intros k1 c1 k2 c2 n1 n2 n3 [mem l3 k] c [[_ W3] _] [[_ W1] _] U1 U2 [_ Cd].
  cbn [w_l3 w_msi] in *. change l3LineSize8 with 128 in W3. change l1dLineSize with 64 in W1.
  pose proof (unary_l1 _ _ _ U1 eq_refl) as A1. pose proof (unary_l1 _ _ _ U2 eq_refl) as A2.
  pose proof (unary_pget _ _ _ U1) as P1. pose proof (unary_pget _ _ _ U2) as P2.
  specialize (Cd eq_refl eq_refl). cbn [sn_key] in *.
  pose proof (nocov_l1 _ _ _ W1 A1 A2 Cd) as NC. pose proof (nocov_sym _ _ _ NC) as NC'.
  unfold sn2. rewrite sn_step_E1, sn_step_W1 by wfs. sn_cbn. rewrite sn_step_W1 by wfs. sn_cbn.
  rewrite (fcov_rmcov _ _ _ NC').
  destruct (0 <? n1); sn_cbn.
  { rewrite sn_step_E1 by wfs. sn_cbn. apply swapped_intro; try reflexivity. apply msi_equiv_refl. }
  destruct (fcov (lines (c_l1d c)) (ck_addr k2)) as [l1|]; sn_cbn; [|exact I].
  destruct (fcov (lines l3) (ck_addr k2)) as [l|]; [destruct (0 <? n3) | destruct (0 <? n2)]; sn_cbn;
    rewrite sn_step_E1 by wfs; sn_cbn; rewrite ?(rmcov_comm _ _ _ NC);
    (apply swapped_intro; [reflexivity | reflexivity |]); sn_cbn; dir_tac.
Qed.

Theorem swap_E1_E3 : forall k1 c1 k2 c2, sn_swap_stmt (SnL1Evict k1 c1) (SnL3Evict k2 c2).
Proof. intros k1 c1 k2 c2. exact (swap_E1_L3 k1 c1 false k2 c2 0). Qed.

Theorem swap_E1_W3 : forall k1 c1 k2 c2 n, sn_swap_stmt (SnL1Evict k1 c1) (SnL3WriteBack k2 c2 n).
Proof. intros k1 c1 k2 c2 n. exact (swap_E1_L3 k1 c1 true k2 c2 n). Qed.

(* the statement is symmetric: six of the sixteen ordered pairs of kinds follow from the ten calculated (sn_swap_all) *)
Lemma sn2_swapped_sym : forall r1 r2, sn2_swapped r1 r2 -> sn2_swapped r2 r1.
Proof.
  intros r1 r2 (A & B & C & D & E & F). unfold sn2_swapped.
  split; [symmetry; exact A|]. split; [symmetry; exact B|]. split; [apply msi_equiv_sym; exact C|].
  split; [symmetry; exact D|]. split; [rewrite F | rewrite E]; reflexivity.
Qed.

Lemma sn_swap_sym : forall x y, sn_swap_stmt x y -> sn_swap_stmt y x.
Proof.
  intros x y H w c MW CC Uy Ux C.
  specialize (H w c MW CC Ux Uy (sn_compat_sym _ _ C)).
  unfold orel_sw in *.
  destruct (sn2 w c x y) as [r1| e1 |], (sn2 w c y x) as [r2| e2 |]; try exact H; try contradiction.
  - apply sn2_swapped_sym. exact H.
  - symmetry. exact H.
Qed.

Print Assumptions sn_swap_sym.
Print Assumptions swap_E1_E1.
Print Assumptions swap_E1_E3.
Print Assumptions swap_E1_W1.
Print Assumptions swap_E1_W3.
