(* Soundness of the ghost flag of the model of MVP-8.0: what the snoop closures do to a cache and to memory,
   as pure functions on lists.

   Every operation of comp.LRUCache starts with the same search (find_line of Comp/Cache.v): the FIRST line whose range
   contains the address.  fcov is that line, rmcov the list without it; when no line covers both a and b the search
   for a does not see what the operation on b did (fcov_rmcov, rmcov_comm).  writeToMemory and Line.set in a loop are
   runs of stores (sb); two runs into disjoint ranges commute (sb_sb_comm).  That the operations of Cache.v really
   are these functions needs well-formed lines: Mvp80OrdWf.v. *)
From Coq Require Import ZArith List Bool Lia.
From Maj Require Import Comp.MapFacts.
From Maj Require Import Base.Outcome Base.GoInt Base.GoTypes Comp.Cache.
Import ListNotations.
Open Scope Z_scope.

Definition covers (l : line) (a : Z) : bool := (lo l <=? a) && (a <? hi l).

Fixpoint fcov (ls : list line) (a : Z) : option line :=
  match ls with [] => None | l :: t => if covers l a then Some l else fcov t a end.

Fixpoint rmcov (ls : list line) (a : Z) : list line :=
  match ls with [] => [] | l :: t => if covers l a then t else l :: rmcov t a end.

Lemma fcov_some : forall ls a l, fcov ls a = Some l -> In l ls /\ covers l a = true.
Proof.
  induction ls as [|h t IH]; intros a l H; [discriminate|]. cbn [fcov] in H.
  destruct (covers h a) eqn:C.
  - inversion H; subst. split; [left; reflexivity | exact C].
  - destruct (IH a l H) as [I C']. split; [right; exact I | exact C'].
Qed.

Lemma rmcov_none : forall ls a, fcov ls a = None -> rmcov ls a = ls.
Proof.
  induction ls as [|h t IH]; intros a H; [reflexivity|]. cbn [fcov rmcov] in *.
  destruct (covers h a); [discriminate|]. rewrite IH by exact H. reflexivity.
Qed.

Lemma Forall_rmcov : forall (P : line -> Prop) ls a, Forall P ls -> Forall P (rmcov ls a).
Proof.
  intros P ls a H. induction H as [|h t Hh Ht IH]; [constructor|]. cbn [rmcov].
  destruct (covers h a); [exact Ht | constructor; assumption].
Qed.

Lemma Forall_fcov : forall (P : line -> Prop) ls a l, Forall P ls -> fcov ls a = Some l -> P l.
Proof. intros P ls a l H E. rewrite Forall_forall in H. apply H. eapply fcov_some; eauto. Qed.

(* no line covers both a and b *)
Definition nocov (ls : list line) (a b : Z) : Prop := forall l, In l ls -> covers l a && covers l b = false.

Lemma nocov_sym : forall ls a b, nocov ls a b -> nocov ls b a.
Proof. intros ls a b H l I. rewrite andb_comm. apply H. exact I. Qed.

Lemma nocov_tail : forall h t a b, nocov (h :: t) a b -> nocov t a b.
Proof. intros h t a b H l I. apply H. right. exact I. Qed.

Lemma fcov_rmcov : forall ls a b, nocov ls a b -> fcov (rmcov ls b) a = fcov ls a.
Proof.
  induction ls as [|h t IH]; intros a b H; [reflexivity|].
  pose proof (H h (or_introl eq_refl)) as Hh. specialize (IH a b (nocov_tail _ _ _ _ H)).
  cbn [rmcov fcov]. destruct (covers h a) eqn:Ca, (covers h b) eqn:Cb; cbn [andb] in Hh; try discriminate;
    cbn [fcov]; rewrite ?Ca; auto.
Qed.

Lemma rmcov_comm : forall ls a b, nocov ls a b -> rmcov (rmcov ls a) b = rmcov (rmcov ls b) a.
Proof.
  induction ls as [|h t IH]; intros a b H; [reflexivity|].
  pose proof (H h (or_introl eq_refl)) as Hh. specialize (IH a b (nocov_tail _ _ _ _ H)).
  cbn [rmcov]. destruct (covers h a) eqn:Ca, (covers h b) eqn:Cb; cbn [andb] in Hh; try discriminate;
    cbn [rmcov]; rewrite ?Ca, ?Cb; try reflexivity.
  rewrite IH. reflexivity.
Qed.

Lemma fcov_nocov : forall ls a b l, nocov ls a b -> fcov ls a = Some l -> covers l b = false.
Proof.
  intros ls a b l H E. destruct (fcov_some ls a l E) as [I C]. specialize (H l I). rewrite C in H. exact H.
Qed.

Lemma fcov_cons_c : forall l t b, covers l b = true -> fcov (l :: t) b = Some l.
Proof. intros l t b C. cbn [fcov]. rewrite C. reflexivity. Qed.

Lemma rmcov_cons_c : forall l t b, covers l b = true -> rmcov (l :: t) b = t.
Proof. intros l t b C. cbn [rmcov]. rewrite C. reflexivity. Qed.

(* a line that does not cover b is transparent for the search for b *)
Lemma fcov_cons_nc : forall l t b, covers l b = false -> fcov (l :: t) b = fcov t b.
Proof. intros l t b C. cbn [fcov]. rewrite C. reflexivity. Qed.

Lemma rmcov_cons_nc : forall l t b, covers l b = false -> rmcov (l :: t) b = l :: rmcov t b.
Proof. intros l t b C. cbn [rmcov]. rewrite C. reflexivity. Qed.

(* lines that cover a exactly when they cover b *)
Lemma fcov_same_cover : forall ls a b, (forall l, In l ls -> covers l a = covers l b) ->
  fcov ls a = fcov ls b /\ rmcov ls a = rmcov ls b.
Proof.
  induction ls as [|h t IH]; intros a b H; [split; reflexivity|]. cbn [fcov rmcov].
  rewrite (H h (or_introl eq_refl)).
  destruct (IH a b) as [E1 E2]; [intros; apply H; right; assumption|]. rewrite E1, E2. split; reflexivity.
Qed.

(* d[n] = v0; d[n+1] = v1; ... (stores beyond the end are dropped) *)
Fixpoint sb (d : list Z) (n : nat) (vs : list Z) : list Z :=
  match vs with
  | [] => d
  | v :: t => sb (upd d n v) (S n) t
  end.

Lemma sb_length : forall vs d n, length (sb d n vs) = length d.
Proof. induction vs as [|v t IH]; intros d n; cbn [sb]; [reflexivity|]. rewrite IH. apply upd_length. Qed.

Lemma zlen_sb : forall vs d n, zlen (sb d n vs) = zlen d.
Proof. intros. unfold zlen. rewrite sb_length. reflexivity. Qed.

Lemma sb_oob : forall vs d n, (length d <= n)%nat -> sb d n vs = d.
Proof.
  induction vs as [|v t IH]; intros d n H; cbn [sb]; [reflexivity|].
  rewrite upd_oob by exact H. apply IH. lia.
Qed.

Lemma sb_upd_comm : forall vs d m n v, (n < m \/ m + length vs <= n)%nat ->
  sb (upd d n v) m vs = upd (sb d m vs) n v.
Proof.
  induction vs as [|x t IH]; intros d m n v H; cbn [sb length] in *; [reflexivity|].
  rewrite (upd_comm d n m) by lia. apply IH. lia.
Qed.

Lemma sb_sb_comm : forall va vb d n m, (n + length va <= m \/ m + length vb <= n)%nat ->
  sb (sb d n va) m vb = sb (sb d m vb) n va.
Proof.
  induction va as [|x t IH]; intros vb d n m H; cbn [sb length] in *; [reflexivity|].
  rewrite IH by lia. f_equal. apply sb_upd_comm. lia.
Qed.

(* the same at addresses *)
Lemma sb_sb_comm_Z : forall va vb d a b, 0 <= a -> 0 <= b -> (a + zlen va <= b \/ b + zlen vb <= a) ->
  sb (sb d (Z.to_nat a) va) (Z.to_nat b) vb = sb (sb d (Z.to_nat b) vb) (Z.to_nat a) va.
Proof. intros va vb d a b Ha Hb H. apply sb_sb_comm. unfold zlen in H. lia. Qed.
