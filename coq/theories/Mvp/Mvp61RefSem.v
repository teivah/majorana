(* Refinement of MVP-6.1 (Mvp61.v = MVP-6.0 + operand forwarding between execute
   units) to the sequential machine on register-only programs: the value-level
   core, independent of the machine.  BackSemF is built, as Mvp60RefSem.BackSem is, on
   Mvp60RefSem.BackSemW (no WAW, no WAR, the register file): dispatch, write-back and squash
   come from there; only the RAW clause differs.

   With forwarding an instruction k may be dispatched while ONE older instruction j in
   flight still has to write a register k reads: k then receives that operand through a
   channel.  [fs k = Some reg] records that k was dispatched with its operand [reg]
   forwarded.  The invariant [BackSemF d rg pw pr F fs]:
     - an instruction j in flight is WAW- and WAR-independent of every younger
       dispatched instruction (as for MVP-6.0);
     - RAW: when j and k are both in flight, j < k, and k reads a slot j writes, then
       that slot is the forwarded operand of k (bf_raw) - and no other read register of
       k lives in that slot (bf_one);
     - scoreboards, register file: as for MVP-6.0.
   An instruction in flight computes its sequential effect when its operands are read
   through [rr1 f rg] - the forwarded pair f first, the register file otherwise -
   provided the forwarded value is the sequential one (FwdVal, bf_exec).  That the value
   on the channel IS the sequential one follows from bf_stable: nobody between the
   producer and the consumer writes the forwarded slot. *)
From Coq Require Import ZArith List Bool Lia Permutation.
From Maj Require Import Base.Outcome Base.GoInt Base.GoTypes Isa.Spec Isa.Embed Isa.Seq Isa.Refine.
From Maj Require Import Gen.RiscTables Gen.Opcodes Mvp.Mvp12 Mvp.Mvp12Proofs Mvp.Mvp3Proofs Mvp.Mvp60RefSem Mvp.Mvp61.
Import ListNotations.
Open Scope Z_scope.

Section Sem1.
  Variables (app : list instr) (labels : Z -> option Z) (regs0 : list Z) (base : nat).
  Hypothesis Hlen0 : (length regs0 <= 32)%nat.
  Hypothesis Hr32 : Forall int32 regs0.

  Notation sreg := (sreg app labels regs0 base).
  Notation eff := (eff app labels regs0 base).
  Notation ik := (ik app).
  Notation wsl := (wsl app).
  Notation rsl := (rsl app).
  Notation BackSemW := (BackSemW app labels regs0 base).

  (* no WAW, no WAR (= Mvp60RefSem.indepW) *)
  Definition indepW (j k : nat) : Prop :=
    forall s, (s < 32)%nat -> (In s (wsl j) -> ~ In s (wsl k)) /\ (In s (rsl j) -> ~ In s (wsl k)).


  (* slot s is the forwarded operand *)
  Definition fwd_slot (o : option Z) (s : nat) : Prop := exists reg, o = Some reg /\ reg <> 0 /\ Z.to_nat reg = s.

  (* the forwarded register is the only read register in its slot *)
  Definition one_read (k : nat) (o : option Z) : Prop :=
    forall reg r, o = Some reg -> In r (instr_ReadRegisters (ik k)) -> r <> 0 -> Z.to_nat r = Z.to_nat reg -> r = reg.

  Record BackSemF (d : nat) (rg pw pr : list Z) (F : list nat) (fs : nat -> option Z) : Prop := mkBF {
    bf_nodup : NoDup F;
    bf_lt : forall j, In j F -> (base <= j < d)%nat;
    bf_ind : forall j k, In j F -> (j < k < d)%nat -> indepW j k;
    bf_raw : forall j k s, In j F -> In k F -> (j < k)%nat -> (s < 32)%nat -> In s (wsl j) -> In s (rsl k) -> fwd_slot (fs k) s;
    bf_one : forall k, In k F -> one_read k (fs k);
    bf_pwlen : length pw = 32%nat;
    bf_prlen : length pr = 32%nat;
    bf_pw : forall s, (s < 32)%nat -> nth s pw 0 = cnt wsl F s;
    bf_pr : forall s, (s < 32)%nat -> nth s pr 0 = cnt rsl F s;
    bf_rlen : length rg = length regs0;
    bf_r32 : Forall int32 rg;
    bf_rA : forall s j, (s < length regs0)%nat -> In j F -> In s (wsl j) -> nth s rg 0 = nth s (sreg j) 0;
    bf_rB : forall s, (s < length regs0)%nat -> (forall j, In j F -> ~ In s (wsl j)) -> nth s rg 0 = nth s (sreg d) 0 }.

  (* BackSemF is BackSemW with the clauses on operands and scoreboards: the lemmas below go through
     these two *)
  Lemma bf_weak d rg pw pr F fs : BackSemF d rg pw pr F fs -> BackSemW d rg F.
  Proof. intros [H1 H2 H3 Hr Ho H4 H5 H6 H7 H8 H9 HA HB]. constructor; assumption. Qed.

  Lemma bf_intro d rg pw pr F fs : BackSemW d rg F ->
    (forall j k s, In j F -> In k F -> (j < k)%nat -> (s < 32)%nat -> In s (wsl j) -> In s (rsl k) -> fwd_slot (fs k) s) ->
    (forall k, In k F -> one_read k (fs k)) -> length pw = 32%nat -> length pr = 32%nat ->
    (forall s, (s < 32)%nat -> nth s pw 0 = cnt wsl F s) -> (forall s, (s < 32)%nat -> nth s pr 0 = cnt rsl F s) ->
    BackSemF d rg pw pr F fs.
  Proof. intros [H1 H2 H3 H8 H9 HA HB] Hr Ho H4 H5 H6 H7. constructor; assumption. Qed.

  Lemma bf_perm d rg pw pr F F' fs : Permutation F F' -> BackSemF d rg pw pr F fs -> BackSemF d rg pw pr F' fs.
  Proof.
    intros HP H.
    assert (Hin : forall j, In j F' -> In j F) by (intros j Hj; eapply Permutation_in; [apply Permutation_sym; exact HP | exact Hj]).
    apply bf_intro.
    - eapply bw_perm; [exact HP | exact (bf_weak _ _ _ _ _ _ H)].
    - intros j k s Hj Hk. apply (bf_raw _ _ _ _ _ _ H); apply Hin; assumption.
    - intros k Hk. apply (bf_one _ _ _ _ _ _ H), Hin, Hk.
    - exact (bf_pwlen _ _ _ _ _ _ H).
    - exact (bf_prlen _ _ _ _ _ _ H).
    - intros s Hs. rewrite (bf_pw _ _ _ _ _ _ H) by exact Hs. apply cnt_perm. exact HP.
    - intros s Hs. rewrite (bf_pr _ _ _ _ _ _ H) by exact Hs. apply cnt_perm. exact HP.
  Qed.

  (* fs matters on the instructions in flight only *)
  Lemma bf_ext d rg pw pr F fs fs' : (forall k, In k F -> fs' k = fs k) -> BackSemF d rg pw pr F fs -> BackSemF d rg pw pr F fs'.
  Proof.
    intros He [H1 H2 H3 Hr Ho H4 H5 H6 H7 H8 H9 HA HB]. constructor; auto.
    - intros j k s Hj Hk Hlt Hs Hw Hrd. rewrite (He k Hk). apply (Hr j k s); assumption.
    - intros k Hk. rewrite (He k Hk). apply Ho. exact Hk.
  Qed.

  Lemma bf_stable d rg pw pr F fs j s : BackSemF d rg pw pr F fs -> In j F -> (s < 32)%nat -> In s (wsl j) ->
    nth s (sreg d) 0 = nth s (sreg (S j)) 0.
  Proof. intros H. apply (bw_stable app labels regs0 base Hlen0 _ _ _ _ _ (bf_weak _ _ _ _ _ _ H)). Qed.

  (* the forward pair with which instruction k runs: nothing, or the sequential value of its
     forwarded register *)
  Definition FwdVal (o : option Z) (k : nat) (f : Z * Z) : Prop :=
    match o with None => f = no_fwd | Some reg => f = (reg, rget (sreg k) reg) end.

  (* a slot j reads that is not forwarded: an older writer in flight would be a RAW hazard, a younger
     one a WAR hazard *)
  Lemma bf_slot_read d rg pw pr F fs j s : BackSemF d rg pw pr F fs -> In j F -> In s (rsl j) ->
    ~ fwd_slot (fs j) s -> nth s rg 0 = nth s (sreg j) 0.
  Proof.
    intros H Hj Hr Hnf. pose proof (bf_weak _ _ _ _ _ _ H) as HV.
    destruct (Nat.lt_ge_cases s (length regs0)) as [Hs|Hs].
    2:{ rewrite !nth_overflow; [reflexivity | rewrite (sreg_length app labels regs0 base); exact Hs | rewrite (bw_rlen _ _ _ _ _ _ _ HV); exact Hs]. }
    pose proof (Nat.lt_le_trans _ _ _ Hs Hlen0) as Hs32.
    pose proof (bw_lt _ _ _ _ _ _ _ HV j Hj) as Hjd.
    destruct (writer_dec app F s) as [(j' & Hj' & Hw)|Hno].
    - destruct (Nat.lt_trichotomy j' j) as [Hlt|[Heq|Hgt]].
      + exfalso. apply Hnf. eapply (bf_raw _ _ _ _ _ _ H j' j s); eassumption.
      + subst j'. apply (bw_rA _ _ _ _ _ _ _ HV); assumption.
      + exfalso. exact (proj2 (bw_pair _ _ _ _ _ _ _ _ _ HV Hj Hj' Hgt s Hs32) Hr Hw).
    - rewrite (bw_rB _ _ _ _ _ _ _ HV s Hs Hno).
      apply (sreg_stable app labels regs0 base Hlen0); [apply Nat.lt_le_incl, Hjd|]. intros k Hk Hw.
      destruct (Nat.eq_dec k j) as [->|Hne]; [exact (Hno j Hj Hw)|].
      exact (proj2 (bw_ind _ _ _ _ _ _ _ HV j k Hj ltac:(lia) s Hs32) Hr Hw).
  Qed.

  Lemma bf_reads d rg pw pr F fs j f r : BackSemF d rg pw pr F fs -> In j F -> FwdVal (fs j) j f ->
    In r (instr_ReadRegisters (ik j)) -> rr1 f rg r = rget (sreg j) r.
  Proof.
    intros H Hj Hf Hr. unfold rr1, FwdVal in *.
    destruct (fs j) as [reg|] eqn:Efs; subst f; cbn [fst snd no_fwd].
    - destruct (Z.eqb_spec r reg) as [->|Hne]; [reflexivity|].
      rewrite !rget_nth. destruct (Z.eqb_spec r 0) as [|Hnz]; [reflexivity|].
      eapply bf_slot_read; [exact H | exact Hj | apply slots_in; exists r; auto|].
      rewrite Efs. intros (reg' & E & Hnz' & Hsl). injection E as <-.
      apply Hne. eapply (bf_one _ _ _ _ _ _ H j Hj reg r); eauto.
    - unfold Zero. destruct (Z.eqb_spec r 0) as [->|Hnz]; [reflexivity|].
      rewrite !rget_nth. destruct (Z.eqb_spec r 0); [contradiction|].
      eapply bf_slot_read; [exact H | exact Hj | apply slots_in; exists r; auto|].
      rewrite Efs. intros (reg' & E & _). discriminate E.
  Qed.

  (* the instruction computes its sequential effect *)
  Lemma bf_exec d rg pw pr F fs j f : BackSemF d rg pw pr F fs -> In j F -> FwdVal (fs j) j f ->
    exec (sinstr_of (ik j)) (rr1 f rg) labels (pcz j) [] = exec (sinstr_of (ik j)) (rget (sreg j)) labels (pcz j) [].
  Proof.
    intros H Hj Hf. apply spec_reads_sound. intros r Hr. rewrite <- read_registers_exact in Hr.
    eapply bf_reads; eassumption.
  Qed.

  Lemma rr1_int32 f rg r : int32 (snd f) -> Forall int32 rg -> int32 (rr1 f rg r).
  Proof. intros Hf Hrg. unfold rr1. destruct (r =? fst f); [exact Hf | apply rget_int32; exact Hrg]. Qed.


  Definition hazardF (F : list nat) (k : nat) (o : option Z) : Prop :=
    forall s, (s < 32)%nat ->
      (In s (rsl k) -> cnt wsl F s = 0 \/ fwd_slot o s) /\ (In s (wsl k) -> cnt wsl F s = 0 /\ cnt rsl F s = 0).

  Lemma bf_dispatch d rg pw pr pw' pr' F fs fs' o : BackSemF d rg pw pr F fs -> (base <= d)%nat -> hazardF F d o ->
    (forall k, In k F -> fs' k = fs k) -> fs' d = o -> one_read d o ->
    length pw' = 32%nat -> length pr' = 32%nat ->
    (forall s, (s < 32)%nat -> nth s pw' 0 = nth s pw 0 + cnt1 (wsl d) s) ->
    (forall s, (s < 32)%nat -> nth s pr' 0 = nth s pr 0 + cnt1 (rsl d) s) ->
    BackSemF (S d) rg pw' pr' (d :: F) fs'.
  Proof.
    intros H Hbd Hhf Hfs Hfd Hone Hl1 Hl2 Hpw Hpr. pose proof (bf_weak _ _ _ _ _ _ H) as HV.
    pose proof (bf_raw _ _ _ _ _ _ H) as Hr. pose proof (bf_one _ _ _ _ _ _ H) as Ho.
    pose proof (bf_pw _ _ _ _ _ _ H) as H6. pose proof (bf_pr _ _ _ _ _ _ H) as H7. apply bf_intro; auto.
    - apply (bw_dispatch app labels regs0 base Hlen0); [exact HV | exact Hbd|]. intros s Hs. apply (Hhf s Hs).
    - intros j k s [<-|Hj] [<-|Hk] Hlt Hs Hw Hrd.
      + lia.
      + apply (bw_lt _ _ _ _ _ _ _ HV) in Hk. lia.
      + rewrite Hfd. destruct (proj1 (Hhf s Hs) Hrd) as [Hz|Hf]; [|exact Hf].
        exfalso. exact (cnt_zero_elim _ _ _ _ Hz Hj Hw).
      + rewrite (Hfs k Hk). apply (Hr j k s); assumption.
    - intros k [<-|Hk]; [rewrite Hfd; exact Hone | rewrite (Hfs k Hk); apply Ho; exact Hk].
    - intros s Hs. rewrite Hpw, H6 by exact Hs. cbn [cnt]. lia.
    - intros s Hs. rewrite Hpr, H7 by exact Hs. cbn [cnt]. lia.
  Qed.

  Lemma bf_writeback d rg pw pr pw' pr' F fs j : BackSemF d rg pw pr (j :: F) fs ->
    (forall s, In s (wsl j) -> eff_writes_reg (eff j)) ->
    length pw' = 32%nat -> length pr' = 32%nat ->
    (forall s, (s < 32)%nat -> nth s pw' 0 = nth s pw 0 - cnt1 (wsl j) s) ->
    (forall s, (s < 32)%nat -> nth s pr' 0 = nth s pr 0 - cnt1 (rsl j) s) ->
    BackSemF d (apply_eff (eff j) rg) pw' pr' F fs.
  Proof.
    intros H Heff Hl1 Hl2 Hpw Hpr. pose proof (bf_weak _ _ _ _ _ _ H) as HV.
    pose proof (bf_raw _ _ _ _ _ _ H) as Hr. pose proof (bf_one _ _ _ _ _ _ H) as Ho.
    pose proof (bf_pw _ _ _ _ _ _ H) as H6. pose proof (bf_pr _ _ _ _ _ _ H) as H7. apply bf_intro; auto.
    - apply (bw_writeback app labels regs0 base Hlen0); assumption.
    - intros j' k s Hj' Hk. apply Hr; right; assumption.
    - intros k Hk. apply Ho. right. exact Hk.
    - intros s Hs. rewrite Hpw, H6 by exact Hs. cbn [cnt]. lia.
    - intros s Hs. rewrite Hpr, H7 by exact Hs. cbn [cnt]. lia.
  Qed.

  (* an instruction without declared registers (ret, nop) leaves the flight without a trace *)
  Lemma bf_drop d rg pw pr F fs j : BackSemF d rg pw pr (j :: F) fs -> wsl j = [] -> rsl j = [] -> BackSemF d rg pw pr F fs.
  Proof.
    intros H Hw Hr. pose proof (bf_weak _ _ _ _ _ _ H) as HV.
    pose proof (bf_raw _ _ _ _ _ _ H) as Hrw. pose proof (bf_one _ _ _ _ _ _ H) as Ho.
    pose proof (bf_pw _ _ _ _ _ _ H) as H6. pose proof (bf_pr _ _ _ _ _ _ H) as H7.
    apply bf_intro; [| | |exact (bf_pwlen _ _ _ _ _ _ H) | exact (bf_prlen _ _ _ _ _ _ H) | |].
    - eapply bw_drop; eassumption.
    - intros j' k s Hj' Hk. apply Hrw; right; assumption.
    - intros k Hk. apply Ho. right. exact Hk.
    - intros s Hs. rewrite H6 by exact Hs. cbn [cnt]. rewrite Hw. reflexivity.
    - intros s Hs. rewrite H7 by exact Hs. cbn [cnt]. rewrite Hr. reflexivity.
  Qed.

  (* nothing in flight: the register file is the sequential one *)
  Lemma bf_empty d rg pw pr fs : BackSemF d rg pw pr [] fs -> rg = sreg d.
  Proof. intros H. apply bw_empty, (bf_weak _ _ _ _ _ _ H). Qed.

  Lemma bf_init pw pr fs : pw = repeat 0 32 -> pr = repeat 0 32 -> BackSemF base regs0 pw pr [] fs.
  Proof.
    intros -> ->. apply bf_intro; try reflexivity.
    - apply bw_init; assumption.
    - intros j k s [].
    - intros k [].
    - intros s Hs. apply nth_repeat.
    - intros s Hs. apply nth_repeat.
  Qed.
End Sem1.
