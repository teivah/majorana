(* MVP-6.1 refinement: the invariant of the back end and the control unit.
     ChI    the channels: a consumer's Receiver will deliver the sequential value of its
            forwarded register; its producer is ahead of it in the execute bus (FIFO) or
            has already sent; channels are used once
     CoreI  execute bus / write bus / register file / scoreboards (BackSemF), the Forward
            table of the instruction objects (all cleared between two unit cycles),
            identities of the objects on the execute bus
   and what pushRunner (push_core) and the Forwarder update (setf_core) do to them. *)
From Coq Require Import ZArith List Bool Lia Permutation.
From Maj Require Import Comp.ListFacts.
From Maj Require Import Base.Outcome Base.GoInt Base.GoTypes Isa.Spec Isa.Embed Isa.Seq Isa.Refine.
From Maj Require Import Gen.Latency Gen.RiscTables Gen.Opcodes Comp.Cache.
From Maj Require Import Mvp.Mvp12 Mvp.Mvp12Proofs Mvp.Mvp3 Mvp.Mvp3Proofs Mvp.Mvp4Skel Mvp.Mvp4Inv Mvp.Mvp5 Mvp.Mvp60 Mvp.Mvp61
     Mvp.Mvp60RefSem Mvp.Mvp60RefDefs Mvp.Mvp60RefFront Mvp.Mvp60RefBack Mvp.Mvp61RefSem Mvp.Mvp61RefFront Mvp.Mvp61RefBack.
Import ListNotations.
Open Scope Z_scope.

Definition kr1 (r : runner1) : nat := Z.to_nat (r_pc (r_b r) / 4).
Definition rcreg (r : runner1) : option Z := match r_rc r with Some _ => Some (r_freg r) | None => None end.

(* projections of a machine *)
Definition EB (m : mach1) : list runner1 := flat (x_ebus (y_x m)).
Definition WB (m : mach1) : list wb6 := flat (m_wbus (y_m m)).

(* pushRunner when the execute bus has room: the object pushed and the machine afterwards *)
Definition pobj (m : mach1) (r : runner1) : runner1 := mk_r1 (r_b r) (x_nid (y_x m)) (r_fw r) (r_rc r) (r_freg r).
Definition push1 (m : mach1) (cy : Z) (r : runner1) : mach1 :=
  let x := y_x m in
  let i := r_instr (r_b r) in
  mk_m1 (add_pending6 (y_m m) (instr_ReadRegisters i) (instr_WriteRegisters i))
        (xs_nid (xs_ebus x (bb_add (x_ebus x) (pobj m r) cy)) (x_nid x + 1)).
(* ch := make(chan); previousRunner.Forwarder = ch *)
Definition setf (m : mach1) (id : Z) : mach1 :=
  set_x m (xs_nch (xs_ebus (y_x m) (set_forwarder (x_ebus (y_x m)) id (x_nch (y_x m)))) (x_nch (y_x m) + 1)).

Lemma push_runner1_eq m cy r :
  push_runner1 m cy r = if negb (bb_canadd (x_ebus (y_x m))) then (false, r, m) else (true, pobj m r, push1 m cy r).
Proof. reflexivity. Qed.

Lemma EB_push1 m cy r : EB (push1 m cy r) = EB m ++ [pobj m r].
Proof. unfold EB, push1. cbn [y_x xs_nid xs_ebus x_ebus]. apply add_flat. Qed.

Lemma EB_setf m id : EB (setf m id) = map (setfw id (x_nch (y_x m))) (EB m).
Proof. unfold EB, setf. cbn [y_x set_x xs_nch xs_ebus x_ebus]. apply set_forwarder_flat. Qed.

Lemma condbr_no_write i : InstructionType_IsConditionalBranch (instr_InstructionType i) = true -> instr_WriteRegisters i = [].
Proof. destruct i; try reflexivity; intros H; vm_compute in H; discriminate H. Qed.

Lemma one_read_none app d : one_read app d None.
Proof. intros reg r0 E. discriminate E. Qed.

Lemma NoDup_ids_eq (l : list runner1) p q : NoDup (map r_id l) -> In p l -> In q l -> r_id p = r_id q -> p = q.
Proof.
  induction l as [|a t IH]; intros Hnd Hp Hq E; [destruct Hp|]. cbn [map] in Hnd. inversion Hnd as [|? ? Hno Hnd']; subst.
  destruct Hp as [<-|Hp], Hq as [<-|Hq]; auto.
  - exfalso. apply Hno. rewrite E. apply in_map. exact Hq.
  - exfalso. apply Hno. rewrite <- E. apply in_map. exact Hp.
Qed.

Section Inv.
  Variables (app : list instr) (labels : Z -> option Z) (regs0 mem0 : list Z) (base : nat) (sq : Z).
  Hypothesis Happ : wf_app app.
  Hypothesis Hreg : reg_only app = true.
  Hypothesis Hrng : regs_in_range app = true.
  Hypothesis Hlen32 : length regs0 = 32%nat.
  Hypothesis Hbase : (base <= length app)%nat.
  Let n := length app.
  Let N := stop_from app base.
  Hypothesis Hsq : 0 <= sq /\ 1000 * sq + 4 * Z.of_nat n < 2147483648.

  Notation sreg := (sreg app labels regs0 base).
  Notation eff := (eff app labels regs0 base).
  Notation ik := (ik app).
  Notation wsl := (wsl app).
  Notation rsl := (rsl app).
  Notation rnq := (rnq app sq).
  Notation sid := (sid sq).
  Notation BackSemF := (BackSemF app labels regs0 base).

  Hypothesis Hsem : forall k, (base <= k <= N)%nat -> (k < n)%nat ->
    exec (sinstr_of (ik k)) (rget (sreg k)) labels (pcz k) [] = Ok (eff k) /\
    (forall a, etarget (eff k) = Some a -> exists t, a = pcz t /\ (k < t <= n)%nat).

  (* every lemma of the section takes all its hypotheses, in this order:
     app labels regs0 mem0 base sq Happ Hreg Hrng Hlen32 Hbase Hsq Hsem *)
  Set Default Proof Using "All".

  Lemma Hlen0 : (length regs0 <= 32)%nat. Proof. rewrite Hlen32. apply le_n. Qed.

  Definition kw1 (x : wb6) : nat := Z.to_nat ((w_seq x - 1000 * sq) / 4).
  Definition wbq (k : nat) : wb6 :=
    mk_wb6 (sid k) (embed (eff k)) (instr_ReadRegisters (ik k)) (instr_WriteRegisters (ik k)).
  Definition regval (k : nat) : Z := RegisterValue (embed (eff k)).

  Lemma kr1_rnq r k : r_b r = rnq k -> kr1 r = k.
  Proof. intros H. unfold kr1. rewrite H. cbn [Mvp61RefFront.rnq r_pc]. rewrite pcz_div. apply Nat2Z.id. Qed.
  Lemma kw1_wbq k : kw1 (wbq k) = k.
  Proof. unfold kw1, wbq, Mvp61RefFront.sid. cbn [w_seq]. replace (pcz k + 1000 * sq - 1000 * sq) with (pcz k) by lia. rewrite pcz_div. apply Nat2Z.id. Qed.

  Definition FL1 (m : mach1) : list nat := map kr1 (EB m) ++ map kw1 (WB m).

  (* registers in range *)
  Lemma ik_regs k : regs_ok (ik k) = true.
  Proof.
    unfold Mvp60RefSem.ik. destruct (Nat.lt_ge_cases k n) as [H|H].
    - unfold regs_in_range in Hrng. rewrite forallb_forall in Hrng. apply Hrng. apply nth_In. exact H.
    - rewrite nth_overflow by exact H. reflexivity.
  Qed.
  Lemma ik_read_ok k r : In r (instr_ReadRegisters (ik k)) -> reg_ok r = true.
  Proof. pose proof (ik_regs k) as H. unfold regs_ok in H. apply andb_prop in H as [A _]. rewrite forallb_forall in A. apply A. Qed.
  Lemma ik_write_ok k r : In r (instr_WriteRegisters (ik k)) -> reg_ok r = true.
  Proof. pose proof (ik_regs k) as H. unfold regs_ok in H. apply andb_prop in H as [_ A]. rewrite forallb_forall in A. apply A. Qed.


  Record ChI (P : list runner1) (m : mach1) : Prop := mkChI {
    ch_lt : Forall (fun c => c < x_nch (y_x m)) (keys (x_ch (y_x m)) ++ fws (EB m) ++ rcs (P ++ EB m));
    ch_nd : NoDup (fws (EB m) ++ keys (x_ch (y_x m)));
    ch_rnd : NoDup (rcs (P ++ EB m));
    ch_val : forall r c, In r (P ++ EB m) -> r_rc r = Some c ->
               (forall v, In (c, v) (x_ch (y_x m)) -> v = rget (sreg (kr1 r)) (r_freg r)) /\
               (forall p, In p (EB m) -> r_fw p = Some c -> regval (kr1 p) = rget (sreg (kr1 r)) (r_freg r));
    ch_avE : AvE (keys (x_ch (y_x m))) (EB m);
    ch_avP : forall r c, In r P -> r_rc r = Some c -> In c (keys (x_ch (y_x m))) \/ In c (fws (EB m)) }.

  Definition RunOK1 (d : nat) (r : runner1) : Prop :=
    exists k, (base <= k < d)%nat /\ (k <= N)%nat /\ (k < n)%nat /\ r_b r = rnq k.
  Definition WbOK1 (d : nat) (x : wb6) : Prop :=
    exists k, (base <= k < d)%nat /\ (k <= N)%nat /\ (k < n)%nat /\ is_ret (ik k) = false /\ x = wbq k.

  Record CoreI (d : nat) (P : list runner1) (m : mach1) : Prop := mkCoreI {
    c_e : Forall (RunOK1 d) (EB m);
    c_P : Forall (fun r => r_b r = rnq d /\ r_fw r = None /\ one_read app d (rcreg r)) P;
    c_w : Forall (WbOK1 d) (WB m);
    c_sem : exists fs, BackSemF d (m_regs (y_m m)) (m_pw (y_m m)) (m_pr (y_m m)) (FL1 m) fs /\
                       (forall r, In r (EB m) -> fs (kr1 r) = rcreg r);
    c_mem : m_mem (y_m m) = mem0;
    c_l3 : lines (m_l3 (y_m m)) = [];
    c_rete : d = S N -> is_ret (ik N) = true -> map r_b (EB m) = [] \/ map r_b (EB m) = [rnq N];
    c_fwd : x_fwd (y_x m) = repeat no_fwd n;
    c_seq : True;   (* (ctx.sequenceID is part of FrontI1) *)
    c_pcb : x_pcb (y_x m) = true -> exists r, In r (EB m) /\ condbr (r_instr (r_b r)) = true;
    c_ch : ChI P m;
    c_idnd : NoDup (map r_id (EB m));
    c_idlt : Forall (fun r => r_id r < x_nid (y_x m)) (EB m);
    c_fwr : forall p c, In p (EB m) -> r_fw p = Some c ->
              is_ret (ik (kr1 p)) = false /\ InstructionType_IsBranch (instr_InstructionType (ik (kr1 p))) = false }.

  (* CoreI depends on the machine through these components only *)
  Lemma ChI_ext P m m' : EB m' = EB m -> x_ch (y_x m') = x_ch (y_x m) -> x_nch (y_x m') = x_nch (y_x m) -> ChI P m -> ChI P m'.
  Proof. intros E1 E2 E3 [H1 H2 H3 H4 H5 H6]. constructor; rewrite ?E1, ?E2, ?E3; assumption. Qed.

  Lemma CoreI_ext2 d P m m' : EB m' = EB m -> WB m' = WB m ->
    m_regs (y_m m') = m_regs (y_m m) -> m_pw (y_m m') = m_pw (y_m m) -> m_pr (y_m m') = m_pr (y_m m) ->
    m_mem (y_m m') = m_mem (y_m m) -> m_l3 (y_m m') = m_l3 (y_m m) ->
    x_fwd (y_x m') = x_fwd (y_x m) -> (x_pcb (y_x m') = true -> x_pcb (y_x m) = true) ->
    x_ch (y_x m') = x_ch (y_x m) -> x_nch (y_x m') = x_nch (y_x m) -> x_nid (y_x m') = x_nid (y_x m) ->
    CoreI d P m -> CoreI d P m'.
  Proof.
    intros E1 E2 E3 E4 E5 E6 E7 E8 E10 E11 E12 E13 [H1 H2 H3 H4 H5 H6 H7 H8 H9 H10 H11 H12 H13 H14].
    constructor; unfold FL1 in *; rewrite ?E1, ?E2, ?E3, ?E4, ?E5, ?E6, ?E7, ?E8, ?E13; try assumption.
    - intros Hp. apply H10. apply E10. exact Hp.
    - eapply ChI_ext; eassumption.
  Qed.

  Lemma CoreI_ext d P m m' : EB m' = EB m -> WB m' = WB m ->
    m_regs (y_m m') = m_regs (y_m m) -> m_pw (y_m m') = m_pw (y_m m) -> m_pr (y_m m') = m_pr (y_m m) ->
    m_mem (y_m m') = m_mem (y_m m) -> m_l3 (y_m m') = m_l3 (y_m m) ->
    x_fwd (y_x m') = x_fwd (y_x m) -> x_seq (y_x m') = x_seq (y_x m) -> x_pcb (y_x m') = x_pcb (y_x m) ->
    x_ch (y_x m') = x_ch (y_x m) -> x_nch (y_x m') = x_nch (y_x m) -> x_nid (y_x m') = x_nid (y_x m) ->
    CoreI d P m -> CoreI d P m'.
  Proof.
    intros E1 E2 E3 E4 E5 E6 E7 E8 _ E10. apply CoreI_ext2; try assumption. intros Hp. rewrite <- E10. exact Hp.
  Qed.

  Lemma RunOK1_mono d d' r : (d <= d')%nat -> RunOK1 d r -> RunOK1 d' r.
  Proof. intros H (k & A & B). exists k. split; [lia | exact B]. Qed.
  Lemma WbOK1_mono d d' x : (d <= d')%nat -> WbOK1 d x -> WbOK1 d' x.
  Proof. intros H (k & A & B). exists k. split; [lia | exact B]. Qed.

  Lemma RunOK1_kr d r : RunOK1 d r -> (base <= kr1 r < d)%nat /\ (kr1 r <= N)%nat /\ (kr1 r < n)%nat /\ r_b r = rnq (kr1 r).
  Proof. intros (k & A & B & C & E). rewrite (kr1_rnq r k E). auto. Qed.

  (* facts about the instructions of the segment (from the development of MVP-6.0) *)
  Lemma ik_nomem1 k : nomem (ik k) = true.
  Proof. exact (ik_nomem app Hreg k). Qed.

  Lemma eff_writes1 k s : (base <= k <= N)%nat -> (k < n)%nat -> In s (wsl k) -> eff_writes_reg (eff k).
  Proof. exact (eff_writes app labels regs0 base Hsem k s). Qed.

  (* the value an instruction in flight sends to its Forwarder is the one the consumer needs:
     the sequential value of the register at the dispatch point *)
  Lemma fwd_value d rg pw pr F fs j rd : BackSemF d rg pw pr F fs -> In j F -> (j <= N)%nat -> (j < n)%nat ->
    In rd (instr_WriteRegisters (ik j)) -> rd <> 0 -> regval j = rget (sreg d) rd.
  Proof.
    intros HB Hj HjN Hjn Hw Hnz. pose proof (bf_lt _ _ _ _ _ _ _ _ _ _ HB j Hj) as Hjd.
    pose proof (ik_write_ok j rd Hw) as Hok. pose proof (reg_ok_slot rd Hok) as Hs.
    assert (Hsl : In (Z.to_nat rd) (wsl j)) by (apply slots_in; exists rd; auto).
    rewrite rget_nth. destruct (Z.eqb_spec rd 0); [contradiction|].
    rewrite (bf_stable app labels regs0 base Hlen0 d rg pw pr F fs j (Z.to_nat rd) HB Hj Hs Hsl).
    rewrite (sreg_S app labels regs0 base Hlen0) by lia.
    destruct (Hsem j ltac:(lia) Hjn) as [He _]. pose proof (spec_writes_sound _ _ _ _ _ _ He) as Hws.
    rewrite <- write_registers_exact in Hws. unfold regval.
    assert (Hfin : forall rd' v, rd = rd' -> RegisterValue (let '(r, x) := reg_pair rd' v in mk_execution true r x false [] 0 false false) =
                     nth (Z.to_nat rd) (rset (sreg j) rd' v) 0 /\
                   forall a, RegisterValue (let '(r, x) := reg_pair rd' v in mk_execution true r x false [] a true false) =
                     nth (Z.to_nat rd) (rset (sreg j) rd' v) 0).
    { intros rd' v <-. unfold reg_pair. destruct (Z.eqb_spec rd 0); [contradiction|]. cbn [RegisterValue].
      rewrite nth_rset, (sreg_length app labels regs0 base), Hlen32.
      destruct (Z.eqb_spec rd 0); [contradiction|]. cbn [negb andb]. rewrite Nat.eqb_refl. cbn [andb].
      destruct (Nat.ltb_spec (Z.to_nat rd) 32); [split; reflexivity | lia]. }
    destruct (eff j) as [rd' v|bs| |a|rd' v a|]; rewrite Hws in Hw; try (destruct Hw; fail); destruct Hw as [<-|[]]; cbn [embed apply_eff];
      apply (Hfin rd' v eq_refl).
  Qed.


  Lemma one_read_in d reg : In reg (instr_ReadRegisters (ik d)) -> one_read app d (Some reg).
  Proof.
    intros Hin reg' r0 E Hr0 _ Hsl. injection E as <-. apply reg_ok_inj; [eapply ik_read_ok; exact Hr0 | eapply ik_read_ok; exact Hin | exact Hsl].
  Qed.

  (* a runner that comes from the control bus (no Receiver) joins the pending queue *)
  Lemma ChI_P_none m r : ChI [] m -> r_rc r = None -> ChI [r] m.
  Proof.
    intros [H1 H2 H3 H4 H5 H6] Hr.
    assert (E : rcs ([r] ++ EB m) = rcs ([] ++ EB m)) by (cbn [List.app]; rewrite rcs_cons; unfold rcl; rewrite Hr; reflexivity).
    constructor; rewrite ?E; auto.
    - intros r0 c [<-|Hin] Hc; [congruence|]. apply H4; [exact Hin | exact Hc].
    - intros r0 c [<-|[]] Hc. congruence.
  Qed.

  Lemma core_P_none d m r : CoreI d [] m -> r_b r = rnq d -> r_fw r = None -> r_rc r = None -> CoreI d [r] m.
  Proof.
    intros [H1 H2 H3 H4 H5 H6 H7 H8 H9 H10 H11 H12 H13 H14] Hb Hf Hr. constructor; auto.
    - constructor; [|constructor]. split; [exact Hb|]. split; [exact Hf|]. unfold rcreg. rewrite Hr. apply one_read_none.
    - apply ChI_P_none; assumption.
  Qed.

  Lemma core_P_drop d m P : CoreI d P m -> CoreI d [] m.
  Proof.
    intros [H1 H2 H3 H4 H5 H6 H7 H8 H9 H10 [C1 C2 C3 C4 C5 C6] H12 H13 H14]. constructor; auto.
    constructor; auto.
    - rewrite Forall_forall in *. intros c Hc. apply C1. rewrite !in_app_iff in *. rewrite rcs_app. rewrite in_app_iff. tauto.
    - rewrite rcs_app in C3. exact (NoDup_app_r _ _ C3).
    - intros r c Hin. apply C4. apply in_or_app. right. exact Hin.
    - intros r c [].
  Qed.


  Lemma haz_nil d m fs o : BackSemF d (m_regs (y_m m)) (m_pw (y_m m)) (m_pr (y_m m)) (FL1 m) fs ->
    hazards3 (y_m m) (instr_ReadRegisters (ik d)) (instr_WriteRegisters (ik d)) = [] -> hazardF app (FL1 m) d o.
  Proof.
    intros HS Hz. destruct (hazards3_nil _ _ _ Hz) as [Hr Hw]. intros s Hs.
    pose proof (cnt_nonneg wsl (FL1 m) s). pose proof (cnt_nonneg rsl (FL1 m) s).
    pose proof (bf_pw _ _ _ _ _ _ _ _ _ _ HS s Hs) as Epw. pose proof (bf_pr _ _ _ _ _ _ _ _ _ _ HS s Hs) as Epr. split.
    - intros Hin. left. apply slots_in in Hin as (r & Hin & Hnz & <-). specialize (Hr r Hin Hnz). unfold sb_get in Hr. lia.
    - intros Hin. apply slots_in in Hin as (w & Hin & Hnz & <-). destruct (Hw w Hin Hnz) as [A B]. unfold sb_get in A, B. lia.
  Qed.

  Lemma haz_single d m fs r0 reg : BackSemF d (m_regs (y_m m)) (m_pw (y_m m)) (m_pr (y_m m)) (FL1 m) fs ->
    hazards3 (y_m m) (instr_ReadRegisters (ik d)) (instr_WriteRegisters (ik d)) = [(HRaw, r0)] ->
    In reg (instr_ReadRegisters (ik d)) -> reg <> 0 -> 0 < cnt wsl (FL1 m) (Z.to_nat reg) ->
    hazardF app (FL1 m) d (Some reg).
  Proof.
    intros HS Hz Hreg0 Hnz0 Hcnt. destruct (hazards3_single _ _ _ _ Hz) as [Hr Hw].
    assert (Hs0 : (Z.to_nat reg < 32)%nat) by (apply reg_ok_slot; eapply ik_read_ok; exact Hreg0).
    assert (Er0 : reg = r0).
    { apply Hr; [exact Hreg0 | exact Hnz0|]. unfold sb_get. rewrite (bf_pw _ _ _ _ _ _ _ _ _ _ HS _ Hs0). exact Hcnt. }
    subst r0. intros s Hs.
    pose proof (cnt_nonneg wsl (FL1 m) s). pose proof (cnt_nonneg rsl (FL1 m) s).
    pose proof (bf_pw _ _ _ _ _ _ _ _ _ _ HS s Hs) as Epw. pose proof (bf_pr _ _ _ _ _ _ _ _ _ _ HS s Hs) as Epr. split.
    - intros Hin. apply slots_in in Hin as (r & Hin & Hnz & <-).
      destruct (Z_le_gt_dec (sb_get (m_pw (y_m m)) r) 0) as [Hle|Hgt].
      + left. unfold sb_get in Hle. lia.
      + right. exists reg. split; [reflexivity|]. split; [exact Hnz0|]. f_equal. symmetry. apply Hr; [exact Hin | exact Hnz | lia].
    - intros Hin. apply slots_in in Hin as (w & Hin & Hnz & <-). destruct (Hw w Hin Hnz) as [A B]. unfold sb_get in A, B. lia.
  Qed.

  Lemma rcreg_pobj m r : rcreg (pobj m r) = rcreg r. Proof. reflexivity. Qed.

  Lemma push_core d m r cy : CoreI d [r] m -> (base <= d)%nat -> (d < n)%nat -> (d <= N)%nat ->
    hazardF app (FL1 m) d (rcreg r) -> (is_ret (ik d) = true -> EB m = []) ->
    CoreI (S d) [] (push1 m cy r).
  Proof.
    intros [H1 H2 H3 (fs & HS & Hlk) H5 H6 H7 H8 H9 H10 H11 H12 H13 H14] Hbd Hdn HdN Hhz Hret.
    inversion H2 as [|? ? (Hrb & Hrf & Hone) _]; subst.
    set (o := pobj m r).
    assert (Hko : kr1 o = d) by (apply kr1_rnq; exact Hrb).
    assert (HE : EB (push1 m cy r) = EB m ++ [o]) by apply EB_push1.
    assert (HW : WB (push1 m cy r) = WB m) by reflexivity.
    assert (HFL : Permutation (d :: FL1 m) (FL1 (push1 m cy r))).
    { unfold FL1. rewrite HE, HW, map_app. cbn [map]. rewrite Hko. perm_nat. }
    assert (Hri : r_instr (r_b r) = ik d) by (rewrite Hrb; reflexivity).
    constructor.
    - rewrite HE. apply Forall_app. split.
      + eapply Forall_impl; [|exact H1]. intros r0. apply RunOK1_mono. lia.
      + constructor; [|constructor]. exists d. repeat split; auto; lia.
    - constructor.
    - rewrite HW. eapply Forall_impl; [|exact H3]. intros x0. apply WbOK1_mono. lia.
    - exists (fun k => if Nat.eqb k d then rcreg r else fs k). split.
      + eapply bf_perm; [exact HFL|]. cbn [push1 y_m add_pending6 set_sb m_regs m_pw m_pr]. rewrite Hri.
        pose proof (bf_pwlen _ _ _ _ _ _ _ _ _ _ HS) as Lw. pose proof (bf_prlen _ _ _ _ _ _ _ _ _ _ HS) as Lr.
        apply (bf_dispatch app labels regs0 base Hlen0 d (m_regs (y_m m)) (m_pw (y_m m)) (m_pr (y_m m)) _ _ (FL1 m) fs _ (rcreg r)); auto.
        * intros k Hk. destruct (Nat.eqb_spec k d) as [->|]; [|reflexivity]. apply (bf_lt _ _ _ _ _ _ _ _ _ _ HS) in Hk. lia.
        * rewrite Nat.eqb_refl. reflexivity.
        * rewrite sb_incr_length. exact Lw.
        * rewrite sb_incr_length. exact Lr.
        * intros s Hs. apply sb_incr_nth. lia.
        * intros s Hs. apply sb_incr_nth. lia.
      + intros r0 Hin. rewrite HE in Hin. apply in_app_or in Hin as [Hin|[<-|[]]].
        * rewrite Forall_forall in H1. destruct (RunOK1_kr d r0 (H1 r0 Hin)) as (A & _).
          destruct (Nat.eqb_spec (kr1 r0) d); [lia|]. apply Hlk. exact Hin.
        * rewrite Hko, Nat.eqb_refl. reflexivity.
    - exact H5.
    - exact H6.
    - intros Ed Hr. assert (EdN : d = N) by lia. right. rewrite HE, Hret by (rewrite EdN; exact Hr). cbn [List.app map]. unfold o, pobj. cbn [r_b]. rewrite Hrb, EdN. reflexivity.
    - exact H8.
    - exact H9.
    - intros Hp. destruct (H10 Hp) as (r0 & Hin & Hc). exists r0. split; [rewrite HE; apply in_or_app; left; exact Hin | exact Hc].
    - destruct H11 as [C1 C2 C3 C4 C5 C6].
      assert (Xch : x_ch (y_x (push1 m cy r)) = x_ch (y_x m)) by reflexivity.
      assert (Xn : x_nch (y_x (push1 m cy r)) = x_nch (y_x m)) by reflexivity.
      assert (Ef : fws (EB m ++ [o]) = fws (EB m)).
      { rewrite fws_app. unfold fws at 2. cbn [flat_map]. unfold o, pobj. cbn [r_fw]. rewrite Hrf. rewrite app_nil_r. reflexivity. }
      assert (Er : Permutation (rcs ([r] ++ EB m)) (rcs ([] ++ EB m ++ [o]))).
      { cbn [List.app]. rewrite rcs_cons, rcs_app. change (rcs [o]) with (rcl o ++ []). rewrite app_nil_r.
        change (rcl o) with (rcl r). apply Permutation_app_comm. }
      constructor; rewrite ?Xch, ?Xn, ?HE, ?Ef.
      + rewrite Forall_forall in *. intros c Hc. apply C1. rewrite !in_app_iff in *.
        destruct Hc as [Hc|[Hc|Hc]]; auto. right. right. eapply Permutation_in; [apply Permutation_sym; exact Er|]. exact Hc.
      + exact C2.
      + eapply Permutation_NoDup; [exact Er | exact C3].
      + intros r0 c Hin Hc. cbn [List.app] in Hin.
        assert (Hprod : forall (P0 : nat -> Prop), (forall p, In p (EB m) -> r_fw p = Some c -> P0 (kr1 p)) ->
                          forall p, In p (EB m ++ [o]) -> r_fw p = Some c -> P0 (kr1 p)).
        { intros P0 Hold p Hp Hf. apply in_app_or in Hp as [Hp|[<-|[]]]; [apply Hold; assumption|]. unfold o, pobj in Hf. cbn [r_fw] in Hf. congruence. }
        apply in_app_or in Hin as [Hin|[<-|[]]].
        * destruct (C4 r0 c (or_intror Hin) Hc) as [A B]. split; [exact A|].
          apply (Hprod (fun k => regval k = rget (sreg (kr1 r0)) (r_freg r0))). exact B.
        * destruct (C4 r c (or_introl eq_refl) Hc) as [A B]. change (kr1 o) with (kr1 r). change (r_freg o) with (r_freg r). split; [exact A|].
          apply (Hprod (fun k => regval k = rget (sreg (kr1 r)) (r_freg r))). exact B.
      + apply AvE_app. split; [exact C5|]. cbn [AvE]. split; [|exact I]. intros c Hc.
        apply in_or_app. destruct (C6 r c (or_introl eq_refl) Hc) as [A|A]; [left | right]; exact A.
      + intros r0 c [].
    - rewrite HE, map_app. cbn [map]. apply NoDup_app_disj; [exact H12 | constructor; [intros [] | constructor]|].
      intros x0 Hx [<-|[]]. apply in_map_iff in Hx as (r0 & E0 & Hin). rewrite Forall_forall in H13. specialize (H13 r0 Hin).
      unfold o, pobj in E0. cbn [r_id] in E0. lia.
    - rewrite HE. apply Forall_app. split.
      + eapply Forall_impl; [|exact H13]. cbn beta. intros r0 Hr0. cbn [push1 y_x xs_nid x_nid]. lia.
      + constructor; [|constructor]. cbn [push1 y_x xs_nid x_nid o pobj r_id]. lia.
    - intros p0 c Hin Hf. rewrite HE in Hin. apply in_app_or in Hin as [Hin|[<-|[]]]; [eapply H14; eassumption|].
      unfold o, pobj in Hf. cbn [r_fw] in Hf. congruence.
  Qed.
  (* shouldUseForwarding succeeded: a channel is made, the producer p (pushed in the previous
     cycle, still in the execute bus) gets it as Forwarder, the runner r as Receiver *)

  (* the Forwarder update keeps CoreI, whatever the pending queue, once the channel invariant is there: p,
     which gets the Forwarder, writes a register, so it is neither a ret nor a branch *)
  Lemma core_setf d P P' m p reg : CoreI d P m -> (d <= N)%nat -> In p (EB m) ->
    In reg (instr_WriteRegisters (r_instr (r_b p))) ->
    Forall (fun r0 => r_b r0 = rnq d /\ r_fw r0 = None /\ one_read app d (rcreg r0)) P' ->
    ChI P' (setf m (r_id p)) -> CoreI d P' (setf m (r_id p)).
  Proof.
    intros [H1 H2 H3 (fs & HS & Hlk) H5 H6 H7 H8 H9 H10 H11 H12 H13 H14] HdN Hp Hregw HP' HC.
    set (ch := x_nch (y_x m)). set (m1 := setf m (r_id p)) in *.
    assert (HE : EB m1 = map (setfw (r_id p) ch) (EB m)) by apply EB_setf.
    assert (HW : WB m1 = WB m) by reflexivity.
    destruct (map_setfw_b (r_id p) ch (EB m)) as [Mb Mi].
    assert (Mk : map kr1 (EB m1) = map kr1 (EB m)).
    { rewrite HE, map_map. apply map_ext. intros r0. unfold kr1. destruct (setfw_b (r_id p) ch r0) as (E & _). rewrite E. reflexivity. }
    assert (HFL : FL1 m1 = FL1 m) by (unfold FL1; rewrite Mk, HW; reflexivity).
    rewrite Forall_forall in H1. destruct (RunOK1_kr d p (H1 p Hp)) as (Pj1 & Pj2 & Pj3 & Pj4). set (j := kr1 p) in *.
    constructor; rewrite ?HFL, ?HW; auto.
    - rewrite HE. apply Forall_forall. intros r0 Hr0. apply in_map_iff in Hr0 as (r0' & <- & Hr0').
      destruct (H1 r0' Hr0') as (k & A & B & C & E). exists k. destruct (setfw_b (r_id p) ch r0') as (Eb & _). rewrite Eb. auto.
    - exists fs. split; [exact HS|]. intros r0 Hr0. rewrite HE in Hr0. apply in_map_iff in Hr0 as (r0' & <- & Hr0').
      destruct (setfw_b (r_id p) ch r0') as (Eb & _ & Erc & Efr). unfold kr1, rcreg. rewrite Eb, Erc, Efr. apply (Hlk r0' Hr0').
    - intros Ed Hr. rewrite HE, Mb. apply H7; assumption.
    - intros Hpc. destruct (H10 Hpc) as (r0 & Hin & Hc). exists (setfw (r_id p) ch r0). split; [rewrite HE; apply in_map; exact Hin|].
      destruct (setfw_b (r_id p) ch r0) as (Eb & _). rewrite Eb. exact Hc.
    - rewrite HE, Mi. exact H12.
    - rewrite HE. apply Forall_forall. intros r0 Hr0. apply in_map_iff in Hr0 as (r0' & <- & Hr0').
      destruct (setfw_b (r_id p) ch r0') as (_ & Ei & _). rewrite Ei. rewrite Forall_forall in H13. apply (H13 r0' Hr0').
    - intros p0 c Hin Hf. rewrite HE in Hin. apply in_map_iff in Hin as (p0' & <- & Hp0').
      replace (kr1 (setfw (r_id p) ch p0')) with (kr1 p0') by (unfold kr1; destruct (setfw_b (r_id p) ch p0') as (Eb & _); rewrite Eb; reflexivity).
      unfold setfw in Hf. destruct (Z.eqb_spec (r_id p0') (r_id p)) as [Ei|Ei]; [|eapply H14; eassumption].
      rewrite (NoDup_ids_eq (EB m) p0' p H12 Hp0' Hp Ei). fold j.
      rewrite Pj4 in Hregw. cbn [Mvp61RefFront.rnq r_instr] in Hregw. split.
      + destruct (is_ret (ik j)) eqn:Er; [|reflexivity]. exfalso. destruct (is_ret_regs _ Er) as [_ Ew].
        rewrite Ew in Hregw. destruct Hregw.
      + (* a producer writes a register: it is not a conditional branch; it is older than an instruction
           of the segment: it is not the jump at which decoding stops *)
        unfold InstructionType_IsBranch. apply orb_false_iff. split.
        * assert (HjN : (base <= j < N)%nat) by lia.
          pose proof (stop_from_before app dfl base j HjN) as Hs. unfold is_stop in Hs. apply orb_false_iff in Hs as [_ Hs]. exact Hs.
        * destruct (InstructionType_IsConditionalBranch (instr_InstructionType (ik j))) eqn:Ec; [|reflexivity]. exfalso.
          rewrite (condbr_no_write _ Ec) in Hregw. destruct Hregw.
  Qed.

  Lemma setf_core d m r p reg : CoreI d [r] m -> (d <= N)%nat -> (d < n)%nat ->
    In p (EB m) -> r_fw p = None -> In reg (instr_WriteRegisters (r_instr (r_b p))) -> reg <> 0 ->
    In reg (instr_ReadRegisters (ik d)) ->
    let m1 := setf m (r_id p) in
    let r1 := mk_r1 (r_b r) (r_id r) (r_fw r) (Some (x_nch (y_x m))) reg in
    CoreI d [r] m1 /\ CoreI d [r1] m1.
  Proof.
    intros HC0 HdN Hdn Hp Hpf Hregw Hnz Hregr. cbv zeta.
    pose proof HC0 as [H1 H2 H3 (fs & HS & Hlk) H5 H6 H7 H8 H9 H10 H11 H12 H13 H14].
    inversion H2 as [|? ? (Hrb & Hrf & Hone) _]; subst.
    set (ch := x_nch (y_x m)). set (m1 := setf m (r_id p)).
    set (r1 := mk_r1 (r_b r) (r_id r) (r_fw r) (Some ch) reg).
    assert (HE : EB m1 = map (setfw (r_id p) ch) (EB m)) by apply EB_setf.
    assert (HW : WB m1 = WB m) by reflexivity.
    destruct (map_setfw_b (r_id p) ch (EB m)) as [Mb Mi].
    assert (Mk : map kr1 (EB m1) = map kr1 (EB m)).
    { rewrite HE, map_map. apply map_ext. intros r0. unfold kr1. destruct (setfw_b (r_id p) ch r0) as (E & _). rewrite E. reflexivity. }
    assert (HFL : FL1 m1 = FL1 m) by (unfold FL1; rewrite Mk, HW; reflexivity).
    assert (Hpn : forall p0, In p0 (EB m) -> r_id p0 = r_id p -> r_fw p0 = None).
    { intros p0 Hp0 E0. rewrite (NoDup_ids_eq (EB m) p0 p H12 Hp0 Hp E0). exact Hpf. }
    rewrite Forall_forall in H1. destruct (RunOK1_kr d p (H1 p Hp)) as (Pj1 & Pj2 & Pj3 & Pj4). set (j := kr1 p) in *.
    assert (HjF : In j (FL1 m)) by (unfold FL1; apply in_or_app; left; apply in_map; exact Hp).
    assert (Hval : regval j = rget (sreg d) reg).
    { eapply fwd_value; try eassumption. rewrite Pj4 in Hregw. exact Hregw. }
    destruct H11 as [C1 C2 C3 C4 C5 C6]. rewrite Forall_forall in C1.
    assert (Hfresh : forall c, In c (keys (x_ch (y_x m)) ++ fws (EB m) ++ rcs ([r] ++ EB m)) -> c <> ch).
    { intros c Hc. specialize (C1 c Hc). fold ch in C1. lia. }
    assert (Xch : x_ch (y_x m1) = x_ch (y_x m)) by reflexivity.
    assert (Xn : x_nch (y_x m1) = ch + 1) by reflexivity.
    assert (Hcommon : forall P', Forall (fun r0 => r_b r0 = rnq d /\ r_fw r0 = None /\ one_read app d (rcreg r0)) P' -> ChI P' m1 -> CoreI d P' m1)
      by (intros P'; exact (core_setf d [r] P' m p reg HC0 HdN Hp Hregw)).
    (* the channel invariant for a pending runner that keeps its Receiver, or gets the new channel *)
    assert (HCh : forall r', kr1 r' = kr1 r ->
              (r_rc r' = r_rc r /\ r_freg r' = r_freg r) \/ (r_rc r' = Some ch /\ r_freg r' = reg) -> ChI [r'] m1).
    { intros r' Hk' Hcase.
      assert (Hrcs : forall c, In c (rcs ([r'] ++ EB m1)) -> In c (rcs ([r] ++ EB m)) \/ c = ch).
      { intros c Hc. rewrite rcs_app, HE, rcs_setfw in Hc. rewrite rcs_app. apply in_app_or in Hc as [Hc|Hc]; [|left; apply in_or_app; right; exact Hc].
        unfold rcs in Hc. cbn [flat_map] in Hc. rewrite app_nil_r in Hc.
        destruct Hcase as [[E _]|[E _]]; rewrite E in Hc.
        - left. apply in_or_app. left. unfold rcs. cbn [flat_map]. rewrite app_nil_r. exact Hc.
        - destruct Hc as [<-|[]]. right. reflexivity. }
      constructor; rewrite ?Xch, ?Xn.
      - apply Forall_forall. intros c Hc. apply in_app_or in Hc as [Hc|Hc]; [specialize (C1 c ltac:(apply in_or_app; left; exact Hc)); fold ch in C1; lia|].
        apply in_app_or in Hc as [Hc|Hc].
        + rewrite HE in Hc. apply fws_setfw_in in Hc as [Hc| ->]; [|lia].
          specialize (C1 c ltac:(apply in_or_app; right; apply in_or_app; left; exact Hc)). fold ch in C1. lia.
        + destruct (Hrcs c Hc) as [Hc'| ->]; [|lia].
          specialize (C1 c ltac:(apply in_or_app; right; apply in_or_app; right; exact Hc')). fold ch in C1. lia.
      - destruct (setfw_split (r_id p) ch (EB m) H12 p Hp eq_refl) as (a & b & Ea & Eb).
        rewrite HE, Eb. rewrite Ea in C2. rewrite fws_app, fws_cons in C2 |- *. unfold fwl in C2 |- *. cbn [r_fw] in *. rewrite Hpf in C2. cbn [List.app] in C2 |- *.
        rewrite <- app_assoc in C2 |- *. cbn [List.app].
        eapply Permutation_NoDup; [apply Permutation_middle|]. constructor; [|exact C2].
        intros Hin. apply (Hfresh ch); [|reflexivity]. rewrite Ea, fws_app, fws_cons. unfold fwl. rewrite Hpf. cbn [List.app].
        rewrite !in_app_iff in *. tauto.
      - rewrite rcs_app, HE, rcs_setfw. rewrite rcs_app in C3. unfold rcs at 1. cbn [flat_map]. rewrite app_nil_r.
        destruct Hcase as [[E _]|[E _]]; rewrite E.
        + unfold rcs at 1 in C3. cbn [flat_map] in C3. rewrite app_nil_r in C3. exact C3.
        + cbn [List.app]. constructor; [|exact (NoDup_app_r _ _ C3)].
          intros Hin. apply (Hfresh ch); [|reflexivity]. rewrite rcs_app. rewrite !in_app_iff. tauto.
      - intros r0 c Hin Hc.
        assert (Hold : forall r0', (r0' = r \/ In r0' (EB m)) -> r_rc r0' = Some c ->
                  (forall v, In (c, v) (x_ch (y_x m)) -> v = rget (sreg (kr1 r0')) (r_freg r0')) /\
                  (forall p0, In p0 (EB m1) -> r_fw p0 = Some c -> regval (kr1 p0) = rget (sreg (kr1 r0')) (r_freg r0'))).
        { intros r0' Hin' Hc'. destruct (C4 r0' c ltac:(destruct Hin' as [->|Hx]; [left; reflexivity | right; exact Hx]) Hc') as [A B].
          split; [exact A|]. intros p0 Hp0 Hf0. rewrite HE in Hp0. apply in_map_iff in Hp0 as (p0' & <- & Hp0').
          assert (Hcne : c <> ch).
          { apply Hfresh. apply in_or_app. right. apply in_or_app. right. apply rcs_in. exists r0'. split; [|exact Hc'].
            destruct Hin' as [->|Hx]; [left; reflexivity | right; exact Hx]. }
          unfold setfw in Hf0 |- *. destruct (r_id p0' =? r_id p); [cbn [r_fw] in Hf0; congruence|]. apply B; assumption. }
        destruct Hin as [<-|Hin].
        + destruct Hcase as [[E1 E2]|[E1 E2]].
          * rewrite Hk', E2. apply (Hold r (or_introl eq_refl)). rewrite <- E1. exact Hc.
          * rewrite E1 in Hc. injection Hc as <-. rewrite Hk', E2. split.
            -- intros v Hv. exfalso. apply (Hfresh ch); [|reflexivity]. apply in_or_app. left. apply in_map_iff. exists (ch, v). auto.
            -- intros p0 Hp0 Hf0. rewrite HE in Hp0. apply in_map_iff in Hp0 as (p0' & <- & Hp0').
               assert (Hid : r_id p0' = r_id p).
               { unfold setfw in Hf0. destruct (Z.eqb_spec (r_id p0') (r_id p)) as [Ei|Ei]; [exact Ei|]. exfalso.
                 apply (Hfresh ch); [|reflexivity]. apply in_or_app. right. apply in_or_app. left. apply fws_in. exists p0'. auto. }
               rewrite (NoDup_ids_eq (EB m) p0' p H12 Hp0' Hp Hid).
               replace (kr1 (setfw (r_id p) ch p)) with j by (unfold j, kr1; destruct (setfw_b (r_id p) ch p) as (Eb & _); rewrite Eb; reflexivity).
               rewrite (kr1_rnq r d Hrb). exact Hval.
        + rewrite HE in Hin. apply in_map_iff in Hin as (r0' & <- & Hin').
          destruct (setfw_b (r_id p) ch r0') as (Eb & _ & Erc & Efr). rewrite Erc in Hc.
          replace (kr1 (setfw (r_id p) ch r0')) with (kr1 r0') by (unfold kr1; rewrite Eb; reflexivity). rewrite Efr.
          apply (Hold r0' (or_intror Hin') Hc).
      - rewrite HE. apply AvE_setfw; assumption.
      - intros r0 c [<-|[]] Hc. destruct Hcase as [[E1 E2]|[E1 E2]].
        + rewrite E1 in Hc. destruct (C6 r c (or_introl eq_refl) Hc) as [A|A]; [left; exact A | right].
          rewrite HE. apply fws_setfw_sub; assumption.
        + rewrite E1 in Hc. injection Hc as <-. right. rewrite HE. apply fws_in. exists (setfw (r_id p) ch p).
          split; [apply in_map; exact Hp|]. unfold setfw. rewrite Z.eqb_refl. reflexivity. }
    split.
    - apply Hcommon; [exact H2|]. apply HCh; [reflexivity | left; split; reflexivity].
    - apply Hcommon.
      + constructor; [|constructor]. split; [exact Hrb|]. split; [exact Hrf|]. unfold rcreg, r1. cbn [r_rc r_freg]. apply one_read_in. exact Hregr.
      + apply HCh; [reflexivity | right; split; reflexivity].
  Qed.

  Lemma embed_flags1 k : (base <= k <= N)%nat -> (k < n)%nat ->
    Return (embed (eff k)) = is_ret (ik k) /\ MemoryChange (embed (eff k)) = false /\
    PcChange (embed (eff k)) = (match etarget (eff k) with Some _ => true | None => false end) /\
    (forall a, etarget (eff k) = Some a -> NextPc (embed (eff k)) = a).
  Proof. exact (embed_flags app labels regs0 base Hreg Hsem k). Qed.

  Lemma eff_ret1 k : (base <= k <= N)%nat -> (k < n)%nat -> (eff k = EReturn <-> is_ret (ik k) = true).
  Proof. exact (eff_ret app labels regs0 base Hsem k). Qed.

  Lemma eff_plain k : (base <= k <= N)%nat -> (k < n)%nat -> is_ret (ik k) = false ->
    InstructionType_IsBranch (instr_InstructionType (ik k)) = false -> etarget (eff k) = None.
  Proof.
    intros H1 H2 Hr Hb. unfold InstructionType_IsBranch in Hb. apply orb_false_iff in Hb as [Hj Hc].
    pose proof (eff_kind app labels regs0 base Hsem k H1 H2) as Hk. fold (is_jump (ik k)) in Hj. fold (condbr (ik k)) in Hc.
    destruct (eff k); cbn [etarget]; try reflexivity; exfalso; [destruct Hk as [Hx|[_ Hx]]|]; congruence.
  Qed.

  Lemma sreg_int32_1 k : Forall int32 regs0 -> Forall int32 (sreg k).
  Proof. intros H. apply sreg_int32. exact H. Qed.
End Inv.
