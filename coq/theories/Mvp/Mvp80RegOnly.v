(* MVP-8.0 (Mvp80.v) on a program without loads and stores: the memory system is never used.

   regonly app: no instruction of the program text is a load or a store.
   Invariant of a run (INV / EU / WU below): the directory, the cache controllers, the shared L3 and
   ctx.Memory are the ones init8 built (msi_new, idle controllers with empty L1Ds, an empty L3, the initial
   memory); every runner on the control bus, in the pendings of the control unit, on the execute bus or
   held by an execute unit carries an instruction that is neither a load nor a store; no execute unit is
   in the closure around cc.read / cc.write; no write unit holds a pending memory write.
   Hence mvp80_regonly_memory_unchanged: a run that returns returns the initial memory. *)
From Coq Require Import ZArith List Bool Lia.
From Maj Require Import Comp.ListFacts.
From Maj Require Import Base.Outcome Base.GoInt Base.GoTypes Isa.Spec Isa.Seq.
From Maj Require Import Gen.Latency Gen.RiscTables Gen.Opcodes Comp.Cache Comp.Rat Mvp.Mvp12 Mvp.Mvp3 Mvp.Mvp5 Mvp.Mvp60 Mvp.Mvp63 Mvp.Mvp80.
From Maj Require Import Mvp.Mvp60Proofs Mvp.Mvp63Proofs Mvp.Mvp63Class Mvp.Mvp80Proofs.
From Maj Require Mvp.Mvp4Skel Mvp.Mvp4Inv Mvp.Mvp62RefRel.
Import ListNotations.
Open Scope Z_scope.

Definition nomem (i : instr) : bool :=
  negb (InstructionType_IsMemoryRead (instr_InstructionType i)) &&
  negb (InstructionType_IsMemoryWrite (instr_InstructionType i)).

Definition regonly (app : list instr) : bool :=
  forallb (fun i => negb (InstructionType_IsMemoryRead (instr_InstructionType i)) &&
                    negb (InstructionType_IsMemoryWrite (instr_InstructionType i))) app.

Lemma regonly_reg_only : forall app, regonly app = Mvp4Skel.reg_only app.
Proof. reflexivity. Qed.

Definition NM (r : runner3) : Prop := nomem (q_instr r) = true.
Definition NMr (r : runner) : Prop := nomem (r_instr r) = true.

(* on_bus of Mvp63Class.v, whose lemmas apply *)
Definition bus_ok {T} (P : T -> Prop) (b : bbus T) : Prop :=
  Forall (fun p => P (snd p)) (bb_buf b) /\ Forall P (bb_q b).

Lemma pick8_ok : forall (P : runner3 -> Prop) pref id q r q',
  pick8 pref id q = Some (r, q') -> Forall P q -> P r /\ Forall P q'.
Proof.
  intros P pref id. induction q as [|a t IH]; intros r q' H HQ; cbn [pick8] in H; [discriminate|].
  inversion HQ as [|? ? HA HT]; subst.
  match type of H with (if ?c then _ else _) = _ => destruct c end.
  - inversion H; subst. split; assumption.
  - destruct (pick8 pref id t) as [[r1 t1]|] eqn:E; [|discriminate].
    inversion H; subst. destruct (IH _ _ eq_refl HT) as [A B]. split; [exact A|constructor; assumption].
Qed.

Definition core_of (x : mx) : list Z * cache * bbus runner * bbus runner3 * list runner3 :=
  (m_mem (x_m x), m_l3 (x_m x), m_cbus (x_m x), x_ebus x, x_pend x).

Ltac split5 := split; [|split; [|split; [|split]]].

Section Inv.
  Variables (mem0 : list Z) (c3 : cache).

  Definition PX (x : mx) : Prop :=
    m_mem (x_m x) = mem0 /\ m_l3 (x_m x) = c3 /\ bus_ok NMr (m_cbus (x_m x)) /\ bus_ok NM (x_ebus x) /\
    Forall NM (x_pend x).

  Lemma PX_ext : forall x x', core_of x' = core_of x -> PX x -> PX x'.
  Proof.
    intros x x' E H. unfold core_of in E. inversion E as [[E1 E2 E3 E4 E5]].
    unfold PX. rewrite E1, E2, E3, E4, E5. exact H.
  Qed.

  (* --- frame lemmas: functions that touch nothing of the core --- *)

  Lemma core_set_forward3 : forall x pc reg v, core_of (set_forward3 x pc reg v) = core_of x.
  Proof. reflexivity. Qed.

  Lemma core_fu_reset3 : forall x pc, core_of (fu_reset3 x pc) = core_of x.
  Proof. reflexivity. Qed.

  Lemma core_bu_assert3 : forall x r, core_of (bu_assert3 x r) = core_of x.
  Proof. intros x r. destruct (bu_assert3_frame x r) as [A B]. unfold core_of, runners_of, rest_of in *. congruence. Qed.

  Lemma core_bu_resolved3 : forall x pc pcTo, core_of (bu_resolved3 x pc pcTo) = core_of x.
  Proof. reflexivity. Qed.

  Lemma core_rat_commit3 : forall ord cycle x, core_of (rat_commit3 ord cycle x) = core_of x.
  Proof. reflexivity. Qed.

  Lemma core_rat_rollback3 : forall ord cycle x s, core_of (rat_rollback3 ord cycle x s) = core_of x.
  Proof. reflexivity. Qed.

  Lemma core_wbus_connect3 : forall x cycle, core_of (wbus_connect3 x cycle) = core_of x.
  Proof. reflexivity. Qed.

  Lemma core_or_os : forall x b, core_of (or_os x b) = core_of x.
  Proof. reflexivity. Qed.

  (* --- du.go, cu.go: PX is the class invariant of Mvp63Class.v for the instructions that are neither loads nor
         stores, together with the values of ctx.Memory and the L3, which decode and control leave alone --- *)

  Notation NoMem := (fun i => nomem i = true).

  Lemma PX_runners : forall x, PX x -> runners_ok NoMem x.
  Proof. intros x (_ & _ & H). exact H. Qed.

  Lemma PX_kept : forall x0 x, PX x0 -> Kept NoMem x0 x -> PX x.
  Proof.
    intros x0 x (P1 & P2 & _) [HR E]. unfold rest_of in E. inversion E as [[E1 E2 E3 E4 E5]].
    unfold PX. rewrite E1, E2. split; [exact P1|]. split; [exact P2|exact HR].
  Qed.

  Variable app : list instr.
  Hypothesis Happ : regonly app = true.

  Lemma du_cycle3_px : forall cycle x x', du_cycle3 app cycle x = Ok x' -> PX x -> PX x'.
  Proof.
    intros cycle x x' H HP. apply (PX_kept x x' HP).
    exact (du_cycle3_class NoMem app (fun n i => reg_only_nth app n i Happ) cycle x x x' H (Kept_refl NoMem x (PX_runners x HP))).
  Qed.

  Lemma cu_cycle3_px : forall ord cycle x, PX x -> PX (cu_cycle3 ord cycle x).
  Proof.
    intros ord cycle x HP. apply (PX_kept x _ HP).
    exact (cu_cycle3_class NoMem ord cycle x x (Kept_refl NoMem x (PX_runners x HP))).
  Qed.

  (* --- wu.go: a write unit that holds no pending memory write --- *)

  Lemma wu_cycle8_px : forall x w before x' w',
    wu_cycle8 x w before = Ok (x', w') -> u_co w = WNone -> core_of x' = core_of x /\ u_co w' = WNone.
  Proof.
    intros x w before x' w' H HW. unfold wu_cycle8 in H.
    destruct (bb_q (m_wbus (x_m x))) as [|c t] eqn:EQ.
    - unfold wu_cycle3 in H. rewrite HW in H. cbv zeta in H. unfold bb_get in H. rewrite EQ in H.
      cbv beta iota zeta in H. inversion H; subst. split; [reflexivity|exact HW].
    - match type of H with (if ?c then _ else _) = _ => destruct c eqn:EC end; [discriminate|].
      unfold wu_cycle3 in H. rewrite HW in H. cbv zeta in H. unfold bb_get in H. rewrite EQ in H.
      cbv beta iota zeta in H.
      destruct (negb (before =? -1) && (before <? w_seq c)) eqn:E1;
        [inversion H; subst; split; [reflexivity|exact HW]|].
      destruct (RegisterChange (w_exe c)) eqn:E2; [inversion H; subst; split; [reflexivity|exact HW]|].
      destruct (MemoryChange (w_exe c)) eqn:E3; [cbn in EC; discriminate|].
      inversion H; subst; split; [reflexivity|exact HW].
  Qed.

  Definition WU (w : wu6) : Prop := u_co w = WNone.

  Lemma wus_cycle8_px : forall wus x before x' wus',
    wus_cycle8 x wus before = Ok (x', wus') -> Forall WU wus -> core_of x' = core_of x /\ Forall WU wus'.
  Proof.
    induction wus as [|w t IH]; intros x before x' wus' H HW; cbn [wus_cycle8] in H.
    - inversion H; subst. split; [reflexivity|constructor].
    - inversion HW as [|? ? HW1 HWT]; subst.
      apply bind_ok in H as ([x1 w1] & E1 & H). apply bind_ok in H as ([x2 t2] & E2 & H).
      cbn [fst snd] in *. inversion H; subst.
      apply wu_cycle8_px in E1; [|exact HW1]. destruct E1 as [A B].
      apply IH in E2; [|exact HWT]. destruct E2 as [C D].
      split; [congruence|constructor; assumption].
  Qed.

  (* --- cpu.go: flush --- *)

  Lemma do_flush3_px : forall x pc, PX x -> PX (do_flush3 x pc).
  Proof.
    intros x pc (P1 & P2 & P3 & P4 & P5). unfold PX.
    cbn [do_flush3 do_flush6 inc_seq3 set_seq3 set_m set_pcb3 set_prev3 set_pend3 set_ebus3 x_m x_ebus x_pend m_mem m_l3 m_cbus].
    split5; try assumption; try apply on_bus_clean. constructor.
  Qed.
End Inv.

(* a controller in the state NewCPU leaves it in, with an L1D that holds no line *)
Definition cc_idle (c : cc8) : Prop :=
  c_read c = RdStart /\ c_write c = WrStart /\ c_snoop c = [] /\ c_rsems c = [] /\ c_wsems c = [] /\
  existing_lines (c_l1d c) = Ok [].

(* cc.flush of an idle controller without semaphores is the identity *)
Lemma cc_flush_idle : forall k c, cc_idle c -> cc_flush k c = Ok (k, c).
Proof.
  intros k [id l1 rd wr sn rs ws po] (A & B & C & D & E & F). cbn [c_read c_write c_snoop c_rsems c_wsems] in A, B, C, D, E.
  subst. reflexivity.
Qed.

(* coSnoop with no command addressed to anybody creates no closure *)
Lemma cc_snoop_idle : forall ord cycle w c,
  k_cmds (w_msi w) = [] -> cc_idle c -> cc_snoop_cycle ord cycle w c = (false, Ok (w, c)).
Proof.
  intros ord cycle w c HK (A & B & C & D & E & F). unfold cc_snoop_cycle. rewrite C, HK.
  cbn [filter map snoop_order_matters].
  rewrite flat_map_nil_all by (intros; reflexivity). reflexivity.
Qed.

Lemma snoops_cycle_idle : forall ord cycle ccs w,
  k_cmds (w_msi w) = [] -> Forall cc_idle ccs -> snoops_cycle ord cycle w ccs = (false, Ok (w, ccs)).
Proof.
  intros ord cycle. induction ccs as [|c t IH]; intros w HK HC; cbn [snoops_cycle]; [reflexivity|].
  inversion HC as [|? ? H1 H2]; subst.
  rewrite (cc_snoop_idle ord cycle w c HK H1). rewrite (IH w HK H2). reflexivity.
Qed.

(* cc.writeBack of a controller whose L1D is empty writes nothing and costs nothing *)
Lemma cc_writeback_idle : forall w c, cc_idle c -> cc_writeback w c = Ok (w, 0).
Proof.
  intros w c (A & B & C & D & E & F). unfold cc_writeback. rewrite F. reflexivity.
Qed.

Lemma ccs_writeback_idle : forall ccs w n, Forall cc_idle ccs -> ccs_writeback w ccs n = Ok (w, n).
Proof.
  induction ccs as [|c t IH]; intros w n HC; cbn [ccs_writeback]; [reflexivity|].
  inversion HC as [|? ? H1 H2]; subst. rewrite (cc_writeback_idle w c H1). cbn [bind fst snd].
  rewrite Z.add_0_r. apply IH. exact H2.
Qed.

Section Mach.
  Variables (mem0 : list Z) (c3 : cache) (k0 : msi8) (ccs0 : list cc8) (app : list instr).
  Hypothesis Happ : regonly app = true.
  Hypothesis Hstale : k_stale k0 = false.
  Hypothesis Hcmds : k_cmds k0 = [].
  Hypothesis Hccs : Forall cc_idle ccs0.
  Hypothesis Hl3 : lines c3 = [].

  Notation PX := (PX mem0 c3).

  Definition INV (y : my) : Prop := y_msi y = k0 /\ y_ccs y = ccs0 /\ PX (y_x y).
  Definition RNM (e : eu8) : Prop := forall r, h_runner e = Some r -> NM r.
  Definition EU (e : eu8) : Prop := (h_co e = HNone \/ h_co e = HPrepare) /\ RNM e.

  (* what holds of the runner a unit has just been given holds of the runner of the unit *)
  Lemma runner_some : forall (P : runner3 -> Prop) co m r s, P r -> forall r', h_runner (mk_eu8 co m (Some r) s) = Some r' -> P r'.
  Proof. intros P co m r s H r' Hr'. cbn [h_runner] in Hr'. inversion Hr'; subst. exact H. Qed.

  Lemma INV_set_x_px : forall y x', INV y -> PX x' -> INV (set_x y x').
  Proof. intros y x' (I1 & I2 & I3) HP. split; [exact I1|]. split; [exact I2|exact HP]. Qed.

  Lemma INV_set_x : forall y x', INV y -> core_of x' = core_of (y_x y) -> INV (set_x y x').
  Proof. intros y x' HI E. apply INV_set_x_px; [exact HI|]. eapply PX_ext; [exact E|]. destruct HI as (_ & _ & I3). exact I3. Qed.

  Lemma EU_set_hseq : forall e s, EU e -> EU (set_hseq e s).
  Proof. intros e s H. exact H. Qed.

  (* --- snoops, control unit --- *)

  Lemma snoops8_inv : forall ord cycle y y', snoops8 ord cycle y = Ok y' -> INV y -> INV y'.
  Proof.
    intros ord cycle y y' H (I1 & I2 & I3). unfold snoops8 in H.
    rewrite (snoops_cycle_idle ord cycle (y_ccs y) (mw_of y)) in H;
      [|cbn [mw_of w_msi]; rewrite I1; exact Hcmds|rewrite I2; exact Hccs].
    cbn [bind fst snd] in H. inversion H; subst.
    split; [exact I1|]. split; [exact I2|].
    eapply PX_ext; [|exact I3]. reflexivity.
  Qed.

  (* snoops8 on an idle memory system changes nothing but (possibly) the ghost flag - here not even that *)
  Lemma snoops8_idle : forall ord cycle y, INV y ->
    snoops8 ord cycle y = Ok (or_os8 (set_ccs (put_mw y (mw_of y)) (y_ccs y)) false).
  Proof.
    intros ord cycle y (I1 & I2 & I3). unfold snoops8.
    rewrite (snoops_cycle_idle ord cycle (y_ccs y) (mw_of y));
      [|cbn [mw_of w_msi]; rewrite I1; exact Hcmds|rewrite I2; exact Hccs].
    reflexivity.
  Qed.

  Lemma cu_cycle8_inv : forall ord cycle y, INV y -> INV (cu_cycle8 ord cycle y).
  Proof.
    intros ord cycle y (I1 & I2 & I3). unfold cu_cycle8. rewrite I1, Hstale. cbv zeta.
    split; [reflexivity|]. split; [exact I2|]. cbn [y_x]. apply (cu_cycle3_px mem0 c3). exact I3.
  Qed.

  Lemma front8_inv : forall ord cycle y y', front8 app ord cycle y = Ok y' -> INV y -> INV y'.
  Proof.
    intros ord cycle y y' H HI. unfold front8 in H. cbv zeta in H.
    apply bind_ok in H as ([[fu1 l1i1] dbus1] & _ & H).
    apply bind_ok in H as (x & ED & H). inversion H; subst.
    apply cu_cycle8_inv. apply INV_set_x_px; [exact HI|].
    eapply (du_cycle3_px mem0 c3 app Happ); [exact ED|].
    destruct HI as (I1 & I2 & (P1 & P2 & P3 & P4 & P5)). unfold Mvp80RegOnly.PX.
    cbn [set_m set_ebus3 set_dbus set_l1i set_fu set_wbus set_cbus x_m x_ebus x_pend m_mem m_l3 m_cbus].
    split5; try assumption; apply on_bus_connect; assumption.
  Qed.

  (* --- eu.go --- *)

  Lemma eu_flush8_inv : forall y i e y' e', eu_flush8 y i e = Ok (y', e') -> INV y -> RNM e -> INV y' /\ EU e'.
  Proof.
    intros y i e y' e' H HI HR. unfold eu_flush8 in H. pose proof HI as (I1 & I2 & I3).
    destruct (nth_error (y_ccs y) i) as [c|] eqn:EN; [|discriminate].
    assert (HC : cc_idle c).
    { rewrite I2 in EN. apply nth_error_In in EN. rewrite Forall_forall in Hccs. apply Hccs. exact EN. }
    rewrite (cc_flush_idle (y_msi y) c HC) in H. cbn [bind fst snd] in H. inversion H; subst.
    split.
    - split; [exact I1|]. split; [|exact I3].
      unfold put_cc. cbn [set_ymsi y_ccs set_ccs]. rewrite (set_nth6_same _ _ _ EN). exact I2.
    - split; [left; reflexivity|exact HR].
  Qed.

  Ltac eu_done ER HN :=
    split; [left; reflexivity|
            let r' := fresh "r'" in let Hr' := fresh "Hr'" in
            intros r' Hr'; cbn [h_runner] in Hr'; rewrite ?ER in Hr'; inversion Hr'; subst; exact HN].

  (* an execute unit running an instruction that is not a store never reaches cc.write *)
  Lemma eu_run8_inv : forall labels ord cycle y i e y' e' o,
    eu_run8 labels ord cycle y i e = Ok (y', e', o) -> INV y -> RNM e -> INV y' /\ EU e'.
  Proof.
    intros labels ord cycle y i e y' e' o H HI HR. unfold eu_run8 in H. cbv zeta in H. unfold RNM in HR.
    destruct (h_runner e) as [r|] eqn:ER; [|discriminate].
    assert (HN : NM r) by (apply HR; first [exact ER | reflexivity]).
    destruct (instr_Run _ _ _ _ _ _) as [exe|er|] eqn:EX; [| |discriminate].
    2: { inversion H; subst. split; [apply INV_set_x; [exact HI|reflexivity]|eu_done ER HN]. }
    rewrite (nomem_no_change _ _ _ _ _ _ _ HN EX) in H.
    destruct (Return exe); [inversion H; subst; split; [apply INV_set_x; [exact HI|reflexivity]|eu_done ER HN]|].
    (* whatever the branch unit and the alias tables do, the core of the machine is not theirs *)
    destruct (q_fwder r) as [ch|].
    - destruct (aget ch _); [discriminate|]. destruct (InstructionType_IsBranch _); [discriminate|].
      injection H as <- <- _. split; [apply INV_set_x; [exact HI|reflexivity]|eu_done ER HN].
    - destruct (InstructionType_IsUnconditionalBranch _), (InstructionType_IsConditionalBranch _), (PcChange exe);
        cbn [andb] in H; try destruct (negb _); try destruct (bu_should_flush6 _ _) as [b' fl]; injection H as <- <- _;
        (split; [apply INV_set_x; [exact HI|reflexivity]|eu_done ER HN]).
  Qed.

  (* prepareRun on an instruction that is not a load goes straight to run *)
  Lemma eu_prepare8_inv : forall labels ord cycle y i e y' e' o,
    eu_prepare8 labels ord cycle y i e = Ok (y', e', o) -> INV y -> EU e -> INV y' /\ EU e'.
  Proof.
    intros labels ord cycle y i e y' e' o H HI HE. unfold eu_prepare8 in H. cbv zeta in H.
    destruct (negb _); [inversion H; subst; split; assumption|].
    pose proof HE as [_ HR]. unfold RNM in HR.
    destruct (h_runner e) as [r|] eqn:ER; [|discriminate].
    assert (HN : NM r) by (apply HR; first [exact ER | reflexivity]).
    destruct (q_recv r) as [ch|].
    - destruct (aget ch (x_chan (y_x y))) as [v|]; [|inversion H; subst; split; assumption].
      cbv beta iota zeta in H. rewrite nomem_no_read in H by exact HN.
      eapply eu_run8_inv; [exact H| |].
      + apply INV_set_x; [exact HI|]. cbn [set_x y_x]. rewrite core_bu_assert3. reflexivity.
      + intros r' Hr'. cbn [h_runner] in Hr'. inversion Hr'; subst. exact HN.
    - cbv beta iota zeta in H. rewrite nomem_no_read in H by exact HN.
      eapply eu_run8_inv; [exact H| |].
      + apply INV_set_x; [exact HI|]. cbn [set_x y_x]. rewrite core_bu_assert3. reflexivity.
      + intros r' Hr'. cbn [h_runner] in Hr'. inversion Hr'; subst. exact HN.
  Qed.

  Lemma eu_cycle8_inv : forall labels ord cycle y i e y' e' o,
    eu_cycle8 labels ord cycle y i e = Ok (y', e', o) -> INV y -> EU e -> INV y' /\ EU e'.
  Proof.
    intros labels ord cycle y i e y' e' o H HI HE. unfold eu_cycle8 in H. cbv zeta in H.
    pose proof HE as [HC HR].
    match type of H with (if ?pre then _ else _) = _ => destruct pre end.
    - destruct (eu_pending8 y e); [discriminate|].
      apply bind_ok in H as ([y1 e1] & EF & H). inversion H; subst.
      eapply eu_flush8_inv; eassumption.
    - destruct HC as [HC|HC]; rewrite HC in H.
      + destruct (pick8 _ _ _) as [[r q']|] eqn:EP; [|inversion H; subst; split; assumption].
        pose proof HI as (I1 & I2 & (P1 & P2 & P3 & P4 & P5)).
        destruct (pick8_ok NM _ _ _ _ _ EP (proj2 P4)) as [HN HQ].
        eapply eu_prepare8_inv; [exact H| |].
        * apply INV_set_x_px; [exact HI|]. unfold Mvp80RegOnly.PX. cbn [set_ebus3 x_m x_ebus x_pend].
          split5; try assumption. apply on_bus_setq; assumption.
        * split; [right; reflexivity|exact (runner_some NM _ _ _ _ HN)].
      + eapply eu_prepare8_inv; eassumption.
  Qed.

  (* --- the loops over the execute units --- *)

  Lemma eus_main8_inv : forall labels ord cycle eus y i acc y' eus' o,
    eus_main8 labels ord cycle y i eus acc = Ok (y', eus', o) -> INV y -> Forall EU eus -> INV y' /\ Forall EU eus'.
  Proof.
    intros labels ord cycle. induction eus as [|e t IH]; intros y i acc y' eus' o H HI HE; cbn [eus_main8] in H.
    - inversion H; subst. split; [exact HI|constructor].
    - inversion HE as [|? ? HE1 HET]; subst.
      apply bind_ok in H as ([[y1 e1] o1] & E1 & H).
      apply eu_cycle8_inv in E1; [|exact HI|apply EU_set_hseq; exact HE1]. destruct E1 as [HI1 HE1'].
      destruct (y_err o1).
      + inversion H; subst. split; [exact HI1|constructor; assumption].
      + cbv zeta in H. apply bind_ok in H as ([[y2 t'] acc2] & E2 & H). inversion H; subst.
        apply IH in E2; [|exact HI1|exact HET]. destruct E2 as [A B]. split; [exact A|constructor; assumption].
  Qed.

  Lemma eus_drain8_inv : forall labels ord cycle eus y i y' eus' er,
    eus_drain8 labels ord cycle y i eus = Ok (y', eus', er) -> INV y -> Forall EU eus -> INV y' /\ Forall EU eus'.
  Proof.
    intros labels ord cycle. induction eus as [|e t IH]; intros y i y' eus' er H HI HE; cbn [eus_drain8] in H.
    - inversion H; subst. split; [exact HI|constructor].
    - inversion HE as [|? ? HE1 HET]; subst. destruct (eu_empty8 e).
      + apply bind_ok in H as ([[y2 t'] er2] & E2 & H). inversion H; subst.
        apply IH in E2; [|exact HI|exact HET]. destruct E2 as [A B]. split; [exact A|constructor; assumption].
      + apply bind_ok in H as ([[y1 e1] o1] & E1 & H).
        apply eu_cycle8_inv in E1; [|exact HI|exact HE1]. destruct E1 as [HI1 HE1'].
        destruct (y_err o1).
        * inversion H; subst. split; [exact HI1|constructor; assumption].
        * apply bind_ok in H as ([[y2 t'] er2] & E2 & H). inversion H; subst.
          apply IH in E2; [|exact HI1|exact HET]. destruct E2 as [A B]. split; [exact A|constructor; assumption].
  Qed.

  Lemma eus_flush8_inv : forall labels ord from eus y i acc y' eus' acc',
    eus_flush8 labels ord from y i eus acc = Ok (y', eus', acc') -> INV y -> Forall EU eus -> INV y' /\ Forall EU eus'.
  Proof.
    intros labels ord from. induction eus as [|e t IH]; intros y i acc y' eus' acc' H HI HE; cbn [eus_flush8] in H.
    - inversion H; subst. split; [exact HI|constructor].
    - inversion HE as [|? ? HE1 HET]; subst. destruct (eu_empty8 e && negb (eu_pending8 y e)).
      + apply bind_ok in H as ([[y2 t'] acc2] & E2 & H). inversion H; subst.
        apply IH in E2; [|exact HI|exact HET]. destruct E2 as [A B]. split; [exact A|constructor; assumption].
      + apply bind_ok in H as ([[y1 e1] o1] & E1 & H).
        apply eu_cycle8_inv in E1; [|exact HI|exact HE1]. destruct E1 as [HI1 HE1'].
        destruct (y_err o1).
        * inversion H; subst. split; [exact HI1|constructor; assumption].
        * cbv zeta in H. apply bind_ok in H as ([[y2 t'] acc2] & E2 & H). inversion H; subst.
          apply IH in E2; [|exact HI1|exact HET]. destruct E2 as [A B]. split; [exact A|constructor; assumption].
  Qed.

  Lemma eus_final8_inv : forall labels ord cycle eus y i y' eus' b,
    eus_final8 labels ord cycle y i eus = Ok (y', eus', b) -> INV y -> Forall EU eus -> INV y' /\ Forall EU eus'.
  Proof.
    intros labels ord cycle. induction eus as [|e t IH]; intros y i y' eus' b H HI HE; cbn [eus_final8] in H.
    - inversion H; subst. split; [exact HI|constructor].
    - inversion HE as [|? ? HE1 HET]; subst. cbv zeta in H.
      match type of H with (if ?cond then _ else _) = _ => destruct cond end.
      + apply bind_ok in H as ([[y2 t'] b2] & E2 & H). inversion H; subst.
        apply IH in E2; [|exact HI|exact HET]. destruct E2 as [A B]. split; [exact A|constructor; assumption].
      + destruct (nth_error (y_ccs y) i); [|discriminate].
        apply bind_ok in H as ([[y1 e1] o1] & E1 & H).
        apply eu_cycle8_inv in E1; [|exact HI|exact HE1]. destruct E1 as [HI1 HE1'].
        apply bind_ok in H as ([[y2 t'] b2] & E2 & H). inversion H; subst.
        apply IH in E2; [|exact HI1|exact HET]. destruct E2 as [A B]. split; [exact A|constructor; assumption].
  Qed.

  Lemma eus_flush_all8_inv : forall eus y i y' eus',
    eus_flush_all8 y i eus = Ok (y', eus') -> INV y -> Forall EU eus -> INV y' /\ Forall EU eus'.
  Proof.
    induction eus as [|e t IH]; intros y i y' eus' H HI HE; cbn [eus_flush_all8] in H.
    - inversion H; subst. split; [exact HI|constructor].
    - inversion HE as [|? ? HE1 HET]; subst.
      apply bind_ok in H as ([y1 e1] & E1 & H).
      apply eu_flush8_inv in E1; [|exact HI|exact (proj2 HE1)]. destruct E1 as [HI1 HE1'].
      apply bind_ok in H as ([y2 t'] & E2 & H). cbn [fst snd] in *. inversion H; subst.
      apply IH in E2; [|exact HI1|exact HET]. destruct E2 as [A B]. split; [exact A|constructor; assumption].
  Qed.

  (* --- the end of Run --- *)

  (* finish8 with empty caches returns the memory unchanged and adds 0 cycles *)
  Lemma finish8_idle : forall ord y cycle, INV y ->
    finish8 ord y cycle =
    MDone (cycle + (0 + 0)) (mk_arch (rat_flush3 ord cycle (rat_commit3 ord cycle (y_x (put_mw y (mw_of y))))) mem0).
  Proof.
    intros ord y cycle (I1 & I2 & (P1 & P2 & _)). unfold finish8.
    rewrite I2, (ccs_writeback_idle ccs0 (mw_of y) 0 Hccs). cbn [bind fst snd mw_of w_l3].
    rewrite P2, Hl3. cbn [l3_writeback_lines bind fst snd w_mem]. cbn [mw_of w_mem]. rewrite P1. reflexivity.
  Qed.

  (* --- one tick --- *)

  Definition SI (s : st8) : Prop := INV (v_y s) /\ Forall EU (v_eus s) /\ Forall WU (v_wus s).

  Definition res_ok (r : step_res8) : Prop :=
    match r with
    | VCont s' => SI s'
    | VDone (MDone _ st') _ => mem st' = mem0
    | VDone _ _ => True
    end.

  Lemma res_of8_ok : forall {A} os (o : outcome A) k,
    (forall x, o = Ok x -> res_ok (k x)) -> res_ok (res_of8 os o k).
  Proof. intros A os o k H. apply res_of8_prop; [exact H|intros e; exact I|exact I]. Qed.

  Lemma ret_check8_ok : forall s, SI s -> res_ok (ret_check8 s).
  Proof.
    intros s HS. unfold ret_check8.
    match goal with |- res_ok (if ?c then _ else _) => destruct c end; exact HS.
  Qed.

  Lemma flush_advance8_ok : forall s k seq pc from empty, SI s -> res_ok (flush_advance8 s k seq pc from empty).
  Proof.
    intros s k seq pc from empty (HI & HE & HW). unfold flush_advance8.
    destruct (flush_next _ _ _) as [k'|]; [split; [exact HI|split; assumption]|].
    destruct empty; [|split; [exact HI|split; assumption]].
    cbv zeta. apply res_of8_ok. intros [y1 eus1] EF. cbn [fst snd].
    apply eus_flush_all8_inv in EF; [| |exact HE].
    - destruct EF as [A B]. split; [exact A|split; assumption].
    - apply INV_set_x_px; [exact HI|]. apply do_flush3_px. destruct HI as (_ & _ & I3). exact I3.
  Qed.

  Lemma Forall_EU_set_hseq : forall eus s, Forall EU eus -> Forall EU (map (fun e => set_hseq e s) eus).
  Proof. intros eus s H. apply Forall_map. eapply Forall_impl; [|exact H]. intros e HE. exact HE. Qed.

  Lemma back8_ok : forall s cycle y eus1 o,
    Forall WU (v_wus s) -> INV y -> Forall EU eus1 -> res_ok (back8 s cycle (y, eus1, o)).
  Proof.
    intros s cycle y eus1 o HW HI HE. unfold back8.
    destruct (y_err o); [exact I|].
    apply res_of8_ok. intros [x1 wus1] EW. cbv zeta. cbn [fst snd].
    apply wus_cycle8_px in EW; [|exact HW]. destruct EW as [EC HW1].
    assert (HI1 : INV (set_x y x1)) by (apply INV_set_x; assumption).
    destruct (y_ret o).
    - apply ret_check8_ok. split; [|split; assumption]. cbn [v_y]. unfold wbus_connect8.
      apply INV_set_x; [exact HI1|]. apply core_wbus_connect3.
    - destruct (y_flush o).
      + split; [exact HI1|split; [apply Forall_EU_set_hseq; exact HE|exact HW1]].
      + destruct (is_empty8 _ _ _); (split; [exact HI1|split; assumption]).
  Qed.

  Theorem step8_ok : forall labels ord s, SI s -> res_ok (step8 app labels ord s).
  Proof.
    intros labels ord s (HI & HE & HW). unfold step8. cbv zeta.
    destruct (v_mode s) as [| |seq pc from|k seq pc from empty|] eqn:EM.
    - (* PNormal *)
      apply res_of8_ok. intros y1 E1. apply front8_inv in E1; [|exact HI].
      apply res_of8_ok. intros y2 E2. apply snoops8_inv in E2; [|exact E1].
      apply res_of8_ok. intros [[y3 eus1] o] E3. apply eus_main8_inv in E3; [|exact E2|exact HE].
      destruct E3 as [A B]. apply back8_ok; assumption.
    - (* PRet *)
      apply res_of8_ok. intros y1 E1. apply snoops8_inv in E1; [|exact HI].
      apply res_of8_ok. intros [[y2 eus1] er] E2. apply eus_drain8_inv in E2; [|exact E1|exact HE].
      destruct E2 as [A B]. destruct er; [exact I|].
      apply res_of8_ok. intros [x1 wus1] EW. cbv zeta. cbn [fst snd].
      apply wus_cycle8_px in EW; [|exact HW]. destruct EW as [EC HW1].
      apply ret_check8_ok. split; [|split; assumption]. cbn [v_y]. unfold wbus_connect8.
      apply INV_set_x; [apply INV_set_x; assumption|]. apply core_wbus_connect3.
    - (* PFlushE *)
      apply res_of8_ok. intros y1 E1. apply snoops8_inv in E1; [|exact HI].
      apply res_of8_ok. intros [[y2 eus1] acc] E2. apply eus_flush8_inv in E2; [|exact E1|exact HE].
      destruct E2 as [A B]. destruct (a_err acc); [exact I|].
      apply flush_advance8_ok. split; [|split; assumption]. cbn [v_y]. unfold wbus_connect8.
      apply INV_set_x; [exact A|]. apply core_wbus_connect3.
    - (* PFlushW *)
      destruct (nth_error (v_wus s) k) as [w|] eqn:EN; [|exact I].
      apply res_of8_ok. intros [x1 w1] EW.
      assert (HWk : WU w). { rewrite Forall_forall in HW. apply HW. eapply nth_error_In; exact EN. }
      apply wu_cycle8_px in EW; [|exact HWk]. destruct EW as [EC HW1].
      apply flush_advance8_ok. cbn [fst snd]. split; [|split].
      + cbn [v_y]. apply INV_set_x; assumption.
      + exact HE.
      + cbn [v_wus]. apply Forall_set_nth6; assumption.
    - (* PFinal *)
      apply res_of8_ok. intros y1 E1. apply snoops8_inv in E1; [|exact HI].
      apply res_of8_ok. intros [[y2 eus1] busy] E2. apply eus_final8_inv in E2; [|exact E1|exact HE].
      destruct E2 as [A B].
      match goal with |- res_ok (if ?c then _ else _) => destruct c end.
      + rewrite (finish8_idle ord y2 _ A). reflexivity.
      + split; [exact A|split; assumption].
  Qed.

  Lemma run8_st_ok : forall fuel labels ord s c st' os,
    SI s -> run8_st fuel app labels ord s = inl (MDone c st', os) -> mem st' = mem0.
  Proof.
    induction fuel as [|f IH]; intros labels ord s c st' os HS H; cbn [run8_st] in H; [discriminate|].
    pose proof (step8_ok labels ord s HS) as HR.
    destruct (step8 app labels ord s) as [r os1|s1].
    - inversion H; subst. exact HR.
    - eapply IH; [exact HR|exact H].
  Qed.

  Lemma run8_st_SI : forall fuel labels ord s s', SI s -> run8_st fuel app labels ord s = inr s' -> SI s'.
  Proof.
    induction fuel as [|f IH]; intros labels ord s s' HS H; cbn [run8_st] in H.
    - inversion H; subst. exact HS.
    - pose proof (step8_ok labels ord s HS) as HR.
      destruct (step8 app labels ord s) as [r os1|s1]; [discriminate|]. eapply IH; [exact HR|exact H].
  Qed.
End Mach.

Lemma init8_SI : forall par ord app st s,
  init8 par ord app st = Ok s ->
  exists c3 ccs0, lines c3 = [] /\ Forall cc_idle ccs0 /\ SI (mem st) c3 msi_new ccs0 s.
Proof.
  intros par ord app st s H. unfold init8 in H.
  destruct (new_cache l1LineSize l1Size) as [ci| |]; try discriminate.
  destruct (new_cache l3LineSize8 l3Size8) as [c3| |] eqn:E3; try discriminate.
  destruct (new_cache l1dLineSize l1dSize) as [cd| |] eqn:ED; try discriminate.
  cbv zeta in H. inversion H; subst. clear H.
  pose proof (new_cache_lines _ _ _ E3) as H3.
  assert (HD : existing_lines cd = Ok []) by (vm_compute in ED; inversion ED; reflexivity).
  exists c3, (map (fun i => mk_cc (Z.of_nat i) cd RdStart WrStart [] [] [] None) (seq 0 par)).
  split; [exact H3|].
  assert (HC : Forall cc_idle (map (fun i => mk_cc (Z.of_nat i) cd RdStart WrStart [] [] [] None) (seq 0 par))).
  { apply Forall_map. apply Forall_forall. intros i _. unfold cc_idle. cbn [c_read c_write c_snoop c_rsems c_wsems c_l1d].
    repeat split; try reflexivity. exact HD. }
  split; [exact HC|].
  split; [|split].
  - cbn [v_y]. split; [reflexivity|]. split; [reflexivity|].
    unfold PX. cbn [y_x x_m x_ebus x_pend m_mem m_l3 m_cbus].
    split5; try reflexivity; try apply on_bus_new. constructor.
  - cbn [v_eus]. apply Forall_forall. intros e HE. apply repeat_spec in HE. subst.
    split; [left; reflexivity|]. intros r Hr. discriminate Hr.
  - cbn [v_wus]. apply Forall_forall. intros w HW. apply repeat_spec in HW. subst. reflexivity.
Qed.

(* on a program without loads and stores a run of MVP-8.0 that returns returns the initial memory *)
Theorem mvp80_regonly_memory_unchanged : forall par ord fuel app labels st c st' os,
  regonly app = true ->
  mvp80_run_os par ord fuel app labels st = (MDone c st', os) -> mem st' = mem st.
Proof.
  intros par ord fuel app labels st c st' os HA H. unfold mvp80_run_os in H.
  destruct (init8 par ord app st) as [s| |] eqn:EI; try discriminate.
  destruct (init8_SI _ _ _ _ _ EI) as (c3 & ccs0 & H3 & HC & HS).
  destruct (run8_st fuel app labels ord s) as [r|s'] eqn:ER; [|discriminate].
  subst r.
  exact (run8_st_ok (mem st) c3 msi_new ccs0 app HA eq_refl eq_refl HC H3 fuel labels ord s c st' os HS ER).
Qed.

(* the invariant holds in every state a run reaches: the memory system is never used *)
Theorem mvp80_regonly_memsys_idle : forall par ord fuel app labels st s s',
  regonly app = true -> init8 par ord app st = Ok s -> run8_st fuel app labels ord s = inr s' ->
  y_msi (v_y s') = msi_new /\ y_ccs (v_y s') = y_ccs (v_y s) /\
  m_mem (x_m (y_x (v_y s'))) = mem st /\ m_l3 (x_m (y_x (v_y s'))) = m_l3 (x_m (y_x (v_y s))) /\
  Forall (fun e => h_co e = HNone \/ h_co e = HPrepare) (v_eus s') /\ Forall (fun w => u_co w = WNone) (v_wus s').
Proof.
  intros par ord fuel app labels st s s' HA EI ER.
  destruct (init8_SI _ _ _ _ _ EI) as (c3 & ccs0 & H3 & HC & HS).
  pose proof (run8_st_SI (mem st) c3 msi_new ccs0 app HA eq_refl eq_refl HC H3 fuel labels ord s s' HS ER) as HS'.
  destruct HS as ((A1 & A2 & (A3 & A4 & _)) & _ & _).
  destruct HS' as ((B1 & B2 & (B3 & B4 & _)) & BE & BW).
  split; [exact B1|]. split; [congruence|]. split; [exact B3|]. split; [congruence|].
  split; [|exact BW]. eapply Forall_impl; [|exact BE]. intros e [HE _]. exact HE.
Qed.

(* the hypotheses are satisfiable by a run that returns: li t0, 11 ; beq zero, zero, L1 ; add t1, t0, t0 ;
   L1: li a0, 9 ; ret on three cores (a mispredicted branch, a flush, a wrong-path instruction) *)
Definition ro_prog : list instr :=
  [I_li (mk_li 5 11); I_beq (mk_beq 0 0 1); I_add (mk_add 6 5 5); I_li (mk_li 10 9); I_ret mk_ret].
Example regonly_run_returns :
  regonly ro_prog = true /\
  reg_of (mvp80_run 3 ord_asc 4000 ro_prog (one_label 12) (st_of [] [(0, 5); (70, 3)])) 10 = Some 9.
Proof. vm_compute. split; reflexivity. Qed.

Print Assumptions nomem_no_read.
Print Assumptions nomem_no_change.
Print Assumptions snoops8_idle.
Print Assumptions eu_cycle8_inv.
Print Assumptions finish8_idle.
Print Assumptions step8_ok.
Print Assumptions mvp80_regonly_memsys_idle.
Print Assumptions mvp80_regonly_memory_unchanged.
