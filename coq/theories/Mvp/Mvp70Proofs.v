(* Facts about the cycle-level model of MVP-7.0 / MVP-7.1 (Mvp70.v, Mvp71.v).

   1. Witnesses, closed by vm_compute on the model (the Go code gives the same lines through the harness):
        flush_loop_hang     three units finish in the cycle in which a flush is decided: the write bus holds more
                            entries than its queue takes in one Connect, and the loop
                            `for !wu.isEmpty() || !m.writeBus.IsEmpty()` before the flush never ends (Connect is
                            outside it).  Out of fuel at 3 units, fine at 2.          [bounded: 6000 ticks]
        flush_unlock_panic  a wrong-path store has taken the write lock of its line when the branch is resolved:
                            the Pre hook of its unit flushes the controller (Unlock), cacheController.flush leaves
                            the entry in lockSems (it deletes from rlockSems), CPU.flush flushes the controller
                            again: Unlock of a free semaphore, panic("write is negative").  3 units; fine at 2.
        stale_load          no ordering between a store and a younger load of the same bytes on another core:
                            the load fetches the line from memory while the store is still waiting for its own
                            fetch.  4 units: s3 = 0 instead of -1280; fine at 1.
        stale_forward_hang  MVP-7.1 only: in the cycle in which the control unit refreshes its copy of the MSI states
                            it returns before installing the deferred function, so pushedRunnersInPreviousCycle
                            still holds the runners of the cycle before; the next cycle forwards from one of them,
                            but an execute unit has already copied that runner (u.runner = *runner): the Forwarder
                            assigned through the pointer is never used, the receiver waits for ever.
                            2 units: out of fuel in 7.1, fine in 7.0.                 [bounded: 6000 ticks]
   2. step7_tick_ok: how a tick can end, whatever the hooks - with an error or a panic, by going on without the cycle
      counter going back, or, from the final loop only, with the result of Run one cycle later at least.  Hence
      run7_cycles_pos / mvp70_cycles_pos / mvp71_cycles_pos: a run that returns reports at least one cycle.
   3. run7_st_ord_irrelevant / mvp70_ord_irrelevant / mvp71_ord_irrelevant: soundness of the ghost flag - a run
      that ends with the flag clear returns the same result for all iteration orders of
      controlUnit.pushedRunnersInPreviousCycle (order functions that agree on the RAT value maps, as in
      Mvp63Proofs.v).  The memory system takes no order argument at all.
   4. mvp70_dispatch_width: the control unit is that of MVP-6.3 - at most two instructions per cycle reach the
      execute bus whatever the number of cores (it is cu_dispatch_bound3 of Mvp63Proofs.v). *)
From Coq Require Import ZArith List Bool Lia.
From Maj Require Import Base.Outcome Base.GoInt Base.GoTypes Isa.Spec Isa.Seq Isa.Refine.
From Maj Require Import Gen.Latency Gen.RiscTables Gen.Opcodes Comp.Cache Comp.Rat Mvp.Mvp12 Mvp.Mvp3 Mvp.Mvp5 Mvp.Mvp60 Mvp.Mvp63 Mvp.Mvp70 Mvp.Mvp71.
From Maj Require Import Mvp.Mvp60Proofs Mvp.Mvp63Proofs Mvp.Mvp63Class.
Import ListNotations.
Open Scope Z_scope.

Definition st7_of (memsize : nat) (rs : list (Z * Z)) (ms : list (Z * Z)) : arch :=
  mk_arch (fold_left (fun r p => Seq.upd r (Z.to_nat (fst p)) (snd p)) rs (repeat 0 32))
          (fold_left (fun m p => Seq.upd m (Z.to_nat (fst p)) (snd p)) ms (repeat 0 memsize)).

Definition cycles_of (r : mres) : option Z := match r with MDone c _ => Some c | _ => None end.

(* li a5, 5 ; L1: lw t4, 0(a2) ; lw t5, 0(a2) ; addi a5, a5, -1 ; bnez a5, L1 *)
Definition hang_prog : list instr :=
  map instr_of [SLi 15 5; SLw 29 0 12; SLw 30 0 12; SAddi 15 15 (-1); SBnez 15 1].
Example flush_loop_hang :
  cycles_of (mvp70_run 2 ord_asc 6000 hang_prog (one_label 4) (st7_of 128 [] [])) = Some 669 /\
  mvp70_run 3 ord_asc 6000 hang_prog (one_label 4) (st7_of 128 [] []) = MOutOfFuel /\
  mvp71_run 3 ord_asc 6000 hang_prog (one_label 4) (st7_of 128 [] []) = MOutOfFuel.
Proof. vm_compute. repeat split. Qed.

(* lw s0, 0(a1) ; bne s2, s0, L1 ; li a2, 945 ; sb a2, 2(a2) ; L1:      mem[3] = -56 *)
Definition unlock_prog : list instr :=
  map instr_of [SLw 8 0 11; SBne 18 8 1; SLi 12 945; SSb 12 2 12].
Example flush_unlock_panic :
  cycles_of (mvp70_run 2 ord_asc 3000 unlock_prog (one_label 16) (st7_of 1024 [] [(3, -56)])) = Some 631 /\
  mvp70_run 3 ord_asc 3000 unlock_prog (one_label 16) (st7_of 1024 [] [(3, -56)]) = MPanic /\
  mvp71_run 3 ord_asc 3000 unlock_prog (one_label 16) (st7_of 1024 [] [(3, -56)]) = MPanic.
Proof. vm_compute. repeat split. Qed.

(* lh t4, 0(t0) ; li t2, 59 ; sb s0, 0(t2) ; li s7, 58 ; lh s3, 0(s7)      s0 = 1897636091 (low byte -5) *)
Definition stale_prog : list instr :=
  map instr_of [SLh 29 0 5; SLi 7 59; SSb 8 0 7; SLi 23 58; SLh 19 0 23].
Example stale_load :
  reg_of (mvp12_run V1 1000 stale_prog no_labels (st7_of 64 [(8, 1897636091)] [])) 19 = Some (-1280) /\
  reg_of (mvp70_run 1 ord_asc 3000 stale_prog no_labels (st7_of 64 [(8, 1897636091)] [])) 19 = Some (-1280) /\
  reg_of (mvp70_run 4 ord_asc 3000 stale_prog no_labels (st7_of 64 [(8, 1897636091)] [])) 19 = Some 0.
Proof. vm_compute. repeat split. Qed.

(* li a0, 1484 ; ori s1, t6, 1 ; lw t2, 60(a0) ; lw t2, 64(a2) ; li a0, 1540 ; sw t6, 0(a0) ; li a0, 380 ; sw s1, 0(a0) *)
Definition stalefwd_prog : list instr :=
  map instr_of [SLi 10 1484; SOri 9 31 1; SLw 7 60 10; SLw 7 64 12; SLi 10 1540; SSw 31 0 10; SLi 10 380; SSw 9 0 10].
Example stale_forward_hang :
  cycles_of (mvp70_run 2 ord_asc 6000 stalefwd_prog no_labels (st7_of 2048 [] [])) = Some 1562 /\
  cycles_of (mvp71_run 1 ord_asc 6000 stalefwd_prog no_labels (st7_of 2048 [] [])) = Some 1878 /\
  mvp71_run 2 ord_asc 6000 stalefwd_prog no_labels (st7_of 2048 [] []) = MOutOfFuel.
Proof. vm_compute. repeat split. Qed.

Lemma cc_export_ge : forall i id ls mem c0 mem' c, cc_export i id ls mem c0 = Ok (mem', c) -> c0 <= c.
Proof.
  intros i id ls. induction ls as [|l t IH]; intros mem c0 mem' c H; cbn [cc_export] in H.
  - injection H as _ <-. lia.
  - destruct (negb _).
    + eapply IH; exact H.
    + apply bind_ok in H as (m1 & _ & H). apply IH in H. unfold MemoryAccess in H. lia.
Qed.

Lemma export7_ge : forall i eus id mem c0 mem' c, export7 i id eus mem c0 = Ok (mem', c) -> c0 <= c.
Proof.
  intros i eus. induction eus as [|e t IH]; intros id mem c0 mem' c H; cbn [export7] in H.
  - injection H as _ <-. lia.
  - apply bind_ok in H as ([m1 c1] & E & H). apply cc_export_ge in E. apply IH in H. simpl in H. lia.
Qed.

Lemma finish7_ge : forall ord w eus cycle c st, finish7 ord w eus cycle = MDone c st -> cycle <= c.
Proof.
  intros ord w eus cycle c st H. unfold finish7 in H.
  destruct (export7 _ _ _ _ _) as [[mem' c']| |] eqn:E; try discriminate.
  inversion H; subst. apply export7_ge in E. lia.
Qed.

(* a tick as Mvp63Class.v sees it: the result of Run, or the cycle counter of the state Run goes on from *)
Definition seen7 (r : step_res7) : mres + Z :=
  match r with UDone m _ => inl m | UCont s' => inr (v_cycle s') end.

Lemma res_of7_prop : forall A os (o : outcome A) k (P : step_res7 -> Prop),
  (forall x, o = Ok x -> P (k x)) -> (forall e, P (UDone (MErr e) os)) -> P (UDone MPanic os) -> P (res_of7 os o k).
Proof. intros A os o k P H1 H2 H3. destruct o; simpl; auto. Qed.

Lemma res_of7_goes_on : forall A n os (o : outcome A) k,
  (forall x, goes_on n (seen7 (k x))) -> goes_on n (seen7 (res_of7 os o k)).
Proof.
  intros A n os o k H. apply (res_of7_prop A os o k (fun r => goes_on n (seen7 r))); [intros x _; apply H|intros e; exact I|exact I].
Qed.

Lemma ret_check7_goes_on : forall s, goes_on (v_cycle s) (seen7 (ret_check7 s)).
Proof. intros s. unfold ret_check7. destruct (_ && _); simpl; lia. Qed.

Lemma flush_advance7_goes_on : forall s k seq pc from empty, goes_on (v_cycle s) (seen7 (flush_advance7 s k seq pc from empty)).
Proof.
  intros s k seq pc from empty. unfold flush_advance7.
  destruct (flush_next _ _ _); [simpl; lia|]. destruct empty; [|simpl; lia].
  apply res_of7_goes_on. intros r. simpl. unfold Flush. lia.
Qed.

Lemma back7_goes_on : forall s cycle z, goes_on cycle (seen7 (back7 s cycle z)).
Proof.
  intros s cycle [[w eus1] o]. unfold back7. destruct (y_err o); [exact I|].
  apply res_of7_goes_on. intros [x wus1].
  destruct (y_ret o); [apply (goes_on_le _ (cycle + 1)); [lia|exact (ret_check7_goes_on (mk_st7 _ _ _ (cycle + 1) _))]|].
  destruct (y_flush o); [simpl; lia|]. destruct (is_empty7 _ _ _); simpl; lia.
Qed.

Lemma step7_tick_ok : forall hk app labels ord s,
  tick_ok (v_mode s = QFinal) (v_cycle s) (seen7 (step7 hk app labels ord s)).
Proof.
  intros hk app labels ord s. unfold step7.
  destruct (v_mode s) as [| | seq pc from | k seq pc from empty |].
  - apply goes_on_tick_ok. apply res_of7_goes_on. intros w1. apply res_of7_goes_on. intros r.
    apply res_of7_goes_on. intros z. apply (goes_on_le _ (v_cycle s + 1)); [lia|apply back7_goes_on].
  - apply goes_on_tick_ok. apply res_of7_goes_on. intros r. apply res_of7_goes_on. intros [[w1 eus1] er].
    destruct er; [exact I|]. apply res_of7_goes_on. intros [x2 wus1].
    apply (goes_on_le _ (v_cycle s + 1)); [lia|exact (ret_check7_goes_on (mk_st7 _ _ _ (v_cycle s + 1) _))].
  - apply goes_on_tick_ok. apply res_of7_goes_on. intros r. apply res_of7_goes_on. intros [[w1 eus1] acc].
    destruct (a_err acc); [exact I|].
    apply (goes_on_le _ (v_cycle s + 1)); [lia|apply flush_advance7_goes_on].
  - apply goes_on_tick_ok. destruct (nth_error (v_wus s) k); [|exact I].
    apply res_of7_goes_on. intros r. exact (flush_advance7_goes_on (mk_st7 _ _ _ (v_cycle s) _) _ _ _ _ _).
  - apply (res_of7_prop _ _ _ _ (fun r => tick_ok _ _ (seen7 r))); [|intros e; exact I|exact I]. intros r _.
    apply (res_of7_prop _ _ _ _ (fun r => tick_ok _ _ (seen7 r))); [|intros e; exact I|exact I]. intros [[w1 eus1] skipped] _.
    destruct (_ && _); [|simpl; lia].
    pose proof (finish7_ge ord w1 eus1 (v_cycle s + 1)) as G. unfold finish7 in *.
    destruct (export7 _ _ _ _ _) as [[mem' c']| |]; [|exact I|exact I].
    split; [reflexivity|]. eapply G. reflexivity.
Qed.

Lemma step7_done : forall hk app labels ord s c st os,
  step7 hk app labels ord s = UDone (MDone c st) os -> v_mode s = QFinal /\ v_cycle s + 1 <= c.
Proof. intros hk app labels ord s c st os H. pose proof (step7_tick_ok hk app labels ord s) as T. rewrite H in T. exact T. Qed.

Lemma step7_cont : forall hk app labels ord s s',
  step7 hk app labels ord s = UCont s' -> v_cycle s <= v_cycle s'.
Proof. intros hk app labels ord s s' H. pose proof (step7_tick_ok hk app labels ord s) as T. rewrite H in T. exact T. Qed.

(* whatever the hooks: a run that returns reports at least one cycle, and MOutOfFuel only when the fuel is spent *)
Theorem run7_cycles_pos : forall hk fuel app labels ord s c st os,
  0 <= v_cycle s ->
  run7_st hk fuel app labels ord s = inl (MDone c st, os) -> 1 <= c.
Proof.
  intros hk. induction fuel as [|f IH]; intros app labels ord s c st os Hs H; simpl in H; try discriminate.
  destruct (step7 hk app labels ord s) as [r os'|s'] eqn:E.
  - inversion H; subst. apply step7_done in E. lia.
  - apply step7_cont in E. eapply IH; [|exact H]. lia.
Qed.

Lemma run7_st_oof : forall hk fuel app labels ord s os, run7_st hk fuel app labels ord s = inl (MOutOfFuel, os) -> False.
Proof.
  intros hk. induction fuel as [|f IH]; intros app labels ord s os H; cbn [run7_st] in H; [discriminate|].
  pose proof (step7_tick_ok hk app labels ord s) as T.
  destruct (step7 hk app labels ord s) as [r os1|s1].
  - inversion H; subst. exact T.
  - eapply IH. exact H.
Qed.

Lemma init7_cycle : forall par ord app st s, init7 par ord app st = Ok s -> v_cycle s = 0.
Proof.
  intros par ord app st s H. unfold init7 in H.
  destruct (init3 par ord app st); try discriminate.
  destruct (new_cache l1LineSize l1Size); try discriminate.
  inversion H; reflexivity.
Qed.

(* Run of MVP-7.0 and of MVP-7.1 with the hooks as a parameter: mvp70_run_os is run7_os hooks70, mvp71_run_os is
   run7_os hooks71, by definition *)
Definition run7_os (hk : hooks7) (cores : nat) (ord : Z -> Z -> list Z -> list Z) (fuel : nat) (app : list instr)
           (labels : Z -> option Z) (st : arch) : mres * bool :=
  match init7 cores ord app st with
  | Ok s => match run7_st hk fuel app labels ord s with
            | inl r => r
            | inr s' => (MOutOfFuel, v_os (v_w s'))
            end
  | _ => (MPanic, false)
  end.

Lemma run7_os_cycles_pos : forall hk par ord fuel app labels st c st',
  fst (run7_os hk par ord fuel app labels st) = MDone c st' -> 1 <= c.
Proof.
  intros hk par ord fuel app labels st c st' H. unfold run7_os in H.
  destruct (init7 par ord app st) as [s| |] eqn:EI; try discriminate.
  destruct (run7_st hk fuel app labels ord s) as [[r os]|s'] eqn:ER; simpl in H; try discriminate.
  subst r. eapply run7_cycles_pos; [|exact ER]. apply init7_cycle in EI. lia.
Qed.

Theorem mvp70_cycles_pos : forall par ord fuel app labels st c st',
  mvp70_run par ord fuel app labels st = MDone c st' -> 1 <= c.
Proof. exact (run7_os_cycles_pos hooks70). Qed.

Theorem mvp71_cycles_pos : forall par ord fuel app labels st c st',
  mvp71_run par ord fuel app labels st = MDone c st' -> 1 <= c.
Proof. exact (run7_os_cycles_pos hooks71). Qed.

(* what the proof needs to know about the hooks: taking a runner from the execute bus leaves the flag alone,
   the front end either fails whatever the order or, when the flag is clear afterwards, gives the same machine
   for both orders *)
Record hooks_ok (hk : hooks7) : Prop := mk_hooks_ok {
  ok_take : forall id w, v_os (fst (k_take hk id w)) = v_os w;
  ok_front : forall app ord1 ord2 cycle w w', ords_ok3 ord1 ord2 ->
    k_front hk app ord1 cycle w = Ok w' -> v_os w' = false ->
    k_front hk app ord2 cycle w = Ok w' /\ v_os w = false;
  ok_front_err : forall app ord1 ord2 cycle w,
    (forall w', k_front hk app ord1 cycle w <> Ok w') -> k_front hk app ord2 cycle w = k_front hk app ord1 cycle w }.

Lemma eu_write7_os : forall id w e addrs data w' e' o, eu_write7 id w e addrs data = Ok (w', e', o) -> v_os w' = v_os w.
Proof.
  intros id w e addrs data w' e' o H. unfold eu_write7 in H.
  apply bind_ok in H as ([[i1 c1] done] & _ & H). inversion H; reflexivity.
Qed.

Lemma eu_run7_os : forall hk labels ord cycle id w e w' e' o,
  eu_run7 hk labels ord cycle id w e = Ok (w', e', o) -> v_os w' = v_os w.
Proof.
  intros hk labels ord cycle id w e w' e' o H. unfold eu_run7 in H.
  destruct (h_runner e) as [r|]; [|discriminate].
  destruct (k_rr hk (w_x w) (q_pc r) (q_seq r)) as [rr sid].
  destruct (instr_Run _ _ _ _ _ _) as [exe| |]; try discriminate.
  - destruct (Return exe); [inversion H; reflexivity|].
    destruct (MemoryChange exe); [apply eu_write7_os in H; exact H|].
    destruct (q_fwder r) as [ch|].
    + destruct (aget ch _); [discriminate|]. destruct (InstructionType_IsBranch _); [discriminate|].
      inversion H; reflexivity.
    + (* resolving a branch commits or rolls back the alias tables: the flag is not theirs *)
      destruct (InstructionType_IsUnconditionalBranch _), (InstructionType_IsConditionalBranch _), (PcChange exe);
        cbn [andb] in H; try destruct (negb _); try destruct (bu_should_flush6 _ _) as [b' fl]; injection H as <- _ _; reflexivity.
  - inversion H; reflexivity.
Qed.

Lemma eu_read7_os : forall hk labels ord cycle id w e addrs w' e' o,
  eu_read7 hk labels ord cycle id w e addrs = Ok (w', e', o) -> v_os w' = v_os w.
Proof.
  intros hk labels ord cycle id w e addrs w' e' o H. unfold eu_read7 in H.
  apply bind_ok in H as ([[i1 c1] resp] & _ & H).
  destruct resp; [apply eu_run7_os in H; exact H | inversion H; reflexivity].
Qed.

Lemma eu_prepare7_os : forall hk labels ord cycle id w e w' e' o,
  eu_prepare7 hk labels ord cycle id w e = Ok (w', e', o) -> v_os w' = v_os w.
Proof.
  intros hk labels ord cycle id w e w' e' o H. unfold eu_prepare7 in H.
  destruct (negb (bb_canadd _)); [inversion H; reflexivity|].
  destruct (h_runner e) as [r|]; [|discriminate].
  match type of H with context [match ?rcv with Some _ => _ | None => _ end] =>
    destruct rcv as [[x0 r1]|] eqn:ER end; [|inversion H; reflexivity].
  assert (HX : x_os x0 = v_os w).
  { destruct (q_recv r); [|inversion ER; reflexivity].
    destruct (aget z (x_chan (w_x w))); [|discriminate]. inversion ER; reflexivity. }
  destruct (k_rr hk _ _ _) as [rr sid].
  destruct (instr_MemoryRead _ _ _).
  - apply eu_run7_os in H. rewrite H. unfold v_os; simpl. rewrite bu_assert3_os. exact HX.
  - apply eu_read7_os in H. rewrite H. unfold v_os; simpl. rewrite bu_assert3_os. exact HX.
Qed.

Lemma eu_cycle7_os : forall hk labels ord cycle id w e w' e' o, hooks_ok hk ->
  eu_cycle7 hk labels ord cycle id w e = Ok (w', e', o) -> v_os w' = v_os w.
Proof.
  intros hk labels ord cycle id w e w' e' o K H. unfold eu_cycle7 in H.
  destruct (eu_pre7 e).
  - destruct (k_pending hk w (h_seq e)); [discriminate|].
    apply bind_ok in H as (r & _ & H). inversion H; reflexivity.
  - destruct (h_co e).
    + pose proof (ok_take hk K id w) as T. destruct (k_take hk id w) as [w1 [r|]]; simpl in T.
      * apply eu_prepare7_os in H. congruence.
      * inversion H; subst; exact T.
    + apply eu_prepare7_os in H; exact H.
    + apply eu_read7_os in H; exact H.
    + apply eu_write7_os in H; exact H.
Qed.

Lemma eus_main7_os : forall hk labels ord cycle, hooks_ok hk -> forall eus id w acc w' eus' o,
  eus_main7 hk labels ord cycle id w eus acc = Ok (w', eus', o) -> v_os w' = v_os w.
Proof.
  intros hk labels ord cycle K. induction eus as [|e t IH]; intros id w acc w' eus' o H; simpl in H.
  - inversion H; reflexivity.
  - apply bind_ok in H as ([[w1 e1] o1] & E1 & H). apply eu_cycle7_os in E1; [|exact K].
    destruct (y_err o1); [inversion H; subst; exact E1|].
    apply bind_ok in H as ([[w2 t'] acc2] & E2 & H). apply IH in E2. inversion H; subst. congruence.
Qed.

Lemma eus_drain7_os : forall hk labels ord cycle, hooks_ok hk -> forall eus id w w' eus' o,
  eus_drain7 hk labels ord cycle id w eus = Ok (w', eus', o) -> v_os w' = v_os w.
Proof.
  intros hk labels ord cycle K. induction eus as [|e t IH]; intros id w w' eus' o H; simpl in H.
  - inversion H; reflexivity.
  - destruct (eu_empty7 e).
    + apply bind_ok in H as ([[w2 t'] er] & E2 & H). apply IH in E2. inversion H; subst. exact E2.
    + apply bind_ok in H as ([[w1 e1] o1] & E1 & H). apply eu_cycle7_os in E1; [|exact K].
      destruct (y_err o1); [inversion H; subst; exact E1|].
      apply bind_ok in H as ([[w2 t'] er] & E2 & H). apply IH in E2. inversion H; subst. congruence.
Qed.

Lemma eus_flush7_os : forall hk labels ord from, hooks_ok hk -> forall eus id w acc w' eus' o,
  eus_flush7 hk labels ord from id w eus acc = Ok (w', eus', o) -> v_os w' = v_os w.
Proof.
  intros hk labels ord from K. induction eus as [|e t IH]; intros id w acc w' eus' o H; simpl in H.
  - inversion H; reflexivity.
  - destruct (_ && _).
    + apply bind_ok in H as ([[w2 t'] er] & E2 & H). apply IH in E2. inversion H; subst. exact E2.
    + apply bind_ok in H as ([[w1 e1] o1] & E1 & H). apply eu_cycle7_os in E1; [|exact K].
      destruct (y_err o1); [inversion H; subst; exact E1|].
      apply bind_ok in H as ([[w2 t'] er] & E2 & H). apply IH in E2. inversion H; subst. congruence.
Qed.

Lemma eus_final7_os : forall hk labels ord cycle, hooks_ok hk -> forall eus id w w' eus' b,
  eus_final7 hk labels ord cycle id w eus = Ok (w', eus', b) -> v_os w' = v_os w.
Proof.
  intros hk labels ord cycle K. induction eus as [|e t IH]; intros id w w' eus' b H; simpl in H.
  - inversion H; reflexivity.
  - destruct (_ && _).
    + apply bind_ok in H as ([[w2 t'] er] & E2 & H). apply IH in E2. inversion H; subst. exact E2.
    + apply bind_ok in H as ([[w1 e1] o1] & E1 & H). apply eu_cycle7_os in E1; [|exact K].
      apply bind_ok in H as ([[w2 t'] er] & E2 & H). apply IH in E2. inversion H; subst. congruence.
Qed.

Lemma snoops7_os : forall hk eus id w w' eus', snoops7 hk id w eus = Ok (w', eus') -> v_os w' = v_os w.
Proof.
  intros hk. induction eus as [|e t IH]; intros id w w' eus' H; simpl in H.
  - inversion H; reflexivity.
  - apply bind_ok in H as ([[mem1 i1] c1] & _ & H).
    apply bind_ok in H as ([w2 t'] & E2 & H). apply IH in E2. inversion H; subst. exact E2.
Qed.

Lemma wu_cycle7_os : forall x u before x' u', wu_cycle7 x u before = Ok (x', u') -> x_os x' = x_os x.
Proof.
  intros x u before x' u' H. unfold wu_cycle7 in H.
  split_hyp H; simpl in *; try discriminate; inversion H; subst; simpl; auto.
Qed.

Lemma wus_cycle7_os : forall wus x before x' wus', wus_cycle7 x wus before = Ok (x', wus') -> x_os x' = x_os x.
Proof.
  induction wus as [|u t IH]; intros x before x' wus' H; simpl in H.
  - inversion H; reflexivity.
  - apply bind_ok in H as ([x1 u1] & E1 & H). apply bind_ok in H as ([x2 t'] & E2 & H).
    inversion H; subst. apply wu_cycle7_os in E1. apply IH in E2. simpl in *. congruence.
Qed.

Lemma eu_run7_ord : forall hk labels ord1 ord2 cycle id w e, ords_ok3 ord1 ord2 ->
  eu_run7 hk labels ord1 cycle id w e = eu_run7 hk labels ord2 cycle id w e.
Proof.
  intros hk labels ord1 ord2 cycle id w e O. unfold eu_run7.
  destruct (h_runner e) as [r|]; [|reflexivity].
  destruct (k_rr hk (w_x w) (q_pc r) (q_seq r)) as [rr sid].
  destruct (instr_Run _ _ _ _ _ _) as [exe| |]; try reflexivity.
  destruct (Return exe); [reflexivity|].
  destruct (MemoryChange exe); [reflexivity|].
  cbv zeta.
  destruct (q_fwder r); [reflexivity|].
  destruct (InstructionType_IsConditionalBranch _); [|reflexivity].
  rewrite !(rat_rollback3_ord ord1 ord2 _ _ _ O), !(rat_commit3_ord ord1 ord2 _ _ O). reflexivity.
Qed.

Lemma eu_read7_ord : forall hk labels ord1 ord2 cycle id w e addrs, ords_ok3 ord1 ord2 ->
  eu_read7 hk labels ord1 cycle id w e addrs = eu_read7 hk labels ord2 cycle id w e addrs.
Proof.
  intros hk labels ord1 ord2 cycle id w e addrs O. unfold eu_read7.
  destruct (cc_read_cycle _ _ _ _ _) as [[[i1 c1] [bytes|]]| |]; simpl; try reflexivity.
  apply eu_run7_ord; exact O.
Qed.

Lemma eu_prepare7_ord : forall hk labels ord1 ord2 cycle id w e, ords_ok3 ord1 ord2 ->
  eu_prepare7 hk labels ord1 cycle id w e = eu_prepare7 hk labels ord2 cycle id w e.
Proof.
  intros hk labels ord1 ord2 cycle id w e O. unfold eu_prepare7.
  destruct (negb (bb_canadd _)); [reflexivity|].
  destruct (h_runner e) as [r|]; [|reflexivity].
  match goal with |- context [match ?rcv with Some _ => _ | None => _ end] => destruct rcv as [[x0 r1]|] end; [|reflexivity].
  destruct (k_rr hk _ _ _) as [rr sid].
  destruct (instr_MemoryRead _ _ _); [apply eu_run7_ord | apply eu_read7_ord]; exact O.
Qed.

Lemma eu_cycle7_ord : forall hk labels ord1 ord2 cycle id w e, ords_ok3 ord1 ord2 ->
  eu_cycle7 hk labels ord1 cycle id w e = eu_cycle7 hk labels ord2 cycle id w e.
Proof.
  intros hk labels ord1 ord2 cycle id w e O. unfold eu_cycle7.
  destruct (eu_pre7 e); [reflexivity|].
  destruct (h_co e) as [| |addrs|addrs data].
  - destruct (k_take hk id w) as [w1 [r|]]; [|reflexivity]. apply eu_prepare7_ord; exact O.
  - apply eu_prepare7_ord; exact O.
  - apply eu_read7_ord; exact O.
  - reflexivity.
Qed.

Lemma eus_main7_ord : forall hk labels ord1 ord2 cycle, ords_ok3 ord1 ord2 -> forall eus id w acc,
  eus_main7 hk labels ord1 cycle id w eus acc = eus_main7 hk labels ord2 cycle id w eus acc.
Proof.
  intros hk labels ord1 ord2 cycle O. induction eus as [|e t IH]; intros id w acc; [reflexivity|]. simpl.
  rewrite (eu_cycle7_ord hk labels ord1 ord2 _ _ _ _ O).
  destruct (eu_cycle7 hk labels ord2 _ _ _ _) as [[[w1 e1] o]| |]; simpl; try reflexivity.
  destruct (y_err o); [reflexivity|]. rewrite IH. reflexivity.
Qed.

Lemma eus_drain7_ord : forall hk labels ord1 ord2 cycle, ords_ok3 ord1 ord2 -> forall eus id w,
  eus_drain7 hk labels ord1 cycle id w eus = eus_drain7 hk labels ord2 cycle id w eus.
Proof.
  intros hk labels ord1 ord2 cycle O. induction eus as [|e t IH]; intros id w; [reflexivity|]. simpl.
  destruct (eu_empty7 e); [rewrite IH; reflexivity|].
  rewrite (eu_cycle7_ord hk labels ord1 ord2 _ _ _ _ O).
  destruct (eu_cycle7 hk labels ord2 _ _ _ _) as [[[w1 e1] o]| |]; simpl; try reflexivity.
  destruct (y_err o); [reflexivity|]. rewrite IH. reflexivity.
Qed.

Lemma eus_flush7_ord : forall hk labels ord1 ord2 from, ords_ok3 ord1 ord2 -> forall eus id w acc,
  eus_flush7 hk labels ord1 from id w eus acc = eus_flush7 hk labels ord2 from id w eus acc.
Proof.
  intros hk labels ord1 ord2 from O. induction eus as [|e t IH]; intros id w acc; [reflexivity|]. simpl.
  destruct (_ && _); [rewrite IH; reflexivity|].
  rewrite (eu_cycle7_ord hk labels ord1 ord2 _ _ _ _ O).
  destruct (eu_cycle7 hk labels ord2 _ _ _ _) as [[[w1 e1] o]| |]; simpl; try reflexivity.
  destruct (y_err o); [reflexivity|]. rewrite IH. reflexivity.
Qed.

Lemma eus_final7_ord : forall hk labels ord1 ord2 cycle, ords_ok3 ord1 ord2 -> forall eus id w,
  eus_final7 hk labels ord1 cycle id w eus = eus_final7 hk labels ord2 cycle id w eus.
Proof.
  intros hk labels ord1 ord2 cycle O. induction eus as [|e t IH]; intros id w; [reflexivity|]. simpl.
  destruct (_ && _); [rewrite IH; reflexivity|].
  rewrite (eu_cycle7_ord hk labels ord1 ord2 _ _ _ _ O).
  destruct (eu_cycle7 hk labels ord2 _ _ _ _) as [[[w1 e1] o]| |]; simpl; try reflexivity.
  rewrite IH. reflexivity.
Qed.

Lemma finish7_ord : forall ord1 ord2 w eus cycle, ords_ok3 ord1 ord2 -> finish7 ord1 w eus cycle = finish7 ord2 w eus cycle.
Proof.
  intros ord1 ord2 w eus cycle O. unfold finish7.
  rewrite (rat_commit3_ord ord1 ord2 cycle _ O), (rat_flush3_ord ord1 ord2 cycle _ O). reflexivity.
Qed.

(* the flag a step ends with *)
Definition res_os7 (r : step_res7) : bool := match r with UDone _ os => os | UCont s' => v_os (v_w s') end.

Lemma res_of7_os : forall A os (o : outcome A) k,
  (forall x, o = Ok x -> res_os7 (k x) = os) -> res_os7 (res_of7 os o k) = os.
Proof. intros A os o k H. apply res_of7_prop; [exact H|reflexivity|reflexivity]. Qed.

Lemma ret_check7_os : forall s, res_os7 (ret_check7 s) = v_os (v_w s).
Proof. intros. unfold ret_check7. destruct (_ && _); reflexivity. Qed.

Lemma flush_advance7_os : forall s k seq pc from empty, res_os7 (flush_advance7 s k seq pc from empty) = v_os (v_w s).
Proof.
  intros. unfold flush_advance7. destruct (flush_next _ _ _); [reflexivity|]. destruct empty; [|reflexivity].
  apply res_of7_os. intros r _. reflexivity.
Qed.

Lemma back7_os : forall s cycle w eus o, res_os7 (back7 s cycle (w, eus, o)) = v_os w.
Proof.
  intros. unfold back7. destruct (y_err o); [reflexivity|].
  apply res_of7_os. intros [x2 wus1] E. apply wus_cycle7_os in E.
  destruct (y_ret o); [rewrite ret_check7_os; exact E|].
  destruct (y_flush o); [exact E|].
  destruct (is_empty7 _ _ _); exact E.
Qed.

(* what happens in a step after the front end (main loop) or in the whole step (other loops):
   the flag does not move *)
Lemma step7_rest_os : forall hk labels s cycle w ord, hooks_ok hk ->
  res_os7 (res_of7 (v_os w) (snoops7 hk 0 w (v_eus s)) (fun r =>
           res_of7 (v_os w) (eus_main7 hk labels ord cycle 0 (fst r) (snd r) yo_none) (back7 s cycle))) = v_os w.
Proof.
  intros hk labels s cycle w ord K.
  apply res_of7_os. intros [w1 eus1] E1. apply snoops7_os in E1.
  apply res_of7_os. intros [[w2 eus2] o] E2. apply eus_main7_os in E2; [|exact K].
  rewrite back7_os. simpl in E2. congruence.
Qed.

Lemma step7_os : forall hk app labels ord s, hooks_ok hk -> v_mode s <> QNormal ->
  res_os7 (step7 hk app labels ord s) = v_os (v_w s).
Proof.
  intros hk app labels ord s K M. unfold step7.
  destruct (v_mode s) as [| | seq pc from | k seq pc from empty |]; [congruence| | | |].
  - apply res_of7_os. intros [w1 eus1] E1. apply snoops7_os in E1.
    apply res_of7_os. intros [[w2 eus2] er] E2. apply eus_drain7_os in E2; [|exact K]. simpl in E2.
    destruct er; [simpl; congruence|].
    assert (R : forall b, b = v_os w2 -> res_os7 (res_of7 b (wus_cycle7 (w_x w2) (v_wus s) (-1)) (fun r =>
              let '(x2, wus1) := r in
              ret_check7 (mk_st7 (w_connect7 (set_wx w2 x2) (v_cycle s + 1)) eus2 wus1 (v_cycle s + 1) QRet))) = b).
    { intros b Hb. apply res_of7_os. intros [x2 wus1] E3. apply wus_cycle7_os in E3. rewrite ret_check7_os. subst b. exact E3. }
    rewrite R by reflexivity. congruence.
  - apply res_of7_os. intros [w1 eus1] E1. apply snoops7_os in E1.
    apply res_of7_os. intros [[w2 eus2] acc] E2. apply eus_flush7_os in E2; [|exact K]. simpl in E2.
    destruct (a_err acc); [simpl; congruence|].
    rewrite flush_advance7_os. simpl. unfold w_connect7, v_os in *. simpl. congruence.
  - destruct (nth_error (v_wus s) k); [|reflexivity].
    apply res_of7_os. intros [x1 u1] E. apply wu_cycle7_os in E. rewrite flush_advance7_os. exact E.
  - apply res_of7_os. intros [w1 eus1] E1. apply snoops7_os in E1.
    apply res_of7_os. intros [[w2 eus2] sk] E2. apply eus_final7_os in E2; [|exact K]. simpl in E2.
    destruct (_ && _); simpl; congruence.
Qed.

Lemma step7_ord : forall hk app labels ord1 ord2 s, hooks_ok hk ->
  ords_ok3 ord1 ord2 -> res_os7 (step7 hk app labels ord1 s) = false ->
  step7 hk app labels ord1 s = step7 hk app labels ord2 s /\ v_os (v_w s) = false.
Proof.
  intros hk app labels ord1 ord2 s K O H.
  destruct (v_mode s) as [| | seq pc from | k seq pc from empty |] eqn:M.
  - (* main loop *)
    unfold step7 in *. rewrite M in *.
    destruct (k_front hk app ord1 (v_cycle s + 1) (v_w s)) as [w1| |] eqn:EF.
    + cbn [res_of7] in H |- *.
      rewrite step7_rest_os in H by exact K.
      destruct (ok_front hk K app ord1 ord2 _ _ _ O EF H) as [EF2 Hw]. rewrite EF2. cbn [res_of7].
      split; [|exact Hw].
      destruct (snoops7 hk 0 w1 (v_eus s)) as [[w2 eus2]| |]; cbn [res_of7]; try reflexivity.
      rewrite (eus_main7_ord hk labels ord1 ord2 _ O). reflexivity.
    + rewrite (ok_front_err hk K app ord1 ord2) by (intros w' C; rewrite EF in C; discriminate). rewrite EF. auto.
    + rewrite (ok_front_err hk K app ord1 ord2) by (intros w' C; rewrite EF in C; discriminate). rewrite EF. auto.
  - rewrite step7_os in H by (auto; congruence). split; [|exact H].
    unfold step7. rewrite M.
    destruct (snoops7 hk 0 (v_w s) (v_eus s)) as [[w2 eus2]| |]; cbn [res_of7]; try reflexivity.
    simpl. rewrite (eus_drain7_ord hk labels ord1 ord2 _ O). reflexivity.
  - rewrite step7_os in H by (auto; congruence). split; [|exact H].
    unfold step7. rewrite M.
    destruct (snoops7 hk 0 (v_w s) (v_eus s)) as [[w2 eus2]| |]; cbn [res_of7]; try reflexivity.
    simpl. rewrite (eus_flush7_ord hk labels ord1 ord2 _ O). reflexivity.
  - rewrite step7_os in H by (auto; congruence). split; [|exact H].
    unfold step7. rewrite M. reflexivity.
  - rewrite step7_os in H by (auto; congruence). split; [|exact H].
    unfold step7. rewrite M.
    destruct (snoops7 hk 0 (v_w s) (v_eus s)) as [[w2 eus2]| |]; cbn [res_of7]; try reflexivity.
    simpl. rewrite (eus_final7_ord hk labels ord1 ord2 _ O).
    destruct (eus_final7 hk labels ord2 _ _ _ _) as [[[w3 eus3] sk]| |]; cbn [res_of7]; try reflexivity.
    rewrite (finish7_ord ord1 ord2 _ _ _ O). reflexivity.
Qed.

(* the flag a run ends with *)
Definition final_os7 (r : (mres * bool) + st7) : bool :=
  match r with inl (_, os) => os | inr s' => v_os (v_w s') end.

Theorem run7_st_ord_irrelevant : forall hk, hooks_ok hk -> forall fuel app labels ord1 ord2 s,
  ords_ok3 ord1 ord2 -> final_os7 (run7_st hk fuel app labels ord1 s) = false ->
  run7_st hk fuel app labels ord1 s = run7_st hk fuel app labels ord2 s /\ v_os (v_w s) = false.
Proof.
  intros hk K. induction fuel as [|f IH]; intros app labels ord1 ord2 s O H; simpl in *; [auto|].
  destruct (step7 hk app labels ord1 s) as [r os|s'] eqn:E.
  - simpl in H. subst os.
    destruct (step7_ord hk app labels ord1 ord2 s K O) as [E2 Hs]; [rewrite E; reflexivity|].
    rewrite <- E2, E. auto.
  - destruct (IH app labels ord1 ord2 s' O H) as [R Hs'].
    destruct (step7_ord hk app labels ord1 ord2 s K O) as [E2 Hs]; [rewrite E; exact Hs'|].
    rewrite <- E2, E. auto.
Qed.

Lemma init7_ord : forall par ord1 ord2 app st, ords_ok3 ord1 ord2 -> init7 par ord1 app st = init7 par ord2 app st.
Proof. intros par ord1 ord2 app st O. unfold init7. rewrite (init3_ord par ord1 ord2 app st O). reflexivity. Qed.

Lemma hooks70_ok : hooks_ok hooks70.
Proof.
  split.
  - intros id w. cbn [hooks70 k_take]. destruct (bb_get (x_ebus (w_x w))) as [ebus' [r|]]; reflexivity.
  - intros app ord1 ord2 cycle w w' O H Hos. cbn [hooks70 k_front] in *.
    apply bind_ok in H as (x & EF & H). inversion H; subst. unfold v_os in Hos; cbn [w_x set_wx] in Hos.
    destruct (front3_ord app ord1 ord2 _ _ _ EF Hos) as [EF2 Hx]. rewrite EF2. split; [reflexivity|exact Hx].
  - intros app ord1 ord2 cycle w H. cbn [hooks70 k_front] in *.
    rewrite (front3_err app ord1 ord2); [reflexivity|].
    intros x' C. apply (H (set_wx w x')). rewrite C. reflexivity.
Qed.

Lemma add_prefs71_os : forall rs w w', add_prefs71 w rs = Ok w' -> w_x w' = w_x w.
Proof.
  induction rs as [|r t IH]; intros w w' H; simpl in H.
  - inversion H; reflexivity.
  - apply bind_ok in H as (p & _ & H). destruct p; apply IH in H; exact H.
Qed.

(* getExecutionUnitIDPreference never panics: a load reads, a store writes at least one byte *)
Lemma pref71_ok : forall w r, exists p, pref71 w r = Ok p.
Proof.
  intros w r. unfold pref71. destruct (rr71 _ _ _) as [rr sid].
  destruct (q_instr r); cbn; eauto.
Qed.

Lemma add_prefs71_ok : forall rs w, exists w', add_prefs71 w rs = Ok w'.
Proof.
  induction rs as [|r t IH]; intros w; simpl; [eauto|].
  destruct (pref71_ok w r) as [p E]. rewrite E. cbn [bind]. destruct p; apply IH.
Qed.

Lemma front71_eq : forall app ord cycle w,
  front71 app ord cycle w =
  match fu_cycle6 app cycle (m_fu (x_m (connected3 (w_x w) cycle))) (m_l1i (x_m (connected3 (w_x w) cycle))) (m_dbus (x_m (connected3 (w_x w) cycle))) with
  | Ok (fu1, l1i1, dbus1) =>
      match du_cycle3 app cycle (set_m (connected3 (w_x w) cycle) (set_dbus (set_l1i (set_fu (x_m (connected3 (w_x w) cycle)) fu1) l1i1) dbus1)) with
      | Ok x1 => if i_stale (w_i w) then Ok (mk_w7 x1 (set_stale (w_i w) false) (i_states (w_i w)) (w_pref w))
                 else add_prefs71 (set_wx w (cu_cycle3 ord cycle x1)) (x_prev (cu_cycle3 ord cycle x1))
      | Err e => Err e
      | Panic => Panic
      end
  | Err e => Err e
  | Panic => Panic
  end.
Proof. reflexivity. Qed.

Lemma front71_ord : forall app ord1 ord2 cycle w w', ords_ok3 ord1 ord2 ->
  front71 app ord1 cycle w = Ok w' -> v_os w' = false ->
  front71 app ord2 cycle w = Ok w' /\ v_os w = false.
Proof.
  intros app ord1 ord2 cycle w w' O H Hos. rewrite front71_eq in *.
  destruct (fu_cycle6 app cycle _ _ _) as [[[fu1 l1i1] dbus1]| |]; try discriminate H.
  destruct (du_cycle3 app cycle _) as [x1| |] eqn:ED; try discriminate H.
  apply du_cycle3_os in ED. change (x_os x1 = x_os (w_x w)) in ED.
  destruct (i_stale (w_i w)).
  - injection H as H. subst w'. split; [reflexivity|]. unfold v_os in *. cbn [w_x] in Hos. congruence.
  - pose proof (add_prefs71_os _ _ _ H) as HX. cbn [w_x set_wx] in HX.
    assert (Hc : x_os (cu_cycle3 ord1 cycle x1) = false) by (unfold v_os in Hos; rewrite HX in Hos; exact Hos).
    destruct (cu_cycle3_ord ord1 ord2 cycle x1 Hc) as [E Hx1]. rewrite E.
    split; [exact H|]. unfold v_os. congruence.
Qed.

Lemma front71_err : forall app ord1 ord2 cycle w,
  (forall w', front71 app ord1 cycle w <> Ok w') -> front71 app ord2 cycle w = front71 app ord1 cycle w.
Proof.
  intros app ord1 ord2 cycle w H. rewrite !front71_eq in *.
  destruct (fu_cycle6 app cycle _ _ _) as [[[fu1 l1i1] dbus1]| |]; try reflexivity.
  destruct (du_cycle3 app cycle _) as [x1| |]; try reflexivity.
  destruct (i_stale (w_i w)); [reflexivity|].
  destruct (add_prefs71_ok (x_prev (cu_cycle3 ord1 cycle x1)) (set_wx w (cu_cycle3 ord1 cycle x1))) as [w' E].
  exfalso. apply (H w'). exact E.
Qed.

Lemma hooks71_ok : hooks_ok hooks71.
Proof.
  split.
  - intros id w. cbn [hooks71 k_take]. unfold take71.
    destruct (pick71 w id (bb_q (x_ebus (w_x w)))) as [q' [r|]]; reflexivity.
  - exact front71_ord.
  - exact front71_err.
Qed.

(* a run that ends with the ghost flag clear returns the same result whatever the iteration order of the
   control unit's map of the runners pushed in the previous cycle *)
Lemma run7_os_ord_irrelevant : forall hk, hooks_ok hk -> forall par fuel app labels st ord1 ord2 r,
  ords_ok3 ord1 ord2 ->
  run7_os hk par ord1 fuel app labels st = (r, false) ->
  run7_os hk par ord2 fuel app labels st = (r, false).
Proof.
  intros hk K par fuel app labels st ord1 ord2 r O H. unfold run7_os in *.
  rewrite <- (init7_ord par ord1 ord2 app st O).
  destruct (init7 par ord1 app st) as [s| |]; auto.
  destruct (run7_st_ord_irrelevant hk K fuel app labels ord1 ord2 s O) as [E _].
  - destruct (run7_st hk fuel app labels ord1 s) as [[r1 os1]|s1]; inversion H; reflexivity.
  - rewrite <- E. exact H.
Qed.

Theorem mvp70_ord_irrelevant : forall par fuel app labels st ord1 ord2 r,
  ords_ok3 ord1 ord2 ->
  mvp70_run_os par ord1 fuel app labels st = (r, false) ->
  mvp70_run_os par ord2 fuel app labels st = (r, false).
Proof. exact (run7_os_ord_irrelevant hooks70 hooks70_ok). Qed.

Theorem mvp71_ord_irrelevant : forall par fuel app labels st ord1 ord2 r,
  ords_ok3 ord1 ord2 ->
  mvp71_run_os par ord1 fuel app labels st = (r, false) ->
  mvp71_run_os par ord2 fuel app labels st = (r, false).
Proof. exact (run7_os_ord_irrelevant hooks71 hooks71_ok). Qed.

(* the control unit of MVP-7.0 is cu_cycle3: when the execute bus respects its buffer length before the cycle
   it does so afterwards - at most bb_bl = 2 runners are dispatched per cycle whatever the number of cores *)
Theorem mvp70_dispatch_width : forall ord cycle x,
  ebus_ok x -> ebus_ok (cu_cycle3 ord cycle x) /\ bb_bl (x_ebus (cu_cycle3 ord cycle x)) = bb_bl (x_ebus x).
Proof. exact cu_dispatch_bound3. Qed.

Print Assumptions flush_loop_hang.
Print Assumptions flush_unlock_panic.
Print Assumptions stale_load.
Print Assumptions stale_forward_hang.
Print Assumptions mvp70_cycles_pos.
Print Assumptions mvp71_cycles_pos.
Print Assumptions mvp70_ord_irrelevant.
Print Assumptions mvp71_ord_irrelevant.
Print Assumptions mvp70_dispatch_width.
