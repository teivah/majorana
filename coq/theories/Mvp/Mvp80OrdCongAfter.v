(* Soundness of the ghost flag of the model of MVP-8.0: the congruence of Mvp80OrdCong.v for the part of a tick after
   the snoops (after_snoops8 of Mvp80OrdFrame.v). *)
From Coq Require Import ZArith List Bool Lia.
From Maj Require Import Base.Outcome Base.GoInt Base.GoTypes Isa.Spec Isa.Seq.
From Maj Require Import Gen.Latency Gen.RiscTables Gen.Opcodes Comp.Cache Comp.Rat Mvp.Mvp12 Mvp.Mvp3 Mvp.Mvp5 Mvp.Mvp60 Mvp.Mvp63 Mvp.Mvp80.
From Maj Require Import Mvp.Mvp60Proofs Mvp.Mvp63Proofs Mvp.Mvp80Proofs Mvp.Mvp80OrdFrame Mvp.Mvp80OrdProofs Mvp.Mvp80OrdSnoop Mvp.Mvp80OrdCong.
Import ListNotations.
Open Scope Z_scope.

Theorem after_snoops8_equiv : forall labels ord s1 s2 y1 y2, st_equiv s1 s2 -> my_equiv y1 y2 ->
  res_equiv (after_snoops8 labels ord s1 y1) (after_snoops8 labels ord s2 y2).
Proof.
  intros labels ord s1 s2 y1 y2 Hs Hy.
  destruct s1 as [ya eus1 wus1 cyc1 md1], s2 as [yb eus2 wus2 cyc2 md2]. unfold st_equiv in Hs.
  cbn [v_y v_eus v_wus v_cycle v_mode] in Hs. destruct Hs as (Hyab & He & Hw & Hc & Hmd). subst.
  my_destruct ya yb Hyab. my_destruct y1 y2 Hy.
  unfold after_snoops8. st_cbn. destruct md2; rcong.
Qed.

Print Assumptions after_snoops8_equiv.
