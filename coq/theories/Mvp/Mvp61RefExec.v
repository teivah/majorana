(* MVP-6.1 refinement: what is common to every execution of the runner at the head of the execute bus
   (recv_ok: its Receiver finds the sequential operand in the channels; core_exec: CoreI afterwards), and
   the write units (wu_step1, wus_ok1).  eu_exec1 is the execution of an instruction that is not a
   branch; the proof of the theorems goes through Mvp61RefExec2.eu_exec2, which covers every instruction,
   and does not use it. *)
From Coq Require Import ZArith List Bool Lia Permutation.
From Maj Require Import Comp.ListFacts.
From Maj Require Import Base.Outcome Base.GoInt Base.GoTypes Isa.Spec Isa.Embed Isa.Seq Isa.Refine.
From Maj Require Import Gen.Latency Gen.RiscTables Gen.Opcodes Comp.Cache.
From Maj Require Import Mvp.Mvp12 Mvp.Mvp12Proofs Mvp.Mvp3 Mvp.Mvp3Proofs Mvp.Mvp4Skel Mvp.Mvp4Inv Mvp.Mvp5 Mvp.Mvp60 Mvp.Mvp61
     Mvp.Mvp60RefSem Mvp.Mvp60RefDefs Mvp.Mvp60RefFront Mvp.Mvp60RefBack Mvp.Mvp60RefStep
     Mvp.Mvp61RefSem Mvp.Mvp61RefFront Mvp.Mvp61RefBack Mvp.Mvp61RefInv.
Import ListNotations.
Open Scope Z_scope.

Definition EuNone1 (e : eu1) : Prop := e_memory (u_e e) = [] /\ e_co (u_e e) = ENone.

(* what an execute unit leaves alone *)
Record EuFrame1 (m m1 : mach1) : Prop := mkEF1 {
  e1_regs : m_regs (y_m m1) = m_regs (y_m m); e1_mem : m_mem (y_m m1) = m_mem (y_m m);
  e1_pw : m_pw (y_m m1) = m_pw (y_m m); e1_pr : m_pr (y_m m1) = m_pr (y_m m);
  e1_l1i : m_l1i (y_m m1) = m_l1i (y_m m); e1_l3 : m_l3 (y_m m1) = m_l3 (y_m m); e1_pend : m_pend (y_m m1) = m_pend (y_m m);
  e1_fu : m_fu (y_m m1) = m_fu (y_m m); e1_dret : m_dret (y_m m1) = m_dret (y_m m); e1_dpbr : m_dpbr (y_m m1) = m_dpbr (y_m m);
  e1_cu : m_cu (y_m m1) = m_cu (y_m m); e1_btb : b_btb (m_bu (y_m m1)) = b_btb (m_bu (y_m m));
  e1_dbus : m_dbus (y_m m1) = m_dbus (y_m m); e1_cbus : m_cbus (y_m m1) = m_cbus (y_m m); e1_ebus : m_ebus (y_m m1) = m_ebus (y_m m);
  e1_wq : bb_q (m_wbus (y_m m1)) = bb_q (m_wbus (y_m m)); e1_wql : bb_ql (m_wbus (y_m m1)) = bb_ql (m_wbus (y_m m));
  e1_wbl : bb_bl (m_wbus (y_m m1)) = bb_bl (m_wbus (y_m m));
  e1_seq : x_seq (y_x m1) = x_seq (y_x m); e1_fwd : x_fwd (y_x m1) = x_fwd (y_x m); e1_xcu : x_cu (y_x m1) = x_cu (y_x m);
  e1_prev : x_prev (y_x m1) = x_prev (y_x m); e1_pcb : x_pcb (y_x m1) = x_pcb (y_x m); e1_xcbus : x_cbus (y_x m1) = x_cbus (y_x m);
  e1_nch : x_nch (y_x m1) = x_nch (y_x m); e1_nid : x_nid (y_x m1) = x_nid (y_x m);
  e1_ebuf : bb_buf (x_ebus (y_x m1)) = bb_buf (x_ebus (y_x m)); e1_eql : bb_ql (x_ebus (y_x m1)) = bb_ql (x_ebus (y_x m));
  e1_ebl : bb_bl (x_ebus (y_x m1)) = bb_bl (x_ebus (y_x m)) }.

Lemma EuFrame1_refl m : EuFrame1 m m.
Proof. constructor; reflexivity. Qed.
Lemma EuFrame1_trans a b c : EuFrame1 a b -> EuFrame1 b c -> EuFrame1 a c.
Proof. intros [] []. constructor; congruence. Qed.

Lemma xs_norm1 X eb chs U R C : x_fwd X = R -> xs_ch (xs_fwd (xs_fwd (xs_ch (xs_ebus X eb) chs) U) R) C = xs_ch (xs_ebus X eb) C.
Proof. destruct X. cbn. intros ->. reflexivity. Qed.
Lemma xs_norm2 X eb R C : x_fwd X = R -> xs_ch (xs_fwd (xs_ebus X eb) R) C = xs_ch (xs_ebus X eb) C.
Proof. destruct X. cbn. intros ->. reflexivity. Qed.

Lemma existsb_keys ch chs : ~ In ch (keys chs) -> existsb (fun c : Z * Z => fst c =? ch) chs = false.
Proof.
  intros H. apply not_true_is_false. intros E. apply existsb_exists in E as (c & Hc & E). apply Z.eqb_eq in E.
  apply H. unfold keys. rewrite <- E. apply in_map. exact Hc.
Qed.

(* Mvp60RefBack.WuFrameN k is what k write units leave alone: none does nothing, one more adds a unit *)
Lemma WuFrameN_0 m : WuFrameN 0 m m.
Proof. constructor; reflexivity. Qed.

Lemma WuFrameN_S k m m1 m2 : WuFrame m m1 -> WuFrameN k m1 m2 -> WuFrameN (S k) m m2.
Proof.
  intros [A1 A2 A3 A4 A5 A6 A7 A8 A9 A10 A11 A12 A13 A14 A15 A16] [B1 B2 B3 B4 B5 B6 B7 B8 B9 B10 B11 B12 B13 B14 B15 B16].
  constructor; try congruence.
  rewrite B16, A16. destruct (bb_q (m_wbus m)); [destruct k; reflexivity | reflexivity].
Qed.

Section Exec.
  Variables (app : list instr) (labels : Z -> option Z) (regs0 mem0 : list Z) (base : nat) (sq : Z).
  Hypothesis Happ : wf_app app.
  Hypothesis Hreg : reg_only app = true.
  Hypothesis Hrng : regs_in_range app = true.
  Hypothesis Hlen32 : length regs0 = 32%nat.
  Hypothesis Hbase : (base <= length app)%nat.
  Let n := length app.
  Let N := stop_from app base.
  Hypothesis Hsq : 0 <= sq /\ 1000 * sq + 4 * Z.of_nat n < 2147483648.

  Notation sreg := (sreg app labels regs0 base).
  Notation eff := (eff app labels regs0 base).
  Notation ik := (ik app).
  Notation rnq := (rnq app sq).
  Notation CoreI := (CoreI app labels regs0 mem0 base sq).
  Notation BackSemF := (BackSemF app labels regs0 base).
  Notation FL1 := (FL1 sq).
  Notation wbq := (wbq app labels regs0 base sq).
  Notation regval := (regval app labels regs0 base).

  Hypothesis Hsem : forall k, (base <= k <= N)%nat -> (k < n)%nat ->
    exec (sinstr_of (ik k)) (rget (sreg k)) labels (pcz k) [] = Ok (eff k) /\
    (forall a, etarget (eff k) = Some a -> exists t, a = pcz t /\ (k < t <= n)%nat).
  Hypothesis Hr32 : Forall int32 regs0.

  Set Default Proof Using "All".
  Notation "'IA' L" := (L app labels regs0 mem0 base sq Happ Hreg Hrng Hlen32 Hbase Hsq Hsem) (at level 10, L at level 9, only parsing).

  Definition notbr (k : nat) : Prop := InstructionType_IsBranch (instr_InstructionType (ik k)) = false.

  (* the response of the unit that executes instruction k (not a branch) *)
  Definition presp (k : nat) : resp1 := if is_ret (ik k) then mk_resp1 false 0 0 true None else resp0.

  Lemma notbr_types k : notbr k ->
    InstructionType_IsUnconditionalBranch (instr_InstructionType (ik k)) = false /\
    InstructionType_IsConditionalBranch (instr_InstructionType (ik k)) = false.
  Proof. unfold notbr, InstructionType_IsBranch. intros H. apply orb_false_iff in H. exact H. Qed.

  (* run on an instruction in flight whose Forward (if any) is the sequential operand *)
  Lemma run_val d rg pw pr F fs k f : BackSemF d rg pw pr F fs -> In k F -> (base <= k <= N)%nat -> (k < n)%nat ->
    FwdVal app labels regs0 base (fs k) k f ->
    instr_Run (ik k) (rr1 f rg) labels (pcz k) [] 0 = Ok (embed (eff k)).
  Proof.
    intros HB Hin HkN Hkn Hf.
    assert (Hf32 : int32 (snd f)).
    { unfold FwdVal in Hf. destruct (fs k); subst f; cbn [snd no_fwd]; [apply rget_int32; apply sreg_int32; exact Hr32 | apply int32_0]. }
    assert (Hrr : forall r, int32 (rr1 f rg r)) by (intros r; apply rr1_int32; [exact Hf32 | apply (bf_r32 _ _ _ _ _ _ _ _ _ _ HB)]).
    rewrite (run_refines_spec (rr1 f rg) labels (pcz k) [] 0 Hrr (ik k) (ik_imm app Happ k Hkn) (nomem_mem_ok _ (IA ik_nomem1 k))).
    rewrite (bf_exec app labels regs0 base (IA Hlen0) d rg pw pr F fs k f HB Hin Hf).
    destruct (Hsem k HkN Hkn) as [He _]. rewrite He. reflexivity.
  Qed.

  (* The runner r at the head of the execute bus is taken by a unit.  Its Receiver, if any, finds its
     value in the channels: chs is what is left of them, f the Forward - the sequential operand.  Its
     Forwarder, if any, is not among the keys of chs. *)
  Lemma recv_ok d P m r E2 : CoreI d P m -> EB m = r :: E2 ->
    exists fs chs f,
      BackSemF d (m_regs (y_m m)) (m_pw (y_m m)) (m_pr (y_m m)) (FL1 m) fs /\
      FwdVal app labels regs0 base (fs (kr1 r)) (kr1 r) f /\
      match r_rc r with
      | None => chs = x_ch (y_x m) /\ f = no_fwd
      | Some ch => ch_take (x_ch (y_x m)) ch = Some (snd f, chs) /\ fst f = r_freg r
      end /\
      NoDup (keys chs) /\
      (forall c, In c (keys chs) <-> In c (keys (x_ch (y_x m))) /\ r_rc r <> Some c) /\
      (forall c v, In (c, v) chs -> In (c, v) (x_ch (y_x m))) /\
      (forall ch, r_fw r = Some ch -> ~ In ch (keys chs)).
  Proof.
    intros [_ _ _ (fs & HS & Hlk) _ _ _ _ _ _ [_ C2 _ C4 C5 _] _ _ _] HEB. exists fs.
    assert (Hin : In r (EB m)) by (rewrite HEB; left; reflexivity).
    assert (Hnof : forall chs, (forall c, In c (keys chs) -> In c (keys (x_ch (y_x m)))) -> forall ch, r_fw r = Some ch -> ~ In ch (keys chs)).
    { intros chs Hsub ch Ef Hc. rewrite HEB, fws_cons in C2. unfold fwl in C2. rewrite Ef in C2. cbn [List.app] in C2. inversion C2 as [|? ? Hno _]; subst.
      apply Hno. apply in_or_app. right. apply Hsub. exact Hc. }
    pose proof (Hlk r Hin) as Elk. unfold FwdVal. rewrite Elk. unfold rcreg. destruct (r_rc r) as [ch|] eqn:Erc.
    - rewrite HEB in C5. cbn [AvE] in C5. destruct C5 as [Ca _]. specialize (Ca ch Erc).
      destruct (ch_take_spec (x_ch (y_x m)) ch (NoDup_app_r _ _ C2) Ca) as (v & chs & Et & Hv & T1 & T2 & T3).
      exists chs, (r_freg r, v). cbn [fst snd]. split; [exact HS|].
      split; [destruct (C4 r ch ltac:(apply in_or_app; right; exact Hin) Erc) as [Cv _]; rewrite (Cv v Hv); reflexivity|].
      split; [auto|]. split; [exact T3|]. split; [|split].
      + intros c. rewrite T2. split; intros [A B]; (split; [exact A | congruence]).
      + intros c v' Hc. apply T1 in Hc. tauto.
      + apply Hnof. intros c Hc. apply T2 in Hc. tauto.
    - exists (x_ch (y_x m)), no_fwd. split; [exact HS|]. split; [reflexivity|]. split; [auto|]. split; [exact (NoDup_app_r _ _ C2)|]. split; [|split].
      + intros c. split; [intros A; split; [exact A | discriminate] | tauto].
      + auto.
      + apply Hnof. auto.
  Qed.

  (* The invariant after the unit has run r: r has left the execute bus, its write-back record (none for a
     ret) is on the write bus, the channels are chs (as left by the Receiver) plus what the Forwarder sent *)
  Lemma core_exec d P m m1 r E2 chs chs' : CoreI d P m -> EB m = r :: E2 ->
    NoDup (keys chs) -> (forall c, In c (keys chs) <-> In c (keys (x_ch (y_x m))) /\ r_rc r <> Some c) ->
    (forall c v, In (c, v) chs -> In (c, v) (x_ch (y_x m))) ->
    keys chs' = keys chs ++ fwl r ->
    (forall c v, In (c, v) chs' -> In (c, v) chs \/ (r_fw r = Some c /\ v = regval (kr1 r))) ->
    EB m1 = E2 -> WB m1 = WB m ++ (if is_ret (ik (kr1 r)) then [] else [wbq (kr1 r)]) -> x_ch (y_x m1) = chs' ->
    m_regs (y_m m1) = m_regs (y_m m) -> m_pw (y_m m1) = m_pw (y_m m) -> m_pr (y_m m1) = m_pr (y_m m) ->
    m_mem (y_m m1) = m_mem (y_m m) -> m_l3 (y_m m1) = m_l3 (y_m m) ->
    x_fwd (y_x m1) = x_fwd (y_x m) -> x_nch (y_x m1) = x_nch (y_x m) -> x_nid (y_x m1) = x_nid (y_x m) ->
    (x_pcb (y_x m1) = true -> x_pcb (y_x m) = true /\ condbr (ik (kr1 r)) = false) ->
    CoreI d P m1.
  Proof.
    intros [H1 H2 H3 (fs & HS & Hlk) H5 H6 H7 H8 H9 H10 [C1 C2 C3 C4 C5 C6] H12 H13 H14] HEB Hndc Hk Hv Hkeys' Hv' HE1 HW1 Xch
           Eregs Epw Epr Emem El3 Efwd Ench Enid Hpcb1.
    assert (Hr : RunOK1 app base sq d r) by (rewrite HEB in H1; inversion H1; assumption).
    destruct (IA RunOK1_kr d r Hr) as (Hkd & HkN & Hkn & Hrb). set (x := kr1 r) in *.
    assert (Hsub : forall r0, In r0 E2 -> In r0 (EB m)) by (intros r0 Hr0; rewrite HEB; right; exact Hr0).
    assert (Hrcne : forall c, In c (rcs (P ++ E2)) -> r_rc r <> Some c).
    { intros c Hc Er. rewrite HEB in C3. rewrite rcs_app, rcs_cons in C3. unfold rcl in C3. rewrite Er in C3. rewrite rcs_app in Hc.
      apply NoDup_remove_2 in C3. apply C3. cbn [List.app]. exact Hc. }
    constructor; rewrite ?HE1, ?HW1, ?Emem, ?El3, ?Efwd, ?Enid.
    - rewrite HEB in H1. inversion H1; assumption.
    - exact H2.
    - apply Forall_app. split; [exact H3|]. destruct (is_ret (ik x)) eqn:Eret; [constructor|]. constructor; [|constructor].
      exists x. repeat split; auto; lia.
    - exists fs. split; [|intros r0 Hr0; apply Hlk; apply Hsub; exact Hr0].
      rewrite Eregs, Epw, Epr. unfold Mvp61RefInv.FL1. rewrite HE1, HW1. destruct (is_ret (ik x)) eqn:Eret.
      + rewrite app_nil_r. destruct (ret_slots app x Eret) as [A B].
        eapply (bf_drop app labels regs0 base); [|exact B | exact A].
        eapply bf_perm; [|exact HS]. unfold Mvp61RefInv.FL1. rewrite HEB. cbn [map List.app]. apply Permutation_refl.
      + eapply bf_perm; [|exact HS]. unfold Mvp61RefInv.FL1. rewrite HEB, map_app. cbn [map List.app]. fold x. rewrite (IA kw1_wbq). perm_nat.
    - exact H5.
    - exact H6.
    - intros Ed Hr'. left. destruct (H7 Ed Hr') as [Hx|Hx]; rewrite HEB in Hx; [discriminate | apply (f_equal (@tl runner)) in Hx; exact Hx].
    - exact H8.
    - exact I.
    - intros Hp. destruct (Hpcb1 Hp) as [Hp0 Hncb]. destruct (H10 Hp0) as (r0 & Hin & Hc). exists r0. split; [|exact Hc]. rewrite HEB in Hin. destruct Hin as [<-|Hin]; [|exact Hin].
      exfalso. rewrite Hrb in Hc. cbn [Mvp61RefFront.rnq r_instr] in Hc. congruence.
    - rewrite Forall_forall in C1.
      constructor; rewrite ?HE1, ?Xch, ?Ench, ?Hkeys'.
      + apply Forall_forall. intros c Hc. apply C1. rewrite HEB, fws_cons. rewrite !in_app_iff in Hc. rewrite !in_app_iff.
        destruct Hc as [[Hc|Hc]|[Hc|Hc]]; [apply Hk in Hc; tauto | tauto | tauto|].
        right. right. rewrite rcs_app in Hc |- *. rewrite rcs_cons. rewrite !in_app_iff in *. tauto.
      + rewrite HEB, fws_cons in C2.
        eapply Permutation_NoDup; [|apply (nodup_app_incl_r (fwl r ++ fws E2) (keys (x_ch (y_x m))) (keys chs)); [exact C2 | exact Hndc | intros c Hc; apply Hk in Hc; tauto]].
        rewrite <- app_assoc. rewrite (app_assoc (fws E2)). apply Permutation_app_comm.
      + rewrite HEB in C3. rewrite rcs_app, rcs_cons in C3. rewrite rcs_app. exact (nodup_remove_mid _ _ _ C3).
      + intros r0 c Hin Hc.
        assert (Hin0 : In r0 (P ++ EB m)) by (apply in_app_or in Hin as [Hin|Hin]; apply in_or_app; [left; exact Hin | right; apply Hsub; exact Hin]).
        destruct (C4 r0 c Hin0 Hc) as [A B]. split.
        * intros v Hin'. destruct (Hv' c v Hin') as [Hin''|[Ef ->]]; [apply A, Hv; exact Hin''|].
          apply (B r ltac:(rewrite HEB; left; reflexivity) Ef).
        * intros p0 Hp0. apply B. apply Hsub. exact Hp0.
      + rewrite HEB in C5. cbn [AvE] in C5. destruct C5 as [_ C5]. eapply AvE_mono; [|exact C5].
        intros c Hc Hin. apply in_app_or in Hin as [Hin|Hin]; apply in_or_app; [left | right; exact Hin].
        apply Hk. split; [exact Hin|]. apply Hrcne. rewrite rcs_app. apply in_or_app. right. exact Hc.
      + intros r0 c Hr0 Hc. destruct (C6 r0 c Hr0 Hc) as [Hin|Hin].
        * left. apply in_or_app. left. apply Hk. split; [exact Hin|]. apply Hrcne. rewrite rcs_app. apply in_or_app. left. apply rcs_in. exists r0. auto.
        * rewrite HEB, fws_cons in Hin. apply in_app_or in Hin as [Hin|Hin]; [left; apply in_or_app; right; exact Hin | right; exact Hin].
    - rewrite HEB in H12. cbn [map] in H12. inversion H12; assumption.
    - rewrite HEB in H13. inversion H13; assumption.
    - intros p0 c Hp0. apply H14. apply Hsub. exact Hp0.
  Qed.

  (* an idle unit takes x (not a branch) from the head of the execute bus and runs it at once *)
  Lemma eu_exec1 ord cy d P m e r qt :
    CoreI d P m -> EuNone1 e -> u_sid e = 0 -> BusOK cy (m_wbus (y_m m)) -> bb_canadd (m_wbus (y_m m)) = true ->
    bb_q (x_ebus (y_x m)) = r :: qt -> notbr (kr1 r) ->
    exists m1 e1, eu_cycle1 labels ord cy m e = (false, Ok (m1, e1, presp (kr1 r))) /\ EuNone1 e1 /\ u_sid e1 = 0 /\
      CoreI d P m1 /\ BusOK cy (m_wbus (y_m m1)) /\ EuFrame1 m m1 /\
      bb_q (x_ebus (y_x m1)) = qt /\
      bb_buf (m_wbus (y_m m1)) = bb_buf (m_wbus (y_m m)) ++ (if is_ret (ik (kr1 r)) then [] else [(cy + 1, wbq (kr1 r))]) /\
      (base <= kr1 r < d)%nat /\ (kr1 r <= N)%nat /\ (kr1 r < n)%nat /\ r_b r = rnq (kr1 r) /\
      (is_ret (ik (kr1 r)) = true -> ~ In (kr1 r) (FL1 m1)).
  Proof.
    intros HC [Hmem Hco] Hsid HW Hadd Hq Hnb.
    assert (HEB : EB m = r :: (qt ++ map snd (bb_buf (x_ebus (y_x m))))) by (unfold EB, flat; rewrite Hq; reflexivity).
    set (E2 := qt ++ map snd (bb_buf (x_ebus (y_x m)))) in *.
    pose proof (c_fwd _ _ _ _ _ _ _ _ _ HC) as H8.
    assert (Hr : RunOK1 app base sq d r) by (pose proof (c_e _ _ _ _ _ _ _ _ _ HC) as H1; rewrite HEB in H1; inversion H1; assumption).
    destruct (IA RunOK1_kr d r Hr) as (Hkd & HkN & Hkn & Hrb). set (x := kr1 r) in *.
    assert (HxF : In x (FL1 m)) by (unfold Mvp61RefInv.FL1; rewrite HEB; left; reflexivity).
    destruct (notbr_types x Hnb) as [Hnu Hnc].
    destruct (recv_ok d P m r E2 HC HEB) as (fs & chs & f & HS & Hfv & Hrc & Hndc & Hk & Hv & Hfwk). fold x in Hfv.
    pose proof (run_val d (m_regs (y_m m)) (m_pw (y_m m)) (m_pr (y_m m)) (FL1 m) fs x f HS HxF ltac:(lia) Hkn Hfv) as Hrun.
    destruct (IA embed_flags1 x ltac:(lia) Hkn) as (Hret & Hmc & Hpc & _).
    (* a ret has no Forwarder: it writes no register *)
    assert (Hfwret : is_ret (ik x) = true -> r_fw r = None).
    { intros Er. destruct (r_fw r) as [ch|] eqn:Ef; [|reflexivity].
      destruct (c_fwr _ _ _ _ _ _ _ _ _ HC r ch ltac:(rewrite HEB; left; reflexivity) Ef) as [Hx _]. fold x in Hx. congruence. }
    set (ebus' := mk_bb (bb_buf (x_ebus (y_x m))) qt (bb_ql (x_ebus (y_x m))) (bb_bl (x_ebus (y_x m)))).
    set (bu' := mk_bu6 false (b_expect (m_bu (y_m m))) (b_btb (m_bu (y_m m)))).
    set (chs' := match r_fw r with Some ch => chs ++ [(ch, regval x)] | None => chs end).
    set (wbus' := if is_ret (ik x) then m_wbus (y_m m) else bb_add (m_wbus (y_m m)) (wbq x) cy).
    set (m1 := mk_m1 (set_wbus (set_bu (y_m m) bu') wbus') (xs_ch (xs_ebus (y_x m) ebus') chs')).
    set (e1 := mk_eu1 (mk_eu6 ENone (e_memory (u_e e)) (Some (r_b r))) (r_fw r) None (r_freg r) (u_sid e)).
    assert (Ecyc : eu_cycle1 labels ord cy m e = (false, Ok (m1, mk_eu1 (mk_eu6 ENone (e_memory (u_e e)) (Some (r_b r))) (r_fw r)
                       None (r_freg r) (u_sid e), presp x))).
    { unfold eu_cycle1, eu_pre1. rewrite Hsid. cbn [Z.eqb]. rewrite Hco. unfold bb_get. rewrite Hq. fold ebus'.
      unfold eu_prepare1. cbn [y_m set_x]. rewrite Hadd. cbn [negb u_e e_runner u_rc u_fw u_freg u_sid e_memory y_x xs_ebus x_ch].
      rewrite Hrb. cbn [Mvp61RefFront.rnq r_pc r_instr].
      assert (Hgot : forall mb (eb : eu1), y_m mb = y_m m -> x_fwd (y_x mb) = Seq.upd (repeat no_fwd n) x f \/ (f = no_fwd /\ x_fwd (y_x mb) = repeat no_fwd n) ->
                e_runner (u_e eb) = Some (rnq x) -> e_memory (u_e eb) = [] -> u_fw eb = r_fw r ->
                (forall ch, r_fw r = Some ch -> ~ In ch (keys (x_ch (y_x mb)))) ->
                eu_run1 labels ord cy (bu_assert1 mb (rnq x)) eb
                = (false, Ok (mk_m1 (set_wbus (set_bu (y_m m) bu') wbus')
                                          (xs_ch (xs_fwd (y_x mb) (repeat no_fwd n))
                                                 (match r_fw r with Some ch => x_ch (y_x mb) ++ [(ch, regval x)] | None => x_ch (y_x mb) end)),
                                    eu_co_set eb ENone, presp x))).
      { intros mb eb Ey Efw Er Em Ef Hfk.
        assert (Eb1 : bu_assert1 mb (rnq x) = set_m mb (set_bu (y_m m) bu')).
        { unfold bu_assert1. cbn [Mvp61RefFront.rnq r_instr r_pc]. rewrite Hnu. cbn [andb]. unfold bu_assert6. cbn [Mvp61RefFront.rnq r_instr r_pc].
          rewrite Hnu, Hnc, Ey. reflexivity. }
        rewrite Eb1. unfold eu_run1. rewrite Er. cbn [Mvp61RefFront.rnq r_instr r_pc r_seq]. rewrite Em.
        assert (Egf : get_fwd (set_m mb (set_bu (y_m m) bu')) (pcz x) = f).
        { unfold get_fwd. cbn [set_m y_x]. rewrite (iidx_pcz x). destruct Efw as [Efw|[-> Efw]]; rewrite Efw.
          - apply supd_nth_eq. rewrite repeat_length. exact Hkn.
          - apply nth_repeat. }
        rewrite Egf. cbn [set_m y_m set_bu m_regs]. rewrite Hrun.
        assert (Esf : set_fwd (set_m mb (set_bu (y_m m) bu')) (pcz x) no_fwd
                      = mk_m1 (set_bu (y_m m) bu') (xs_fwd (y_x mb) (repeat no_fwd n))).
        { unfold set_fwd. cbn [set_m y_x y_m set_x]. rewrite (iidx_pcz x).
          destruct Efw as [Efw|[_ Efw]]; rewrite Efw; [rewrite upd_upd|]; rewrite upd_repeat; reflexivity. }
        rewrite Esf. rewrite Hret. unfold presp, wbus'. destruct (is_ret (ik x)) eqn:Eret.
        { unfold quiet1. f_equal. f_equal. f_equal. f_equal. rewrite (Hfwret eq_refl). destruct mb as [bm xm]; destruct xm; reflexivity. }
        rewrite Hmc. cbn [andb bind]. rewrite Ef. cbn [y_m set_wbus m_wbus set_bu].
        change (mk_wb6 (sid sq x) (embed (eff x)) (instr_ReadRegisters (ik x)) (instr_WriteRegisters (ik x))) with (wbq x).
        destruct (r_fw r) as [ch|] eqn:Ef'.
        - cbn [set_m y_x y_m xs_fwd x_ch]. rewrite (existsb_keys ch _ (Hfk ch eq_refl)). unfold notbr in Hnb. rewrite Hnb. reflexivity.
        - rewrite Hnu, Hnc, Hpc, (IA eff_plain x ltac:(lia) Hkn Eret Hnb). reflexivity. }
      cbn [y_x set_x xs_ebus x_ch]. destruct f as [f1 f2]. destruct (r_rc r) as [ch|] eqn:Erc.
      - destruct Hrc as (Et & Ef1). cbn [fst snd] in Et, Ef1. subst f1. rewrite Et.
        rewrite (nomem_no_read _ _ _ (IA ik_nomem1 x)).
        rewrite Hgot; [| reflexivity | left; unfold set_fwd; cbn [set_x y_x xs_ch xs_fwd x_fwd xs_ebus]; rewrite (iidx_pcz x), H8; reflexivity
                       | reflexivity | exact Hmem | reflexivity | intros ch' Ef'; cbn [set_fwd set_x y_x xs_fwd xs_ch x_ch]; apply Hfwk; exact Ef'].
        unfold m1, chs', eu_co_set, set_fwd. cbn [set_x y_x y_m xs_ch xs_fwd x_ch u_e e_memory e_runner u_fw u_rc u_freg u_sid e_co].
        rewrite (xs_norm1 _ _ _ _ _ _ H8). reflexivity.
      - destruct Hrc as [-> Ef]. injection Ef as -> ->.
        rewrite (nomem_no_read _ _ _ (IA ik_nomem1 x)).
        rewrite Hgot; [| reflexivity | right; split; [reflexivity | exact H8]
                       | reflexivity | exact Hmem | reflexivity | intros ch' Ef'; apply Hfwk; exact Ef'].
        unfold m1, chs', eu_co_set. cbn [set_x y_x y_m xs_ch xs_fwd x_ch u_e e_memory e_runner u_fw u_rc u_freg u_sid e_co xs_ebus].
        rewrite (xs_norm2 _ _ _ _ H8). reflexivity. }
    exists m1, e1. split; [exact Ecyc|].
    split; [split; [exact Hmem | reflexivity]|]. split; [exact Hsid|].
    (* the machine afterwards *)
    assert (HW1 : WB m1 = WB m ++ (if is_ret (ik x) then [] else [wbq x])).
    { unfold WB, m1, wbus'. cbn [y_m set_wbus m_wbus]. destruct (is_ret (ik x)); [rewrite app_nil_r; reflexivity | apply add_flat]. }
    assert (HC1 : CoreI d P m1).
    { apply (core_exec d P m m1 r E2 chs chs' HC HEB Hndc Hk Hv); try reflexivity; [| |exact HW1|].
      - unfold chs', fwl. destruct (r_fw r); [rewrite keys_app; reflexivity | rewrite app_nil_r; reflexivity].
      - intros c v Hin. unfold chs' in Hin. destruct (r_fw r) as [ch|]; [|left; exact Hin].
        apply in_app_or in Hin as [Hin|[Hin|[]]]; [left; exact Hin | right; injection Hin as <- <-; auto].
      - cbn [m1 y_x xs_ch xs_ebus x_pcb]. intros Hp. split; [destruct (y_x m); exact Hp | exact Hnc]. }
    split; [exact HC1|]. split.
    { unfold m1, wbus'. cbn [y_m set_wbus m_wbus]. destruct (is_ret (ik x)); [exact HW | apply add_ok; exact HW]. }
    split.
    { unfold m1, wbus'. constructor; cbn [y_m y_x set_wbus set_bu xs_ch xs_ebus m_regs m_mem m_pw m_pr m_l1i m_l3 m_pend m_fu m_dret m_dpbr m_cu m_bu m_dbus m_cbus m_ebus m_wbus
        x_seq x_fwd x_cu x_prev x_pcb x_cbus x_nch x_nid x_ebus bb_buf bb_ql bb_bl ebus' bu' b_btb]; try reflexivity; destruct (is_ret (ik x)); reflexivity. }
    split; [reflexivity|]. split.
    { unfold m1, wbus'. cbn [y_m set_wbus m_wbus]. destruct (is_ret (ik x)); [rewrite app_nil_r; reflexivity | reflexivity]. }
    split; [exact Hkd|]. split; [exact HkN|]. split; [exact Hkn|]. split; [exact Hrb|].
    intros Eret.
    assert (HP : Permutation (FL1 m) (x :: FL1 m1)).
    { unfold Mvp61RefInv.FL1. change (EB m1) with E2. rewrite HW1, HEB, Eret, app_nil_r. cbn [map List.app]. apply Permutation_refl. }
    pose proof (bf_nodup _ _ _ _ _ _ _ _ _ _ (bf_perm _ _ _ _ _ _ _ _ _ _ _ HP HS)) as Hnd. inversion Hnd; assumption.
  Qed.


  Lemma wb_apply1 ma k w : (base <= k <= N)%nat -> (k < n)%nat -> is_ret (ik k) = false ->
    exists m1, (if RegisterChange (embed (eff k))
                then Ok (del_pending6 (set_regs ma (rset (m_regs ma) (Register (embed (eff k))) (RegisterValue (embed (eff k)))))
                                      (instr_ReadRegisters (ik k)) (instr_WriteRegisters (ik k)), w)
                else if MemoryChange (embed (eff k)) then Ok (ma, mk_wu6 (WMem MemoryAccess) (Some (wbq k)))
                else Ok (del_pending6 ma (instr_ReadRegisters (ik k)) (instr_WriteRegisters (ik k)), w)) = Ok (m1, w) /\
      m_regs m1 = apply_eff (eff k) (m_regs ma) /\ m_pw m1 = sb_decr (m_pw ma) (instr_WriteRegisters (ik k)) /\
      m_pr m1 = sb_decr (m_pr ma) (instr_ReadRegisters (ik k)) /\
      m_mem m1 = m_mem ma /\ m_l1i m1 = m_l1i ma /\ m_l3 m1 = m_l3 ma /\ m_pend m1 = m_pend ma /\ m_fu m1 = m_fu ma /\
      m_dret m1 = m_dret ma /\ m_dpbr m1 = m_dpbr ma /\ m_cu m1 = m_cu ma /\ m_bu m1 = m_bu ma /\ m_dbus m1 = m_dbus ma /\
      m_cbus m1 = m_cbus ma /\ m_ebus m1 = m_ebus ma /\ m_wbus m1 = m_wbus ma.
  Proof.
    intros H1 H2 Hnr. pose proof (IA eff_ret1 k H1 H2) as Hr. pose proof (eff_nostore app labels regs0 base Hreg Hsem k) as Hs.
    destruct (eff k) as [rd v|bs| |a|rd v a|] eqn:Ee; cbn [embed].
    - destruct (reg_pair rd v) as [r0 x0] eqn:Erp. cbn [RegisterChange Register RegisterValue]. eexists. split; [reflexivity|].
      cbn [del_pending6 set_sb set_regs m_regs m_pw m_pr m_mem m_l1i m_l3 m_pend m_fu m_dret m_dpbr m_cu m_bu m_dbus m_cbus m_ebus m_wbus apply_eff].
      rewrite <- (rset_reg_pair (m_regs ma) rd v), Erp. repeat split.
    - exfalso. exact (Hs bs H1 H2 eq_refl).
    - cbn [RegisterChange MemoryChange]. eexists. split; [reflexivity|]. repeat split.
    - cbn [RegisterChange MemoryChange]. eexists. split; [reflexivity|]. repeat split.
    - destruct (reg_pair rd v) as [r0 x0] eqn:Erp. cbn [RegisterChange Register RegisterValue]. eexists. split; [reflexivity|].
      cbn [del_pending6 set_sb set_regs m_regs m_pw m_pr m_mem m_l1i m_l3 m_pend m_fu m_dret m_dpbr m_cu m_bu m_dbus m_cbus m_ebus m_wbus apply_eff].
      rewrite <- (rset_reg_pair (m_regs ma) rd v), Erp. repeat split.
    - rewrite (proj1 Hr eq_refl) in Hnr. discriminate.
  Qed.

  (* writeUnit.cycle(ctx, -1) of an idle write unit *)
  Lemma wu_step1 d P m w : CoreI d P m -> u_co w = WNone ->
    exists b1, wu_cycle6 (y_m m) w (-1) = Ok (b1, w) /\ CoreI d P (set_m m b1) /\ WuFrame (y_m m) b1 /\
      (forall k, In k (FL1 (set_m m b1)) -> In k (FL1 m)) /\
      (forall cy, BusOK cy (m_wbus (y_m m)) -> BusOK cy (m_wbus b1)).
  Proof.
    intros HC Hco. pose proof HC as [H1 H2 H3 (fs & HS & Hlk) H5 H6 H7 H8 H9 H10 H11 H12 H13 H14]. unfold wu_cycle6. rewrite Hco. unfold bb_get.
    destruct (bb_q (m_wbus (y_m m))) as [|x0 q'] eqn:Eq.
    { exists (y_m m). rewrite set_wbus_same. split; [reflexivity|]. split; [destruct m; exact HC|].
      split; [constructor; try reflexivity; rewrite Eq; reflexivity|]. split; [destruct m; auto | auto]. }
    set (ma := set_wbus (y_m m) (mk_bb (bb_buf (m_wbus (y_m m))) q' (bb_ql (m_wbus (y_m m))) (bb_bl (m_wbus (y_m m))))).
    assert (Hflat : WB m = x0 :: flat (m_wbus ma)).
    { unfold WB, flat, ma. cbn [set_wbus m_wbus bb_q bb_buf]. rewrite Eq. reflexivity. }
    assert (Hx : WbOK1 app labels regs0 base sq d x0) by (rewrite Hflat in H3; inversion H3; assumption).
    destruct Hx as (k & Hkd & HkN & Hkn & Hnr & ->).
    change (negb (-1 =? -1) && (-1 <? w_seq (wbq k))) with false. cbn iota.
    assert (HFL : Permutation (FL1 m) (k :: (map kr1 (EB m) ++ map (kw1 sq) (flat (m_wbus ma))))).
    { unfold Mvp61RefInv.FL1. rewrite Hflat. cbn [map]. rewrite (IA kw1_wbq). perm_nat. }
    set (F' := map kr1 (EB m) ++ map (kw1 sq) (flat (m_wbus ma))) in *.
    assert (HS0 : BackSemF d (m_regs (y_m m)) (m_pw (y_m m)) (m_pr (y_m m)) (k :: F') fs) by (eapply bf_perm; [exact HFL | exact HS]).
    pose proof (bf_pwlen _ _ _ _ _ _ _ _ _ _ HS) as Lw. pose proof (bf_prlen _ _ _ _ _ _ _ _ _ _ HS) as Lr.
    assert (HS' : BackSemF d (apply_eff (eff k) (m_regs (y_m m))) (sb_decr (m_pw (y_m m)) (instr_WriteRegisters (ik k)))
                          (sb_decr (m_pr (y_m m)) (instr_ReadRegisters (ik k))) F' fs).
    { apply (bf_writeback app labels regs0 base (IA Hlen0) d (m_regs (y_m m)) (m_pw (y_m m)) (m_pr (y_m m))); auto.
      - intros s Hs. eapply (IA eff_writes1); try eassumption. lia.
      - rewrite sb_decr_length. exact Lw.
      - rewrite sb_decr_length. exact Lr.
      - intros s Hs. apply sb_decr_nth; [lia|]. intros s' Hs'. rewrite Lw in Hs'.
        rewrite (bf_pw _ _ _ _ _ _ _ _ _ _ HS0 s' Hs'). apply (cnt_member_ge1 (wsl app)). left. reflexivity.
      - intros s Hs. apply sb_decr_nth; [lia|]. intros s' Hs'. rewrite Lr in Hs'.
        rewrite (bf_pr _ _ _ _ _ _ _ _ _ _ HS0 s' Hs'). apply (cnt_member_ge1 (rsl app)). left. reflexivity. }
    cbn [Mvp61RefInv.wbq w_exe w_reads w_writes].
    destruct (wb_apply1 ma k w ltac:(lia) Hkn Hnr) as (b1 & E & R1 & R2 & R3 & R4 & R5 & R6 & R7 & R8 & R9 & R10 & R11 & R12 & R13 & R14 & R15 & R16).
    exists b1. split; [exact E|].
    assert (HWB1 : WB (set_m m b1) = flat (m_wbus ma)) by (unfold WB; cbn [set_m y_m]; rewrite R16; reflexivity).
    assert (HFL1 : FL1 (set_m m b1) = F') by (unfold Mvp61RefInv.FL1; rewrite HWB1; reflexivity).
    split; [|split; [|split]].
    - constructor; rewrite ?HWB1, ?HFL1; change (EB (set_m m b1)) with (EB m); change (y_x (set_m m b1)) with (y_x m); cbn [set_m y_m];
        rewrite ?R1, ?R2, ?R3, ?R4, ?R6; auto.
      + rewrite Hflat in H3. inversion H3; assumption.
      + exists fs. split; [exact HS' | exact Hlk].
      + eapply (IA ChI_ext); [| | |exact H11]; reflexivity.
    - constructor; rewrite ?R4, ?R5, ?R6, ?R7, ?R8, ?R9, ?R10, ?R11, ?R12, ?R13, ?R14, ?R15, ?R16; try reflexivity.
      unfold ma. cbn [set_wbus m_wbus bb_q]. rewrite Eq. reflexivity.
    - intros k0 Hk0. rewrite HFL1 in Hk0. eapply Permutation_in; [apply Permutation_sym; exact HFL | right; exact Hk0].
    - intros cy [B1 B2 B3 B4]. rewrite R16. unfold ma. constructor; cbn [set_wbus m_wbus bb_buf bb_ql bb_bl]; auto.
      unfold qlen in *. cbn [bb_q]. rewrite Eq in B3. unfold zlen in *. cbn [length] in B3. lia.
  Qed.

  (* for _, wu := range m.writeUnits { wu.cycle(ctx, -1) } *)
  Lemma wus_ok1 d P : forall wus m, CoreI d P m -> Forall (fun w => u_co w = WNone) wus ->
    exists b1, wus_cycle (y_m m) wus (-1) = Ok (b1, wus) /\ CoreI d P (set_m m b1) /\ WuFrameN (length wus) (y_m m) b1 /\
      (forall k, In k (FL1 (set_m m b1)) -> In k (FL1 m)) /\
      (forall cy, BusOK cy (m_wbus (y_m m)) -> BusOK cy (m_wbus b1)).
  Proof.
    induction wus as [|w t IH]; intros m HC Hw.
    - exists (y_m m). cbn [wus_cycle length]. split; [reflexivity|]. split; [destruct m; exact HC|].
      split; [apply WuFrameN_0|]. split; [destruct m; auto | auto].
    - inversion Hw as [|? ? Hw1 Hw2]; subst. cbn [wus_cycle].
      destruct (wu_step1 d P m w HC Hw1) as (b1 & E & A1 & A2 & A3 & A4). rewrite E. cbn [bind fst snd].
      destruct (IH (set_m m b1) A1 Hw2) as (b2 & E2 & B1 & B2 & B3 & B4). cbn [set_m y_m] in E2, B2, B4.
      rewrite E2. cbn [bind fst snd length]. exists b2. split; [reflexivity|]. split; [exact B1|].
      split; [exact (WuFrameN_S _ _ _ _ A2 B2)|].
      split; [intros k Hk; apply A3, B3; exact Hk | intros cy Hc; apply B4, A4; exact Hc].
  Qed.
End Exec.
