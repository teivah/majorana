(* The skeleton of MVP-4 (Mvp4Skel.v) keeps its invariant (Mvp4Inv.v), never gets
   stuck on a well-formed path, and makes progress: a potential decreases in every
   cycle in which no instruction is executed. *)
From Coq Require Import ZArith List Bool Lia.
From Maj Require Import Comp.MapFacts.
From Maj Require Import Base.Outcome Base.GoInt Base.GoTypes Isa.Spec Isa.Embed Isa.Seq Isa.Refine.
From Maj Require Import Gen.Latency Gen.RiscTables Gen.Opcodes Comp.Cache Comp.CacheProofs.
From Maj Require Import Mvp.Mvp12 Mvp.Mvp12Proofs Mvp.Mvp3 Mvp.Mvp3Proofs Mvp.Mvp4 Mvp.SkelRun Mvp.Mvp4Skel Mvp.Mvp4Inv Mvp.Mvp4Units.
Import ListNotations.
Open Scope Z_scope.

Lemma zero_pw_length : length zero_pw = 32%nat.
Proof. reflexivity. Qed.

Lemma nth_zero_pw n : nth n zero_pw 0 = 0.
Proof. apply nth_repeat. Qed.

Lemma pw_get_zero r : pw_get zero_pw r = 0.
Proof. apply nth_zero_pw. Qed.

Lemma pw_hazard_zero rs : pw_hazard zero_pw rs = false.
Proof.
  unfold pw_hazard. induction rs as [|r t IH]; cbn [existsb]; [reflexivity|].
  rewrite pw_get_zero, IH. cbn. rewrite andb_false_r. reflexivity.
Qed.

(* one pending write more / less for register number n *)
Definition padd1 (pw : list Z) (n : nat) : list Z := Cache.upd pw n (nth n pw 0 + 1).
Definition pdel1 (pw : list Z) (n : nat) : list Z := Cache.upd pw n (Z.max 0 (nth n pw 0 - 1)).

Lemma pw_add_1 pw r : pw_add pw [r] = padd1 pw (Z.to_nat r).
Proof. reflexivity. Qed.
Lemma pw_del_1 pw r : pw_del pw [r] = pdel1 pw (Z.to_nat r).
Proof. reflexivity. Qed.

Lemma pdel_padd pw n : 0 <= nth n pw 0 -> pdel1 (padd1 pw n) n = pw.
Proof.
  intros H. unfold pdel1, padd1. destruct (Nat.lt_ge_cases n (length pw)) as [Hlt|Hge].
  - rewrite nth_upd_eq by exact Hlt. rewrite upd_upd.
    replace (Z.max 0 (nth n pw 0 + 1 - 1)) with (nth n pw 0) by lia. apply upd_nth.
  - (* a register number beyond the scoreboard is not tracked *)
    rewrite (upd_oob pw n) by exact Hge. apply upd_oob. exact Hge.
Qed.

Lemma padd1_comm pw n m : padd1 (padd1 pw n) m = padd1 (padd1 pw m) n.
Proof.
  destruct (Nat.eq_dec n m) as [->|Hne]; [reflexivity|]. unfold padd1.
  rewrite (nth_upd_neq pw n m) by exact Hne. rewrite (nth_upd_neq pw m n) by auto. apply upd_comm. exact Hne.
Qed.

Lemma padd1_zero_nonneg n k : 0 <= nth k (padd1 zero_pw n) 0.
Proof.
  unfold padd1. rewrite nth_zero_pw. destruct (Nat.eq_dec n k) as [->|Hne].
  - destruct (Nat.lt_ge_cases k (length zero_pw)) as [Hlt|Hge].
    + rewrite nth_upd_eq by exact Hlt. lia.
    + rewrite upd_oob by exact Hge. rewrite nth_zero_pw. lia.
  - rewrite nth_upd_neq by exact Hne. rewrite nth_zero_pw. lia.
Qed.

Lemma wdel_pwof wb : (forall wr, wb = Some wr -> (length wr <= 1)%nat) -> wdel (pwof wb) wb = zero_pw.
Proof.
  intros H. destruct wb as [wr|]; [|reflexivity]. specialize (H wr eq_refl). cbn [wdel pwof].
  destruct wr as [|r [|? ?]]; [reflexivity| |cbn in H; lia].
  rewrite pw_add_1, pw_del_1. apply pdel_padd. rewrite nth_zero_pw. lia.
Qed.

Lemma wdel_add_pwof wb wr : (forall w, wb = Some w -> (length w <= 1)%nat) -> (length wr <= 1)%nat ->
  wdel (pw_add (pwof wb) wr) wb = pwof (Some wr).
Proof.
  intros H Hwr. destruct wb as [w|]; [|reflexivity]. specialize (H w eq_refl). cbn [wdel pwof].
  destruct w as [|r1 [|? ?]]; [reflexivity| |cbn in H; lia].
  destruct wr as [|r [|? ?]]; [| |cbn in Hwr; lia].
  - change (pw_add (pw_add zero_pw [r1]) []) with (pw_add zero_pw [r1]). change (pw_add zero_pw []) with zero_pw.
    rewrite pw_add_1, pw_del_1. apply pdel_padd. rewrite nth_zero_pw. lia.
  - rewrite !pw_add_1, pw_del_1, padd1_comm. apply pdel_padd, padd1_zero_nonneg.
Qed.

Lemma pwof_hazard wb rs : pw_hazard (pwof wb) rs = true -> wb <> None.
Proof. intros H ->. cbn [pwof] in H. rewrite pw_hazard_zero in H. discriminate. Qed.

(* the skeleton as a machine of SkelRun.v *)
Definition sk_view (r : sk_res) : gres sk Z :=
  match r with KStep a p dc => GStep a p dc | KDone dc => GDone dc | KStuck => GStuck end.
Definition sk_cyc (app : list instr) (a : sk) (path : list Z) : gres sk Z := sk_view (sk_cycle app a path).

Lemma sk_run_grun app : forall fuel a path cyc, sk_run fuel app a path cyc = grun (sk_cyc app) fuel a path cyc.
Proof.
  induction fuel as [|f IH]; intros a path cyc; [reflexivity|]. cbn [sk_run grun]. unfold sk_cyc.
  destruct (sk_cycle app a path); cbn [sk_view]; auto.
Qed.

Section Front.
  Variable app : list instr.
  Hypothesis Happ : wf_app app.

  Lemma nlen_small : 4 * nlen app < 2147483640.
  Proof. destruct Happ as [_ H]. exact H. Qed.

  Lemma fq_fu head n X f l1i dbus fu1 l1i1 dbus1 :
    0 <= head < 2147483644 ->
    FQ app head n (X ++ q_sb dbus) f ->
    IInv l1i -> (fu_processing f = true -> 1 <= fu_remaining f <= MemoryAccess) ->
    fu_cycle app f l1i dbus = Ok (fu1, l1i1, dbus1) ->
    IInv l1i1 /\ (fu_processing fu1 = true -> 1 <= fu_remaining fu1 <= MemoryAccess) /\
    (exists n1, FQ app head n1 (X ++ q_sb dbus1) fu1) /\
    sb_current dbus1 = sb_current dbus /\
    ((dbus1 = dbus /\ fu_complete fu1 = fu_complete f /\
      (fu_complete f = false -> sbus_can_add dbus = true -> fuphi fu1 < fuphi f))
     \/ (fu_complete f = false /\ sbus_can_add dbus = true /\ dbus1 = sbus_add dbus (fu_pc f))).
  Proof.
    intros Hh [Hq Hpc Hend Hin2 Hin1] HI Hrem E.
    pose proof nlen_small as Hsmall.
    assert (Hb : fu_complete f = false -> 0 <= fu_pc f /\ fu_pc f + 4 < 2147483648).
    { intros Hc. rewrite (Hpc Hc). destruct n as [|n]; [lia|].
      specialize (Hin1 ltac:(lia) Hc). lia. }
    destruct (fu_cycle_spec app f l1i dbus HI Hb Hrem) as (f' & l1i' & dbus' & E' & HI' & Hrem' & Hc).
    rewrite E in E'. injection E' as -> -> ->. split; [assumption|]. split; [assumption|].
    destruct Hc as [(-> & Hpc' & Hc' & Hphi) | (Hc & Hadd & -> & ->)].
    - split; [|split; [reflexivity | left; auto]].
      exists n. constructor; auto; rewrite ?Hc', ?Hpc'; auto.
    - split; [|split; [reflexivity | right; auto]].
      exists (S n). rewrite (q_sb_add dbus _ Hadd), app_assoc, Hq, (Hpc Hc), <- consec4_snoc.
      destruct (Hb Hc) as [Hp0 Hp4]. rewrite (Hpc Hc) in Hp0, Hp4.
      constructor; cbn [fu_complete fu_pc].
      + reflexivity.
      + intros _. lia.
      + intros Hcc. apply Z.leb_le in Hcc. rewrite Z.quot_div_nonneg in Hcc by lia.
        replace (head + 4 * Z.of_nat (S n)) with (head + 4 * Z.of_nat n + 4) by lia. exact Hcc.
      + intros Hn. assert (Hn1 : (1 <= n)%nat) by lia. specialize (Hin1 Hn1 Hc).
        replace (Z.of_nat (S n) - 2) with (Z.of_nat n - 1) by lia. exact Hin1.
      + intros _ Hcc. apply Z.leb_gt in Hcc. rewrite Z.quot_div_nonneg in Hcc by lia.
        replace (Z.of_nat (S n) - 1) with (Z.of_nat n) by lia. lia.
  Qed.

  (* an entry outside the text is the last one of the queue, and the fetch unit is complete *)
  Lemma fq_drop head n Y p rest f :
    0 <= head ->
    FQ app head n (Y ++ p :: rest) f -> nlen app <= p / 4 ->
    rest = [] /\ fu_complete f = true /\ FQ app head (length Y) Y f.
  Proof.
    intros Hh [Hq Hpc Hend Hin2 Hin1] Hout.
    destruct (consec4_split _ _ _ _ Hq) as (HY & Hp & Hn).
    change (length (p :: rest)) with (S (length rest)) in Hp, Hn. rewrite consec4_S in Hp. apply cons_inj in Hp as [Hp Hrest].
    assert (Hr : rest = []).
    { destruct rest as [|x rest]; [reflexivity|]. exfalso. change (length (x :: rest)) with (S (length rest)) in Hn.
      specialize (Hin2 ltac:(lia)). subst n. lia. }
    subst rest. change (length (@nil Z)) with O in Hn.
    assert (Hc : fu_complete f = true).
    { destruct (fu_complete f) eqn:Ec; [reflexivity|]. exfalso. specialize (Hin1 ltac:(lia) eq_refl). subst n. lia. }
    split; [reflexivity|]. split; [assumption|].
    constructor; auto.
    - intros Hcf. rewrite Hc in Hcf. discriminate.
    - intros _. subst p. exact Hout.
    - intros H2. specialize (Hin2 ltac:(lia)). subst n. lia.
    - intros _ Hcf. rewrite Hc in Hcf. discriminate.
  Qed.

  Lemma q_parts_alt e ebus dbus : q_parts e ebus dbus = map snd (q_eu e ++ q_sb ebus) ++ q_sb dbus.
  Proof. unfold q_parts. rewrite map_app, app_assoc. reflexivity. Qed.

  Definition act_q (act : eu_act) : list (instr * Z) :=
    match act with AExec i pc => [(i, pc)] | _ => [] end.

  Lemma sk_eu_flow e ebus pw e1 ebus2 act :
    eu_pending_read e = false ->
    Forall (entry_ok app) (q_eu e ++ q_sb ebus) ->
    (eu_processing e = true -> 1 <= eu_remaining e <= Cmax /\ eu_runner e <> None) ->
    sk_eu e ebus pw = (e1, ebus2, act) ->
    act <> AStuck /\
    act_q act ++ q_eu e1 ++ q_sb ebus2 = q_eu e ++ q_sb ebus /\
    eu_pending_read e1 = false /\
    (eu_processing e1 = true -> 1 <= eu_remaining e1 <= Cmax /\ eu_runner e1 <> None) /\
    (match act with AExec _ _ => eu_processing e1 = false | _ => True end).
  Proof.
    intros Hpr Hent Hproc. unfold sk_eu.
    destruct (eu_intake e ebus) as [[em ebus1] have] eqn:Ei.
    destruct (intake_flow app e ebus em ebus1 have Hpr Hent Hproc Ei) as (Hq & Hpr1 & Hhave & Hproc1 & _).
    destruct have; cbn [negb].
    2:{ intros H. injection H as <- <- <-. cbn [act_q List.app].
        split; [discriminate|]. split; [exact Hq|]. split; [exact Hpr1|]. split; [exact Hproc1 | exact I]. }
    symmetry in Hhave. destruct (Hproc1 Hhave) as [Hrem Hrun].
    destruct (Z.eqb_spec (eu_remaining em - 1) 0) as [E0|E0]; cbn [negb].
    2:{ intros H. injection H as <- <- <-. cbn [act_q List.app].
        split; [discriminate|]. split; [exact Hq|]. split; [exact Hpr1|]. split; [|exact I].
        intros _. cbn [set_rem eu_remaining eu_runner]. split; [lia | exact Hrun]. }
    destruct (eu_runner em) as [[i pc]|] eqn:Er; [|congruence].
    destruct (pw_hazard pw (instr_ReadRegisters i)).
    - intros H. injection H as <- <- <-. cbn [act_q List.app].
      split; [discriminate|]. split; [exact Hq|]. split; [exact Hpr1|]. split; [|exact I].
      intros _. cbn [set_rem eu_remaining eu_runner]. split; [unfold Cmax; lia | rewrite Er; discriminate].
    - intros H. injection H as <- <- <-. cbn [act_q].
      split; [discriminate|]. split; [|split; [exact Hpr1|split; [discriminate | reflexivity]]].
      rewrite <- Hq. unfold q_eu at 2. rewrite Hhave, Er. reflexivity.
  Qed.

  (* what the decode unit takes from the decode bus is a queue member *)
  Lemma fq_cur_nonneg head n X dbus f p :
    0 <= head -> FQ app head n (X ++ q_sb dbus) f -> sb_current dbus = Some p -> 0 <= p.
  Proof.
    intros Hh Hq Hp. apply (consec4_nonneg head n); [exact Hh|]. rewrite <- (q_eq _ _ _ _ _ Hq).
    apply in_or_app. right. unfold q_sb. rewrite Hp. left. reflexivity.
  Qed.

  Lemma front_flow head a fu1 l1i1 dbus1 dbus2 ebus1 e1 ebus2 act :
    FInv app head a ->
    fu_cycle app (k_fu a) (k_l1i a) (k_dbus a) = Ok (fu1, l1i1, dbus1) ->
    du_cycle app dbus1 (k_ebus a) = Ok (dbus2, ebus1) ->
    sk_eu (k_eu a) ebus1 (k_pw a) = (e1, ebus2, act) ->
    IInv l1i1 /\ (fu_processing fu1 = true -> 1 <= fu_remaining fu1 <= MemoryAccess) /\
    act <> AStuck /\
    (exists n', FQ app head n' (map snd (act_q act) ++ q_parts e1 ebus2 dbus2) fu1) /\
    Forall (entry_ok app) (act_q act ++ q_eu e1 ++ q_sb ebus2) /\
    eu_pending_read e1 = false /\
    (eu_processing e1 = true -> 1 <= eu_remaining e1 <= Cmax /\ eu_runner e1 <> None) /\
    (match act with AExec _ _ => eu_processing e1 = false | _ => True end).
  Proof.
    intros [Hh [n Hq] Hent Hfu Heu Hpr HI Hpw Hwb] Ef Ed Ee.
    unfold qlist in Hq. rewrite q_parts_alt in Hq.
    destruct (fq_fu head n _ _ _ _ _ _ _ Hh Hq HI Hfu Ef) as (HI1 & Hfu1 & [n1 Hq1] & Hcur & _).
    pose proof (fun p => fq_cur_nonneg head n1 _ dbus1 fu1 p (proj1 Hh) Hq1) as Hpos.
    apply Forall_app in Hent as [Hent_eu Hent_eb].
    destruct (du_flow app dbus1 (k_ebus a) dbus2 ebus1 Hpos Hent_eb Ed) as (Hent1 & Hdu).
    assert (Hq2 : exists n2, FQ app head n2 (map snd (q_eu (k_eu a) ++ q_sb ebus1) ++ q_sb dbus2) fu1).
    { destruct Hdu as [Heq | (p & Hp & Hout & -> & _)].
      - exists n1. rewrite map_app, <- app_assoc, Heq, app_assoc, <- map_app. exact Hq1.
      - rewrite Hp in Hq1. destruct (fq_drop head n1 _ p _ fu1 (proj1 Hh) Hq1 Hout) as (Hr & _ & Hq').
        rewrite Hr, app_nil_r. eauto. }
    destruct Hq2 as [n2 Hq2].
    assert (Hent2 : Forall (entry_ok app) (q_eu (k_eu a) ++ q_sb ebus1)) by (apply Forall_app; auto).
    destruct (sk_eu_flow _ _ _ _ _ _ Hpr Hent2 Heu Ee) as (Hns & Hfl & Hpr1 & Heu1 & Hex).
    split; [assumption|]. split; [assumption|]. split; [assumption|].
    split; [|split; [rewrite Hfl; assumption | auto]].
    exists n2. rewrite q_parts_alt, app_assoc, <- map_app, Hfl. exact Hq2.
  Qed.

  Lemma fq_shift head m q f : FQ app head (S m) (head :: q) f -> FQ app (head + 4) m q f.
  Proof.
    intros [Hq Hpc Hend Hin2 Hin1]. rewrite consec4_S in Hq. apply cons_inj in Hq as [_ Hq].
    constructor.
    - exact Hq.
    - intros Hc. rewrite (Hpc Hc). lia.
    - intros Hc. specialize (Hend Hc). replace (head + 4 + 4 * Z.of_nat m) with (head + 4 * Z.of_nat (S m)) by lia. exact Hend.
    - intros Hm. specialize (Hin2 ltac:(lia)).
      replace (head + 4 + 4 * (Z.of_nat m - 2)) with (head + 4 * (Z.of_nat (S m) - 2)) by lia. exact Hin2.
    - intros Hm Hc. specialize (Hin1 ltac:(lia) Hc).
      replace (head + 4 + 4 * (Z.of_nat m - 1)) with (head + 4 * (Z.of_nat (S m) - 1)) by lia. exact Hin1.
  Qed.

  Lemma fq_head head n pc q f : FQ app head n (pc :: q) f -> pc = head /\ exists m, n = S m.
  Proof.
    intros [Hq _ _ _ _]. destruct n as [|m]; [discriminate|]. rewrite consec4_S in Hq.
    apply cons_inj in Hq as [-> _]. eauto.
  Qed.

  Lemma path_wf_tail pc next rest : path_wf app (pc :: next :: rest) ->
    path_wf app (next :: rest) /\ 0 <= next < 2147483644.
  Proof. cbn [path_wf]. intros (_ & _ & H). split; [exact H|]. destruct H as [H _]. exact H. Qed.

  (* the state after a cycle in which nothing is executed *)
  Definition after_none (a : sk) fu1 l1i1 dbus2 ebus2 e1 : sk :=
    mk_sk fu1 l1i1 dbus2 ebus2 e1 (wdel (k_pw a) (k_wb a)) None.

  Lemma finv_none head a fu1 l1i1 dbus1 dbus2 ebus1 e1 ebus2 :
    FInv app head a ->
    fu_cycle app (k_fu a) (k_l1i a) (k_dbus a) = Ok (fu1, l1i1, dbus1) ->
    du_cycle app dbus1 (k_ebus a) = Ok (dbus2, ebus1) ->
    sk_eu (k_eu a) ebus1 (k_pw a) = (e1, ebus2, ANone) ->
    FInv app head (after_none a fu1 l1i1 dbus2 ebus2 e1).
  Proof.
    intros HF Ef Ed Ee.
    destruct (front_flow head a _ _ _ _ _ _ _ _ HF Ef Ed Ee) as (HI1 & Hfu1 & Hns & [n' Hq'] & Hent' & Hpr' & Heu' & Hex).
    destruct HF as [Hh _ _ _ _ _ _ Hpw Hwb].
    constructor; cbn [after_none k_fu k_l1i k_dbus k_ebus k_eu k_pw k_wb]; auto.
    - exists n'. exact Hq'.
    - rewrite Hpw. apply wdel_pwof. exact Hwb.
    - discriminate.
  Qed.

  Theorem finv_step head rest a a' path' dc :
    FInv app head a -> path_wf app (head :: rest) ->
    sk_cyc app a (head :: rest) = GStep a' path' dc ->
    exists head' rest', path' = head' :: rest' /\ FInv app head' a' /\ path_wf app path'.
  Proof.
    intros HF Hwf H. unfold sk_cyc, sk_cycle in H.
    destruct (fu_cycle app (k_fu a) (k_l1i a) (k_dbus a)) as [[[fu1 l1i1] dbus1]| |] eqn:Ef; try discriminate.
    destruct (du_cycle app dbus1 (k_ebus a)) as [[dbus2 ebus1]| |] eqn:Ed; try discriminate.
    destruct (sk_eu (k_eu a) ebus1 (k_pw a)) as [[e1 ebus2] act] eqn:Ee.
    destruct act as [|i pc|]; [| |discriminate].
    - (* nothing executed *)
      pose proof (finv_none head a _ _ _ _ _ _ _ HF Ef Ed Ee) as HF'. unfold after_none in HF'.
      destruct (sk_complete _); [discriminate|]. injection H as <- <- <-.
      exists head, rest. auto.
    - (* (i, pc) executed *)
      destruct (front_flow head a _ _ _ _ _ _ _ _ HF Ef Ed Ee) as (HI1 & Hfu1 & Hns & [n' Hq'] & Hent' & Hpr' & Heu' & Hex).
      destruct HF as [Hh _ _ _ _ _ _ Hpw Hwb].
      cbn [act_q map snd List.app] in Hq', Hent'.
      destruct (fq_head _ _ _ _ _ Hq') as (-> & m & ->).
      rewrite Z.eqb_refl in H. cbn [negb] in H.
      destruct (is_ret i); [destruct rest; discriminate|].
      destruct rest as [|next rest']; [discriminate|].
      destruct (path_wf_tail _ _ _ Hwf) as [Hwf' Hnext].
      destruct (sk_flush i head next) eqn:Efl; injection H as <- <- <-.
      + exists next, rest'. split; [reflexivity|]. split; [|auto].
        constructor; cbn [k_fu k_l1i k_dbus k_ebus k_eu k_pw k_wb fu_processing]; auto; try discriminate.
        * exists O. unfold qlist, q_parts, q_eu. cbn [k_eu k_ebus k_dbus]. rewrite Hex. cbn [map List.app q_sb sbus_empty sb_current sb_pending olist].
          constructor; cbn [fu_complete fu_pc]; try discriminate; try lia. reflexivity.
        * unfold q_eu. rewrite Hex. constructor.
      + unfold sk_flush in Efl. apply orb_false_elim in Efl as [_ Efl]. apply negb_false_iff, Z.eqb_eq in Efl.
        assert (Hadd : addS 32 head 4 = head + 4).
        { unfold addS. apply wrapS_id; [lia|]. apply int32_bounds. lia. }
        rewrite Hadd in Efl. subst next.
        exists (head + 4), rest'. split; [reflexivity|]. split; [|auto].
        constructor; cbn [k_fu k_l1i k_dbus k_ebus k_eu k_pw k_wb]; auto.
        * exists m. apply fq_shift. exact Hq'.
        * inversion Hent'; assumption.
        * rewrite Hpw. apply wdel_add_pwof; [exact Hwb | apply write_regs_length].
        * intros wr Hwr. injection Hwr as <-. apply write_regs_length.
  Qed.

  (* The potential is the distance of the oldest instruction in flight from its
     execution.  phi_x: that instruction is in the execute unit or on the execute bus *)
  Definition phi_x (e : eu_t) (ebus : sbus (instr * Z)) (wb : option (list Z)) : option Z :=
    if eu_processing e then Some (2 * eu_remaining e + (match wb with Some _ => 1 | None => 0 end))
    else match sb_current ebus, sb_pending ebus with
         | Some _, _ => Some (2 * Cmax + 2)
         | None, Some _ => Some (2 * Cmax + 3)
         | None, None => None
         end.

  Definition phi (a : sk) : Z :=
    match phi_x (k_eu a) (k_ebus a) (k_wb a) with
    | Some v => v
    | None =>
        match sb_current (k_dbus a) with Some _ => 2 * Cmax + 3 | None =>
        match sb_pending (k_dbus a) with Some _ => 2 * Cmax + 4 | None =>
        2 * Cmax + 4 + fuphi (k_fu a) end end
    end.

  Definition phi_max : Z := 2 * Cmax + 5 + MemoryAccess.

  Lemma fuphi_bounds f : (fu_processing f = true -> 1 <= fu_remaining f <= MemoryAccess) -> 1 <= fuphi f <= MemoryAccess + 1.
  Proof. unfold fuphi. destruct (fu_processing f); intros H; [specialize (H eq_refl)|]; unfold MemoryAccess in *; lia. Qed.

  Lemma phi_range a :
    (fu_processing (k_fu a) = true -> 1 <= fu_remaining (k_fu a) <= MemoryAccess) ->
    (eu_processing (k_eu a) = true -> 1 <= eu_remaining (k_eu a) <= Cmax /\ eu_runner (k_eu a) <> None) ->
    0 <= phi a <= phi_max.
  Proof.
    intros Hf He. apply fuphi_bounds in Hf. unfold phi, phi_x, phi_max. destruct (eu_processing (k_eu a)).
    - destruct (He eq_refl) as [Hr _]. unfold Cmax, MemoryAccess in *. destruct (k_wb a); lia.
    - unfold Cmax, MemoryAccess in *.
      destruct (sb_current (k_ebus a)), (sb_pending (k_ebus a)), (sb_current (k_dbus a)), (sb_pending (k_dbus a)); lia.
  Qed.

  Lemma phi_bounds head a : FInv app head a -> 0 <= phi a <= phi_max.
  Proof. intros HF. exact (phi_range a (f_fu _ _ _ HF) (f_eu _ _ _ HF)). Qed.

  Lemma sk_eu_idle_none e ebus pw : eu_processing e = false -> sb_current ebus = None ->
    sk_eu e ebus pw = (e, mk_sbus None (sb_pending ebus), ANone).
  Proof. intros Ep Ec. unfold sk_eu, eu_intake, sbus_get. rewrite Ep, Ec. reflexivity. Qed.

  (* the oldest instruction is in the execute unit or on the execute bus (where the
     decode unit [ebus -> ebus1] does not touch it) and is not executed: it advances *)
  Lemma phi_x_decr e ebus ebus1 pw wb e1 ebus2 :
    (eu_processing e = true -> 1 <= eu_remaining e <= Cmax /\ eu_runner e <> None) ->
    pw = pwof wb ->
    sb_current ebus1 = sb_current ebus -> (sb_pending ebus <> None -> sb_pending ebus1 = sb_pending ebus) ->
    sk_eu e ebus1 pw = (e1, ebus2, ANone) ->
    phi_x e ebus wb <> None ->
    exists v v', phi_x e ebus wb = Some v /\ phi_x e1 ebus2 None = Some v' /\ v' < v.
  Proof.
    intros Heu -> Hcur Hpend Ee. unfold phi_x. destruct (eu_processing e) eqn:Ep.
    - intros _. unfold sk_eu, eu_intake in Ee. rewrite Ep in Ee. cbn [negb] in Ee. destruct (Heu eq_refl) as [Hr Hrun].
      destruct (Z.eqb_spec (eu_remaining e - 1) 0); cbn [negb] in Ee.
      + destruct (eu_runner e) as [[i pc]|]; [|congruence].
        destruct (pw_hazard (pwof wb) (instr_ReadRegisters i)) eqn:Ehz; [|discriminate]. injection Ee as <- <-.
        cbn [set_rem eu_processing eu_remaining]. rewrite Ep. apply pwof_hazard in Ehz.
        do 2 eexists. split; [reflexivity|]. split; [reflexivity|]. destruct wb; [lia | congruence].
      + injection Ee as <- <-. cbn [set_rem eu_processing eu_remaining]. rewrite Ep.
        do 2 eexists. split; [reflexivity|]. split; [reflexivity|]. destruct wb; lia.
    - rewrite <- Hcur. destruct (sb_current ebus1) as [[i pc]|] eqn:Ec.
      + (* it is taken from the execute bus *)
        intros _. unfold sk_eu, eu_intake, sbus_get in Ee. rewrite Ep, Ec in Ee. cbn [negb eu_remaining eu_runner] in Ee.
        pose proof (cyc_of_bounds i) as Hc.
        destruct (Z.eqb_spec (cyc_of i - 1) 0); cbn [negb] in Ee.
        * destruct (pw_hazard _ (instr_ReadRegisters i)); [|discriminate]. injection Ee as <- <-.
          cbn [set_rem eu_processing eu_remaining]. do 2 eexists. split; [reflexivity|]. split; [reflexivity|]. unfold Cmax. lia.
        * injection Ee as <- <-. cbn [set_rem eu_processing eu_remaining].
          do 2 eexists. split; [reflexivity|]. split; [reflexivity|]. lia.
      + (* it moves from the pending to the current slot *)
        rewrite (sk_eu_idle_none e ebus1 _ Ep Ec) in Ee. injection Ee as <- <-. rewrite Ep.
        cbn [sb_current sb_pending]. destruct (sb_pending ebus) as [x|] eqn:Epd; [|congruence].
        intros _. rewrite (Hpend ltac:(discriminate)).
        do 2 eexists. split; [reflexivity|]. split; [reflexivity|]. lia.
  Qed.

  Lemma phi_x_none e ebus wb : phi_x e ebus wb = None -> eu_processing e = false /\ ebus = mk_sbus None None.
  Proof.
    unfold phi_x. destruct (eu_processing e); [discriminate|]. destruct ebus as [[?|] [?|]]; try discriminate. auto.
  Qed.

  Lemma complete_out head a : FInv app head a -> sk_complete a = true -> nlen app <= head / 4.
  Proof.
    intros HF Hc. unfold sk_complete in Hc. repeat (apply andb_prop in Hc as [Hc ?]).
    destruct HF as [Hh [n Hq] _ _ _ _ _ _ _].
    assert (Hn : qlist a = []).
    { unfold qlist, q_parts, q_eu, q_sb. apply negb_true_iff in H2. rewrite H2.
      unfold sbus_is_empty in H0, H1. destruct (sb_pending (k_ebus a)), (sb_current (k_ebus a)); try discriminate.
      destruct (sb_pending (k_dbus a)), (sb_current (k_dbus a)); try discriminate. reflexivity. }
    rewrite Hn in Hq. destruct Hq as [Hq _ Hend _ _]. destruct n; [|discriminate].
    specialize (Hend Hc). replace (head + 4 * Z.of_nat 0) with head in Hend by lia. exact Hend.
  Qed.

  (* a path goes on only from a pc inside the text *)
  Lemma path_wf_out head rest : path_wf app (head :: rest) -> nlen app <= head / 4 -> rest = [].
  Proof.
    intros Hwf Hout. destruct rest as [|next r]; [reflexivity|]. exfalso.
    cbn [path_wf] in Hwf. destruct Hwf as ([Hh _] & (i & Hi & _) & _).
    assert ((Z.to_nat (head / 4) < length app)%nat) by (apply nth_error_Some; congruence).
    unfold nlen in Hout. lia.
  Qed.

  Lemma none_phi head a fu1 l1i1 dbus1 dbus2 ebus1 e1 ebus2 :
    FInv app head a ->
    fu_cycle app (k_fu a) (k_l1i a) (k_dbus a) = Ok (fu1, l1i1, dbus1) ->
    du_cycle app dbus1 (k_ebus a) = Ok (dbus2, ebus1) ->
    sk_eu (k_eu a) ebus1 (k_pw a) = (e1, ebus2, ANone) ->
    sk_complete (after_none a fu1 l1i1 dbus2 ebus2 e1) = false ->
    phi (after_none a fu1 l1i1 dbus2 ebus2 e1) < phi a.
  Proof.
    intros HF Ef Ed Ee Hnc.
    destruct a as [f l1i dbus ebus e pw wb]. cbn [k_fu k_l1i k_dbus k_ebus k_eu k_pw k_wb] in *.
    pose proof HF as [Hh [n Hq] Hent Hfu Heu Hpr HI Hpw Hwb].
    cbn [k_fu k_l1i k_dbus k_ebus k_eu k_pw k_wb] in *.
    unfold qlist in Hq. cbn [k_eu k_ebus k_dbus] in Hq. rewrite q_parts_alt in Hq.
    destruct (fq_fu head n _ _ _ _ _ _ _ Hh Hq HI Hfu Ef) as (HI1 & Hfu1 & [n1 Hq1] & Hcur & Hfc).
    pose proof (fun p => fq_cur_nonneg head n1 _ dbus1 fu1 p (proj1 Hh) Hq1) as Hpos.
    destruct (du_cycle_spec app dbus1 ebus Hpos) as (d & eb & E & Hdu). rewrite Ed in E. injection E as <- <-.
    unfold phi, after_none. cbn [k_fu k_l1i k_dbus k_ebus k_eu k_pw k_wb].
    destruct (phi_x e ebus wb) as [v|] eqn:Ex.
    - (* the oldest instruction has been decoded *)
      destruct (phi_x_decr e ebus ebus1 pw wb e1 ebus2 Heu Hpw) as (v0 & v' & E0 & -> & Hlt); auto.
      + destruct Hdu as [(_ & _ & ->) | (_ & _ & [(_ & ->) | [(p & _ & _ & ->) | (p & i & _ & _ & _ & ->)]])]; reflexivity.
      + intros Hp. destruct Hdu as [(_ & _ & ->) | (Hadd & _)]; [reflexivity|].
        unfold sbus_can_add in Hadd. destruct (sb_pending ebus); [discriminate | congruence].
      + congruence.
      + rewrite Ex in E0. injection E0 as <-. exact Hlt.
    - apply phi_x_none in Ex as [Ep ->].
      assert (Hec : sb_current ebus1 = None).
      { destruct Hdu as [(_ & _ & ->) | (_ & _ & [(_ & ->) | [(p & _ & _ & ->) | (p & i & _ & _ & _ & ->)]])]; reflexivity. }
      rewrite (sk_eu_idle_none e ebus1 pw Ep Hec) in Ee. injection Ee as <- <-.
      unfold phi_x. rewrite Ep. cbn [sb_current sb_pending].
      destruct Hdu as [(Hadd & _) | (_ & -> & Hdu)]; [discriminate|]. cbn [sb_current sb_pending].
      pose proof (fuphi_bounds _ Hfu) as Hphif.
      destruct dbus as [dp dc]. cbn [sb_current sb_pending] in *.
      destruct dc as [p|].
      + (* current slot of the decode bus *)
        destruct Hdu as [(Hc & _) | [(p' & Hc & Hout & ->) | (p' & i & Hc & _ & _ & ->)]].
        * congruence.
        * exfalso. rewrite Hcur in Hc. injection Hc as <-.
          assert (Hqd : q_sb dbus1 = p :: olist (sb_pending dbus1)) by (unfold q_sb; rewrite Hcur; reflexivity).
          rewrite Hqd in Hq1. destruct (fq_drop head n1 _ p _ fu1 (proj1 Hh) Hq1 Hout) as (Hr & Hcf & _).
          unfold sk_complete, after_none in Hnc. cbn [k_fu k_eu k_dbus k_ebus k_wb sb_pending sb_current sbus_is_empty] in Hnc.
          rewrite Hcf, Ep in Hnc. destruct (sb_pending dbus1); discriminate.
        * cbn [sbus_add sb_pending sb_current]. lia.
      + destruct dp as [p|].
        * (* pending slot of the decode bus *)
          destruct Hfc as [(-> & _) | (_ & Hadd & _)]; [|discriminate].
          cbn [sb_pending]. destruct Hdu as [(_ & ->) | [(p' & Hc & _) | (p' & i & Hc & _)]]; try discriminate.
          cbn [sb_pending sb_current]. lia.
        * (* the fetch unit *)
          assert (Heb : ebus1 = mk_sbus None None).
          { destruct Hdu as [(_ & ->) | [(p' & Hc & _) | (p' & i & Hc & _)]]; [reflexivity| |]; rewrite Hcur in Hc; discriminate. }
          subst ebus1. cbn [sb_pending sb_current].
          destruct Hfc as [(-> & Hcc & Hphi) | (Hcf & _ & ->)]; cbn [sb_pending sb_current sbus_add]; [|lia].
          destruct (fu_complete f) eqn:Ecf.
          { exfalso. unfold sk_complete, after_none in Hnc. cbn [k_fu k_eu k_dbus k_ebus k_wb sb_pending sb_current sbus_is_empty] in Hnc.
            rewrite Hcc, Ep in Hnc. discriminate. }
          specialize (Hphi eq_refl eq_refl). lia.
  Qed.

  Theorem sk_progress head rest a :
    FInv app head a -> path_wf app (head :: rest) ->
    match sk_cyc app a (head :: rest) with
    | GStuck => False
    | GDone _ => rest = []
    | GStep a' path' _ => path' = rest \/ (path' = head :: rest /\ phi a' < phi a)
    end.
  Proof.
    intros HF Hwf.
    pose proof HF as [Hh [n Hq] Hent Hfu Heu Hpr HI Hpw Hwb].
    unfold qlist in Hq. rewrite q_parts_alt in Hq.
    destruct (fu_cycle app (k_fu a) (k_l1i a) (k_dbus a)) as [[[fu1 l1i1] dbus1]| |] eqn:Ef.
    2,3: exfalso; destruct (fu_cycle_spec app (k_fu a) (k_l1i a) (k_dbus a) HI) as (? & ? & ? & E & _); [| assumption | congruence].
    2,3: intros Hc; rewrite (q_pc _ _ _ _ _ Hq Hc); pose proof nlen_small; destruct n as [|n]; [lia | pose proof (q_in1 _ _ _ _ _ Hq ltac:(lia) Hc); lia].
    destruct (fq_fu head n _ _ _ _ _ _ _ Hh Hq HI Hfu Ef) as (HI1 & Hfu1 & [n1 Hq1] & Hcur & Hfc).
    pose proof (fun p => fq_cur_nonneg head n1 _ dbus1 fu1 p (proj1 Hh) Hq1) as Hpos.
    destruct (du_cycle_spec app dbus1 (k_ebus a) Hpos) as (dbus2 & ebus1 & Ed & _).
    destruct (sk_eu (k_eu a) ebus1 (k_pw a)) as [[e1 ebus2] act] eqn:Ee.
    destruct act as [|i pc|].
    - unfold sk_cyc, sk_cycle. rewrite Ef, Ed, Ee.
      destruct (sk_complete _) eqn:Ec; cbn [sk_view].
      + eapply path_wf_out; [exact Hwf|]. eapply complete_out; [eapply finv_none; eassumption | exact Ec].
      + right. split; [reflexivity|]. eapply none_phi; eassumption.
    - (* the instruction at the head of the queue is the one the path expects *)
      destruct (front_flow head a _ _ _ _ _ _ _ _ HF Ef Ed Ee) as (_ & _ & _ & [n' Hq'] & Hent' & _).
      cbn [act_q map snd List.app] in Hq', Hent'.
      destruct (fq_head _ _ _ _ _ Hq') as (-> & m & ->).
      inversion Hent' as [|x l [_ Hi] _]; subst x l. cbn [fst snd] in Hi.
      unfold sk_cyc, sk_cycle. rewrite Ef, Ed, Ee, Z.eqb_refl. cbn [negb].
      cbn [path_wf] in Hwf. destruct Hwf as (_ & Hwf). rewrite Hi in Hwf.
      destruct rest as [|next r].
      + rewrite Hwf. reflexivity.
      + destruct Hwf as ((i' & Hi' & Hr) & _). injection Hi' as <-. rewrite Hr.
        destruct (sk_flush i head next); left; reflexivity.
    - destruct (front_flow head a _ _ _ _ _ _ _ _ HF Ef Ed Ee) as (_ & _ & Hns & _). congruence.
  Qed.

  Lemma sk_cycle_dc a path :
    match sk_cyc app a path with
    | GDone dc => dc = 1
    | GStep _ _ dc => dc = 1 \/ dc = 2
    | GStuck => True
    end.
  Proof.
    unfold sk_cyc, sk_cycle.
    destruct (fu_cycle app (k_fu a) (k_l1i a) (k_dbus a)) as [[[fu1 l1i1] dbus1]| |]; try exact I.
    destruct (du_cycle app dbus1 (k_ebus a)) as [[dbus2 ebus1]| |]; try exact I.
    destruct (sk_eu (k_eu a) ebus1 (k_pw a)) as [[e1 ebus2] act].
    destruct act as [|i pc|]; try exact I.
    - destruct (sk_complete _); cbn [sk_view]; auto.
    - destruct path as [|p rest]; try exact I. destruct (negb (p =? pc)); try exact I.
      destruct (is_ret i); [destruct rest; cbn [sk_view]; auto|]. destruct rest as [|next r]; try exact I.
      destruct (sk_flush i pc next); cbn [sk_view]; auto.
  Qed.

  Definition Kstep : nat := S (Z.to_nat phi_max).
End Front.
