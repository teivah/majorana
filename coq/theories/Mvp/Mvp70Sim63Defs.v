(* Lock-step simulation MVP-7.0 (Mvp70.v, hooks70) / MVP-6.3 (Mvp63.v) on programs without loads and stores -
   part 1: the projection, the invariant of a run of MVP-7.0, the per-unit lemmas.

   MVP-7.0 is the pipeline of MVP-6.3 (front3, the branch unit, the RAT functions are literally shared) in front of
   per-core L1Ds behind cache controllers and an MSI directory.  On a program whose TEXT contains no load and no
   store (Mvp4Skel.reg_only) the memory system of MVP-7.0 is never used:
     - the directory stays msi_new (no command, no state, no semaphore),
     - every cache controller stays as NewCPU built it (CC: read / write coroutines at their start, empty snoop
       list, no lock recorded), so cc.flush and cc.snoop.Cycle are the identity and export finds no modified line,
     - no execute unit enters the closures around cc.read / cc.write (h_co is HNone or HPrepare),
     - no write unit sees a memory change (MVP-7.0 would panic, MVP-6.3 would start a pending memory write).
   The machine state of type mx is then THE SAME in the two variants tick by tick; an execute unit of MVP-7.0 is
   projected to the unit of MVP-6.3 with the same coroutine state, memory, runner and sequence id (eu_of).

   Invariant (PX on mx, INV on w7, EU on eu7, WU on wu6): every runner on the control bus / in the pendings / on
   the execute bus / held by a unit carries an instruction that is neither a load nor a store; every entry of the
   write bus has MemoryChange = false; the L3 of MVP-6.3 holds no line.
   For the END of Run (Mvp70Sim63Proofs.v) the invariant also carries, under the section proposition NN ("the
   program writes no register with a negative number"), that the two alias tables are well formed and hold only
   non-negative keys: RATFlush writes ctx.Registers[k] through Seq.upd (Z.to_nat k), which sends every negative k
   to slot 0, so that with a negative key the result of RATCommit; RATFlush depends on Go's map order.

   Per-unit lemmas are EQUATIONS  f3 .. (w_x w) (eu_of e) = (false, lift7 (f7 hooks70 .. w e))  (eu_run_sim,
   eu_prepare_sim, eu_cycle_sim) plus invariance lemmas (eu_run7_inv, eu_prepare7_inv, eu_cycle7_inv). *)
From Coq Require Import ZArith List Bool Lia.
From Maj Require Import Base.Outcome Base.GoInt Base.GoTypes Isa.Spec Isa.Seq.
From Maj Require Import Gen.Latency Gen.RiscTables Gen.Opcodes Comp.Cache Comp.Rat Comp.RatProofs Mvp.Mvp12 Mvp.Mvp3 Mvp.Mvp5 Mvp.Mvp60 Mvp.Mvp63 Mvp.Mvp70.
From Maj Require Import Mvp.Mvp60Proofs Mvp.Mvp63Proofs Mvp.Mvp63Class Mvp.Mvp70Proofs.
From Maj Require Mvp.Mvp4Skel Mvp.Mvp4Inv Mvp.Mvp62RefRel.
Import ListNotations.
Open Scope Z_scope.

Notation nomem := Mvp4Skel.nomem.
Notation reg_only := Mvp4Skel.reg_only.

(* no instruction of the text writes a register with a negative number (the parser only produces x0 .. x31) *)
Definition wregs_nonneg (app : list instr) : bool :=
  forallb (fun i => forallb (fun r => 0 <=? r) (instr_WriteRegisters i)) app.

Lemma wregs_nonneg_nth : forall app n i r, wregs_nonneg app = true -> nth_error app n = Some i ->
  In r (instr_WriteRegisters i) -> 0 <= r.
Proof.
  intros app n i r H HN HR. unfold wregs_nonneg in H. rewrite forallb_forall in H.
  specialize (H i (nth_error_In _ _ HN)). rewrite forallb_forall in H. apply Z.leb_le. apply H. exact HR.
Qed.

(* the register of an execution record is x0 or the destination register of the instruction *)
Lemma run_register_written : forall i rr labels pc mem sq exe,
  nomem i = true -> instr_Run i rr labels pc mem sq = Ok exe -> RegisterChange exe = true ->
  Register exe = 0 \/ In (Register exe) (instr_WriteRegisters i).
Proof.
  intros i rr labels pc mem sq exe Hn E. destruct i; try discriminate Hn;
    cbv beta iota zeta delta [instr_Run] in E; autounfold with opcodes in E; cbv beta zeta in E;
    unfold IsRegisterChange in E;
    repeat match type of E with
           | context [if ?c then _ else _] => destruct c eqn:?
           | context [match ?x with _ => _ end] => destruct x eqn:?
           end; try discriminate E; inversion E; subst; cbn; intros HH; try discriminate HH; auto.
Qed.

(* on_bus of Mvp63Class.v, whose lemmas apply *)
Definition bus_ok {T} (P : T -> Prop) (b : bbus T) : Prop :=
  Forall (fun p => P (snd p)) (bb_buf b) /\ Forall P (bb_q b).

Ltac split6 := split; [|split; [|split; [|split; [|split]]]].

(* what the invariant depends on *)
Definition core_of (x : mx) :=
  (m_l3 (x_m x), m_cbus (x_m x), x_ebus x, x_pend x, m_wbus (x_m x), x_crat x, x_trat x).

Section Inv.
  (* NN: "the program writes no register with a negative number" (True or False in the two uses) *)
  Variable NN : Prop.
  Variable app : list instr.
  Hypothesis Happ : reg_only app = true.
  Hypothesis Hnn : NN -> wregs_nonneg app = true.

  (* a runner carries an instruction of the class *)
  Definition GI (i : instr) : Prop :=
    nomem i = true /\ (NN -> forall r, In r (instr_WriteRegisters i) -> 0 <= r).
  Definition NM (r : runner3) : Prop := GI (q_instr r).
  Definition NMr (r : runner) : Prop := GI (r_instr r).
  (* an entry of the write bus *)
  Definition WOK (c : wb6) : Prop :=
    MemoryChange (w_exe c) = false /\ (NN -> RegisterChange (w_exe c) = true -> 0 <= Register (w_exe c)).
  (* the alias tables *)
  Definition RK (x : mx) : Prop :=
    NN -> rat_ok (x_crat x) /\ rat_ok (x_trat x) /\
          (forall k v, rat_read 0 (x_crat x) k = Some v -> 0 <= k) /\
          (forall k v, rat_read tu0 (x_trat x) k = Some v -> 0 <= k).

  Definition PX (x : mx) : Prop :=
    lines (m_l3 (x_m x)) = [] /\ bus_ok NMr (m_cbus (x_m x)) /\ bus_ok NM (x_ebus x) /\ Forall NM (x_pend x) /\
    bus_ok WOK (m_wbus (x_m x)) /\ RK x.

  Lemma app_nth_GI : forall n i, nth_error app n = Some i -> GI i.
  Proof.
    intros n i H. split; [eapply reg_only_nth; eassumption|].
    intros HN r HR. eapply wregs_nonneg_nth; [exact (Hnn HN)|exact H|exact HR].
  Qed.

  Lemma PX_ext : forall x x', core_of x' = core_of x -> PX x -> PX x'.
  Proof.
    intros x x' E H. unfold core_of in E. inversion E as [[E1 E2 E3 E4 E5 E6 E7]].
    unfold PX, RK. rewrite E1, E2, E3, E4, E5, E6, E7. exact H.
  Qed.

  (* --- frame lemmas --- *)

  Lemma core_set_forward3 : forall x pc reg v, core_of (set_forward3 x pc reg v) = core_of x.
  Proof. reflexivity. Qed.

  Lemma core_bu_assert3 : forall x r, core_of (bu_assert3 x r) = core_of x.
  Proof. intros x r. destruct (bu_assert3_frame x r) as [A B]. unfold core_of, runners_of, rest_of in *. congruence. Qed.

  Lemma core_bu_resolved3 : forall x pc pcTo, core_of (bu_resolved3 x pc pcTo) = core_of x.
  Proof. reflexivity. Qed.

  Lemma core_wbus_connect3 : forall x cycle, core_of (wbus_connect3 x cycle) =
    (m_l3 (x_m x), m_cbus (x_m x), x_ebus x, x_pend x, bb_connect (m_wbus (x_m x)) cycle, x_crat x, x_trat x).
  Proof. reflexivity. Qed.

  Lemma wbus_connect3_px : forall x cycle, PX x -> PX (wbus_connect3 x cycle).
  Proof.
    intros x cycle (P1 & P2 & P3 & P4 & P5 & P6). unfold PX, RK.
    cbn [wbus_connect3 set_m set_wbus x_m x_ebus x_pend x_crat x_trat m_l3 m_cbus m_wbus].
    split6; try assumption. apply on_bus_connect. exact P5.
  Qed.

  (* --- du.go, cu.go: PX is the class invariant of Mvp63Class.v for GI, together with facts about the L3, the write
         bus and the alias tables, which decode and control leave alone --- *)

  Lemma PX_runners : forall x, PX x -> runners_ok GI x.
  Proof. intros x (_ & P2 & P3 & P4 & _). exact (conj P2 (conj P3 P4)). Qed.

  Lemma PX_kept : forall x0 x, PX x0 -> Kept GI x0 x -> PX x.
  Proof.
    intros x0 x (P1 & _ & _ & _ & P5 & P6) [(R1 & R2 & R3) E]. unfold rest_of in E. inversion E as [[E1 E2 E3 E4 E5]].
    unfold PX, RK. rewrite E2, E3, E4, E5. split6; assumption.
  Qed.

  Lemma du_cycle3_px : forall cycle x x', du_cycle3 app cycle x = Ok x' -> PX x -> PX x'.
  Proof.
    intros cycle x x' H HP. apply (PX_kept x x' HP).
    exact (du_cycle3_class GI app app_nth_GI cycle x x x' H (Kept_refl GI x (PX_runners x HP))).
  Qed.

  Lemma cu_cycle3_px : forall ord cycle x, PX x -> PX (cu_cycle3 ord cycle x).
  Proof.
    intros ord cycle x HP. apply (PX_kept x _ HP).
    exact (cu_cycle3_class GI ord cycle x x (Kept_refl GI x (PX_runners x HP))).
  Qed.

  (* --- the first half of a tick --- *)

  Lemma front3_px : forall ord cycle x x', front3 app ord cycle x = Ok x' -> PX x -> PX x'.
  Proof.
    intros ord cycle x x' H HP. unfold front3 in H. cbv zeta in H.
    apply bind_ok in H as ([[fu1 l1i1] dbus1] & _ & H).
    apply bind_ok in H as (x1 & ED & H). inversion H; subst.
    apply cu_cycle3_px. eapply du_cycle3_px; [exact ED|].
    destruct HP as (P1 & P2 & P3 & P4 & P5 & P6). unfold PX, RK.
    cbn [set_m set_ebus3 set_dbus set_l1i set_fu set_wbus set_cbus x_m x_ebus x_pend x_crat x_trat m_l3 m_cbus m_wbus].
    split6; try assumption; apply on_bus_connect; assumption.
  Qed.

  (* --- cpu.go: flush --- *)

  Lemma do_flush3_px : forall x pc, PX x -> PX (do_flush3 x pc).
  Proof.
    intros x pc (P1 & P2 & P3 & P4 & P5 & P6). unfold PX, RK.
    cbn [do_flush3 do_flush6 inc_seq3 set_seq3 set_m set_pcb3 set_prev3 set_pend3 set_ebus3 x_m x_ebus x_pend x_crat x_trat
         m_l3 m_cbus m_wbus].
    split6; try assumption; try apply on_bus_clean. constructor.
  Qed.

  (* --- the alias tables --- *)

  Lemma rat_new_read : forall (V : Type) (z : V) len k, rat_read z (rat_new len) k = None.
  Proof. reflexivity. Qed.

  Lemma ratLength_ok : forall V, @rat_ok V (rat_new ratLength).
  Proof. intros V. apply rat_new_ok. unfold ratLength. lia. Qed.

  (* for k, v := range vals { committedRAT.Write(k, v.value) } keeps the table well formed; its keys afterwards are
     keys of vals or keys it had *)
  Lemma commit_vals_rk : forall ord cycle crat vals,
    rat_ok crat -> (forall k v, rat_read 0 crat k = Some v -> 0 <= k) -> (forall k v, aget k vals = Some v -> 0 <= k) ->
    rat_ok (commit_vals ord cycle crat vals) /\ forall k v, rat_read 0 (commit_vals ord cycle crat vals) k = Some v -> 0 <= k.
  Proof.
    intros ord cycle crat vals HO HK HV.
    change (commit_vals ord cycle crat vals)
      with (wfold 0 (fun tu : Z * Z => snd tu) vals (map_order ord cycle (-1) (akeys vals)) crat).
    destruct (fold_rat_write_read 0 (fun tu : Z * Z => snd tu) vals (map_order ord cycle (-1) (akeys vals)) crat HO) as [A B].
    split; [exact A|]. intros k v H. rewrite B in H.
    destruct (memZ k (map_order ord cycle (-1) (akeys vals))); [|eapply HK; exact H].
    destruct (aget k vals) as [a|] eqn:EA; [eapply HV; exact EA|eapply HK; exact H].
  Qed.

  Lemma rat_commit3_px : forall ord cycle x, PX x -> PX (rat_commit3 ord cycle x).
  Proof.
    intros ord cycle x (P1 & P2 & P3 & P4 & P5 & P6). unfold PX.
    cbn [rat_commit3 set_rats3 x_m x_ebus x_pend]. split6; try assumption.
    intros HN. destruct (P6 HN) as (R1 & R2 & R3 & R4). cbn [rat_commit3 set_rats3 x_crat x_trat].
    destruct (commit_vals_rk ord cycle (x_crat x) (rat_values tu0 (x_trat x)) R1 R3) as [A B].
    { intros k v H. rewrite aget_rat_values in H. eapply R4. exact H. }
    split; [exact A|]. split; [apply ratLength_ok|]. split; [exact B|].
    intros k v H. rewrite rat_new_read in H. discriminate.
  Qed.

  Lemma rat_rollback3_px : forall ord cycle x s, PX x -> PX (rat_rollback3 ord cycle x s).
  Proof.
    intros ord cycle x s (P1 & P2 & P3 & P4 & P5 & P6). unfold PX.
    cbn [rat_rollback3 set_rats3 x_m x_ebus x_pend]. split6; try assumption.
    intros HN. destruct (P6 HN) as (R1 & R2 & R3 & R4). cbn [rat_rollback3 set_rats3 x_crat x_trat].
    destruct (commit_vals_rk ord cycle (x_crat x) (rat_findvalues tu0 (x_trat x) (fun u => fst u <? s)) R1 R3) as [A B].
    { intros k v H. rewrite (aget_rat_findvalues tu0 (x_trat x) _ k R2) in H.
      unfold rat_find in H. destruct (aget k (r_tab (x_trat x))) as [e|] eqn:EA; [|discriminate].
      apply (R4 k (slot tu0 e (e_idx e))). unfold rat_read. rewrite EA. reflexivity. }
    split; [exact A|]. split; [apply ratLength_ok|]. split; [exact B|].
    intros k v H. rewrite rat_new_read in H. discriminate.
  Qed.

  (* --- wu.go --- *)

  Definition WU (w : wu6) : Prop := u_co w = WNone.

  Lemma wu_cycle7_px : forall x w before x' w',
    wu_cycle7 x w before = Ok (x', w') -> PX x -> PX x' /\ w' = w.
  Proof.
    intros x w before x' w' H (P1 & P2 & P3 & P4 & P5 & P6). unfold wu_cycle7 in H. cbv zeta in H.
    unfold bb_get in H. destruct (bb_q (m_wbus (x_m x))) as [|c t] eqn:EQ.
    - inversion H; subst. split; [|reflexivity].
      unfold PX, RK. cbn [set_m set_wbus x_m x_ebus x_pend x_crat x_trat m_l3 m_cbus m_wbus]. split6; assumption.
    - assert (HC : WOK c /\ bus_ok WOK (mk_bb (bb_buf (m_wbus (x_m x))) t (bb_ql (m_wbus (x_m x))) (bb_bl (m_wbus (x_m x))))).
      { destruct P5 as [B1 B2]. rewrite EQ in B2. inversion B2; subst. split; [assumption|split; assumption]. }
      destruct HC as [[HC1 HC2] HB].
      destruct (negb (before =? -1) && (before <? w_seq c)).
      { inversion H; subst. split; [|reflexivity].
        unfold PX, RK. cbn [set_m set_wbus x_m x_ebus x_pend x_crat x_trat m_l3 m_cbus m_wbus]. split6; assumption. }
      destruct (RegisterChange (w_exe c)) eqn:ER.
      { inversion H; subst. split; [|reflexivity].
        unfold PX. cbn [set_m set_rats3 set_wbus del_pending6 set_sb x_m x_ebus x_pend m_l3 m_cbus m_wbus]. split6; try assumption.
        intros HN. destruct (P6 HN) as (R1 & R2 & R3 & R4).
        cbn [set_m set_rats3 x_crat x_trat]. split; [exact R1|]. split; [apply rat_write_ok; exact R2|]. split; [exact R3|].
        intros k v HK. rewrite rat_read_write in HK by exact R2.
        destruct (Z.eqb_spec k (Register (w_exe c))) as [->|]; [apply HC2; [exact HN|reflexivity]|eapply R4; exact HK]. }
      rewrite HC1 in H. inversion H; subst. split; [|reflexivity].
      unfold PX, RK. cbn [set_m set_wbus del_pending6 set_sb x_m x_ebus x_pend x_crat x_trat m_l3 m_cbus m_wbus]. split6; assumption.
  Qed.

  (* on such a write bus the write unit of MVP-6.3 is the write unit of MVP-7.0 *)
  Lemma wu_cycle_sim : forall x w before, PX x -> WU w -> wu_cycle3 x w before = wu_cycle7 x w before.
  Proof.
    intros x w before (P1 & P2 & P3 & P4 & P5 & P6) HW. unfold wu_cycle3, wu_cycle7. rewrite HW. cbv zeta.
    unfold bb_get. destruct (bb_q (m_wbus (x_m x))) as [|c t] eqn:EQ; [reflexivity|].
    assert (HC : WOK c). { destruct P5 as [_ B2]. rewrite EQ in B2. inversion B2; assumption. }
    destruct (negb (before =? -1) && (before <? w_seq c)); [reflexivity|].
    destruct (RegisterChange (w_exe c)); [reflexivity|].
    destruct HC as [HC _]. rewrite HC. reflexivity.
  Qed.

  Lemma wus_cycle_sim : forall wus x before, PX x -> Forall WU wus -> wus_cycle3 x wus before = wus_cycle7 x wus before.
  Proof.
    induction wus as [|w t IH]; intros x before HP HW; cbn [wus_cycle3 wus_cycle7]; [reflexivity|].
    inversion HW as [|? ? HW1 HWT]; subst.
    rewrite (wu_cycle_sim x w before HP HW1).
    destruct (wu_cycle7 x w before) as [[x1 w1]| |] eqn:E1; [|reflexivity|reflexivity].
    cbn [bind fst snd]. apply wu_cycle7_px in E1; [|exact HP]. destruct E1 as [HP1 _].
    rewrite (IH x1 before HP1 HWT). reflexivity.
  Qed.

  Lemma wus_cycle7_px : forall wus x before x' wus',
    wus_cycle7 x wus before = Ok (x', wus') -> PX x -> PX x' /\ wus' = wus.
  Proof.
    induction wus as [|w t IH]; intros x before x' wus' H HP; cbn [wus_cycle7] in H.
    - inversion H; subst. split; [exact HP|reflexivity].
    - apply bind_ok in H as ([x1 w1] & E1 & H). apply bind_ok in H as ([x2 t2] & E2 & H).
      cbn [fst snd] in *. inversion H; subst.
      apply wu_cycle7_px in E1; [|exact HP]. destruct E1 as [A B].
      apply IH in E2; [|exact A]. destruct E2 as [C D]. split; [exact C|]. rewrite B, D. reflexivity.
  Qed.

  (* a controller as NewCPU leaves it (whatever its L1D) *)
  Definition CC (c : cc7) : Prop :=
    c_rd c = RStart /\ c_wr c = WStart /\ c_snoop c = [] /\ c_rsems c = [] /\ c_wsems c = [].

  Definition RNM (e : eu7) : Prop := forall r, h_runner e = Some r -> NM r.
  Definition EU (e : eu7) : Prop := (h_co e = HNone \/ h_co e = HPrepare) /\ RNM e /\ CC (h_cc e).
  Definition INV (w : w7) : Prop := w_i w = msi_new /\ PX (w_x w).

  Lemma RNM_some : forall co m r s cc, NM r -> RNM (mk_eu7 co m (Some r) s cc).
  Proof. intros co m r s cc H r' Hr'. cbn [h_runner] in Hr'. inversion Hr'; subst. exact H. Qed.

  Lemma INV_set_wx : forall w x', INV w -> PX x' -> INV (set_wx w x').
  Proof. intros w x' [I1 _] HP. split; [exact I1|exact HP]. Qed.

  Lemma INV_set_wx_core : forall w x', INV w -> core_of x' = core_of (w_x w) -> INV (set_wx w x').
  Proof. intros w x' HI E. apply INV_set_wx; [exact HI|]. eapply PX_ext; [exact E|]. exact (proj2 HI). Qed.

  (* cc.flush of a controller without recorded locks is the identity *)
  Lemma cc_flush_idle : forall i c, CC c -> cc_flush i c = Ok (i, c).
  Proof.
    intros i [l1 rd wr sn rs ws po] (A & B & C & D & E). cbn [c_rd c_wr c_snoop c_rsems c_wsems] in A, B, C, D, E.
    subst. reflexivity.
  Qed.

  Definition flushed7 (e : eu7) : eu7 := mk_eu7 HNone (h_memory e) (h_runner e) 0 (h_cc e).

  Lemma eu_flush7_idle : forall i e, CC (h_cc e) -> eu_flush7 i e = Ok (i, flushed7 e).
  Proof. intros i e HC. unfold eu_flush7. rewrite (cc_flush_idle i (h_cc e) HC). reflexivity. Qed.

  Lemma eus_flush_all7_idle : forall eus i, Forall EU eus -> eus_flush_all7 i eus = Ok (i, map flushed7 eus).
  Proof.
    induction eus as [|e t IH]; intros i HE; cbn [eus_flush_all7 map]; [reflexivity|].
    inversion HE as [|? ? H1 HT]; subst. destruct H1 as (_ & _ & HC).
    rewrite (eu_flush7_idle i e HC). cbn [bind fst snd]. rewrite (IH i HT). reflexivity.
  Qed.

  (* coSnoop with no command in the directory creates no closure *)
  Lemma cc_snoop_idle : forall kev mem i id c, i_cmds i = [] -> CC c -> cc_snoop_cycle kev mem i id c = Ok (mem, i, c).
  Proof.
    intros kev mem i id [l1 rd wr sn rs ws po] HK (A & B & C & D & E). cbn [c_rd c_wr c_snoop c_rsems c_wsems] in A, B, C, D, E.
    subst. unfold cc_snoop_cycle. cbn [c_snoop c_l1d snoop_items bind]. unfold co_snoop. rewrite HK. reflexivity.
  Qed.

  Lemma set_wmem_same : forall w, set_wmem (set_wi w (w_i w)) (w_mem w) = w.
  Proof. intros [[m eb pe pr pcb sq cr tr fw ch nx os] i cp pf]. destruct m. reflexivity. Qed.

  Lemma set_hcc_same : forall e, set_hcc e (h_cc e) = e.
  Proof. intros []. reflexivity. Qed.

  (* for _, cc := range m.cacheControllers { cc.snoop.Cycle(struct{}{}) } does nothing *)
  Lemma snoops7_idle : forall hk eus id w, w_i w = msi_new -> Forall EU eus -> snoops7 hk id w eus = Ok (w, eus).
  Proof.
    intros hk. induction eus as [|e t IH]; intros id w HI HE; cbn [snoops7]; [reflexivity|].
    inversion HE as [|? ? H1 HT]; subst. destruct H1 as (_ & _ & HC).
    rewrite (cc_snoop_idle (k_evict hk) (w_mem w) (w_i w) id (h_cc e)); [|rewrite HI; reflexivity|exact HC].
    cbn [bind]. cbv beta iota. rewrite set_wmem_same, (IH (id + 1) w HI HT). cbn [bind fst snd].
    rewrite set_hcc_same. reflexivity.
  Qed.

  (* export with a directory that holds no state writes nothing and costs nothing *)
  Lemma cc_export_idle : forall i id ls mem c, i_states i = [] -> cc_export i id ls mem c = Ok (mem, c).
  Proof.
    intros i id ls mem c HS. induction ls as [|l t IH]; cbn [cc_export]; [reflexivity|].
    unfold state_get. rewrite HS. cbn [find]. exact IH.
  Qed.

  Lemma export7_idle : forall i eus id mem c, i_states i = [] -> export7 i id eus mem c = Ok (mem, c).
  Proof.
    intros i. induction eus as [|e t IH]; intros id mem c HS; cbn [export7]; [reflexivity|].
    rewrite (cc_export_idle i id _ mem c HS). cbn [bind fst snd]. apply IH. exact HS.
  Qed.

  Definition co_of (c : eu_co7) : eu_co := match c with HPrepare => EPrepare | _ => ENone end.
  Definition eu_of (e : eu7) : eu3 := mk_eu3 (co_of (h_co e)) (h_memory e) (h_runner e) (h_seq e).

  Definition lift7 (o : eu_res7) : outcome (mx * eu3 * eu_out3) :=
    match o with Ok (w', e', out) => Ok (w_x w', eu_of e', out) | Err er => Err er | Panic => Panic end.

  Lemma eu_pre3_of : forall e, eu_pre3 (eu_of e) = eu_pre7 e.
  Proof. reflexivity. Qed.

  Lemma eu_empty3_of : forall e, EU e -> eu_empty3 (eu_of e) = eu_empty7 e.
  Proof. intros e [[H|H] _]; unfold eu_empty3, eu_empty7; cbn [eu_of g_co]; rewrite H; reflexivity. Qed.

  (* run never looks at the coroutine state of the unit *)
  Lemma eu_run3_co : forall labels ord cycle x c c' m r s,
    eu_run3 labels ord cycle x (mk_eu3 c m r s) = eu_run3 labels ord cycle x (mk_eu3 c' m r s).
  Proof. reflexivity. Qed.

  (* --- run --- *)

  Lemma eu_run_sim : forall labels ord cycle id w e, RNM e ->
    eu_run3 labels ord cycle (w_x w) (eu_of e) = (false, lift7 (eu_run7 hooks70 labels ord cycle id w e)).
  Proof.
    intros labels ord cycle id w [co mm run sq cc] H. unfold eu_run3, eu_run7.
    cbn [eu_of g_runner g_memory g_seq g_co h_runner h_memory h_seq h_co h_cc hooks70 k_rr].
    unfold RNM in H. cbn [h_runner] in H. destruct run as [r|]; [|reflexivity].
    destruct (H r eq_refl) as [HN _]. cbv zeta. cbv beta iota.
    destruct (instr_Run (q_instr r) (rr3 (w_x w) (q_pc r)) labels (q_pc r) mm 0) as [exe|er|] eqn:EX;
      [|reflexivity|reflexivity].
    rewrite (nomem_no_change _ _ _ _ _ _ _ HN EX).
    destruct (Return exe); [reflexivity|].
    cbn [andb bind]. cbv beta iota.
    destruct (q_fwder r) as [ch|].
    - destruct (aget ch _); [reflexivity|]. destruct (InstructionType_IsBranch _); reflexivity.
    - destruct (PcChange exe); [|reflexivity].
      destruct (bu_should_flush6 _ _) as [b' fl]. reflexivity.
  Qed.

  Lemma eu_run7_inv : forall labels ord cycle id w e w' e' o,
    eu_run7 hooks70 labels ord cycle id w e = Ok (w', e', o) -> INV w -> RNM e -> CC (h_cc e) -> INV w' /\ EU e'.
  Proof.
    intros labels ord cycle id w e w' e' o H HI HR HC. unfold eu_run7 in H. cbn [hooks70 k_rr] in H. cbv zeta in H. cbv beta iota in H.
    unfold RNM in HR. destruct (h_runner e) as [r|] eqn:ER; [|discriminate].
    assert (HN : NM r) by (apply HR; reflexivity).
    assert (HE0 : EU (set_hco e HNone)).
    { split; [left; reflexivity|]. split; [|exact HC]. intros r' Hr'. cbn [set_hco h_runner] in Hr'. rewrite ER in Hr'.
      inversion Hr'; subst. exact HN. }
    destruct (instr_Run _ _ _ _ _ _) as [exe|er|] eqn:EX; [| |discriminate].
    2: { inversion H; subst. split; [apply INV_set_wx_core; [exact HI|reflexivity]|exact HE0]. }
    rewrite (nomem_no_change _ _ _ _ _ _ _ (proj1 HN) EX) in H.
    destruct (Return exe); [inversion H; subst; split; [apply INV_set_wx_core; [exact HI|reflexivity]|exact HE0]|].
    (* the machine once the result is on the write bus *)
    set (x0 := set_forward3 (w_x w) (q_pc r) 0 0) in *.
    set (x1 := set_m x0 (set_wbus (x_m x0) (bb_add (m_wbus (x_m x0))
                 (mk_wb6 (q_seq r) exe (instr_ReadRegisters (q_instr r)) (instr_WriteRegisters (q_instr r))) cycle))) in *.
    assert (HP1 : PX x1).
    { destruct HI as [_ (P1 & P2 & P3 & P4 & P5 & P6)]. unfold PX, RK, x1, x0.
      cbn [set_forward3 set_fwd3 set_m set_wbus x_m x_ebus x_pend x_crat x_trat m_l3 m_cbus m_wbus].
      split6; try assumption. apply on_bus_add; [exact P5|]. split; cbn [w_exe].
      - exact (nomem_no_change _ _ _ _ _ _ _ (proj1 HN) EX).
      - intros HNN HRC. destruct (run_register_written _ _ _ _ _ _ _ (proj1 HN) EX HRC) as [E0|HIn]; [lia|].
        exact (proj2 HN HNN _ HIn). }
    destruct (q_fwder r) as [ch|].
    - destruct (aget ch (x_chan x1)); [discriminate|]. destruct (InstructionType_IsBranch _); [discriminate|].
      inversion H; subst. split; [|exact HE0]. apply INV_set_wx; [exact HI|]. eapply PX_ext; [|exact HP1]. reflexivity.
    - set (x2 := if InstructionType_IsUnconditionalBranch (instr_InstructionType (q_instr r))
                 then bu_resolved3 x1 (q_pc r) (NextPc exe) else x1) in *.
      assert (HP2 : PX x2).
      { unfold x2. destruct (InstructionType_IsUnconditionalBranch _); [|exact HP1].
        eapply PX_ext; [apply core_bu_resolved3|exact HP1]. }
      set (x3 := if InstructionType_IsConditionalBranch (instr_InstructionType (q_instr r))
                 then if PcChange exe && negb (NextPc exe =? addS 32 (q_pc r) 4)
                      then rat_rollback3 ord cycle (set_pcb3 x2 false) (q_seq r)
                      else rat_commit3 ord cycle (set_pcb3 x2 false)
                 else x2) in *.
      assert (HP3 : PX x3).
      { unfold x3. destruct (InstructionType_IsConditionalBranch _); [|exact HP2].
        assert (HPB : PX (set_pcb3 x2 false)) by (eapply PX_ext; [|exact HP2]; reflexivity).
        destruct (PcChange exe && negb (NextPc exe =? addS 32 (q_pc r) 4)); [apply rat_rollback3_px|apply rat_commit3_px]; exact HPB. }
      destruct (PcChange exe).
      + destruct (bu_should_flush6 (m_bu (x_m x3)) (NextPc exe)) as [b' fl]. inversion H; subst.
        split; [|exact HE0]. apply INV_set_wx; [exact HI|]. eapply PX_ext; [|exact HP3]. reflexivity.
      + inversion H; subst. split; [|exact HE0]. apply INV_set_wx; [exact HI|exact HP3].
  Qed.

  (* --- prepareRun --- *)

  Lemma eu_prepare_sim : forall labels ord cycle id w e, RNM e ->
    eu_prepare3 labels ord cycle (w_x w) (eu_of e) = (false, lift7 (eu_prepare7 hooks70 labels ord cycle id w e)).
  Proof.
    intros labels ord cycle id w e H. unfold eu_prepare3, eu_prepare7. cbv zeta.
    destruct (negb (bb_canadd (m_wbus (x_m (w_x w))))); [reflexivity|].
    cbn [eu_of g_runner g_memory g_seq g_co hooks70 k_rr].
    unfold RNM in H. destruct (h_runner e) as [r|] eqn:ER; [|reflexivity].
    pose proof (H r eq_refl) as HN.
    set (rcv := match q_recv r with
                | None => Some (w_x w, r)
                | Some ch => match aget ch (x_chan (w_x w)) with
                             | None => None
                             | Some v => Some (set_forward3 (set_chan3 (w_x w) (filter (fun p => negb (fst p =? ch)) (x_chan (w_x w)))) (q_pc r) (q_freg r) v,
                                               mk_r3 (q_r r) (q_id r) (q_fwder r) None (q_freg r))
                             end
                end).
    assert (HR1 : forall x0 r1, rcv = Some (x0, r1) -> NM r1).
    { intros x0 r1 EV. unfold rcv in EV. destruct (q_recv r) as [ch|].
      - destruct (aget ch _); [|discriminate]. inversion EV; subst. exact HN.
      - inversion EV; subst. exact HN. }
    destruct rcv as [[x0 r1]|]; [|reflexivity].
    specialize (HR1 x0 r1 eq_refl). cbv beta iota.
    rewrite !nomem_no_read by exact (proj1 HR1).
    rewrite (eu_run3_co labels ord cycle (bu_assert3 x0 (q_r r1)) (co_of (h_co e)) ENone).
    exact (eu_run_sim labels ord cycle id (set_wx w (bu_assert3 x0 (q_r r1)))
             (set_hco (mk_eu7 (h_co e) (h_memory e) (Some r1) (h_seq e) (h_cc e)) HNone)
             (RNM_some _ _ _ _ _ HR1)).
  Qed.

  Lemma eu_prepare7_inv : forall labels ord cycle id w e w' e' o,
    eu_prepare7 hooks70 labels ord cycle id w e = Ok (w', e', o) -> INV w -> EU e -> INV w' /\ EU e'.
  Proof.
    intros labels ord cycle id w e w' e' o H HI HE. unfold eu_prepare7 in H. cbv zeta in H.
    destruct (negb _); [inversion H; subst; split; assumption|].
    pose proof HE as (_ & HR & HC). unfold RNM in HR.
    destruct (h_runner e) as [r|] eqn:ER; [|discriminate].
    assert (HN : NM r) by (apply HR; reflexivity).
    cbn [hooks70 k_rr] in H.
    destruct (q_recv r) as [ch|].
    - destruct (aget ch (x_chan (w_x w))) as [v|]; [|inversion H; subst; split; assumption].
      cbv beta iota zeta in H. rewrite nomem_no_read in H by exact (proj1 HN).
      eapply eu_run7_inv; [exact H| | |exact HC].
      + apply INV_set_wx_core; [exact HI|]. rewrite core_bu_assert3. reflexivity.
      + apply RNM_some. exact HN.
    - cbv beta iota zeta in H. rewrite nomem_no_read in H by exact (proj1 HN).
      eapply eu_run7_inv; [exact H| | |exact HC].
      + apply INV_set_wx_core; [exact HI|]. rewrite core_bu_assert3. reflexivity.
      + apply RNM_some. exact HN.
  Qed.

  (* --- executeUnit.Cycle --- *)

  Lemma eu_cycle_sim : forall labels ord cycle id w e, INV w -> EU e ->
    eu_cycle3 labels ord cycle (w_x w) (eu_of e) = (false, lift7 (eu_cycle7 hooks70 labels ord cycle id w e)).
  Proof.
    intros labels ord cycle id w e HI (HC & HR & HCC). unfold eu_cycle3, eu_cycle7. rewrite eu_pre3_of.
    destruct (eu_pre7 e).
    - cbn [hooks70 k_pending]. rewrite (eu_flush7_idle (w_i w) e HCC). reflexivity.
    - change (g_co (eu_of e)) with (co_of (h_co e)).
      destruct HC as [HC|HC]; rewrite HC; cbn [co_of].
      + cbn [hooks70 k_take]. unfold bb_get.
        destruct (bb_q (x_ebus (w_x w))) as [|r q'] eqn:EQ; [reflexivity|].
        assert (HN : NM r). { destruct HI as [_ (_ & _ & [_ P3] & _)]. rewrite EQ in P3. inversion P3; assumption. }
        exact (eu_prepare_sim labels ord cycle id
                 (set_wx w (set_ebus3 (w_x w) (mk_bb (bb_buf (x_ebus (w_x w))) q' (bb_ql (x_ebus (w_x w))) (bb_bl (x_ebus (w_x w))))))
                 (mk_eu7 HPrepare (h_memory e) (Some r) (h_seq e) (h_cc e))
                 (RNM_some _ _ _ _ _ HN)).
      + assert (EE : mk_eu3 EPrepare (h_memory e) (h_runner e) (h_seq e) = eu_of e)
          by (unfold eu_of; rewrite HC; reflexivity).
        change (eu_of e) with (mk_eu3 (co_of (h_co e)) (h_memory e) (h_runner e) (h_seq e)). rewrite HC. cbn [co_of].
        rewrite EE. apply eu_prepare_sim. exact HR.
  Qed.

  Lemma eu_cycle7_inv : forall labels ord cycle id w e w' e' o,
    eu_cycle7 hooks70 labels ord cycle id w e = Ok (w', e', o) -> INV w -> EU e -> INV w' /\ EU e'.
  Proof.
    intros labels ord cycle id w e w' e' o H HI HE. unfold eu_cycle7 in H.
    pose proof HE as (HC & HR & HCC).
    destruct (eu_pre7 e).
    - cbn [hooks70 k_pending] in H. rewrite (eu_flush7_idle (w_i w) e HCC) in H. cbn [bind fst snd] in H.
      inversion H; subst. split.
      + destruct HI as [I1 I2]. split; [exact I1|exact I2].
      + split; [left; reflexivity|]. split; [exact HR|exact HCC].
    - destruct HC as [HC|HC]; rewrite HC in H.
      + cbn [hooks70 k_take] in H. unfold bb_get in H.
        destruct (bb_q (x_ebus (w_x w))) as [|r q'] eqn:EQ; [inversion H; subst; split; assumption|].
        pose proof HI as [I1 (P1 & P2 & P3 & P4 & P5 & P6)].
        assert (HN : NM r /\ Forall NM q'). { destruct P3 as [_ P3]. rewrite EQ in P3. inversion P3; split; assumption. }
        eapply eu_prepare7_inv; [exact H| |].
        * apply INV_set_wx; [exact HI|]. unfold PX, RK. cbn [set_ebus3 x_m x_ebus x_pend x_crat x_trat].
          split6; try assumption. apply on_bus_setq; [exact P3|exact (proj2 HN)].
        * split; [right; reflexivity|]. split; [|exact HCC].
          apply RNM_some. exact (proj1 HN).
      + eapply eu_prepare7_inv; eassumption.
  Qed.
End Inv.

Print Assumptions front3_px.
Print Assumptions wus_cycle_sim.
Print Assumptions snoops7_idle.
Print Assumptions eu_cycle_sim.
Print Assumptions eu_cycle7_inv.
