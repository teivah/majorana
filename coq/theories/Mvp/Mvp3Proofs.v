(* Proofs about the MVP-3 model (Mvp3.v): the sequential core with LRU L1I and
   L1D caches computes the sequential architectural result, every load sees the
   most recent store, and after the final flush nothing is left behind in the
   cache (C01/C05 for MVP-3), without panic and within the fuel of the
   sequential machine (C07); the cycle count is cost3, a function of the
   program and of the sequence of (pc, loaded addresses, stored addresses)
   only (C12).  Hypotheses on the SEQUENTIAL run: accesses_ok (no access
   straddles a 64-byte line - refuted without it at the end of the file) and
   mem_small (at most 2^31 - 64 bytes of memory).

   The L1D is reasoned about through the reference cache of Comp/CacheSpec.v
   (scache: resident map + recency list) using the per-operation refinement
   step_refines of Comp/CacheProofs.v.  The invariant of the induction is
       the byte seen through the cache  =  the byte of the sequential memory
   (lm below), for every address of the memory. *)
From Coq Require Import ZArith List Bool Lia.
From Maj Require Import Base.Outcome Base.GoInt Base.GoTypes Isa.Spec Isa.Embed Isa.Seq.
From Maj Require Import Gen.Latency Gen.RiscTables Gen.BytesGo Gen.Opcodes Bytes.Proofs Isa.Refine.
From Maj Require Import Comp.Cache Comp.Lru Comp.CacheSpec Comp.MapFacts Comp.CacheProofs.
From Maj Require Import Mvp.Mvp12 Mvp.Mvp12Proofs Mvp.Mvp3.
Import ListNotations.
Open Scope Z_scope.

(* ------------------------------------------------------------------ *)
(* flat memory: mget / mset / mset_all                                  *)

Lemma supd_length {A} (l : list A) n v : length (Seq.upd l n v) = length l.
Proof. revert n. induction l; intros [|n]; simpl; auto. Qed.

Lemma supd_nth_eq {A} (l : list A) n v d : (n < length l)%nat -> nth n (Seq.upd l n v) d = v.
Proof. revert n. induction l; intros [|n] H; simpl in *; try lia; auto. apply IHl. lia. Qed.

Lemma supd_nth_neq {A} (l : list A) n m v d : n <> m -> nth m (Seq.upd l n v) d = nth m l d.
Proof. revert n m. induction l; intros [|n] [|m] H; simpl; auto; try congruence. Qed.

Lemma mset_length m a v : length (mset m a v) = length m.
Proof. apply supd_length. Qed.

Lemma mget_mset m a v x : 0 <= a < zlen m -> 0 <= x ->
  mget (mset m a v) x = if x =? a then v else mget m x.
Proof.
  intros Ha Hx. unfold mget, mset, zlen in *. destruct (Z.eqb_spec x a) as [->|Hne].
  - apply supd_nth_eq. lia.
  - apply supd_nth_neq. lia.
Qed.

Lemma mset_all_length bs : forall m, length (mset_all m bs) = length m.
Proof. induction bs as [|[a v] t IH]; intros m; cbn [mset_all]; [reflexivity|]. rewrite IH. apply mset_length. Qed.

(* position x in the list d laid out from address b on, [old] elsewhere: the two
   equations that inductions over d use *)
Lemma range_nil b x (old : Z) :
  (if (b <=? x) && (x <? b + zlen (@nil Z)) then nth (Z.to_nat (x - b)) [] 0 else old) = old.
Proof. unfold zlen. cbn [length]. destruct (Z.leb_spec b x), (Z.ltb_spec x (b + Z.of_nat 0)); try lia; reflexivity. Qed.

Lemma range_cons v t b x (old : Z) :
  (if (b + 1 <=? x) && (x <? b + 1 + zlen t) then nth (Z.to_nat (x - (b + 1))) t 0 else if x =? b then v else old) =
  (if (b <=? x) && (x <? b + zlen (v :: t)) then nth (Z.to_nat (x - b)) (v :: t) 0 else old).
Proof.
  rewrite zlen_cons. pose proof (zlen_nonneg t).
  destruct (Z.leb_spec (b + 1) x), (Z.ltb_spec x (b + 1 + zlen t)), (Z.leb_spec b x), (Z.ltb_spec x (b + (zlen t + 1)));
    cbn [andb]; try lia; destruct (Z.eqb_spec x b); try lia; try reflexivity.
  - replace (Z.to_nat (x - b)) with (S (Z.to_nat (x - (b + 1)))) by lia. reflexivity.
  - subst. rewrite Z.sub_diag. reflexivity.
Qed.

(* the stores of one instruction, as a function update *)
Fixpoint apply_changes (bs : list (Z * Z)) (f : Z -> Z) : Z -> Z :=
  match bs with
  | [] => f
  | (a, v) :: t => apply_changes t (fun x => if x =? a then v else f x)
  end.

Lemma mget_mset_all bs : forall m x, 0 <= x ->
  forallb (in_mem m) (map fst bs) = true ->
  mget (mset_all m bs) x = apply_changes bs (mget m) x.
Proof.
  induction bs as [|[a v] t IH]; intros m x Hx Hb; cbn [mset_all apply_changes]; [reflexivity|].
  cbn [map fst forallb] in Hb. apply andb_prop in Hb. destruct Hb as [Ha Ht].
  unfold in_mem in Ha. apply andb_prop in Ha. destruct Ha as [A1 A2]. apply Z.leb_le in A1. apply Z.ltb_lt in A2.
  rewrite IH; auto.
  - assert (G : forall f g, (forall y, 0 <= y -> f y = g y) -> forall y, 0 <= y -> apply_changes t f y = apply_changes t g y).
    { clear. induction t as [|[a' v'] t IH]; intros f g H y Hy; cbn [apply_changes]; [auto|].
      apply IH; auto. intros z Hz. rewrite H by auto. reflexivity. }
    apply G; auto. intros y Hy. apply mget_mset; auto; unfold zlen; lia.
  - rewrite forallb_forall in *. intros y Hy. specialize (Ht y Hy). unfold in_mem in *. rewrite mset_length. exact Ht.
Qed.

Lemma apply_changes_ext bs : forall f g x, f x = g x -> apply_changes bs f x = apply_changes bs g x.
Proof.
  induction bs as [|[a v] t IH]; intros f g x H; cbn [apply_changes]; [exact H|].
  apply IH. rewrite H. reflexivity.
Qed.

Lemma apply_changes_notin bs : forall f x, ~ In x (map fst bs) -> apply_changes bs f x = f x.
Proof.
  induction bs as [|[a v] t IH]; intros f x H; cbn [apply_changes]; [reflexivity|].
  cbn [map fst In] in H. rewrite IH by tauto. destruct (Z.eqb_spec x a); [subst; tauto | reflexivity].
Qed.

Lemma apply_changes_in bs : forall f g x, In x (map fst bs) -> apply_changes bs f x = apply_changes bs g x.
Proof.
  induction bs as [|[a v] t IH]; intros f g x H; cbn [apply_changes]; [destruct H|].
  cbn [map fst In] in H. destruct (Z.eq_dec a x) as [->|Hne].
  - apply apply_changes_ext. rewrite Z.eqb_refl. reflexivity.
  - apply IH. tauto.
Qed.

(* consecutive addresses a, a+1, ..., a+n-1 *)
Definition consec (a : Z) (n : nat) : list Z := map (fun i => a + Z.of_nat i) (seq 0 n).

Lemma consec_S a n : consec a (S n) = a :: consec (a + 1) n.
Proof.
  unfold consec. cbn [seq map]. rewrite Z.add_0_r. f_equal.
  rewrite <- seq_shift, map_map. apply map_ext. intros i. lia.
Qed.

Lemma consec_length a n : length (consec a n) = n.
Proof. unfold consec. rewrite map_length, seq_length. reflexivity. Qed.

Lemma in_consec a n x : In x (consec a n) <-> a <= x < a + Z.of_nat n.
Proof.
  unfold consec. rewrite in_map_iff. split.
  - intros (i & <- & Hi). apply in_seq in Hi. lia.
  - intros H. exists (Z.to_nat (x - a)). split; [lia|]. apply in_seq. lia.
Qed.

Lemma apply_changes_consec bs : forall a f x, map fst bs = consec a (length bs) ->
  apply_changes bs f x =
  if (a <=? x) && (x <? a + zlen bs) then nth (Z.to_nat (x - a)) (map snd bs) 0 else f x.
Proof.
  induction bs as [|[a' v] t IH]; intros a f x H; cbn [apply_changes map snd].
  - symmetry. apply range_nil.
  - cbn [length] in H. rewrite consec_S in H. cbn [map fst] in H. injection H as -> Ht.
    rewrite (IH (a + 1)) by exact Ht. rewrite <- (zlen_map snd t), <- (zlen_map snd ((a, v) :: t)). apply range_cons.
Qed.

(* ------------------------------------------------------------------ *)
(* write_to_memory, flush_lines, fetch_cache_line                       *)

Lemma write_to_memory_ok d : forall m b, 0 <= b ->
  exists m', write_to_memory m b d = Ok m' /\ length m' = length m /\
    forall x, 0 <= x < zlen m ->
      mget m' x = if (b <=? x) && (x <? b + zlen d) then nth (Z.to_nat (x - b)) d 0 else mget m x.
Proof.
  induction d as [|v t IH]; intros m b Hb; cbn [write_to_memory].
  - exists m. repeat split; auto. intros x Hx. symmetry. apply range_nil.
  - destruct (Z.leb_spec (Z.of_nat (length m)) b) as [Hge|Hlt].
    + exists m. repeat split; auto. intros x Hx. unfold zlen in Hx.
      destruct (Z.leb_spec b x); [lia | reflexivity].
    + destruct (Z.ltb_spec b 0); [lia|].
      destruct (IH (mset m b v) (b + 1) ltac:(lia)) as (m' & E & Hl & Hv).
      exists m'. split; [exact E|]. split; [rewrite Hl; apply mset_length|].
      intros x Hx. rewrite Hv by (unfold zlen in *; rewrite mset_length; lia).
      rewrite mget_mset by (unfold zlen in *; lia). apply range_cons.
Qed.

Definition lcovers (l : line) (x : Z) : Prop := lo l <= x < lo l + zlen (data l).

Lemma flush_lines_ok ls : forall m cyc, Forall (fun l => 0 <= lo l) ls ->
  exists m', flush_lines ls m cyc = Ok (m', cyc + MemoryAccess * zlen ls) /\ length m' = length m /\
    forall x, 0 <= x < zlen m ->
      (exists l, In l ls /\ lcovers l x /\ mget m' x = byte_at (data l) (x - lo l)) \/
      ((forall l, In l ls -> ~ lcovers l x) /\ mget m' x = mget m x).
Proof.
  induction ls as [|l t IH]; intros m cyc Hf; cbn [flush_lines].
  - exists m. split; [unfold zlen; cbn [length]; f_equal; f_equal; lia|]. split; [reflexivity|].
    intros x Hx. right. split; auto.
  - inversion Hf as [|? ? Hl Ht]; subst.
    destruct (write_to_memory_ok (data l) m (lo l) Hl) as (m1 & E1 & L1 & V1). rewrite E1. cbn [bind].
    destruct (IH m1 (cyc + MemoryAccess) Ht) as (m' & E & L & V). rewrite E.
    exists m'. split; [unfold zlen; cbn [length]; f_equal; f_equal; lia|]. split; [congruence|].
    intros x Hx. assert (Hx1 : 0 <= x < zlen m1) by (unfold zlen in *; rewrite L1; exact Hx).
    destruct (V x Hx1) as [(l' & Hin & Hc & Hv)|[Hn Hv]].
    + left. exists l'. split; [right; exact Hin|]. auto.
    + rewrite V1 in Hv by exact Hx.
      destruct (Z.leb_spec (lo l) x), (Z.ltb_spec x (lo l + zlen (data l))); cbn [andb] in Hv.
      * left. exists l. split; [left; reflexivity|]. split; [unfold lcovers; lia | exact Hv].
      * right. split; [|exact Hv]. intros l' [<-|Hin]; [unfold lcovers; lia | auto].
      * right. split; [|exact Hv]. intros l' [<-|Hin]; [unfold lcovers; lia | auto].
      * right. split; [|exact Hv]. intros l' [<-|Hin]; [unfold lcovers; lia | auto].
Qed.

Lemma line_base a : 0 <= a < 2147483584 ->
  subS 32 a (remS 32 a l1LineSize) = a - a mod 64.
Proof.
  intros H. unfold subS, remS, l1LineSize. rewrite Z.rem_mod_nonneg by lia.
  apply wrapS_id; [lia|]. apply int32_bounds. lia.
Qed.

Lemma fetch_cache_line_ok m a : 0 <= a < 2147483584 ->
  exists ln, fetch_cache_line m a = Ok ln /\ zlen ln = 64 /\
    forall j, 0 <= j < 64 -> a - a mod 64 + j < zlen m -> byte_at ln j = mget m (a - a mod 64 + j).
Proof.
  intros H. unfold fetch_cache_line. rewrite (line_base a H).
  destruct (Z.ltb_spec (a - a mod 64) 0); [lia|].
  eexists. split; [reflexivity|]. split.
  - unfold zlen. rewrite map_length, seq_length. reflexivity.
  - intros j Hj Hlt. unfold byte_at. rewrite nth_map_seq by (unfold l1LineSize; lia).
    rewrite Z2Nat.id by lia. unfold zlen in Hlt.
    destruct (Z.ltb_spec (a - a mod 64 + j) (Z.of_nat (length m))); [|lia]. reflexivity.
Qed.

(* ------------------------------------------------------------------ *)
(* the byte view of the reference cache under its operations            *)

Lemma view_none sc a : view sc a = None -> forall b, In b (s_rec sc) -> covers (s_len sc) a b = false.
Proof.
  unfold view, s_cover. destruct (find (covers (s_len sc) a) (s_rec sc)) eqn:E; [discriminate|].
  intros _ b Hb. eapply find_none in E; eauto.
Qed.

Lemma view_none_intro sc a : (forall b, In b (s_rec sc) -> covers (s_len sc) a b = false) -> view sc a = None.
Proof.
  intros H. unfold view, s_cover. destruct (find (covers (s_len sc) a) (s_rec sc)) eqn:E; [|reflexivity].
  apply find_some in E. destruct E as [Hin Hc]. rewrite (H _ Hin) in Hc. discriminate.
Qed.

Lemma view_ext sc sc' : SInv sc -> SInv sc' -> s_len sc' = s_len sc ->
  (forall b, In b (s_rec sc') <-> In b (s_rec sc)) ->
  (forall b, In b (s_rec sc) -> s_data sc' b = s_data sc b) ->
  forall a, view sc' a = view sc a.
Proof.
  intros Hs Hs' HL Hrec Hdat a. destruct (view sc a) as [v|] eqn:E.
  - apply view_some in E. destruct E as (b & Hin & Hc & ->).
    rewrite <- (Hdat b Hin). apply view_in_S; auto; [apply Hrec; auto|]. rewrite HL. apply covers_spec; auto.
  - apply view_none_intro. intros b Hb. rewrite HL. apply (view_none sc a E). apply Hrec; auto.
Qed.

Lemma view_get sc a x : SInv sc -> SInv (fst (s_step sc (OGet a))) ->
  view (fst (s_step sc (OGet a))) x = view sc x.
Proof.
  intros Hs Hs'. cbn [s_step] in *. destruct (s_cover sc a) as [b|] eqn:E; cbn [fst] in *; [|reflexivity].
  apply s_cover_some in E. destruct E as [Hin _].
  apply view_ext; auto.
  intros b'. cbn [touch with_rec s_rec]. split.
  - intros [<-|H]; auto. eapply in_remove_first; eauto.
  - intros H. destruct (Z.eq_dec b' b) as [->|Hne]; [left; auto | right; apply in_remove_first_neq; auto].
Qed.

Lemma view_insert sc b d x : SInv sc -> push_ok sc b d = true ->
  view (s_insert sc b d) x = if covers (s_len sc) x b then Some (byte_at d (x - b)) else view sc x.
Proof.
  intros Hs Hp. pose proof (SInv_insert _ _ _ Hs Hp) as Hs1.
  destruct (covers (s_len sc) x b) eqn:Ec.
  - rewrite (view_in_S _ x b Hs1); [|left; reflexivity | apply covers_spec; exact Ec].
    rewrite s_data_insert, Z.eqb_refl. reflexivity.
  - destruct (view sc x) as [v|] eqn:E.
    + apply view_some in E. destruct E as (b' & Hin & Hc & ->).
      rewrite (view_in_S _ x b' Hs1); [|right; exact Hin | apply covers_spec; exact Hc].
      rewrite s_data_insert. destruct (Z.eqb_spec b b'); [subst; congruence | reflexivity].
    + apply view_none_intro. cbn [s_insert s_rec s_len]. intros r [<-|Hr]; [exact Ec|].
      apply (view_none sc x E r Hr).
Qed.

Lemma view_drop sc v x : SInv sc -> SInv (s_drop sc v) -> In v (s_rec sc) ->
  view (s_drop sc v) x = if covers (s_len sc) x v then None else view sc x.
Proof.
  intros Hs Hs2 Hvin. pose proof Hs as [HL HN Hnd Hsep Hlen Hd].
  destruct (NoDup_remove_first v _ Hnd) as [_ Hv].
  destruct (covers (s_len sc) x v) eqn:Ec.
  - apply view_none_intro. cbn [s_drop s_rec s_len]. intros r Hr.
    assert (r <> v) by (intros ->; tauto). apply in_remove_first in Hr.
    destruct (covers (s_len sc) x r) eqn:Er; [|reflexivity]. exfalso.
    apply covers_spec in Ec, Er.
    destruct (Hsep r v Hr Hvin) as [?|[?|?]]; [congruence | lia | lia].
  - destruct (view sc x) as [w|] eqn:E.
    + apply view_some in E. destruct E as (b' & Hin & Hc & ->).
      assert (b' <> v) by (intros ->; congruence).
      rewrite (view_in_S _ x b' Hs2); [| cbn [s_drop s_rec]; apply in_remove_first_neq; auto
                                       | cbn [s_drop s_len]; apply covers_spec; exact Hc].
      rewrite s_data_drop by auto. reflexivity.
    + apply view_none_intro. cbn [s_drop s_rec s_len]. intros r Hr. apply in_remove_first in Hr.
      apply (view_none sc x E r Hr).
Qed.

Lemma view_write sc a0 vs b x : SInv sc ->
  SInv (with_map sc (m_set b (splice (s_data sc b) (Z.to_nat (a0 - b)) vs) (s_map sc))) ->
  s_cover sc a0 = Some b -> a0 + zlen vs <= b + s_len sc ->
  view (with_map sc (m_set b (splice (s_data sc b) (Z.to_nat (a0 - b)) vs) (s_map sc))) x =
  if (a0 <=? x) && (x <? a0 + zlen vs) then Some (nth (Z.to_nat (x - a0)) vs 0) else view sc x.
Proof.
  intros Hs Hs2 Hcov Hfit. pose proof Hs as [HL HN Hnd Hsep Hlen Hd].
  apply s_cover_some in Hcov. destruct Hcov as [Hbin Hbc]. apply covers_spec in Hbc.
  pose proof (Hd b Hbin) as Hdb. pose proof (zlen_nonneg vs) as Hz.
  set (sc2 := with_map sc (m_set b (splice (s_data sc b) (Z.to_nat (a0 - b)) vs) (s_map sc))) in *.
  assert (Hspl : forall y, b <= y < b + s_len sc ->
            byte_at (splice (s_data sc b) (Z.to_nat (a0 - b)) vs) (y - b) =
            if (a0 <=? y) && (y <? a0 + zlen vs) then nth (Z.to_nat (y - a0)) vs 0 else byte_at (s_data sc b) (y - b)).
  { intros y Hy. unfold byte_at. rewrite splice_nth by (unfold zlen in *; lia). unfold zlen in *.
    destruct (Z.leb_spec a0 y), (Z.ltb_spec y (a0 + Z.of_nat (length vs))),
             (Nat.leb_spec (Z.to_nat (a0 - b)) (Z.to_nat (y - b))),
             (Nat.ltb_spec (Z.to_nat (y - b)) (Z.to_nat (a0 - b) + length vs)); cbn [andb]; try lia; try reflexivity.
    f_equal. lia. }
  destruct (view sc x) as [w|] eqn:E.
  - apply view_some in E. destruct E as (b' & Hin & Hc & ->).
    rewrite (view_in_S sc2 x b' Hs2); [| exact Hin | apply covers_spec; exact Hc].
    unfold sc2. rewrite s_data_write. destruct (Z.eqb_spec b b') as [<-|Hne].
    + apply covers_spec in Hc. rewrite Hspl by exact Hc.
      destruct ((a0 <=? x) && (x <? a0 + zlen vs)); reflexivity.
    + destruct (Z.leb_spec a0 x), (Z.ltb_spec x (a0 + zlen vs)); cbn [andb]; try reflexivity.
      exfalso. apply Hne. apply (sep_cover_unique (s_len sc) (s_rec sc) x); auto; [lia|].
      apply covers_spec. lia.
  - assert (Hn : view sc2 x = None).
    { apply view_none_intro. intros r Hr. apply (view_none sc x E r Hr). }
    rewrite Hn. destruct (Z.leb_spec a0 x), (Z.ltb_spec x (a0 + zlen vs)); cbn [andb]; try reflexivity.
    exfalso. pose proof (view_none sc x E b Hbin) as Hc.
    assert (covers (s_len sc) x b = true) by (apply covers_spec; lia). congruence.
Qed.

(* the memory as seen through the cache *)
Definition lm (sc : scache) (m : list Z) (x : Z) : Z :=
  match view sc x with Some v => v | None => mget m x end.

(* it does not change when a line holding the bytes of memory comes in ... *)
Lemma lm_insert sc m b d x : SInv sc -> push_ok sc b d = true ->
  (covers (s_len sc) x b = true -> view sc x = None /\ byte_at d (x - b) = mget m x) ->
  lm (s_insert sc b d) m x = lm sc m x.
Proof.
  intros Hs Hp H. unfold lm. rewrite view_insert by assumption.
  destruct (covers (s_len sc) x b); [|reflexivity]. destruct (H eq_refl) as [-> ->]. reflexivity.
Qed.

(* ... nor when a line goes after its bytes have been written to memory *)
Lemma lm_drop sc v m m' x : SInv sc -> SInv (s_drop sc v) -> In v (s_rec sc) ->
  mget m' x = (if covers (s_len sc) x v then byte_at (s_data sc v) (x - v) else mget m x) ->
  lm (s_drop sc v) m' x = lm sc m x.
Proof.
  intros Hs Hs2 Hin Hm. unfold lm. rewrite view_drop, Hm by assumption.
  destruct (covers (s_len sc) x v) eqn:Ec; [|reflexivity].
  apply covers_spec in Ec. rewrite (view_in_S sc x v Hs Hin Ec). reflexivity.
Qed.

(* ------------------------------------------------------------------ *)
(* the L1D: invariant and operations                                    *)

Record DInv (c : cache) (sc : scache) : Prop := mkD {
  d_I : Inv c;
  d_R : R c sc;
  d_cap : s_cap sc = 16;
  d_len : s_len sc = 64;
  d_al : forall b, In b (s_rec sc) -> b mod 64 = 0 /\ 0 <= b;     (* aligned lines *)
  d_cnt : zlen (s_rec sc) <= 16                                   (* no eviction pending *)
}.

Lemma DInv_S c sc : DInv c sc -> SInv sc.
Proof. intros H. eapply R_SInv; apply H. Qed.

(* the recency list of the L1D as a function of the accessed addresses only
   (no data): what decides hits, misses and evictions - and so the cycles *)
Definition a_get (r : list Z) (a : Z) : list Z * bool :=
  match find (covers 64 a) r with
  | Some b => (b :: remove_first b r, true)
  | None => (r, false)
  end.

Fixpoint a_get_all (r : list Z) (addrs : list Z) : list Z * bool :=
  match addrs with
  | [] => (r, true)
  | a :: t => if snd (a_get r a) then a_get_all (fst (a_get r a)) t else (fst (a_get r a), false)
  end.

Definition a_fill (r : list Z) (a0 : Z) : list Z :=
  let r1 := (a0 - a0 mod 64) :: r in
  if zlen r1 >? 16 then remove_first (last r1 0) r1 else r1.

Definition is_some {A} (o : option A) : bool := match o with Some _ => true | None => false end.

Lemma get_ok c sc a : DInv c sc ->
  exists c' sc', get c a = Ok (c', view sc a) /\ DInv c' sc' /\ (forall x, view sc' x = view sc x) /\
    s_rec sc' = fst (a_get (s_rec sc) a) /\ is_some (view sc a) = snd (a_get (s_rec sc) a).
Proof.
  intros HD. pose proof (DInv_S _ _ HD) as Hs. destruct HD as [Hi Hr Hcap Hlen Hal Hcnt].
  destruct (step_get c sc a Hi Hr) as (c' & E & Hi' & Hr').
  cbn [Cache.step] in E. destruct (get c a) as [[c1 r]| |]; cbn [bind] in E; try discriminate.
  rewrite get_out_view in E. injection E as -> ->.
  exists c', (fst (s_step sc (OGet a))). split; [reflexivity|].
  pose proof (R_SInv _ _ Hi' Hr') as Hs'.
  assert (Hag : s_rec (fst (s_step sc (OGet a))) = fst (a_get (s_rec sc) a) /\
                is_some (view sc a) = snd (a_get (s_rec sc) a)).
  { cbn [s_step]. unfold view, s_cover, a_get. rewrite Hlen.
    destruct (find (covers 64 a) (s_rec sc)); split; reflexivity. }
  split; [|split; [intros x; apply view_get; auto | exact Hag]].
  destruct (s_step_geom sc (OGet a)) as [G1 G2].
  constructor; auto; try congruence.
  - cbn [s_step]. destruct (s_cover sc a) as [b|] eqn:Ec; cbn [fst]; auto.
    apply s_cover_some in Ec. destruct Ec as [Hin _].
    cbn [touch with_rec s_rec]. intros b' [<-|H]; [auto|]. apply Hal. eapply in_remove_first; eauto.
  - cbn [s_step]. destruct (s_cover sc a) as [b|] eqn:Ec; cbn [fst]; auto.
    apply s_cover_some in Ec. destruct Ec as [Hin _].
    cbn [touch with_rec s_rec]. rewrite zlen_cons, length_remove_first by auto. lia.
Qed.

Definition vget (sc : scache) (a : Z) : Z := match view sc a with Some v => v | None => 0 end.

Lemma get_all_ok sc0 addrs : forall c sc acc, DInv c sc -> (forall x, view sc x = view sc0 x) ->
  exists c' sc', get_all c addrs acc =
      Ok (c', if forallb (fun a => is_some (view sc0 a)) addrs
              then Some (rev acc ++ map (vget sc0) addrs) else None) /\
    DInv c' sc' /\ (forall x, view sc' x = view sc0 x) /\
    s_rec sc' = fst (a_get_all (s_rec sc) addrs) /\
    forallb (fun a => is_some (view sc0 a)) addrs = snd (a_get_all (s_rec sc) addrs).
Proof.
  induction addrs as [|a t IH]; intros c sc acc HD Hv; cbn [get_all forallb map a_get_all].
  - exists c, sc. rewrite app_nil_r. auto.
  - destruct (get_ok c sc a HD) as (c1 & sc1 & E & HD1 & Hv1 & Hr1 & Hh1). rewrite E. cbn [bind].
    rewrite <- Hh1. rewrite Hv.
    destruct (view sc0 a) as [v|] eqn:Ea; cbn [is_some andb].
    + destruct (IH c1 sc1 (v :: acc) HD1) as (c' & sc' & E' & HD' & Hv' & Hr' & Hh').
      { intros x. rewrite Hv1. apply Hv. }
      exists c', sc'. rewrite <- Hr1. split; [|auto]. rewrite E'. cbn [rev]. rewrite <- app_assoc. cbn [app].
      replace (vget sc0 a) with v by (unfold vget; rewrite Ea; reflexivity). reflexivity.
    + exists c1, sc1. split; [reflexivity|]. split; auto. split; [intros x; rewrite Hv1; apply Hv|]. auto.
Qed.

(* aligned lines: which line covers an address *)
Lemma aligned_covers b x : b mod 64 = 0 -> (covers 64 x b = true <-> b = x - x mod 64).
Proof. intros Hb. rewrite covers_spec. split; intros H; lia. Qed.

Lemma same_line_view c sc a a' : DInv c sc -> a / 64 = a' / 64 -> view sc a <> None -> view sc a' <> None.
Proof.
  intros HD Heq Hv. pose proof (DInv_S _ _ HD) as Hs. destruct (view sc a) as [v|] eqn:E; [|congruence].
  apply view_some in E. destruct E as (b & Hin & Hc & _). rewrite (d_len _ _ HD) in Hc.
  destruct (d_al _ _ HD b Hin) as [Hal _]. apply aligned_covers in Hc; auto.
  rewrite (view_in_S sc a' b Hs Hin); [discriminate|]. rewrite (d_len _ _ HD). lia.
Qed.

(* a miss: fetch the aligned line, insert it, write the victim back and drop it *)
Lemma fill_ok c sc m a0 : DInv c sc -> 0 <= a0 < zlen m -> zlen m <= 2147483584 -> view sc a0 = None ->
  exists ln c2 sc2 m2, fetch_cache_line m a0 = Ok ln /\ push_line_to_l1d c m a0 ln = Ok (c2, m2) /\
    DInv c2 sc2 /\ length m2 = length m /\
    (forall x, 0 <= x < zlen m -> lm sc2 m2 x = lm sc m x) /\
    (forall x, a0 - a0 mod 64 <= x < a0 - a0 mod 64 + 64 -> view sc2 x <> None) /\
    s_rec sc2 = a_fill (s_rec sc) a0.
Proof.
  intros HD Ha Hm Hmiss. pose proof (DInv_S _ _ HD) as Hs. destruct HD as [Hi Hr Hcap Hlen Hal Hcnt].
  assert (Ha' : 0 <= a0 < 2147483584) by lia.
  destruct (fetch_cache_line_ok m a0 Ha') as (ln & Ef & Hzl & Hln).
  set (base := a0 - a0 mod 64) in *.
  assert (Hb1 : base mod 64 = 0) by (unfold base; lia).
  assert (Hb2 : base <= a0 < base + 64) by (unfold base; lia).
  (* the resident lines are aligned and none covers a0: none meets the new line *)
  assert (Hdis : forall r, In r (s_rec sc) -> base + 64 <= r \/ r + 64 <= base).
  { intros r Hr0. destruct (Hal r Hr0) as [Hr1 _]. pose proof (view_none sc a0 Hmiss r Hr0) as Hc.
    rewrite Hlen in Hc. destruct (Z.eq_dec r base) as [->|Hne]; [|lia].
    assert (covers 64 a0 base = true) by (apply covers_spec; lia). congruence. }
  assert (Hfresh : forall x, base <= x < base + 64 -> view sc x = None).
  { intros x Hx. apply view_none_intro. intros r Hr0. rewrite Hlen.
    destruct (covers 64 x r) eqn:Ecr; [|reflexivity]. apply covers_spec in Ecr. destruct (Hdis r Hr0); lia. }
  assert (Hpush : push_ok sc base ln = true).
  { unfold push_ok, over. rewrite Hlen, Hcap.
    apply andb_true_intro; split; [apply andb_true_intro; split; [apply andb_true_intro; split;
      [apply andb_true_intro; split|]|]|].
    - apply Z.eqb_eq. exact Hzl.
    - apply Z.leb_le. unfold i32_min. lia.
    - apply Z.leb_le. unfold i32_max. lia.
    - apply forallb_forall. intros r Hr0. apply orb_true_intro.
      destruct (Hdis r Hr0); [left | right]; apply Z.leb_le; lia.
    - apply negb_true_iff. apply gtb_false. exact Hcnt. }
  pose proof (SInv_insert _ _ _ Hs Hpush) as Hs1.
  destruct (step_pushw c sc base ln Hi Hr Hpush) as (c1 & E1 & Hi1 & Hr1).
  cbn [Cache.step] in E1. destruct (push_line_warn c base ln) as [[c1' r]| |] eqn:Epw; cbn [bind] in E1; try discriminate.
  injection E1 as -> Er. cbn [s_step] in Er, Hr1.
  set (sc1 := s_insert sc base ln) in *.
  (* after the insertion: the same memory is seen, and the new line is resident *)
  assert (Hlm1 : forall x, 0 <= x < zlen m -> lm sc1 m x = lm sc m x).
  { intros x Hx. apply lm_insert; [exact Hs | exact Hpush|]. rewrite Hlen. intros Hc. apply covers_spec in Hc.
    split; [apply Hfresh, Hc|]. rewrite Hln by lia. f_equal. lia. }
  assert (Hres1 : forall x, base <= x < base + 64 -> view sc1 x <> None).
  { intros x Hx. unfold sc1. rewrite view_insert, Hlen by assumption.
    replace (covers 64 x base) with true by (symmetry; apply covers_spec; exact Hx). discriminate. }
  exists ln. unfold push_line_to_l1d. cbv zeta. rewrite (line_base a0 Ha'). fold base. rewrite Epw. cbn [bind].
  assert (Hfill : a_fill (s_rec sc) a0 = if over sc1 then remove_first (lru_base sc1) (s_rec sc1) else s_rec sc1).
  { unfold a_fill, over, lru_base, sc1. cbn [s_insert s_rec s_cap]. cbv zeta. fold base. rewrite Hcap. reflexivity. }
  destruct (over sc1) eqn:Hover; cbn [fst snd] in Er, Hr1; injection Er as ->.
  - (* a victim, the least recently used line: written back, then dropped *)
    set (v := lru_base sc1) in *.
    assert (Hvin : In v (s_rec sc)).
    { unfold v, lru_base, sc1. cbn [s_insert s_rec]. unfold over, sc1 in Hover. cbn [s_insert s_rec s_cap] in Hover.
      destruct (s_rec sc) as [|z l] eqn:El.
      - rewrite Hcap in Hover. discriminate.
      - change (last (base :: z :: l) 0) with (last (z :: l) 0). apply last_in. discriminate. }
    destruct (Hal v Hvin) as [Hv_al Hv0].
    assert (Hvin1 : In v (s_rec sc1)) by (right; exact Hvin).
    cbn [lo data].
    destruct (write_to_memory_ok (s_data sc1 v) m v Hv0) as (m' & Ew & Hl' & Hm'). rewrite Ew. cbn [bind].
    destruct (step_evict c1 sc1 v Hi1 Hr1) as (c2 & E2 & Hi2 & Hr2).
    cbn [Cache.step] in E2. destruct (evict_cache_line c1 v) as [[c2' r2]| |]; cbn [bind] in E2; try discriminate.
    injection E2 as -> _. cbn [s_step] in Hr2.
    assert (Hcv : s_cover sc1 v = Some v).
    { apply s_cover_in; auto; try apply Hs1. apply covers_spec. destruct Hs1. lia. }
    rewrite Hcv in Hr2. cbn [fst] in Hr2.
    pose proof (R_SInv _ _ Hi2 Hr2) as Hs2.
    cbn [bind fst]. exists c2, (s_drop sc1 v), m'. split; [exact Ef|]. split; [reflexivity|].
    split; [|split; [exact Hl'|split; [|split; [|symmetry; exact Hfill]]]].
    + constructor; [exact Hi2 | exact Hr2 | exact Hcap | exact Hlen | |].
      * cbn [s_drop s_rec]. intros b Hb. apply in_remove_first in Hb. destruct Hb as [<-|Hb]; [split; lia | auto].
      * cbn [s_drop s_rec]. rewrite length_remove_first by exact Hvin1. unfold sc1. cbn [s_insert s_rec].
        rewrite zlen_cons. lia.
    + intros x Hx. rewrite <- Hlm1 by exact Hx. apply lm_drop; [exact Hs1 | exact Hs2 | exact Hvin1|].
      rewrite Hm', (si_data _ Hs1 v Hvin1) by exact Hx. reflexivity.
    + intros x Hx. rewrite view_drop by assumption.
      replace (covers (s_len sc1) x v) with false; [apply Hres1, Hx|].
      symmetry. unfold sc1. cbn [s_insert s_len]. rewrite Hlen.
      destruct (covers 64 x v) eqn:Ecv; [|reflexivity]. apply covers_spec in Ecv. destruct (Hdis v Hvin); lia.
  - (* room left *)
    exists c1, sc1, m. split; [exact Ef|]. split; [reflexivity|].
    split; [|split; [reflexivity|split; [exact Hlm1|split; [exact Hres1|symmetry; exact Hfill]]]].
    constructor; [exact Hi1 | exact Hr1 | exact Hcap | exact Hlen | |].
    + intros b [<-|Hb]; [split; lia | auto].
    + unfold over in Hover. rewrite (Z.gtb_ltb) in Hover. apply Z.ltb_ge in Hover.
      unfold sc1 in Hover |- *. cbn [s_insert s_cap] in Hover. lia.
Qed.

(* ------------------------------------------------------------------ *)
(* the hypothesis on the accesses of the SEQUENTIAL run                 *)

(* all the bytes of one access lie in the same 64-byte line *)
Definition same_line (l : list Z) : bool :=
  match l with
  | [] => true
  | a0 :: _ => forallb (fun a => a / 64 =? a0 / 64) l
  end.

Lemma same_line_spec a0 t a : same_line (a0 :: t) = true -> In a (a0 :: t) -> a / 64 = a0 / 64.
Proof.
  unfold same_line. intros H Hin. rewrite forallb_forall in H. apply Z.eqb_eq. apply H. exact Hin.
Qed.

(* the structure of the memory phase of one iteration, named *)
Definition load_block (d : cache) (m : list Z) (addrs : list Z) : outcome (cache * list Z * list Z * Z) :=
  match addrs with
  | [] => Ok (d, m, [], 0)
  | a0 :: _ =>
      r <- get_all d addrs [] ;;
      match r with
      | (d1, Some bytes) => Ok (d1, m, bytes, L1Access)
      | (d1, None) =>
          ln <- fetch_cache_line m a0 ;;
          r2 <- push_line_to_l1d d1 m a0 ln ;;
          r3 <- get_all (fst r2) addrs [] ;;
          match r3 with
          | (d3, Some bytes) => Ok (d3, snd r2, bytes, L1Access + MemoryAccess)
          | (_, None) => Panic
          end
      end
  end.

(* the invariant tying the model's memory + L1D to the sequential memory *)
Record VInv (c : cache) (sc : scache) (m ms : list Z) : Prop := mkV {
  v_D : DInv c sc;
  v_len : length m = length ms;
  v_small : zlen ms <= 2147483584;
  v_eq : forall x, 0 <= x < zlen ms -> lm sc m x = mget ms x
}.

Lemma in_mem_range m a : in_mem m a = true -> 0 <= a < zlen m.
Proof. unfold in_mem, zlen. rewrite andb_true_iff, Z.leb_le, Z.ltb_lt. tauto. Qed.

Lemma all_hit_or_first_miss c sc a0 t : DInv c sc -> same_line (a0 :: t) = true ->
  forallb (fun a => is_some (view sc a)) (a0 :: t) = false -> forall a, In a (a0 :: t) -> view sc a = None.
Proof.
  intros HD Hsl Hf.
  assert (H0 : view sc a0 = None).
  { destruct (view sc a0) as [v|] eqn:E0; [|reflexivity]. exfalso.
    assert (forallb (fun a => is_some (view sc a)) (a0 :: t) = true); [|congruence].
    apply forallb_forall. intros a Ha. pose proof (same_line_spec _ _ _ Hsl Ha) as Hq.
    assert (view sc a <> None) by (apply (same_line_view c sc a0 a HD); [lia | congruence]).
    destruct (view sc a); [reflexivity | congruence]. }
  intros a Ha. pose proof (same_line_spec _ _ _ Hsl Ha) as Hq.
  destruct (view sc a) as [v|] eqn:E; [|reflexivity]. exfalso.
  apply (same_line_view c sc a a0 HD Hq); congruence.
Qed.

(* recency list and cycles of the memory phase of a load, from the addresses *)
Definition a_load (r : list Z) (addrs : list Z) : list Z * Z :=
  match addrs with
  | [] => (r, 0)
  | a0 :: _ =>
      if snd (a_get_all r addrs) then (fst (a_get_all r addrs), L1Access)
      else (fst (a_get_all (a_fill (fst (a_get_all r addrs)) a0) addrs), L1Access + MemoryAccess)
  end.

Lemma load_block_ok c sc m ms addrs : VInv c sc m ms ->
  forallb (in_mem ms) addrs = true -> same_line addrs = true ->
  exists c' sc' m', load_block c m addrs = Ok (c', m', map (mget ms) addrs, snd (a_load (s_rec sc) addrs)) /\
    0 <= snd (a_load (s_rec sc) addrs) /\
    VInv c' sc' m' ms /\ s_rec sc' = fst (a_load (s_rec sc) addrs).
Proof.
  intros [HD Hl Hsm Heq] Hin Hsl. destruct addrs as [|a0 t]; cbn [load_block a_load].
  - exists c, sc, m. split; [reflexivity|]. split; [cbn [snd]; lia|]. split; [constructor; auto | reflexivity].
  - set (addrs := a0 :: t) in *.
    assert (Hr : forall a, In a addrs -> 0 <= a < zlen ms).
    { intros a Ha. apply in_mem_range. rewrite forallb_forall in Hin. auto. }
    destruct (get_all_ok sc addrs c sc [] HD ltac:(auto)) as (c1 & sc1 & E1 & HD1 & Hv1 & Hr1 & Hh1). rewrite E1. cbn [bind].
    assert (Hlm1 : forall x, lm sc1 m x = lm sc m x) by (intros x; unfold lm; rewrite Hv1; reflexivity).
    rewrite <- Hh1, <- Hr1.
    destruct (forallb (fun a => is_some (view sc a)) addrs) eqn:Eall; cbn [fst snd].
    + (* every byte is resident *)
      exists c1, sc1, m. cbn [rev app]. split; [|split; [unfold L1Access; lia|split; [|reflexivity]]].
      * do 3 f_equal. apply map_ext_in. intros a Ha. rewrite <- (Heq a (Hr a Ha)). unfold lm, vget.
        rewrite forallb_forall in Eall. specialize (Eall a Ha). destruct (view sc a); [reflexivity | discriminate].
      * constructor; auto. intros x Hx. rewrite Hlm1. auto.
    + (* the line is absent: fetch, insert, possibly evict *)
      pose proof (all_hit_or_first_miss c sc a0 t HD Hsl Eall) as Hnone.
      assert (Ha0 : 0 <= a0 < zlen m).
      { unfold zlen. rewrite Hl. apply Hr. left; reflexivity. }
      assert (Hm0 : view sc1 a0 = None) by (rewrite Hv1; apply Hnone; left; reflexivity).
      destruct (fill_ok c1 sc1 m a0 HD1 Ha0 ltac:(unfold zlen in *; rewrite Hl; exact Hsm) Hm0)
        as (ln & c2 & sc2 & m2 & Ef & Ep & HD2 & Hl2 & Hlm2 & Hres & Hr2).
      rewrite Ef. cbn [bind]. rewrite Ep. cbn [bind fst snd].
      destruct (get_all_ok sc2 addrs c2 sc2 [] HD2 ltac:(auto)) as (c3 & sc3 & E3 & HD3 & Hv3 & Hr3 & Hh3). rewrite E3. cbn [bind].
      assert (Hall : forallb (fun a => is_some (view sc2 a)) addrs = true).
      { apply forallb_forall. intros a Ha. pose proof (same_line_spec _ _ _ Hsl Ha) as Hq.
        specialize (Hres a ltac:(lia)). destruct (view sc2 a); [reflexivity | congruence]. }
      rewrite Hall. cbn [rev app].
      assert (Hlm3 : forall x, 0 <= x < zlen ms -> lm sc3 m2 x = mget ms x).
      { intros x Hx. unfold lm. rewrite Hv3. fold (lm sc2 m2 x). rewrite Hlm2 by (unfold zlen in *; rewrite Hl; exact Hx).
        rewrite Hlm1. auto. }
      exists c3, sc3, m2. split; [|split; [unfold L1Access, MemoryAccess; lia|split]].
      * do 3 f_equal. apply map_ext_in. intros a Ha. rewrite <- (Hlm3 a (Hr a Ha)). unfold lm, vget. rewrite Hv3.
        rewrite forallb_forall in Hall. specialize (Hall a Ha). destruct (view sc2 a); [reflexivity | discriminate].
      * constructor; auto. congruence.
      * rewrite Hr3, Hr2. reflexivity.
Qed.

(* ---- stores ---- *)
Lemma sort_changes_consec bs : forall a, map fst bs = consec a (length bs) -> sort_changes bs = bs.
Proof.
  induction bs as [|x t IH]; intros a H; [reflexivity|].
  cbn [length] in H. rewrite consec_S in H. cbn [map] in H. injection H as Hx Ht.
  cbn [sort_changes]. rewrite (IH (a + 1) Ht).
  destruct t as [|y t']; [reflexivity|].
  cbn [length] in Ht. rewrite consec_S in Ht. cbn [map] in Ht. injection Ht as Hy _.
  replace (fst x <=? fst y) with true by (symmetry; apply Z.leb_le; lia). reflexivity.
Qed.

(* the store hits: Write into the resident line *)
Lemma store_hit_ok c sc m ms bs a0 : VInv c sc m ms -> bs <> [] ->
  map fst bs = consec a0 (length bs) ->
  forallb (in_mem ms) (map fst bs) = true -> same_line (map fst bs) = true ->
  view sc a0 <> None ->
  exists c' sc', write c a0 (map snd bs) = Ok c' /\ VInv c' sc' m (mset_all ms bs) /\ s_rec sc' = s_rec sc.
Proof.
  intros [HD Hl Hsm Heq] Hne Hcs Hin Hsl Hhit. pose proof (DInv_S _ _ HD) as Hs.
  pose proof HD as [Hi Hr Hcap Hlen Hal Hcnt].
  destruct bs as [|[a0' v0] t]; [congruence|]. clear Hne.
  assert (Ea : a0' = a0) by (cbn [length] in Hcs; rewrite consec_S in Hcs; cbn [map fst] in Hcs; congruence). subst a0'.
  set (bs := (a0, v0) :: t) in *. set (vs := map snd bs).
  assert (Hzvs : zlen vs = zlen bs) by (unfold vs, zlen; rewrite map_length; reflexivity).
  assert (Hn1 : 1 <= zlen bs) by (unfold bs, zlen; cbn [length]; lia).
  destruct (s_cover sc a0) as [b|] eqn:Ecov; [|unfold view in Hhit; rewrite Ecov in Hhit; congruence].
  pose proof (s_cover_some _ _ _ Ecov) as [Hbin Hbc]. rewrite Hlen in Hbc.
  destruct (Hal b Hbin) as [Hb_al Hb0]. apply aligned_covers in Hbc; [|exact Hb_al].
  (* the last byte is in the same line *)
  assert (Hlast : In (a0 + zlen bs - 1) (map fst bs)).
  { rewrite Hcs. apply in_consec. unfold zlen in *. lia. }
  assert (Hq : (a0 + zlen bs - 1) / 64 = a0 / 64).
  { unfold bs in Hsl, Hlast. cbn [map fst] in Hsl, Hlast. apply (same_line_spec _ _ _ Hsl Hlast). }
  assert (Hfit : a0 + zlen vs <= b + s_len sc) by (rewrite Hlen, Hzvs; lia).
  assert (Hok : op_ok sc (OWrite a0 vs) = true).
  { cbn [op_ok]. rewrite Ecov. apply Z.leb_le. exact Hfit. }
  destruct (step_write c sc a0 vs Hi Hr Hok) as (c' & E & Hi' & Hr').
  cbn [Cache.step] in E. destruct (write c a0 vs) as [c1| |]; cbn [bind] in E; try discriminate.
  injection E as ->. cbn [s_step] in Hr'. rewrite Ecov in Hr'. cbn [fst] in Hr'.
  pose proof (R_SInv _ _ Hi' Hr') as Hs'.
  exists c', (with_map sc (m_set b (splice (s_data sc b) (Z.to_nat (a0 - b)) vs) (s_map sc))).
  split; [reflexivity|]. split; [|reflexivity]. constructor.
  - constructor; [exact Hi' | exact Hr' | exact Hcap | exact Hlen | exact Hal | exact Hcnt].
  - rewrite mset_all_length. exact Hl.
  - unfold zlen. rewrite mset_all_length. exact Hsm.
  - intros x Hx. unfold zlen in Hx. rewrite mset_all_length in Hx.
    unfold lm. rewrite (view_write sc a0 vs b x Hs Hs' Ecov Hfit).
    rewrite mget_mset_all by (lia || exact Hin).
    rewrite (apply_changes_consec bs a0 _ x Hcs). fold vs. rewrite Hzvs.
    destruct ((a0 <=? x) && (x <? a0 + zlen bs)); [reflexivity|]. apply (Heq x Hx).
Qed.

(* the store misses: WriteMemory *)
Lemma store_miss_ok c sc m ms bs : VInv c sc m ms ->
  forallb (in_mem ms) (map fst bs) = true ->
  (forall a, In a (map fst bs) -> view sc a = None) ->
  forallb (in_mem m) (map fst bs) = true /\ VInv c sc (mset_all m bs) (mset_all ms bs).
Proof.
  intros [HD Hl Hsm Heq] Hin Hnone.
  assert (Hin' : forallb (in_mem m) (map fst bs) = true).
  { rewrite forallb_forall in *. intros a Ha. specialize (Hin a Ha). unfold in_mem in *. rewrite Hl. exact Hin. }
  split; [exact Hin'|]. constructor; auto.
  - rewrite !mset_all_length. exact Hl.
  - unfold zlen. rewrite mset_all_length. exact Hsm.
  - intros x Hx. unfold zlen in Hx. rewrite mset_all_length in Hx. unfold lm.
    rewrite (mget_mset_all bs ms x) by (lia || exact Hin).
    destruct (in_dec Z.eq_dec x (map fst bs)) as [Hxin|Hxn].
    + rewrite (Hnone x Hxin). rewrite mget_mset_all by (lia || exact Hin'). apply apply_changes_in. exact Hxin.
    + rewrite (apply_changes_notin bs _ x Hxn). rewrite <- (Heq x Hx). unfold lm.
      destruct (view sc x); [reflexivity|]. rewrite mget_mset_all by (lia || exact Hin').
      apply apply_changes_notin. exact Hxn.
Qed.

(* ---- the final flush ---- *)
Lemma flush_ok c sc m ms : VInv c sc m ms ->
  flush_lines (lines c) m 0 = Ok (ms, MemoryAccess * zlen (s_rec sc)).
Proof.
  intros [HD Hl Hsm Heq]. pose proof (DInv_S _ _ HD) as Hs. pose proof HD as [Hi Hr Hcap Hlen Hal Hcnt].
  assert (Hlo : Forall (fun l => 0 <= lo l) (lines c)).
  { apply Forall_forall. intros l Hin. apply (Hal (lo l)). rewrite (r_rec _ _ Hr). apply in_map. exact Hin. }
  assert (Hcov : forall l x, In l (lines c) -> (lcovers l x <-> lo l <= x < lo l + s_len sc)).
  { intros l x Hin. pose proof (inv_ok _ Hi) as Hok. rewrite Forall_forall in Hok. destruct (Hok l Hin) as (_ & Hd & _ & _).
    unfold lcovers. rewrite Hd, <- (r_len _ _ Hr). tauto. }
  destruct (flush_lines_ok (lines c) m 0 Hlo) as (m' & E & Hl' & Hv).
  (* every byte of memory now is what the cache showed before *)
  assert (Em : m' = ms).
  { apply (nth_ext m' ms 0 0); [congruence|]. intros n Hn.
    assert (Hx : 0 <= Z.of_nat n < zlen ms) by (unfold zlen; lia).
    pose proof (Heq _ Hx) as He. unfold mget in He. rewrite Nat2Z.id in He. rewrite <- He.
    assert (Hx' : 0 <= Z.of_nat n < zlen m) by (unfold zlen in *; lia).
    destruct (Hv _ Hx') as [(l & Hin & Hc & Hg)|[Hn' Hg]]; unfold mget in Hg; rewrite Nat2Z.id in Hg; rewrite Hg; unfold lm.
    - apply Hcov in Hc; [|exact Hin].
      rewrite (view_in_S sc (Z.of_nat n) (lo l) Hs); [| rewrite (r_rec _ _ Hr); apply in_map; exact Hin | exact Hc].
      rewrite (s_data_in c sc l Hi Hr Hin). reflexivity.
    - rewrite view_none_intro; [unfold mget; rewrite Nat2Z.id; reflexivity|].
      intros b Hb. rewrite (r_rec _ _ Hr) in Hb. apply in_map_iff in Hb. destruct Hb as (l & <- & Hin).
      destruct (covers (s_len sc) (Z.of_nat n) (lo l)) eqn:Ec; [|reflexivity].
      apply covers_spec, (Hcov l _ Hin) in Ec. destruct (Hn' l Hin Ec). }
  subst m'. rewrite E. rewrite (r_rec _ _ Hr), zlen_map. reflexivity.
Qed.

(* ------------------------------------------------------------------ *)
(* the L1I: keyed by unaligned pc values (lines may overlap, so the C13 contract
   does not hold); its contents never matter, it only must not panic        *)

Definition iline_ok (l : line) : Prop := zlen (data l) = 64 /\ 0 <= lo l /\ hi l = addS 32 (lo l) 64.
Definition IInv (c : cache) : Prop := nlines c = 16 /\ llen c = 64 /\ Forall iline_ok (lines c).

Lemma wrapS32_le x : 0 <= x -> wrapS 32 x <= x.
Proof.
  intros H. unfold wrapS. change (2 ^ (32 - 1)) with 2147483648. change (2 ^ 32) with 4294967296.
  pose proof (Z.mod_le (x + 2147483648) 4294967296 ltac:(lia) ltac:(lia)). lia.
Qed.

(* the L1I as a list of line starts: hit test, move to front, insertion *)
Definition i_hit (pc lo_ : Z) : bool := (lo_ <=? pc) && (pc <? addS 32 lo_ 64).

Fixpoint i_find (r : list Z) (pc : Z) : option (Z * list Z) :=
  match r with
  | [] => None
  | x :: t =>
      if i_hit pc x then Some (x, t)
      else match i_find t pc with Some (y, t') => Some (y, x :: t') | None => None end
  end.

Definition a_fetch (r : list Z) (pc : Z) : list Z * Z :=
  match i_find r pc with
  | Some (x, rest) => (x :: rest, L1Access)
  | None => (firstn 16 (pc :: r), MemoryAccess)
  end.

Lemma find_line_i ls a : Forall iline_ok ls ->
  exists r, find_line ls a = Ok r /\
    match r with
    | Some (_, l, rest) => iline_ok l /\ Forall iline_ok rest /\ i_find (map lo ls) a = Some (lo l, map lo rest)
    | None => i_find (map lo ls) a = None
    end.
Proof.
  induction 1 as [|l t [Hd [Hl0 Hh]] Ht IH]; cbn [find_line map i_find].
  - exists None. auto.
  - unfold line_get, i_hit. rewrite Hh.
    destruct ((lo l <=? a) && (a <? addS 32 (lo l) 64)) eqn:Ehit; cbn [bind].
    + apply andb_prop in Ehit. destruct Ehit as [E1 E2]. apply Z.leb_le in E1. apply Z.ltb_lt in E2.
      assert (addS 32 (lo l) 64 <= lo l + 64) by (unfold addS; apply wrapS32_le; lia).
      unfold subS. rewrite wrapS_id by (lia || (apply int32_bounds; lia)).
      unfold idx_get. rewrite Hd.
      destruct (Z.leb_spec 0 (a - lo l)), (Z.ltb_spec (a - lo l) 64); try lia. cbn [andb bind].
      eexists. split; [reflexivity|]. repeat split; assumption.
    + destruct IH as (r & -> & Hr). cbn [bind]. destruct r as [[[v l'] t']|].
      * eexists. split; [reflexivity|]. destruct Hr as (A & B & ->). split; [assumption|].
        split; [constructor; [repeat split|]; assumption | reflexivity].
      * exists None. rewrite Hr. auto.
Qed.

Definition fetch_tail (l1i1 : cache) (hit : option (list Z)) (pc : Z) : outcome (cache * Z) :=
  match hit with
  | Some _ => Ok (l1i1, L1Access)
  | None => r <- push_line l1i1 pc (repeat 0 (Z.to_nat l1LineSize)) ;; Ok (fst r, MemoryAccess)
  end.

Lemma fetch_ok c pc : IInv c -> 0 <= pc ->
  exists c1 hit, get_all c [pc] [] = Ok (c1, hit) /\
    exists c2, fetch_tail c1 hit pc = Ok (c2, snd (a_fetch (map lo (lines c)) pc)) /\ IInv c2 /\
      0 < snd (a_fetch (map lo (lines c)) pc) /\ map lo (lines c2) = fst (a_fetch (map lo (lines c)) pc).
Proof.
  intros (HN & HL & Hf) Hpc. cbn [get_all]. unfold get, a_fetch.
  destruct (find_line_i (lines c) pc Hf) as (r & -> & Hr). cbn [bind].
  destruct r as [[[v l] rest]|].
  - destruct Hr as (Hl & Hrest & ->). do 2 eexists. split; [reflexivity|]. cbn [fetch_tail fst snd].
    eexists. split; [reflexivity|]. split; [|split; [unfold L1Access; lia | reflexivity]].
    repeat split; cbn [set_lines nlines llen lines]; auto; try apply Hl.
  - rewrite Hr. do 2 eexists. split; [reflexivity|]. cbn [fetch_tail fst snd]. unfold push_line.
    set (nl := new_line c pc (repeat 0 (Z.to_nat l1LineSize))).
    assert (Hnl : iline_ok nl).
    { unfold nl, new_line, iline_ok. cbn [data hi lo]. split; [|split; [exact Hpc|]].
      - unfold zlen. rewrite repeat_length. reflexivity.
      - rewrite HL. reflexivity. }
    assert (Hlo : lo nl = pc) by reflexivity.
    rewrite HN. destruct (Z.gtb_spec (zlen (nl :: lines c)) 16) as [Hgt|Hle].
    + change (16 <? 0) with false. cbn [bind fst]. eexists. split; [reflexivity|].
      split; [|split; [unfold MemoryAccess; lia|]].
      * repeat split; cbn [set_lines nlines llen lines]; auto. apply Forall_firstn. constructor; auto.
      * cbn [set_lines lines]. rewrite <- firstn_map. cbn [map]. rewrite Hlo. reflexivity.
    + cbn [bind fst]. eexists. split; [reflexivity|]. split; [|split; [unfold MemoryAccess; lia|]].
      * repeat split; cbn [set_lines nlines llen lines]; auto.
      * cbn [set_lines lines map]. rewrite Hlo. symmetry. apply firstn_all2.
        unfold zlen in Hle. cbn [length] in *. rewrite map_length. lia.
Qed.

(* ------------------------------------------------------------------ *)
(* one iteration of the Run loop, with its phases named                  *)

Definition store_block (rec : m3state -> Z -> mres) (regs mem1 : list Z) (cycle' : Z) (l1i2 l1d1 : cache)
           (pc' : Z) (bs : list (Z * Z)) : mres :=
  match get_all l1d1 (map fst bs) [] with
  | Ok (d2, Some _) =>
      let ch := sort_changes bs in
      match ch with
      | [] => MPanic
      | (a0, _) :: _ =>
          match write d2 a0 (map snd ch) with
          | Ok d3 => rec (mk_m3 regs mem1 (cycle' + L1Access) l1i2 d3) pc'
          | _ => MPanic
          end
      end
  | Ok (d2, None) =>
      if negb (forallb (in_mem mem1) (map fst bs)) then MPanic
      else rec (mk_m3 regs (mset_all mem1 bs) (cycle' + MemoryAccess) l1i2 d2) pc'
  | _ => MPanic
  end.

Definition writeback (rec : m3state -> Z -> mres) (regs mem1 : list Z) (cycle' : Z) (l1i2 l1d1 : cache)
           (pc : Z) (exe : execution) : mres :=
  if Return exe then finish3 (mk_m3 regs mem1 cycle' l1i2 l1d1) else
  let pc' := if PcChange exe then NextPc exe else addS 32 pc 4 in
  if RegisterChange exe then
    rec (mk_m3 (rset regs (Register exe) (RegisterValue exe)) mem1 (cycle' + RegisterAccess) l1i2 l1d1) pc'
  else if MemoryChange exe then store_block rec regs mem1 cycle' l1i2 l1d1 pc' (MemoryChanges exe)
  else rec (mk_m3 regs mem1 cycle' l1i2 l1d1) pc'.

Lemma m3run_S f app labels s pc :
  m3run (S f) app labels s pc =
  if Z.quot pc 4 <? Z.of_nat (length app) then
    match get_all (m3_l1i s) [pc] [] with
    | Ok (l1i1, hit) =>
        match fetch_tail l1i1 hit pc with
        | Ok (l1i2, c1) =>
            if Z.quot pc 4 <? 0 then MPanic else
            match nth_error app (Z.to_nat (Z.quot pc 4)) with
            | None => MPanic
            | Some i =>
                let rr := rget (m3_regs s) in
                match load_block (m3_l1d s) (m3_mem s) (instr_MemoryRead i rr 0) with
                | Ok (l1d1, mem1, bytes, c2) =>
                    match instr_Run i rr labels pc bytes 0 with
                    | Panic => MPanic
                    | Err e => MErr e
                    | Ok exe =>
                        match InstructionType_Cycles (instr_InstructionType i) with
                        | Ok c3 => writeback (m3run f app labels) (m3_regs s) mem1
                                             (m3_cycle s + c1 + cyclesDecode + c2 + c3) l1i2 l1d1 pc exe
                        | _ => MPanic
                        end
                    end
                | _ => MPanic
                end
            end
        | _ => MPanic
        end
    | _ => MPanic
    end
  else finish3 s.
Proof. reflexivity. Qed.

Definition a_store (r : list Z) (addrs : list Z) : list Z * Z :=
  (fst (a_get_all r addrs), if snd (a_get_all r addrs) then L1Access else MemoryAccess).

Lemma store_block_ok rec regs m cyc l1i c sc ms pc' bs a0 : VInv c sc m ms -> bs <> [] ->
  map fst bs = consec a0 (length bs) ->
  forallb (in_mem ms) (map fst bs) = true -> same_line (map fst bs) = true ->
  exists c' sc' m', store_block rec regs m cyc l1i c pc' bs =
      rec (mk_m3 regs m' (cyc + snd (a_store (s_rec sc) (map fst bs))) l1i c') pc' /\
    0 < snd (a_store (s_rec sc) (map fst bs)) /\ VInv c' sc' m' (mset_all ms bs) /\
    s_rec sc' = fst (a_store (s_rec sc) (map fst bs)).
Proof.
  intros HV Hne Hcs Hin Hsl. pose proof HV as [HD Hl Hsm Heq]. unfold store_block, a_store. cbn [fst snd].
  destruct (get_all_ok sc (map fst bs) c sc [] HD ltac:(auto)) as (c1 & sc1 & E1 & HD1 & Hv1 & Hr1 & Hh1). rewrite E1.
  rewrite <- Hh1, <- Hr1.
  assert (HV1 : VInv c1 sc1 m ms).
  { constructor; auto. intros x Hx. unfold lm. rewrite Hv1. apply (Heq x Hx). }
  assert (Hhd : exists v0 t, bs = (a0, v0) :: t).
  { destruct bs as [|[a0' v0] t]; [congruence|]. cbn [length] in Hcs. rewrite consec_S in Hcs.
    cbn [map fst] in Hcs. injection Hcs as -> _. eauto. }
  destruct Hhd as (v0 & t & Ebs).
  destruct (forallb (fun a => is_some (view sc a)) (map fst bs)) eqn:Eall.
  - (* every byte of the store is resident *)
    cbv zeta. rewrite (sort_changes_consec bs a0 Hcs).
    assert (Hhit : view sc1 a0 <> None).
    { rewrite Hv1. rewrite forallb_forall in Eall. specialize (Eall a0).
      rewrite Ebs in Eall. cbn [map fst] in Eall. specialize (Eall (or_introl eq_refl)).
      destruct (view sc a0); discriminate. }
    destruct (store_hit_ok c1 sc1 m ms bs a0 HV1 Hne Hcs Hin Hsl Hhit) as (c' & sc' & Ew & HV' & Hr').
    exists c', sc', m. split; [|split; [unfold L1Access; lia | split; [exact HV' | exact Hr']]].
    rewrite Ebs in Ew |- *. cbv beta iota. rewrite Ew. reflexivity.
  - (* the line is not resident *)
    assert (Hnone : forall a, In a (map fst bs) -> view sc1 a = None).
    { intros a Ha. rewrite Hv1. revert a Ha. rewrite Ebs in Hsl, Eall |- *. cbn [map fst] in Hsl, Eall |- *.
      apply (all_hit_or_first_miss c sc a0 (map fst t) HD Hsl Eall). }
    destruct (store_miss_ok c1 sc1 m ms bs HV1 Hin Hnone) as [Hin' HV'].
    rewrite Hin'. cbn [negb]. exists c1, sc1, (mset_all m bs).
    split; [reflexivity|]. split; [unfold MemoryAccess; lia | split; [exact HV' | reflexivity]].
Qed.

Lemma estore_nonempty si rr labels pc mem bs : exec si rr labels pc mem = Ok (EStore bs) -> bs <> [].
Proof.
  intros H. destruct si; exec_inv H; discriminate.
Qed.

Lemma store_addrs_consec si rr ms : forallb (in_mem ms) (store_addrs si rr) = true -> zlen ms <= 2147483584 ->
  store_addrs si rr = consec (hd 0 (store_addrs si rr)) (length (store_addrs si rr)).
Proof.
  intros Hin Hsm. destruct si; cbn [store_addrs] in *; try reflexivity;
    cbv zeta in *; set (x := s (u (rr base) + u off)) in *; cbn [forallb] in Hin;
    apply andb_prop in Hin; destruct Hin as [Hin _]; apply in_mem_range in Hin;
    cbn [hd length]; rewrite ?consec_S; unfold consec; cbn [seq map];
    rewrite ?s_id by (apply int32_bounds; lia); repeat (f_equal; try lia).
Qed.

(* the hypothesis of the theorems: every load and store of the SEQUENTIAL run
   stays inside one 64-byte line (natural alignment implies it, see
   natural_alignment_same_line) *)
Fixpoint accesses_ok (fuel : nat) (p : list sinstr) (labels : Z -> option Z) (st : arch) (pc : Z) : Prop :=
  match fuel with
  | O => True
  | S f =>
      match nth_error p (Z.to_nat (pc / 4)) with
      | Some i => same_line (load_addrs i (rget (regs st))) = true /\
                  same_line (store_addrs i (rget (regs st))) = true
      | None => True
      end /\
      match Seq.step p labels st pc with
      | Next st' pc' => accesses_ok f p labels st' pc'
      | _ => True
      end
  end.

Lemma natural_alignment_same_line a n : (n = 1 \/ n = 2 \/ n = 4)%nat -> a mod Z.of_nat n = 0 ->
  same_line (consec a n) = true.
Proof.
  intros Hn Ha. destruct n as [|n]; [reflexivity|]. rewrite consec_S. unfold same_line.
  apply forallb_forall. intros x Hx. rewrite <- consec_S in Hx. apply in_consec in Hx. apply Z.eqb_eq.
  destruct Hn as [E|[E|E]]; rewrite E in *; cbn [Z.of_nat Pos.of_succ_nat Pos.succ] in *; lia.
Qed.

(* ------------------------------------------------------------------ *)
(* the cycle count as a function of the program and of the sequence of
   (pc, loaded addresses, stored addresses) of the sequential run only     *)

Definition event : Type := (Z * list Z * list Z)%type.

Fixpoint events (fuel : nat) (p : list sinstr) (labels : Z -> option Z) (st : arch) (pc : Z) : list event :=
  match fuel with
  | O => []
  | S f =>
      if pc <? 0 then [] else
      match nth_error p (Z.to_nat (pc / 4)) with
      | None => []
      | Some i =>
          (pc, load_addrs i (rget (regs st)), store_addrs i (rget (regs st))) ::
          match Seq.step p labels st pc with
          | Next st' pc' => events f p labels st' pc'
          | _ => []
          end
      end
  end.

(* line starts of the L1I and recency list of the L1D *)
Record tags := mkT { t_i : list Z; t_d : list Z }.

Definition ev_cost (app : list instr) (tg : tags) (ev : event) : tags * Z :=
  match nth_error app (Z.to_nat (fst (fst ev) / 4)) with
  | None => (tg, 0)
  | Some i =>
      let fi := a_fetch (t_i tg) (fst (fst ev)) in
      let ld := a_load (t_d tg) (snd (fst ev)) in
      let c3 := match InstructionType_Cycles (instr_InstructionType i) with Ok c => c | _ => 0 end in
      let wb := match writes (sinstr_of i) with
                | _ :: _ => (fst ld, RegisterAccess)
                | [] => match snd ev with [] => (fst ld, 0) | _ :: _ => a_store (fst ld) (snd ev) end
                end in
      (mkT (fst fi) (fst wb), snd fi + cyclesDecode + snd ld + c3 + snd wb)
  end.

(* the final flush writes every resident L1D line back *)
Fixpoint cost3 (app : list instr) (tg : tags) (evs : list event) : Z :=
  match evs with
  | [] => MemoryAccess * zlen (t_d tg)
  | ev :: t => snd (ev_cost app tg ev) + cost3 app (fst (ev_cost app tg ev)) t
  end.

Lemma store_addrs_effect si rr labels pc mem e : exec si rr labels pc mem = Ok e ->
  match e with EStore _ => True | _ => store_addrs si rr = [] end.
Proof.
  intros H. destruct si; exec_inv H; reflexivity || exact I.
Qed.

(* the sequential step outside the program text *)
Lemma step_negative p labels st pc : pc < 0 -> Seq.step p labels st pc = Fail EBounds.
Proof. intros H. unfold Seq.step. apply Z.ltb_lt in H. rewrite H. reflexivity. Qed.

Lemma step_past_end p labels st pc : 0 <= pc -> nth_error p (Z.to_nat (pc / 4)) = None -> Seq.step p labels st pc = Halt st.
Proof. intros H E. unfold Seq.step. apply Z.ltb_ge in H. rewrite H, E. reflexivity. Qed.

Lemma fetch_nonneg p pc : 0 <= pc -> fetch p pc = nth_error p (Z.to_nat (pc / 4)).
Proof. intros H. unfold fetch. apply Z.ltb_ge in H. rewrite H. reflexivity. Qed.

(* every event costs at least the decode cycle *)
Lemma ev_cost_pos app tg ev i : nth_error app (Z.to_nat (fst (fst ev) / 4)) = Some i -> 0 < snd (ev_cost app tg ev).
Proof.
  intros Ei. unfold ev_cost. rewrite Ei. cbn [snd].
  destruct (cycles_total i) as (c3 & -> & Hc3).
  assert (0 < snd (a_fetch (t_i tg) (fst (fst ev)))) by (unfold a_fetch; destruct (i_find _ _) as [[? ?]|]; cbn [snd]; unfold L1Access, MemoryAccess; lia).
  assert (0 <= snd (a_load (t_d tg) (snd (fst ev)))).
  { unfold a_load. destruct (snd (fst ev)); [cbn [snd]; lia|].
    destruct (snd (a_get_all _ _)); cbn [snd]; unfold L1Access, MemoryAccess; lia. }
  assert (0 <= snd (a_store (fst (a_load (t_d tg) (snd (fst ev)))) (snd ev)))
    by (unfold a_store; cbn [snd]; destruct (snd (a_get_all _ _)); unfold L1Access, MemoryAccess; lia).
  unfold cyclesDecode, RegisterAccess.
  destruct (writes (sinstr_of i)); [destruct (snd ev)|]; cbn [snd]; lia.
Qed.

(* ------------------------------------------------------------------ *)
(* the initial state                                                    *)

Lemma new_l1 : new_cache l1LineSize l1Size = Ok (mkCache 16 64 []).
Proof. reflexivity. Qed.

Lemma init_caches : exists c0, new_cache l1LineSize l1Size = Ok c0 /\ IInv c0 /\ DInv c0 (s_new 64 1024) /\ lines c0 = [].
Proof.
  destruct (new_refines 64 1024 eq_refl) as (c0 & E & Hi & Hr).
  exists c0. split; [exact E|]. change (new_cache 64 1024) with (new_cache l1LineSize l1Size) in E.
  rewrite new_l1 in E. injection E as <-. split; [|split; [|reflexivity]].
  - repeat split. constructor.
  - constructor; auto; cbn [s_new s_rec s_cap s_len]; try reflexivity.
    + intros b [].
    + unfold zlen. cbn [length]. lia.
Qed.

Definition mem_small (st : arch) : Prop := Z.of_nat (length (mem st)) <= 2147483584.   (* 2^31 - 64 *)

Lemma init_VInv c0 m : DInv c0 (s_new 64 1024) -> Z.of_nat (length m) <= 2147483584 -> VInv c0 (s_new 64 1024) m m.
Proof. intros HD Hm. constructor; auto. Qed.

(* ------------------------------------------------------------------ *)
(* the induction: one model iteration against one specification step     *)

Section Top3.
  Variables (app : list instr) (labels : Z -> option Z).
  Hypothesis Happ : wf_app app.
  Hypothesis Hlab : wf_labels labels.
  Let sp := map sinstr_of app.

  (* One iteration of the Run loop on the instruction i at pc does what one step of the
     sequential machine does; the invariants carry over, the cycle counter and the tags
     advance as ev_cost says.  On ret the L1D is flushed. *)
  Lemma m3run_step f rg m cyc l1i l1d sc ms pc i :
    IInv l1i -> VInv l1d sc m ms -> inv rg ms -> int32 pc -> 0 <= pc ->
    nth_error app (Z.to_nat (pc / 4)) = Some i ->
    same_line (load_addrs (sinstr_of i) (rget rg)) = true ->
    same_line (store_addrs (sinstr_of i) (rget rg)) = true ->
    let ec := ev_cost app (mkT (map lo (lines l1i)) (s_rec sc))
                      (pc, load_addrs (sinstr_of i) (rget rg), store_addrs (sinstr_of i) (rget rg)) in
    let it := m3run (S f) app labels (mk_m3 rg m cyc l1i l1d) pc in
    match Seq.step sp labels (mk_arch rg ms) pc with
    | Next st' pc' => exists m' l1i' l1d' sc',
        it = m3run f app labels (mk_m3 (regs st') m' (cyc + snd ec) l1i' l1d') pc' /\
        IInv l1i' /\ VInv l1d' sc' m' (mem st') /\ inv (regs st') (mem st') /\ int32 pc' /\
        fst ec = mkT (map lo (lines l1i')) (s_rec sc')
    | Halt st' => it = MDone (cyc + snd ec + MemoryAccess * zlen (t_d (fst ec))) st'
    | Fail e => e = EDivZero \/ e = ELabel -> it = MErr e
    end.
  Proof.
    intros HI HV [Hr Hm] Hpc Epc Ei Hsl_l Hsl_s. cbv zeta.
    unfold Seq.step. cbn [Seq.regs Seq.mem]. replace (pc <? 0) with false by (symmetry; apply Z.ltb_ge; exact Epc).
    unfold sp. rewrite nth_error_map, Ei. cbn [option_map].
    rewrite m3run_S. cbn [m3_l1i m3_l1d m3_mem m3_regs m3_cycle]. rewrite (quot_div pc Epc).
    pose proof (Z.div_pos pc 4 Epc ltac:(lia)) as Hq.
    assert (Hlt : (Z.to_nat (pc / 4) < length app)%nat) by (apply nth_error_Some; congruence).
    replace (pc / 4 <? Z.of_nat (length app)) with true by (symmetry; apply Z.ltb_lt; lia).
    destruct (fetch_ok l1i pc HI Epc) as (l1i1 & hit & Eg & l1i2 & Et & HI2 & _ & Hti). rewrite Eg, Et.
    replace (pc / 4 <? 0) with false by (symmetry; apply Z.ltb_ge; exact Hq).
    rewrite Ei. cbv zeta. rewrite memory_read_exact.
    set (rr := rget rg) in *.
    assert (Hrr : forall r, int32 (rr r)) by (intros r; apply rget_int32; exact Hr).
    destruct (negb (forallb (in_mem ms) (load_addrs (sinstr_of i) rr))) eqn:Eb; [intros [|]; discriminate|].
    apply negb_false_iff in Eb.
    destruct (load_block_ok l1d sc m ms _ HV Eb Hsl_l) as (l1d1 & sc1 & m1 & El & _ & HV1 & Htd). rewrite El.
    rewrite (run_refines_spec rr labels pc _ 0 Hrr i (imm_ok _ Happ _ _ Ei) (load_addrs_mem_ok _ rr ms Hm)).
    destruct (exec (sinstr_of i) rr labels pc (map (mget ms) (load_addrs (sinstr_of i) rr))) as [e|err|] eqn:Eex;
      cbn [omap]; [|intros _; reflexivity | intros [|]; discriminate].
    destruct (cycles_total i) as (c3 & Ec3 & _). rewrite Ec3.
    pose proof (exec_ranges _ _ _ _ _ _ Hlab Eex) as Hrange.
    pose proof (spec_writes_sound _ _ _ _ _ _ Eex) as Hwr.
    pose proof (store_addrs_effect _ _ _ _ _ _ Eex) as Hsae.
    destruct (pc_next _ Happ pc i Epc Ei) as [Hpc4 Hpc4r].
    unfold ev_cost. cbn [fst snd]. rewrite Ei. cbv zeta. cbn [t_i t_d]. rewrite Ec3, <- Hti, <- Htd.
    set (c1 := snd (a_fetch (map lo (lines l1i)) pc)).
    set (c2 := snd (a_load (s_rec sc) (load_addrs (sinstr_of i) rr))).
    unfold writeback.
    destruct e as [rd val|bs| |a|rd val a|]; cbn [embed Seq.regs Seq.mem].
    - (* register write *)
      pose proof (rset_reg_pair rg rd val) as Ers. destruct (reg_pair rd val) as [r x]. cbn [fst snd] in Ers.
      cbn [Return PcChange RegisterChange Register RegisterValue]. cbv zeta. rewrite Hpc4, Hwr, Ers. cbn [fst snd].
      exists m1, l1i2, l1d1, sc1. split; [do 2 f_equal; lia|].
      split; [exact HI2|]. split; [exact HV1|]. split; [split; [apply rset_int32|]; assumption|]. split; [exact Hpc4r | reflexivity].
    - (* store *)
      cbn [Return PcChange RegisterChange MemoryChange MemoryChanges]. cbv zeta. rewrite Hpc4, Hwr.
      destruct (negb (forallb (in_mem ms) (map fst bs))) eqn:Eb2; [intros [|]; discriminate|]. apply negb_false_iff in Eb2.
      pose proof (spec_store_addrs _ _ _ _ _ _ Eex) as Hsa.
      pose proof (estore_nonempty _ _ _ _ _ _ Eex) as Hne.
      assert (Hcs : map fst bs = consec (hd 0 (map fst bs)) (length bs)).
      { rewrite <- (map_length fst bs), Hsa. apply (store_addrs_consec _ _ ms); [rewrite <- Hsa; exact Eb2 | apply HV1]. }
      destruct (store_block_ok (m3run f app labels) rg m1 (cyc + c1 + cyclesDecode + c2 + c3) l1i2 l1d1 sc1 ms (pc + 4) bs _
                  HV1 Hne Hcs Eb2 ltac:(rewrite Hsa; exact Hsl_s))
        as (l1d2 & sc2 & m2 & Esb & _ & HV2 & Htd2).
      rewrite Esb, Hsa in *.
      destruct (store_addrs (sinstr_of i) rr) as [|sa0 sat]; [destruct bs; [congruence | discriminate]|].
      cbn [fst snd Seq.regs Seq.mem]. exists m2, l1i2, l1d2, sc2. split; [do 2 f_equal; lia|].
      split; [exact HI2|]. split; [exact HV2|]. split; [split; [|apply mset_all_int8]; assumption|].
      split; [exact Hpc4r | rewrite Htd2; reflexivity].
    - (* fall through *)
      cbn [Return PcChange RegisterChange MemoryChange]. cbv zeta. rewrite Hpc4, Hwr, Hsae. cbn [fst snd].
      exists m1, l1i2, l1d1, sc1. split; [do 2 f_equal; lia|].
      split; [exact HI2|]. split; [exact HV1|]. split; [split; assumption|]. split; [exact Hpc4r | reflexivity].
    - (* taken branch / jump *)
      cbn [Return PcChange RegisterChange MemoryChange NextPc]. cbv zeta. rewrite Hwr, Hsae. cbn [fst snd].
      exists m1, l1i2, l1d1, sc1. split; [do 2 f_equal; lia|].
      split; [exact HI2|]. split; [exact HV1|]. split; [split; assumption|]. split; [exact Hrange | reflexivity].
    - (* jump and link *)
      pose proof (rset_reg_pair rg rd val) as Ers. destruct (reg_pair rd val) as [r x]. cbn [fst snd] in Ers.
      cbn [Return PcChange RegisterChange Register RegisterValue NextPc]. cbv zeta. rewrite Hwr, Ers. cbn [fst snd].
      exists m1, l1i2, l1d1, sc1. split; [do 2 f_equal; lia|].
      split; [exact HI2|]. split; [exact HV1|]. split; [split; [apply rset_int32|]; tauto|]. split; [tauto | reflexivity].
    - (* ret: flush *)
      cbn [Return]. rewrite Hwr, Hsae. cbn [fst snd t_d].
      unfold finish3. cbn [m3_l1d m3_mem m3_regs m3_cycle]. rewrite (flush_ok l1d1 sc1 m1 ms HV1). f_equal. lia.
  Qed.

  (* the pc left the text: flush *)
  Lemma m3run_end f rg m cyc l1i l1d sc ms pc : VInv l1d sc m ms -> 0 <= pc ->
    nth_error sp (Z.to_nat (pc / 4)) = None ->
    m3run (S f) app labels (mk_m3 rg m cyc l1i l1d) pc = MDone (cyc + MemoryAccess * zlen (s_rec sc)) (mk_arch rg ms).
  Proof.
    intros HV Epc Enth. apply nth_error_None in Enth. unfold sp in Enth. rewrite map_length in Enth.
    cbn [m3run]. rewrite (quot_div pc Epc).
    replace (pc / 4 <? Z.of_nat (length app)) with false by (symmetry; apply Z.ltb_ge; lia).
    unfold finish3. cbn [m3_l1d m3_mem m3_regs m3_cycle]. rewrite (flush_ok l1d sc m ms HV). reflexivity.
  Qed.

  Theorem m3run_refines : forall fuel rg m cyc l1i l1d sc ms pc tr st' tr',
    IInv l1i -> VInv l1d sc m ms -> inv rg ms -> int32 pc ->
    accesses_ok fuel sp labels (mk_arch rg ms) pc ->
    Seq.run fuel sp labels (mk_arch rg ms) pc tr = Done st' tr' ->
    exists c, m3run fuel app labels (mk_m3 rg m cyc l1i l1d) pc = MDone c st' /\
              c = cyc + cost3 app (mkT (map lo (lines l1i)) (s_rec sc)) (events fuel sp labels (mk_arch rg ms) pc) /\
              cyc + Z.of_nat (length tr') - Z.of_nat (length tr) <= c.
  Proof.
    induction fuel as [|f IH]; intros rg m cyc l1i l1d sc ms pc tr st' tr' HI HV Hinv Hpc Hacc Hrun; [discriminate|].
    cbn [Seq.run] in Hrun. cbn [accesses_ok Seq.regs] in Hacc. cbn [events Seq.regs].
    destruct (Z.ltb_spec pc 0) as [Hneg|Epc]; [rewrite step_negative in Hrun by exact Hneg; discriminate|].
    rewrite (fetch_nonneg _ _ Epc) in Hrun.
    destruct (nth_error sp (Z.to_nat (pc / 4))) as [si|] eqn:Enth.
    2:{ rewrite step_past_end in Hrun by assumption. injection Hrun as <- <-.
        rewrite (m3run_end f rg m cyc l1i l1d sc ms pc HV Epc Enth).
        eexists. split; [reflexivity|]. cbn [cost3 t_d]. pose proof (zlen_nonneg (s_rec sc)). unfold MemoryAccess. lia. }
    destruct (nth_app _ _ _ Enth) as (i & Ei & ->). destruct Hacc as [[Hsl_l Hsl_s] Hacc].
    pose proof (m3run_step f rg m cyc l1i l1d sc ms pc i HI HV Hinv Hpc Epc Ei Hsl_l Hsl_s) as St. cbv zeta in St.
    cbn [cost3].
    set (ec := ev_cost app (mkT (map lo (lines l1i)) (s_rec sc))
                 (pc, load_addrs (sinstr_of i) (rget rg), store_addrs (sinstr_of i) (rget rg))) in *.
    assert (Hpos : 0 < snd ec) by (apply (ev_cost_pos _ _ _ i), Ei).
    destruct (Seq.step sp labels (mk_arch rg ms) pc) as [[rg1 ms1] pc1|st1|e]; [| |discriminate].
    - destruct St as (m1 & l1i1 & l1d1 & sc1 & -> & HI1 & HV1 & Hinv1 & Hpc1 & ->). cbn [Seq.regs Seq.mem] in *.
      destruct (IH _ _ (cyc + snd ec) _ _ _ _ _ _ _ _ HI1 HV1 Hinv1 Hpc1 Hacc Hrun) as (c & -> & -> & Hle).
      eexists. split; [reflexivity|]. cbn [length] in Hle. lia.
    - rewrite St. injection Hrun as <- <-. eexists. split; [reflexivity|]. cbn [cost3 length].
      pose proof (zlen_nonneg (t_d (fst ec))). unfold MemoryAccess. lia.
  Qed.

  (* errors the ISA defines (division by zero, undefined label) are returned as
     error values, never as a panic or a hang - also with the caches in between *)
  Theorem m3run_errors : forall fuel rg m cyc l1i l1d sc ms pc tr e tr',
    IInv l1i -> VInv l1d sc m ms -> inv rg ms -> int32 pc ->
    accesses_ok fuel sp labels (mk_arch rg ms) pc ->
    Seq.run fuel sp labels (mk_arch rg ms) pc tr = Failed e tr' ->
    e = EDivZero \/ e = ELabel ->
    m3run fuel app labels (mk_m3 rg m cyc l1i l1d) pc = MErr e.
  Proof.
    induction fuel as [|f IH]; intros rg m cyc l1i l1d sc ms pc tr e0 tr' HI HV Hinv Hpc Hacc Hrun He; [discriminate|].
    cbn [Seq.run] in Hrun. cbn [accesses_ok Seq.regs] in Hacc.
    destruct (Z.ltb_spec pc 0) as [Hneg|Epc].
    { rewrite step_negative in Hrun by exact Hneg. injection Hrun as <- _. destruct He; discriminate. }
    destruct (nth_error sp (Z.to_nat (pc / 4))) as [si|] eqn:Enth.
    2:{ rewrite step_past_end, fetch_nonneg, Enth in Hrun by assumption. discriminate. }
    destruct (nth_app _ _ _ Enth) as (i & Ei & ->). destruct Hacc as [[Hsl_l Hsl_s] Hacc].
    pose proof (m3run_step f rg m cyc l1i l1d sc ms pc i HI HV Hinv Hpc Epc Ei Hsl_l Hsl_s) as St. cbv zeta in St.
    destruct (Seq.step sp labels (mk_arch rg ms) pc) as [[rg1 ms1] pc1|st1|e]; [|destruct (fetch sp pc); discriminate|].
    - destruct St as (m1 & l1i1 & l1d1 & sc1 & -> & HI1 & HV1 & Hinv1 & Hpc1 & _). cbn [Seq.regs Seq.mem] in *.
      eapply IH; eassumption.
    - injection Hrun as <- _. apply St, He.
  Qed.

  (* C01/C05 (MVP-3): for every well-formed program on which the sequential
     machine terminates, with accesses that do not straddle a cache line, the
     run returns - no error, no panic, within the same fuel - exactly the
     sequential registers AND memory: every load saw the most recent store and
     after the final flush every store is in main memory, for any access
     pattern, working-set size and eviction sequence. *)
  Theorem mvp3_refines_seq : forall fuel st st' tr,
    inv (regs st) (mem st) -> mem_small st ->
    accesses_ok fuel sp labels st 0 ->
    seq_run fuel sp labels st = Done st' tr ->
    mvp3_run fuel app labels st = MDone (cost3 app (mkT [] []) (events fuel sp labels st 0)) st' /\
    Z.of_nat (length tr) <= cost3 app (mkT [] []) (events fuel sp labels st 0).
  Proof.
    intros fuel [rg mm] st' tr Hinv Hsm Hacc Hrun. unfold seq_run in Hrun. cbn [regs mem] in *.
    destruct init_caches as (c0 & E0 & HI0 & HD0 & Hl0). unfold mvp3_run. rewrite E0. cbn [regs mem].
    destruct (m3run_refines fuel rg mm 0 c0 c0 (s_new 64 1024) mm 0 [] st' tr
                HI0 (init_VInv c0 mm HD0 Hsm) Hinv ltac:(unf_rng; lia) Hacc Hrun) as (c & Hc & Hceq & Hle).
    rewrite Hl0 in Hceq. cbn [map s_new s_rec] in Hceq. rewrite Z.add_0_l in Hceq. subst c.
    split; [exact Hc|]. cbn [length] in Hle. lia.
  Qed.

  Theorem mvp3_errors_are_values : forall fuel st e tr,
    inv (regs st) (mem st) -> mem_small st ->
    accesses_ok fuel sp labels st 0 ->
    seq_run fuel sp labels st = Failed e tr -> e = EDivZero \/ e = ELabel ->
    mvp3_run fuel app labels st = MErr e.
  Proof.
    intros fuel [rg mm] e tr Hinv Hsm Hacc Hrun He. unfold seq_run in Hrun. cbn [regs mem] in *.
    destruct init_caches as (c0 & E0 & HI0 & HD0 & Hl0). unfold mvp3_run. rewrite E0. cbn [regs mem].
    eapply (m3run_errors fuel rg mm 0 c0 c0 (s_new 64 1024) mm 0 [] e tr); try eassumption.
    - apply init_VInv; assumption.
    - unf_rng; lia.
  Qed.

  (* C07 (MVP-3): no panic, no divergence *)
  Corollary mvp3_no_panic : forall fuel st st' tr,
    inv (regs st) (mem st) -> mem_small st ->
    accesses_ok fuel sp labels st 0 ->
    seq_run fuel sp labels st = Done st' tr ->
    mvp3_run fuel app labels st <> MPanic /\ mvp3_run fuel app labels st <> MOutOfFuel.
  Proof.
    intros fuel st st' tr Hinv Hsm Hacc Hrun.
    destruct (mvp3_refines_seq fuel st st' tr Hinv Hsm Hacc Hrun) as (-> & _). split; discriminate.
  Qed.

  (* C05: after the final flush main memory holds every store of the run, byte
     for byte - nothing is left behind in the L1D *)
  Corollary mvp3_flush_complete : forall fuel st st' tr,
    inv (regs st) (mem st) -> mem_small st ->
    accesses_ok fuel sp labels st 0 ->
    seq_run fuel sp labels st = Done st' tr ->
    exists c st3, mvp3_run fuel app labels st = MDone c st3 /\ mem st3 = mem st' /\ regs st3 = regs st'.
  Proof.
    intros fuel st st' tr Hinv Hsm Hacc Hrun.
    destruct (mvp3_refines_seq fuel st st' tr Hinv Hsm Hacc Hrun) as (Hc & _). eexists _, st'. eauto.
  Qed.
  (* C12 (MVP-3): the cycle count is a function of the program and of the sequence of
     (pc, loaded addresses, stored addresses) only - it does not depend on the
     values in registers and memory *)
  Theorem mvp3_value_independent : forall fuel st1 st2 st1' st2' tr1 tr2,
    inv (regs st1) (mem st1) -> mem_small st1 -> accesses_ok fuel sp labels st1 0 ->
    inv (regs st2) (mem st2) -> mem_small st2 -> accesses_ok fuel sp labels st2 0 ->
    seq_run fuel sp labels st1 = Done st1' tr1 ->
    seq_run fuel sp labels st2 = Done st2' tr2 ->
    events fuel sp labels st1 0 = events fuel sp labels st2 0 ->
    exists c, mvp3_run fuel app labels st1 = MDone c st1' /\ mvp3_run fuel app labels st2 = MDone c st2'.
  Proof.
    intros fuel st1 st2 st1' st2' tr1 tr2 I1 S1 A1 I2 S2 A2 R1 R2 Hev.
    destruct (mvp3_refines_seq fuel st1 st1' tr1 I1 S1 A1 R1) as [H1 _].
    destruct (mvp3_refines_seq fuel st2 st2' tr2 I2 S2 A2 R2) as [H2 _].
    eexists. split; [exact H1|]. rewrite Hev. exact H2.
  Qed.
End Top3.

(* C05: every load through the L1D returns the most recently stored bytes: in
   a state related to the sequential memory ms (the memory after all earlier
   stores), the bytes handed to the instruction are ms's, whether the line was
   resident, had to be fetched, or another line had to be evicted for it *)
Theorem mvp3_loads_see_last_store c sc m ms addrs : VInv c sc m ms ->
  forallb (in_mem ms) addrs = true -> same_line addrs = true ->
  exists c' sc' m' c2, load_block c m addrs = Ok (c', m', map (mget ms) addrs, c2) /\ 0 <= c2 /\
    VInv c' sc' m' ms.
Proof.
  intros HV Hin Hsl. destruct (load_block_ok c sc m ms addrs HV Hin Hsl) as (c' & sc' & m' & E & Hc & HV' & _).
  exists c', sc', m', (snd (a_load (s_rec sc) addrs)). auto.
Qed.

(* ------------------------------------------------------------------ *)
(* non-vacuity: a program that touches 20 different lines (the L1D holds 16):
   it stores a word to 0, 64, ..., 1216, reads all of them back (the first
   lines have been evicted and written back by then), and stores the sum *)

Definition ex_prog : list sinstr :=
  [ SLi 5 0; SLi 6 1280;
    (* 8: loop1 *) SSw 5 0 5; SSb 6 3 5; SAddi 5 5 64; SBlt 5 6 1;
    SLi 5 0; SLi 7 0;
    (* 32: loop2 *) SLw 28 0 5; SAdd 7 7 28; SLh 28 2 5; SAdd 7 7 28; SAddi 5 5 64; SBlt 5 6 2;
    SSw 7 2000 0; SRet ].
Definition ex_labels : Z -> option Z := lookup [(1, 8); (2, 32)].
Definition ex_state : arch := mk_arch (repeat 0 32) (repeat 0 2048).

Fixpoint accesses_okb (fuel : nat) (p : list sinstr) (labels : Z -> option Z) (st : arch) (pc : Z) : bool :=
  match fuel with
  | O => true
  | S f =>
      match nth_error p (Z.to_nat (pc / 4)) with
      | Some i => same_line (load_addrs i (rget (regs st))) && same_line (store_addrs i (rget (regs st)))
      | None => true
      end &&
      match Seq.step p labels st pc with
      | Next st' pc' => accesses_okb f p labels st' pc'
      | _ => true
      end
  end.

Lemma accesses_okb_spec fuel p labels : forall st pc,
  accesses_okb fuel p labels st pc = true -> accesses_ok fuel p labels st pc.
Proof.
  induction fuel as [|f IH]; intros st pc H; cbn [accesses_okb accesses_ok] in *; [exact I|].
  apply andb_prop in H. destruct H as [H1 H2]. split.
  - destruct (nth_error p (Z.to_nat (pc / 4))); [|exact I]. apply andb_prop in H1. exact H1.
  - destruct (Seq.step p labels st pc); auto.
Qed.

Example mvp3_example :
  let app := map instr_of ex_prog in
  wf_app app /\ wf_labels ex_labels /\ inv (regs ex_state) (mem ex_state) /\ mem_small ex_state /\
  accesses_ok 300 (map sinstr_of app) ex_labels ex_state 0 /\
  exists st' tr c,
    seq_run 300 (map sinstr_of app) ex_labels ex_state = Done st' tr /\
    mvp3_run 300 app ex_labels ex_state = MDone c st' /\
    length tr = 206%nat /\ c = 27333 /\ mget (mem st') 1216 = -64 /\ mget (mem st') 2000 = -128 /\ mget (mem st') 2001 = 47.
Proof.
  cbv zeta.
  assert (Happ : wf_app (map instr_of ex_prog)).
  { split; [|vm_compute; reflexivity]. cbn [map ex_prog instr_of]. repeat constructor; vm_compute; discriminate. }
  assert (Hlab : wf_labels ex_labels).
  { intros l a H. unfold ex_labels in H. cbn [lookup] in H.
    destruct (l =? 1); [injection H as <-; apply int32_bounds; lia|].
    destruct (l =? 2); [injection H as <-; apply int32_bounds; lia|]. discriminate. }
  assert (Hinv : inv (regs ex_state) (mem ex_state)).
  { split; apply Forall_forall; intros x Hx; apply repeat_spec in Hx; subst x; [apply int32_0 | apply int8_0]. }
  assert (Hsm : mem_small ex_state) by (vm_compute; discriminate).
  assert (Hacc : accesses_ok 300 (map sinstr_of (map instr_of ex_prog)) ex_labels ex_state 0)
    by (apply accesses_okb_spec; vm_compute; reflexivity).
  repeat (split; [assumption|]).
  (* only the sequential run and the cost formula are evaluated: what the model returns
     is mvp3_refines_seq *)
  assert (Hrun : exists st' tr, seq_run 300 (map sinstr_of (map instr_of ex_prog)) ex_labels ex_state = Done st' tr /\
            length tr = 206%nat /\ mget (mem st') 1216 = -64 /\ mget (mem st') 2000 = -128 /\ mget (mem st') 2001 = 47).
  { do 2 eexists. split; [vm_compute; reflexivity|]. vm_compute. repeat split; reflexivity. }
  destruct Hrun as (st' & tr & Hrun & Hrest).
  destruct (mvp3_refines_seq _ _ Happ Hlab _ _ _ _ Hinv Hsm Hacc Hrun) as [Hm _].
  do 3 eexists. split; [exact Hrun|]. split; [exact Hm|].
  split; [apply Hrest|]. split; [vm_compute; reflexivity | apply Hrest].
Qed.

(* ------------------------------------------------------------------ *)
(* why accesses_ok is a hypothesis: accesses that straddle a 64-byte line *)

Definition no_labels : Z -> option Z := fun _ => None.
Definition ex_state128 : arch := mk_arch (repeat 0 32) (repeat 0 128).

(* a word load at 62 covers bytes 62..65: the miss on 62 fetches line 0, the
   retry misses on 64: panic("cache line doesn't exist"), where the sequential
   machine (and MVP-1) simply load the word *)
Theorem mvp3_straddling_load_panics_refuted :
  let p := [SLw 5 62 0; SRet] in
  (exists st' tr, seq_run 10 p no_labels ex_state128 = Done st' tr) /\
  mvp3_run 10 (map instr_of p) no_labels ex_state128 = MPanic.
Proof. cbv zeta. split; [do 2 eexists|]; vm_compute; reflexivity. Qed.

(* a word store at 62 with line 0 resident and line 64 absent goes to memory
   only (getFromL1D fails on byte 64), the resident line keeps the old bytes
   62 and 63: the next load returns the stale byte, and the final flush writes
   the stale line over the stored bytes *)
Theorem mvp3_straddling_store_lost_refuted :
  let p := [SLb 6 0 0; SLi 5 16909060; SSw 5 62 0; SLb 7 62 0; SRet] in
  exists st' tr c st3,
    seq_run 10 p no_labels ex_state128 = Done st' tr /\
    mvp3_run 10 (map instr_of p) no_labels ex_state128 = MDone c st3 /\
    rget (regs st') 7 = 4 /\ mget (mem st') 62 = 4 /\ mget (mem st') 63 = 3 /\
    rget (regs st3) 7 = 0 /\ mget (mem st3) 62 = 0 /\ mget (mem st3) 63 = 0.
Proof. cbv zeta. do 4 eexists. split; [vm_compute; reflexivity|]. split; [vm_compute; reflexivity|]. vm_compute. repeat split; reflexivity. Qed.

(* observed while proving (no hypothesis needed, the sequential run excludes it):
   the store path through the L1D has no bounds check.  With 100 bytes of memory
   the line 64..127 is zero-padded; a store to 110 is an error for the sequential
   machine (EBounds) and a panic in MVP-1, but MVP-3 writes it into the padding,
   a later load reads it back, and the flush drops it *)
Theorem mvp3_store_past_end_in_resident_line_accepted :
  let p := [SLb 6 64 0; SLi 5 7; SSb 5 110 0; SLb 7 110 0; SRet] in
  let st := mk_arch (repeat 0 32) (repeat 0 100) in
  seq_run 10 p no_labels st = Failed EBounds [8; 4; 0] /\
  mvp12_run V1 10 (map instr_of p) no_labels st = MPanic /\
  exists c st3, mvp3_run 10 (map instr_of p) no_labels st = MDone c st3 /\ rget (regs st3) 7 = 7 /\
                length (mem st3) = 100%nat.
Proof. cbv zeta. split; [vm_compute; reflexivity|]. split; [vm_compute; reflexivity|]. do 2 eexists. split; [vm_compute; reflexivity|]. vm_compute. split; reflexivity. Qed.
