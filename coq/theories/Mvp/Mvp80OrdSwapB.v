(* Soundness of the ghost flag of the model of MVP-8.0: two compatible snoop closures that work on the L3 only
   (SnL3Evict, SnL3WriteBack) commute (sn_swap_stmt of Mvp80OrdCommDefs.v).  sn_conflict = false gives two DIFFERENT
   L3 lines: the mutex keys differ, the l3write keys differ, no line of the well-formed L3 covers both addresses, the
   two ranges of memory written back are disjoint.

   swap_E3_E3, swap_E3_W3, swap_W3_E3, swap_W3_W3 are instances of swap_l3 (both kinds as l3cl wb key cid n). *)
From Coq Require Import ZArith List Bool Lia.
From Maj Require Import Base.Outcome Base.GoInt Base.GoTypes Isa.Spec Isa.Seq.
From Maj Require Import Gen.Latency Gen.RiscTables Gen.Opcodes Comp.Cache Comp.Rat Comp.RatProofs Mvp.Mvp12 Mvp.Mvp3 Mvp.Mvp5 Mvp.Mvp60 Mvp.Mvp63 Mvp.Mvp80.
From Maj Require Import Mvp.Mvp80OrdSnoop Mvp.Mvp80OrdCache Mvp.Mvp80OrdInvDefs Mvp.Mvp80OrdCommDefs Mvp.Mvp80OrdWf.
Import ListNotations.
Open Scope Z_scope.

Definition l3data2 (wb1 wb2 : bool) (m : list Z) (c : cache) (a b : Z) : outcome (list Z * cache) :=
  d1 <- l3data wb1 m c a ;; l3data wb2 (fst d1) (snd d1) b.

Lemma lines_set_lines : forall c ls, lines (set_lines c ls) = ls.
Proof. intros [n ll ls'] ls. reflexivity. Qed.

Lemma set_lines_twice : forall c l1 l2, set_lines (set_lines c l1) l2 = set_lines c l2.
Proof. intros [n ll ls'] l1 l2. reflexivity. Qed.

Lemma l3data_comm : forall wb1 wb2 m c a b, Forall (wf_line 128) (lines c) ->
  l3_align a = a -> l3_align b = b -> a <> b ->
  l3data2 wb1 wb2 m c a b = l3data2 wb2 wb1 m c b a.
Proof.
  intros wb1 wb2 m c a b W LA LB NE.
  assert (NC' : nocov (lines c) a b) by (apply nocov_l3; [exact W | congruence]).
  pose proof (nocov_sym _ _ _ NC') as NC.
  (* the two lines written back are 128 bytes at different multiples of 128 *)
  assert (D : forall la lb, fcov (lines c) a = Some la -> fcov (lines c) b = Some lb ->
              sb (sb m (Z.to_nat a) (data la)) (Z.to_nat b) (data lb) = sb (sb m (Z.to_nat b) (data lb)) (Z.to_nat a) (data la)).
  { intros la lb Fa Fb. destruct (fcov_some _ _ _ Fa) as [_ Ca]. destruct (fcov_some _ _ _ Fb) as [_ Cb].
    pose proof (Forall_fcov _ _ _ _ W Fa) as Wa. pose proof (Forall_fcov _ _ _ _ W Fb) as Wb.
    pose proof (covers_align 128 la a n128 Wa Ca) as Ea. pose proof (covers_align 128 lb b n128 Wb Cb) as Eb.
    change (l3_align a = lo la) in Ea. change (l3_align b = lo lb) in Eb. rewrite LA in Ea. rewrite LB in Eb.
    destruct Wa as (Ra & Ma & _ & Lena). destruct Wb as (Rb & Mb & _ & Lenb).
    rewrite Z.rem_mod_nonneg in Ma, Mb by lia.
    apply sb_sb_comm_Z; [lia | lia |]. rewrite Lena, Lenb. lia. }
  unfold l3data2, l3data.
  destruct wb1, wb2; cbn [bind fst snd]; rewrite ?lines_set_lines, ?set_lines_twice.
  - destruct (fcov (lines c) a) as [la|] eqn:Fa; cbn [bind fst snd]; rewrite ?lines_set_lines, ?set_lines_twice.
    + rewrite (fcov_rmcov _ _ _ NC).
      destruct (fcov (lines c) b) as [lb|] eqn:Fb; cbn [bind fst snd]; rewrite ?lines_set_lines, ?set_lines_twice; [|reflexivity].
      rewrite (fcov_rmcov _ _ _ NC'), Fa. rewrite (rmcov_comm _ _ _ NC'), (D la lb eq_refl eq_refl). reflexivity.
    + destruct (fcov (lines c) b) as [lb|] eqn:Fb; cbn [bind fst snd]; rewrite ?lines_set_lines, ?set_lines_twice; [|reflexivity].
      rewrite (fcov_rmcov _ _ _ NC'), Fa. reflexivity.
  - destruct (fcov (lines c) a) as [la|] eqn:Fa; cbn [bind fst snd]; rewrite ?lines_set_lines, ?set_lines_twice.
    + rewrite (fcov_rmcov _ _ _ NC'), Fa. rewrite (rmcov_comm _ _ _ NC'). reflexivity.
    + rewrite (fcov_rmcov _ _ _ NC'), Fa. reflexivity.
  - rewrite (fcov_rmcov _ _ _ NC).
    destruct (fcov (lines c) b) as [lb|] eqn:Fb; cbn [bind fst snd]; rewrite ?lines_set_lines, ?set_lines_twice; [|reflexivity].
    rewrite (rmcov_comm _ _ _ NC'). reflexivity.
  - rewrite (rmcov_comm _ _ _ NC'). reflexivity.
Qed.

Lemma l3data_no_err : forall wb m c a e, l3data wb m c a <> Err e.
Proof. intros wb m c a e. unfold l3data. destruct wb; [destruct (fcov _ _)|]; discriminate. Qed.

Lemma l3msi_eq : forall k key cid, is_l1_req key = false ->
  l3msi k key cid =
  mk_msi (k_sems k) (k_states k) (k_stale k) (pdel ck_eqb key (k_cmds k)) (k_done k ++ [cid]) (k_next k)
         (aset (l3_align (ck_addr key)) false (k_l3lock k)) (aset (ck_addr key) false (k_l3write k)).
Proof.
  intros k key cid H. unfold l3msi, l3_setlock, cmd_done. fold (is_l1_req key). rewrite H. reflexivity.
Qed.

Lemma l3_locked_l3msi : forall k key cid a, is_l1_req key = false -> l3_align a <> l3_align (ck_addr key) ->
  l3_locked (l3msi k key cid) a = l3_locked k a.
Proof.
  intros k key cid a H NE. rewrite l3msi_eq by exact H. unfold l3_locked. cbn [k_l3lock]. rewrite aget_aset.
  replace (l3_align a =? l3_align (ck_addr key)) with false by (symmetry; apply Z.eqb_neq; exact NE). reflexivity.
Qed.

Lemma done_comm : forall (d : list Z) c1 c2 cid, memZ cid ((d ++ [c1]) ++ [c2]) = memZ cid ((d ++ [c2]) ++ [c1]).
Proof.
  intros d c1 c2 cid. rewrite !memZ_app. unfold memZ. cbn [existsb].
  destruct (existsb (Z.eqb cid) d), (cid =? c1), (cid =? c2); reflexivity.
Qed.

(* lock / lock *)
Lemma equiv_lock_lock : forall k a b u v, l3_align a <> l3_align b ->
  msi_equiv (l3_setlock (l3_setlock k a u) b v) (l3_setlock (l3_setlock k b v) a u).
Proof.
  intros k a b u v NE. unfold msi_equiv, l3_setlock.
  cbn [set_l3lock k_sems k_states k_stale k_cmds k_done k_next k_l3lock k_l3write].
  repeat split; try reflexivity. intros z. apply aset_swap. congruence.
Qed.

(* lock / last call *)
Lemma equiv_lock_last : forall k a key cid u, is_l1_req key = false -> l3_align a <> l3_align (ck_addr key) ->
  msi_equiv (l3msi (l3_setlock k a u) key cid) (l3_setlock (l3msi k key cid) a u).
Proof.
  intros k a key cid u H NE. rewrite !l3msi_eq by exact H. unfold msi_equiv, l3_setlock.
  cbn [set_l3lock k_sems k_states k_stale k_cmds k_done k_next k_l3lock k_l3write].
  repeat split; try reflexivity. intros z. apply aset_swap. congruence.
Qed.

(* last call / last call *)
Lemma equiv_last_last : forall k key1 cid1 key2 cid2, is_l1_req key1 = false -> is_l1_req key2 = false ->
  l3_align (ck_addr key1) <> l3_align (ck_addr key2) -> ck_addr key1 <> ck_addr key2 ->
  msi_equiv (l3msi (l3msi k key1 cid1) key2 cid2) (l3msi (l3msi k key2 cid2) key1 cid1).
Proof.
  intros k key1 cid1 key2 cid2 H1 H2 NL NE. rewrite !l3msi_eq by assumption. unfold msi_equiv.
  cbn [k_sems k_states k_stale k_cmds k_done k_next k_l3lock k_l3write].
  repeat split; try reflexivity.
  - apply pdel_comm.
  - intros cid. apply done_comm.
  - intros z. apply aset_swap. congruence.
  - intros z. apply aset_swap. congruence.
Qed.

Lemma conflict_l3 : forall k1 k2, is_l1_req k1 = false -> is_l1_req k2 = false -> sn_conflict k1 k2 = false ->
  l3_align (ck_addr k1) <> l3_align (ck_addr k2).
Proof.
  intros k1 k2 H1 H2 C. unfold is_l1_req in *. apply orb_false_iff in H1 as [A1 B1]. apply orb_false_iff in H2 as [A2 B2].
  unfold sn_conflict in C. rewrite A1, A2, B1 in C. cbn [orb andb] in C. apply Z.eqb_neq in C. exact C.
Qed.

Theorem swap_l3 : forall wb1 k1 c1 n1 wb2 k2 c2 n2,
  sn_swap_stmt (l3cl wb1 k1 c1 n1) (l3cl wb2 k2 c2 n2).
Proof.
  intros wb1 k1 c1 n1 wb2 k2 c2 n2 [mem l3 k] c [[_ W3] _] _ U1 U2 [CF _].
  cbn [w_l3] in W3. change l3LineSize8 with 128 in W3.
  pose proof (unary_l3 _ _ _ U1 (l3cl_isl1 _ _ _ _)) as A1. pose proof (unary_l3 _ _ _ U2 (l3cl_isl1 _ _ _ _)) as A2.
  pose proof (kind_isl1 _ (proj1 U1)) as R1. pose proof (kind_isl1 _ (proj1 U2)) as R2.
  rewrite !l3cl_key, ?l3cl_isl1 in *.
  pose proof (conflict_l3 _ _ R1 R2 CF) as NL.
  assert (NE : ck_addr k1 <> ck_addr k2) by congruence.
  assert (NL' : l3_align (ck_addr k2) <> l3_align (ck_addr k1)) by congruence.
  destruct (wb1 && (0 <? n1)) eqn:T1.
  { eapply swap_idle_l. intros w' c'. apply sn_step_count. exact T1. }
  destruct (wb2 && (0 <? n2)) eqn:T2.
  { eapply swap_idle_r. intros w' c'. apply sn_step_count. exact T2. }
  unfold sn2. rewrite !sn_step_l3 by assumption. rewrite T1, T2.
  destruct (l3_locked k (ck_addr k1)) eqn:L1, (l3_locked k (ck_addr k2)) eqn:L2; cbn [negb bind fst snd].
  - (* both take their last step *)
    pose proof (l3data_comm wb1 wb2 mem l3 _ _ W3 A1 A2 NE) as DC. unfold l3data2 in DC.
    destruct (l3data wb1 mem l3 (ck_addr k1)) as [d1| e1 |] eqn:D1; cbn [bind fst snd] in *;
    destruct (l3data wb2 mem l3 (ck_addr k2)) as [d2| e2 |] eqn:D2; cbn [bind fst snd] in *;
      try (exfalso; eapply l3data_no_err; eassumption).
    + rewrite !sn_step_l3 by (eapply l3data_wf; [|eassumption]; assumption).
      rewrite T1, T2, !l3_locked_l3msi, L1, L2 by assumption. cbn [negb].
      rewrite DC.
      destruct (l3data wb1 (fst d2) (snd d2) (ck_addr k1)) as [d| e |]; cbn [bind fst snd orel_sw]; [|reflexivity|exact I].
      apply swapped_intro; cbn [w_mem w_l3 w_msi]; try reflexivity.
      apply equiv_last_last; assumption.
    + rewrite sn_step_l3 by (eapply l3data_wf; [|eassumption]; assumption).
      rewrite T2, l3_locked_l3msi, L2 by assumption. cbn [negb]. rewrite DC. exact I.
    + rewrite sn_step_l3 by (eapply l3data_wf; [|eassumption]; assumption).
      rewrite T1, l3_locked_l3msi, L1 by assumption. cbn [negb]. rewrite <- DC. exact I.
    + exact I.
  - (* x takes its last step, y takes its mutex *)
    rewrite (sn_step_l3 wb1) by assumption. rewrite T1, l3_locked_setlock, L1 by assumption. cbn [negb].
    destruct (l3data wb1 mem l3 (ck_addr k1)) as [d1| e1 |] eqn:D1; cbn [bind fst snd orel_sw]; [|reflexivity|exact I].
    rewrite sn_step_l3 by (eapply l3data_wf; [|eassumption]; assumption).
    rewrite T2, l3_locked_l3msi, L2 by assumption. cbn [negb bind fst snd orel_sw].
    apply swapped_intro; cbn [w_mem w_l3 w_msi]; try reflexivity.
    apply msi_equiv_sym. apply equiv_lock_last; assumption.
  - (* x takes its mutex, y takes its last step *)
    rewrite (sn_step_l3 wb2) by assumption. rewrite T2, l3_locked_setlock, L2 by assumption. cbn [negb].
    destruct (l3data wb2 mem l3 (ck_addr k2)) as [d2| e2 |] eqn:D2; cbn [bind fst snd orel_sw]; [|reflexivity|exact I].
    rewrite sn_step_l3 by (eapply l3data_wf; [|eassumption]; assumption).
    rewrite T1, l3_locked_l3msi, L1 by assumption. cbn [negb bind fst snd orel_sw].
    apply swapped_intro; cbn [w_mem w_l3 w_msi]; try reflexivity.
    apply equiv_lock_last; assumption.
  - (* both take their mutex *)
    rewrite (sn_step_l3 wb2), (sn_step_l3 wb1) by assumption.
    rewrite T1, T2, !l3_locked_setlock, L1, L2 by assumption.
    cbn [negb bind fst snd orel_sw]. apply swapped_intro; cbn [w_mem w_l3 w_msi]; try reflexivity.
    apply equiv_lock_lock; assumption.
Qed.

Theorem swap_E3_E3 : forall k1 c1 k2 c2, sn_swap_stmt (SnL3Evict k1 c1) (SnL3Evict k2 c2).
Proof. intros k1 c1 k2 c2. exact (swap_l3 false k1 c1 0 false k2 c2 0). Qed.

Theorem swap_E3_W3 : forall k1 c1 k2 c2 n, sn_swap_stmt (SnL3Evict k1 c1) (SnL3WriteBack k2 c2 n).
Proof. intros k1 c1 k2 c2 n. exact (swap_l3 false k1 c1 0 true k2 c2 n). Qed.

Theorem swap_W3_E3 : forall k1 c1 n k2 c2, sn_swap_stmt (SnL3WriteBack k1 c1 n) (SnL3Evict k2 c2).
Proof. intros k1 c1 n k2 c2. exact (swap_l3 true k1 c1 n false k2 c2 0). Qed.

Theorem swap_W3_W3 : forall k1 c1 n1 k2 c2 n2, sn_swap_stmt (SnL3WriteBack k1 c1 n1) (SnL3WriteBack k2 c2 n2).
Proof. intros k1 c1 n1 k2 c2 n2. exact (swap_l3 true k1 c1 n1 true k2 c2 n2). Qed.

Print Assumptions swap_E3_E3.
Print Assumptions swap_E3_W3.
Print Assumptions swap_W3_E3.
Print Assumptions swap_W3_W3.
