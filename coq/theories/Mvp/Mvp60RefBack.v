(* Refinement of MVP-6.0 to the sequential machine on register-only programs
   (straight-line segments between flushes): the back end.  The in-flight instructions are
   read off the machine state (execute bus, execute units that hold a runner, write bus);
   the control unit, the execute units - idle units execute at once, branches and jumps
   included - and the write units, also in the write-back loop before a flush, keep the
   invariant BackSem / BackSemW of Mvp60RefSem.v about them. *)
From Coq Require Import ZArith List Bool Lia Permutation.
From Maj Require Import Base.Outcome Base.GoInt Base.GoTypes Isa.Spec Isa.Embed Isa.Seq Isa.Refine.
From Maj Require Import Gen.Latency Gen.RiscTables Gen.Opcodes Comp.Cache.
From Maj Require Import Mvp.Mvp12 Mvp.Mvp12Proofs Mvp.Mvp3 Mvp.Mvp3Proofs Mvp.Mvp4Skel Mvp.Mvp4Inv Mvp.Mvp5 Mvp.Mvp60
     Mvp.Mvp60RefSem Mvp.Mvp60RefDefs Mvp.Mvp60RefFront.
Import ListNotations.
Open Scope Z_scope.

(* the control unit as a list of dispatches (no invariant involved) *)

(* pushRunner + AddPendingRegisters *)
Definition disp1 (m : mach) (c : Z) (r : runner) : mach :=
  add_pending6 (set_ebus m (bb_add (m_ebus m) r c)) (instr_ReadRegisters (r_instr r)) (instr_WriteRegisters (r_instr r)).
Definition dispN (m : mach) (c : Z) (l : list runner) : mach := fold_left (fun m r => disp1 m c r) l m.

Fixpoint pushable (m : mach) (c pushed : Z) (pre : list runner) : Prop :=
  match pre with
  | [] => True
  | r :: t => handle_runner m c pushed r = (true, false, disp1 m c r) /\ pushable (disp1 m c r) c (pushed + 1) t
  end.

Lemma handle_cases m c pushed r :
  handle_runner m c pushed r = (true, false, disp1 m c r) \/ handle_runner m c pushed r = (false, true, m).
Proof.
  unfold handle_runner, disp1.
  destruct ((instr_InstructionType (r_instr r) =? Ret) && negb (bb_isempty (m_ebus m))); [right; reflexivity|].
  destruct ((0 <? pushed) && InstructionType_IsBranch (instr_InstructionType (r_instr r))); [right; reflexivity|].
  destruct (has_hazard6 m _ _); [right | left]; reflexivity.
Qed.

Lemma dispN_app m c l l' : dispN m c (l ++ l') = dispN (dispN m c l) c l'.
Proof. unfold dispN. apply fold_left_app. Qed.

Lemma pushable_app m c pushed l l' :
  pushable m c pushed l -> pushable (dispN m c l) c (pushed + zlen l) l' -> pushable m c pushed (l ++ l').
Proof.
  revert m pushed. induction l as [|r t IH]; intros m pushed H1 H2; cbn [List.app].
  - cbn [dispN fold_left] in H2. rewrite zlen_nil, Z.add_0_r in H2. exact H2.
  - destruct H1 as [Ha Hb]. split; [exact Ha|]. apply IH; [exact Hb|].
    cbn [dispN fold_left] in H2. rewrite zlen_cons in H2. replace (pushed + 1 + zlen t) with (pushed + (zlen t + 1)) by lia. exact H2.
Qed.

Definition is_nil {A} (l : list A) : bool := match l with [] => true | _ => false end.

Lemma cu_pending_spec' : forall ps kept m c rem pushed,
  exists pre rest, ps = pre ++ rest /\ pushable m c pushed pre /\
    cu_pending ps kept m c rem pushed
    = (negb (is_nil rest), rem - zlen pre, pushed + zlen pre, rev kept ++ rest, dispN m c pre) /\
    (forall r t, rest = r :: t ->
       handle_runner (dispN m c pre) c (pushed + zlen pre) r = (false, true, dispN m c pre)).
Proof.
  induction ps as [|r t IH]; intros kept m c rem pushed.
  - exists [], []. cbn [cu_pending List.app pushable is_nil negb dispN fold_left]. rewrite zlen_nil, app_nil_r, !Z.sub_0_r, Z.add_0_r.
    repeat split. intros r t H. discriminate H.
  - cbn [cu_pending]. destruct (handle_cases m c pushed r) as [E|E]; rewrite E.
    + destruct (IH kept (disp1 m c r) c (rem - 1) (pushed + 1)) as (pre & rest & -> & Hp & Ec & Hr).
      exists (r :: pre), rest. split; [reflexivity|]. split; [split; assumption|]. rewrite Ec, zlen_cons. cbn [dispN fold_left].
      replace (rem - (zlen pre + 1)) with (rem - 1 - zlen pre) by lia.
      replace (pushed + (zlen pre + 1)) with (pushed + 1 + zlen pre) by lia.
      split; [reflexivity|]. exact Hr.
    + exists [], (r :: t). cbn [List.app pushable is_nil negb dispN fold_left rev]. rewrite zlen_nil, !Z.sub_0_r, Z.add_0_r, <- app_assoc.
      repeat split. intros r0 t0 E0. injection E0 as <- <-. exact E.
Qed.

(* the loop over the control bus: either it runs dry / out of slots, or the first runner that
   cannot be pushed moves to the pending queue *)
Lemma cu_incoming_spec' : forall q pend m c rem pushed, zlen pend < pendingLength ->
  exists pre rest, q = pre ++ rest /\ pushable m c pushed pre /\ zlen pre <= Z.max rem 0 /\
    ((cu_incoming q pend m c rem pushed = (rest, pend, dispN m c pre) /\ (rest = [] \/ rem - zlen pre <= 0)) \/
     (exists r q', rest = r :: q' /\ 0 < rem - zlen pre /\
        handle_runner (dispN m c pre) c (pushed + zlen pre) r = (false, true, dispN m c pre) /\
        cu_incoming q pend m c rem pushed = (q', pend ++ [r], dispN m c pre))).
Proof.
  induction q as [|r q IH]; intros pend m c rem pushed Hpend.
  - exists [], []. cbn [List.app pushable dispN fold_left]. rewrite zlen_nil. repeat split; [lia|].
    left. split; [|left; reflexivity]. cbn [cu_incoming]. destruct (negb _); reflexivity.
  - cbn [cu_incoming].
    assert (Hfull : (pendingLength <=? zlen pend) = false) by (apply Z.leb_gt; exact Hpend). rewrite Hfull. cbn [negb].
    rewrite andb_true_r. destruct (Z.ltb_spec 0 rem) as [Hrem|Hrem]; cbn [negb].
    2:{ exists [], (r :: q). cbn [List.app pushable dispN fold_left]. rewrite zlen_nil. repeat split; [lia|].
        left. split; [reflexivity | right; lia]. }
    destruct (handle_cases m c pushed r) as [E|E]; rewrite E.
    + destruct (IH pend (disp1 m c r) c (rem - 1) (pushed + 1) Hpend) as (pre & rest & -> & Hp & Hlen & Hcase).
      exists (r :: pre), rest. split; [reflexivity|]. split; [split; assumption|]. rewrite zlen_cons. split; [lia|].
      cbn [dispN fold_left]. replace (rem - (zlen pre + 1)) with (rem - 1 - zlen pre) by lia.
      replace (pushed + (zlen pre + 1)) with (pushed + 1 + zlen pre) by lia. exact Hcase.
    + exists [], (r :: q). cbn [List.app pushable dispN fold_left]. rewrite zlen_nil. repeat split; [lia|].
      right. exists r, q. rewrite Z.sub_0_r, Z.add_0_r. repeat split; [exact Hrem | exact E].
Qed.

(* projections of a dispatched machine *)
Lemma disp1_proj m c r :
  m_regs (disp1 m c r) = m_regs m /\ m_mem (disp1 m c r) = m_mem m /\ m_l1i (disp1 m c r) = m_l1i m /\
  m_l3 (disp1 m c r) = m_l3 m /\ m_pend (disp1 m c r) = m_pend m /\ m_fu (disp1 m c r) = m_fu m /\
  m_dret (disp1 m c r) = m_dret m /\ m_dpbr (disp1 m c r) = m_dpbr m /\ m_cu (disp1 m c r) = m_cu m /\
  m_bu (disp1 m c r) = m_bu m /\ m_dbus (disp1 m c r) = m_dbus m /\ m_cbus (disp1 m c r) = m_cbus m /\
  m_wbus (disp1 m c r) = m_wbus m /\ m_ebus (disp1 m c r) = bb_add (m_ebus m) r c.
Proof. repeat split. Qed.

Lemma dispN_proj c l : forall m,
  m_regs (dispN m c l) = m_regs m /\ m_mem (dispN m c l) = m_mem m /\ m_l1i (dispN m c l) = m_l1i m /\
  m_l3 (dispN m c l) = m_l3 m /\ m_pend (dispN m c l) = m_pend m /\ m_fu (dispN m c l) = m_fu m /\
  m_dret (dispN m c l) = m_dret m /\ m_dpbr (dispN m c l) = m_dpbr m /\ m_cu (dispN m c l) = m_cu m /\
  m_bu (dispN m c l) = m_bu m /\ m_dbus (dispN m c l) = m_dbus m /\ m_cbus (dispN m c l) = m_cbus m /\
  m_wbus (dispN m c l) = m_wbus m /\ m_ebus (dispN m c l) = bus_push (m_ebus m) (c + 1) l.
Proof.
  induction l as [|r t IH]; intros m.
  - cbn [dispN fold_left]. rewrite bus_push_nil. repeat split.
  - cbn [dispN fold_left]. fold (dispN (disp1 m c r) c t). destruct (IH (disp1 m c r)) as (H1&H2&H3&H4&H5&H6&H7&H8&H9&H10&H11&H12&H13&H14).
    rewrite H1,H2,H3,H4,H5,H6,H7,H8,H9,H10,H11,H12,H13,H14. repeat split.
    unfold disp1, add_pending6, set_sb, set_ebus, bus_push, bb_add, stamped. cbn [m_ebus bb_buf bb_q bb_ql bb_bl map].
    rewrite <- app_assoc. reflexivity.
Qed.

(* controlUnit.cycle.  The weights 6, 7 and 5 of its queue, of the queue of the control bus and
   of the buffer of the execute bus are those of the potential phiM of Mvp60RefStep.v: a runner
   that moves one station forward lowers the sum *)
Lemma cu_cycle_spec c m : (length (m_cu m) <= 1)%nat -> bb_bl (m_ebus m) = 2 -> blen (m_ebus m) <= 2 ->
  (bb_canadd (m_ebus m) = false /\ cu_cycle6 c m = m) \/
  (bb_canadd (m_ebus m) = true /\
   exists pre cu' q',
     m_cu m ++ bb_q (m_cbus m) = pre ++ cu' ++ q' /\ pushable m c 0 pre /\
     (length cu' <= 1)%nat /\ zlen pre <= 2 - blen (m_ebus m) /\
     cu_cycle6 c m = set_cu (set_cbus (dispN m c pre)
                                      (mk_bb (bb_buf (m_cbus m)) q' (bb_ql (m_cbus m)) (bb_bl (m_cbus m)))) cu' /\
     6 * zlen cu' + 7 * zlen q' + 5 * zlen pre <= 6 * zlen (m_cu m) + 7 * zlen (bb_q (m_cbus m)) /\
     (6 * zlen cu' + 7 * zlen q' + 5 * zlen pre < 6 * zlen (m_cu m) + 7 * zlen (bb_q (m_cbus m)) \/
      (m_cu m = [] /\ bb_q (m_cbus m) = []) \/
      (exists r t, m_cu m = r :: t /\ handle_runner m c 0 r = (false, true, m)))).
Proof.
  intros Hcu Hbl Hblen. unfold cu_cycle6. destruct (bb_canadd (m_ebus m)) eqn:Eadd; cbn [negb]; [right | left; auto].
  split; [reflexivity|].
  assert (Hrem : 0 < bb_remaining (m_ebus m) <= 2 - blen (m_ebus m)).
  { unfold bb_remaining, bb_canadd, blen in *. apply negb_true_iff, Z.eqb_neq in Eadd. lia. }
  destruct (cu_pending_spec' (m_cu m) [] m c (bb_remaining (m_ebus m)) 0) as (pre1 & rest1 & E1 & Hp1 & Ec1 & Hb1).
  rewrite Ec1. cbn [rev List.app]. destruct rest1 as [|r1 t1]; cbn [is_nil negb].
  - (* the pending queue was emptied: go on with the control bus *)
    rewrite app_nil_r in E1.
    destruct (dispN_proj c pre1 m) as (_&_&_&_&_&_&_&_&_&_&_&Hcb&_&_). rewrite Hcb.
    assert (Hl1 : zlen pre1 <= 1) by (rewrite <- E1; unfold zlen; lia).
    destruct (cu_incoming_spec' (bb_q (m_cbus m)) [] (dispN m c pre1) c (bb_remaining (m_ebus m) - zlen pre1) (0 + zlen pre1)
                ltac:(rewrite (@zlen_nil runner); unfold pendingLength; lia)) as (pre2 & rest2 & E2 & Hp2 & Hl2 & Hcase).
    pose proof (zlen_nonneg pre1). pose proof (zlen_nonneg pre2).
    destruct Hcase as [(Ei & Hstop) | (r & q' & Er & Hpos & Hblk & Ei)]; rewrite Ei.
    + exists (pre1 ++ pre2), [], rest2. rewrite <- dispN_app. destruct (dispN_proj c (pre1 ++ pre2) m) as (_&_&_&_&_&_&_&_&_&_&_&Hcb2&_&_).
      rewrite Hcb2. rewrite E1, E2, <- app_assoc. cbn [List.app length].
      split; [reflexivity|]. split; [apply pushable_app; assumption|]. split; [lia|].
      rewrite !zlen_app, (@zlen_nil runner). split; [lia|]. split; [reflexivity|]. split; [lia|].
      destruct (Z.eq_dec (zlen pre1 + zlen pre2) 0) as [Ez|Enz]; [|left; lia].
      right. left. assert (zlen pre1 = 0) by lia. assert (zlen pre2 = 0) by lia.
      rewrite (zlen_zero pre1), (zlen_zero pre2) in * by assumption. cbn [List.app] in *. split; [reflexivity|].
      rewrite (@zlen_nil runner) in *. destruct Hstop as [Hx|Hx]; [exact Hx | lia].
    + exists (pre1 ++ pre2), [r], q'. rewrite <- dispN_app. destruct (dispN_proj c (pre1 ++ pre2) m) as (_&_&_&_&_&_&_&_&_&_&_&Hcb2&_&_).
      rewrite Hcb2. rewrite E1, E2, Er, <- app_assoc. cbn [List.app length].
      split; [reflexivity|]. split; [apply pushable_app; assumption|]. split; [lia|].
      rewrite !zlen_app, !zlen_cons, (@zlen_nil runner). split; [lia|]. split; [reflexivity|]. split; [lia|]. left. lia.
  - (* stopped inside the pending queue *)
    assert (Hlen : (length pre1 + length (r1 :: t1) <= 1)%nat) by (rewrite <- app_length, <- E1; exact Hcu).
    cbn [length] in Hlen. assert (pre1 = []) by (destruct pre1; [reflexivity | cbn [length] in Hlen; lia]). subst pre1.
    assert (t1 = []) by (destruct t1; [reflexivity | cbn [length] in Hlen; lia]). subst t1.
    cbn [List.app] in E1. specialize (Hb1 r1 [] eq_refl). cbn [dispN fold_left] in Hb1. rewrite (@zlen_nil runner) in Hb1.
    exists [], [r1], (bb_q (m_cbus m)). rewrite E1. cbn [List.app dispN fold_left length].
    split; [reflexivity|]. split; [exact I|]. split; [lia|]. rewrite (@zlen_nil runner). split; [lia|].
    split; [destruct m; cbn; destruct m_cbus; reflexivity|]. split; [lia|].
    right. right. exists r1, []. split; [reflexivity | exact Hb1].
Qed.

Ltac perm_nat :=
  apply (Permutation_count_occ Nat.eq_dec); intros ?x; rewrite ?count_occ_app; cbn [count_occ];
  rewrite ?count_occ_app; cbn [count_occ];
  repeat match goal with |- context [Nat.eq_dec ?a ?b] => destruct (Nat.eq_dec a b) end; lia.

Definition kr (r : runner) : nat := Z.to_nat (r_pc r / 4).
Definition kw (x : wb6) : nat := Z.to_nat (w_seq x / 4).

Definition eu_prep (e : eu6) : list runner :=
  match e_co e with
  | EPrepare => match e_runner e with Some r => [r] | None => [] end
  | _ => []
  end.
Definition eul (eus : list eu6) : list runner := flat_map eu_prep eus.

Lemma eul_app a b : eul (a ++ b) = eul a ++ eul b.
Proof. unfold eul. apply flat_map_app. Qed.
Lemma eul_cons e t : eul (e :: t) = eu_prep e ++ eul t.
Proof. reflexivity. Qed.

Definition FL (m : mach) (eus : list eu6) : list nat :=
  map kr (flat (m_ebus m)) ++ map kr (eul eus) ++ map kw (flat (m_wbus m)).

Definition etarget (e : effect) : option Z :=
  match e with EGoto a | ELink _ _ a => Some a | _ => None end.

Lemma btb_get_none btb bound pc : Forall (fun e => fst e < bound) btb -> bound <= pc -> btb_get btb pc = None.
Proof.
  induction 1 as [|[p d] t Hp _ IH]; intros Hpc; cbn [btb_get]; [reflexivity|]. cbn [fst] in Hp.
  destruct (Z.eqb_spec p pc); [lia | apply IH; exact Hpc].
Qed.

Lemma btb_update_forall (P : Z * Z -> Prop) pc dest : forall b b', Forall P b -> P (pc, dest) ->
  (forall p d, P (p, d) -> p = pc -> P (p, dest)) -> btb_update b pc dest = Some b' -> Forall P b'.
Proof.
  induction b as [|[p d] t IH]; intros b' Hb Hn Hsame H; cbn [btb_update] in H; [discriminate|].
  inversion Hb as [|x l Hx Ht]; subst. destruct (Z.eqb_spec p pc) as [->|Hne].
  - injection H as <-. constructor; [apply (Hsame pc d Hx eq_refl) | exact Ht].
  - destruct (btb_update t pc dest) as [t'|] eqn:E; [|discriminate]. injection H as <-. constructor; [exact Hx|]. eapply IH; eauto.
Qed.

Lemma btb_add_bound btb bound pc dest : Forall (fun e => fst e < bound) btb -> pc < bound ->
  Forall (fun e => fst e < bound) (btb_add btb pc dest).
Proof.
  intros Hb Hpc. unfold btb_add. destruct (btb_update btb pc dest) as [b'|] eqn:E.
  - eapply btb_update_forall; [exact Hb | exact Hpc | | exact E]. cbn [fst]. intros. lia.
  - destruct (Nat.eqb (length btb) btb_length).
    + apply Forall_app. split; [|constructor; [exact Hpc | constructor]]. destruct btb; [constructor | inversion Hb; assumption].
    + apply Forall_app. split; [exact Hb | constructor; [exact Hpc | constructor]].
Qed.

Section Back.
  (* [base]: start of the current straight-line segment, [regs0]: the registers there;
     N: where the decode unit stops (first ret or unconditional jump at or after base) *)
  Variables (app : list instr) (labels : Z -> option Z) (regs0 mem0 : list Z) (base : nat).
  Hypothesis Happ : wf_app app.
  Hypothesis Hreg : reg_only app = true.
  Hypothesis Hlen0 : (length regs0 <= 32)%nat.
  Hypothesis Hbase : (base <= length app)%nat.
  Let n := length app.
  Let N := stop_from app base.

  Notation sreg := (sreg app labels regs0 base).
  Notation eff := (eff app labels regs0 base).
  Notation rn := (rn app).
  Notation ik := (ik app).
  Notation wsl := (wsl app).
  Notation rsl := (rsl app).
  Notation BackSem := (BackSem app labels regs0 base).

  (* along the fall-through path of the segment, up to the instruction at which the decode
     unit stops, no instruction fails, and control transfers go forward, to an aligned
     address in the text or just behind it *)
  Hypothesis Hsem : forall k, (base <= k <= N)%nat -> (k < n)%nat ->
    exec (sinstr_of (ik k)) (rget (sreg k)) labels (pcz k) [] = Ok (eff k) /\
    (forall a, etarget (eff k) = Some a -> exists t, a = pcz t /\ (k < t <= n)%nat).

  Definition wbn (k : nat) : wb6 :=
    mk_wb6 (pcz k) (embed (eff k)) (instr_ReadRegisters (ik k)) (instr_WriteRegisters (ik k)).

  Lemma kr_rn k : kr (rn k) = k.
  Proof. unfold kr, Mvp60RefFront.rn. cbn [r_pc]. rewrite pcz_div. apply Nat2Z.id. Qed.
  Lemma kw_wbn k : kw (wbn k) = k.
  Proof. unfold kw, wbn. cbn [w_seq]. rewrite pcz_div. apply Nat2Z.id. Qed.

  Lemma ik_nomem k : nomem (ik k) = true.
  Proof.
    unfold Mvp60RefSem.ik. destruct (Nat.lt_ge_cases k n) as [H|H].
    - unfold reg_only in Hreg. rewrite forallb_forall in Hreg. apply Hreg. apply nth_In. exact H.
    - rewrite nth_overflow by exact H. reflexivity.
  Qed.

  Lemma N_le_n : (N <= n)%nat. Proof. apply stop_from_le. exact Hbase. Qed.
  Lemma base_le_N : (base <= N)%nat. Proof. apply stop_from_ge. Qed.

  Lemma ret_slots k : is_ret (ik k) = true -> rsl k = [] /\ wsl k = [].
  Proof.
    intros H. destruct (is_ret_regs _ H) as [A B]. unfold Mvp60RefSem.rsl, Mvp60RefSem.wsl.
    rewrite A, B. auto.
  Qed.

  (* facts about the effect of an instruction of the segment *)
  Lemma eff_ret k : (base <= k <= N)%nat -> (k < n)%nat -> (eff k = EReturn <-> is_ret (ik k) = true).
  Proof. intros H1 H2. destruct (Hsem k H1 H2) as [He _]. eapply exec_return_is_ret. exact He. Qed.

  Lemma eff_nostore k bs : (base <= k <= N)%nat -> (k < n)%nat -> eff k <> EStore bs.
  Proof. intros H1 H2 E. destruct (Hsem k H1 H2) as [He _]. rewrite E in He. exact (nomem_no_store _ _ _ _ _ _ (ik_nomem k) He). Qed.

  Lemma eff_kind k : (base <= k <= N)%nat -> (k < n)%nat ->
    match eff k with
    | EReg _ _ | EFall => is_jump (ik k) = false
    | EGoto _ => is_jump (ik k) = true \/ (is_jump (ik k) = false /\ condbr (ik k) = true)
    | ELink _ _ _ => is_jump (ik k) = true
    | _ => True
    end.
  Proof. intros H1 H2. destruct (Hsem k H1 H2) as [He _]. exact (exec_branch_class _ _ _ _ _ _ He). Qed.

  Lemma eff_writes k s : (base <= k <= N)%nat -> (k < n)%nat -> In s (wsl k) -> eff_writes_reg (eff k).
  Proof.
    intros H1 H2 Hs. destruct (Hsem k H1 H2) as [He _]. pose proof (spec_writes_sound _ _ _ _ _ _ He) as Hw.
    unfold Mvp60RefSem.wsl in Hs. rewrite write_registers_exact in Hs.
    destruct (eff k); try (rewrite Hw in Hs; destruct Hs); [left | right]; eauto.
  Qed.

  Lemma pcz_int32 k : (k < n)%nat -> int32 (pcz k).
  Proof. intros H. pose proof (n_small app Happ). apply int32_bounds. unfold pcz. fold n in H0. lia. Qed.

  Lemma ik_imm k : (k < n)%nat -> int32 (imm_of (sinstr_of (ik k))).
  Proof. intros H. destruct Happ as [Hf _]. rewrite Forall_forall in Hf. apply Hf. apply nth_In. exact H. Qed.

  (* an instruction in flight, whenever it runs, computes its sequential effect *)
  Lemma run_ok d rg pw pr F k : BackSem d rg pw pr F -> In k F -> (k < n)%nat ->
    instr_Run (ik k) (rget rg) labels (pcz k) [] 0
    = omap embed (exec (sinstr_of (ik k)) (rget (sreg k)) labels (pcz k) []).
  Proof.
    intros HB Hin Hk.
    assert (Hrr : forall r, int32 (rget rg r)) by (intros r; apply rget_int32; apply (bw_r32 _ _ _ _ _ _ _ (bs_w _ _ _ _ _ _ _ _ _ HB))).
    rewrite (run_refines_spec (rget rg) labels (pcz k) [] 0 Hrr (ik k) (ik_imm k Hk) (nomem_mem_ok _ (ik_nomem k))).
    rewrite (bs_exec app labels regs0 base Hlen0 d rg pw pr F k HB Hin). reflexivity.
  Qed.

  Definition RunOK (d : nat) (r : runner) : Prop :=
    exists k, (base <= k < d)%nat /\ (k <= N)%nat /\ (k < n)%nat /\ r = rn k.
  Definition WbOK (d : nat) (x : wb6) : Prop :=
    exists k, (base <= k < d)%nat /\ (k <= N)%nat /\ (k < n)%nat /\ is_ret (ik k) = false /\ x = wbn k.
  Definition EuOK (d : nat) (e : eu6) : Prop :=
    e_memory e = [] /\ (e_co e = ENone \/ (e_co e = EPrepare /\ exists r, e_runner e = Some r /\ RunOK d r)).

  Record BackI (d : nat) (m : mach) (eus : list eu6) : Prop := mkBI {
    bi_e : Forall (RunOK d) (flat (m_ebus m));
    bi_u : Forall (EuOK d) eus;
    bi_w : Forall (WbOK d) (flat (m_wbus m));
    bi_sem : BackSem d (m_regs m) (m_pw m) (m_pr m) (FL m eus);
    bi_mem : m_mem m = mem0;
    bi_l3 : lines (m_l3 m) = [];
    (* handleRunner dispatches a ret only into an empty execute bus, and nothing after it *)
    bi_rete : d = S N -> is_ret (ik N) = true -> flat (m_ebus m) = [] \/ flat (m_ebus m) = [rn N] }.

  Lemma BackI_ext d m m' eus :
    flat (m_ebus m') = flat (m_ebus m) -> flat (m_wbus m') = flat (m_wbus m) ->
    m_regs m' = m_regs m -> m_pw m' = m_pw m -> m_pr m' = m_pr m -> m_mem m' = m_mem m -> m_l3 m' = m_l3 m ->
    BackI d m eus -> BackI d m' eus.
  Proof.
    intros E1 E2 E3 E4 E5 E6 E7 [H1 H2 H3 H4 H5 H6 H7].
    constructor; unfold FL in *; rewrite ?E1, ?E2, ?E3, ?E4, ?E5, ?E6, ?E7; assumption.
  Qed.

  Lemma RunOK_mono d d' r : (d <= d')%nat -> RunOK d r -> RunOK d' r.
  Proof. intros H (k & A & B). exists k. split; [lia | exact B]. Qed.
  Lemma WbOK_mono d d' x : (d <= d')%nat -> WbOK d x -> WbOK d' x.
  Proof. intros H (k & A & B). exists k. split; [lia | exact B]. Qed.
  Lemma EuOK_mono d d' e : (d <= d')%nat -> EuOK d e -> EuOK d' e.
  Proof.
    intros H [A [B|(B & r & C & D)]]; split; auto. right. split; [exact B|]. exists r. split; [exact C|].
    eapply RunOK_mono; eassumption.
  Qed.

  Lemma runok_map d l : Forall (RunOK d) l -> l = map rn (map kr l).
  Proof.
    induction 1 as [|r l (k & _ & _ & _ & ->) _ IH]; [reflexivity|]. cbn [map]. rewrite kr_rn. f_equal. exact IH.
  Qed.

  Lemma handle_push_hazard m c p r m1 : handle_runner m c p r = (true, false, m1) ->
    has_hazard6 m (instr_ReadRegisters (r_instr r)) (instr_WriteRegisters (r_instr r)) = false /\
    ((instr_InstructionType (r_instr r) =? Ret) = true -> bb_isempty (m_ebus m) = true) /\
    ((0 <? p) = true -> InstructionType_IsBranch (instr_InstructionType (r_instr r)) = false).
  Proof.
    unfold handle_runner. destruct (instr_InstructionType (r_instr r) =? Ret) eqn:Er; cbn [andb].
    - destruct (bb_isempty (m_ebus m)) eqn:Ee; cbn [negb]; [|discriminate].
      destruct (0 <? p) eqn:Ep; cbn [andb].
      + destruct (InstructionType_IsBranch _) eqn:Eb; [discriminate|]. destruct (has_hazard6 _ _ _); [discriminate|]. auto.
      + destruct (has_hazard6 _ _ _); [discriminate|]. repeat split; auto. discriminate.
    - destruct (0 <? p) eqn:Ep; cbn [andb].
      + destruct (InstructionType_IsBranch _) eqn:Eb; [discriminate|]. destruct (has_hazard6 _ _ _); [discriminate|].
        intros _. repeat split; auto. discriminate.
      + destruct (has_hazard6 _ _ _); [discriminate|]. intros _. repeat split; auto; discriminate.
  Qed.

  Lemma isempty_flat {T} (b : bbus T) : bb_isempty b = true -> flat b = [].
  Proof.
    unfold bb_isempty, flat. intros H. apply andb_prop in H as [A B]. apply Z.eqb_eq in A, B.
    rewrite (zlen_zero _ A), (zlen_zero _ B). reflexivity.
  Qed.

  Lemma disp1_back d m eus c p : BackI d m eus -> (base <= d)%nat -> (d < n)%nat -> (d <= N)%nat ->
    handle_runner m c p (rn d) = (true, false, disp1 m c (rn d)) -> BackI (S d) (disp1 m c (rn d)) eus.
  Proof.
    intros [H1 H2 H3 H4 H5 H6 H7] Hbd Hdn HdN Hh. apply handle_push_hazard in Hh as (Hhz & Hre & _). cbn [Mvp60RefFront.rn r_instr] in Hhz, Hre.
    assert (HFL : Permutation (d :: FL m eus) (FL (disp1 m c (rn d)) eus)).
    { unfold FL, disp1. cbn [add_pending6 set_sb set_ebus m_ebus m_wbus]. rewrite add_flat, map_app. cbn [map]. rewrite kr_rn. perm_nat. }
    constructor.
    - cbn [disp1 add_pending6 set_sb set_ebus m_ebus]. rewrite add_flat. apply Forall_app. split.
      + eapply Forall_impl; [|exact H1]. intros r. apply RunOK_mono. lia.
      + constructor; [|constructor]. exists d. repeat split; auto.
    - eapply Forall_impl; [|exact H2]. intros e. apply EuOK_mono. lia.
    - eapply Forall_impl; [|exact H3]. intros x. apply WbOK_mono. lia.
    - eapply bs_perm; [exact HFL|]. cbn [disp1 add_pending6 set_sb set_ebus m_regs m_pw m_pr].
      pose proof (bs_pwlen _ _ _ _ _ _ _ _ _ H4) as Lw. pose proof (bs_prlen _ _ _ _ _ _ _ _ _ H4) as Lr.
      apply (bs_dispatch app labels regs0 base Hlen0 d (m_regs m) (m_pw m) (m_pr m)); auto.
      + (* hazard_free from the scoreboard check *)
        intros s Hs. destruct (no_hazard_slots m _ _ Lw Lr Hhz s Hs) as [Ha Hb].
        pose proof (cnt_nonneg wsl (FL m eus) s). pose proof (cnt_nonneg rsl (FL m eus) s).
        pose proof (bs_pw _ _ _ _ _ _ _ _ _ H4 s Hs). pose proof (bs_pr _ _ _ _ _ _ _ _ _ H4 s Hs).
        split.
        * intros Hin. specialize (Ha Hin). lia.
        * intros Hin. specialize (Hb Hin). lia.
      + rewrite sb_incr_length. exact Lw.
      + rewrite sb_incr_length. exact Lr.
      + intros s Hs. apply sb_incr_nth. lia.
      + intros s Hs. apply sb_incr_nth. lia.
    - exact H5.
    - exact H6.
    - intros Ed Hret. assert (EdN : d = N) by lia. rewrite EdN in *. right. cbn [disp1 add_pending6 set_sb set_ebus m_ebus]. rewrite add_flat.
      rewrite is_ret_type in Hre. rewrite (isempty_flat _ (Hre Hret)). reflexivity.
  Qed.

  Lemma dispN_back c eus : forall l d m p, pushable m c p (map rn (seq d l)) -> BackI d m eus -> (base <= d)%nat ->
    (d + l <= n)%nat -> (d + l <= S N)%nat -> BackI (d + l) (dispN m c (map rn (seq d l))) eus.
  Proof.
    induction l as [|l IH]; intros d m p Hp HB Hbd Hn HN.
    - cbn [seq map dispN fold_left]. rewrite Nat.add_0_r. exact HB.
    - cbn [seq map dispN fold_left] in *. destruct Hp as [Hh Hp]. fold (dispN (disp1 m c (rn d)) c (map rn (seq (S d) l))).
      replace (d + S l)%nat with (S d + l)%nat by lia. apply (IH (S d) _ (p + 1)); [exact Hp | | lia | lia | lia].
      eapply disp1_back; [exact HB | lia | lia | lia | exact Hh].
  Qed.

  Definition eu_done (e : eu6) : eu6 := mk_eu6 ENone (e_memory e) (e_runner e).

  (* coRun on instruction k: the machine afterwards and what executeUnit.cycle reports *)
  Definition exec_res (m : mach) (cy : Z) (k : nat) : mach * eu_out6 :=
    let exe := embed (eff k) in
    let m1 := bu_assert6 m (rn k) in
    if is_ret (ik k) then (m1, mk_euo6 false 0 0 true) else
    let m2 := set_wbus m1 (bb_add (m_wbus m1) (wbn k) cy) in
    let m3 := if is_jump (ik k) then bu_resolved6 m2 (pcz k) (NextPc exe) else m2 in
    if PcChange exe then
      (set_bu m3 (fst (bu_should_flush6 (m_bu m3) (NextPc exe))),
       if snd (bu_should_flush6 (m_bu m3) (NextPc exe)) then mk_euo6 true (pcz k) (NextPc exe) false else euo_none)
    else (m3, euo_none).

  (* the same report, from the program and the sequential values only *)
  Definition kout (k : nat) : eu_out6 :=
    if is_ret (ik k) then mk_euo6 false 0 0 true else
    match etarget (eff k) with
    | Some a => if is_jump (ik k) || negb (pcz (S k) =? a) then mk_euo6 true (pcz k) a false else euo_none
    | None => euo_none
    end.

  Lemma ret_not_branch i : is_ret i = true -> is_jump i = false /\ condbr i = false.
  Proof. destruct i; try discriminate. auto. Qed.

  Lemma embed_flags k : (base <= k <= N)%nat -> (k < n)%nat ->
    Return (embed (eff k)) = is_ret (ik k) /\ MemoryChange (embed (eff k)) = false /\
    PcChange (embed (eff k)) = (match etarget (eff k) with Some _ => true | None => false end) /\
    (forall a, etarget (eff k) = Some a -> NextPc (embed (eff k)) = a).
  Proof.
    intros H1 H2. pose proof (eff_ret k H1 H2) as Hr. pose proof (eff_nostore k) as Hs.
    assert (Hnr : eff k <> EReturn -> is_ret (ik k) = false).
    { intros Hne. destruct (is_ret (ik k)) eqn:E; [|reflexivity]. exfalso. apply Hne, Hr. reflexivity. }
    destruct (eff k) as [rd v|bs| |a|rd v a|] eqn:Ee; cbn [embed etarget].
    - destruct (reg_pair rd v). cbn. rewrite Hnr by discriminate. repeat split; intros; discriminate.
    - exfalso. exact (Hs bs H1 H2 eq_refl).
    - cbn. rewrite Hnr by discriminate. repeat split; intros; discriminate.
    - cbn. rewrite Hnr by discriminate. repeat split. intros a0 Ha. injection Ha as <-. reflexivity.
    - destruct (reg_pair rd v). cbn. rewrite Hnr by discriminate. repeat split. intros a0 Ha. injection Ha as <-. reflexivity.
    - cbn. rewrite (proj1 Hr eq_refl). repeat split; intros; discriminate.
  Qed.

  Lemma bu_assert_regs m r : m_regs (bu_assert6 m r) = m_regs m /\ m_wbus (bu_assert6 m r) = m_wbus m.
  Proof.
    unfold bu_assert6. destruct (InstructionType_IsUnconditionalBranch _).
    - destruct (btb_get _ _); split; reflexivity.
    - destruct (InstructionType_IsConditionalBranch _); split; reflexivity.
  Qed.

  (* coPrepareRun on a runner that is in flight *)
  Lemma prepare_spec ord cy m e k d pw pr F :
    e_runner e = Some (rn k) -> e_memory e = [] ->
    BackSem d (m_regs m) pw pr F -> In k F -> (base <= k <= N)%nat -> (k < n)%nat ->
    eu_prepare6 labels ord cy m e =
      if negb (bb_canadd (m_wbus m)) then (false, Ok (m, e, euo_none))
      else (false, Ok (fst (exec_res m cy k), eu_done e, snd (exec_res m cy k))).
  Proof.
    intros Hr Hm HB Hin HkN Hkn. unfold eu_prepare6. destruct (bb_canadd (m_wbus m)) eqn:Eadd; cbn [negb]; [|reflexivity].
    rewrite Hr. cbn [Mvp60RefFront.rn r_instr]. rewrite (nomem_no_read _ _ _ (ik_nomem k)).
    unfold eu_run6. rewrite Hr, Hm. cbn [Mvp60RefFront.rn r_instr r_pc].
    destruct (bu_assert_regs m (rn k)) as [Er Ew]. cbn [Mvp60RefFront.rn] in Er, Ew. rewrite Er.
    rewrite (run_ok d (m_regs m) pw pr F k HB Hin Hkn).
    destruct (Hsem k HkN Hkn) as [He _]. rewrite He. cbn [omap].
    destruct (embed_flags k HkN Hkn) as (Hret & Hmc & Hpc & Hnp). rewrite Hmc, andb_false_r. cbn [andb].
    unfold eu_run_exe, exec_res. rewrite Hret, Hmc. cbn [Mvp60RefFront.rn r_instr r_pc r_seq].
    destruct (is_ret (ik k)); [unfold eu_done; rewrite Hm; reflexivity|]. cbn [bind].
    fold (is_jump (ik k)). unfold wbn, eu_done. rewrite Hm. rewrite Ew.
    destruct (PcChange (embed (eff k))); [|reflexivity].
    destruct (bu_should_flush6 _ _) as [b' fl]. reflexivity.
  Qed.

  (* what the execute units leave alone *)
  Record EuFrame (m m1 : mach) : Prop := mkEF {
    ef_regs : m_regs m1 = m_regs m; ef_mem : m_mem m1 = m_mem m; ef_pw : m_pw m1 = m_pw m; ef_pr : m_pr m1 = m_pr m;
    ef_l1i : m_l1i m1 = m_l1i m; ef_l3 : m_l3 m1 = m_l3 m; ef_pend : m_pend m1 = m_pend m;
    ef_dret : m_dret m1 = m_dret m; ef_cu : m_cu m1 = m_cu m;
    ef_dbus : m_dbus m1 = m_dbus m; ef_cbus : m_cbus m1 = m_cbus m;
    ef_ebuf : bb_buf (m_ebus m1) = bb_buf (m_ebus m); ef_eql : bb_ql (m_ebus m1) = bb_ql (m_ebus m);
    ef_ebl : bb_bl (m_ebus m1) = bb_bl (m_ebus m);
    ef_wq : bb_q (m_wbus m1) = bb_q (m_wbus m); ef_wql : bb_ql (m_wbus m1) = bb_ql (m_wbus m);
    ef_wbl : bb_bl (m_wbus m1) = bb_bl (m_wbus m) }.

  Lemma EuFrame_refl m : EuFrame m m.
  Proof. constructor; reflexivity. Qed.
  Lemma EuFrame_trans a b c : EuFrame a b -> EuFrame b c -> EuFrame a c.
  Proof. intros [] []. constructor; congruence. Qed.

  (* what one execution changes.  The BTB is only looked up for a jump, which must not be
     in it; every entry added lies below [bound] *)
  Lemma exec_res_frame m cy k bound : (base <= k <= N)%nat -> (k < n)%nat ->
    (is_jump (ik k) = true -> btb_get (b_btb (m_bu m)) (pcz k) = None) ->
    Forall (fun e => fst e < bound) (b_btb (m_bu m)) -> pcz k < bound ->
    let m' := fst (exec_res m cy k) in
    EuFrame m m' /\ m_ebus m' = m_ebus m /\
    m_wbus m' = (if is_ret (ik k) then m_wbus m else bb_add (m_wbus m) (wbn k) cy) /\
    snd (exec_res m cy k) = kout k /\
    (o_flush (kout k) = false -> m_fu m' = m_fu m /\ m_dpbr m' = m_dpbr m /\ b_btb (m_bu m') = b_btb (m_bu m)) /\
    Forall (fun e => fst e < bound) (b_btb (m_bu m')).
  Proof.
    intros HkN Hkn Hget Hbtb Hkb. cbv zeta.
    destruct (embed_flags k HkN Hkn) as (Hret & Hmc & Hpc & Hnp).
    pose proof (eff_kind k HkN Hkn) as Hkind. destruct (Hsem k HkN Hkn) as [_ Htgt].
    unfold exec_res, kout, bu_assert6. cbn [Mvp60RefFront.rn r_instr r_pc]. fold (is_jump (ik k)). fold (condbr (ik k)).
    destruct (is_ret (ik k)) eqn:Eret.
    { destruct (ret_not_branch _ Eret) as [Ej Ec]. rewrite Ej, Ec. cbn [fst snd set_bu m_regs m_mem m_pw m_pr m_l1i m_l3 m_pend m_dret m_cu m_dbus m_cbus m_ebus m_wbus m_fu m_dpbr m_bu b_btb o_flush].
      repeat split; auto. }
    rewrite Hpc. destruct (is_jump (ik k)) eqn:Ej.
    - (* j / jal: not in the BTB; resolved, flush *)
      rewrite (Hget eq_refl).
      assert (Ht : exists a, etarget (eff k) = Some a).
      { pose proof (eff_nostore k) as Hns. pose proof (eff_ret k HkN Hkn) as Hr.
        destruct (eff k) as [rd v|bs| |a|rd v a|]; cbn [etarget]; eauto; try discriminate Hkind; exfalso.
        - exact (Hns bs HkN Hkn eq_refl).
        - rewrite (proj1 Hr eq_refl) in Eret. discriminate. }
      destruct Ht as (a & Ea). rewrite Ea, (Hnp a Ea). destruct (Htgt a Ea) as (t & -> & Ht).
      cbn [orb]. unfold bu_resolved6, bu_should_flush6.
      cbn [fst snd set_bu set_wbus set_fu set_du m_regs m_mem m_pw m_pr m_l1i m_l3 m_pend m_dret m_cu m_dbus m_cbus m_ebus m_wbus m_fu m_dpbr m_bu b_btb b_check b_expect negb o_flush].
      assert (Hneg : (-1 =? pcz t) = false) by (apply Z.eqb_neq; unfold pcz; lia). rewrite Hneg. cbn [negb].
      repeat split; auto; try discriminate. apply btb_add_bound; assumption.
    - cbn [orb]. destruct (etarget (eff k)) as [a|] eqn:Ea.
      + (* a taken conditional branch *)
        assert (Hc : condbr (ik k) = true).
        { destruct (eff k) as [rd v|bs| |a'|rd v a'|]; cbn [etarget] in Ea; try discriminate; try congruence.
          destruct Hkind as [Hx|[_ Hx]]; [congruence | exact Hx]. }
        rewrite Hc, (Hnp a eq_refl). unfold bu_should_flush6.
        assert (Hadd : addS 32 (pcz k) 4 = pcz (S k)).
        { rewrite pcz_S. unfold addS. apply wrapS_id; [lia|]. pose proof (n_small app Happ). fold n in H. apply int32_bounds. unfold pcz. lia. }
        cbn [fst snd set_bu set_wbus m_regs m_mem m_pw m_pr m_l1i m_l3 m_pend m_dret m_cu m_dbus m_cbus m_ebus m_wbus m_fu m_dpbr m_bu b_btb b_check b_expect negb].
        rewrite Hadd. destruct (pcz (S k) =? a); cbn [negb o_flush euo_none]; repeat split; auto; discriminate.
      + destruct (condbr (ik k));
          cbn [fst snd set_bu set_wbus m_regs m_mem m_pw m_pr m_l1i m_l3 m_pend m_dret m_cu m_dbus m_cbus m_ebus m_wbus m_fu m_dpbr m_bu b_btb o_flush euo_none];
          repeat split; auto.
  Qed.

  (* in particular when the whole BTB lies below the segment *)
  Lemma exec_res_spec m cy k bound : (base <= k <= N)%nat -> (k < n)%nat ->
    Forall (fun e => fst e < pcz base) (b_btb (m_bu m)) -> pcz k < bound -> pcz base <= bound ->
    let m' := fst (exec_res m cy k) in
    m_regs m' = m_regs m /\ m_mem m' = m_mem m /\ m_pw m' = m_pw m /\ m_pr m' = m_pr m /\ m_l1i m' = m_l1i m /\
    m_l3 m' = m_l3 m /\ m_pend m' = m_pend m /\ m_dret m' = m_dret m /\ m_cu m' = m_cu m /\ m_dbus m' = m_dbus m /\
    m_cbus m' = m_cbus m /\ m_ebus m' = m_ebus m /\
    m_wbus m' = (if is_ret (ik k) then m_wbus m else bb_add (m_wbus m) (wbn k) cy) /\
    snd (exec_res m cy k) = kout k /\
    (o_flush (kout k) = false -> m_fu m' = m_fu m /\ m_dpbr m' = m_dpbr m /\ b_btb (m_bu m') = b_btb (m_bu m)) /\
    Forall (fun e => fst e < bound) (b_btb (m_bu m')).
  Proof.
    intros HkN Hkn Hbtb Hkb Hbb.
    assert (Hbtb' : Forall (fun e => fst e < bound) (b_btb (m_bu m))).
    { eapply Forall_impl; [|exact Hbtb]. cbn beta. intros e He. lia. }
    pose proof (exec_res_frame m cy k bound HkN Hkn (fun _ => btb_get_none _ _ (pcz k) Hbtb ltac:(unfold pcz; lia)) Hbtb' Hkb) as H.
    cbv zeta in *. destruct H as ([] & H). repeat split; try assumption; apply H; assumption.
  Qed.

  (* on register-only programs an execute unit never waits for the write bus, so between
     cycles every unit is idle *)

  Definition EuNone (e : eu6) : Prop := e_memory e = [] /\ e_co e = ENone.

  Lemma eul_none eus : Forall EuNone eus -> eul eus = [].
  Proof. induction 1 as [|e t [_ Hc] _ IH]; [reflexivity|]. rewrite eul_cons, IH. unfold eu_prep. rewrite Hc. reflexivity. Qed.

  Lemma EuNone_ok d e : EuNone e -> EuOK d e.
  Proof. intros [A B]. split; [exact A | left; exact B]. Qed.

  Lemma BackI_eus d m eus eus' : Forall EuNone eus -> Forall EuNone eus' -> BackI d m eus -> BackI d m eus'.
  Proof.
    intros H H' [H1 H2 H3 H4 H5 H6 H7]. constructor; auto.
    - eapply Forall_impl; [|exact H']. intros e. apply EuNone_ok.
    - unfold FL in *. rewrite (eul_none _ H) in H4. rewrite (eul_none _ H'). exact H4.
  Qed.

  (* the accumulation of (flush, from, pc, ret) over the units *)
  Definition merge (acc o : eu_out6) : eu_out6 :=
    let take := o_flush o && (negb (o_flush acc) || (o_from o <? o_from acc)) in
    mk_euo6 (o_flush acc || o_flush o) (if take then o_from o else o_from acc)
            (if take then o_pc o else o_pc acc) (o_ret acc || o_ret o).

  Lemma merge_none acc : merge acc euo_none = acc.
  Proof. unfold merge. cbn [euo_none o_flush o_ret andb]. rewrite !orb_false_r. destruct acc; reflexivity. Qed.

  Lemma merge_kout k : merge euo_none (kout k) = kout k.
  Proof.
    unfold merge, kout. destruct (is_ret (ik k)); [reflexivity|]. destruct (etarget (eff k)) as [a|]; [|reflexivity].
    destruct (is_jump (ik k) || negb (pcz (S k) =? a)); reflexivity.
  Qed.

  Definition plain (k : nat) : Prop :=
    is_ret (ik k) = false /\ InstructionType_IsBranch (instr_InstructionType (ik k)) = false.

  Lemma plain_kout k : (base <= k <= N)%nat -> (k < n)%nat -> plain k -> kout k = euo_none.
  Proof.
    intros H1 H2 [Hr Hb]. unfold kout. rewrite Hr. unfold InstructionType_IsBranch in Hb. apply orb_false_iff in Hb as [Hj Hc].
    pose proof (eff_kind k H1 H2) as Hk. fold (is_jump (ik k)) in Hj. fold (condbr (ik k)) in Hc.
    destruct (eff k); cbn [etarget]; try reflexivity; exfalso; [destruct Hk as [Hx|[_ Hx]]|]; congruence.
  Qed.

  Definition notret (k : nat) : bool := negb (is_ret (ik k)).

  (* an idle unit takes instruction x from the head of the execute bus and runs it at once *)
  Lemma eu_exec1 ord cy d m e eus0 x lq bound :
    BackI d m eus0 -> Forall EuNone eus0 -> EuNone e -> BusOK cy (m_wbus m) -> bb_canadd (m_wbus m) = true ->
    (is_jump (ik x) = true -> btb_get (b_btb (m_bu m)) (pcz x) = None) ->
    Forall (fun en => fst en < bound) (b_btb (m_bu m)) -> ((x < d)%nat -> pcz x < bound) ->
    bb_q (m_ebus m) = map rn (seq x (S lq)) ->
    exists m1 e1, eu_cycle6 labels ord cy m e = (false, Ok (m1, e1, kout x)) /\ EuNone e1 /\
      BackI d m1 eus0 /\ BusOK cy (m_wbus m1) /\ EuFrame m m1 /\
      bb_q (m_ebus m1) = map rn (seq (S x) lq) /\
      bb_buf (m_wbus m1) = bb_buf (m_wbus m) ++ (if is_ret (ik x) then [] else [(cy + 1, wbn x)]) /\
      (base <= x < d)%nat /\ (x <= N)%nat /\ (x < n)%nat /\
      (o_flush (kout x) = false -> m_fu m1 = m_fu m /\ m_dpbr m1 = m_dpbr m /\ b_btb (m_bu m1) = b_btb (m_bu m)) /\
      Forall (fun en => fst en < bound) (b_btb (m_bu m1)) /\
      (is_ret (ik x) = true -> ~ In x (FL m1 eus0)).
  Proof.
    intros HB H0 [Hmem Hco] HW Hadd Hget Hbtb Hbd Hq. pose proof HB as [H1 H2 H3 H4 H5 H6 H7].
    unfold eu_cycle6. rewrite Hco. unfold bb_get. rewrite Hq. cbn [seq map].
    set (ma := set_ebus m (mk_bb (bb_buf (m_ebus m)) (map rn (seq (S x) lq)) (bb_ql (m_ebus m)) (bb_bl (m_ebus m)))).
    set (ea := mk_eu6 EPrepare (e_memory e) (Some (rn x))).
    assert (Hflat : flat (m_ebus m) = rn x :: flat (m_ebus ma)).
    { unfold flat, ma. cbn [set_ebus m_ebus bb_q bb_buf]. rewrite Hq. reflexivity. }
    assert (Hr : RunOK d (rn x)) by (rewrite Hflat in H1; inversion H1; assumption).
    destruct Hr as (k & Hkd & HkN & Hkn & Ek). assert (k = x) by (apply (f_equal kr) in Ek; rewrite !kr_rn in Ek; congruence). subst k.
    assert (HinF : In x (FL m eus0)) by (unfold FL; rewrite Hflat; cbn [map List.app]; rewrite kr_rn; left; reflexivity).
    rewrite (prepare_spec ord cy ma ea x d (m_pw m) (m_pr m) (FL m eus0) eq_refl Hmem H4 HinF ltac:(lia) Hkn).
    change (m_wbus ma) with (m_wbus m). rewrite Hadd. cbn [negb].
    assert (Hxb : pcz x < bound) by (apply Hbd; lia).
    pose proof (exec_res_frame ma cy x bound ltac:(lia) Hkn Hget Hbtb Hxb) as Hspec. cbv zeta in Hspec.
    destruct Hspec as (Hfr & S12 & S13 & S14 & S15 & S16). change (m_wbus ma) with (m_wbus m) in S13.
    assert (HF : EuFrame m (fst (exec_res ma cy x))) by (apply (EuFrame_trans _ ma); [constructor; reflexivity | exact Hfr]).
    pose proof HF as [S1 S2 S3 S4 _ S6 _ _ _ _ _ _ _ _ _ _ _].
    exists (fst (exec_res ma cy x)), (eu_done ea).
    rewrite S14. split; [reflexivity|]. split; [split; [exact Hmem | reflexivity]|].
    set (m1 := fst (exec_res ma cy x)) in *.
    assert (Hfe : flat (m_ebus m1) = flat (m_ebus ma)) by (rewrite S12; reflexivity).
    assert (Hrs : is_ret (ik x) = true -> rsl x = [] /\ wsl x = []) by apply ret_slots.
    assert (HB1 : BackI d m1 eus0 /\ (is_ret (ik x) = true -> ~ In x (FL m1 eus0))).
    { destruct (is_ret (ik x)) eqn:Eret.
      - assert (HFL : Permutation (FL m eus0) (x :: FL m1 eus0)).
        { unfold FL. rewrite Hfe, S13, Hflat. cbn [map List.app]. rewrite kr_rn. apply Permutation_refl. }
        assert (HS : BackSem d (m_regs m) (m_pw m) (m_pr m) (x :: FL m1 eus0)) by (eapply bs_perm; [exact HFL | exact H4]).
        split.
        + constructor; rewrite ?Hfe, ?S13, ?S1, ?S2, ?S3, ?S4, ?S6; auto.
          * rewrite Hflat in H1. inversion H1; assumption.
          * destruct (Hrs eq_refl) as [A B]. eapply bs_drop; [exact HS | exact B | exact A].
          * intros Ed Hr'. left. destruct (H7 Ed Hr') as [Hx|Hx]; rewrite Hflat in Hx; [discriminate | apply (f_equal (@tl runner)) in Hx; exact Hx].
        + intros _. pose proof (bw_nodup _ _ _ _ _ _ _ (bs_w _ _ _ _ _ _ _ _ _ HS)) as Hnd. inversion Hnd; assumption.
      - assert (HFL : Permutation (FL m eus0) (FL m1 eus0)).
        { unfold FL. rewrite Hfe, S13, Hflat, add_flat, !map_app. cbn [map List.app]. rewrite kr_rn, kw_wbn. perm_nat. }
        split; [|discriminate].
        constructor; rewrite ?Hfe, ?S13, ?S1, ?S2, ?S3, ?S4, ?S6; auto.
        * rewrite Hflat in H1. inversion H1; assumption.
        * rewrite add_flat. apply Forall_app. split; [exact H3|]. constructor; [|constructor]. exists x. repeat split; auto; lia.
        * eapply bs_perm; [exact HFL | exact H4].
        * intros Ed Hr'. left. destruct (H7 Ed Hr') as [Hx|Hx]; rewrite Hflat in Hx; [discriminate | apply (f_equal (@tl runner)) in Hx; exact Hx]. }
    destruct HB1 as [HB1 Hnot].
    split; [exact HB1|]. split.
    { rewrite S13. destruct (is_ret (ik x)); [exact HW | apply add_ok; exact HW]. }
    split; [exact HF|].
    split; [rewrite S12; reflexivity|].
    split; [rewrite S13; destruct (is_ret (ik x)); [rewrite app_nil_r; reflexivity | reflexivity]|].
    split; [lia|]. split; [exact HkN|]. split; [exact Hkn|]. split; [exact S15|]. split; [exact S16 | exact Hnot].
  Qed.

  Lemma eu_idle ord cy m e : EuNone e -> bb_q (m_ebus m) = [] -> eu_cycle6 labels ord cy m e = (false, Ok (m, e, euo_none)).
  Proof. intros [_ Hc] Hq. unfold eu_cycle6, bb_get. rewrite Hc, Hq. reflexivity. Qed.

  Lemma canadd_lt {T} (b : bbus T) : bb_bl b = 2 -> blen b < 2 -> bb_canadd b = true.
  Proof. intros Hbl Hb. unfold bb_canadd, blen in *. rewrite Hbl. apply negb_true_iff, Z.eqb_neq. lia. Qed.

  (* the units after the first one: they execute plain instructions (no branch, no ret) *)
  Lemma eus_plain ord cy d eus0 bound : forall eus m acc x lq,
    Forall EuNone eus -> Forall EuNone eus0 -> BackI d m eus0 -> BusOK cy (m_wbus m) ->
    blen (m_wbus m) + Z.of_nat (Nat.min (length eus) lq) <= 2 ->
    Forall (fun en => fst en < bound) (b_btb (m_bu m)) -> pcz d <= bound ->
    bb_q (m_ebus m) = map rn (seq x lq) ->
    (forall k, (x <= k < x + Nat.min (length eus) lq)%nat -> plain k) ->
    exists m' eus',
      eus_cycle labels ord cy false m eus acc = (false, Ok (m', eus', acc)) /\
      Forall EuNone eus' /\ length eus' = length eus /\ BackI d m' eus0 /\ BusOK cy (m_wbus m') /\ EuFrame m m' /\
      bb_q (m_ebus m') = map rn (seq (x + Nat.min (length eus) lq) (lq - Nat.min (length eus) lq)) /\
      bb_buf (m_wbus m') = bb_buf (m_wbus m) ++ map (fun k => (cy + 1, wbn k)) (seq x (Nat.min (length eus) lq)) /\
      m_fu m' = m_fu m /\ m_dpbr m' = m_dpbr m /\ b_btb (m_bu m') = b_btb (m_bu m).
  Proof.
    induction eus as [|e t IH]; intros m acc x lq He H0 HB HW Hcap Hbtb Hbd Hq Hpl.
    - exists m, []. cbn [eus_cycle length Nat.min seq map]. rewrite Nat.add_0_r, Nat.sub_0_r, app_nil_r.
      split; [reflexivity|]. split; [constructor|]. split; [reflexivity|]. split; [exact HB|]. split; [exact HW|].
      split; [apply EuFrame_refl|]. split; [exact Hq|]. repeat split; reflexivity.
    - inversion He as [|? ? He1 He2]; subst. cbn [eus_cycle andb].
      destruct lq as [|lq].
      + (* nothing left in the execute bus *)
        rewrite (eu_idle ord cy m e He1 Hq). fold (merge acc euo_none). rewrite merge_none.
        destruct (IH m acc x O He2 H0 HB HW ltac:(rewrite Nat.min_0_r in *; lia) Hbtb Hbd Hq ltac:(intros k Hk; rewrite Nat.min_0_r in Hk; lia))
          as (m' & t' & E & A1 & A2 & A3 & A4 & A5 & A6 & A7 & A8 & A9 & A10).
        rewrite E. cbn [bind orb]. exists m', (e :: t'). rewrite !Nat.min_0_r in *. cbn [length].
        split; [reflexivity|]. split; [constructor; assumption|]. split; [lia|]. repeat (split; [assumption|]). assumption.
      + cbn [length Nat.min] in Hcap, Hpl.
        assert (Hplx : plain x) by (apply Hpl; lia).
        assert (Hnj : is_jump (ik x) = true -> btb_get (b_btb (m_bu m)) (pcz x) = None).
        { destruct Hplx as [_ Hb]. unfold InstructionType_IsBranch in Hb. apply orb_false_iff in Hb as [Hj _]. unfold is_jump. rewrite Hj. discriminate. }
        assert (Hadd : bb_canadd (m_wbus m) = true) by (apply canadd_lt; [apply (bus_bl _ _ HW) | lia]).
        destruct (eu_exec1 ord cy d m e eus0 x lq bound HB H0 He1 HW Hadd Hnj Hbtb ltac:(intros Hxd; unfold pcz in *; lia) Hq)
          as (m1 & e1 & E1 & B1 & B2 & B3 & B4 & B5 & B6 & B7 & B8 & B9 & B10 & B11 & _).
        rewrite (plain_kout x ltac:(lia) B9 Hplx) in *. rewrite E1. fold (merge acc euo_none). rewrite merge_none.
        destruct (B10 eq_refl) as (C1 & C2 & C3).
        assert (Hb1 : blen (m_wbus m1) <= blen (m_wbus m) + 1).
        { unfold blen. rewrite B6. destruct (is_ret (ik x)); rewrite zlen_app; [rewrite zlen_nil | rewrite zlen_cons, zlen_nil]; lia. }
        destruct (IH m1 acc (S x) lq He2 H0 B2 B3 ltac:(lia) ltac:(rewrite C3; exact Hbtb) Hbd B5 ltac:(intros k Hk; apply Hpl; lia))
          as (m' & t' & E & A1 & A2 & A3 & A4 & A5 & A6 & A7 & A8 & A9 & A10).
        rewrite E. cbn [bind orb]. exists m', (e1 :: t'). cbn [length Nat.min].
        split; [reflexivity|]. split; [constructor; assumption|]. split; [lia|]. split; [exact A3|]. split; [exact A4|].
        split; [eapply EuFrame_trans; eassumption|].
        split; [rewrite A6; f_equal; f_equal; lia|].
        split.
        { rewrite A7, B6. destruct Hplx as [Hr _]. rewrite Hr. cbn [seq map]. rewrite <- app_assoc. reflexivity. }
        split; [congruence|]. split; congruence.
  Qed.

  Lemma eus_skip ord cy m acc : forall eus, Forall EuNone eus -> eus_cycle labels ord cy true m eus acc = (false, Ok (m, eus, acc)).
  Proof.
    induction 1 as [|e t [_ Hc] _ IH]; [reflexivity|]. cbn [eus_cycle]. unfold eu_empty. rewrite Hc. cbn [andb].
    rewrite IH. reflexivity.
  Qed.

  (* for _, eu := range m.executeUnits, all idle: the first takes x (whatever it is), the others plain instructions *)
  Lemma eus_run ord cy d eus0 bound eus m x lq : eus <> [] ->
    Forall EuNone eus -> Forall EuNone eus0 -> BackI d m eus0 -> BusOK cy (m_wbus m) ->
    blen (m_wbus m) + Z.of_nat (Nat.min (length eus) lq) <= 2 ->
    Forall (fun en => fst en < bound) (b_btb (m_bu m)) -> (lq <> O -> pcz x < bound) -> bound <= pcz d ->
    bb_q (m_ebus m) = map rn (seq x lq) ->
    (is_jump (ik x) = true -> btb_get (b_btb (m_bu m)) (pcz x) = None) ->
    (forall k, (x < k < x + Nat.min (length eus) lq)%nat -> plain k) ->
    let j := Nat.min (length eus) lq in
    exists m' eus',
      eus_cycle labels ord cy false m eus euo_none = (false, Ok (m', eus', if (lq =? 0)%nat then euo_none else kout x)) /\
      Forall EuNone eus' /\ length eus' = length eus /\ BackI d m' eus0 /\ BusOK cy (m_wbus m') /\ EuFrame m m' /\
      bb_q (m_ebus m') = map rn (seq (x + j) (lq - j)) /\
      bb_buf (m_wbus m') = bb_buf (m_wbus m) ++ map (fun k => (cy + 1, wbn k)) (filter notret (seq x j)) /\
      (forall k, In k (seq x j) -> (base <= k < d)%nat /\ (k <= N)%nat /\ (k < n)%nat) /\
      ((lq = O \/ o_flush (kout x) = false) -> m_fu m' = m_fu m /\ m_dpbr m' = m_dpbr m /\ b_btb (m_bu m') = b_btb (m_bu m)) /\
      Forall (fun en => fst en < bound) (b_btb (m_bu m')).
  Proof.
    intros Hne He H0 HB HW Hcap Hbtb Hxb Hbd Hq Hget Hpl. cbv zeta.
    assert (Hbtbd : forall b : list (Z * Z), Forall (fun en => fst en < bound) b -> Forall (fun en => fst en < pcz d) b).
    { intros b Hb. eapply Forall_impl; [|exact Hb]. cbn beta. intros en Hen. lia. }
    destruct eus as [|e t]; [contradiction|]. inversion He as [|? ? He1 He2]; subst.
    destruct lq as [|lq].
    - destruct (eus_plain ord cy d eus0 (pcz d) (e :: t) m euo_none x O He H0 HB HW Hcap (Hbtbd _ Hbtb) ltac:(lia) Hq ltac:(intros k Hk; rewrite Nat.min_0_r in Hk; lia))
        as (m' & eus' & E & A1 & A2 & A3 & A4 & A5 & A6 & A7 & A8 & A9 & A10).
      exists m', eus'. rewrite Nat.min_0_r in *. cbn [seq map filter Nat.eqb] in *.
      split; [exact E|]. repeat (split; [assumption|]). split; [intros k []|]. split; [auto|]. rewrite A10; exact Hbtb.
    - cbn [length Nat.min] in Hcap, Hpl |- *. cbn [eus_cycle andb Nat.eqb].
      assert (Hadd : bb_canadd (m_wbus m) = true) by (apply canadd_lt; [apply (bus_bl _ _ HW) | lia]).
      destruct (eu_exec1 ord cy d m e eus0 x lq bound HB H0 He1 HW Hadd Hget Hbtb ltac:(intros _; apply Hxb; discriminate) Hq)
        as (m1 & e1 & E1 & B1 & B2 & B3 & B4 & B5 & B6 & B7 & B8 & B9 & B10 & B11 & B12).
      rewrite E1. fold (merge euo_none (kout x)). rewrite merge_kout.
      assert (Hb1 : blen (m_wbus m1) <= blen (m_wbus m) + 1).
      { unfold blen. rewrite B6. destruct (is_ret (ik x)); rewrite zlen_app; [rewrite zlen_nil | rewrite zlen_cons, zlen_nil]; lia. }
      destruct (eus_plain ord cy d eus0 (pcz d) t m1 (kout x) (S x) lq He2 H0 B2 B3 ltac:(lia) (Hbtbd _ B11) ltac:(lia) B5 ltac:(intros k Hk; apply Hpl; lia))
        as (m' & t' & E & A1 & A2 & A3 & A4 & A5 & A6 & A7 & A8 & A9 & A10).
      rewrite E. cbn [bind orb]. exists m', (e1 :: t'). cbn [length].
      split; [reflexivity|]. split; [constructor; assumption|]. split; [lia|]. split; [exact A3|]. split; [exact A4|].
      split; [eapply EuFrame_trans; eassumption|].
      split; [rewrite A6; f_equal; f_equal; lia|].
      assert (Hfil : filter notret (seq (S x) (Nat.min (length t) lq)) = seq (S x) (Nat.min (length t) lq)).
      { apply filter_true. intros k Hk. apply in_seq in Hk.
        destruct (Hpl k ltac:(lia)) as [Hr _]. unfold notret. rewrite Hr. reflexivity. }
      split.
      { rewrite A7, B6. cbn [seq filter]. unfold notret at 1. destruct (is_ret (ik x)); cbn [negb map]; rewrite Hfil, <- ?app_assoc; reflexivity. }
      split.
      { intros k Hk. cbn [seq In] in Hk. destruct Hk as [<-|Hk]; [auto|].
        (* the others come out of the execute bus as well *)
        apply in_seq in Hk. pose proof (bi_e _ _ _ B2) as Hbe. unfold flat in Hbe. rewrite B5 in Hbe. apply Forall_app in Hbe as [Hbe _].
        rewrite Forall_forall in Hbe. destruct (Hbe (rn k)) as (k' & K1 & K2 & K3 & K4).
        { apply in_map. apply in_seq. lia. }
        apply (f_equal kr) in K4. rewrite !kr_rn in K4. subst k'. auto. }
      split.
      { intros [Hx|Hx]; [discriminate|]. destruct (B10 Hx) as (C1 & C2 & C3). split; [congruence|]. split; congruence. }
      rewrite A10; exact B11.
  Qed.

  (* what k write units leave alone: all but the registers, the scoreboards and the k entries
     they take off the queue of the write bus *)
  Record WuFrameN (k : nat) (m m1 : mach) : Prop := mkWF {
    wf_mem : m_mem m1 = m_mem m; wf_l1i : m_l1i m1 = m_l1i m; wf_l3 : m_l3 m1 = m_l3 m; wf_pend : m_pend m1 = m_pend m;
    wf_fu : m_fu m1 = m_fu m; wf_dret : m_dret m1 = m_dret m; wf_dpbr : m_dpbr m1 = m_dpbr m; wf_cu : m_cu m1 = m_cu m;
    wf_bu : m_bu m1 = m_bu m;
    wf_dbus : m_dbus m1 = m_dbus m; wf_cbus : m_cbus m1 = m_cbus m; wf_ebus : m_ebus m1 = m_ebus m;
    wf_wbuf : bb_buf (m_wbus m1) = bb_buf (m_wbus m); wf_wql : bb_ql (m_wbus m1) = bb_ql (m_wbus m);
    wf_wbl : bb_bl (m_wbus m1) = bb_bl (m_wbus m); wf_wq : bb_q (m_wbus m1) = skipn k (bb_q (m_wbus m)) }.
  Definition WuFrame := WuFrameN 1.

  Lemma set_wbus_same m : set_wbus m (m_wbus m) = m.
  Proof. destruct m; reflexivity. Qed.

  Lemma cnt_member_ge f F k s : In k F -> cnt1 (f k) s <= cnt f F s.
  Proof.
    induction F as [|j t IH]; intros []; cbn [cnt].
    - subst j. pose proof (cnt_nonneg f t s). lia.
    - pose proof (cnt1_nonneg (f j) s). specialize (IH H). lia.
  Qed.

  (* the machine after writeUnit.cycle has written back the entry of instruction k: its effect on
     the registers, its declared registers off the scoreboards *)
  Definition wb_mach (ma : mach) (k : nat) : mach :=
    set_sb (set_regs ma (apply_eff (eff k) (m_regs ma)))
           (sb_decr (m_pw ma) (instr_WriteRegisters (ik k))) (sb_decr (m_pr ma) (instr_ReadRegisters (ik k))).

  Lemma wb_apply ma k w : (base <= k <= N)%nat -> (k < n)%nat -> is_ret (ik k) = false ->
    (if RegisterChange (embed (eff k))
     then Ok (del_pending6 (set_regs ma (rset (m_regs ma) (Register (embed (eff k))) (RegisterValue (embed (eff k)))))
                           (instr_ReadRegisters (ik k)) (instr_WriteRegisters (ik k)), w)
     else if MemoryChange (embed (eff k)) then Ok (ma, mk_wu6 (WMem MemoryAccess) (Some (wbn k)))
     else Ok (del_pending6 ma (instr_ReadRegisters (ik k)) (instr_WriteRegisters (ik k)), w)) = Ok (wb_mach ma k, w).
  Proof.
    intros H1 H2 Hnr. pose proof (eff_ret k H1 H2) as Hr. pose proof (eff_nostore k) as Hs. unfold wb_mach.
    destruct (eff k) as [rd v|bs| |a|rd v a|] eqn:Ee; cbn [embed apply_eff].
    - destruct (reg_pair rd v) as [r0 x0] eqn:Erp. cbn [RegisterChange Register RegisterValue].
      rewrite <- (rset_reg_pair (m_regs ma) rd v), Erp. reflexivity.
    - exfalso. exact (Hs bs H1 H2 eq_refl).
    - reflexivity.
    - reflexivity.
    - destruct (reg_pair rd v) as [r0 x0] eqn:Erp. cbn [RegisterChange Register RegisterValue].
      rewrite <- (rset_reg_pair (m_regs ma) rd v), Erp. reflexivity.
    - rewrite (proj1 Hr eq_refl) in Hnr. discriminate.
  Qed.

  (* a write unit takes the head of the queue of the write bus: it is the entry of an
     instruction in flight, and the rest of the bus is as good as before *)
  Lemma wbus_pop d m x q' : Forall (WbOK d) (flat (m_wbus m)) -> bb_q (m_wbus m) = x :: q' ->
    let ma := set_wbus m (mk_bb (bb_buf (m_wbus m)) q' (bb_ql (m_wbus m)) (bb_bl (m_wbus m))) in
    flat (m_wbus m) = x :: flat (m_wbus ma) /\ WbOK d x /\ Forall (WbOK d) (flat (m_wbus ma)).
  Proof.
    intros H Eq. cbv zeta.
    assert (Hflat : flat (m_wbus m) = x :: flat (mk_bb (bb_buf (m_wbus m)) q' (bb_ql (m_wbus m)) (bb_bl (m_wbus m)))).
    { unfold flat. cbn [bb_q bb_buf]. rewrite Eq. reflexivity. }
    cbn [set_wbus m_wbus]. rewrite Hflat in H. inversion H. auto.
  Qed.

  (* writeUnit.cycle(ctx, before) of an idle write unit whose head entry is not dropped *)
  Lemma wu_step d m eus w before : BackI d m eus -> u_co w = WNone ->
    (forall k q', bb_q (m_wbus m) = wbn k :: q' -> before = -1 \/ pcz k <= before) ->
    exists m1, wu_cycle6 m w before = Ok (m1, w) /\ BackI d m1 eus /\ WuFrame m m1 /\
      (forall k, In k (FL m1 eus) -> In k (FL m eus)) /\
      (forall cy, BusOK cy (m_wbus m) -> BusOK cy (m_wbus m1)).
  Proof.
    intros HB Hco Hkeep. pose proof HB as [H1 H2 H3 H4 H5 H6 H7]. unfold wu_cycle6. rewrite Hco. unfold bb_get.
    destruct (bb_q (m_wbus m)) as [|x q'] eqn:Eq.
    { exists m. rewrite set_wbus_same. split; [reflexivity|]. split; [exact HB|]. split; [constructor; try reflexivity; rewrite Eq; reflexivity|].
      split; auto. }
    set (ma := set_wbus m (mk_bb (bb_buf (m_wbus m)) q' (bb_ql (m_wbus m)) (bb_bl (m_wbus m)))).
    destruct (wbus_pop d m x q' H3 Eq) as (Hflat & (k & Hkd & HkN & Hkn & Hnr & ->) & Hw'). fold ma in Hflat, Hw'.
    assert (Hnd : negb (before =? -1) && (before <? w_seq (wbn k)) = false).
    { cbn [wbn w_seq]. destruct (Hkeep k q' eq_refl) as [->|Hle]; [reflexivity|].
      destruct (before =? -1); [reflexivity|]. cbn [negb andb]. apply Z.ltb_ge. exact Hle. }
    rewrite Hnd.
    assert (HFL : Permutation (FL m eus) (k :: FL ma eus)).
    { unfold FL. rewrite Hflat. change (m_ebus ma) with (m_ebus m). cbn [map]. rewrite kw_wbn. perm_nat. }
    assert (HS : BackSem d (m_regs m) (m_pw m) (m_pr m) (k :: FL ma eus)) by (eapply bs_perm; [exact HFL | exact H4]).
    pose proof (bs_pwlen _ _ _ _ _ _ _ _ _ H4) as Lw. pose proof (bs_prlen _ _ _ _ _ _ _ _ _ H4) as Lr.
    assert (HS' : BackSem d (apply_eff (eff k) (m_regs m)) (sb_decr (m_pw m) (instr_WriteRegisters (ik k)))
                          (sb_decr (m_pr m) (instr_ReadRegisters (ik k))) (FL ma eus)).
    { apply (bs_writeback app labels regs0 base Hlen0 d (m_regs m) (m_pw m) (m_pr m)); auto.
      - intros s Hs. eapply eff_writes; try eassumption. lia.
      - rewrite sb_decr_length. exact Lw.
      - rewrite sb_decr_length. exact Lr.
      - intros s Hs. apply sb_decr_nth; [lia|]. intros s' Hs'. rewrite Lw in Hs'.
        rewrite (bs_pw _ _ _ _ _ _ _ _ _ HS s' Hs'). apply (cnt_member_ge wsl). left. reflexivity.
      - intros s Hs. apply sb_decr_nth; [lia|]. intros s' Hs'. rewrite Lr in Hs'.
        rewrite (bs_pr _ _ _ _ _ _ _ _ _ HS s' Hs'). apply (cnt_member_ge rsl). left. reflexivity. }
    cbn [wbn w_exe w_reads w_writes]. rewrite (wb_apply ma k w ltac:(lia) Hkn Hnr).
    exists (wb_mach ma k). split; [reflexivity|].
    split; [|split; [|split]].
    - constructor; auto.
    - constructor; try reflexivity. cbn [wb_mach ma set_sb set_regs set_wbus m_wbus bb_q]. rewrite Eq. reflexivity.
    - intros k0 Hk0. eapply Permutation_in; [apply Permutation_sym; exact HFL | right; exact Hk0].
    - intros cy [B1 B2 B3 B4]. constructor; cbn [wb_mach ma set_sb set_regs set_wbus m_wbus bb_buf bb_ql bb_bl]; auto.
      unfold qlen in *. cbn [bb_q]. rewrite Eq in B3. unfold zlen in *. cbn [length] in B3. lia.
  Qed.

  (* for _, wu := range m.writeUnits { wu.cycle(ctx, -1) } *)
  Lemma wus_ok d eus : forall wus m, BackI d m eus -> Forall (fun w => u_co w = WNone) wus ->
    exists m1, wus_cycle m wus (-1) = Ok (m1, wus) /\ BackI d m1 eus /\ WuFrameN (length wus) m m1 /\
      (forall k, In k (FL m1 eus) -> In k (FL m eus)) /\
      (forall cy, BusOK cy (m_wbus m) -> BusOK cy (m_wbus m1)).
  Proof.
    induction wus as [|w t IH]; intros m HB Hw.
    - exists m. cbn [wus_cycle length]. split; [reflexivity|]. split; [exact HB|]. split; [constructor; reflexivity | auto].
    - inversion Hw as [|? ? Hw1 Hw2]; subst. cbn [wus_cycle].
      destruct (wu_step d m eus w (-1) HB Hw1 ltac:(auto)) as (m1 & E & A1 & [] & A3 & A4). rewrite E. cbn [bind fst snd].
      destruct (IH m1 A1 Hw2) as (m2 & E2 & B1 & [] & B18 & B19).
      rewrite E2. cbn [bind fst snd]. exists m2. split; [reflexivity|]. split; [exact B1|].
      split; [constructor; try congruence|].
      + rewrite wf_wq1, wf_wq0. cbn [length]. destruct (bb_q (m_wbus m)); [destruct (length t); reflexivity | reflexivity].
      + split; [intros k Hk; apply A3, B18; exact Hk | intros cy Hc; apply B19, A4; exact Hc].
  Qed.

  (* draining the write bus before a flush: entries younger than E are dropped *)

  Record FlushI (d E : nat) (m : mach) (D : list nat) : Prop := mkFL {
    fl_w : Forall (WbOK d) (flat (m_wbus m));
    fl_sem : BackSemW app labels regs0 base d (m_regs m) (map kw (flat (m_wbus m)) ++ D);
    fl_mem : m_mem m = mem0;
    fl_l3 : lines (m_l3 m) = [];
    fl_D : forall k, In k D -> (E < k)%nat;
    fl_all : forall k, (E < k < d)%nat -> In k (map kw (flat (m_wbus m)) ++ D) }.

  Lemma wu_flush_step d E m D w : FlushI d E m D -> u_co w = WNone ->
    exists m1 D', wu_cycle6 m w (pcz E) = Ok (m1, w) /\ FlushI d E m1 D' /\ WuFrame m m1.
  Proof.
    intros [H3 H4 H5 H6 H7 H8] Hco. unfold wu_cycle6. rewrite Hco. unfold bb_get.
    destruct (bb_q (m_wbus m)) as [|x q'] eqn:Eq.
    { exists m, D. rewrite set_wbus_same. split; [reflexivity|]. split; [constructor; assumption|].
      constructor; try reflexivity. rewrite Eq. reflexivity. }
    set (ma := set_wbus m (mk_bb (bb_buf (m_wbus m)) q' (bb_ql (m_wbus m)) (bb_bl (m_wbus m)))).
    destruct (wbus_pop d m x q' H3 Eq) as (Hflat & (k & Hkd & HkN & Hkn & Hnr & ->) & Hw'). fold ma in Hflat, Hw'.
    cbn [wbn w_seq]. fold (wbn k).
    assert (Hneg : (pcz E =? -1) = false) by (apply Z.eqb_neq; unfold pcz; lia). rewrite Hneg. cbn [negb andb].
    destruct (Z.ltb_spec (pcz E) (pcz k)) as [Hlt|Hge].
    - (* younger than the flushing instruction: dropped; it stays in the invariant as a ghost *)
      exists ma, (k :: D). split; [reflexivity|]. split.
      + constructor; auto.
        * eapply bw_perm; [|exact H4]. rewrite Hflat. cbn [map]. rewrite kw_wbn. perm_nat.
        * intros k0 [<-|Hk0]; [unfold pcz in Hlt; lia | apply H7; exact Hk0].
        * intros k0 Hk0. specialize (H8 k0 Hk0). rewrite Hflat in H8. cbn [map] in H8. rewrite kw_wbn in H8.
          rewrite in_app_iff in *. cbn [In] in *. tauto.
      + constructor; try reflexivity. unfold ma. cbn [set_wbus m_wbus bb_q]. rewrite Eq. reflexivity.
    - (* written back *)
      cbn [wbn w_exe w_reads w_writes]. rewrite (wb_apply ma k w ltac:(lia) Hkn Hnr).
      exists (wb_mach ma k), D. split; [reflexivity|]. split.
      + constructor; auto.
        * apply (bw_writeback app labels regs0 base Hlen0).
          -- eapply bw_perm; [|exact H4]. rewrite Hflat. cbn [map List.app]. rewrite kw_wbn. apply Permutation_refl.
          -- intros s Hs. eapply eff_writes; try eassumption. lia.
        * intros k0 Hk0. specialize (H8 k0 Hk0). rewrite Hflat in H8. cbn [map List.app In] in H8. rewrite kw_wbn in H8.
          destruct H8 as [<-|H8]; [unfold pcz in Hge; lia | exact H8].
      + constructor; try reflexivity. cbn [wb_mach ma set_sb set_regs set_wbus m_wbus bb_q]. rewrite Eq. reflexivity.
  Qed.
End Back.
