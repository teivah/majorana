(* Facts about the cycle-level model of MVP-6.2 (Mvp62.v) that need no invariant of a run: a returned
   cycle count is at least one; the ghost flag is sound for the iteration order of the stores'
   MemoryChanges maps; controlUnit.cycle never fills the execute bus beyond its buffer length and leaves
   the register state alone; two witnesses by evaluation: an error inside the flush loop is what Run
   returns, and the one-slot transaction map loses an architectural register value. *)
From Coq Require Import ZArith List Bool Lia.
From Maj Require Import Comp.MapFacts.
From Maj Require Import Base.Outcome Base.GoInt Base.GoTypes Isa.Spec Isa.Seq.
From Maj Require Import Gen.Latency Gen.RiscTables Gen.Opcodes Comp.Cache Mvp.Mvp12 Mvp.Mvp3 Mvp.Mvp5 Mvp.Mvp60 Mvp.Mvp60Proofs Mvp.Mvp62.
From Maj Require Comp.Rat Comp.Tx Comp.MapFacts.
Import ListNotations.
Open Scope Z_scope.

(* what a tick does to the cycle counter: a returned count is at least `done`, a state to continue
   from has a counter of at least `cont` *)
Definition cyc_after (done cont : Z) (r : step_res62) : Prop :=
  match r with
  | TDone (MDone c _) _ => done <= c
  | TDone _ _ => True
  | TCont s' => cont <= t_cycle s'
  end.

Lemma cyc_after_mono d c d' c' r : cyc_after d c r -> d' <= d -> c' <= c -> cyc_after d' c' r.
Proof. destruct r as [[]|]; cbn; lia. Qed.

Lemma finish62_cyc m cycle os cont : cyc_after cycle cont (TDone (finish62 m cycle) os).
Proof.
  unfold finish62. destruct (flush_lines (lines (n_l3 m)) (n_mem m) 0) as [[mem' c']| |] eqn:E; cbn; auto.
  apply flush_lines_ge in E. lia.
Qed.

Lemma res_of62_cyc A os (o : outcome A) k d c : (forall x, cyc_after d c (k x)) -> cyc_after d c (res_of62 os o k).
Proof. intros H. destruct o; cbn; auto. Qed.

Lemma ret_check62_cyc s : cyc_after (t_cycle s) (t_cycle s) (ret_check62 s).
Proof. unfold ret_check62. destruct (_ && _); [apply finish62_cyc | cbn; lia]. Qed.

(* the flush branch never returns *)
Lemma flush_adv62_cyc s k sq pc fromc ie d : cyc_after d (t_cycle s) (flush_adv62 s k sq pc fromc ie).
Proof. unfold flush_adv62. destruct (flush_next _ _ _); [|destruct ie]; cbn; unfold Flush; lia. Qed.

Lemma back62_cyc s cycle os x : cyc_after cycle cycle (back62 s cycle os x).
Proof.
  destruct x as [[m eus1] o]. unfold back62. apply res_of62_cyc. intros [m2 wus1].
  destruct (p_ret o); [eapply cyc_after_mono; [apply ret_check62_cyc | |]; cbn; lia|].
  destruct (p_flush o); [cbn; lia|].
  destruct (is_empty62 m2 eus1 wus1); [apply finish62_cyc | cbn; lia].
Qed.

(* a step either ends with a cycle count above the current one, or continues with a cycle count
   that did not decrease *)
Lemma step62_cyc app labels ord s : cyc_after (t_cycle s + 1) (t_cycle s) (step62 app labels ord s).
Proof.
  unfold step62. destruct (t_mode s).
  - apply res_of62_cyc. intros [m g]. destruct (eus_main62 _ _ _ _ _ _) as [os1 re]. apply res_of62_cyc. intros x.
    eapply cyc_after_mono; [apply back62_cyc | |]; lia.
  - destruct (eus_drain62 _ _ _ _ _) as [os1 re]. apply res_of62_cyc. intros x. apply res_of62_cyc. intros [m wus1].
    eapply cyc_after_mono; [apply ret_check62_cyc | |]; cbn; lia.
  - destruct (eus_inner62 _ _ _ _ _ _ _) as [os1 [[[[m1 eus1] sq1] pc1]| |]]; cbn [cyc_after]; auto.
    eapply (cyc_after_mono (t_cycle s + 1)); [apply flush_adv62_cyc | |]; cbn; lia.
  - destruct (nth_error (t_wus s) k); [|exact I]. apply res_of62_cyc. intros x.
    eapply (cyc_after_mono (t_cycle s + 1)); [apply flush_adv62_cyc | |]; cbn; lia.
Qed.

Lemma run62_st_cycles : forall fuel app labels ord s c st os,
  run62_st fuel app labels ord s = inl (MDone c st, os) -> t_cycle s + 1 <= c.
Proof.
  induction fuel as [|f IH]; intros app labels ord s c st os H; simpl in H; try discriminate.
  pose proof (step62_cyc app labels ord s) as Hs. destruct (step62 app labels ord s) as [r os'|s'].
  - injection H as -> _. exact Hs.
  - apply IH in H. cbn in Hs. lia.
Qed.

Lemma init62_cycle par st s : init62 par st = Ok s -> t_cycle s = 0.
Proof.
  unfold init62. destruct (new_cache l1LineSize l1Size); try discriminate. destruct (new_cache l3LineSize l3Size); try discriminate.
  intros E. injection E as <-. reflexivity.
Qed.

Theorem mvp62_cycles_pos : forall par ord fuel app labels st c st',
  mvp62_run par ord fuel app labels st = MDone c st' -> 1 <= c.
Proof.
  intros par ord fuel app labels st c st' H. unfold mvp62_run, mvp62_run_os in H.
  destruct (init62 par st) as [s| |] eqn:Ei; cbn [fst] in H; try discriminate H.
  destruct (run62_st fuel app labels ord s) as [[r os]|s'] eqn:E; cbn [fst] in H; [|discriminate H].
  subst r. apply run62_st_cycles in E. rewrite (init62_cycle _ _ _ Ei) in E. lia.
Qed.

(* li t1,7; nop x5; lw t0,0(zero); div t2,t1,t0; beq zero,zero,L1; li t3,1; L1: ret
   on a 64-byte zero memory, parallelism 3: the load misses, the division waits for the forwarded
   value of the load, the branch behind them is mispredicted; the division by zero happens INSIDE
   the flush loop, which returns the error *)
Definition zero_prog : list instr :=
  [I_li (mk_li 6 7); I_nop mk_nop; I_nop mk_nop; I_nop mk_nop; I_nop mk_nop; I_nop mk_nop;
   I_lw (mk_lw 5 0 0); I_div (mk_div 7 6 5); I_beq (mk_beq 0 0 1); I_li (mk_li 28 1); I_ret mk_ret].
Definition zero_labels (l : Z) : option Z := if l =? 1 then Some 40 else None.

Theorem mvp62_flush_loop_error_witness :
  mvp62_run 3 (ord_policy 0) 1000 zero_prog zero_labels (mk_arch (repeat 0 32) (repeat 0 64)) = MErr EDivZero
  /\ mvp62_run 3 (ord_policy 0) 627 zero_prog zero_labels (mk_arch (repeat 0 32) (repeat 0 64)) = MOutOfFuel.
Proof. split; vm_compute; reflexivity. Qed.

Lemma eu_run_exe62_ord : forall ord1 ord2 cycle m e r exe,
  ord_ok ord1 -> ord_ok ord2 ->
  negb (Return exe) && MemoryChange exe &&
    store_order_matters (n_l3 m) (n_pend m) (map fst (sort_changes (MemoryChanges exe))) = false ->
  eu_run_exe62 ord1 cycle m e r exe = eu_run_exe62 ord2 cycle m e r exe.
Proof.
  intros ord1 ord2 cycle m e r exe O1 O2 H. unfold eu_run_exe62.
  destruct (Return exe); [reflexivity|].
  destruct (MemoryChange exe); [|reflexivity].
  simpl in H.
  f_equal.
  apply l3_same_bind with (r0 := get_from_l3 (n_l3 m) (n_pend m) (map fst (sort_changes (MemoryChanges exe))) []).
  - apply som_false; auto.
  - apply som_false; auto.
  - intros; reflexivity.
Qed.

(* fw_set changes neither L3 nor the pendings *)
Lemma fw_set_l3 : forall m i f, n_l3 (fw_set m i f) = n_l3 m /\ n_pend (fw_set m i f) = n_pend m.
Proof. intros. split; reflexivity. Qed.

(* an execute unit either raises the ghost flag or does the same whatever the order *)
Lemma eu_run62_ord : forall labels ord1 ord2 cycle m e,
  ord_ok ord1 -> ord_ok ord2 ->
  eu_run62 labels ord1 cycle m e = eu_run62 labels ord2 cycle m e \/ fst (eu_run62 labels ord1 cycle m e) = true.
Proof.
  intros labels ord1 ord2 cycle m e O1 O2. unfold eu_run62.
  destruct (x_runner e); [|left; reflexivity].
  destruct (instr_Run _ _ _ _ _ _) as [exe| |]; try (left; reflexivity).
  destruct (negb (Return exe) && MemoryChange exe && store_order_matters _ _ _) eqn:F; [right; reflexivity|].
  left. f_equal. apply eu_run_exe62_ord; auto.
Qed.

Lemma eu_prepare62_ord : forall labels ord1 ord2 cycle m e,
  ord_ok ord1 -> ord_ok ord2 ->
  eu_prepare62 labels ord1 cycle m e = eu_prepare62 labels ord2 cycle m e \/ fst (eu_prepare62 labels ord1 cycle m e) = true.
Proof.
  intros labels ord1 ord2 cycle m e O1 O2. unfold eu_prepare62.
  destruct (negb (bb_canadd (n_wbus m))); [left; reflexivity|].
  destruct (x_runner e) as [r|]; [|left; reflexivity].
  destruct (match q_recv r with None => _ | Some _ => _ end) as [[m0 r0]|]; [|left; reflexivity].
  destruct (instr_MemoryRead _ _ _); [|left; reflexivity].
  now apply eu_run62_ord.
Qed.

Lemma eu_cycle62_ord : forall labels ord1 ord2 cycle m e,
  ord_ok ord1 -> ord_ok ord2 ->
  eu_cycle62 labels ord1 cycle m e = eu_cycle62 labels ord2 cycle m e \/ fst (eu_cycle62 labels ord1 cycle m e) = true.
Proof.
  intros labels ord1 ord2 cycle m e O1 O2. unfold eu_cycle62.
  destruct (pre_flush e); [left; reflexivity|].
  destruct (x_co e).
  - destruct (bb_get (n_ebus m)) as [ebus' [r|]]; [|left; reflexivity]. now apply eu_prepare62_ord.
  - now apply eu_prepare62_ord.
  - destruct (0 <? rem); [left; reflexivity|]. now apply eu_run62_ord.
  - destruct (0 <? rem); [left; reflexivity|].
    destruct (eu_fill62 m e addrs) as [[m1 e1]| |]; try (left; reflexivity). now apply eu_run62_ord.
Qed.

(* the three loops over the execute units: the flag of the loop is the disjunction of the units' flags *)
Lemma eus_main62_ord : forall labels ord1 ord2 cycle eus m acc,
  ord_ok ord1 -> ord_ok ord2 ->
  eus_main62 labels ord1 cycle m eus acc = eus_main62 labels ord2 cycle m eus acc \/ fst (eus_main62 labels ord1 cycle m eus acc) = true.
Proof.
  intros labels ord1 ord2 cycle eus. induction eus as [|e t IH]; intros m acc O1 O2; [left; reflexivity|].
  cbn [eus_main62].
  destruct (eu_cycle62_ord labels ord1 ord2 cycle m (eu_set_seq (p_seq acc) e) O1 O2) as [<-|F].
  - (* this unit does the same under both orders *)
    destruct (eu_cycle62 labels ord1 cycle m (eu_set_seq (p_seq acc) e)) as [os1 [[[m1 e1] o]| |]]; try (left; reflexivity).
    destruct (IH m1 (acc_step acc o) O1 O2) as [<-|F]; [left; reflexivity|].
    right. destruct (eus_main62 labels ord1 cycle m1 t (acc_step acc o)) as [os2 r]. cbn [fst] in *. subst os2. apply orb_true_r.
  - (* this unit raises the flag *)
    right. destruct (eu_cycle62 labels ord1 cycle m (eu_set_seq (p_seq acc) e)) as [os1 [[[m1 e1] o]| |]]; cbn [fst] in F; subst os1; try reflexivity.
    destruct (eus_main62 labels ord1 cycle m1 t (acc_step acc o)) as [os2 r]. reflexivity.
Qed.

Lemma eus_drain62_ord : forall labels ord1 ord2 cycle eus m,
  ord_ok ord1 -> ord_ok ord2 ->
  eus_drain62 labels ord1 cycle m eus = eus_drain62 labels ord2 cycle m eus \/ fst (eus_drain62 labels ord1 cycle m eus) = true.
Proof.
  intros labels ord1 ord2 cycle eus. induction eus as [|e t IH]; intros m O1 O2; [left; reflexivity|].
  cbn [eus_drain62]. destruct (eu_empty62 e).
  { destruct (IH m O1 O2) as [<-|F]; [left; reflexivity|].
    right. destruct (eus_drain62 labels ord1 cycle m t) as [os r]. exact F. }
  destruct (eu_cycle62_ord labels ord1 ord2 cycle m e O1 O2) as [<-|F].
  - destruct (eu_cycle62 labels ord1 cycle m e) as [os1 [[[m1 e1] o]| |]]; try (left; reflexivity).
    destruct (IH m1 O1 O2) as [<-|F]; [left; reflexivity|].
    right. destruct (eus_drain62 labels ord1 cycle m1 t) as [os2 r]. cbn [fst] in *. subst os2. apply orb_true_r.
  - right. destruct (eu_cycle62 labels ord1 cycle m e) as [os1 [[[m1 e1] o]| |]]; cbn [fst] in F; subst os1; try reflexivity.
    destruct (eus_drain62 labels ord1 cycle m1 t) as [os2 r]. reflexivity.
Qed.

Lemma eus_inner62_ord : forall labels ord1 ord2 fromc eus m sq pc,
  ord_ok ord1 -> ord_ok ord2 ->
  eus_inner62 labels ord1 fromc m eus sq pc = eus_inner62 labels ord2 fromc m eus sq pc \/
  fst (eus_inner62 labels ord1 fromc m eus sq pc) = true.
Proof.
  intros labels ord1 ord2 fromc eus. induction eus as [|e t IH]; intros m sq pc O1 O2; [left; reflexivity|].
  cbn [eus_inner62]. destruct (eu_empty62 e).
  { destruct (IH m sq pc O1 O2) as [<-|F]; [left; reflexivity|].
    right. destruct (eus_inner62 labels ord1 fromc m t sq pc) as [os r]. exact F. }
  destruct (eu_cycle62_ord labels ord1 ord2 fromc m e O1 O2) as [<-|F].
  - destruct (eu_cycle62 labels ord1 fromc m e) as [os1 [[[m1 e1] o]| |]]; try (left; reflexivity).
    destruct (IH m1 (if p_flush o then p_seq o else sq) (if p_flush o then p_pc o else pc) O1 O2) as [<-|F]; [left; reflexivity|].
    right. destruct (eus_inner62 labels ord1 fromc m1 t _ _) as [os2 r]. cbn [fst] in *. subst os2. apply orb_true_r.
  - right. destruct (eu_cycle62 labels ord1 fromc m e) as [os1 [[[m1 e1] o]| |]]; cbn [fst] in F; subst os1; try reflexivity.
    destruct (eus_inner62 labels ord1 fromc m1 t _ _) as [os2 r]. reflexivity.
Qed.

(* the flag a step ends with *)
Definition res_os62 (r : step_res62) : bool := match r with TDone _ os => os | TCont s' => t_os s' end.

Lemma res_of62_os : forall A os (o : outcome A) k,
  (forall x, res_os62 (k x) = os) -> res_os62 (res_of62 os o k) = os.
Proof. intros A os o k H. destruct o; simpl; auto. Qed.

Lemma ret_check62_os : forall s, res_os62 (ret_check62 s) = t_os s.
Proof. intros s. unfold ret_check62. destruct (_ && _); reflexivity. Qed.

Lemma flush_adv62_os : forall s k sq pc fromc ie, res_os62 (flush_adv62 s k sq pc fromc ie) = t_os s.
Proof. intros. unfold flush_adv62. destruct (flush_next _ _ _); [|destruct ie]; reflexivity. Qed.

Lemma back62_os : forall s cycle os x, res_os62 (back62 s cycle os x) = os.
Proof.
  intros s cycle os [[m eus1] o]. unfold back62. apply res_of62_os. intros [m2 wus1].
  destruct (p_ret o); [apply ret_check62_os|].
  destruct (p_flush o); [reflexivity|].
  destruct (is_empty62 m2 eus1 wus1); reflexivity.
Qed.

(* the flag only grows during a step: it ends as (flag before || control unit || execute units) *)
Lemma step62_ord : forall app labels ord1 ord2 s,
  ord_ok ord1 -> ord_ok ord2 -> res_os62 (step62 app labels ord1 s) = false ->
  step62 app labels ord1 s = step62 app labels ord2 s /\ t_os s = false.
Proof.
  intros app labels ord1 ord2 s O1 O2 H. unfold step62 in *.
  destruct (t_mode s).
  - destruct (front62 app (t_cycle s + 1) (t_m s)) as [[m1 g]| |]; cbn [res_of62] in *; auto.
    destruct (eus_main62_ord labels ord1 ord2 (t_cycle s + 1) (t_eus s) m1 euo62_none O1 O2) as [<-|F];
      destruct (eus_main62 labels ord1 (t_cycle s + 1) m1 (t_eus s) euo62_none) as [os1 re];
      rewrite res_of62_os in H by (intros x; apply back62_os).
    + apply orb_false_iff in H as [H _]. apply orb_false_iff in H as [H _]. auto.
    + cbn [fst] in F. subst os1. rewrite orb_true_r in H. discriminate H.
  - destruct (eus_drain62_ord labels ord1 ord2 (t_cycle s) (t_eus s) (t_m s) O1 O2) as [<-|F];
      destruct (eus_drain62 labels ord1 (t_cycle s) (t_m s) (t_eus s)) as [os1 re];
      rewrite res_of62_os in H by (intros x; apply res_of62_os; intros [m2 wus1]; apply ret_check62_os).
    + apply orb_false_iff in H as [H _]. auto.
    + cbn [fst] in F. subst os1. rewrite orb_true_r in H. discriminate H.
  - destruct (eus_inner62_ord labels ord1 ord2 fromc (t_eus s) (t_m s) sq pc O1 O2) as [<-|F];
      destruct (eus_inner62 labels ord1 fromc (t_m s) (t_eus s) sq pc) as [os1 re];
      (assert (Hor : t_os s || os1 = false)
        by (destruct re as [[[[m1 eus1] sq1] pc1]| |]; cbn [res_os62] in H; rewrite ?flush_adv62_os in H; exact H)).
    + apply orb_false_iff in Hor as [Hor _]. auto.
    + cbn [fst] in F. subst os1. rewrite orb_true_r in Hor. discriminate Hor.
  - split; [reflexivity|].
    destruct (nth_error (t_wus s) k); [|exact H].
    rewrite res_of62_os in H; auto. intros x. rewrite flush_adv62_os. reflexivity.
Qed.

(* the flag a run ends with *)
Definition final_os62 (r : (mres * bool) + st62) : bool :=
  match r with inl (_, os) => os | inr s' => t_os s' end.

Theorem run62_st_ord_irrelevant : forall fuel app labels ord1 ord2 s,
  ord_ok ord1 -> ord_ok ord2 -> final_os62 (run62_st fuel app labels ord1 s) = false ->
  run62_st fuel app labels ord1 s = run62_st fuel app labels ord2 s /\ t_os s = false.
Proof.
  induction fuel as [|f IH]; intros app labels ord1 ord2 s O1 O2 H; simpl in *; [auto|].
  destruct (step62 app labels ord1 s) as [r os|s'] eqn:E.
  - simpl in H. subst os.
    destruct (step62_ord app labels ord1 ord2 s O1 O2) as [E2 Hs]; [rewrite E; reflexivity|].
    rewrite <- E2, E. auto.
  - destruct (IH app labels ord1 ord2 s' O1 O2 H) as [R Hs'].
    destruct (step62_ord app labels ord1 ord2 s O1 O2) as [E2 Hs]; [rewrite E; exact Hs'|].
    rewrite <- E2, E. auto.
Qed.

(* a run of MVP-6.2 that ends with the ghost flag clear returns the same result
   whatever the iteration orders of the stores' MemoryChanges maps *)
Theorem run62_ord_irrelevant : forall par fuel app labels st ord1 ord2 r,
  ord_ok ord1 -> ord_ok ord2 ->
  mvp62_run_os par ord1 fuel app labels st = (r, false) ->
  mvp62_run_os par ord2 fuel app labels st = (r, false).
Proof.
  intros par fuel app labels st ord1 ord2 r O1 O2 H. unfold mvp62_run_os in *.
  destruct (init62 par st) as [s| |]; auto.
  destruct (run62_st_ord_irrelevant fuel app labels ord1 ord2 s O1 O2) as [E _].
  - destruct (run62_st fuel app labels ord1 s) as [[r1 os1]|s1]; inversion H; reflexivity.
  - rewrite <- E. exact H.
Qed.

(* li a3,1976; slt s2,t0,a3; lw t3,12(a3); ble t3,a1,L4; srai s2,t6,-1; L4:
   sequentially s2 = 1 (0 < 1976) and the srai is jumped over.  At parallelism 3 the srai behind the
   slow branch executes on the wrong path and its result replaces the slot of s2 in the transaction
   map (holding the value 1 of slt, not yet committed); the taken branch rolls the map back and drops
   the slot: s2 ends 0. *)
Definition slot_prog : list instr :=
  [I_li (mk_li 13 1976); I_slt (mk_slt 18 5 13); I_lw (mk_lw 28 12 13); I_ble (mk_ble 28 11 4); I_srai (mk_srai 18 31 (-1))].
Definition slot_labels (l : Z) : option Z := if l =? 4 then Some 20 else None.

Theorem mvp62_one_slot_witness :
  exists c st', mvp62_run 3 (ord_policy 0) 2000 slot_prog slot_labels (mk_arch (repeat 0 32) (repeat 0 2048)) = MDone c st'
              /\ nth 13 (regs st') 0 = 1976 /\ nth 18 (regs st') 0 = 0.
Proof. eexists. eexists. split; [vm_compute; reflexivity|]. split; reflexivity. Qed.

(* number of entries in the buffer of the execute bus / its bufferLength *)
Definition ebuf2 (m : mach2) : Z := zlen (bb_buf (n_ebus m)).
Definition ebl2 (m : mach2) : Z := bb_bl (n_ebus m).

Lemma push_runner62_spec : forall m cycle r m' r',
  push_runner62 m cycle r = Some (m', r') ->
  n_ctx m' = n_ctx m /\ ebl2 m' = ebl2 m /\ ebuf2 m' = ebuf2 m + 1 /\ ebuf2 m <> ebl2 m.
Proof.
  intros m cycle r m' r' H. unfold push_runner62 in H.
  destruct (negb (bb_canadd (n_ebus m))) eqn:E; [discriminate|].
  inversion H; subst. unfold ebl2, ebuf2. simpl. rewrite zlen_app1.
  apply negb_false_iff in E. unfold bb_canadd in E. apply negb_true_iff in E. apply Z.eqb_neq in E.
  repeat split; auto.
Qed.

(* handleRunner leaves the context alone; a push adds exactly one entry to the buffer of the execute bus, and
   only when it has room (marking a Forwarder rewrites entries of the bus in place) *)
Lemma handle_runner62_spec : forall m cycle l r push stop g m' l' r',
  handle_runner62 m cycle l r = (push, stop, g, m', l', r') ->
  n_ctx m' = n_ctx m /\ ebl2 m' = ebl2 m /\ ebuf2 m' = ebuf2 m + (if push then 1 else 0) /\ (push = true -> ebuf2 m <> ebl2 m).
Proof.
  intros m cycle l r push stop g m' l' r' H. unfold handle_runner62 in H.
  assert (Hno : forall m0, n_ctx m0 = n_ctx m -> ebl2 m0 = ebl2 m -> ebuf2 m0 = ebuf2 m ->
            n_ctx m0 = n_ctx m /\ ebl2 m0 = ebl2 m /\ ebuf2 m0 = ebuf2 m + 0 /\ (false = true -> ebuf2 m <> ebl2 m)).
  { intros m0 A B C. repeat split; try assumption; [lia | discriminate]. }
  destruct (_ && _) in H; [inversion H; subst; apply Hno; reflexivity|].
  destruct (_ && _) in H; [inversion H; subst; apply Hno; reflexivity|].
  destruct (skip_hazard _ _) in H; [inversion H; subst; apply Hno; reflexivity|].
  destruct (_ =? 0) in H.
  - destruct (push_runner62 m cycle r) as [[m1 r1]|] eqn:E.
    + apply push_runner62_spec in E. inversion H; subst. tauto.
    + inversion H; subst. apply Hno; reflexivity.
  - destruct (_ && _) in H; [|inversion H; subst; apply Hno; reflexivity].
    destruct (fwd_candidates (n_prev m) r) as [|[p reg] more]; [inversion H; subst; apply Hno; reflexivity|].
    set (m0 := set_n_ebus m (bb_map (mark_fwd (q_id p)) (n_ebus m))) in H.
    assert (Hm0 : n_ctx m0 = n_ctx m /\ ebl2 m0 = ebl2 m /\ ebuf2 m0 = ebuf2 m).
    { unfold m0, ebl2, ebuf2. simpl. rewrite MapFacts.zlen_map. auto. }
    destruct Hm0 as (A & B & C).
    destruct (push_runner62 m0 cycle _) as [[m1 r1]|] eqn:E.
    + apply push_runner62_spec in E. rewrite A, B, C in E. inversion H; subst. tauto.
    + inversion H; subst. apply Hno; assumption.
Qed.

(* what the two loops of controlUnit.cycle do with one runner: handleRunner, then the bookkeeping of a push
   or of a skipped runner; (push, stop, ghost, machine, locals, the runner as handleRunner left it) *)
Definition cu_step62 (m : mach2) (cycle : Z) (l : cu_loc) (r : runner2) : bool * bool * bool * mach2 * cu_loc * runner2 :=
  let '(push, stop, g1, m1, l1, r1) := handle_runner62 m cycle l r in
  let '(m2, l2) := if push then cu_after_push m1 l1 r1 else (m1, mk_cul (c_cur l1) (c_skip l1 ++ [r1]) (c_pb l1)) in
  (push, stop, g1, m2, l2, r1).

Lemma cu_pending62_cons r t kept m cycle l g : cu_pending62 (r :: t) kept m cycle l g =
  let '(push, stop, g1, m2, l2, _) := cu_step62 m cycle l r in
  let kept' := if push then kept else r :: kept in
  if stop then (true, rev kept' ++ t, m2, l2, g || g1) else cu_pending62 t kept' m2 cycle l2 (g || g1).
Proof.
  unfold cu_step62. cbn [cu_pending62]. destruct (handle_runner62 m cycle l r) as [[[[[push stop] g1] m1] l1] r1].
  destruct (if push then cu_after_push m1 l1 r1 else _) as [m2 l2]. reflexivity.
Qed.

Lemma cu_incoming62_cons r q pend m cycle l g : cu_incoming62 (r :: q) pend m cycle l g =
  if pendingLength <=? zlen pend then (r :: q, pend, m, l, g) else
  let '(push, stop, g1, m2, l2, r1) := cu_step62 m cycle l r in
  let pend' := if push then pend else pend ++ [r1] in
  if stop then (q, pend', m2, l2, g || g1) else cu_incoming62 q pend' m2 cycle l2 (g || g1).
Proof.
  unfold cu_step62. cbn [cu_incoming62]. destruct (handle_runner62 m cycle l r) as [[[[[push stop] g1] m1] l1] r1].
  destruct (if push then cu_after_push m1 l1 r1 else _) as [m2 l2]. reflexivity.
Qed.

Lemma cu_step62_spec m cycle l r : let m' := snd (fst (fst (cu_step62 m cycle l r))) in
  n_ctx m' = n_ctx m /\ ebl2 m' = ebl2 m /\ ebuf2 m <= ebuf2 m' /\ (ebuf2 m <= ebl2 m -> ebuf2 m' <= ebl2 m).
Proof.
  unfold cu_step62. destruct (handle_runner62 m cycle l r) as [[[[[push stop] g1] m1] l1] r1] eqn:E.
  apply handle_runner62_spec in E. destruct E as (A & B & C & D).
  assert (F : fst (if push then cu_after_push m1 l1 r1 else (m1, mk_cul (c_cur l1) (c_skip l1 ++ [r1]) (c_pb l1))) = m1 \/
              fst (if push then cu_after_push m1 l1 r1 else (m1, mk_cul (c_cur l1) (c_skip l1 ++ [r1]) (c_pb l1))) = set_n_pcb m1 true).
  { unfold cu_after_push. destruct push; [destruct (InstructionType_IsConditionalBranch _)|]; auto. }
  destruct (if push then cu_after_push m1 l1 r1 else _) as [m2 l2]. cbn [fst snd] in *.
  destruct F as [-> | ->]; change (ebuf2 (set_n_pcb m1 true)) with (ebuf2 m1) in *; cbn [n_ctx set_n_pcb];
    (destruct push; [specialize (D eq_refl)|]; repeat split; try assumption; lia).
Qed.

(* a property of the context and of the execute bus that handling a runner preserves holds after controlUnit.cycle *)
Section CuInv.
  Variables (Q : Tx.ctx -> bbus runner2 -> Prop) (cycle : Z).
  Let P (m : mach2) : Prop := Q (n_ctx m) (n_ebus m).
  Hypothesis Hstep : forall m l r, P m -> P (snd (fst (fst (cu_step62 m cycle l r)))).

  Lemma cu_pending62_inv : forall ps kept m l g, P m -> P (snd (fst (fst (cu_pending62 ps kept m cycle l g)))).
  Proof.
    induction ps as [|r t IH]; intros kept m l g H; [exact H|]. rewrite cu_pending62_cons.
    specialize (Hstep m l r H). destruct (cu_step62 m cycle l r) as [[[[[push stop] g1] m2] l2] r1].
    destruct stop; [exact Hstep | apply IH; exact Hstep].
  Qed.

  Lemma cu_incoming62_inv : forall q pend m l g, P m -> P (snd (fst (fst (cu_incoming62 q pend m cycle l g)))).
  Proof.
    induction q as [|r q IH]; intros pend m l g H; [cbn [cu_incoming62]; destruct (_ <=? _); exact H|].
    rewrite cu_incoming62_cons. destruct (_ <=? _); [exact H|].
    specialize (Hstep m l r H). destruct (cu_step62 m cycle l r) as [[[[[push stop] g1] m2] l2] r1].
    destruct stop; [exact Hstep | apply IH; exact Hstep].
  Qed.

  Lemma cu_cycle62_inv m : P m -> P (fst (cu_cycle62 cycle m)).
  Proof.
    intros H. unfold cu_cycle62. destruct (negb (bb_canadd (n_ebus m))); [exact H|].
    pose proof (cu_pending62_inv (n_cu m) [] m (mk_cul [] [] false) false H) as H1.
    destruct (cu_pending62 (n_cu m) [] m cycle (mk_cul [] [] false) false) as [[[[stopped pend1] m1] l1] g1].
    destruct stopped; [exact H1|].
    pose proof (cu_incoming62_inv (bb_q (n_cbus m1)) pend1 m1 l1 g1 H1) as H2.
    destruct (cu_incoming62 (bb_q (n_cbus m1)) pend1 m1 cycle l1 g1) as [[[[q' pend2] m2] l2] g2]. exact H2.
  Qed.
End CuInv.

(* controlUnit.cycle never fills the execute bus beyond its buffer length: the number of instructions
   dispatched in one cycle (= the growth of the buffer) is at most the free room, itself at most
   bufferLength = busSize = 2 in NewCPU whatever the number of execute units *)
Theorem cu62_dispatch_bound : forall cycle m,
  ebuf2 m <= ebl2 m ->
  ebl2 (fst (cu_cycle62 cycle m)) = ebl2 m /\
  ebuf2 m <= ebuf2 (fst (cu_cycle62 cycle m)) <= ebl2 m.
Proof.
  intros cycle m Hb.
  apply (cu_cycle62_inv (fun _ b => bb_bl b = ebl2 m /\ ebuf2 m <= zlen (bb_buf b) <= ebl2 m) cycle); [|unfold ebl2, ebuf2 in *; lia].
  intros m' l r (A & B). destruct (cu_step62_spec m' cycle l r) as (_ & C & D & E). unfold ebl2, ebuf2 in *. lia.
Qed.

Corollary cu62_dispatch_le_buslen : forall cycle m,
  ebuf2 m <= ebl2 m ->
  ebuf2 (fst (cu_cycle62 cycle m)) - ebuf2 m <= ebl2 m.
Proof.
  intros cycle m Hb. destruct (cu62_dispatch_bound cycle m Hb) as [_ H].
  pose proof (zlen_nonneg (bb_buf (n_ebus m))). unfold ebuf2 in *. lia.
Qed.

(* the front half of an iteration does not touch the context *)
Lemma cu_cycle62_ctx cycle m : n_ctx (fst (cu_cycle62 cycle m)) = n_ctx m.
Proof.
  apply (cu_cycle62_inv (fun c _ => c = n_ctx m) cycle); [|reflexivity].
  intros m' l r H. rewrite (proj1 (cu_step62_spec m' cycle l r)). exact H.
Qed.

Lemma du_cycle62_ctx app cycle m m' : du_cycle62 app cycle m = Ok m' -> n_ctx m' = n_ctx m.
Proof.
  unfold du_cycle62. destruct (n_dret m); [intros E; injection E as <-; reflexivity|]. destruct (n_dpbr m); [intros E; injection E as <-; reflexivity|].
  destruct (du_loop62 _ _ _ _ _ _ _ _) as [[[[[ret pbr] q'] cb] fw]| |]; cbn [bind]; try discriminate. intros E. injection E as <-. reflexivity.
Qed.

Lemma front62_ctx app cycle m m' g : front62 app cycle m = Ok (m', g) -> n_ctx m' = n_ctx m.
Proof.
  unfold front62. cbv zeta. destruct (fu_cycle6 _ _ _ _ _) as [[[fu1 l1i1] dbus1]| |]; cbn [bind]; try discriminate.
  destruct (du_cycle62 _ _ _) as [m1| |] eqn:Ed; cbn [bind]; try discriminate. intros E. injection E as E.
  pose proof (cu_cycle62_ctx cycle m1) as Hc. rewrite E in Hc. cbn [fst] in Hc. rewrite Hc, (du_cycle62_ctx _ _ _ _ Ed). reflexivity.
Qed.
