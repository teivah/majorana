(* MVP-8.0 (Mvp80.v) against MVP-6.3 (Mvp63.v) on SINGLE-ASSIGNMENT, register-only, straight-line programs
   (straight, reg_only, ssa, regs_ok) whose sequential run ends: every number of cores >= 1, 32 int32 registers,
   x0 = 0.  Method of Mvp71Sim70.v: the run invariant CI8 is
     SI (Mvp80RegOnly.v)      the memory system of MVP-8.0 is idle, every runner is neither a load nor a store,
     y_pref = []              no runner has a preferred execute unit (no loads, no stores),
     SInv3 (Mvp63RefStep.v)   on the projected state st3_of s: the in-order pipeline invariant BI of MVP-6.3
                              (transactionRAT = tv w: every tag is the pc of one of the first w instructions),
   and per tick the conditions of Mvp80Sim63Defs.v / Loops.v are discharged from it: ids = pcs (sequenceID stays 0),
   every tag of transactionRAT <= pc of the oldest instruction not yet executed <= the id of every queued runner
   (rd_agree8_newest), the Pre hook never fires (h_seq = 0), no preference.  Besides them: write units
   (wus_cycle8_eq: no memory change on the write bus), drain loop (every unit idle), final loop (final8), the end of
   Run (finish_sim).

   For EVERY order function:
     tick8, final8                      one tick under CI8: step3 (st3_of s) = proj_res8 (step8 s), CI8 is kept, the
                                        step of MVP-6.3 does not depend on the empty L3 (L3OK); the final loop runs
                                        once and returns finish3 + one cycle
     run8_sim, run3_l3                  whole runs from a state of CI8
     mvp80_ssa_straight_sim_mvp63       mvp63_run_os par ord fuel .. = (r, os) -> r <> MOutOfFuel ->
                                        mvp80_run_os par ord (S fuel) .. = (plus_one_cycle r, os)
     mvp80_ssa_straight_sim_mvp63g, mvp63g_l3_80
                                        the two halves: MVP-8.0 against the pipeline of MVP-6.3 started with the (empty)
                                        L3 of MVP-8.0 (128-byte lines, 4096 bytes: st3_of of NewCPU of MVP-8.0), and the
                                        independence of that pipeline of the geometry of an L3 that is never used
                                        (Mvp63L3Indep.v: front end, units on non-memory non-branch runners, write units,
                                        end of Run commute with replacing the L3)
     mvp80_run_ssa_straight, mvp80_refines_seq_ssa_straight, mvp80_ghost_clear_ssa_straight,
     mvp80_terminates_ssa_straight, mvp80_no_panic_ssa_straight
                                        MVP-8.0 returns the sequential registers and memory, ghost flag clear, within
                                        fuel_bound80 (length app) ticks, 2 * c >= executed + 2, c = c63 + 1
     mvp80_ssa_example_any, mvp80_ssa_example_sim, mvp80_ssa_example
                                        the 14-instruction example ex63_prog: any number of cores, any order; and with
                                        3000 ticks at 1..4 cores, two orders
   RATCommit ; RATFlush at the end of Run ranges over the alias tables one cycle later in MVP-8.0; the tables are well
   formed and hold no negative key in the last state (RK, carried through the units and the write units; fin_indep of
   Mvp70Sim63Proofs.v), so the result does not depend on the order function.
   The flush loop is not treated: there is no flush on straight-line programs. *)
From Coq Require Import ZArith List Bool Lia.
From Maj Require Import Base.Outcome Base.GoInt Base.GoTypes Isa.Spec Isa.Embed Isa.Seq Isa.Refine.
From Maj Require Import Gen.Latency Gen.RiscTables Gen.Opcodes Comp.Cache Comp.Rat Comp.RatProofs.
From Maj Require Import Mvp.Mvp12 Mvp.Mvp12Proofs Mvp.Mvp3 Mvp.Mvp3Proofs Mvp.Mvp4Skel Mvp.Mvp4Inv Mvp.Mvp5 Mvp.Mvp60
     Mvp.Mvp60RefSem Mvp.Mvp60RefDefs Mvp.Mvp60RefFront Mvp.Mvp60RefBack Mvp.Mvp60RefStep Mvp.Mvp63.
From Maj Require Import Mvp.Mvp60Proofs Mvp.Mvp63Proofs Mvp.Mvp63Class.
From Maj Require Import Mvp.Mvp60RefStep2 Mvp.Mvp60RefSeg Mvp.Mvp60RefProofs Mvp.Mvp63RefDefs Mvp.Mvp63RefRat Mvp.Mvp63RefInv Mvp.Mvp63RefExec Mvp.Mvp63RefStep Mvp.Mvp63RefProofs.
From Maj Require Mvp.Mvp70Sim63Proofs Mvp.Mvp70Sim63Mvp71 Mvp.Mvp71Sim70.
From Maj Require Import Mvp.Mvp80 Mvp.Mvp80Proofs Mvp.Mvp80RegOnly Mvp.Mvp80RegOnly63 Mvp.Mvp80Sim63Defs Mvp.Mvp80Sim63Loops
     Mvp.Mvp63L3Indep.
Import ListNotations.
Open Scope Z_scope.

Lemma rd_agree8_newest : forall x r,
  (forall reg v, rat_read tu0 (x_trat x) reg = Some v -> fst v <= q_seq r) -> rd_agree x r.
Proof.
  intros x r H reg. unfold rd_agree, rr8, rr3.
  exact (Mvp70Sim63Mvp71.reg_read_tag_newest _ _ _ _ reg (fun v HV => H reg v HV)).
Qed.

(* no entry at the head part of the write bus carries a memory change *)
Definition WQ (c : wb6) : Prop :=
  MemoryChange (w_exe c) = false /\ (RegisterChange (w_exe c) = true -> 0 <= Register (w_exe c)).
Definition NMQ (x : mx) : Prop := Forall WQ (bb_q (m_wbus (x_m x))).

(* the alias tables are well formed and hold no negative key (what fin_indep of Mvp70Sim63Proofs.v needs) *)
Definition RK (x : mx) : Prop :=
  rat_ok (x_crat x) /\ rat_ok (x_trat x) /\
  (forall k v, rat_read 0 (x_crat x) k = Some v -> 0 <= k) /\
  (forall k v, rat_read tu0 (x_trat x) k = Some v -> 0 <= k).

Lemma RK_ext : forall x x', x_crat x' = x_crat x -> x_trat x' = x_trat x -> RK x -> RK x'.
Proof. intros x x' E1 E2 H. unfold RK. rewrite E1, E2. exact H. Qed.

Lemma RK_fin : forall ord x c, RK x ->
  rat_flush3 ord (c + 1) (rat_commit3 ord (c + 1) x) = rat_flush3 ord c (rat_commit3 ord c x).
Proof. intros ord x c (R1 & _ & R3 & R4). exact (Mvp70Sim63Proofs.fin_indep ord (c + 1) ord c x R1 R3 R4). Qed.

Definition WB (B : Z) (y : my) : Prop :=
  y_pref y = [] /\
  (forall reg v, rat_read tu0 (x_trat (y_x y)) reg = Some v -> fst v <= B) /\
  Forall (Mvp71Sim70.QR B) (bb_q (x_ebus (y_x y))) /\
  NMQ (y_x y) /\ RK (y_x y).

Section Units.
  Variables (mem0 : list Z) (c3 : cache) (k0 : msi8) (ccs0 : list cc8).
  Hypothesis Hccs : Forall cc_idle ccs0.
  Hypothesis Hcmds : k_cmds k0 = [].
  Notation INV := (INV mem0 c3 k0 ccs0).

  Lemma eu_run8_fr : forall labels ord cycle y i e y' e' o r,
    eu_run8 labels ord cycle y i e = Ok (y', e', o) -> h_runner e = Some r -> NM r -> nobranch (q_instr r) = true ->
    y_pref y' = y_pref y /\ x_trat (y_x y') = x_trat (y_x y) /\ x_ebus (y_x y') = x_ebus (y_x y) /\
    bb_q (m_wbus (x_m (y_x y'))) = bb_q (m_wbus (x_m (y_x y))) /\ x_crat (y_x y') = x_crat (y_x y) /\ y_flush o = false.
  Proof.
    intros labels ord cycle y i e y' e' o r H ER HN HB. unfold eu_run8 in H. cbv zeta in H.
    rewrite ER in H.
    destruct (instr_Run _ _ _ _ _ _) as [exe|er|] eqn:EX; [| |discriminate].
    2: { inversion H; subst. repeat split; reflexivity. }
    rewrite (nomem_no_change _ _ _ _ _ _ _ HN EX) in H.
    rewrite (run_nobranch_pc _ _ _ _ _ _ _ HN HB EX) in H.
    destruct (Return exe); [inversion H; subst; repeat split; reflexivity|].
    destruct (q_fwder r) as [ch|].
    - destruct (aget ch _); [discriminate|]. destruct (InstructionType_IsBranch _); [discriminate|].
      inversion H; subst. repeat split; reflexivity.
    - rewrite (nobranch_uncond _ HB), (nobranch_cond _ HB) in H. inversion H; subst. repeat split; reflexivity.
  Qed.

  Lemma eu_prepare8_fr : forall labels ord cycle y i e y' e' o r,
    eu_prepare8 labels ord cycle y i e = Ok (y', e', o) -> h_runner e = Some r -> NM r -> nobranch (q_instr r) = true ->
    y_pref y' = y_pref y /\ x_trat (y_x y') = x_trat (y_x y) /\ x_ebus (y_x y') = x_ebus (y_x y) /\
    bb_q (m_wbus (x_m (y_x y'))) = bb_q (m_wbus (x_m (y_x y))) /\ x_crat (y_x y') = x_crat (y_x y) /\ y_flush o = false.
  Proof.
    intros labels ord cycle y i e y' e' o r H ER HN HB. unfold eu_prepare8 in H. cbv zeta in H.
    destruct (negb _); [inversion H; subst; repeat split; reflexivity|].
    rewrite ER in H.
    destruct (q_recv r) as [ch|].
    - destruct (aget ch (x_chan (y_x y))) as [v|]; [|inversion H; subst; repeat split; reflexivity].
      cbv beta iota zeta in H. rewrite nomem_no_read in H by exact HN.
      eapply eu_run8_fr in H; [|cbn [h_runner]; reflexivity|exact HN|exact HB].
      destruct H as (A & B & C & D & G & F). cbn [set_x y_x y_pref] in A, B, C, D, G.
      cbn [q_r] in B, C, D, G. rewrite bu_assert3_trat in B. rewrite bu_assert3_ebus in C. rewrite bu_assert3_wbus in D.
      rewrite bu_assert3_crat in G. repeat split; assumption.
    - cbv beta iota zeta in H. rewrite nomem_no_read in H by exact HN.
      eapply eu_run8_fr in H; [|cbn [h_runner]; reflexivity|exact HN|exact HB].
      destruct H as (A & B & C & D & G & F). cbn [set_x y_x y_pref] in A, B, C, D, G.
      rewrite bu_assert3_trat in B. rewrite bu_assert3_ebus in C. rewrite bu_assert3_wbus in D. rewrite bu_assert3_crat in G.
      repeat split; assumption.
  Qed.

  (* an idle unit with sequence id 0 *)
  Lemma eu_cycle8_WB : forall labels ord cycle i B y e y' e' o,
    eu_cycle8 labels ord cycle y i e = Ok (y', e', o) -> h_co e = HNone -> h_seq e = 0 -> INV y -> WB B y ->
    WB B y' /\ y_flush o = false.
  Proof.
    intros labels ord cycle i B y e y' e' o H HC HS HI (W1 & W2 & W3 & W4 & W5). unfold eu_cycle8 in H.
    rewrite HS in H. cbn [Z.eqb] in H. cbv beta iota zeta in H. rewrite HC, W1, pick8_nil in H.
    destruct (bb_q (x_ebus (y_x y))) as [|r q'] eqn:EQ.
    - inversion H; subst. split; [|reflexivity]. split; [exact W1|]. split; [exact W2|]. split; [rewrite EQ; exact W3|split; [exact W4|exact W5]].
    - assert (HN : NM r). { destruct HI as (_ & _ & (_ & _ & _ & [_ P4] & _)). rewrite EQ in P4. inversion P4; assumption. }
      inversion W3 as [|? ? [Q1 Q2] W3']; subst.
      eapply eu_prepare8_fr in H; [|cbn [h_runner]; reflexivity|exact HN|exact Q2].
      destruct H as (A & B' & C & D & G & F). cbn [set_x y_x y_pref set_ebus3 x_trat x_crat x_ebus x_m] in A, B', C, D, G.
      split; [|exact F]. split; [rewrite A; exact W1|]. split; [rewrite B'; exact W2|].
      split; [rewrite C; cbn [bb_q]; exact W3'|]. split; [unfold NMQ; rewrite D; exact W4|]. exact (RK_ext _ _ G B' W5).
  Qed.

  (* the conditions of eu_cycle_sim *)
  Lemma WB_cond : forall B y e, INV y -> WB B y -> h_co e = HNone -> h_seq e = 0 -> eu_cond y e.
  Proof.
    intros B y e HI (W1 & W2 & W3 & _) HC HS.
    assert (EP : pre8 e = false) by (unfold pre8; rewrite HS; reflexivity).
    split; [exact W1|]. split; [intros HP; rewrite EP in HP; discriminate HP|]. intros _. rewrite HC.
    intros r b' HG. unfold bb_get in HG. destruct (bb_q (x_ebus (y_x y))) as [|r0 q'] eqn:EQ; inversion HG; subst.
    inversion W3 as [|? ? [Q1 Q2] W3']; subst.
    intros x0 r1 EV. unfold Mvp70Sim63Mvp71.recv3 in EV.
    destruct (q_recv r) as [ch|].
    - destruct (aget ch _) as [v|]; [|discriminate]. inversion EV; subst. apply rd_agree8_newest. intros reg v0 HV.
      rewrite bu_assert3_trat in HV. cbn [set_forward3 set_fwd3 set_chan3 set_ebus3 x_trat] in HV.
      unfold q_seq. cbn [q_r]. fold (q_seq r). specialize (W2 reg v0 HV). clear - W2 Q1. lia.
    - inversion EV; subst. apply rd_agree8_newest. intros reg v0 HV.
      rewrite bu_assert3_trat in HV. cbn [set_ebus3 x_trat] in HV.
      specialize (W2 reg v0 HV). clear - W2 Q1. lia.
  Qed.

  Lemma acc_next_seq : forall acc o, y_flush o = false -> y_seq (acc_next acc o) = y_seq acc.
  Proof. intros acc o H. unfold acc_next. rewrite H. reflexivity. Qed.

  Lemma main_cond_WB : forall labels ord cycle B eus y i acc,
    INV y -> WB B y -> Forall EU eus -> Forall (fun e => h_co e = HNone) eus -> y_seq acc = 0 ->
    main_cond labels ord cycle y i eus acc.
  Proof.
    intros labels ord cycle B. induction eus as [|e t IH]; intros y i acc HI HW HE HC HA; [exact I|].
    cbn [main_cond]. inversion HE as [|? ? HE1 HET]; subst. inversion HC as [|? ? HC1 HCT]; subst. rewrite HA.
    split; [exact (WB_cond B y (set_hseq e 0) HI HW HC1 eq_refl)|].
    intros y1 e1 o E1 EO.
    destruct (eu_cycle8_inv mem0 c3 k0 ccs0 Hccs _ _ _ _ _ _ _ _ _ E1 HI (EU_set_hseq e 0 HE1)) as [HI1 _].
    destruct (eu_cycle8_WB _ _ _ _ B _ _ _ _ _ E1 HC1 eq_refl HI HW) as [HW1 HF].
    apply IH; [exact HI1|exact HW1|exact HET|exact HCT|]. rewrite acc_next_seq by exact HF. exact HA.
  Qed.

  Lemma eus_main8_WB : forall labels ord cycle B eus y i acc y' eus' o,
    eus_main8 labels ord cycle y i eus acc = Ok (y', eus', o) ->
    INV y -> WB B y -> Forall EU eus -> Forall (fun e => h_co e = HNone) eus -> y_seq acc = 0 -> y_flush acc = false ->
    WB B y' /\ length eus' = length eus /\ y_flush o = false.
  Proof.
    intros labels ord cycle B. induction eus as [|e t IH]; intros y i acc y' eus' o H HI HW HE HC HA HFa; cbn [eus_main8] in H.
    - inversion H; subst. split; [exact HW|split; [reflexivity|exact HFa]].
    - inversion HE as [|? ? HE1 HET]; subst. inversion HC as [|? ? HC1 HCT]; subst.
      rewrite HA in H.
      apply bind_ok in H as ([[y1 e1] o1] & E1 & H).
      destruct (eu_cycle8_inv mem0 c3 k0 ccs0 Hccs _ _ _ _ _ _ _ _ _ E1 HI (EU_set_hseq e 0 HE1)) as [HI1 _].
      destruct (eu_cycle8_WB _ _ _ _ B _ _ _ _ _ E1 HC1 eq_refl HI HW) as [HW1 HF].
      destruct (y_err o1).
      + inversion H; subst. split; [exact HW1|split; [reflexivity|exact HFa]].
      + cbv zeta in H. rewrite HF, HFa in H. cbn [andb orb] in H.
        apply bind_ok in H as ([[y2 t'] acc2] & E2 & H). inversion H; subst.
        destruct (IH _ _ _ _ _ _ E2 HI1 HW1 HET HCT eq_refl eq_refl) as (A & B' & C).
        split; [exact A|split; [cbn [length]; rewrite B'; reflexivity|exact C]].
  Qed.

  (* the drain loop after ret skips idle units *)
  Lemma eus_drain8_idle : forall labels ord cycle eus i y,
    Forall (fun e => h_co e = HNone) eus -> eus_drain8 labels ord cycle y i eus = Ok (y, eus, None).
  Proof.
    intros labels ord cycle. induction eus as [|e t IH]; intros i y HC; [reflexivity|].
    inversion HC as [|? ? HC1 HCT]; subst. cbn [eus_drain8]. unfold eu_empty8. rewrite HC1. rewrite (IH (S i) y HCT). reflexivity.
  Qed.

  (* the final loop skips idle units whose controllers are idle *)
  Lemma eus_final8_idle : forall labels ord cycle eus i y, INV y -> (i + length eus <= length ccs0)%nat ->
    Forall (fun e => h_co e = HNone) eus -> eus_final8 labels ord cycle y i eus = Ok (y, eus, false).
  Proof.
    intros labels ord cycle. induction eus as [|e t IH]; intros i y HI Hi HC; [reflexivity|].
    inversion HC as [|? ? HC1 HCT]; subst. cbn [eus_final8]. cbn [length] in Hi. cbv zeta.
    pose proof HI as (I1 & I2 & I3).
    destruct (nth_error (y_ccs y) i) as [c|] eqn:EN.
    2: { exfalso. apply nth_error_None in EN. rewrite I2 in EN. clear - EN Hi. lia. }
    assert (HCI : cc_idle c).
    { rewrite I2 in EN. apply nth_error_In in EN. rewrite Forall_forall in Hccs. apply Hccs. exact EN. }
    destruct HCI as (C1 & C2 & _). unfold eu_empty8, cc_read_isstart, cc_write_isstart. rewrite HC1, C1, C2. cbn [andb].
    rewrite (IH (S i) y HI ltac:(clear - Hi; lia) HCT). reflexivity.
  Qed.
End Units.

Lemma wu_cycle8_eq : forall x w before, NMQ x -> wu_cycle8 x w before = wu_cycle3 x w before.
Proof.
  intros x w before H. unfold wu_cycle8, NMQ in *. destruct (bb_q (m_wbus (x_m x))) as [|c t]; [reflexivity|].
  inversion H as [|? ? [H1 _] _]; subst. rewrite H1. rewrite !andb_false_r. reflexivity.
Qed.

Lemma NMQ_MC : forall x, NMQ x -> MC x.
Proof. intros x H. unfold NMQ, MC in *. eapply Forall_impl; [|exact H]. intros a [A _]. exact A. Qed.

Lemma wu_cycle3_nmq : forall x w before x' w', wu_cycle3 x w before = Ok (x', w') -> u_co w = WNone -> NMQ x -> NMQ x'.
Proof. intros x w before x' w' H HW HQ. exact (wu_cycle3_queue _ _ _ _ _ WQ H HW (NMQ_MC _ HQ) HQ). Qed.

Lemma wu_cycle3_rk : forall x w before x' w', wu_cycle3 x w before = Ok (x', w') -> u_co w = WNone -> NMQ x -> RK x -> RK x'.
Proof.
  intros x w before x' w' H HW HQ HR. unfold wu_cycle3 in H. rewrite HW in H. cbv zeta in H. unfold bb_get in H. unfold NMQ in HQ.
  destruct (bb_q (m_wbus (x_m x))) as [|c t] eqn:EQ; cbv beta iota zeta in H.
  - inversion H; subst. exact HR.
  - inversion HQ as [|? ? [H1 H2] HT]; subst.
    destruct (negb (before =? -1) && (before <? w_seq c)); [inversion H; subst; exact HR|].
    destruct (RegisterChange (w_exe c)) eqn:ERC.
    + inversion H; subst. destruct HR as (R1 & R2 & R3 & R4). unfold RK. cbn [set_m set_rats3 x_crat x_trat].
      split; [exact R1|]. split; [apply rat_write_ok; exact R2|]. split; [exact R3|].
      intros k v HV. rewrite (rat_read_write tu0 (x_trat x) _ _ k R2) in HV.
      destruct (Z.eqb_spec k (Register (w_exe c))) as [->|]; [exact (H2 eq_refl)|exact (R4 k v HV)].
    + rewrite H1 in H. inversion H; subst. exact HR.
Qed.

Lemma wus_cycle3_rk : forall wus x before x' wus', wus_cycle3 x wus before = Ok (x', wus') -> Forall WU wus -> NMQ x -> RK x -> RK x'.
Proof.
  induction wus as [|w t IH]; intros x before x' wus' H HW HQ HR; cbn [wus_cycle3] in H.
  - inversion H; subst. exact HR.
  - inversion HW as [|? ? HW1 HWT]; subst. apply bind_ok in H as ([x1 w1] & E1 & H). cbn [fst snd] in H.
    apply bind_ok in H as ([x2 t2] & E2 & H). cbn [fst snd] in H. inversion H; subst.
    exact (IH x1 before _ _ E2 HWT (wu_cycle3_nmq _ _ _ _ _ E1 HW1 HQ) (wu_cycle3_rk _ _ _ _ _ E1 HW1 HQ HR)).
Qed.

Lemma wus_cycle8_eq : forall wus x before, NMQ x -> Forall WU wus -> wus_cycle8 x wus before = wus_cycle3 x wus before.
Proof.
  induction wus as [|w t IH]; intros x before HQ HW; [reflexivity|].
  inversion HW as [|? ? HW1 HWT]; subst. cbn [wus_cycle8 wus_cycle3]. rewrite (wu_cycle8_eq x w before HQ).
  destruct (wu_cycle3 x w before) as [[x1 w1]|er|] eqn:E1; [|reflexivity|reflexivity].
  cbn [bind fst snd]. rewrite (IH x1 before (wu_cycle3_nmq _ _ _ _ _ E1 HW1 HQ) HWT). reflexivity.
Qed.

(* the write units leave the L3 alone *)
Lemma wus_l3_keep : forall wus x b x1 wus1, NMQ x -> Forall WU wus -> wus_cycle3 x wus b = Ok (x1, wus1) ->
  m_l3 (x_m x1) = m_l3 (x_m x).
Proof.
  intros wus x b x1 wus1 HQ HW H. rewrite <- (wus_cycle8_eq wus x b HQ HW) in H.
  destruct (wus_cycle8_px wus x b x1 wus1 H HW) as [EC _]. unfold core_of in EC. inversion EC. reflexivity.
Qed.

(* a step of MVP-8.0 seen from MVP-6.3: entering the final loop is the return of MVP-6.3 *)
Definition proj_res8 (ord : Z -> Z -> list Z -> list Z) (r : step_res8) : step_res3 :=
  match r with
  | VDone r os => TDone r os
  | VCont s' =>
      match v_mode s' with
      | PFinal => TDone (finish3 ord (y_x (v_y s')) (v_cycle s')) (y_os (v_y s'))
      | _ => TCont (st3_of s')
      end
  end.

Lemma forallb_empty_of8 : forall eus, Forall EU eus ->
  forallb eu_empty3 (map eu_of eus) = forallb eu_empty8 eus.
Proof.
  induction eus as [|e t IH]; intros H; [reflexivity|]. inversion H as [|? ? H1 HT]; subst.
  cbn [map forallb]. rewrite (IH HT). f_equal. destruct H1 as [[A|A] _]; unfold eu_empty3, eu_empty8, eu_of; cbn [g_co]; rewrite A; reflexivity.
Qed.

Lemma nm_no_pref : forall y r, NM r -> eu_preference8 y r = None.
Proof.
  intros y r H. unfold NM, nomem in H. apply andb_true_iff in H as [A B]. apply negb_true_iff in A, B.
  unfold eu_preference8. cbv zeta. rewrite A, B. reflexivity.
Qed.

Lemma flat_map_nm : forall y l, (forall r, In r l -> NM r) ->
  flat_map (fun r => match eu_preference8 y r with Some v => [(q_id r, v)] | None => [] end) l = [].
Proof.
  intros y. induction l as [|a t IH]; intros H; [reflexivity|]. cbn [flat_map].
  rewrite (nm_no_pref y a (H a (or_introl eq_refl))). cbn [List.app]. apply IH. intros r Hr. apply H. right. exact Hr.
Qed.

(* the control unit computes no preference when the runners pushed in the cycle are neither loads nor stores *)
Lemma front8_pref : forall app ord cycle y, k_stale (y_msi y) = false ->
  match front8 app ord cycle y with
  | Ok y1 => (forall r, In r (x_prev (y_x y1)) -> NM r) -> y_pref y1 = y_pref y
  | _ => True
  end.
Proof.
  intros app ord cycle y HS. unfold front8. cbv zeta.
  destruct (fu_cycle6 _ _ _ _ _) as [[[fu1 l1i1] dbus1]|er|]; [|exact I|exact I].
  cbn [bind]. destruct (du_cycle3 _ _ _) as [x1|er|]; [|exact I|exact I].
  cbn [bind]. unfold cu_cycle8. cbn [set_x y_msi y_x y_pref]. rewrite HS. cbn [y_x y_pref].
  intros H. rewrite (flat_map_nm _ _ H). apply app_nil_r.
Qed.

Lemma snoops_pref : forall y, y_pref (or_os8 (set_ccs (put_mw y (mw_of y)) (y_ccs y)) false) = y_pref y.
Proof. intros y. reflexivity. Qed.

Lemma snoops_os : forall y, y_os (or_os8 (set_ccs (put_mw y (mw_of y)) (y_ccs y)) false) = y_os y.
Proof. intros y. unfold y_os. rewrite snoops_x. reflexivity. Qed.

(* what back8 returns when no unit asked for a flush *)
Lemma back8_props : forall s cyc y eus1 o s', y_flush o = false -> NMQ (y_x y) -> RK (y_x y) -> Forall WU (v_wus s) ->
  back8 s cyc (y, eus1, o) = VCont s' ->
  y_pref (v_y s') = y_pref y /\ v_eus s' = eus1 /\ (v_mode s' = PFinal -> forallb eu_empty8 eus1 = true) /\ RK (y_x (v_y s')).
Proof.
  intros s cyc y eus1 o s' HF HQ HR HW. unfold back8. destruct (y_err o); [discriminate|].
  rewrite (wus_cycle8_eq (v_wus s) (y_x y) _ HQ HW).
  destruct (wus_cycle3 _ _ _) as [[x1 wus1]|er|] eqn:EW; cbn [res_of8]; try discriminate. cbv zeta. cbn [fst snd].
  pose proof (wus_cycle3_rk _ _ _ _ _ EW HW HQ HR) as HR1.
  destruct (y_ret o).
  - unfold ret_check8. cbn [v_eus v_wus v_y v_cycle].
    destruct (forallb eu_empty8 eus1) eqn:EB; cbn [andb].
    + destruct (_ && _); intros H; inversion H; subst; cbn [v_y v_eus v_mode]; (split; [reflexivity|split; [reflexivity|split; [|exact HR1]]]);
        intros X; first [reflexivity|discriminate X].
    + intros H; inversion H; subst; cbn [v_y v_eus v_mode]. split; [reflexivity|split; [reflexivity|split; [|exact HR1]]]. intros X; discriminate X.
  - rewrite HF. destruct (is_empty8 _ _ _) eqn:EE; intros H; inversion H; subst; cbn [v_y v_eus v_mode];
      (split; [reflexivity|split; [reflexivity|split; [|exact HR1]]]).
    + intros _. unfold is_empty8 in EE. apply andb_true_iff in EE as [_ EE]. exact EE.
    + intros X; discriminate X.
Qed.

(* outside the final loop a tick ends Run only with an error or a panic: nothing to add a cycle to *)
Lemma step8_done_same : forall app labels ord s r os, v_mode s <> PFinal ->
  step8 app labels ord s = VDone r os -> plus_one_cycle r = r.
Proof.
  intros app labels ord s r os HNF H. pose proof (step8_tick_ok app labels ord s) as T. rewrite H in T.
  destruct r; [destruct T as [T _]; contradiction|reflexivity|reflexivity|contradiction].
Qed.

Lemma back_sim8 : forall ord s cycle y eus1 o,
  NMQ (y_x y) -> Forall EU eus1 -> Forall WU (v_wus s) -> y_flush o = false ->
  back3 ord (st3_of s) cycle (y_x y, map eu_of eus1, o) = proj_res8 ord (back8 s cycle (y, eus1, o)).
Proof.
  intros ord s cycle y eus1 o HQ HE HW HF. unfold back3, back8.
  destruct (y_err o); [reflexivity|].
  cbn [st3_of t_wus]. rewrite (wus_cycle8_eq (v_wus s) (y_x y) _ HQ HW). unfold y_os.
  destruct (wus_cycle3 (y_x y) (v_wus s) (if y_flush o then y_seq o else -1)) as [[x1 wus1]|er|];
    [|reflexivity|reflexivity].
  cbn [res_of3 res_of8 fst snd]. cbv zeta.
  destruct (y_ret o).
  - unfold ret_check3, ret_check8. cbn [t_eus t_wus t_x t_cycle v_eus v_wus v_y v_cycle wbus_connect8 set_x y_x].
    rewrite (forallb_empty_of8 eus1 HE).
    destruct (forallb eu_empty8 eus1 && forallb wu_empty wus1 && bb_isempty (m_wbus (x_m (wbus_connect3 x1 (cycle + 1))))); reflexivity.
  - rewrite HF. unfold is_empty3, is_empty8. cbn [set_x y_x]. rewrite (forallb_empty_of8 eus1 HE).
    match goal with |- (if ?c then _ else _) = _ => destruct c end; reflexivity.
Qed.

Section Tick.
  Variables (app : list instr) (labels : Z -> option Z) (regs0 mem0 : list Z) (ord : Z -> Z -> list Z -> list Z).
  Variables (c3 : cache) (ccs0 : list cc8).
  Hypothesis Happ : wf_app app.
  Hypothesis Hstr : straight app = true.
  Hypothesis Hreg : reg_only app = true.
  Hypothesis Hssa : ssa app = true.
  Hypothesis Hrng : regs_ok app = true.
  Hypothesis Hlen0 : length regs0 = 32%nat.
  Hypothesis Hr32 : Forall int32 regs0.
  Hypothesis Hx0 : nth 0 regs0 0 = 0.
  Hypothesis Hsem : forall k, (0 <= k <= stop_from app 0)%nat -> (k < length app)%nat ->
    exec (sinstr_of (ik app k)) (rget (sreg app labels regs0 0 k)) labels (pcz k) [] = Ok (eff app labels regs0 0 k) /\
    (forall a, etarget (eff app labels regs0 0 k) = Some a -> exists t, a = pcz t /\ (k < t <= length app)%nat).
  Hypothesis Hccs : Forall cc_idle ccs0.
  Hypothesis Hl3 : lines c3 = [].

  Notation "'IE' L" := (L app labels regs0 mem0 ord Happ Hstr Hreg Hssa Hrng Hlen0 Hr32 Hx0 Hsem) (at level 10, L at level 9, only parsing).
  Notation BI := (BI app labels regs0 mem0).
  Notation G3 := (G3 app labels regs0 mem0).
  Notation GR3 := (GR3 app labels regs0 mem0).
  Notation SInv3 := (SInv3 app labels regs0 mem0).
  Notation INV := (INV mem0 c3 msi_new ccs0).
  Notation SI := (SI mem0 c3 msi_new ccs0).

  Lemma regonly_app : regonly app = true.
  Proof. rewrite regonly_reg_only. exact Hreg. Qed.

  Lemma BI_NMQ : forall dp d xe w pl pv x, BI dp d xe w pl pv x -> NMQ x.
  Proof.
    intros dp d xe w pl pv x HB. unfold NMQ. apply Forall_forall. intros c Hc.
    assert (Hin : In c (flat (m_wbus (x_m x)))) by (unfold flat; apply in_or_app; left; exact Hc).
    rewrite (bi_wbus _ _ _ _ _ _ _ _ _ _ _ HB) in Hin. apply in_map_iff in Hin as (k & Ek & Hk). apply in_seq in Hk. subst c.
    pose proof (bi_xeN _ _ _ _ _ _ _ _ _ _ _ HB) as HxN. pose proof (bi_ord _ _ _ _ _ _ _ _ _ _ _ HB) as Ho.
    pose proof (stop_from_le app 0 ltac:(lia)) as HN.
    destruct (exe_flags app labels regs0 Hstr Hreg Hlen0 Hsem k ltac:(clear - Hk HxN Ho; lia) ltac:(clear - Hk HxN Ho HN; lia)) as (_ & B & _).
    split; [exact B|]. intros Erc. change (RegisterChange (exe app labels regs0 k) = true) in Erc.
    change (0 <= Register (exe app labels regs0 k)).
    destruct (exe_reg app labels regs0 k Erc) as [[E0 _]|(Hnz & v & He & Ev)]; [rewrite E0; apply Z.le_refl|].
    assert (Hw : wrs app k = [Register (exe app labels regs0 k)]) by (apply (eff_wrs app labels regs0); destruct He as [->|(a & ->)]; reflexivity).
    pose proof (wrs_rng app Hrng k (Register (exe app labels regs0 k)) ltac:(rewrite Hw; left; reflexivity)) as X. clear - X. lia.
  Qed.

  Lemma BI_RK : forall dp d xe w pl pv x, BI dp d xe w pl pv x -> RK x.
  Proof.
    intros dp d xe w pl pv x HB. split; [exact (bi_cok _ _ _ _ _ _ _ _ _ _ _ HB)|]. split; [exact (bi_tok _ _ _ _ _ _ _ _ _ _ _ HB)|]. split.
    - intros k v HV. rewrite (bi_crat _ _ _ _ _ _ _ _ _ _ _ HB) in HV. destruct (0 <=? k) eqn:E; cbn [andb] in HV; [apply Z.leb_le; exact E|discriminate HV].
    - intros k v HV. rewrite (bi_trat _ _ _ _ _ _ _ _ _ _ _ HB) in HV.
      assert (H : tv app labels regs0 w k <> None) by (rewrite HV; discriminate).
      exact (proj1 (tv_rng app labels regs0 Hrng Hlen0 w k H)).
  Qed.

  Lemma BI_WB8 : forall dp d xe w pl pv x y, BI dp d xe w pl pv x -> y_x y = x -> y_pref y = [] -> WB (pcz xe) y.
  Proof.
    intros dp d xe w pl pv x y HB Ex Ep. subst x. split; [exact Ep|]. split; [|split; [|split]].
    - exact (Mvp71Sim70.BI_tags app labels regs0 mem0 _ _ _ _ _ _ _ HB).
    - exact (Mvp71Sim70.BI_queue app labels regs0 mem0 Hstr _ _ _ _ _ _ _ HB).
    - exact (BI_NMQ _ _ _ _ _ _ _ HB).
    - exact (BI_RK _ _ _ _ _ _ _ HB).
  Qed.

  Lemma idle_of8 : forall eus, Forall EU eus -> Forall EuIdle (map eu_of eus) -> Forall (fun e => h_co e = HNone) eus.
  Proof.
    intros eus HE Ge. apply Forall_forall. intros e He. rewrite Forall_forall in Ge.
    destruct (Ge (eu_of e) (in_map eu_of _ _ He)) as [Hco _].
    rewrite Forall_forall in HE. destruct (HE e He) as ([A|A] & _); [exact A|].
    unfold eu_of in Hco. cbn [g_co] in Hco. rewrite A in Hco. discriminate Hco.
  Qed.

  (* what a tick has to deliver besides the simulation equation *)
  Definition NextOK (s : st8) : Prop :=
    forall s', step8 app labels ord s = VCont s' ->
      y_pref (v_y s') = [] /\ length (v_eus s') = length ccs0 /\ (v_mode s' = PFinal -> forallb eu_empty8 (v_eus s') = true) /\
      RK (y_x (v_y s')).
  (* the step of MVP-6.3 from the projected state does not depend on the (empty) L3 *)
  Definition L3OK (s : st8) : Prop := forall c, lines c = [] ->
    step3 app labels ord (sl3s c (st3_of s)) = lift_step c (step3 app labels ord (st3_of s)).

  (* the main loop *)
  Lemma tick_normal8 : forall dp d c f xe wb y eus wus cyc,
    SI (mk_st8 y eus wus cyc PNormal) -> length eus = length ccs0 -> y_pref y = [] ->
    G3 dp d c f xe wb (st3_of (mk_st8 y eus wus cyc PNormal)) ->
    step3 app labels ord (st3_of (mk_st8 y eus wus cyc PNormal)) = proj_res8 ord (step8 app labels ord (mk_st8 y eus wus cyc PNormal)) /\
    NextOK (mk_st8 y eus wus cyc PNormal) /\ L3OK (mk_st8 y eus wus cyc PNormal).
  Proof.
    intros dp d c f xe wb y eus wus cyc (HI & HE & HW) HL HP HG. cbn [v_y v_eus v_wus] in HI, HE, HW.
    destruct (IE front_tick3 _ _ _ _ _ _ _ HG) as (x4 & lp & c' & f' & [Efront _ _ HB4 _ _ _ _ _ _ _ _]).
    cbn [st3_of t_x t_cycle v_y v_cycle] in Efront.
    assert (HST : k_stale (y_msi y) = false) by (rewrite (proj1 HI); reflexivity).
    pose proof (front_sim app ord (cyc + 1) y HST) as FS. rewrite Efront in FS.
    pose proof (front8_pref app ord (cyc + 1) y HST) as FP.
    destruct (front8 app ord (cyc + 1) y) as [y1| |] eqn:EF8; cbn [lift_y] in FS; try discriminate FS.
    injection FS as FS.
    assert (HI1 : INV y1) by (eapply (front8_inv mem0 c3 msi_new ccs0 app regonly_app eq_refl); [exact EF8|exact HI]).
    assert (HNMprev : forall r, In r (x_prev (y_x y1)) -> NM r).
    { rewrite <- FS. intros p Hp. destruct (bi_prev _ _ _ _ _ _ _ _ _ _ _ HB4 p Hp) as (Hin & _).
      destruct HI1 as (_ & _ & (_ & _ & _ & [P4a P4b] & _)). rewrite <- FS in P4a, P4b.
      unfold flat in Hin. apply in_app_or in Hin as [Hin|Hin].
      + rewrite Forall_forall in P4b. apply P4b. exact Hin.
      + apply in_map_iff in Hin as (z & Ez & Hz). subst p. rewrite Forall_forall in P4a. exact (P4a z Hz). }
    assert (HP1 : y_pref y1 = []) by (rewrite (FP HNMprev); exact HP).
    set (y2 := or_os8 (set_ccs (put_mw y1 (mw_of y1)) (y_ccs y1)) false).
    assert (ES : snoops8 ord (cyc + 1) y1 = Ok y2) by (apply (snoops8_idle mem0 c3 msi_new ccs0 eq_refl Hccs); exact HI1).
    assert (HI2 : INV y2) by (eapply (snoops8_inv mem0 c3 msi_new ccs0 eq_refl Hccs); [exact ES|exact HI1]).
    assert (EX2 : y_x y2 = x4) by (unfold y2; rewrite snoops_x; symmetry; exact FS).
    assert (HW2 : WB (pcz xe) y2) by (eapply BI_WB8; [exact HB4|exact EX2|unfold y2; rewrite snoops_pref; exact HP1]).
    assert (HC : Forall (fun e => h_co e = HNone) eus) by (apply idle_of8; [exact HE|exact (g3_eus _ _ _ _ _ _ _ _ _ _ _ HG)]).
    assert (HLi : (0 + length eus <= length ccs0)%nat) by (rewrite HL; apply le_n).
    pose proof (eus_main_sim mem0 c3 msi_new ccs0 Hccs labels ord (cyc + 1) eus y2 0%nat yo_none HI2 HE HLi
                  (main_cond_WB mem0 c3 msi_new ccs0 Hccs labels ord (cyc + 1) (pcz xe) eus y2 0%nat yo_none HI2 HW2 HE HC eq_refl)) as EM.
    rewrite EX2 in EM.
    assert (E8 : step8 app labels ord (mk_st8 y eus wus cyc PNormal) =
                 res_of8 (y_os y2) (eus_main8 labels ord (cyc + 1) y2 0 eus yo_none) (back8 (mk_st8 y eus wus cyc PNormal) (cyc + 1))).
    { unfold step8. cbn [v_y v_eus v_wus v_cycle v_mode]. cbv zeta. rewrite EF8. cbn [res_of8]. rewrite ES. cbn [res_of8]. reflexivity. }
    assert (E3 : step3 app labels ord (st3_of (mk_st8 y eus wus cyc PNormal)) =
                 (let '(os1, re) := eus_main3 labels ord (cyc + 1) x4 (map eu_of eus) yo_none in
                  res_of3 (x_os x4 || os1) re (fun z => let '(x1, eus1, o) := z in
                    back3 ord (st3_of (mk_st8 y eus wus cyc PNormal)) (cyc + 1) (or_os x1 os1, eus1, o)))).
    { unfold step3. cbn [st3_of t_x t_eus t_cycle t_mode v_y v_eus v_cycle v_mode mode_of]. cbv zeta. rewrite Efront. cbn [res_of3]. reflexivity. }
    assert (EOS : y_os y2 = x_os x4) by (unfold y_os; rewrite EX2; reflexivity).
    assert (HL3 : L3OK (mk_st8 y eus wus cyc PNormal)).
    { intros cc Hc. rewrite E3.
      assert (HEN : Forall (fun e => g_co e = ENone) (map eu_of eus)).
      { eapply Forall_impl; [|exact (g3_eus _ _ _ _ _ _ _ _ _ _ _ HG)]. intros a [A _]. exact A. }
      assert (HNMB : Forall NMB (bb_q (x_ebus x4))).
      { rewrite <- EX2. destruct HW2 as (_ & _ & W3 & _). destruct HI2 as (_ & _ & (_ & _ & _ & [_ P4] & _)).
        apply Forall_forall. intros r Hr. rewrite Forall_forall in W3, P4. split; [exact (P4 r Hr)|exact (proj2 (W3 r Hr))]. }
      unfold step3. cbn [sl3s st3_of t_x t_eus t_wus t_cycle t_mode v_y v_eus v_wus v_cycle v_mode mode_of]. cbv zeta.
      rewrite front3_l3, Efront. cbn [lo_x res_of3].
      rewrite (eus_main3_l3 cc labels ord (cyc + 1) (map eu_of eus) x4 yo_none HEN HNMB). rewrite EM. cbn [fst snd].
      destruct (eus_main8 labels ord (cyc + 1) y2 0 eus yo_none) as [[[y3 eus1] o]|er|] eqn:EM8; cbn [lift_eus lo_eus res_of3 lift_step];
        [|reflexivity|reflexivity].
      destruct (eus_main8_WB mem0 c3 msi_new ccs0 Hccs _ _ _ _ _ _ _ _ _ _ _ EM8 HI2 HW2 HE HC eq_refl eq_refl) as ((_ & _ & _ & W4 & _) & _ & _).
      destruct (eus_main8_inv mem0 c3 msi_new ccs0 Hccs _ _ _ _ _ _ _ _ _ _ EM8 HI2 HE) as [HI3 _].
      rewrite !or_os_false.
      refine (back3_l3 cc ord (st3_of (mk_st8 y eus wus cyc PNormal)) (cyc + 1) (y_x y3) (map eu_of eus1) o Hc (NMQ_MC _ W4) HW _).
      intros b x1 wus1 EW. cbn [st3_of t_wus v_wus] in EW. rewrite (wus_l3_keep _ _ _ _ _ W4 HW EW).
      destruct HI3 as (_ & _ & (_ & P2 & _)). rewrite P2. exact Hl3. }
    unfold NextOK. rewrite E3, E8, EM. clear E3 E8 EM.
    destruct (eus_main8 labels ord (cyc + 1) y2 0 eus yo_none) as [[[y3 eus1] o]|er|] eqn:EM8; cbn [lift_eus res_of3 res_of8 proj_res8].
    - destruct (eus_main8_WB mem0 c3 msi_new ccs0 Hccs _ _ _ _ _ _ _ _ _ _ _ EM8 HI2 HW2 HE HC eq_refl eq_refl) as ((W1 & W2 & W3 & W4 & W5) & HL1 & HF).
      destruct (eus_main8_inv mem0 c3 msi_new ccs0 Hccs _ _ _ _ _ _ _ _ _ _ EM8 HI2 HE) as [HI3 HE3].
      split; [|split; [|exact HL3]].
      + rewrite or_os_false. exact (back_sim8 ord (mk_st8 y eus wus cyc PNormal) (cyc + 1) y3 eus1 o W4 HE3 HW HF).
      + intros s' H. destruct (back8_props (mk_st8 y eus wus cyc PNormal) _ _ _ _ _ HF W4 W5 HW H) as (A & B & C & D0). rewrite A, B.
        split; [exact W1|]. split; [rewrite HL1; exact HL|split; [exact C|exact D0]].
    - rewrite orb_false_r, EOS. split; [reflexivity|]. split; [intros s' H; discriminate H|exact HL3].
    - rewrite orb_false_r, EOS. split; [reflexivity|]. split; [intros s' H; discriminate H|exact HL3].
  Qed.

  (* condition of the drain loop after ret *)
  Lemma ret_check_sim8 : forall y eus wus cyc, Forall EU eus ->
    ret_check3 ord (mk_st3 (y_x y) (map eu_of eus) wus cyc NRet) = proj_res8 ord (ret_check8 (mk_st8 y eus wus cyc PRet)).
  Proof.
    intros y eus wus cyc HE. unfold ret_check3, ret_check8. cbn [t_eus t_wus t_x t_cycle v_eus v_wus v_y v_cycle].
    rewrite (forallb_empty_of8 eus HE).
    destruct (forallb eu_empty8 eus && forallb wu_empty wus && bb_isempty (m_wbus (x_m (y_x y)))); reflexivity.
  Qed.

  Lemma ret_check8_props : forall y eus wus cyc s', ret_check8 (mk_st8 y eus wus cyc PRet) = VCont s' ->
    v_y s' = y /\ v_eus s' = eus /\ (v_mode s' = PFinal -> forallb eu_empty8 eus = true).
  Proof.
    intros y eus wus cyc s'. unfold ret_check8. cbn [v_eus v_wus v_y v_cycle].
    destruct (forallb eu_empty8 eus) eqn:EB; cbn [andb].
    - destruct (_ && _); intros H; inversion H; subst; cbn [v_y v_eus v_mode]; (split; [reflexivity|split; [reflexivity|]]); intros X; first [reflexivity|discriminate X].
    - intros H; inversion H; subst; cbn [v_y v_eus v_mode]. split; [reflexivity|split; [reflexivity|]]. intros X; discriminate X.
  Qed.

  (* the drain loop after ret *)
  Lemma tick_ret8 : forall wb y eus wus cyc,
    SI (mk_st8 y eus wus cyc PRet) -> length eus = length ccs0 -> y_pref y = [] ->
    GR3 wb (st3_of (mk_st8 y eus wus cyc PRet)) ->
    step3 app labels ord (st3_of (mk_st8 y eus wus cyc PRet)) = proj_res8 ord (step8 app labels ord (mk_st8 y eus wus cyc PRet)) /\
    NextOK (mk_st8 y eus wus cyc PRet) /\ L3OK (mk_st8 y eus wus cyc PRet).
  Proof.
    intros wb y eus wus cyc (HI & HE & HW) HL HP HG. cbn [v_y v_eus v_wus] in HI, HE, HW.
    pose proof (r3_eus _ _ _ _ _ _ HG) as GE. cbn [st3_of t_eus v_eus] in GE.
    assert (HC : Forall (fun e => h_co e = HNone) eus) by (apply idle_of8; [exact HE|exact GE]).
    set (y2 := or_os8 (set_ccs (put_mw y (mw_of y)) (y_ccs y)) false).
    assert (ES : snoops8 ord cyc y = Ok y2) by (apply (snoops8_idle mem0 c3 msi_new ccs0 eq_refl Hccs); exact HI).
    assert (EX2 : y_x y2 = y_x y) by apply snoops_x.
    destruct (r3_bi _ _ _ _ _ _ HG) as (dp & HB). cbn [st3_of t_x v_y] in HB.
    assert (HQ : NMQ (y_x y2)) by (rewrite EX2; exact (BI_NMQ _ _ _ _ _ _ _ HB)).
    assert (HQ0 : NMQ (y_x y)) by exact (BI_NMQ _ _ _ _ _ _ _ HB).
    assert (HRK : RK (y_x y)) by exact (BI_RK _ _ _ _ _ _ _ HB).
    assert (E8 : step8 app labels ord (mk_st8 y eus wus cyc PRet) =
                 res_of8 (y_os y2) (wus_cycle8 (y_x y2) wus (-1)) (fun r =>
                   ret_check8 (mk_st8 (wbus_connect8 (set_x y2 (fst r)) (cyc + 1)) eus (snd r) (cyc + 1) PRet))).
    { unfold step8. cbn [v_y v_eus v_wus v_cycle v_mode]. cbv zeta. rewrite ES. cbn [res_of8].
      rewrite (eus_drain8_idle labels ord cyc eus 0%nat y2 HC). cbn [res_of8]. reflexivity. }
    assert (E3 : step3 app labels ord (st3_of (mk_st8 y eus wus cyc PRet)) =
                 res_of3 (x_os (y_x y)) (wus_cycle3 (y_x y) wus (-1)) (fun r => let '(x2, wus1) := r in
                   ret_check3 ord (mk_st3 (wbus_connect3 x2 (cyc + 1)) (map eu_of eus) wus1 (cyc + 1) NRet))).
    { unfold step3. cbn [st3_of t_x t_eus t_wus t_cycle t_mode v_y v_eus v_wus v_cycle v_mode mode_of]. cbv zeta.
      rewrite (IE eus_drain_idle cyc (y_x y) _ GE). cbn [orb res_of3]. rewrite !or_os_false. reflexivity. }
    assert (EOS : y_os y2 = x_os (y_x y)) by (unfold y_os; rewrite EX2; reflexivity).
    assert (HL3 : L3OK (mk_st8 y eus wus cyc PRet)).
    { intros c Hc. rewrite E3.
      unfold step3. cbn [sl3s st3_of t_x t_eus t_wus t_cycle t_mode v_y v_eus v_wus v_cycle v_mode mode_of]. cbv zeta.
      rewrite (IE eus_drain_idle cyc (sl3 c (y_x y)) _ GE). cbn [orb res_of3]. rewrite !or_os_false.
      rewrite (wus_cycle3_l3 c wus (y_x y) (-1) HW (NMQ_MC _ HQ0)).
      destruct (wus_cycle3 (y_x y) wus (-1)) as [[x2 wus1]|er|] eqn:EW; cbn [lo_w res_of3 lift_step]; [|reflexivity|reflexivity].
      rewrite wbus_connect3_sl3. apply ret_check3_l3; [exact Hc|].
      change (lines (m_l3 (x_m x2)) = []). rewrite (wus_l3_keep _ _ _ _ _ HQ0 HW EW).
      destruct HI as (_ & _ & (_ & P2 & _)). rewrite P2. exact Hl3. }
    unfold NextOK. rewrite E3, E8, (wus_cycle8_eq wus (y_x y2) (-1) HQ HW), EX2, EOS. clear E3 E8.
    destruct (wus_cycle3 (y_x y) wus (-1)) as [[x2 wus1]|er|] eqn:EW; cbn [res_of3 res_of8 proj_res8 fst snd].
    - pose proof (wus_cycle3_rk _ _ _ _ _ EW HW HQ0 HRK) as HR2.
      split; [|split; [|exact HL3]].
      + exact (ret_check_sim8 (wbus_connect8 (set_x y2 x2) (cyc + 1)) eus wus1 (cyc + 1) HE).
      + intros s' H. destruct (ret_check8_props _ _ _ _ _ H) as (A & B & C). rewrite A, B.
        split; [exact HP|]. split; [exact HL|split; [exact C|exact HR2]].
    - split; [reflexivity|]. split; [intros s' H; discriminate H|exact HL3].
    - split; [reflexivity|]. split; [intros s' H; discriminate H|exact HL3].
  Qed.

  (* the final loop of MVP-8.0 runs once, finds nothing to do, and Run returns what MVP-6.3 returned one cycle earlier *)
  Lemma final8 : forall s, SI s -> length (v_eus s) = length ccs0 -> v_mode s = PFinal -> forallb eu_empty8 (v_eus s) = true ->
    RK (y_x (v_y s)) ->
    step8 app labels ord s = VDone (plus_one_cycle (finish3 ord (y_x (v_y s)) (v_cycle s))) (y_os (v_y s)).
  Proof.
    intros s (HI & HE & HW) HL HM HF HRK. unfold step8. rewrite HM. cbv zeta.
    assert (HQ : forallb cc_snoop_isstart (y_ccs (v_y s)) = true).
    { rewrite (proj1 (proj2 HI)). apply forallb_forall. intros c Hc. rewrite Forall_forall in Hccs.
      destruct (Hccs c Hc) as (_ & _ & C & _). unfold cc_snoop_isstart. rewrite C. reflexivity. }
    rewrite HQ. rewrite (snoops8_idle mem0 c3 msi_new ccs0 eq_refl Hccs ord (v_cycle s + 1) (v_y s) HI). cbn [res_of8].
    set (y2 := or_os8 (set_ccs (put_mw (v_y s) (mw_of (v_y s))) (y_ccs (v_y s))) false).
    assert (HI2 : INV y2).
    { eapply (snoops8_inv mem0 c3 msi_new ccs0 eq_refl Hccs); [|exact HI].
      apply (snoops8_idle mem0 c3 msi_new ccs0 eq_refl Hccs ord (v_cycle s + 1)). exact HI. }
    assert (HC : Forall (fun e => h_co e = HNone) (v_eus s)).
    { apply Forall_forall. intros e He. rewrite forallb_forall in HF. specialize (HF e He). unfold eu_empty8 in HF.
      destruct (h_co e); try discriminate HF. reflexivity. }
    assert (HLi : (0 + length (v_eus s) <= length ccs0)%nat) by (rewrite HL; apply le_n).
    rewrite (eus_final8_idle mem0 c3 msi_new ccs0 Hccs labels ord (v_cycle s + 1) (v_eus s) 0%nat y2 HI2 HLi HC). cbn [res_of8 andb negb].
    rewrite (finish_sim mem0 c3 msi_new ccs0 ord y2 (v_cycle s) Hccs Hl3 HI2
               ltac:(unfold y2; rewrite snoops_x; apply RK_fin; exact HRK)).
    unfold y2. rewrite snoops_x, snoops_os. reflexivity.
  Qed.

  (* the run invariant *)
  Definition CI8 (s : st8) : Prop :=
    SI s /\ length (v_eus s) = length ccs0 /\ y_pref (v_y s) = [] /\
    match v_mode s with PFinal => forallb eu_empty8 (v_eus s) = true /\ RK (y_x (v_y s)) | _ => SInv3 (st3_of s) end.

  Theorem tick8 : forall s, CI8 s -> v_mode s <> PFinal ->
    step3 app labels ord (st3_of s) = proj_res8 ord (step8 app labels ord s) /\
    (forall s', step8 app labels ord s = VCont s' -> CI8 s') /\ L3OK s.
  Proof.
    intros s (HS & HL & HP & HM) HNF.
    assert (HSI : SInv3 (st3_of s)) by (destruct (v_mode s); try exact HM; exfalso; apply HNF; reflexivity).
    assert (K : step3 app labels ord (st3_of s) = proj_res8 ord (step8 app labels ord s) /\ NextOK s /\ L3OK s).
    { destruct s as [y eus wus cyc md]. cbn [v_mode v_eus v_y] in HL, HP, HNF.
      destruct HSI as [dp d c f xe wb HG|wb HG].
      - pose proof (g3_mode _ _ _ _ _ _ _ _ _ _ _ HG) as X. cbn [st3_of t_mode v_mode] in X.
        destruct md; cbn [mode_of] in X; try discriminate X; [|exfalso; apply HNF; reflexivity].
        exact (tick_normal8 dp d c f xe wb y eus wus cyc HS HL HP HG).
      - pose proof (r3_mode _ _ _ _ _ _ HG) as X. cbn [st3_of t_mode v_mode] in X.
        destruct md; cbn [mode_of] in X; try discriminate X.
        exact (tick_ret8 wb y eus wus cyc HS HL HP HG). }
    destruct K as (E & HN & HL3). split; [exact E|split; [|exact HL3]].
    intros s' H. destruct (HN s' H) as (A & B & C & D0).
    pose proof (step8_ok mem0 c3 msi_new ccs0 app regonly_app eq_refl eq_refl Hccs Hl3 labels ord s HS) as HR. rewrite H in HR. cbn [res_ok] in HR.
    split; [exact HR|]. split; [exact B|]. split; [exact A|].
    rewrite H in E. cbn [proj_res8] in E.
    destruct (v_mode s') eqn:EM'; try (exact (IE Mvp71Sim70.SInv3_step _ _ HSI E)). exact (conj (C eq_refl) D0).
  Qed.

  (* whole runs from a state of the invariant: one tick and one cycle more *)
  Theorem run8_sim : forall fuel s r os, CI8 s -> v_mode s <> PFinal ->
    run3_st fuel app labels ord (st3_of s) = inl (r, os) -> run8_st (S fuel) app labels ord s = inl (plus_one_cycle r, os).
  Proof.
    induction fuel as [|f IH]; intros s r os HC HNF H; [discriminate H|].
    cbn [run3_st] in H. destruct (tick8 s HC HNF) as (E & HN & _). rewrite E in H.
    change (run8_st (S (S f)) app labels ord s) with
      (match step8 app labels ord s with VDone r os => inl (r, os) | VCont s' => run8_st (S f) app labels ord s' end).
    destruct (step8 app labels ord s) as [r1 os1|s1] eqn:ES; cbn [proj_res8] in H.
    - inversion H; subst. rewrite (step8_done_same _ _ _ _ _ _ HNF ES). reflexivity.
    - pose proof (HN s1 eq_refl) as HC1.
      destruct (v_mode s1) eqn:EM1.
      5: { inversion H; subst. cbn [run8_st]. destruct HC1 as (S1 & L1 & P1 & M1). rewrite EM1 in M1.
           rewrite (final8 s1 S1 L1 EM1 (proj1 M1) (proj2 M1)). reflexivity. }
      all: apply IH; [exact HC1|rewrite EM1; discriminate|exact H].
  Qed.

  (* whole runs of the pipeline of MVP-6.3 from the projected state do not depend on the (empty) L3 *)
  Theorem run3_l3 : forall c, lines c = [] -> forall fuel s, CI8 s -> v_mode s <> PFinal ->
    run3_st fuel app labels ord (sl3s c (st3_of s)) =
    match run3_st fuel app labels ord (st3_of s) with inl r => inl r | inr s' => inr (sl3s c s') end.
  Proof.
    intros c Hc. induction fuel as [|f IH]; intros s HC HNF; [reflexivity|].
    cbn [run3_st]. destruct (tick8 s HC HNF) as (E & HN & HL). rewrite (HL c Hc), E.
    destruct (step8 app labels ord s) as [r1 os1|s1] eqn:ES; cbn [proj_res8 lift_step]; [reflexivity|].
    pose proof (HN s1 eq_refl) as HC1.
    destruct (v_mode s1) eqn:EM1; cbn [lift_step]; try reflexivity; apply IH; try exact HC1; rewrite EM1; discriminate.
  Qed.
End Tick.

(* the pipeline of MVP-6.3 started with another L3 cache (init3 of Mvp63.v with the second new_cache as a parameter) *)
Definition init3g (oc3 : outcome cache) (par : nat) (ord : Z -> Z -> list Z -> list Z) (app : list instr) (st : arch) : outcome st3 :=
  match new_cache l1LineSize l1Size, oc3 with
  | Ok ci, Ok c3 =>
      let busSize := 2 in
      let m := mk_mach (regs st) (mem st) zero_sb zero_sb ci c3 []
                       (mk_fu6 0 false false FNone 0) false false [] (mk_bu6 false 0 [])
                       (bb_new busSize busSize) (bb_new busSize busSize) (bb_new busSize busSize) (bb_new busSize busSize) in
      let x := mk_mx m (bb_new busSize busSize) [] [] false 0 (init_rat3 ord (regs st)) (rat_new ratLength)
                     (repeat (0, 0) (length app)) [] 1 false in
      Ok (mk_st3 x (repeat (mk_eu3 ENone [] None 0) par) (repeat (mk_wu6 WNone None) par) 0 NNormal)
  | _, _ => Panic
  end.

Definition mvp63g_run_os (oc3 : outcome cache) (par : nat) (ord : Z -> Z -> list Z -> list Z) (fuel : nat) (app : list instr)
           (labels : Z -> option Z) (st : arch) : mres * bool :=
  match init3g oc3 par ord app st with
  | Ok s => match run3_st fuel app labels ord s with
            | inl r => r
            | inr s' => (MOutOfFuel, x_os (t_x s'))
            end
  | _ => (MPanic, false)
  end.

(* with its own L3 it is MVP-6.3 *)
Lemma mvp63g_own : forall par ord fuel app labels st,
  mvp63g_run_os (new_cache l3LineSize l3Size) par ord fuel app labels st = mvp63_run_os par ord fuel app labels st.
Proof. reflexivity. Qed.

(* the L3 of MVP-8.0 *)
Definition l3_80 : outcome cache := new_cache l3LineSize8 l3Size8.

Lemma init8_st3 : forall par ord app st s8, init8 par ord app st = Ok s8 -> init3g l3_80 par ord app st = Ok (st3_of s8).
Proof.
  intros par ord app st s8 H. unfold init8 in H. unfold init3g, l3_80.
  destruct (new_cache l1LineSize l1Size) as [ci| |]; try discriminate H.
  destruct (new_cache l3LineSize8 l3Size8) as [c3| |]; try discriminate H.
  destruct (new_cache l1dLineSize l1dSize) as [cd| |]; try discriminate H.
  cbv zeta in H. inversion H; subst. cbv zeta. unfold st3_of. cbn [v_y v_eus v_wus v_cycle v_mode y_x mode_of].
  rewrite (map_repeat eu_of). reflexivity.
Qed.

Lemma init8_ok : forall par ord app st, exists s8, init8 par ord app st = Ok s8.
Proof.
  intros par ord app st. unfold init8.
  destruct (new_cache l1LineSize l1Size) as [ci| |] eqn:E1; [|vm_compute in E1; discriminate E1|vm_compute in E1; discriminate E1].
  destruct (new_cache l3LineSize8 l3Size8) as [c3| |] eqn:E3; [|vm_compute in E3; discriminate E3|vm_compute in E3; discriminate E3].
  destruct (new_cache l1dLineSize l1dSize) as [cd| |] eqn:ED; [|vm_compute in ED; discriminate ED|vm_compute in ED; discriminate ED].
  eexists. reflexivity.
Qed.

Definition fuel_bound80 (n : nat) : nat := S (fuel_bound63 n).

Section Straight80.
  Variables (app : list instr) (labels : Z -> option Z).
  Hypothesis Happ : wf_app app.
  Hypothesis Hstr : straight app = true.
  Hypothesis Hreg : reg_only app = true.
  Hypothesis Hssa : ssa app = true.
  Hypothesis Hrng : regs_ok app = true.

  Variables (par : nat) (fuel : nat) (st st' : arch) (tr : list Z).
  Hypothesis Hpar : (1 <= par)%nat.
  Hypothesis Hr32 : Forall int32 (regs st).
  Hypothesis Hlen : length (regs st) = 32%nat.
  Hypothesis Hx0 : nth 0 (regs st) 0 = 0.
  Hypothesis Hrun : seq_run fuel (map sinstr_of app) labels st = Done st' tr.

  Let Hsem := hsem63 app labels Hstr Hreg par fuel st st' tr Hpar Hr32 Hlen Hrun.

  (* NewCPU ; InitRAT of MVP-8.0: the invariant of the main loop of MVP-6.3 with nothing dispatched, on the projection *)
  Lemma init8_G3 : forall ord s8, init8 par ord app st = Ok s8 ->
    G3 app labels (regs st) (mem st) 0 0 0 0 0 0 (st3_of s8) /\
    v_mode s8 = PNormal /\ length (v_eus s8) = length (y_ccs (v_y s8)) /\ y_pref (v_y s8) = [].
  Proof.
    intros ord s8 E8.
    destruct (init_fresh app par st Hpar) as (s6 & E6 & HF & Hc0).
    assert (Hle : (length (regs st) <= 32)%nat) by lia.
    pose proof (fresh_GI app labels (mem st) 0 (regs st) 0 s6 HF ltac:(lia) Hle Hr32 ltac:(rewrite Hc0; lia)) as HG.
    pose proof (gi_front _ _ _ _ _ _ _ _ _ _ _ HG) as HFr.
    unfold init6 in E6. unfold init8 in E8.
    destruct (new_cache l1LineSize l1Size) as [ci| |]; try discriminate E6.
    change (new_cache l3LineSize l3Size) with (Ok (mkCache 16 64 [])) in E6.
    destruct (new_cache l3LineSize8 l3Size8) as [c3| |] eqn:E3; try discriminate E8.
    destruct (new_cache l1dLineSize l1dSize) as [cd| |]; try discriminate E8.
    pose proof (new_cache_lines _ _ _ E3) as H3.
    injection E6 as <-. cbv zeta in E8. inversion E8; subst s8. clear E8. cbn [s_m s_cycle] in HFr.
    destruct (init_rat_read ord (regs st)) as [Hcok Hcrd].
    unfold st3_of. cbn [v_y v_eus v_wus v_cycle v_mode y_x y_ccs y_pref mode_of].
    rewrite (map_repeat eu_of). unfold eu_of. cbn [h_co h_memory h_runner h_seq co_of].
    split; [|split; [reflexivity|split; [rewrite map_length, seq_length, repeat_length; reflexivity|reflexivity]]].
    constructor; cbn [t_x t_eus t_wus t_cycle t_mode x_m x_ebus x_pend x_prev length Nat.add].
      + eapply (FrontI_frame app labels (regs st) (mem st) ord Happ Hstr Hreg Hssa Hrng Hlen Hr32 Hx0 Hsem); [exact HFr|..]; try reflexivity.
        apply busok_new.
      + reflexivity.
      + constructor; cbn [x_m x_ebus x_pend x_prev x_pcb x_seq x_crat x_trat x_fwd x_chan x_next x_os m_pw m_pr m_regs m_mem m_l3 m_wbus
                          flat bb_new bb_q bb_buf map List.app recvs fwds flat_map seq Nat.sub length];
          try reflexivity; try (constructor; fail); try lia; try exact H3.
        * intros s Hs. unfold zero_sb. rewrite nth_repeat_same. reflexivity.
        * intros s Hs. unfold zero_sb. rewrite nth_repeat_same. reflexivity.
        * exact Hcok.
        * intros r. rewrite Hcrd, Hlen. reflexivity.
        * apply rat_new_ok. unfold ratLength. lia.
        * intros p [].
      + apply busok_new.
      + unfold blen, bb_new. cbn. lia.
      + apply Forall_forall. intros e He. apply repeat_spec in He. subst e. split; reflexivity.
      + apply Forall_forall. intros e He. apply repeat_spec in He. subst e. reflexivity.
      + destruct par; [lia | discriminate].
      + rewrite !repeat_length. reflexivity.
      + reflexivity.
      + unfold blen, bb_new. cbn. lia.
      + unfold blen, bb_new. cbn. lia.
      + lia.
      + reflexivity.
  Qed.

  Variable ord : Z -> Z -> list Z -> list Z.

  (* NewCPU establishes the run invariant *)
  Lemma init8_CI8 : forall s8, init8 par ord app st = Ok s8 ->
    exists c3 ccs0, Forall cc_idle ccs0 /\ lines c3 = [] /\ CI8 app labels (regs st) (mem st) c3 ccs0 s8 /\ v_mode s8 = PNormal.
  Proof.
    intros s8 E8. destruct (init8_SI _ _ _ _ _ E8) as (c3 & ccs0 & H3 & HC & HS).
    destruct (init8_G3 ord s8 E8) as (HG & HM & HL & HP).
    exists c3, ccs0. split; [exact HC|]. split; [exact H3|]. split; [|exact HM].
    split; [exact HS|]. split; [rewrite HL; rewrite (proj1 (proj2 (proj1 HS))); reflexivity|]. split; [exact HP|].
    rewrite HM. eapply SI3_n. exact HG.
  Qed.

  (* MVP-8.0 = the pipeline of MVP-6.3 (started with the L3 of MVP-8.0) + one tick and one cycle: results, ghost flags,
     errors and panics, for every fuel with which that pipeline returns *)
  Theorem mvp80_ssa_straight_sim_mvp63g : forall fuel' r os,
    mvp63g_run_os l3_80 par ord fuel' app labels st = (r, os) -> r <> MOutOfFuel ->
    mvp80_run_os par ord (S fuel') app labels st = (plus_one_cycle r, os).
  Proof.
    intros fuel' r os H HN. destruct (init8_ok par ord app st) as (s8 & E8).
    unfold mvp63g_run_os in H. rewrite (init8_st3 _ _ _ _ _ E8) in H. unfold mvp80_run_os. rewrite E8.
    destruct (init8_CI8 s8 E8) as (c3 & ccs0 & HC & H3 & HCI & HM).
    destruct (run3_st fuel' app labels ord (st3_of s8)) as [[r1 os1]|s'] eqn:ER.
    - inversion H; subst.
      rewrite (run8_sim app labels (regs st) (mem st) ord c3 ccs0 Happ Hstr Hreg Hssa Hrng Hlen Hr32 Hx0 Hsem HC H3 fuel' s8 r os HCI
                 ltac:(rewrite HM; discriminate) ER). reflexivity.
    - inversion H; subst. exfalso. apply HN. reflexivity.
  Qed.

  (* NewCPU of MVP-6.3 is the projection of NewCPU of MVP-8.0 with the L3 of MVP-6.3 *)
  Lemma init3_sl3 : forall s8, init8 par ord app st = Ok s8 -> init3 par ord app st = Ok (sl3s (mkCache 16 64 []) (st3_of s8)).
  Proof.
    intros s8 H. unfold init8 in H. unfold init3.
    destruct (new_cache l1LineSize l1Size) as [ci| |]; try discriminate H.
    change (new_cache l3LineSize l3Size) with (Ok (mkCache 16 64 [])).
    destruct (new_cache l3LineSize8 l3Size8) as [c3| |]; try discriminate H.
    destruct (new_cache l1dLineSize l1dSize) as [cd| |]; try discriminate H.
    cbv zeta in H. inversion H; subst. cbv zeta. unfold sl3s, st3_of.
    cbn [v_y v_eus v_wus v_cycle v_mode t_x t_eus t_wus t_cycle t_mode mode_of y_x].
    rewrite (map_repeat eu_of). reflexivity.
  Qed.

  (* independence of the L3 geometry: the pipeline of MVP-6.3 started with the L3 of MVP-8.0 IS MVP-6.3, every fuel *)
  Theorem mvp63g_l3_80 : forall fuel', mvp63g_run_os l3_80 par ord fuel' app labels st = mvp63_run_os par ord fuel' app labels st.
  Proof.
    intros fuel'. destruct (init8_ok par ord app st) as (s8 & E8).
    unfold mvp63g_run_os, mvp63_run_os. rewrite (init8_st3 _ _ _ _ _ E8), (init3_sl3 s8 E8).
    destruct (init8_CI8 s8 E8) as (c3 & ccs0 & HC & H3 & HCI & HM).
    rewrite (run3_l3 app labels (regs st) (mem st) ord c3 ccs0 Happ Hstr Hreg Hssa Hrng Hlen Hr32 Hx0 Hsem HC H3 (mkCache 16 64 []) eq_refl
               fuel' s8 HCI ltac:(rewrite HM; discriminate)).
    destruct (run3_st fuel' app labels ord (st3_of s8)) as [r|s']; reflexivity.
  Qed.

  (* THE THEOREM: MVP-8.0 = MVP-6.3 + one tick and one cycle: results, ghost flags, errors and panics, for every fuel with
     which MVP-6.3 returns *)
  Theorem mvp80_ssa_straight_sim_mvp63 : forall fuel' r os,
    mvp63_run_os par ord fuel' app labels st = (r, os) -> r <> MOutOfFuel ->
    mvp80_run_os par ord (S fuel') app labels st = (plus_one_cycle r, os).
  Proof. intros fuel' r os H HN. apply mvp80_ssa_straight_sim_mvp63g; [rewrite mvp63g_l3_80; exact H|exact HN]. Qed.

  (* MVP-8.0 computes the sequential registers and memory: all fuels from fuel_bound80 (length app) on, ghost flag
     clear, at least (executed + 2) / 2 cycles *)
  Theorem mvp80_run_ssa_straight :
    exists c, (forall fuel', (fuel_bound80 (length app) <= fuel')%nat -> mvp80_run_os par ord fuel' app labels st = (MDone c st', false)) /\
              Z.of_nat (length tr) + 2 <= 2 * c /\
              (forall fuel', (fuel_bound63 (length app) <= fuel')%nat -> mvp63_run_os par ord fuel' app labels st = (MDone (c - 1) st', false)).
  Proof.
    destruct (mvp63_run_ssa_straight app labels Happ Hstr Hreg Hssa Hrng par fuel st st' tr Hpar Hr32 Hlen Hx0 Hrun ord) as (c & H & Hb).
    exists (c + 1). split; [|split; [lia|]].
    - intros fuel' Hf. unfold fuel_bound80 in Hf. destruct fuel' as [|f]; [lia|].
      apply (mvp80_ssa_straight_sim_mvp63 f (MDone c st') false); [|discriminate]. apply H. lia.
    - intros fuel' Hf. replace (c + 1 - 1) with c by lia. apply H. exact Hf.
  Qed.

  Theorem mvp80_refines_seq_ssa_straight :
    exists c, (forall fuel', (fuel_bound80 (length app) <= fuel')%nat ->
                 mvp80_run par ord fuel' app labels st = MDone c st' /\ snd (mvp80_run_os par ord fuel' app labels st) = false) /\
              (Z.of_nat (length tr) + 1) / 2 + 1 <= c.
  Proof.
    destruct mvp80_run_ssa_straight as (c & H & Hb & _). exists c. split; [|exact (Mvp70Sim63Proofs.half_cycles _ _ Hb)].
    intros fuel' Hf. split.
    - exact (Mvp70Sim63Proofs.bounded_result (fun f => mvp80_run_os par ord f app labels st) _ _ _ H fuel' Hf).
    - exact (Mvp70Sim63Proofs.bounded_ghost (fun f => mvp80_run_os par ord f app labels st) _ _ _ H fuel' Hf).
  Qed.

  Theorem mvp80_ghost_clear_ssa_straight fuel' : (fuel_bound80 (length app) <= fuel')%nat ->
    snd (mvp80_run_os par ord fuel' app labels st) = false.
  Proof. intros Hf. destruct mvp80_refines_seq_ssa_straight as (c & H & _). exact (proj2 (H fuel' Hf)). Qed.

  Theorem mvp80_terminates_ssa_straight :
    exists c, mvp80_run par ord (fuel_bound80 (length app)) app labels st = MDone c st' /\ (Z.of_nat (length tr) + 1) / 2 + 1 <= c.
  Proof.
    destruct mvp80_refines_seq_ssa_straight as (c & H1 & H2). exists c. split; [exact (proj1 (H1 _ (le_n _)))|exact H2].
  Qed.

  Corollary mvp80_no_panic_ssa_straight fuel' : (fuel_bound80 (length app) <= fuel')%nat ->
    mvp80_run par ord fuel' app labels st <> MPanic /\ mvp80_run par ord fuel' app labels st <> MOutOfFuel /\
    (forall e, mvp80_run par ord fuel' app labels st <> MErr e).
  Proof.
    destruct mvp80_run_ssa_straight as (c & H & _).
    exact (Mvp70Sim63Proofs.bounded_no_panic (fun f => mvp80_run_os par ord f app labels st) _ _ _ H fuel').
  Qed.
End Straight80.

(* every number of cores, EVERY order function *)
Corollary mvp80_ssa_example_any par ord : (1 <= par)%nat ->
  exists c st', seq_run 100 (map sinstr_of (map instr_of ex63_prog)) no_labels zero32 = Done st' (rev (map (fun k => 4 * Z.of_nat k) (seq 0 14))) /\
    (forall fuel, (fuel_bound80 14 <= fuel)%nat -> mvp80_run_os par ord fuel (map instr_of ex63_prog) no_labels zero32 = (MDone c st', false)) /\
    rget (regs st') 18 = 251 /\ 8 <= c.
Proof.
  intros Hpar. destruct (mvp63_ssa_example_any par ord Hpar) as (c0 & st' & Hs & _ & R18 & _).
  pose proof Mvp70Sim63Proofs.ex63_class as (Hwf & H1 & H2 & H3 & H4 & H5 & H6 & H7 & _).
  destruct (mvp80_run_ssa_straight _ no_labels Hwf H1 H2 H3 H4 par 100%nat zero32 st' _ Hpar H5 H6 H7 Hs ord)
    as (c & Hc & Hb & _).
  exists c, st'. split; [exact Hs|]. split; [exact Hc|]. split; [exact R18|].
  rewrite rev_length, map_length, seq_length in Hb. clear - Hb. lia.
Qed.

Corollary mvp80_ssa_example_sim par ord fuel r os : (1 <= par)%nat ->
  mvp63_run_os par ord fuel (map instr_of ex63_prog) no_labels zero32 = (r, os) -> r <> MOutOfFuel ->
  mvp80_run_os par ord (S fuel) (map instr_of ex63_prog) no_labels zero32 = (plus_one_cycle r, os).
Proof.
  intros Hpar. pose proof Mvp70Sim63Proofs.ex63_class as (Hwf & H1 & H2 & H3 & H4 & H5 & H6 & H7 & st' & Hs).
  exact (mvp80_ssa_straight_sim_mvp63 _ no_labels Hwf H1 H2 H3 H4 par 100%nat zero32 st' _ Hpar H5 H6 H7 Hs ord fuel r os).
Qed.

(* 1..4 cores, two orders, 3000 ticks: the relation with MVP-6.3 ITSELF (its own L3): one tick and one cycle more *)
Example mvp80_ssa_example : forall par, In par [1; 2; 3; 4]%nat ->
  mvp80_run_os par ord_asc 3001 (map instr_of ex63_prog) no_labels zero32 =
    (plus_one_cycle (fst (mvp63_run_os par ord_asc 3000 (map instr_of ex63_prog) no_labels zero32)),
     snd (mvp63_run_os par ord_asc 3000 (map instr_of ex63_prog) no_labels zero32)) /\
  mvp80_run_os par ord_desc 3001 (map instr_of ex63_prog) no_labels zero32 =
    (plus_one_cycle (fst (mvp63_run_os par ord_desc 3000 (map instr_of ex63_prog) no_labels zero32)),
     snd (mvp63_run_os par ord_desc 3000 (map instr_of ex63_prog) no_labels zero32)) /\
  fst (mvp63_run_os par ord_asc 3000 (map instr_of ex63_prog) no_labels zero32) <> MOutOfFuel /\
  mvp63g_run_os l3_80 par ord_asc 3000 (map instr_of ex63_prog) no_labels zero32 =
    mvp63_run_os par ord_asc 3000 (map instr_of ex63_prog) no_labels zero32.
Proof.
  intros par HP. assert (Hpar : (1 <= par)%nat) by (destruct HP as [<-|[<-|[<-|[<-|[]]]]]; lia).
  (* MVP-6.3 ends within 3000 ticks, for both orders, by computation; the rest is the simulation theorem *)
  assert (HR : forall ord, ord = ord_asc \/ ord = ord_desc ->
            fst (mvp63_run_os par ord 3000 (map instr_of ex63_prog) no_labels zero32) <> MOutOfFuel)
    by (intros ord [->| ->]; destruct HP as [<-|[<-|[<-|[<-|[]]]]]; vm_compute; discriminate).
  assert (S8 : forall ord, ord = ord_asc \/ ord = ord_desc ->
            mvp80_run_os par ord 3001 (map instr_of ex63_prog) no_labels zero32 =
            (plus_one_cycle (fst (mvp63_run_os par ord 3000 (map instr_of ex63_prog) no_labels zero32)),
             snd (mvp63_run_os par ord 3000 (map instr_of ex63_prog) no_labels zero32))).
  { intros ord Ho. exact (mvp80_ssa_example_sim par ord 3000 _ _ Hpar (surjective_pairing _) (HR ord Ho)). }
  split; [apply S8; left; reflexivity|]. split; [apply S8; right; reflexivity|]. split; [apply HR; left; reflexivity|].
  pose proof Mvp70Sim63Proofs.ex63_class as (Hwf & H1 & H2 & H3 & H4 & H5 & H6 & H7 & st' & Hs).
  exact (mvp63g_l3_80 _ no_labels Hwf H1 H2 H3 H4 par 100%nat zero32 st' _ Hpar H5 H6 H7 Hs ord_asc 3000%nat).
Qed.

Print Assumptions rd_agree8_newest.
Print Assumptions eus_main8_WB.
Print Assumptions wus_cycle8_eq.
Print Assumptions tick8.
Print Assumptions final8.
Print Assumptions run8_sim.
Print Assumptions mvp80_ssa_straight_sim_mvp63g.
Print Assumptions run3_l3.
Print Assumptions mvp63g_l3_80.
Print Assumptions mvp80_ssa_straight_sim_mvp63.
Print Assumptions mvp80_run_ssa_straight.
Print Assumptions mvp80_refines_seq_ssa_straight.
Print Assumptions mvp80_terminates_ssa_straight.
Print Assumptions mvp80_no_panic_ssa_straight.
Print Assumptions mvp80_ssa_example_any.
Print Assumptions mvp80_ssa_example_sim.
Print Assumptions mvp80_ssa_example.
