(* Invariant preservation and progress for the MVP-4 skeleton with loads and
   store hits (Mvp4mSkel.v); see Mvp4Front.v for the register-only version.  Before
   that, what the four skeletons with an L1D share: the length of the L1D recency
   list, and termination of an event-driven run from a bounded potential (EvRun). *)
From Coq Require Import ZArith List Bool Lia.
From Maj Require Import Base.Outcome Base.GoInt Base.GoTypes Isa.Spec Isa.Embed Isa.Seq Isa.Refine.
From Maj Require Import Gen.Latency Gen.RiscTables Gen.Opcodes Comp.Cache Comp.CacheSpec Comp.MapFacts Comp.CacheProofs.
From Maj Require Import Mvp.Mvp12 Mvp.Mvp12Proofs Mvp.Mvp3 Mvp.Mvp3Proofs Mvp.Mvp4 Mvp.Mvp4Skel Mvp.Mvp4Inv Mvp.Mvp4Units
     Mvp.Mvp4Front Mvp.Mvp4mSkel Mvp.Mvp4mInv.
Import ListNotations.
Open Scope Z_scope.

Definition eu_ok (e : eu_t) : Prop :=
  (eu_processing e = true ->
   1 <= eu_remaining e <= (if eu_pending_read e then Rmax else Cmax) /\ eu_runner e <> None) /\
  (eu_pending_read e = true -> eu_processing e = true) /\
  (eu_pending_read e = false -> eu_memory e = None).

Definition dtal (e : eu_t) (dt la : list Z) : list Z :=
  if eu_pending_read e then
    match eu_memory e with
    | Some _ => dt
    | None => fst (a_get_all (a_fill dt (hd 0 la)) la)
    end
  else fst (a_load dt la).

Lemma dt_after_load_dtal a hev : dt_after_load a hev = dtal (m_eu a) (m_dt a) (ev_la hev).
Proof. reflexivity. Qed.

Lemma intake_mem e ebus em ebus1 have : eu_intake e ebus = (em, ebus1, have) ->
  eu_memory em = eu_memory e /\ eu_addrs em = eu_addrs e.
Proof.
  unfold eu_intake. destruct (eu_processing e).
  - intros H. injection H as <- _ _. auto.
  - destruct (sbus_get ebus) as [eb got]. destruct got as [[i pc]|]; intros H; injection H as <- _ _; auto.
Qed.

Lemma tup4_3 {A B C D} (a a' : A) (b b' : B) (c c' : C) (d d' : D) : (a, b, c, d) = (a', b', c', d') -> c = c'.
Proof. intros H. inversion H. reflexivity. Qed.

(* lookups keep the length of the recency list of the L1D, a fill keeps it within 16 lines *)
Lemma a_get_len r a : zlen (fst (a_get r a)) = zlen r.
Proof.
  unfold a_get. destruct (find (covers 64 a) r) as [b|] eqn:E; [|reflexivity].
  apply find_some in E as [Hin _]. cbn [fst]. rewrite zlen_cons, (length_remove_first b r Hin). lia.
Qed.

Lemma a_get_all_len l : forall r, zlen (fst (a_get_all r l)) = zlen r.
Proof.
  induction l as [|a t IH]; intros r; cbn [a_get_all]; [reflexivity|].
  destruct (snd (a_get r a)); [rewrite IH|]; apply a_get_len.
Qed.

Lemma a_fill_len r a : zlen r <= 16 -> zlen (a_fill r a) <= 16.
Proof.
  intros H. unfold a_fill. generalize (a - a mod 64). intros b. cbv zeta.
  pose proof (zlen_cons b r) as H1.
  destruct (Z.gtb_spec (zlen (b :: r)) 16) as [Hg|Hg]; [|exact Hg].
  rewrite length_remove_first by (apply last_in; discriminate). lia.
Qed.

(* Runs of a skeleton driven by events, whatever its state: termination from a bounded
   potential that decreases in every iteration that keeps its event.  The four
   skeletons with an L1D (Mvp4mSkel, Mvp4sSkel, Mvp5mSkel, Mvp5sSkel) are instances. *)
Inductive eres (A : Type) :=
| EStep (a : A) (path : list event) (dc : Z)
| EFin (dc : Z) (dt : list Z)
| EStuck.
Arguments EStep {A}. Arguments EFin {A}. Arguments EStuck {A}.

Section EvRun.
  Variables (A : Type) (cycle : A -> list event -> eres A).

  Fixpoint erun (fuel : nat) (a : A) (path : list event) (cyc : Z) : option Z :=
    match fuel with
    | O => None
    | S f =>
        match cycle a path with
        | EStep a' path' dc => erun f a' path' (cyc + dc)
        | EFin dc dt => Some (cyc + dc + MemoryAccess * zlen dt)
        | EStuck => None
        end
    end.

  Lemma erun_S f a path cyc :
    erun (S f) a path cyc =
    match cycle a path with
    | EStep a' path' dc => erun f a' path' (cyc + dc)
    | EFin dc dt => Some (cyc + dc + MemoryAccess * zlen dt)
    | EStuck => None
    end.
  Proof. reflexivity. Qed.

  Lemma erun_more : forall fuel k a path cyc c,
    erun fuel a path cyc = Some c -> erun (fuel + k) a path cyc = Some c.
  Proof.
    induction fuel as [|f IH]; intros k a path cyc c H; [discriminate|]. cbn [erun Nat.add] in *.
    destruct (cycle a path) as [a' path' dc|dc dt|]; auto.
  Qed.

  (* P hev rest a: the invariant, with the events still to come *)
  Variables (P : event -> list event -> A -> Prop) (pot : A -> Z) (pmax : Z) (cnt : list event -> nat).
  Hypothesis cnt_cons : forall ev path, (cnt (ev :: path) <= S (cnt path))%nat.
  Hypothesis step : forall hev rest a a' path' dc,
    P hev rest a -> cycle a (hev :: rest) = EStep a' path' dc -> exists hev' rest', path' = hev' :: rest' /\ P hev' rest' a'.
  Hypothesis progress : forall hev rest a, P hev rest a ->
    match cycle a (hev :: rest) with
    | EStuck => False
    | EFin dc _ => (cnt (hev :: rest) <= 1)%nat /\ 1 <= dc
    | EStep a' path' dc => 1 <= dc /\ (path' = rest \/ (path' = hev :: rest /\ pot a' < pot a))
    end.
  Hypothesis pot_bounds : forall hev rest a, P hev rest a -> 0 <= pot a <= pmax.

  (* at most pmax + 1 iterations between two events; at least one cycle per counted event *)
  Lemma erun_term : forall (m : nat) rest a hev cyc fuel,
    P hev rest a -> (Z.to_nat (pot a) + length rest * S (Z.to_nat pmax) <= m)%nat -> (m < fuel)%nat ->
    exists c, erun fuel a (hev :: rest) cyc = Some c /\ cyc + Z.of_nat (cnt (hev :: rest)) <= c.
  Proof.
    induction m as [m IH] using lt_wf_ind. intros rest a hev cyc fuel HP Hm Hfuel.
    destruct fuel as [|f]; [lia|]. cbn [erun].
    pose proof (progress hev rest a HP) as Hp. pose proof (pot_bounds hev rest a HP) as Hphi.
    destruct (cycle a (hev :: rest)) as [a' path' dc|dc dt|] eqn:Ec; [| |contradiction].
    - destruct (step hev rest a a' path' dc HP Ec) as (hev' & rest' & -> & HP').
      pose proof (pot_bounds hev' rest' a' HP') as Hphi'. destruct Hp as [Hdc [Hp | [Hp Hlt]]].
      + subst rest. cbn [length Nat.mul] in Hm.
        destruct (IH (m - 1)%nat ltac:(lia) rest' a' hev' (cyc + dc) f HP' ltac:(lia) ltac:(lia)) as (c & Hc & Hb).
        exists c. split; [exact Hc|]. pose proof (cnt_cons hev (hev' :: rest')). lia.
      + injection Hp as -> ->.
        destruct (IH (m - 1)%nat ltac:(lia) rest a' hev (cyc + dc) f HP' ltac:(lia) ltac:(lia)) as (c & Hc & Hb).
        exists c. split; [exact Hc|]. lia.
    - destruct Hp as [Hcnt Hdc]. eexists. split; [reflexivity|].
      assert (0 <= MemoryAccess * zlen dt) by (unfold MemoryAccess, zlen; lia). lia.
  Qed.

  (* when every iteration counts at most two cycles and the final flush writes back at
     most 16 lines *)
  Hypothesis cycle_le : forall hev rest a, P hev rest a ->
    match cycle a (hev :: rest) with
    | EStep _ _ dc => dc <= 2
    | EFin dc dt => dc <= 2 /\ zlen dt <= 16
    | EStuck => True
    end.

  Lemma erun_upper : forall fuel rest a hev cyc c,
    P hev rest a -> erun fuel a (hev :: rest) cyc = Some c -> c <= cyc + 2 * Z.of_nat fuel + MemoryAccess * 16.
  Proof using step cycle_le.
    clear cnt_cons progress pot_bounds pot pmax cnt. induction fuel as [|f IH]; intros rest a hev cyc c HP H; [discriminate|]. rewrite erun_S in H.
    pose proof (cycle_le hev rest a HP) as Hle.
    destruct (cycle a (hev :: rest)) as [a' path' dc|dc dt|] eqn:Ec; [| |discriminate].
    - destruct (step hev rest a a' path' dc HP Ec) as (hev' & rest' & -> & HP').
      specialize (IH rest' a' hev' (cyc + dc) c HP' H). lia.
    - replace c with (cyc + dc + MemoryAccess * zlen dt) by congruence. destruct Hle as [Hdc Hdt].
      assert (MemoryAccess * zlen dt <= MemoryAccess * 16) by (unfold MemoryAccess; lia). lia.
  Qed.
End EvRun.

Arguments erun {A} cycle fuel a path cyc.

Section FrontM.
  Variable app : list instr.
  Hypothesis Happ : wf_app app.

  Lemma skm_eu_flow e ebus pw dt la e1 ebus2 dt1 act :
    Forall (entry_ok app) (q_eu e ++ q_sb ebus) -> eu_ok e ->
    (eu_pending_read e = true -> la <> [] /\ (eu_memory e = None -> eu_addrs e = la)) ->
    skm_eu e ebus pw dt la = (e1, ebus2, dt1, act) ->
    act <> AStuck /\
    act_q act ++ q_eu e1 ++ q_sb ebus2 = q_eu e ++ q_sb ebus /\
    eu_ok e1 /\
    (eu_pending_read e1 = true -> la <> [] /\ (eu_memory e1 = None -> eu_addrs e1 = la)) /\
    (match act with
     | AExec _ _ => eu_processing e1 = false /\ eu_pending_read e1 = false /\ dt1 = dtal e dt la
     | ANone => dtal e1 dt1 la = dtal e dt la
     | AStuck => True
     end).
  Proof.
    intros Hent (Hproc & Hpp & Hmem) Hmiss. unfold skm_eu.
    destruct (eu_pending_read e) eqn:Epr.
    - (* a load is in flight *)
      specialize (Hpp eq_refl). destruct (Hproc Hpp) as [Hrem Hrun].
      destruct (Z.eqb_spec (eu_remaining e - 1) 0) as [E0|E0]; cbn [negb].
      + destruct (eu_runner e) as [[i pc]|] eqn:Er; [|congruence].
        intros H. injection H as <- <- <- <-. cbn [act_q].
        split; [discriminate|]. split; [unfold q_eu at 2; rewrite Hpp, Er; reflexivity|].
        split; [unfold eu_ok, eu_done; cbn; repeat split; discriminate|].
        split; [cbn; discriminate|].
        split; [reflexivity|]. split; [reflexivity|].
        unfold dtal. rewrite Epr. destruct (eu_memory e) eqn:Em; [reflexivity|].
        destruct (Hmiss eq_refl) as [_ Hm]. rewrite (Hm eq_refl). reflexivity.
      + intros H. injection H as <- <- <- <-. cbn [act_q List.app].
        split; [discriminate|]. split; [reflexivity|].
        split. { unfold eu_ok, set_rem. cbn [eu_processing eu_pending_read eu_remaining eu_runner eu_memory]. rewrite Epr.
                 repeat split; auto; try lia; try discriminate. }
        split; [intros _; exact (Hmiss eq_refl)|]. unfold dtal, set_rem. cbn [eu_pending_read eu_memory]. reflexivity.
    - specialize (Hmem eq_refl).
      assert (Hproc' : eu_processing e = true -> 1 <= eu_remaining e <= Cmax /\ eu_runner e <> None) by exact Hproc.
      destruct (eu_intake e ebus) as [[em ebus1] have] eqn:Ei.
      destruct (intake_flow app e ebus em ebus1 have Epr Hent Hproc' Ei) as (Hq & Hpr1 & Hhave & Hproc1 & _).
      destruct (intake_mem _ _ _ _ _ Ei) as [Hmm _]. rewrite Hmem in Hmm.
      assert (Hok_em : forall r, 1 <= r <= Cmax -> eu_ok (set_rem em r)).
      { intros r Hr. unfold eu_ok, set_rem. cbn [eu_processing eu_pending_read eu_remaining eu_runner eu_memory].
        rewrite Hpr1. split; [intros Hp; split; [exact Hr | apply Hproc1; exact Hp]|]. split; [discriminate | auto]. }
      assert (Hdt_em : forall r, dtal (set_rem em r) dt la = dtal e dt la).
      { intros r. unfold dtal, set_rem. cbn [eu_pending_read eu_memory]. rewrite Hpr1, Epr. reflexivity. }
      destruct have; cbn [negb].
      2:{ intros H. injection H as <- <- <- <-. cbn [act_q List.app].
          split; [discriminate|]. split; [exact Hq|].
          split. { unfold eu_ok. rewrite Hpr1. split; [exact Hproc1|]. split; [discriminate | auto]. }
          split; [rewrite Hpr1; discriminate|]. unfold dtal. rewrite Hpr1, Epr. reflexivity. }
      symmetry in Hhave. destruct (Hproc1 Hhave) as [Hrem Hrun].
      destruct (Z.eqb_spec (eu_remaining em - 1) 0) as [E0|E0]; cbn [negb].
      2:{ intros H. injection H as <- <- <- <-. cbn [act_q List.app].
          split; [discriminate|]. split; [exact Hq|]. split; [apply Hok_em; lia|].
          split; [cbn [set_rem eu_pending_read]; rewrite Hpr1; discriminate | apply Hdt_em]. }
      destruct (eu_runner em) as [[i pc]|] eqn:Er; [|congruence].
      destruct (pw_hazard pw (instr_ReadRegisters i)).
      { intros H. injection H as <- <- <- <-. cbn [act_q List.app].
        split; [discriminate|]. split; [exact Hq|]. split; [apply Hok_em; unfold Cmax; lia|].
        split; [cbn [set_rem eu_pending_read]; rewrite Hpr1; discriminate | apply Hdt_em]. }
      destruct la as [|a0 la'].
      + (* no load: execute *)
        intros H. injection H as <- <- <- <-. cbn [act_q].
        split; [discriminate|]. split; [rewrite <- Hq; unfold q_eu at 2; rewrite Hhave, Er; reflexivity|].
        split; [unfold eu_ok, eu_done, set_rem; cbn; rewrite Hpr1, Hmm; repeat split; auto; discriminate|].
        split; [cbn; rewrite Hpr1; discriminate|].
        split; [reflexivity|]. split; [cbn; exact Hpr1|]. unfold dtal. rewrite Epr. reflexivity.
      + (* a load is issued *)
        destruct (snd (a_get_all dt (a0 :: la'))) eqn:Ehit; intros H; injection H as <- <- <- <-; cbn [act_q List.app].
        * split; [discriminate|]. split; [rewrite <- Hq; unfold q_eu; cbn [eu_processing eu_runner]; rewrite Er; reflexivity|].
          split. { unfold eu_ok. cbn [eu_processing eu_pending_read eu_remaining eu_runner eu_memory].
                   split; [intros _; split; [unfold L1Access, Rmax, MemoryAccess; lia | discriminate]|].
                   split; [intros _; exact Hhave | discriminate]. }
          split; [cbn; intros _; split; discriminate|].
          unfold dtal. cbn [eu_pending_read eu_memory]. rewrite Epr. unfold a_load. rewrite Ehit. reflexivity.
        * split; [discriminate|]. split; [rewrite <- Hq; unfold q_eu; cbn [eu_processing eu_runner]; rewrite Er; reflexivity|].
          split. { unfold eu_ok. cbn [eu_processing eu_pending_read eu_remaining eu_runner eu_memory].
                   split; [intros _; split; [unfold Rmax, MemoryAccess; lia | discriminate]|].
                   split; [intros _; exact Hhave | discriminate]. }
          split; [cbn; intros _; split; [discriminate | reflexivity]|].
          unfold dtal. cbn [eu_pending_read eu_memory]. rewrite Epr, Hmm. unfold a_load. rewrite Ehit. reflexivity.
  Qed.

  Lemma skm_eu_dt_len e ebus pw dt la e1 ebus2 dt1 act :
    zlen dt <= 16 -> skm_eu e ebus pw dt la = (e1, ebus2, dt1, act) -> zlen dt1 <= 16.
  Proof.
    intros Hl. unfold skm_eu.
    destruct (eu_pending_read e).
    - destruct (negb _); [intros H; apply tup4_3 in H as <-; exact Hl|].
      destruct (eu_runner e) as [[i pc]|]; intros H; apply tup4_3 in H as <-; [|exact Hl].
      destruct (eu_memory e); [exact Hl|].
      rewrite (a_get_all_len (eu_addrs e) (a_fill dt (hd 0 (eu_addrs e)))). apply a_fill_len. exact Hl.
    - destruct (eu_intake e ebus) as [[em ebus1] have].
      destruct (negb have); [intros H; apply tup4_3 in H as <-; exact Hl|].
      destruct (negb _); [intros H; apply tup4_3 in H as <-; exact Hl|].
      destruct (eu_runner em) as [[i pc]|]; [|intros H; apply tup4_3 in H as <-; exact Hl].
      destruct (pw_hazard pw (instr_ReadRegisters i)); [intros H; apply tup4_3 in H as <-; exact Hl|].
      destruct la as [|a0 la']; [intros H; apply tup4_3 in H as <-; exact Hl|].
      pose proof (a_get_all_len (a0 :: la') dt) as Hg.
      destruct (snd (a_get_all dt (a0 :: la'))); intros H; apply tup4_3 in H as <-; rewrite Hg; exact Hl.
  Qed.

  Lemma finvm_eu_ok hev a : FInvM app hev a -> eu_ok (m_eu a).
  Proof. intros HF. split; [exact (fm_eu _ _ _ HF)|]. split; [intros H; apply (fm_pr _ _ _ HF H) | exact (fm_mem _ _ _ HF)]. Qed.

  Lemma addS_next pc : 0 <= pc < 2147483644 -> addS 32 pc 4 = pc + 4.
  Proof. intros H. unfold addS. apply wrapS_id; [lia|]. apply int32_bounds. lia. Qed.

  Lemma fq_cur_nonneg head n X dbus fu : 0 <= head -> FQ app head n (X ++ q_sb dbus) fu ->
    forall p, sb_current dbus = Some p -> 0 <= p.
  Proof.
    intros Hh Hq p Hp. apply (consec4_nonneg head n); [exact Hh|]. rewrite <- (q_eq _ _ _ _ _ Hq).
    apply in_or_app. right. unfold q_sb. rewrite Hp. left. reflexivity.
  Qed.

  (* the fetch unit and the decode unit, on the parts that the two MVP-4 skeletons with
     an L1D share *)
  Lemma fu_du_flow head n fu l1i dbus ebus e fu1 l1i1 dbus1 dbus2 ebus1 :
    0 <= head < 2147483644 ->
    FQ app head n (q_parts e ebus dbus) fu ->
    Forall (entry_ok app) (q_eu e ++ q_sb ebus) ->
    IInv l1i -> (fu_processing fu = true -> 1 <= fu_remaining fu <= MemoryAccess) ->
    fu_cycle app fu l1i dbus = Ok (fu1, l1i1, dbus1) ->
    du_cycle app dbus1 ebus = Ok (dbus2, ebus1) ->
    IInv l1i1 /\ (fu_processing fu1 = true -> 1 <= fu_remaining fu1 <= MemoryAccess) /\
    (exists n2, FQ app head n2 (map snd (q_eu e ++ q_sb ebus1) ++ q_sb dbus2) fu1) /\
    Forall (entry_ok app) (q_eu e ++ q_sb ebus1).
  Proof.
    intros Hh Hq Hent HI Hfu Ef Ed. rewrite q_parts_alt in Hq.
    destruct (fq_fu app Happ head n _ _ _ _ _ _ _ Hh Hq HI Hfu Ef) as (HI1 & Hfu1 & [n1 Hq1] & Hcur & _).
    pose proof (fq_cur_nonneg head _ _ _ _ ltac:(lia) Hq1) as Hpos.
    apply Forall_app in Hent as [Hent_eu Hent_eb].
    destruct (du_flow app dbus1 ebus dbus2 ebus1 Hpos Hent_eb Ed) as (Hent1 & Hdu).
    split; [exact HI1|]. split; [exact Hfu1|]. split; [|apply Forall_app; auto].
    destruct Hdu as [Heq | (p & Hp & Hout & -> & _)].
    - exists n1. rewrite map_app, <- app_assoc, Heq, app_assoc, <- map_app. exact Hq1.
    - rewrite Hp in Hq1. destruct (fq_drop app head n1 _ p _ fu1 ltac:(lia) Hq1 Hout) as (Hr & _ & Hq').
      rewrite Hr, app_nil_r. eauto.
  Qed.

  Lemma frontm_flow hev a fu1 l1i1 dbus1 dbus2 ebus1 e1 ebus2 dt1 act :
    FInvM app hev a ->
    fu_cycle app (m_fu a) (m_l1i a) (m_dbus a) = Ok (fu1, l1i1, dbus1) ->
    du_cycle app dbus1 (m_ebus a) = Ok (dbus2, ebus1) ->
    skm_eu (m_eu a) ebus1 (m_pw a) (m_dt a) (ev_la hev) = (e1, ebus2, dt1, act) ->
    IInv l1i1 /\ (fu_processing fu1 = true -> 1 <= fu_remaining fu1 <= MemoryAccess) /\
    act <> AStuck /\
    (exists n', FQ app (ev_pc hev) n' (map snd (act_q act) ++ q_parts e1 ebus2 dbus2) fu1) /\
    Forall (entry_ok app) (act_q act ++ q_eu e1 ++ q_sb ebus2) /\
    eu_ok e1 /\
    (eu_pending_read e1 = true -> ev_la hev <> [] /\ (eu_memory e1 = None -> eu_addrs e1 = ev_la hev)) /\
    (match act with
     | AExec _ _ => eu_processing e1 = false /\ eu_pending_read e1 = false /\ dt1 = dtal (m_eu a) (m_dt a) (ev_la hev)
     | ANone => dtal e1 dt1 (ev_la hev) = dtal (m_eu a) (m_dt a) (ev_la hev)
     | AStuck => True
     end).
  Proof.
    intros HF Ef Ed Ee. pose proof (finvm_eu_ok _ _ HF) as Hok.
    destruct HF as [Hh [n Hq] Hent Hfu _ _ _ Hmiss HI _ _ _].
    destruct (fu_du_flow _ _ _ _ _ _ _ _ _ _ _ _ Hh Hq Hent HI Hfu Ef Ed) as (HI1 & Hfu1 & [n2 Hq2] & Hent2).
    destruct (skm_eu_flow _ _ _ _ _ _ _ _ _ Hent2 Hok Hmiss Ee) as (Hns & Hfl & Hok1 & Hmiss1 & Hex).
    split; [assumption|]. split; [assumption|]. split; [assumption|].
    split; [|split; [rewrite Hfl; assumption | auto]].
    exists n2. rewrite q_parts_alt, app_assoc, <- map_app, Hfl. exact Hq2.
  Qed.

  Lemma evs_wf_tail ev nxt rest : evs_wf app (ev :: nxt :: rest) ->
    evs_wf app (nxt :: rest) /\ 0 <= ev_pc nxt < 2147483644.
  Proof. cbn [evs_wf]. intros (_ & _ & _ & H). split; [exact H|]. destruct H as [H _]. exact H. Qed.

  Lemma a_load_nil dt : a_load dt [] = (dt, 0).
  Proof. reflexivity. Qed.

  Theorem finvm_step hev rest a a' path' dc :
    FInvM app hev a -> evs_wf app (hev :: rest) -> sh_inv a (hev :: rest) ->
    skm_pre app a (hev :: rest) = MStep a' path' dc ->
    exists hev' rest', path' = hev' :: rest' /\ FInvM app hev' a' /\ evs_wf app path' /\ sh_inv a' path' /\
      (path' = hev :: rest \/ path' = rest).
  Proof.
    intros HF Hwf Hsh H. unfold skm_pre in H.
    destruct (fu_cycle app (m_fu a) (m_l1i a) (m_dbus a)) as [[[fu1 l1i1] dbus1]| |] eqn:Ef; try discriminate.
    destruct (du_cycle app dbus1 (m_ebus a)) as [[dbus2 ebus1]| |] eqn:Ed; try discriminate.
    destruct (skm_eu (m_eu a) ebus1 (m_pw a) (m_dt a) (ev_la hev)) as [[[e1 ebus2] dt1] act] eqn:Ee.
    destruct (frontm_flow hev a _ _ _ _ _ _ _ _ _ HF Ef Ed Ee)
      as (HI1 & Hfu1 & Hns & [n' Hq'] & Hent' & (Heu1 & Hpp1 & Hmem1) & Hmiss1 & Hex).
    destruct HF as [Hh _ _ _ _ Hpr _ _ _ Hpw Hwb Hdtl].
    pose proof (skm_eu_dt_len _ _ _ _ _ _ _ _ _ Hdtl Ee) as Hdt1l.
    cbn [sh_inv] in Hsh. rewrite dt_after_load_dtal in Hsh. destruct Hsh as [Hsh1 Hsh2].
    destruct act as [|i pc|]; [| |discriminate].
    - (* nothing executed *)
      injection H as <- <- <-.
      exists hev, rest. split; [reflexivity|]. split; [|split; [exact Hwf|split; [|auto]]].
      + constructor; cbn [m_fu m_l1i m_dbus m_ebus m_eu m_pw m_wb m_dt]; auto.
        * exists n'. exact Hq'.
        * rewrite Hpw. apply wdel_pwof. exact Hwb.
        * discriminate.
      + cbn [sh_inv]. rewrite dt_after_load_dtal. cbn [m_eu m_dt]. rewrite Hex. auto.
    - (* (i, pc) executed *)
      destruct Hex as (Hp1 & Hpr1 & Hdt1).
      cbn [act_q map snd List.app] in Hq', Hent'.
      destruct (fq_head app _ _ _ _ _ Hq') as (-> & m & ->).
      rewrite Z.eqb_refl in H. cbn [negb] in H.
      destruct (is_ret i); [destruct rest; discriminate|].
      destruct rest as [|nxt rest']; [discriminate|].
      destruct (evs_wf_tail _ _ _ Hwf) as [Hwf' Hnext].
      pose proof (addS_next (ev_pc hev) ltac:(lia)) as Hadd.
      assert (Hshn : forall e' dtn, eu_pending_read e' = false -> dtn = fst (a_get_all dt1 (ev_sa hev)) ->
                sh_inv (mk_skm (m_fu a') (m_l1i a') (m_dbus a') (m_ebus a') e' (m_pw a') (m_wb a') dtn) (nxt :: rest')).
      { intros e' dtn He' ->. cbn [sh_inv]. rewrite dt_after_load_dtal. unfold dtal. cbn [m_eu m_dt]. rewrite He'.
        rewrite Hdt1. cbn [stores_hit] in Hsh2. apply andb_prop in Hsh2. exact Hsh2. }
      destruct (ev_sa hev) as [|s0 sa'] eqn:Esa.
      + (* not a store *)
        destruct (sk_flush i (ev_pc hev) (ev_pc nxt)) eqn:Efl; injection H as <- <- <-.
        * exists nxt, rest'. split; [reflexivity|]. split; [|split; [exact Hwf'|split; [|auto]]].
          -- constructor; cbn [m_fu m_l1i m_dbus m_ebus m_eu m_pw m_wb m_dt fu_processing]; auto; try discriminate.
             all: try solve [rewrite Hpr1; discriminate].
             all: try solve [unfold q_eu; rewrite Hp1; constructor].
             all: try solve [exists O; unfold qlistm, q_parts, q_eu; cbn [m_eu m_ebus m_dbus]; rewrite Hp1;
                             cbn [map List.app q_sb sbus_empty sb_current sb_pending olist];
                             constructor; cbn [fu_complete fu_pc]; try discriminate; try lia; reflexivity].
          -- apply (Hshn e1 dt1 Hpr1). reflexivity.
        * unfold sk_flush in Efl. apply orb_false_elim in Efl as [_ Efl]. apply negb_false_iff, Z.eqb_eq in Efl.
          rewrite Hadd in Efl.
          exists nxt, rest'. split; [reflexivity|]. split; [|split; [exact Hwf'|split; [|auto]]].
          -- constructor; cbn [m_fu m_l1i m_dbus m_ebus m_eu m_pw m_wb m_dt]; auto.
             all: try solve [rewrite Hpr1; discriminate].
             all: try solve [rewrite Efl; exists m; apply fq_shift; exact Hq'].
             all: try solve [inversion Hent'; assumption].
             all: try solve [rewrite Hpw; apply wdel_add_pwof; [exact Hwb | apply write_regs_length]].
             all: try solve [intros wr Hwr; injection Hwr as <-; apply write_regs_length].
          -- apply (Hshn e1 dt1 Hpr1). reflexivity.
      + (* a store that hits; the next pc is pc + 4 *)
        destruct (snd (a_get_all dt1 (s0 :: sa'))) eqn:Ehit; cbn [andb] in H; [|discriminate].
        destruct (Z.eqb_spec (ev_pc nxt) (addS 32 (ev_pc hev) 4)) as [Enx|]; [|discriminate].
        rewrite Hadd in Enx.
        injection H as <- <- <-.
        exists nxt, rest'. split; [reflexivity|]. split; [|split; [exact Hwf'|split; [|auto]]].
        -- constructor; cbn [m_fu m_l1i m_dbus m_ebus m_eu m_pw m_wb m_dt]; auto; try discriminate.
           all: try solve [rewrite Hpr1; discriminate].
           all: try solve [rewrite Enx; exists m; apply fq_shift; exact Hq'].
           all: try solve [inversion Hent'; assumption].
           all: try solve [rewrite Hpw; apply wdel_pwof; exact Hwb].
           all: try solve [change (zlen (fst (a_get_all dt1 (s0 :: sa'))) <= 16); rewrite a_get_all_len; exact Hdt1l].
        -- apply (Hshn e1 _ Hpr1). reflexivity.
  Qed.

  Definition phim (a : skm) : Z :=
    if eu_processing (m_eu a) then
      if eu_pending_read (m_eu a) then 2 * eu_remaining (m_eu a)
      else 2 * eu_remaining (m_eu a) + (match m_wb a with Some _ => 1 | None => 0 end) + 2 * Rmax + 1
    else match sb_current (m_ebus a) with Some _ => 2 * Cmax + 2 * Rmax + 4 | None =>
         match sb_pending (m_ebus a) with Some _ => 2 * Cmax + 2 * Rmax + 5 | None =>
         match sb_current (m_dbus a) with Some _ => 2 * Cmax + 2 * Rmax + 5 | None =>
         match sb_pending (m_dbus a) with Some _ => 2 * Cmax + 2 * Rmax + 6 | None =>
         2 * Cmax + 2 * Rmax + 6 + fuphi (m_fu a) end end end end.

  Definition phim_max : Z := 2 * Cmax + 2 * Rmax + 7 + MemoryAccess.

  Lemma phim_bounds hev a : FInvM app hev a -> 0 <= phim a <= phim_max.
  Proof.
    intros HF. pose proof (fuphi_bounds _ (fm_fu _ _ _ HF)) as Hf. pose proof (fm_eu _ _ _ HF) as He.
    unfold phim, phim_max. destruct (eu_processing (m_eu a)).
    - destruct (He eq_refl) as [Hr _]. unfold Cmax, Rmax, MemoryAccess in *.
      destruct (eu_pending_read (m_eu a)), (m_wb a); lia.
    - unfold Cmax, Rmax, MemoryAccess in *.
      destruct (sb_current (m_ebus a)), (sb_pending (m_ebus a)), (sb_current (m_dbus a)), (sb_pending (m_dbus a)); lia.
  Qed.

  (* an empty front end has fetched to the end of the text, and the run ends there *)
  Lemma fq_empty_out head n e ebus dbus fu :
    FQ app head n (q_parts e ebus dbus) fu -> fu_complete fu = true -> eu_processing e = false ->
    sbus_is_empty dbus = true -> sbus_is_empty ebus = true -> nlen app <= head / 4.
  Proof.
    intros Hq Hc He Hd Hb.
    assert (Hn : q_parts e ebus dbus = []).
    { unfold q_parts, q_eu, q_sb. rewrite He. unfold sbus_is_empty in Hd, Hb.
      destruct (sb_pending ebus), (sb_current ebus); try discriminate.
      destruct (sb_pending dbus), (sb_current dbus); try discriminate. reflexivity. }
    rewrite Hn in Hq. destruct Hq as [Hq _ Hend _ _]. destruct n; [|discriminate].
    specialize (Hend Hc). replace (head + 4 * Z.of_nat 0) with head in Hend by lia. exact Hend.
  Qed.

  Lemma evs_wf_out hev rest : evs_wf app (hev :: rest) -> nlen app <= ev_pc hev / 4 -> rest = [].
  Proof.
    intros Hwf Hout. destruct rest as [|nxt r]; [reflexivity|]. exfalso.
    cbn [evs_wf] in Hwf. destruct Hwf as (Hh & (i & Hi & _) & _).
    assert ((Z.to_nat (ev_pc hev / 4) < length app)%nat) by (apply nth_error_Some; congruence).
    unfold nlen in Hout. lia.
  Qed.

  Lemma completem_out hev a : FInvM app hev a -> skm_complete a = true -> nlen app <= ev_pc hev / 4.
  Proof.
    intros HF Hc. unfold skm_complete in Hc. repeat (apply andb_prop in Hc as [Hc ?]).
    destruct (fm_q _ _ _ HF) as [n Hq]. apply negb_true_iff in H2.
    exact (fq_empty_out _ _ _ _ _ _ Hq Hc H2 H1 H0).
  Qed.

  Lemma skm_pre_exec hev rest a fu1 l1i1 dbus1 dbus2 ebus1 e1 ebus2 dt1 i pc :
    FInvM app hev a -> evs_wf app (hev :: rest) -> sh_inv a (hev :: rest) ->
    fu_cycle app (m_fu a) (m_l1i a) (m_dbus a) = Ok (fu1, l1i1, dbus1) ->
    du_cycle app dbus1 (m_ebus a) = Ok (dbus2, ebus1) ->
    skm_eu (m_eu a) ebus1 (m_pw a) (m_dt a) (ev_la hev) = (e1, ebus2, dt1, AExec i pc) ->
    match skm_pre app a (hev :: rest) with
    | MStuck => False
    | MFin _ _ => rest = []
    | MStep _ path' _ => path' = rest
    end.
  Proof.
    intros HF Hwf Hsh Ef Ed Ee.
    destruct (frontm_flow hev a _ _ _ _ _ _ _ _ _ HF Ef Ed Ee) as (_ & _ & _ & [n' Hq'] & Hent' & _ & _ & Hex).
    destruct Hex as (_ & _ & Hdt1).
    cbn [act_q map snd List.app] in Hq', Hent'.
    destruct (fq_head app _ _ _ _ _ Hq') as (-> & m & ->).
    inversion Hent' as [|x l [_ Hi] _]; subst. cbn [fst snd] in Hi.
    unfold skm_pre. rewrite Ef, Ed, Ee. rewrite Z.eqb_refl. cbn [negb].
    pose proof (fm_head _ _ _ HF) as Hh.
    cbn [evs_wf] in Hwf. destruct Hwf as (_ & Hwf). rewrite Hi in Hwf.
    destruct rest as [|nxt r].
    - rewrite Hwf. reflexivity.
    - destruct Hwf as ((i' & Hi' & Hr) & Hst & _). injection Hi' as <-. rewrite Hr.
      cbn [sh_inv] in Hsh. rewrite dt_after_load_dtal in Hsh. destruct Hsh as [Hsh1 _].
      destruct (ev_sa hev) as [|s0 sa'] eqn:Esa.
      + destruct (sk_flush i (ev_pc hev) (ev_pc nxt)); reflexivity.
      + rewrite Hsh1. rewrite (Hst ltac:(discriminate)).
        pose proof (addS_next (ev_pc hev) ltac:(lia)) as Hadd.
        rewrite Hadd, Z.eqb_refl. reflexivity.
  Qed.

  Definition after_nonem (a : skm) fu1 l1i1 dbus2 ebus2 e1 dt1 : skm :=
    mk_skm fu1 l1i1 dbus2 ebus2 e1 (wdel (m_pw a) (m_wb a)) None dt1.

  Lemma skm_pre_none hev rest a fu1 l1i1 dbus1 dbus2 ebus1 e1 ebus2 dt1 :
    fu_cycle app (m_fu a) (m_l1i a) (m_dbus a) = Ok (fu1, l1i1, dbus1) ->
    du_cycle app dbus1 (m_ebus a) = Ok (dbus2, ebus1) ->
    skm_eu (m_eu a) ebus1 (m_pw a) (m_dt a) (ev_la hev) = (e1, ebus2, dt1, ANone) ->
    skm_pre app a (hev :: rest) = MStep (after_nonem a fu1 l1i1 dbus2 ebus2 e1 dt1) (hev :: rest) 1.
  Proof. intros Ef Ed Ee. unfold skm_pre. rewrite Ef, Ed, Ee. reflexivity. Qed.

  Lemma skm_eu_idle_none e ebus pw dt la : eu_pending_read e = false -> eu_processing e = false -> sb_current ebus = None ->
    skm_eu e ebus pw dt la = (e, mk_sbus None (sb_pending ebus), dt, ANone).
  Proof. intros Epr Ep Ec. unfold skm_eu, eu_intake, sbus_get. rewrite Epr, Ep, Ec. reflexivity. Qed.

  Lemma nonem_phi hev a fu1 l1i1 dbus1 dbus2 ebus1 e1 ebus2 dt1 :
    FInvM app hev a ->
    fu_cycle app (m_fu a) (m_l1i a) (m_dbus a) = Ok (fu1, l1i1, dbus1) ->
    du_cycle app dbus1 (m_ebus a) = Ok (dbus2, ebus1) ->
    skm_eu (m_eu a) ebus1 (m_pw a) (m_dt a) (ev_la hev) = (e1, ebus2, dt1, ANone) ->
    skm_complete (after_nonem a fu1 l1i1 dbus2 ebus2 e1 dt1) = false ->
    phim (after_nonem a fu1 l1i1 dbus2 ebus2 e1 dt1) < phim a.
  Proof.
    intros HF Ef Ed Ee Hnc.
    destruct a as [f l1i dbus ebus e pw wb dt]. cbn [m_fu m_l1i m_dbus m_ebus m_eu m_pw m_wb m_dt] in *.
    pose proof HF as [Hh [n Hq] Hent Hfu Heu Hpr Hmem Hmiss HI Hpw Hwb Hdtl].
    cbn [m_fu m_l1i m_dbus m_ebus m_eu m_pw m_wb m_dt] in *.
    unfold qlistm in Hq. cbn [m_eu m_ebus m_dbus] in Hq. rewrite q_parts_alt in Hq.
    destruct (fq_fu app Happ (ev_pc hev) n _ _ _ _ _ _ _ Hh Hq HI Hfu Ef) as (HI1 & Hfu1 & [n1 Hq1] & Hcur & Hfc).
    pose proof (fq_cur_nonneg (ev_pc hev) _ _ _ _ ltac:(lia) Hq1) as Hpos.
    destruct (du_cycle_spec app dbus1 ebus Hpos) as (d & eb & E & Hdu). rewrite Ed in E. injection E as <- <-.
    assert (Hec : sb_current ebus1 = sb_current ebus).
    { destruct Hdu as [(_ & _ & ->) | (_ & _ & [(_ & ->) | [(p & _ & _ & ->) | (p & i & _ & _ & _ & ->)]])]; reflexivity. }
    pose proof (fuphi_bounds _ Hfu) as Hphif.
    unfold phim, after_nonem. cbn [m_fu m_l1i m_dbus m_ebus m_eu m_pw m_wb m_dt].
    destruct (eu_pending_read e) eqn:Epr.
    { (* a load in flight *)
      destruct (Hpr eq_refl) as [Hp _]. rewrite Hp. destruct (Heu Hp) as [Hr Hrun].
      unfold skm_eu in Ee. rewrite Epr in Ee.
      destruct (Z.eqb_spec (eu_remaining e - 1) 0); cbn [negb] in Ee.
      - destruct (eu_runner e) as [[i pc]|]; discriminate.
      - injection Ee as <- <- <-. cbn [set_rem eu_processing eu_pending_read eu_remaining]. rewrite Hp, Epr. lia. }
    assert (Hsk : skm_eu e ebus1 pw dt (ev_la hev) =
              let '(e1, ebus1', have) := eu_intake e ebus1 in
              if negb have then (e1, ebus1', dt, ANone) else
              let rem := eu_remaining e1 - 1 in
              if negb (rem =? 0) then (set_rem e1 rem, ebus1', dt, ANone) else
              match eu_runner e1 with
              | None => (e1, ebus1', dt, AStuck)
              | Some (i, pc) =>
                  if pw_hazard pw (instr_ReadRegisters i) then (set_rem e1 1, ebus1', dt, ANone)
                  else match ev_la hev with
                       | _ :: _ =>
                           if snd (a_get_all dt (ev_la hev))
                           then (mk_eu (eu_processing e1) true (eu_addrs e1) (Some []) L1Access (eu_runner e1), ebus1',
                                 fst (a_get_all dt (ev_la hev)), ANone)
                           else (mk_eu (eu_processing e1) true (ev_la hev) (eu_memory e1) MemoryAccess (eu_runner e1), ebus1',
                                 fst (a_get_all dt (ev_la hev)), ANone)
                       | [] => (eu_done (set_rem e1 rem), ebus1', dt, AExec i pc)
                       end
              end) by (unfold skm_eu; rewrite Epr; reflexivity).
    rewrite Hsk in Ee. clear Hsk.
    destruct (eu_processing e) eqn:Ep.
    - (* the execute unit is counting down *)
      unfold eu_intake in Ee. rewrite Ep in Ee. cbn [negb] in Ee. destruct (Heu eq_refl) as [Hr Hrun].
      destruct (Z.eqb_spec (eu_remaining e - 1) 0); cbn [negb] in Ee.
      + destruct (eu_runner e) as [[i pc]|]; [|congruence].
        destruct (pw_hazard pw (instr_ReadRegisters i)) eqn:Ehz.
        * injection Ee as <- <- <-. cbn [set_rem eu_processing eu_pending_read eu_remaining]. rewrite Ep, Epr.
          subst pw. apply pwof_hazard in Ehz. destruct wb; [lia | congruence].
        * destruct (ev_la hev) as [|a0 la']; [discriminate|].
          destruct (snd (a_get_all dt (a0 :: la'))); injection Ee as <- <- <-;
            cbn [eu_processing eu_pending_read eu_remaining]; rewrite Ep; unfold L1Access, Rmax, MemoryAccess; destruct wb; lia.
      + injection Ee as <- <- <-. cbn [set_rem eu_processing eu_pending_read eu_remaining]. rewrite Ep, Epr. destruct wb; lia.
    - destruct ebus as [ep ec]. cbn [sb_current sb_pending] in *.
      destruct ec as [[i pc]|].
      + (* the head is in the execute bus, current slot *)
        unfold eu_intake, sbus_get in Ee. rewrite Ep, Hec in Ee. cbn [negb eu_remaining eu_runner eu_processing eu_addrs eu_memory] in Ee.
        pose proof (cyc_of_bounds i) as Hc.
        destruct (Z.eqb_spec (cyc_of i - 1) 0); cbn [negb] in Ee.
        * destruct (pw_hazard pw (instr_ReadRegisters i)).
          -- injection Ee as <- <- <-. cbn [set_rem eu_processing eu_pending_read eu_remaining]. unfold Cmax, Rmax, MemoryAccess. lia.
          -- destruct (ev_la hev) as [|a0 la']; [discriminate|].
             destruct (snd (a_get_all dt (a0 :: la'))); injection Ee as <- <- <-;
               cbn [eu_processing eu_pending_read eu_remaining]; unfold L1Access, Cmax, Rmax, MemoryAccess; lia.
        * injection Ee as <- <- <-. cbn [set_rem eu_processing eu_pending_read eu_remaining]. unfold Cmax, Rmax, MemoryAccess in *. lia.
      + assert (Ee' : skm_eu e ebus1 pw dt (ev_la hev) = (e1, ebus2, dt1, ANone)) by (unfold skm_eu; rewrite Epr; exact Ee).
        rewrite (skm_eu_idle_none e ebus1 pw dt _ Epr Ep Hec) in Ee'. injection Ee' as <- <- <-. rewrite Ep.
        cbn [sb_current sb_pending]. clear Ee.
        destruct ep as [x|].
        * destruct Hdu as [(_ & _ & ->) | (Hadd & _)]; [|discriminate]. cbn [sb_pending]. lia.
        * destruct dbus as [dp dc]. cbn [sb_current sb_pending] in *.
          destruct Hdu as [(Hadd & _) | (_ & -> & Hdu)]; [discriminate|]. cbn [sb_current sb_pending].
          destruct dc as [p|].
          -- destruct Hdu as [(Hc & _) | [(p' & Hc & Hout & ->) | (p' & i & Hc & _ & _ & ->)]].
             ++ congruence.
             ++ exfalso. rewrite Hcur in Hc. injection Hc as <-.
                assert (Hqd : q_sb dbus1 = p :: olist (sb_pending dbus1)) by (unfold q_sb; rewrite Hcur; reflexivity).
                rewrite Hqd in Hq1. destruct (fq_drop app (ev_pc hev) n1 _ p _ fu1 ltac:(lia) Hq1 Hout) as (Hr & Hcf & _).
                unfold skm_complete, after_nonem in Hnc. cbn [m_fu m_eu m_dbus m_ebus m_wb sb_pending sb_current sbus_is_empty] in Hnc.
                rewrite Hcf, Ep in Hnc. destruct (sb_pending dbus1); [discriminate|]. discriminate.
             ++ cbn [sbus_add sb_pending sb_current]. lia.
          -- destruct dp as [p|].
             ++ destruct Hfc as [(-> & _) | (_ & Hadd & _)]; [|discriminate].
                cbn [sb_pending]. destruct Hdu as [(_ & ->) | [(p' & Hc & _) | (p' & i & Hc & _)]]; try discriminate.
                cbn [sb_pending sb_current]. lia.
             ++ assert (Heb : ebus1 = mk_sbus None None).
                { destruct Hdu as [(_ & ->) | [(p' & Hc & _) | (p' & i & Hc & _)]]; [reflexivity| |]; rewrite Hcur in Hc; discriminate. }
                subst ebus1. cbn [sb_pending sb_current].
                destruct Hfc as [(-> & Hcc & Hphi) | (Hcf & _ & ->)]; cbn [sb_pending sb_current sbus_add].
                ** destruct (fu_complete f) eqn:Ecf.
                   { exfalso. unfold skm_complete, after_nonem in Hnc. cbn [m_fu m_eu m_dbus m_ebus m_wb sb_pending sb_current sbus_is_empty] in Hnc.
                     rewrite Hcc, Ep in Hnc. discriminate. }
                   specialize (Hphi eq_refl eq_refl). lia.
                ** lia.
  Qed.

  Lemma exec_count_cons ev path : exec_count app (ev :: path) =
    Nat.add (if ev_pc ev / 4 <? nlen app then 1%nat else 0%nat) (exec_count app path).
  Proof. unfold exec_count. cbn [filter]. destruct (ev_pc ev / 4 <? nlen app); reflexivity. Qed.

  Lemma exec_count_out ev : nlen app <= ev_pc ev / 4 -> exec_count app [ev] = 0%nat.
  Proof. intros H. rewrite exec_count_cons. destruct (Z.ltb_spec (ev_pc ev / 4) (nlen app)); [lia | reflexivity]. Qed.

  Theorem skm_progress hev rest a :
    FInvM app hev a -> evs_wf app (hev :: rest) -> sh_inv a (hev :: rest) ->
    match skm_cycle app a (hev :: rest) with
    | MStuck => False
    | MFin dc _ => (exec_count app (hev :: rest) <= 1)%nat
    | MStep a' path' _ => path' = rest \/ (path' = hev :: rest /\ phim a' < phim a)
    end.
  Proof.
    intros HF Hwf Hsh.
    assert (Hpre : match skm_pre app a (hev :: rest) with
                   | MStuck => False
                   | MFin _ _ => rest = []
                   | MStep a' path' _ => path' = rest \/
                       (path' = hev :: rest /\ (skm_complete a' = false -> phim a' < phim a))
                   end).
    { pose proof HF as [Hh [n Hq] Hent Hfu Heu Hpr Hmem Hmiss HI Hpw Hwb Hdtl].
      unfold qlistm in Hq. rewrite q_parts_alt in Hq.
      destruct (fu_cycle app (m_fu a) (m_l1i a) (m_dbus a)) as [[[fu1 l1i1] dbus1]| |] eqn:Ef.
      2,3: exfalso; destruct (fu_cycle_spec app (m_fu a) (m_l1i a) (m_dbus a) HI) as (? & ? & ? & E & _); [| assumption | congruence].
      2,3: intros Hc; rewrite (q_pc _ _ _ _ _ Hq Hc); pose proof (nlen_small app Happ); destruct n as [|n]; [lia | pose proof (q_in1 _ _ _ _ _ Hq ltac:(lia) Hc); lia].
      destruct (fq_fu app Happ (ev_pc hev) n _ _ _ _ _ _ _ Hh Hq HI Hfu Ef) as (HI1 & Hfu1 & [n1 Hq1] & Hcur & Hfc).
      pose proof (fq_cur_nonneg (ev_pc hev) _ _ _ _ ltac:(lia) Hq1) as Hpos.
      destruct (du_cycle_spec app dbus1 (m_ebus a) Hpos) as (dbus2 & ebus1 & Ed & _).
      destruct (skm_eu (m_eu a) ebus1 (m_pw a) (m_dt a) (ev_la hev)) as [[[e1 ebus2] dt1] act] eqn:Ee.
      destruct act as [|i pc|].
      - rewrite (skm_pre_none hev rest a _ _ _ _ _ _ _ _ Ef Ed Ee).
        right. split; [reflexivity|]. intros Hnc. eapply nonem_phi; eassumption.
      - pose proof (skm_pre_exec hev rest a _ _ _ _ _ _ _ _ _ _ HF Hwf Hsh Ef Ed Ee) as H.
        destruct (skm_pre app a (hev :: rest)); auto.
      - destruct (frontm_flow hev a _ _ _ _ _ _ _ _ _ HF Ef Ed Ee) as (_ & _ & Hns & _). congruence. }
    unfold skm_cycle.
    destruct (skm_pre app a (hev :: rest)) as [a2 p dc|dc dt|] eqn:Ep; [| |contradiction].
    - destruct (finvm_step hev rest a a2 p dc HF Hwf Hsh Ep) as (hev' & rest' & -> & HF' & Hwf' & _ & _).
      destruct (skm_complete a2) eqn:Ec.
      + pose proof (completem_out hev' a2 HF' Ec) as Hout. pose proof (evs_wf_out _ _ Hwf' Hout) as ->.
        destruct Hpre as [Hp | [Hp _]].
        * subst rest. rewrite exec_count_cons, (exec_count_out hev' Hout). destruct (_ <? _); lia.
        * injection Hp as -> <-. rewrite (exec_count_out hev Hout). lia.
      + destruct Hpre as [Hp | [Hp Hphi]]; [left; exact Hp | right; split; [exact Hp | apply Hphi; reflexivity]].
    - subst rest. rewrite exec_count_cons. unfold exec_count. cbn [filter length]. destruct (_ <? _); lia.
  Qed.

  Lemma skm_cycle_dc a path :
    match skm_cycle app a path with
    | MFin dc _ => dc = 1 \/ dc = 2
    | MStep _ _ dc => dc = 1 \/ dc = 2
    | MStuck => True
    end.
  Proof.
    assert (Hpre : match skm_pre app a path with
                   | MFin dc _ => dc = 1
                   | MStep _ _ dc => dc = 1 \/ dc = 2
                   | MStuck => True
                   end).
    { unfold skm_pre.
      destruct (fu_cycle app (m_fu a) (m_l1i a) (m_dbus a)) as [[[fu1 l1i1] dbus1]| |]; try exact I.
      destruct (du_cycle app dbus1 (m_ebus a)) as [[dbus2 ebus1]| |]; try exact I.
      destruct (skm_eu (m_eu a) ebus1 (m_pw a) (m_dt a) _) as [[[e1 ebus2] dt1] act].
      destruct act as [|i pc|]; try exact I; auto.
      destruct path as [|ev rest]; try exact I. destruct (negb (ev_pc ev =? pc)); try exact I.
      destruct (is_ret i); [destruct rest; auto|]. destruct rest as [|nxt r]; try exact I.
      destruct (ev_sa ev).
      - destruct (sk_flush i pc (ev_pc nxt)); auto.
      - destruct (_ && _); auto. }
    unfold skm_cycle. destruct (skm_pre app a path) as [a2 p dc|dc dt|]; auto.
    destruct (skm_complete a2); auto.
  Qed.

  Lemma skm_cycle_fin_dt hev rest a dc dt :
    FInvM app hev a -> evs_wf app (hev :: rest) -> sh_inv a (hev :: rest) ->
    skm_cycle app a (hev :: rest) = MFin dc dt -> zlen dt <= 16.
  Proof.
    intros HF Hwf Hsh H. unfold skm_cycle in H.
    destruct (skm_pre app a (hev :: rest)) as [a2 p d|d t|] eqn:Ep; [| |discriminate].
    - destruct (finvm_step hev rest a a2 p d HF Hwf Hsh Ep) as (hev' & rest' & _ & HF' & _).
      destruct (skm_complete a2); [|discriminate]. injection H as _ <-. exact (fm_dt _ _ _ HF').
    - injection H as _ <-. unfold skm_pre in Ep.
      destruct (fu_cycle app (m_fu a) (m_l1i a) (m_dbus a)) as [[[fu1 l1i1] dbus1]| |]; try discriminate.
      destruct (du_cycle app dbus1 (m_ebus a)) as [[dbus2 ebus1]| |]; try discriminate.
      destruct (skm_eu (m_eu a) ebus1 (m_pw a) (m_dt a) (ev_la hev)) as [[[e1 ebus2] dt1] act] eqn:Ee.
      pose proof (skm_eu_dt_len _ _ _ _ _ _ _ _ _ (fm_dt _ _ _ HF) Ee) as Hl.
      destruct act as [|i pc|]; try discriminate.
      destruct (negb (ev_pc hev =? pc)); try discriminate.
      destruct (is_ret i).
      + destruct rest; [injection Ep as _ <-; exact Hl | discriminate].
      + destruct rest as [|nxt r]; try discriminate. destruct (ev_sa hev).
        * destruct (sk_flush i pc (ev_pc nxt)); discriminate.
        * destruct (_ && _); discriminate.
  Qed.

  Definition Kstepm : nat := S (Z.to_nat phim_max).

  Definition skm_eres (r : skm_res) : eres skm :=
    match r with MStep a p dc => EStep a p dc | MFin dc dt => EFin dc dt | MStuck => EStuck end.

  Lemma skm_run_erun : forall fuel a path cyc,
    skm_run fuel app a path cyc = erun (fun a path => skm_eres (skm_cycle app a path)) fuel a path cyc.
  Proof.
    induction fuel as [|f IH]; intros a path cyc; [reflexivity|]. cbn [skm_run erun].
    destruct (skm_cycle app a path); cbn [skm_eres]; auto.
  Qed.

  Lemma exec_count_le ev path : (exec_count app (ev :: path) <= S (exec_count app path))%nat.
  Proof. rewrite exec_count_cons. destruct (_ <? _); lia. Qed.

  Lemma skm_run_term : forall (m : nat) rest a hev cyc fuel,
    FInvM app hev a -> evs_wf app (hev :: rest) -> sh_inv a (hev :: rest) ->
    (Z.to_nat (phim a) + length rest * Kstepm <= m)%nat -> (m < fuel)%nat ->
    exists c, skm_run fuel app a (hev :: rest) cyc = Some c /\
              cyc + Z.of_nat (exec_count app (hev :: rest)) <= c <= cyc + 2 * (Z.of_nat m + 1) + MemoryAccess * 16.
  Proof.
    intros m rest a hev cyc fuel HF Hwf Hsh Hm Hfuel.
    set (P := fun hev rest a => FInvM app hev a /\ evs_wf app (hev :: rest) /\ sh_inv a (hev :: rest)).
    assert (Hstep : forall h r b b' p' d, P h r b -> skm_eres (skm_cycle app b (h :: r)) = EStep b' p' d ->
                      exists h' r', p' = h' :: r' /\ P h' r' b').
    { intros h r b b' p' d (HF1 & Hwf1 & Hsh1) E.
      assert (Epre : skm_pre app b (h :: r) = MStep b' p' d).
      { unfold skm_cycle in E. destruct (skm_pre app b (h :: r)) as [a2 p0 d0|d0 t|]; try discriminate.
        destruct (skm_complete a2); [discriminate|]. cbn [skm_eres] in E. congruence. }
      destruct (finvm_step h r b b' p' d HF1 Hwf1 Hsh1 Epre) as (h' & r' & -> & HF' & Hwf' & Hsh' & _).
      exists h', r'. split; [reflexivity|]. exact (conj HF' (conj Hwf' Hsh')). }
    assert (Hdc : forall h r b, match skm_eres (skm_cycle app b (h :: r)) with
                                | EStep _ _ dc | EFin dc _ => 1 <= dc <= 2 | EStuck => True end).
    { intros h r b. pose proof (skm_cycle_dc b (h :: r)) as H. destruct (skm_cycle app b (h :: r)); cbn [skm_eres]; lia. }
    destruct (erun_term skm (fun a path => skm_eres (skm_cycle app a path)) P phim phim_max (exec_count app) exec_count_le Hstep) with (m := m) (rest := rest) (a := a) (hev := hev)
      (cyc := cyc) (fuel := S m) as (c & Hc & Hlo); [| |exact (conj HF (conj Hwf Hsh))|exact Hm|lia|].
    - intros h r b (HF1 & Hwf1 & Hsh1). pose proof (skm_progress h r b HF1 Hwf1 Hsh1) as Hp. specialize (Hdc h r b).
      destruct (skm_cycle app b (h :: r)); cbn [skm_eres] in *; [split; [lia | exact Hp] | split; [exact Hp | lia] | exact Hp].
    - intros h r b (HF1 & _). exact (phim_bounds h b HF1).
    - assert (Hup : c <= cyc + 2 * Z.of_nat (S m) + MemoryAccess * 16).
      { apply (erun_upper skm (fun a path => skm_eres (skm_cycle app a path)) P Hstep) with (rest := rest) (a := a) (hev := hev); [|exact (conj HF (conj Hwf Hsh))|exact Hc].
        intros h r b (HF1 & Hwf1 & Hsh1). specialize (Hdc h r b). pose proof (skm_cycle_fin_dt h r b) as Hdt.
        destruct (skm_cycle app b (h :: r)) as [? ? d0|d0 t|]; cbn [skm_eres] in *; [lia | split; [lia | exact (Hdt d0 t HF1 Hwf1 Hsh1 eq_refl)] | exact I]. }
      exists c. split; [|lia]. rewrite skm_run_erun. replace fuel with (S m + (fuel - S m))%nat by lia. apply erun_more. exact Hc.
  Qed.
End FrontM.
