(* What the simulations of the MVP-4 / MVP-5 models with an L1D share (Mvp4sSim.v,
   Mvp5mSim.v, Mvp5sSim.v): the model's execute unit against the value-free execute
   unit skm_eu of the skeletons, the two halves of a load and a store hit through the
   L1D under the invariant VInv of Mvp3Proofs.v, and the sequential run as a list of
   events (sexecm) with one executed instruction against the generated Run
   (exec_cases_m). *)
From Coq Require Import ZArith List Bool Lia.
From Maj Require Import Base.Outcome Base.GoInt Base.GoTypes Isa.Spec Isa.Embed Isa.Seq Isa.Refine.
From Maj Require Import Gen.Latency Gen.RiscTables Gen.Opcodes Comp.Cache Comp.CacheSpec Comp.CacheProofs.
From Maj Require Import Mvp.Mvp12 Mvp.Mvp12Proofs Mvp.Mvp3 Mvp.Mvp3Proofs Mvp.Mvp4 Mvp.Mvp4Skel Mvp.Mvp4Inv Mvp.Mvp4Units
     Mvp.Mvp4Front Mvp.Mvp4Sim Mvp.Mvp4mSkel Mvp.Mvp4mInv Mvp.Mvp4mFront.
Import ListNotations.
Open Scope Z_scope.

(* the skeleton does not keep the loaded bytes *)
Definition eu_erase (e : eu_t) : eu_t :=
  mk_eu (eu_processing e) (eu_pending_read e) (eu_addrs e) (option_map (fun _ => []) (eu_memory e))
        (eu_remaining e) (eu_runner e).

Lemma eu_erase_id e : eu_memory e = None -> eu_erase e = e.
Proof. intros H. unfold eu_erase. rewrite H. destruct e; cbn in *; subst; reflexivity. Qed.

(* the data phase of a load that completes *)
Definition load_got (l1d : cache) (mem : list Z) (e : eu_t) : outcome (cache * list Z * list Z) :=
  match eu_memory e with
  | Some m => Ok (l1d, mem, m)
  | None =>
      match eu_addrs e with
      | [] => Panic
      | a0 :: _ =>
          ln <- fetch_cache_line mem a0 ;;
          r2 <- push_line_to_l1d l1d mem a0 ln ;;
          r3 <- get_all (fst r2) (eu_addrs e) [] ;;
          match r3 with
          | (d3, Some bytes) => Ok (d3, snd r2, bytes)
          | (_, None) => Panic
          end
      end
  end.

Definition wait_eu (ce : eu_t) : eu_t :=
  mk_eu (eu_processing ce) true (eu_addrs ce) (eu_memory ce) (eu_remaining ce - 1) (eu_runner ce).

Lemma eu_cycle_m_pending labels regs mem pw l1d ce wbus bu ebus dt la e1 ebus2 dt1 act :
  eu_pending_read ce = true ->
  skm_eu (eu_erase ce) ebus pw dt la = (e1, ebus2, dt1, act) ->
  match act with
  | ANone =>
      eu_cycle labels (mk_env regs mem pw l1d ce wbus bu) ebus
      = inl (Ok (mk_env regs mem pw l1d (wait_eu ce) wbus bu, ebus, eu_none)) /\
      e1 = eu_erase (wait_eu ce) /\ dt1 = dt /\ ebus2 = ebus
  | AExec i pc =>
      ebus2 = ebus /\
      e1 = eu_done (mk_eu (eu_processing ce) false (eu_addrs ce) None (eu_remaining ce - 1) (eu_runner ce)) /\
      eu_cycle labels (mk_env regs mem pw l1d ce wbus bu) ebus
      = match load_got l1d mem ce with
        | Ok (d', mem', bytes) =>
            eu_post (eu_run labels (mk_env regs mem' pw d'
                                           (mk_eu (eu_processing ce) false (eu_addrs ce) None (eu_remaining ce - 1) (eu_runner ce))
                                           wbus bu) i pc bytes) ebus
        | Err er => inl (Err er)
        | Panic => inl Panic
        end
  | AStuck => True
  end.
Proof.
  intros Hpr. unfold skm_eu, eu_cycle, load_got, set_rem, wait_eu. cbn [eu_erase eu_pending_read eu_remaining eu_runner eu_memory eu_addrs eu_processing e_eu e_wbus e_regs e_mem e_pw e_l1d e_bu].
  rewrite Hpr.
  destruct (negb (eu_remaining ce - 1 =? 0)).
  - intros H. injection H as <- <- <- <-. repeat split; reflexivity.
  - destruct (eu_runner ce) as [[i pc]|] eqn:Er.
    + intros H. injection H as <- <- <- <-. split; [reflexivity|]. split; [reflexivity|].
      destruct (eu_memory ce) as [m|]; [reflexivity|].
      destruct (eu_addrs ce) as [|a0 t]; reflexivity.
    + intros H. injection H as <- <- <- <-. exact I.
Qed.

(* the execute unit with no load in flight: count down, stall, issue a load, or execute *)
Lemma eu_cycle_m_idle labels regs mem pw l1d ce wbus bu ebus dt la d1 bytes e1 ebus2 dt1 act :
  eu_pending_read ce = false -> eu_memory ce = None -> sbus_can_add wbus = true ->
  (forall i pc, hd_error (q_eu ce ++ q_sb ebus) = Some (i, pc) ->
                pw_hazard pw (instr_ReadRegisters i) = false -> instr_MemoryRead i (rget regs) 0 = la) ->
  (la <> [] -> get_all l1d la [] = Ok (d1, if snd (a_get_all dt la) then Some bytes else None)) ->
  skm_eu ce ebus pw dt la = (e1, ebus2, dt1, act) ->
  match act with
  | ANone =>
      exists bu' ce1 l1d',
        eu_cycle labels (mk_env regs mem pw l1d ce wbus bu) ebus
        = inl (Ok (mk_env regs mem pw l1d' ce1 wbus bu', ebus2, eu_none)) /\
        eu_erase ce1 = e1 /\
        ((l1d' = l1d /\ dt1 = dt /\ eu_pending_read ce1 = false /\ eu_memory ce1 = eu_memory ce) \/
         (la <> [] /\ l1d' = d1 /\ dt1 = fst (a_get_all dt la) /\ eu_pending_read ce1 = true /\
          eu_memory ce1 = (if snd (a_get_all dt la) then Some bytes else eu_memory ce)))
  | AExec i pc =>
      la = [] /\ dt1 = dt /\
      exists e2, e1 = eu_done e2 /\ pw_hazard pw (instr_ReadRegisters i) = false /\
        hd_error (q_eu ce ++ q_sb ebus) = Some (i, pc) /\
        eu_cycle labels (mk_env regs mem pw l1d ce wbus bu) ebus
        = eu_post (eu_run labels (mk_env regs mem pw l1d e2 wbus (bu_assert bu i pc)) i pc []) ebus2
  | AStuck => True
  end.
Proof.
  intros Hpr Hm Hadd Hmr Hga. unfold skm_eu, eu_cycle, eu_intake, set_rem, eu_erase. cbn [e_eu e_wbus e_regs e_mem e_pw e_l1d e_bu].
  rewrite Hpr, Hadd, Hm. unfold q_eu in Hmr.
  destruct (eu_processing ce) eqn:Ep.
  - cbn [negb]. destruct (negb (eu_remaining ce - 1 =? 0)).
    + intros H. injection H as <- <- <- <-. do 3 eexists. split; [reflexivity|].
      split; [cbn; rewrite ?Hpr, ?Hm; reflexivity|]. left. auto.
    + destruct (eu_runner ce) as [[i pc]|] eqn:Er; [|intros H; injection H as <- <- <- <-; exact I].
      destruct (pw_hazard pw (instr_ReadRegisters i)) eqn:Ehz.
      * intros H. injection H as <- <- <- <-. do 3 eexists. split; [reflexivity|].
        split; [cbn; rewrite ?Hpr, ?Hm; reflexivity|]. left. auto.
      * rewrite (Hmr i pc eq_refl Ehz).
        destruct la as [|a0 la'].
        -- intros H. injection H as <- <- <- <-. split; [reflexivity|]. split; [reflexivity|].
           eexists. split; [reflexivity|]. split; [exact Ehz|]. split; [unfold q_eu; rewrite ?Ep, ?Er; reflexivity | reflexivity].
        -- rewrite (Hga ltac:(discriminate)).
           destruct (snd (a_get_all dt (a0 :: la'))); intros H; injection H as <- <- <- <-;
             do 3 eexists; (split; [reflexivity|]); (split; [cbn; rewrite ?Hpr, ?Hm; reflexivity|]);
             right; (split; [discriminate|]); auto.
  - destruct ebus as [ep ec]. unfold sbus_get. cbn [sb_current sb_pending q_sb] in *.
    destruct ec as [[i pc]|].
    + cbn [negb eu_remaining eu_runner eu_processing eu_pending_read eu_addrs eu_memory].
      fold (cyc_of i).
      destruct (negb (cyc_of i - 1 =? 0)).
      * intros H. injection H as <- <- <- <-. do 3 eexists. split; [reflexivity|].
        split; [cbn; rewrite ?Hpr, ?Hm; reflexivity|]. left. auto.
      * destruct (pw_hazard pw (instr_ReadRegisters i)) eqn:Ehz.
        -- intros H. injection H as <- <- <- <-. do 3 eexists. split; [reflexivity|].
           split; [cbn; rewrite ?Hpr, ?Hm; reflexivity|]. left. auto.
        -- rewrite (Hmr i pc eq_refl Ehz).
           destruct la as [|a0 la'].
           ++ intros H. injection H as <- <- <- <-. split; [reflexivity|]. split; [reflexivity|].
              eexists. split; [reflexivity|]. split; [exact Ehz|]. split; [unfold q_eu; rewrite ?Ep, ?Er; reflexivity | reflexivity].
           ++ rewrite (Hga ltac:(discriminate)).
              destruct (snd (a_get_all dt (a0 :: la'))); intros H; injection H as <- <- <- <-;
                do 3 eexists; (split; [reflexivity|]); (split; [cbn; rewrite ?Hpr, ?Hm; reflexivity|]);
                right; (split; [discriminate|]); auto.
    + cbn [negb]. intros H. injection H as <- <- <- <-. do 3 eexists. split; [reflexivity|].
      split; [destruct ce; cbn in *; subst; reflexivity|]. left. auto.
Qed.

Lemma eu_run_reg_b labels regs mem pw l1d e2 wbus bu i pc bytes exe :
  instr_Run i (rget regs) labels pc bytes 0 = Ok exe -> Return exe = false -> MemoryChange exe = false ->
  eu_run labels (mk_env regs mem pw l1d e2 wbus bu) i pc bytes =
    inl (Ok (mk_env regs mem (pw_add pw (instr_WriteRegisters i)) l1d
                    (mk_eu false (eu_pending_read e2) (eu_addrs e2) (eu_memory e2) (eu_remaining e2) (eu_runner e2))
                    (sbus_add wbus (exe, instr_WriteRegisters i)) (fst (flush_dec bu exe)),
             if snd (flush_dec bu exe) then mk_euo true (NextPc exe) false else eu_none)).
Proof.
  intros H Hr Hm. unfold eu_run. cbn [e_regs e_mem e_pw e_l1d e_eu e_wbus e_bu]. rewrite H, Hr, Hm. cbn [bind].
  unfold flush_dec. destruct (PcChange exe); [destruct (bu_should_flush bu (NextPc exe))|]; reflexivity.
Qed.

Lemma eu_run_store_hit labels regs mem pw l1d e2 wbus bu i pc bs d2 vs a0 v0 t d3 :
  instr_Run i (rget regs) labels pc [] 0 = Ok (embed (EStore bs)) ->
  get_all l1d (map fst bs) [] = Ok (d2, Some vs) ->
  sort_changes bs = (a0, v0) :: t ->
  write d2 a0 (map snd ((a0, v0) :: t)) = Ok d3 ->
  eu_run labels (mk_env regs mem pw l1d e2 wbus bu) i pc [] =
    inl (Ok (mk_env regs mem pw d3
                    (mk_eu false (eu_pending_read e2) (eu_addrs e2) (eu_memory e2) (eu_remaining e2) (eu_runner e2))
                    wbus bu, eu_none)).
Proof.
  intros H Hg Hs Hw. unfold eu_run. cbn [e_regs e_mem e_pw e_l1d e_eu e_wbus e_bu]. rewrite H.
  cbn [embed Return MemoryChange MemoryChanges]. rewrite Hg. cbn [bind]. rewrite Hs, Hw. reflexivity.
Qed.

Lemma load_issue_ok c sc m ms a0 t : VInv c sc m ms ->
  forallb (in_mem ms) (a0 :: t) = true -> same_line (a0 :: t) = true ->
  exists c1 sc1,
    get_all c (a0 :: t) [] =
      Ok (c1, if snd (a_get_all (s_rec sc) (a0 :: t)) then Some (map (mget ms) (a0 :: t)) else None) /\
    VInv c1 sc1 m ms /\ s_rec sc1 = fst (a_get_all (s_rec sc) (a0 :: t)) /\
    (snd (a_get_all (s_rec sc) (a0 :: t)) = false -> forall a, In a (a0 :: t) -> view sc1 a = None).
Proof.
  intros [HD Hl Hsm Heq] Hin Hsl. set (addrs := a0 :: t) in *.
  assert (Hr : forall a, In a addrs -> 0 <= a < zlen ms).
  { intros a Ha. apply in_mem_range. rewrite forallb_forall in Hin. auto. }
  destruct (get_all_ok sc addrs c sc [] HD ltac:(auto)) as (c1 & sc1 & E1 & HD1 & Hv1 & Hr1 & Hh1).
  exists c1, sc1. rewrite <- Hh1, <- Hr1.
  assert (HV1 : VInv c1 sc1 m ms).
  { constructor; auto. intros x Hx. unfold lm. rewrite Hv1. apply (Heq x Hx). }
  split; [|split; [exact HV1|split; [reflexivity|]]].
  - rewrite E1. destruct (forallb (fun a => is_some (view sc a)) addrs) eqn:Eall; [|reflexivity].
    cbn [rev List.app]. do 3 f_equal. apply map_ext_in. intros a Ha. rewrite <- (Heq a (Hr a Ha)). unfold lm, vget.
    rewrite forallb_forall in Eall. specialize (Eall a Ha). destruct (view sc a); [reflexivity | discriminate].
  - intros Eall a Ha. rewrite Hv1. exact (all_hit_or_first_miss c sc a0 t HD Hsl Eall a Ha).
Qed.

Lemma load_complete_ok c sc m ms a0 t : VInv c sc m ms ->
  forallb (in_mem ms) (a0 :: t) = true -> same_line (a0 :: t) = true ->
  (forall a, In a (a0 :: t) -> view sc a = None) ->
  exists c3 sc3 m3,
    (ln <- fetch_cache_line m a0 ;;
     r2 <- push_line_to_l1d c m a0 ln ;;
     r3 <- get_all (fst r2) (a0 :: t) [] ;;
     match r3 with
     | (d3, Some bytes) => Ok (d3, snd r2, bytes)
     | (_, None) => Panic
     end) = Ok (c3, m3, map (mget ms) (a0 :: t)) /\
    VInv c3 sc3 m3 ms /\ s_rec sc3 = fst (a_get_all (a_fill (s_rec sc) a0) (a0 :: t)).
Proof.
  intros [HD Hl Hsm Heq] Hin Hsl Hnone. set (addrs := a0 :: t) in *.
  assert (Hr : forall a, In a addrs -> 0 <= a < zlen ms).
  { intros a Ha. apply in_mem_range. rewrite forallb_forall in Hin. auto. }
  assert (Ha0 : 0 <= a0 < zlen m).
  { unfold zlen. rewrite Hl. apply Hr. left; reflexivity. }
  assert (Hm0 : view sc a0 = None) by (apply Hnone; left; reflexivity).
  destruct (fill_ok c sc m a0 HD Ha0 ltac:(unfold zlen in *; rewrite Hl; exact Hsm) Hm0)
    as (ln & c2 & sc2 & m2 & Ef & Ep & HD2 & Hl2 & Hlm2 & Hres & Hr2).
  rewrite Ef. cbn [bind]. rewrite Ep. cbn [bind fst snd].
  destruct (get_all_ok sc2 addrs c2 sc2 [] HD2 ltac:(auto)) as (c3 & sc3 & E3 & HD3 & Hv3 & Hr3 & Hh3). rewrite E3. cbn [bind].
  assert (Hall : forallb (fun a => is_some (view sc2 a)) addrs = true).
  { apply forallb_forall. intros a Ha. pose proof (same_line_spec _ _ _ Hsl Ha) as Hq.
    specialize (Hres a ltac:(lia)). destruct (view sc2 a); [reflexivity | congruence]. }
  rewrite Hall. cbn [rev List.app].
  assert (Hlm3 : forall x, 0 <= x < zlen ms -> lm sc3 m2 x = mget ms x).
  { intros x Hx. unfold lm. rewrite Hv3. fold (lm sc2 m2 x). rewrite Hlm2 by (unfold zlen in *; rewrite Hl; exact Hx).
    auto. }
  exists c3, sc3, m2. split; [|split].
  - do 2 f_equal. apply map_ext_in. intros a Ha. rewrite <- (Hlm3 a (Hr a Ha)). unfold lm, vget. rewrite Hv3.
    rewrite forallb_forall in Hall. specialize (Hall a Ha). destruct (view sc2 a); [reflexivity | discriminate].
  - constructor; auto. congruence.
  - rewrite Hr3, Hr2. reflexivity.
Qed.

(* a store that hits (cf. store_block_ok) *)
Lemma store_hit_m c sc m ms bs a0 : VInv c sc m ms -> bs <> [] ->
  map fst bs = consec a0 (length bs) ->
  forallb (in_mem ms) (map fst bs) = true -> same_line (map fst bs) = true ->
  snd (a_get_all (s_rec sc) (map fst bs)) = true ->
  exists c1 vs v0 t c' sc',
    get_all c (map fst bs) [] = Ok (c1, Some vs) /\ sort_changes bs = (a0, v0) :: t /\
    write c1 a0 (map snd ((a0, v0) :: t)) = Ok c' /\
    VInv c' sc' m (mset_all ms bs) /\ s_rec sc' = fst (a_get_all (s_rec sc) (map fst bs)).
Proof.
  intros HV Hne Hcs Hin Hsl Hhit. pose proof HV as [HD Hl Hsm Heq].
  destruct (get_all_ok sc (map fst bs) c sc [] HD ltac:(auto)) as (c1 & sc1 & E1 & HD1 & Hv1 & Hr1 & Hh1).
  rewrite <- Hh1 in Hhit. rewrite Hhit in E1.
  assert (HV1 : VInv c1 sc1 m ms).
  { constructor; auto. intros x Hx. unfold lm. rewrite Hv1. apply (Heq x Hx). }
  assert (Hhd : exists v0 t, bs = (a0, v0) :: t).
  { destruct bs as [|[a0' v0] t]; [congruence|]. cbn [length] in Hcs. rewrite consec_S in Hcs.
    cbn [map fst] in Hcs. injection Hcs as -> _. eauto. }
  destruct Hhd as (v0 & t & Ebs).
  assert (Hhit1 : view sc1 a0 <> None).
  { rewrite Hv1. rewrite forallb_forall in Hhit. specialize (Hhit a0).
    rewrite Ebs in Hhit. cbn [map fst] in Hhit. specialize (Hhit (or_introl eq_refl)).
    destruct (view sc a0); discriminate. }
  destruct (store_hit_ok c1 sc1 m ms bs a0 HV1 Hne Hcs Hin Hsl Hhit1) as (c' & sc' & Ew & HV' & Hr').
  exists c1, (rev [] ++ map (vget sc) (map fst bs)), v0, t, c', sc'. split; [exact E1|]. split; [rewrite (sort_changes_consec bs a0 Hcs); exact Ebs|].
  split; [rewrite <- Ebs; exact Ew|]. split; [exact HV'|]. rewrite Hr', Hr1. reflexivity.
Qed.

Definition m4_tail (f : nat) (app : list instr) (labels : Z -> option Z) (wu : wu_t) (l1i1 : cache) (fu1 : fu_t)
           (dbus2 : sbus Z) (cycle : Z)
           (r : outcome (eu_env * sbus (instr * Z) * eu_out) + err_class) : mres :=
  match r with
  | inr e => MErr e
  | inl (Ok (env1, ebus2, o)) =>
      match wu_cycle (e_regs env1) (e_mem env1) (e_pw env1) wu (e_wbus env1) with
      | Ok (regs2, mem2, pw2, wu2, wbus2) =>
          let s2 := mk_m4 regs2 mem2 pw2 l1i1 (e_l1d env1) fu1 dbus2 ebus2 (e_eu env1) wbus2 wu2 (e_bu env1) in
          if eo_ret o then
            match m4_drain (S (S (Z.to_nat MemoryAccess * 4)%nat)) regs2 mem2 pw2 wu2 wbus2 cycle false with
            | Ok (regs3, mem3, pw3, wu3, wbus3, cycle3) =>
                m4_finish (mk_m4 regs3 mem3 pw3 l1i1 (e_l1d env1) fu1 dbus2 ebus2 (e_eu env1) wbus3 wu3 (e_bu env1)) cycle3
            | _ => MPanic
            end
          else if eo_flush o then
            match m4_drain (S (S (Z.to_nat MemoryAccess * 4)%nat)) regs2 mem2 pw2 wu2 wbus2 cycle true with
            | Ok (regs3, mem3, pw3, wu3, wbus3, cycle3) =>
                let fu3 := mk_fu (eo_pc o) (fu_remaining fu1) false false in
                m4run f app labels
                      (mk_m4 regs3 mem3 zero_pw l1i1 (e_l1d env1) fu3 sbus_empty sbus_empty (e_eu env1) sbus_empty wu3 (e_bu env1))
                      cycle3
            | _ => MPanic
            end
          else if m4_is_complete s2 then m4_finish s2 cycle
          else m4run f app labels s2 cycle
      | _ => MPanic
      end
  | inl _ => MPanic
  end.

Lemma m4run_S f app labels s cyc :
  m4run (S f) app labels s cyc =
  match fu_cycle app (s_fu s) (s_l1i s) (s_dbus s) with
  | Ok (fu1, l1i1, dbus1) =>
      match du_cycle app dbus1 (s_ebus s) with
      | Ok (dbus2, ebus1) =>
          m4_tail f app labels (s_wu s) l1i1 fu1 dbus2 (cyc + 1)
                  (eu_cycle labels (mk_env (s_regs s) (s_mem s) (s_pw s) (s_l1d s) (s_eu s) (s_wbus s) (s_bu s)) ebus1)
      | _ => MPanic
      end
  | _ => MPanic
  end.
Proof.
  cbn [m4run]. destruct (fu_cycle app (s_fu s) (s_l1i s) (s_dbus s)) as [[[fu1 l1i1] dbus1]| |]; reflexivity.
Qed.

Lemma if_false_r {A} (b : bool) (x y : A) : b = false -> (if b then y else x) = x.
Proof. intros ->. reflexivity. Qed.

Section SimM.
  Variables (app : list instr) (labels : Z -> option Z).
  Hypothesis Happ : wf_app app.
  Hypothesis Hlab : wf_labels labels.
  Let sp := map sinstr_of app.

  Definition ev_of (st : arch) (pc : Z) : event :=
    (pc,
     match nth_error sp (Z.to_nat (pc / 4)) with Some i => load_addrs i (rget (regs st)) | None => [] end,
     match nth_error sp (Z.to_nat (pc / 4)) with Some i => store_addrs i (rget (regs st)) | None => [] end).

  (* the sequential machine follows the events [path] from [st] and halts in [stf];
     every access stays inside one 64-byte line *)
  Inductive sexecm : arch -> list event -> arch -> Prop :=
  | SM_halt st pc st' : Seq.step sp labels st pc = Halt st' -> sexecm st [ev_of st pc] st'
  | SM_next st pc st' pc' rest stf :
      Seq.step sp labels st pc = Next st' pc' ->
      same_line (ev_la (ev_of st pc)) = true -> same_line (ev_sa (ev_of st pc)) = true ->
      sexecm st' (ev_of st' pc' :: rest) stf -> sexecm st (ev_of st pc :: ev_of st' pc' :: rest) stf.

  Lemma ev_of_at st pc i : nth_error app (Z.to_nat (pc / 4)) = Some i ->
    ev_of st pc = (pc, load_addrs (sinstr_of i) (rget (regs st)), store_addrs (sinstr_of i) (rget (regs st))).
  Proof. intros H. unfold ev_of, sp. rewrite (map_nth_error sinstr_of _ _ H). reflexivity. Qed.

  Lemma step_at st pc i : 0 <= pc -> nth_error app (Z.to_nat (pc / 4)) = Some i ->
    Seq.step sp labels st pc =
      let rr := rget (regs st) in
      let la := load_addrs (sinstr_of i) rr in
      if negb (forallb (in_mem (mem st)) la) then Fail EBounds else
      match exec (sinstr_of i) rr labels pc (map (mget (mem st)) la) with
      | Err e => Fail e
      | Panic => Fail EOther
      | Ok (EReg rd v) => Next (mk_arch (rset (regs st) rd v) (mem st)) (pc + 4)
      | Ok (EStore bs) =>
          if negb (forallb (in_mem (mem st)) (map fst bs)) then Fail EBounds
          else Next (mk_arch (regs st) (mset_all (mem st) bs)) (pc + 4)
      | Ok EFall => Next st (pc + 4)
      | Ok (EGoto a) => Next st a
      | Ok (ELink rd v a) => Next (mk_arch (rset (regs st) rd v) (mem st)) a
      | Ok EReturn => Halt st
      end.
  Proof.
    intros Hpc Hi. unfold Seq.step. destruct (Z.ltb_spec pc 0); [lia|].
    unfold sp. rewrite (map_nth_error sinstr_of _ _ Hi). reflexivity.
  Qed.

  Lemma store_no_load si rr pc m bs : exec si rr labels pc m = Ok (EStore bs) -> load_addrs si rr = [].
  Proof.
    destruct si; cbn [exec load_addrs]; unfold branch; intros H; try reflexivity;
      repeat match type of H with
             | context [if ?c then _ else _] => destruct c
             | context [match ?c with Some _ => _ | None => _ end] => destruct c
             end; discriminate.
  Qed.

  Lemma exec_pc_no_load si rr rr' pc m e : exec si rr labels pc m = Ok e ->
    match e with EGoto _ | ELink _ _ _ => load_addrs si rr' = [] | _ => True end.
  Proof.
    destruct si; cbn [exec load_addrs]; unfold branch; intros H;
      repeat match type of H with
             | context [if ?c then _ else _] => destruct c
             | context [match ?c with Some _ => _ | None => _ end] => destruct c
             end; try discriminate; injection H as <-; try exact I; reflexivity.
  Qed.

  (* one executed instruction: sequential step against the generated Run *)
  Lemma exec_cases_m st regs0 pc i bu :
    0 <= pc < 2147483644 -> nth_error app (Z.to_nat (pc / 4)) = Some i ->
    Forall int32 regs0 -> Forall int32 (regs st) -> Forall int8 (mem st) ->
    (forall r, In r (instr_ReadRegisters i) -> rget (regs st) r = rget regs0 r) ->
    let la := load_addrs (sinstr_of i) (rget (regs st)) in
    let bytes := map (mget (mem st)) la in
    match Seq.step sp labels st pc with
    | Halt st' => st' = st /\ is_ret i = true /\ la = [] /\ instr_Run i (rget regs0) labels pc bytes 0 = Ok (embed EReturn)
    | Next st' next =>
        is_ret i = false /\ forallb (in_mem (mem st)) la = true /\
        exists e, instr_Run i (rget regs0) labels pc bytes 0 = Ok (embed e) /\
          Forall int32 (regs st') /\ Forall int8 (mem st') /\
          (((forall bs, e <> EStore bs) /\ store_addrs (sinstr_of i) (rget (regs st)) = [] /\
            Return (embed e) = false /\ MemoryChange (embed e) = false /\
            item_ok (embed e, instr_WriteRegisters i) /\ wb_rel (embed e) (instr_WriteRegisters i) /\
            regs st' = wapply (embed e) (regs st) /\ mem st' = mem st /\
            (0 <= next -> snd (flush_dec (bu_assert bu i pc) (embed e)) = sk_flush i pc next) /\
            (sk_flush i pc next = true -> NextPc (embed e) = next) /\
            (PcChange (embed e) = true -> la = []))
           \/ (exists bs, e = EStore bs /\ la = [] /\ bs <> [] /\
                 map fst bs = store_addrs (sinstr_of i) (rget (regs st)) /\
                 forallb (in_mem (mem st)) (map fst bs) = true /\
                 regs st' = regs st /\ mem st' = mset_all (mem st) bs /\ next = pc + 4))
    | Fail _ => True
    end.
  Proof.
    intros Hpc Hi Hr0 Hrs Hm8 Hread la bytes. rewrite (step_at st pc i ltac:(lia) Hi). cbv zeta. fold la. fold bytes.
    assert (Hrr : forall r, int32 (rget regs0 r)) by (intros r; apply rget_int32; assumption).
    rewrite read_registers_exact in Hread.
    destruct (spec_reads_sound (sinstr_of i) (rget (regs st)) (rget regs0) labels pc bytes Hread) as (Hex & Hla & Hsa).
    pose proof (run_refines_spec (rget regs0) labels pc bytes 0 Hrr i (imm_ok app Happ _ _ Hi)
                  (load_addrs_mem_ok _ (rget (regs st)) (mem st) Hm8)) as Hrun.
    destruct (negb (forallb (in_mem (mem st)) la)) eqn:Ein; [exact I|]. apply negb_false_iff in Ein.
    rewrite Hex. rewrite Hrun.
    destruct (exec (sinstr_of i) (rget regs0) labels pc bytes) as [e|err|] eqn:Ee; [|exact I|exact I].
    pose proof (exec_ranges _ _ _ _ _ _ Hlab Ee) as Hrange.
    pose proof (spec_writes_sound _ _ _ _ _ _ Ee) as Hwr. rewrite <- write_registers_exact in Hwr.
    pose proof (exec_branch_class _ _ _ _ _ _ Ee) as Hcls.
    pose proof (exec_return_is_ret _ _ _ _ _ _ Ee) as Hret.
    pose proof (store_addrs_effect _ _ _ _ _ _ Ee) as Hse. rewrite <- Hsa in Hse.
    pose proof (exec_pc_no_load _ _ (rget (regs st)) _ _ _ Ee) as Hpcl. fold la in Hpcl.
    destruct (pc_next app Happ pc i ltac:(lia) Hi) as [Hpc4 _].
    assert (Hnr : forall e', e = e' -> e' <> EReturn -> is_ret i = false).
    { intros e' <- Hne. destruct (is_ret i); [|reflexivity]. exfalso. apply Hne. apply Hret. reflexivity. }
    cbn [omap].
    destruct e as [rd v|bs| |a|rd v a|].
    - (* register write *)
      split; [eapply Hnr; [reflexivity | discriminate]|]. split; [exact Ein|]. exists (EReg rd v). split; [reflexivity|].
      cbn [regs mem]. split; [apply rset_int32; assumption|]. split; [assumption|]. left.
      split; [intros bs; discriminate|]. split; [exact Hse|].
      rewrite wapply_embed. cbn [embed]. destruct (reg_pair rd v) as [r x] eqn:Erp.
      cbn [Return MemoryChange]. split; [reflexivity|]. split; [reflexivity|].
      split; [split; [reflexivity | discriminate]|].
      split. { intros _. exists rd. split; [exact Hwr|]. unfold reg_pair in Erp. cbn [Register].
               destruct (rd =? 0); injection Erp as <- _; reflexivity. }
      split; [reflexivity|]. split; [reflexivity|].
      unfold flush_dec, sk_flush. cbn [PcChange snd]. fold (uncond i). rewrite Hcls, Hpc4, Z.eqb_refl. split; [reflexivity | split; discriminate].
    - (* store *)
      destruct (negb (forallb (in_mem (mem st)) (map fst bs))) eqn:Eb2; [exact I|]. apply negb_false_iff in Eb2.
      split; [eapply Hnr; [reflexivity | discriminate]|]. split; [exact Ein|]. exists (EStore bs). split; [reflexivity|].
      cbn [regs mem]. split; [assumption|]. split; [apply mset_all_int8; assumption|]. right.
      exists bs. split; [reflexivity|].
      split; [unfold la; rewrite Hla; eapply store_no_load; exact Ee|].
      split; [eapply estore_nonempty; exact Ee|].
      split; [rewrite Hsa; eapply spec_store_addrs; exact Ee|]. auto.
    - (* fall through *)
      split; [eapply Hnr; [reflexivity | discriminate]|]. split; [exact Ein|]. exists EFall. split; [reflexivity|].
      split; [assumption|]. split; [assumption|]. left.
      split; [intros bs; discriminate|]. split; [exact Hse|].
      cbn [embed Return MemoryChange]. split; [reflexivity|]. split; [reflexivity|].
      split; [split; [reflexivity | intros _; exact Hwr]|].
      split; [intros H; discriminate H|].
      split; [reflexivity|]. split; [reflexivity|].
      unfold flush_dec, sk_flush. cbn [PcChange snd]. fold (uncond i). rewrite Hcls, Hpc4, Z.eqb_refl. split; [reflexivity | split; discriminate].
    - (* taken branch / jump *)
      split; [eapply Hnr; [reflexivity | discriminate]|]. split; [exact Ein|]. exists (EGoto a). split; [reflexivity|].
      split; [assumption|]. split; [assumption|]. left.
      split; [intros bs; discriminate|]. split; [exact Hse|].
      cbn [embed Return MemoryChange]. split; [reflexivity|]. split; [reflexivity|].
      split; [split; [reflexivity | intros _; exact Hwr]|].
      split; [intros H; discriminate H|].
      split; [reflexivity|]. split; [reflexivity|].
      split; [|split; [reflexivity | intros _; exact Hpcl]]. intros Ha.
      unfold flush_dec, sk_flush, bu_assert, bu_should_flush. cbn [PcChange NextPc]. fold (uncond i) (condbr i).
      destruct Hcls as [Hu | [Hu Hc]]; rewrite Hu; [|rewrite Hc]; cbn [bu_to_check bu_expectation negb snd orb].
      + destruct (Z.eqb_spec (-1) a); [lia | reflexivity].
      + rewrite (Z.eqb_sym a). reflexivity.
    - (* jump and link *)
      split; [eapply Hnr; [reflexivity | discriminate]|]. split; [exact Ein|]. exists (ELink rd v a). split; [reflexivity|].
      cbn [regs mem]. split; [apply rset_int32; [assumption | apply Hrange]|]. split; [assumption|]. left.
      split; [intros bs; discriminate|]. split; [exact Hse|].
      rewrite wapply_embed. cbn [embed]. destruct (reg_pair rd v) as [r x] eqn:Erp.
      cbn [Return MemoryChange]. split; [reflexivity|]. split; [reflexivity|].
      split; [split; [reflexivity | discriminate]|].
      split. { intros _. exists rd. split; [exact Hwr|]. unfold reg_pair in Erp. cbn [Register].
               destruct (rd =? 0); injection Erp as <- _; reflexivity. }
      split; [reflexivity|]. split; [reflexivity|].
      split; [|split; [reflexivity | intros _; exact Hpcl]]. intros Ha.
      unfold flush_dec, sk_flush, bu_assert, bu_should_flush. cbn [PcChange NextPc]. fold (uncond i).
      rewrite Hcls. cbn [bu_to_check bu_expectation negb snd orb].
      destruct (Z.eqb_spec (-1) a); [lia | reflexivity].
    - (* ret *)
      split; [reflexivity|]. split; [apply Hret; reflexivity|]. split; [|reflexivity].
      unfold la. destruct i; try discriminate (proj1 Hret eq_refl). reflexivity.
  Qed.

  Definition nla (path : list event) : list Z := match path with ev :: _ => ev_la ev | [] => [] end.

  Lemma sexecm_head st hev rest stf : sexecm st (hev :: rest) stf -> hev = ev_of st (ev_pc hev) /\ 0 <= ev_pc hev.
  Proof.
    intros H. assert (Hs : exists pc r, hev = ev_of st pc /\ Seq.step sp labels st pc = r /\ match r with Fail _ => False | _ => True end).
    { inversion H; subst; do 2 eexists; (split; [reflexivity|]); (split; [eassumption | exact I]). }
    destruct Hs as (pc & r & -> & Hs & Hr). cbn [ev_pc ev_of fst]. split; [reflexivity|].
    unfold Seq.step in Hs. destruct (Z.ltb_spec pc 0); [subst r; contradiction | assumption].
  Qed.

  Lemma sexecm_out st hev rest stf : sexecm st (hev :: rest) stf -> nlen app <= ev_pc hev / 4 -> stf = st /\ rest = [].
  Proof.
    intros H Hout. destruct (sexecm_head _ _ _ _ H) as [He Hpc].
    pose proof (step_out app labels st (ev_pc hev) Hpc Hout : Seq.step sp labels st (ev_pc hev) = Halt st) as Hst.
    inversion H as [? pc ? Hs|? pc ? ? ? ? Hs]; subst; cbn [ev_pc ev_of fst] in *; rewrite Hst in Hs;
      [injection Hs as <-; auto | discriminate].
  Qed.

  Lemma load_not_ret si rr rr' pc m : load_addrs si rr <> [] -> exec si rr' labels pc m <> Ok EReturn.
  Proof. destruct si; cbn [load_addrs exec]; unfold branch; intros H; try congruence; try discriminate;
           repeat match goal with
                  | |- context [if ?c then _ else _] => destruct c
                  | |- context [match labels ?l with Some _ => _ | None => _ end] => destruct (labels l)
                  end; discriminate. Qed.

  Lemma sexecm_loads st hev rest stf : sexecm st (hev :: rest) stf -> ev_la hev <> [] ->
    forallb (in_mem (mem st)) (ev_la hev) = true /\ same_line (ev_la hev) = true.
  Proof.
    intros H Hla.
    assert (Hs : exists pc r, hev = ev_of st pc /\ Seq.step sp labels st pc = r /\
                 match r with Fail _ => False | Halt _ => True | Next _ _ => same_line (ev_la hev) = true end).
    { inversion H; subst; do 2 eexists; (split; [reflexivity|]); (split; [eassumption|]); [exact I | assumption]. }
    destruct Hs as (pc & r & -> & Hs & Hr). unfold ev_of, ev_la in *. cbn [fst snd] in *.
    unfold Seq.step in Hs. destruct (pc <? 0); [subst r; contradiction|].
    destruct (nth_error sp (Z.to_nat (pc / 4))) as [si|]; [|congruence].
    destruct (negb (forallb (in_mem (mem st)) (load_addrs si (rget (regs st))))) eqn:Ein; [subst r; contradiction|].
    apply negb_false_iff in Ein. split; [exact Ein|].
    destruct r as [st' pc'|st'|e]; [exact Hr| |contradiction]. exfalso.
    pose proof (load_not_ret si (rget (regs st)) (rget (regs st)) pc (map (mget (mem st)) (load_addrs si (rget (regs st)))) Hla) as Hnr.
    destruct (exec si (rget (regs st)) labels pc (map (mget (mem st)) (load_addrs si (rget (regs st))))) as [e| |]; try discriminate.
    destruct e; try discriminate; try congruence. destruct (negb _); discriminate.
  Qed.

  Lemma erase_mem_none ce : eu_memory (eu_erase ce) = None -> eu_memory ce = None.
  Proof. unfold eu_erase. cbn [eu_memory]. destruct (eu_memory ce); [discriminate | reflexivity]. Qed.
End SimM.
