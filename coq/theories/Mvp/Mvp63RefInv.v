(* Refinement of MVP-6.3 to the sequential machine on single-assignment, register-only,
   straight-line programs: the invariant of the back end (BI) and the control unit.

   On this class the machine is an IN-ORDER pipeline: the execute bus is a FIFO, every execute
   unit executes the runner it takes at once, the write bus is a FIFO, so instructions execute
   and write back in program order; indices
        w  <=  xe  <=  d
   count the instructions written back / executed / dispatched; the execute bus holds the
   runners xe .. d-1, the write bus the results w .. xe-1, the scoreboards count w .. d-1, the
   alias tables show the sequential register file after w instructions (Mvp63RefDefs.view).
   The other parameters of BI dp d xe w pl pv x are the control unit's own: pl = controlUnit.pendings (at most
   one runner, the instruction d, not yet on the bus), pv = pushedRunnersInPreviousCycle (runners still on
   the execute bus, none of them a forwarder yet), dp = a lower bound of their indices.
   What makes MVP-6.3 different from MVP-6.0 is how an instruction gets its operands:
     ReadOK   a register it reads from the tables has no writer among w .. k-1 (hazard check), or
     RecvOK   it is the ONE register it receives through a channel from the unique earlier writer
              (forwarding: the writer is still in the execute bus, marked with the channel, or has
              executed and the channel holds its result).
   bi_fnd (for the execute-unit step of Mvp63RefExec.v): the Forwarder channels of the entries of the
   execute bus are pairwise different (every channel id is x_next at its creation). *)
From Coq Require Import ZArith List Bool Lia Permutation.
From Maj Require Import Base.Outcome Base.GoInt Base.GoTypes Isa.Spec Isa.Embed Isa.Seq Isa.Refine.
From Maj Require Import Gen.Latency Gen.RiscTables Gen.Opcodes Comp.Cache Comp.Rat Comp.RatProofs.
From Maj Require Import Mvp.Mvp12 Mvp.Mvp12Proofs Mvp.Mvp3 Mvp.Mvp3Proofs Mvp.Mvp4Skel Mvp.Mvp4Inv Mvp.Mvp5 Mvp.Mvp60
     Mvp.Mvp60RefSem Mvp.Mvp60RefDefs Mvp.Mvp60RefFront Mvp.Mvp60RefBack Mvp.Mvp60RefStep Mvp.Mvp63 Mvp.Mvp63RefDefs.
From Maj Require Comp.Scoreboard.
Import ListNotations.
Open Scope Z_scope.

Definition kq (r : runner3) : nat := kr (q_r r).
Definition recvs (l : list runner3) : list Z :=
  flat_map (fun r => match q_recv r with Some ch => [ch] | None => [] end) l.

Lemma recvs_app a b : recvs (a ++ b) = recvs a ++ recvs b.
Proof. unfold recvs. apply flat_map_app. Qed.

(* the channels the entries of a list will send their result to *)
Definition fwds (l : list runner3) : list Z :=
  flat_map (fun r => match q_fwder r with Some ch => [ch] | None => [] end) l.

Lemma fwds_app a b : fwds (a ++ b) = fwds a ++ fwds b.
Proof. unfold fwds. apply flat_map_app. Qed.

Lemma fwds_in l r ch : In r l -> q_fwder r = Some ch -> In ch (fwds l).
Proof. intros H E. unfold fwds. apply in_flat_map. exists r. split; [exact H|]. rewrite E. left. reflexivity. Qed.

Lemma recvs_in l r ch : In r l -> q_recv r = Some ch -> In ch (recvs l).
Proof. intros H E. unfold recvs. apply in_flat_map. exists r. split; [exact H|]. rewrite E. left. reflexivity. Qed.

Lemma flat_map_single {A B} (c : A -> bool) (g : A -> B) l b :
  flat_map (fun a => if c a then [g a] else []) l = [b] -> forall a, In a l -> c a = true -> g a = b.
Proof.
  induction l as [|x t IH]; cbn [flat_map]; [discriminate|]. intros H a [<-|Ha] Hc.
  - rewrite Hc in H. cbn in H. injection H as H _. exact H.
  - destruct (c x) eqn:Ex.
    + cbn in H. injection H as _ H. exfalso.
      assert (Hin : In (g a) (flat_map (fun a => if c a then [g a] else []) t)).
      { apply in_flat_map. exists a. split; [exact Ha|]. rewrite Hc. left. reflexivity. }
      rewrite H in Hin. destruct Hin.
    + cbn in H. apply IH; assumption.
Qed.

Lemma seq_snoc a l : seq a (S l) = seq a l ++ [(a + l)%nat].
Proof. replace (S l) with (l + 1)%nat by lia. rewrite seq_app. reflexivity. Qed.

(* a scoreboard that counts, slot by slot, the instructions w .. d-1: dispatching d adds its slots,
   the write-back of w takes its slots off *)
Lemma sb_incr_seq (f : nat -> list Z) sb w d : (w <= d)%nat -> length sb = 32%nat ->
  (forall s, (s < 32)%nat -> nth s sb 0 = cnt (fun k => slots (f k)) (seq w (d - w)) s) ->
  forall s, (s < 32)%nat -> nth s (sb_incr sb (f d)) 0 = cnt (fun k => slots (f k)) (seq w (S d - w)) s.
Proof.
  intros Hwd Hl Hc s Hs. rewrite sb_incr_nth by (rewrite Hl; exact Hs). rewrite Hc by exact Hs.
  replace (S d - w)%nat with (S (d - w)) by lia. rewrite seq_snoc, cnt_app. cbn [cnt].
  replace (w + (d - w))%nat with d by lia. lia.
Qed.

Lemma sb_decr_seq (f : nat -> list Z) sb w d : (w < d)%nat -> length sb = 32%nat ->
  (forall s, (s < 32)%nat -> nth s sb 0 = cnt (fun k => slots (f k)) (seq w (d - w)) s) ->
  forall s, (s < 32)%nat -> nth s (sb_decr sb (f w)) 0 = cnt (fun k => slots (f k)) (seq (S w) (d - S w)) s.
Proof.
  intros Hwd Hl Hc. replace (d - w)%nat with (S (d - S w)) in Hc by lia. cbn [seq cnt] in Hc.
  intros s Hs. rewrite sb_decr_nth; [rewrite Hc by exact Hs; lia | rewrite Hl; exact Hs|].
  intros s' Hs'. rewrite Hl in Hs'. rewrite Hc by exact Hs'.
  pose proof (cnt_nonneg (fun k => slots (f k)) (seq (S w) (d - S w)) s'). lia.
Qed.

Lemma aget_app_none {A} k (m1 m2 : list (Z * A)) : aget k m1 = None -> aget k (m1 ++ m2) = aget k m2.
Proof. induction m1 as [|[k' a] t IH]; cbn [aget app]; [reflexivity|]. destruct (k =? k'); [discriminate | exact IH]. Qed.

Lemma aget_app_some {A} k (m1 m2 : list (Z * A)) v : aget k m1 = Some v -> aget k (m1 ++ m2) = Some v.
Proof. induction m1 as [|[k' a] t IH]; cbn [aget app]; [discriminate|]. destruct (k =? k'); [auto | exact IH]. Qed.

Lemma aget_filter_ne {A} k ch (m : list (Z * A)) : k <> ch -> aget k (filter (fun p => negb (fst p =? ch)) m) = aget k m.
Proof.
  intros Hne. induction m as [|[k' a] t IH]; cbn [aget filter fst]; [reflexivity|].
  destruct (Z.eqb_spec k' ch) as [->|]; cbn [negb].
  - destruct (Z.eqb_spec k ch); [contradiction | exact IH].
  - cbn [aget]. rewrite IH. reflexivity.
Qed.

Lemma aget_none_fresh {A} k (m : list (Z * A)) b : Forall (fun p => fst p < b) m -> b <= k -> aget k m = None.
Proof.
  induction 1 as [|[k' a] t Hk _ IH]; intros Hb; cbn [aget]; [reflexivity|]. cbn [fst] in Hk.
  destruct (Z.eqb_spec k k'); [lia | apply IH; exact Hb].
Qed.

Lemma Mvp63Proofs_first_some {A B} (f : A -> option B) l v :
  first_some f l = Some v -> exists a, In a l /\ f a = Some v.
Proof.
  induction l as [|a t IH]; cbn [first_some]; [discriminate|]. destruct (f a) eqn:E.
  - intros H. injection H as <-. exists a. split; [left; reflexivity | exact E].
  - intros H. destruct (IH H) as (b & Hb & Hf). exists b. split; [right; exact Hb | exact Hf].
Qed.

Lemma first_some_none_all {A B} (f : A -> option B) l :
  first_some f l = None -> forall a, In a l -> f a = None.
Proof.
  induction l as [|a t IH]; cbn [first_some]; intros H b Hb; [destruct Hb|].
  destruct (f a) eqn:E; [discriminate|]. destruct Hb as [<-|Hb]; [exact E | apply IH; assumption].
Qed.

(* ------------------------------------------------------------------ *)
(* FrontI of the MVP-6.0 proof, at any base: the queue of the control bus is the head of the stream *)

Section FrontB.
  Variables (app : list instr) (base : nat).
  Let n := length app.
  Let N := stop_from app base.
  Notation FrontI := (Mvp60RefStep.FrontI app base).
  Notation rn := (rn app).

  Lemma front_minc_b D c f cy m : FrontI D c f cy m -> (Nat.min c n <= S N)%nat.
  Proof.
    intros H. destruct (m_dret m) eqn:E.
    - destruct (fr_dret_t _ _ _ _ _ _ _ H E) as (A & B & _). fold n N in A, B |- *. lia.
    - destruct (m_dpbr m) eqn:E2.
      + destruct (fr_dpbr_t _ _ _ _ _ _ _ H E2) as (A & B & _). fold n N in A, B |- *. lia.
      + pose proof (fr_flags_f _ _ _ _ _ _ _ H E E2) as A. fold n N in A |- *. lia.
  Qed.

  Lemma front_cq_b D c f cy m : FrontI D c f cy m -> m_cu m = [] ->
    bb_q (m_cbus m) = map rn (seq D (length (bb_q (m_cbus m)))) /\ (D + length (bb_q (m_cbus m)) <= Nat.min c n)%nat.
  Proof.
    intros H Hcu. pose proof (fr_cl _ _ _ _ _ _ _ H) as Hcl. rewrite Hcu in Hcl. cbn [List.app] in Hcl. unfold flat in Hcl.
    destruct (seq_split rn _ _ _ _ Hcl) as (A & _ & B). fold n in B. split; [exact A|].
    pose proof (fr_dc _ _ _ _ _ _ _ H) as Hdc. fold n in Hdc. rewrite map_length in B. lia.
  Qed.

  (* the control unit took t runners from the queue of the control bus *)
  Lemma FrontI_cu_b D c f cy m pw pr t : FrontI D c f cy m -> m_cu m = [] -> (t <= length (bb_q (m_cbus m)))%nat ->
    FrontI (D + t) c f cy
      (set_cbus (set_sb m pw pr) (mk_bb (bb_buf (m_cbus m)) (map rn (seq (D + t) (length (bb_q (m_cbus m)) - t)))
                                       (bb_ql (m_cbus m)) (bb_bl (m_cbus m)))).
  Proof.
    intros H Hcu Ht. destruct (front_cq_b _ _ _ _ _ H Hcu) as [Hq Hle].
    pose proof H as [F1 Fc F2 F3 Fb F4 F5 F6 F7 F8 F9 Fbt F10 F11 F12 F13 F14].
    set (len := length (bb_q (m_cbus m))) in *.
    constructor; cbn [set_cbus set_sb m_fu m_l1i m_bu m_dbus m_cbus m_ebus m_wbus m_cu m_dret m_dpbr]; auto.
    - lia.
    - rewrite Hcu in *. cbn [List.app] in *. unfold flat in *. cbn [bb_q bb_buf]. rewrite Hq in F4. fold n in F4 |- *.
      destruct (seq_split rn _ _ _ _ F4) as (_ & B & C). rewrite map_length, seq_length in B, C. fold len in B, C. rewrite B.
      replace (D + len)%nat with (D + t + (len - t))%nat by lia. rewrite seq_join. f_equal. f_equal. lia.
    - fold n. lia.
    - apply busok_newq; [exact F11|]. unfold zlen. rewrite map_length, seq_length. pose proof (bus_q _ _ F11) as Hx.
      unfold qlen, zlen in Hx. fold len in Hx. lia.
  Qed.

  Lemma FrontI_frame_b D c f cy m m' : FrontI D c f cy m ->
    m_fu m' = m_fu m -> m_l1i m' = m_l1i m -> m_dret m' = m_dret m -> m_dpbr m' = m_dpbr m -> m_cu m' = m_cu m ->
    m_dbus m' = m_dbus m -> m_cbus m' = m_cbus m -> m_ebus m' = m_ebus m -> b_btb (m_bu m') = b_btb (m_bu m) ->
    BusOK cy (m_wbus m') -> FrontI D c f cy m'.
  Proof.
    intros [F1 Fc F2 F3 Fb F4 F5 F6 F7 F8 F9 Fbt F10 F11 F12 F13 F14] E1 E2 E3 E4 E5 E6 E7 E8 E9 HW.
    constructor; rewrite ?E1, ?E2, ?E3, ?E4, ?E5, ?E6, ?E7, ?E8, ?E9; auto.
  Qed.

  Lemma front_cl_len_b D c f cy m : FrontI D c f cy m -> m_cu m = [] ->
    qlen (m_cbus m) + blen (m_cbus m) = Z.of_nat (Nat.min c n - D) /\ (D <= Nat.min c n)%nat.
  Proof.
    intros H Hcu. pose proof (fr_cl _ _ _ _ _ _ _ H) as Hcl. rewrite Hcu in Hcl. cbn [List.app] in Hcl.
    apply (f_equal (@length _)) in Hcl. rewrite map_length, seq_length in Hcl. rewrite <- flat_len. unfold zlen. rewrite Hcl. fold n.
    split; [reflexivity | exact (fr_dc _ _ _ _ _ _ _ H)].
  Qed.
End FrontB.

Section Ref.
  Variables (app : list instr) (labels : Z -> option Z) (regs0 mem0 : list Z) (ord : Z -> Z -> list Z -> list Z).
  Hypothesis Happ : wf_app app.
  Hypothesis Hstr : straight app = true.
  Hypothesis Hreg : reg_only app = true.
  Hypothesis Hssa : ssa app = true.
  Hypothesis Hrng : regs_ok app = true.
  Hypothesis Hlen0 : length regs0 = 32%nat.
  Hypothesis Hr32 : Forall int32 regs0.
  Hypothesis Hx0 : nth 0 regs0 0 = 0.
  Let n := length app.
  Let N := stop_from app 0.

  Notation sreg := (sreg app labels regs0 0).
  Notation eff := (eff app labels regs0 0).
  Notation rn := (rn app).
  Notation ik := (ik app).
  Notation wsl := (wsl app).
  Notation rsl := (rsl app).
  Notation wbn := (wbn app labels regs0 0).
  Notation exe := (exe app labels regs0).
  Notation tv := (tv app labels regs0).
  Notation view := (view app labels regs0).
  Notation rds := (rds app).
  Notation wrs := (wrs app).

  Hypothesis Hsem : forall k, (0 <= k <= N)%nat -> (k < n)%nat ->
    exec (sinstr_of (ik k)) (rget (sreg k)) labels (pcz k) [] = Ok (eff k) /\
    (forall a, etarget (eff k) = Some a -> exists t, a = pcz t /\ (k < t <= n)%nat).

  Lemma Hlen0' : (length regs0 <= 32)%nat. Proof. lia. Qed.
  Lemma Hbase0 : (0 <= length app)%nat. Proof. lia. Qed.

  Lemma kq_rn r k : q_r r = rn k -> kq r = k.
  Proof. intros H. unfold kq. rewrite H. apply (kr_rn app). Qed.

  (* ---------------------------------------------------------------- *)
  (* entries of the execute bus                                        *)

  Definition RecvOK (xe : nat) (E : list runner3) (chan : list (Z * Z)) (r : runner3) : Prop :=
    forall ch, q_recv r = Some ch ->
      q_freg r <> 0 /\ exists p, (p < kq r)%nat /\ In (q_freg r) (wrs p) /\
        (((xe <= p)%nat /\ exists rp, In rp E /\ kq rp = p /\ q_fwder rp = Some ch) \/
         ((p < xe)%nat /\ aget ch chan = Some (RegisterValue (exe p)))).

  Definition ReadOK (w : nat) (r : runner3) : Prop :=
    forall q, In q (rds (kq r)) -> q <> 0 ->
      (q_recv r <> None /\ q = q_freg r) \/ (forall j, (w <= j < kq r)%nat -> ~ In q (wrs j)).

  Definition FwdOK (chan : list (Z * Z)) (next : Z) (r : runner3) : Prop :=
    forall ch, q_fwder r = Some ch -> aget ch chan = None /\ ch < next.

  Record BI (dp d xe w : nat) (pl pv : list runner3) (x : mx) : Prop := mkBI3 {
    bi_ord : (w <= xe <= d)%nat;
    bi_dn : (d <= n)%nat /\ (d <= S N)%nat;
    bi_xeN : (xe <= N)%nat;
    bi_ret : (N < d)%nat -> (N <= xe)%nat;
    bi_ebus : map q_r (flat (x_ebus x)) = map rn (seq xe (d - xe));
    bi_wbus : flat (m_wbus (x_m x)) = map wbn (seq w (xe - w));
    bi_pwlen : length (m_pw (x_m x)) = 32%nat;
    bi_prlen : length (m_pr (x_m x)) = 32%nat;
    bi_pw : forall s, (s < 32)%nat -> nth s (m_pw (x_m x)) 0 = cnt wsl (seq w (d - w)) s;
    bi_pr : forall s, (s < 32)%nat -> nth s (m_pr (x_m x)) 0 = cnt rsl (seq w (d - w)) s;
    bi_cok : rat_ok (x_crat x);
    bi_crat : forall r, rat_read 0 (x_crat x) r = if (0 <=? r) && (r <? 32) then Some (nth (Z.to_nat r) regs0 0) else None;
    bi_tok : rat_ok (x_trat x);
    bi_trat : forall r, rat_read tu0 (x_trat x) r = tv w r;
    bi_fwd : x_fwd x = repeat (0, 0) n;
    bi_seq : x_seq x = 0;
    bi_pcb : x_pcb x = false;
    bi_chan : Forall (fun p => fst p < x_next x) (x_chan x);
    bi_idnd : NoDup (map q_id (flat (x_ebus x)));
    bi_idlt : Forall (fun r => q_id r < x_next x) (flat (x_ebus x));
    bi_read : Forall (ReadOK w) (flat (x_ebus x));
    bi_recv : Forall (RecvOK xe (flat (x_ebus x)) (x_chan x)) (flat (x_ebus x) ++ pl);
    bi_fwder : Forall (FwdOK (x_chan x) (x_next x)) (flat (x_ebus x));
    bi_rnd : NoDup (recvs (flat (x_ebus x) ++ pl));
    bi_rlt : Forall (fun ch => ch < x_next x) (recvs (flat (x_ebus x) ++ pl));
    bi_pendr : map q_r pl = map rn (seq d (length pl));
    bi_pend1 : (length pl <= 1)%nat;
    bi_pendf : Forall (fun r => q_fwder r = None) pl;
    bi_prev : forall p, In p pv -> In p (flat (x_ebus x)) /\ q_fwder p = None /\ (dp <= kq p)%nat;
    bi_prevnd : NoDup (map kq pv);
    bi_regs : m_regs (x_m x) = regs0;
    bi_mem : m_mem (x_m x) = mem0;
    bi_l3 : lines (m_l3 (x_m x)) = [];
    bi_os : x_os x = false;
    bi_fnd : NoDup (fwds (flat (x_ebus x))) }.

  (* the invariant depends on these components only *)
  Lemma BI_ext dp d xe w pl pv x x' :
    flat (x_ebus x') = flat (x_ebus x) -> flat (m_wbus (x_m x')) = flat (m_wbus (x_m x)) ->
    m_pw (x_m x') = m_pw (x_m x) -> m_pr (x_m x') = m_pr (x_m x) ->
    x_crat x' = x_crat x -> x_trat x' = x_trat x -> x_fwd x' = x_fwd x -> x_seq x' = x_seq x -> x_pcb x' = x_pcb x ->
    x_chan x' = x_chan x -> x_next x' = x_next x ->
    m_regs (x_m x') = m_regs (x_m x) -> m_mem (x_m x') = m_mem (x_m x) -> m_l3 (x_m x') = m_l3 (x_m x) -> x_os x' = x_os x ->
    BI dp d xe w pl pv x -> BI dp d xe w pl pv x'.
  Proof.
    intros E1 E2 E3 E4 E5 E6 E7 E8 E9 E10 E11 E14 E15 E16 E17 H. destruct H.
    constructor; rewrite ?E1, ?E2, ?E3, ?E4, ?E5, ?E6, ?E7, ?E8, ?E9, ?E10, ?E11, ?E14, ?E15, ?E16, ?E17; assumption.
  Qed.

  (* ---------------------------------------------------------------- *)
  (* facts about the instructions of the text                          *)

  Lemma ik_nobr k : nobranch (ik k) = true.
  Proof.
    unfold Mvp60RefSem.ik. destruct (Nat.lt_ge_cases k n) as [H|H].
    - unfold straight in Hstr. rewrite forallb_forall in Hstr. apply Hstr. apply nth_In. exact H.
    - rewrite nth_overflow by exact H. reflexivity.
  Qed.

  Lemma N_le : (N <= n)%nat. Proof. apply stop_from_le. lia. Qed.

  Lemma is_ret_N k : (k <= N)%nat -> (k < n)%nat -> (is_ret (ik k) = true <-> k = N).
  Proof.
    intros H1 H2. split.
    - intros Hr. destruct (Nat.eq_dec k N) as [|Hne]; [assumption|]. exfalso.
      pose proof (stop_from_before app dfl 0 k ltac:(fold N; lia)) as Hs. unfold is_stop in Hs.
      apply orb_false_iff in Hs as [Hs _]. unfold Mvp60RefSem.ik in Hr. congruence.
    - intros ->. pose proof (stop_from_at app dfl 0 H2) as Hs. unfold is_stop, is_jump in Hs.
      fold (ik (stop_from app 0)) in Hs. rewrite (nobranch_uncond _ (ik_nobr _)), orb_false_r in Hs. exact Hs.
  Qed.

  (* the execution record of an instruction of the segment *)
  Lemma exe_flags k : (k <= N)%nat -> (k < n)%nat ->
    Return (exe k) = is_ret (ik k) /\ MemoryChange (exe k) = false /\ PcChange (exe k) = false.
  Proof.
    intros H1 H2. destruct (embed_flags app labels regs0 0 Hreg Hsem k ltac:(fold N; lia) H2) as (A & B & C & _).
    unfold Mvp63RefDefs.exe. split; [exact A|]. split; [exact B|]. rewrite C.
    pose proof (eff_kind app labels regs0 0 Hsem k ltac:(fold N; lia) H2) as Hk.
    pose proof (nobranch_uncond _ (ik_nobr k)) as Hj. pose proof (nobranch_cond _ (ik_nobr k)) as Hc.
    fold (is_jump (ik k)) in Hj. fold (condbr (ik k)) in Hc.
    destruct (eff k); cbn [etarget]; try reflexivity; exfalso.
    - destruct Hk as [Hk|[_ Hk]]; congruence.
    - congruence.
  Qed.

  (* ---------------------------------------------------------------- *)
  (* the hazards of the next instruction to dispatch                   *)

  Lemma cnt_seq_zero f a l s : cnt f (seq a l) s = 0 <-> (forall j, (a <= j < a + l)%nat -> ~ In s (f j)).
  Proof.
    rewrite cnt_zero. split; intros H j Hj; apply H; [apply in_seq; exact Hj | apply in_seq in Hj; exact Hj].
  Qed.

  Lemma hazards_spec dp d xe w pl pv x : BI dp d xe w pl pv x -> (d < n)%nat ->
    hazards_of x (ik d) =
    flat_map (fun r => if negb (r =? 0) && (0 <? sb_get (m_pw (x_m x)) r) then [(0, r)] else []) (rds d).
  Proof.
    intros HB Hd. unfold hazards_of, Scoreboard.hazards3. cbn [Scoreboard.pw Scoreboard.pr].
    fold (rds d). fold (wrs d).
    rewrite (flat_map_nil_all _ (wrs d)); [apply app_nil_r|].
    intros r Hr. destruct (Z.eqb_spec r 0) as [|Hnz]; cbn [negb]; [reflexivity|].
    pose proof (wrs_rng app Hrng d r Hr) as Hrr. pose proof (bi_ord _ _ _ _ _ _ _ HB) as Ho.
    assert (Hs : (Z.to_nat r < 32)%nat) by lia.
    unfold sb_get. rewrite (bi_pw _ _ _ _ _ _ _ HB _ Hs), (bi_pr _ _ _ _ _ _ _ HB _ Hs).
    assert (A : cnt wsl (seq w (d - w)) (Z.to_nat r) = 0).
    { apply cnt_seq_zero. intros j Hj Hin. apply (wsl_in app Hrng j r ltac:(lia)) in Hin.
      exact (ssa_waw app Hssa j d r ltac:(fold n; lia) Hin Hnz Hr). }
    assert (B : cnt rsl (seq w (d - w)) (Z.to_nat r) = 0).
    { apply cnt_seq_zero. intros j Hj Hin. apply (rsl_in app Hrng j r ltac:(lia)) in Hin.
      exact (ssa_war app Hssa j d r ltac:(fold n; lia) Hin Hnz Hr). }
    rewrite A, B. reflexivity.
  Qed.

  (* a register with a clear write counter has no writer among w .. d-1 *)
  Lemma pw_zero_nowriter dp d xe w pl pv x r : BI dp d xe w pl pv x -> 0 < r < 32 ->
    (0 <? sb_get (m_pw (x_m x)) r) = false -> forall j, (w <= j < d)%nat -> ~ In r (wrs j).
  Proof.
    intros HB Hr H j Hj Hin. unfold sb_get in H. rewrite (bi_pw _ _ _ _ _ _ _ HB) in H by lia.
    apply Z.ltb_ge in H. pose proof (cnt_nonneg wsl (seq w (d - w)) (Z.to_nat r)).
    assert (Hz : cnt wsl (seq w (d - w)) (Z.to_nat r) = 0) by lia.
    apply (proj1 (cnt_seq_zero _ _ _ _) Hz j ltac:(pose proof (bi_ord _ _ _ _ _ _ _ HB); lia)).
    apply (wsl_in app Hrng j r); [lia | exact Hin].
  Qed.

  Lemma pw_pos_writer dp d xe w pl pv x r : BI dp d xe w pl pv x -> 0 < r < 32 ->
    (exists j, (w <= j < d)%nat /\ In r (wrs j)) -> (0 <? sb_get (m_pw (x_m x)) r) = true.
  Proof.
    intros HB Hr (j & Hj & Hin). unfold sb_get. rewrite (bi_pw _ _ _ _ _ _ _ HB) by lia. apply Z.ltb_lt.
    destruct (Z.eq_dec (cnt wsl (seq w (d - w)) (Z.to_nat r)) 0) as [Hz|Hnz].
    - exfalso. apply (proj1 (cnt_seq_zero _ _ _ _) Hz j ltac:(pose proof (bi_ord _ _ _ _ _ _ _ HB); lia)).
      apply (wsl_in app Hrng j r); [lia | exact Hin].
    - pose proof (cnt_nonneg wsl (seq w (d - w)) (Z.to_nat r)). lia.
  Qed.

  (* ---------------------------------------------------------------- *)
  (* small facts about entries                                          *)

  Lemma flat_mark (b : bbus runner3) id ch : flat (ebus_mark b id ch) = map (mark_fwder id ch) (flat b).
  Proof. unfold flat, ebus_mark. cbn [bb_q bb_buf]. rewrite map_app, !map_map. reflexivity. Qed.

  Lemma mark_qr id ch r : q_r (mark_fwder id ch r) = q_r r.
  Proof. unfold mark_fwder. destruct (q_id r =? id); reflexivity. Qed.
  Lemma mark_id id ch r : q_id (mark_fwder id ch r) = q_id r.
  Proof. unfold mark_fwder. destruct (q_id r =? id); reflexivity. Qed.
  Lemma mark_recv id ch r : q_recv (mark_fwder id ch r) = q_recv r.
  Proof. unfold mark_fwder. destruct (q_id r =? id); reflexivity. Qed.
  Lemma mark_freg id ch r : q_freg (mark_fwder id ch r) = q_freg r.
  Proof. unfold mark_fwder. destruct (q_id r =? id); reflexivity. Qed.
  Lemma mark_kq id ch r : kq (mark_fwder id ch r) = kq r.
  Proof. unfold kq. rewrite mark_qr. reflexivity. Qed.
  Lemma mark_other id ch r : q_id r <> id -> mark_fwder id ch r = r.
  Proof. intros H. unfold mark_fwder. destruct (Z.eqb_spec (q_id r) id); [contradiction | reflexivity]. Qed.
  Lemma mark_hit id ch r : q_id r = id -> q_fwder (mark_fwder id ch r) = Some ch.
  Proof. intros H. unfold mark_fwder. destruct (Z.eqb_spec (q_id r) id); [reflexivity | contradiction]. Qed.

  Lemma recvs_mark id ch l : recvs (map (mark_fwder id ch) l) = recvs l.
  Proof. unfold recvs. induction l as [|a t IH]; cbn [map flat_map]; [reflexivity|]. rewrite mark_recv, IH. reflexivity. Qed.

  Lemma fwds_mark_in id ch l c : In c (fwds (map (mark_fwder id ch) l)) -> c = ch \/ In c (fwds l).
  Proof.
    induction l as [|a t IH]; cbn [map]; [intros []|]. change (a :: t) with ([a] ++ t). change (mark_fwder id ch a :: map (mark_fwder id ch) t) with ([mark_fwder id ch a] ++ map (mark_fwder id ch) t).
    rewrite !fwds_app. intros H. apply in_app_or in H as [H|H].
    - unfold mark_fwder in H. destruct (q_id a =? id).
      + unfold fwds in H. cbn in H. destruct H as [<-|[]]. left. reflexivity.
      + right. apply in_or_app. left. exact H.
    - destruct (IH H) as [E|E]; [left; exact E | right; apply in_or_app; right; exact E].
  Qed.

  Lemma map_mark_other id ch l : (forall b, In b l -> q_id b <> id) -> map (mark_fwder id ch) l = l.
  Proof.
    induction l as [|b t IH]; intros H; cbn [map]; [reflexivity|].
    rewrite (mark_other _ _ _ (H b (or_introl eq_refl))), IH; [reflexivity|]. intros c Hc. apply H. right. exact Hc.
  Qed.

  Lemma fwds_mark_nodup id ch l : NoDup (fwds l) -> ~ In ch (fwds l) -> NoDup (map q_id l) ->
    (forall a, In a l -> q_id a = id -> q_fwder a = None) -> NoDup (fwds (map (mark_fwder id ch) l)).
  Proof.
    induction l as [|a t IH]; intros Hnd Hni Hids Hnone; cbn [map]; [constructor|].
    change (a :: t) with ([a] ++ t) in Hnd, Hni. change (mark_fwder id ch a :: map (mark_fwder id ch) t) with ([mark_fwder id ch a] ++ map (mark_fwder id ch) t).
    rewrite fwds_app in *. cbn [map] in Hids. inversion Hids as [|? ? Hida Hidt]; subst.
    assert (Hndt : NoDup (fwds t)) by (apply NoDup_app_r in Hnd; exact Hnd).
    assert (Hnit : ~ In ch (fwds t)) by (intros Hx; apply Hni; apply in_or_app; right; exact Hx).
    specialize (IH Hndt Hnit Hidt ltac:(intros b Hb; apply Hnone; right; exact Hb)).
    destruct (Z.eq_dec (q_id a) id) as [Eid|Nid].
    - assert (Hfa : q_fwder a = None) by (apply Hnone; [left; reflexivity | exact Eid]).
      rewrite (map_mark_other id ch t).
      2:{ intros b Hb E. apply Hida. rewrite Eid, <- E. apply in_map. exact Hb. }
      unfold fwds at 1. cbn [flat_map]. rewrite (mark_hit _ _ _ Eid). cbn [List.app]. constructor; assumption.
    - rewrite (mark_other _ _ _ Nid). unfold fwds at 1. cbn [flat_map]. rewrite app_nil_r.
      destruct (q_fwder a) as [c|] eqn:Ec; cbn [List.app]; [|exact IH]. constructor; [|exact IH].
      intros Hin. destruct (fwds_mark_in _ _ _ _ Hin) as [->|Hx].
      + apply Hni. apply in_or_app. left. unfold fwds. cbn [flat_map]. rewrite Ec. left. reflexivity.
      + unfold fwds at 1 in Hnd. cbn [flat_map] in Hnd. rewrite Ec in Hnd. cbn [List.app] in Hnd. inversion Hnd as [|? ? Hni' _]; subst. apply Hni'. exact Hx.
  Qed.

  Lemma recvs_snoc_eq l r r' : q_recv r' = q_recv r -> recvs (l ++ [r']) = recvs (l ++ [r]).
  Proof. intros H. rewrite !recvs_app. unfold recvs at 2 4. cbn [flat_map]. rewrite H. reflexivity. Qed.

  Lemma nodup_id_eq (l : list runner3) a b : NoDup (map q_id l) -> In a l -> In b l -> q_id a = q_id b -> a = b.
  Proof.
    induction l as [|c t IH]; intros Hnd Ha Hb E; [destruct Ha|]. cbn [map] in Hnd. inversion Hnd as [|? ? Hni Hnd']; subst.
    destruct Ha as [<-|Ha], Hb as [<-|Hb]; auto.
    - exfalso. apply Hni. rewrite E. apply in_map. exact Hb.
    - exfalso. apply Hni. rewrite <- E. apply in_map. exact Ha.
  Qed.

  Lemma map_rn_in (l : list runner3) a len e : map q_r l = map rn (seq a len) -> In e l ->
    exists k, (a <= k < a + len)%nat /\ q_r e = rn k /\ kq e = k.
  Proof.
    intros H Hin. assert (Hq : In (q_r e) (map rn (seq a len))) by (rewrite <- H; apply in_map; exact Hin).
    apply in_map_iff in Hq as (k & Ek & Hk). apply in_seq in Hk. exists k. split; [exact Hk|]. split; [auto|]. apply kq_rn. auto.
  Qed.

  Lemma ebus_entry dp d xe w pl pv x e : BI dp d xe w pl pv x -> In e (flat (x_ebus x)) ->
    exists k, (xe <= k < d)%nat /\ q_r e = rn k /\ kq e = k.
  Proof.
    intros HB Hin. destruct (map_rn_in _ _ _ _ (bi_ebus _ _ _ _ _ _ _ HB) Hin) as (k & Hk & A & B).
    pose proof (bi_ord _ _ _ _ _ _ _ HB). exists k. split; [lia | auto].
  Qed.

  Lemma q_instr_rn r k : q_r r = rn k -> q_instr r = ik k.
  Proof. intros H. unfold q_instr. rewrite H. reflexivity. Qed.

  Lemma sequence_id_0 x k : x_seq x = 0 -> (k < n)%nat -> sequence_id x (pcz k) = pcz k.
  Proof.
    intros Hs Hk. unfold sequence_id. rewrite Hs. unfold mulS, addS. change (0 * 1000) with 0.
    rewrite (wrapS_id 32 0) by (apply int32_0). rewrite Z.add_0_r. apply wrapS_id; [lia|].
    apply int32_bounds. pose proof (n_small app Happ) as Hn. fold n in Hn. unfold pcz. lia.
  Qed.

  (* fwd_match: the register found is written by p and read by the reader *)
  Lemma fwd_match_spec reads p reg : fwd_match reads p = Some reg ->
    In reg reads /\ reg <> 0 /\ In reg (instr_WriteRegisters (q_instr p)).
  Proof.
    unfold fwd_match. intros H. apply Mvp63Proofs_first_some in H.
    destruct H as (wr & Hw & Hf). apply find_some in Hf as [Hin Hc]. apply andb_prop in Hc as [H1 H2].
    apply negb_true_iff, Z.eqb_neq in H1. apply Z.eqb_eq in H2. subst wr. auto.
  Qed.

  (* ---------------------------------------------------------------- *)
  (* pushing a runner, marking a forwarder                              *)

  Lemma RecvOK_mono xe E E' chan r : (forall e, In e E -> In e E') -> RecvOK xe E chan r -> RecvOK xe E' chan r.
  Proof.
    intros Hi H ch Hc. destruct (H ch Hc) as (A & p & B & C & D). split; [exact A|]. exists p. split; [exact B|]. split; [exact C|].
    destruct D as [(D1 & rp & D2 & D3 & D4)|D]; [left | right; exact D]. split; [exact D1|]. exists rp. auto.
  Qed.

  Lemma BI_noprev dp d xe w pl pv x : BI dp d xe w pl pv x -> BI dp d xe w pl [] x.
  Proof. intros H. destruct H. constructor; auto. - intros p []. - constructor. Qed.

  Definition CurOK (d0 : nat) (x : mx) (cur : list runner3) : Prop :=
    forall c, In c cur -> In c (flat (x_ebus x)) /\ q_fwder c = None /\ (d0 <= kq c)%nat.

  Lemma BI_setprev dp d xe w pl pv x d0 cur : BI dp d xe w pl pv x -> CurOK d0 x cur -> NoDup (map kq cur) ->
    BI d0 d xe w pl cur x.
  Proof. intros H Hc Hn. destruct H. constructor; auto. Qed.

  Definition pushed (x : mx) (cy : Z) (r : runner3) : mx * runner3 :=
    let r' := mk_r3 (q_r r) (x_next x) (q_fwder r) (q_recv r) (q_freg r) in
    (set_next3 (set_m (set_ebus3 x (bb_add (x_ebus x) r' cy))
                      (add_pending6 (x_m x) (instr_ReadRegisters (q_instr r)) (instr_WriteRegisters (q_instr r))))
               (x_next x + 1), r').

  Lemma push_runner3_eq x cy r : bb_canadd (x_ebus x) = true -> push_runner3 x cy r = Some (pushed x cy r).
  Proof. intros H. unfold push_runner3, pushed. rewrite H. reflexivity. Qed.

  Lemma BI_push cy dp d xe w pv x r : BI dp d xe w [r] pv x -> (d < n)%nat -> (d <= N)%nat ->
    ReadOK w r -> (is_ret (ik d) = true -> xe = d) ->
    BI dp (S d) xe w [] pv (fst (pushed x cy r)) /\ kq (snd (pushed x cy r)) = d /\
    flat (x_ebus (fst (pushed x cy r))) = flat (x_ebus x) ++ [snd (pushed x cy r)].
  Proof.
    intros HB Hdn HdN HR Hret. pose proof HB as [].
    assert (Hqr : q_r r = rn d) by (cbn in bi_pendr0; injection bi_pendr0 as E; rewrite Nat.add_0_r in E || idtac; exact E).
    assert (Hkq : kq r = d) by (apply kq_rn; exact Hqr).
    set (r' := snd (pushed x cy r)). set (x2 := fst (pushed x cy r)).
    assert (Hr'q : q_r r' = rn d) by exact Hqr.
    assert (Hkq' : kq r' = d) by (apply kq_rn; exact Hr'q).
    assert (Hfl : flat (x_ebus x2) = flat (x_ebus x) ++ [r']) by (unfold x2, pushed; cbn [fst x_ebus set_next3 set_m set_ebus3]; apply add_flat).
    split; [|split; [exact Hkq' | exact Hfl]].
    assert (Hinstr : q_instr r = ik d) by (apply q_instr_rn; exact Hqr).
    apply Forall_app in bi_recv0 as [Hrc1 Hrc2]. pose proof (Forall_inv Hrc2) as Hrcr. cbv beta in Hrcr.
    constructor; unfold x2, pushed; cbn [fst x_ebus x_m x_crat x_trat x_fwd x_seq x_pcb x_chan x_next x_os set_next3 set_m set_ebus3
                         add_pending6 set_sb m_pw m_pr m_regs m_mem m_l3 m_wbus];
      change (mk_r3 (q_r r) (x_next x) (q_fwder r) (q_recv r) (q_freg r)) with r'; rewrite ?add_flat; try assumption.
    - lia.
    - split; lia.
    - intros HN. assert (d = N) by lia. subst d. rewrite Hret; [lia|]. apply is_ret_N; auto.
    - rewrite map_app, bi_ebus0. cbn [map]. rewrite Hr'q. replace (S d - xe)%nat with (S (d - xe)) by lia.
      rewrite seq_snoc, map_app. cbn [map]. repeat f_equal. lia.
    - rewrite sb_incr_length. exact bi_pwlen0.
    - rewrite sb_incr_length. exact bi_prlen0.
    - rewrite Hinstr. exact (sb_incr_seq wrs _ w d ltac:(lia) bi_pwlen0 bi_pw0).
    - rewrite Hinstr. exact (sb_incr_seq rds _ w d ltac:(lia) bi_prlen0 bi_pr0).
    - eapply Forall_impl; [|exact bi_chan0]. cbn beta. intros a Ha. lia.
    - rewrite map_app. cbn [map]. apply NoDup_snoc; [exact bi_idnd0|]. cbn [q_id r' snd pushed].
      intros Hin. apply in_map_iff in Hin as (e & Ee & He). rewrite Forall_forall in bi_idlt0. specialize (bi_idlt0 e He). lia.
    - apply Forall_app. split; [eapply Forall_impl; [|exact bi_idlt0]; cbn beta; intros a Ha; lia|].
      constructor; [cbn; lia | constructor].
    - apply Forall_app. split; [exact bi_read0|]. constructor; [|constructor].
      intros q Hq Hnz. unfold ReadOK in HR. rewrite Hkq' in Hq |- *. rewrite Hkq in HR. destruct (HR q Hq Hnz) as [[A B]|A]; [left | right; exact A].
      split; [exact A | exact B].
    - rewrite app_nil_r. apply Forall_app. split.
      + eapply Forall_impl; [|exact Hrc1]. intros a. apply RecvOK_mono. intros e He. apply in_or_app. left. exact He.
      + constructor; [|constructor]. intros ch Hch. destruct (Hrcr ch Hch) as (A & p & B & C & D).
        split; [exact A|]. exists p. rewrite Hkq'. rewrite Hkq in B. split; [exact B|]. split; [exact C|].
        destruct D as [(D1 & rp & D2 & D3 & D4)|D]; [left | right; exact D]. split; [exact D1|]. exists rp. split; [apply in_or_app; left; exact D2 | auto].
    - apply Forall_app. split.
      + eapply Forall_impl; [|exact bi_fwder0]. intros a Ha ch Hch. destruct (Ha ch Hch). split; [assumption | lia].
      + constructor; [|constructor]. intros ch Hch. cbn in Hch. pose proof (Forall_inv bi_pendf0) as Hpf. cbv beta in Hpf. congruence.
    - rewrite app_nil_r. rewrite (recvs_snoc_eq _ r r') by reflexivity. exact bi_rnd0.
    - rewrite app_nil_r. rewrite (recvs_snoc_eq _ r r') by reflexivity. eapply Forall_impl; [|exact bi_rlt0]. cbn beta. intros a Ha. lia.
    - reflexivity.
    - cbn. lia.
    - constructor.
    - intros p Hp. destruct (bi_prev0 p Hp) as (A & B & C). split; [apply in_or_app; left; exact A | auto].
    - rewrite fwds_app. assert (Hf' : q_fwder r' = None) by (pose proof (Forall_inv bi_pendf0) as Hpf; exact Hpf).
      unfold fwds at 2. cbn [flat_map]. rewrite Hf'. cbn [List.app]. rewrite app_nil_r. exact bi_fnd0.
  Qed.

  Definition marked (x : mx) (id : Z) : mx :=
    set_os3 (set_next3 (set_ebus3 x (ebus_mark (x_ebus x) id (x_next x))) (x_next x + 1)) false.

  Lemma BI_mark dp d xe w pv x r p reg : BI dp d xe w [r] pv x -> In p pv -> reg <> 0 -> In reg (wrs (kq p)) ->
    (forall b : bool, BI dp d xe w [if b then mk_r3 (q_r r) (q_id r) (q_fwder r) (Some (x_next x)) reg else r] [] (marked x (q_id p))) /\
    flat (x_ebus (marked x (q_id p))) = map (mark_fwder (q_id p) (x_next x)) (flat (x_ebus x)).
  Proof.
    intros HB Hp Hnz Hw. pose proof HB as [].
    set (ch := x_next x) in *. set (id := q_id p) in *.
    set (r' := mk_r3 (q_r r) (q_id r) (q_fwder r) (Some ch) reg).
    assert (Hfl : flat (x_ebus (marked x id)) = map (mark_fwder id ch) (flat (x_ebus x))) by apply flat_mark.
    split; [|exact Hfl]. intros b.
    destruct (bi_prev0 p Hp) as (Hpin & Hpf & _).
    destruct (ebus_entry _ _ _ _ _ _ _ _ HB Hpin) as (kp & Hkp & Hpq & Hpk).
    assert (Hqr : q_r r = rn d) by (cbn in bi_pendr0; injection bi_pendr0 as E; exact E).
    assert (Hkq : kq r = d) by (apply kq_rn; exact Hqr).
    assert (Hkq' : kq r' = d) by (apply kq_rn; exact Hqr).
    apply Forall_app in bi_recv0 as [Hrc1 Hrc2].
    (* an entry other than p is not touched *)
    assert (Hother : forall e, In e (flat (x_ebus x)) -> q_fwder e <> None -> mark_fwder id ch e = e).
    { intros e He Hf. apply mark_other. intros Eid. assert (e = p) by (eapply nodup_id_eq; eauto). subst e. contradiction. }
    assert (Hrecv_old : forall a, RecvOK xe (flat (x_ebus x)) (x_chan x) a -> RecvOK xe (map (mark_fwder id ch) (flat (x_ebus x))) (x_chan x) a).
    { intros a Ha c Hc. destruct (Ha c Hc) as (A & q & B & C & D). split; [exact A|]. exists q. split; [exact B|]. split; [exact C|].
      destruct D as [(D1 & rp & D2 & D3 & D4)|D]; [left | right; exact D]. split; [exact D1|]. exists rp.
      split; [|auto]. rewrite <- (Hother rp D2 ltac:(congruence)). apply in_map. exact D2. }
    constructor; unfold marked; cbn [x_ebus x_m x_crat x_trat x_fwd x_seq x_pcb x_chan x_next x_os set_os3 set_next3 set_ebus3];
      fold ch; fold id; rewrite ?flat_mark; try assumption.
    - rewrite map_map. rewrite <- bi_ebus0. apply map_ext. intros a. apply mark_qr.
    - eapply Forall_impl; [|exact bi_chan0]. cbn beta. intros a Ha. lia.
    - rewrite map_map. erewrite map_ext; [exact bi_idnd0|]. intros a. apply mark_id.
    - apply Forall_map. eapply Forall_impl; [|exact bi_idlt0]. cbn beta. intros a Ha. rewrite mark_id. lia.
    - apply Forall_map. eapply Forall_impl; [|exact bi_read0]. intros a Ha q Hq Hqz. unfold ReadOK in Ha.
      rewrite mark_kq in *. rewrite mark_recv, mark_freg. apply Ha; assumption.
    - apply Forall_app. split.
      + apply Forall_map. eapply Forall_impl; [|exact Hrc1]. intros a Ha c Hc. rewrite mark_recv in Hc.
        destruct (Hrecv_old a Ha c Hc) as (A & B). rewrite mark_freg, mark_kq. split; assumption.
      + constructor; [|constructor]. destruct b; [|apply Hrecv_old; exact (Forall_inv Hrc2)].
        intros c Hc. cbn [q_recv r'] in Hc. injection Hc as <-. cbn [q_freg r'].
        split; [exact Hnz|]. exists kp. rewrite Hkq'. split; [lia|]. split; [rewrite <- Hpk; exact Hw|]. left. split; [lia|].
        exists (mark_fwder id ch p). split; [apply in_map; exact Hpin|]. split; [rewrite mark_kq; exact Hpk | apply mark_hit; reflexivity].
    - apply Forall_map. rewrite Forall_forall. intros e He c Hc. rewrite Forall_forall in bi_fwder0.
      destruct (Z.eq_dec (q_id e) id) as [Eid|Nid].
      + rewrite (mark_hit _ _ _ Eid) in Hc. injection Hc as <-. split; [|lia].
        apply (aget_none_fresh _ _ ch); [exact bi_chan0 | lia].
      + rewrite (mark_other _ _ _ Nid) in Hc. destruct (bi_fwder0 e He c Hc). split; [assumption | lia].
    - destruct b; [|rewrite recvs_app, recvs_mark, <- recvs_app; exact bi_rnd0].
      rewrite recvs_app, recvs_mark. unfold recvs at 2. cbn [flat_map q_recv r' List.app].
      rewrite recvs_app in bi_rnd0, bi_rlt0. apply NoDup_app_l in bi_rnd0. apply NoDup_snoc; [exact bi_rnd0|].
      intros Hin. apply Forall_app in bi_rlt0 as [A _]. rewrite Forall_forall in A. specialize (A ch Hin). lia.
    - destruct b; [|rewrite recvs_app, recvs_mark, <- recvs_app; eapply Forall_impl; [|exact bi_rlt0]; cbn beta; intros a Ha; lia].
      rewrite recvs_app, recvs_mark. unfold recvs at 2. cbn [flat_map q_recv r' List.app].
      rewrite recvs_app in bi_rlt0. apply Forall_app in bi_rlt0 as [A _]. apply Forall_app. split.
      + eapply Forall_impl; [|exact A]. cbn beta. intros a Ha. lia.
      + constructor; [lia | constructor].
    - destruct b; exact bi_pendr0.
    - destruct b; [|exact bi_pendf0]. constructor; [|constructor]. cbn. exact (Forall_inv bi_pendf0).
    - intros q [].
    - constructor.
    - reflexivity.
    - apply fwds_mark_nodup; [exact bi_fnd0 | | exact bi_idnd0 |].
      + intros Hin. unfold fwds in Hin. apply in_flat_map in Hin as (e & He & Hc). rewrite Forall_forall in bi_fwder0.
        destruct (q_fwder e) as [c|] eqn:Ec; [|destruct Hc]. destruct Hc as [<-|[]]. destruct (bi_fwder0 e He c Ec) as [_ Hlt]. lia.
      + intros a Ha Eid. assert (a = p) by (eapply nodup_id_eq; eauto). subst a. exact Hpf.
  Qed.

  (* ---------------------------------------------------------------- *)
  (* handleRunner on the next instruction of the stream                 *)

  Definition MSame (m m1 : mach) : Prop := exists pw pr, m1 = set_sb m pw pr.
  Lemma MSame_refl m : MSame m m.
  Proof. exists (m_pw m), (m_pr m). destruct m; reflexivity. Qed.

  Lemma busok_mark cy (b : bbus runner3) id ch : BusOK cy b -> BusOK cy (ebus_mark b id ch).
  Proof.
    intros [H1 H2 H3 H4]. constructor; cbn [ebus_mark bb_ql bb_bl bb_buf]; auto.
    - unfold qlen, ebus_mark. cbn [bb_q]. unfold zlen. rewrite map_length. exact H3.
    - apply Forall_map. eapply Forall_impl; [|exact H4]. cbn beta. intros a Ha. exact Ha.
  Qed.

  Lemma canadd_mark (b : bbus runner3) id ch : bb_canadd (ebus_mark b id ch) = bb_canadd b.
  Proof. unfold bb_canadd, ebus_mark. cbn [bb_buf bb_bl]. unfold zlen. rewrite map_length. reflexivity. Qed.

  Definition hzl (x : mx) (d : nat) : list (Z * Z) :=
    flat_map (fun r => if negb (r =? 0) && (0 <? sb_get (m_pw (x_m x)) r) then [(0, r)] else []) (rds d).

  Lemma hzl_rename x d : hzl x d <> [] -> should_rename3 (hzl x d) = false.
  Proof.
    intros H. unfold should_rename3. destruct (hzl x d) as [|h t] eqn:E; [contradiction|].
    assert (Hh : In h (hzl x d)) by (rewrite E; left; reflexivity). unfold hzl in Hh. apply in_flat_map in Hh as (q & _ & Hq).
    destruct (negb (q =? 0) && (0 <? sb_get (m_pw (x_m x)) q)); [|destruct Hq]. destruct Hq as [<-|[]].
    cbn [existsb fst]. rewrite Z.eqb_refl. cbn. apply andb_false_r.
  Qed.

  (* what one call of handleRunner on r, the next instruction of the stream, leaves behind: the runner r1 is
     pushed (with its forwarding fields), or nothing but a marked forwarder has changed and the loop stops *)
  Definition Handled cy dp d xe w pv x r (push stop : bool) (r1 : runner3) (x1 : mx) : Prop :=
    x_pend x1 = x_pend x /\ x_prev x1 = x_prev x /\ MSame (x_m x) (x_m x1) /\
    bb_ql (x_ebus x1) = bb_ql (x_ebus x) /\ bb_bl (x_ebus x1) = bb_bl (x_ebus x) /\ qlen (x_ebus x1) = qlen (x_ebus x) /\
    (BusOK cy (x_ebus x) -> BusOK cy (x_ebus x1)) /\
    (forall d0 cur, (forall p, In p pv -> (kq p < d0)%nat) -> CurOK d0 x cur -> CurOK d0 x1 cur) /\
    ((push = true /\ BI dp (S d) xe w [] (if stop then [] else pv) x1 /\ blen (x_ebus x1) = blen (x_ebus x) + 1 /\
      In r1 (flat (x_ebus x1)) /\ q_fwder r1 = None /\ kq r1 = d) \/
     (push = false /\ stop = true /\ BI dp d xe w [r1] [] x1 /\ BI dp d xe w [r] [] x1 /\ blen (x_ebus x1) = blen (x_ebus x) /\ x_m x1 = x_m x)).

  Lemma handle_ok cy dp d xe w pv x r :
    BI dp d xe w [r] pv x -> x_prev x = pv -> (d < n)%nat -> (d <= N)%nat -> bb_bl (x_ebus x) = 2 ->
    exists push stop r1 x1,
      handle_runner3 ord cy x [] false r = (push, stop, r1, x1) /\ Handled cy dp d xe w pv x r push stop r1 x1 /\
      (flat (x_ebus x) = [] -> w = d -> push = true).
  Proof.
    intros HB Hpv Hdn HdN Hbl. pose proof HB as HB0. destruct HB0.
    assert (Hqr : q_r r = rn d) by (cbn in bi_pendr0; injection bi_pendr0 as E; exact E).
    assert (Hkq : kq r = d) by (apply kq_rn; exact Hqr).
    assert (Hinstr : q_instr r = ik d) by (apply q_instr_rn; exact Hqr).
    assert (Hrf : q_fwder r = None) by exact (Forall_inv bi_pendf0).
    (* the results that leave the machine as it is *)
    assert (Hstay : Handled cy dp d xe w pv x r false true r x).
    { repeat (split; [first [reflexivity | apply MSame_refl | auto]|]).
      right. repeat (split; [reflexivity|]). split; [eapply BI_noprev; exact HB|]. split; [eapply BI_noprev; exact HB | auto]. }
    unfold handle_runner3. rewrite Hinstr. rewrite (nobranch_branch _ (ik_nobr d)). cbn [andb].
    rewrite is_ret_type, bi_pcb0, orb_false_r.
    destruct (is_ret (ik d) && negb (bb_isempty (x_ebus x))) eqn:Eret.
    { exists false, true, r, x. split; [reflexivity|]. split; [exact Hstay|].
      intros Hfl _. exfalso. apply andb_prop in Eret as [_ Hne]. apply negb_true_iff in Hne.
      apply flat_nil_inv in Hfl as [A B]. unfold bb_isempty in Hne. rewrite A, B in Hne. discriminate. }
    assert (Hret : is_ret (ik d) = true -> xe = d).
    { intros Hr. rewrite Hr in Eret. cbn [andb] in Eret. apply negb_false_iff in Eret. apply isempty_flat in Eret.
      rewrite Eret in bi_ebus0. cbn [map] in bi_ebus0. symmetry in bi_ebus0. apply map_eq_nil in bi_ebus0.
      apply (f_equal (@length nat)) in bi_ebus0. rewrite seq_length in bi_ebus0. cbn in bi_ebus0. lia. }
    change (skipped_hazard3 [] (ik d)) with false. cbv iota.
    rewrite (hazards_spec _ _ _ _ _ _ _ HB Hdn). fold (hzl x d).
    (* pushing r' on x' *)
    assert (Hpush : forall x' r' pv' stp, BI dp d xe w [r'] pv' x' -> ReadOK w r' -> q_fwder r' = None ->
              bb_canadd (x_ebus x') = true ->
              x_pend x' = x_pend x -> x_prev x' = x_prev x -> x_m x' = x_m x ->
              bb_ql (x_ebus x') = bb_ql (x_ebus x) -> bb_bl (x_ebus x') = bb_bl (x_ebus x) -> qlen (x_ebus x') = qlen (x_ebus x) ->
              blen (x_ebus x') = blen (x_ebus x) ->
              (BusOK cy (x_ebus x) -> BusOK cy (x_ebus x')) ->
              (forall d0 cur, (forall p, In p pv -> (kq p < d0)%nat) -> CurOK d0 x cur -> CurOK d0 x' cur) ->
              (stp = false -> pv' = pv) -> (stp = true -> pv' = []) ->
              exists push stop r1 x1, push_or_stop3 x' cy r' stp = (push, stop, r1, x1) /\
                Handled cy dp d xe w pv x r push stop r1 x1 /\ push = true).
    { intros x' r' pv' stp HB' HR' Hf' Hca E1 E2 E3 E4 E5 E6 E7 Hbus Hcur Hs1 Hs2.
      unfold push_or_stop3. rewrite (push_runner3_eq _ _ _ Hca).
      destruct (BI_push cy _ _ _ _ _ _ _ HB' Hdn HdN HR' Hret) as (HBp & Hkp & Hflp).
      exists true, stp, (snd (pushed x' cy r')), (fst (pushed x' cy r')).
      split; [destruct (pushed x' cy r'); reflexivity|]. split; [|reflexivity].
      split; [exact E1|]. split; [exact E2|].
      split; [unfold pushed; cbn [fst x_m set_next3 set_m]; rewrite E3; eexists _, _; reflexivity|].
      split; [exact E4|]. split; [exact E5|]. split; [exact E6|].
      split; [intros Hb; unfold pushed; cbn [fst x_ebus set_next3 set_m set_ebus3]; apply add_ok; apply Hbus; exact Hb|].
      split.
      { intros d0 cur Hlt Hc c Hin. destruct (Hcur d0 cur Hlt Hc c Hin) as (A & B & C). rewrite Hflp.
        split; [apply in_or_app; left; exact A | auto]. }
      left. split; [reflexivity|].
      split.
      { destruct stp; [rewrite (Hs2 eq_refl) in HBp | rewrite (Hs1 eq_refl) in HBp]; exact HBp. }
      split.
      { unfold pushed; cbn [fst x_ebus set_next3 set_m set_ebus3]. unfold blen, bb_add. cbn [bb_buf]. rewrite zlen_app, zlen_cons, zlen_nil.
        unfold blen in E7. lia. }
      split; [rewrite Hflp; apply in_or_app; right; left; reflexivity|].
      split; [exact Hf' | exact Hkp]. }
    destruct (zlen (hzl x d) =? 0) eqn:Ez.
    - (* no hazard *)
      apply Z.eqb_eq in Ez. apply zlen_zero in Ez.
      assert (HR : ReadOK w r).
      { intros q Hq Hqz. rewrite Hkq in *. right. pose proof (rds_rng app Hrng d q Hq).
        eapply (pw_zero_nowriter _ _ _ _ _ _ _ q HB); [lia|].
        pose proof (flat_map_nil_inv _ _ Ez q Hq) as Hc. cbv beta in Hc.
        destruct (Z.eqb_spec q 0); [contradiction|]. cbn [negb andb] in Hc. destruct (0 <? sb_get (m_pw (x_m x)) q); [discriminate | reflexivity]. }
      destruct (bb_canadd (x_ebus x)) eqn:Eca.
      + destruct (Hpush x r pv false HB HR Hrf Eca) as (a & b & c & e & E & HH & R10); auto; try discriminate.
        exists a, b, c, e. split; [exact E|]. split; [exact HH | intros _ _; exact R10].
      + unfold push_or_stop3, push_runner3. rewrite Eca. cbn [negb].
        exists false, true, r, x. split; [reflexivity|]. split; [exact Hstay|].
        intros Hfl _. exfalso. apply flat_nil_inv in Hfl as [_ B]. unfold bb_canadd in Eca. rewrite B, Hbl in Eca. discriminate.
    - (* some hazard *)
      assert (Hne : hzl x d <> []) by (intros E0; rewrite E0 in Ez; discriminate).
      assert (Hnoprog : flat (x_ebus x) = [] -> w = d -> False).
      { intros _ Hwd. apply Hne. unfold hzl. apply flat_map_nil_all. intros q Hq.
        destruct (Z.eqb_spec q 0); [reflexivity|]. cbn [negb andb]. pose proof (rds_rng app Hrng d q Hq).
        unfold sb_get. rewrite bi_pw0 by lia. subst w. rewrite Nat.sub_diag. reflexivity. }
      destruct (should_forward3 ord cy x r (hzl x d)) as [[p reg]|] eqn:Esf.
      2:{ rewrite (hzl_rename _ _ Hne).
          exists false, true, r, x. split; [reflexivity|]. split; [exact Hstay|].
          intros A B. destruct (Hnoprog A B). }
      (* forwarding *)
      unfold should_forward3 in Esf. destruct (hzl x d) as [|[[|?|?] rho] [|? ?]] eqn:Ehz; try discriminate Esf.
      apply Mvp63Proofs_first_some in Esf as (id & _ & Esf).
      destruct (find (fun p0 => q_id p0 =? id) (x_prev x)) as [p0|] eqn:Ef; [|discriminate].
      destruct (fwd_match (instr_ReadRegisters (q_instr r)) p0) as [reg0|] eqn:Em; [|discriminate].
      injection Esf as -> ->. apply find_some in Ef as [Hpin _]. rewrite Hpv in Hpin.
      (* what a matching member of prev looks like *)
      assert (Hmatch : forall a rg, In a pv -> fwd_match (instr_ReadRegisters (q_instr r)) a = Some rg ->
                In rg (rds d) /\ rg <> 0 /\ In rg (wrs (kq a)) /\ (xe <= kq a < d)%nat /\ rg = rho).
      { intros a rg Ha Hm. apply fwd_match_spec in Hm as (M1 & M2 & M3). rewrite Hinstr in M1. fold (rds d) in M1.
        destruct (bi_prev0 a Ha) as (Ain & _). destruct (ebus_entry _ _ _ _ _ _ _ _ HB Ain) as (ka & Hka & Aq & Ak).
        rewrite (q_instr_rn _ _ Aq) in M3. fold (wrs ka) in M3. rewrite Ak.
        split; [exact M1|]. split; [exact M2|]. split; [exact M3|]. split; [exact Hka|].
        pose proof (rds_rng app Hrng d rg M1) as Hrr.
        assert (Hpos : (0 <? sb_get (m_pw (x_m x)) rg) = true).
        { eapply (pw_pos_writer _ _ _ _ _ _ _ rg HB); [lia|]. exists ka. split; [lia | exact M3]. }
        assert (Hx := flat_map_single (fun q => negb (q =? 0) && (0 <? sb_get (m_pw (x_m x)) q)) (fun q => (0, q)) (rds d) (0, rho) Ehz rg M1).
        cbv beta in Hx. rewrite Hpos in Hx. destruct (Z.eqb_spec rg 0); [contradiction|]. specialize (Hx eq_refl). injection Hx as Hx. exact Hx. }
      destruct (Hmatch p reg Hpin Em) as (G1 & G2 & G3 & G4 & G5).
      (* the ghost flag stays clear *)
      assert (Hfom : forward_order_matters x r = false).
      { unfold forward_order_matters. apply Z.ltb_ge. unfold zlen.
        assert (Hl : (length (filter (fun p0 => match fwd_match (instr_ReadRegisters (q_instr r)) p0 with Some _ => true | None => false end) (x_prev x)) <= 1)%nat); [|lia].
        rewrite Hpv. apply (filter_le1 kq); [exact bi_prevnd0|].
        intros a b Ha Hb Ca Cb.
        destruct (fwd_match (instr_ReadRegisters (q_instr r)) a) as [ra|] eqn:Ea; [|discriminate].
        destruct (fwd_match (instr_ReadRegisters (q_instr r)) b) as [rb|] eqn:Eb; [|discriminate].
        destruct (Hmatch a ra Ha Ea) as (_ & A2 & A3 & A4 & A5). destruct (Hmatch b rb Hb Eb) as (_ & B2 & B3 & B4 & B5).
        subst ra rb. destruct (Nat.lt_trichotomy (kq a) (kq b)) as [Hlt|[Heq|Hgt]]; [exfalso | exact Heq | exfalso].
        - exact (ssa_waw app Hssa (kq a) (kq b) rho ltac:(fold n; lia) A3 A2 B3).
        - exact (ssa_waw app Hssa (kq b) (kq a) rho ltac:(fold n; lia) B3 B2 A3). }
      rewrite bi_os0, Hfom. cbn [orb]. fold (marked x (q_id p)).
      destruct (BI_mark _ _ _ _ _ _ _ _ _ HB Hpin G2 G3) as (HBm & Hflm).
      set (r' := mk_r3 (q_r r) (q_id r) (q_fwder r) (Some (x_next x)) reg) in *.
      assert (HR' : ReadOK w r').
      { intros q Hq Hqz. change (kq r') with (kq r) in *. rewrite Hkq in *. destruct (Z.eq_dec q reg) as [->|Hqr'].
        - left. split; [discriminate | reflexivity].
        - right. pose proof (rds_rng app Hrng d q Hq). eapply (pw_zero_nowriter _ _ _ _ _ _ _ q HB); [lia|].
          destruct (0 <? sb_get (m_pw (x_m x)) q) eqn:Epos; [|reflexivity]. exfalso.
          assert (Hx := flat_map_single (fun q => negb (q =? 0) && (0 <? sb_get (m_pw (x_m x)) q)) (fun q => (0, q)) (rds d) (0, rho) Ehz q Hq).
          cbv beta in Hx. rewrite Epos in Hx. destruct (Z.eqb_spec q 0); [contradiction|]. specialize (Hx eq_refl). injection Hx as Hx. congruence. }
      assert (Hcurm : forall d0 cur, (forall p, In p pv -> (kq p < d0)%nat) -> CurOK d0 x cur -> CurOK d0 (marked x (q_id p)) cur).
      { intros d0 cur Hlt Hc c Hin. destruct (Hc c Hin) as (A & B & C). rewrite Hflm. split; [|auto].
        rewrite <- (mark_other (q_id p) (x_next x) c).
        - apply in_map. exact A.
        - intros Eid. destruct (bi_prev0 p Hpin) as (Pin & _). assert (c = p) by (eapply nodup_id_eq; eauto). subst c.
          specialize (Hlt p Hpin). lia. }
      destruct (bb_canadd (x_ebus (marked x (q_id p)))) eqn:Eca.
      + destruct (Hpush (marked x (q_id p)) r' [] true (HBm true) HR' Hrf Eca) as (a & b & c & e & E & HH & R10);
          try reflexivity; auto; try discriminate.
        * unfold marked, qlen, ebus_mark. cbn [x_ebus set_os3 set_next3 set_ebus3 bb_q]. unfold zlen. rewrite map_length. reflexivity.
        * unfold marked, blen, ebus_mark. cbn [x_ebus set_os3 set_next3 set_ebus3 bb_buf]. unfold zlen. rewrite map_length. reflexivity.
        * intros Hb. apply busok_mark. exact Hb.
        * exists a, b, c, e. split; [exact E|]. split; [exact HH | intros _ _; exact R10].
      + unfold push_or_stop3, push_runner3. rewrite Eca. cbn [negb].
        exists false, true, r', (marked x (q_id p)). split; [reflexivity|]. split; [|intros A B; destruct (Hnoprog A B)].
        split; [reflexivity|]. split; [reflexivity|]. split; [apply MSame_refl|].
        split; [reflexivity|]. split; [reflexivity|].
        split; [unfold marked, qlen, ebus_mark; cbn [x_ebus set_os3 set_next3 set_ebus3 bb_q]; unfold zlen; rewrite map_length; reflexivity|].
        split; [intros Hb; apply busok_mark; exact Hb|]. split; [exact Hcurm|].
        right. split; [reflexivity|]. split; [reflexivity|]. split; [exact (HBm true)|]. split; [exact (HBm false)|].
        split; [unfold marked, blen, ebus_mark; cbn [x_ebus set_os3 set_next3 set_ebus3 bb_buf]; unfold zlen; rewrite map_length; reflexivity | reflexivity].
  Qed.

  (* ---------------------------------------------------------------- *)
  (* the two loops of controlUnit.cycle                                 *)

  Record CuPost (cy : Z) (d0 : nat) (x x' : mx) (l' : culoc) : Prop := mkCuPost {
    cp_cur : CurOK d0 x' (l_cur l');
    cp_nd : NoDup (map kq (l_cur l'));
    cp_pend : x_pend x' = x_pend x;
    cp_prev : x_prev x' = x_prev x;
    cp_m : MSame (x_m x) (x_m x');
    cp_ql : bb_ql (x_ebus x') = bb_ql (x_ebus x);
    cp_bl : bb_bl (x_ebus x') = bb_bl (x_ebus x);
    cp_q : qlen (x_ebus x') = qlen (x_ebus x);
    cp_bus : BusOK cy (x_ebus x) -> BusOK cy (x_ebus x') }.

  Lemma MSame_trans a b c : MSame a b -> MSame b c -> MSame a c.
  Proof. intros (p1 & q1 & ->) (p2 & q2 & ->). exists p2, q2. reflexivity. Qed.

  Lemma after_push_nobr x l r k : q_r r = rn k ->
    after_push3 x l r = (x, mk_cul (l_cur l ++ [r]) (l_skipped l) (l_pbranch l)).
  Proof.
    intros H. unfold after_push3. rewrite (q_instr_rn _ _ H), (nobranch_cond _ (ik_nobr k)), (nobranch_branch _ (ik_nobr k)), orb_false_r.
    reflexivity.
  Qed.

  Lemma BI_addpend dp d xe w pv x : BI dp d xe w [] pv x -> BI dp d xe w [r3_of (rn d)] pv x.
  Proof.
    intros HB. destruct HB. constructor; try assumption.
    - rewrite app_nil_r in bi_recv0. apply Forall_app. split; [exact bi_recv0|]. constructor; [|constructor]. intros ch Hc. discriminate Hc.
    - rewrite recvs_app in *. exact bi_rnd0.
    - rewrite recvs_app in *. exact bi_rlt0.
    - cbn. rewrite Nat.add_0_r || idtac. reflexivity.
    - cbn. lia.
    - constructor; [reflexivity | constructor].
  Qed.

  Lemma cu_incoming_ok cy dp xe w pv d0 : forall len d x l,
    BI dp d xe w [] pv x -> x_prev x = pv -> (d + len <= n)%nat -> (d + len <= S N)%nat -> bb_bl (x_ebus x) = 2 ->
    l_skipped l = [] -> l_pbranch l = false -> CurOK d0 x (l_cur l) -> NoDup (map kq (l_cur l)) ->
    (forall c, In c (l_cur l) -> (kq c < d)%nat) -> (forall p, In p pv -> (kq p < d0)%nat) -> (d0 <= d)%nat ->
    exists lp pend' l' x' pv',
      cu_incoming3 ord cy (map rn (seq d len)) [] l x
        = (map rn (seq (d + (lp + length pend')) (len - (lp + length pend'))), pend', l', x') /\
      (lp + length pend' <= len)%nat /\
      BI dp (d + lp) xe w pend' pv' x' /\ CuPost cy d0 x x' l' /\
      (flat (x_ebus x) = [] -> w = d -> (0 < len)%nat -> (0 < lp)%nat).
  Proof.
    induction len as [|len IH]; intros d x l HB Hpv Hn HN Hbl Hsk Hpb Hcur Hnd Hlt Hpvlt Hd0.
    - exists O, [], l, x, pv. cbn [seq map cu_incoming3 length]. change (pendingLength <=? zlen (@nil runner3)) with false. cbv iota.
      rewrite !Nat.add_0_r. split; [reflexivity|]. split; [lia|]. split; [exact HB|].
      split; [constructor; auto; apply MSame_refl | lia].
    - cbn [seq map cu_incoming3]. change (pendingLength <=? zlen (@nil runner3)) with false. cbv iota.
      rewrite Hsk, Hpb.
      destruct (handle_ok cy _ _ _ _ _ _ _ (BI_addpend _ _ _ _ _ _ HB) Hpv ltac:(lia) ltac:(lia) Hbl)
        as (push & stop & r1 & x1 & E & (P1 & P2 & P3 & P4 & P5 & P6 & P7 & P8 & [(-> & HBn & P9 & P10 & P11 & P12)|(-> & -> & HBn & HBo & P9 & P10)]) & Hprog).
      + rewrite E.
        destruct (ebus_entry _ _ _ _ _ _ _ _ HBn P10) as (k1 & _ & Hq1 & Hk1). rewrite <- Hk1, P12 in Hq1.
        rewrite (after_push_nobr x1 l r1 d Hq1). rewrite Hsk, Hpb.
        assert (Hcur1 : CurOK d0 x1 (l_cur l ++ [r1])).
        { intros c Hin. apply in_app_or in Hin as [Hin|[<-|[]]]; [exact (P8 d0 _ Hpvlt Hcur c Hin)|].
          split; [exact P10|]. split; [exact P11|]. lia. }
        assert (Hnd1 : NoDup (map kq (l_cur l ++ [r1]))).
        { rewrite map_app. cbn [map]. apply NoDup_snoc; [exact Hnd|]. intros Hin. apply in_map_iff in Hin as (c & Ec & Hc).
          specialize (Hlt c Hc). lia. }
        destruct stop.
        * exists 1%nat, [], (mk_cul (l_cur l ++ [r1]) [] false), x1, []. cbn [length]. rewrite Nat.add_0_r.
          replace (d + 1)%nat with (S d) by lia. replace (S len - 1)%nat with len by lia.
          split; [reflexivity|]. split; [lia|]. split; [exact HBn|]. split; [constructor; auto | lia].
        * assert (Hlt1 : forall c, In c (l_cur (mk_cul (l_cur l ++ [r1]) [] false)) -> (kq c < S d)%nat).
          { intros c Hin. cbn [l_cur] in Hin. apply in_app_or in Hin as [Hin|[<-|[]]]; [specialize (Hlt c Hin); lia | lia]. }
          destruct (IH (S d) x1 (mk_cul (l_cur l ++ [r1]) [] false) HBn ltac:(congruence) ltac:(lia) ltac:(lia) ltac:(congruence)
                     eq_refl eq_refl Hcur1 Hnd1 Hlt1 Hpvlt ltac:(lia)) as (lp & pend' & l' & x' & pv' & E2 & Hle & HB' & [C1 C2 C3 C3' C4 C5 C6 C7 C8] & _).
          exists (S lp), pend', l', x', pv'. cbn [l_cur l_skipped l_pbranch] in E2. rewrite E2.
          replace (d + (S lp + length pend'))%nat with (S d + (lp + length pend'))%nat by lia.
          replace (S len - (S lp + length pend'))%nat with (len - (lp + length pend'))%nat by lia.
          split; [reflexivity|]. split; [lia|]. split; [replace (d + S lp)%nat with (S d + lp)%nat by lia; exact HB'|].
          split; [|lia]. constructor; auto; try congruence.
          -- eapply MSame_trans; eassumption.
      + rewrite E. exists O, [r1], (mk_cul (l_cur l) ([] ++ [r1]) false), x1, []. cbn [length List.app].
        replace (d + (0 + 1))%nat with (S d) by lia. replace (S len - (0 + 1))%nat with len by lia. rewrite Nat.add_0_r.
        split; [reflexivity|]. split; [lia|]. split; [exact HBn|]. split.
        * constructor; auto; try (cbn [l_cur]; exact (P8 d0 _ Hpvlt Hcur)).
        * intros A B _. specialize (Hprog A B). discriminate.
  Qed.

  Notation FrontI := (FrontI app 0).

  Lemma prev_lt dp d xe w pl pv x p : BI dp d xe w pl pv x -> In p pv -> (kq p < d)%nat.
  Proof.
    intros HB Hp. destruct (bi_prev _ _ _ _ _ _ _ HB p Hp) as (A & _). destruct (ebus_entry _ _ _ _ _ _ _ _ HB A) as (k & Hk & _ & E). lia.
  Qed.

  Lemma cu_pending_ok cy dp d xe w x :
    BI dp d xe w (x_pend x) (x_prev x) x -> (d + length (x_pend x) <= n)%nat -> (d + length (x_pend x) <= S N)%nat ->
    bb_bl (x_ebus x) = 2 ->
    exists stopped pend1 l1 x1 lp pv',
      cu_pending3 ord cy (x_pend x) [] (mk_cul [] [] false) x = (stopped, pend1, l1, x1) /\
      BI dp (d + lp) xe w pend1 pv' x1 /\ CuPost cy d x x1 l1 /\ (lp + length pend1 = length (x_pend x))%nat /\
      (stopped = false -> pend1 = [] /\ pv' = x_prev x /\ l_skipped l1 = [] /\ l_pbranch l1 = false /\
                          (forall c, In c (l_cur l1) -> (kq c < d + lp)%nat)) /\
      (flat (x_ebus x) = [] -> w = d -> x_pend x <> [] -> (0 < lp)%nat).
  Proof.
    intros HB Hn HN Hbl. pose proof (bi_pend1 _ _ _ _ _ _ _ HB) as Hl1.
    assert (Hpvlt : forall p, In p (x_prev x) -> (kq p < d)%nat) by (intros p Hp; eapply prev_lt; eauto).
    destruct (x_pend x) as [|r [|r2 t]] eqn:Ep; [| |cbn in Hl1; lia].
    - exists false, [], (mk_cul [] [] false), x, O, (x_prev x). cbn [cu_pending3 rev length]. rewrite Nat.add_0_r.
      split; [reflexivity|]. split; [exact HB|]. split; [constructor; auto; try (intros c []); try constructor; apply MSame_refl|].
      split; [reflexivity|]. split; [|intros _ _ Hx; contradiction]. intros _. repeat split; auto. intros c [].
    - cbn [cu_pending3 l_skipped l_pbranch l_cur length] in *.
      destruct (handle_ok cy _ _ _ _ _ _ _ HB eq_refl ltac:(lia) ltac:(lia) Hbl)
        as (push & stop & r1 & x1 & E & (P1 & P2 & P3 & P4 & P5 & P6 & P7 & P8 & [(-> & HBn & P9 & P10 & P11 & P12)|(-> & -> & HBn & HBo & P9 & P10)]) & Hprog).
      + rewrite E. destruct (ebus_entry _ _ _ _ _ _ _ _ HBn P10) as (k1 & _ & Hq1 & Hk1). rewrite <- Hk1, P12 in Hq1.
        rewrite (after_push_nobr x1 _ r1 d Hq1). cbn [l_cur l_skipped l_pbranch List.app].
        assert (Hc1 : CurOK d x1 [r1]) by (intros c [<-|[]]; split; [exact P10|]; split; [exact P11 | lia]).
        assert (Hn1 : NoDup (map kq [r1])) by (constructor; [intros [] | constructor]).
        destruct stop.
        * exists true, [], (mk_cul [r1] [] false), x1, 1%nat, []. cbn [rev List.app length].
          split; [reflexivity|]. split; [replace (d + 1)%nat with (S d) by lia; exact HBn|].
          split; [constructor; auto; congruence|]. split; [reflexivity|]. split; [discriminate | intros; lia].
        * exists false, [], (mk_cul [r1] [] false), x1, 1%nat, (x_prev x). cbn [cu_pending3 rev List.app length].
          split; [reflexivity|]. split; [replace (d + 1)%nat with (S d) by lia; exact HBn|].
          split; [constructor; auto; congruence|]. split; [reflexivity|]. split; [|intros; lia].
          intros _. repeat split; auto. intros c [<-|[]]. lia.
      + rewrite E. exists true, [r], (mk_cul [] ([] ++ [r1]) false), x1, O, []. cbn [rev List.app length].
        rewrite Nat.add_0_r. split; [reflexivity|].
        assert (Hr1 : r1 = r \/ True) by (right; exact I).
        split; [|split; [constructor; auto; try (intros c []); try constructor; congruence|split; [reflexivity|split; [discriminate|]]]].
        * exact HBo.
        * intros A B _. specialize (Hprog A B). discriminate.
  Qed.

  (* ---------------------------------------------------------------- *)
  (* controlUnit.cycle                                                  *)

  Lemma BI_setfields dp d xe w pl pv x pend prev : BI dp d xe w pl pv x -> BI dp d xe w pl pv (set_prev3 (set_pend3 x pend) prev).
  Proof. apply BI_ext; reflexivity. Qed.

  Lemma cu_cycle_ok cy dp d xe w c f x :
    BI dp d xe w (x_pend x) (x_prev x) x -> FrontI (d + length (x_pend x)) c f cy (x_m x) -> m_cu (x_m x) = [] ->
    BusOK cy (x_ebus x) ->
    exists lp, let x' := cu_cycle3 ord cy x in
      BI d (d + lp) xe w (x_pend x') (x_prev x') x' /\ FrontI (d + lp + length (x_pend x')) c f cy (x_m x') /\
      m_cu (x_m x') = [] /\ BusOK cy (x_ebus x') /\ qlen (x_ebus x') = qlen (x_ebus x) /\
      m_wbus (x_m x') = m_wbus (x_m x) /\ m_bu (x_m x') = m_bu (x_m x) /\ m_fu (x_m x') = m_fu (x_m x) /\
      m_dbus (x_m x') = m_dbus (x_m x) /\
      (flat (x_ebus x) = [] -> w = d -> (x_pend x <> [] \/ bb_q (m_cbus (x_m x)) <> []) -> (0 < lp)%nat) /\
      (lp = O -> length (x_pend x') + length (bb_q (m_cbus (x_m x'))) = length (x_pend x) + length (bb_q (m_cbus (x_m x))))%nat.
  Proof.
    intros HB HF Hcu Hbus. unfold cu_cycle3.
    pose proof (bus_bl _ _ Hbus) as Hbl.
    destruct (front_cq_b _ _ _ _ _ _ _ HF Hcu) as [Hq Hqle]. pose proof (front_minc_b _ _ _ _ _ _ _ HF) as HcN.
    destruct (bb_canadd (x_ebus x)) eqn:Eca; cbn [negb].
    2:{ exists O. cbv zeta. rewrite Nat.add_0_r. cbn [x_pend x_prev x_m x_ebus set_prev3].
        split; [eapply BI_setprev; [apply BI_noprev with (pv := x_prev x); apply BI_ext with (x := x); try reflexivity; exact HB | intros q [] | constructor]|].
        split; [exact HF|]. split; [exact Hcu|]. split; [exact Hbus|]. do 5 (split; [reflexivity|]). split; [|intros _; reflexivity].
        intros Hfl _ _. exfalso. apply flat_nil_inv in Hfl as [_ B]. unfold bb_canadd in Eca. rewrite B, Hbl in Eca. discriminate. }
    destruct (cu_pending_ok cy _ _ _ _ _ HB ltac:(lia) ltac:(lia) Hbl)
      as (stopped & pend1 & l1 & x1 & lp1 & pv1 & E1 & HB1 & [C1 C2 C3 C3' C4 C5 C6 C7 C8] & Hlen1 & Hns & Hprog1).
    rewrite E1. destruct C4 as (pw1 & pr1 & Em1).
    destruct stopped.
    - exists lp1. cbv zeta. cbn [x_pend x_prev x_m x_ebus set_prev3 set_pend3].
      split; [apply BI_setfields with (pend := pend1) (prev := l_cur l1) in HB1; eapply BI_setprev; [eapply BI_noprev; apply BI_ext with (x := set_prev3 (set_pend3 x1 pend1) (l_cur l1)); try reflexivity; exact HB1 | exact C1 | exact C2]|].
      rewrite Em1. cbn [set_sb m_cu m_wbus m_bu m_fu m_dbus m_cbus].
      split.
      { replace (d + lp1 + length pend1)%nat with (d + length (x_pend x) + 0)%nat by lia.
        pose proof (FrontI_cu_b _ _ _ _ _ _ _ pw1 pr1 O HF Hcu ltac:(lia)) as HF'. rewrite Nat.sub_0_r, Nat.add_0_r in HF'. rewrite <- Hq in HF'.
        assert (Ecb : mk_bb (bb_buf (m_cbus (x_m x))) (bb_q (m_cbus (x_m x))) (bb_ql (m_cbus (x_m x))) (bb_bl (m_cbus (x_m x))) = m_cbus (x_m x)) by (destruct (m_cbus (x_m x)); reflexivity).
        rewrite Ecb in HF'. rewrite Nat.add_0_r.
        assert (Esc : set_cbus (set_sb (x_m x) pw1 pr1) (m_cbus (x_m x)) = set_sb (x_m x) pw1 pr1) by (destruct (x_m x); reflexivity).
        rewrite Esc in HF'. exact HF'. }
      split; [exact Hcu|]. split; [apply C8; exact Hbus|]. split; [exact C7|]. repeat (split; [reflexivity|]).
      split; [|intros ->; lia].
      intros A B [Hp|Hp]; [apply Hprog1; assumption|].
      destruct (x_pend x) eqn:Ep; [|apply Hprog1; [assumption | assumption | discriminate]].
      (* nothing was pending: the loop over the pendings cannot have stopped *)
      exfalso. cbn [cu_pending3] in E1. discriminate E1.
    - destruct (Hns eq_refl) as (-> & -> & Hsk & Hpb & Hlt1). cbn [length] in Hlen1. rewrite Nat.add_0_r in Hlen1.
      rewrite Em1. cbn [set_sb m_cbus]. rewrite Hq. rewrite <- Hlen1.
      set (len := length (bb_q (m_cbus (x_m x)))) in *.
      destruct (cu_incoming_ok cy dp xe w (x_prev x) d len (d + lp1)%nat x1 l1 HB1 ltac:(congruence) ltac:(lia) ltac:(lia) ltac:(congruence)
                  Hsk Hpb C1 C2 Hlt1 ltac:(intros p Hp; eapply prev_lt; eauto) ltac:(lia))
        as (lp2 & pend2 & l2 & x2 & pv2 & E2 & Hle2 & HB2 & [K1 K2 K3 K3' K4 K5 K6 K7 K8] & Hprog2).
      rewrite E2. destruct K4 as (pw2 & pr2 & Em2).
      exists (lp1 + lp2)%nat. cbv zeta. cbn [x_pend x_prev x_m x_ebus set_prev3 set_pend3 set_m].
      split.
      { eapply BI_setprev; [|exact K1 | exact K2]. eapply BI_noprev. replace (d + (lp1 + lp2))%nat with (d + lp1 + lp2)%nat by lia.
        eapply BI_ext; [..|exact HB2]; reflexivity. }
      rewrite Em2, Em1. cbn [set_sb set_cbus m_cu m_wbus m_bu m_fu m_dbus m_cbus bb_q bb_buf bb_ql bb_bl].
      split.
      { pose proof (FrontI_cu_b _ _ _ _ _ _ _ pw2 pr2 (lp2 + length pend2) HF Hcu ltac:(fold len; lia)) as HF'. fold len in HF'.
        rewrite <- Hlen1 in HF'. replace (d + (lp1 + lp2) + length pend2)%nat with (d + lp1 + (lp2 + length pend2))%nat by lia. exact HF'. }
      split; [exact Hcu|]. split; [apply K8, C8; exact Hbus|]. split; [congruence|]. repeat (split; [reflexivity|]).
      split.
      + intros A B Hor. destruct (Nat.eq_dec lp1 0) as [Hz|]; [|lia].
        assert (Hp0 : x_pend x = []) by (destruct (x_pend x); [reflexivity | cbn in Hlen1; lia]).
        destruct Hor as [Hp|Hp]; [contradiction|].
        assert (Hx1 : flat (x_ebus x1) = flat (x_ebus x) /\ True).
        { split; [|exact I]. rewrite Hp0 in E1. cbn [cu_pending3] in E1. injection E1 as _ <-. reflexivity. }
        destruct Hx1 as [Hx1 _]. specialize (Hprog2 ltac:(rewrite Hx1; exact A) ltac:(lia)).
        assert ((0 < len)%nat) by (unfold len; destruct (bb_q (m_cbus (x_m x))); [contradiction | cbn; lia]). lia.
      + intros Hz. rewrite ?map_length, ?seq_length. lia.
  Qed.

  (* ---------------------------------------------------------------- *)
  (* the instruction at the head of the execute bus reads its sequential operands *)

  Lemma tables_view dp d xe w pl pv x q : BI dp d xe w pl pv x ->
    match rat_read tu0 (x_trat x) q with
    | Some v => snd v
    | None => match rat_read 0 (x_crat x) q with Some v => v | None => 0 end
    end = view w q.
  Proof.
    intros HB. rewrite (bi_trat _ _ _ _ _ _ _ HB), (bi_crat _ _ _ _ _ _ _ HB). unfold Mvp63RefDefs.view.
    destruct (tv w q); [reflexivity|]. destruct ((0 <=? q) && (q <? 32)); reflexivity.
  Qed.

  Lemma head_entry dp d xe w pl pv x r E' : BI dp d xe w pl pv x -> flat (x_ebus x) = r :: E' ->
    q_r r = rn xe /\ kq r = xe /\ (xe < d)%nat.
  Proof.
    intros HB Hfl. pose proof (bi_ebus _ _ _ _ _ _ _ HB) as He. rewrite Hfl in He. cbn [map] in He.
    destruct (d - xe)%nat as [|m] eqn:Em; [discriminate|]. cbn [seq map] in He. injection He as He _.
    split; [exact He|]. split; [apply kq_rn; exact He | lia].
  Qed.

  (* the forward field the execute unit runs the head with *)
  Definition head_fw (x : mx) (r : runner3) : Z * Z :=
    match q_recv r with
    | None => (0, 0)
    | Some ch => match aget ch (x_chan x) with Some v => (q_freg r, v) | None => (0, 0) end
    end.

  Theorem head_operands dp d xe w pl pv x r E' : BI dp d xe w pl pv x -> flat (x_ebus x) = r :: E' ->
    (forall ch, q_recv r = Some ch -> exists v, aget ch (x_chan x) = Some v) /\
    (forall q, In q (rds xe) -> reg_read3 (head_fw x r) (x_crat x) (x_trat x) q = rget (sreg xe) q) /\
    (forall q, int32 (reg_read3 (head_fw x r) (x_crat x) (x_trat x) q)) /\
    instr_Run (ik xe) (reg_read3 (head_fw x r) (x_crat x) (x_trat x)) labels (pcz xe) [] 0 = Ok (exe xe).
  Proof.
    intros HB Hfl. destruct (head_entry _ _ _ _ _ _ _ _ _ HB Hfl) as (Hqr & Hkq & Hxd).
    pose proof (bi_ord _ _ _ _ _ _ _ HB) as Hord. pose proof (bi_xeN _ _ _ _ _ _ _ HB) as HxN. pose proof (bi_dn _ _ _ _ _ _ _ HB) as [Hdn _].
    assert (Hin : In r (flat (x_ebus x))) by (rewrite Hfl; left; reflexivity).
    pose proof (bi_recv _ _ _ _ _ _ _ HB) as Hrc. apply Forall_app in Hrc as [Hrc _]. rewrite Forall_forall in Hrc. specialize (Hrc r Hin).
    pose proof (bi_read _ _ _ _ _ _ _ HB) as Hrd. rewrite Forall_forall in Hrd. specialize (Hrd r Hin). unfold ReadOK in Hrd. rewrite Hkq in Hrd.
    (* the channel of the head holds the value of the writer *)
    assert (Hch : forall ch, q_recv r = Some ch -> q_freg r <> 0 /\ exists p, (p < xe)%nat /\ In (q_freg r) (wrs p) /\
                    aget ch (x_chan x) = Some (RegisterValue (exe p))).
    { intros ch Hc. destruct (Hrc ch Hc) as (A & p & B & C & D). rewrite Hkq in B. split; [exact A|]. exists p.
      destruct D as [(D1 & _)|(D1 & D2)]; [lia|]. auto. }
    assert (Hview : forall q, In q (rds xe) -> q <> 0 -> (forall j, (w <= j < xe)%nat -> ~ In q (wrs j)) -> view w q = rget (sreg xe) q).
    { intros q Hq Hnz Hno. pose proof (rds_rng app Hrng xe q Hq) as Hr.
      rewrite (view_sreg app labels regs0 Hrng Hlen0 w q ltac:(lia)). rewrite rget_nth. destruct (Z.eqb_spec q 0); [contradiction|].
      symmetry. apply sreg_stable; try lia. intros j Hj Hin'. apply (wsl_in app Hrng j q ltac:(lia)) in Hin'. exact (Hno j ltac:(lia) Hin'). }
    assert (Hreads : forall q, In q (rds xe) -> reg_read3 (head_fw x r) (x_crat x) (x_trat x) q = rget (sreg xe) q).
    { intros q Hq. unfold reg_read3, head_fw. destruct (q_recv r) as [ch|] eqn:Erc.
      - destruct (Hch ch eq_refl) as (Hfz & p & Hp & Hw & Hv). rewrite Hv. cbn [fst snd].
        destruct (Z.eqb_spec q (q_freg r)) as [->|Hne].
        + symmetry. pose proof (wrs_rng app Hrng p _ Hw).
          apply (fwd_value app labels regs0 Hssa Hrng Hlen0 p xe (q_freg r)); [fold n; lia | exact Hw | lia|].
          destruct (Hsem p ltac:(lia) ltac:(lia)) as [He _]. eexists. exact He.
        + rewrite (tables_view _ _ _ _ _ _ _ q HB). destruct (Z.eq_dec q 0) as [->|Hqz].
          * rewrite (view_zero app labels regs0 w Hx0). reflexivity.
          * destruct (Hrd q Hq Hqz) as [[_ A]|A]; [contradiction | apply Hview; assumption].
      - cbn [fst snd]. destruct (Z.eqb_spec q 0) as [->|Hqz]; [reflexivity|].
        rewrite (tables_view _ _ _ _ _ _ _ q HB). destruct (Hrd q Hq Hqz) as [[A _]|A]; [congruence | apply Hview; assumption]. }
    assert (H32 : forall q, int32 (reg_read3 (head_fw x r) (x_crat x) (x_trat x) q)).
    { intros q. unfold reg_read3. destruct (q =? fst (head_fw x r)).
      - unfold head_fw. destruct (q_recv r) as [ch|] eqn:Erc; [|apply int32_0].
        destruct (Hch ch eq_refl) as (_ & p & _ & _ & Hv). rewrite Hv. cbn [snd]. apply (exe_val_int32 app labels regs0).
      - rewrite (tables_view _ _ _ _ _ _ _ q HB). apply (view_int32 app labels regs0 Hr32). }
    split; [intros ch Hc; destruct (Hch ch Hc) as (_ & p & _ & _ & Hv); eauto|]. split; [exact Hreads|]. split; [exact H32|].
    assert (Himm : int32 (imm_of (sinstr_of (ik xe)))).
    { destruct Happ as [Hf _]. rewrite Forall_forall in Hf. apply Hf. apply nth_In. fold n. lia. }
    rewrite (run_refines_spec _ labels (pcz xe) [] 0 H32 (ik xe) Himm (nomem_mem_ok _ (ik_nomem app Hreg xe))).
    assert (Hex : exec (sinstr_of (ik xe)) (reg_read3 (head_fw x r) (x_crat x) (x_trat x)) labels (pcz xe) []
                  = exec (sinstr_of (ik xe)) (rget (sreg xe)) labels (pcz xe) []).
    { apply spec_reads_sound. intros q Hq. rewrite <- read_registers_exact in Hq. apply Hreads. exact Hq. }
    rewrite Hex. destruct (Hsem xe ltac:(lia) ltac:(lia)) as [He _]. rewrite He. reflexivity.
  Qed.

  (* ---------------------------------------------------------------- *)
  (* a write unit takes the oldest result of the write bus              *)

  Theorem wu_take_ok dp d xe w pl pv x wu c q' : BI dp d xe w pl pv x -> u_co wu = WNone ->
    bb_q (m_wbus (x_m x)) = c :: q' ->
    exists x', wu_cycle3 x wu (-1) = Ok (x', wu) /\ BI dp d xe (S w) pl pv x' /\
      x_ebus x' = x_ebus x /\ x_pend x' = x_pend x /\ x_prev x' = x_prev x /\
      bb_q (m_wbus (x_m x')) = q' /\ bb_buf (m_wbus (x_m x')) = bb_buf (m_wbus (x_m x)).
  Proof.
    intros HB Hco Hq. pose proof HB as []. 
    assert (Hfl : flat (m_wbus (x_m x)) = c :: q' ++ map snd (bb_buf (m_wbus (x_m x)))) by (unfold flat; rewrite Hq; reflexivity).
    rewrite bi_wbus0 in Hfl. destruct (xe - w)%nat as [|m] eqn:Em; [discriminate|]. cbn [seq map] in Hfl. injection Hfl as Hc Hrest.
    assert (Hwx : (w < xe)%nat) by lia.
    assert (HwN : (w <= N)%nat /\ (w < n)%nat) by lia. destruct HwN as [HwN Hwn].
    destruct (exe_flags w HwN Hwn) as (Fr & Fm & Fp).
    unfold wu_cycle3. rewrite Hco. unfold bb_get. rewrite Hq. cbn [negb Z.eqb andb].
    change (negb (-1 =? -1)) with false. cbn [andb]. rewrite <- Hc. unfold Mvp60RefBack.wbn. cbn [w_exe w_seq w_reads w_writes].
    fold (exe w). 
    (* the scoreboards *)
    assert (Hwd : (w < d)%nat) by lia.
    pose proof (sb_decr_seq wrs _ w d Hwd bi_pwlen0 bi_pw0) as Cw. pose proof (sb_decr_seq rds _ w d Hwd bi_prlen0 bi_pr0) as Cr.
    assert (Lw : length (sb_decr (m_pw (x_m x)) (wrs w)) = 32%nat) by (rewrite sb_decr_length; exact bi_pwlen0).
    assert (Lr : length (sb_decr (m_pr (x_m x)) (rds w)) = 32%nat) by (rewrite sb_decr_length; exact bi_prlen0).
    assert (Hread' : Forall (ReadOK (S w)) (flat (x_ebus x))).
    { eapply Forall_impl; [|exact bi_read0]. intros a Ha q Hq' Hqz. destruct (Ha q Hq' Hqz) as [A|A]; [left; exact A | right; intros j Hj; apply A; lia]. }
    assert (Hwb' : q' ++ map snd (bb_buf (m_wbus (x_m x))) = map wbn (seq (S w) (xe - S w))).
    { rewrite <- Hrest. f_equal. f_equal. lia. }
    destruct (RegisterChange (exe w)) eqn:Erc.
    - eexists. split; [reflexivity|]. split; [|repeat split; reflexivity].
      constructor; cbn [x_ebus x_m x_crat x_trat x_fwd x_seq x_pcb x_chan x_next x_os set_rats3 set_m del_pending6 set_sb set_wbus
                        m_pw m_pr m_regs m_mem m_l3 m_wbus]; try assumption; try lia.
      + apply rat_write_ok. exact bi_tok0.
      + intros q. rewrite rat_read_write by exact bi_tok0. cbn [Mvp63RefDefs.tv]. rewrite Erc. cbn [andb].
        rewrite Z.eqb_sym. destruct (Register (exe w) =? q); [reflexivity | apply bi_trat0].
    - rewrite Fm. eexists. split; [reflexivity|]. split; [|repeat split; reflexivity].
      constructor; cbn [x_ebus x_m x_crat x_trat x_fwd x_seq x_pcb x_chan x_next x_os set_rats3 set_m del_pending6 set_sb set_wbus
                        m_pw m_pr m_regs m_mem m_l3 m_wbus]; try assumption; try lia.
      + intros q. rewrite bi_trat0. cbn [Mvp63RefDefs.tv]. rewrite Erc. reflexivity.
  Qed.
End Ref.
