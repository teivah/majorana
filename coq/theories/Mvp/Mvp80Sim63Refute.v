(* REFUTATION of mvp80_regonly_equals_mvp63_statement (Mvp80RegOnly63.v).

   Sequence ids are pc + 1000 * ctx.sequenceID (risc/app.go SequenceID) and ctx.sequenceID grows by 2 per
   taken unconditional jump without a BTB entry (notifyUnconditionalJumpAddressResolved -> fetchUnit.reset, then
   CPU.flush).  They are therefore NOT monotone in program order as soon as a jump goes backwards by more than
   2000 bytes (> 500 instructions): the instruction reached by the jump gets a SMALLER id than an OLDER
   instruction before the jump.  registerRead of MVP-8.0 (reg_read8: newest slot of the transaction RAT with
   sequence id <= the reader's) then skips the value written by that older instruction and returns the
   committed value, while MVP-6.3 (reg_read3: newest slot) returns the value written.

   cx71_prog of Mvp70Sim63Mvp71.v (504 instructions, no load, no store, no conditional branch):
        pc 0      j L1            -- id 0
        pc 4      add x7, x5, x0  -- id 4 + 4000 = 4004 when it is reached
        pc 8      ret
        pc 12..   nop * 499       -- never executed
        pc 2008   L1: li x5, 77   -- id 2008 + 2000 = 4008
        pc 2012   j L2 (= pc 4)
   with x5 = 1 initially: MVP-6.3 returns x7 = 77 (cycle 638), MVP-8.0 returns x7 = 1 (cycle 639), at 1..4 cores.
   A true variant needs a hypothesis that keeps the ids monotone, e.g. a bound on the length of the program
   (4 * length app <= 1000). *)
From Coq Require Import ZArith List Bool Lia.
From Maj Require Import Base.Outcome Base.GoInt Base.GoTypes Isa.Spec Isa.Seq.
From Maj Require Import Gen.Latency Gen.RiscTables Gen.Opcodes Comp.Cache Comp.Rat Mvp.Mvp12 Mvp.Mvp3 Mvp.Mvp5 Mvp.Mvp60 Mvp.Mvp63 Mvp.Mvp80.
From Maj Require Import Mvp.Mvp60Proofs Mvp.Mvp63Proofs Mvp.Mvp80Proofs Mvp.Mvp80RegOnly Mvp.Mvp80RegOnly63.
From Maj Require Import Mvp.Mvp70Sim63Mvp71.
Import ListNotations.
Open Scope Z_scope.

(* what the two variants return *)
Lemma cx_runs : forall par, In par [1; 2; 3; 4]%nat ->
  regonly cx71_prog = true /\
  (exists s3, mvp63_run_os par ord_asc 3000 cx71_prog cx71_labels cx71_st = (MDone 638 s3, false) /\ nth 7 (regs s3) 0 = 77) /\
  (exists s8, mvp80_run_os par ord_asc 3001 cx71_prog cx71_labels cx71_st = (MDone 639 s8, false) /\ nth 7 (regs s8) 0 = 1).
Proof.
  assert (RO : regonly cx71_prog = true) by (vm_compute; reflexivity).
  intros par [<-|[<-|[<-|[<-|[]]]]]; (split; [exact RO|]);
  (split; (eexists; split; [vm_compute; reflexivity | vm_compute; reflexivity])).
Qed.

Theorem mvp80_regonly_differs_from_mvp63 :
  exists par ord fuel app labels st r os,
    regonly app = true /\ r <> MOutOfFuel /\
    mvp63_run_os par ord fuel app labels st = (r, os) /\
    mvp80_run_os par ord (S fuel) app labels st <> (plus_one_cycle r, os).
Proof.
  destruct (cx_runs 1%nat (or_introl eq_refl)) as [RO [[s3 [E3 R3]] [s8 [E8 R8]]]].
  exists 1%nat, ord_asc, 3000%nat, cx71_prog, cx71_labels, cx71_st, (MDone 638 s3), false.
  split; [exact RO|]. split; [discriminate|]. split; [exact E3|].
  change (S 3000) with 3001%nat. rewrite E8. cbn [plus_one_cycle]. intro H.
  assert (S8 : s8 = s3) by congruence. rewrite S8 in R8. rewrite R3 in R8. discriminate.
Qed.

Theorem mvp80_regonly_equals_mvp63_refuted : ~ mvp80_regonly_equals_mvp63_statement.
Proof.
  intro H.
  destruct mvp80_regonly_differs_from_mvp63 as [par [ord [fuel [app [labels [st [r [os [RO [NF [E3 NE]]]]]]]]]]].
  apply NE. exact (H par ord fuel app labels st r os RO NF E3).
Qed.

Print Assumptions mvp80_regonly_differs_from_mvp63.
Print Assumptions mvp80_regonly_equals_mvp63_refuted.
