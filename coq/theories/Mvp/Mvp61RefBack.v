(* Refinement of MVP-6.1 to the sequential machine on register-only programs: structural facts about
   the hazard list, shouldUseForwarding, the Forwarder update through the bus (setfw), the channels
   (fws, rcs, ch_take) and the availability predicate AvE used by the channel invariant
   Mvp61RefInv.ChI; NoDup facts. *)
From Coq Require Import ZArith List Bool Lia Permutation.
From Maj Require Import Comp.ListFacts.
From Maj Require Import Base.Outcome Base.GoInt Base.GoTypes Isa.Spec Isa.Embed Isa.Seq Isa.Refine.
From Maj Require Import Gen.Latency Gen.RiscTables Gen.Opcodes Comp.Cache.
From Maj Require Import Mvp.Mvp12 Mvp.Mvp12Proofs Mvp.Mvp3 Mvp.Mvp3Proofs Mvp.Mvp4Skel Mvp.Mvp4Inv Mvp.Mvp5 Mvp.Mvp60 Mvp.Mvp61
     Mvp.Mvp60RefSem Mvp.Mvp60RefDefs Mvp.Mvp60RefFront Mvp.Mvp60RefBack Mvp.Mvp61RefSem Mvp.Mvp61RefFront Comp.ListFacts.
Import ListNotations.
Open Scope Z_scope.


Definition hz_reads (b : mach) (reads : list Z) : list (Z * Z) :=
  flat_map (fun r => if negb (r =? 0) && (0 <? sb_get (m_pw b) r) then [(HRaw, r)] else []) reads.
Definition hz_writes (b : mach) (writes : list Z) : list (Z * Z) :=
  flat_map (fun w => if w =? 0 then []
                     else (if 0 <? sb_get (m_pw b) w then [(HWaw, w)] else []) ++
                          (if 0 <? sb_get (m_pr b) w then [(HWar, w)] else [])) writes.

Lemma hazards3_split b reads writes : hazards3 b reads writes = hz_reads b reads ++ hz_writes b writes.
Proof. reflexivity. Qed.

Lemma hz_writes_notraw b writes t r : In (t, r) (hz_writes b writes) -> t <> HRaw.
Proof.
  unfold hz_writes. intros H. apply in_flat_map in H as (w & _ & H). destruct (w =? 0); [destruct H|].
  apply in_app_or in H as [H|H].
  - destruct (0 <? sb_get (m_pw b) w); [|destruct H]. destruct H as [H|[]]. injection H as <- _. discriminate.
  - destruct (0 <? sb_get (m_pr b) w); [|destruct H]. destruct H as [H|[]]. injection H as <- _. discriminate.
Qed.

Lemma hz_reads_in b reads r : In r reads -> r <> 0 -> 0 < sb_get (m_pw b) r -> In (HRaw, r) (hz_reads b reads).
Proof.
  intros Hin Hnz Hp. unfold hz_reads. apply in_flat_map. exists r. split; [exact Hin|].
  destruct (Z.eqb_spec r 0); [contradiction|]. destruct (Z.ltb_spec 0 (sb_get (m_pw b) r)); [left; reflexivity | lia].
Qed.

Lemma hz_writes_nil b writes : hz_writes b writes = [] ->
  forall w, In w writes -> w <> 0 -> sb_get (m_pw b) w <= 0 /\ sb_get (m_pr b) w <= 0.
Proof.
  intros H w Hin Hnz. pose proof (flat_map_nil_inv _ _ H w Hin) as Hw. cbv beta in Hw.
  destruct (Z.eqb_spec w 0); [contradiction|]. apply app_eq_nil in Hw as [H1 H2].
  destruct (Z.ltb_spec 0 (sb_get (m_pw b) w)); [discriminate|]. destruct (Z.ltb_spec 0 (sb_get (m_pr b) w)); [discriminate|]. lia.
Qed.

Lemma hz_reads_nil b reads : hz_reads b reads = [] -> forall r, In r reads -> r <> 0 -> sb_get (m_pw b) r <= 0.
Proof.
  intros H r Hin Hnz. pose proof (flat_map_nil_inv _ _ H r Hin) as Hr. cbv beta in Hr.
  destruct (Z.eqb_spec r 0); [contradiction|]. cbn [negb andb] in Hr.
  destruct (Z.ltb_spec 0 (sb_get (m_pw b) r)); [discriminate | lia].
Qed.

(* exactly one hazard, of type RAW: it is the only read register with a pending write, and the
   registers written have no pending write and no pending read *)
Lemma hazards3_single b reads writes r : hazards3 b reads writes = [(HRaw, r)] ->
  (forall r', In r' reads -> r' <> 0 -> 0 < sb_get (m_pw b) r' -> r' = r) /\
  (forall w, In w writes -> w <> 0 -> sb_get (m_pw b) w <= 0 /\ sb_get (m_pr b) w <= 0).
Proof.
  rewrite hazards3_split. intros H.
  assert (Hw : hz_writes b writes = []).
  { destruct (hz_writes b writes) as [|[t x] tl] eqn:E; [reflexivity|]. exfalso.
    assert (Hin : In (t, x) [(HRaw, r)]) by (rewrite <- H; apply in_or_app; right; left; reflexivity).
    destruct Hin as [Hin|[]]. injection Hin as <- <-.
    apply (hz_writes_notraw b writes HRaw r); [rewrite E; left; reflexivity | reflexivity]. }
  rewrite Hw, app_nil_r in H. split; [|apply hz_writes_nil; exact Hw].
  intros r' Hin Hnz Hp. pose proof (hz_reads_in b reads r' Hin Hnz Hp) as Hx. rewrite H in Hx.
  destruct Hx as [Hx|[]]. injection Hx as <-. reflexivity.
Qed.

Lemma hazards3_nil b reads writes : hazards3 b reads writes = [] ->
  (forall r, In r reads -> r <> 0 -> sb_get (m_pw b) r <= 0) /\
  (forall w, In w writes -> w <> 0 -> sb_get (m_pw b) w <= 0 /\ sb_get (m_pr b) w <= 0).
Proof.
  rewrite hazards3_split. intros H. apply app_eq_nil in H as [H1 H2].
  split; [apply hz_reads_nil; exact H1 | apply hz_writes_nil; exact H2].
Qed.

(* zero scoreboards: no hazard *)
Lemma hazards3_zero b reads writes :
  (forall s, nth s (m_pw b) 0 <= 0) -> (forall s, nth s (m_pr b) 0 <= 0) -> hazards3 b reads writes = [].
Proof.
  intros H1 H2. rewrite hazards3_split. unfold hz_reads, hz_writes, sb_get.
  assert (A : forall r, (0 <? nth (Z.to_nat r) (m_pw b) 0) = false) by (intros r; apply Z.ltb_ge; apply H1).
  assert (B : forall r, (0 <? nth (Z.to_nat r) (m_pr b) 0) = false) by (intros r; apply Z.ltb_ge; apply H2).
  replace (flat_map _ reads) with (@nil (Z * Z)).
  - replace (flat_map _ writes) with (@nil (Z * Z)); [reflexivity|].
    symmetry. induction writes as [|w t IH]; [reflexivity|]. cbn [flat_map]. rewrite IH, A, B. destruct (w =? 0); reflexivity.
  - symmetry. induction reads as [|r t IH]; [reflexivity|]. cbn [flat_map]. rewrite IH, A, andb_false_r. reflexivity.
Qed.


Lemma fwd_match_spec p reads rd : fwd_match p reads = Some rd ->
  In rd reads /\ rd <> 0 /\ In rd (instr_WriteRegisters (r_instr (r_b p))).
Proof.
  unfold fwd_match. induction (instr_WriteRegisters (r_instr (r_b p))) as [|w t IH]; [discriminate|].
  destruct (find (fun rd0 => negb (rd0 =? 0) && (rd0 =? w)) reads) as [x|] eqn:Ef.
  - intros H. injection H as <-. apply find_some in Ef as [Hin Hc]. apply andb_prop in Hc as [A B].
    apply negb_true_iff, Z.eqb_neq in A. apply Z.eqb_eq in B. subst w. split; [exact Hin|]. split; [exact A | left; reflexivity].
  - intros H. destruct (IH H) as (A & B & C). split; [exact A|]. split; [exact B | right; exact C].
Qed.

Lemma should_forward_spec pord cycle prev hz reads os p rd : should_forward pord cycle prev hz reads = (os, Some (p, rd)) ->
  (exists r, hz = [(HRaw, r)]) /\ In p prev /\ fwd_match p reads = Some rd.
Proof.
  unfold should_forward. destruct hz as [|[t r] [|h2 tl]]; try discriminate.
  destruct (Z.eqb_spec t HRaw) as [->|Hne]; cbn [negb]; [|discriminate].
  set (cands := flat_map _ prev). destruct (zlen cands =? 0); [discriminate|].
  intros H. injection H as _ H. apply nth_error_In in H. unfold cands in H.
  apply in_flat_map in H as (p' & Hp & H). destruct (fwd_match p' reads) as [rd'|] eqn:E; [|destruct H].
  destruct H as [H|[]]. injection H as <- <-. split; [exists r; reflexivity|]. split; assumption.
Qed.


Definition setfw (id ch : Z) (r : runner1) : runner1 :=
  if r_id r =? id then mk_r1 (r_b r) (r_id r) (Some ch) (r_rc r) (r_freg r) else r.

Lemma set_forwarder_flat bus id ch : flat (set_forwarder bus id ch) = map (setfw id ch) (flat bus).
Proof.
  unfold set_forwarder, flat. cbn [bb_q bb_buf]. rewrite map_app, !map_map. reflexivity.
Qed.

Lemma setfw_b id ch r : r_b (setfw id ch r) = r_b r /\ r_id (setfw id ch r) = r_id r /\
  r_rc (setfw id ch r) = r_rc r /\ r_freg (setfw id ch r) = r_freg r.
Proof. unfold setfw. destruct (r_id r =? id); repeat split. Qed.

Lemma set_forwarder_len bus id ch :
  qlen (set_forwarder bus id ch) = qlen bus /\ blen (set_forwarder bus id ch) = blen bus /\
  bb_ql (set_forwarder bus id ch) = bb_ql bus /\ bb_bl (set_forwarder bus id ch) = bb_bl bus /\
  map fst (bb_buf (set_forwarder bus id ch)) = map fst (bb_buf bus).
Proof.
  unfold set_forwarder, qlen, blen, zlen. cbn [bb_q bb_buf bb_ql bb_bl]. rewrite !map_length, map_map. cbn [fst]. repeat split.
Qed.

(* with distinct ids exactly one object is changed *)
Lemma setfw_other id ch l : ~ In id (map r_id l) -> map (setfw id ch) l = l.
Proof.
  induction l as [|r t IH]; [reflexivity|]. cbn [map In]. intros H. unfold setfw at 1.
  destruct (Z.eqb_spec (r_id r) id) as [E|E]; [exfalso; apply H; left; exact E|]. rewrite IH; [reflexivity|]. tauto.
Qed.

Lemma setfw_split id ch l : NoDup (map r_id l) -> forall p, In p l -> r_id p = id ->
  exists l1 l2, l = l1 ++ p :: l2 /\ map (setfw id ch) l = l1 ++ mk_r1 (r_b p) (r_id p) (Some ch) (r_rc p) (r_freg p) :: l2.
Proof.
  intros Hnd p Hin Hid. apply in_split in Hin as (l1 & l2 & ->). exists l1, l2. split; [reflexivity|].
  rewrite map_app in Hnd. cbn [map] in Hnd. pose proof (NoDup_remove_2 _ _ _ Hnd) as Hno. rewrite Hid in Hno.
  rewrite map_app. cbn [map]. rewrite !setfw_other by (intros H; apply Hno; apply in_or_app; tauto).
  unfold setfw. rewrite Hid, Z.eqb_refl. reflexivity.
Qed.


Definition fws (l : list runner1) : list Z := flat_map (fun r => match r_fw r with Some c => [c] | None => [] end) l.
Definition rcs (l : list runner1) : list Z := flat_map (fun r => match r_rc r with Some c => [c] | None => [] end) l.
Definition keys (ch : list (Z * Z)) : list Z := map fst ch.

Lemma fws_app a b : fws (a ++ b) = fws a ++ fws b. Proof. apply flat_map_app. Qed.
Lemma rcs_app a b : rcs (a ++ b) = rcs a ++ rcs b. Proof. apply flat_map_app. Qed.

Lemma fws_in l c : In c (fws l) <-> exists r, In r l /\ r_fw r = Some c.
Proof.
  unfold fws. rewrite in_flat_map. split.
  - intros (r & Hr & H). exists r. split; [exact Hr|]. destruct (r_fw r) as [c'|]; [|destruct H]. destruct H as [->|[]]. reflexivity.
  - intros (r & Hr & H). exists r. split; [exact Hr|]. rewrite H. left. reflexivity.
Qed.

Lemma rcs_in l c : In c (rcs l) <-> exists r, In r l /\ r_rc r = Some c.
Proof.
  unfold rcs. rewrite in_flat_map. split.
  - intros (r & Hr & H). exists r. split; [exact Hr|]. destruct (r_rc r) as [c'|]; [|destruct H]. destruct H as [->|[]]. reflexivity.
  - intros (r & Hr & H). exists r. split; [exact Hr|]. rewrite H. left. reflexivity.
Qed.

Lemma ch_take_spec : forall chs c, NoDup (keys chs) -> In c (keys chs) ->
  exists v chs', ch_take chs c = Some (v, chs') /\ In (c, v) chs /\
    (forall c' v', In (c', v') chs' <-> In (c', v') chs /\ c' <> c) /\
    (forall c', In c' (keys chs') <-> In c' (keys chs) /\ c' <> c) /\ NoDup (keys chs').
Proof.
  induction chs as [|[c0 v0] t IH]; intros c Hnd Hin; [destruct Hin|]. cbn [keys map fst] in Hnd, Hin. cbn [ch_take].
  inversion Hnd as [|? ? Hno Hnd']; subst. destruct (Z.eqb_spec c0 c) as [->|Hne].
  - exists v0, t. split; [reflexivity|]. split; [left; reflexivity|]. split; [|split; [|exact Hnd']].
    + intros c' v'. split.
      * intros H. split; [right; exact H|]. intros ->. apply Hno. apply in_map_iff. exists (c, v'). auto.
      * intros [[H|H] Hc]; [injection H as -> _; contradiction | exact H].
    + intros c'. cbn [keys map fst In]. split.
      * intros H. split; [right; exact H|]. intros ->. contradiction.
      * intros [[H|H] Hc]; [congruence | exact H].
  - destruct Hin as [Hin|Hin]; [contradiction|]. destruct (IH c Hnd' Hin) as (v & chs' & E & H1 & H2 & H3 & H4). rewrite E.
    exists v, ((c0, v0) :: chs'). split; [reflexivity|]. split; [right; exact H1|]. split; [|split].
    + intros c' v'. cbn [In]. rewrite H2. split.
      * intros [H|[H Hc]]; [injection H as <- <-; auto | auto].
      * intros [[H|H] Hc]; auto.
    + intros c'. cbn [keys map fst In]. fold (keys chs') (keys t). rewrite H3. split.
      * intros [H|[H Hc]]; [subst; auto | auto].
      * intros [[H|H] Hc]; auto.
    + cbn [keys map fst]. constructor; [|exact H4]. fold (keys chs'). rewrite H3. tauto.
Qed.

(* availability: every consumer in the (FIFO) execute bus finds its channel among [ks] (the
   channels that hold a value) or among the Forwarders of the runners ahead of it *)

Definition fwl (r : runner1) : list Z := match r_fw r with Some c => [c] | None => [] end.

Fixpoint AvE (ks : list Z) (l : list runner1) : Prop :=
  match l with
  | [] => True
  | r :: t => (forall c, r_rc r = Some c -> In c ks) /\ AvE (ks ++ fwl r) t
  end.

Lemma fws_cons r t : fws (r :: t) = fwl r ++ fws t. Proof. reflexivity. Qed.

Lemma AvE_mono : forall l ks ks', (forall c, In c (rcs l) -> In c ks -> In c ks') -> AvE ks l -> AvE ks' l.
Proof.
  induction l as [|r t IH]; intros ks ks' H; cbn [AvE]; [auto|]. intros [A B]. split.
  - intros c Hc. apply H; [|apply A; exact Hc]. apply rcs_in. exists r. split; [left; reflexivity | exact Hc].
  - apply (IH (ks ++ fwl r)); [|exact B]. intros c Hc Hin. apply in_app_or in Hin as [Hin|Hin]; apply in_or_app; [left | right; exact Hin].
    apply H; [|exact Hin]. change (r :: t) with ([r] ++ t). rewrite rcs_app. apply in_or_app. right. exact Hc.
Qed.

Lemma AvE_app : forall l1 l2 ks, AvE ks (l1 ++ l2) <-> AvE ks l1 /\ AvE (ks ++ fws l1) l2.
Proof.
  induction l1 as [|r t IH]; intros l2 ks; cbn [List.app AvE].
  - cbn [fws flat_map]. rewrite app_nil_r. tauto.
  - rewrite IH, fws_cons, app_assoc. tauto.
Qed.

Lemma AvE_setfw id ch : forall l ks, (forall p, In p l -> r_id p = id -> r_fw p = None) ->
  AvE ks l -> AvE ks (map (setfw id ch) l).
Proof.
  induction l as [|r t IH]; intros ks Hn; cbn [map AvE]; [auto|]. intros [A B]. split.
  - destruct (setfw_b id ch r) as (_ & _ & E & _). rewrite E. exact A.
  - apply IH; [intros p Hp; apply Hn; right; exact Hp|].
    eapply AvE_mono; [|exact B]. intros c _ Hin. apply in_app_or in Hin as [Hin|Hin]; apply in_or_app; [left; exact Hin | right].
    unfold setfw. destruct (Z.eqb_spec (r_id r) id) as [E|E]; [|exact Hin].
    unfold fwl in Hin. rewrite (Hn r (or_introl eq_refl) E) in Hin. destruct Hin.
Qed.

Definition rcl (r : runner1) : list Z := match r_rc r with Some c => [c] | None => [] end.
Lemma rcs_cons r t : rcs (r :: t) = rcl r ++ rcs t. Proof. reflexivity. Qed.

Lemma rcs_setfw id ch l : rcs (map (setfw id ch) l) = rcs l.
Proof.
  induction l as [|r t IH]; [reflexivity|]. cbn [map]. rewrite !rcs_cons, IH. f_equal. unfold rcl.
  destruct (setfw_b id ch r) as (_ & _ & E & _). rewrite E. reflexivity.
Qed.

Lemma map_setfw_b id ch l : map r_b (map (setfw id ch) l) = map r_b l /\ map r_id (map (setfw id ch) l) = map r_id l.
Proof.
  rewrite !map_map. split; apply map_ext; intros r; apply (setfw_b id ch r).
Qed.


Lemma fws_setfw_in id ch l c : In c (fws (map (setfw id ch) l)) -> In c (fws l) \/ c = ch.
Proof.
  intros H. apply fws_in in H as (r' & Hin & Hf). apply in_map_iff in Hin as (r0 & <- & Hin0). unfold setfw in Hf.
  destruct (r_id r0 =? id); [cbn [r_fw] in Hf; injection Hf as <-; right; reflexivity | left; apply fws_in; exists r0; auto].
Qed.

Lemma fws_setfw_sub id ch l c : (forall p, In p l -> r_id p = id -> r_fw p = None) -> In c (fws l) -> In c (fws (map (setfw id ch) l)).
Proof.
  intros Hn H. apply fws_in in H as (r0 & Hin & Hf). apply fws_in. exists (setfw id ch r0). split; [apply in_map; exact Hin|].
  unfold setfw. destruct (Z.eqb_spec (r_id r0) id) as [E|E]; [rewrite (Hn r0 Hin E) in Hf; discriminate | exact Hf].
Qed.


(* Mvp60RefBack.cnt_member_ge and canadd_lt say the same, but are stated inside a section there and take
   its hypotheses *)
Lemma cnt_member_ge1 f F k s : In k F -> cnt1 (f k) s <= cnt f F s.
Proof.
  induction F as [|j t IH]; intros []; cbn [cnt].
  - subst j. pose proof (cnt_nonneg f t s). lia.
  - pose proof (cnt1_nonneg (f j) s). specialize (IH H). lia.
Qed.

Lemma canadd_lt1 {T} (b : bbus T) : bb_bl b = 2 -> blen b < 2 -> bb_canadd b = true.
Proof. intros Hbl Hb. unfold bb_canadd, blen in *. rewrite Hbl. apply negb_true_iff, Z.eqb_neq. lia. Qed.

Lemma canadd_inv {T} (b : bbus T) : bb_bl b = 2 -> blen b <= 2 -> bb_canadd b = true -> blen b < 2.
Proof. intros Hbl Hb H. unfold bb_canadd, blen in *. rewrite Hbl in H. apply negb_true_iff, Z.eqb_neq in H. lia. Qed.

Lemma nodup_remove_mid {A} (a b c : list A) : NoDup (a ++ b ++ c) -> NoDup (a ++ c).
Proof.
  intros H. apply NoDup_app_disj.
  - exact (NoDup_app_l _ _ H).
  - exact (NoDup_app_r _ _ (NoDup_app_r _ _ H)).
  - intros x Hx Hc. apply (NoDup_app_not_both _ _ x H Hx). apply in_or_app. right. exact Hc.
Qed.

Lemma nodup_app_incl_r {A} (a k k' : list A) : NoDup (a ++ k) -> NoDup k' -> incl k' k -> NoDup (a ++ k').
Proof.
  intros H Hk Hi. apply NoDup_app_disj; [exact (NoDup_app_l _ _ H) | exact Hk|].
  intros x Hx Hc. apply (NoDup_app_not_both _ _ x H Hx). apply Hi. exact Hc.
Qed.

Lemma keys_app a b : keys (a ++ b) = keys a ++ keys b. Proof. apply map_app. Qed.
