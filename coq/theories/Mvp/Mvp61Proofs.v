(* Simple facts about the cycle-level model of MVP-6.1 (Mvp61.v).
   1. mvp61_cycles: a run that returns reports at least one cycle.  An error raised by an
      instruction inside the flush loop ("Executing previous unit cycles") is returned as
      the error (since the repair 1ed8ef8; before it Run said `return 0, nil` there):
      mvp61_zero_cycles_witness is a concrete program on which this happens with three
      execute units, and which ends with the same "division by zero" with two.
   2. run1_ord_irrelevant: soundness of the ghost flag - a run that ends with the flag
      clear returns the same result for all iteration orders of the stores'
      MemoryChanges maps AND all choices among the matching runners of the map
      pushedRunnersInPreviousCycle (the Go side is deterministic on it).
   3. cu_dispatch_bound1: the control unit never fills the execute bus beyond its buffer
      length, and the number of runners it dispatches in a cycle (the size of
      pushedRunnersInCurrentCycle) is the growth of that buffer: at most busSize = 2
      per cycle whatever the number of execute units. *)
From Coq Require Import ZArith List Bool Lia.
From Maj Require Import Base.Outcome Base.GoInt Base.GoTypes Isa.Spec Isa.Seq.
From Maj Require Import Gen.Latency Gen.RiscTables Gen.Opcodes Comp.Cache Comp.MapFacts Mvp.Mvp12 Mvp.Mvp3 Mvp.Mvp5 Mvp.Mvp60 Mvp.Mvp60Proofs Mvp.Mvp61.
Import ListNotations.
Open Scope Z_scope.


(* [cyc_ge a b r]: a step result that ends Run reports at least a cycles, one that goes on has counted at
   least b *)
Definition cyc_ge (a b : Z) (r : step_res1) : Prop :=
  match r with TDone (MDone c _) _ => a <= c | TDone _ _ => True | TCont s' => b <= t_cycle s' end.

Lemma res_of1_cyc : forall A a b os (o : outcome A) k, (forall x, cyc_ge a b (k x)) -> cyc_ge a b (res_of1 os o k).
Proof. intros A a b os o k H. destruct o; cbn [res_of1 cyc_ge]; auto. Qed.

Lemma finish6_cyc : forall a b m cycle os, a <= cycle -> cyc_ge a b (TDone (finish6 m cycle) os).
Proof.
  intros a b m cycle os Ha. cbn [cyc_ge]. destruct (finish6 m cycle) as [c st| | |] eqn:E; [|exact I..].
  apply finish6_ge in E. lia.
Qed.

Lemma ret_check1_cyc : forall s, cyc_ge (t_cycle s) (t_cycle s) (ret_check1 s).
Proof.
  intros s. unfold ret_check1. destruct (_ && _); [apply finish6_cyc | cbn [cyc_ge t_cycle]]; lia.
Qed.

(* the flush loop never ends Run *)
Lemma flush_advance1_cyc : forall a s k ie from seq pc, cyc_ge a (t_cycle s) (flush_advance1 s k ie from seq pc).
Proof.
  intros. unfold flush_advance1.
  destruct (flush_next _ _ _); [|destruct ie]; cbn [cyc_ge t_cycle]; unfold Flush; lia.
Qed.

Lemma back1_cyc : forall s cycle os m eus o, cyc_ge cycle cycle (back1 s cycle os m eus o).
Proof.
  intros s cycle os m eus o. unfold back1. apply res_of1_cyc. intros [b wus1].
  destruct (o_ret o).
  - match goal with |- cyc_ge _ _ (ret_check1 ?s1) => pose proof (ret_check1_cyc s1) as H end.
    cbn [t_cycle] in H. destruct (ret_check1 _) as [[c st| | |] os'|s']; cbn [cyc_ge] in *; lia.
  - destruct (o_flush o); [cbn [cyc_ge t_cycle]; lia|].
    destruct (is_empty1 _ _ _); [apply finish6_cyc | cbn [cyc_ge t_cycle]]; lia.
Qed.

Lemma cyc_ge_weaken : forall a b a' b' r, a' <= a -> b' <= b -> cyc_ge a b r -> cyc_ge a' b' r.
Proof. intros a b a' b' r Ha Hb. destruct r as [[c st| | |] os|s']; cbn [cyc_ge]; lia. Qed.

(* a step that ends Run reports more cycles than the machine had counted *)
Lemma step1_cyc : forall app labels ord pord s, cyc_ge (t_cycle s + 1) (t_cycle s) (step1 app labels ord pord s).
Proof.
  intros app labels ord pord s. unfold step1.
  destruct (t_mode s).
  - apply res_of1_cyc. intros [os0 m1].
    destruct (eus_main _ _ _ _ _ _) as [os1 re]. destruct re; [|exact I..].
    eapply cyc_ge_weaken; [| |apply back1_cyc]; lia.
  - destruct (eus_drain _ _ _ _ _) as [os1 re]. destruct re; [|exact I..].
    apply res_of1_cyc. intros [b wus1].
    eapply cyc_ge_weaken; [| |apply ret_check1_cyc]; cbn [t_cycle]; lia.
  - destruct (eus_flush _ _ _ _ _ _) as [os1 re]. destruct re; [|exact I..].
    eapply cyc_ge_weaken; [| |apply (flush_advance1_cyc (t_cycle s + 1))]; cbn [t_cycle]; lia.
  - destruct (nth_error (t_wus s) k); [|exact I].
    apply res_of1_cyc. intros x.
    eapply cyc_ge_weaken; [| |apply (flush_advance1_cyc (t_cycle s + 1))]; cbn [t_cycle]; lia.
Qed.

Lemma run1_st_cycles : forall fuel app labels ord pord s c st os,
  run1_st fuel app labels ord pord s = inl (MDone c st, os) -> t_cycle s + 1 <= c.
Proof.
  induction fuel as [|f IH]; intros app labels ord pord s c st os H; simpl in H; try discriminate.
  pose proof (step1_cyc app labels ord pord s) as E.
  destruct (step1 app labels ord pord s) as [r os'|s'].
  - inversion H; subst. exact E.
  - apply IH in H. cbn [cyc_ge] in E. lia.
Qed.

Theorem mvp61_cycles : forall par ord pord fuel app labels st c st',
  mvp61_run par ord pord fuel app labels st = MDone c st' -> 1 <= c.
Proof.
  intros par ord pord fuel app labels st c st' H. unfold mvp61_run in H.
  destruct (mvp61_run_os par ord pord fuel app labels st) as [r os] eqn:E. simpl in H. subst r.
  unfold mvp61_run_os, init1, init6 in E.
  destruct (new_cache l1LineSize l1Size); try discriminate.
  destruct (new_cache l3LineSize l3Size); try discriminate.
  destruct (run1_st _ _ _ _ _ _) as [r|s'] eqn:E2; try discriminate.
  subst r. apply run1_st_cycles in E2. simpl in E2. lia.
Qed.

(* An error inside the flush loop.  a0 = 64:
       lw   t2, 0(a0)      # misses L3: 309 cycles in execute unit 0
       div  t3, t2, zero   # forwarded t2 from the lw: waits for it in execute unit 1
       beqz zero, L1       # taken -> flush request while lw and div are still in their units
       li   t4, 5
   L1: li   t5, 6
       ret
   with three execute units: the flush branch of Run first completes the older instructions; the div then
   raises "division by zero" INSIDE that loop, and Run returns that error (before the repair 1ed8ef8 it
   returned 0 cycles and no error there).  With one or two units the same program ends with the same error
   (the branch is dispatched only after the div). *)
Definition zero_cycles_app : list instr :=
  [I_lw (mk_lw 7 0 10); I_div (mk_div 28 7 0); I_beqz (mk_beqz 0 1); I_li (mk_li 29 5); I_li (mk_li 30 6); I_ret mk_ret].
Definition zero_cycles_labels (l : Z) : option Z := if l =? 1 then Some 16 else None.
Definition zero_cycles_arch : arch := mk_arch (Seq.upd (repeat 0 32) 10 64) (repeat 0 128).

Example mvp61_zero_cycles_witness :
  mvp61_run_os 3 (ord_policy 0) (pord_policy 0) 2000 zero_cycles_app zero_cycles_labels zero_cycles_arch
  = (MErr EDivZero, false)
  /\ mvp61_run_os 2 (ord_policy 0) (pord_policy 0) 2000 zero_cycles_app zero_cycles_labels zero_cycles_arch
     = (MErr EDivZero, false).
Proof. split; vm_compute; reflexivity. Qed.

(*    the same for every iteration order of the stores' maps and every  *)
(*    choice among the matching runners of pushedRunnersInPreviousCycle *)

(* Every function that takes an iteration order returns the ghost flag first.  "Either the flag of the run
   with the first order is set, or the two runs agree" composes along the call tree. *)

Lemma should_forward_ord : forall pord1 pord2 cycle prev hz reads,
  fst (should_forward pord1 cycle prev hz reads) = true \/
  should_forward pord1 cycle prev hz reads = should_forward pord2 cycle prev hz reads.
Proof.
  intros pord1 pord2 cycle prev hz reads. unfold should_forward.
  destruct hz as [|[t r] [|h2 hz]]; try (right; reflexivity).
  destruct (negb (t =? HRaw)); [right; reflexivity|].
  set (cands := flat_map _ prev).
  destruct (zlen cands =? 0) eqn:E0; [right; reflexivity|]. cbn [fst].
  destruct (Z.ltb_spec 1 (zlen cands)) as [H|H]; [left; reflexivity | right].
  (* exactly one candidate: every choice picks it *)
  apply Z.eqb_neq in E0. pose proof (zlen_nonneg cands) as Hn.
  replace (zlen cands) with 1 by lia. rewrite !Z.mod_1_r. reflexivity.
Qed.

(* the ghost component of what handleRunner returns *)
Definition hr_os (x : bool * bool * bool * runner1 * runner1 * mach1) : bool :=
  let '(os, _, _, _, _, _) := x in os.

Lemma handle_runner1_ord : forall pord1 pord2 m cycle pb skipped r,
  hr_os (handle_runner1 pord1 m cycle pb skipped r) = true \/
  handle_runner1 pord1 m cycle pb skipped r = handle_runner1 pord2 m cycle pb skipped r.
Proof.
  intros pord1 pord2 m cycle pb skipped r. unfold handle_runner1.
  destruct (_ && pb); [right; reflexivity|].
  destruct (_ && _); [right; reflexivity|].
  destruct (skipped_hazard _ _ _); [right; reflexivity|].
  destruct (hazards3 _ _ _) as [|h hz]; [right; reflexivity|].
  destruct (should_forward_ord pord1 pord2 cycle (x_prev (y_x m)) (h :: hz) (instr_ReadRegisters (r_instr (r_b r)))) as [Ht|Heq];
    [left | right; rewrite <- Heq; reflexivity].
  destruct (should_forward pord1 _ _ _ _) as [os [[p reg]|]]; cbn [fst] in Ht; subst os; [|reflexivity].
  destruct (push_runner1 _ _ _) as [[pushed obj] m2]. destruct pushed; reflexivity.
Qed.

Definition cp_os (x : bool * bool * list runner1 * bool * list runner1 * list runner1 * mach1) : bool :=
  let '(os, _, _, _, _, _, _) := x in os.

Lemma cu_pending1_ord : forall pord1 pord2 ps kept m cycle pb skipped cur,
  cp_os (cu_pending1 pord1 ps kept m cycle pb skipped cur) = true \/
  cu_pending1 pord1 ps kept m cycle pb skipped cur = cu_pending1 pord2 ps kept m cycle pb skipped cur.
Proof.
  intros pord1 pord2 ps. induction ps as [|r t IH]; intros kept m cycle pb skipped cur; [right; reflexivity|].
  cbn [cu_pending1].
  destruct (handle_runner1_ord pord1 pord2 m cycle pb skipped r) as [Ht|Heq]; [|rewrite <- Heq];
    destruct (handle_runner1 pord1 m cycle pb skipped r) as [[[[[os push] stop] r'] obj] m1];
    destruct (after_push m1 pb push r') as [pb' m2].
  - left. cbn [hr_os] in Ht. subst os. destruct stop; [reflexivity|].
    destruct (cu_pending1 pord1 t _ _ _ _ _ _) as [[[[[[os2 st] q] pb2] sk2] cur2] m3]. reflexivity.
  - destruct stop; [right; reflexivity|].
    match goal with |- context [cu_pending1 pord1 t ?a ?b ?c ?d ?e ?f] => destruct (IH a b c d e f) as [Ht|Heq2] end;
      [left | right; rewrite <- Heq2; reflexivity].
    destruct (cu_pending1 pord1 t _ _ _ _ _ _) as [[[[[[os2 st] q] pb2] sk2] cur2] m3]. cbn [cp_os] in *. subst os2. apply orb_true_r.
Qed.

Definition ci_os (x : bool * list runner1 * list runner1 * list runner1 * mach1) : bool :=
  let '(os, _, _, _, _) := x in os.

Lemma cu_incoming1_ord : forall pord1 pord2 q pend m cycle pb skipped cur,
  ci_os (cu_incoming1 pord1 q pend m cycle pb skipped cur) = true \/
  cu_incoming1 pord1 q pend m cycle pb skipped cur = cu_incoming1 pord2 q pend m cycle pb skipped cur.
Proof.
  intros pord1 pord2 q. induction q as [|r q' IH]; intros pend m cycle pb skipped cur.
  - right. cbn [cu_incoming1]. destruct (pendingLength <=? zlen pend); reflexivity.
  - cbn [cu_incoming1]. destruct (pendingLength <=? zlen pend); [right; reflexivity|].
    destruct (handle_runner1_ord pord1 pord2 m cycle pb skipped r) as [Ht|Heq]; [|rewrite <- Heq];
      destruct (handle_runner1 pord1 m cycle pb skipped r) as [[[[[os push] stop] r'] obj] m1];
      destruct (after_push m1 pb push r') as [pb' m2].
    + left. cbn [hr_os] in Ht. subst os. destruct stop; [reflexivity|].
      destruct (cu_incoming1 pord1 q' _ _ _ _ _ _) as [[[[os2 q2] pend2] cur2] m3]. reflexivity.
    + destruct stop; [right; reflexivity|].
      match goal with |- context [cu_incoming1 pord1 q' ?a ?b ?c ?d ?e ?f] => destruct (IH a b c d e f) as [Ht|Heq2] end;
        [left | right; rewrite <- Heq2; reflexivity].
      destruct (cu_incoming1 pord1 q' _ _ _ _ _ _) as [[[[os2 q2] pend2] cur2] m3]. cbn [ci_os] in *. subst os2. apply orb_true_r.
Qed.

Lemma cu_cycle1_ord : forall pord1 pord2 cycle m,
  fst (cu_cycle1 pord1 cycle m) = true \/ cu_cycle1 pord1 cycle m = cu_cycle1 pord2 cycle m.
Proof.
  intros pord1 pord2 cycle m. unfold cu_cycle1.
  destruct (negb (bb_canadd _)); [right; reflexivity|].
  destruct (cu_pending1_ord pord1 pord2 (x_cu (y_x m)) [] m cycle false [] []) as [Ht|Heq]; [|rewrite <- Heq];
    destruct (cu_pending1 pord1 (x_cu (y_x m)) [] m cycle false [] []) as [[[[[[os1 stopped] pend1] pb1] sk1] cur1] m1].
  - left. cbn [cp_os] in Ht. subst os1. destruct stopped; [reflexivity|].
    destruct (cu_incoming1 pord1 _ _ _ _ _ _ _) as [[[[os2 q'] pend2] cur2] m2]. reflexivity.
  - destruct stopped; [right; reflexivity|].
    destruct (cu_incoming1_ord pord1 pord2 (bb_q (x_cbus (y_x m1))) pend1 m1 cycle pb1 sk1 cur1) as [Ht|Heq2];
      [left | right; rewrite <- Heq2; reflexivity].
    destruct (cu_incoming1 pord1 _ _ _ _ _ _ _) as [[[[os2 q'] pend2] cur2] m2]. cbn [ci_os fst] in *. subst os2. apply orb_true_r.
Qed.

(* the ghost component of what the first half of an iteration returns *)
Definition front_os (o : outcome (bool * mach1)) : bool := match o with Ok (os, _) => os | _ => false end.

Lemma front1_ord : forall app pord1 pord2 cycle m,
  front_os (front1 app pord1 cycle m) = true \/ front1 app pord1 cycle m = front1 app pord2 cycle m.
Proof.
  intros app pord1 pord2 cycle m. unfold front1.
  destruct (fu_cycle6 _ _ _ _ _) as [[[fu1 l1i1] dbus1]| |]; cbn [bind]; try (right; reflexivity).
  destruct (du_cycle1 _ _ _) as [m1| |]; cbn [bind front_os]; try (right; reflexivity).
  destruct (cu_cycle1_ord pord1 pord2 cycle m1) as [Ht|Heq]; [left | right; rewrite <- Heq; reflexivity].
  destruct (cu_cycle1 pord1 cycle m1). exact Ht.
Qed.

Lemma eu_run1_ord : forall labels ord1 ord2 cycle m e,
  ord_ok ord1 -> ord_ok ord2 ->
  fst (eu_run1 labels ord1 cycle m e) = true \/ eu_run1 labels ord1 cycle m e = eu_run1 labels ord2 cycle m e.
Proof.
  intros labels ord1 ord2 cycle m e O1 O2. unfold eu_run1.
  destruct (e_runner (u_e e)) as [r|]; [|right; reflexivity].
  destruct (instr_Run _ _ _ _ _ _) as [exe| |]; try (right; reflexivity).
  destruct (Return exe); [right; reflexivity|]. cbn [fst].
  destruct (MemoryChange exe); [|right; reflexivity]. rewrite !andb_true_l.
  destruct (store_order_matters _ _ _) eqn:Hs; [left; reflexivity | right]. f_equal. f_equal.
  apply l3_same_bind with (r0 := get_from_l3 (m_l3 (y_m m)) (m_pend (y_m m)) (map fst (sort_changes (MemoryChanges exe))) []).
  - apply som_false; auto.
  - apply som_false; auto.
  - intros; reflexivity.
Qed.

Lemma eu_prepare1_ord : forall labels ord1 ord2 cycle m e,
  ord_ok ord1 -> ord_ok ord2 ->
  fst (eu_prepare1 labels ord1 cycle m e) = true \/ eu_prepare1 labels ord1 cycle m e = eu_prepare1 labels ord2 cycle m e.
Proof.
  intros labels ord1 ord2 cycle m e O1 O2. unfold eu_prepare1.
  destruct (negb (bb_canadd _)); [right; reflexivity|].
  destruct (e_runner (u_e e)) as [r|]; [|right; reflexivity].
  destruct (match u_rc e with Some _ => _ | None => _ end) as [[m0 e0]|]; [|right; reflexivity].
  destruct (instr_MemoryRead _ _ _); [|right; reflexivity].
  apply eu_run1_ord; assumption.
Qed.

Lemma eu_cycle1_ord : forall labels ord1 ord2 cycle m e,
  ord_ok ord1 -> ord_ok ord2 ->
  fst (eu_cycle1 labels ord1 cycle m e) = true \/ eu_cycle1 labels ord1 cycle m e = eu_cycle1 labels ord2 cycle m e.
Proof.
  intros labels ord1 ord2 cycle m e O1 O2. unfold eu_cycle1.
  destruct (eu_pre1 e); [right; reflexivity|].
  destruct (e_co (u_e e)).
  - destruct (bb_get _) as [ebus' [r|]]; [|right; reflexivity]. apply eu_prepare1_ord; assumption.
  - apply eu_prepare1_ord; assumption.
  - destruct (0 <? rem); [right; reflexivity|]. apply eu_run1_ord; assumption.
  - destruct (0 <? rem); [right; reflexivity|].
    destruct (eu_fill1 m e addrs) as [[m1 e1]| |]; try (right; reflexivity). apply eu_run1_ord; assumption.
Qed.

(* one unit in a loop over the execute units: [k] is what the loop does with the unit's result *)
Lemma eu_step_ord : forall labels ord1 ord2 cycle m e (k1 k2 : eu_res1 -> bool * eus_res),
  ord_ok ord1 -> ord_ok ord2 ->
  (forall r, fst (k1 (true, r)) = true) ->
  (forall r, fst (k1 (false, r)) = true \/ k1 (false, r) = k2 (false, r)) ->
  fst (k1 (eu_cycle1 labels ord1 cycle m e)) = true \/ k1 (eu_cycle1 labels ord1 cycle m e) = k2 (eu_cycle1 labels ord2 cycle m e).
Proof.
  intros labels ord1 ord2 cycle m e k1 k2 O1 O2 Ht Hf.
  destruct (eu_cycle1_ord labels ord1 ord2 cycle m e O1 O2) as [H|<-]; destruct (eu_cycle1 labels ord1 cycle m e) as [[|] r]; auto; discriminate H.
Qed.

Lemma eus_main_ord : forall labels ord1 ord2 cycle eus m acc,
  ord_ok ord1 -> ord_ok ord2 ->
  fst (eus_main labels ord1 cycle m eus acc) = true \/ eus_main labels ord1 cycle m eus acc = eus_main labels ord2 cycle m eus acc.
Proof.
  intros labels ord1 ord2 cycle eus. induction eus as [|e t IH]; intros m acc O1 O2; [right; reflexivity|].
  cbn [eus_main].
  apply (eu_step_ord labels ord1 ord2 cycle m (eu_sid_set e (o_from acc))
           (fun x => let '(os1, r1) := x in _) (fun x => let '(os1, r1) := x in _) O1 O2).
  - intros [[[m1 e1] p]| |]; try reflexivity. destruct (p_err p); [reflexivity|]. destruct (eus_main labels ord1 cycle m1 t _); reflexivity.
  - intros [[[m1 e1] p]| |]; try (right; reflexivity). destruct (p_err p); [right; reflexivity|].
    match goal with |- context [eus_main labels ord1 cycle m1 t ?a] => destruct (IH m1 a O1 O2) as [Ht|<-] end; [left | right; reflexivity].
    destruct (eus_main labels ord1 cycle m1 t _) as [os2 r]. exact Ht.
Qed.

Lemma eus_drain_ord : forall labels ord1 ord2 cycle eus m,
  ord_ok ord1 -> ord_ok ord2 ->
  fst (eus_drain labels ord1 cycle m eus) = true \/ eus_drain labels ord1 cycle m eus = eus_drain labels ord2 cycle m eus.
Proof.
  intros labels ord1 ord2 cycle eus. induction eus as [|e t IH]; intros m O1 O2; [right; reflexivity|].
  cbn [eus_drain]. destruct (eu_empty1 e).
  - destruct (IH m O1 O2) as [Ht|<-]; [left | right; reflexivity]. destruct (eus_drain labels ord1 cycle m t). exact Ht.
  - apply (eu_step_ord labels ord1 ord2 cycle m e (fun x => let '(os1, r1) := x in _) (fun x => let '(os1, r1) := x in _) O1 O2).
    + intros [[[m1 e1] p]| |]; try reflexivity. destruct (p_err p); [reflexivity|]. destruct (eus_drain labels ord1 cycle m1 t); reflexivity.
    + intros [[[m1 e1] p]| |]; try (right; reflexivity). destruct (p_err p); [right; reflexivity|].
      destruct (IH m1 O1 O2) as [Ht|<-]; [left | right; reflexivity]. destruct (eus_drain labels ord1 cycle m1 t). exact Ht.
Qed.

Lemma eus_flush_ord : forall labels ord1 ord2 cycle eus m acc,
  ord_ok ord1 -> ord_ok ord2 ->
  fst (eus_flush labels ord1 cycle m eus acc) = true \/ eus_flush labels ord1 cycle m eus acc = eus_flush labels ord2 cycle m eus acc.
Proof.
  intros labels ord1 ord2 cycle eus. induction eus as [|e t IH]; intros m acc O1 O2; [right; reflexivity|].
  cbn [eus_flush]. destruct (eu_empty1 e).
  - destruct (IH m acc O1 O2) as [Ht|<-]; [left | right; reflexivity]. destruct (eus_flush labels ord1 cycle m t acc). exact Ht.
  - apply (eu_step_ord labels ord1 ord2 cycle m e (fun x => let '(os1, r1) := x in _) (fun x => let '(os1, r1) := x in _) O1 O2).
    + intros [[[m1 e1] p]| |]; try reflexivity. destruct (p_err p); [reflexivity|]. destruct (eus_flush labels ord1 cycle m1 t _); reflexivity.
    + intros [[[m1 e1] p]| |]; try (right; reflexivity). destruct (p_err p); [right; reflexivity|].
      match goal with |- context [eus_flush labels ord1 cycle m1 t ?a] => destruct (IH m1 a O1 O2) as [Ht|<-] end; [left | right; reflexivity].
      destruct (eus_flush labels ord1 cycle m1 t _). exact Ht.
Qed.

(* the flag a step ends with *)
Definition res_os1 (r : step_res1) : bool := match r with TDone _ os => os | TCont s' => t_os s' end.

Lemma res_of1_os : forall A os (o : outcome A) k,
  (forall x, res_os1 (k x) = os) -> res_os1 (res_of1 os o k) = os.
Proof. intros A os o k H. destruct o; simpl; auto. Qed.

Lemma ret_check1_os : forall s, res_os1 (ret_check1 s) = t_os s.
Proof. intros s. unfold ret_check1. destruct (_ && _); reflexivity. Qed.

Lemma flush_advance1_os : forall s k ie from seq pc, res_os1 (flush_advance1 s k ie from seq pc) = t_os s.
Proof. intros. unfold flush_advance1. destruct (flush_next _ _ _); [|destruct ie]; reflexivity. Qed.

Lemma back1_os : forall s cycle os m eus o, res_os1 (back1 s cycle os m eus o) = os.
Proof.
  intros s cycle os m eus o. unfold back1. apply res_of1_os. intros [b wus1].
  destruct (o_ret o); [apply ret_check1_os|].
  destruct (o_flush o); [reflexivity|].
  destruct (is_empty1 _ _ _); reflexivity.
Qed.

Lemma step1_ord : forall app labels ord1 ord2 pord1 pord2 s,
  ord_ok ord1 -> ord_ok ord2 -> res_os1 (step1 app labels ord1 pord1 s) = false ->
  step1 app labels ord1 pord1 s = step1 app labels ord2 pord2 s /\ t_os s = false.
Proof.
  intros app labels ord1 ord2 pord1 pord2 s O1 O2 H. unfold step1 in *.
  (* in each loop the flag of the step is t_os s || the flags of the calls: all are clear, so the calls agree *)
  destruct (t_mode s).
  - destruct (front1 app pord1 (t_cycle s + 1) (t_m s)) as [[os0 m1]| |] eqn:EF; cbn [res_of1] in H.
    2,3: destruct (front1_ord app pord1 pord2 (t_cycle s + 1) (t_m s)) as [Ht|<-]; rewrite EF in *; [discriminate Ht | auto].
    destruct (eus_main labels ord1 (t_cycle s + 1) m1 (t_eus s) euo_none) as [os1 re] eqn:E1.
    assert (Hor : t_os s || os0 || os1 = false) by (destruct re; [rewrite back1_os in H|..]; exact H).
    apply orb_false_elim in Hor as [Hor Ho1]. apply orb_false_elim in Hor as [Hs Ho0]. split; [|exact Hs].
    destruct (front1_ord app pord1 pord2 (t_cycle s + 1) (t_m s)) as [Ht|<-]; rewrite EF in *; [cbn [front_os] in Ht; congruence|].
    cbn [res_of1].
    destruct (eus_main_ord labels ord1 ord2 (t_cycle s + 1) (t_eus s) m1 euo_none O1 O2) as [Ht|<-]; rewrite E1 in *; [cbn [fst] in Ht; congruence | reflexivity].
  - destruct (eus_drain labels ord1 (t_cycle s) (t_m s) (t_eus s)) as [os1 re] eqn:E1.
    assert (Hor : t_os s || os1 = false).
    { destruct re; [|exact H..]. rewrite res_of1_os in H; [exact H|]. intros [b wus1]. apply ret_check1_os. }
    apply orb_false_elim in Hor as [Hs Ho1]. split; [|exact Hs].
    destruct (eus_drain_ord labels ord1 ord2 (t_cycle s) (t_eus s) (t_m s) O1 O2) as [Ht|<-]; rewrite E1 in *; [cbn [fst] in Ht; congruence | reflexivity].
  - destruct (eus_flush labels ord1 fromCycle (t_m s) (t_eus s) (mk_euo6 true seq pc false)) as [os1 re] eqn:E1.
    assert (Hor : t_os s || os1 = false) by (destruct re; [rewrite flush_advance1_os in H|..]; exact H).
    apply orb_false_elim in Hor as [Hs Ho1]. split; [|exact Hs].
    destruct (eus_flush_ord labels ord1 ord2 fromCycle (t_eus s) (t_m s) (mk_euo6 true seq pc false) O1 O2) as [Ht|<-]; rewrite E1 in *; [cbn [fst] in Ht; congruence | reflexivity].
  - split; [reflexivity|].
    destruct (nth_error (t_wus s) k); [|exact H].
    rewrite res_of1_os in H; auto. intros x. rewrite flush_advance1_os. reflexivity.
Qed.

(* the flag a run ends with *)
Definition final_os1 (r : (mres * bool) + st1) : bool :=
  match r with inl (_, os) => os | inr s' => t_os s' end.

Theorem run1_st_ord_irrelevant : forall fuel app labels ord1 ord2 pord1 pord2 s,
  ord_ok ord1 -> ord_ok ord2 -> final_os1 (run1_st fuel app labels ord1 pord1 s) = false ->
  run1_st fuel app labels ord1 pord1 s = run1_st fuel app labels ord2 pord2 s /\ t_os s = false.
Proof.
  induction fuel as [|f IH]; intros app labels ord1 ord2 pord1 pord2 s O1 O2 H; simpl in *; [auto|].
  destruct (step1 app labels ord1 pord1 s) as [r os|s'] eqn:E.
  - simpl in H. subst os.
    destruct (step1_ord app labels ord1 ord2 pord1 pord2 s O1 O2) as [E2 Hs]; [rewrite E; reflexivity|].
    rewrite <- E2, E. auto.
  - destruct (IH app labels ord1 ord2 pord1 pord2 s' O1 O2 H) as [R Hs'].
    destruct (step1_ord app labels ord1 ord2 pord1 pord2 s O1 O2) as [E2 Hs]; [rewrite E; exact Hs'|].
    rewrite <- E2, E. auto.
Qed.

(* a run of MVP-6.1 that ends with the ghost flag clear returns the same result whatever the iteration
   orders of the stores' MemoryChanges maps (ord) and of pushedRunnersInPreviousCycle (pord): the Go side
   is deterministic on it *)
Theorem run1_ord_irrelevant : forall par fuel app labels st ord1 ord2 pord1 pord2 r,
  ord_ok ord1 -> ord_ok ord2 ->
  mvp61_run_os par ord1 pord1 fuel app labels st = (r, false) ->
  mvp61_run_os par ord2 pord2 fuel app labels st = (r, false).
Proof.
  intros par fuel app labels st ord1 ord2 pord1 pord2 r O1 O2 H. unfold mvp61_run_os in *.
  destruct (init1 par app st) as [s| |]; auto.
  destruct (run1_st_ord_irrelevant fuel app labels ord1 ord2 pord1 pord2 s O1 O2) as [E _].
  - destruct (run1_st fuel app labels ord1 pord1 s) as [[r1 os1]|s1]; inversion H; reflexivity.
  - rewrite <- E. exact H.
Qed.


(* number of entries in the buffer of the execute bus / its bufferLength *)
Definition ebuf1 (m : mach1) : Z := zlen (bb_buf (x_ebus (y_x m))).
Definition ebl1 (m : mach1) : Z := bb_bl (x_ebus (y_x m)).

Lemma push_runner1_spec : forall m cycle r pushed obj m',
  push_runner1 m cycle r = (pushed, obj, m') ->
  ebl1 m' = ebl1 m /\ ebuf1 m' = ebuf1 m + (if pushed then 1 else 0) /\ (pushed = true -> ebuf1 m <> ebl1 m).
Proof.
  intros m cycle r pushed obj m' H. unfold push_runner1 in H.
  destruct (negb (bb_canadd (x_ebus (y_x m)))) eqn:Ec; inversion H; subst.
  - repeat split; try lia; try discriminate.
  - unfold ebl1, ebuf1. cbn. rewrite zlen_app1. repeat split; try lia.
    intros _. apply negb_false_iff in Ec. unfold bb_canadd in Ec. apply negb_true_iff in Ec. now apply Z.eqb_neq in Ec.
Qed.

(* handleRunner: every refusal is a stop; a push adds exactly one entry to a buffer that had room *)
Lemma handle_runner1_spec : forall pord m cycle pb skipped r os push stop r' obj m',
  handle_runner1 pord m cycle pb skipped r = (os, push, stop, r', obj, m') ->
  ebl1 m' = ebl1 m /\ ebuf1 m' = ebuf1 m + (if push then 1 else 0) /\
  (push = true -> ebuf1 m <> ebl1 m) /\ (push = false -> stop = true).
Proof.
  intros pord m cycle pb skipped r os push stop r' obj m' H. unfold handle_runner1 in H.
  destruct (_ && pb) in H; [inversion H; subst; repeat split; try lia; discriminate|].
  destruct (_ && _) in H; [inversion H; subst; repeat split; try lia; discriminate|].
  destruct (skipped_hazard _ _ _) in H; [inversion H; subst; repeat split; try lia; discriminate|].
  destruct (hazards3 _ _ _) as [|h hz].
  - destruct (push_runner1 m cycle r) as [[pushed ob] m1] eqn:E. apply push_runner1_spec in E.
    destruct E as [E1 [E2 E3]].
    destruct pushed; inversion H; subst; repeat split; auto; discriminate.
  - destruct (should_forward _ _ _ _ _) as [os1 [[p reg]|]].
    + match type of H with context [push_runner1 ?mm ?c ?rr] =>
        destruct (push_runner1 mm c rr) as [[pushed ob] m2] eqn:E; apply push_runner1_spec in E;
        assert (ebl1 mm = ebl1 m /\ ebuf1 mm = ebuf1 m) as [F1 F2]
          by (unfold ebl1, ebuf1, set_forwarder; cbn; rewrite zlen_map; auto) end.
      destruct E as [E1 [E2 E3]]. rewrite F1, F2 in *.
      destruct pushed; inversion H; subst; repeat split; auto; discriminate.
    + inversion H; subst; repeat split; try lia; discriminate.
Qed.

Lemma after_push_ebus : forall m pb push r pb' m',
  after_push m pb push r = (pb', m') -> ebl1 m' = ebl1 m /\ ebuf1 m' = ebuf1 m.
Proof.
  intros m pb push r pb' m' H. unfold after_push in H. inversion H; subst.
  destruct (push && InstructionType_IsConditionalBranch _); split; reflexivity.
Qed.

Lemma cu_pending1_spec : forall pord ps kept m cycle pb skipped cur os stopped q pb' sk' cur' m',
  cu_pending1 pord ps kept m cycle pb skipped cur = (os, stopped, q, pb', sk', cur', m') ->
  ebuf1 m <= ebl1 m ->
  ebl1 m' = ebl1 m /\ ebuf1 m <= ebuf1 m' <= ebl1 m /\ zlen cur' - zlen cur = ebuf1 m' - ebuf1 m.
Proof.
  intros pord ps. induction ps as [|r t IH]; intros kept m cycle pb skipped cur os stopped q pb' sk' cur' m' H Hb.
  - cbn in H. inversion H; subst. repeat split; lia.
  - cbn [cu_pending1] in H.
    destruct (handle_runner1 pord m cycle pb skipped r) as [[[[[os1 push] stop] r'] obj] m1] eqn:E.
    apply handle_runner1_spec in E. destruct E as [E1 [E2 [E3 E4]]].
    destruct (after_push m1 pb push r') as [pb1 m2] eqn:EA. apply after_push_ebus in EA. destruct EA as [A1 A2].
    assert (ebuf1 m2 <= ebl1 m2) as Hb2 by (destruct push; [specialize (E3 eq_refl)|]; lia).
    destruct stop.
    + inversion H; subst. destruct push; rewrite ?zlen_app1; repeat split; try lia.
    + destruct push; [|specialize (E4 eq_refl); discriminate].
      match type of H with context [cu_pending1 pord t ?a ?b ?c ?d ?e ?f] =>
        destruct (cu_pending1 pord t a b c d e f) as [[[[[[os2 st] q2] pb2] sk2] cur2] m3] eqn:E5 end.
      inversion H; subst. apply IH in E5; auto. destruct E5 as [B1 [B2 B3]].
      rewrite zlen_app1 in B3. repeat split; lia.
Qed.

Lemma cu_incoming1_spec : forall pord q pend m cycle pb skipped cur os q' pend' cur' m',
  cu_incoming1 pord q pend m cycle pb skipped cur = (os, q', pend', cur', m') ->
  ebuf1 m <= ebl1 m ->
  ebl1 m' = ebl1 m /\ ebuf1 m <= ebuf1 m' <= ebl1 m /\ zlen cur' - zlen cur = ebuf1 m' - ebuf1 m.
Proof.
  intros pord q. induction q as [|r t IH]; intros pend m cycle pb skipped cur os q' pend' cur' m' H Hb.
  - cbn in H. destruct (pendingLength <=? zlen pend); inversion H; subst; repeat split; lia.
  - cbn [cu_incoming1] in H. destruct (pendingLength <=? zlen pend); [inversion H; subst; repeat split; lia|].
    destruct (handle_runner1 pord m cycle pb skipped r) as [[[[[os1 push] stop] r'] obj] m1] eqn:E.
    apply handle_runner1_spec in E. destruct E as [E1 [E2 [E3 E4]]].
    destruct (after_push m1 pb push r') as [pb1 m2] eqn:EA. apply after_push_ebus in EA. destruct EA as [A1 A2].
    assert (ebuf1 m2 <= ebl1 m2) as Hb2 by (destruct push; [specialize (E3 eq_refl)|]; lia).
    destruct stop.
    + inversion H; subst. destruct push; rewrite ?zlen_app1; repeat split; try lia.
    + destruct push; [|specialize (E4 eq_refl); discriminate].
      match type of H with context [cu_incoming1 pord t ?a ?b ?c ?d ?e ?f] =>
        destruct (cu_incoming1 pord t a b c d e f) as [[[[os2 q2] pend2] cur2] m3] eqn:E5 end.
      inversion H; subst. apply IH in E5; auto. destruct E5 as [B1 [B2 B3]].
      rewrite zlen_app1 in B3. repeat split; lia.
Qed.

(* controlUnit.cycle keeps the execute bus within its buffer length; the number of runners it dispatches
   (the size of the map pushedRunnersInCurrentCycle, which becomes pushedRunnersInPreviousCycle) is the
   growth of that buffer *)
Theorem cu_dispatch_bound1 : forall pord cycle m,
  ebuf1 m <= ebl1 m ->
  let m' := snd (cu_cycle1 pord cycle m) in
  ebl1 m' = ebl1 m /\ ebuf1 m <= ebuf1 m' <= ebl1 m /\ zlen (x_prev (y_x m')) = ebuf1 m' - ebuf1 m.
Proof.
  intros pord cycle m Hb. unfold cu_cycle1.
  destruct (negb (bb_canadd _)).
  { unfold ebl1, ebuf1 in *. cbn [snd y_x set_x xs_prev x_ebus x_prev]. change (zlen (@nil runner1)) with 0.
    repeat split; lia. }
  destruct (cu_pending1 pord (x_cu (y_x m)) [] m cycle false [] []) as [[[[[[os1 stopped] pend1] pb1] sk1] cur1] m1] eqn:E1.
  apply cu_pending1_spec in E1; auto. destruct E1 as [A1 [A2 A3]]. cbn in A3.
  destruct stopped.
  - cbn. unfold ebl1, ebuf1 in *. cbn. repeat split; lia.
  - destruct (cu_incoming1 pord _ pend1 m1 cycle pb1 sk1 cur1) as [[[[os2 q'] pend2] cur2] m2] eqn:E2.
    apply cu_incoming1_spec in E2; try lia. destruct E2 as [B1 [B2 B3]].
    cbn. unfold ebl1, ebuf1 in *. cbn. repeat split; lia.
Qed.

(* hence at most bufferLength instructions are dispatched per cycle: busSize = 2 in NewCPU, whatever the
   number of execute units *)
Corollary cu_dispatch_le_buslen1 : forall pord cycle m,
  ebuf1 m <= ebl1 m -> zlen (x_prev (y_x (snd (cu_cycle1 pord cycle m)))) <= ebl1 m.
Proof.
  intros pord cycle m Hb. destruct (cu_dispatch_bound1 pord cycle m Hb) as [_ [H1 H2]].
  pose proof (zlen_nonneg (bb_buf (x_ebus (y_x m)))). unfold ebuf1 in *. lia.
Qed.

Print Assumptions mvp61_cycles.
Print Assumptions mvp61_zero_cycles_witness.
Print Assumptions run1_ord_irrelevant.
Print Assumptions cu_dispatch_bound1.
