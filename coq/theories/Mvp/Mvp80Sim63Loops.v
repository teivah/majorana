(* Lock-step simulation MVP-8.0 / MVP-6.3 on programs without loads and stores, continued: control unit, front half
   of a tick, snoops, the main loop over the execute units under the conditions of Mvp80Sim63Defs.v threaded along
   the loop (main_cond), and the end of Run. *)
From Coq Require Import ZArith List Bool Lia.
From Maj Require Import Base.Outcome Base.GoInt Base.GoTypes Isa.Spec Isa.Seq.
From Maj Require Import Gen.Latency Gen.RiscTables Gen.Opcodes Comp.Cache Comp.Rat Mvp.Mvp12 Mvp.Mvp3 Mvp.Mvp5 Mvp.Mvp60 Mvp.Mvp63 Mvp.Mvp80.
From Maj Require Import Mvp.Mvp60Proofs Mvp.Mvp63Proofs Mvp.Mvp63Class Mvp.Mvp80Proofs Mvp.Mvp80RegOnly Mvp.Mvp80RegOnly63 Mvp.Mvp80Sim63Defs.
Import ListNotations.
Open Scope Z_scope.

(* controlUnit.cycle with a fresh copy of the MSI states is the control unit of MVP-6.3 *)
Lemma cu_cycle_sim : forall ord cycle y, k_stale (y_msi y) = false ->
  y_x (cu_cycle8 ord cycle y) = cu_cycle3 ord cycle (y_x y).
Proof. intros ord cycle y H. unfold cu_cycle8. rewrite H. reflexivity. Qed.

Definition lift_y (o : outcome my) : outcome mx :=
  match o with Ok y => Ok (y_x y) | Err e => Err e | Panic => Panic end.

(* the four Connect calls, fetch, decode, control *)
Lemma front_sim : forall app ord cycle y, k_stale (y_msi y) = false ->
  front3 app ord cycle (y_x y) = lift_y (front8 app ord cycle y).
Proof.
  intros app ord cycle y H. unfold front3, front8. cbv zeta.
  destruct (fu_cycle6 _ _ _ _ _) as [[[fu1 l1i1] dbus1]|er|]; [|reflexivity|reflexivity].
  cbn [bind]. destruct (du_cycle3 _ _ _) as [x1|er|]; [|reflexivity|reflexivity].
  cbn [bind lift_y]. rewrite cu_cycle_sim by exact H. reflexivity.
Qed.

(* the snoop coroutines of an idle memory system leave the pipeline state alone *)
Lemma snoops_x : forall y, y_x (or_os8 (set_ccs (put_mw y (mw_of y)) (y_ccs y)) false) = y_x y.
Proof.
  intros [[m eb pe pr pcb sq cr tr fw ch nx os] k cp pf cs]. destruct m.
  destruct os; reflexivity.
Qed.

Section Loops.
  Variables (mem0 : list Z) (c3 : cache) (k0 : msi8) (ccs0 : list cc8).
  Hypothesis Hccs : Forall cc_idle ccs0.
  Hypothesis Hcmds : k_cmds k0 = [].
  Notation INV := (INV mem0 c3 k0 ccs0).

  Lemma snoops_sim : forall ord cycle y, INV y -> exists y', snoops8 ord cycle y = Ok y' /\ y_x y' = y_x y /\ INV y'.
  Proof.
    intros ord cycle y HI. eexists. split; [apply (snoops8_idle mem0 c3 k0 ccs0 Hcmds Hccs); exact HI|].
    split; [apply snoops_x|].
    eapply (snoops8_inv mem0 c3 k0 ccs0 Hcmds Hccs ord cycle); [|exact HI].
    apply (snoops8_idle mem0 c3 k0 ccs0 Hcmds Hccs). exact HI.
  Qed.

  (* the conditions of Mvp80Sim63Defs.v at every call of executeUnit.Cycle of the main loop of one tick *)
  Fixpoint main_cond (labels : Z -> option Z) (ord : Z -> Z -> list Z -> list Z) (cycle : Z) (y : my) (i : nat)
           (eus : list eu8) (acc : eu_out3) : Prop :=
    match eus with
    | [] => True
    | e :: t =>
        eu_cond y (set_hseq e (y_seq acc)) /\
        forall y1 e1 o, eu_cycle8 labels ord cycle y i (set_hseq e (y_seq acc)) = Ok (y1, e1, o) -> y_err o = None ->
                        main_cond labels ord cycle y1 (S i) t (acc_next acc o)
    end.

  Definition lift_eus {A} (o : outcome (my * list eu8 * A)) : outcome (mx * list eu3 * A) :=
    match o with Ok (y', eus', a) => Ok (y_x y', map eu_of eus', a) | Err e => Err e | Panic => Panic end.

  Lemma eus_main_sim : forall labels ord cycle eus y i acc,
    INV y -> Forall EU eus -> (i + length eus <= length ccs0)%nat -> main_cond labels ord cycle y i eus acc ->
    eus_main3 labels ord cycle (y_x y) (map eu_of eus) acc = (false, lift_eus (eus_main8 labels ord cycle y i eus acc)).
  Proof.
    intros labels ord cycle. induction eus as [|e t IH]; intros y i acc HI HE Hi HC; [reflexivity|].
    cbn [map eus_main3 eus_main8]. cbn [length] in Hi. destruct HC as [HC1 HC2].
    inversion HE as [|? ? HE1 HET]; subst.
    change (mk_eu3 (g_co (eu_of e)) (g_memory (eu_of e)) (g_runner (eu_of e)) (y_seq acc)) with (eu_of (set_hseq e (y_seq acc))).
    rewrite (eu_cycle_sim mem0 c3 k0 ccs0 Hccs labels ord cycle y i (set_hseq e (y_seq acc)) HI HE1) by (lia || exact HC1).
    destruct (eu_cycle8 labels ord cycle y i (set_hseq e (y_seq acc))) as [[[y1 e1] o]|er|] eqn:E1;
      [|reflexivity|reflexivity].
    cbn [lift8 bind].
    destruct (eu_cycle8_inv mem0 c3 k0 ccs0 Hccs _ _ _ _ _ _ _ _ _ E1 HI HE1) as [HI1 HE1'].
    destruct (y_err o) eqn:EO; [reflexivity|].
    cbv zeta. fold (acc_next acc o).
    rewrite (IH y1 (S i) (acc_next acc o) HI1 HET) by (lia || exact (HC2 y1 e1 o eq_refl EO)).
    destruct (eus_main8 labels ord cycle y1 (S i) t (acc_next acc o)) as [[[y2 t'] a2]|er|]; reflexivity.
  Qed.
End Loops.

(* The end of Run: finish8 one tick later against finish3, on an idle memory system.  The RAT value maps are ranged
   over with ord at DIFFERENT cycles in the two variants (ord cycle (-1) vs ord (cycle + 1) (-1)): the equality of
   the flushed registers is an explicit hypothesis here (it holds when the alias tables are well formed and hold no
   negative key: RK_fin of Mvp80SimSsa.v, from fin_indep of Mvp70Sim63Proofs.v). *)
Lemma put_mw_x : forall y, y_x (put_mw y (mw_of y)) = y_x y.
Proof. intros [[m eb pe pr pcb sq cr tr fw ch nx os] k cp pf cs]. destruct m. reflexivity. Qed.

Lemma finish_sim : forall mem0 c3 k0 ccs0 ord y cycle,
  Forall cc_idle ccs0 -> lines c3 = [] -> INV mem0 c3 k0 ccs0 y ->
  rat_flush3 ord (cycle + 1) (rat_commit3 ord (cycle + 1) (y_x y)) = rat_flush3 ord cycle (rat_commit3 ord cycle (y_x y)) ->
  finish8 ord y (cycle + 1) = plus_one_cycle (finish3 ord (y_x y) cycle).
Proof.
  intros mem0 c3 k0 ccs0 ord y cycle Hccs Hl3 HI HR.
  rewrite (finish8_idle mem0 c3 k0 ccs0 Hccs Hl3 ord y (cycle + 1) HI).
  destruct HI as (I1 & I2 & (P1 & P2 & _)).
  unfold finish3. rewrite P2, Hl3. cbn [flush_lines plus_one_cycle]. rewrite P1, put_mw_x, HR.
  f_equal. lia.
Qed.

Print Assumptions front_sim.
Print Assumptions snoops_sim.
Print Assumptions eus_main_sim.
Print Assumptions finish_sim.
