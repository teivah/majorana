(* Soundness of the ghost flag of the model of MVP-8.0: the iteration order of the request map of coSnoop
   (map (d) of Mvp80.v).  Under every order function coSnoop iterates over a permutation of the requests addressed to
   the core; two permutations create the same closures in permuted order, or both panic; the ghost condition is a
   property of the set of requests; the completion callbacks of two commands commute up to msi_equiv (k_done is only
   tested for membership, k_l3lock and k_l3write only read with aget). *)
From Coq Require Import ZArith List Bool Lia Permutation.
From Maj Require Import Base.Outcome Base.GoInt Base.GoTypes Isa.Spec Isa.Seq.
From Maj Require Import Gen.Latency Gen.RiscTables Gen.Opcodes Comp.Cache Comp.Rat Comp.RatProofs Mvp.Mvp12 Mvp.Mvp3 Mvp.Mvp5 Mvp.Mvp60 Mvp.Mvp63 Mvp.Mvp80.
Import ListNotations.
Open Scope Z_scope.

Definition snoop_sorted (order : list Z) (reqs : list (cmdk * Z)) : list (cmdk * Z) :=
  flat_map (fun cid => filter (fun kc => snd kc =? cid) reqs) order.

Lemma filter_snd_notin : forall (reqs : list (cmdk * Z)) (cid : Z),
  ~ In cid (map snd reqs) -> filter (fun kc => snd kc =? cid) reqs = [].
Proof.
  induction reqs as [|[k c] t IH]; intros cid H; [reflexivity|]. cbn [filter snd map] in *.
  destruct (c =? cid) eqn:E.
  - apply Z.eqb_eq in E. subst. exfalso. apply H. left. reflexivity.
  - apply IH. intros C. apply H. right. exact C.
Qed.

Lemma snoop_sorted_id : forall (reqs : list (cmdk * Z)), NoDup (map snd reqs) -> snoop_sorted (map snd reqs) reqs = reqs.
Proof.
  intros reqs. unfold snoop_sorted.
  assert (G : forall (pre l : list (cmdk * Z)), NoDup (map snd (pre ++ l)) ->
              flat_map (fun cid => filter (fun kc => snd kc =? cid) (pre ++ l)) (map snd l) = l).
  { intros pre l. revert pre. induction l as [|[k c] t IH]; intros pre N; [reflexivity|].
    cbn [map snd flat_map].
    assert (F : filter (fun kc => snd kc =? c) (pre ++ (k, c) :: t) = [(k, c)]).
    { rewrite filter_app. cbn [filter snd]. rewrite Z.eqb_refl.
      rewrite map_app in N. cbn [map snd] in N. apply NoDup_remove_2 in N.
      rewrite (filter_snd_notin pre), (filter_snd_notin t); [reflexivity| |];
        intros C; apply N; apply in_or_app; [right|left]; exact C. }
    rewrite F. cbn [app]. f_equal.
    specialize (IH (pre ++ [(k, c)])). rewrite <- app_assoc in IH. cbn [app] in IH. apply IH. exact N. }
  intros N. apply (G [] reqs). exact N.
Qed.

Lemma snoop_sorted_perm_order : forall reqs o1 o2, Permutation o1 o2 -> Permutation (snoop_sorted o1 reqs) (snoop_sorted o2 reqs).
Proof.
  intros reqs o1 o2 P. unfold snoop_sorted. induction P; cbn [flat_map].
  - constructor.
  - apply Permutation_app_head. exact IHP.
  - rewrite !app_assoc. apply Permutation_app_tail. apply Permutation_app_comm.
  - eapply Permutation_trans; eauto.
Qed.

(* the list coSnoop iterates over, whatever the order function *)
Theorem snoop_sorted_perm : forall ord cycle pc reqs, NoDup (map snd reqs) ->
  Permutation (snoop_sorted (map_order ord cycle pc (map snd reqs)) reqs) reqs.
Proof.
  intros ord cycle pc reqs N. unfold map_order.
  eapply Permutation_trans.
  - apply snoop_sorted_perm_order. apply iter_order_perm. exact N.
  - rewrite snoop_sorted_id by exact N. apply Permutation_refl.
Qed.

(* sn_create: the directory only gets its staleState flag set, the controller only a new closure *)
Definition sn_closure (key : cmdk) (cid : Z) : option snoop_cl :=
  if ck_req key =? rq_l1Evict then Some (SnL1Evict key cid)
  else if ck_req key =? rq_l3Evict then Some (SnL3Evict key cid)
  else if ck_req key =? rq_l1WriteBack then Some (SnL1WriteBack key cid L3Access MemoryAccess L3Access)
  else if ck_req key =? rq_l3WriteBack then Some (SnL3WriteBack key cid MemoryAccess)
  else None.

Definition is_l1_req (key : cmdk) : bool := (ck_req key =? rq_l1Evict) || (ck_req key =? rq_l1WriteBack).

(* does the body of the loop of coSnoop accept this request in directory k (no panic)? *)
Definition sn_accepts (k : msi8) (id : Z) (key : cmdk) : bool :=
  if ck_req key =? rq_l1Evict then st_get k id (ck_addr key) =? st_shared
  else if ck_req key =? rq_l3Evict then true
  else if ck_req key =? rq_l1WriteBack then st_get k id (ck_addr key) =? st_modified
  else ck_req key =? rq_l3WriteBack.

Definition set_stale_true (k : msi8) : msi8 := set_states k (k_states k) true.

Lemma set_stale_true_idem : forall k, set_stale_true (set_stale_true k) = set_stale_true k.
Proof. reflexivity. Qed.

Lemma st_get_stale : forall k id a, st_get (set_stale_true k) id a = st_get k id a.
Proof. reflexivity. Qed.

Lemma sn_accepts_stale : forall k id key, sn_accepts (set_stale_true k) id key = sn_accepts k id key.
Proof. reflexivity. Qed.

Lemma sn_create_spec : forall w c key cid,
  sn_create w c key cid =
  if sn_accepts (w_msi w) (c_id c) key then
    match sn_closure key cid with
    | Some cl => Ok (if is_l1_req key then set_wmsi w (set_stale_true (w_msi w)) else w, set_snoop c (c_snoop c ++ [cl]))
    | None => Panic
    end
  else Panic.
Proof.
  intros w c key cid. unfold sn_create, sn_accepts, sn_closure, is_l1_req, set_stale_true.
  destruct (ck_req key =? rq_l1Evict) eqn:E1.
  - destruct (st_get _ _ _ =? st_shared); reflexivity.
  - destruct (ck_req key =? rq_l3Evict) eqn:E2; [apply Z.eqb_eq in E2; rewrite E2; reflexivity|].
    destruct (ck_req key =? rq_l1WriteBack) eqn:E3.
    + destruct (st_get _ _ _ =? st_modified); reflexivity.
    + destruct (ck_req key =? rq_l3WriteBack) eqn:E4; reflexivity.
Qed.

(* the result of the whole loop in closed form *)
Definition stale_if (b : bool) (w : mw) : mw := if b then set_wmsi w (set_stale_true (w_msi w)) else w.

Definition closures_of (l : list (cmdk * Z)) : list snoop_cl :=
  flat_map (fun kc => match sn_closure (fst kc) (snd kc) with Some cl => [cl] | None => [] end) l.

Definition all_accepted (k : msi8) (id : Z) (l : list (cmdk * Z)) : bool :=
  forallb (fun kc => sn_accepts k id (fst kc) && match sn_closure (fst kc) (snd kc) with Some _ => true | None => false end) l.

Lemma stale_if_msi_accepts : forall b w id key, sn_accepts (w_msi (stale_if b w)) id key = sn_accepts (w_msi w) id key.
Proof. intros [|] w id key; reflexivity. Qed.

Lemma stale_if_or : forall a b w, stale_if a (stale_if b w) = stale_if (b || a) w.
Proof. intros [|] [|] w; reflexivity. Qed.

Lemma all_accepted_stale_if : forall b w id t, all_accepted (w_msi (stale_if b w)) id t = all_accepted (w_msi w) id t.
Proof.
  intros b w id t. unfold all_accepted. induction t as [|kc t' IHt]; [reflexivity|].
  cbn [forallb]. rewrite stale_if_msi_accepts, IHt. reflexivity.
Qed.

Lemma sn_create_all_spec : forall l w c,
  sn_create_all w c l =
  if all_accepted (w_msi w) (c_id c) l
  then Ok (stale_if (existsb (fun kc => is_l1_req (fst kc)) l) w, set_snoop c (c_snoop c ++ closures_of l))
  else Panic.
Proof.
  induction l as [|[key cid] t IH]; intros w c.
  - cbn [sn_create_all all_accepted forallb existsb closures_of flat_map stale_if]. rewrite app_nil_r.
    destruct c; reflexivity.
  - cbn [sn_create_all all_accepted forallb existsb closures_of flat_map fst snd].
    rewrite sn_create_spec.
    destruct (sn_accepts (w_msi w) (c_id c) key) eqn:EA; cbn [andb bind]; [|reflexivity].
    destruct (sn_closure key cid) as [cl|] eqn:EC; cbn [bind]; [|reflexivity].
    cbn [fst snd]. rewrite IH. cbn [c_id set_snoop c_snoop].
    fold (stale_if (is_l1_req key) w).
    assert (AA : all_accepted (w_msi (stale_if (is_l1_req key) w)) (c_id c) t = all_accepted (w_msi w) (c_id c) t).
    { apply all_accepted_stale_if. }
    rewrite AA. fold (all_accepted (w_msi w) (c_id c) t).
    destruct (all_accepted (w_msi w) (c_id c) t); [|reflexivity].
    rewrite stale_if_or. rewrite <- app_assoc. reflexivity.
Qed.

Lemma forallb_perm : forall A (f : A -> bool) l1 l2, Permutation l1 l2 -> forallb f l1 = forallb f l2.
Proof.
  intros A f l1 l2 P. induction P; cbn [forallb]; try congruence.
  - destruct (f x), (f y); reflexivity.
Qed.

Lemma existsb_perm : forall A (f : A -> bool) l1 l2, Permutation l1 l2 -> existsb f l1 = existsb f l2.
Proof.
  intros A f l1 l2 P. induction P; cbn [existsb]; try congruence.
  - destruct (f x), (f y); reflexivity.
Qed.

Lemma closures_of_perm : forall l1 l2, Permutation l1 l2 -> Permutation (closures_of l1) (closures_of l2).
Proof.
  intros l1 l2 P. unfold closures_of. induction P; cbn [flat_map].
  - constructor.
  - apply Permutation_app_head. exact IHP.
  - rewrite !app_assoc. apply Permutation_app_tail. apply Permutation_app_comm.
  - eapply Permutation_trans; eauto.
Qed.

(* two controllers that only differ by a permutation of their snoop closures *)
Definition cc_perm (c1 c2 : cc8) : Prop :=
  c_id c1 = c_id c2 /\ c_l1d c1 = c_l1d c2 /\ c_read c1 = c_read c2 /\ c_write c1 = c_write c2 /\
  Permutation (c_snoop c1) (c_snoop c2) /\ c_rsems c1 = c_rsems c2 /\ c_wsems c1 = c_wsems c2 /\ c_post c1 = c_post c2.

Lemma cc_perm_refl : forall c, cc_perm c c.
Proof. intros c. unfold cc_perm. repeat split; reflexivity. Qed.

Lemma cc_perm_sym : forall c1 c2, cc_perm c1 c2 -> cc_perm c2 c1.
Proof.
  intros c1 c2 (A & B & C & D & E & F & G & H). unfold cc_perm.
  repeat split; try (symmetry; assumption).
Qed.

Lemma cc_perm_trans : forall c1 c2 c3, cc_perm c1 c2 -> cc_perm c2 c3 -> cc_perm c1 c3.
Proof.
  intros c1 c2 c3 (A & B & C & D & E & F & G & H) (A' & B' & C' & D' & E' & F' & G' & H'). unfold cc_perm.
  repeat split; try congruence. eapply Permutation_trans; eassumption.
Qed.

(* iterating over two permutations of the requests: both panic, or the same directory and controllers that differ
   by the order of the new closures *)
Theorem sn_create_all_perm : forall l1 l2 w c, Permutation l1 l2 ->
  match sn_create_all w c l1, sn_create_all w c l2 with
  | Ok (w1, c1), Ok (w2, c2) => w1 = w2 /\ cc_perm c1 c2
  | Panic, Panic => True
  | _, _ => False
  end.
Proof.
  intros l1 l2 w c P. rewrite !sn_create_all_spec.
  unfold all_accepted. rewrite (forallb_perm _ _ l1 l2 P).
  destruct (forallb _ l2); [|exact I].
  rewrite (existsb_perm _ _ l1 l2 P). split; [reflexivity|].
  unfold cc_perm. cbn [c_id c_l1d c_read c_write c_snoop c_rsems c_wsems c_post set_snoop].
  repeat split; try reflexivity.
  apply Permutation_app_head. apply closures_of_perm. exact P.
Qed.

Lemma sn_conflict_sym : forall a b, sn_conflict a b = sn_conflict b a.
Proof.
  intros a b. unfold sn_conflict.
  rewrite (orb_comm (ck_req a =? rq_l1Evict)).
  destruct ((ck_req b =? rq_l1Evict) || (ck_req a =? rq_l1Evict)); [reflexivity|].
  rewrite (andb_comm (ck_req a =? rq_l1WriteBack)).
  rewrite (Z.eqb_sym (l3_align (ck_addr a))). reflexivity.
Qed.

(* no two requests of the list conflict *)
Definition no_conflict_pairs (l : list cmdk) : Prop := ForallOrdPairs (fun a b => sn_conflict a b = false) l.

Lemma snoop_order_matters_pairs : forall l, snoop_order_matters l = false <-> no_conflict_pairs l.
Proof.
  induction l as [|a t IH]; cbn [snoop_order_matters].
  - split; [constructor | reflexivity].
  - rewrite orb_false_iff, IH. split.
    + intros [H1 H2]. constructor; [|exact H2].
      apply Forall_forall. intros b Hb.
      destruct (sn_conflict a b) eqn:E; [|reflexivity].
      assert (existsb (sn_conflict a) t = true) by (apply existsb_exists; exists b; auto). congruence.
    + intros H. inversion H as [|? ? H1 H2]; subst. split; [|exact H2].
      destruct (existsb (sn_conflict a) t) eqn:E; [|reflexivity].
      apply existsb_exists in E. destruct E as [b [Hb Hc]].
      rewrite Forall_forall in H1. rewrite (H1 b Hb) in Hc. discriminate.
Qed.

(* a symmetric relation that holds of every ordered pair of a list holds of every ordered pair of its permutations *)
Lemma ForallOrdPairs_perm : forall A (R : A -> A -> Prop) l1 l2,
  (forall a b, R a b -> R b a) -> Permutation l1 l2 -> ForallOrdPairs R l1 -> ForallOrdPairs R l2.
Proof.
  intros A R l1 l2 S P. induction P; intros H.
  - constructor.
  - inversion H as [|? ? H1 H2]; subst. constructor; [|apply IHP; exact H2].
    eapply Permutation_Forall; eauto.
  - inversion H as [|? ? H1 H2]; subst. inversion H2 as [|? ? H3 H4]; subst.
    inversion H1 as [|? ? H5 H6]; subst.
    constructor; [constructor; [apply S; exact H5 | exact H3]|].
    constructor; [exact H6 | exact H4].
  - auto.
Qed.

Lemma no_conflict_pairs_perm : forall l1 l2, Permutation l1 l2 -> no_conflict_pairs l1 -> no_conflict_pairs l2.
Proof. intros l1 l2 P. apply ForallOrdPairs_perm; [|exact P]. intros a b H. rewrite sn_conflict_sym. exact H. Qed.

(* the ghost condition of a coSnoop call is a property of the SET of requests *)
Theorem snoop_order_clear_perm : forall l1 l2, Permutation l1 l2 ->
  snoop_order_matters l1 = false -> snoop_order_matters l2 = false.
Proof.
  intros l1 l2 P H. apply snoop_order_matters_pairs. apply (no_conflict_pairs_perm l1 l2 P).
  apply snoop_order_matters_pairs. exact H.
Qed.

(* two directories that only differ in the representation of three lists that the model uses as a set (k_done, tested
   with memZ in cmd_isdone) or as maps (k_l3lock, k_l3write, read with aget) *)
Definition msi_equiv (k1 k2 : msi8) : Prop :=
  k_sems k1 = k_sems k2 /\ k_states k1 = k_states k2 /\ k_stale k1 = k_stale k2 /\ k_cmds k1 = k_cmds k2 /\
  k_next k1 = k_next k2 /\
  (forall cid, memZ cid (k_done k1) = memZ cid (k_done k2)) /\
  (forall a, aget a (k_l3lock k1) = aget a (k_l3lock k2)) /\
  (forall a, aget a (k_l3write k1) = aget a (k_l3write k2)).

Lemma msi_equiv_refl : forall k, msi_equiv k k.
Proof. intros k. unfold msi_equiv. repeat split; reflexivity. Qed.

Lemma msi_equiv_sym : forall k1 k2, msi_equiv k1 k2 -> msi_equiv k2 k1.
Proof. intros k1 k2 (A & B & C & D & E & F & G & H). unfold msi_equiv. repeat split; auto. Qed.

Lemma msi_equiv_trans : forall k1 k2 k3, msi_equiv k1 k2 -> msi_equiv k2 k3 -> msi_equiv k1 k3.
Proof.
  intros k1 k2 k3 (A & B & C & D & E & F & G & H) (A' & B' & C' & D' & E' & F' & G' & H').
  unfold msi_equiv. split; [congruence|]. split; [congruence|]. split; [congruence|]. split; [congruence|]. split; [congruence|].
  split; [intros; rewrite F; auto|]. split; [intros; rewrite G; auto | intros; rewrite H; auto].
Qed.

(* what the model observes of a directory is invariant *)
Lemma cmd_isdone_equiv : forall k1 k2 cid, msi_equiv k1 k2 -> cmd_isdone k1 cid = cmd_isdone k2 cid.
Proof. intros k1 k2 cid (_ & _ & _ & _ & _ & F & _ & _). apply F. Qed.

Lemma l3_locked_equiv : forall k1 k2 a, msi_equiv k1 k2 -> l3_locked k1 a = l3_locked k2 a.
Proof. intros k1 k2 a (_ & _ & _ & _ & _ & _ & G & _). unfold l3_locked. rewrite G. reflexivity. Qed.

Lemma st_get_equiv : forall k1 k2 id a, msi_equiv k1 k2 -> st_get k1 id a = st_get k2 id a.
Proof. intros k1 k2 id a (_ & B & _). unfold st_get. rewrite B. reflexivity. Qed.

Lemma sem_get_equiv : forall k1 k2 a, msi_equiv k1 k2 -> sem_get k1 a = sem_get k2 a.
Proof. intros k1 k2 a (A & _). unfold sem_get. rewrite A. reflexivity. Qed.

Lemma zz_eqb_eq : forall a b, zz_eqb a b = true <-> a = b.
Proof.
  intros [a1 a2] [b1 b2]. unfold zz_eqb. cbn [fst snd]. rewrite andb_true_iff, !Z.eqb_eq.
  split; [intros [-> ->]; reflexivity | intros E; inversion E; auto].
Qed.

Lemma zz_eqb_false : forall a b, zz_eqb a b = false <-> a <> b.
Proof.
  intros a b. split.
  - intros H E. apply zz_eqb_eq in E. congruence.
  - intros H. destruct (zz_eqb a b) eqn:E; [|reflexivity]. apply zz_eqb_eq in E. contradiction.
Qed.

(* setting two entries that exist (the lines of two snoop commands: states[..] = invalid) commutes; an entry that
   does not exist would be appended, and the order of k_states is the order in which msi_requests creates commands *)
Lemma pset_zz_comm : forall (m : list ((Z * Z) * Z)) k1 k2 v,
  pget zz_eqb k1 m <> None -> pget zz_eqb k2 m <> None ->
  pset zz_eqb k1 v (pset zz_eqb k2 v m) = pset zz_eqb k2 v (pset zz_eqb k1 v m).
Proof.
  induction m as [|[k' v'] t IH]; intros k1 k2 v P1 P2; [exfalso; apply P1; reflexivity|].
  cbn [pget pset] in *.
  destruct (zz_eqb k1 k') eqn:E1, (zz_eqb k2 k') eqn:E2; cbn [pset].
  - apply zz_eqb_eq in E1. apply zz_eqb_eq in E2. subst.
    assert (R : zz_eqb k' k' = true) by (apply zz_eqb_eq; reflexivity). rewrite R. reflexivity.
  - rewrite E1. apply zz_eqb_eq in E1. subst k'.
    rewrite E2. reflexivity.
  - rewrite E2. apply zz_eqb_eq in E2. subst k'.
    rewrite E1. reflexivity.
  - rewrite E1, E2. f_equal. apply IH; assumption.
Qed.

Lemma pdel_comm : forall (m : list (cmdk * Z)) a b, pdel ck_eqb a (pdel ck_eqb b m) = pdel ck_eqb b (pdel ck_eqb a m).
Proof.
  intros m a b. unfold pdel. induction m as [|x t IH]; [reflexivity|]. cbn [filter].
  destruct (negb (ck_eqb b (fst x))) eqn:Eb, (negb (ck_eqb a (fst x))) eqn:Ea; cbn [filter]; rewrite ?Ea, ?Eb, IH; reflexivity.
Qed.

Lemma memZ_app : forall x l1 l2, memZ x (l1 ++ l2) = memZ x l1 || memZ x l2.
Proof. intros. unfold memZ. apply existsb_app. Qed.


(* msiCommandInfo.done() of two commands in both orders: the same directory up to the order of k_done, provided the
   MSI entries of the L1 commands exist (sn_create checks that they are shared / modified, and entries are never deleted) *)
Theorem cmd_done_comm : forall k key1 cid1 key2 cid2,
  (is_l1_req key1 = true -> pget zz_eqb (ck_id key1, ck_addr key1) (k_states k) <> None) ->
  (is_l1_req key2 = true -> pget zz_eqb (ck_id key2, ck_addr key2) (k_states k) <> None) ->
  msi_equiv (cmd_done (cmd_done k key1 cid1) key2 cid2) (cmd_done (cmd_done k key2 cid2) key1 cid1).
Proof.
  intros k key1 cid1 key2 cid2 P1 P2. unfold cmd_done. fold (is_l1_req key1). fold (is_l1_req key2).
  destruct (is_l1_req key1) eqn:L1, (is_l1_req key2) eqn:L2;
    cbn [set_states set_cmds k_sems k_states k_stale k_cmds k_done k_next k_l3lock k_l3write];
    rewrite ?L1, ?L2;
    unfold msi_equiv; cbn [set_states set_cmds k_sems k_states k_stale k_cmds k_done k_next k_l3lock k_l3write];
    repeat split; try reflexivity; try apply pdel_comm;
    try (intros cid; rewrite !memZ_app; unfold memZ; cbn [existsb];
         destruct (existsb (Z.eqb cid) (k_done k)), (cid =? cid1), (cid =? cid2); reflexivity).
  apply pset_zz_comm; auto.
Qed.

(* The ghost flag of the model is sound for order functions that agree on the RAT value maps only.  This definition
   is the statement; it is proved as mvp80_ord_irrelevant_snoop in Mvp80OrdFinal.v (mvp80_snoop_statement_holds),
   whose header says what the proof rests on. *)
Definition mvp80_ord_irrelevant_snoop_statement : Prop :=
  forall par fuel app labels st ord1 ord2 r,
  (forall cycle keys, ord1 cycle (-1) keys = ord2 cycle (-1) keys /\ ord1 cycle (-2) keys = ord2 cycle (-2) keys) ->
  mvp80_run_os par ord1 fuel app labels st = (r, false) ->
  mvp80_run_os par ord2 fuel app labels st = (r, false).

Print Assumptions snoop_sorted_perm.
Print Assumptions sn_create_all_perm.
Print Assumptions snoop_order_clear_perm.
Print Assumptions cmd_done_comm.
