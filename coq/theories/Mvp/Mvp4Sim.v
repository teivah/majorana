(* The MVP-4 model on a register-only program is, cycle for cycle, its skeleton
   (Mvp4Skel.v) plus the values of the sequential machine. *)
From Coq Require Import ZArith List Bool Lia.
From Maj Require Import Comp.MapFacts.
From Maj Require Import Base.Outcome Base.GoInt Base.GoTypes Isa.Spec Isa.Embed Isa.Seq Isa.Refine.
From Maj Require Import Gen.Latency Gen.RiscTables Gen.Opcodes Comp.Cache Comp.CacheProofs.
From Maj Require Import Mvp.Mvp12 Mvp.Mvp12Proofs Mvp.Mvp3 Mvp.Mvp3Proofs Mvp.Mvp4 Mvp.SkelRun Mvp.Mvp4Skel Mvp.Mvp4Inv Mvp.Mvp4Units Mvp.Mvp4Front.
Import ListNotations.
Open Scope Z_scope.

Definition eu_post (r : outcome (eu_env * eu_out) + err_class) (ebus : sbus (instr * Z))
  : outcome (eu_env * sbus (instr * Z) * eu_out) + err_class :=
  match r with
  | inr er => inr er
  | inl (Ok (env2, o)) =>
      inl (Ok (mk_env (e_regs env2) (e_mem env2) (e_pw env2) (e_l1d env2) (clear_runner (e_eu env2))
                      (e_wbus env2) (e_bu env2), ebus, o))
  | inl (Err er) => inl (Err er)
  | inl Panic => inl Panic
  end.

(* what executeUnit.cycle does when the skeleton says [act]; the intake of the model
   and of the skeleton are the same term, so the case analysis is on its result *)
Lemma eu_cycle_sk labels regs mem pw l1d e wbus bu ebus e1 ebus2 act :
  eu_pending_read e = false -> sbus_can_add wbus = true ->
  sk_eu e ebus pw = (e1, ebus2, act) ->
  match act with
  | ANone => exists bu', eu_cycle labels (mk_env regs mem pw l1d e wbus bu) ebus
                         = inl (Ok (mk_env regs mem pw l1d e1 wbus bu', ebus2, eu_none))
  | AExec i pc =>
      instr_MemoryRead i (rget regs) 0 = [] ->
      exists e2, e1 = eu_done e2 /\ pw_hazard pw (instr_ReadRegisters i) = false /\
        eu_cycle labels (mk_env regs mem pw l1d e wbus bu) ebus
        = eu_post (eu_run labels (mk_env regs mem pw l1d e2 wbus (bu_assert bu i pc)) i pc []) ebus2
  | AStuck => True
  end.
Proof.
  intros Hpr Hadd. unfold sk_eu, eu_cycle, eu_intake, cyc_of, set_rem. cbn [e_eu e_wbus e_regs e_mem e_pw e_l1d e_bu].
  rewrite Hpr, Hadd. set (T := if eu_processing e then _ else _). destruct T as [[em eb1] have].
  destruct have; cbn [negb]; [|intros H; injection H as <- <- <-; eexists; reflexivity].
  destruct (negb (eu_remaining em - 1 =? 0)); [intros H; injection H as <- <- <-; eexists; reflexivity|].
  destruct (eu_runner em) as [[i pc]|]; [|intros H; injection H as <- <- <-; exact I].
  destruct (pw_hazard pw (instr_ReadRegisters i)) eqn:Ehz; intros H; injection H as <- <- <-.
  - eexists. reflexivity.
  - intros Hmr. rewrite Hmr. eexists. split; [reflexivity|]. split; [exact Ehz | reflexivity].
Qed.

Lemma eu_run_ret labels env i pc :
  instr_Run i (rget (e_regs env)) labels pc [] 0 = Ok (embed EReturn) ->
  eu_run labels env i pc [] = inl (Ok (env, mk_euo false 0 true)).
Proof. intros H. unfold eu_run. rewrite H. reflexivity. Qed.

Definition flush_dec (bu : bu_t) (exe : execution) : bu_t * bool :=
  if PcChange exe then bu_should_flush bu (NextPc exe) else (bu, false).

Lemma eu_run_reg labels regs mem pw l1d e2 wbus bu i pc exe :
  instr_Run i (rget regs) labels pc [] 0 = Ok exe -> Return exe = false -> MemoryChange exe = false ->
  eu_run labels (mk_env regs mem pw l1d e2 wbus bu) i pc [] =
    inl (Ok (mk_env regs mem (pw_add pw (instr_WriteRegisters i)) l1d
                    (mk_eu false (eu_pending_read e2) (eu_addrs e2) (eu_memory e2) (eu_remaining e2) (eu_runner e2))
                    (sbus_add wbus (exe, instr_WriteRegisters i)) (fst (flush_dec bu exe)),
             if snd (flush_dec bu exe) then mk_euo true (NextPc exe) false else eu_none)).
Proof.
  intros H Hr Hm. unfold eu_run. cbn [e_regs e_mem e_pw e_l1d e_eu e_wbus e_bu]. rewrite H, Hr, Hm. cbn [bind].
  unfold flush_dec. destruct (PcChange exe); [destruct (bu_should_flush bu (NextPc exe))|]; reflexivity.
Qed.

Definition wapply (exe : execution) (regs : list Z) : list Z :=
  if RegisterChange exe then rset regs (Register exe) (RegisterValue exe) else regs.
Definition cur_regs (cur : option wb_item) (regs : list Z) : list Z :=
  match cur with Some (exe, _) => wapply exe regs | None => regs end.
Definition cur_wr (cur : option wb_item) : option (list Z) := option_map snd cur.

Definition item_ok (x : wb_item) : Prop :=
  MemoryChange (fst x) = false /\ (RegisterChange (fst x) = false -> snd x = []).

Lemma wu_cycle_reg regs mem pw w p cur :
  (forall x, cur = Some x -> item_ok x) ->
  wu_cycle regs mem pw (mk_wu false w) (mk_sbus p cur)
  = Ok (cur_regs cur regs, mem, wdel pw (cur_wr cur), mk_wu false w, mk_sbus None p).
Proof.
  intros H. unfold wu_cycle, sbus_get. cbn [wu_pending sb_pending sb_current].
  destruct cur as [[exe wr]|]; [|reflexivity].
  destruct (H _ eq_refl) as [Hm Hr]. cbn [fst snd] in Hm, Hr.
  cbn [cur_regs cur_wr option_map snd wdel]. unfold wapply.
  destruct (RegisterChange exe); [reflexivity|]. rewrite Hm, (Hr eq_refl). reflexivity.
Qed.

Lemma drain_empty n regs mem pw w cyc tick :
  m4_drain (S n) regs mem pw (mk_wu false w) (mk_sbus None None) cyc tick
  = Ok (regs, mem, pw, mk_wu false w, mk_sbus None None, cyc).
Proof. reflexivity. Qed.

Lemma drain_one n regs mem pw w x cyc tick :
  item_ok x ->
  m4_drain (S (S n)) regs mem pw (mk_wu false w) (mk_sbus None (Some x)) cyc tick
  = Ok (wapply (fst x) regs, mem, wdel pw (Some (snd x)), mk_wu false w, mk_sbus None None,
        if tick then cyc + 1 else cyc).
Proof.
  intros H. cbn [m4_drain wu_pending negb andb sbus_is_empty sb_pending sb_current].
  rewrite (wu_cycle_reg regs mem pw w None (Some x)) by (intros y Hy; injection Hy as <-; exact H).
  cbn [bind]. destruct x as [exe wr]. cbn [cur_regs cur_wr option_map fst snd]. reflexivity.
Qed.

Lemma finish_reg regs mem pw l1i l1d fu dbus ebus eu wbus wu bu cyc :
  lines l1d = [] ->
  m4_finish (mk_m4 regs mem pw l1i l1d fu dbus ebus eu wbus wu bu) cyc = MDone cyc (mk_arch regs mem).
Proof. intros H. unfold m4_finish. cbn [s_l1d s_mem s_regs]. rewrite H. cbn [flush_lines]. rewrite Z.add_0_r. reflexivity. Qed.

Lemma supd_oob {A} (l : list A) n v : (length l <= n)%nat -> Seq.upd l n v = l.
Proof. revert n. induction l as [|x l IH]; intros [|n] H; cbn in *; try reflexivity; try lia. rewrite IH by lia. reflexivity. Qed.

Definition wb_rel (exe : execution) (wr : list Z) : Prop :=
  RegisterChange exe = true -> exists rd, wr = [rd] /\ Register exe = (if rd =? 0 then 0 else rd).

Lemma rget_wapply regs exe wr r :
  (length regs <= 32)%nat -> wb_rel exe wr ->
  (r =? 0) = true \/ pw_get (pwof (Some wr)) r <= 0 ->
  rget (wapply exe regs) r = rget regs r.
Proof.
  intros Hlen Hrel Hr. unfold wapply. destruct (RegisterChange exe) eqn:Erc; [|reflexivity].
  destruct (Hrel Erc) as (rd & -> & HR). rewrite HR. unfold rset, rget.
  destruct (r =? 0) eqn:Er0; [reflexivity|]. destruct Hr as [Hr|Hr]; [discriminate|].
  destruct (rd =? 0) eqn:Erd; [reflexivity|]. rewrite Erd.
  destruct (Nat.eq_dec (Z.to_nat rd) (Z.to_nat r)) as [En|En].
  - destruct (Nat.lt_ge_cases (Z.to_nat rd) 32) as [Hlt|Hge].
    + exfalso. cbn [pwof] in Hr. rewrite pw_add_1 in Hr. unfold pw_get, padd1 in Hr. rewrite <- En in Hr.
      rewrite nth_upd_eq in Hr by (rewrite zero_pw_length; exact Hlt).
      change (nth (Z.to_nat rd) zero_pw 0) with (pw_get zero_pw rd) in Hr. rewrite pw_get_zero in Hr. lia.
    + rewrite supd_oob by lia. reflexivity.
  - apply supd_nth_neq. exact En.
Qed.

Lemma pw_hazard_false pw rs r : pw_hazard pw rs = false -> In r rs -> (r =? 0) = true \/ pw_get pw r <= 0.
Proof.
  unfold pw_hazard. intros H Hin.
  assert (Hx : negb (r =? 0) && (0 <? pw_get pw r) = false).
  { destruct (negb (r =? 0) && (0 <? pw_get pw r)) eqn:E; [|reflexivity].
    rewrite <- H. symmetry. apply existsb_exists. exists r. auto. }
  destruct (r =? 0); [left; reflexivity|]. right. cbn [negb andb] in Hx. apply Z.ltb_ge in Hx. exact Hx.
Qed.

Lemma wapply_length exe regs : length (wapply exe regs) = length regs.
Proof. unfold wapply, rset. destruct (RegisterChange exe), (Register exe =? 0); try reflexivity. apply supd_length. Qed.

Lemma cur_regs_length cur regs : length (cur_regs cur regs) = length regs.
Proof. destruct cur as [[exe wr]|]; [apply wapply_length | reflexivity]. Qed.

Lemma wapply_embed e regs :
  wapply (embed e) regs = match e with EReg rd v | ELink rd v _ => rset regs rd v | _ => regs end.
Proof.
  destruct e; cbn [embed]; try reflexivity; unfold wapply;
    destruct (reg_pair rd v) as [r x] eqn:E; cbn [RegisterChange Register RegisterValue];
    rewrite <- (rset_reg_pair regs rd v), E; reflexivity.
Qed.

Definition next_pc (e : effect) (pc : Z) : Z :=
  match e with EGoto a | ELink _ _ a => a | _ => pc + 4 end.

(* an effect that is neither a store nor the return, as an entry of the write bus;
   wr are the declared write registers (Refine.spec_writes_sound) *)
Lemma embed_item e wr :
  match e with EReg rd _ | ELink rd _ _ => wr = [rd] | _ => wr = [] end ->
  match e with
  | EStore _ | EReturn => True
  | _ => Return (embed e) = false /\ MemoryChange (embed e) = false /\
         item_ok (embed e, wr) /\ wb_rel (embed e) wr
  end.
Proof.
  unfold item_ok, wb_rel. destruct e as [rd v|bs| |a|rd v a|]; try exact (fun _ => I); intros ->; cbn [embed fst snd].
  1,4: unfold reg_pair; destruct (rd =? 0) eqn:E0.
  all: cbn [Return MemoryChange RegisterChange Register]; repeat split; try discriminate.
  all: intros _; exists rd; rewrite E0; auto.
Qed.

(* the flush decision of the simple branch unit, against the pc that follows on the path;
   the class of the instruction is the one of Mvp4Inv.exec_branch_class *)
Lemma flush_dec_path bu i pc e :
  addS 32 pc 4 = pc + 4 ->
  match e with
  | EReg _ _ | EFall => uncond i = false
  | EGoto _ => uncond i = true \/ (uncond i = false /\ condbr i = true)
  | ELink _ _ _ => uncond i = true
  | _ => True
  end ->
  match e with
  | EStore _ | EReturn => True
  | _ => (0 <= next_pc e pc -> snd (flush_dec (bu_assert bu i pc) (embed e)) = sk_flush i pc (next_pc e pc)) /\
         (sk_flush i pc (next_pc e pc) = true -> NextPc (embed e) = next_pc e pc)
  end.
Proof.
  intros Hpc4 Hcls. unfold flush_dec, sk_flush, bu_assert, bu_should_flush. fold (uncond i) (condbr i).
  destruct e as [rd v|bs| |a|rd v a|]; try exact I; cbn [embed next_pc]; try destruct (reg_pair rd v);
    cbn [PcChange NextPc snd].
  - rewrite Hcls, Hpc4, Z.eqb_refl. split; [reflexivity | discriminate].
  - rewrite Hcls, Hpc4, Z.eqb_refl. split; [reflexivity | discriminate].
  - split; [|reflexivity]. intros Ha.
    destruct Hcls as [Hu | [Hu Hc]]; rewrite Hu; [|rewrite Hc]; cbn [bu_to_check bu_expectation negb snd orb].
    + destruct (Z.eqb_spec (-1) a); [lia | reflexivity].
    + rewrite (Z.eqb_sym a). reflexivity.
  - split; [|reflexivity]. intros Ha. rewrite Hcls. cbn [bu_to_check bu_expectation negb snd orb].
    destruct (Z.eqb_spec (-1) a); [lia | reflexivity].
Qed.

Lemma complete_agree regs mem pw pw' l1i l1d fu dbus ebus eu w bu :
  m4_is_complete (mk_m4 regs mem pw l1i l1d fu dbus ebus eu (mk_sbus None None) (mk_wu false w) bu)
  = sk_complete (mk_sk fu l1i dbus ebus eu pw' None).
Proof.
  unfold m4_is_complete, sk_complete. cbn [s_fu s_eu s_wu s_dbus s_ebus s_wbus k_fu k_eu k_dbus k_ebus k_wb wu_pending].
  destruct (fu_complete fu), (eu_processing eu), (sbus_is_empty dbus), (sbus_is_empty ebus); reflexivity.
Qed.

Lemma complete_false regs mem pw l1i l1d fu dbus ebus eu x w bu :
  m4_is_complete (mk_m4 regs mem pw l1i l1d fu dbus ebus eu (mk_sbus None (Some x)) (mk_wu false w) bu) = false.
Proof. unfold m4_is_complete. cbn [s_wbus sbus_is_empty sb_pending sb_current]. apply andb_false_r. Qed.

Lemma sbus_add_mk {T} (p c : option T) x : sbus_add (mk_sbus p c) x = mk_sbus (Some x) c.
Proof. reflexivity. Qed.

(* The values the skeleton leaves out: the register file [rg] of the model lags behind
   the sequential registers by the entry [cur] of the write bus, whose declared write
   registers [wb] are what the skeleton knows of it *)
Record VR (rg : list Z) (cur : option wb_item) (wb : option (list Z)) (st : arch) : Prop := mkVR {
  vr_rg : Forall int32 rg;
  vr_st : Forall int32 (regs st);
  vr_len : (length rg <= 32)%nat;
  vr_wr : cur_wr cur = wb;
  vr_item : forall x, cur = Some x -> item_ok x /\ wb_rel (fst x) (snd x);
  vr_regs : regs st = cur_regs cur rg }.

Lemma vr_item_ok rg cur wb st : VR rg cur wb st -> forall x, cur = Some x -> item_ok x.
Proof. intros H x Hx. apply (vr_item _ _ _ _ H x Hx). Qed.

(* the write unit has written [cur] back and nothing was put on the write bus *)
Lemma vr_drain rg cur wb st : VR rg cur wb st -> VR (cur_regs cur rg) None None st.
Proof.
  intros [Hrg Hst Hlen _ _ Hregs]. constructor; try reflexivity; try discriminate.
  - rewrite <- Hregs. exact Hst.
  - exact Hst.
  - rewrite cur_regs_length. exact Hlen.
  - exact Hregs.
Qed.

(* ... and the executed instruction put (exe, wr) there *)
Lemma vr_push rg cur wb st exe wr st' :
  VR rg cur wb st -> item_ok (exe, wr) -> wb_rel exe wr ->
  regs st' = wapply exe (regs st) -> Forall int32 (regs st') ->
  VR (cur_regs cur rg) (Some (exe, wr)) (Some wr) st'.
Proof.
  intros [Hrg Hst Hlen _ _ Hregs] Hit Hrel Hregs' Hst'. constructor; try reflexivity.
  - rewrite <- Hregs. exact Hst.
  - exact Hst'.
  - rewrite cur_regs_length. exact Hlen.
  - intros x Hx. injection Hx as <-. split; assumption.
  - cbn [cur_regs]. rewrite <- Hregs. exact Hregs'.
Qed.

(* no pending write to a register that is read: the model reads the sequential value *)
Lemma vr_reads rg cur wb st pw rs :
  VR rg cur wb st -> pw = pwof wb -> pw_hazard pw rs = false ->
  forall r, In r rs -> rget (regs st) r = rget rg r.
Proof.
  intros [_ _ Hlen Hcw Hitem Hregs] -> Hhz r Hr. rewrite Hregs.
  destruct cur as [[exe wr]|]; [|reflexivity]. cbn [cur_regs].
  destruct (Hitem _ eq_refl) as [_ Hrel]. cbn [fst snd] in Hrel.
  apply (rget_wapply rg exe wr r Hlen Hrel).
  cbn [cur_wr option_map snd] in Hcw. rewrite Hcw. eapply pw_hazard_false; eassumption.
Qed.

Section Sim.
  Variables (app : list instr) (labels : Z -> option Z).
  Hypothesis Happ : wf_app app.
  Hypothesis Hlab : wf_labels labels.
  Hypothesis Hreg : reg_only app = true.
  Let sp := map sinstr_of app.

  Lemma nomem_nth n i : nth_error app n = Some i -> nomem i = true.
  Proof.
    intros H. unfold reg_only in Hreg. rewrite forallb_forall in Hreg. apply Hreg. eapply nth_error_In; eassumption.
  Qed.

  (* the sequential machine follows [path] from [st] and halts in [stf] *)
  Inductive sexec : arch -> list Z -> arch -> Prop :=
  | SE_halt st pc st' : Seq.step sp labels st pc = Halt st' -> sexec st [pc] st'
  | SE_next st pc st' pc' rest stf :
      Seq.step sp labels st pc = Next st' pc' -> sexec st' (pc' :: rest) stf -> sexec st (pc :: pc' :: rest) stf.

  Lemma sexec_head_nonneg st pc rest stf : sexec st (pc :: rest) stf -> 0 <= pc.
  Proof.
    intros H. assert (Hs : exists r, Seq.step sp labels st pc = r /\ match r with Fail _ => False | _ => True end).
    { inversion H; subst; eexists; (split; [eassumption | exact I]). }
    destruct Hs as (r & Hs & Hr). unfold Seq.step in Hs. destruct (Z.ltb_spec pc 0); [subst r; contradiction | assumption].
  Qed.

  Lemma step_out st pc : 0 <= pc -> nlen app <= pc / 4 -> Seq.step sp labels st pc = Halt st.
  Proof.
    intros Hpc Hout. unfold Seq.step. destruct (Z.ltb_spec pc 0); [lia|].
    assert (Hn : nth_error sp (Z.to_nat (pc / 4)) = None).
    { apply nth_error_None. unfold sp. rewrite map_length. unfold nlen in Hout. lia. }
    rewrite Hn. reflexivity.
  Qed.

  (* a run that is at a pc outside the text has halted *)
  Lemma sexec_out st head rest stf : sexec st (head :: rest) stf -> nlen app <= head / 4 -> stf = st.
  Proof.
    intros HS Hout. pose proof (step_out st head (sexec_head_nonneg _ _ _ _ HS) Hout) as Hst.
    inversion HS as [? ? ? Hs|? ? ? ? ? ? Hs]; subst; rewrite Hst in Hs; [injection Hs as <-; reflexivity | discriminate].
  Qed.

  Lemma step_nomem st pc i :
    0 <= pc -> nth_error app (Z.to_nat (pc / 4)) = Some i ->
    Seq.step sp labels st pc =
      match exec (sinstr_of i) (rget (regs st)) labels pc [] with
      | Err e => Fail e
      | Panic => Fail EOther
      | Ok (EReg rd v) => Next (mk_arch (rset (regs st) rd v) (mem st)) (pc + 4)
      | Ok (EStore bs) =>
          if negb (forallb (in_mem (mem st)) (map fst bs)) then Fail EBounds
          else Next (mk_arch (regs st) (mset_all (mem st) bs)) (pc + 4)
      | Ok EFall => Next st (pc + 4)
      | Ok (EGoto a) => Next st a
      | Ok (ELink rd v a) => Next (mk_arch (rset (regs st) rd v) (mem st)) a
      | Ok EReturn => Halt st
      end.
  Proof.
    intros Hpc Hi. unfold Seq.step. destruct (Z.ltb_spec pc 0); [lia|].
    unfold sp. rewrite (map_nth_error sinstr_of _ _ Hi).
    rewrite (nomem_load_addrs i _ (nomem_nth _ _ Hi)). reflexivity.
  Qed.

  Lemma exec_cases st regs0 pc i bu :
    0 <= pc < 2147483644 -> nth_error app (Z.to_nat (pc / 4)) = Some i ->
    Forall int32 regs0 -> Forall int32 (regs st) ->
    (forall r, In r (instr_ReadRegisters i) -> rget (regs st) r = rget regs0 r) ->
    match Seq.step sp labels st pc with
    | Halt st' => st' = st /\ is_ret i = true /\ instr_Run i (rget regs0) labels pc [] 0 = Ok (embed EReturn)
    | Next st' next =>
        is_ret i = false /\
        exists e, instr_Run i (rget regs0) labels pc [] 0 = Ok (embed e) /\
          Return (embed e) = false /\ MemoryChange (embed e) = false /\
          item_ok (embed e, instr_WriteRegisters i) /\ wb_rel (embed e) (instr_WriteRegisters i) /\
          regs st' = wapply (embed e) (regs st) /\ mem st' = mem st /\ Forall int32 (regs st') /\
          (0 <= next -> snd (flush_dec (bu_assert bu i pc) (embed e)) = sk_flush i pc next) /\
          (sk_flush i pc next = true -> NextPc (embed e) = next)
    | Fail _ => True
    end.
  Proof.
    intros Hpc Hi Hr0 Hrs Hread. rewrite (step_nomem st pc i ltac:(lia) Hi).
    pose proof (nomem_nth _ _ Hi) as Hnm.
    assert (Hrr : forall r, int32 (rget regs0 r)) by (intros r; apply rget_int32; assumption).
    assert (Hpc32 : int32 pc) by (apply int32_bounds; lia).
    pose proof (run_refines_spec (rget regs0) labels pc [] 0 Hrr i (imm_ok app Happ _ _ Hi) (nomem_mem_ok i Hnm)) as Hrun.
    rewrite read_registers_exact in Hread.
    destruct (spec_reads_sound (sinstr_of i) (rget (regs st)) (rget regs0) labels pc [] Hread) as [Hex _].
    rewrite Hex. rewrite Hrun.
    destruct (exec (sinstr_of i) (rget regs0) labels pc []) as [e|err|] eqn:Ee; [|exact I|exact I].
    pose proof (exec_ranges _ _ _ _ _ _ Hlab Ee) as Hrange.
    pose proof (spec_writes_sound _ _ _ _ _ _ Ee) as Hwr. rewrite <- write_registers_exact in Hwr.
    pose proof (exec_branch_class _ _ _ _ _ _ Ee) as Hcls.
    pose proof (exec_return_is_ret _ _ _ _ _ _ Ee) as Hret.
    destruct (pc_next app Happ pc i ltac:(lia) Hi) as [Hpc4 _].
    assert (Hnr : e <> EReturn -> is_ret i = false).
    { intros Hne. destruct (is_ret i); [|reflexivity]. exfalso. apply Hne. apply Hret. reflexivity. }
    pose proof (embed_item e _ Hwr) as Hitem. pose proof (flush_dec_path bu i pc e Hpc4 Hcls) as Hflush.
    cbn [omap].
    destruct e as [rd v|bs| |a|rd v a|];
      [| exfalso; exact (nomem_no_store i _ _ _ _ bs Hnm Ee) | | | |
       split; [reflexivity|]; split; [apply Hret; reflexivity | reflexivity]].
    (* the four effects of a register-only instruction that goes on: it is not the ret
       and the model computes the same effect; its entry on the write bus; the
       sequential state after it; int32 registers and the flush decision *)
    all: split; [apply Hnr; discriminate|]; eexists; split; [reflexivity|].
    all: destruct Hitem as (HR & HM & Hit & Hrel); do 4 (split; [assumption|]).
    all: cbn [regs mem]; rewrite wapply_embed; split; [reflexivity|]; split; [reflexivity|].
    all: split; [first [assumption | apply rset_int32; [assumption | apply Hrange]] | exact Hflush].
  Qed.

  (* the model state [s] is the skeleton [a] plus the values of the sequential state [st] *)
  Inductive R : m4state -> sk -> arch -> Prop :=
  | R_intro a rg l1d w bu cur st :
      lines l1d = [] -> VR rg cur (k_wb a) st ->
      R (mk_m4 rg (mem st) (k_pw a) (k_l1i a) l1d (k_fu a) (k_dbus a) (k_ebus a) (k_eu a)
               (mk_sbus None cur) (mk_wu false w) bu) a st.

  Lemma sim_step f a head rest cyc s st stf :
    R s a st -> FInv app head a -> sexec st (head :: rest) stf ->
    match sk_cyc app a (head :: rest) with
    | GStuck => True
    | GDone dc => m4run (S f) app labels s cyc = MDone (cyc + dc) stf
    | GStep a' path' dc =>
        exists s' st', m4run (S f) app labels s cyc = m4run f app labels s' (cyc + dc) /\
                       R s' a' st' /\ sexec st' path' stf
    end.
  Proof.
    intros HR HF HS.
    destruct HR as [a rg l1d w bu cur st Hl HV].
    pose proof (vr_wr _ _ _ _ HV) as Hcw. pose proof (vr_regs _ _ _ _ HV) as Hregs.
    pose proof HF as [Hh [n Hq] Hent Hfu Heu Hpr HI Hpw Hwb].
    pose proof (vr_item_ok _ _ _ _ HV) as Hitem1.
    unfold sk_cyc, sk_cycle.
    cbn [m4run s_fu s_l1i s_dbus s_ebus s_regs s_mem s_pw s_l1d s_eu s_wbus s_bu s_wu].
    destruct (fu_cycle app (k_fu a) (k_l1i a) (k_dbus a)) as [[[fu1 l1i1] dbus1]| |] eqn:Ef; try exact I.
    destruct (du_cycle app dbus1 (k_ebus a)) as [[dbus2 ebus1]| |] eqn:Ed; try exact I.
    destruct (sk_eu (k_eu a) ebus1 (k_pw a)) as [[e1 ebus2] act] eqn:Ee.
    destruct (front_flow app Happ head a _ _ _ _ _ _ _ _ HF Ef Ed Ee) as (_ & _ & _ & _ & Hent' & _).
    destruct act as [|i pc|]; [| |exact I].
    - (* nothing executed this cycle *)
      destruct (eu_cycle_sk labels rg (mem st) (k_pw a) l1d (k_eu a) (mk_sbus None cur) bu ebus1 e1 ebus2 _ Hpr eq_refl Ee)
        as [bu' Eeu].
      rewrite Eeu. cbn [e_regs e_mem e_pw e_l1d e_eu e_wbus e_bu eu_none eo_ret eo_flush].
      rewrite (wu_cycle_reg rg (mem st) (k_pw a) w None cur Hitem1).
      rewrite (complete_agree _ _ _ (wdel (k_pw a) (k_wb a))). rewrite Hcw.
      pose proof (finv_none app Happ head a _ _ _ _ _ _ _ HF Ef Ed Ee) as HF2. unfold after_none in HF2.
      destruct (sk_complete _) eqn:Ec; cbn [sk_view].
      + rewrite finish_reg by exact Hl.
        rewrite (sexec_out _ _ _ _ HS (complete_out app head _ HF2 Ec)), <- Hregs. destruct st; reflexivity.
      + eexists _, st. split; [reflexivity|]. split; [|exact HS].
        exact (R_intro (mk_sk fu1 l1i1 dbus2 ebus2 e1 (wdel (k_pw a) (k_wb a)) None) _ l1d w bu' None st Hl (vr_drain _ _ _ _ HV)).
    - (* (i, pc) is executed *)
      destruct (Z.eqb_spec head pc) as [<-|]; cbn [negb]; [|exact I].
      cbn [act_q List.app] in Hent'. inversion Hent' as [|x l [_ Hi] _]; subst x l. cbn [fst snd] in Hi.
      pose proof (nomem_nth _ _ Hi) as Hnm.
      destruct (eu_cycle_sk labels rg (mem st) (k_pw a) l1d (k_eu a) (mk_sbus None cur) bu ebus1 e1 ebus2 _
                  Hpr eq_refl Ee (nomem_no_read i _ _ Hnm)) as (e2 & -> & Hhz & Eeu).
      rewrite Eeu.
      pose proof (exec_cases st rg head i bu Hh Hi (vr_rg _ _ _ _ HV) (vr_st _ _ _ _ HV)
                    (vr_reads _ _ _ _ _ _ HV Hpw Hhz)) as Hcases.
      inversion HS as [? ? ? Hs|? ? st' next rest' ? Hs HS']; subst; rewrite Hs in Hcases.
      + (* the run halts here: ret *)
        destruct Hcases as (-> & Hret & Hrun). rewrite Hret. cbn [sk_view].
        rewrite eu_run_ret by exact Hrun. cbn [eu_post e_regs e_mem e_pw e_l1d e_eu e_wbus e_bu eo_ret eo_flush].
        rewrite (wu_cycle_reg rg (mem st) (k_pw a) w None cur Hitem1).
        rewrite drain_empty. rewrite finish_reg by exact Hl. rewrite <- Hregs. destruct st; reflexivity.
      + destruct Hcases as (Hret & e & Hrun & Hr & Hm & Hit & Hrel & Hregs' & Hmem' & Hsi' & Hfl & Hnpc).
        rewrite Hret.
        rewrite (eu_run_reg _ _ _ _ _ _ _ _ _ _ _ Hrun Hr Hm).
        pose proof (sexec_head_nonneg _ _ _ _ HS') as Hnext. specialize (Hfl Hnext).
        cbn [eu_post e_regs e_mem e_pw e_l1d e_eu e_wbus e_bu]. rewrite sbus_add_mk.
        rewrite (wu_cycle_reg rg (mem st) _ w _ cur Hitem1). rewrite Hfl.
        destruct (sk_flush i head next) eqn:Esf; cbn [sk_view].
        * (* mispredicted: drain and flush *)
          cbn [eo_ret eo_flush eo_pc].
          rewrite (drain_one _ _ _ _ w _ _ true Hit). cbn [fst snd]. rewrite (Hnpc eq_refl).
          eexists _, st'. split; [replace (cyc + 2) with (cyc + 1 + 1) by lia; reflexivity|]. split; [|exact HS'].
          rewrite <- Hmem'.
          exact (R_intro (mk_sk (mk_fu next (fu_remaining fu1) false false) l1i1 sbus_empty sbus_empty (eu_done e2) zero_pw None)
                         _ l1d w _ None st' Hl (vr_drain _ _ _ _ (vr_push _ _ _ _ _ _ _ HV Hit Hrel Hregs' Hsi'))).
        * cbn [eo_ret eo_flush]. rewrite complete_false.
          eexists _, st'. split; [reflexivity|]. split; [|exact HS'].
          rewrite <- Hmem', Hcw.
          exact (R_intro (mk_sk fu1 l1i1 dbus2 ebus2 (eu_done e2) (wdel (pw_add (k_pw a) (instr_WriteRegisters i)) (k_wb a))
                                (Some (instr_WriteRegisters i)))
                         _ l1d w _ _ st' Hl (vr_push _ _ _ _ _ _ _ HV Hit Hrel Hregs' Hsi')).
  Qed.
End Sim.
