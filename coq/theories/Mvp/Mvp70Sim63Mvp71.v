(* MVP-7.1 (hooks71 of Mvp71.v) against MVP-7.0 / MVP-6.3 on programs without loads and stores: a refutation and the
   unit lemmas.

   On straight-line programs without loads and stores - no jump, no branch, hence ctx.sequenceID = 0 for the whole
   run and SequenceID(pc) = pc, monotone in program order - MVP-7.1 is MVP-7.0 tick by tick; this is proved, for
   single-assignment programs, in Mvp71Sim70.v from the unit lemmas below.

     mvp71_regonly_sim_mvp63_refuted   WITHOUT the straight-line hypothesis the statement "MVP-7.1 = MVP-6.3 + one
                                       cycle on programs without loads and stores" is FALSE, as for MVP-8.0
                                       (Mvp80Sim63Refute.v): the 504-instruction program with a jump back by more
                                       than 2000 bytes gives x7 = 77 on MVP-6.3 and MVP-7.0, x7 = 1 on MVP-7.1 (the
                                       reader's sequence id 4004 is smaller than the writer's 4008 although the
                                       writer is older).
     mvp71_instances                   the 14-instruction example at 1..4 cores, by computation.
     reg_read_tag_newest               registerRead with a sequence id (7.1) returns what the newest-slot read
                                       (6.3 / 7.0) returns for a register whose newest transactionRAT slot was
                                       written by an instruction with a sequence id not greater than the reader's;
     eu_run71_sim, eu_prepare71_sim    run / prepareRun of MVP-7.1 are those of MVP-7.0 when the two register
                                       readers agree for the runner (rd_agree71);
     take71_nil, eu_cycle71_sim        executeUnit.Cycle of MVP-7.1 is that of MVP-7.0 when no runner has a preferred
                                       unit, the Pre hook finds no pending older runner, the readers agree;
     front71_sim                       the first half of a tick: with msi.staleState clear and runners that are
                                       neither loads nor stores (no preference is computed) it is front3.

   The hypothesis rd_agree71 has to come from an invariant of the run: "every slot of transactionRAT read by a
   runner was written by an OLDER instruction".  On straight-line programs dispatch is in program order, a unit
   reads its operands in the cycle it takes the runner (or, for a forwarded runner, one cycle after its source ran)
   and a result reaches transactionRAT two cycles after its instruction was taken, so a younger writer cannot
   overtake an older reader; for single-assignment programs this is in BI of Mvp63RefInv.v (bi_trat, tv), which
   Mvp71Sim70.v threads through the loops over the units.  x_prev is not covered by PX: front71_sim takes the
   runners pushed in the cycle as a hypothesis. *)
From Coq Require Import ZArith List Bool Lia.
From Maj Require Import Base.Outcome Base.GoInt Base.GoTypes Isa.Spec Isa.Seq Isa.Refine.
From Maj Require Import Gen.Latency Gen.RiscTables Gen.Opcodes Comp.Cache Comp.Rat Comp.RatProofs Mvp.Mvp12 Mvp.Mvp3 Mvp.Mvp5 Mvp.Mvp60 Mvp.Mvp63 Mvp.Mvp70 Mvp.Mvp71.
From Maj Require Import Mvp.Mvp60Proofs Mvp.Mvp63Proofs Mvp.Mvp63Class Mvp.Mvp70Proofs Mvp.Mvp70Sim63Defs Mvp.Mvp70Sim63Loops Mvp.Mvp70Sim63Proofs.
From Maj Require Import Mvp.Mvp63RefDefs Mvp.Mvp63RefProofs.
From Maj Require Mvp.Mvp62RefRel.
Import ListNotations.
Open Scope Z_scope.

Definition cx71_prog : list instr :=
  [I_j (mk_j 1); I_add (mk_add 7 5 0); I_ret mk_ret] ++ repeat (I_nop mk_nop) 499 ++
  [I_li (mk_li 5 77); I_j (mk_j 2)].
Definition cx71_labels : Z -> option Z :=
  fun l => if l =? 1 then Some 2008 else if l =? 2 then Some 4 else None.
Definition cx71_st : arch := st_of [(5, 1)] [].

Lemma cx71_runs :
  reg_only cx71_prog = true /\ wregs_nonneg cx71_prog = true /\
  (exists s3, mvp63_run_os 2 ord_asc 3000 cx71_prog cx71_labels cx71_st = (MDone 638 s3, false) /\ nth 7 (regs s3) 0 = 77) /\
  (exists s0, mvp70_run_os 2 ord_asc 3001 cx71_prog cx71_labels cx71_st = (MDone 639 s0, false) /\ nth 7 (regs s0) 0 = 77) /\
  (exists s1, mvp71_run_os 2 ord_asc 3001 cx71_prog cx71_labels cx71_st = (MDone 639 s1, false) /\ nth 7 (regs s1) 0 = 1).
Proof.
  split; [vm_compute; reflexivity|]. split; [vm_compute; reflexivity|].
  split; [|split]; (eexists; split; [vm_compute; reflexivity | vm_compute; reflexivity]).
Qed.

Theorem mvp71_regonly_sim_mvp63_refuted :
  ~ (forall app, reg_only app = true -> wregs_nonneg app = true ->
     forall par ord fuel labels st r os,
     r <> MOutOfFuel ->
     mvp63_run_os par ord fuel app labels st = (r, os) ->
     mvp71_run_os par ord (S fuel) app labels st = (plus_one_cycle r, os)).
Proof.
  intros H. destruct cx71_runs as (HA & HW & (s3 & E3 & R3) & _ & (s1 & E1 & R1)).
  assert (NF : MDone 638 s3 <> MOutOfFuel) by discriminate.
  pose proof (H cx71_prog HA HW 2%nat ord_asc 3000%nat cx71_labels cx71_st (MDone 638 s3) false NF E3) as H1.
  change (S 3000) with 3001%nat in H1. rewrite E1 in H1. cbn [plus_one_cycle] in H1.
  assert (S13 : s1 = s3) by congruence. rewrite S13 in R1. rewrite R3 in R1. discriminate.
Qed.

(* instances of the intended statement: the 14-instruction single-assignment example, 1..4 cores *)
Example mvp71_instances : forall par, In par [1; 2; 3; 4]%nat ->
  mvp71_run_os par ord_asc 3001 (map instr_of ex63_prog) no_labels zero32 =
  mvp70_run_os par ord_asc 3001 (map instr_of ex63_prog) no_labels zero32.
Proof. intros par [<-|[<-|[<-|[<-|[]]]]]; vm_compute; reflexivity. Qed.

Lemma rev_seq_S : forall n, rev (seq 0 (S n)) = n :: rev (seq 0 n).
Proof. intros n. rewrite seq_S, rev_app_distr. reflexivity. Qed.

(* RAT.Find looks at the newest slot first *)
Lemma rat_find_newest : forall (t : @rat (Z * Z)) k pred v,
  rat_read tu0 t k = Some v -> pred v = true -> rat_find tu0 t k pred = Some v.
Proof.
  intros t k pred v HR HP. unfold rat_read in HR. unfold rat_find.
  destruct (aget k (r_tab t)) as [e|]; [|discriminate]. inversion HR; subst.
  unfold e_find. rewrite rev_seq_S. cbn [first_at]. rewrite HP. reflexivity.
Qed.

Lemma rat_find_absent : forall (t : @rat (Z * Z)) k pred, rat_read tu0 t k = None -> rat_find tu0 t k pred = None.
Proof.
  intros t k pred HR. unfold rat_read in HR. unfold rat_find. destruct (aget k (r_tab t)); [discriminate|reflexivity].
Qed.

Lemma reg_read_tag_newest : forall fw crat trat sid reg,
  (forall v, rat_read tu0 trat reg = Some v -> fst v <= sid) ->
  reg_read_tag fw crat trat sid reg = reg_read3 fw crat trat reg.
Proof.
  intros fw crat trat sid reg H. unfold reg_read_tag, reg_read3.
  destruct (reg =? fst fw); [reflexivity|]. cbv zeta.
  destruct (sid =? 0); [reflexivity|].
  destruct (rat_read tu0 trat reg) as [v|] eqn:ER.
  - rewrite (rat_find_newest trat reg _ v ER); [reflexivity|]. apply Z.leb_le. apply H. reflexivity.
  - rewrite (rat_find_absent trat reg _ ER). reflexivity.
Qed.

(* the two register readers agree for this runner in this machine state *)
Definition rd_agree71 (x : mx) (r : runner3) : Prop :=
  forall reg, fst (rr71 x (q_pc r) (q_seq r)) reg = rr3 x (q_pc r) reg.

(* it is enough that every slot the runner can see as newest is not younger than the runner *)
Lemma rd_agree71_newest : forall x r,
  (forall reg v, rat_read tu0 (x_trat x) reg = Some v -> fst v <= q_seq r) -> rd_agree71 x r.
Proof. intros x r H reg. unfold rr71, rr3. cbn [fst]. apply reg_read_tag_newest. intros v HV. eapply H. exact HV. Qed.

(* the receive step of prepareRun *)
Definition recv3 (x : mx) (r : runner3) : option (mx * runner3) :=
  match q_recv r with
  | None => Some (x, r)
  | Some ch =>
      match aget ch (x_chan x) with
      | None => None
      | Some v =>
          Some (set_forward3 (set_chan3 x (filter (fun p => negb (fst p =? ch)) (x_chan x))) (q_pc r) (q_freg r) v,
                mk_r3 (q_r r) (q_id r) (q_fwder r) None (q_freg r))
      end
  end.

Definition prep_agree71 (x : mx) (r : runner3) : Prop :=
  forall x0 r1, recv3 x r = Some (x0, r1) -> rd_agree71 (bu_assert3 x0 (q_r r1)) r1.

Lemma eu_run71_sim : forall labels ord cycle id w e,
  (forall r, h_runner e = Some r -> rd_agree71 (w_x w) r) ->
  eu_run7 hooks71 labels ord cycle id w e = eu_run7 hooks70 labels ord cycle id w e.
Proof.
  intros labels ord cycle id w e H. unfold eu_run7. cbn [hooks70 hooks71 k_rr].
  destruct (h_runner e) as [r|]; [|reflexivity].
  specialize (H r eq_refl). unfold rd_agree71 in H. unfold rr71 in *. cbn [fst] in H. cbv zeta. cbv beta iota.
  rewrite (instr_Run_seq0 _ _ _ _ _ (q_seq r)).
  rewrite (Mvp62RefRel.instr_Run_ext _ _ _ labels (q_pc r) (h_memory e) 0 H). reflexivity.
Qed.

Lemma eu_prepare71_sim : forall NN labels ord cycle id w e,
  (forall r, h_runner e = Some r -> NM NN r /\ prep_agree71 (w_x w) r) ->
  eu_prepare7 hooks71 labels ord cycle id w e = eu_prepare7 hooks70 labels ord cycle id w e.
Proof.
  intros NN labels ord cycle id w e H. unfold eu_prepare7. cbv zeta.
  destruct (negb (bb_canadd (m_wbus (x_m (w_x w))))); [reflexivity|].
  destruct (h_runner e) as [r|]; [|reflexivity].
  destruct (H r eq_refl) as [HN HA]. unfold prep_agree71 in HA. fold (recv3 (w_x w) r).
  destruct (recv3 (w_x w) r) as [[x0 r1]|] eqn:EV; [|reflexivity].
  assert (HN1 : NM NN r1).
  { unfold recv3 in EV. destruct (q_recv r) as [ch|].
    - destruct (aget ch _); [|discriminate]. inversion EV; subst. exact HN.
    - inversion EV; subst. exact HN. }
  cbn [hooks70 hooks71 k_rr]. unfold rr71 at 1. cbv beta iota.
  rewrite !nomem_no_read by exact (proj1 HN1).
  apply eu_run71_sim. intros r' Hr'. cbn [set_hco h_runner] in Hr'. inversion Hr'; subst r'.
  cbn [set_wx w_x]. apply HA. reflexivity.
Qed.

(* pick without preferences is Get *)
Lemma pick71_nil : forall w id q, w_pref w = [] ->
  pick71 w id q = match q with [] => ([], None) | r :: t => (t, Some r) end.
Proof. intros w id [|r t] H; cbn [pick71]; [reflexivity|]. unfold pref_of. rewrite H. reflexivity. Qed.

Lemma take71_nil : forall id w, w_pref w = [] -> k_take hooks71 id w = k_take hooks70 id w.
Proof.
  intros id w H. cbn [hooks70 hooks71 k_take]. unfold take71. cbv zeta. rewrite (pick71_nil w id _ H). unfold bb_get.
  destruct (bb_q (x_ebus (w_x w))); reflexivity.
Qed.

(* the conditions under which one call of executeUnit.Cycle of MVP-7.1 is the call of MVP-7.0 *)
Definition eu_cond71 (NN : Prop) (w : w7) (e : eu7) : Prop :=
  w_pref w = [] /\
  (eu_pre7 e = true -> pending71 w (h_seq e) = false) /\
  (eu_pre7 e = false ->
     match h_co e with
     | HNone => forall r b', bb_get (x_ebus (w_x w)) = (b', Some r) -> NM NN r /\ prep_agree71 (set_ebus3 (w_x w) b') r
     | HPrepare => forall r, h_runner e = Some r -> NM NN r /\ prep_agree71 (w_x w) r
     | HRead _ => False          (* never on a program without loads *)
     | HWrite _ _ => True
     end).

Lemma eu_cycle71_sim : forall NN labels ord cycle id w e, eu_cond71 NN w e ->
  eu_cycle7 hooks71 labels ord cycle id w e = eu_cycle7 hooks70 labels ord cycle id w e.
Proof.
  intros NN labels ord cycle id w e (C1 & C2 & C3). unfold eu_cycle7.
  destruct (eu_pre7 e) eqn:EP.
  - cbn [hooks70 hooks71 k_pending]. rewrite (C2 eq_refl). reflexivity.
  - specialize (C3 eq_refl). destruct (h_co e) eqn:EC.
    + rewrite (take71_nil id w C1). cbn [hooks70 k_take]. unfold bb_get in *.
      destruct (bb_q (x_ebus (w_x w))) as [|r q']; [reflexivity|].
      apply (eu_prepare71_sim NN). intros r' Hr'. cbn [h_runner] in Hr'. inversion Hr'; subst r'.
      cbn [set_wx w_x]. apply C3. reflexivity.
    + apply (eu_prepare71_sim NN). exact C3.
    + contradiction.
    + reflexivity.
Qed.

(* no preference is computed for an instruction that is neither a load nor a store *)
Lemma pref71_nomem : forall NN w r, NM NN r -> pref71 w r = Ok None.
Proof.
  intros NN w r [HN _]. unfold pref71. cbv zeta. unfold rr71. cbv beta iota.
  unfold Mvp4Skel.nomem in HN. apply andb_true_iff in HN as [H1 H2].
  apply negb_true_iff in H1. apply negb_true_iff in H2. rewrite H1, H2. reflexivity.
Qed.

Lemma add_prefs71_nomem : forall NN rs w, Forall (NM NN) rs -> add_prefs71 w rs = Ok w.
Proof.
  intros NN. induction rs as [|r t IH]; intros w H; cbn [add_prefs71]; [reflexivity|].
  inversion H as [|? ? H1 HT]; subst. rewrite (pref71_nomem NN w r H1). cbn [bind]. apply IH. exact HT.
Qed.

(* stated with the explicit equalities front3_eq / front71_eq (Mvp63Proofs.v, Mvp70Proofs.v): the hypothesis is about
   the runners the control unit pushed in this cycle, x_prev afterwards *)
Lemma front71_sim : forall NN app ord cycle w,
  i_stale (w_i w) = false ->
  (forall fu1 l1i1 dbus1 x1,
     fu_cycle6 app cycle (m_fu (x_m (connected3 (w_x w) cycle))) (m_l1i (x_m (connected3 (w_x w) cycle)))
               (m_dbus (x_m (connected3 (w_x w) cycle))) = Ok (fu1, l1i1, dbus1) ->
     du_cycle3 app cycle (set_m (connected3 (w_x w) cycle)
                                (set_dbus (set_l1i (set_fu (x_m (connected3 (w_x w) cycle)) fu1) l1i1) dbus1)) = Ok x1 ->
     Forall (NM NN) (x_prev (cu_cycle3 ord cycle x1))) ->
  k_front hooks71 app ord cycle w = k_front hooks70 app ord cycle w.
Proof.
  intros NN app ord cycle w HS HP. cbn [hooks70 hooks71 k_front]. rewrite front71_eq, front3_eq, HS.
  destruct (fu_cycle6 app cycle (m_fu (x_m (connected3 (w_x w) cycle))) (m_l1i (x_m (connected3 (w_x w) cycle)))
                      (m_dbus (x_m (connected3 (w_x w) cycle)))) as [[[fu1 l1i1] dbus1]|er|] eqn:EF; [|reflexivity|reflexivity].
  destruct (du_cycle3 app cycle (set_m (connected3 (w_x w) cycle)
              (set_dbus (set_l1i (set_fu (x_m (connected3 (w_x w) cycle)) fu1) l1i1) dbus1))) as [x1|er|] eqn:ED;
    [|reflexivity|reflexivity].
  cbn [bind]. apply (add_prefs71_nomem NN). exact (HP fu1 l1i1 dbus1 x1 eq_refl ED).
Qed.

Print Assumptions mvp71_regonly_sim_mvp63_refuted.
Print Assumptions mvp71_instances.
Print Assumptions reg_read_tag_newest.
Print Assumptions eu_cycle71_sim.
Print Assumptions front71_sim.
