(* Facts about the cycle-level model of MVP-6.3 (Mvp63.v).

   1. Witnesses, closed by vm_compute on the model (every one of them is also a case of
      bin/one_m63.py, where the Go code gives the same line):
        war_unsound        "renaming" lets a younger writer overtake an older reader (WAR): wrong value
        waw_unsound        ... and an older slow writer overwrite a younger one (WAW)
        flush_error        an instruction that fails inside the flush loop ends Run with its error
                           (/repo 1ed8ef8)
        forward_order      the forwarding source depends on the iteration order of a Go map; the ghost
                           flag is raised
        store_miss_hang    a store whose line is not in L3, followed by nothing that brings it in, never
                           leaves the pipeline: after 625 ticks a tick changes nothing but the cycle counter
                           (stld_stuck), so Run is out of fuel whatever the fuel (store_miss_hangs_forever)
   2. mvp63_cycles_pos: a run that returns reports at least one cycle (step3_cyc).
   3. cu_dispatch_bound3 / mvp63_dispatch_width: the control unit never fills the execute bus beyond its
      buffer length (2): at most two instructions are dispatched per cycle whatever the number of units.
      An instance of cu_cycle3_frame: what pushRunner, the marking of a forwarder and the bookkeeping after a
      push respect, controlUnit.cycle respects.
   4. mvp63_ord_irrelevant: soundness of the ghost flag - a run that ends with the flag clear returns the
      same result for all iteration orders of the stores' MemoryChanges maps and of
      controlUnit.pushedRunnersInPreviousCycle (order functions that agree on the RAT value maps, whose
      order is not observable: every key is written once and committedRAT is read at its newest slot only). *)
From Coq Require Import ZArith List Bool Lia.
From Maj Require Import Base.Outcome Base.GoInt Base.GoTypes Isa.Spec Isa.Seq.
From Maj Require Import Gen.Latency Gen.RiscTables Gen.Opcodes Comp.Cache Comp.Rat Mvp.Mvp12 Mvp.Mvp3 Mvp.Mvp5 Mvp.Mvp60 Mvp.Mvp63.
From Maj Require Import Comp.MapFacts Comp.RatProofs Mvp.Mvp60Proofs.
Import ListNotations.
Open Scope Z_scope.

(* ------------------------------------------------------------------ *)
(* 1. witnesses                                                         *)
(* ------------------------------------------------------------------ *)

Definition st_of (rs : list (Z * Z)) (ms : list (Z * Z)) : arch :=
  mk_arch (fold_left (fun r p => Seq.upd r (Z.to_nat (fst p)) (snd p)) rs (repeat 0 32))
          (fold_left (fun m p => Seq.upd m (Z.to_nat (fst p)) (snd p)) ms (repeat 0 256)).
Definition no_labels : Z -> option Z := fun _ => None.
Definition one_label (a : Z) : Z -> option Z := fun l => if l =? 1 then Some a else None.
Definition ord_asc : Z -> Z -> list Z -> list Z := fun _ _ l => l.
Definition ord_desc : Z -> Z -> list Z -> list Z := fun _ _ l => rev l.
Definition reg_of (r : mres) (k : nat) : option Z :=
  match r with MDone _ s => Some (nth k (regs s) 0) | _ => None end.

(* lw t1, 0(zero) ; add t2, t1, t0 ; li t0, 77 ; ret     t0 = 1, mem[0] = 5: t2 must be 6 *)
Definition war_prog : list instr :=
  [I_lw (mk_lw 6 0 0); I_add (mk_add 7 6 5); I_li (mk_li 5 77); I_ret mk_ret].
Example war_unsound :
  reg_of (mvp12_run V1 1000 war_prog no_labels (st_of [(5, 1)] [(0, 5)])) 7 = Some 6 /\
  reg_of (mvp63_run 1 ord_asc 2000 war_prog no_labels (st_of [(5, 1)] [(0, 5)])) 7 = Some 6 /\
  reg_of (mvp63_run 3 ord_asc 2000 war_prog no_labels (st_of [(5, 1)] [(0, 5)])) 7 = Some 82.
Proof. vm_compute. repeat split. Qed.

(* lw t1, 0(zero) ; li t1, 3 ; addi t2, t1, 0 ; ret     mem[0] = 5: t1 must end as 3 *)
Definition waw_prog : list instr :=
  [I_lw (mk_lw 6 0 0); I_li (mk_li 6 3); I_addi (mk_addi 0 7 6); I_ret mk_ret].
Example waw_unsound :
  reg_of (mvp12_run V1 1000 waw_prog no_labels (st_of [] [(0, 5)])) 6 = Some 3 /\
  reg_of (mvp63_run 1 ord_asc 2000 waw_prog no_labels (st_of [] [(0, 5)])) 6 = Some 3 /\
  reg_of (mvp63_run 2 ord_asc 2000 waw_prog no_labels (st_of [] [(0, 5)])) 6 = Some 5.
Proof. vm_compute. repeat split. Qed.

(* lw t1, 0(zero) ; div t2, t3, t1 ; beq zero, zero, L1 ; li t0, 7 ; L1: li a0, 9 ; ret     t3 = 5, mem = 0:
   with three units the div is still waiting for the loaded value when the branch asks for a flush and fails
   inside the flush loop; the error is returned as in the main loop *)
Definition flusherr_prog : list instr :=
  [I_lw (mk_lw 6 0 0); I_div (mk_div 7 28 6); I_beq (mk_beq 0 0 1); I_li (mk_li 5 7); I_li (mk_li 10 9); I_ret mk_ret].
Example flush_error :
  mvp12_run V1 1000 flusherr_prog (one_label 16) (st_of [(28, 5)] []) = MErr EDivZero /\
  mvp63_run 2 ord_asc 2000 flusherr_prog (one_label 16) (st_of [(28, 5)] []) = MErr EDivZero /\
  mvp63_run 3 ord_asc 2000 flusherr_prog (one_label 16) (st_of [(28, 5)] []) = MErr EDivZero.
Proof. vm_compute. repeat split. Qed.

(* nop ; li a5, 2 ; li a5, 92 ; addi t0, a5, 1 ; ret: both li are dispatched in one cycle (the second one
   "renamed" through the WAW hazard), the addi in the next one takes its operand from whichever of the two
   comes first in the Go map pushedRunnersInPreviousCycle *)
Definition fwd_prog : list instr :=
  [I_nop mk_nop; I_li (mk_li 15 2); I_li (mk_li 15 92); I_addi (mk_addi 1 5 15); I_ret mk_ret].
Example forward_order :
  (let r := mvp63_run_os 2 ord_asc 2000 fwd_prog no_labels (st_of [] []) in (reg_of (fst r) 5, snd r)) = (Some 3, true) /\
  (let r := mvp63_run_os 2 ord_desc 2000 fwd_prog no_labels (st_of [] []) in (reg_of (fst r) 5, snd r)) = (Some 93, true).
Proof. vm_compute. split; reflexivity. Qed.

(* li t0, 11 ; sw t0, 8(zero) ; lw t1, 8(zero) ; ret: the store misses L3, its line is marked pending, the load
   of the same line waits for the pending line for ever (nobody fetches it) *)
Definition stld_prog : list instr :=
  [I_li (mk_li 5 11); I_sw (mk_sw 5 8 0); I_lw (mk_lw 6 8 0); I_ret mk_ret].
Lemma run3_st_add app labels ord : forall a b s,
  run3_st (a + b) app labels ord s =
  match run3_st a app labels ord s with inl r => inl r | inr s' => run3_st b app labels ord s' end.
Proof.
  induction a as [|a IH]; intros b s; [reflexivity|]. cbn [Nat.add run3_st].
  destruct (step3 app labels ord s); [reflexivity | apply IH].
Qed.

(* after 625 ticks nothing moves any more: a tick only advances the cycle counter *)
Lemma stld_stuck : exists s0 x eus wus c0,
  init3 1 ord_asc stld_prog (st_of [] []) = Ok s0 /\
  run3_st 625 stld_prog no_labels ord_asc s0 = inr (mk_st3 x eus wus c0 NNormal) /\
  forall c, step3 stld_prog no_labels ord_asc (mk_st3 x eus wus c NNormal) = TCont (mk_st3 x eus wus (c + 1) NNormal).
Proof. do 5 eexists. split; [vm_compute; reflexivity|]. split; [vm_compute; reflexivity|]. intros c. vm_compute. reflexivity. Qed.

Theorem store_miss_hangs_forever fuel : (625 <= fuel)%nat ->
  mvp63_run 1 ord_asc fuel stld_prog no_labels (st_of [] []) = MOutOfFuel.
Proof.
  intros Hf. destruct stld_stuck as (s0 & x & eus & wus & c0 & E0 & E & Hstep).
  assert (Hrun : forall k c, exists c', run3_st k stld_prog no_labels ord_asc (mk_st3 x eus wus c NNormal) = inr (mk_st3 x eus wus c' NNormal)).
  { induction k as [|k IH]; intros c; [exists c; reflexivity|]. cbn [run3_st]. rewrite Hstep. apply IH. }
  unfold mvp63_run, mvp63_run_os. rewrite E0. replace fuel with (625 + (fuel - 625))%nat by lia. rewrite run3_st_add, E.
  destruct (Hrun (fuel - 625)%nat c0) as (c' & ->). reflexivity.
Qed.

Example store_miss_hang :
  mvp63_run 1 ord_asc 20000 stld_prog no_labels (st_of [] []) = MOutOfFuel.
Proof. apply store_miss_hangs_forever. apply Nat.leb_le. reflexivity. Qed.

(* ------------------------------------------------------------------ *)
(* 2. cycles                                                            *)
(* ------------------------------------------------------------------ *)

Lemma finish3_ge : forall ord x cycle c st, finish3 ord x cycle = MDone c st -> cycle <= c.
Proof.
  intros ord x cycle c st H. unfold finish3 in H.
  destruct (flush_lines (lines (m_l3 (x_m x))) (m_mem (x_m x)) 0) as [[mem' c']| |] eqn:E; try discriminate.
  inversion H; subst. apply flush_lines_ge in E. lia.
Qed.

(* the cycle counter a step returns (at least cd) or goes on with (at least cc) *)
Definition cyc_ok (cd cc : Z) (r : step_res3) : Prop :=
  match r with TDone (MDone c _) _ => cd <= c | TDone _ _ => True | TCont s' => cc <= t_cycle s' end.

Lemma cyc_ok_le cd cc cd' cc' r : cd' <= cd -> cc' <= cc -> cyc_ok cd cc r -> cyc_ok cd' cc' r.
Proof. destruct r as [[]|]; cbn; lia. Qed.

Lemma res_of3_cyc A cd cc os (o : outcome A) k : (forall x, cyc_ok cd cc (k x)) -> cyc_ok cd cc (res_of3 os o k).
Proof. intros H. destruct o; cbn; auto. Qed.

Lemma finish3_cyc ord x cycle os cc : cyc_ok cycle cc (TDone (finish3 ord x cycle) os).
Proof. cbn. destruct (finish3 ord x cycle) eqn:E; auto. exact (finish3_ge _ _ _ _ _ E). Qed.

Lemma ret_check3_cyc ord s : cyc_ok (t_cycle s) (t_cycle s) (ret_check3 ord s).
Proof. unfold ret_check3. destruct (_ && _); [apply finish3_cyc | cbn; lia]. Qed.

Lemma flush_advance3_cyc cd s k seq pc from empty : cyc_ok cd (t_cycle s) (flush_advance3 s k seq pc from empty).
Proof. unfold flush_advance3. destruct (flush_next _ _ _); [|destruct empty]; cbn; unfold Flush; lia. Qed.

Lemma back3_cyc ord s cycle z : cyc_ok cycle cycle (back3 ord s cycle z).
Proof.
  destruct z as [[x eus1] o]. unfold back3. destruct (y_err o); [exact I|]. apply res_of3_cyc. intros [x2 wus1].
  destruct (y_ret o); [eapply cyc_ok_le; [| |apply ret_check3_cyc]; cbn; lia|].
  destruct (y_flush o); [cbn; lia|]. destruct (is_empty3 x2 eus1 wus1); [apply finish3_cyc | cbn; lia].
Qed.

(* a step that returns has counted one more cycle; the counter never goes back *)
Lemma step3_cyc app labels ord s : cyc_ok (t_cycle s + 1) (t_cycle s) (step3 app labels ord s).
Proof.
  unfold step3. destruct (t_mode s) as [| | seq pc from | k seq pc from empty].
  - apply res_of3_cyc. intros x1. destruct (eus_main3 labels ord (t_cycle s + 1) x1 (t_eus s) yo_none) as [os1 re].
    apply res_of3_cyc. intros [[x2 eus1] o]. eapply cyc_ok_le; [| |apply back3_cyc]; lia.
  - destruct (eus_drain3 labels ord (t_cycle s) (t_x s) (t_eus s)) as [os1 re]. apply res_of3_cyc. intros [[x1 eus1] er].
    destruct er; [exact I|]. apply res_of3_cyc. intros [x2 wus1]. eapply cyc_ok_le; [| |apply ret_check3_cyc]; cbn; lia.
  - destruct (eus_flush3 labels ord from (t_x s) (t_eus s) (mk_fla true seq pc None)) as [os1 re]. apply res_of3_cyc.
    intros [[x1 eus1] acc]. destruct (a_err acc); [exact I|].
    eapply cyc_ok_le; [| |apply (flush_advance3_cyc (t_cycle s + 1))]; cbn; lia.
  - destruct (nth_error (t_wus s) k); [|exact I]. apply res_of3_cyc. intros r.
    eapply cyc_ok_le; [| |apply (flush_advance3_cyc (t_cycle s + 1))]; cbn; lia.
Qed.

Lemma run3_st_cycles : forall fuel app labels ord s c st os,
  0 <= t_cycle s ->
  run3_st fuel app labels ord s = inl (MDone c st, os) -> 1 <= c.
Proof.
  induction fuel as [|f IH]; intros app labels ord s c st os Hs H; cbn [run3_st] in H; [discriminate|].
  pose proof (step3_cyc app labels ord s) as C. destruct (step3 app labels ord s) as [r os'|s'].
  - injection H as -> ->. cbn in C. lia.
  - cbn in C. eapply IH; [|exact H]. lia.
Qed.

(* a run that returns reports at least one cycle *)
Theorem mvp63_cycles_pos : forall par ord fuel app labels st c st',
  mvp63_run par ord fuel app labels st = MDone c st' -> 1 <= c.
Proof.
  intros par ord fuel app labels st c st' H. unfold mvp63_run, mvp63_run_os in H.
  destruct (init3 par ord app st) as [s| |] eqn:EI; try discriminate.
  destruct (run3_st fuel app labels ord s) as [[r os]|s'] eqn:ER; simpl in H; try discriminate.
  subst r. eapply run3_st_cycles; [|exact ER].
  unfold init3 in EI.
  destruct (new_cache l1LineSize l1Size); try discriminate.
  destruct (new_cache l3LineSize l3Size); try discriminate.
  inversion EI; simpl; lia.
Qed.

(* ------------------------------------------------------------------ *)
(* 3. dispatch width                                                    *)
(* ------------------------------------------------------------------ *)

(* the execute bus holds at most bb_bl runners in its buffer *)
Definition ebus_ok (x : mx) : Prop := zlen (bb_buf (x_ebus x)) <= bb_bl (x_ebus x).

Lemma push_runner3_ok : forall x cycle r x' r',
  ebus_ok x -> push_runner3 x cycle r = Some (x', r') ->
  ebus_ok x' /\ bb_bl (x_ebus x') = bb_bl (x_ebus x).
Proof.
  intros x cycle r x' r' Hx H. unfold push_runner3 in H.
  destruct (bb_canadd (x_ebus x)) eqn:EC; simpl in H; try discriminate.
  inversion H; subst; clear H. unfold ebus_ok in *. simpl.
  unfold bb_canadd in EC. rewrite zlen_app1.
  destruct (zlen (bb_buf (x_ebus x)) =? bb_bl (x_ebus x)) eqn:E; simpl in EC; try discriminate.
  apply Z.eqb_neq in E. split; [lia | reflexivity].
Qed.

Lemma ebus_mark_ok : forall x id ch n b,
  ebus_ok x -> ebus_ok (set_os3 (set_next3 (set_ebus3 x (ebus_mark (x_ebus x) id ch)) n) b) /\
               bb_bl (x_ebus (set_os3 (set_next3 (set_ebus3 x (ebus_mark (x_ebus x) id ch)) n) b)) = bb_bl (x_ebus x).
Proof.
  intros x id ch n b H. unfold ebus_ok in *. simpl. rewrite zlen_map. auto.
Qed.

Lemma after_push3_ebus : forall x l r, x_ebus (fst (after_push3 x l r)) = x_ebus x.
Proof. intros. unfold after_push3. simpl. destruct (InstructionType_IsConditionalBranch _); reflexivity. Qed.

(* A relation between the machine before and after that pushRunner, the marking of a forwarder and what
   follows a push respect is respected by handleRunner, by both loops of controlUnit.cycle and, if the
   fields written at its end do not matter, by controlUnit.cycle. *)
Section CuFrame.
  Variable P : mx -> mx -> Prop.
  Hypothesis Prefl : forall x, P x x.
  Hypothesis Ptrans : forall a b c, P a b -> P b c -> P a c.
  Hypothesis Ppush : forall x cycle r x' r', push_runner3 x cycle r = Some (x', r') -> P x x'.
  Hypothesis Pmark : forall x id ch n b, P x (set_os3 (set_next3 (set_ebus3 x (ebus_mark (x_ebus x) id ch)) n) b).
  Hypothesis Pafter : forall x l r, P x (fst (after_push3 x l r)).

  Lemma push_or_stop3_frame x cycle r stop p s r' x' : push_or_stop3 x cycle r stop = (p, s, r', x') -> P x x'.
  Proof.
    unfold push_or_stop3. destruct (push_runner3 x cycle r) as [[x1 r1]|] eqn:E; intros H; injection H as _ _ _ <-;
      [exact (Ppush _ _ _ _ _ E) | apply Prefl].
  Qed.

  Lemma handle_runner3_frame ord cycle x sk pb r p s r' x' : handle_runner3 ord cycle x sk pb r = (p, s, r', x') -> P x x'.
  Proof.
    unfold handle_runner3.
    destruct (_ && pb); [intros H; injection H as _ _ _ <-; apply Prefl|].
    destruct (_ && _); [intros H; injection H as _ _ _ <-; apply Prefl|].
    destruct (skipped_hazard3 sk (q_instr r)); [intros H; injection H as _ _ _ <-; apply Prefl|].
    destruct (zlen (hazards_of x (q_instr r)) =? 0); [apply push_or_stop3_frame|].
    destruct (should_forward3 ord cycle x r (hazards_of x (q_instr r))) as [[pr reg]|].
    - intros H. exact (Ptrans _ _ _ (Pmark _ _ _ _ _) (push_or_stop3_frame _ _ _ _ _ _ _ _ H)).
    - destruct (should_rename3 _); [apply push_or_stop3_frame|]. intros H; injection H as _ _ _ <-; apply Prefl.
  Qed.

  (* one round of either loop: handleRunner and, after a push, the bookkeeping *)
  Lemma cu_round_frame ord cycle x l r p s r1 x1 : handle_runner3 ord cycle x (l_skipped l) (l_pbranch l) r = (p, s, r1, x1) ->
    P x (fst (if p then after_push3 x1 l r1 else (x1, mk_cul (l_cur l) (l_skipped l ++ [r1]) (l_pbranch l)))).
  Proof. intros H. apply handle_runner3_frame in H. destruct p; [exact (Ptrans _ _ _ H (Pafter _ _ _)) | exact H]. Qed.

  Lemma cu_pending3_frame ord cycle : forall ps kept l x st pend l' x',
    cu_pending3 ord cycle ps kept l x = (st, pend, l', x') -> P x x'.
  Proof.
    induction ps as [|r t IH]; intros kept l x st pend l' x' H; cbn [cu_pending3] in H.
    - injection H as _ _ _ <-. apply Prefl.
    - destruct (handle_runner3 ord cycle x (l_skipped l) (l_pbranch l) r) as [[[p s] r1] x1] eqn:EH.
      apply cu_round_frame in EH. destruct (if p then _ else _) as [x2 l2]. cbn [fst] in EH.
      destruct s; [injection H as _ _ _ <-; exact EH | exact (Ptrans _ _ _ EH (IH _ _ _ _ _ _ _ H))].
  Qed.

  Lemma cu_incoming3_frame ord cycle : forall q pend l x q' pend' l' x',
    cu_incoming3 ord cycle q pend l x = (q', pend', l', x') -> P x x'.
  Proof.
    induction q as [|r0 t IH]; intros pend l x q' pend' l' x' H; cbn [cu_incoming3] in H;
      (destruct (pendingLength <=? zlen pend); [injection H as _ _ _ <-; apply Prefl|]).
    - injection H as _ _ _ <-. apply Prefl.
    - destruct (handle_runner3 ord cycle x (l_skipped l) (l_pbranch l) (r3_of r0)) as [[[p s] r1] x1] eqn:EH.
      apply cu_round_frame in EH. destruct (if p then _ else _) as [x2 l2]. cbn [fst] in EH.
      destruct s; [injection H as _ _ _ <-; exact EH | exact (Ptrans _ _ _ EH (IH _ _ _ _ _ _ _ H))].
  Qed.

  Hypothesis Ppend : forall x p, P x (set_pend3 x p).
  Hypothesis Pprev : forall x p, P x (set_prev3 x p).
  Hypothesis Pcq : forall x q, let c := m_cbus (x_m x) in P x (set_m x (set_cbus (x_m x) (mk_bb (bb_buf c) q (bb_ql c) (bb_bl c)))).

  Lemma cu_cycle3_frame ord cycle x : P x (cu_cycle3 ord cycle x).
  Proof.
    unfold cu_cycle3. destruct (negb (bb_canadd (x_ebus x))); [apply Pprev|].
    destruct (cu_pending3 ord cycle (x_pend x) [] (mk_cul [] [] false) x) as [[[st pend1] l1] x1] eqn:E1.
    apply cu_pending3_frame in E1. destruct st; [exact (Ptrans _ _ _ E1 (Ptrans _ _ _ (Ppend _ _) (Pprev _ _)))|].
    destruct (cu_incoming3 ord cycle (bb_q (m_cbus (x_m x1))) pend1 l1 x1) as [[[q' pend2] l2] x2] eqn:E2.
    apply cu_incoming3_frame in E2.
    exact (Ptrans _ _ _ E1 (Ptrans _ _ _ E2 (Ptrans _ _ _ (Pcq _ _) (Ptrans _ _ _ (Ppend _ _) (Pprev _ _))))).
  Qed.
End CuFrame.

(* controlUnit.cycle keeps the buffer of the execute bus within its length *)
Theorem cu_dispatch_bound3 : forall ord cycle x,
  ebus_ok x -> ebus_ok (cu_cycle3 ord cycle x) /\ bb_bl (x_ebus (cu_cycle3 ord cycle x)) = bb_bl (x_ebus x).
Proof.
  intros ord cycle x.
  apply (cu_cycle3_frame (fun x x' => ebus_ok x -> ebus_ok x' /\ bb_bl (x_ebus x') = bb_bl (x_ebus x))); clear; try (cbv zeta; auto; fail).
  - intros a b c H1 H2 Ha. destruct (H1 Ha) as [Hb E1]. destruct (H2 Hb) as [Hc E2]. split; [exact Hc | congruence].
  - intros x cycle r x' r' E Hx. exact (push_runner3_ok x cycle r x' r' Hx E).
  - intros x id ch n b. apply ebus_mark_ok.
  - intros x l r. unfold ebus_ok. rewrite after_push3_ebus. auto.
Qed.

(* the number of runners the control unit adds in one cycle is at most the free room of the buffer;
   NewCPU builds the execute bus with busSize = 2, so at most two per cycle *)
Corollary mvp63_dispatch_width : forall ord cycle x,
  bb_bl (x_ebus x) = 2 -> ebus_ok x ->
  zlen (bb_buf (x_ebus (cu_cycle3 ord cycle x))) <= 2.
Proof.
  intros ord cycle x HB Hx. destruct (cu_dispatch_bound3 ord cycle x Hx) as [H1 H2].
  unfold ebus_ok in H1. rewrite H2, HB in H1. exact H1.
Qed.

(* ------------------------------------------------------------------ *)
(* 4. the ghost flag is sound: a run that ends with the flag clear is   *)
(*    the same for every iteration order of the stores' maps and of the *)
(*    control unit's map of the runners pushed in the previous cycle    *)
(* ------------------------------------------------------------------ *)


(* destruct the scrutinee of every match / if in the type of hypothesis H, keeping the equations;
   the caller closes the cases *)
Ltac split_hyp H :=
  repeat match type of H with
         | context [match ?e with _ => _ end] => destruct e eqn:?
         | context [if ?e then _ else _] => destruct e eqn:?
         end.

Lemma du_loop3_os : forall q app cycle ret pbr cbus x ret' pbr' q' cbus' x',
  du_loop3 q app cycle ret pbr cbus x = Ok (ret', pbr', q', cbus', x') -> x_os x' = x_os x.
Proof.
  induction q as [|pc q IH]; intros app cycle ret pbr cbus x ret' pbr' q' cbus' x' H; simpl in H.
  - inversion H; reflexivity.
  - destruct (nlen6 app <=? Z.quot pc 4); [inversion H; reflexivity|].
    destruct (Z.quot pc 4 <? 0); [discriminate|].
    destruct (nth_error app (Z.to_nat (Z.quot pc 4))) as [i|]; [|discriminate].
    destruct (InstructionType_IsUnconditionalBranch (instr_InstructionType i)); [inversion H; reflexivity|].
    destruct (instr_InstructionType i =? Ret); [inversion H; reflexivity|].
    apply IH in H. exact H.
Qed.

Lemma du_cycle3_os : forall app cycle x x', du_cycle3 app cycle x = Ok x' -> x_os x' = x_os x.
Proof.
  intros app cycle x x' H. unfold du_cycle3 in H.
  destruct (m_dret (x_m x)); [inversion H; reflexivity|].
  destruct (m_dpbr (x_m x)); [inversion H; reflexivity|].
  destruct (du_loop3 _ _ _ _ _ _ _) as [[[[[ret pbr] q'] cbus'] x1]| |] eqn:E; simpl in H; try discriminate.
  inversion H; subst. simpl. eapply du_loop3_os; eauto.
Qed.

Lemma bu_assert3_os : forall x r, x_os (bu_assert3 x r) = x_os x.
Proof.
  intros. unfold bu_assert3.
  destruct (InstructionType_IsUnconditionalBranch _).
  - destruct (btb_get _ _); reflexivity.
  - destruct (InstructionType_IsConditionalBranch _); reflexivity.
Qed.

Lemma eu_run3_os : forall labels ord cycle x e b x' e' o,
  eu_run3 labels ord cycle x e = (b, Ok (x', e', o)) -> x_os x' = x_os x.
Proof.
  intros labels ord cycle x e b x' e' o H. unfold eu_run3, quiet3, bind in H.
  split_hyp H; simpl in *; try discriminate; inversion H; subst; simpl; auto.
Qed.

Lemma eu_prepare3_os : forall labels ord cycle x e b x' e' o,
  eu_prepare3 labels ord cycle x e = (b, Ok (x', e', o)) -> x_os x' = x_os x.
Proof.
  intros labels ord cycle x e b x' e' o H. unfold eu_prepare3, quiet3 in H.
  destruct (negb (bb_canadd (m_wbus (x_m x)))); [inversion H; reflexivity|].
  destruct (g_runner e) as [r|]; [|discriminate].
  match type of H with context [match ?rcv with Some _ => _ | None => _ end] =>
    destruct rcv as [[x0 r1]|] eqn:ER end; [|inversion H; reflexivity].
  assert (HX : x_os x0 = x_os x).
  { destruct (q_recv r); [|inversion ER; reflexivity].
    destruct (aget z (x_chan x)); [|discriminate]. inversion ER; reflexivity. }
  destruct (instr_MemoryRead _ _ _) eqn:EA.
  - apply eu_run3_os in H. rewrite H, bu_assert3_os. exact HX.
  - unfold bind in H.
    split_hyp H; simpl in *; try discriminate; inversion H; subst; simpl; rewrite bu_assert3_os; exact HX.
Qed.

Lemma eu_cycle3_os : forall labels ord cycle x e b x' e' o,
  eu_cycle3 labels ord cycle x e = (b, Ok (x', e', o)) -> x_os x' = x_os x.
Proof.
  intros labels ord cycle x e b x' e' o H. unfold eu_cycle3, quiet3 in H.
  destruct (eu_pre3 e); [inversion H; reflexivity|].
  destruct (g_co e).
  - destruct (bb_get (x_ebus x)) as [ebus' [r|]]; [|inversion H; reflexivity].
    apply eu_prepare3_os in H. exact H.
  - apply eu_prepare3_os in H. exact H.
  - destruct (0 <? rem); [inversion H; reflexivity|]. apply eu_run3_os in H. exact H.
  - destruct (0 <? rem); [inversion H; reflexivity|].
    destruct (eu_fill6 _ _ _) as [[m1 e1]| |]; try discriminate.
    apply eu_run3_os in H. exact H.
Qed.

Lemma eus_main3_os : forall labels ord cycle eus x acc b x' eus' o,
  eus_main3 labels ord cycle x eus acc = (b, Ok (x', eus', o)) -> x_os x' = x_os x.
Proof.
  induction eus as [|e t IH]; intros x acc b x' eus' o H; simpl in H.
  - inversion H; reflexivity.
  - destruct (eu_cycle3 _ _ _ _ _) as [os1 r1] eqn:E1.
    destruct r1 as [[[x1 e1] o1]| |]; try discriminate.
    apply eu_cycle3_os in E1.
    destruct (y_err o1); [inversion H; subst; exact E1|].
    destruct (eus_main3 labels ord cycle x1 t _) as [os2 r] eqn:E2.
    destruct r as [[[x2 t'] acc2]| |]; simpl in H; try discriminate.
    inversion H; subst. apply IH in E2. congruence.
Qed.

Lemma eus_drain3_os : forall labels ord cycle eus x b x' eus' o,
  eus_drain3 labels ord cycle x eus = (b, Ok (x', eus', o)) -> x_os x' = x_os x.
Proof.
  induction eus as [|e t IH]; intros x b x' eus' o H; simpl in H.
  - inversion H; reflexivity.
  - destruct (eu_empty3 e).
    + destruct (eus_drain3 labels ord cycle x t) as [os2 r] eqn:E2.
      destruct r as [[[x2 t'] er]| |]; simpl in H; try discriminate.
      inversion H; subst. eapply IH; eauto.
    + destruct (eu_cycle3 _ _ _ _ _) as [os1 r1] eqn:E1.
      destruct r1 as [[[x1 e1] o1]| |]; try discriminate.
      apply eu_cycle3_os in E1.
      destruct (y_err o1); [inversion H; subst; exact E1|].
      destruct (eus_drain3 labels ord cycle x1 t) as [os2 r] eqn:E2.
      destruct r as [[[x2 t'] er]| |]; simpl in H; try discriminate.
      inversion H; subst. apply IH in E2. congruence.
Qed.

Lemma eus_flush3_os : forall labels ord from eus x acc b x' eus' o,
  eus_flush3 labels ord from x eus acc = (b, Ok (x', eus', o)) -> x_os x' = x_os x.
Proof.
  induction eus as [|e t IH]; intros x acc b x' eus' o H; simpl in H.
  - inversion H; reflexivity.
  - destruct (eu_empty3 e).
    + destruct (eus_flush3 labels ord from x t acc) as [os2 r] eqn:E2.
      destruct r as [[[x2 t'] er]| |]; simpl in H; try discriminate.
      inversion H; subst. eapply IH; eauto.
    + destruct (eu_cycle3 _ _ _ _ _) as [os1 r1] eqn:E1.
      destruct r1 as [[[x1 e1] o1]| |]; try discriminate.
      apply eu_cycle3_os in E1.
      destruct (y_err o1); [inversion H; subst; exact E1|].
      destruct (eus_flush3 labels ord from x1 t _) as [os2 r] eqn:E2.
      destruct r as [[[x2 t'] er]| |]; simpl in H; try discriminate.
      inversion H; subst. apply IH in E2. congruence.
Qed.

Lemma wu_cycle3_os : forall x w before x' w', wu_cycle3 x w before = Ok (x', w') -> x_os x' = x_os x.
Proof.
  intros x w before x' w' H. unfold wu_cycle3, bind in H.
  split_hyp H; simpl in *; try discriminate; inversion H; subst; simpl; auto.
Qed.

Lemma wus_cycle3_os : forall wus x before x' wus', wus_cycle3 x wus before = Ok (x', wus') -> x_os x' = x_os x.
Proof.
  induction wus as [|w t IH]; intros x before x' wus' H; simpl in H.
  - inversion H; reflexivity.
  - destruct (wu_cycle3 x w before) as [[x1 w1]| |] eqn:E1; simpl in H; try discriminate.
    destruct (wus_cycle3 x1 t before) as [[x2 t']| |] eqn:E2; simpl in H; try discriminate.
    inversion H; subst. apply wu_cycle3_os in E1. apply IH in E2. congruence.
Qed.

(* ---------- orders ---------- *)

Lemma first_some_some : forall A B (f : A -> option B) l v,
  first_some f l = Some v -> exists a, In a l /\ f a = Some v.
Proof.
  induction l as [|a t IH]; intros v H; simpl in H; [discriminate|].
  destruct (f a) eqn:E.
  - inversion H; subst. exists a. split; [left; reflexivity | exact E].
  - destruct (IH v H) as [b [H1 H2]]. exists b. split; [right; exact H1 | exact H2].
Qed.

Lemma first_some_none : forall A B (f : A -> option B) l,
  first_some f l = None -> forall a, In a l -> f a = None.
Proof.
  induction l as [|a t IH]; intros H b Hb; simpl in *; [contradiction|].
  destruct (f a) eqn:E; [discriminate|].
  destruct Hb as [Hb|Hb]; [subst; exact E | apply IH; auto].
Qed.

Lemma first_some_in : forall A B (f : A -> option B) l a v,
  In a l -> f a = Some v -> exists b w, In b l /\ f b = Some w /\ first_some f l = Some w.
Proof.
  induction l as [|c t IH]; intros a v Ha Hf; simpl in *; [contradiction|].
  destruct (f c) eqn:E.
  - exists c, b. auto.
  - destruct Ha as [Ha|Ha]; [subst; congruence|].
    destruct (IH a v Ha Hf) as [b [w [H1 [H2 H3]]]]. exists b, w. auto.
Qed.

Lemma first_some_set : forall A B (f : A -> option B) l1 l2,
  (forall a, In a l1 <-> In a l2) ->
  (forall a b u v, In a l1 -> In b l1 -> f a = Some u -> f b = Some v -> a = b) ->
  first_some f l1 = first_some f l2.
Proof.
  intros A B f l1 l2 Hs Hu.
  destruct (first_some f l1) as [v|] eqn:E1.
  - destruct (first_some_some _ _ _ _ _ E1) as [a [Ha Hf]].
    destruct (first_some_in _ _ f l2 a v (proj1 (Hs a) Ha) Hf) as [b [w [Hb [Hfb Hw]]]].
    rewrite Hw. assert (a = b) by (eapply Hu; eauto; apply Hs; exact Hb). subst. congruence.
  - destruct (first_some f l2) as [w|] eqn:E2; [|reflexivity].
    destruct (first_some_some _ _ _ _ _ E2) as [b [Hb Hf]].
    rewrite (first_some_none _ _ _ _ E1 b (proj2 (Hs b) Hb)) in Hf. discriminate.
Qed.

Lemma filter_two : forall A (c : A -> bool) l a b,
  In a l -> In b l -> a <> b -> c a = true -> c b = true -> 1 < zlen (filter c l).
Proof.
  intros A c l a b Ha Hb Hab Ca Cb.
  assert (Ia : In a (filter c l)) by (apply filter_In; auto).
  assert (Ib : In b (filter c l)) by (apply filter_In; auto).
  unfold zlen. destruct (filter c l) as [|x [|y t]]; simpl in *.
  - contradiction.
  - destruct Ia as [Ia|[]], Ib as [Ib|[]]. congruence.
  - lia.
Qed.

(* with the flag clear the forwarding source does not depend on the order *)
Lemma should_forward3_ord : forall ord1 ord2 cycle x r hz,
  forward_order_matters x r = false ->
  should_forward3 ord1 cycle x r hz = should_forward3 ord2 cycle x r hz.
Proof.
  intros ord1 ord2 cycle x r hz H. unfold should_forward3.
  destruct hz as [|[[|?|?] ?] [|? ?]]; try reflexivity.
  apply first_some_set.
  - intros a. unfold map_order. rewrite !iter_order_In. tauto.
  - intros a b u v _ _ Fa Fb.
    destruct (find (fun p => q_id p =? a) (x_prev x)) as [pa|] eqn:Ea; [|discriminate].
    destruct (find (fun p => q_id p =? b) (x_prev x)) as [pb|] eqn:Eb; [|discriminate].
    destruct (fwd_match _ pa) eqn:Ma; [|discriminate].
    destruct (fwd_match _ pb) eqn:Mb; [|discriminate].
    apply find_some in Ea. apply find_some in Eb. destruct Ea as [Ia Qa], Eb as [Ib Qb].
    apply Z.eqb_eq in Qa. apply Z.eqb_eq in Qb.
    destruct (Z.eq_dec a b) as [|N]; [assumption|]. exfalso.
    unfold forward_order_matters in H. apply Z.ltb_ge in H.
    assert (pa <> pb) by (intros E; subst; congruence).
    pose proof (filter_two _ (fun p => match fwd_match (instr_ReadRegisters (q_instr r)) p with Some _ => true | None => false end)
                           (x_prev x) pa pb Ia Ib H0) as F.
    simpl in F. rewrite Ma, Mb in F. specialize (F eq_refl eq_refl). lia.
Qed.

Lemma first_some_none_set : forall A B (f : A -> option B) l1 l2,
  (forall a, In a l2 -> In a l1) -> first_some f l1 = None -> first_some f l2 = None.
Proof.
  intros A B f l1 l2 Hs H.
  destruct (first_some f l2) as [w|] eqn:E2; [|reflexivity].
  destruct (first_some_some _ _ _ _ _ E2) as [b [Hb Hf]].
  rewrite (first_some_none _ _ _ _ H b (Hs b Hb)) in Hf. discriminate.
Qed.

Lemma should_forward3_none : forall ord1 ord2 cycle x r hz,
  should_forward3 ord1 cycle x r hz = None -> should_forward3 ord2 cycle x r hz = None.
Proof.
  intros ord1 ord2 cycle x r hz H. unfold should_forward3 in *.
  destruct hz as [|[[|?|?] ?] [|? ?]]; try reflexivity.
  eapply first_some_none_set; [|exact H].
  intros a. unfold map_order. rewrite !iter_order_In. tauto.
Qed.

Lemma push_or_stop3_os : forall x cycle r stop p s r' x',
  push_or_stop3 x cycle r stop = (p, s, r', x') -> x_os x' = x_os x.
Proof.
  intros x cycle r stop p s r' x' H. unfold push_or_stop3, push_runner3 in H.
  destruct (negb (bb_canadd (x_ebus x))); inversion H; reflexivity.
Qed.

(* x_os of the result false: same result under the other order, and the flag was clear before *)
Lemma handle_runner3_ord : forall ord1 ord2 cycle x sk pb r p s r' x',
  handle_runner3 ord1 cycle x sk pb r = (p, s, r', x') -> x_os x' = false ->
  handle_runner3 ord2 cycle x sk pb r = (p, s, r', x') /\ x_os x = false.
Proof.
  intros ord1 ord2 cycle x sk pb r p s r' x' H Hos. unfold handle_runner3 in *.
  destruct (_ && pb); [inversion H; subst; auto|].
  destruct (_ && _); [inversion H; subst; auto|].
  destruct (skipped_hazard3 sk (q_instr r)); [inversion H; subst; auto|].
  destruct (zlen (hazards_of x (q_instr r)) =? 0).
  - split; [exact H|]. apply push_or_stop3_os in H. congruence.
  - destruct (should_forward3 ord1 cycle x r (hazards_of x (q_instr r))) as [[pr reg]|] eqn:E1.
    + pose proof (push_or_stop3_os _ _ _ _ _ _ _ _ H) as Hp. simpl in Hp.
      rewrite Hos in Hp. symmetry in Hp. apply orb_false_iff in Hp. destruct Hp as [Hx Hf].
      rewrite <- (should_forward3_ord ord1 ord2 cycle x r _ Hf), E1. auto.
    + rewrite (should_forward3_none ord1 ord2 cycle x r _ E1).
      destruct (should_rename3 _).
      * split; [exact H|]. apply push_or_stop3_os in H. congruence.
      * inversion H; subst; auto.
Qed.

Lemma after_push3_os : forall x l r, x_os (fst (after_push3 x l r)) = x_os x.
Proof. intros. unfold after_push3. simpl. destruct (InstructionType_IsConditionalBranch _); reflexivity. Qed.

(* one round of either loop of controlUnit.cycle *)
Lemma cu_round_ord : forall ord1 ord2 cycle x l r p s r1 x1,
  handle_runner3 ord1 cycle x (l_skipped l) (l_pbranch l) r = (p, s, r1, x1) ->
  x_os (fst (if p then after_push3 x1 l r1 else (x1, mk_cul (l_cur l) (l_skipped l ++ [r1]) (l_pbranch l)))) = false ->
  handle_runner3 ord2 cycle x (l_skipped l) (l_pbranch l) r = (p, s, r1, x1) /\ x_os x = false.
Proof.
  intros ord1 ord2 cycle x l r p s r1 x1 EH K. apply (handle_runner3_ord ord1 ord2 _ _ _ _ _ _ _ _ _ EH).
  destruct p; [rewrite after_push3_os in K|]; exact K.
Qed.

Lemma cu_pending3_ord : forall ord1 ord2 cycle ps kept l x st pend l' x',
  cu_pending3 ord1 cycle ps kept l x = (st, pend, l', x') -> x_os x' = false ->
  cu_pending3 ord2 cycle ps kept l x = (st, pend, l', x') /\ x_os x = false.
Proof.
  induction ps as [|r t IH]; intros kept l x st pend l' x' H Hos; cbn [cu_pending3] in *.
  - inversion H; subst; auto.
  - destruct (handle_runner3 ord1 cycle x (l_skipped l) (l_pbranch l) r) as [[[p s] r1] x1] eqn:EH.
    pose proof (cu_round_ord ord1 ord2 _ _ _ _ _ _ _ _ EH) as R.
    destruct (if p then _ else _) as [x2 l2] eqn:EA. cbn [fst] in R.
    assert (K : x_os x2 = false) by (destruct s; [injection H as _ _ _ <-; exact Hos | exact (proj2 (IH _ _ _ _ _ _ _ H Hos))]).
    destruct (R K) as [-> Hx]. rewrite EA. split; [|exact Hx].
    destruct s; [exact H | exact (proj1 (IH _ _ _ _ _ _ _ H Hos))].
Qed.

Lemma cu_incoming3_ord : forall ord1 ord2 cycle q pend l x q' pend' l' x',
  cu_incoming3 ord1 cycle q pend l x = (q', pend', l', x') -> x_os x' = false ->
  cu_incoming3 ord2 cycle q pend l x = (q', pend', l', x') /\ x_os x = false.
Proof.
  induction q as [|r0 t IH]; intros pend l x q' pend' l' x' H Hos; cbn [cu_incoming3] in *;
    (destruct (pendingLength <=? zlen pend); [inversion H; subst; auto|]).
  - inversion H; subst; auto.
  - destruct (handle_runner3 ord1 cycle x (l_skipped l) (l_pbranch l) (r3_of r0)) as [[[p s] r1] x1] eqn:EH.
    pose proof (cu_round_ord ord1 ord2 _ _ _ _ _ _ _ _ EH) as R.
    destruct (if p then _ else _) as [x2 l2] eqn:EA. cbn [fst] in R.
    assert (K : x_os x2 = false) by (destruct s; [injection H as _ _ _ <-; exact Hos | exact (proj2 (IH _ _ _ _ _ _ _ H Hos))]).
    destruct (R K) as [-> Hx]. rewrite EA. split; [|exact Hx].
    destruct s; [exact H | exact (proj1 (IH _ _ _ _ _ _ _ H Hos))].
Qed.

Lemma cu_cycle3_ord : forall ord1 ord2 cycle x,
  x_os (cu_cycle3 ord1 cycle x) = false ->
  cu_cycle3 ord2 cycle x = cu_cycle3 ord1 cycle x /\ x_os x = false.
Proof.
  intros ord1 ord2 cycle x H. unfold cu_cycle3 in *.
  destruct (negb (bb_canadd (x_ebus x))); [auto|].
  destruct (cu_pending3 ord1 cycle (x_pend x) [] (mk_cul [] [] false) x) as [[[st pend1] l1] x1] eqn:E1.
  assert (K : x_os x1 = false).
  { destruct st; [exact H|].
    destruct (cu_incoming3 ord1 cycle (bb_q (m_cbus (x_m x1))) pend1 l1 x1) as [[[q' pend2] l2] x2] eqn:E2.
    simpl in H. apply (cu_incoming3_ord ord1 ord2) in E2; [|exact H]. tauto. }
  destruct (cu_pending3_ord ord1 ord2 _ _ _ _ _ _ _ _ _ E1 K) as [E1' Hx]. rewrite E1'.
  split; [|exact Hx].
  destruct st; [reflexivity|].
  destruct (cu_incoming3 ord1 cycle (bb_q (m_cbus (x_m x1))) pend1 l1 x1) as [[[q' pend2] l2] x2] eqn:E2.
  simpl in H. apply (cu_incoming3_ord ord1 ord2) in E2; [|exact H]. destruct E2 as [E2 _]. rewrite E2. reflexivity.
Qed.

(* the four Connect calls at the beginning of a cycle *)
Definition connected3 (x : mx) (cycle : Z) : mx :=
  let m := x_m x in
  let m := set_wbus (set_cbus (set_dbus m (bb_connect (m_dbus m) cycle)) (bb_connect (m_cbus m) cycle))
                    (bb_connect (m_wbus m) cycle) in
  set_ebus3 (set_m x m) (bb_connect (x_ebus x) cycle).

Lemma front3_eq : forall app ord cycle x,
  front3 app ord cycle x =
  match fu_cycle6 app cycle (m_fu (x_m (connected3 x cycle))) (m_l1i (x_m (connected3 x cycle))) (m_dbus (x_m (connected3 x cycle))) with
  | Ok (fu1, l1i1, dbus1) =>
      match du_cycle3 app cycle (set_m (connected3 x cycle) (set_dbus (set_l1i (set_fu (x_m (connected3 x cycle)) fu1) l1i1) dbus1)) with
      | Ok x1 => Ok (cu_cycle3 ord cycle x1)
      | Err e => Err e
      | Panic => Panic
      end
  | Err e => Err e
  | Panic => Panic
  end.
Proof. reflexivity. Qed.

Lemma connected3_os : forall x cycle, x_os (connected3 x cycle) = x_os x.
Proof. reflexivity. Qed.

(* front3: the flag of the result is that of cu_cycle3 *)
Lemma front3_ord : forall app ord1 ord2 cycle x x',
  front3 app ord1 cycle x = Ok x' -> x_os x' = false ->
  front3 app ord2 cycle x = Ok x' /\ x_os x = false.
Proof.
  intros app ord1 ord2 cycle x x' H Hos. rewrite front3_eq in *.
  destruct (fu_cycle6 app cycle _ _ _) as [[[fu1 l1i1] dbus1]| |]; try discriminate H.
  destruct (du_cycle3 app cycle _) as [x1| |] eqn:ED; try discriminate H.
  injection H as H. subst x'.
  destruct (cu_cycle3_ord ord1 ord2 cycle x1 Hos) as [E Hx1]. rewrite E. split; [reflexivity|].
  apply du_cycle3_os in ED. rewrite Hx1 in ED. symmetry. exact ED.
Qed.

Lemma front3_err : forall app ord1 ord2 cycle x,
  (forall x', front3 app ord1 cycle x <> Ok x') -> front3 app ord2 cycle x = front3 app ord1 cycle x.
Proof.
  intros app ord1 ord2 cycle x H. rewrite !front3_eq in *.
  destruct (fu_cycle6 app cycle _ _ _) as [[[fu1 l1i1] dbus1]| |]; try reflexivity.
  destruct (du_cycle3 app cycle _) as [x1| |]; try reflexivity.
  exfalso. eapply H. reflexivity.
Qed.

(* ---------- execute units ---------- *)

(* the two order functions are iteration orders, and they agree on the maps whose order is not
   observable (the RAT value maps, pc < 0) *)
Definition ords_ok3 (ord1 ord2 : Z -> Z -> list Z -> list Z) : Prop :=
  ord_ok ord1 /\ ord_ok ord2 /\ forall cycle pc keys, pc < 0 -> ord1 cycle pc keys = ord2 cycle pc keys.

Lemma commit_vals_ord : forall ord1 ord2 cycle crat vals,
  ords_ok3 ord1 ord2 -> commit_vals ord1 cycle crat vals = commit_vals ord2 cycle crat vals.
Proof.
  intros ord1 ord2 cycle crat vals [_ [_ A]]. unfold commit_vals, map_order. rewrite (A cycle (-1)); [reflexivity | lia].
Qed.

Lemma rat_commit3_ord : forall ord1 ord2 cycle x,
  ords_ok3 ord1 ord2 -> rat_commit3 ord1 cycle x = rat_commit3 ord2 cycle x.
Proof. intros. unfold rat_commit3. rewrite (commit_vals_ord ord1 ord2); auto. Qed.

Lemma rat_rollback3_ord : forall ord1 ord2 cycle x s,
  ords_ok3 ord1 ord2 -> rat_rollback3 ord1 cycle x s = rat_rollback3 ord2 cycle x s.
Proof. intros. unfold rat_rollback3. rewrite (commit_vals_ord ord1 ord2); auto. Qed.

Lemma rat_flush3_ord : forall ord1 ord2 cycle x,
  ords_ok3 ord1 ord2 -> rat_flush3 ord1 cycle x = rat_flush3 ord2 cycle x.
Proof.
  intros ord1 ord2 cycle x [_ [_ A]]. unfold rat_flush3, map_order. rewrite (A cycle (-1)); [reflexivity | lia].
Qed.

Lemma eu_run3_fst : forall labels ord1 ord2 cycle x e,
  fst (eu_run3 labels ord1 cycle x e) = fst (eu_run3 labels ord2 cycle x e).
Proof.
  intros. unfold eu_run3. destruct (g_runner e); [|reflexivity].
  destruct (instr_Run _ _ _ _ _ _) as [exe| |]; try reflexivity.
  destruct (Return exe); reflexivity.
Qed.

Lemma eu_run3_ord : forall labels ord1 ord2 cycle x e,
  ords_ok3 ord1 ord2 -> fst (eu_run3 labels ord1 cycle x e) = false ->
  eu_run3 labels ord1 cycle x e = eu_run3 labels ord2 cycle x e.
Proof.
  intros labels ord1 ord2 cycle x e O H. pose proof O as [O1 [O2 A]]. unfold eu_run3 in *.
  destruct (g_runner e) as [r|]; [|reflexivity].
  destruct (instr_Run _ _ _ _ _ _) as [exe| |]; try reflexivity.
  destruct (Return exe); [reflexivity|].
  cbn [fst] in H. f_equal.
  destruct (MemoryChange exe) eqn:MC.
  - cbn [andb] in H.
    match goal with |- bind (bind (get_from_l3 ?c ?p _ _) ?k) _ = _ =>
      rewrite (l3_same_bind _ (get_from_l3 c p (ord1 cycle (q_pc r) (map fst (sort_changes (MemoryChanges exe)))) [])
                              (get_from_l3 c p (ord2 cycle (q_pc r) (map fst (sort_changes (MemoryChanges exe)))) [])
                              (get_from_l3 c p (map fst (sort_changes (MemoryChanges exe))) []) k)
    end.
    + match goal with |- bind ?a _ = bind ?a _ => destruct a as [[m1 in_l3]| |]; try reflexivity end.
      cbn [bind]. cbv zeta.
      rewrite ?(rat_rollback3_ord ord1 ord2), ?(rat_commit3_ord ord1 ord2) by exact O. reflexivity.
    + apply som_false; auto.
    + apply som_false; auto.
    + intros; reflexivity.
  - cbn [bind]. cbv zeta.
    rewrite ?(rat_rollback3_ord ord1 ord2), ?(rat_commit3_ord ord1 ord2) by exact O. reflexivity.
Qed.

Lemma eu_prepare3_ord : forall labels ord1 ord2 cycle x e,
  ords_ok3 ord1 ord2 -> fst (eu_prepare3 labels ord1 cycle x e) = false ->
  eu_prepare3 labels ord1 cycle x e = eu_prepare3 labels ord2 cycle x e.
Proof.
  intros labels ord1 ord2 cycle x e O H. unfold eu_prepare3 in *.
  destruct (negb (bb_canadd (m_wbus (x_m x)))); [reflexivity|].
  destruct (g_runner e) as [r|]; [|reflexivity].
  match goal with |- match ?rcv with Some _ => _ | None => _ end = _ => destruct rcv as [[x0 r1]|] end; [|reflexivity].
  destruct (instr_MemoryRead _ _ _); [|reflexivity].
  now apply eu_run3_ord.
Qed.

Lemma eu_cycle3_ord : forall labels ord1 ord2 cycle x e,
  ords_ok3 ord1 ord2 -> fst (eu_cycle3 labels ord1 cycle x e) = false ->
  eu_cycle3 labels ord1 cycle x e = eu_cycle3 labels ord2 cycle x e.
Proof.
  intros labels ord1 ord2 cycle x e O H. unfold eu_cycle3 in *.
  destruct (eu_pre3 e); [reflexivity|].
  destruct (g_co e).
  - destruct (bb_get (x_ebus x)) as [ebus' [r|]]; [|reflexivity]. now apply eu_prepare3_ord.
  - now apply eu_prepare3_ord.
  - destruct (0 <? rem); [reflexivity|]. now apply eu_run3_ord.
  - destruct (0 <? rem); [reflexivity|].
    destruct (eu_fill6 _ _ _) as [[m1 e1]| |]; try reflexivity. now apply eu_run3_ord.
Qed.

Lemma eus_main3_ord : forall labels ord1 ord2 cycle eus x acc,
  ords_ok3 ord1 ord2 -> fst (eus_main3 labels ord1 cycle x eus acc) = false ->
  eus_main3 labels ord1 cycle x eus acc = eus_main3 labels ord2 cycle x eus acc.
Proof.
  intros labels ord1 ord2 cycle eus. induction eus as [|e t IH]; intros x acc O H; [reflexivity|].
  simpl in *.
  destruct (eu_cycle3 labels ord1 cycle x _) as [os1 r1] eqn:E1.
  assert (os1 = false) as Hos1.
  { destruct r1 as [[[x1 e1] o]| |]; simpl in H; auto.
    destruct (y_err o); simpl in H; auto.
    destruct (eus_main3 labels ord1 cycle x1 t _) as [os2 r]. simpl in H.
    apply orb_false_iff in H. tauto. }
  subst os1.
  rewrite <- (eu_cycle3_ord labels ord1 ord2 cycle x _ O) by (rewrite E1; reflexivity). rewrite E1.
  destruct r1 as [[[x1 e1] o]| |]; try reflexivity.
  destruct (y_err o); [reflexivity|].
  match goal with |- context [eus_main3 labels ord1 cycle x1 t ?a] =>
    destruct (eus_main3 labels ord1 cycle x1 t a) as [os2 r] eqn:E2;
    simpl in H; subst os2;
    rewrite <- (IH x1 a O) by (rewrite E2; reflexivity); rewrite E2 end.
  reflexivity.
Qed.

Lemma eus_drain3_ord : forall labels ord1 ord2 cycle eus x,
  ords_ok3 ord1 ord2 -> fst (eus_drain3 labels ord1 cycle x eus) = false ->
  eus_drain3 labels ord1 cycle x eus = eus_drain3 labels ord2 cycle x eus.
Proof.
  intros labels ord1 ord2 cycle eus. induction eus as [|e t IH]; intros x O H; [reflexivity|].
  simpl in *. destruct (eu_empty3 e).
  - destruct (eus_drain3 labels ord1 cycle x t) as [os r] eqn:E1.
    simpl in H. subst os.
    rewrite <- (IH x O) by (rewrite E1; reflexivity). rewrite E1. reflexivity.
  - destruct (eu_cycle3 labels ord1 cycle x e) as [os1 r1] eqn:E1.
    assert (os1 = false) as Hos1.
    { destruct r1 as [[[x1 e1] o]| |]; simpl in H; auto.
      destruct (y_err o); simpl in H; auto.
      destruct (eus_drain3 labels ord1 cycle x1 t) as [os2 r]. simpl in H.
      apply orb_false_iff in H. tauto. }
    subst os1.
    rewrite <- (eu_cycle3_ord labels ord1 ord2 cycle x e O) by (rewrite E1; reflexivity). rewrite E1.
    destruct r1 as [[[x1 e1] o]| |]; try reflexivity.
    destruct (y_err o); [reflexivity|].
    destruct (eus_drain3 labels ord1 cycle x1 t) as [os2 r] eqn:E2.
    simpl in H. subst os2.
    rewrite <- (IH x1 O) by (rewrite E2; reflexivity). rewrite E2. reflexivity.
Qed.

Lemma eus_flush3_ord : forall labels ord1 ord2 from eus x acc,
  ords_ok3 ord1 ord2 -> fst (eus_flush3 labels ord1 from x eus acc) = false ->
  eus_flush3 labels ord1 from x eus acc = eus_flush3 labels ord2 from x eus acc.
Proof.
  intros labels ord1 ord2 from eus. induction eus as [|e t IH]; intros x acc O H; [reflexivity|].
  simpl in *. destruct (eu_empty3 e).
  - destruct (eus_flush3 labels ord1 from x t acc) as [os r] eqn:E1.
    simpl in H. subst os.
    rewrite <- (IH x acc O) by (rewrite E1; reflexivity). rewrite E1. reflexivity.
  - destruct (eu_cycle3 labels ord1 from x e) as [os1 r1] eqn:E1.
    assert (os1 = false) as Hos1.
    { destruct r1 as [[[x1 e1] o]| |]; simpl in H; auto.
      destruct (y_err o); simpl in H; auto.
      destruct (eus_flush3 labels ord1 from x1 t _) as [os2 r]. simpl in H.
      apply orb_false_iff in H. tauto. }
    subst os1.
    rewrite <- (eu_cycle3_ord labels ord1 ord2 from x e O) by (rewrite E1; reflexivity). rewrite E1.
    destruct r1 as [[[x1 e1] o]| |]; try reflexivity.
    destruct (y_err o); [reflexivity|].
    match goal with |- context [eus_flush3 labels ord1 from x1 t ?a] =>
      destruct (eus_flush3 labels ord1 from x1 t a) as [os2 r] eqn:E2;
      simpl in H; subst os2;
      rewrite <- (IH x1 a O) by (rewrite E2; reflexivity); rewrite E2 end.
    reflexivity.
Qed.

(* ---------- steps ---------- *)

(* the flag a step ends with *)
Definition res_os3 (r : step_res3) : bool := match r with TDone _ os => os | TCont s' => x_os (t_x s') end.

Lemma res_of3_os : forall A os (o : outcome A) k,
  (forall x, res_os3 (k x) = os) -> res_os3 (res_of3 os o k) = os.
Proof. intros A os o k H. destruct o; simpl; auto. Qed.

Lemma finish3_ord : forall ord1 ord2 x cycle, ords_ok3 ord1 ord2 -> finish3 ord1 x cycle = finish3 ord2 x cycle.
Proof.
  intros ord1 ord2 x cycle O. unfold finish3.
  rewrite (rat_commit3_ord ord1 ord2 cycle x O), (rat_flush3_ord ord1 ord2 cycle _ O). reflexivity.
Qed.

Lemma ret_check3_ord : forall ord1 ord2 s, ords_ok3 ord1 ord2 -> ret_check3 ord1 s = ret_check3 ord2 s.
Proof. intros ord1 ord2 s O. unfold ret_check3. rewrite (finish3_ord ord1 ord2 _ _ O). reflexivity. Qed.

Lemma ret_check3_os : forall ord s, res_os3 (ret_check3 ord s) = x_os (t_x s).
Proof. intros. unfold ret_check3. destruct (_ && _); reflexivity. Qed.

Lemma flush_advance3_os : forall s k seq pc from empty, res_os3 (flush_advance3 s k seq pc from empty) = x_os (t_x s).
Proof. intros. unfold flush_advance3. destruct (flush_next _ _ _); [reflexivity|]. destruct empty; reflexivity. Qed.

Lemma back3_os : forall ord s cycle x eus o, res_os3 (back3 ord s cycle (x, eus, o)) = x_os x.
Proof.
  intros. unfold back3. destruct (y_err o); [reflexivity|].
  destruct (wus_cycle3 x (t_wus s) _) as [[x2 wus1]| |] eqn:E; cbn [res_of3]; try reflexivity.
  apply wus_cycle3_os in E.
  destruct (y_ret o); [rewrite ret_check3_os; exact E|].
  destruct (y_flush o); [exact E|].
  destruct (is_empty3 x2 eus wus1); exact E.
Qed.

Lemma back3_ord : forall ord1 ord2 s cycle z, ords_ok3 ord1 ord2 -> back3 ord1 s cycle z = back3 ord2 s cycle z.
Proof.
  intros ord1 ord2 s cycle [[x eus] o] O. unfold back3.
  destruct (y_err o); [reflexivity|].
  destruct (wus_cycle3 x (t_wus s) _) as [[x2 wus1]| |]; cbn [res_of3]; try reflexivity.
  rewrite (ret_check3_ord ord1 ord2 _ O), (finish3_ord ord1 ord2 _ _ O). reflexivity.
Qed.

Lemma step3_ord : forall app labels ord1 ord2 s,
  ords_ok3 ord1 ord2 -> res_os3 (step3 app labels ord1 s) = false ->
  step3 app labels ord1 s = step3 app labels ord2 s /\ x_os (t_x s) = false.
Proof.
  intros app labels ord1 ord2 s O H. unfold step3 in *.
  destruct (t_mode s) as [| | seq pc from | k seq pc from empty].
  - (* main loop *)
    destruct (front3 app ord1 (t_cycle s + 1) (t_x s)) as [x1| |] eqn:EF.
    + cbn [res_of3] in H |- *.
      destruct (eus_main3 labels ord1 (t_cycle s + 1) x1 (t_eus s) yo_none) as [os1 re] eqn:E1.
      assert (K : x_os x1 || os1 = false).
      { destruct re as [[[x2 eus1] o]| |]; cbn [res_of3] in H; try exact H.
        rewrite back3_os in H. apply eus_main3_os in E1. unfold or_os in H. simpl in H. rewrite E1 in H. exact H. }
      apply orb_false_iff in K. destruct K as [K1 K2]. subst os1.
      destruct (front3_ord app ord1 ord2 _ _ _ EF K1) as [EF2 Hx]. rewrite EF2. cbn [res_of3].
      rewrite <- (eus_main3_ord labels ord1 ord2 _ _ _ _ O) by (rewrite E1; reflexivity). rewrite E1.
      split; [|exact Hx].
      destruct re as [[[x2 eus1] o]| |]; cbn [res_of3]; try reflexivity.
      apply back3_ord; exact O.
    + rewrite (front3_err app ord1 ord2) by (intros x' C; rewrite EF in C; discriminate). rewrite EF. auto.
    + rewrite (front3_err app ord1 ord2) by (intros x' C; rewrite EF in C; discriminate). rewrite EF. auto.
  - (* drain loop after ret *)
    destruct (eus_drain3 labels ord1 (t_cycle s) (t_x s) (t_eus s)) as [os1 re] eqn:E1.
    assert (K : x_os (t_x s) || os1 = false).
    { destruct re as [[[x1 eus1] er]| |]; cbn [res_of3] in H; try exact H.
      apply eus_drain3_os in E1.
      destruct er; [simpl in H; rewrite E1 in H; exact H|].
      destruct (wus_cycle3 _ _ _) as [[x2 wus1]| |] eqn:EW; cbn [res_of3] in H.
      - rewrite ret_check3_os in H. apply wus_cycle3_os in EW. simpl in H, EW. rewrite EW, E1 in H. exact H.
      - simpl in H. rewrite E1 in H. exact H.
      - simpl in H. rewrite E1 in H. exact H. }
    apply orb_false_iff in K. destruct K as [K1 K2]. subst os1.
    rewrite <- (eus_drain3_ord labels ord1 ord2 _ _ _ O) by (rewrite E1; reflexivity). rewrite E1.
    split; [|exact K1].
    destruct re as [[[x1 eus1] er]| |]; cbn [res_of3]; try reflexivity.
    destruct er; [reflexivity|].
    destruct (wus_cycle3 _ _ _) as [[x2 wus1]| |]; cbn [res_of3]; try reflexivity.
    apply ret_check3_ord; exact O.
  - (* flush loop *)
    destruct (eus_flush3 labels ord1 from (t_x s) (t_eus s) _) as [os1 re] eqn:E1.
    assert (K : x_os (t_x s) || os1 = false).
    { destruct re as [[[x1 eus1] acc]| |]; cbn [res_of3] in H; try exact H.
      apply eus_flush3_os in E1.
      destruct (a_err acc); [simpl in H; rewrite E1 in H; exact H|].
      rewrite flush_advance3_os in H. simpl in H. rewrite E1 in H. exact H. }
    apply orb_false_iff in K. destruct K as [K1 K2]. subst os1.
    rewrite <- (eus_flush3_ord labels ord1 ord2 _ _ _ _ O) by (rewrite E1; reflexivity). rewrite E1.
    auto.
  - split; [reflexivity|].
    destruct (nth_error (t_wus s) k); [|exact H].
    destruct (wu_cycle3 (t_x s) w seq) as [[x1 w1]| |] eqn:EW; cbn [res_of3] in H; try exact H.
    rewrite flush_advance3_os in H. apply wu_cycle3_os in EW. simpl in H. congruence.
Qed.

(* the flag a run ends with *)
Definition final_os3 (r : (mres * bool) + st3) : bool :=
  match r with inl (_, os) => os | inr s' => x_os (t_x s') end.

Theorem run3_st_ord_irrelevant : forall fuel app labels ord1 ord2 s,
  ords_ok3 ord1 ord2 -> final_os3 (run3_st fuel app labels ord1 s) = false ->
  run3_st fuel app labels ord1 s = run3_st fuel app labels ord2 s /\ x_os (t_x s) = false.
Proof.
  induction fuel as [|f IH]; intros app labels ord1 ord2 s O H; simpl in *; [auto|].
  destruct (step3 app labels ord1 s) as [r os|s'] eqn:E.
  - simpl in H. subst os.
    destruct (step3_ord app labels ord1 ord2 s O) as [E2 Hs]; [rewrite E; reflexivity|].
    rewrite <- E2, E. auto.
  - destruct (IH app labels ord1 ord2 s' O H) as [R Hs'].
    destruct (step3_ord app labels ord1 ord2 s O) as [E2 Hs]; [rewrite E; exact Hs'|].
    rewrite <- E2, E. auto.
Qed.

Lemma init3_ord : forall par ord1 ord2 app st, ords_ok3 ord1 ord2 -> init3 par ord1 app st = init3 par ord2 app st.
Proof.
  intros par ord1 ord2 app st [_ [_ A]]. unfold init3, init_rat3, map_order.
  rewrite (A 0 (-2)); [reflexivity | lia].
Qed.

(* a run of MVP-6.3 that ends with the ghost flag clear returns the same result whatever the iteration
   orders of the stores' MemoryChanges maps and of the control unit's map of the runners pushed in the
   previous cycle *)
Theorem mvp63_ord_irrelevant : forall par fuel app labels st ord1 ord2 r,
  ords_ok3 ord1 ord2 ->
  mvp63_run_os par ord1 fuel app labels st = (r, false) ->
  mvp63_run_os par ord2 fuel app labels st = (r, false).
Proof.
  intros par fuel app labels st ord1 ord2 r O H. unfold mvp63_run_os in *.
  rewrite <- (init3_ord par ord1 ord2 app st O).
  destruct (init3 par ord1 app st) as [s| |]; auto.
  destruct (run3_st_ord_irrelevant fuel app labels ord1 ord2 s O) as [E _].
  - destruct (run3_st fuel app labels ord1 s) as [[r1 os1]|s1]; inversion H; reflexivity.
  - rewrite <- E. exact H.
Qed.


Print Assumptions mvp63_cycles_pos.
Print Assumptions cu_dispatch_bound3.
Print Assumptions war_unsound.
Print Assumptions forward_order.
Print Assumptions mvp63_ord_irrelevant.
