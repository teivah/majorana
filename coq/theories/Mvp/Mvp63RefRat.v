(* Refinement of MVP-6.3 to the sequential machine on single-assignment, register-only,
   straight-line programs: the register alias tables at the two ends of Run.

   init_rat_read   ctx.InitRAT(): committedRAT reads the initial register file, whatever the order in
                   which Go iterates ctx.Registers;
   finish3_ok      RATCommit ; RATFlush under BI with w instructions written back: ctx.Registers becomes
                   the sequential register file after w instructions, whatever the order of the two iterations. *)
From Coq Require Import ZArith List Bool Lia Permutation.
From Maj Require Import Base.Outcome Base.GoInt Base.GoTypes Isa.Spec Isa.Embed Isa.Seq Isa.Refine.
From Maj Require Import Gen.Latency Gen.RiscTables Gen.Opcodes Comp.Cache Comp.Rat Comp.RatProofs.
From Maj Require Import Mvp.Mvp12 Mvp.Mvp12Proofs Mvp.Mvp3 Mvp.Mvp3Proofs Mvp.Mvp4Skel Mvp.Mvp4Inv Mvp.Mvp5 Mvp.Mvp60
     Mvp.Mvp60RefSem Mvp.Mvp60RefDefs Mvp.Mvp60RefFront Mvp.Mvp60RefBack Mvp.Mvp60RefStep Mvp.Mvp63 Mvp.Mvp63RefDefs Mvp.Mvp63RefInv.
Import ListNotations.
Open Scope Z_scope.

Lemma fold_left_ext_in {A B} (f g : A -> B -> A) l : (forall a b, In b l -> f a b = g a b) -> forall a, fold_left f l a = fold_left g l a.
Proof.
  induction l as [|b t IH]; intros H a; cbn [fold_left]; [reflexivity|].
  rewrite (H a b (or_introl eq_refl)). apply IH. intros a' b' Hb. apply H. right. exact Hb.
Qed.

Lemma aget_map_keys {A} (g : Z -> A) keys r : aget r (map (fun k => (k, g k)) keys) = if memZ r keys then Some (g r) else None.
Proof.
  induction keys as [|k t IH]; cbn [map aget memZ existsb]; [reflexivity|]. fold (memZ r t).
  destruct (Z.eqb_spec r k) as [->|]; cbn [orb]; [reflexivity | exact IH].
Qed.

Lemma memZ_regkeys n r : memZ r (map Z.of_nat (seq 0 n)) = (0 <=? r) && (r <? Z.of_nat n).
Proof.
  destruct (memZ r (map Z.of_nat (seq 0 n))) eqn:E.
  - apply memZ_In in E. apply in_map_iff in E as (k & <- & Hk). apply in_seq in Hk. symmetry. apply andb_true_iff. split; [apply Z.leb_le | apply Z.ltb_lt]; lia.
  - destruct (Z.leb_spec 0 r), (Z.ltb_spec r (Z.of_nat n)); try reflexivity. exfalso.
    assert (Hin : In r (map Z.of_nat (seq 0 n))) by (apply in_map_iff; exists (Z.to_nat r); split; [lia | apply in_seq; lia]).
    apply memZ_In in Hin. congruence.
Qed.

Lemma rat_read_new {V} (zero : V) len k : rat_read zero (rat_new len) k = None.
Proof. reflexivity. Qed.

(* ctx.InitRAT() *)
Lemma init_rat_read ord regs : rat_ok (init_rat3 ord regs) /\
  forall r, rat_read 0 (init_rat3 ord regs) r = if (0 <=? r) && (r <? Z.of_nat (length regs)) then Some (nth (Z.to_nat r) regs 0) else None.
Proof.
  unfold init_rat3. set (keys := map Z.of_nat (seq 0 (length regs))). set (order := map_order ord 0 (-2) keys).
  set (vals := map (fun k => (k, nth (Z.to_nat k) regs 0)) keys).
  assert (E : fold_left (fun c k => rat_write 0 c k (nth (Z.to_nat k) regs 0)) order (rat_new ratLength)
              = wfold 0 (fun v : Z => v) vals order (rat_new ratLength)).
  { unfold wfold. apply fold_left_ext_in. intros c k Hk. unfold vals. rewrite aget_map_keys.
    assert (Hm : memZ k keys = true) by (apply memZ_In; unfold order, map_order in Hk; apply iter_order_In in Hk; exact Hk).
    rewrite Hm. reflexivity. }
  rewrite E. destruct (fold_rat_write_read 0 (fun v : Z => v) vals order (rat_new ratLength) (rat_new_ok ratLength ltac:(unfold ratLength; lia))) as [Hok Hrd].
  split; [exact Hok|]. intros r. rewrite Hrd. unfold order, map_order. rewrite memZ_iter_order. unfold vals. rewrite aget_map_keys.
  unfold keys. rewrite memZ_regkeys. destruct ((0 <=? r) && (r <? Z.of_nat (length regs))); reflexivity.
Qed.

(* for k, v := range vals { regs[k] = v } *)
Lemma flush_fold (vals : list (Z * Z)) : (forall k v, aget k vals = Some v -> 0 <= k) -> forall order rs s, (s < length rs)%nat ->
  nth s (fold_left (fun rs k => match aget k vals with Some v => Seq.upd rs (Z.to_nat k) v | None => rs end) order rs) 0
  = if memZ (Z.of_nat s) order then match aget (Z.of_nat s) vals with Some v => v | None => nth s rs 0 end else nth s rs 0.
Proof.
  intros Hnn. induction order as [|k t IH]; intros rs s Hs; cbn [fold_left]; [reflexivity|].
  set (rs' := match aget k vals with Some v => Seq.upd rs (Z.to_nat k) v | None => rs end).
  assert (Hl : length rs' = length rs) by (unfold rs'; destruct (aget k vals); [apply supd_length | reflexivity]).
  rewrite IH by (rewrite Hl; exact Hs). unfold memZ. cbn [existsb]. fold (memZ (Z.of_nat s) t).
  destruct (Z.eqb_spec (Z.of_nat s) k) as [<-|Hne]; cbn [orb].
  - unfold rs'. destruct (aget (Z.of_nat s) vals) as [v|] eqn:Ea.
    + rewrite Nat2Z.id, supd_nth_eq by exact Hs. destruct (memZ (Z.of_nat s) t); reflexivity.
    + destruct (memZ (Z.of_nat s) t); reflexivity.
  - assert (Hn : nth s rs' 0 = nth s rs 0).
    { unfold rs'. destruct (aget k vals) as [v|] eqn:Ea; [|reflexivity]. apply supd_nth_neq. specialize (Hnn k v Ea). lia. }
    rewrite Hn. reflexivity.
Qed.

Lemma flush_fold_length (vals : list (Z * Z)) : forall order rs,
  length (fold_left (fun rs k => match aget k vals with Some v => Seq.upd rs (Z.to_nat k) v | None => rs end) order rs) = length rs.
Proof.
  induction order as [|k t IH]; intros rs; cbn [fold_left]; [reflexivity|]. rewrite IH. destruct (aget k vals); [apply supd_length | reflexivity].
Qed.

Section Fin.
  Variables (app : list instr) (labels : Z -> option Z) (regs0 mem0 : list Z) (ord : Z -> Z -> list Z -> list Z).
  Hypothesis Hssa : ssa app = true.
  Hypothesis Hrng : regs_ok app = true.
  Hypothesis Hlen0 : length regs0 = 32%nat.
  Hypothesis Hx0 : nth 0 regs0 0 = 0.

  Notation sreg := (sreg app labels regs0 0).
  Notation tv := (tv app labels regs0).
  Notation view := (view app labels regs0).
  Notation BI := (BI app labels regs0 mem0).

  (* slot 0 of the sequential register file is never written *)
  Lemma sreg_zero k : nth 0 (sreg k) 0 = nth 0 regs0 0.
  Proof.
    assert (Hl : (length regs0 <= 32)%nat) by lia.
    rewrite <- (sreg_base app labels regs0 0 Hl 0 (le_n 0)) at 2. apply sreg_stable; [exact Hl | lia|].
    intros j _ Hin. unfold Mvp60RefSem.wsl in Hin. apply slots_in in Hin as (r & Hr & Hnz & Hz).
    pose proof (wrs_rng app Hrng j r Hr). lia.
  Qed.

  Lemma view_sreg_all w s : (s < 32)%nat -> view w (Z.of_nat s) = nth s (sreg w) 0.
  Proof.
    intros Hs. destruct s as [|s].
    - change (Z.of_nat 0) with 0. rewrite (view_zero app labels regs0 w Hx0), sreg_zero. symmetry. exact Hx0.
    - rewrite (view_sreg app labels regs0 Hrng Hlen0 w (Z.of_nat (S s)) ltac:(lia)), Nat2Z.id. reflexivity.
  Qed.

  (* RATCommit ; RATFlush: the two tables together show view w *)
  Lemma commit_flush dp d xe w pl pv x cy : BI dp d xe w pl pv x ->
    rat_flush3 ord cy (rat_commit3 ord cy x) = sreg w.
  Proof.
    intros HB. pose proof (bi_cok _ _ _ _ _ _ _ _ _ _ _ HB) as Hcok. pose proof (bi_crat _ _ _ _ _ _ _ _ _ _ _ HB) as Hcr.
    pose proof (bi_trat _ _ _ _ _ _ _ _ _ _ _ HB) as Htr. pose proof (bi_regs _ _ _ _ _ _ _ _ _ _ _ HB) as Hregs.
    unfold rat_flush3, rat_commit3. cbn [x_crat x_m set_rats3].
    set (tvals := rat_values tu0 (x_trat x)).
    assert (Ecv : commit_vals ord cy (x_crat x) tvals = wfold 0 (fun tu : Z * Z => snd tu) tvals (map_order ord cy (-1) (akeys tvals)) (x_crat x)) by reflexivity.
    rewrite Ecv. destruct (fold_rat_write_read 0 (fun tu : Z * Z => snd tu) tvals (map_order ord cy (-1) (akeys tvals)) (x_crat x) Hcok) as [Hok' Hrd'].
    set (crat' := wfold 0 (fun tu : Z * Z => snd tu) tvals (map_order ord cy (-1) (akeys tvals)) (x_crat x)) in *.
    (* what committedRAT reads after the commit *)
    assert (Hread : forall r, rat_read 0 crat' r = if (0 <=? r) && (r <? 32) then Some (view w r) else None).
    { intros r. rewrite Hrd'. unfold map_order. rewrite memZ_iter_order, memZ_akeys. unfold tvals. rewrite aget_rat_values, Htr, Hcr.
      unfold Mvp63RefDefs.view. destruct (tv w r) as [sv|] eqn:Et.
      - assert (Hr : 0 <= r < 32) by (apply (tv_rng app labels regs0 Hrng Hlen0 w r); rewrite Et; discriminate).
        destruct (Z.leb_spec 0 r), (Z.ltb_spec r 32); try lia. reflexivity.
      - destruct ((0 <=? r) && (r <? 32)); reflexivity. }
    set (cvals := rat_values 0 crat').
    assert (Haget : forall k, aget k cvals = if (0 <=? k) && (k <? 32) then Some (view w k) else None).
    { intros k. unfold cvals. rewrite aget_rat_values. apply Hread. }
    apply (nth_ext _ _ 0 0).
    - rewrite flush_fold_length, Hregs, sreg_length. reflexivity.
    - intros s Hs. rewrite flush_fold_length, Hregs, Hlen0 in Hs.
      rewrite flush_fold.
      + unfold map_order. rewrite memZ_iter_order, memZ_akeys, Haget.
        destruct (Z.leb_spec 0 (Z.of_nat s)), (Z.ltb_spec (Z.of_nat s) 32); try lia. cbn [andb]. apply view_sreg_all. exact Hs.
      + intros k v Hk. rewrite Haget in Hk. destruct (Z.leb_spec 0 k); [exact H | discriminate].
      + rewrite Hregs, Hlen0. exact Hs.
  Qed.

  (* cycle += mmu.flush(); RATCommit(); RATFlush(); return *)
  Lemma finish3_ok dp d xe w pl pv x cy : BI dp d xe w pl pv x ->
    finish3 ord x cy = MDone cy (mk_arch (sreg w) mem0).
  Proof.
    intros HB. unfold finish3. rewrite (bi_l3 _ _ _ _ _ _ _ _ _ _ _ HB). cbn [flush_lines]. rewrite Z.add_0_r.
    rewrite (commit_flush _ _ _ _ _ _ _ _ HB), (bi_mem _ _ _ _ _ _ _ _ _ _ _ HB). reflexivity.
  Qed.
End Fin.
