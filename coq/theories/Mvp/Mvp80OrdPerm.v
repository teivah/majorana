(* Every function of the model of MVP-8.0 (Mvp80.v) EXCEPT the snoop phase (cc_snoop_cycle / sn_run / sn_create_all,
   called only from snoops8) is a CONGRUENCE for cc_perm (Mvp80OrdSnoop.v): two machines whose cache controllers only
   differ by a permutation of their lists of pending snoop closures, everything else literally equal, are
   indistinguishable for coRead / coWrite / flush / writeBack and for the whole pipeline.  Outside the snoop phase
   c_snoop is only copied, and tested for emptiness (cc_snoop_isstart): a permutation of [] is []. *)
From Coq Require Import ZArith List Bool Lia Permutation.
From Maj Require Import Base.Outcome Base.GoInt Base.GoTypes Isa.Spec Isa.Seq.
From Maj Require Import Gen.Latency Gen.RiscTables Gen.Opcodes Comp.Cache Comp.Rat Comp.RatProofs Mvp.Mvp12 Mvp.Mvp3 Mvp.Mvp5 Mvp.Mvp60 Mvp.Mvp63 Mvp.Mvp80.
From Maj Require Import Mvp.Mvp80OrdSnoop Mvp.Mvp80OrdFrame Mvp.Mvp80OrdProofs.
Import ListNotations.
Open Scope Z_scope.

Definition my_perm (y1 y2 : my) : Prop :=
  y_x y1 = y_x y2 /\ y_msi y1 = y_msi y2 /\ y_copy y1 = y_copy y2 /\ y_pref y1 = y_pref y2 /\ Forall2 cc_perm (y_ccs y1) (y_ccs y2).

Definition orelp {A} (R : A -> A -> Prop) (o1 o2 : outcome A) : Prop :=
  match o1, o2 with Ok a, Ok b => R a b | Err e1, Err e2 => e1 = e2 | Panic, Panic => True | _, _ => False end.

Definition st_perm (s1 s2 : st8) : Prop :=
  my_perm (v_y s1) (v_y s2) /\ v_eus s1 = v_eus s2 /\ v_wus s1 = v_wus s2 /\ v_cycle s1 = v_cycle s2 /\ v_mode s1 = v_mode s2.

Definition res_perm (r1 r2 : step_res8) : Prop :=
  match r1, r2 with
  | VDone a os1, VDone b os2 => a = b /\ os1 = os2
  | VCont s1, VCont s2 => st_perm s1 s2
  | _, _ => False
  end.

(* results: a related controller / machine, the rest equal *)
Definition crel2r {B} (r1 r2 : cc8 * B) : Prop := cc_perm (fst r1) (fst r2) /\ snd r1 = snd r2.
Definition crel2l {A} (r1 r2 : A * cc8) : Prop := fst r1 = fst r2 /\ cc_perm (snd r1) (snd r2).
Definition crel3 {A C} (r1 r2 : A * cc8 * C) : Prop :=
  fst (fst r1) = fst (fst r2) /\ cc_perm (snd (fst r1)) (snd (fst r2)) /\ snd r1 = snd r2.
Definition yprel2 {B} (r1 r2 : my * B) : Prop := my_perm (fst r1) (fst r2) /\ snd r1 = snd r2.
Definition yprel3 {B C} (r1 r2 : my * B * C) : Prop :=
  my_perm (fst (fst r1)) (fst (fst r2)) /\ snd (fst r1) = snd (fst r2) /\ snd r1 = snd r2.

Lemma orelp_refl : forall A (R : A -> A -> Prop) o, (forall a, R a a) -> orelp R o o.
Proof. intros A R [a|e|] H; cbn [orelp]; auto. Qed.

Lemma orelp_bind : forall A B (R : A -> A -> Prop) (S : B -> B -> Prop) m1 m2 f g,
  orelp R m1 m2 -> (forall a b, R a b -> orelp S (f a) (g b)) -> orelp S (bind m1 f) (bind m2 g).
Proof.
  intros A B R S [a|e|] [b|e'|] f g H K; cbn [orelp bind] in *; try contradiction; auto.
Qed.

Lemma orelp_impl : forall A (R S : A -> A -> Prop) o1 o2, (forall a b, R a b -> S a b) -> orelp R o1 o2 -> orelp S o1 o2.
Proof. intros A R S [a|e|] [b|e'|] K H; cbn [orelp] in *; auto. Qed.

(* two related controllers are the same controller with another snoop list *)
Lemma cc_perm_set_snoop : forall c1 c2, cc_perm c1 c2 -> c2 = set_snoop c1 (c_snoop c2).
Proof.
  intros [i1 l1 r1 w1 s1 rs1 ws1 p1] [i2 l2 r2 w2 s2 rs2 ws2 p2]. unfold cc_perm, set_snoop.
  cbn [c_id c_l1d c_read c_write c_snoop c_rsems c_wsems c_post].
  intros (A & B & C & D & E & F & G & H). subst. reflexivity.
Qed.

Lemma set_snoop_perm : forall c l1 l2, Permutation l1 l2 -> cc_perm (set_snoop c l1) (set_snoop c l2).
Proof.
  intros c l1 l2 P. unfold cc_perm, set_snoop. cbn [c_id c_l1d c_read c_write c_snoop c_rsems c_wsems c_post].
  repeat split; try reflexivity. exact P.
Qed.

Lemma cc_perm_mk : forall a b c d s1 s2 e f g, Permutation s1 s2 ->
  cc_perm (mk_cc a b c d s1 e f g) (mk_cc a b c d s2 e f g).
Proof.
  intros. unfold cc_perm. cbn [c_id c_l1d c_read c_write c_snoop c_rsems c_wsems c_post].
  repeat split; try reflexivity. assumption.
Qed.

(* lists of controllers *)
Lemma F2cc_refl : forall l, Forall2 cc_perm l l.
Proof. induction l; constructor; auto using cc_perm_refl. Qed.

Lemma F2cc_sym : forall l1 l2, Forall2 cc_perm l1 l2 -> Forall2 cc_perm l2 l1.
Proof. induction 1; constructor; auto using cc_perm_sym. Qed.

Lemma F2cc_trans : forall l1 l2 l3, Forall2 cc_perm l1 l2 -> Forall2 cc_perm l2 l3 -> Forall2 cc_perm l1 l3.
Proof.
  intros l1 l2 l3 H. revert l3. induction H; intros l3 K; inversion K; subst; constructor; eauto using cc_perm_trans.
Qed.

Lemma F2cc_length : forall l1 l2, Forall2 cc_perm l1 l2 -> length l1 = length l2.
Proof. induction 1; cbn [length]; congruence. Qed.

Lemma F2cc_nth : forall l1 l2 i, Forall2 cc_perm l1 l2 ->
  match nth_error l1 i, nth_error l2 i with
  | Some a, Some b => cc_perm a b
  | None, None => True
  | _, _ => False
  end.
Proof. intros l1 l2 i H. revert i. induction H; intros [|i]; cbn [nth_error]; try exact I; try assumption. apply IHForall2. Qed.

Lemma F2cc_set_nth : forall l1 l2 i c1 c2, Forall2 cc_perm l1 l2 -> cc_perm c1 c2 ->
  Forall2 cc_perm (set_nth6 l1 i c1) (set_nth6 l2 i c2).
Proof.
  intros l1 l2 i c1 c2 H C. revert i. induction H; intros [|i]; cbn [set_nth6]; constructor; auto.
Qed.

Lemma cc_snoop_isstart_perm : forall c1 c2, cc_perm c1 c2 -> cc_snoop_isstart c1 = cc_snoop_isstart c2.
Proof.
  intros c1 c2 (_ & _ & _ & _ & P & _). unfold cc_snoop_isstart.
  destruct (c_snoop c1) as [|a t], (c_snoop c2) as [|b u]; try reflexivity.
  - apply Permutation_nil in P. discriminate.
  - apply Permutation_sym in P. apply Permutation_nil in P. discriminate.
Qed.

(* the emptiness test of the final loop *)
Lemma F2cc_isstart : forall l1 l2, Forall2 cc_perm l1 l2 ->
  forallb cc_snoop_isstart l1 = forallb cc_snoop_isstart l2.
Proof.
  induction 1; cbn [forallb]; [reflexivity|]. rewrite IHForall2.
  rewrite (cc_snoop_isstart_perm _ _ H). reflexivity.
Qed.

Lemma my_perm_refl : forall y, my_perm y y.
Proof. intros y. unfold my_perm. repeat split; try reflexivity. apply F2cc_refl. Qed.

Lemma my_perm_sym : forall y1 y2, my_perm y1 y2 -> my_perm y2 y1.
Proof.
  intros y1 y2 (A & B & C & D & E). unfold my_perm. repeat split; try (symmetry; assumption). apply F2cc_sym. exact E.
Qed.

Lemma my_perm_trans : forall y1 y2 y3, my_perm y1 y2 -> my_perm y2 y3 -> my_perm y1 y3.
Proof.
  intros y1 y2 y3 (A & B & C & D & E) (A' & B' & C' & D' & E'). unfold my_perm.
  repeat split; try congruence. eapply F2cc_trans; eassumption.
Qed.

Lemma st_perm_refl : forall s, st_perm s s.
Proof. intros s. unfold st_perm. split; [apply my_perm_refl|]. repeat split. Qed.

Lemma mk_my_perm : forall x k cp pf l1 l2, Forall2 cc_perm l1 l2 -> my_perm (mk_my x k cp pf l1) (mk_my x k cp pf l2).
Proof.
  intros. unfold my_perm. cbn [y_x y_msi y_copy y_pref y_ccs]. repeat split; try reflexivity. assumption.
Qed.

Create HintDb permc.
#[export] Hint Resolve cc_perm_refl cc_perm_mk set_snoop_perm F2cc_refl F2cc_set_nth my_perm_refl mk_my_perm Permutation_refl : permc.

Ltac cc_destruct c1 c2 H :=
  destruct c1 as [?id1 ?ld1 ?rd1 ?wr1 ?sn1 ?rs1 ?ws1 ?po1], c2 as [?id2 ?ld2 ?rd2 ?wr2 ?sn2 ?rs2 ?ws2 ?po2];
  unfold cc_perm in H; cbn [c_id c_l1d c_read c_write c_snoop c_rsems c_wsems c_post] in H;
  destruct H as (?Hid & ?Hld & ?Hrd & ?Hwr & ?Hsn & ?Hrs & ?Hws & ?Hpo); subst.

Ltac my_destruct y1 y2 H :=
  destruct y1 as [?x1 ?k1 ?cp1 ?pf1 ?ccs1], y2 as [?x2 ?k2 ?cp2 ?pf2 ?ccs2]; unfold my_perm in H;
  cbn [y_x y_msi y_copy y_pref y_ccs] in H; destruct H as (?Hx & ?Hk & ?Hcp & ?Hpf & ?Hccs); subst.

Ltac pm_cbn := cbn [fst snd w_mem w_l3 w_msi set_wmsi set_wl3 set_wmem
                     c_id c_l1d c_read c_write c_snoop c_rsems c_wsems c_post set_l1d set_read set_write set_snoop
                     cc_read_isstart cc_write_isstart
                     y_x y_msi y_copy y_pref y_ccs set_x set_ymsi set_ccs mw_of put_mw put_cc or_os8 wbus_connect8 y_os].

Ltac rel_destruct :=
  repeat match goal with
  | H : crel3 ?a ?b |- _ =>
      destruct a as [[? ?] ?], b as [[? ?] ?]; unfold crel3 in H; cbn [fst snd] in H; destruct H as (? & ? & ?); subst
  | H : crel2r ?a ?b |- _ =>
      destruct a as [? ?], b as [? ?]; unfold crel2r in H; cbn [fst snd] in H; destruct H as (? & ?); subst
  | H : crel2l ?a ?b |- _ =>
      destruct a as [? ?], b as [? ?]; unfold crel2l in H; cbn [fst snd] in H; destruct H as (? & ?); subst
  | H : yprel3 ?a ?b |- _ =>
      destruct a as [[? ?] ?], b as [[? ?] ?]; unfold yprel3 in H; cbn [fst snd] in H; destruct H as (? & ? & ?); subst
  | H : yprel2 ?a ?b |- _ =>
      destruct a as [? ?], b as [? ?]; unfold yprel2 in H; cbn [fst snd] in H; destruct H as (? & ?); subst
  | H : cc_perm ?a ?b |- _ => is_var a; is_var b; cc_destruct a b H
  | H : my_perm ?a ?b |- _ => is_var a; is_var b; my_destruct a b H
  end.

Ltac rel_close :=
  match goal with
  | |- crel3 _ _ => unfold crel3; cbn [fst snd]; split; [reflexivity | split; [solve [eauto 12 with permc] | reflexivity]]
  | |- crel2r _ _ => unfold crel2r; cbn [fst snd]; split; [solve [eauto 12 with permc] | reflexivity]
  | |- crel2l _ _ => unfold crel2l; cbn [fst snd]; split; [reflexivity | solve [eauto 12 with permc]]
  | |- yprel3 _ _ => unfold yprel3; cbn [fst snd]; split; [solve [eauto 12 with permc] | split; reflexivity]
  | |- yprel2 _ _ => unfold yprel2; cbn [fst snd]; split; [solve [eauto 12 with permc] | reflexivity]
  | |- cc_perm _ _ => solve [eauto 12 with permc]
  | |- my_perm _ _ => solve [eauto 12 with permc]
  end.

Ltac cong1 :=
  match goal with
  | H : Forall2 cc_perm ?l1 ?l2 |- context [nth_error ?l1 ?i] =>
      let N := fresh "N" in
      pose proof (F2cc_nth l1 l2 i H) as N;
      destruct (nth_error l1 i), (nth_error l2 i); cbv beta iota in N; try contradiction; rel_destruct
  | |- orelp _ (Ok _) (Ok _) => cbn [orelp]; rel_close
  | |- orelp _ Panic Panic => exact I
  | |- orelp _ (Err _) (Err _) => reflexivity
  | |- orelp _ (bind ?m _) (bind ?m _) => destruct m; cbn [bind]
  | |- orelp _ (if ?b then _ else _) (if ?b then _ else _) => destruct b
  | |- orelp _ (match ?e with _ => _ end) (match ?e with _ => _ end) => destruct e
  | |- orelp _ (bind _ _) (bind _ _) => eapply orelp_bind; [solve [eauto 12 with permc] | intros ? ? ?Hr; rel_destruct]
  end.

Ltac cong := repeat (pm_cbn; cong1); try solve [eauto 12 with permc].

Ltac cc_start :=
  intros; match goal with H : cc_perm ?c1 ?c2 |- _ => cc_destruct c1 c2 H end.

Lemma cc_push_l1_perm : forall c1 c2 addr ln, cc_perm c1 c2 -> orelp crel2r (cc_push_l1 c1 addr ln) (cc_push_l1 c2 addr ln).
Proof. cc_start. unfold cc_push_l1. cong. Qed.
#[export] Hint Resolve cc_push_l1_perm : permc.

Lemma rd_stay_perm : forall w c1 c2 s, cc_perm c1 c2 -> orelp crel3 (rd_stay w c1 s) (rd_stay w c2 s).
Proof. cc_start. unfold rd_stay. cong. Qed.
#[export] Hint Resolve rd_stay_perm : permc.

Lemma rd_fin_perm : forall w c1 c2 addrs data, cc_perm c1 c2 -> orelp crel3 (rd_fin w c1 addrs data) (rd_fin w c2 addrs data).
Proof. cc_start. unfold rd_fin. cong. Qed.
#[export] Hint Resolve rd_fin_perm : permc.

Lemma rd_l1wait_perm : forall w c1 c2 addrs rem data, cc_perm c1 c2 ->
  orelp crel3 (rd_l1wait w c1 addrs rem data) (rd_l1wait w c2 addrs rem data).
Proof. cc_start. unfold rd_l1wait. cong. Qed.
#[export] Hint Resolve rd_l1wait_perm : permc.

Lemma rd_from_l1_perm : forall w c1 c2 addrs, cc_perm c1 c2 -> orelp crel3 (rd_from_l1 w c1 addrs) (rd_from_l1 w c2 addrs).
Proof. cc_start. unfold rd_from_l1. cong. Qed.
#[export] Hint Resolve rd_from_l1_perm : permc.

Lemma rd_evict_wait_perm : forall w c1 c2 addrs cmd, cc_perm c1 c2 ->
  orelp crel3 (rd_evict_wait w c1 addrs cmd) (rd_evict_wait w c2 addrs cmd).
Proof. cc_start. unfold rd_evict_wait. cong. Qed.
#[export] Hint Resolve rd_evict_wait_perm : permc.

Lemma rd_push_l1_perm : forall w c1 c2 addrs l1a l1dt, cc_perm c1 c2 ->
  orelp crel3 (rd_push_l1 w c1 addrs l1a l1dt) (rd_push_l1 w c2 addrs l1a l1dt).
Proof. cc_start. unfold rd_push_l1. cong. Qed.
#[export] Hint Resolve rd_push_l1_perm : permc.

Lemma rd_sync_perm : forall w c1 c2 addrs, cc_perm c1 c2 -> orelp crel3 (rd_sync w c1 addrs) (rd_sync w c2 addrs).
Proof. cc_start. unfold rd_sync. cong. Qed.
#[export] Hint Resolve rd_sync_perm : permc.

Lemma rd_l3push_perm : forall w c1 c2 addrs rem l3a l3d, cc_perm c1 c2 ->
  orelp crel3 (rd_l3push w c1 addrs rem l3a l3d) (rd_l3push w c2 addrs rem l3a l3d).
Proof. cc_start. unfold rd_l3push. cong. Qed.
#[export] Hint Resolve rd_l3push_perm : permc.

Lemma rd_l3lock_perm : forall w c1 c2 addrs l3a l3d, cc_perm c1 c2 ->
  orelp crel3 (rd_l3lock w c1 addrs l3a l3d) (rd_l3lock w c2 addrs l3a l3d).
Proof. cc_start. unfold rd_l3lock. cong. Qed.
#[export] Hint Resolve rd_l3lock_perm : permc.

Lemma rd_memwait_perm : forall w c1 c2 addrs rem l3a l3d, cc_perm c1 c2 ->
  orelp crel3 (rd_memwait w c1 addrs rem l3a l3d) (rd_memwait w c2 addrs rem l3a l3d).
Proof. cc_start. unfold rd_memwait. cong. Qed.
#[export] Hint Resolve rd_memwait_perm : permc.

Lemma rd_l3wait_perm : forall w c1 c2 addrs rem, cc_perm c1 c2 ->
  orelp crel3 (rd_l3wait w c1 addrs rem) (rd_l3wait w c2 addrs rem).
Proof. cc_start. unfold rd_l3wait. cong. Qed.
#[export] Hint Resolve rd_l3wait_perm : permc.

Lemma rd_pend_perm : forall w c1 c2 addrs rk pend, cc_perm c1 c2 ->
  orelp crel3 (rd_pend w c1 addrs rk pend) (rd_pend w c2 addrs rk pend).
Proof. cc_start. unfold rd_pend. cong. Qed.
#[export] Hint Resolve rd_pend_perm : permc.

Lemma rd_start_perm : forall w c1 c2 addrs, cc_perm c1 c2 -> orelp crel3 (rd_start w c1 addrs) (rd_start w c2 addrs).
Proof. cc_start. unfold rd_start. cong. Qed.
#[export] Hint Resolve rd_start_perm : permc.

Theorem cc_read_cycle_perm : forall w c1 c2 addrs, cc_perm c1 c2 ->
  orelp crel3 (cc_read_cycle w c1 addrs) (cc_read_cycle w c2 addrs).
Proof.
  intros w c1 c2 addrs H. unfold cc_read_cycle.
  replace (c_read c2) with (c_read c1) by (destruct H as (_ & _ & R & _); exact R).
  destruct (c_read c1); eauto 12 with permc.
Qed.
#[export] Hint Resolve cc_read_cycle_perm : permc.

Lemma wr_stay_perm : forall w c1 c2 s, cc_perm c1 c2 -> orelp crel3 (wr_stay w c1 s) (wr_stay w c2 s).
Proof. cc_start. unfold wr_stay. cong. Qed.
#[export] Hint Resolve wr_stay_perm : permc.

Lemma wr_fin_perm : forall w c1 c2 addrs data, cc_perm c1 c2 -> orelp crel3 (wr_fin w c1 addrs data) (wr_fin w c2 addrs data).
Proof. cc_start. unfold wr_fin. cong. Qed.
#[export] Hint Resolve wr_fin_perm : permc.

Lemma wr_final_perm : forall w c1 c2 addrs data rem, cc_perm c1 c2 ->
  orelp crel3 (wr_final w c1 addrs data rem) (wr_final w c2 addrs data rem).
Proof. cc_start. unfold wr_final. cong. Qed.
#[export] Hint Resolve wr_final_perm : permc.

Lemma wr_to_l1_perm : forall w c1 c2 addrs data, cc_perm c1 c2 -> orelp crel3 (wr_to_l1 w c1 addrs data) (wr_to_l1 w c2 addrs data).
Proof. intros. unfold wr_to_l1. eauto 12 with permc. Qed.
#[export] Hint Resolve wr_to_l1_perm : permc.

Lemma wr_to_l1_after_perm : forall w c1 c2 addrs data rem, cc_perm c1 c2 ->
  orelp crel3 (wr_to_l1_after w c1 addrs data rem) (wr_to_l1_after w c2 addrs data rem).
Proof. cc_start. unfold wr_to_l1_after. cong. Qed.
#[export] Hint Resolve wr_to_l1_after_perm : permc.

Lemma wr_evict_wait_perm : forall w c1 c2 addrs data cmd, cc_perm c1 c2 ->
  orelp crel3 (wr_evict_wait w c1 addrs data cmd) (wr_evict_wait w c2 addrs data cmd).
Proof. cc_start. unfold wr_evict_wait. cong. Qed.
#[export] Hint Resolve wr_evict_wait_perm : permc.

Lemma wr_push_l1_perm : forall w c1 c2 addrs data l1a l1dt, cc_perm c1 c2 ->
  orelp crel3 (wr_push_l1 w c1 addrs data l1a l1dt) (wr_push_l1 w c2 addrs data l1a l1dt).
Proof. cc_start. unfold wr_push_l1. cong. Qed.
#[export] Hint Resolve wr_push_l1_perm : permc.

Lemma wr_l1push_perm : forall w c1 c2 addrs data rem l1a l1dt, cc_perm c1 c2 ->
  orelp crel3 (wr_l1push w c1 addrs data rem l1a l1dt) (wr_l1push w c2 addrs data rem l1a l1dt).
Proof. cc_start. unfold wr_l1push. cong. Qed.
#[export] Hint Resolve wr_l1push_perm : permc.

Lemma wr_sync_perm : forall w c1 c2 addrs data, cc_perm c1 c2 -> orelp crel3 (wr_sync w c1 addrs data) (wr_sync w c2 addrs data).
Proof. cc_start. unfold wr_sync. cong. Qed.
#[export] Hint Resolve wr_sync_perm : permc.

Lemma wr_l3evict_wait_perm : forall w c1 c2 addrs data cmd, cc_perm c1 c2 ->
  orelp crel3 (wr_l3evict_wait w c1 addrs data cmd) (wr_l3evict_wait w c2 addrs data cmd).
Proof. cc_start. unfold wr_l3evict_wait. cong. Qed.
#[export] Hint Resolve wr_l3evict_wait_perm : permc.

Lemma wr_l3wait_perm : forall w c1 c2 addrs data rem l3a l3d, cc_perm c1 c2 ->
  orelp crel3 (wr_l3wait w c1 addrs data rem l3a l3d) (wr_l3wait w c2 addrs data rem l3a l3d).
Proof. cc_start. unfold wr_l3wait. cong. Qed.
#[export] Hint Resolve wr_l3wait_perm : permc.

Lemma wr_memwait_perm : forall w c1 c2 addrs data rem l3a l3d, cc_perm c1 c2 ->
  orelp crel3 (wr_memwait w c1 addrs data rem l3a l3d) (wr_memwait w c2 addrs data rem l3a l3d).
Proof. cc_start. unfold wr_memwait. cong. Qed.
#[export] Hint Resolve wr_memwait_perm : permc.

Lemma wr_pend_perm : forall w c1 c2 addrs data rk pend, cc_perm c1 c2 ->
  orelp crel3 (wr_pend w c1 addrs data rk pend) (wr_pend w c2 addrs data rk pend).
Proof. cc_start. unfold wr_pend. cong. Qed.
#[export] Hint Resolve wr_pend_perm : permc.

Lemma wr_start_perm : forall w c1 c2 addrs data, cc_perm c1 c2 -> orelp crel3 (wr_start w c1 addrs data) (wr_start w c2 addrs data).
Proof. cc_start. unfold wr_start. cong. Qed.
#[export] Hint Resolve wr_start_perm : permc.

Theorem cc_write_cycle_perm : forall w c1 c2 addrs data, cc_perm c1 c2 ->
  orelp crel3 (cc_write_cycle w c1 addrs data) (cc_write_cycle w c2 addrs data).
Proof.
  intros w c1 c2 addrs data H. unfold cc_write_cycle.
  replace (c_write c2) with (c_write c1) by (destruct H as (_ & _ & _ & R & _); exact R).
  destruct (c_write c1); eauto 12 with permc.
Qed.
#[export] Hint Resolve cc_write_cycle_perm : permc.

Lemma cc_flush_perm : forall k c1 c2, cc_perm c1 c2 -> orelp crel2l (cc_flush k c1) (cc_flush k c2).
Proof. cc_start. unfold cc_flush. cong. Qed.
#[export] Hint Resolve cc_flush_perm : permc.

(* writeBack only looks at the identity and at the L1: the results are EQUAL *)
Lemma cc_writeback_perm : forall w c1 c2, cc_perm c1 c2 -> cc_writeback w c1 = cc_writeback w c2.
Proof. intros w c1 c2 (A & B & _). unfold cc_writeback. rewrite A, B. reflexivity. Qed.

Lemma ccs_writeback_perm : forall l1 l2, Forall2 cc_perm l1 l2 ->
  forall w cycles, ccs_writeback w l1 cycles = ccs_writeback w l2 cycles.
Proof.
  induction 1; intros w cycles; cbn [ccs_writeback]; [reflexivity|].
  rewrite (cc_writeback_perm w _ _ H). destruct (cc_writeback w y); cbn [bind]; auto.
Qed.

Ltac my_start :=
  intros; match goal with H : my_perm ?y1 ?y2 |- _ => my_destruct y1 y2 H end.

Lemma mw_of_perm : forall y1 y2, my_perm y1 y2 -> mw_of y1 = mw_of y2.
Proof. my_start. reflexivity. Qed.

Lemma put_mw_perm : forall y1 y2 w, my_perm y1 y2 -> my_perm (put_mw y1 w) (put_mw y2 w).
Proof. my_start. pm_cbn. eauto 12 with permc. Qed.

Lemma put_cc_perm : forall y1 y2 i c1 c2, my_perm y1 y2 -> cc_perm c1 c2 -> my_perm (put_cc y1 i c1) (put_cc y2 i c2).
Proof. my_start. pm_cbn. eauto 12 with permc. Qed.

Lemma set_x_perm : forall y1 y2 x, my_perm y1 y2 -> my_perm (set_x y1 x) (set_x y2 x).
Proof. my_start. pm_cbn. eauto 12 with permc. Qed.

Lemma set_ymsi_perm : forall y1 y2 k, my_perm y1 y2 -> my_perm (set_ymsi y1 k) (set_ymsi y2 k).
Proof. my_start. pm_cbn. eauto 12 with permc. Qed.

Lemma set_ccs_perm : forall y1 y2 l1 l2, my_perm y1 y2 -> Forall2 cc_perm l1 l2 -> my_perm (set_ccs y1 l1) (set_ccs y2 l2).
Proof. my_start. pm_cbn. eauto 12 with permc. Qed.

Lemma or_os8_perm : forall y1 y2 b, my_perm y1 y2 -> my_perm (or_os8 y1 b) (or_os8 y2 b).
Proof. my_start. pm_cbn. eauto 12 with permc. Qed.

Lemma y_os_perm : forall y1 y2, my_perm y1 y2 -> y_os y1 = y_os y2.
Proof. my_start. reflexivity. Qed.

(* the preference only uses the NUMBER of controllers *)
Lemma eu_preference8_perm : forall y1 y2 r, my_perm y1 y2 -> eu_preference8 y1 r = eu_preference8 y2 r.
Proof.
  my_start. unfold eu_preference8. cbn [y_x y_copy y_ccs]. rewrite (F2cc_length _ _ Hccs). reflexivity.
Qed.

Lemma cu_cycle8_perm : forall ord cycle y1 y2, my_perm y1 y2 -> my_perm (cu_cycle8 ord cycle y1) (cu_cycle8 ord cycle y2).
Proof.
  my_start. unfold cu_cycle8, eu_preference8. cbn [y_x y_msi y_copy y_pref y_ccs]. rewrite (F2cc_length _ _ Hccs).
  destruct (k_stale k2); apply mk_my_perm; assumption.
Qed.
#[export] Hint Resolve cu_cycle8_perm : permc.

Theorem front8_perm : forall app ord cycle y1 y2, my_perm y1 y2 ->
  orelp my_perm (front8 app ord cycle y1) (front8 app ord cycle y2).
Proof. my_start. unfold front8. cong. Qed.
#[export] Hint Resolve front8_perm : permc.

Lemma eu_flush8_perm : forall y1 y2 i e, my_perm y1 y2 -> orelp yprel2 (eu_flush8 y1 i e) (eu_flush8 y2 i e).
Proof. my_start. unfold eu_flush8. cong. Qed.
#[export] Hint Resolve eu_flush8_perm : permc.

Lemma eu_write8_perm : forall y1 y2 i e addrs data, my_perm y1 y2 ->
  orelp yprel3 (eu_write8 y1 i e addrs data) (eu_write8 y2 i e addrs data).
Proof. my_start. unfold eu_write8. cong. Qed.
#[export] Hint Resolve eu_write8_perm : permc.

Lemma eu_run8_perm : forall labels ord cycle y1 y2 i e, my_perm y1 y2 ->
  orelp yprel3 (eu_run8 labels ord cycle y1 i e) (eu_run8 labels ord cycle y2 i e).
Proof. my_start. unfold eu_run8. cong. Qed.
#[export] Hint Resolve eu_run8_perm : permc.

Lemma eu_read8_perm : forall labels ord cycle y1 y2 i e addrs, my_perm y1 y2 ->
  orelp yprel3 (eu_read8 labels ord cycle y1 i e addrs) (eu_read8 labels ord cycle y2 i e addrs).
Proof. my_start. unfold eu_read8. cong. Qed.
#[export] Hint Resolve eu_read8_perm : permc.

Lemma eu_prepare8_perm : forall labels ord cycle y1 y2 i e, my_perm y1 y2 ->
  orelp yprel3 (eu_prepare8 labels ord cycle y1 i e) (eu_prepare8 labels ord cycle y2 i e).
Proof. my_start. unfold eu_prepare8. cong. Qed.
#[export] Hint Resolve eu_prepare8_perm : permc.

Lemma eu_pending8_perm : forall y1 y2 e, my_perm y1 y2 -> eu_pending8 y1 e = eu_pending8 y2 e.
Proof. my_start. reflexivity. Qed.

Lemma eu_cycle8_perm : forall labels ord cycle y1 y2 i e, my_perm y1 y2 ->
  orelp yprel3 (eu_cycle8 labels ord cycle y1 i e) (eu_cycle8 labels ord cycle y2 i e).
Proof. my_start. unfold eu_cycle8, eu_pending8. cong. Qed.
#[export] Hint Resolve eu_cycle8_perm : permc.

Lemma eus_main8_perm : forall labels ord cycle eus y1 y2 i acc, my_perm y1 y2 ->
  orelp yprel3 (eus_main8 labels ord cycle y1 i eus acc) (eus_main8 labels ord cycle y2 i eus acc).
Proof.
  intros labels ord cycle. induction eus as [|e t IH]; intros y1 y2 i acc H; cbn [eus_main8]; cong.
Qed.
#[export] Hint Resolve eus_main8_perm : permc.

Lemma eus_drain8_perm : forall labels ord cycle eus y1 y2 i, my_perm y1 y2 ->
  orelp yprel3 (eus_drain8 labels ord cycle y1 i eus) (eus_drain8 labels ord cycle y2 i eus).
Proof.
  intros labels ord cycle. induction eus as [|e t IH]; intros y1 y2 i H; cbn [eus_drain8]; cong.
Qed.
#[export] Hint Resolve eus_drain8_perm : permc.

Lemma eus_flush8_perm : forall labels ord from eus y1 y2 i acc, my_perm y1 y2 ->
  orelp yprel3 (eus_flush8 labels ord from y1 i eus acc) (eus_flush8 labels ord from y2 i eus acc).
Proof.
  intros labels ord from. induction eus as [|e t IH]; intros y1 y2 i acc H; cbn [eus_flush8];
    [|rewrite (eu_pending8_perm y1 y2 e H)]; cong.
Qed.
#[export] Hint Resolve eus_flush8_perm : permc.

Lemma eus_final8_perm : forall labels ord cycle eus y1 y2 i, my_perm y1 y2 ->
  orelp yprel3 (eus_final8 labels ord cycle y1 i eus) (eus_final8 labels ord cycle y2 i eus).
Proof.
  intros labels ord cycle. induction eus as [|e t IH]; intros y1 y2 i H; cbn [eus_final8].
  - cong.
  - unfold cc_read_isstart, cc_write_isstart. my_destruct y1 y2 H. cong.
Qed.
#[export] Hint Resolve eus_final8_perm : permc.

Lemma eus_flush_all8_perm : forall eus y1 y2 i, my_perm y1 y2 ->
  orelp yprel2 (eus_flush_all8 y1 i eus) (eus_flush_all8 y2 i eus).
Proof.
  induction eus as [|e t IH]; intros y1 y2 i H; cbn [eus_flush_all8]; cong.
Qed.
#[export] Hint Resolve eus_flush_all8_perm : permc.

(* the end of Run: the results are EQUAL *)
Theorem finish8_perm : forall ord y1 y2 cycle, my_perm y1 y2 -> finish8 ord y1 cycle = finish8 ord y2 cycle.
Proof.
  my_start. unfold finish8. pm_cbn. rewrite (ccs_writeback_perm _ _ Hccs). reflexivity.
Qed.

Lemma wbus_connect8_perm : forall y1 y2 cycle, my_perm y1 y2 -> my_perm (wbus_connect8 y1 cycle) (wbus_connect8 y2 cycle).
Proof. my_start. pm_cbn. eauto 12 with permc. Qed.

Lemma mk_st8_perm : forall y1 y2 eus wus cycle mode, my_perm y1 y2 ->
  st_perm (mk_st8 y1 eus wus cycle mode) (mk_st8 y2 eus wus cycle mode).
Proof.
  intros. unfold st_perm. cbn [v_y v_eus v_wus v_cycle v_mode].
  split; [assumption|]. split; [reflexivity|]. split; [reflexivity|]. split; reflexivity.
Qed.
#[export] Hint Resolve mk_st8_perm : permc.

Lemma yprel3_mk : forall B C y1 y2 (b : B) (c : C), my_perm y1 y2 -> yprel3 (y1, b, c) (y2, b, c).
Proof. intros. unfold yprel3. cbn [fst snd]. split; [assumption|]. split; reflexivity. Qed.
#[export] Hint Resolve yprel3_mk : permc.

Ltac st_destruct s1 s2 H :=
  destruct s1 as [?y1 ?eus1 ?wus1 ?cyc1 ?md1], s2 as [?y2 ?eus2 ?wus2 ?cyc2 ?md2]; unfold st_perm in H;
  cbn [v_y v_eus v_wus v_cycle v_mode] in H; destruct H as (?Hy & ?He & ?Hw & ?Hc & ?Hmd); subst;
  match goal with Hy : my_perm ?a ?b |- _ => my_destruct a b Hy end.

Ltac st_start := intros; match goal with H : st_perm ?s1 ?s2 |- _ => st_destruct s1 s2 H end.

Ltac st_cbn := try unfold y_os; cbn [v_y v_eus v_wus v_cycle v_mode]; pm_cbn.

Lemma res_of8_perm : forall A (R : A -> A -> Prop) os o1 o2 k1 k2,
  orelp R o1 o2 -> (forall a b, R a b -> res_perm (k1 a) (k2 b)) -> res_perm (res_of8 os o1 k1) (res_of8 os o2 k2).
Proof.
  intros A R os [a|e|] [b|e'|] k1 k2 H K; cbn [orelp res_of8 res_perm] in *; try contradiction; auto.
  subst. auto.
Qed.

Ltac rcong1 :=
  match goal with
  | H : Forall2 cc_perm ?l1 ?l2 |- context [forallb cc_snoop_isstart ?l1] => rewrite (F2cc_isstart l1 l2 H)
  | |- res_perm (VDone _ _) (VDone _ _) =>
      cbn [res_perm]; split; [first [reflexivity | apply finish8_perm; solve [eauto 12 with permc]] | reflexivity]
  | |- res_perm (VCont _) (VCont _) => cbn [res_perm]; solve [eauto 12 with permc]
  | |- res_perm (res_of8 ?os ?o _) (res_of8 ?os ?o _) => destruct o; cbn [res_of8]
  | |- res_perm (if ?b then _ else _) (if ?b then _ else _) => destruct b
  | |- res_perm (match ?e with _ => _ end) (match ?e with _ => _ end) => destruct e
  | |- res_perm (res_of8 _ _ _) (res_of8 _ _ _) =>
      eapply res_of8_perm; [solve [eauto 12 with permc] | intros ? ? ?Hr; rel_destruct]
  end.

Ltac rcong := repeat (st_cbn; rcong1); try solve [eauto 12 with permc].

Lemma ret_check8_perm : forall s1 s2, st_perm s1 s2 -> res_perm (ret_check8 s1) (ret_check8 s2).
Proof. st_start. unfold ret_check8. rcong. Qed.
#[export] Hint Resolve ret_check8_perm : permc.

Lemma flush_advance8_perm : forall s1 s2 k seq pc from empty, st_perm s1 s2 ->
  res_perm (flush_advance8 s1 k seq pc from empty) (flush_advance8 s2 k seq pc from empty).
Proof. st_start. unfold flush_advance8. rcong. Qed.
#[export] Hint Resolve flush_advance8_perm : permc.

Lemma back8_perm : forall s1 s2 cycle z1 z2, st_perm s1 s2 -> yprel3 z1 z2 ->
  res_perm (back8 s1 cycle z1) (back8 s2 cycle z2).
Proof. st_start. rel_destruct. unfold back8. rcong. Qed.
#[export] Hint Resolve back8_perm : permc.

(* the part of a tick after the snoops *)
Theorem after_snoops8_perm : forall labels ord s1 s2 y1 y2, st_perm s1 s2 -> my_perm y1 y2 ->
  res_perm (after_snoops8 labels ord s1 y1) (after_snoops8 labels ord s2 y2).
Proof.
  intros labels ord s1 s2 ya yb S Y. st_destruct s1 s2 S. rel_destruct.
  unfold after_snoops8. st_cbn. destruct md2.
  - rcong.
  - rcong.
  - rcong.
  - rcong.
  - rcong.
Qed.

(* the PFlushW case of a tick: the write-unit loop inside the flush loop (no snoops) *)
Lemma flushw_perm : forall app labels ord s1 s2 k seq pc from empty, st_perm s1 s2 ->
  v_mode s1 = PFlushW k seq pc from empty ->
  res_perm (step8 app labels ord s1) (step8 app labels ord s2).
Proof.
  intros app labels ord s1 s2 k seq pc from empty S M. rewrite !step8_eq.
  replace (v_mode s2) with (v_mode s1) by (destruct S as (_ & _ & _ & _ & E); exact E). rewrite M.
  st_destruct s1 s2 S. rcong.
Qed.

(* snoops8 followed by the rest of the tick *)
Lemma snoops_then_perm : forall labels ord cycle s1 s2 y1 y2, st_perm s1 s2 -> my_perm y1 y2 ->
  orelp my_perm (snoops8 ord cycle y1) (snoops8 ord cycle y2) ->
  res_perm (res_of8 (y_os y1) (snoops8 ord cycle y1) (after_snoops8 labels ord s1))
           (res_of8 (y_os y2) (snoops8 ord cycle y2) (after_snoops8 labels ord s2)).
Proof.
  intros labels ord cycle s1 s2 y1 y2 S Y SN. rewrite (y_os_perm _ _ Y).
  eapply res_of8_perm; [exact SN|]. intros a b R. apply after_snoops8_perm; assumption.
Qed.

(* a whole tick, given the snoop phase: when the snoop phase of the tick maps the two related machines it is applied
   to (snoop_arg8) to related machines, the tick maps the two related states to related results *)
Theorem step8_perm_given_snoops : forall app labels ord s1 s2, st_perm s1 s2 ->
  (forall cycle y1 y2, my_perm y1 y2 -> snoop_arg8 app ord s1 = Some (cycle, y1) -> snoop_arg8 app ord s2 = Some (cycle, y2) ->
     orelp my_perm (snoops8 ord cycle y1) (snoops8 ord cycle y2)) ->
  res_perm (step8 app labels ord s1) (step8 app labels ord s2).
Proof.
  intros app labels ord s1 s2 S SN.
  destruct (v_mode s1) as [| | seq pc from | k seq pc from empty |] eqn:M.
  - pose proof S as S0. destruct S as (Y & _ & _ & C & E). rewrite !step8_eq. rewrite <- E, M.
    rewrite (y_os_perm _ _ Y). rewrite C.
    pose proof (front8_perm app ord (v_cycle s2 + 1) _ _ Y) as F.
    destruct (front8 app ord (v_cycle s2 + 1) (v_y s1)) as [a| |] eqn:F1,
             (front8 app ord (v_cycle s2 + 1) (v_y s2)) as [b| |] eqn:F2; cbn [orelp] in F; try contradiction;
      cbn [res_of8 res_perm].
    + apply snoops_then_perm; [exact S0 | exact F |].
      apply SN; [exact F | |]; unfold snoop_arg8; rewrite <- ?E, M, ?C, ?F1, ?F2; reflexivity.
    + subst. split; reflexivity.
    + split; reflexivity.
  - pose proof S as S0. destruct S as (Y & _ & _ & C & E). rewrite !step8_eq. rewrite <- E, M. rewrite C.
    apply snoops_then_perm; [exact S0 | exact Y |].
    apply SN; [exact Y | |]; unfold snoop_arg8; rewrite <- ?E, M, ?C; reflexivity.
  - pose proof S as S0. destruct S as (Y & _ & _ & C & E). rewrite !step8_eq. rewrite <- E, M. rewrite C.
    apply snoops_then_perm; [exact S0 | exact Y |].
    apply SN; [exact Y | |]; unfold snoop_arg8; rewrite <- ?E, M, ?C; reflexivity.
  - eapply flushw_perm; eassumption.
  - pose proof S as S0. destruct S as (Y & _ & _ & C & E). rewrite !step8_eq. rewrite <- E, M. rewrite C.
    apply snoops_then_perm; [exact S0 | exact Y |].
    apply SN; [exact Y | |]; unfold snoop_arg8; rewrite <- ?E, M, ?C; reflexivity.
Qed.

Print Assumptions after_snoops8_perm.
Print Assumptions front8_perm.
Print Assumptions flushw_perm.
Print Assumptions step8_perm_given_snoops.
Print Assumptions cc_read_cycle_perm.
Print Assumptions cc_write_cycle_perm.
Print Assumptions finish8_perm.
