(* MVP-8.0 against MVP-6.3 on programs without loads and stores.

   Mvp80RegOnly.v: on such a program the memory system of MVP-8.0 is never used and a run returns the initial
   memory (mvp80_regonly_memory_unchanged, mvp80_regonly_memsys_idle).

   Mvp80Sim63Refute.v (mvp80_regonly_equals_mvp63_refuted): the statement
   mvp80_regonly_equals_mvp63_statement below - "MVP-8.0 returns the registers and the memory that MVP-6.3 returns, one
   cycle later (the final loop of mvp8-0/cpu.go that drains snoops and controllers runs once), with the same ghost
   flag; errors and panics are the same" - is FALSE for long programs.  The pipelines differ in registerRead:
   MVP-8.0 reads the transaction RAT at the newest slot written by an instruction whose sequence id is NOT GREATER than
   the reader's (reg_read8: rat_find .. (fun u => fst u <=? seq)), MVP-6.3 at the newest slot (reg_read3).  Sequence
   ids are pc + 1000 * ctx.sequenceID and sequenceID grows by 2 per taken jump without BTB entry, so a jump back by
   more than 2000 bytes gives an OLDER instruction a GREATER id than a younger one: the witness (504 register-only
   instructions, `j L1; add x7,x5,x0; ret; 499 nop; L1: li x5,77; j 4`) returns x7 = 77 on MVP-6.3 (and on the
   sequential machine) and x7 = 1 on MVP-8.0, at 1..4 cores.
   Two short programs on which the statement holds, at 1..4 cores, are below (regonly_instances).
   Mvp80Sim63Defs.v / Loops.v prove the lock-step simulation of the execute units, the front
   end, the main loop and the end of Run under explicit conditions (the two register reads agree, the Pre hook finds no
   pending older runner); Mvp80SimSsa.v discharges them on single-assignment straight-line programs.  The other
   difference between the pipelines: the Pre hook of executeUnit.Cycle - MVP-8.0 panics ("invalid state") when an
   older runner waits on the execute bus while the unit drops a younger one (eu_pending8) and flushes its controller;
   MVP-6.3 only drops - and eus_flush8 cycles an empty unit with pending messages where eus_flush3 skips it. *)
From Coq Require Import ZArith List Bool Lia.
From Maj Require Import Base.Outcome Base.GoInt Base.GoTypes Isa.Spec Isa.Seq.
From Maj Require Import Gen.Latency Gen.RiscTables Gen.Opcodes Comp.Cache Comp.Rat Mvp.Mvp12 Mvp.Mvp3 Mvp.Mvp5 Mvp.Mvp60 Mvp.Mvp63 Mvp.Mvp80.
From Maj Require Import Mvp.Mvp60Proofs Mvp.Mvp63Proofs Mvp.Mvp80Proofs Mvp.Mvp80RegOnly.
Import ListNotations.
Open Scope Z_scope.

(* the result of MVP-8.0 that corresponds to a result of MVP-6.3: one more cycle *)
Definition plus_one_cycle (r : mres) : mres :=
  match r with MDone c s => MDone (c + 1) s | other => other end.

(* a statement, not a theorem: refuted in Mvp80Sim63Refute.v *)
Definition mvp80_regonly_equals_mvp63_statement : Prop :=
  forall par ord fuel app labels st r os,
  regonly app = true ->
  r <> MOutOfFuel ->
  mvp63_run_os par ord fuel app labels st = (r, os) ->
  mvp80_run_os par ord (S fuel) app labels st = (plus_one_cycle r, os).

(* instances: a WAR / RAW chain behind a multiplication, with a younger writer of a source register, at 1..4 cores *)
Definition ro_prog1 : list instr :=
  [I_mul (mk_mul 6 28 29); I_add (mk_add 7 6 5); I_li (mk_li 5 77); I_ret mk_ret].
Definition ro_prog2 : list instr :=
  [I_mul (mk_mul 6 28 29); I_mul (mk_mul 8 6 6); I_add (mk_add 7 8 5); I_li (mk_li 5 77); I_li (mk_li 8 1); I_ret mk_ret].
Definition ro_st : arch := st_of [(5, 1); (28, 20); (29, 5)] [].

Example regonly_instances :
  regonly ro_prog1 = true /\ regonly ro_prog2 = true /\
  (forall par, In par [1; 2; 3; 4]%nat ->
     mvp80_run_os par ord_asc 3001 ro_prog1 no_labels ro_st =
       (plus_one_cycle (fst (mvp63_run_os par ord_asc 3000 ro_prog1 no_labels ro_st)), snd (mvp63_run_os par ord_asc 3000 ro_prog1 no_labels ro_st)) /\
     mvp80_run_os par ord_asc 3001 ro_prog2 no_labels ro_st =
       (plus_one_cycle (fst (mvp63_run_os par ord_asc 3000 ro_prog2 no_labels ro_st)), snd (mvp63_run_os par ord_asc 3000 ro_prog2 no_labels ro_st))).
Proof.
  split; [reflexivity|]. split; [reflexivity|].
  intros par [<-|[<-|[<-|[<-|[]]]]]; vm_compute; split; reflexivity.
Qed.

Print Assumptions regonly_instances.
