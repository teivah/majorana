(* MVP-5 on programs WITH loads and stores, under the hypothesis that every store
   hits in the L1D (its line was loaded before and is still resident): the pipeline
   computes the sequential registers and memory, in a number of cycles that is a
   function of the program and of the events (pc, loaded addresses, stored
   addresses) of the sequential run.  See Mvp5Proofs.v for register-only programs
   and for the refutation of the statement without the hypothesis
   (mvp5_cold_store_then_load_refuted).  Hypotheses, events and fuel bound are those
   of MVP-4 (Mvp4mProofs.v); as there, termination and the bounds come from the
   skeleton of Mvp5mSkel.v (Mvp5mFront.v) and the simulation from that of the skeleton
   with store misses (Mvp5sSim.v) through sks5_of (Mvp5sFront.v). *)
From Coq Require Import ZArith List Bool Lia.
From Maj Require Import Base.Outcome Base.GoInt Base.GoTypes Isa.Spec Isa.Embed Isa.Seq Isa.Refine.
From Maj Require Import Gen.Latency Gen.RiscTables Gen.Opcodes Comp.Cache Comp.CacheSpec Comp.CacheProofs.
From Maj Require Import Mvp.Mvp12 Mvp.Mvp12Proofs Mvp.Mvp3 Mvp.Mvp3Proofs Mvp.Mvp4 Mvp.Mvp5
     Mvp.Mvp4Skel Mvp.Mvp4Inv Mvp.Mvp4Units Mvp.Mvp4Front Mvp.Mvp4Sim Mvp.Mvp4Proofs
     Mvp.Mvp4mSkel Mvp.Mvp4mInv Mvp.Mvp4mFront Mvp.Mvp4mSim Mvp.Mvp4mProofs
     Mvp.Mvp5Skel Mvp.Mvp5Inv Mvp.Mvp5Front Mvp.Mvp5Sim Mvp.Mvp5Proofs Mvp.Mvp5mSkel Mvp.Mvp5mFront Mvp.Mvp5mSim
     Mvp.Mvp4sSkel Mvp.Mvp4sFront Mvp.Mvp5sSkel Mvp.Mvp5sFront Mvp.Mvp5sSim.
Import ListNotations.
Open Scope Z_scope.

Lemma skm5_run_more app : forall fuel k a path cyc c,
  skm5_run fuel app a path cyc = Some c -> skm5_run (fuel + k) app a path cyc = Some c.
Proof. intros fuel k a path cyc c. rewrite !skm5_run_erun. apply erun_more. Qed.

Section Top5m.
  Variables (app : list instr) (labels : Z -> option Z).
  Hypothesis Happ : wf_app app.
  Hypothesis Hlab : wf_labels labels.
  Let sp := map sinstr_of app.

  (* without the termination argument: whenever the cost function is defined, the model
     agrees with it and with the sequential machine (any fuel') *)
  Theorem mvp5_storehit_sim fuel st st' tr fuel' c :
    inv (regs st) (mem st) -> (length (regs st) <= 32)%nat -> mem_small st ->
    accesses_ok fuel sp labels st 0 ->
    seq_run fuel sp labels st = Done st' tr ->
    evs_below (seq_evs fuel sp labels st 0) = true ->
    stores_hit [] (seq_evs fuel sp labels st 0) = true ->
    mvp5_cost_mem fuel' app (seq_evs fuel sp labels st 0) = Some c ->
    mvp5_run fuel' app labels st = MDone c st'.
  Proof.
    intros [Hri Hm8] Hlen Hsm Hacc Hrun Hb Hsh Hc. unfold seq_run in Hrun.
    destruct (run_sexecm app labels fuel st 0 [] st' tr Hrun Hacc) as (rest & Hp & HS & _). fold sp in Hp. rewrite Hp in *.
    exact (sim_cost_s5 app labels Happ Hlab st rest st' fuel' c Hri Hm8 Hlen Hsm HS (sexecm_evs_wf app labels _ _ _ HS Hb)
                       (stores_hit_no_stale _ _ Hsh) (cost5_mem_sm _ _ _ _ Hc)).
  Qed.

  Theorem mvp5_run_events fuel st st' tr :
    inv (regs st) (mem st) -> (length (regs st) <= 32)%nat -> mem_small st ->
    accesses_ok fuel sp labels st 0 ->
    seq_run fuel sp labels st = Done st' tr ->
    evs_below (seq_evs fuel sp labels st 0) = true ->
    stores_hit [] (seq_evs fuel sp labels st 0) = true ->
    exists c, (forall fuel', (fuel_bound_m (length tr) <= fuel')%nat ->
                 mvp5_run fuel' app labels st = MDone c st' /\
                 mvp5_cost_mem fuel' app (seq_evs fuel sp labels st 0) = Some c) /\
              Z.of_nat (length tr) <= c <= 2 * Z.of_nat (fuel_bound_m (length tr)) + MemoryAccess * 16.
  Proof.
    intros Hinv Hlen Hsm Hacc Hrun Hb Hsh. pose proof Hrun as Hrun0. unfold seq_run in Hrun.
    destruct (run_sexecm app labels fuel st 0 [] st' tr Hrun Hacc) as (rest & Hp & HS & Hl & Hcnt).
    fold sp in Hp.
    assert (Hwf : evs_wf app (ev_of app st 0 :: rest)) by (rewrite Hp in Hb; exact (sexecm_evs_wf app labels _ _ _ HS Hb)).
    pose proof (sexecm_stores_plain app labels _ _ _ HS) as Hsp.
    destruct init_caches as (c0 & E0 & HI0 & HD0 & Hl0).
    pose proof (init_fm5 app c0 (ev_of app st 0) HI0 eq_refl) as HF0.
    assert (Hsh0 : sh_inv5 (skm5_init c0) (ev_of app st 0 :: rest)).
    { cbn [sh_inv5]. unfold dtal. cbn [skm5_init n_eu n_dt eu_pending_read].
      rewrite Hp in Hsh. cbn [stores_hit] in Hsh. apply andb_prop in Hsh. exact Hsh. }
    cbn [length] in Hl, Hcnt.
    set (m := (Z.to_nat (phim5 (skm5_init c0)) + length rest * Kstepm)%nat).
    assert (Hm : (m < fuel_bound_m (length tr))%nat) by (apply fuel_enough; [exact (phim5_bounds app _ _ HF0) | lia]).
    destruct (skm5_run_term app Happ m rest (skm5_init c0) _ 0 (fuel_bound_m (length tr)) HF0 Hwf Hsp Hsh0 ltac:(lia) Hm) as (c & Hc & Hcb).
    exists c. split; [|lia].
    intros fuel' Hf'. replace fuel' with (fuel_bound_m (length tr) + (fuel' - fuel_bound_m (length tr)))%nat by lia.
    pose proof (skm5_run_more app _ (fuel' - fuel_bound_m (length tr)) _ _ _ _ Hc) as Hc'.
    assert (Hcost : mvp5_cost_mem (fuel_bound_m (length tr) + (fuel' - fuel_bound_m (length tr))) app (seq_evs fuel sp labels st 0) = Some c)
      by (unfold mvp5_cost_mem; rewrite E0, Hp; exact Hc').
    split; [|exact Hcost].
    exact (mvp5_storehit_sim fuel st st' tr _ c Hinv Hlen Hsm Hacc Hrun0 Hb Hsh Hcost).
  Qed.

  (* C05 (MVP-5): loads and stores, every store hits in the L1D *)
  Theorem mvp5_refines_seq_storehit fuel st st' tr :
    inv (regs st) (mem st) -> (length (regs st) <= 32)%nat -> mem_small st ->
    accesses_ok fuel sp labels st 0 ->
    seq_run fuel sp labels st = Done st' tr ->
    evs_below (seq_evs fuel sp labels st 0) = true ->
    stores_hit [] (seq_evs fuel sp labels st 0) = true ->
    exists c, (forall fuel', (fuel_bound_m (length tr) <= fuel')%nat -> mvp5_run fuel' app labels st = MDone c st') /\
              Z.of_nat (length tr) <= c <= 2 * Z.of_nat (fuel_bound_m (length tr)) + MemoryAccess * 16.
  Proof.
    intros Hinv Hlen Hsm Hacc Hrun Hb Hsh.
    destruct (mvp5_run_events fuel st st' tr Hinv Hlen Hsm Hacc Hrun Hb Hsh) as (c & Hc & Hlb).
    exists c. split; [|exact Hlb]. intros fuel' Hf. apply Hc. exact Hf.
  Qed.

  (* C07 (MVP-5): no panic, no error, no divergence *)
  Corollary mvp5_no_panic_mem fuel st st' tr fuel' :
    inv (regs st) (mem st) -> (length (regs st) <= 32)%nat -> mem_small st ->
    accesses_ok fuel sp labels st 0 ->
    seq_run fuel sp labels st = Done st' tr ->
    evs_below (seq_evs fuel sp labels st 0) = true ->
    stores_hit [] (seq_evs fuel sp labels st 0) = true ->
    (fuel_bound_m (length tr) <= fuel')%nat ->
    mvp5_run fuel' app labels st <> MPanic /\ mvp5_run fuel' app labels st <> MOutOfFuel /\
    (forall e, mvp5_run fuel' app labels st <> MErr e).
  Proof.
    intros Hinv Hlen Hsm Hacc Hrun Hb Hsh Hf.
    destruct (mvp5_refines_seq_storehit fuel st st' tr Hinv Hlen Hsm Hacc Hrun Hb Hsh) as (c & Hc & _).
    rewrite (Hc fuel' Hf). repeat split; try discriminate.
  Qed.

  (* C12 (MVP-5): same events, same cycle count *)
  Theorem mvp5_value_independent_mem fuel st1 st2 st1' st2' tr1 tr2 :
    inv (regs st1) (mem st1) -> (length (regs st1) <= 32)%nat -> mem_small st1 -> accesses_ok fuel sp labels st1 0 ->
    inv (regs st2) (mem st2) -> (length (regs st2) <= 32)%nat -> mem_small st2 -> accesses_ok fuel sp labels st2 0 ->
    seq_run fuel sp labels st1 = Done st1' tr1 ->
    seq_run fuel sp labels st2 = Done st2' tr2 ->
    seq_evs fuel sp labels st1 0 = seq_evs fuel sp labels st2 0 ->
    evs_below (seq_evs fuel sp labels st1 0) = true ->
    stores_hit [] (seq_evs fuel sp labels st1 0) = true ->
    exists c, forall fuel', (fuel_bound_m (Nat.max (length tr1) (length tr2)) <= fuel')%nat ->
      mvp5_run fuel' app labels st1 = MDone c st1' /\ mvp5_run fuel' app labels st2 = MDone c st2'.
  Proof.
    intros I1 L1 S1 A1 I2 L2 S2 A2 R1 R2 Hp Hb Hsh.
    destruct (mvp5_run_events fuel st1 st1' tr1 I1 L1 S1 A1 R1 Hb Hsh) as (c1 & Hc1 & _).
    rewrite Hp in Hb, Hsh. destruct (mvp5_run_events fuel st2 st2' tr2 I2 L2 S2 A2 R2 Hb Hsh) as (c2 & Hc2 & _).
    exists c1. rewrite Hp in Hc1.
    exact (same_cost_same_cycles (fun f => mvp5_run f app labels st1) (fun f => mvp5_run f app labels st2)
             (fun f => mvp5_cost_mem f app (seq_evs fuel sp labels st2 0)) Kstepm _ _ c1 c2 _ _ Hc1 Hc2).
  Qed.
End Top5m.
