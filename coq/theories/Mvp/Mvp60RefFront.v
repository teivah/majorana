(* Refinement of MVP-6.0 to the sequential machine on register-only programs: the front
   end (fetch unit with the L1I, decode unit) keeps the stream of fetched pcs / decoded
   runners consecutive, never panics, and never increases the potential. *)
From Coq Require Import ZArith List Bool Lia Permutation.
From Maj Require Import Comp.ListFacts.
From Maj Require Import Base.Outcome Base.GoInt Base.GoTypes Isa.Spec Isa.Embed Isa.Seq Isa.Refine.
From Maj Require Import Gen.Latency Gen.RiscTables Gen.Opcodes Comp.Cache.
From Maj Require Import Mvp.Mvp12 Mvp.Mvp12Proofs Mvp.Mvp3 Mvp.Mvp3Proofs Mvp.Mvp4Skel Mvp.Mvp5 Mvp.Mvp60
     Mvp.Mvp60RefSem Mvp.Mvp60RefDefs.
Import ListNotations.
Open Scope Z_scope.

Lemma l1i_get c pc : IInv c -> 0 <= pc ->
  exists c1 hit, get_all c [pc] [] = Ok (c1, hit) /\ IInv c1.
Proof.
  intros (HN & HL & Hf) Hpc. cbn [get_all]. unfold get.
  destruct (find_line_i (lines c) pc Hf) as (r & -> & Hr). cbn [bind].
  destruct r as [[[v l] rest]|].
  - destruct Hr as (Hl & Hrest & _). do 2 eexists. split; [reflexivity|].
    repeat split; cbn [set_lines nlines llen lines]; auto; try apply Hl.
  - do 2 eexists. split; [reflexivity|]. repeat split; auto.
Qed.

Lemma l1i_push c pc : IInv c -> 0 <= pc ->
  exists p, push_line c pc (repeat 0 (Z.to_nat l1LineSize)) = Ok p /\ IInv (fst p).
Proof.
  intros (HN & HL & Hf) Hpc. unfold push_line.
  set (nl := new_line c pc (repeat 0 (Z.to_nat l1LineSize))).
  assert (Hnl : iline_ok nl).
  { unfold nl, new_line, iline_ok. cbn [data hi lo]. split; [|split; [exact Hpc|]].
    - unfold zlen. rewrite repeat_length. reflexivity.
    - rewrite HL. reflexivity. }
  rewrite HN. destruct (Z.gtb_spec (zlen (nl :: lines c)) 16) as [Hgt|Hle].
  - change (16 <? 0) with false. cbn iota. eexists. split; [reflexivity|]. cbn [fst].
    repeat split; cbn [set_lines nlines llen lines]; auto. apply Forall_firstn. constructor; auto.
  - eexists. split; [reflexivity|]. cbn [fst]. repeat split; cbn [set_lines nlines llen lines]; auto.
Qed.

Definition stamped {T} (c : Z) (l : list T) : list (Z * T) := map (fun x => (c, x)) l.

Lemma stamped_snd {T} c (l : list T) : map snd (stamped c l) = l.
Proof. unfold stamped. rewrite map_map. cbn [snd]. apply map_id. Qed.
Lemma stamped_len {T} c (l : list T) : zlen (stamped c l) = zlen l.
Proof. unfold stamped, zlen. rewrite map_length. reflexivity. Qed.
Lemma stamped_forall {T} c c' (l : list T) : c <= c' -> Forall (fun x => fst x <= c') (stamped c l).
Proof. intros H. unfold stamped. apply Forall_forall. intros x Hx. apply in_map_iff in Hx as (y & <- & _). cbn [fst]. exact H. Qed.

Definition bus_push {T} (b : bbus T) (c : Z) (l : list T) : bbus T :=
  mk_bb (bb_buf b ++ stamped c l) (bb_q b) (bb_ql b) (bb_bl b).

Lemma bus_push_nil {T} (b : bbus T) c : bus_push b c [] = b.
Proof. unfold bus_push, stamped. cbn [map]. rewrite app_nil_r. destruct b; reflexivity. Qed.

Lemma bus_push_add {T} (b : bbus T) c l x : bb_add (bus_push b (c + 1) l) x c = bus_push b (c + 1) (l ++ [x]).
Proof. unfold bus_push, bb_add, stamped. cbn [bb_buf bb_q bb_ql bb_bl]. rewrite map_app, app_assoc. reflexivity. Qed.

Lemma bus_push_flat {T} (b : bbus T) c l : flat (bus_push b c l) = flat b ++ l.
Proof. unfold flat, bus_push. cbn [bb_q bb_buf]. rewrite map_app, stamped_snd, app_assoc. reflexivity. Qed.

Lemma bus_push_ok {T} cyc (b : bbus T) l : BusOK cyc b -> BusOK cyc (bus_push b (cyc + 1) l).
Proof.
  intros [H1 H2 H3 H4]. constructor; cbn [bus_push bb_ql bb_bl bb_buf]; auto.
  apply Forall_app. split; [exact H4 | apply stamped_forall; lia].
Qed.

Lemma pcz_nonneg k : 0 <= pcz k. Proof. unfold pcz. lia. Qed.
Lemma pcz_S k : pcz (S k) = pcz k + 4. Proof. unfold pcz. lia. Qed.
Lemma pcz_quot k : Z.quot (pcz k) 4 = Z.of_nat k.
Proof. unfold pcz. rewrite Z.mul_comm. apply Z.quot_mul. lia. Qed.
Lemma pcz_div k : pcz k / 4 = Z.of_nat k.
Proof. unfold pcz. rewrite Z.mul_comm. apply Z.div_mul. lia. Qed.

Lemma seq_cons_min c X : (c < X)%nat -> seq c (X - c) = c :: seq (S c) (X - S c).
Proof. intros H. replace (X - c)%nat with (S (X - S c)) by lia. reflexivity. Qed.

Section Front.
  (* [base]: start of the current straight-line segment; the decode unit stops at
     N = the first ret or unconditional jump at or after base *)
  Variables (app : list instr) (base : nat).
  Hypothesis Happ : wf_app app.
  Let n := length app.
  Let N := stop_from app base.
  Let M := Nat.max n 1.

  Definition rn (k : nat) : runner := mk_runner (ik app k) (pcz k) (pcz k).

  Lemma n_small : 4 * Z.of_nat n < 2147483640.
  Proof. apply Happ. Qed.

  Lemma ik_nth k : (k < n)%nat -> nth_error app k = Some (ik app k).
  Proof. intros H. unfold ik. apply nth_error_nth'. exact H. Qed.

  Lemma ik_not_stop k : (base <= k < N)%nat -> is_ret (ik app k) = false /\ is_jump (ik app k) = false.
  Proof.
    intros H. pose proof (stop_from_before app dfl base k H) as Hs. unfold is_stop in Hs.
    apply orb_false_iff in Hs. exact Hs.
  Qed.

  Lemma ik_stop : (N < n)%nat -> is_stop (ik app N) = true.
  Proof. intros H. apply (stop_from_at app dfl base H). Qed.

  Record FetchI (f : nat) (fu : fu6) (l1i : cache) : Prop := mkFetchI {
    fi_pc : f_pc fu = pcz f;
    fi_l1 : IInv l1i;
    fi_rem : f_co fu = FWait -> 0 <= f_rem fu <= MemoryAccess - 1;
    fi_nc : f_complete fu = false -> (f <= M)%nat /\ f_co fu <> FDone;
    fi_c : f_complete fu = true -> f_co fu <> FNone /\ (M <= f <= M + 2)%nat /\ (f_co fu = FWait -> (f <= M + 1)%nat) }.

  Definition phi_co (fu : fu6) : Z :=
    match f_co fu with FNone => MemoryAccess + 1 | FWait => f_rem fu + 1 | FDone => 0 end.
  Definition phiF (fu : fu6) : Z := 100 * (4 * (Z.of_nat M + 2) - f_pc fu) + phi_co fu.

  Lemma M_bound : 4 * Z.of_nat M + 8 < 2147483648.
  Proof. pose proof n_small. unfold M. lia. Qed.

  (* one push *)
  Lemma fu_push_spec cycle fu dbus f : f_pc fu = pcz f -> (f <= M + 1)%nat ->
    fu_push app cycle fu dbus =
      (mk_fu6 (pcz (S f)) (f_clean fu) (f_complete fu || (n <=? S f)%nat)
              (if (n <=? S f)%nat then FDone else f_co fu) (f_rem fu),
       bb_add dbus (pcz f) cycle).
  Proof.
    intros Hpc Hf. unfold fu_push. rewrite Hpc.
    assert (Hadd : addS 32 (pcz f) 4 = pcz (S f)).
    { rewrite pcz_S. unfold addS. apply wrapS_id; [lia|]. pose proof M_bound. pose proof (pcz_nonneg f).
      apply int32_bounds. unfold pcz in *. lia. }
    rewrite Hadd, pcz_quot. unfold nlen6. fold n.
    assert (Hb : (Z.of_nat n <=? Z.of_nat (S f)) = (n <=? S f)%nat).
    { destruct (Z.leb_spec (Z.of_nat n) (Z.of_nat (S f))), (Nat.leb_spec n (S f)); try reflexivity; lia. }
    rewrite Hb. reflexivity.
  Qed.

  (* state of the fetch unit inside coFetch *)
  Definition LoopI (f : nat) (fu : fu6) : Prop :=
    f_pc fu = pcz f /\ f_clean fu = false /\
    (f_complete fu = false -> (f <= M)%nat /\ f_co fu = FNone) /\
    (f_complete fu = true -> f_co fu = FDone /\ (M <= f)%nat).

  Lemma co_fetch_ok cycle : forall cnt f fu l1i dbus l,
    LoopI f fu -> IInv l1i -> (f + cnt <= M + 2)%nat ->
    exists fu' l1i' k,
      co_fetch cnt app cycle fu l1i (bus_push dbus (cycle + 1) l)
        = Ok (fu', l1i', bus_push dbus (cycle + 1) (l ++ map pcz (seq f k))) /\
      (k <= cnt)%nat /\ IInv l1i' /\
      ((LoopI (f + k) fu' /\ (f + k <= M + 2)%nat /\
        (k = O -> fu' = fu /\ (cnt = O \/ bb_canadd (bus_push dbus (cycle + 1) l) = false))) \/
       (f_pc fu' = pcz (f + k) /\ f_clean fu' = false /\ f_co fu' = FWait /\ f_rem fu' = MemoryAccess - 1 /\
        (f_complete fu' = false -> (f + k <= M)%nat) /\ (f_complete fu' = true -> (M <= f + k <= M + 1)%nat))).
  Proof.
    induction cnt as [|cnt IH]; intros f fu l1i dbus l HL HI Hcnt.
    - exists fu, l1i, O. cbn [co_fetch seq map]. rewrite app_nil_r, Nat.add_0_r. split; [reflexivity|].
      split; [lia|]. split; [exact HI|]. left. split; [exact HL|]. split; [lia|]. auto.
    - cbn [co_fetch]. destruct (bb_canadd (bus_push dbus (cycle + 1) l)) eqn:Eadd; cbn [negb].
      2:{ exists fu, l1i, O. cbn [seq map]. rewrite app_nil_r, Nat.add_0_r. split; [reflexivity|].
          split; [lia|]. split; [exact HI|]. left. split; [exact HL|]. split; [lia|]. auto. }
      destruct HL as (Hpc & Hcl & Hnc & Hc).
      destruct (l1i_get l1i (f_pc fu) HI ltac:(rewrite Hpc; apply pcz_nonneg)) as (c1 & hit & Eg & HI1).
      rewrite Eg. cbn [bind]. destruct hit as [bytes|].
      + (* hit: push and go on *)
        assert (HfM : (f <= M + 1)%nat) by lia.
        rewrite (fu_push_spec cycle fu _ f Hpc HfM). rewrite bus_push_add.
        set (fu1 := mk_fu6 (pcz (S f)) (f_clean fu) (f_complete fu || (n <=? S f)%nat)
                           (if (n <=? S f)%nat then FDone else f_co fu) (f_rem fu)).
        assert (HL1 : LoopI (S f) fu1).
        { unfold LoopI, fu1. cbn [f_pc f_clean f_complete f_co]. split; [reflexivity|]. split; [exact Hcl|].
          destruct (Nat.leb_spec n (S f)) as [Hle|Hgt].
          - rewrite orb_true_r. split; [discriminate|]. intros _. split; [reflexivity|]. unfold M. lia.
          - rewrite orb_false_r. split.
            + intros Hcf. destruct (Hnc Hcf) as [_ Hco]. split; [unfold M; lia | exact Hco].
            + intros Hct. destruct (Hc Hct) as [_ HM]. unfold M in HM. lia. }
        destruct (IH (S f) fu1 c1 dbus (l ++ [pcz f]) HL1 HI1 ltac:(lia)) as (fu' & l1i' & k & E & Hk & HI' & Hpost).
        exists fu', l1i', (S k). cbn [seq map]. rewrite E. rewrite <- app_assoc. cbn [List.app].
        split; [reflexivity|]. split; [lia|]. split; [exact HI'|].
        replace (f + S k)%nat with (S f + k)%nat by lia.
        destruct Hpost as [(A & B & _)|Hw]; [left | right; exact Hw].
        split; [exact A|]. split; [exact B|]. intros Hk0. discriminate Hk0.
      + (* miss: wait *)
        exists (mk_fu6 (f_pc fu) (f_clean fu) (f_complete fu) FWait (MemoryAccess - 1)), c1, O.
        cbn [seq map]. rewrite app_nil_r, Nat.add_0_r. split; [reflexivity|]. split; [lia|]. split; [exact HI1|].
        right. cbn [f_pc f_clean f_co f_rem f_complete].
        split; [exact Hpc|]. split; [exact Hcl|]. split; [reflexivity|]. split; [reflexivity|]. split.
        * intros Hcf. apply Hnc. exact Hcf.
        * intros Hct. destruct (Hc Hct) as [_ HM]. lia.
  Qed.

  Lemma phi_co_le fu f l1i : FetchI f fu l1i -> 0 <= phi_co fu <= MemoryAccess + 1.
  Proof. intros H. unfold phi_co. destruct (f_co fu) eqn:E; unfold MemoryAccess in *; try lia. pose proof (fi_rem _ _ _ H E). unfold MemoryAccess in *. lia. Qed.

  Lemma phiF_nonneg fu f l1i : FetchI f fu l1i -> 0 <= phiF fu.
  Proof.
    intros H. pose proof (phi_co_le _ _ _ H). unfold phiF. rewrite (fi_pc _ _ _ H). unfold pcz.
    assert ((f <= M + 2)%nat).
    { destruct (f_complete fu) eqn:E; [apply (fi_c _ _ _ H) in E | apply (fi_nc _ _ _ H) in E]; lia. }
    lia.
  Qed.

  (* fetchUnit.cycle, toCleanPending not set *)
  Lemma fu_ok0 cyc f fu l1i dbus : FetchI f fu l1i -> BusOK cyc dbus -> f_clean fu = false ->
    exists fu' l1i' k,
      fu_cycle6 app (cyc + 1) fu l1i dbus = Ok (fu', l1i', bus_push dbus (cyc + 2) (map pcz (seq f k))) /\
      FetchI (f + k) fu' l1i' /\ f_clean fu' = false /\
      phiF fu' + 10 * Z.of_nat k <= phiF fu /\
      (f_co fu = FWait \/ (f_co fu = FNone /\ bb_canadd dbus = true) -> phiF fu' + 10 * Z.of_nat k < phiF fu).
  Proof.
    intros HF HB Hcl. pose proof HF as [Hpc HI Hrem Hnc Hc]. pose proof HB as [Hql Hbl _ _].
    unfold fu_cycle6. rewrite Hcl.
    set (fu0 := mk_fu6 (f_pc fu) false (f_complete fu) (f_co fu) (f_rem fu)).
    assert (Efu0 : fu0 = fu) by (unfold fu0; rewrite <- Hcl; destruct fu; reflexivity).
    rewrite Efu0. clear fu0 Efu0.
    replace (cyc + 2) with (cyc + 1 + 1) by lia.
    destruct (f_co fu) eqn:Eco.
    - (* FNone *)
      assert (Hncomp : f_complete fu = false).
      { destruct (f_complete fu) eqn:E; [|reflexivity]. destruct (Hc eq_refl) as [Hx _]. contradiction. }
      destruct (Hnc Hncomp) as [HfM _].
      assert (HL : LoopI f fu).
      { split; [exact Hpc|]. split; [exact Hcl|]. split; [auto|]. intros E. rewrite E in Hncomp. discriminate. }
      rewrite Hbl. change (Z.to_nat 2) with 2%nat.
      destruct (co_fetch_ok (cyc + 1) 2 f fu l1i dbus [] HL HI ltac:(lia)) as (fu' & l1i' & k & E & Hk & HI' & Hpost).
      rewrite bus_push_nil in E. rewrite E. cbn [List.app]. exists fu', l1i', k. split; [reflexivity|].
      destruct Hpost as [(HL' & HfM' & Hk0)|(Hpc' & Hcl' & Hco' & Hrem' & Hnc' & Hc')].
      + destruct HL' as (Hpc' & Hcl' & Hnc' & Hc').
        assert (HF' : FetchI (f + k) fu' l1i').
        { constructor; auto.
          - intros Hw. destruct (f_complete fu') eqn:Ec; [destruct (Hc' eq_refl) as [Hx _] | destruct (Hnc' eq_refl) as [_ Hx]]; congruence.
          - intros Ec. destruct (Hnc' Ec) as [A B]. split; [exact A | congruence].
          - intros Ec. destruct (Hc' Ec) as [A B]. split; [congruence|]. split; [lia | congruence]. }
        split; [exact HF'|]. split; [exact Hcl'|].
        pose proof (phi_co_le _ _ _ HF') as Hle. unfold phiF. rewrite Hpc', Hpc. unfold phi_co at 2 4. rewrite Eco.
        destruct k as [|k].
        * destruct (Hk0 eq_refl) as [-> Hstall]. rewrite Nat.add_0_r. unfold phi_co. rewrite Eco.
          split; [lia|]. intros [Hx|[_ Hx]]; [discriminate|]. rewrite bus_push_nil in Hstall.
          destruct Hstall as [Hx'|Hx']; [discriminate | congruence].
        * unfold pcz. split; [lia|]. intros _. lia.
      + assert (HF' : FetchI (f + k) fu' l1i').
        { constructor; auto.
          - intros _. rewrite Hrem'. unfold MemoryAccess. lia.
          - intros Ec. split; [apply Hnc'; exact Ec | congruence].
          - intros Ec. split; [congruence|]. specialize (Hc' Ec). split; [lia | intros _; lia]. }
        split; [exact HF'|]. split; [exact Hcl'|].
        unfold phiF. rewrite Hpc', Hpc. unfold phi_co. rewrite Eco, Hco', Hrem'. unfold pcz, MemoryAccess.
        split; [lia|]. intros _. lia.
    - (* FWait *)
      destruct (Hrem eq_refl) as [Hr0 Hr1].
      destruct (Z.eqb_spec (f_rem fu) 0) as [Ez|Enz]; cbn [negb].
      + (* the line arrives: one push *)
        destruct (l1i_push l1i (f_pc fu) HI ltac:(rewrite Hpc; apply pcz_nonneg)) as (p & Ep & HIp).
        rewrite Ep. cbn [bind].
        assert (HfM : (f <= M + 1)%nat).
        { destruct (f_complete fu) eqn:Ec; [destruct (Hc eq_refl) as (_ & _ & Hx); specialize (Hx eq_refl); lia | destruct (Hnc eq_refl); lia]. }
        rewrite (fu_push_spec (cyc + 1) (mk_fu6 (f_pc fu) false (f_complete fu) FNone (f_rem fu)) dbus f Hpc HfM). cbn [f_clean f_complete f_co f_rem].
        exists (mk_fu6 (pcz (S f)) false (f_complete fu || (n <=? S f)%nat) (if (n <=? S f)%nat then FDone else FNone) (f_rem fu)),
               (fst p), 1%nat.
        cbn [seq map]. split; [unfold bus_push, bb_add, stamped; cbn [map]; reflexivity|].
        replace (f + 1)%nat with (S f) by lia.
        assert (HF' : FetchI (S f) (mk_fu6 (pcz (S f)) false (f_complete fu || (n <=? S f)%nat)
                                         (if (n <=? S f)%nat then FDone else FNone) (f_rem fu)) (fst p)).
        { constructor; cbn [f_pc f_clean f_complete f_co f_rem]; auto.
          - destruct (Nat.leb_spec n (S f)) as [Hle|Hgt]; [rewrite orb_true_r; discriminate|].
            rewrite orb_false_r. intros Ec. destruct (Hnc Ec) as [A _]. split; [unfold M; lia | discriminate].
          - destruct (Nat.leb_spec n (S f)) as [Hle|Hgt].
            + intros _. split; [discriminate|]. split; [|discriminate]. unfold M in *. lia.
            + rewrite orb_false_r. intros Ec. destruct (Hc Ec) as (_ & Hx & _). unfold M in Hx. lia. }
        split; [exact HF'|]. split; [reflexivity|].
        pose proof (phi_co_le _ _ _ HF') as Hle. unfold phiF in *. cbn [f_pc] in *. rewrite Hpc.
        unfold phi_co at 2 4. rewrite Eco. set (x := phi_co _) in *. unfold pcz, MemoryAccess in *.
        split; [lia|]. intros _. lia.
      + (* count down *)
        exists (mk_fu6 (f_pc fu) false (f_complete fu) FWait (f_rem fu - 1)), l1i, O.
        cbn [seq map]. rewrite bus_push_nil, Nat.add_0_r. split; [reflexivity|].
        split.
        * constructor; cbn [f_pc f_clean f_complete f_co f_rem]; auto; try (intros _; lia).
        * split; [reflexivity|]. unfold phiF, phi_co. cbn [f_pc f_co f_rem]. rewrite Eco. split; [lia|]. intros _. lia.
    - (* FDone *)
      exists fu, l1i, O. cbn [seq map]. rewrite bus_push_nil, Nat.add_0_r. split; [reflexivity|].
      split; [exact HF|]. split; [exact Hcl|]. split; [lia|]. intros [Hx|[Hx _]]; discriminate.
  Qed.

  (* fetchUnit.cycle: when toCleanPending is set the decode bus is already clean *)
  Lemma fu_ok cyc f fu l1i dbus : FetchI f fu l1i -> BusOK cyc dbus ->
    (f_clean fu = true -> bb_buf dbus = [] /\ bb_q dbus = []) ->
    exists fu' l1i' k,
      fu_cycle6 app (cyc + 1) fu l1i dbus = Ok (fu', l1i', bus_push dbus (cyc + 2) (map pcz (seq f k))) /\
      FetchI (f + k) fu' l1i' /\ f_clean fu' = false /\
      phiF fu' + 10 * Z.of_nat k <= phiF fu /\
      (f_co fu = FWait \/ (f_co fu = FNone /\ bb_canadd dbus = true) -> phiF fu' + 10 * Z.of_nat k < phiF fu).
  Proof.
    intros HF HB Hclean.
    set (fu0 := mk_fu6 (f_pc fu) false (f_complete fu) (f_co fu) (f_rem fu)).
    assert (Ecyc : fu_cycle6 app (cyc + 1) fu l1i dbus = fu_cycle6 app (cyc + 1) fu0 l1i dbus).
    { unfold fu_cycle6. cbn [fu0 f_clean f_pc f_complete f_co f_rem].
      assert (Edb : (if f_clean fu then bb_clean dbus else dbus) = dbus).
      { destruct (f_clean fu); [|reflexivity]. destruct (Hclean eq_refl) as [A B]. unfold bb_clean. rewrite <- A, <- B. destruct dbus; reflexivity. }
      rewrite Edb. reflexivity. }
    rewrite Ecyc. apply (fu_ok0 cyc f fu0 l1i dbus); [|exact HB | reflexivity].
    destruct HF as [H1 H2 H3 H4 H5]. constructor; auto.
  Qed.

  Lemma du_loop_ok cycle : forall len c cbus l, (base <= c)%nat -> (Nat.min c n <= N)%nat ->
    exists j ret' pbr',
      du_loop (map pcz (seq c len)) app cycle false false (bus_push cbus (cycle + 1) l)
      = Ok (ret', pbr', map pcz (seq (c + j) (len - j)),
            bus_push cbus (cycle + 1) (l ++ map rn (seq (Nat.min c n) (Nat.min (c + j) n - Nat.min c n)))) /\
      (j <= len)%nat /\ ((0 < len)%nat -> (0 < j)%nat) /\
      (ret' = true -> (N < n)%nat /\ (c + j)%nat = S N /\ is_ret (ik app N) = true) /\
      (pbr' = true -> (N < n)%nat /\ (c + j)%nat = S N /\ is_jump (ik app N) = true) /\
      (ret' = false -> pbr' = false -> (Nat.min (c + j) n <= N)%nat).
  Proof.
    induction len as [|len IH]; intros c cbus l Hbc Hc.
    - exists O, false, false. cbn [seq map du_loop]. replace (Nat.min (c + 0) n - Nat.min c n)%nat with O by (rewrite Nat.add_0_r; lia).
      cbn [seq map]. rewrite app_nil_r.
      split; [reflexivity|]. split; [lia|]. split; [lia|]. split; [discriminate|]. split; [discriminate|]. intros _ _. rewrite Nat.add_0_r. exact Hc.
    - cbn [seq map du_loop]. rewrite pcz_quot. unfold nlen6. fold n.
      destruct (Z.leb_spec (Z.of_nat n) (Z.of_nat c)) as [Hout|Hin].
      + (* outside the text: dropped, the loop ends *)
        exists 1%nat, false, false. replace (S len - 1)%nat with len by lia. replace (c + 1)%nat with (S c) by lia.
        replace (Nat.min (S c) n - Nat.min c n)%nat with O by lia. cbn [seq map]. rewrite app_nil_r.
        split; [reflexivity|]. split; [lia|]. split; [lia|]. split; [discriminate|]. split; [discriminate|]. intros _ _. lia.
      + assert (Hcn : (c < n)%nat) by lia.
        destruct (Z.ltb_spec (Z.of_nat c) 0); [lia|]. rewrite Nat2Z.id, (ik_nth c Hcn).
        fold (is_jump (ik app c)). rewrite is_ret_type. rewrite bus_push_add. fold (rn c).
        assert (HcN : (c <= N)%nat) by lia.
        assert (HatN : is_ret (ik app c) = true \/ is_jump (ik app c) = true -> c = N).
        { intros Hx. destruct (Nat.eq_dec c N) as [|Hne]; [assumption|]. exfalso.
          destruct (ik_not_stop c ltac:(lia)) as [A B]. destruct Hx; congruence. }
        destruct (is_jump (ik app c)) eqn:Ejmp.
        * (* an unconditional jump: decoded, the unit waits for its resolution *)
          assert (c = N) by (apply HatN; right; reflexivity). subst c.
          exists 1%nat, false, true. replace (S len - 1)%nat with len by lia. replace (N + 1)%nat with (S N) by lia.
          replace (Nat.min (S N) n - Nat.min N n)%nat with 1%nat by lia. replace (Nat.min N n) with N by lia.
          cbn [seq map]. split; [reflexivity|]. split; [lia|]. split; [lia|]. split; [discriminate|].
          split; [intros _; auto | discriminate].
        * destruct (is_ret (ik app c)) eqn:Eret.
          -- (* the ret: decoded, the loop ends *)
             assert (c = N) by (apply HatN; left; reflexivity). subst c.
             exists 1%nat, true, false. replace (S len - 1)%nat with len by lia. replace (N + 1)%nat with (S N) by lia.
             replace (Nat.min (S N) n - Nat.min N n)%nat with 1%nat by lia. replace (Nat.min N n) with N by lia.
             cbn [seq map]. split; [reflexivity|]. split; [lia|]. split; [lia|]. split; [intros _; auto|].
             split; discriminate.
          -- assert (Hne : c <> N).
             { intros ->. pose proof (ik_stop Hcn) as Hx. unfold is_stop in Hx. rewrite Eret, Ejmp in Hx. discriminate. }
             destruct (IH (S c) cbus (l ++ [rn c]) ltac:(lia) ltac:(lia)) as (j & ret' & pbr' & E & Hj & Hj0 & Hrt & Hpt & Hrf).
             exists (S j), ret', pbr'. rewrite E. replace (c + S j)%nat with (S c + j)%nat by lia. cbn [Nat.sub].
             replace (Nat.min c n) with c by lia. replace (Nat.min (S c) n) with (S c) in * by lia.
             rewrite (seq_cons_min c (Nat.min (S c + j) n)) by lia. cbn [map]. rewrite <- app_assoc. cbn [List.app].
             split; [reflexivity|]. split; [lia|]. split; [lia|]. split; [assumption|]. split; assumption.
  Qed.

  (* decodeUnit.cycle when it is active *)
  Lemma du_ok cyc m c len : bb_q (m_dbus m) = map pcz (seq c len) -> (base <= c)%nat -> (Nat.min c n <= N)%nat ->
    m_dret m = false -> m_dpbr m = false ->
    exists j ret' pbr',
      du_cycle6 app (cyc + 1) m
      = Ok (set_cbus (set_dbus (set_du m ret' pbr')
                               (mk_bb (bb_buf (m_dbus m)) (map pcz (seq (c + j) (len - j))) (bb_ql (m_dbus m)) (bb_bl (m_dbus m))))
                     (bus_push (m_cbus m) (cyc + 2) (map rn (seq (Nat.min c n) (Nat.min (c + j) n - Nat.min c n))))) /\
      (j <= len)%nat /\ ((0 < len)%nat -> (0 < j)%nat) /\
      (ret' = true -> (N < n)%nat /\ (c + j)%nat = S N /\ is_ret (ik app N) = true) /\
      (pbr' = true -> (N < n)%nat /\ (c + j)%nat = S N /\ is_jump (ik app N) = true) /\
      (ret' = false -> pbr' = false -> (Nat.min (c + j) n <= N)%nat).
  Proof.
    intros Hq Hbc Hc Hr Hp. unfold du_cycle6. rewrite Hr, Hp, Hq.
    destruct (du_loop_ok (cyc + 1) len c (m_cbus m) [] Hbc Hc) as (j & ret' & pbr' & E & Hrest).
    rewrite bus_push_nil in E. rewrite E. cbn [bind List.app]. exists j, ret', pbr'.
    replace (cyc + 1 + 1) with (cyc + 2) by lia. split; [reflexivity | exact Hrest].
  Qed.

  Lemma du_idle cyc m : m_dret m = true \/ m_dpbr m = true -> du_cycle6 app (cyc + 1) m = Ok m.
  Proof. intros [H|H]; unfold du_cycle6; rewrite H; [|destruct (m_dret m)]; reflexivity. Qed.
End Front.
