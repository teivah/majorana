(* Soundness of the ghost flag of the cycle-level model of MVP-8.0 (Mvp80.v).

   mvp80_ord_irrelevant: a run that ends with the ghost flag clear returns the same result (and the flag clear)
   under every other order function, for pairs of order functions related by ords_ok3 of Mvp63Proofs.v (both are
   iteration orders and they agree on every map iterated at a NEGATIVE pc: the RAT value maps, pc = -1 / -2, and -
   because the model iterates the request map of coSnoop at pc = -(3 + core) - the snoop request maps).
   So this theorem is about map (b), controlUnit.pushedRunnersInPreviousCycle:
   the states of the two runs are EQUAL after every tick.

   mvp80_ord_irrelevant_single / mvp80_ord_irrelevant_both_flags: for order functions that agree on the RAT value
   maps ONLY (ords_rat: no condition on the orders of maps (b) and (d)), under the extra condition - a predicate over
   the run, mvp80_snoop_single, or the second ghost flag mvp80_snoop_multi - that no coSnoop call of the run iterates
   over a request map with two or more entries.

   The statement for ords_rat with the ghost flag of the model alone (coSnoop calls with several pairwise conflict-free
   requests: the two runs then differ by the order of the snoop closures and of three lists that are only used as
   sets / maps) is mvp80_ord_irrelevant_snoop of Mvp80OrdFinal.v; it implies the three theorems of this file, which
   have elementary proofs here (the two runs are equal state by state).

   Proof: as in Mvp63Proofs.v / Mvp70Proofs.v.  The flag only moves in the control unit (cu_cycle3 inside
   cu_cycle8) and in snoops8 (or_os8); it never goes down; every other unit leaves it alone (Mvp80OrdFrame.v) and uses the
   order only through the RAT value maps (.._ord). *)
From Coq Require Import ZArith List Bool Lia.
From Maj Require Import Base.Outcome Base.GoInt Base.GoTypes Isa.Spec Isa.Seq.
From Maj Require Import Gen.Latency Gen.RiscTables Gen.Opcodes Comp.Cache Comp.Rat Mvp.Mvp12 Mvp.Mvp3 Mvp.Mvp5 Mvp.Mvp60 Mvp.Mvp63 Mvp.Mvp80.
From Maj Require Import Mvp.Mvp60Proofs Mvp.Mvp63Proofs Mvp.Mvp80Proofs Mvp.Mvp80OrdFrame Mvp.Mvp80OrdIds Comp.RatProofs.
From Coq Require Import Permutation.
Import ListNotations.
Open Scope Z_scope.

Lemma put_mw_os : forall y w, y_os (put_mw y w) = y_os y.
Proof. reflexivity. Qed.

Lemma put_cc_os : forall y i c, y_os (put_cc y i c) = y_os y.
Proof. reflexivity. Qed.

Lemma rat_rollback3_os : forall ord cycle x s, x_os (rat_rollback3 ord cycle x s) = x_os x.
Proof. reflexivity. Qed.
Lemma rat_commit3_os : forall ord cycle x, x_os (rat_commit3 ord cycle x) = x_os x.
Proof. reflexivity. Qed.

(* the part of a tick after the snoops (Mvp80OrdFrame.v): the flag stays at b *)
Section Flag.

Variable b : bool.
Let P (y : my) : Prop := y_os y = b.

Lemma os_x : forall y x, xframe (y_x y) x -> P y -> P (set_x y x).
Proof. intros y x [_ E] H. unfold P, y_os in *. cbn [y_x set_x]. congruence. Qed.

Lemma os_read : forall y i c addrs w c1 r, nth_error (y_ccs y) i = Some c ->
  cc_read_cycle (mw_of y) c addrs = Ok (w, c1, r) -> P y -> P (put_cc (put_mw y w) i c1).
Proof. intros y i c addrs w c1 r _ _ H. exact H. Qed.

Lemma os_write : forall y i c addrs data w c1 r, nth_error (y_ccs y) i = Some c ->
  cc_write_cycle (mw_of y) c addrs data = Ok (w, c1, r) -> P y -> P (put_cc (put_mw y w) i c1).
Proof. intros y i c addrs data w c1 r _ _ H. exact H. Qed.

Lemma os_flush : forall y i c k c1, nth_error (y_ccs y) i = Some c ->
  cc_flush (y_msi y) c = Ok (k, c1) -> P y -> P (put_cc (set_ymsi y k) i c1).
Proof. intros y i c k c1 _ _ H. exact H. Qed.

Definition after_snoops8_flag := after_snoops8_frame P (fun os => os = b) (fun _ H => H) os_x os_read os_write os_flush.
Definition flush_advance8_flag := flush_advance8_frame P (fun os => os = b) (fun _ H => H) os_x os_flush.

End Flag.

Lemma after_snoops8_os : forall labels ord s y, res_os8 (after_snoops8 labels ord s y) = y_os y.
Proof.
  intros labels ord s y. pose proof (after_snoops8_flag (y_os y) labels ord s y eq_refl) as F.
  destruct (after_snoops8 labels ord s y); exact F.
Qed.

Lemma flush_advance8_os : forall s k seq pc from empty, res_os8 (flush_advance8 s k seq pc from empty) = y_os (v_y s).
Proof.
  intros s k seq pc from empty. pose proof (flush_advance8_flag (y_os (v_y s)) s k seq pc from empty eq_refl) as F.
  destruct (flush_advance8 s k seq pc from empty); exact F.
Qed.

(* snoops8 can only raise the flag *)
Lemma snoops8_os : forall ord cycle y y', snoops8 ord cycle y = Ok y' -> y_os y' = false -> y_os y = false.
Proof.
  intros ord cycle y y' H Hos. unfold snoops8 in H.
  destruct (snoops_cycle ord cycle (mw_of y) (y_ccs y)) as [os r].
  apply bind_ok in H as (z & _ & H). inversion H; subst. unfold or_os8, y_os in Hos. simpl in Hos.
  apply orb_false_iff in Hos. destruct Hos as [Hos _]. exact Hos.
Qed.

(* the two order functions agree on the maps whose order is not observable (the RAT value maps, iterated at
   pc = -1 and, in InitRAT, pc = -2); implied by ords_ok3 *)
Definition ords_rat (ord1 ord2 : Z -> Z -> list Z -> list Z) : Prop :=
  forall cycle keys, ord1 cycle (-1) keys = ord2 cycle (-1) keys /\ ord1 cycle (-2) keys = ord2 cycle (-2) keys.

Lemma ords_ok3_rat : forall ord1 ord2, ords_ok3 ord1 ord2 -> ords_rat ord1 ord2.
Proof. intros ord1 ord2 [_ [_ A]] cycle keys. split; apply A; lia. Qed.

Lemma commit_vals_ord8 : forall ord1 ord2 cycle crat vals,
  ords_rat ord1 ord2 -> commit_vals ord1 cycle crat vals = commit_vals ord2 cycle crat vals.
Proof. intros ord1 ord2 cycle crat vals A. unfold commit_vals, map_order. rewrite (proj1 (A cycle _)). reflexivity. Qed.

Lemma rat_commit3_ord8 : forall ord1 ord2 cycle x,
  ords_rat ord1 ord2 -> rat_commit3 ord1 cycle x = rat_commit3 ord2 cycle x.
Proof. intros. unfold rat_commit3. rewrite (commit_vals_ord8 ord1 ord2); auto. Qed.

Lemma rat_rollback3_ord8 : forall ord1 ord2 cycle x s,
  ords_rat ord1 ord2 -> rat_rollback3 ord1 cycle x s = rat_rollback3 ord2 cycle x s.
Proof. intros. unfold rat_rollback3. rewrite (commit_vals_ord8 ord1 ord2); auto. Qed.

Lemma rat_flush3_ord8 : forall ord1 ord2 cycle x,
  ords_rat ord1 ord2 -> rat_flush3 ord1 cycle x = rat_flush3 ord2 cycle x.
Proof. intros ord1 ord2 cycle x A. unfold rat_flush3, map_order. rewrite (proj1 (A cycle _)). reflexivity. Qed.

Lemma init8_ord : forall par ord1 ord2 app st, ords_rat ord1 ord2 -> init8 par ord1 app st = init8 par ord2 app st.
Proof.
  intros par ord1 ord2 app st A. unfold init8, init_rat3, map_order. rewrite (proj2 (A 0 _)). reflexivity.
Qed.

Lemma eu_run8_ord : forall labels ord1 ord2 cycle y i e, ords_rat ord1 ord2 ->
  eu_run8 labels ord1 cycle y i e = eu_run8 labels ord2 cycle y i e.
Proof.
  intros labels ord1 ord2 cycle y i e O. unfold eu_run8.
  destruct (h_runner e) as [r|]; [|reflexivity].
  destruct (instr_Run _ _ _ _ _ _) as [exe| |]; try reflexivity.
  destruct (Return exe); [reflexivity|].
  destruct (MemoryChange exe); [reflexivity|].
  cbv zeta.
  destruct (q_fwder r); [reflexivity|].
  destruct (InstructionType_IsConditionalBranch _); [|reflexivity].
  rewrite !(rat_rollback3_ord8 ord1 ord2 _ _ _ O), !(rat_commit3_ord8 ord1 ord2 _ _ O). reflexivity.
Qed.

Lemma eu_read8_ord : forall labels ord1 ord2 cycle y i e addrs, ords_rat ord1 ord2 ->
  eu_read8 labels ord1 cycle y i e addrs = eu_read8 labels ord2 cycle y i e addrs.
Proof.
  intros labels ord1 ord2 cycle y i e addrs O. unfold eu_read8.
  destruct (nth_error (y_ccs y) i); [|reflexivity].
  destruct (cc_read_cycle _ _ _) as [[[w c1] [d|]]| |]; simpl; try reflexivity.
  apply eu_run8_ord; exact O.
Qed.

Lemma eu_prepare8_ord : forall labels ord1 ord2 cycle y i e, ords_rat ord1 ord2 ->
  eu_prepare8 labels ord1 cycle y i e = eu_prepare8 labels ord2 cycle y i e.
Proof.
  intros labels ord1 ord2 cycle y i e O. unfold eu_prepare8.
  destruct (negb (bb_canadd _)); [reflexivity|].
  destruct (h_runner e) as [r|]; [|reflexivity].
  match goal with |- context [match ?rcv with Some _ => _ | None => _ end] => destruct rcv as [[x0 r1]|] end; [|reflexivity].
  destruct (instr_MemoryRead _ _ _); [apply eu_run8_ord | apply eu_read8_ord]; exact O.
Qed.

Lemma eu_cycle8_ord : forall labels ord1 ord2 cycle y i e, ords_rat ord1 ord2 ->
  eu_cycle8 labels ord1 cycle y i e = eu_cycle8 labels ord2 cycle y i e.
Proof.
  intros labels ord1 ord2 cycle y i e O. unfold eu_cycle8.
  match goal with |- (if ?p then _ else _) = _ => destruct p end; [reflexivity|].
  destruct (h_co e).
  - destruct (pick8 _ _ _) as [[r q']|]; [|reflexivity]. apply eu_prepare8_ord; exact O.
  - apply eu_prepare8_ord; exact O.
  - apply eu_read8_ord; exact O.
  - reflexivity.
Qed.

Lemma eus_main8_ord : forall labels ord1 ord2 cycle, ords_rat ord1 ord2 -> forall eus y i acc,
  eus_main8 labels ord1 cycle y i eus acc = eus_main8 labels ord2 cycle y i eus acc.
Proof.
  intros labels ord1 ord2 cycle O. induction eus as [|e t IH]; intros y i acc; [reflexivity|]. simpl.
  rewrite (eu_cycle8_ord labels ord1 ord2 _ _ _ _ O).
  destruct (eu_cycle8 labels ord2 _ _ _ _) as [[[y1 e1] o]| |]; simpl; try reflexivity.
  destruct (y_err o); [reflexivity|]. rewrite IH. reflexivity.
Qed.

Lemma eus_drain8_ord : forall labels ord1 ord2 cycle, ords_rat ord1 ord2 -> forall eus y i,
  eus_drain8 labels ord1 cycle y i eus = eus_drain8 labels ord2 cycle y i eus.
Proof.
  intros labels ord1 ord2 cycle O. induction eus as [|e t IH]; intros y i; [reflexivity|]. simpl.
  destruct (eu_empty8 e); [rewrite IH; reflexivity|].
  rewrite (eu_cycle8_ord labels ord1 ord2 _ _ _ _ O).
  destruct (eu_cycle8 labels ord2 _ _ _ _) as [[[y1 e1] o]| |]; simpl; try reflexivity.
  destruct (y_err o); [reflexivity|]. rewrite IH. reflexivity.
Qed.

Lemma eus_flush8_ord : forall labels ord1 ord2 from, ords_rat ord1 ord2 -> forall eus y i acc,
  eus_flush8 labels ord1 from y i eus acc = eus_flush8 labels ord2 from y i eus acc.
Proof.
  intros labels ord1 ord2 from O. induction eus as [|e t IH]; intros y i acc; [reflexivity|]. simpl.
  destruct (_ && _); [rewrite IH; reflexivity|].
  rewrite (eu_cycle8_ord labels ord1 ord2 _ _ _ _ O).
  destruct (eu_cycle8 labels ord2 _ _ _ _) as [[[y1 e1] o]| |]; simpl; try reflexivity.
  destruct (y_err o); [reflexivity|]. rewrite IH. reflexivity.
Qed.

Lemma eus_final8_ord : forall labels ord1 ord2 cycle, ords_rat ord1 ord2 -> forall eus y i,
  eus_final8 labels ord1 cycle y i eus = eus_final8 labels ord2 cycle y i eus.
Proof.
  intros labels ord1 ord2 cycle O. induction eus as [|e t IH]; intros y i; [reflexivity|]. simpl.
  destruct (_ && _); [rewrite IH; reflexivity|].
  destruct (nth_error (y_ccs y) i); [|reflexivity].
  rewrite (eu_cycle8_ord labels ord1 ord2 _ _ _ _ O).
  destruct (eu_cycle8 labels ord2 _ _ _ _) as [[[y1 e1] o]| |]; simpl; try reflexivity.
  rewrite IH. reflexivity.
Qed.

Lemma finish8_ord : forall ord1 ord2 y cycle, ords_rat ord1 ord2 -> finish8 ord1 y cycle = finish8 ord2 y cycle.
Proof.
  intros ord1 ord2 y cycle O. unfold finish8.
  destruct (bind _ _) as [[w c]| |]; try reflexivity.
  rewrite (rat_commit3_ord8 ord1 ord2 cycle _ O), (rat_flush3_ord8 ord1 ord2 cycle _ O). reflexivity.
Qed.


Lemma cu_cycle8_ord : forall ord1 ord2 cycle y,
  y_os (cu_cycle8 ord1 cycle y) = false ->
  cu_cycle8 ord2 cycle y = cu_cycle8 ord1 cycle y /\ y_os y = false.
Proof.
  intros ord1 ord2 cycle y H. unfold cu_cycle8 in *.
  destruct (k_stale (y_msi y)); [auto|].
  unfold y_os in H. cbn [y_x] in H.
  destruct (cu_cycle3_ord ord1 ord2 cycle (y_x y) H) as [E Hx]. rewrite E. auto.
Qed.

Lemma front8_eq : forall app ord cycle y,
  front8 app ord cycle y =
  match fu_cycle6 app cycle (m_fu (x_m (connected3 (y_x y) cycle))) (m_l1i (x_m (connected3 (y_x y) cycle))) (m_dbus (x_m (connected3 (y_x y) cycle))) with
  | Ok (fu1, l1i1, dbus1) =>
      match du_cycle3 app cycle (set_m (connected3 (y_x y) cycle) (set_dbus (set_l1i (set_fu (x_m (connected3 (y_x y) cycle)) fu1) l1i1) dbus1)) with
      | Ok x1 => Ok (cu_cycle8 ord cycle (set_x y x1))
      | Err e => Err e
      | Panic => Panic
      end
  | Err e => Err e
  | Panic => Panic
  end.
Proof. reflexivity. Qed.

Lemma front8_ord : forall app ord1 ord2 cycle y y',
  front8 app ord1 cycle y = Ok y' -> y_os y' = false ->
  front8 app ord2 cycle y = Ok y' /\ y_os y = false.
Proof.
  intros app ord1 ord2 cycle y y' H Hos. rewrite front8_eq in *.
  destruct (fu_cycle6 app cycle _ _ _) as [[[fu1 l1i1] dbus1]| |]; try discriminate H.
  destruct (du_cycle3 app cycle _) as [x1| |] eqn:ED; try discriminate H.
  injection H as H. subst y'.
  destruct (cu_cycle8_ord ord1 ord2 cycle _ Hos) as [E Hx1]. rewrite E. split; [reflexivity|].
  apply du_cycle3_os in ED. unfold y_os in *. cbn [y_x set_x] in Hx1. rewrite Hx1 in ED. symmetry. exact ED.
Qed.

Lemma front8_err : forall app ord1 ord2 cycle y,
  (forall y', front8 app ord1 cycle y <> Ok y') -> front8 app ord2 cycle y = front8 app ord1 cycle y.
Proof.
  intros app ord1 ord2 cycle y H. rewrite !front8_eq in *.
  destruct (fu_cycle6 app cycle _ _ _) as [[[fu1 l1i1] dbus1]| |]; try reflexivity.
  destruct (du_cycle3 app cycle _) as [x1| |]; try reflexivity.
  exfalso. eapply H. reflexivity.
Qed.

Lemma front8_ccs : forall app ord cycle y y', front8 app ord cycle y = Ok y' -> y_ccs y' = y_ccs y.
Proof.
  intros app ord cycle y y' H. rewrite front8_eq in H.
  destruct (fu_cycle6 app cycle _ _ _) as [[[fu1 l1i1] dbus1]| |]; try discriminate H.
  destruct (du_cycle3 app cycle _) as [x1| |]; try discriminate H.
  injection H as H. subst y'. unfold cu_cycle8. destruct (k_stale _); reflexivity.
Qed.

Lemma after_snoops8_ord : forall labels ord1 ord2 s y, ords_rat ord1 ord2 ->
  after_snoops8 labels ord1 s y = after_snoops8 labels ord2 s y.
Proof.
  intros labels ord1 ord2 s y O. unfold after_snoops8.
  destruct (v_mode s) as [| | seq pc from | k seq pc from empty |].
  - rewrite (eus_main8_ord labels ord1 ord2 _ O). reflexivity.
  - rewrite (eus_drain8_ord labels ord1 ord2 _ O). reflexivity.
  - rewrite (eus_flush8_ord labels ord1 ord2 _ O). reflexivity.
  - reflexivity.
  - rewrite (eus_final8_ord labels ord1 ord2 _ O).
    destruct (eus_final8 labels ord2 _ _ _ _) as [[[y3 eus3] busy]| |]; cbn [res_of8]; try reflexivity.
    rewrite (finish8_ord ord1 ord2 _ _ O). reflexivity.
Qed.

(* the call of snoops8 of a tick: the cycle and the machine it is applied to (None: the write-unit loop inside the
   flush loop, or a front end that fails) *)
Definition snoop_arg8 (app : list instr) (ord : Z -> Z -> list Z -> list Z) (s : st8) : option (Z * my) :=
  match v_mode s with
  | PNormal => match front8 app ord (v_cycle s + 1) (v_y s) with Ok y => Some (v_cycle s + 1, y) | _ => None end
  | PRet => Some (v_cycle s, v_y s)
  | PFlushE _ _ _ => Some (v_cycle s + 1, v_y s)
  | PFlushW _ _ _ _ _ => None
  | PFinal => Some (v_cycle s + 1, v_y s)
  end.

Lemma snoops_then_os : forall labels ord cycle s y,
  res_os8 (res_of8 (y_os y) (snoops8 ord cycle y) (after_snoops8 labels ord s)) = false -> y_os y = false.
Proof.
  intros labels ord cycle s y H.
  destruct (snoops8 ord cycle y) as [y1| |] eqn:E; cbn [res_of8 res_os8] in H; try exact H.
  rewrite after_snoops8_os in H. eapply snoops8_os; eauto.
Qed.

Lemma snoops_then_ord : forall labels ord1 ord2 cycle s y, ords_rat ord1 ord2 ->
  snoops8 ord1 cycle y = snoops8 ord2 cycle y ->
  res_of8 (y_os y) (snoops8 ord1 cycle y) (after_snoops8 labels ord1 s) =
  res_of8 (y_os y) (snoops8 ord2 cycle y) (after_snoops8 labels ord2 s).
Proof.
  intros labels ord1 ord2 cycle s y O E. rewrite <- E.
  destruct (snoops8 ord1 cycle y) as [y1| |]; cbn [res_of8]; try reflexivity.
  apply after_snoops8_ord; exact O.
Qed.

(* one tick: if the snoop call of this tick does not depend on the order, the tick does not *)
Lemma step8_ord : forall app labels ord1 ord2 s, ords_rat ord1 ord2 ->
  (forall cycle y, snoop_arg8 app ord1 s = Some (cycle, y) -> snoops8 ord1 cycle y = snoops8 ord2 cycle y) ->
  res_os8 (step8 app labels ord1 s) = false ->
  step8 app labels ord1 s = step8 app labels ord2 s /\ y_os (v_y s) = false.
Proof.
  intros app labels ord1 ord2 s O SN H. rewrite !step8_eq in *. unfold snoop_arg8 in SN.
  destruct (v_mode s) as [| | seq pc from | k seq pc from empty |].
  - destruct (front8 app ord1 (v_cycle s + 1) (v_y s)) as [y1| |] eqn:EF.
    + cbn [res_of8] in H |- *.
      pose proof (snoops_then_os _ _ _ _ _ H) as K1.
      destruct (front8_ord app ord1 ord2 _ _ _ EF K1) as [EF2 Hy]. rewrite EF2. cbn [res_of8].
      split; [|exact Hy]. apply snoops_then_ord; [exact O|]. apply SN. reflexivity.
    + rewrite (front8_err app ord1 ord2) by (intros y' C; rewrite EF in C; discriminate). rewrite EF. auto.
    + rewrite (front8_err app ord1 ord2) by (intros y' C; rewrite EF in C; discriminate). rewrite EF. auto.
  - split; [|eapply snoops_then_os; exact H]. apply snoops_then_ord; [exact O|]. apply SN. reflexivity.
  - split; [|eapply snoops_then_os; exact H]. apply snoops_then_ord; [exact O|]. apply SN. reflexivity.
  - split; [reflexivity|].
    destruct (nth_error (v_wus s) k); [|exact H].
    destruct (wu_cycle8 (y_x (v_y s)) w seq) as [[x1 w1]| |] eqn:EW; cbn [res_of8] in H; try exact H.
    rewrite flush_advance8_os in H. apply wu_cycle8_frame in EW as [_ EW]. unfold y_os in *. simpl in H. congruence.
  - split; [|eapply snoops_then_os; exact H]. apply snoops_then_ord; [exact O|]. apply SN. reflexivity.
Qed.

(* the flag a run ends with *)
Definition final_os8 (r : (mres * bool) + st8) : bool :=
  match r with inl (_, os) => os | inr s' => y_os (v_y s') end.

(* P holds of the states the first `fuel` ticks of the run start from *)
Fixpoint run8_all (P : st8 -> Prop) (fuel : nat) (app : list instr) (labels : Z -> option Z)
         (ord : Z -> Z -> list Z -> list Z) (s : st8) : Prop :=
  match fuel with
  | O => True
  | S f => P s /\ match step8 app labels ord s with VDone _ _ => True | VCont s' => run8_all P f app labels ord s' end
  end.

Theorem run8_st_ord_gen : forall (P : st8 -> Prop) app ord1 ord2, ords_rat ord1 ord2 ->
  (forall s cycle y, P s -> snoop_arg8 app ord1 s = Some (cycle, y) -> snoops8 ord1 cycle y = snoops8 ord2 cycle y) ->
  forall fuel labels s,
  run8_all P fuel app labels ord1 s ->
  final_os8 (run8_st fuel app labels ord1 s) = false ->
  run8_st fuel app labels ord1 s = run8_st fuel app labels ord2 s /\ y_os (v_y s) = false.
Proof.
  intros P app ord1 ord2 O SN. induction fuel as [|f IH]; intros labels s A H; simpl in *; [auto|].
  destruct A as [Ps A].
  destruct (step8 app labels ord1 s) as [r os|s'] eqn:E.
  - simpl in H. subst os.
    destruct (step8_ord app labels ord1 ord2 s O) as [E2 Hs]; [intros; eapply SN; eauto | rewrite E; reflexivity|].
    rewrite <- E2, E. auto.
  - destruct (IH labels s' A H) as [R Hs'].
    destruct (step8_ord app labels ord1 ord2 s O) as [E2 Hs]; [intros; eapply SN; eauto | rewrite E; exact Hs'|].
    rewrite <- E2, E. auto.
Qed.


(* would this call of cc.snoop.Cycle iterate over a request map with two or more entries? *)
Definition snoop_multi1 (w : mw) (c : cc8) : bool :=
  match c_snoop c with
  | [] => 2 <=? zlen (filter (fun kc => ck_id (fst kc) =? c_id c) (k_cmds (w_msi w)))
  | _ :: _ => false
  end.

Fixpoint snoops_multi (ord : Z -> Z -> list Z -> list Z) (cycle : Z) (w : mw) (ccs : list cc8) : bool :=
  match ccs with
  | [] => false
  | c :: t =>
      snoop_multi1 w c ||
      match snd (cc_snoop_cycle ord cycle w c) with
      | Ok (w1, _) => snoops_multi ord cycle w1 t
      | _ => false
      end
  end.

Lemma map_order_nil : forall ord cycle pc, map_order ord cycle pc [] = [].
Proof.
  intros. unfold map_order.
  pose proof (iter_order_perm (ord cycle pc []) [] (NoDup_nil Z)) as P.
  apply Permutation_sym, Permutation_nil in P. exact P.
Qed.

Lemma map_order_single : forall ord cycle pc k, map_order ord cycle pc [k] = [k].
Proof.
  intros. unfold map_order.
  assert (N : NoDup [k]) by (constructor; [intros []|constructor]).
  pose proof (iter_order_perm (ord cycle pc [k]) [k] N) as P.
  apply Permutation_sym, Permutation_length_1_inv in P. exact P.
Qed.

Lemma cc_snoop_cycle_single : forall ord1 ord2 cycle w c,
  snoop_multi1 w c = false -> cc_snoop_cycle ord1 cycle w c = cc_snoop_cycle ord2 cycle w c.
Proof.
  intros ord1 ord2 cycle w c H. unfold cc_snoop_cycle, snoop_multi1 in *.
  destruct (c_snoop c); [|reflexivity].
  destruct (filter _ (k_cmds (w_msi w))) as [|kc [|kc2 t]].
  - cbn [map]. rewrite !map_order_nil. reflexivity.
  - cbn [map]. rewrite !map_order_single. reflexivity.
  - exfalso. unfold zlen in H. cbn [length] in H. apply Z.leb_gt in H. lia.
Qed.

Lemma snoops_cycle_single : forall ord1 ord2 cycle ccs w,
  snoops_multi ord1 cycle w ccs = false -> snoops_cycle ord1 cycle w ccs = snoops_cycle ord2 cycle w ccs.
Proof.
  intros ord1 ord2 cycle. induction ccs as [|c t IH]; intros w H; [reflexivity|].
  cbn [snoops_multi snoops_cycle] in *. apply orb_false_iff in H. destruct H as [H1 H2].
  rewrite <- (cc_snoop_cycle_single ord1 ord2 cycle w c H1).
  destruct (cc_snoop_cycle ord1 cycle w c) as [os1 [[w1 c1]| |]]; try reflexivity.
  cbn [snd] in H2. rewrite (IH w1 H2). reflexivity.
Qed.

Lemma snoops8_single : forall ord1 ord2 cycle y,
  snoops_multi ord1 cycle (mw_of y) (y_ccs y) = false -> snoops8 ord1 cycle y = snoops8 ord2 cycle y.
Proof. intros ord1 ord2 cycle y H. unfold snoops8. rewrite (snoops_cycle_single ord1 ord2 _ _ _ H). reflexivity. Qed.

(* the extra condition, as a predicate over the run: no tick of the run calls coSnoop with two or more requests *)
Definition step_single8 (app : list instr) (ord : Z -> Z -> list Z -> list Z) (s : st8) : Prop :=
  match snoop_arg8 app ord s with
  | Some (cycle, y) => snoops_multi ord cycle (mw_of y) (y_ccs y) = false
  | None => True
  end.

Definition mvp80_snoop_single (par : nat) (ord : Z -> Z -> list Z -> list Z) (fuel : nat) (app : list instr)
           (labels : Z -> option Z) (st : arch) : Prop :=
  match init8 par ord app st with
  | Ok s => run8_all (step_single8 app ord) fuel app labels ord s
  | _ => True
  end.

(* a run in which every coSnoop call sees at most one request and that ends with the flag clear returns the same
   result under every order function that agrees on the RAT value maps: no condition at all on the orders of
   maps (b) and (d) *)
Theorem mvp80_ord_irrelevant_single : forall par fuel app labels st ord1 ord2 r,
  ords_rat ord1 ord2 ->
  mvp80_snoop_single par ord1 fuel app labels st ->
  mvp80_run_os par ord1 fuel app labels st = (r, false) ->
  mvp80_run_os par ord2 fuel app labels st = (r, false).
Proof.
  intros par fuel app labels st ord1 ord2 r O S H. unfold mvp80_run_os, mvp80_snoop_single in *.
  rewrite <- (init8_ord par ord1 ord2 app st O).
  destruct (init8 par ord1 app st) as [s| |]; auto.
  destruct (run8_st_ord_gen (step_single8 app ord1) app ord1 ord2 O) with (fuel := fuel) (labels := labels) (s := s) as [E _].
  - intros s0 cycle y Ps A. unfold step_single8 in Ps. rewrite A in Ps. apply snoops8_single. exact Ps.
  - exact S.
  - destruct (run8_st fuel app labels ord1 s) as [[r1 os1]|s1]; inversion H; reflexivity.
  - rewrite <- E. exact H.
Qed.

(* the same condition as a boolean *)
Definition step_multi8 (app : list instr) (ord : Z -> Z -> list Z -> list Z) (s : st8) : bool :=
  match snoop_arg8 app ord s with
  | Some (cycle, y) => snoops_multi ord cycle (mw_of y) (y_ccs y)
  | None => false
  end.

Fixpoint run8_multi (fuel : nat) (app : list instr) (labels : Z -> option Z) (ord : Z -> Z -> list Z -> list Z) (s : st8) : bool :=
  match fuel with
  | O => false
  | S f => step_multi8 app ord s ||
           match step8 app labels ord s with VDone _ _ => false | VCont s' => run8_multi f app labels ord s' end
  end.

(* second ghost flag of a run: did some coSnoop call of the run see two or more requests? *)
Definition mvp80_snoop_multi (par : nat) (ord : Z -> Z -> list Z -> list Z) (fuel : nat) (app : list instr)
           (labels : Z -> option Z) (st : arch) : bool :=
  match init8 par ord app st with
  | Ok s => run8_multi fuel app labels ord s
  | _ => false
  end.

Lemma run8_multi_single : forall fuel app labels ord s,
  run8_multi fuel app labels ord s = false -> run8_all (step_single8 app ord) fuel app labels ord s.
Proof.
  induction fuel as [|f IH]; intros app labels ord s H; cbn [run8_multi run8_all] in *; [exact I|].
  apply orb_false_iff in H. destruct H as [H1 H2]. split.
  - unfold step_single8, step_multi8 in *. destruct (snoop_arg8 app ord s) as [[cycle y]|]; [exact H1 | exact I].
  - destruct (step8 app labels ord s); [exact I | apply IH; exact H2].
Qed.

Lemma mvp80_snoop_multi_single : forall par ord fuel app labels st,
  mvp80_snoop_multi par ord fuel app labels st = false -> mvp80_snoop_single par ord fuel app labels st.
Proof.
  intros par ord fuel app labels st H. unfold mvp80_snoop_multi, mvp80_snoop_single in *.
  destruct (init8 par ord app st); try exact I. apply run8_multi_single. exact H.
Qed.

(* both ghost flags clear: the result is the same for every order of the maps (b) and (d) *)
Theorem mvp80_ord_irrelevant_both_flags : forall par fuel app labels st ord1 ord2 r,
  ords_rat ord1 ord2 ->
  mvp80_snoop_multi par ord1 fuel app labels st = false ->
  mvp80_run_os par ord1 fuel app labels st = (r, false) ->
  mvp80_run_os par ord2 fuel app labels st = (r, false).
Proof.
  intros par fuel app labels st ord1 ord2 r O M H.
  eapply mvp80_ord_irrelevant_single; eauto. apply mvp80_snoop_multi_single. exact M.
Qed.

(* an order function that reverses every map except the RAT value maps *)
Definition ord_bd_desc : Z -> Z -> list Z -> list Z :=
  fun _ pc l => if (pc =? -1) || (pc =? -2) then l else rev l.

Lemma ords_rat_asc_bd_desc : ords_rat ord_asc ord_bd_desc.
Proof. intros cycle keys. split; reflexivity. Qed.

(* the hypotheses are satisfiable by a run that uses the memory system on three cores (loads and a store of one line:
   the store invalidates the copies of the other cores, one request per coSnoop call) *)
Example both_flags_clear_example :
  mvp80_snoop_multi 3 ord_asc 4000 stale_prog no_labels (st_of [(5, 7)] []) = false /\
  snd (mvp80_run_os 3 ord_asc 4000 stale_prog no_labels (st_of [(5, 7)] [])) = false /\
  reg_of (fst (mvp80_run_os 3 ord_bd_desc 4000 stale_prog no_labels (st_of [(5, 7)] []))) 10 = Some 0.
Proof. vm_compute. repeat split. Qed.


Lemma cc_snoop_cycle_ord : forall ord1 ord2 cycle w c, ords_ok3 ord1 ord2 -> 0 <= c_id c ->
  cc_snoop_cycle ord1 cycle w c = cc_snoop_cycle ord2 cycle w c.
Proof.
  intros ord1 ord2 cycle w c [_ [_ A]] Hc. unfold cc_snoop_cycle, map_order.
  destruct (c_snoop c); [|reflexivity].
  rewrite (A cycle (- (3 + c_id c))) by lia. reflexivity.
Qed.

Lemma snoops_cycle_ord : forall ord1 ord2 cycle ccs w, ords_ok3 ord1 ord2 -> Forall (fun z => 0 <= z) (map c_id ccs) ->
  snoops_cycle ord1 cycle w ccs = snoops_cycle ord2 cycle w ccs.
Proof.
  intros ord1 ord2 cycle ccs w O. revert w. induction ccs as [|c t IH]; intros w F; [reflexivity|].
  cbn [snoops_cycle map] in *. inversion F as [|? ? F1 F2]; subst.
  rewrite <- (cc_snoop_cycle_ord ord1 ord2 cycle w c O F1).
  destruct (cc_snoop_cycle ord1 cycle w c) as [os1 [[w1 c1]| |]]; try reflexivity.
  rewrite (IH w1 F2). reflexivity.
Qed.

Lemma snoops8_ord : forall ord1 ord2 cycle y, ords_ok3 ord1 ord2 -> Forall (fun z => 0 <= z) (ids8 y) ->
  snoops8 ord1 cycle y = snoops8 ord2 cycle y.
Proof. intros ord1 ord2 cycle y O F. unfold snoops8. rewrite (snoops_cycle_ord ord1 ord2 _ _ _ O F). reflexivity. Qed.

(* the ids of the controllers of a state are not negative *)
Definition ids_ok8 (s : st8) : Prop := Forall (fun z => 0 <= z) (ids8 (v_y s)).

Lemma run8_all_ids : forall fuel app labels ord s, ids_ok8 s -> run8_all ids_ok8 fuel app labels ord s.
Proof.
  induction fuel as [|f IH]; intros app labels ord s H; cbn [run8_all]; [exact I|].
  split; [exact H|].
  destruct (step8 app labels ord s) as [r os|s'] eqn:E; [exact I|].
  apply IH. unfold ids_ok8 in *. rewrite (step8_ids _ _ _ _ _ E). exact H.
Qed.

Lemma snoop_arg8_ids : forall app ord s cycle y, snoop_arg8 app ord s = Some (cycle, y) -> ids8 y = ids8 (v_y s).
Proof.
  intros app ord s cycle y H. unfold snoop_arg8 in H.
  destruct (v_mode s); try (inversion H; reflexivity); try discriminate.
  destruct (front8 app ord (v_cycle s + 1) (v_y s)) as [y1| |] eqn:EF; try discriminate.
  inversion H; subst. eapply front8_ids; eauto.
Qed.

(* a run of MVP-8.0 that ends with the ghost flag clear returns the same result whatever the iteration order of the
   control unit's map of the runners pushed in the previous cycle (order functions that agree on the maps iterated
   at a negative pc, as in mvp63_ord_irrelevant / mvp70_ord_irrelevant: here these are the RAT value maps AND the
   request maps of coSnoop) *)
Theorem mvp80_ord_irrelevant : forall par fuel app labels st ord1 ord2 r,
  ords_ok3 ord1 ord2 ->
  mvp80_run_os par ord1 fuel app labels st = (r, false) ->
  mvp80_run_os par ord2 fuel app labels st = (r, false).
Proof.
  intros par fuel app labels st ord1 ord2 r O H. pose proof (ords_ok3_rat _ _ O) as OR.
  unfold mvp80_run_os in *.
  rewrite <- (init8_ord par ord1 ord2 app st OR).
  destruct (init8 par ord1 app st) as [s| |] eqn:EI; auto.
  destruct (run8_st_ord_gen ids_ok8 app ord1 ord2 OR) with (fuel := fuel) (labels := labels) (s := s) as [E _].
  - intros s0 cycle y Ps A. apply snoops8_ord; [exact O|].
    rewrite (snoop_arg8_ids _ _ _ _ _ A). exact Ps.
  - apply run8_all_ids. unfold ids_ok8. rewrite (init8_ids _ _ _ _ _ EI).
    apply seq_ids_nonneg.
  - destruct (run8_st fuel app labels ord1 s) as [[r1 os1]|s1]; inversion H; reflexivity.
  - rewrite <- E. exact H.
Qed.

Print Assumptions mvp80_ord_irrelevant.
Print Assumptions mvp80_ord_irrelevant_single.
Print Assumptions mvp80_ord_irrelevant_both_flags.
Print Assumptions both_flags_clear_example.
