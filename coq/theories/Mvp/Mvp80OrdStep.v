(* Soundness of the ghost flag of the model of MVP-8.0: one tick and a run under two order functions that
   agree on the RAT value maps only.  The two runs are related by st_rel: the same pipeline, directories equal up
   to msi_equiv, controllers equal up to the order of their snoop closures. *)
From Coq Require Import ZArith List Bool Lia Permutation.
From Maj Require Import Base.Outcome Base.GoInt Base.GoTypes Isa.Spec Isa.Seq.
From Maj Require Import Gen.Latency Gen.RiscTables Gen.Opcodes Comp.Cache Comp.Rat Mvp.Mvp12 Mvp.Mvp3 Mvp.Mvp5 Mvp.Mvp60 Mvp.Mvp63 Mvp.Mvp80.
From Maj Require Import Mvp.Mvp60Proofs Mvp.Mvp63Proofs Mvp.Mvp80Proofs Mvp.Mvp80OrdIds Mvp.Mvp80OrdFrame Mvp.Mvp80OrdProofs.
From Maj Require Import Mvp.Mvp80OrdSnoop Mvp.Mvp80OrdCache Mvp.Mvp80OrdInvDefs Mvp.Mvp80OrdCommDefs Mvp.Mvp80OrdCong Mvp.Mvp80OrdCongAfter Mvp.Mvp80OrdComm.
From Maj Require Mvp.Mvp80OrdPerm Mvp.Mvp80OrdInv.
Import ListNotations.
Open Scope Z_scope.

Module P := Mvp.Mvp80OrdPerm.
Module IV := Mvp.Mvp80OrdInv.

Definition st_rel (s1 s2 : st8) : Prop :=
  my_rel (v_y s1) (v_y s2) /\ v_eus s1 = v_eus s2 /\ v_wus s1 = v_wus s2 /\ v_cycle s1 = v_cycle s2 /\ v_mode s1 = v_mode s2.

Definition res_rel (r1 r2 : step_res8) : Prop :=
  match r1, r2 with
  | VDone a os1, VDone b os2 => a = b /\ os1 = os2
  | VCont s1, VCont s2 => st_rel s1 s2
  | _, _ => False
  end.

(* my_rel = my_equiv ; my_perm *)
Definition mid (y1 y2 : my) : my := set_ccs y2 (y_ccs y1).

Lemma my_rel_split : forall y1 y2, my_rel y1 y2 -> my_equiv y1 (mid y1 y2) /\ P.my_perm (mid y1 y2) y2.
Proof.
  intros y1 y2 (A & B & C & D & E). unfold my_equiv, P.my_perm, mid, set_ccs. cbn [y_x y_msi y_copy y_pref y_ccs].
  split; [split; [exact A|]; split; [exact B|]; split; [exact C|]; split; [exact D | reflexivity]|].
  split; [reflexivity|]. split; [reflexivity|]. split; [reflexivity|]. split; [reflexivity | exact E].
Qed.

Lemma my_rel_join : forall y1 ym y2, my_equiv y1 ym -> P.my_perm ym y2 -> my_rel y1 y2.
Proof.
  intros y1 ym y2 (A & B & C & D & E) (A' & B' & C' & D' & E'). unfold my_rel.
  split; [congruence|]. split; [rewrite <- B'; exact B|]. split; [congruence|]. split; [congruence|].
  rewrite E. exact E'.
Qed.

Definition smid (s1 s2 : st8) : st8 := mk_st8 (mid (v_y s1) (v_y s2)) (v_eus s2) (v_wus s2) (v_cycle s2) (v_mode s2).

Lemma st_rel_split : forall s1 s2, st_rel s1 s2 -> st_equiv s1 (smid s1 s2) /\ P.st_perm (smid s1 s2) s2.
Proof.
  intros s1 s2 (A & B & C & D & E). destruct (my_rel_split _ _ A) as [A1 A2].
  unfold st_equiv, P.st_perm, smid. cbn [v_y v_eus v_wus v_cycle v_mode].
  split; [split; [exact A1|]; split; [exact B|]; split; [exact C|]; split; [exact D | exact E]|].
  split; [exact A2|]. split; [reflexivity|]. split; [reflexivity|]. split; reflexivity.
Qed.

Lemma res_rel_join : forall r1 rm r2, res_equiv r1 rm -> P.res_perm rm r2 -> res_rel r1 r2.
Proof.
  intros [a os1|s1] [b os2|sm] [c os3|s2] H1 H2; cbn [res_equiv P.res_perm res_rel] in *; try contradiction.
  - destruct H1, H2. split; congruence.
  - destruct H1 as (A & B & C & D & E), H2 as (A' & B' & C' & D' & E'). unfold st_rel.
    split; [eapply my_rel_join; eauto|]. repeat split; congruence.
Qed.

Lemma my_rel_os : forall y1 y2, my_rel y1 y2 -> y_os y1 = y_os y2.
Proof. intros y1 y2 (A & _). unfold y_os. rewrite A. reflexivity. Qed.

Lemma my_rel_refl : forall y, my_rel y y.
Proof.
  intros y. unfold my_rel. split; [reflexivity|]. split; [apply msi_equiv_refl|]. split; [reflexivity|]. split; [reflexivity|].
  induction (y_ccs y); constructor; [apply cc_perm_refl | assumption].
Qed.

Lemma st_rel_refl : forall s, st_rel s s.
Proof. intros s. unfold st_rel. split; [apply my_rel_refl|]. repeat split. Qed.

(* the flag never goes down *)
Lemma step8_flag_mono : forall app labels ord s, res_os8 (step8 app labels ord s) = false -> y_os (v_y s) = false.
Proof.
  intros app labels ord s H. apply (step8_ord app labels ord ord s); [intros cycle keys; split; reflexivity | reflexivity | exact H].
Qed.

Lemma run8_flag_mono : forall fuel app labels ord s,
  final_os8 (run8_st fuel app labels ord s) = false -> y_os (v_y s) = false.
Proof.
  induction fuel as [|f IH]; intros app labels ord s H; cbn [run8_st final_os8] in H; [exact H|].
  apply (step8_flag_mono app labels ord). destruct (step8 app labels ord s) as [r os|s'] eqn:E; [exact H | exact (IH _ _ _ _ H)].
Qed.

Section Step.

Variables ord1 ord2 : Z -> Z -> list Z -> list Z.
Hypothesis ORD : ords_rat ord1 ord2.

Lemma after_rel : forall labels s1 s2 y1 y2, st_rel s1 s2 -> my_rel y1 y2 ->
  res_rel (after_snoops8 labels ord1 s1 y1) (after_snoops8 labels ord2 s2 y2).
Proof.
  intros labels s1 s2 y1 y2 Hs Hy. rewrite (after_snoops8_ord labels ord1 ord2 s1 y1 ORD).
  destruct (st_rel_split _ _ Hs) as [S1 S2]. destruct (my_rel_split _ _ Hy) as [Y1 Y2].
  eapply res_rel_join.
  - apply after_snoops8_equiv; eauto.
  - apply P.after_snoops8_perm; eauto.
Qed.

Lemma snoops_after_rel : forall labels cycle s1 s2 y1 y2, st_rel s1 s2 -> my_rel y1 y2 -> my_inv y1 ->
  res_rel (res_of8 (y_os y1) (snoops8 ord1 cycle y1) (after_snoops8 labels ord1 s1))
          (res_of8 (y_os y2) (snoops8 ord2 cycle y2) (after_snoops8 labels ord2 s2)).
Proof.
  intros labels cycle s1 s2 y1 y2 Hs Hy I. rewrite <- (my_rel_os _ _ Hy).
  pose proof (snoops8_rel ord1 ord2 cycle y1 y2 Hy I) as S.
  destruct (snoops8 ord1 cycle y1) as [ya| |], (snoops8 ord2 cycle y2) as [yb| |]; cbn [orel] in S; try contradiction;
    cbn [res_of8 res_rel]; auto; try (split; congruence).
  apply after_rel; auto.
Qed.

Lemma front_rel : forall app cycle y1 y2 y1', my_rel y1 y2 ->
  front8 app ord1 cycle y1 = Ok y1' -> y_os y1' = false ->
  exists y2', front8 app ord2 cycle y2 = Ok y2' /\ my_rel y1' y2' /\ y_os y1 = false.
Proof.
  intros app cycle y1 y2 y1' Hy F Hos.
  destruct (front8_ord app ord1 ord2 cycle y1 y1' F Hos) as [F2 H0].
  destruct (my_rel_split _ _ Hy) as [Y1 Y2].
  pose proof (front8_equiv app ord2 cycle _ _ Y1) as Q1. rewrite F2 in Q1.
  pose proof (P.front8_perm app ord2 cycle _ _ Y2) as Q2.
  destruct (front8 app ord2 cycle (mid y1 y2)) as [ym| |]; cbn [orel] in Q1; try contradiction.
  destruct (front8 app ord2 cycle y2) as [y2'| |]; cbn [P.orelp] in Q2; try contradiction.
  exists y2'. split; [reflexivity|]. split; [eapply my_rel_join; eauto | exact H0].
Qed.

Lemma front_rel_err : forall app cycle y1 y2, my_rel y1 y2 ->
  (forall y', front8 app ord1 cycle y1 <> Ok y') ->
  match front8 app ord1 cycle y1, front8 app ord2 cycle y2 with
  | Err e1, Err e2 => e1 = e2
  | Panic, Panic => True
  | _, _ => False
  end.
Proof.
  intros app cycle y1 y2 Hy N. pose proof (front8_err app ord1 ord2 cycle y1 N) as F2.
  destruct (my_rel_split _ _ Hy) as [Y1 Y2].
  pose proof (front8_equiv app ord2 cycle _ _ Y1) as Q1. rewrite F2 in Q1.
  pose proof (P.front8_perm app ord2 cycle _ _ Y2) as Q2.
  destruct (front8 app ord1 cycle y1) as [ya|e| ]; [exfalso; eapply N; reflexivity| |];
  destruct (front8 app ord2 cycle (mid y1 y2)) as [ym|e'| ]; cbn [orel] in Q1; try contradiction;
  destruct (front8 app ord2 cycle y2) as [y2'|e''| ]; cbn [P.orelp] in Q2; try contradiction; auto; congruence.
Qed.

Theorem step8_rel : forall app labels s1 s2, st_rel s1 s2 -> my_inv (v_y s1) ->
  res_os8 (step8 app labels ord1 s1) = false ->
  res_rel (step8 app labels ord1 s1) (step8 app labels ord2 s2) /\ y_os (v_y s1) = false.
Proof.
  intros app labels s1 s2 Hs I H.
  pose proof Hs as (Hy & He & Hw & Hc & Hm).
  destruct (v_mode s1) as [| | seq pc from | k seq pc from empty |] eqn:M.
  - (* main loop *)
    rewrite !step8_eq in *. rewrite <- Hm, M in *. rewrite <- Hc.
    destruct (front8 app ord1 (v_cycle s1 + 1) (v_y s1)) as [y1'| |] eqn:EF.
    + cbn [res_of8] in H |- *.
      pose proof (snoops_then_os _ _ _ _ _ H) as K1.
      destruct (front_rel app _ _ _ _ Hy EF K1) as (y2' & EF2 & Hy' & H0). rewrite EF2. cbn [res_of8].
      split; [|exact H0].
      apply snoops_after_rel; auto.
      eapply IV.snoop_arg8_inv; [|exact I]. unfold snoop_arg8. rewrite M, EF. reflexivity.
    + pose proof (front_rel_err app (v_cycle s1 + 1) _ _ Hy) as Q. rewrite EF in Q.
      destruct (front8 app ord2 (v_cycle s1 + 1) (v_y s2)) as [?|?|]; try (exfalso; apply Q; intros y' C; discriminate C).
      cbn [res_of8 res_rel res_os8] in *. rewrite <- (my_rel_os _ _ Hy). split; [split; [f_equal; apply Q; intros y' C; discriminate C | reflexivity] | exact H].
    + pose proof (front_rel_err app (v_cycle s1 + 1) _ _ Hy) as Q. rewrite EF in Q.
      destruct (front8 app ord2 (v_cycle s1 + 1) (v_y s2)) as [?|?|]; try (exfalso; apply Q; intros y' C; discriminate C).
      cbn [res_of8 res_rel res_os8] in *. rewrite <- (my_rel_os _ _ Hy). split; [split; reflexivity | exact H].
  - rewrite !step8_eq in *. rewrite <- Hm, M in *. rewrite <- Hc.
    split; [|eapply snoops_then_os; exact H]. apply snoops_after_rel; auto.
  - rewrite !step8_eq in *. rewrite <- Hm, M in *. rewrite <- Hc.
    split; [|eapply snoops_then_os; exact H]. apply snoops_after_rel; auto.
  - (* the write-unit loop inside the flush loop: no snoops, no order *)
    destruct (step8_ord app labels ord1 ord2 s1 ORD) as [E H0]; [|exact H|].
    { intros cycle y A. unfold snoop_arg8 in A. rewrite M in A. discriminate A. }
    split; [|exact H0]. rewrite E.
    destruct (st_rel_split _ _ Hs) as [S1 S2].
    eapply res_rel_join; [apply step8_equiv; exact S1|].
    eapply P.flushw_perm; [exact S2|]. unfold smid. cbn [v_mode]. rewrite <- Hm. reflexivity.
  - rewrite !step8_eq in *. rewrite <- Hm, M in *. rewrite <- Hc.
    split; [|eapply snoops_then_os; exact H]. apply snoops_after_rel; auto.
Qed.


Theorem run8_rel : forall fuel app labels s1 s2, st_rel s1 s2 -> my_inv (v_y s1) ->
  final_os8 (run8_st fuel app labels ord1 s1) = false ->
  match run8_st fuel app labels ord1 s1, run8_st fuel app labels ord2 s2 with
  | inl r1, inl r2 => r1 = r2
  | inr a, inr b => st_rel a b
  | _, _ => False
  end.
Proof.
  induction fuel as [|f IH]; intros app labels s1 s2 Hs I H; cbn [run8_st] in *; [exact Hs|].
  destruct (step8 app labels ord1 s1) as [r os|s1'] eqn:E.
  - cbn [final_os8] in H. subst os.
    destruct (step8_rel app labels s1 s2 Hs I) as [R _]; [rewrite E; reflexivity|].
    rewrite E in R. destruct (step8 app labels ord2 s2) as [r2 os2|s2']; cbn [res_rel] in R; [|contradiction].
    destruct R as [-> <-]. reflexivity.
  - assert (F : y_os (v_y s1') = false) by (eapply run8_flag_mono; exact H).
    destruct (step8_rel app labels s1 s2 Hs I) as [R _]; [rewrite E; exact F|].
    rewrite E in R. destruct (step8 app labels ord2 s2) as [r2 os2|s2']; cbn [res_rel] in R; [contradiction|].
    apply IH; [exact R | eapply IV.step8_inv; eauto | exact H].
Qed.

End Step.
