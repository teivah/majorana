(* Refinement of MVP-6.3 to the sequential machine on single-assignment register-only programs with FORWARD control
   flow - controlUnit.cycle on the back-end invariant BIq of Mvp63RefFwdDefs.v (segment base, sequence id, branches:
   handleRunner with pushedBranchInCurrentCycle and pendingConditionalBranch). *)
From Coq Require Import ZArith List Bool Lia Permutation.
From Maj Require Import Base.Outcome Base.GoInt Base.GoTypes Isa.Spec Isa.Embed Isa.Seq Isa.Refine.
From Maj Require Import Gen.Latency Gen.RiscTables Gen.Opcodes Comp.Cache Comp.Rat Comp.RatProofs.
From Maj Require Import Mvp.Mvp12 Mvp.Mvp12Proofs Mvp.Mvp3 Mvp.Mvp3Proofs Mvp.Mvp4Skel Mvp.Mvp4Inv Mvp.Mvp5 Mvp.Mvp60
     Mvp.Mvp60RefSem Mvp.Mvp60RefDefs Mvp.Mvp60RefFront Mvp.Mvp60RefBack Mvp.Mvp60RefStep Mvp.Mvp63 Mvp.Mvp63RefDefs Mvp.Mvp63RefInv
     Mvp.Mvp63RefExec Mvp.Mvp63RefFwdDefs Mvp.Mvp63RefFwdFront.
From Maj Require Comp.Scoreboard.
Import ListNotations.
Open Scope Z_scope.

(* names the fields of a proof of BIq *)
Ltac dBI H := destruct H as [bq_ord0 bq_dn0 bq_xeN0 bq_ret0 bq_exec0 bq_ebus0 bq_wbus0 bq_pwlen0 bq_prlen0 bq_pw0 bq_pr0 bq_tab0 bq_fwd0
  bq_seq0 bq_pcb0 bq_chan0 bq_idnd0 bq_idlt0 bq_read0 bq_recv0 bq_fwder0 bq_rnd0 bq_rlt0 bq_pendr0 bq_pend10 bq_pendf0 bq_prev0 bq_prevnd0
  bq_regs0 bq_mem0 bq_l30 bq_os0 bq_fnd0].

Section RefQ.
  Variables (app : list instr) (labels : Z -> option Z) (regs0 mem0 : list Z) (base : nat) (sq : Z) (ord : Z -> Z -> list Z -> list Z).
  Hypothesis Happ : wf_app app.
  Hypothesis Hreg : reg_only app = true.
  Hypothesis Hssa : ssa app = true.
  Hypothesis Hrng : regs_ok app = true.
  Hypothesis Hlen0 : length regs0 = 32%nat.
  Hypothesis Hbase : (base <= length app)%nat.
  Hypothesis Hsq : 0 <= sq /\ 1000 * sq + 4 * Z.of_nat (length app) + 4 < 2147483648.
  Let n := length app.
  Let N := stop_from app base.

  Notation sreg := (sreg app labels regs0 base).
  Notation eff := (eff app labels regs0 base).
  Notation rnq := (rnq app sq).
  Notation ik := (ik app).
  Notation wsl := (wsl app).
  Notation rsl := (rsl app).
  Notation wbq := (wbq app labels regs0 base sq).
  Notation exeb := (exeb app labels regs0 base).
  Notation rds := (rds app).
  Notation wrs := (wrs app).
  Notation kout := (kout app labels regs0 base).
  Notation BIq := (BIq app labels regs0 mem0 base sq).
  Notation RecvOKq := (RecvOKq app labels regs0 base).
  Notation ReadOK := (ReadOK app).
  Notation TabOK := (TabOK app labels regs0 base sq).

  Hypothesis Hsem : forall k, (base <= k <= N)%nat -> (k < n)%nat ->
    exec (sinstr_of (ik k)) (rget (sreg k)) labels (pcz k) [] = Ok (eff k) /\
    (forall a, etarget (eff k) = Some a -> exists t, a = pcz t /\ (k < t <= n)%nat).

  Lemma Hlen0' : (length regs0 <= 32)%nat. Proof. lia. Qed.

  Notation bq_ord := (bq_ord app labels regs0 mem0 base sq).
  Notation bq_dn := (bq_dn app labels regs0 mem0 base sq).
  Notation bq_xeN := (bq_xeN app labels regs0 mem0 base sq).
  Notation bq_ret := (bq_ret app labels regs0 mem0 base sq).
  Notation bq_exec := (bq_exec app labels regs0 mem0 base sq).
  Notation bq_ebus := (bq_ebus app labels regs0 mem0 base sq).
  Notation bq_wbus := (bq_wbus app labels regs0 mem0 base sq).
  Notation bq_pw := (bq_pw app labels regs0 mem0 base sq).
  Notation bq_pr := (bq_pr app labels regs0 mem0 base sq).
  Notation bq_tab := (bq_tab app labels regs0 mem0 base sq).
  Notation bq_pcb := (bq_pcb app labels regs0 mem0 base sq).
  Notation bq_prev := (bq_prev app labels regs0 mem0 base sq).
  Notation bq_pend1 := (bq_pend1 app labels regs0 mem0 base sq).
  Notation bq_os := (bq_os app labels regs0 mem0 base sq).

  Lemma kr_rnq k : kr (rnq k) = k.
  Proof. unfold kr, Mvp63RefFwdDefs.rnq. cbn [r_pc]. rewrite pcz_div. apply Nat2Z.id. Qed.

  Lemma kq_rn r k : q_r r = rnq k -> kq r = k.
  Proof. intros H. unfold kq. rewrite H. apply kr_rnq. Qed.

  (* the invariant depends on these components only *)
  Lemma BI_ext dp d xe w pl pv x x' :
    flat (x_ebus x') = flat (x_ebus x) -> flat (m_wbus (x_m x')) = flat (m_wbus (x_m x)) ->
    m_pw (x_m x') = m_pw (x_m x) -> m_pr (x_m x') = m_pr (x_m x) ->
    x_crat x' = x_crat x -> x_trat x' = x_trat x -> x_fwd x' = x_fwd x -> x_seq x' = x_seq x -> x_pcb x' = x_pcb x ->
    x_chan x' = x_chan x -> x_next x' = x_next x ->
    m_regs (x_m x') = m_regs (x_m x) -> m_mem (x_m x') = m_mem (x_m x) -> m_l3 (x_m x') = m_l3 (x_m x) -> x_os x' = x_os x ->
    BIq dp d xe w pl pv x -> BIq dp d xe w pl pv x'.
  Proof.
    intros E1 E2 E3 E4 E5 E6 E7 E8 E9 E10 E11 E14 E15 E16 E17 H. destruct H.
    constructor; rewrite ?E1, ?E2, ?E3, ?E4, ?E5, ?E6, ?E7, ?E8, ?E9, ?E10, ?E11, ?E14, ?E15, ?E16, ?E17; assumption.
  Qed.

  (* ---------------------------------------------------------------- *)
  (* facts about the instructions of the text                          *)

  Lemma N_le : (N <= n)%nat. Proof. apply stop_from_le. exact Hbase. Qed.
  Lemma base_N : (base <= N)%nat. Proof. apply stop_from_ge. Qed.

  (* before N neither a ret nor an unconditional jump *)
  Lemma before_N k : (base <= k < N)%nat -> is_ret (ik k) = false /\ is_jump (ik k) = false.
  Proof.
    intros Hk. pose proof (stop_from_before app dfl base k Hk) as Hs. unfold is_stop in Hs.
    apply orb_false_iff in Hs. exact Hs.
  Qed.

  Lemma is_ret_N k : (base <= k <= N)%nat -> is_ret (ik k) = true -> k = N.
  Proof.
    intros H1 Hr. destruct (Nat.eq_dec k N) as [|Hne]; [assumption|]. exfalso.
    destruct (before_N k ltac:(lia)) as [A _]. congruence.
  Qed.

  Lemma is_jump_N k : (base <= k <= N)%nat -> is_jump (ik k) = true -> k = N.
  Proof.
    intros H1 Hr. destruct (Nat.eq_dec k N) as [|Hne]; [assumption|]. exfalso.
    destruct (before_N k ltac:(lia)) as [_ A]. congruence.
  Qed.

  (* an instruction before N that writes a register is not a branch: conditional branches write nothing,
     jal stands at N only *)
  Lemma writer_nobranch k r : (base <= k < N)%nat -> In r (wrs k) ->
    InstructionType_IsBranch (instr_InstructionType (ik k)) = false.
  Proof.
    intros Hk Hr. destruct (before_N k Hk) as [_ Hj]. unfold is_jump in Hj.
    unfold InstructionType_IsBranch. rewrite Hj. cbn [orb].
    destruct (InstructionType_IsConditionalBranch (instr_InstructionType (ik k))) eqn:Ec; [|reflexivity].
    exfalso. unfold Mvp63RefDefs.wrs in Hr. destruct (ik k); try discriminate Ec; cbn in Hr; contradiction.
  Qed.


  (* ---------------------------------------------------------------- *)
  (* the hazards of the next instruction to dispatch                   *)

  Lemma hazards_spec dp d xe w pl pv x : BIq dp d xe w pl pv x -> (d < n)%nat ->
    hazards_of x (ik d) =
    flat_map (fun r => if negb (r =? 0) && (0 <? sb_get (m_pw (x_m x)) r) then [(0, r)] else []) (rds d).
  Proof.
    intros HB Hd. unfold hazards_of, Scoreboard.hazards3. cbn [Scoreboard.pw Scoreboard.pr].
    fold (rds d). fold (wrs d).
    rewrite (flat_map_nil_all _ (wrs d)); [apply app_nil_r|].
    intros r Hr. destruct (Z.eqb_spec r 0) as [|Hnz]; cbn [negb]; [reflexivity|].
    pose proof (wrs_rng app Hrng d r Hr) as Hrr. pose proof (bq_ord _ _ _ _ _ _ _ HB) as Ho.
    assert (Hs : (Z.to_nat r < 32)%nat) by lia.
    unfold sb_get. rewrite (bq_pw _ _ _ _ _ _ _ HB _ Hs), (bq_pr _ _ _ _ _ _ _ HB _ Hs).
    assert (A : cnt wsl (seq w (d - w)) (Z.to_nat r) = 0).
    { apply cnt_seq_zero. intros j Hj Hin. apply (wsl_in app Hrng j r ltac:(lia)) in Hin.
      exact (ssa_waw app Hssa j d r ltac:(fold n; lia) Hin Hnz Hr). }
    assert (B : cnt rsl (seq w (d - w)) (Z.to_nat r) = 0).
    { apply cnt_seq_zero. intros j Hj Hin. apply (rsl_in app Hrng j r ltac:(lia)) in Hin.
      exact (ssa_war app Hssa j d r ltac:(fold n; lia) Hin Hnz Hr). }
    rewrite A, B. reflexivity.
  Qed.

  (* a register with a clear write counter has no writer among w .. d-1 *)
  Lemma pw_zero_nowriter dp d xe w pl pv x r : BIq dp d xe w pl pv x -> 0 < r < 32 ->
    (0 <? sb_get (m_pw (x_m x)) r) = false -> forall j, (w <= j < d)%nat -> ~ In r (wrs j).
  Proof.
    intros HB Hr H j Hj Hin. unfold sb_get in H. rewrite (bq_pw _ _ _ _ _ _ _ HB) in H by lia.
    apply Z.ltb_ge in H. pose proof (cnt_nonneg wsl (seq w (d - w)) (Z.to_nat r)).
    assert (Hz : cnt wsl (seq w (d - w)) (Z.to_nat r) = 0) by lia.
    apply (proj1 (cnt_seq_zero _ _ _ _) Hz j ltac:(pose proof (bq_ord _ _ _ _ _ _ _ HB); lia)).
    apply (wsl_in app Hrng j r); [lia | exact Hin].
  Qed.

  Lemma pw_pos_writer dp d xe w pl pv x r : BIq dp d xe w pl pv x -> 0 < r < 32 ->
    (exists j, (w <= j < d)%nat /\ In r (wrs j)) -> (0 <? sb_get (m_pw (x_m x)) r) = true.
  Proof.
    intros HB Hr (j & Hj & Hin). unfold sb_get. rewrite (bq_pw _ _ _ _ _ _ _ HB) by lia. apply Z.ltb_lt.
    destruct (Z.eq_dec (cnt wsl (seq w (d - w)) (Z.to_nat r)) 0) as [Hz|Hnz].
    - exfalso. apply (proj1 (cnt_seq_zero _ _ _ _) Hz j ltac:(pose proof (bq_ord _ _ _ _ _ _ _ HB); lia)).
      apply (wsl_in app Hrng j r); [lia | exact Hin].
    - pose proof (cnt_nonneg wsl (seq w (d - w)) (Z.to_nat r)). lia.
  Qed.

  (* ---------------------------------------------------------------- *)
  (* small facts about entries                                          *)

  Lemma map_rn_in (l : list runner3) a len e : map q_r l = map rnq (seq a len) -> In e l ->
    exists k, (a <= k < a + len)%nat /\ q_r e = rnq k /\ kq e = k.
  Proof.
    intros H Hin. assert (Hq : In (q_r e) (map rnq (seq a len))) by (rewrite <- H; apply in_map; exact Hin).
    apply in_map_iff in Hq as (k & Ek & Hk). apply in_seq in Hk. exists k. split; [exact Hk|]. split; [auto|]. apply kq_rn. auto.
  Qed.

  Lemma ebus_entry dp d xe w pl pv x e : BIq dp d xe w pl pv x -> In e (flat (x_ebus x)) ->
    exists k, (xe <= k < d)%nat /\ q_r e = rnq k /\ kq e = k.
  Proof using Type.
    intros HB Hin. destruct (map_rn_in _ _ _ _ (bq_ebus _ _ _ _ _ _ _ HB) Hin) as (k & Hk & A & B).
    pose proof (bq_ord _ _ _ _ _ _ _ HB) as Ho. exists k. split; [clear - Hk Ho; lia | auto].
  Qed.

  Lemma q_instr_rn r k : q_r r = rnq k -> q_instr r = ik k.
  Proof. intros H. unfold q_instr. rewrite H. reflexivity. Qed.

  Lemma sequence_id_0 x k : x_seq x = 0 -> (k < n)%nat -> sequence_id x (pcz k) = pcz k.
  Proof.
    intros Hs Hk. unfold sequence_id. rewrite Hs. unfold mulS, addS. change (0 * 1000) with 0.
    rewrite (wrapS_id 32 0) by (apply int32_0). rewrite Z.add_0_r. apply wrapS_id; [lia|].
    apply int32_bounds. pose proof (n_small app Happ) as Hn. fold n in Hn. unfold pcz. lia.
  Qed.

  (* ---------------------------------------------------------------- *)
  (* pushing a runner, marking a forwarder                              *)

  Lemma RecvOKq_mono xe E E' chan r : (forall e, In e E -> In e E') -> RecvOKq xe E chan r -> RecvOKq xe E' chan r.
  Proof.
    intros Hi H ch Hc. destruct (H ch Hc) as (A & p & B & C & D). split; [exact A|]. exists p. split; [exact B|]. split; [exact C|].
    destruct D as [(D1 & rp & D2 & D3 & D4)|D]; [left | right; exact D]. split; [exact D1|]. exists rp. auto.
  Qed.

  Lemma BI_noprev dp d xe w pl pv x : BIq dp d xe w pl pv x -> BIq dp d xe w pl [] x.
  Proof. intros H. destruct H. constructor; auto. - intros p []. - constructor. Qed.

  Lemma BI_setprev dp d xe w pl pv x d0 cur : BIq dp d xe w pl pv x -> CurOK d0 x cur -> NoDup (map kq cur) ->
    BIq d0 d xe w pl cur x.
  Proof. intros H Hc Hn. destruct H. constructor; auto. Qed.

  Lemma BI_push cy dp d xe w pv x r : BIq dp d xe w [r] pv x -> (d < n)%nat -> (d <= N)%nat ->
    ReadOK w r -> (is_ret (ik d) = true -> xe = d) ->
    BIq dp (S d) xe w [] pv (fst (pushed x cy r)) /\ kq (snd (pushed x cy r)) = d /\
    flat (x_ebus (fst (pushed x cy r))) = flat (x_ebus x) ++ [snd (pushed x cy r)].
  Proof.
    intros HB Hdn HdN HR Hret. pose proof HB as HBd; dBI HBd.
    assert (Hqr : q_r r = rnq d) by (cbn in bq_pendr0; injection bq_pendr0 as E; rewrite Nat.add_0_r in E || idtac; exact E).
    assert (Hkq : kq r = d) by (apply kq_rn; exact Hqr).
    set (r' := snd (pushed x cy r)). set (x2 := fst (pushed x cy r)).
    assert (Hr'q : q_r r' = rnq d) by exact Hqr.
    assert (Hkq' : kq r' = d) by (apply kq_rn; exact Hr'q).
    assert (Hfl : flat (x_ebus x2) = flat (x_ebus x) ++ [r']) by (unfold x2, pushed; cbn [fst x_ebus set_next3 set_m set_ebus3]; apply add_flat).
    split; [|split; [exact Hkq' | exact Hfl]].
    assert (Hinstr : q_instr r = ik d) by (apply q_instr_rn; exact Hqr).
    apply Forall_app in bq_recv0 as [Hrc1 Hrc2]. pose proof (Forall_inv Hrc2) as Hrcr. cbv beta in Hrcr.
    constructor; unfold x2, pushed; cbn [fst x_ebus x_m x_crat x_trat x_fwd x_seq x_pcb x_chan x_next x_os set_next3 set_m set_ebus3
                         add_pending6 set_sb m_pw m_pr m_regs m_mem m_l3 m_wbus];
      change (mk_r3 (q_r r) (x_next x) (q_fwder r) (q_recv r) (q_freg r)) with r'; rewrite ?add_flat; try assumption.
    - lia.
    - split; lia.
    - intros HN Hr. assert (Hd : d = N) by lia. rewrite Hd in Hret. specialize (Hret Hr). lia.
    - rewrite map_app, bq_ebus0. cbn [map]. rewrite Hr'q. replace (S d - xe)%nat with (S (d - xe)) by lia.
      rewrite seq_snoc, map_app. cbn [map]. repeat f_equal. lia.
    - rewrite sb_incr_length. exact bq_pwlen0.
    - rewrite sb_incr_length. exact bq_prlen0.
    - rewrite Hinstr. apply (sb_incr_seq wrs); [lia | exact bq_pwlen0 | exact bq_pw0].
    - rewrite Hinstr. apply (sb_incr_seq rds); [lia | exact bq_prlen0 | exact bq_pr0].
    - intros Hp. destruct (bq_pcb0 Hp) as (rb & Hrb & Hcb). exists rb. split; [apply in_or_app; left; exact Hrb | exact Hcb].
    - eapply Forall_impl; [|exact bq_chan0]. cbn beta. intros a Ha. lia.
    - rewrite map_app. cbn [map]. apply NoDup_snoc; [exact bq_idnd0|]. cbn [q_id r' snd pushed].
      intros Hin. apply in_map_iff in Hin as (e & Ee & He). rewrite Forall_forall in bq_idlt0. specialize (bq_idlt0 e He). lia.
    - apply Forall_app. split; [eapply Forall_impl; [|exact bq_idlt0]; cbn beta; intros a Ha; lia|].
      constructor; [cbn; lia | constructor].
    - apply Forall_app. split; [exact bq_read0|]. constructor; [|constructor].
      intros q Hq Hnz. unfold ReadOK in HR. rewrite Hkq' in Hq |- *. rewrite Hkq in HR. destruct (HR q Hq Hnz) as [[A B]|A]; [left | right; exact A].
      split; [exact A | exact B].
    - rewrite app_nil_r. apply Forall_app. split.
      + eapply Forall_impl; [|exact Hrc1]. intros a. apply RecvOKq_mono. intros e He. apply in_or_app. left. exact He.
      + constructor; [|constructor]. intros ch Hch. destruct (Hrcr ch Hch) as (A & p & B & C & D).
        split; [exact A|]. exists p. rewrite Hkq'. rewrite Hkq in B. split; [exact B|]. split; [exact C|].
        destruct D as [(D1 & rp & D2 & D3 & D4)|D]; [left | right; exact D]. split; [exact D1|]. exists rp. split; [apply in_or_app; left; exact D2 | auto].
    - apply Forall_app. split.
      + eapply Forall_impl; [|exact bq_fwder0]. intros a Ha ch Hch. destruct (Ha ch Hch) as (A1 & A2 & A3). split; [assumption | split; [lia | assumption]].
      + constructor; [|constructor]. intros ch Hch. cbn in Hch. pose proof (Forall_inv bq_pendf0) as Hpf. cbv beta in Hpf. congruence.
    - rewrite app_nil_r. rewrite (recvs_snoc_eq _ r r') by reflexivity. exact bq_rnd0.
    - rewrite app_nil_r. rewrite (recvs_snoc_eq _ r r') by reflexivity. eapply Forall_impl; [|exact bq_rlt0]. cbn beta. intros a Ha. lia.
    - reflexivity.
    - cbn. lia.
    - constructor.
    - intros p Hp. destruct (bq_prev0 p Hp) as (A & B & C). split; [apply in_or_app; left; exact A | auto].
    - rewrite fwds_app. assert (Hf' : q_fwder r' = None) by (pose proof (Forall_inv bq_pendf0) as Hpf; exact Hpf).
      unfold fwds at 2. cbn [flat_map]. rewrite Hf'. cbn [List.app]. rewrite app_nil_r. exact bq_fnd0.
  Qed.

  Lemma BI_mark dp d xe w pv x r p reg : BIq dp d xe w [r] pv x -> (d <= N)%nat -> In p pv -> reg <> 0 -> In reg (wrs (kq p)) ->
    (forall b : bool, BIq dp d xe w [if b then mk_r3 (q_r r) (q_id r) (q_fwder r) (Some (x_next x)) reg else r] [] (marked x (q_id p))) /\
    flat (x_ebus (marked x (q_id p))) = map (mark_fwder (q_id p) (x_next x)) (flat (x_ebus x)).
  Proof.
    intros HB HdN Hp Hnz Hw. pose proof HB as HBd; dBI HBd.
    set (ch := x_next x) in *. set (id := q_id p) in *.
    set (r' := mk_r3 (q_r r) (q_id r) (q_fwder r) (Some ch) reg).
    assert (Hfl : flat (x_ebus (marked x id)) = map (mark_fwder id ch) (flat (x_ebus x))) by apply flat_mark.
    split; [|exact Hfl]. intros b.
    destruct (bq_prev0 p Hp) as (Hpin & Hpf & _).
    destruct (ebus_entry _ _ _ _ _ _ _ _ HB Hpin) as (kp & Hkp & Hpq & Hpk).
    assert (Hqr : q_r r = rnq d) by (cbn in bq_pendr0; injection bq_pendr0 as E; exact E).
    assert (Hkq : kq r = d) by (apply kq_rn; exact Hqr).
    assert (Hkq' : kq r' = d) by (apply kq_rn; exact Hqr).
    apply Forall_app in bq_recv0 as [Hrc1 Hrc2].
    (* an entry other than p is not touched *)
    assert (Hother : forall e, In e (flat (x_ebus x)) -> q_fwder e <> None -> mark_fwder id ch e = e).
    { intros e He Hf. apply mark_other. intros Eid. assert (e = p) by (eapply nodup_id_eq; eauto). subst e. contradiction. }
    assert (Hrecv_old : forall a, RecvOKq xe (flat (x_ebus x)) (x_chan x) a -> RecvOKq xe (map (mark_fwder id ch) (flat (x_ebus x))) (x_chan x) a).
    { intros a Ha c Hc. destruct (Ha c Hc) as (A & q & B & C & D). split; [exact A|]. exists q. split; [exact B|]. split; [exact C|].
      destruct D as [(D1 & rp & D2 & D3 & D4)|D]; [left | right; exact D]. split; [exact D1|]. exists rp.
      split; [|auto]. rewrite <- (Hother rp D2 ltac:(congruence)). apply in_map. exact D2. }
    constructor; unfold marked; cbn [x_ebus x_m x_crat x_trat x_fwd x_seq x_pcb x_chan x_next x_os set_os3 set_next3 set_ebus3];
      fold ch; fold id; rewrite ?flat_mark; try assumption.
    - rewrite map_map. rewrite <- bq_ebus0. apply map_ext. intros a. apply mark_qr.
    - intros Hpc. destruct (bq_pcb0 Hpc) as (rb & Hrb & Hcb). exists (mark_fwder id ch rb). split; [apply in_map; exact Hrb | rewrite mark_kq; exact Hcb].
    - eapply Forall_impl; [|exact bq_chan0]. cbn beta. intros a Ha. lia.
    - rewrite map_map. erewrite map_ext; [exact bq_idnd0|]. intros a. apply mark_id.
    - apply Forall_map. eapply Forall_impl; [|exact bq_idlt0]. cbn beta. intros a Ha. rewrite mark_id. lia.
    - apply Forall_map. eapply Forall_impl; [|exact bq_read0]. intros a Ha q Hq Hqz. unfold ReadOK in Ha.
      rewrite mark_kq in *. rewrite mark_recv, mark_freg. apply Ha; assumption.
    - apply Forall_app. split.
      + apply Forall_map. eapply Forall_impl; [|exact Hrc1]. intros a Ha c Hc. rewrite mark_recv in Hc.
        destruct (Hrecv_old a Ha c Hc) as (A & B). rewrite mark_freg, mark_kq. split; assumption.
      + constructor; [|constructor]. destruct b; [|apply Hrecv_old; exact (Forall_inv Hrc2)].
        intros c Hc. cbn [q_recv r'] in Hc. injection Hc as <-. cbn [q_freg r'].
        split; [exact Hnz|]. exists kp. rewrite Hkq'. split; [clear - Hkp bq_ord0; lia|]. split; [rewrite <- Hpk; exact Hw|]. left. split; [lia|].
        exists (mark_fwder id ch p). split; [apply in_map; exact Hpin|]. split; [rewrite mark_kq; exact Hpk | apply mark_hit; reflexivity].
    - apply Forall_map. rewrite Forall_forall. intros e He c Hc. rewrite Forall_forall in bq_fwder0.
      destruct (Z.eq_dec (q_id e) id) as [Eid|Nid].
      + rewrite (mark_hit _ _ _ Eid) in Hc. injection Hc as <-. split; [|split; [lia|]].
        * apply (aget_none_fresh _ _ ch); [exact bq_chan0 | lia].
        * assert (e = p) by (eapply nodup_id_eq; eauto). subst e.
          unfold q_instr. rewrite mark_qr, Hpq. cbn [Mvp63RefFwdDefs.rnq r_instr].
          apply (writer_nobranch kp reg); [clear - Hkp HdN bq_ord0; lia | rewrite <- Hpk; exact Hw].
      + rewrite (mark_other _ _ _ Nid) in Hc. destruct (bq_fwder0 e He c Hc) as (A1 & A2 & A3). split; [assumption | split; [lia | unfold q_instr in *; rewrite mark_qr; exact A3]].
    - destruct b; [|rewrite recvs_app, recvs_mark, <- recvs_app; exact bq_rnd0].
      rewrite recvs_app, recvs_mark. unfold recvs at 2. cbn [flat_map q_recv r' List.app].
      rewrite recvs_app in bq_rnd0, bq_rlt0. apply NoDup_app_l in bq_rnd0. apply NoDup_snoc; [exact bq_rnd0|].
      intros Hin. apply Forall_app in bq_rlt0 as [A _]. rewrite Forall_forall in A. specialize (A ch Hin). lia.
    - destruct b; [|rewrite recvs_app, recvs_mark, <- recvs_app; eapply Forall_impl; [|exact bq_rlt0]; cbn beta; intros a Ha; lia].
      rewrite recvs_app, recvs_mark. unfold recvs at 2. cbn [flat_map q_recv r' List.app].
      rewrite recvs_app in bq_rlt0. apply Forall_app in bq_rlt0 as [A _]. apply Forall_app. split.
      + eapply Forall_impl; [|exact A]. cbn beta. intros a Ha. lia.
      + constructor; [lia | constructor].
    - destruct b; exact bq_pendr0.
    - destruct b; [|exact bq_pendf0]. constructor; [|constructor]. cbn. exact (Forall_inv bq_pendf0).
    - intros q [].
    - constructor.
    - reflexivity.
    - apply fwds_mark_nodup; [exact bq_fnd0 | | exact bq_idnd0 |].
      + intros Hin. unfold fwds in Hin. apply in_flat_map in Hin as (e & He & Hc). rewrite Forall_forall in bq_fwder0.
        destruct (q_fwder e) as [c|] eqn:Ec; [|destruct Hc]. destruct Hc as [<-|[]]. destruct (bq_fwder0 e He c Ec) as (_ & Hlt & _). lia.
      + intros a Ha Eid. assert (a = p) by (eapply nodup_id_eq; eauto). subst a. exact Hpf.
  Qed.

  (* ---------------------------------------------------------------- *)
  (* handleRunner on the next instruction of the stream                 *)

  Lemma canadd_mark (b : bbus runner3) id ch : bb_canadd (ebus_mark b id ch) = bb_canadd b.
  Proof. unfold bb_canadd, ebus_mark. cbn [bb_buf bb_bl]. unfold zlen. rewrite map_length. reflexivity. Qed.

  (* what handleRunner and the two loops of controlUnit.cycle leave alone *)
  Record CuFrame (cy : Z) (x x' : mx) : Prop := mkCuFrame {
    cf_pend : x_pend x' = x_pend x;
    cf_prev : x_prev x' = x_prev x;
    cf_m : MSame (x_m x) (x_m x');
    cf_ql : bb_ql (x_ebus x') = bb_ql (x_ebus x);
    cf_bl : bb_bl (x_ebus x') = bb_bl (x_ebus x);
    cf_q : qlen (x_ebus x') = qlen (x_ebus x);
    cf_bus : BusOK cy (x_ebus x) -> BusOK cy (x_ebus x') }.

  Lemma CuFrame_refl cy x : CuFrame cy x x.
  Proof. constructor; auto. apply MSame_refl. Qed.

  Lemma CuFrame_trans cy a b c : CuFrame cy a b -> CuFrame cy b c -> CuFrame cy a c.
  Proof. intros [] []. constructor; try congruence; [eapply MSame_trans; eassumption | auto]. Qed.

  Lemma CuFrame_push cy x r : CuFrame cy x (fst (pushed x cy r)).
  Proof.
    unfold pushed. constructor; cbn [fst x_pend x_prev x_m x_ebus set_next3 set_m set_ebus3]; try reflexivity.
    - eexists _, _. reflexivity.
    - apply add_ok.
  Qed.

  Lemma CuFrame_mark cy x id : CuFrame cy x (marked x id).
  Proof.
    unfold marked. constructor; cbn [x_pend x_prev x_m x_ebus set_os3 set_next3 set_ebus3]; try reflexivity.
    - apply MSame_refl.
    - unfold qlen, ebus_mark. cbn [bb_q]. unfold zlen. rewrite map_length. reflexivity.
    - apply busok_mark.
  Qed.

  (* the result (push, stop, r1, x1) of handleRunner on the runner r of instruction d: r1 stands for d and has been
     pushed, or nothing was pushed and the loop stops with r1 to be kept pending *)
  Definition Handled (cy : Z) (dp d xe w : nat) (pv : list runner3) (x : mx) (r : runner3)
                     (push stop : bool) (r1 : runner3) (x1 : mx) : Prop :=
    CuFrame cy x x1 /\
    (forall d0 cur, (forall p, In p pv -> (kq p < d0)%nat) -> CurOK d0 x cur -> CurOK d0 x1 cur) /\
    ((push = true /\ BIq dp (S d) xe w [] (if stop then [] else pv) x1 /\ blen (x_ebus x1) = blen (x_ebus x) + 1 /\
      In r1 (flat (x_ebus x1)) /\ q_fwder r1 = None /\ kq r1 = d) \/
     (push = false /\ stop = true /\ BIq dp d xe w [r1] [] x1 /\ BIq dp d xe w [r] [] x1 /\ blen (x_ebus x1) = blen (x_ebus x) /\ x_m x1 = x_m x)).

  Lemma handle_ok cy dp d xe w pv x r pb :
    BIq dp d xe w [r] pv x -> x_prev x = pv -> (d < n)%nat -> (d <= N)%nat -> bb_bl (x_ebus x) = 2 ->
    (pb = true -> flat (x_ebus x) <> []) ->
    exists push stop r1 x1,
      handle_runner3 ord cy x [] pb r = (push, stop, r1, x1) /\ Handled cy dp d xe w pv x r push stop r1 x1 /\
      (flat (x_ebus x) = [] -> w = d -> push = true).
  Proof.
    intros HB Hpv Hdn HdN Hbl Hpb. pose proof HB as HB0. dBI HB0.
    assert (Hqr : q_r r = rnq d) by (cbn in bq_pendr0; injection bq_pendr0 as E; exact E).
    assert (Hkq : kq r = d) by (apply kq_rn; exact Hqr).
    assert (Hinstr : q_instr r = ik d) by (apply q_instr_rn; exact Hqr).
    assert (Hrf : q_fwder r = None) by exact (Forall_inv bq_pendf0).
    (* the results that leave the machine as it is *)
    assert (Hstay : Handled cy dp d xe w pv x r false true r x).
    { split; [apply CuFrame_refl|]. split; [auto|]. right. repeat (split; [reflexivity|]).
      split; [eapply BI_noprev; exact HB|]. split; [eapply BI_noprev; exact HB | auto]. }
    unfold handle_runner3. rewrite Hinstr.
    destruct (InstructionType_IsBranch (instr_InstructionType (ik d)) && pb) eqn:Ebr.
    { exists false, true, r, x. split; [reflexivity|]. split; [exact Hstay|]. intros Hfl _. exfalso. apply andb_prop in Ebr as [_ Hpt]. exact (Hpb Hpt Hfl). }
    rewrite is_ret_type.
    destruct (is_ret (ik d) && (negb (bb_isempty (x_ebus x)) || x_pcb x)) eqn:Eret.
    { exists false, true, r, x. split; [reflexivity|]. split; [exact Hstay|]. intros Hfl _. exfalso. apply andb_prop in Eret as [_ Hne]. apply orb_prop in Hne as [Hne|Hne].
      - apply negb_true_iff in Hne. apply flat_nil_inv in Hfl as [A B]. unfold bb_isempty in Hne. rewrite A, B in Hne. discriminate.
      - destruct (bq_pcb0 Hne) as (rb & Hrb & _). rewrite Hfl in Hrb. destruct Hrb. }
    assert (Hret : is_ret (ik d) = true -> xe = d).
    { intros Hr. rewrite Hr in Eret. cbn [andb] in Eret. apply orb_false_iff in Eret as [Eret _]. apply negb_false_iff in Eret. apply isempty_flat in Eret.
      rewrite Eret in bq_ebus0. cbn [map] in bq_ebus0. symmetry in bq_ebus0. apply map_eq_nil in bq_ebus0.
      apply (f_equal (@length nat)) in bq_ebus0. rewrite seq_length in bq_ebus0. cbn in bq_ebus0. lia. }
    change (skipped_hazard3 [] (ik d)) with false. cbv iota.
    rewrite (hazards_spec _ _ _ _ _ _ _ HB Hdn). fold (hzl app x d).
    (* pushing r' on x' *)
    assert (Hpush : forall x' r' pv' stp, BIq dp d xe w [r'] pv' x' -> ReadOK w r' -> q_fwder r' = None ->
              bb_canadd (x_ebus x') = true -> CuFrame cy x x' -> x_m x' = x_m x -> blen (x_ebus x') = blen (x_ebus x) ->
              (forall d0 cur, (forall p, In p pv -> (kq p < d0)%nat) -> CurOK d0 x cur -> CurOK d0 x' cur) ->
              (stp = false -> pv' = pv) -> (stp = true -> pv' = []) ->
              exists push stop r1 x1, push_or_stop3 x' cy r' stp = (push, stop, r1, x1) /\
                Handled cy dp d xe w pv x r push stop r1 x1 /\ push = true).
    { intros x' r' pv' stp HB' HR' Hf' Hca CF' E3 E7 Hcur Hs1 Hs2.
      unfold push_or_stop3. rewrite (push_runner3_eq _ _ _ Hca).
      destruct (BI_push cy _ _ _ _ _ _ _ HB' Hdn HdN HR' Hret) as (HBp & Hkp & Hflp).
      exists true, stp, (snd (pushed x' cy r')), (fst (pushed x' cy r')).
      split; [destruct (pushed x' cy r'); reflexivity|]. split; [|reflexivity].
      split; [eapply CuFrame_trans; [exact CF' | apply CuFrame_push]|].
      split.
      { intros d0 cur Hlt Hc c Hin. destruct (Hcur d0 cur Hlt Hc c Hin) as (A & B & C). rewrite Hflp.
        split; [apply in_or_app; left; exact A | auto]. }
      left. split; [reflexivity|].
      split.
      { destruct stp; [rewrite (Hs2 eq_refl) in HBp | rewrite (Hs1 eq_refl) in HBp]; exact HBp. }
      split.
      { unfold pushed; cbn [fst x_ebus set_next3 set_m set_ebus3]. unfold blen, bb_add. cbn [bb_buf]. rewrite zlen_app, zlen_cons, zlen_nil.
        unfold blen in E7. lia. }
      split; [rewrite Hflp; apply in_or_app; right; left; reflexivity|].
      split; [exact Hf' | exact Hkp]. }
    destruct (zlen (hzl app x d) =? 0) eqn:Ez.
    - (* no hazard *)
      apply Z.eqb_eq in Ez. apply zlen_zero in Ez.
      assert (HR : ReadOK w r).
      { intros q Hq Hqz. rewrite Hkq in *. right. pose proof (rds_rng app Hrng d q Hq).
        eapply (pw_zero_nowriter _ _ _ _ _ _ _ q HB); [lia|].
        pose proof (flat_map_nil_inv _ _ Ez q Hq) as Hc. cbv beta in Hc.
        destruct (Z.eqb_spec q 0); [contradiction|]. cbn [negb andb] in Hc. destruct (0 <? sb_get (m_pw (x_m x)) q); [discriminate | reflexivity]. }
      destruct (bb_canadd (x_ebus x)) eqn:Eca.
      + destruct (Hpush x r pv false HB HR Hrf Eca (CuFrame_refl cy x)) as (a & b & c & e & E & HH & R10); auto; try discriminate.
        exists a, b, c, e. split; [exact E|]. split; [exact HH | intros _ _; exact R10].
      + unfold push_or_stop3, push_runner3. rewrite Eca. cbn [negb].
        exists false, true, r, x. split; [reflexivity|]. split; [exact Hstay|]. intros Hfl _. exfalso. apply flat_nil_inv in Hfl as [_ B]. unfold bb_canadd in Eca. rewrite B, Hbl in Eca. discriminate.
    - (* some hazard *)
      assert (Hne : hzl app x d <> []) by (intros E0; rewrite E0 in Ez; discriminate).
      assert (Hnoprog : flat (x_ebus x) = [] -> w = d -> False).
      { intros _ Hwd. apply Hne. unfold hzl. apply flat_map_nil_all. intros q Hq.
        destruct (Z.eqb_spec q 0); [reflexivity|]. cbn [negb andb]. pose proof (rds_rng app Hrng d q Hq).
        unfold sb_get. rewrite bq_pw0 by lia. subst w. rewrite Nat.sub_diag. reflexivity. }
      destruct (should_forward3 ord cy x r (hzl app x d)) as [[p reg]|] eqn:Esf.
      2:{ rewrite (hzl_rename _ _ _ Hne).
          exists false, true, r, x. split; [reflexivity|]. split; [exact Hstay|]. intros A B. destruct (Hnoprog A B). }
      (* forwarding *)
      unfold should_forward3 in Esf. destruct (hzl app x d) as [|[[|?|?] rho] [|? ?]] eqn:Ehz; try discriminate Esf.
      apply Mvp63Proofs_first_some in Esf as (id & _ & Esf).
      destruct (find (fun p0 => q_id p0 =? id) (x_prev x)) as [p0|] eqn:Ef; [|discriminate].
      destruct (fwd_match (instr_ReadRegisters (q_instr r)) p0) as [reg0|] eqn:Em; [|discriminate].
      injection Esf as -> ->. apply find_some in Ef as [Hpin _]. rewrite Hpv in Hpin.
      (* what a matching member of prev looks like *)
      assert (Hmatch : forall a rg, In a pv -> fwd_match (instr_ReadRegisters (q_instr r)) a = Some rg ->
                In rg (rds d) /\ rg <> 0 /\ In rg (wrs (kq a)) /\ (xe <= kq a < d)%nat /\ rg = rho).
      { intros a rg Ha Hm. apply fwd_match_spec in Hm as (M1 & M2 & M3). rewrite Hinstr in M1. fold (rds d) in M1.
        destruct (bq_prev0 a Ha) as (Ain & _). destruct (ebus_entry _ _ _ _ _ _ _ _ HB Ain) as (ka & Hka & Aq & Ak).
        rewrite (q_instr_rn _ _ Aq) in M3. fold (wrs ka) in M3. rewrite Ak.
        split; [exact M1|]. split; [exact M2|]. split; [exact M3|]. split; [exact Hka|].
        pose proof (rds_rng app Hrng d rg M1) as Hrr.
        assert (Hpos : (0 <? sb_get (m_pw (x_m x)) rg) = true).
        { eapply (pw_pos_writer _ _ _ _ _ _ _ rg HB); [lia|]. exists ka. split; [lia | exact M3]. }
        assert (Hx := flat_map_single (fun q => negb (q =? 0) && (0 <? sb_get (m_pw (x_m x)) q)) (fun q => (0, q)) (rds d) (0, rho) Ehz rg M1).
        cbv beta in Hx. rewrite Hpos in Hx. destruct (Z.eqb_spec rg 0); [contradiction|]. specialize (Hx eq_refl). injection Hx as Hx. exact Hx. }
      destruct (Hmatch p reg Hpin Em) as (G1 & G2 & G3 & G4 & G5).
      (* the ghost flag stays clear *)
      assert (Hfom : forward_order_matters x r = false).
      { unfold forward_order_matters. apply Z.ltb_ge. unfold zlen.
        assert (Hl : (length (filter (fun p0 => match fwd_match (instr_ReadRegisters (q_instr r)) p0 with Some _ => true | None => false end) (x_prev x)) <= 1)%nat); [|lia].
        rewrite Hpv. apply (filter_le1 kq); [exact bq_prevnd0|].
        intros a b Ha Hb Ca Cb.
        destruct (fwd_match (instr_ReadRegisters (q_instr r)) a) as [ra|] eqn:Ea; [|discriminate].
        destruct (fwd_match (instr_ReadRegisters (q_instr r)) b) as [rb|] eqn:Eb; [|discriminate].
        destruct (Hmatch a ra Ha Ea) as (_ & A2 & A3 & A4 & A5). destruct (Hmatch b rb Hb Eb) as (_ & B2 & B3 & B4 & B5).
        subst ra rb. destruct (Nat.lt_trichotomy (kq a) (kq b)) as [Hlt|[Heq|Hgt]]; [exfalso | exact Heq | exfalso].
        - exact (ssa_waw app Hssa (kq a) (kq b) rho ltac:(fold n; lia) A3 A2 B3).
        - exact (ssa_waw app Hssa (kq b) (kq a) rho ltac:(fold n; lia) B3 B2 A3). }
      rewrite bq_os0, Hfom. cbn [orb]. fold (marked x (q_id p)).
      destruct (BI_mark _ _ _ _ _ _ _ _ _ HB HdN Hpin G2 G3) as (HBm & Hflm).
      set (r' := mk_r3 (q_r r) (q_id r) (q_fwder r) (Some (x_next x)) reg) in *.
      assert (HR' : ReadOK w r').
      { intros q Hq Hqz. change (kq r') with (kq r) in *. rewrite Hkq in *. destruct (Z.eq_dec q reg) as [->|Hqr'].
        - left. split; [discriminate | reflexivity].
        - right. pose proof (rds_rng app Hrng d q Hq). eapply (pw_zero_nowriter _ _ _ _ _ _ _ q HB); [lia|].
          destruct (0 <? sb_get (m_pw (x_m x)) q) eqn:Epos; [|reflexivity]. exfalso.
          assert (Hx := flat_map_single (fun q => negb (q =? 0) && (0 <? sb_get (m_pw (x_m x)) q)) (fun q => (0, q)) (rds d) (0, rho) Ehz q Hq).
          cbv beta in Hx. rewrite Epos in Hx. destruct (Z.eqb_spec q 0); [contradiction|]. specialize (Hx eq_refl). injection Hx as Hx. congruence. }
      assert (Hcurm : forall d0 cur, (forall p, In p pv -> (kq p < d0)%nat) -> CurOK d0 x cur -> CurOK d0 (marked x (q_id p)) cur).
      { intros d0 cur Hlt Hc c Hin. destruct (Hc c Hin) as (A & B & C). rewrite Hflm. split; [|auto].
        rewrite <- (mark_other (q_id p) (x_next x) c).
        - apply in_map. exact A.
        - intros Eid. destruct (bq_prev0 p Hpin) as (Pin & _). assert (c = p) by (eapply nodup_id_eq; eauto). subst c.
          specialize (Hlt p Hpin). lia. }
      destruct (bb_canadd (x_ebus (marked x (q_id p)))) eqn:Eca.
      + destruct (Hpush (marked x (q_id p)) r' [] true (HBm true) HR' Hrf Eca (CuFrame_mark cy x (q_id p)) eq_refl)
          as (a & b & c & e & E & HH & R10); auto; try discriminate.
        * unfold marked, blen, ebus_mark. cbn [x_ebus set_os3 set_next3 set_ebus3 bb_buf]. unfold zlen. rewrite map_length. reflexivity.
        * exists a, b, c, e. split; [exact E|]. split; [exact HH | intros _ _; exact R10].
      + unfold push_or_stop3, push_runner3. rewrite Eca. cbn [negb].
        exists false, true, r', (marked x (q_id p)). split; [reflexivity|].
        split; [|intros A B; destruct (Hnoprog A B)].
        split; [apply CuFrame_mark|]. split; [exact Hcurm|].
        right. split; [reflexivity|]. split; [reflexivity|]. split; [exact (HBm true)|]. split; [exact (HBm false)|].
        split; [unfold marked, blen, ebus_mark; cbn [x_ebus set_os3 set_next3 set_ebus3 bb_buf]; unfold zlen; rewrite map_length; reflexivity | reflexivity].
  Qed.

  (* ---------------------------------------------------------------- *)
  (* the two loops of controlUnit.cycle                                 *)

  Record CuPost (cy : Z) (d0 : nat) (x x' : mx) (l' : culoc) : Prop := mkCuPost {
    cp_cur : CurOK d0 x' (l_cur l');
    cp_nd : NoDup (map kq (l_cur l'));
    cp_frame : CuFrame cy x x' }.

  (* what both loops do after a push: pendingConditionalBranch, pushedBranchInCurrentCycle *)
  Definition apx (x : mx) (k : nat) : mx := if condbr (ik k) then set_pcb3 x true else x.
  Definition isbr (k : nat) : bool := InstructionType_IsBranch (instr_InstructionType (ik k)).

  Lemma after_push_eq x l r k : q_r r = rnq k ->
    after_push3 x l r = (apx x k, mk_cul (l_cur l ++ [r]) (l_skipped l) (l_pbranch l || isbr k)).
  Proof. intros H. unfold after_push3, apx, isbr, condbr. rewrite (q_instr_rn _ _ H). reflexivity. Qed.

  Lemma BI_pcb_set dp d xe w pl pv x r1 : BIq dp d xe w pl pv x -> In r1 (flat (x_ebus x)) -> condbr (ik (kq r1)) = true ->
    BIq dp d xe w pl pv (set_pcb3 x true).
  Proof.
    intros H Hin Hc. dBI H. constructor; cbn [x_ebus x_m x_crat x_trat x_fwd x_seq x_pcb x_chan x_next x_os set_pcb3]; try assumption.
    intros _. exists r1. split; assumption.
  Qed.

  Lemma apx_m x k : x_m (apx x k) = x_m x. Proof. unfold apx. destruct (condbr (ik k)); reflexivity. Qed.
  Lemma apx_ebus x k : x_ebus (apx x k) = x_ebus x. Proof. unfold apx. destruct (condbr (ik k)); reflexivity. Qed.
  Lemma apx_pend x k : x_pend (apx x k) = x_pend x. Proof. unfold apx. destruct (condbr (ik k)); reflexivity. Qed.
  Lemma apx_prev x k : x_prev (apx x k) = x_prev x. Proof. unfold apx. destruct (condbr (ik k)); reflexivity. Qed.

  Lemma BI_apx dp d xe w pl pv x r1 k : BIq dp d xe w pl pv x -> In r1 (flat (x_ebus x)) -> kq r1 = k -> BIq dp d xe w pl pv (apx x k).
  Proof.
    intros H Hin Hk. unfold apx. destruct (condbr (ik k)) eqn:Ec; [|exact H].
    apply (BI_pcb_set _ _ _ _ _ _ _ r1 H Hin). rewrite Hk. exact Ec.
  Qed.

  (* handleRunner followed by what the loop does with its result *)
  Lemma handle_ok2 cy dp d xe w pv x r l :
    BIq dp d xe w [r] pv x -> x_prev x = pv -> (d < n)%nat -> (d <= N)%nat -> bb_bl (x_ebus x) = 2 ->
    l_skipped l = [] -> (l_pbranch l = true -> flat (x_ebus x) <> []) ->
    exists push stop r1 x1 x2,
      handle_runner3 ord cy x (l_skipped l) (l_pbranch l) r = (push, stop, r1, x1) /\
      (if push then after_push3 x1 l r1 else (x1, mk_cul (l_cur l) (l_skipped l ++ [r1]) (l_pbranch l))) =
        (x2, if push then mk_cul (l_cur l ++ [r1]) [] (l_pbranch l || isbr d) else mk_cul (l_cur l) [r1] (l_pbranch l)) /\
      Handled cy dp d xe w pv x r push stop r1 x2 /\
      (flat (x_ebus x) = [] -> w = d -> push = true).
  Proof.
    intros HB Hpv Hdn HdN Hbl Hsk Hpb. rewrite Hsk.
    destruct (handle_ok cy _ _ _ _ _ _ _ (l_pbranch l) HB Hpv Hdn HdN Hbl Hpb)
      as (push & stop & r1 & x1 & E & (CF & P8 & [(-> & HBn & P9 & P10 & P11 & P12)|(-> & -> & HBn & HBo & P9 & P10)]) & Hprog).
    - destruct (ebus_entry _ _ _ _ _ _ _ _ HBn P10) as (k1 & _ & Hq1 & Hk1). rewrite <- Hk1, P12 in Hq1.
      exists true, stop, r1, x1, (apx x1 d).
      split; [exact E|]. split; [rewrite (after_push_eq x1 l r1 d Hq1), Hsk; reflexivity|].
      split; [|exact Hprog].
      split; [destruct CF; constructor; rewrite ?apx_pend, ?apx_prev, ?apx_m, ?apx_ebus; assumption|].
      split; [intros d0 cur Hlt Hc c Hin; rewrite apx_ebus; exact (P8 d0 cur Hlt Hc c Hin)|].
      left. split; [reflexivity|]. rewrite apx_ebus. split; [apply (BI_apx _ _ _ _ _ _ _ r1 d HBn P10 P12)|]. auto.
    - exists false, true, r1, x1, x1. split; [exact E|]. split; [reflexivity|]. split; [|exact Hprog].
      split; [exact CF|]. split; [exact P8|]. right. split; [reflexivity|]. split; [reflexivity|]. split; [exact HBn|]. split; [exact HBo|].
      split; [exact P9 | exact P10].
  Qed.

  Lemma BI_addpend dp d xe w pv x : BIq dp d xe w [] pv x -> BIq dp d xe w [r3_of (rnq d)] pv x.
  Proof.
    intros HB. dBI HB. constructor; try assumption.
    - rewrite app_nil_r in bq_recv0. apply Forall_app. split; [exact bq_recv0|]. constructor; [|constructor]. intros ch Hc. discriminate Hc.
    - rewrite recvs_app in *. exact bq_rnd0.
    - rewrite recvs_app in *. exact bq_rlt0.
    - cbn. rewrite Nat.add_0_r || idtac. reflexivity.
    - cbn. lia.
    - constructor; [reflexivity | constructor].
  Qed.

  Lemma in_flat_ne (x : mx) (r1 : runner3) : In r1 (flat (x_ebus x)) -> flat (x_ebus x) <> [].
  Proof. intros H E. rewrite E in H. destruct H. Qed.

  Lemma cu_incoming_ok cy dp xe w pv d0 : forall len d x l,
    BIq dp d xe w [] pv x -> x_prev x = pv -> (d + len <= n)%nat -> (d + len <= S N)%nat -> bb_bl (x_ebus x) = 2 ->
    l_skipped l = [] -> (l_pbranch l = true -> flat (x_ebus x) <> []) -> CurOK d0 x (l_cur l) -> NoDup (map kq (l_cur l)) ->
    (forall c, In c (l_cur l) -> (kq c < d)%nat) -> (forall p, In p pv -> (kq p < d0)%nat) -> (d0 <= d)%nat ->
    exists lp pend' l' x' pv',
      cu_incoming3 ord cy (map rnq (seq d len)) [] l x
        = (map rnq (seq (d + (lp + length pend')) (len - (lp + length pend'))), pend', l', x') /\
      (lp + length pend' <= len)%nat /\
      BIq dp (d + lp) xe w pend' pv' x' /\ CuPost cy d0 x x' l' /\
      (flat (x_ebus x) = [] -> w = d -> (0 < len)%nat -> (0 < lp)%nat).
  Proof.
    induction len as [|len IH]; intros d x l HB Hpv Hn HN Hbl Hsk Hpb Hcur Hnd Hlt Hpvlt Hd0.
    - exists O, [], l, x, pv. cbn [seq map cu_incoming3 length]. change (pendingLength <=? zlen (@nil runner3)) with false. cbv iota.
      rewrite !Nat.add_0_r. split; [reflexivity|]. split; [lia|]. split; [exact HB|].
      split; [constructor; auto; apply CuFrame_refl | lia].
    - cbn [seq map cu_incoming3]. change (pendingLength <=? zlen (@nil runner3)) with false. cbv iota.
      destruct (handle_ok2 cy _ _ _ _ _ _ _ l (BI_addpend _ _ _ _ _ _ HB) Hpv ltac:(lia) ltac:(lia) Hbl Hsk Hpb)
        as (push & stop & r1 & x1 & x2 & E & E2 & (CF & P8 & [(-> & HBn & P9 & P10 & P11 & P12)|(-> & -> & HBn & HBo & P9 & P10)]) & Hprog);
        cbv iota in E2; pose proof CF as [P1 P2 P3 P4 P5 P6 P7].
      + rewrite E. cbv beta iota. rewrite E2. cbv beta iota.
        assert (Hcur1 : CurOK d0 x2 (l_cur l ++ [r1])).
        { intros c Hin. apply in_app_or in Hin as [Hin|[<-|[]]]; [exact (P8 d0 _ Hpvlt Hcur c Hin)|].
          split; [exact P10|]. split; [exact P11|]. lia. }
        assert (Hnd1 : NoDup (map kq (l_cur l ++ [r1]))).
        { rewrite map_app. cbn [map]. apply NoDup_snoc; [exact Hnd|]. intros Hin. apply in_map_iff in Hin as (c & Ec & Hc).
          specialize (Hlt c Hc). lia. }
        destruct stop.
        * exists 1%nat, [], (mk_cul (l_cur l ++ [r1]) [] (l_pbranch l || isbr d)), x2, []. cbn [length]. rewrite Nat.add_0_r.
          replace (d + 1)%nat with (S d) by lia. replace (S len - 1)%nat with len by lia.
          split; [reflexivity|]. split; [lia|]. split; [exact HBn|]. split; [constructor; auto | lia].
        * assert (Hlt1 : forall c, In c (l_cur (mk_cul (l_cur l ++ [r1]) [] (l_pbranch l || isbr d))) -> (kq c < S d)%nat).
          { intros c Hin. cbn [l_cur] in Hin. apply in_app_or in Hin as [Hin|[<-|[]]]; [specialize (Hlt c Hin); lia | lia]. }
          destruct (IH (S d) x2 (mk_cul (l_cur l ++ [r1]) [] (l_pbranch l || isbr d)) HBn ltac:(congruence) ltac:(lia) ltac:(lia) ltac:(congruence)
                     eq_refl ltac:(intros _; exact (in_flat_ne _ _ P10)) Hcur1 Hnd1 Hlt1 Hpvlt ltac:(lia))
            as (lp & pend' & l' & x' & pv' & E3 & Hle & HB' & [C1 C2 [C3 C3' C4 C5 C6 C7 C8]] & _).
          exists (S lp), pend', l', x', pv'. rewrite E3.
          replace (d + (S lp + length pend'))%nat with (S d + (lp + length pend'))%nat by lia.
          replace (S len - (S lp + length pend'))%nat with (len - (lp + length pend'))%nat by lia.
          split; [reflexivity|]. split; [lia|]. split; [replace (d + S lp)%nat with (S d + lp)%nat by lia; exact HB'|].
          split; [|lia]. constructor; [exact C1 | exact C2 | eapply CuFrame_trans; [exact CF | constructor; assumption]].
      + assert (Ex : x1 = x2) by congruence. subst x2.
        rewrite E. cbv beta iota. rewrite Hsk. exists O, [r1], (mk_cul (l_cur l) ([] ++ [r1]) (l_pbranch l)), x1, []. cbn [length List.app].
        replace (d + (0 + 1))%nat with (S d) by lia. replace (S len - (0 + 1))%nat with len by lia. rewrite Nat.add_0_r.
        split; [reflexivity|]. split; [lia|]. split; [exact HBn|]. split.
        * constructor; auto; try (cbn [l_cur]; exact (P8 d0 _ Hpvlt Hcur)).
        * intros A B _. specialize (Hprog A B). discriminate.
  Qed.

  Notation FrontI := (FrontI app base).

  Lemma prev_lt dp d xe w pl pv x p : BIq dp d xe w pl pv x -> In p pv -> (kq p < d)%nat.
  Proof.
    intros HB Hp. destruct (bq_prev _ _ _ _ _ _ _ HB p Hp) as (A & _). destruct (ebus_entry _ _ _ _ _ _ _ _ HB A) as (k & Hk & _ & E). lia.
  Qed.

  Lemma cu_pending_ok cy dp d xe w x :
    BIq dp d xe w (x_pend x) (x_prev x) x -> (d + length (x_pend x) <= n)%nat -> (d + length (x_pend x) <= S N)%nat ->
    bb_bl (x_ebus x) = 2 ->
    exists stopped pend1 l1 x1 lp pv',
      cu_pending3 ord cy (x_pend x) [] (mk_cul [] [] false) x = (stopped, pend1, l1, x1) /\
      BIq dp (d + lp) xe w pend1 pv' x1 /\ CuPost cy d x x1 l1 /\ (lp + length pend1 = length (x_pend x))%nat /\
      (stopped = false -> pend1 = [] /\ pv' = x_prev x /\ l_skipped l1 = [] /\ (l_pbranch l1 = true -> flat (x_ebus x1) <> []) /\
                          (forall c, In c (l_cur l1) -> (kq c < d + lp)%nat)) /\
      (flat (x_ebus x) = [] -> w = d -> x_pend x <> [] -> (0 < lp)%nat) /\
      (x_pend x = [] -> x1 = x).
  Proof.
    intros HB Hn HN Hbl. pose proof (bq_pend1 _ _ _ _ _ _ _ HB) as Hl1.
    assert (Hpvlt : forall p, In p (x_prev x) -> (kq p < d)%nat) by (intros p Hp; eapply prev_lt; eauto).
    destruct (x_pend x) as [|r [|r2 t]] eqn:Ep; [| |cbn in Hl1; lia].
    - exists false, [], (mk_cul [] [] false), x, O, (x_prev x). cbn [cu_pending3 rev length]. rewrite Nat.add_0_r.
      split; [reflexivity|]. split; [exact HB|]. split; [constructor; [intros c [] | constructor | apply CuFrame_refl]|].
      split; [reflexivity|]. split; [|split; [intros _ _ Hx; contradiction | reflexivity]]. intros _. repeat split; auto; try discriminate. intros c [].
    - cbn [cu_pending3 length] in *.
      destruct (handle_ok2 cy _ _ _ _ _ _ _ (mk_cul [] [] false) HB eq_refl ltac:(lia) ltac:(lia) Hbl eq_refl ltac:(discriminate))
        as (push & stop & r1 & x1 & x2 & E & E2 & (CF & P8 & [(-> & HBn & P9 & P10 & P11 & P12)|(-> & -> & HBn & HBo & P9 & P10)]) & Hprog);
        cbv iota in E2; pose proof CF as [P1 P2 P3 P4 P5 P6 P7].
      + rewrite E. cbv beta iota. rewrite E2. cbv beta iota. cbn [l_cur l_skipped l_pbranch List.app orb].
        assert (Hc1 : CurOK d x2 [r1]) by (intros c [<-|[]]; split; [exact P10|]; split; [exact P11 | lia]).
        assert (Hn1 : NoDup (map kq [r1])) by (constructor; [intros [] | constructor]).
        destruct stop.
        * exists true, [], (mk_cul [r1] [] (isbr d)), x2, 1%nat, []. cbn [rev List.app length].
          split; [reflexivity|]. split; [replace (d + 1)%nat with (S d) by lia; exact HBn|].
          split; [constructor; auto|]. split; [reflexivity|]. split; [discriminate|]. split; [intros; lia | discriminate].
        * exists false, [], (mk_cul [r1] [] (isbr d)), x2, 1%nat, (x_prev x). cbn [cu_pending3 rev List.app length].
          split; [reflexivity|]. split; [replace (d + 1)%nat with (S d) by lia; exact HBn|].
          split; [constructor; auto|]. split; [reflexivity|]. split; [|split; [intros; lia | discriminate]].
          intros _. repeat split; auto.
          -- intros _. exact (in_flat_ne _ _ P10).
          -- intros c [<-|[]]. lia.
      + assert (Ex : x1 = x2) by congruence. subst x2.
        rewrite E. cbv beta iota. cbn [l_cur l_skipped l_pbranch List.app].
        exists true, [r], (mk_cul [] ([] ++ [r1]) false), x1, O, []. cbn [rev List.app length].
        rewrite Nat.add_0_r. split; [reflexivity|].
        split; [|split; [constructor; [intros c [] | constructor | exact CF]|split; [reflexivity|split; [discriminate|split; [|discriminate]]]]].
        * exact HBo.
        * intros A B _. specialize (Hprog A B). discriminate.
  Qed.

  (* ---------------------------------------------------------------- *)
  (* controlUnit.cycle                                                  *)

  Lemma BI_setfields dp d xe w pl pv x pend prev : BIq dp d xe w pl pv x -> BIq dp d xe w pl pv (set_prev3 (set_pend3 x pend) prev).
  Proof. apply BI_ext; reflexivity. Qed.

  Theorem cu_cycle_okq cy dp d xe w c f x :
    BIq dp d xe w (x_pend x) (x_prev x) x -> FrontI (d + length (x_pend x)) c f cy (untag_m (x_m x)) -> TagOK sq (m_cbus (x_m x)) ->
    m_cu (x_m x) = [] -> BusOK cy (x_ebus x) ->
    exists lp, let x' := cu_cycle3 ord cy x in
      BIq d (d + lp) xe w (x_pend x') (x_prev x') x' /\ FrontI (d + lp + length (x_pend x')) c f cy (untag_m (x_m x')) /\
      TagOK sq (m_cbus (x_m x')) /\
      m_cu (x_m x') = [] /\ BusOK cy (x_ebus x') /\ qlen (x_ebus x') = qlen (x_ebus x) /\
      m_wbus (x_m x') = m_wbus (x_m x) /\ m_bu (x_m x') = m_bu (x_m x) /\ m_fu (x_m x') = m_fu (x_m x) /\
      m_dbus (x_m x') = m_dbus (x_m x) /\ m_l1i (x_m x') = m_l1i (x_m x) /\
      (flat (x_ebus x) = [] -> w = d -> (x_pend x <> [] \/ bb_q (m_cbus (x_m x)) <> []) -> (0 < lp)%nat) /\
      (lp = O -> length (x_pend x') + length (bb_q (m_cbus (x_m x'))) = length (x_pend x) + length (bb_q (m_cbus (x_m x))))%nat.
  Proof.
    intros HB HF HT Hcu Hbus. unfold cu_cycle3.
    pose proof (bus_bl _ _ Hbus) as Hbl.
    destruct (front_cqq app base sq _ _ _ _ _ HF HT Hcu) as [Hq Hqle]. pose proof (front_mincq app base _ _ _ _ _ HF) as HcN.
    fold n in Hqle, HcN. fold N in HcN.
    destruct (bb_canadd (x_ebus x)) eqn:Eca; cbn [negb].
    2:{ exists O. cbv zeta. rewrite Nat.add_0_r. cbn [x_pend x_prev x_m x_ebus set_prev3].
        split; [eapply BI_setprev; [apply BI_noprev with (pv := x_prev x); apply BI_ext with (x := x); try reflexivity; exact HB | intros q [] | constructor]|].
        split; [exact HF|]. split; [exact HT|]. split; [exact Hcu|]. split; [exact Hbus|]. do 6 (split; [reflexivity|]). split; [|intros _; reflexivity].
        intros Hfl _ _. exfalso. apply flat_nil_inv in Hfl as [_ B]. unfold bb_canadd in Eca. rewrite B, Hbl in Eca. discriminate. }
    destruct (cu_pending_ok cy _ _ _ _ _ HB ltac:(lia) ltac:(lia) Hbl)
      as (stopped & pend1 & l1 & x1 & lp1 & pv1 & E1 & HB1 & [C1 C2 [C3 C3' C4 C5 C6 C7 C8]] & Hlen1 & Hns & Hprog1 & Hnil1).
    rewrite E1. destruct C4 as (pw1 & pr1 & Em1).
    destruct stopped.
    - exists lp1. cbv zeta. cbn [x_pend x_prev x_m x_ebus set_prev3 set_pend3].
      split; [apply BI_setfields with (pend := pend1) (prev := l_cur l1) in HB1; eapply BI_setprev; [eapply BI_noprev; apply BI_ext with (x := set_prev3 (set_pend3 x1 pend1) (l_cur l1)); try reflexivity; exact HB1 | exact C1 | exact C2]|].
      rewrite Em1. cbn [set_sb m_cu m_wbus m_bu m_fu m_dbus m_cbus m_l1i].
      destruct (FrontI_cuq app base sq _ _ _ _ _ pw1 pr1 O HF HT Hcu ltac:(lia)) as [HF' HT']. cbv zeta in HF', HT'.
      rewrite Nat.sub_0_r, Nat.add_0_r in HF', HT'. rewrite <- Hq in HF', HT'.
      assert (Ecb : mk_bb (bb_buf (m_cbus (x_m x))) (bb_q (m_cbus (x_m x))) (bb_ql (m_cbus (x_m x))) (bb_bl (m_cbus (x_m x))) = m_cbus (x_m x)) by (destruct (m_cbus (x_m x)); reflexivity).
      rewrite Ecb in HF', HT'.
      assert (Esc : set_cbus (set_sb (x_m x) pw1 pr1) (m_cbus (x_m x)) = set_sb (x_m x) pw1 pr1) by (destruct (x_m x); reflexivity).
      rewrite Esc in HF', HT'.
      split; [replace (d + lp1 + length pend1)%nat with (d + length (x_pend x))%nat by lia; exact HF'|].
      split; [exact HT'|].
      split; [exact Hcu|]. split; [apply C8; exact Hbus|]. split; [exact C7|]. repeat (split; [reflexivity|]).
      split; [|intros ->; lia].
      intros A B [Hp|Hp]; [apply Hprog1; assumption|].
      destruct (x_pend x) eqn:Ep; [|apply Hprog1; [assumption | assumption | discriminate]].
      (* nothing was pending: the loop over the pendings cannot have stopped *)
      exfalso. cbn [cu_pending3] in E1. discriminate E1.
    - destruct (Hns eq_refl) as (-> & -> & Hsk & Hpb & Hlt1). cbn [length] in Hlen1. rewrite Nat.add_0_r in Hlen1.
      rewrite Em1. cbn [set_sb m_cbus]. rewrite Hq. rewrite <- Hlen1.
      set (len := length (bb_q (m_cbus (x_m x)))) in *.
      destruct (cu_incoming_ok cy dp xe w (x_prev x) d len (d + lp1)%nat x1 l1 HB1 ltac:(congruence) ltac:(lia) ltac:(lia) ltac:(congruence)
                  Hsk Hpb C1 C2 Hlt1 ltac:(intros p Hp; eapply prev_lt; eauto) ltac:(lia))
        as (lp2 & pend2 & l2 & x2 & pv2 & E2 & Hle2 & HB2 & [K1 K2 [K3 K3' K4 K5 K6 K7 K8]] & Hprog2).
      rewrite E2. destruct K4 as (pw2 & pr2 & Em2).
      exists (lp1 + lp2)%nat. cbv zeta. cbn [x_pend x_prev x_m x_ebus set_prev3 set_pend3 set_m].
      split.
      { eapply BI_setprev; [|exact K1 | exact K2]. eapply BI_noprev. replace (d + (lp1 + lp2))%nat with (d + lp1 + lp2)%nat by lia.
        eapply BI_ext; [..|exact HB2]; reflexivity. }
      rewrite Em2, Em1. cbn [set_sb set_cbus m_cu m_wbus m_bu m_fu m_dbus m_cbus m_l1i bb_q bb_buf bb_ql bb_bl].
      destruct (FrontI_cuq app base sq _ _ _ _ _ pw2 pr2 (lp2 + length pend2) HF HT Hcu ltac:(fold len; lia)) as [HF' HT']. cbv zeta in HF', HT'. fold len in HF', HT'.
      rewrite <- Hlen1 in HF'.
      split; [replace (d + (lp1 + lp2) + length pend2)%nat with (d + lp1 + (lp2 + length pend2))%nat by lia; exact HF'|].
      split.
      { rewrite <- Hlen1 in HT'. cbn [set_sb set_cbus m_cbus] in HT' |- *. exact HT'. }
      split; [exact Hcu|]. split; [apply K8, C8; exact Hbus|]. split; [congruence|]. repeat (split; [reflexivity|]).
      split.
      + intros A B Hor. destruct (Nat.eq_dec lp1 0) as [Hz|]; [|lia].
        assert (Hp0 : x_pend x = []) by (destruct (x_pend x); [reflexivity | cbn in Hlen1; lia]).
        destruct Hor as [Hp|Hp]; [contradiction|].
        assert (Hx1 : flat (x_ebus x1) = flat (x_ebus x)) by (rewrite (Hnil1 Hp0); reflexivity).
        specialize (Hprog2 ltac:(rewrite Hx1; exact A) ltac:(lia)).
        assert ((0 < len)%nat) by (unfold len; destruct (bb_q (m_cbus (x_m x))); [contradiction | cbn; lia]). lia.
      + intros Hz. rewrite ?map_length, ?seq_length. lia.
  Qed.

End RefQ.

Print Assumptions cu_cycle_okq.
