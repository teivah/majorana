(* The MVP-4 model on a program whose stores may miss in the L1D is, cycle for
   cycle, its skeleton (Mvp4sSkel.v) plus the values of the sequential machine.
   The model's memory + L1D are related by VInv (Mvp3Proofs.v) to the "landed"
   memory: the sequential memory minus the stores that still travel on the write
   bus; the lines of those stores are not resident in the L1D. *)
From Coq Require Import ZArith List Bool Lia.
From Maj Require Import Base.Outcome Base.GoInt Base.GoTypes Isa.Spec Isa.Embed Isa.Seq Isa.Refine.
From Maj Require Import Gen.Latency Gen.RiscTables Gen.Opcodes Comp.Cache Comp.CacheSpec Comp.MapFacts Comp.CacheProofs.
From Maj Require Import Mvp.Mvp12 Mvp.Mvp12Proofs Mvp.Mvp3 Mvp.Mvp3Proofs Mvp.Mvp4 Mvp.Mvp4Skel Mvp.Mvp4Inv Mvp.Mvp4Units
     Mvp.Mvp4Front Mvp.Mvp4Sim Mvp.Mvp4mSkel Mvp.Mvp4mInv Mvp.Mvp4mFront Mvp.Mvp4mSim Mvp.Mvp4sSkel Mvp.Mvp4sFront.
Import ListNotations.
Open Scope Z_scope.

Lemma a_get_in r a b : In b (fst (a_get r a)) -> In b r.
Proof.
  unfold a_get. destruct (find (covers 64 a) r) as [c|] eqn:E; cbn [fst]; [|auto].
  apply find_some in E as [Hin _]. intros [<-|H]; [exact Hin | eapply in_remove_first; exact H].
Qed.

Lemma a_get_all_in l : forall r b, In b (fst (a_get_all r l)) -> In b r.
Proof.
  induction l as [|a t IH]; intros r b; cbn [a_get_all]; [auto|].
  destruct (snd (a_get r a)); [intros H; apply (a_get_in r a), (IH _ _ H) | apply a_get_in].
Qed.

Lemma a_fill_in r a0 b : In b (a_fill r a0) -> b = a0 - a0 mod 64 \/ In b r.
Proof.
  unfold a_fill. set (r1 := (a0 - a0 mod 64) :: r). destruct (zlen r1 >? 16).
  - intros H. apply in_remove_first in H. destruct H as [<-|H]; auto.
  - intros [<-|H]; auto.
Qed.

Lemma view_none_sub c sc c' sc' x :
  DInv c sc -> DInv c' sc' -> view sc x = None ->
  (forall b, In b (s_rec sc') -> In b (s_rec sc) \/ covers 64 x b = false) ->
  view sc' x = None.
Proof.
  intros HD HD' Hn Hsub. apply view_none_intro. rewrite (d_len _ _ HD'). intros b Hb.
  destruct (Hsub b Hb) as [Hin|Hc]; [|exact Hc]. pose proof (view_none sc x Hn b Hin) as H. rewrite (d_len _ _ HD) in H. exact H.
Qed.

Lemma covers_other_line x a0 : x / 64 <> a0 / 64 -> covers 64 x (a0 - a0 mod 64) = false.
Proof.
  intros H. destruct (covers 64 x (a0 - a0 mod 64)) eqn:E; [|reflexivity]. exfalso. apply covers_spec in E. apply H. lia.
Qed.

Definition shape (x : wb_item) : list Z * list Z :=
  (snd x, if MemoryChange (fst x) then map fst (MemoryChanges (fst x)) else []).
Definition wshape (x : witem) : list Z * list Z := (wi_wr x, wi_sa x).

Definition papply (x : option wb_item) (ms : list Z) : list Z :=
  match x with
  | Some (exe, _) => if MemoryChange exe then mset_all ms (MemoryChanges exe) else ms
  | None => ms
  end.

Lemma papply_length x ms : length (papply x ms) = length ms.
Proof. destruct x as [[exe wr]|]; cbn [papply]; [destruct (MemoryChange exe); [apply mset_all_length|]|]; reflexivity. Qed.

Lemma in_mem_len m1 m2 a : length m1 = length m2 -> in_mem m1 a = in_mem m2 a.
Proof. intros H. unfold in_mem. rewrite H. reflexivity. Qed.

Lemma forallb_in_mem_len m1 m2 l : length m1 = length m2 -> forallb (in_mem m1) l = forallb (in_mem m2) l.
Proof. intros H. induction l as [|a t IH]; cbn [forallb]; [reflexivity|]. rewrite IH, (in_mem_len m1 m2 a H). reflexivity. Qed.

(* an entry of the write bus: a register write, nothing, or a store whose line is not in the L1D *)
Definition item_good (sc : scache) (ms : list Z) (x : wb_item) : Prop :=
  wb_rel (fst x) (snd x) /\
  (MemoryChange (fst x) = false -> RegisterChange (fst x) = false -> snd x = []) /\
  (MemoryChange (fst x) = true ->
     RegisterChange (fst x) = false /\ MemoryChanges (fst x) <> [] /\
     forallb (in_mem ms) (map fst (MemoryChanges (fst x))) = true /\
     same_line (map fst (MemoryChanges (fst x))) = true /\
     (forall a, In a (map fst (MemoryChanges (fst x))) -> view sc a = None)).

Lemma item_good_len sc ms ms' x : length ms = length ms' -> item_good sc ms x -> item_good sc ms' x.
Proof.
  intros Hl (H1 & H2 & H3). split; [exact H1|]. split; [exact H2|]. intros Hm.
  destruct (H3 Hm) as (A & B & C & D & E). rewrite (forallb_in_mem_len ms ms' _ Hl) in C. auto.
Qed.

Lemma item_good_sc c sc c' sc' ms x : DInv c sc -> DInv c' sc' ->
  (forall a, MemoryChange (fst x) = true -> In a (map fst (MemoryChanges (fst x))) -> view sc a = None -> view sc' a = None) ->
  item_good sc ms x -> item_good sc' ms x.
Proof.
  intros HD HD' Hv (H1 & H2 & H3). split; [exact H1|]. split; [exact H2|]. intros Hm.
  destruct (H3 Hm) as (A & B & C & D & E). repeat split; auto.
Qed.

Record WR (l1d : cache) (sc : scache) (st : arch) (rg m : list Z) (wp wc : option wb_item)
          (swp swc : option witem) : Prop := mkWR {
  wr_v : exists msl, VInv l1d sc m msl /\ mem st = papply wp (papply wc msl);
  wr_regs : regs st = cur_regs wp (cur_regs wc rg);
  wr_i1 : Forall int32 rg;
  wr_i2 : Forall int32 (cur_regs wc rg);
  wr_len : (length rg <= 32)%nat;
  wr_sp : option_map shape wp = option_map wshape swp;
  wr_sc : option_map shape wc = option_map wshape swc;
  wr_gp : forall x, wp = Some x -> item_good sc (mem st) x;
  wr_gc : forall x, wc = Some x -> item_good sc (mem st) x }.

Lemma omap_none {A B C} (f : A -> B) (g : C -> B) (x : option A) : option_map f x = option_map g None -> x = None.
Proof. destruct x; [discriminate | reflexivity]. Qed.

Lemma omap_none_r {A B C} (f : A -> B) (g : C -> B) (y : option C) : option_map f None = option_map g y -> y = None.
Proof. destruct y; [discriminate | reflexivity]. Qed.

Lemma omap_full {A B} (f : A -> B) (g : witem -> B) (x : option A) (y : option witem) :
  option_map f x = option_map g y -> (match x with Some _ => true | None => false end) = is_full y.
Proof. destruct x, y; try discriminate; reflexivity. Qed.

Lemma wu_step l1d sc st rg m wp wc swp swc pw w pw' w' swp' swc' :
  WR l1d sc st rg m wp wc swp swc -> Forall int32 (regs st) ->
  sks_wu pw w swp swc = (pw', w', swp', swc') ->
  exists rg' m' wp' wc',
    wu_cycle rg m pw w (mk_sbus wp wc) = Ok (rg', m', pw', w', mk_sbus wp' wc') /\
    WR l1d sc st rg' m' wp' wc' swp' swc' /\
    ((wu_pending w = true /\ rg' = rg) \/ (wu_pending w = false /\ rg' = cur_regs wc rg)).
Proof.
  intros [(msl & HV & Hmem) Hregs Hi1 Hi2 Hlen Hsp Hsc Hgp Hgc] Hi3. unfold sks_wu, wu_cycle, sbus_get.
  cbn [sb_pending sb_current].
  destruct (wu_pending w) eqn:Ep.
  - intros H. injection H as <- <- <- <-. exists rg, m, wp, wc. split; [reflexivity|]. split; [constructor; eauto | auto].
  - destruct wc as [[exe wr]|].
    + destruct swc as [x|]; [|discriminate]. cbn [option_map shape wshape fst snd] in Hsc. injection Hsc as Hwr Hsa.
      destruct (Hgc _ eq_refl) as (Hrel & Hnone & Hst). cbn [fst snd] in Hrel, Hnone, Hst.
      assert (Hl : length msl = length (mem st)) by (rewrite Hmem, !papply_length; reflexivity).
      destruct (RegisterChange exe) eqn:Erc.
      * (* a register write *)
        assert (Emc : MemoryChange exe = false).
        { destruct (MemoryChange exe) eqn:E; [|reflexivity]. destruct (Hst eq_refl) as [Hc _]. congruence. }
        rewrite Emc in Hsa. rewrite <- Hsa. intros H. injection H as <- <- <- <-.
        do 4 eexists. split; [rewrite Hwr; reflexivity|].
        cbn [cur_regs] in Hi2, Hregs. unfold wapply in Hi2, Hregs. rewrite Erc in Hi2, Hregs.
        split; [|right; split; [reflexivity|]; cbn [cur_regs]; unfold wapply; rewrite Erc; reflexivity].
        constructor; cbn [cur_regs]; auto.
        -- exists msl. split; [exact HV|]. rewrite Hmem. cbn [papply]. rewrite Emc. reflexivity.
        -- rewrite <- Hregs. exact Hi3.
        -- unfold rset. destruct (Register exe =? 0); [exact Hlen | rewrite supd_length; exact Hlen].
        -- discriminate.
      * destruct (MemoryChange exe) eqn:Emc.
        -- (* a store: written to memory, the unit is busy for MemoryAccess cycles *)
           destruct (Hst eq_refl) as (_ & Hne & Hin & Hsl & Hvn).
           rewrite (forallb_in_mem_len _ msl _ (eq_sym Hl)) in Hin.
           destruct (store_miss_ok l1d sc m msl (MemoryChanges exe) HV Hin Hvn) as [Hinm HV'].
           rewrite Hinm. cbn [negb].
           destruct (wi_sa x) as [|s0 sa'] eqn:Esa.
           { exfalso. destruct (MemoryChanges exe); [congruence | discriminate]. }
           intros H. injection H as <- <- <- <-.
           do 4 eexists. split; [reflexivity|].
           cbn [cur_regs] in Hi2, Hregs. unfold wapply in Hi2, Hregs. rewrite Erc in Hi2, Hregs.
           split; [|right; split; [reflexivity|]; cbn [cur_regs]; unfold wapply; rewrite Erc; reflexivity].
           constructor; cbn [cur_regs]; auto.
           ++ exists (mset_all msl (MemoryChanges exe)). split; [exact HV'|]. rewrite Hmem. cbn [papply]. rewrite Emc. reflexivity.
           ++ rewrite <- Hregs. exact Hi3.
           ++ discriminate.
        -- (* neither: nothing to do *)
           rewrite <- Hsa. rewrite <- Hwr, (Hnone eq_refl eq_refl). intros H. injection H as <- <- <- <-.
           do 4 eexists. split; [reflexivity|].
           cbn [cur_regs] in Hi2, Hregs. unfold wapply in Hi2, Hregs. rewrite Erc in Hi2, Hregs.
           split; [|right; split; [reflexivity|]; cbn [cur_regs]; unfold wapply; rewrite Erc; reflexivity].
           constructor; cbn [cur_regs]; auto.
           ++ exists msl. split; [exact HV|]. rewrite Hmem. cbn [papply]. rewrite Emc. reflexivity.
           ++ rewrite <- Hregs. exact Hi3.
           ++ discriminate.
    + apply omap_none_r in Hsc. subst swc. intros H. injection H as <- <- <- <-.
      do 4 eexists. split; [reflexivity|]. cbn [cur_regs papply] in *.
      split; [|right; auto].
      constructor; cbn [cur_regs]; auto; try discriminate; try (exists msl; auto); try (rewrite <- Hregs; exact Hi3).
Qed.

Lemma wr_empty_mem l1d sc st rg m : WR l1d sc st rg m None None None None ->
  regs st = rg /\ VInv l1d sc m (mem st).
Proof. intros [(msl & HV & Hmem) Hregs _ _ _ _ _ _ _]. cbn in Hmem, Hregs. subst msl. auto. Qed.

Lemma drain_sim l1d sc st : forall fuel rg m wp wc swp swc pw w cyc tick w3 c3,
  WR l1d sc st rg m wp wc swp swc -> Forall int32 (regs st) ->
  sks_drain fuel pw w swp swc cyc tick = Some (w3, c3) ->
  exists rg3 m3 pw3,
    m4_drain fuel rg m pw w (mk_sbus wp wc) cyc tick = Ok (rg3, m3, pw3, w3, mk_sbus None None, c3) /\
    WR l1d sc st rg3 m3 None None None None.
Proof.
  induction fuel as [|f IH]; intros rg m wp wc swp swc pw w cyc tick w3 c3 HW Hi3; cbn [sks_drain m4_drain]; [discriminate|].
  assert (Hemp : sbus_is_empty (mk_sbus wp wc) = negb (is_full swp) && negb (is_full swc)).
  { pose proof (omap_full _ _ _ _ (wr_sp _ _ _ _ _ _ _ _ _ HW)) as H1. pose proof (omap_full _ _ _ _ (wr_sc _ _ _ _ _ _ _ _ _ HW)) as H2.
    unfold sbus_is_empty. cbn [sb_pending sb_current]. rewrite <- H1, <- H2. destruct wp, wc; reflexivity. }
  rewrite Hemp, andb_assoc.
  destruct (negb (wu_pending w) && negb (is_full swp) && negb (is_full swc)) eqn:E.
  - intros H. injection H as <- <-. apply andb_prop in E as [E E2]. apply andb_prop in E as [_ E1].
    apply negb_true_iff in E1, E2.
    assert (swp = None) by (destruct swp; [discriminate | reflexivity]).
    assert (swc = None) by (destruct swc; [discriminate | reflexivity]). subst swp swc.
    pose proof (omap_none _ _ _ (wr_sp _ _ _ _ _ _ _ _ _ HW)). pose proof (omap_none _ _ _ (wr_sc _ _ _ _ _ _ _ _ _ HW)). subst wp wc.
    do 3 eexists. split; [reflexivity | exact HW].
  - destruct (sks_wu pw w swp swc) as [[[pw' w'] swp'] swc'] eqn:Ew.
    destruct (wu_step _ _ _ _ _ _ _ _ _ _ _ _ _ _ _ HW Hi3 Ew) as (rg' & m' & wp' & wc' & Ewu & HW' & _).
    rewrite Ewu. cbn [bind]. apply IH; assumption.
Qed.

Lemma list_eq_mget (m1 m2 : list Z) : length m1 = length m2 ->
  (forall x, 0 <= x < zlen m1 -> mget m1 x = mget m2 x) -> m1 = m2.
Proof.
  intros Hl H. apply (nth_ext m1 m2 0 0 Hl). intros n Hn.
  specialize (H (Z.of_nat n) ltac:(unfold zlen; lia)). unfold mget in H. rewrite Nat2Z.id in H. exact H.
Qed.

Lemma mset_all_swap m bs cs :
  forallb (in_mem m) (map fst bs) = true -> forallb (in_mem m) (map fst cs) = true ->
  (forall a, In a (map fst bs) -> ~ In a (map fst cs)) ->
  mset_all (mset_all m cs) bs = mset_all (mset_all m bs) cs.
Proof.
  intros Hb Hc Hd. apply list_eq_mget; [rewrite !mset_all_length; reflexivity|].
  intros x Hx.
  assert (Hb' : forallb (in_mem (mset_all m cs)) (map fst bs) = true)
    by (rewrite (forallb_in_mem_len _ m); [exact Hb | apply mset_all_length]).
  assert (Hc' : forallb (in_mem (mset_all m bs)) (map fst cs) = true)
    by (rewrite (forallb_in_mem_len _ m); [exact Hc | apply mset_all_length]).
  rewrite (mget_mset_all bs _ x) by (lia || exact Hb'). rewrite (mget_mset_all cs _ x) by (lia || exact Hc').
  destruct (in_dec Z.eq_dec x (map fst bs)) as [Hin|Hn].
  - rewrite (apply_changes_notin cs _ x (Hd x Hin)). rewrite (mget_mset_all bs m x) by (lia || exact Hb).
    apply apply_changes_in. exact Hin.
  - rewrite (apply_changes_notin bs _ x Hn). rewrite (mget_mset_all cs m x) by (lia || exact Hc).
    destruct (in_dec Z.eq_dec x (map fst cs)) as [Hin2|Hn2].
    + apply apply_changes_in. exact Hin2.
    + rewrite !(apply_changes_notin cs _ x Hn2). rewrite (mget_mset_all bs m x) by (lia || exact Hb).
      rewrite (apply_changes_notin bs _ x Hn). reflexivity.
Qed.

Lemma mget_mset_all_other m bs x : 0 <= x -> forallb (in_mem m) (map fst bs) = true -> ~ In x (map fst bs) ->
  mget (mset_all m bs) x = mget m x.
Proof. intros Hx Hb Hn. rewrite (mget_mset_all bs m x Hx Hb). apply apply_changes_notin. exact Hn. Qed.

(* the bytes at addresses that no entry of the write bus stores to *)
Lemma mget_papply sc ms0 x ms a : item_good sc ms0 x -> length ms = length ms0 -> 0 <= a ->
  (MemoryChange (fst x) = true -> ~ In a (map fst (MemoryChanges (fst x)))) ->
  mget (papply (Some x) ms) a = mget ms a.
Proof.
  intros (_ & _ & H3) Hl Ha Hn. destruct x as [exe wr]. cbn [papply fst] in *.
  destruct (MemoryChange exe) eqn:E; [|reflexivity]. destruct (H3 eq_refl) as (_ & _ & Hin & _).
  apply mget_mset_all_other; auto. rewrite (forallb_in_mem_len ms ms0 _ Hl). exact Hin.
Qed.

Lemma store_wr_nil i rr : store_addrs (sinstr_of i) rr <> [] -> instr_WriteRegisters i = [].
Proof. destruct i; cbn [sinstr_of store_addrs]; intros H; try congruence; reflexivity. Qed.

Lemma eu_run_store_miss labels regs mem pw l1d e2 wbus bu i pc bs d2 :
  instr_Run i (rget regs) labels pc [] 0 = Ok (embed (EStore bs)) ->
  get_all l1d (map fst bs) [] = Ok (d2, None) ->
  eu_run labels (mk_env regs mem pw l1d e2 wbus bu) i pc [] =
    inl (Ok (mk_env regs mem (pw_add pw (instr_WriteRegisters i)) d2
                    (mk_eu false (eu_pending_read e2) (eu_addrs e2) (eu_memory e2) (eu_remaining e2) (eu_runner e2))
                    (sbus_add wbus (embed (EStore bs), instr_WriteRegisters i)) bu, eu_none)).
Proof.
  intros H Hg. unfold eu_run. cbn [e_regs e_mem e_pw e_l1d e_eu e_wbus e_bu]. rewrite H.
  cbn [embed Return MemoryChange MemoryChanges PcChange]. rewrite Hg. reflexivity.
Qed.

Lemma eu_cycle_s_full labels regs mem pw l1d ce wbus bu ebus dt la e1 ebus2 dt1 act :
  eu_pending_read ce = false -> eu_memory ce = None -> sbus_can_add wbus = false ->
  sks_eu true ce ebus pw dt la = (e1, ebus2, dt1, act) ->
  act = ANone /\ dt1 = dt /\
  eu_cycle labels (mk_env regs mem pw l1d ce wbus bu) ebus = inl (Ok (mk_env regs mem pw l1d e1 wbus bu, ebus2, eu_none)) /\
  eu_pending_read e1 = false /\ eu_memory e1 = None.
Proof.
  intros Hpr Hm Hadd. unfold sks_eu, eu_cycle, eu_intake, set_rem. cbn [e_eu e_wbus e_regs e_mem e_pw e_l1d e_bu].
  rewrite Hpr, Hadd. cbn [andb negb].
  destruct (eu_processing ce) eqn:Ep.
  - cbn [negb]. destruct (negb (eu_remaining ce - 1 =? 0)); intros H; injection H as <- <- <- <-;
      cbn [eu_pending_read eu_memory]; rewrite ?Hpr, ?Hm; auto.
  - unfold sbus_get. destruct (sb_current ebus) as [[i pc]|].
    + cbn [negb eu_remaining eu_runner eu_processing eu_pending_read eu_addrs eu_memory]. fold (cyc_of i).
      destruct (negb (cyc_of i - 1 =? 0)); intros H; injection H as <- <- <- <-; cbn [eu_pending_read eu_memory]; rewrite ?Hm; auto.
    + cbn [negb]. intros H. injection H as <- <- <- <-. rewrite Hpr, Hm. repeat split; auto; destruct ce; reflexivity.
Qed.

Lemma skm_eu_issue e ebus pw dt la e1 ebus2 dt1 :
  eu_pending_read e = false ->
  skm_eu e ebus pw dt la = (e1, ebus2, dt1, ANone) -> eu_pending_read e1 = true ->
  exists i pc, eu_runner e1 = Some (i, pc) /\ hd_error (q_eu e ++ q_sb ebus) = Some (i, pc) /\
               pw_hazard pw (instr_ReadRegisters i) = false.
Proof.
  intros Hpr. unfold skm_eu, eu_intake, set_rem. rewrite Hpr. unfold q_eu.
  destruct (eu_processing e) eqn:Ep.
  - cbn [negb]. destruct (negb (eu_remaining e - 1 =? 0)).
    + intros H. injection H as <- _ _. cbn [eu_pending_read]. rewrite Hpr. discriminate.
    + destruct (eu_runner e) as [[i pc]|] eqn:Er; [|discriminate].
      destruct (pw_hazard pw (instr_ReadRegisters i)) eqn:Ehz.
      * intros H. injection H as <- _ _. cbn [eu_pending_read]. rewrite Hpr. discriminate.
      * destruct la as [|a0 la']; [discriminate|].
        destruct (snd (a_get_all dt (a0 :: la'))); intros H; injection H as <- _ _; intros _; exists i, pc;
          cbn [eu_runner olist List.app hd_error]; auto.
  - destruct ebus as [ep ec]. unfold sbus_get. cbn [sb_current sb_pending q_sb]. destruct ec as [[i pc]|].
    + cbn [negb eu_remaining eu_runner eu_processing eu_pending_read eu_addrs eu_memory]. fold (cyc_of i).
      destruct (negb (cyc_of i - 1 =? 0)).
      * intros H. injection H as <- _ _. cbn [eu_pending_read]. discriminate.
      * destruct (pw_hazard pw (instr_ReadRegisters i)) eqn:Ehz.
        -- intros H. injection H as <- _ _. cbn [eu_pending_read]. discriminate.
        -- destruct la as [|a0 la']; [discriminate|].
           destruct (snd (a_get_all dt (a0 :: la'))); intros H; injection H as <- _ _; intros _; exists i, pc;
             cbn [eu_runner olist List.app hd_error]; auto.
    + cbn [negb]. intros H. injection H as <- _ _. rewrite Hpr. discriminate.
Qed.


Lemma line_disjoint sa la a b : same_line sa = true -> same_line la = true -> same_line_as sa la = false ->
  In a sa -> In b la -> a / 64 <> b / 64.
Proof.
  intros Hs Hl Hd Ha Hb. destruct sa as [|s0 sa']; [destruct Ha|]. destruct la as [|l0 la']; [destruct Hb|].
  pose proof (same_line_spec _ _ _ Hs Ha). pose proof (same_line_spec _ _ _ Hl Hb).
  cbn [same_line_as] in Hd. apply Z.eqb_neq in Hd. lia.
Qed.

Lemma reads_agree_s pw rg wc st i :
  (length rg <= 32)%nat -> pw = pwof (cur_wr wc) ->
  (forall x, wc = Some x -> wb_rel (fst x) (snd x)) ->
  regs st = cur_regs wc rg ->
  pw_hazard pw (instr_ReadRegisters i) = false ->
  forall r, In r (instr_ReadRegisters i) -> rget (regs st) r = rget rg r.
Proof.
  intros Hlen Hpw Hitem Hregs Hhz r Hr. rewrite Hregs.
  destruct wc as [[exe wr]|]; [|reflexivity]. cbn [cur_regs].
  pose proof (Hitem _ eq_refl) as Hrel. cbn [fst snd] in Hrel.
  apply (rget_wapply rg exe wr r Hlen Hrel).
  cbn [cur_wr option_map snd] in Hpw. rewrite <- Hpw. eapply pw_hazard_false; eassumption.
Qed.

Lemma shape_wr (wc : option wb_item) swc : option_map shape wc = option_map wshape swc -> cur_wr wc = option_map wi_wr swc.
Proof.
  destruct wc as [[exe wr]|], swc as [y|]; cbn [option_map cur_wr]; try discriminate; [|reflexivity].
  unfold shape, wshape. cbn [fst snd]. intros H. injection H as H _. rewrite H. reflexivity.
Qed.

Lemma shape_sa (x : wb_item) y : Some (shape x) = Some (wshape y) ->
  wi_sa y = (if MemoryChange (fst x) then map fst (MemoryChanges (fst x)) else []).
Proof. unfold shape, wshape. intros H. injection H as _ H. symmetry. exact H. Qed.

(* the bytes of a load do not depend on the stores that are still on the write bus *)
Lemma inflight_other sc ms0 (wc : option wb_item) swc la msl :
  option_map shape wc = option_map wshape swc ->
  (forall x, wc = Some x -> item_good sc ms0 x) -> length msl = length ms0 ->
  same_line la = true ->
  (forall y, swc = Some y -> same_line_as (wi_sa y) la = false) ->
  forall a, In a la -> 0 <= a -> mget (papply wc msl) a = mget msl a.
Proof.
  intros Hs Hg Hl Hsl Hd a Ha Ha0. destruct wc as [x|]; [|reflexivity].
  destruct swc as [y|]; [|discriminate]. cbn [option_map] in Hs.
  apply (mget_papply sc ms0 x msl a (Hg x eq_refl) Hl Ha0).
  intros Hm Hin. pose proof (shape_sa x y Hs) as Hsa. rewrite Hm in Hsa.
  destruct (Hg x eq_refl) as (_ & _ & H3). destruct (H3 Hm) as (_ & _ & _ & Hsls & _).
  rewrite <- Hsa in Hin, Hsls.
  apply (line_disjoint (wi_sa y) la a a Hsls Hsl (Hd y eq_refl) Hin Ha). reflexivity.
Qed.

Lemma erase_pr ce : eu_pending_read (eu_erase ce) = eu_pending_read ce.
Proof. reflexivity. Qed.

(* loads and stores of the execute unit under WR, the pending slot empty *)

(* an instruction that does not store is put on the write bus *)
Lemma wr_push_reg d sc st st' rg m wc swc exe wr fl :
  WR d sc st rg m None wc None swc -> item_ok (exe, wr) -> wb_rel exe wr ->
  regs st' = wapply exe (regs st) -> mem st' = mem st ->
  WR d sc st' rg m (Some (exe, wr)) wc (Some (wr, [], fl)) swc.
Proof.
  intros [(msl & HV & Hmem) Hregs Hri Hi2 Hlen _ Hsc _ Hgc] [Hit1 Hit2] Hrel Hregs' Hmem'.
  cbn [cur_regs papply] in Hregs, Hmem. cbn [fst snd] in Hit1, Hit2.
  constructor.
  - exists msl. split; [exact HV|]. rewrite Hmem', Hmem. cbn [papply]. rewrite Hit1. reflexivity.
  - rewrite Hregs', Hregs. reflexivity.
  - exact Hri.
  - exact Hi2.
  - exact Hlen.
  - unfold shape, wshape, wi_wr, wi_sa. cbn [option_map fst snd]. rewrite Hit1. reflexivity.
  - exact Hsc.
  - intros x Hx. injection Hx as <-. split; [exact Hrel|]. cbn [fst snd]. split; [intros _; exact Hit2 | rewrite Hit1; discriminate].
  - intros x Hx. rewrite Hmem'. apply Hgc. exact Hx.
Qed.

(* the L1D changes, the lines of the stores on the bus stay absent *)
Lemma wr_new_cache d sc d' sc' st st' rg m m' msl' wc swc :
  WR d sc st rg m None wc None swc -> VInv d' sc' m' msl' -> mem st' = papply wc msl' ->
  regs st' = regs st -> length (mem st') = length (mem st) ->
  (forall x a, wc = Some x -> MemoryChange (fst x) = true -> In a (map fst (MemoryChanges (fst x))) ->
               view sc a = None -> view sc' a = None) ->
  WR d' sc' st' rg m' None wc None swc.
Proof.
  intros [(msl & HV & Hmem) Hregs Hri Hi2 Hlen _ Hsc _ Hgc] HV' Hmem' Hregs' Hl Hv.
  constructor.
  - exists msl'. split; [exact HV' | exact Hmem'].
  - rewrite Hregs'. exact Hregs.
  - exact Hri.
  - exact Hi2.
  - exact Hlen.
  - reflexivity.
  - exact Hsc.
  - discriminate.
  - intros x Hx. apply (item_good_len sc' (mem st)); [symmetry; exact Hl|].
    apply (item_good_sc d sc d' sc' _ x (v_D _ _ _ _ HV) (v_D _ _ _ _ HV')); [|apply Hgc; exact Hx].
    intros a. apply (Hv x a Hx).
Qed.

Lemma wr_landed d sc st rg m wc swc : WR d sc st rg m None wc None swc ->
  exists msl, VInv d sc m msl /\ mem st = papply wc msl /\ length msl = length (mem st).
Proof.
  intros [(msl & HV & Hmem) _ _ _ _ _ _ _ _]. cbn [papply] in Hmem.
  exists msl. split; [exact HV|]. split; [exact Hmem|]. rewrite Hmem, papply_length. reflexivity.
Qed.

(* addresses that hit in the L1D are not written by a store on the bus *)
Lemma hit_not_inflight d sc st rg m wc swc l x a :
  WR d sc st rg m None wc None swc -> snd (a_get_all (s_rec sc) l) = true -> In a l ->
  wc = Some x -> MemoryChange (fst x) = true -> ~ In a (map fst (MemoryChanges (fst x))).
Proof.
  intros HW Ehit Ha Hx Hm Hin. destruct (wr_landed _ _ _ _ _ _ _ HW) as (msl & HV & _).
  destruct (wr_gc _ _ _ _ _ _ _ _ _ HW x Hx) as (_ & _ & H3). destruct (H3 Hm) as (_ & _ & _ & _ & Hvn).
  destruct (get_all_ok sc l d sc [] (v_D _ _ _ _ HV) ltac:(auto)) as (? & ? & _ & _ & _ & _ & Hhh).
  rewrite Ehit, forallb_forall in Hhh. specialize (Hhh a Ha). rewrite (Hvn a Hin) in Hhh. discriminate.
Qed.

(* the first half of a load: lookup in the L1D *)
Lemma wr_load_issue d sc st rg m wc swc a0 t :
  WR d sc st rg m None wc None swc ->
  forallb (in_mem (mem st)) (a0 :: t) = true -> same_line (a0 :: t) = true ->
  exists c1 sc1,
    get_all d (a0 :: t) [] =
      Ok (c1, if snd (a_get_all (s_rec sc) (a0 :: t)) then Some (map (mget (mem st)) (a0 :: t)) else None) /\
    WR c1 sc1 st rg m None wc None swc /\ s_rec sc1 = fst (a_get_all (s_rec sc) (a0 :: t)) /\
    (snd (a_get_all (s_rec sc) (a0 :: t)) = false -> forall x, In x (a0 :: t) -> view sc1 x = None).
Proof.
  intros HW Hin Hsl. destruct (wr_landed _ _ _ _ _ _ _ HW) as (msl & HV & Hmem & Hl).
  assert (Hin' : forallb (in_mem msl) (a0 :: t) = true) by (rewrite (forallb_in_mem_len _ (mem st) _ Hl); exact Hin).
  destruct (load_issue_ok d sc m msl a0 t HV Hin' Hsl) as (c1 & sc1 & Eg & HV1 & Hr1 & Hu).
  exists c1, sc1. split; [|split; [|split; [exact Hr1 | exact Hu]]].
  - rewrite Eg. destruct (snd (a_get_all (s_rec sc) (a0 :: t))) eqn:Ehit; [|reflexivity].
    do 3 f_equal. apply map_ext_in. intros x Hx. rewrite Hmem.
    destruct wc as [xw|] eqn:Ewc; [|reflexivity]. symmetry.
    assert (Hx0 : 0 <= x) by (rewrite forallb_forall in Hin; specialize (Hin x Hx); apply in_mem_range in Hin; lia).
    apply (mget_papply sc (mem st) xw msl x (wr_gc _ _ _ _ _ _ _ _ _ HW xw eq_refl) Hl Hx0).
    exact (hit_not_inflight _ _ _ _ _ _ _ _ xw x HW Ehit Hx eq_refl).
  - apply (wr_new_cache d sc c1 sc1 st st rg m m msl wc swc HW HV1 Hmem eq_refl eq_refl).
    intros x a _ _ _ Hv0. apply (view_none_sub d sc c1 sc1 a (v_D _ _ _ _ HV) (v_D _ _ _ _ HV1) Hv0).
    intros b Hb. left. rewrite Hr1 in Hb. apply a_get_all_in in Hb. exact Hb.
Qed.

(* the second half of a load that missed: the line is fetched from memory; no store
   to that line is on the bus *)
Lemma wr_load_complete d sc st rg m wc swc a0 t :
  WR d sc st rg m None wc None swc ->
  forallb (in_mem (mem st)) (a0 :: t) = true -> same_line (a0 :: t) = true ->
  (forall a, In a (a0 :: t) -> view sc a = None) ->
  (forall y, swc = Some y -> same_line_as (wi_sa y) (a0 :: t) = false) ->
  exists c3 sc3 m3,
    (ln <- fetch_cache_line m a0 ;;
     r2 <- push_line_to_l1d d m a0 ln ;;
     r3 <- get_all (fst r2) (a0 :: t) [] ;;
     match r3 with
     | (d3, Some bytes) => Ok (d3, snd r2, bytes)
     | (_, None) => Panic
     end) = Ok (c3, m3, map (mget (mem st)) (a0 :: t)) /\
    WR c3 sc3 st rg m3 None wc None swc /\ s_rec sc3 = fst (a_get_all (a_fill (s_rec sc) a0) (a0 :: t)).
Proof.
  intros HW Hin Hsl Hunc HI2. destruct (wr_landed _ _ _ _ _ _ _ HW) as (msl & HV & Hmem & Hl).
  pose proof (wr_sc _ _ _ _ _ _ _ _ _ HW) as Hsc. pose proof (wr_gc _ _ _ _ _ _ _ _ _ HW) as Hgc.
  assert (Hin' : forallb (in_mem msl) (a0 :: t) = true) by (rewrite (forallb_in_mem_len _ (mem st) _ Hl); exact Hin).
  destruct (load_complete_ok d sc m msl a0 t HV Hin' Hsl Hunc) as (c3 & sc3 & m3 & E3 & HV3 & Hr3).
  exists c3, sc3, m3. split; [|split; [|exact Hr3]].
  - rewrite E3. do 2 f_equal. apply map_ext_in. intros x Hx. rewrite Hmem. symmetry.
    apply (inflight_other sc (mem st) wc swc (a0 :: t) msl Hsc Hgc Hl Hsl HI2 x Hx).
    rewrite forallb_forall in Hin. specialize (Hin x Hx). apply in_mem_range in Hin. lia.
  - apply (wr_new_cache d sc c3 sc3 st st rg m m3 msl wc swc HW HV3 Hmem eq_refl eq_refl).
    intros x a1 Hx Emc Hina Hv1. apply (view_none_sub d sc c3 sc3 a1 (v_D _ _ _ _ HV) (v_D _ _ _ _ HV3) Hv1).
    intros b Hb. rewrite Hr3 in Hb. apply a_get_all_in in Hb. apply a_fill_in in Hb. destruct Hb as [->|Hb]; [right | left; exact Hb].
    apply covers_other_line. subst wc.
    destruct swc as [y|]; [|discriminate]. cbn [option_map] in Hsc.
    destruct (Hgc x eq_refl) as (_ & _ & H3). destruct (H3 Emc) as (_ & _ & _ & Hsls & _).
    pose proof (shape_sa x y Hsc) as Hsay. rewrite Emc in Hsay. rewrite <- Hsay in Hsls, Hina.
    apply (line_disjoint (wi_sa y) (a0 :: t) a1 a0 Hsls Hsl (HI2 y eq_refl) Hina). left; reflexivity.
Qed.

(* a store that hits is written into the L1D; it commutes with the stores on the bus *)
Lemma wr_store_hit d sc st st' rg m wc swc bs :
  WR d sc st rg m None wc None swc -> bs <> [] ->
  map fst bs = consec (hd 0 (map fst bs)) (length bs) ->
  forallb (in_mem (mem st)) (map fst bs) = true -> same_line (map fst bs) = true ->
  snd (a_get_all (s_rec sc) (map fst bs)) = true ->
  regs st' = regs st -> mem st' = mset_all (mem st) bs ->
  exists c1 vs v0 t c' sc',
    get_all d (map fst bs) [] = Ok (c1, Some vs) /\ sort_changes bs = (hd 0 (map fst bs), v0) :: t /\
    write c1 (hd 0 (map fst bs)) (map snd ((hd 0 (map fst bs), v0) :: t)) = Ok c' /\
    WR c' sc' st' rg m None wc None swc /\ s_rec sc' = fst (a_get_all (s_rec sc) (map fst bs)).
Proof.
  intros HW Hne Hcs Hinb Hsl Ehit Hregs' Hmem'. destruct (wr_landed _ _ _ _ _ _ _ HW) as (msl & HV & Hmem & Hl).
  assert (Hinl : forallb (in_mem msl) (map fst bs) = true) by (rewrite (forallb_in_mem_len _ (mem st) _ Hl); exact Hinb).
  destruct (store_hit_m d sc m msl bs _ HV Hne Hcs Hinl Hsl Ehit) as (c1 & vs & v0 & t & c' & sc3 & Eg & Es & Ew & HV3 & Hr3).
  exists c1, vs, v0, t, c', sc3. split; [exact Eg|]. split; [exact Es|]. split; [exact Ew|]. split; [|exact Hr3].
  apply (wr_new_cache d sc c' sc3 st st' rg m m (mset_all msl bs) wc swc HW HV3); [|exact Hregs'|rewrite Hmem'; apply mset_all_length|].
  - rewrite Hmem', Hmem. destruct wc as [[exe wr]|] eqn:Ewc; cbn [papply]; [|reflexivity].
    destruct (MemoryChange exe) eqn:Emc; [|reflexivity].
    destruct (wr_gc _ _ _ _ _ _ _ _ _ HW _ eq_refl) as (_ & _ & H3). cbn [fst] in H3. destruct (H3 Emc) as (_ & _ & Hinc & _).
    apply mset_all_swap; [exact Hinl | rewrite (forallb_in_mem_len _ (mem st) _ Hl); exact Hinc |].
    intros a0 Ha0. exact (hit_not_inflight _ _ _ _ _ _ _ _ (exe, wr) a0 HW Ehit Ha0 eq_refl Emc).
  - intros x a0 _ _ _ Hv0. apply (view_none_sub d sc c' sc3 a0 (v_D _ _ _ _ HV) (v_D _ _ _ _ HV3) Hv0).
    intros b Hb. left. rewrite Hr3 in Hb. apply a_get_all_in in Hb. exact Hb.
Qed.

(* a store that misses is put on the write bus; its line stays absent from the L1D *)
Lemma wr_store_miss d sc st st' rg m wc swc bs fl :
  WR d sc st rg m None wc None swc -> bs <> [] ->
  forallb (in_mem (mem st)) (map fst bs) = true -> same_line (map fst bs) = true ->
  snd (a_get_all (s_rec sc) (map fst bs)) = false ->
  regs st' = regs st -> mem st' = mset_all (mem st) bs ->
  exists c1 sc1,
    get_all d (map fst bs) [] = Ok (c1, None) /\
    WR c1 sc1 st' rg m (Some (embed (EStore bs), [])) wc (Some ([], map fst bs, fl)) swc /\
    s_rec sc1 = fst (a_get_all (s_rec sc) (map fst bs)).
Proof.
  intros HW Hne Hinb Hsl Ehit Hregs' Hmem'. destruct (wr_landed _ _ _ _ _ _ _ HW) as (msl & HV & Hmem & Hl).
  pose proof HW as [_ Hregs Hri Hi2 Hlen _ Hsc _ Hgc]. cbn [cur_regs] in Hregs.
  assert (Hinl : forallb (in_mem msl) (map fst bs) = true) by (rewrite (forallb_in_mem_len _ (mem st) _ Hl); exact Hinb).
  assert (Hex : exists s0 sa', map fst bs = s0 :: sa') by (destruct bs as [|[a v] t]; [congruence | cbn; eauto]).
  destruct Hex as (s0 & sa' & Emf). rewrite Emf in *.
  destruct (load_issue_ok d sc m msl s0 sa' HV Hinl Hsl) as (c1 & sc1 & Eg & HV1 & Hr1 & Hu).
  rewrite Ehit in Eg. specialize (Hu Ehit).
  exists c1, sc1. split; [exact Eg|]. split; [|exact Hr1].
  constructor.
  - exists msl. split; [exact HV1|]. rewrite Hmem', Hmem. reflexivity.
  - rewrite Hregs', Hregs. reflexivity.
  - exact Hri.
  - exact Hi2.
  - exact Hlen.
  - unfold shape, wshape, wi_wr, wi_sa. cbn [option_map fst snd embed MemoryChange MemoryChanges]. rewrite Emf. reflexivity.
  - exact Hsc.
  - intros x Hx. injection Hx as <-. split; [intros Hc; discriminate Hc|]. cbn [fst snd embed MemoryChange MemoryChanges RegisterChange].
    split; [discriminate|]. intros _. split; [reflexivity|]. split; [exact Hne|].
    split; [rewrite Emf, Hmem', (forallb_in_mem_len _ (mem st)); [exact Hinb | apply mset_all_length]|].
    rewrite Emf. split; [exact Hsl | exact Hu].
  - intros x Hx. apply (item_good_len sc1 (mem st)); [rewrite Hmem', mset_all_length; reflexivity|].
    apply (item_good_sc d sc c1 sc1 _ x (v_D _ _ _ _ HV) (v_D _ _ _ _ HV1)); [|apply Hgc; exact Hx].
    intros a0 _ _ Hv0. apply (view_none_sub d sc c1 sc1 a0 (v_D _ _ _ _ HV) (v_D _ _ _ _ HV1) Hv0).
    intros b Hb. left. rewrite Hr1 in Hb. apply a_get_all_in in Hb. exact Hb.
Qed.

Section SimS.
  Variables (app : list instr) (labels : Z -> option Z).
  Hypothesis Happ : wf_app app.
  Hypothesis Hlab : wf_labels labels.
  Let sp := map sinstr_of app.

  (* the model state [s] is the skeleton [a] plus the values of the sequential state [st] *)
  Inductive RMs (la : list Z) : m4state -> sks -> arch -> Prop :=
  | RMs_intro a rg m l1d sc bu wp wc ce st :
      WR l1d sc st rg m wp wc (x_wp a) (x_wc a) -> s_rec sc = x_dt a ->
      Forall int32 (regs st) -> Forall int8 (mem st) ->
      eu_erase ce = x_eu a ->
      (forall bytes, eu_memory ce = Some bytes -> bytes = map (mget (mem st)) la) ->
      (eu_pending_read ce = true -> eu_memory ce = None -> forall x, In x la -> view sc x = None) ->
      (eu_pending_read ce = true -> wp = None /\
         forall i pc, eu_runner ce = Some (i, pc) -> forall r, In r (instr_ReadRegisters i) -> rget (regs st) r = rget rg r) ->
      RMs la (mk_m4 rg m (x_pw a) (x_l1i a) l1d (x_fu a) (x_dbus a) (x_ebus a) ce (mk_sbus wp wc) (x_wu a) bu) a st.

  (* the end of an iteration in which nothing special (no ret, no flush) happens *)
  Lemma tail_step f cyc la st rg m pw1 l1d sc ce1 wp1 wc bu1 fu1 l1i1 dbus2 ebus2 w swp1 swc pw2 w2 swp2 swc2 e1 l1 l2 :
    WR l1d sc st rg m wp1 wc swp1 swc -> Forall int32 (regs st) -> Forall int8 (mem st) ->
    eu_erase ce1 = e1 ->
    (forall bytes, eu_memory ce1 = Some bytes -> bytes = map (mget (mem st)) la) ->
    (eu_pending_read ce1 = true -> eu_memory ce1 = None -> forall x, In x la -> view sc x = None) ->
    (eu_pending_read ce1 = true -> wp1 = None /\
       forall i pc, eu_runner ce1 = Some (i, pc) -> forall r, In r (instr_ReadRegisters i) -> rget (regs st) r = rget rg r) ->
    sks_wu pw1 w swp1 swc = (pw2, w2, swp2, swc2) ->
    exists s',
      m4_tail f app labels w l1i1 fu1 dbus2 (cyc + 1)
              (inl (Ok (mk_env rg m pw1 l1d ce1 (mk_sbus wp1 wc) bu1, ebus2, eu_none)))
      = (if m4_is_complete s' then m4_finish s' (cyc + 1) else m4run f app labels s' (cyc + 1)) /\
      m4_is_complete s' = sks_complete (mk_sks fu1 l1i1 dbus2 ebus2 e1 pw2 swp2 swc2 w2 (s_rec sc) l1 l2) /\
      RMs la s' (mk_sks fu1 l1i1 dbus2 ebus2 e1 pw2 swp2 swc2 w2 (s_rec sc) l1 l2) st.
  Proof.
    intros HW Hi3 Hm8 He Hb Hu Hrd Ew.
    destruct (wu_step _ _ _ _ _ _ _ _ _ _ _ _ _ _ _ HW Hi3 Ew) as (rg' & m' & wp' & wc' & Ewu & HW' & Hrg).
    exists (mk_m4 rg' m' pw2 l1i1 l1d fu1 dbus2 ebus2 ce1 (mk_sbus wp' wc') w2 bu1).
    split; [|split].
    - unfold m4_tail. cbn [e_regs e_mem e_pw e_l1d e_eu e_wbus e_bu eu_none eo_ret eo_flush]. rewrite Ewu. reflexivity.
    - unfold m4_is_complete, sks_complete.
      cbn [s_fu s_eu s_wu s_dbus s_ebus s_wbus x_fu x_eu x_wu x_dbus x_ebus x_wp x_wc].
      pose proof (omap_full _ _ _ _ (wr_sp _ _ _ _ _ _ _ _ _ HW')) as H1. pose proof (omap_full _ _ _ _ (wr_sc _ _ _ _ _ _ _ _ _ HW')) as H2.
      assert (Hemp : sbus_is_empty (mk_sbus wp' wc') = negb (is_full swp2) && negb (is_full swc2)).
      { rewrite <- H1, <- H2. unfold sbus_is_empty. cbn [sb_pending sb_current]. destruct wp', wc'; reflexivity. }
      rewrite Hemp, <- He, andb_assoc. unfold eu_erase. cbn [eu_processing]. reflexivity.
    - apply (RMs_intro la (mk_sks fu1 l1i1 dbus2 ebus2 e1 pw2 swp2 swc2 w2 (s_rec sc) l1 l2) rg' m' l1d sc bu1 wp' wc' ce1 st); auto.
      intros Hp. destruct (Hrd Hp) as [Hwp1 Hr]. subst wp1.
      assert (Hwp' : wp' = None).
      { pose proof (omap_none_r _ _ _ (wr_sp _ _ _ _ _ _ _ _ _ HW)) as S1.
        assert (S2 : swp2 = None).
        { unfold sks_wu in Ew. destruct (wu_pending w); [injection Ew as _ _ <- _; exact S1|].
          destruct swc as [x|]; [destruct (wi_sa x)|]; injection Ew as _ _ <- _; reflexivity. }
        pose proof (wr_sp _ _ _ _ _ _ _ _ _ HW') as S3. rewrite S2 in S3. apply omap_none in S3. exact S3. }
      split; [exact Hwp'|]. intros i pc Hrun r Hin. subst wp'.
      destruct Hrg as [[_ ->] | [_ ->]]; [apply (Hr i pc Hrun r Hin)|].
      pose proof (wr_regs _ _ _ _ _ _ _ _ _ HW) as R1. cbn [cur_regs] in R1. rewrite R1. reflexivity.
  Qed.

  Lemma finish_s la s a st hev rest stf cyc :
    RMs la s a st -> FInvS app hev a -> sks_complete a = true -> sexecm app labels st (hev :: rest) stf ->
    m4_finish s cyc = MDone (cyc + MemoryAccess * zlen (x_dt a)) stf.
  Proof.
    intros HR HF Hc HS.
    destruct HR as [a rg m l1d sc bu wp wc ce st HW Hdt Hi3 Hm8 Hce Hbytes Hunc Hrd].
    pose proof (completes_out app hev a HF Hc) as Hout.
    destruct (sexecm_out app labels _ _ _ _ HS Hout) as [-> _].
    unfold sks_complete in Hc. repeat (apply andb_prop in Hc as [Hc ?]).
    apply negb_true_iff in H, H0.
    assert (E1 : x_wp a = None) by (destruct (x_wp a); [discriminate | reflexivity]).
    assert (E2 : x_wc a = None) by (destruct (x_wc a); [discriminate | reflexivity]).
    rewrite E1, E2 in HW.
    pose proof (omap_none _ _ _ (wr_sp _ _ _ _ _ _ _ _ _ HW)). pose proof (omap_none _ _ _ (wr_sc _ _ _ _ _ _ _ _ _ HW)). subst wp wc.
    destruct (wr_empty_mem _ _ _ _ _ HW) as [Hregs HV].
    unfold m4_finish. cbn [s_l1d s_mem s_regs]. rewrite (flush_ok _ _ _ _ HV), Hdt. rewrite <- Hregs. destruct st; reflexivity.
  Qed.

  Lemma sks_drain_shift : forall fuel pw w wp wc c tick w3 c3 k,
    sks_drain fuel pw w wp wc c tick = Some (w3, c3) -> sks_drain fuel pw w wp wc (c + k) tick = Some (w3, c3 + k).
  Proof.
    induction fuel as [|f IH]; intros pw w wp wc c tick w3 c3 k; cbn [sks_drain]; [discriminate|].
    destruct (negb (wu_pending w) && negb (is_full wp) && negb (is_full wc)).
    - intros H. injection H as <- <-. reflexivity.
    - destruct (sks_wu pw w wp wc) as [[[pw' w'] wp'] wc']. intros H.
      destruct tick; [replace (c + k + 1) with (c + 1 + k) by lia|]; apply IH; exact H.
  Qed.

  Lemma sim_exec_s f a hev rest st stf fu1 l1i1 dbus2 ebus2 cyc rg m' d' sc' e2 wc bu i bytes :
    WR d' sc' st rg m' None wc None (x_wc a) -> x_wp a = None ->
    Forall int32 (regs st) -> Forall int8 (mem st) ->
    (forall r, In r (instr_ReadRegisters i) -> rget (regs st) r = rget rg r) ->
    0 <= ev_pc hev < 2147483644 -> nth_error app (Z.to_nat (ev_pc hev / 4)) = Some i ->
    bytes = map (mget (mem st)) (ev_la hev) ->
    eu_memory e2 = None -> eu_pending_read e2 = false ->
    (ev_la hev = [] -> exists bu0, bu = bu_assert bu0 i (ev_pc hev)) ->
    sexecm app labels st (hev :: rest) stf ->
    match sks_exec a fu1 l1i1 dbus2 ebus2 (eu_done e2) (s_rec sc') i (ev_pc hev) (hev :: rest) with
    | XStuck => True
    | XFin dc dt =>
        m4_tail f app labels (x_wu a) l1i1 fu1 dbus2 (cyc + 1)
                (eu_post (eu_run labels (mk_env rg m' (x_pw a) d' e2 (mk_sbus None wc) bu) i (ev_pc hev) bytes) ebus2)
        = MDone (cyc + dc + MemoryAccess * zlen dt) stf
    | XStep a' path' dc =>
        exists s' st',
          m4_tail f app labels (x_wu a) l1i1 fu1 dbus2 (cyc + 1)
                  (eu_post (eu_run labels (mk_env rg m' (x_pw a) d' e2 (mk_sbus None wc) bu) i (ev_pc hev) bytes) ebus2)
          = (if m4_is_complete s' then m4_finish s' (cyc + dc) else m4run f app labels s' (cyc + dc)) /\
          m4_is_complete s' = sks_complete a' /\ RMs (nla path') s' a' st' /\ sexecm app labels st' path' stf
    end.
  Proof.
    intros HW Hwp0 Hsi Hm8 Hread Hh Hi Hbytes Hem Hepr Hbu HS.
    destruct (wr_landed _ _ _ _ _ _ _ HW) as (msl & HV & _ & Hl). pose proof (wr_i1 _ _ _ _ _ _ _ _ _ HW) as Hri.
    assert (Hbu' : exists bu0, ev_la hev = [] -> bu = bu_assert bu0 i (ev_pc hev)).
    { destruct (ev_la hev) as [|x l]; [destruct (Hbu eq_refl) as [b Hb]; exists b; auto | exists bu; discriminate]. }
    clear Hbu. destruct Hbu' as [bu0 Hbu].
    destruct (sexecm_head app labels _ _ _ _ HS) as [Hev _].
    pose proof (ev_of_at app st (ev_pc hev) i Hi) as Hevi. rewrite <- Hev in Hevi.
    assert (Hla : ev_la hev = load_addrs (sinstr_of i) (rget (regs st))) by (rewrite Hevi; reflexivity).
    assert (Hsa : ev_sa hev = store_addrs (sinstr_of i) (rget (regs st))) by (rewrite Hevi; reflexivity).
    pose proof (exec_cases_m app labels Happ Hlab st rg (ev_pc hev) i bu0 Hh Hi Hri Hsi Hm8 Hread) as Hcases. cbv zeta in Hcases.
    rewrite <- Hla, <- Hbytes in Hcases.
    unfold sks_exec. rewrite Z.eqb_refl. cbn [negb].
    inversion HS as [? pc0 ? Hs Hp|? pc0 st' pc' rest' ? Hs Hsl1 Hsl2 HS' Hp]; subst.
    - (* the run halts here: ret *)
      cbn [ev_pc ev_of fst] in Hcases. rewrite Hs in Hcases. destruct Hcases as (-> & Hret & Hl0 & Hrun). rewrite Hret.
      rewrite Hl0 in Hrun |- *. cbn [map] in Hrun |- *.
      rewrite eu_run_ret by exact Hrun. rewrite Hwp0.
      destruct (sks_wu (x_pw a) (x_wu a) None (x_wc a)) as [[[pw2 w2] swp2] swc2] eqn:Ew.
      destruct (sks_drain drain_fuel pw2 w2 swp2 swc2 0 false) as [[w3 c3]|] eqn:Edr; [|exact I].
      cbn [eu_post m4_tail e_regs e_mem e_pw e_l1d e_eu e_wbus e_bu eo_ret eo_flush].
      destruct (wu_step _ _ _ _ _ _ _ _ _ _ _ _ _ _ _ HW Hsi Ew) as (rg' & m1 & wp' & wc' & Ewu & HW' & _). rewrite Ewu.
      pose proof (sks_drain_shift _ _ _ _ _ _ _ _ _ (cyc + 1) Edr) as Edr'. rewrite Z.add_0_l in Edr'.
      destruct (drain_sim _ _ _ _ _ _ _ _ _ _ _ _ _ _ _ _ HW' Hsi Edr') as (rg3 & m3 & pw3 & Ed & HW3).
      unfold drain_fuel in Ed. rewrite Ed.
      destruct (wr_empty_mem _ _ _ _ _ HW3) as [Hregs3 HV3].
      unfold m4_finish. cbn [s_l1d s_mem s_regs]. rewrite (flush_ok _ _ _ _ HV3).
      assert (Hc0 : c3 = 0).
      { clear - Edr. revert Edr. generalize drain_fuel pw2 w2 swp2 swc2.
        induction n as [|n IH]; intros pw w wp wc0; cbn [sks_drain]; [discriminate|].
        destruct (negb (wu_pending w) && negb (is_full wp) && negb (is_full wc0)); [intros H; injection H as _ <-; reflexivity|].
        destruct (sks_wu pw w wp wc0) as [[[? ?] ?] ?]. apply IH. }
      rewrite Hc0, <- Hregs3. destruct st as [r0 m0]; cbn [Seq.regs Seq.mem]. rewrite Z.add_0_l. reflexivity.
    - (* an instruction with a successor *)
      set (hev := ev_of app st pc0) in *. set (nxt := ev_of app st' pc') in *.
      cbn [ev_pc ev_of fst] in Hcases. fold hev in Hcases.
      change (ev_pc hev) with pc0 in *. rewrite Hs in Hcases.
      destruct Hcases as (Hret & Hin & e & Hrun & Hsi' & Hm8' & Hcase). rewrite Hret.
      assert (Hnext : 0 <= pc') by (destruct (sexecm_head app labels _ _ _ _ HS') as [_ Hx]; exact Hx).
      change (ev_pc nxt) with pc'.
      destruct Hcase as [(Hns & Hsa0 & Hr & Hm & Hit & Hrel & Hregs' & Hmem' & Hfl & Hnpc & Hpcl)
                        | (bs & -> & Hl0 & Hne & Hfst & Hinb & Hregs' & Hmem' & ->)].
      + (* not a store *)
        rewrite Hsa, Hsa0.
        rewrite (eu_run_reg_b _ _ _ _ _ _ _ _ _ _ _ _ Hrun Hr Hm).
        specialize (Hfl Hnext).
        assert (Hfl' : snd (flush_dec bu (embed e)) = sk_flush i pc0 pc').
        { rewrite <- Hfl. destruct (PcChange (embed e)) eqn:Epc.
          - rewrite (Hbu (Hpcl eq_refl)). reflexivity.
          - unfold flush_dec. rewrite Epc. reflexivity. }
        clear Hfl. rename Hfl' into Hfl.
        set (wr := instr_WriteRegisters i) in *.
        pose proof (wr_push_reg _ _ _ st' _ _ _ _ _ wr (nnil (x_l1 a)) HW Hit Hrel Hregs' Hmem') as HW1.
        unfold sks_next.
        destruct (sks_wu (pw_add (x_pw a) wr) (x_wu a) (Some (wr, [], nnil (x_l1 a))) (x_wc a)) as [[[pw2 w2] swp2] swc2] eqn:Ew.
        cbn [x_pw x_wu x_wp x_wc x_l1 x_l2].
        cbn [eu_post e_regs e_mem e_pw e_l1d e_eu e_wbus e_bu]. rewrite sbus_add_mk. rewrite Hfl.
        destruct (sk_flush i pc0 pc') eqn:Esf.
        * (* the pipeline is flushed: the write unit drains *)
          destruct (sks_drain drain_fuel pw2 w2 swp2 swc2 1 true) as [[w3 c3]|] eqn:Edr; [|exact I].
          unfold m4_tail. cbn [e_regs e_mem e_pw e_l1d e_eu e_wbus e_bu eo_ret eo_flush eo_pc].
          destruct (wu_step _ _ _ _ _ _ _ _ _ _ _ _ _ _ _ HW1 Hsi' Ew) as (rg' & m1 & wp' & wc' & Ewu & HW' & _).
          unfold wb_item in *. rewrite Ewu.
          pose proof (sks_drain_shift _ _ _ _ _ _ _ _ _ cyc Edr) as Edr'. replace (1 + cyc) with (cyc + 1) in Edr' by lia.
          destruct (drain_sim _ _ _ _ _ _ _ _ _ _ _ _ _ _ _ _ HW' Hsi' Edr') as (rg3 & m3 & pw3 & Ed & HW3).
          unfold drain_fuel in Ed. unfold wb_item in *. rewrite Ed. rewrite (Hnpc eq_refl).
          eexists _, st'. split; [|split; [|split; [|exact HS']]].
          -- replace (c3 + cyc) with (cyc + c3) by lia. symmetry. apply if_false_r. reflexivity.
          -- reflexivity.
          -- cbn [nla]. fold nxt.
             apply (RMs_intro (ev_la nxt)
                      (mk_sks (mk_fu pc' (fu_remaining fu1) false false) l1i1 sbus_empty sbus_empty (eu_done e2) zero_pw None None w3
                              (s_rec sc') [] (nnil (x_l1 a)))
                      rg3 m3 d' sc' _ None None (eu_done e2) st'); auto; try discriminate;
               try solve [intros b Hb; cbn in Hb; rewrite Hem in Hb; discriminate];
               try solve [intros Hp; cbn in Hp; rewrite Hepr in Hp; discriminate].
             apply eu_erase_id. exact Hem.
        * destruct (tail_step f cyc (ev_la nxt) st' rg m' (pw_add (x_pw a) wr) d' sc' (eu_done e2) (Some (embed e, wr)) wc
                              (fst (flush_dec bu (embed e))) fu1 l1i1 dbus2 ebus2 (x_wu a) _ _ pw2 w2 swp2 swc2 (eu_done e2) [] (nnil (x_l1 a))
                              HW1 Hsi' Hm8') as (s' & Et & Hc & HR'); auto.
          -- apply eu_erase_id. exact Hem.
          -- intros b Hb. cbn in Hb. rewrite Hem in Hb. discriminate.
          -- intros Hp. cbn in Hp. rewrite Hepr in Hp. discriminate.
          -- intros Hp. cbn in Hp. rewrite Hepr in Hp. discriminate.
          -- exists s', st'. split; [exact Et|]. split; [exact Hc|]. split; [exact HR' | exact HS'].
      + (* a store *)
        rewrite Hsa in Hsl2 |- *. rewrite <- Hfst in Hsl2 |- *.
        assert (Hcs : map fst bs = consec (hd 0 (map fst bs)) (length bs)).
        { rewrite <- (map_length fst bs). rewrite Hfst.
          apply (store_addrs_consec _ _ (mem st)); [rewrite <- Hfst; exact Hinb|].
          pose proof (v_small _ _ _ _ HV) as Hs0. unfold zlen in *. rewrite <- Hl. exact Hs0. }
        destruct (pc_next app Happ pc0 i ltac:(lia) Hi) as [Hpc4 _]. rewrite Hpc4, Z.eqb_refl. cbn [negb].
        assert (Hbytes0 : map (mget (mem st)) (ev_la hev) = []) by (rewrite Hl0; reflexivity).
        rewrite Hbytes0 in Hrun |- *.
        assert (Hwr0 : instr_WriteRegisters i = []).
        { apply (store_wr_nil i (rget (regs st))). rewrite <- Hfst. destruct bs; [congruence | discriminate]. }
        assert (Hex : exists s0 sa', map fst bs = s0 :: sa') by (destruct bs as [|[b0 v0] t0]; [congruence | cbn; eauto]).
        destruct Hex as (s0 & sa' & Emf).
        destruct (snd (a_get_all (s_rec sc') (map fst bs))) eqn:Ehit; rewrite Emf.
        * (* it hits in the L1D *)
          destruct (wr_store_hit _ _ _ st' _ _ _ _ bs HW Hne Hcs Hinb Hsl2 Ehit Hregs' Hmem')
            as (c1 & vs & v0 & t & c' & sc3 & Eg & Es & Ew & HW1 & Hr3).
          rewrite (eu_run_store_hit _ _ _ _ _ _ _ _ _ _ _ _ _ _ _ _ _ Hrun Eg Es Ew).
          unfold sks_next. rewrite Hwp0.
          destruct (sks_wu (x_pw a) (x_wu a) None (x_wc a)) as [[[pw2 w2] swp2] swc2] eqn:Ewu.
          cbn [eu_post e_regs e_mem e_pw e_l1d e_eu e_wbus e_bu].
          destruct (tail_step f cyc (ev_la nxt) st' rg m' (x_pw a) c' sc3 (eu_done e2) None wc
                              bu fu1 l1i1 dbus2 ebus2 (x_wu a) _ _ pw2 w2 swp2 swc2 (eu_done e2) (x_l1 a) (x_l2 a)
                              HW1 Hsi' Hm8') as (s' & Et & Hc & HR'); auto.
          -- apply eu_erase_id. exact Hem.
          -- intros b Hb. cbn in Hb. rewrite Hem in Hb. discriminate.
          -- intros Hp. cbn in Hp. rewrite Hepr in Hp. discriminate.
          -- intros Hp. cbn in Hp. rewrite Hepr in Hp. discriminate.
          -- rewrite Hr3, Emf in Hc, HR'. exists s', st'. split; [exact Et|]. split; [exact Hc|]. split; [exact HR' | exact HS'].
        * (* it misses: the store is put on the write bus *)
          destruct (wr_store_miss _ _ _ st' _ _ _ _ bs (nnil (x_l1 a)) HW Hne Hinb Hsl2 Ehit Hregs' Hmem')
            as (c1 & sc1 & Eg & HW1 & Hr1).
          rewrite (eu_run_store_miss _ _ _ _ _ _ _ _ _ _ _ _ Hrun Eg). rewrite Hwr0.
          unfold sks_next.
          change (pw_add (x_pw a) []) with (x_pw a).
          destruct (sks_wu (x_pw a) (x_wu a) (Some ([], s0 :: sa', nnil (x_l1 a))) (x_wc a)) as [[[pw2 w2] swp2] swc2] eqn:Ewu.
          cbn [eu_post e_regs e_mem e_pw e_l1d e_eu e_wbus e_bu]. rewrite sbus_add_mk.
          rewrite Emf in HW1.
          destruct (tail_step f cyc (ev_la nxt) st' rg m' (x_pw a) c1 sc1 (eu_done e2) (Some (embed (EStore bs), [])) wc
                              bu fu1 l1i1 dbus2 ebus2 (x_wu a) _ _ pw2 w2 swp2 swc2 (eu_done e2) (s0 :: sa') (nnil (x_l1 a))
                              HW1 Hsi' Hm8') as (s' & Et & Hc & HR'); auto.
          -- apply eu_erase_id. exact Hem.
          -- intros b Hb. cbn in Hb. rewrite Hem in Hb. discriminate.
          -- intros Hp. cbn in Hp. rewrite Hepr in Hp. discriminate.
          -- intros Hp. cbn in Hp. rewrite Hepr in Hp. discriminate.
          -- rewrite Hr1, Emf in Hc, HR'. exists s', st'. split; [exact Et|]. split; [exact Hc|]. split; [exact HR' | exact HS'].
  Qed.

  Lemma sim_pre_s f a hev rest cyc s st stf :
    RMs (ev_la hev) s a st -> FInvS app hev a -> ns_inv a (hev :: rest) -> sexecm app labels st (hev :: rest) stf ->
    match sks_pre app a (hev :: rest) with
    | XStuck => True
    | XFin dc dt => m4run (S f) app labels s cyc = MDone (cyc + dc + MemoryAccess * zlen dt) stf
    | XStep a' path' dc =>
        exists s' st',
          m4run (S f) app labels s cyc
          = (if m4_is_complete s' then m4_finish s' (cyc + dc) else m4run f app labels s' (cyc + dc)) /\
          m4_is_complete s' = sks_complete a' /\ RMs (nla path') s' a' st' /\ sexecm app labels st' path' stf
    end.
  Proof.
    intros HR HF Hns HS.
    destruct HR as [a rg m l1d sc bu wp wc ce st HW Hdt Hsi Hm8 Hce Hbytes Hunc Hrd].
    pose proof HF as [Hh _ _ _ Hok Hpr Hmiss HI2 _ HWI _].
    rewrite m4run_S. cbn [s_fu s_l1i s_dbus s_ebus s_regs s_mem s_pw s_l1d s_eu s_wbus s_bu s_wu].
    destruct (fu_cycle app (x_fu a) (x_l1i a) (x_dbus a)) as [[[fu1 l1i1] dbus1]| |] eqn:Ef;
      [|unfold sks_pre; rewrite Ef; exact I|unfold sks_pre; rewrite Ef; exact I].
    destruct (du_cycle app dbus1 (x_ebus a)) as [[dbus2 ebus1]| |] eqn:Ed;
      [|unfold sks_pre; rewrite Ef, Ed; exact I|unfold sks_pre; rewrite Ef, Ed; exact I].
    destruct (sks_eu (is_full (x_wp a)) (x_eu a) ebus1 (x_pw a) (x_dt a) (ev_la hev)) as [[[e1 ebus2] dt1] act] eqn:Ee.
    destruct (fronts_flow app Happ hev a _ _ _ _ _ _ _ _ _ HF Ef Ed Ee)
      as (_ & _ & Hnst & [n' Hq'] & Hent' & Hok1 & Hmiss1 & Hex & Hfull & Hwait).
    pose proof HW as [_ Hregs _ _ Hlen Hsp Hsc _ Hgc].
    pose proof (sexecm_head app labels _ _ _ _ HS) as [Hev Hpc0].
    destruct (eu_pending_read ce) eqn:Epr.
    - (* a load is in flight *)
      assert (Hprs : eu_pending_read (x_eu a) = true) by (rewrite <- Hce; exact Epr).
      pose proof (Hpr Hprs) as Hwp0.
      assert (Hwpn : wp = None) by (rewrite Hwp0 in Hsp; apply omap_none in Hsp; exact Hsp). subst wp.
      cbn [cur_regs] in Hregs.
      destruct (Hmiss Hprs) as [Hlane Haddrs].
      destruct (sexecm_loads app labels _ _ _ _ HS Hlane) as [Hin Hsl].
      assert (Ee' : skm_eu (eu_erase ce) ebus1 (x_pw a) (x_dt a) (ev_la hev) = (e1, ebus2, dt1, act)).
      { rewrite Hce. unfold sks_eu in Ee. rewrite Hprs, andb_false_r in Ee. exact Ee. }
      pose proof (eu_cycle_m_pending labels rg m (x_pw a) l1d ce (mk_sbus None wc) bu ebus1 (x_dt a) (ev_la hev) e1 ebus2 dt1 act Epr Ee') as Heu.
      destruct act as [|i pc|]; [| |congruence].
      + (* still waiting *)
        destruct Heu as (Eeu & He1 & Hd1 & Heb). subst e1 dt1 ebus2. rewrite Eeu.
        rewrite (sks_pre_none app a hev rest _ _ _ _ _ _ _ _ Ef Ed Ee). unfold sks_next.
        destruct (sks_wu (x_pw a) (x_wu a) (x_wp a) (x_wc a)) as [[[pw2 w2] swp2] swc2] eqn:Ew.
        rewrite Hwp0 in HW.
        destruct (tail_step f cyc (ev_la hev) st rg m (x_pw a) l1d sc (wait_eu ce) None wc bu fu1 l1i1 dbus2 ebus1 (x_wu a)
                            None (x_wc a) pw2 w2 swp2 swc2 (eu_erase (wait_eu ce)) (x_l1 a) (x_l2 a) HW Hsi Hm8 eq_refl)
          as (s' & Et & Hc & HR').
        * intros b Hb. apply Hbytes. exact Hb.
        * intros _ Hn. apply (Hunc eq_refl Hn).
        * intros _. split; [reflexivity|]. intros i pc Hrun r Hinr. apply (proj2 (Hrd eq_refl) i pc Hrun r Hinr).
        * rewrite <- Hwp0. exact Ew.
        * rewrite Hdt in Hc, HR'. exists s', st. split; [exact Et|]. split; [exact Hc|]. split; [exact HR' | exact HS].
      + (* the load completes and the instruction is executed *)
        destruct Heu as (Heb & He1 & Eeu). subst ebus2 e1. rewrite Eeu.
        destruct Hex as (_ & _ & Hdt1).
        cbn [act_q map snd List.app] in Hq', Hent'.
        destruct (fq_head app _ _ _ _ _ Hq') as (-> & mm & ->).
        inversion Hent' as [|x l [_ Hi] _]; subst x l. cbn [fst snd] in Hi.
        rewrite (sks_pre_exec_eq app a hev rest _ _ _ _ _ _ _ _ _ _ Ef Ed Ee).
        set (e2 := mk_eu (eu_processing ce) false (eu_addrs ce) None (eu_remaining ce - 1) (eu_runner ce)).
        rewrite Hwp0 in HW.
        assert (Hgot : exists d' sc' m', load_got l1d m ce = Ok (d', m', map (mget (mem st)) (ev_la hev)) /\
                         WR d' sc' st rg m' None wc None (x_wc a) /\ s_rec sc' = dt1).
        { unfold load_got. rewrite Hdt1. unfold dtal. rewrite Hprs.
          assert (Hme : eu_memory (x_eu a) = option_map (fun _ => []) (eu_memory ce)) by (rewrite <- Hce; reflexivity).
          rewrite Hme. destruct (eu_memory ce) as [bytes|] eqn:Em.
          - exists l1d, sc, m. rewrite (Hbytes bytes eq_refl). cbn [option_map]. auto.
          - cbn [option_map].
            assert (Ha : eu_addrs ce = ev_la hev) by (rewrite <- Haddrs; [rewrite <- Hce; reflexivity | rewrite Hme; reflexivity]).
            rewrite Ha. destruct (ev_la hev) as [|a0 t] eqn:Ela; [congruence|].
            assert (HI2' : forall y, x_wc a = Some y -> same_line_as (wi_sa y) (a0 :: t) = false).
            { intros y Hy. apply (HI2 Hprs); [rewrite Hme; reflexivity | exact Hy]. }
            destruct (wr_load_complete l1d sc st rg m wc (x_wc a) a0 t HW Hin Hsl (Hunc eq_refl eq_refl) HI2')
              as (c3 & sc3 & m3 & E3 & HW3 & Hr3).
            exists c3, sc3, m3. split; [exact E3|]. split; [exact HW3|]. rewrite Hr3, Hdt. reflexivity. }
        destruct Hgot as (d' & sc' & m' & -> & HW' & Hdt').
        rewrite <- Hdt'.
        replace (eu_done (mk_eu (eu_processing (eu_erase ce)) false (eu_addrs (eu_erase ce)) None (eu_remaining (eu_erase ce) - 1) (eu_runner (eu_erase ce))))
          with (eu_done e2) by reflexivity.
        apply (sim_exec_s f a hev rest st stf fu1 l1i1 dbus2 ebus1 cyc rg m' d' sc' e2 wc bu i _ HW' Hwp0 Hsi Hm8);
          auto; try discriminate.
        * assert (Hrun : eu_runner ce = Some (i, ev_pc hev)).
          { unfold skm_eu in Ee'. cbn [eu_erase eu_pending_read eu_remaining eu_runner] in Ee'. rewrite Epr in Ee'.
            destruct (negb (eu_remaining ce - 1 =? 0)); [discriminate|].
            destruct (eu_runner ce) as [[i0 pc0]|]; [|discriminate].
            assert (Ha : AExec i0 pc0 = AExec i (ev_pc hev)) by congruence. injection Ha as -> ->. reflexivity. }
          exact (proj2 (Hrd eq_refl) i (ev_pc hev) Hrun).
        * intros H0. congruence.
    - (* no load in flight *)
      assert (Hprs : eu_pending_read (x_eu a) = false) by (rewrite <- Hce; exact Epr).
      destruct Hok as (_ & _ & Hmem0).
      assert (Hmc : eu_memory ce = None) by (apply erase_mem_none; rewrite Hce; apply Hmem0; exact Hprs).
      assert (Hcee : x_eu a = ce) by (rewrite <- Hce; apply eu_erase_id; exact Hmc).
      pose proof (omap_full _ _ _ _ Hsp) as Hfw.
      destruct (is_full (x_wp a)) eqn:Efl.
      + (* the write bus is full: the execute unit stalls *)
        assert (Ee0 : sks_eu (is_full (x_wp a)) (x_eu a) ebus1 (x_pw a) (x_dt a) (ev_la hev) = (e1, ebus2, dt1, act))
          by (rewrite Efl; exact Ee).
        destruct wp as [xw|]; [|discriminate].
        rewrite Hcee in Ee.
        destruct (eu_cycle_s_full labels rg m (x_pw a) l1d ce (mk_sbus (Some xw) wc) bu ebus1 (x_dt a) (ev_la hev) e1 ebus2 dt1 act
                    Epr Hmc eq_refl Ee) as (Hact & Hd1 & Eeu & Hp1 & Hm1). subst act dt1.
        rewrite Eeu. rewrite (sks_pre_none app a hev rest _ _ _ _ _ _ _ _ Ef Ed Ee0). unfold sks_next.
        destruct (sks_wu (x_pw a) (x_wu a) (x_wp a) (x_wc a)) as [[[pw2 w2] swp2] swc2] eqn:Ew.
        destruct (tail_step f cyc (ev_la hev) st rg m (x_pw a) l1d sc e1 (Some xw) wc bu fu1 l1i1 dbus2 ebus2 (x_wu a)
                            (x_wp a) (x_wc a) pw2 w2 swp2 swc2 e1 (x_l1 a) (x_l2 a) HW Hsi Hm8) as (s' & Et & Hc & HR').
        * apply eu_erase_id. exact Hm1.
        * intros b Hb. rewrite Hm1 in Hb. discriminate.
        * intros Hp. rewrite Hp1 in Hp. discriminate.
        * intros Hp. rewrite Hp1 in Hp. discriminate.
        * exact Ew.
        * rewrite Hdt in Hc, HR'. exists s', st. split; [exact Et|]. split; [exact Hc|]. split; [exact HR' | exact HS].
      + assert (Ee0 : sks_eu (is_full (x_wp a)) (x_eu a) ebus1 (x_pw a) (x_dt a) (ev_la hev) = (e1, ebus2, dt1, act))
          by (rewrite Efl; exact Ee).
        assert (Hwp0 : x_wp a = None) by (destruct (x_wp a); [discriminate Efl | reflexivity]).
        destruct wp as [xw|]; [discriminate|].
        cbn [cur_regs] in Hregs.
        unfold sks_eu in Ee. cbn [andb] in Ee. rewrite Hcee in Ee.
        rewrite Hwp0 in HW.
        assert (Hpw : x_pw a = pwof (cur_wr wc)).
        { rewrite (w_pw _ _ _ _ _ _ HWI), Hwp0, (shape_wr wc (x_wc a) Hsc). reflexivity. }
        assert (Hrelc : forall x, wc = Some x -> wb_rel (fst x) (snd x)) by (intros x Hx; apply (Hgc x Hx)).
        assert (Hmr : forall i pc, hd_error (q_eu ce ++ q_sb ebus1) = Some (i, pc) ->
                  pw_hazard (x_pw a) (instr_ReadRegisters i) = false -> instr_MemoryRead i (rget rg) 0 = ev_la hev).
        { intros i pc Hhd Hhz. rewrite <- Hcee in Hhd.
          destruct (head_entry_s app Happ hev a _ _ _ _ _ i pc HF Ef Ed Hhd) as [-> Hi].
          rewrite memory_read_exact.
          pose proof (reads_agree_s (x_pw a) rg wc st i Hlen Hpw Hrelc Hregs Hhz) as Hread.
          rewrite read_registers_exact in Hread.
          destruct (spec_reads_sound (sinstr_of i) (rget (regs st)) (rget rg) labels 0 [] Hread) as (_ & Hla & _).
          rewrite <- Hla. rewrite Hev, (ev_of_at app st (ev_pc hev) i Hi). reflexivity. }
        assert (Hga : exists d1 sc1, ev_la hev <> [] ->
                  get_all l1d (ev_la hev) [] =
                    Ok (d1, if snd (a_get_all (x_dt a) (ev_la hev)) then Some (map (mget (mem st)) (ev_la hev)) else None) /\
                  WR d1 sc1 st rg m None wc None (x_wc a) /\ s_rec sc1 = fst (a_get_all (x_dt a) (ev_la hev)) /\
                  (snd (a_get_all (x_dt a) (ev_la hev)) = false -> forall x, In x (ev_la hev) -> view sc1 x = None)).
        { destruct (ev_la hev) as [|a0 t] eqn:Ela.
          - exists l1d, sc. intros H0. congruence.
          - destruct (sexecm_loads app labels _ _ _ _ HS ltac:(rewrite Ela; discriminate)) as [Hin Hsl]. rewrite Ela in Hin, Hsl.
            destruct (wr_load_issue l1d sc st rg m wc (x_wc a) a0 t HW Hin Hsl) as (c1 & sc1 & Eg & HW1 & Hr1 & Hu).
            rewrite Hdt in Eg, Hr1, Hu. exists c1, sc1. intros _. auto. }
        destruct Hga as (d1 & sc1 & Hga).
        pose proof (eu_cycle_m_idle labels rg m (x_pw a) l1d ce (mk_sbus None wc) bu ebus1 (x_dt a) (ev_la hev) d1 (map (mget (mem st)) (ev_la hev))
                      e1 ebus2 dt1 act Epr Hmc eq_refl Hmr (fun H0 => proj1 (Hga H0)) Ee) as Heu.
        destruct act as [|i pc|]; [| |congruence].
        * (* nothing executed *)
          destruct Heu as (bu' & ce1 & l1d' & Eeu & Her & Hcase). rewrite Eeu.
          rewrite (sks_pre_none app a hev rest _ _ _ _ _ _ _ _ Ef Ed Ee0). unfold sks_next.
          destruct (sks_wu (x_pw a) (x_wu a) (x_wp a) (x_wc a)) as [[[pw2 w2] swp2] swc2] eqn:Ew.
          rewrite Hwp0 in Ew.
          destruct Hcase as [(-> & -> & Hp1 & Hm1) | (Hlane & -> & -> & Hp1 & Hm1)].
          -- destruct (tail_step f cyc (ev_la hev) st rg m (x_pw a) l1d sc ce1 None wc bu' fu1 l1i1 dbus2 ebus2 (x_wu a)
                                 None (x_wc a) pw2 w2 swp2 swc2 e1 (x_l1 a) (x_l2 a) HW Hsi Hm8 Her) as (s' & Et & Hc & HR').
             ++ intros b Hb. rewrite Hm1, Hmc in Hb. discriminate.
             ++ intros Hp. rewrite Hp1 in Hp. discriminate.
             ++ intros Hp. rewrite Hp1 in Hp. discriminate.
             ++ exact Ew.
             ++ rewrite Hdt in Hc, HR'. exists s', st. split; [exact Et|]. split; [exact Hc|]. split; [exact HR' | exact HS].
          -- destruct (Hga Hlane) as (_ & HW1 & Hr1 & Hu1).
             destruct (tail_step f cyc (ev_la hev) st rg m (x_pw a) d1 sc1 ce1 None wc bu' fu1 l1i1 dbus2 ebus2 (x_wu a)
                                 None (x_wc a) pw2 w2 swp2 swc2 e1 (x_l1 a) (x_l2 a) HW1 Hsi Hm8 Her) as (s' & Et & Hc & HR').
             ++ intros b Hb. rewrite Hm1 in Hb. destruct (snd (a_get_all (x_dt a) (ev_la hev))); [|rewrite Hmc in Hb; discriminate].
                injection Hb as <-. reflexivity.
             ++ intros _ Hn. rewrite Hm1 in Hn. destruct (snd (a_get_all (x_dt a) (ev_la hev))); [discriminate|]. apply Hu1. reflexivity.
             ++ intros _. split; [reflexivity|]. intros i pc Hrun r Hinr.
                assert (Hp1' : eu_pending_read e1 = true) by (rewrite <- Her; exact Hp1).
                destruct (skm_eu_issue ce ebus1 (x_pw a) (x_dt a) (ev_la hev) e1 ebus2 _ Epr Ee Hp1') as (i' & pc' & Hr' & _ & Hhz).
                rewrite <- Her in Hr'. cbn [eu_erase eu_runner] in Hr'. rewrite Hrun in Hr'. injection Hr' as <- <-.
                apply (reads_agree_s (x_pw a) rg wc st i Hlen Hpw Hrelc Hregs Hhz r Hinr).
             ++ exact Ew.
             ++ rewrite Hr1 in Hc, HR'. exists s', st. split; [exact Et|]. split; [exact Hc|]. split; [exact HR' | exact HS].
        * (* (i, pc) is executed directly: it does not load *)
          destruct Heu as (Hla0 & -> & e2 & -> & Hhz & Hhd & Eeu). rewrite Eeu.
          rewrite <- Hcee in Hhd. destruct (head_entry_s app Happ hev a _ _ _ _ _ i pc HF Ef Ed Hhd) as [-> Hi].
          rewrite (sks_pre_exec_eq app a hev rest _ _ _ _ _ _ _ _ _ _ Ef Ed Ee0).
          destruct Hex as (_ & Hpe & _). rewrite <- Hdt.
          destruct Hok1 as (_ & _ & Hm2). specialize (Hm2 Hpe).
          apply (sim_exec_s f a hev rest st stf fu1 l1i1 dbus2 ebus2 cyc rg m l1d sc e2 wc (bu_assert bu i (ev_pc hev)) i []
                   HW Hwp0 Hsi Hm8); auto.
          -- apply (reads_agree_s (x_pw a) rg wc st i Hlen Hpw Hrelc Hregs Hhz).
          -- rewrite Hla0. reflexivity.
          -- intros _. exists bu. reflexivity.
  Qed.

  Lemma sim_step_s f a hev rest cyc s st stf :
    RMs (ev_la hev) s a st -> FInvS app hev a -> evs_wf app (hev :: rest) -> ns_inv a (hev :: rest) ->
    sexecm app labels st (hev :: rest) stf ->
    match sks_cycle app a (hev :: rest) with
    | XStuck => True
    | XFin dc dt => m4run (S f) app labels s cyc = MDone (cyc + dc + MemoryAccess * zlen dt) stf
    | XStep a' path' dc =>
        exists s' st', m4run (S f) app labels s cyc = m4run f app labels s' (cyc + dc) /\
                       RMs (nla path') s' a' st' /\ sexecm app labels st' path' stf
    end.
  Proof.
    intros HR HF Hwf Hns HS. pose proof (sim_pre_s f a hev rest cyc s st stf HR HF Hns HS) as Hpre.
    unfold sks_cycle. destruct (sks_pre app a (hev :: rest)) as [a2 p dc|dc dt|] eqn:Ep; [|exact Hpre|exact I].
    destruct Hpre as (s' & st' & E & Hc & HR' & HS').
    destruct (finvs_step app Happ hev rest a a2 p dc HF Hwf Hns Ep) as (hev' & rest' & -> & HF' & _).
    rewrite E, Hc. destruct (sks_complete a2) eqn:Ec.
    - apply (finish_s _ _ _ _ hev' rest' _ _ HR' HF' Ec HS').
    - eexists _, st'. split; [reflexivity|]. split; assumption.
  Qed.

  Lemma sim_run_s : forall fuel a hev rest cyc s st stf c,
    RMs (ev_la hev) s a st -> FInvS app hev a -> evs_wf app (hev :: rest) -> ns_inv a (hev :: rest) ->
    sexecm app labels st (hev :: rest) stf ->
    sks_run fuel app a (hev :: rest) cyc = Some c ->
    m4run fuel app labels s cyc = MDone c stf.
  Proof.
    induction fuel as [|f IH]; intros a hev rest cyc s st stf c HR HF Hwf Hns HS H; [discriminate|].
    cbn [sks_run] in H.
    pose proof (sim_step_s f a hev rest cyc s st stf HR HF Hwf Hns HS) as Hsim.
    destruct (sks_cycle app a (hev :: rest)) as [a' path' dc|dc dt|] eqn:Ec; [| |discriminate].
    - destruct Hsim as (s' & st1 & -> & HR' & HS').
      assert (Epre : sks_pre app a (hev :: rest) = XStep a' path' dc).
      { unfold sks_cycle in Ec. destruct (sks_pre app a (hev :: rest)) as [a2 p d|d t|]; try discriminate.
        destruct (sks_complete a2); [discriminate | exact Ec]. }
      destruct (finvs_step app Happ hev rest a a' path' dc HF Hwf Hns Epre) as (hev' & rest' & -> & HF' & Hwf' & Hns' & _).
      eapply IH; eassumption.
    - injection H as <-. exact Hsim.
  Qed.

  Lemma init_finvs c0 hev : IInv c0 -> 0 <= ev_pc hev < 2147483644 -> ev_pc hev = 0 -> FInvS app hev (sks_init c0).
  Proof.
    intros HI Hh H0. constructor;
      cbn [sks_init x_fu x_l1i x_dbus x_ebus x_eu x_pw x_wp x_wc x_wu x_dt x_l1 x_l2 fu_processing eu_processing eu_pending_read eu_memory].
    - exact Hh.
    - exists O. rewrite H0. constructor; cbn [fu_complete fu_pc]; try discriminate; try lia; reflexivity.
    - constructor.
    - discriminate.
    - unfold eu_ok. cbn [eu_processing eu_pending_read eu_memory]. repeat split; auto; discriminate.
    - discriminate.
    - discriminate.
    - discriminate.
    - exact HI.
    - apply winv_empty. reflexivity.
    - cbn. lia.
  Qed.

  (* the whole run, without the termination argument: whenever the skeleton (a function
     of program and events) ends in c cycles, so does the model, in the final state of
     the sequential run *)
  Theorem sim_cost_s st rest stf fuel c :
    Forall int32 (regs st) -> Forall int8 (mem st) -> (length (regs st) <= 32)%nat -> mem_small st ->
    sexecm app labels st (ev_of app st 0 :: rest) stf -> evs_wf app (ev_of app st 0 :: rest) ->
    no_stale [] [] false (ev_of app st 0 :: rest) = true ->
    mvp4_cost_sm fuel app (ev_of app st 0 :: rest) = Some c ->
    mvp4_run fuel app labels st = MDone c stf.
  Proof.
    intros Hri Hm8 Hlen Hsm HS Hwf Hns Hc.
    destruct init_caches as (c0 & E0 & HI0 & HD0 & Hl0).
    unfold mvp4_cost_sm in Hc. rewrite E0 in Hc. unfold mvp4_run. rewrite E0.
    eapply sim_run_s; [| | exact Hwf | | exact HS | exact Hc].
    - destruct st as [rg mm]. cbn [regs mem] in *.
      apply (RMs_intro (ev_la (ev_of app (mk_arch rg mm) 0)) (sks_init c0) rg mm c0 (s_new 64 1024) (mk_bu false 0) None None
                       (mk_eu false false [] None 0 None) (mk_arch rg mm)); auto; try discriminate.
      constructor; cbn [regs mem cur_regs papply sks_init x_wp x_wc option_map]; auto; try discriminate.
      exists mm. split; [apply init_VInv; assumption | reflexivity].
    - apply init_finvs; [exact HI0 | cbn; lia | reflexivity].
    - apply ns_inv_intro; [reflexivity | exact Hns].
  Qed.
End SimS.
