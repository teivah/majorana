(* Theorems about the MVP-4 model (Mvp4.v, the five-stage in-order pipeline) on
   register-only programs: it computes the sequential result (C01), in a number
   of cycles that depends on the program and the path only (C12), at least one
   cycle per executed instruction, and terminates within a bound that is linear
   in the number of executed instructions, without panic (C07).

   Structure: Mvp4Skel.v (skeleton = control state without values, driven by the
   path), Mvp4Inv.v/Mvp4Units.v/Mvp4Front.v (the skeleton keeps its invariant and
   makes progress), Mvp4Sim.v (model = skeleton + sequential values, cycle for
   cycle).  Here the pieces are put together: SkelRun.v turns invariant, progress
   and the one-cycle simulation into "the run is a function of the path"
   (mvp4_run_path), and the theorems of Props/C01_mvp4.v are what follows from
   that for any machine (Section PathResults, used for MVP-5 as well). *)
From Coq Require Import ZArith List Bool Lia.
From Maj Require Import Base.Outcome Base.GoInt Base.GoTypes Isa.Spec Isa.Embed Isa.Seq Isa.Refine.
From Maj Require Import Gen.Latency Gen.RiscTables Gen.Opcodes Comp.Cache Comp.CacheProofs.
From Maj Require Import Mvp.Mvp12 Mvp.Mvp12Proofs Mvp.Mvp3 Mvp.Mvp3Proofs Mvp.Mvp4 Mvp.SkelRun Mvp.Mvp4Skel Mvp.Mvp4Inv Mvp.Mvp4Units
     Mvp.Mvp4Front Mvp.Mvp4Sim.
Import ListNotations.
Open Scope Z_scope.

Lemma flush_lines_ge ls : forall mem c0 mem' c, flush_lines ls mem c0 = Ok (mem', c) -> c0 <= c.
Proof.
  induction ls as [|l t IH]; intros mem c0 mem' c H; cbn [flush_lines] in H.
  - injection H as _ <-. lia.
  - apply bind_ok in H as (m1 & _ & H). apply IH in H. unfold MemoryAccess in H. lia.
Qed.

(* m4_finish and m5_finish *)
Lemma finish_ge ls mem rg cyc c st :
  match flush_lines ls mem 0 with Ok (mem', c0) => MDone (cyc + c0) (mk_arch rg mem') | _ => MPanic end = MDone c st ->
  cyc <= c.
Proof.
  destruct (flush_lines ls mem 0) as [[mem' c0]| |] eqn:E; try discriminate.
  intros H. injection H as <- _. apply flush_lines_ge in E. lia.
Qed.

Lemma drain_ge fuel : forall regs mem pw w wbus cyc tick regs' mem' pw' w' wbus' cyc',
  m4_drain fuel regs mem pw w wbus cyc tick = Ok (regs', mem', pw', w', wbus', cyc') -> cyc <= cyc'.
Proof.
  induction fuel as [|f IH]; intros regs mem pw w wbus cyc tick regs' mem' pw' w' wbus' cyc' H; cbn [m4_drain] in H; [discriminate|].
  destruct (negb (wu_pending w) && sbus_is_empty wbus).
  - injection H as _ _ _ _ _ <-. lia.
  - apply bind_ok in H as ([[[[r1 m1] p1] w1] b1] & _ & H). apply IH in H. destruct tick; lia.
Qed.

Lemma m4run_iter app labels s cyc :
  (exists r, (forall f, m4run (S f) app labels s cyc = r) /\ forall c st, r = MDone c st -> cyc + 1 <= c) \/
  (exists s' cyc', cyc + 1 <= cyc' /\ forall f, m4run (S f) app labels s cyc = m4run f app labels s' cyc').
Proof.
  cbn [m4run].
  destruct (fu_cycle app (s_fu s) (s_l1i s) (s_dbus s)) as [[[fu1 l1i1] dbus1]| |]; [|run_ends..].
  destruct (du_cycle app dbus1 (s_ebus s)) as [[dbus2 ebus1]| |]; [|run_ends..].
  destruct (eu_cycle labels _ ebus1) as [[[[env1 ebus2] o]| |]|]; [|run_ends..].
  destruct (wu_cycle _ _ _ _ _) as [[[[[regs2 mem2] pw2] wu2] wbus2]| |]; [|run_ends..].
  destruct (eo_ret o).
  { destruct (m4_drain _ _ _ _ _ _ _ _) as [[[[[[regs3 mem3] pw3] wu3] wbus3] cycle3]| |] eqn:Ed; [|run_ends..].
    run_ends. intros c st H. apply drain_ge in Ed. apply finish_ge in H. lia. }
  destruct (eo_flush o).
  { destruct (m4_drain _ _ _ _ _ _ _ _) as [[[[[[regs3 mem3] pw3] wu3] wbus3] cycle3]| |] eqn:Ed; [|run_ends..].
    right. do 2 eexists. split; [|reflexivity]. apply drain_ge in Ed. lia. }
  destruct (m4_is_complete _).
  - run_ends. intros c st H. apply finish_ge in H. lia.
  - right. do 2 eexists. split; [|reflexivity]. lia.
Qed.

Theorem mvp4_cycles_at_least_one fuel app labels st c st' :
  mvp4_run fuel app labels st = MDone c st' -> 1 <= c.
Proof.
  unfold mvp4_run. destruct (new_cache l1LineSize l1Size) as [ci| |]; try discriminate.
  intros H. apply (fuel_run_ge _ (fun f => m4run f app labels) (fun _ _ => eq_refl) (m4run_iter app labels)) in H. lia.
Qed.

Lemma mvp4_run_more app labels fuel k st c st' :
  mvp4_run fuel app labels st = MDone c st' -> mvp4_run (fuel + k) app labels st = MDone c st'.
Proof.
  unfold mvp4_run. destruct (new_cache l1LineSize l1Size) as [ci| |]; try discriminate.
  apply (fuel_run_more _ (fun f => m4run f app labels) (fun _ _ => eq_refl) (m4run_iter app labels)).
Qed.

Definition fuel_bound (n : nat) : nat := ((n + 1) * Kstep)%nat.

Lemma fuel_bound_mono n n' : (n <= n')%nat -> (fuel_bound n <= fuel_bound n')%nat.
Proof. intros H. apply Nat.mul_le_mono_r. lia. Qed.

(* fuel_bound n suffices for a skeleton run over n instructions from potential p *)
Lemma fuel_bound_enough p n n' : 0 <= p <= phi_max -> (n <= n')%nat -> (Z.to_nat p + n * Kstep < fuel_bound n')%nat.
Proof. intros Hp Hn. pose proof (fuel_bound_mono n n' Hn). unfold fuel_bound, Kstep in *. lia. Qed.

Section Top4.
  Variables (app : list instr) (labels : Z -> option Z).
  Hypothesis Happ : wf_app app.
  Hypothesis Hlab : wf_labels labels.
  Hypothesis Hreg : reg_only app = true.
  Let sp := map sinstr_of app.

  (* the sequential run, as a path *)
  Lemma run_sexec : forall fuel st pc tr st' tr',
    Seq.run fuel sp labels st pc tr = Done st' tr' ->
    exists rest, seq_path fuel sp labels st pc = pc :: rest /\
      sexec app labels st (pc :: rest) st' /\
      (length tr + length rest <= length tr' <= length tr + length rest + 1)%nat.
  Proof.
    induction fuel as [|f IH]; intros st pc tr st' tr' H; [discriminate|].
    cbn [Seq.run seq_path] in *. destruct (Seq.step sp labels st pc) as [st1 pc1|st1|e] eqn:Es; [| |discriminate].
    - destruct (IH _ _ _ _ _ H) as (rest & Hp & Hs & Hl). rewrite Hp.
      exists (pc1 :: rest). split; [reflexivity|]. split; [eapply SE_next; eassumption|].
      cbn [length] in *. lia.
    - destruct (fetch sp pc) as [si|] eqn:Ef; injection H as <- <-; exists []; (split; [reflexivity|]);
        (split; [apply SE_halt; exact Es|]); cbn [length]; lia.
  Qed.

  Lemma step_class st pc : 0 <= pc ->
    match Seq.step sp labels st pc with
    | Halt _ => match nth_error app (Z.to_nat (pc / 4)) with Some i => is_ret i = true | None => True end
    | Next _ _ => exists i, nth_error app (Z.to_nat (pc / 4)) = Some i /\ is_ret i = false
    | Fail _ => True
    end.
  Proof.
    intros Hpc. unfold sp. destruct (nth_error app (Z.to_nat (pc / 4))) as [i|] eqn:Hi.
    - rewrite (step_nomem app labels Hreg st pc i Hpc Hi).
      destruct (exec (sinstr_of i) (rget (regs st)) labels pc []) as [e|err|] eqn:Ee; try exact I.
      pose proof (exec_return_is_ret _ _ _ _ _ _ Ee) as Hret.
      assert (Hnr : e <> EReturn -> exists i0, Some i = Some i0 /\ is_ret i0 = false).
      { intros Hne. exists i. split; [reflexivity|]. destruct (is_ret i); [|reflexivity]. exfalso. apply Hne, Hret. reflexivity. }
      destruct e; try (apply Hnr; discriminate).
      + destruct (negb _); [exact I | apply Hnr; discriminate].
      + apply Hret. reflexivity.
    - assert (Hout : nlen app <= pc / 4).
      { apply nth_error_None in Hi. unfold nlen. pose proof (Z.div_pos pc 4 Hpc ltac:(lia)). lia. }
      rewrite (step_out app labels st pc Hpc Hout). exact I.
  Qed.

  Lemma sexec_path_wf st path stf : sexec app labels st path stf -> path_below path = true -> path_wf app path.
  Proof.
    induction 1 as [st pc st' Hs | st pc st' pc' rest stf Hs HS IH]; intros Hb;
      cbn [path_below forallb] in Hb; apply andb_prop in Hb as [Hb1 Hb2]; apply Z.ltb_lt in Hb1.
    - assert (Hpc : 0 <= pc) by (eapply sexec_head_nonneg; eapply SE_halt; eassumption).
      pose proof (step_class st pc Hpc) as Hc. unfold sp in Hc. rewrite Hs in Hc. cbn [path_wf]. split; [lia | exact Hc].
    - assert (Hpc : 0 <= pc) by (eapply sexec_head_nonneg; eapply SE_next; eassumption).
      pose proof (step_class st pc Hpc) as Hc. unfold sp in Hc. rewrite Hs in Hc. cbn [path_wf]. split; [lia|]. split; [exact Hc|].
      apply IH. exact Hb2.
  Qed.

  Lemma init_finv c0 : IInv c0 -> FInv app 0 (sk_init c0).
  Proof.
    intros HI. constructor; cbn [sk_init k_fu k_l1i k_dbus k_ebus k_eu k_pw k_wb fu_processing eu_processing eu_pending_read];
      auto; try discriminate; try lia.
    - exists O. constructor; cbn [fu_complete fu_pc]; try discriminate; try lia; reflexivity.
    - constructor.
  Qed.

  (* the run of the model as a function of the path *)
  Theorem mvp4_run_path fuel st st' tr :
    inv (regs st) (mem st) -> (length (regs st) <= 32)%nat ->
    seq_run fuel sp labels st = Done st' tr ->
    path_below (seq_path fuel sp labels st 0) = true ->
    exists c, (forall fuel', (fuel_bound (length tr) <= fuel')%nat ->
                 mvp4_run fuel' app labels st = MDone c st' /\
                 mvp4_cost fuel' app (seq_path fuel sp labels st 0) = Some c) /\
              Z.of_nat (length tr) <= c <= 2 * Z.of_nat (fuel_bound (length tr)).
  Proof.
    intros [Hri _] Hlen Hrun Hb. unfold seq_run in Hrun.
    destruct (run_sexec fuel st 0 [] st' tr Hrun) as (rest & Hp & HS & Hl).
    rewrite Hp in *. pose proof (sexec_path_wf _ _ _ HS Hb) as Hwf.
    destruct init_caches as (c0 & E0 & HI0 & _ & Hl0).
    pose proof (init_finv c0 HI0) as HF0.
    assert (Hrest : (length rest <= length tr)%nat) by (cbn [length] in Hl; lia).
    destruct st as [rg mm]. cbn [regs mem] in *.
    assert (HR0 : R (mk_m4 rg mm zero_pw c0 c0 (mk_fu 0 0 false false) sbus_empty sbus_empty
                           (mk_eu false false [] None 0 None) sbus_empty (mk_wu false 0) (mk_bu false 0))
                    (sk_init c0) (mk_arch rg mm)).
    { apply (R_intro (sk_init c0) rg c0 0 (mk_bu false 0) None (mk_arch rg mm) Hl0). constructor; auto; discriminate. }
    destruct (grun_run _ _ (sk_cyc app) (FInv app) (path_wf app) phi phi_max (finv_step app Happ) (sk_progress app Happ)
                (sk_cycle_dc app) (phi_bounds app) Kstep eq_refl _ (fun f => m4run f app labels) R (sexec app labels)
                (sim_step app labels Happ Hlab Hreg) (fuel_bound (length tr)) _ 0 rest _ _ st' HF0 Hwf HR0 HS
                (fuel_bound_enough _ _ _ (phi_bounds app 0 _ HF0) Hrest)) as (c & Hc & Hcb).
    exists c. split; [|cbn [length] in Hcb, Hl; lia].
    intros fuel' Hf. unfold mvp4_run, mvp4_cost. rewrite E0, sk_run_grun. exact (Hc fuel' Hf).
  Qed.
End Top4.

(* what follows from "the run is a function of the path" alone, whatever the
   machine and its fuel bound (here MVP-4 and MVP-5 with fuel_bound): the statements
   of Props/C01_mvp4.v and Props/C01_mvp5.v *)

Section PathResults.
  Variables (app : list instr) (labels : Z -> option Z).
  Variable run : nat -> list instr -> (Z -> option Z) -> arch -> mres.
  Variable cost : nat -> list instr -> list Z -> option Z.
  Variable bound : nat -> nat.
  Let sp := map sinstr_of app.

  Hypothesis run_more : forall fuel k st c st',
    run fuel app labels st = MDone c st' -> run (fuel + k)%nat app labels st = MDone c st'.
  Hypothesis run_ge1 : forall fuel st c st', run fuel app labels st = MDone c st' -> 1 <= c.
  Hypothesis bound_mono : forall n n', (n <= n')%nat -> (bound n <= bound n')%nat.
  Hypothesis run_path : forall fuel st st' tr,
    inv (regs st) (mem st) -> (length (regs st) <= 32)%nat ->
    seq_run fuel sp labels st = Done st' tr ->
    path_below (seq_path fuel sp labels st 0) = true ->
    exists c, (forall fuel', (bound (length tr) <= fuel')%nat ->
                 run fuel' app labels st = MDone c st' /\ cost fuel' app (seq_path fuel sp labels st 0) = Some c) /\
              Z.of_nat (length tr) <= c <= 2 * Z.of_nat (bound (length tr)).

  (* C01: the pipeline computes the sequential result (registers AND memory),
     no error, no panic; explicit fuel *)
  Theorem path_refines_seq fuel st st' tr :
    inv (regs st) (mem st) -> (length (regs st) <= 32)%nat ->
    seq_run fuel sp labels st = Done st' tr ->
    path_below (seq_path fuel sp labels st 0) = true ->
    exists c, forall fuel', (bound (length tr) <= fuel')%nat -> run fuel' app labels st = MDone c st'.
  Proof using run_path.
    intros Hinv Hlen Hrun Hb. destruct (run_path fuel st st' tr Hinv Hlen Hrun Hb) as (c & Hc & _).
    exists c. intros fuel' Hf. apply Hc. exact Hf.
  Qed.

  (* whenever the model finishes (with whatever fuel), the result is the sequential
     one and at least one cycle per executed instruction was counted *)
  Theorem path_cycles_lower_bound fuel st st' tr fuel' c st'' :
    inv (regs st) (mem st) -> (length (regs st) <= 32)%nat ->
    seq_run fuel sp labels st = Done st' tr ->
    path_below (seq_path fuel sp labels st 0) = true ->
    run fuel' app labels st = MDone c st'' ->
    st'' = st' /\ 1 <= c /\ Z.of_nat (length tr) <= c.
  Proof using run_more run_ge1 run_path.
    intros Hinv Hlen Hrun Hb H. destruct (run_path fuel st st' tr Hinv Hlen Hrun Hb) as (c0 & Hc & Hlb).
    destruct (Hc (fuel' + bound (length tr))%nat (Nat.le_add_l _ _)) as [H0 _].
    rewrite (run_more _ _ _ _ _ H) in H0. injection H0 as -> ->.
    split; [reflexivity|]. split; [|exact (proj1 Hlb)]. eapply run_ge1. exact H.
  Qed.

  (* C12: the cycle count is a function of the program and the path *)
  Theorem path_cycles_function fuel st st' tr :
    inv (regs st) (mem st) -> (length (regs st) <= 32)%nat ->
    seq_run fuel sp labels st = Done st' tr ->
    path_below (seq_path fuel sp labels st 0) = true ->
    forall fuel', (bound (length tr) <= fuel')%nat ->
    exists c, cost fuel' app (seq_path fuel sp labels st 0) = Some c /\ run fuel' app labels st = MDone c st'.
  Proof using run_path.
    intros Hinv Hlen Hrun Hb fuel' Hf. destruct (run_path fuel st st' tr Hinv Hlen Hrun Hb) as (c & Hc & _).
    exists c. destruct (Hc fuel' Hf). auto.
  Qed.

  Theorem path_value_independent fuel st1 st2 st1' st2' tr1 tr2 :
    inv (regs st1) (mem st1) -> (length (regs st1) <= 32)%nat ->
    inv (regs st2) (mem st2) -> (length (regs st2) <= 32)%nat ->
    seq_run fuel sp labels st1 = Done st1' tr1 ->
    seq_run fuel sp labels st2 = Done st2' tr2 ->
    seq_path fuel sp labels st1 0 = seq_path fuel sp labels st2 0 ->
    path_below (seq_path fuel sp labels st1 0) = true ->
    exists c, forall fuel', (bound (Nat.max (length tr1) (length tr2)) <= fuel')%nat ->
      run fuel' app labels st1 = MDone c st1' /\ run fuel' app labels st2 = MDone c st2'.
  Proof using bound_mono run_path.
    intros I1 L1 I2 L2 R1 R2 Hp Hb.
    destruct (run_path fuel st1 st1' tr1 I1 L1 R1 Hb) as (c1 & Hc1 & _).
    rewrite Hp in Hb. destruct (run_path fuel st2 st2' tr2 I2 L2 R2 Hb) as (c2 & Hc2 & _).
    exists c1. intros fuel' Hf.
    pose proof (bound_mono _ _ (Nat.le_max_l (length tr1) (length tr2))) as Hf1.
    pose proof (bound_mono _ _ (Nat.le_max_r (length tr1) (length tr2))) as Hf2.
    destruct (Hc1 fuel' (Nat.le_trans _ _ _ Hf1 Hf)) as [H1 K1]. destruct (Hc2 fuel' (Nat.le_trans _ _ _ Hf2 Hf)) as [H2 K2].
    rewrite Hp in K1. rewrite K1 in K2. injection K2 as <-. auto.
  Qed.

  (* C07: termination within a bound linear in the number of executed instructions,
     no panic, no error; the cycle count is bounded as well *)
  Theorem path_terminates fuel st st' tr :
    inv (regs st) (mem st) -> (length (regs st) <= 32)%nat ->
    seq_run fuel sp labels st = Done st' tr ->
    path_below (seq_path fuel sp labels st 0) = true ->
    exists c, run (bound (length tr)) app labels st = MDone c st' /\
              Z.of_nat (length tr) <= c <= 2 * Z.of_nat (bound (length tr)).
  Proof using run_path.
    intros Hinv Hlen Hrun Hb. destruct (run_path fuel st st' tr Hinv Hlen Hrun Hb) as (c & Hc & Hcb).
    exists c. split; [apply Hc, Nat.le_refl | exact Hcb].
  Qed.

  Corollary path_no_panic fuel st st' tr fuel' :
    inv (regs st) (mem st) -> (length (regs st) <= 32)%nat ->
    seq_run fuel sp labels st = Done st' tr ->
    path_below (seq_path fuel sp labels st 0) = true ->
    (bound (length tr) <= fuel')%nat ->
    run fuel' app labels st <> MPanic /\ run fuel' app labels st <> MOutOfFuel /\ (forall e, run fuel' app labels st <> MErr e).
  Proof using run_path.
    intros Hinv Hlen Hrun Hb Hf. destruct (path_refines_seq fuel st st' tr Hinv Hlen Hrun Hb) as (c & Hc).
    rewrite (Hc fuel' Hf). repeat split; try discriminate.
  Qed.
End PathResults.

Lemma fuel_bound_value n : fuel_bound n = ((n + 1) * 415)%nat.
Proof. reflexivity. Qed.

Definition no_lab : Z -> option Z := fun _ => None.
Definition zero_state : arch := mk_arch (repeat 0 32) (repeat 0 64).
Definition state_x5 (v : Z) : arch := mk_arch (Seq.upd (repeat 0 32) 5 v) (repeat 0 64).

(* path_below: a jump to an address in the last four bytes of the int32 range
   ends the sequential run (the pc is outside the text), but the fetch unit of
   MVP-4 fetches the target, its next pc wraps around to -2^31 + 2, and the
   decode unit indexes the program with a negative number: panic *)
Theorem mvp4_exit_near_int32_max_panics_refuted :
  let p := [SJalr 0 0 2147483646] in
  wf_app (map instr_of p) /\ reg_only (map instr_of p) = true /\
  (exists st' tr, seq_run 10 (map sinstr_of (map instr_of p)) no_lab zero_state = Done st' tr) /\
  path_below (seq_path 10 (map sinstr_of (map instr_of p)) no_lab zero_state 0) = false /\
  mvp4_run 2000 (map instr_of p) no_lab zero_state = MPanic.
Proof.
  cbv zeta. split; [|split; [|split; [|split]]].
  - split; [|vm_compute; reflexivity]. repeat constructor; vm_compute; discriminate.
  - vm_compute. reflexivity.
  - (* lazy, not vm_compute: Z.to_nat (pc / 4) is a unary number of 2^29 successors *)
    do 2 eexists. lazy. reflexivity.
  - lazy. reflexivity.
  - vm_compute. reflexivity.
Qed.

(* the cycle count is a function of the PATH, not of the trace of executed pcs:
   the pc at which the run leaves the text is fetched (speculatively), and
   whether it hits in the L1I depends on its value *)
Theorem mvp4_same_trace_different_cycles_refuted :
  let p := [SJalr 0 5 0] in
  exists st1' st2' tr,
    seq_run 10 (map sinstr_of (map instr_of p)) no_lab (state_x5 4) = Done st1' tr /\
    seq_run 10 (map sinstr_of (map instr_of p)) no_lab (state_x5 1000) = Done st2' tr /\
    mvp4_run 2000 (map instr_of p) no_lab (state_x5 4) = MDone 314 st1' /\
    mvp4_run 2000 (map instr_of p) no_lab (state_x5 1000) = MDone 622 st2'.
Proof. cbv zeta. do 3 eexists. repeat split; vm_compute; reflexivity. Qed.

(* programs WITH loads and stores: the statement of C01 is false for the faithful
   model.  Three stores to lines that are not in the L1D queue up behind the write
   unit (each memory write keeps it busy for MemoryAccess cycles); the load of the
   third line misses in the L1D while that store is still in the write bus, fetches
   the stale line from memory, and the final flush writes the stale line over the
   stored word ("cold-store-then-load") *)
Theorem mvp4_cold_store_then_load_refuted :
  let p := [SLi 5 7; SSw 5 0 0; SSw 5 128 0; SSw 5 64 0; SLw 6 64 0; SRet] in
  let st := mk_arch (repeat 0 32) (repeat 0 256) in
  exists st' tr c st4,
    seq_run 20 p no_lab st = Done st' tr /\
    mvp4_run 5000 (map instr_of p) no_lab st = MDone c st4 /\
    rget (regs st') 6 = 7 /\ mget (mem st') 64 = 7 /\
    rget (regs st4) 6 = 0 /\ mget (mem st4) 64 = 0.
Proof. cbv zeta. do 4 eexists. split; [vm_compute; reflexivity|]. split; [vm_compute; reflexivity|]. vm_compute. repeat split; reflexivity. Qed.

(* why (length (regs st) <= 32) is a hypothesis: the scoreboard has 32 entries, a write
   to a register number above 31 is not tracked and the next instruction reads the old
   value (the Go code uses a [32]int32 array, where such a register number cannot occur;
   the list-based model and the sequential machine accept any length) *)
Theorem mvp4_more_than_32_registers_refuted :
  let p := [SLi 35 7; SAddi 36 35 1; SRet] in
  let st := mk_arch (repeat 0 40) (repeat 0 64) in
  exists st' tr c st4,
    seq_run 10 p no_lab st = Done st' tr /\
    mvp4_run 2000 (map instr_of p) no_lab st = MDone c st4 /\
    nth 36 (regs st') 0 = 8 /\ nth 36 (regs st4) 0 = 1.
Proof. cbv zeta. do 4 eexists. split; [vm_compute; reflexivity|]. split; [vm_compute; reflexivity|]. vm_compute. split; reflexivity. Qed.
