(* Invariant of the MVP-4 skeleton with store misses (Mvp4sSkel.v): preservation and
   progress; at the end, the skeleton in which every store hits (Mvp4mSkel.v,
   Mvp4mFront.v) as a special case of this one. *)
From Coq Require Import ZArith List Bool Lia.
From Maj Require Import Base.Outcome Base.GoInt Base.GoTypes Isa.Spec Isa.Embed Isa.Seq Isa.Refine.
From Maj Require Import Gen.Latency Gen.RiscTables Gen.Opcodes Comp.Cache Comp.CacheSpec Comp.MapFacts Comp.CacheProofs.
From Maj Require Import Mvp.Mvp12 Mvp.Mvp12Proofs Mvp.Mvp3 Mvp.Mvp3Proofs Mvp.Mvp4 Mvp.Mvp4Skel Mvp.Mvp4Inv Mvp.Mvp4Units
     Mvp.Mvp4Front Mvp.Mvp4mSkel Mvp.Mvp4mInv Mvp.Mvp4mFront Mvp.Mvp4sSkel.
Import ListNotations.
Open Scope Z_scope.

Definition owr (wp : option witem) : list Z := match wp with Some x => wi_wr x | None => [] end.

Record WInv (pw : list Z) (wp wc : option witem) (w : wu_t) (l1 : list Z) (l2 : bool) : Prop := mkW {
  w_pw : pw = pw_add (pwof (option_map wi_wr wc)) (owr wp);
  w_wr : forall x, wc = Some x \/ wp = Some x -> (length (wi_wr x) <= 1)%nat /\ (wi_sa x <> [] -> wi_wr x = []);
  w_wu : wu_pending w = true -> 1 <= wu_cycles w <= MemoryAccess;
  (* while the write unit is busy, the entry in the current slot is flagged as following a store *)
  w_I1 : wu_pending w = true -> forall x, wc = Some x -> wi_fl x = true;
  w_lp : forall x, wp = Some x -> wi_sa x = l1 /\ wi_fl x = l2;
  w_lc : wp = None -> forall x, wc = Some x -> wi_sa x = l1 /\ wi_fl x = l2;
  w_adj : forall x y, wc = Some x -> wp = Some y -> wi_fl y = nnil (wi_sa x) }.

Lemma nnil_true l : l <> [] -> nnil l = true.
Proof. destruct l; [congruence | reflexivity]. Qed.

Lemma winv_wu pw wp wc w l1 l2 pw' w' wp' wc' :
  WInv pw wp wc w l1 l2 -> sks_wu pw w wp wc = (pw', w', wp', wc') ->
  WInv pw' wp' wc' w' l1 l2 /\
  (wu_pending w = true -> wp' = wp /\ wc' = wc) /\
  (wu_pending w = false -> wp' = None /\ wc' = wp).
Proof.
  intros [Hpw Hwr Hwu HI1 Hlp Hlc Hadj]. unfold sks_wu.
  destruct (wu_pending w) eqn:Ep.
  - intros H. injection H as <- <- <- <-. split; [|split; [auto | discriminate]].
    specialize (Hwu eq_refl). constructor.
    + exact Hpw.
    + exact Hwr.
    + cbn [wu_pending wu_cycles]. intros Hc. apply negb_true_iff, Z.eqb_neq in Hc. lia.
    + intros _. apply HI1. reflexivity.
    + exact Hlp.
    + exact Hlc.
    + exact Hadj.
  - assert (Hnew : forall q, q = pw_add zero_pw (owr wp) -> q = pw_add (pwof (option_map wi_wr wp)) (owr None)).
    { intros q ->. destruct wp as [y|]; reflexivity. }
    assert (Hwr' : forall y, wp = Some y \/ None = Some y -> (length (wi_wr y) <= 1)%nat /\ (wi_sa y <> [] -> wi_wr y = [])).
    { intros y [Hy|Hy]; [|discriminate]. apply Hwr. auto. }
    assert (Hlc' : @None witem = None -> forall y, wp = Some y -> wi_sa y = l1 /\ wi_fl y = l2).
    { intros _ y Hy. apply Hlp. exact Hy. }
    destruct wc as [x|].
    + destruct (Hwr x (or_introl eq_refl)) as [Hl Hst].
      assert (Hlo : (length (owr wp) <= 1)%nat).
      { destruct wp as [y|]; [apply (Hwr y); auto | cbn; lia]. }
      destruct (wi_sa x) as [|s0 sa'] eqn:Esa; intros H; injection H as <- <- <- <-.
      * split; [|split; [discriminate | auto]]. constructor.
        -- apply Hnew. rewrite Hpw. cbn [option_map].
           change (pw_del (pw_add (pwof (Some (wi_wr x))) (owr wp)) (wi_wr x))
             with (wdel (pw_add (pwof (Some (wi_wr x))) (owr wp)) (Some (wi_wr x))).
           rewrite (wdel_add_pwof (Some (wi_wr x)) (owr wp)); [reflexivity | | exact Hlo].
           intros w0 Hw0. injection Hw0 as <-. exact Hl.
        -- exact Hwr'.
        -- rewrite Ep. discriminate.
        -- rewrite Ep. discriminate.
        -- discriminate.
        -- exact Hlc'.
        -- discriminate.
      * split; [|split; [discriminate | auto]]. constructor.
        -- apply Hnew. rewrite Hpw. cbn [option_map]. rewrite (Hst ltac:(discriminate)). reflexivity.
        -- exact Hwr'.
        -- cbn [wu_pending wu_cycles]. intros _. unfold MemoryAccess. lia.
        -- intros _ y Hy. rewrite (Hadj x y eq_refl Hy), Esa. reflexivity.
        -- discriminate.
        -- exact Hlc'.
        -- discriminate.
    + intros H. injection H as <- <- <- <-. split; [|split; [discriminate | auto]]. constructor.
      * apply Hnew. rewrite Hpw. reflexivity.
      * exact Hwr'.
      * rewrite Ep. discriminate.
      * rewrite Ep. discriminate.
      * discriminate.
      * exact Hlc'.
      * discriminate.
Qed.

Lemma winv_add pw wc w l1 l2 wr sa :
  WInv pw None wc w l1 l2 -> (length wr <= 1)%nat -> (sa <> [] -> wr = []) ->
  WInv (pw_add pw wr) (Some (wr, sa, nnil l1)) wc w sa (nnil l1).
Proof.
  intros [Hpw Hwr Hwu HI1 Hlp Hlc Hadj] Hl Hs. constructor; auto; try discriminate.
  - rewrite Hpw. reflexivity.
  - intros x [Hx|Hx]; [apply Hwr; auto|]. injection Hx as <-. auto.
  - intros x Hx. injection Hx as <-. auto.
  - intros x y Hx Hy. injection Hy as <-. cbn [wi_fl snd]. destruct (Hlc eq_refl x Hx) as [-> _]. reflexivity.
Qed.

Lemma winv_empty w l1 l2 : wu_pending w = false -> WInv zero_pw None None w l1 l2.
Proof.
  intros Hw. constructor; try discriminate; try reflexivity; try (rewrite Hw; discriminate).
  all: intros x [H|H]; discriminate.
Qed.

Lemma sks_drain_idle : forall fuel pw w wp wc cyc tick w3 c3,
  sks_drain fuel pw w wp wc cyc tick = Some (w3, c3) -> wu_pending w3 = false.
Proof.
  induction fuel as [|f IH]; intros pw w wp wc cyc tick w3 c3; cbn [sks_drain]; [discriminate|].
  destruct (negb (wu_pending w) && negb (is_full wp) && negb (is_full wc)) eqn:E.
  - intros H. injection H as <- _. apply andb_prop in E as [E _]. apply andb_prop in E as [E _].
    apply negb_true_iff in E. exact E.
  - destruct (sks_wu pw w wp wc) as [[[pw' w'] wp'] wc']. apply IH.
Qed.

(* the measure of the write side: iterations of the drain loop *)
Definition wcost (x : option witem) : Z :=
  match x with None => 0 | Some y => match wi_sa y with [] => 1 | _ :: _ => MemoryAccess + 1 end end.
Definition wmu (w : wu_t) (wp wc : option witem) : Z :=
  (if wu_pending w then wu_cycles w else 0) + wcost wc + wcost wp + (if is_full wp then 1 else 0).

Lemma wcost_bounds x : 0 <= wcost x <= MemoryAccess + 1.
Proof. unfold wcost, MemoryAccess. destruct x as [y|]; [destruct (wi_sa y)|]; lia. Qed.

Lemma wmu_bounds pw wp wc w l1 l2 : WInv pw wp wc w l1 l2 -> 0 <= wmu w wp wc <= 3 * MemoryAccess + 3.
Proof.
  intros HW. pose proof (w_wu _ _ _ _ _ _ HW) as Hwu. unfold wmu.
  pose proof (wcost_bounds wc). pose proof (wcost_bounds wp).
  destruct (wu_pending w); [specialize (Hwu eq_refl)|]; destruct (is_full wp); unfold MemoryAccess in *; lia.
Qed.

Lemma wmu_step pw wp wc w l1 l2 pw' w' wp' wc' :
  WInv pw wp wc w l1 l2 -> sks_wu pw w wp wc = (pw', w', wp', wc') ->
  (wmu w wp wc = 0 /\ wmu w' wp' wc' = 0 /\ wu_pending w = false /\ wp = None /\ wc = None) \/
  wmu w' wp' wc' < wmu w wp wc.
Proof.
  intros HW. pose proof (w_wu _ _ _ _ _ _ HW) as Hwu. unfold sks_wu, wmu.
  destruct (wu_pending w) eqn:Ep.
  - intros H. injection H as <- <- <- <-. right. specialize (Hwu eq_refl). cbn [wu_pending wu_cycles].
    destruct (negb (wu_cycles w - 1 =? 0)); destruct (is_full wp); lia.
  - destruct wc as [x|].
    + assert (Hcx : wcost (Some x) = match wi_sa x with [] => 1 | _ :: _ => MemoryAccess + 1 end) by reflexivity.
      pose proof (wcost_bounds wp) as Hb.
      assert (Hn : wcost (@None witem) = 0) by reflexivity.
      destruct (wi_sa x) eqn:Esa; intros H; injection H as <- <- <- <-; right; cbn [wu_pending wu_cycles];
        rewrite ?Ep, Hcx, Hn; cbn [is_full]; destruct (is_full wp); unfold MemoryAccess in *; lia.
    + intros H. injection H as <- <- <- <-. rewrite Ep. destruct wp as [y|].
      * right. pose proof (wcost_bounds (Some y)) as Hb. assert (Hn : wcost (@None witem) = 0) by reflexivity.
        rewrite Hn. cbn [is_full]. assert (0 < wcost (Some y)) by (unfold wcost; destruct (wi_sa y); unfold MemoryAccess; lia). lia.
      * left. cbn. auto.
Qed.

Lemma sks_drain_ok : forall (n : nat) fuel pw wp wc w l1 l2 cyc tick,
  WInv pw wp wc w l1 l2 -> wmu w wp wc <= Z.of_nat n -> (n < fuel)%nat ->
  exists w3 c3, sks_drain fuel pw w wp wc cyc tick = Some (w3, c3) /\
                cyc <= c3 <= cyc + Z.of_nat n.
Proof.
  induction n as [|n IH]; intros fuel pw wp wc w l1 l2 cyc tick HW Hmu Hf;
    (destruct fuel as [|f]; [lia|]); cbn [sks_drain];
    pose proof (wmu_bounds _ _ _ _ _ _ HW) as Hb.
  - assert (H0 : wmu w wp wc = 0) by lia.
    destruct (sks_wu pw w wp wc) as [[[pw' w'] wp'] wc'] eqn:Ew.
    destruct (wmu_step _ _ _ _ _ _ _ _ _ _ HW Ew) as [(_ & _ & Hp & -> & ->) | Hlt].
    + rewrite Hp. cbn. do 2 eexists. split; [reflexivity | lia].
    + destruct (winv_wu _ _ _ _ _ _ _ _ _ _ HW Ew) as [HW' _]. pose proof (wmu_bounds _ _ _ _ _ _ HW'). lia.
  - destruct (negb (wu_pending w) && negb (is_full wp) && negb (is_full wc)) eqn:E.
    + do 2 eexists. split; [reflexivity | lia].
    + destruct (sks_wu pw w wp wc) as [[[pw' w'] wp'] wc'] eqn:Ew.
      destruct (winv_wu _ _ _ _ _ _ _ _ _ _ HW Ew) as [HW' _].
      destruct (wmu_step _ _ _ _ _ _ _ _ _ _ HW Ew) as [(_ & _ & Hp & -> & ->) | Hlt].
      * rewrite Hp in E. discriminate.
      * destruct (IH f pw' wp' wc' w' l1 l2 (if tick then cyc + 1 else cyc) tick HW' ltac:(lia) ltac:(lia))
          as (w3 & c3 & E3 & Hc3).
        exists w3, c3. split; [exact E3|]. destruct tick; lia.
Qed.

(* if a load in flight means a free pending slot, and a full slot without a load in
   flight means nothing is issued or executed, then issuing or executing means a free
   slot *)
Lemma wp_free (wp : option witem) (pr pr1 : bool) (act : eu_act) :
  (pr = true -> wp = None) ->
  (is_full wp = true -> pr = false -> pr1 = false /\ act = ANone) ->
  pr1 = true \/ act <> ANone -> wp = None.
Proof.
  intros Hpr Hfull H. destruct wp as [y|]; [|reflexivity]. exfalso. destruct pr.
  - discriminate (Hpr eq_refl).
  - destruct (Hfull eq_refl eq_refl) as [H1 H2]. destruct H as [H|H]; congruence.
Qed.

Section FrontS.
  Variable app : list instr.
  Hypothesis Happ : wf_app app.

  Lemma sks_eu_flow full e ebus pw dt la e1 ebus2 dt1 act :
    Forall (entry_ok app) (q_eu e ++ q_sb ebus) -> eu_ok e ->
    (eu_pending_read e = true -> la <> [] /\ (eu_memory e = None -> eu_addrs e = la)) ->
    sks_eu full e ebus pw dt la = (e1, ebus2, dt1, act) ->
    act <> AStuck /\
    act_q act ++ q_eu e1 ++ q_sb ebus2 = q_eu e ++ q_sb ebus /\
    eu_ok e1 /\
    (eu_pending_read e1 = true -> la <> [] /\ (eu_memory e1 = None -> eu_addrs e1 = la)) /\
    (match act with
     | AExec _ _ => eu_processing e1 = false /\ eu_pending_read e1 = false /\ dt1 = dtal e dt la
     | ANone => dtal e1 dt1 la = dtal e dt la
     | AStuck => True
     end) /\
    (full = true -> eu_pending_read e = false -> eu_pending_read e1 = false /\ act = ANone) /\
    (eu_pending_read e = true -> act = ANone -> eu_memory e1 = eu_memory e /\ eu_pending_read e1 = true).
  Proof.
    intros Hent Hok Hmiss. unfold sks_eu.
    destruct (full && negb (eu_pending_read e)) eqn:Efull.
    - apply andb_prop in Efull as [-> Epr]. apply negb_true_iff in Epr.
      destruct Hok as (Hproc & Hpp & Hmem). specialize (Hmem Epr).
      assert (Hproc' : eu_processing e = true -> 1 <= eu_remaining e <= Cmax /\ eu_runner e <> None)
        by (intros Hp; specialize (Hproc Hp); rewrite Epr in Hproc; exact Hproc).
      destruct (eu_intake e ebus) as [[em ebus1] have] eqn:Ei.
      destruct (intake_flow app e ebus em ebus1 have Epr Hent Hproc' Ei) as (Hq & Hpr1 & Hhave & Hproc1 & _).
      destruct (intake_mem _ _ _ _ _ Ei) as [Hmm _]. rewrite Hmem in Hmm.
      assert (Hok_em : forall r, 1 <= r <= Cmax -> eu_ok (set_rem em r)).
      { intros r Hr. unfold eu_ok, set_rem. cbn [eu_processing eu_pending_read eu_remaining eu_runner eu_memory].
        rewrite Hpr1. split; [intros Hp; split; [exact Hr | apply Hproc1; exact Hp]|]. split; [discriminate | auto]. }
      assert (Hdt_em : forall r, dtal (set_rem em r) dt la = dtal e dt la).
      { intros r. unfold dtal, set_rem. cbn [eu_pending_read eu_memory]. rewrite Hpr1, Epr. reflexivity. }
      destruct have; cbn [negb].
      2:{ intros H. injection H as <- <- <- <-. cbn [act_q List.app].
          split; [discriminate|]. split; [exact Hq|].
          split. { unfold eu_ok. rewrite Hpr1. split; [exact Hproc1|]. split; [discriminate | auto]. }
          split; [rewrite Hpr1; discriminate|].
          split; [unfold dtal; rewrite Hpr1, Epr; reflexivity|].
          split; [auto | rewrite Epr; discriminate]. }
      symmetry in Hhave. destruct (Hproc1 Hhave) as [Hrem Hrun].
      assert (Hres : forall r, 1 <= r <= Cmax ->
                (set_rem em r, ebus1, dt, ANone) = (e1, ebus2, dt1, act) ->
                act <> AStuck /\ act_q act ++ q_eu e1 ++ q_sb ebus2 = q_eu e ++ q_sb ebus /\ eu_ok e1 /\
                (eu_pending_read e1 = true -> la <> [] /\ (eu_memory e1 = None -> eu_addrs e1 = la)) /\
                match act with
                | AExec _ _ => eu_processing e1 = false /\ eu_pending_read e1 = false /\ dt1 = dtal e dt la
                | ANone => dtal e1 dt1 la = dtal e dt la
                | AStuck => True
                end /\
                (true = true -> eu_pending_read e = false -> eu_pending_read e1 = false /\ act = ANone) /\
                (eu_pending_read e = true -> act = ANone -> eu_memory e1 = eu_memory e /\ eu_pending_read e1 = true)).
      { intros r Hr H. injection H as <- <- <- <-. cbn [act_q List.app].
        split; [discriminate|]. split; [exact Hq|]. split; [apply Hok_em; exact Hr|].
        split; [cbn [set_rem eu_pending_read]; rewrite Hpr1; discriminate|].
        split; [apply Hdt_em|]. split; [cbn [set_rem eu_pending_read]; auto | rewrite Epr; discriminate]. }
      destruct (Z.eqb_spec (eu_remaining em - 1) 0) as [E0|E0]; cbn [negb]; apply Hres; unfold Cmax in *; lia.
    - intros Ee. destruct (skm_eu_flow app e ebus pw dt la e1 ebus2 dt1 act Hent Hok Hmiss Ee) as (H1 & H2 & H3 & H4 & H5).
      split; [exact H1|]. split; [exact H2|]. split; [exact H3|]. split; [exact H4|]. split; [exact H5|].
      split.
      + intros -> Hp. rewrite Hp in Efull. discriminate.
      + intros Hp Ha. subst act. unfold skm_eu in Ee. rewrite Hp in Ee.
        destruct (negb (eu_remaining e - 1 =? 0)).
        * injection Ee as <- _ _. cbn [set_rem eu_memory eu_pending_read]. auto.
        * destruct (eu_runner e) as [[i pc]|]; discriminate.
  Qed.

  Lemma sks_eu_dt_len full e ebus pw dt la e1 ebus2 dt1 act :
    zlen dt <= 16 -> sks_eu full e ebus pw dt la = (e1, ebus2, dt1, act) -> zlen dt1 <= 16.
  Proof.
    intros Hl. unfold sks_eu. destruct (full && negb (eu_pending_read e)).
    - destruct (eu_intake e ebus) as [[em ebus1] have].
      destruct (negb have); [intros H; apply tup4_3 in H as <-; exact Hl|].
      destruct (negb _); intros H; apply tup4_3 in H as <-; exact Hl.
    - apply skm_eu_dt_len. exact Hl.
  Qed.

  Definition qlists (a : sks) : list Z := q_parts (x_eu a) (x_ebus a) (x_dbus a).

  Record FInvS (hev : event) (a : sks) : Prop := mkFS {
    fs_head : 0 <= ev_pc hev < 2147483644;
    fs_q : exists n, FQ app (ev_pc hev) n (qlists a) (x_fu a);
    fs_ent : Forall (entry_ok app) (q_eu (x_eu a) ++ q_sb (x_ebus a));
    fs_fu : fu_processing (x_fu a) = true -> 1 <= fu_remaining (x_fu a) <= MemoryAccess;
    fs_eu : eu_ok (x_eu a);
    fs_pr : eu_pending_read (x_eu a) = true -> x_wp a = None;
    fs_miss : eu_pending_read (x_eu a) = true ->
              ev_la hev <> [] /\ (eu_memory (x_eu a) = None -> eu_addrs (x_eu a) = ev_la hev);
    (* no store to the line of a load that waits for memory is in the write bus *)
    fs_I2 : eu_pending_read (x_eu a) = true -> eu_memory (x_eu a) = None ->
            forall x, x_wc a = Some x -> same_line_as (wi_sa x) (ev_la hev) = false;
    fs_l1i : IInv (x_l1i a);
    fs_w : WInv (x_pw a) (x_wp a) (x_wc a) (x_wu a) (x_l1 a) (x_l2 a);
    fs_dt : zlen (x_dt a) <= 16 }.

  (* the hypothesis no_stale along the run *)
  Definition ns_tail (r1 : list Z) (l1 : list Z) (l2 : bool) (ev : event) (t : list event) : bool :=
    let g := a_get_all r1 (ev_sa ev) in
    match ev_sa ev with
    | [] => no_stale (fst g) [] (nnil l1) t
    | _ :: _ => if snd g then no_stale (fst g) l1 l2 t else no_stale (fst g) (ev_sa ev) (nnil l1) t
    end.

  Definition ns_inv (a : sks) (path : list event) : Prop :=
    match path with
    | [] => True
    | hev :: rest =>
        (x_l2 a && same_line_as (x_l1 a) (ev_la hev)) = false /\
        ns_tail (dtal (x_eu a) (x_dt a) (ev_la hev)) (x_l1 a) (x_l2 a) hev rest = true
    end.

  Lemma no_stale_cons dt l1 l2 ev t :
    no_stale dt l1 l2 (ev :: t) = negb (l2 && same_line_as l1 (ev_la ev)) && ns_tail (fst (a_load dt (ev_la ev))) l1 l2 ev t.
  Proof. reflexivity. Qed.

  Lemma ns_inv_intro a hev rest :
    eu_pending_read (x_eu a) = false ->
    no_stale (x_dt a) (x_l1 a) (x_l2 a) (hev :: rest) = true -> ns_inv a (hev :: rest).
  Proof.
    intros Hp H. rewrite no_stale_cons in H. apply andb_prop in H as [H1 H2]. apply negb_true_iff in H1.
    cbn [ns_inv]. unfold dtal. rewrite Hp. auto.
  Qed.

  Lemma fronts_flow hev a fu1 l1i1 dbus1 dbus2 ebus1 e1 ebus2 dt1 act :
    FInvS hev a ->
    fu_cycle app (x_fu a) (x_l1i a) (x_dbus a) = Ok (fu1, l1i1, dbus1) ->
    du_cycle app dbus1 (x_ebus a) = Ok (dbus2, ebus1) ->
    sks_eu (is_full (x_wp a)) (x_eu a) ebus1 (x_pw a) (x_dt a) (ev_la hev) = (e1, ebus2, dt1, act) ->
    IInv l1i1 /\ (fu_processing fu1 = true -> 1 <= fu_remaining fu1 <= MemoryAccess) /\
    act <> AStuck /\
    (exists n', FQ app (ev_pc hev) n' (map snd (act_q act) ++ q_parts e1 ebus2 dbus2) fu1) /\
    Forall (entry_ok app) (act_q act ++ q_eu e1 ++ q_sb ebus2) /\
    eu_ok e1 /\
    (eu_pending_read e1 = true -> ev_la hev <> [] /\ (eu_memory e1 = None -> eu_addrs e1 = ev_la hev)) /\
    (match act with
     | AExec _ _ => eu_processing e1 = false /\ eu_pending_read e1 = false /\ dt1 = dtal (x_eu a) (x_dt a) (ev_la hev)
     | ANone => dtal e1 dt1 (ev_la hev) = dtal (x_eu a) (x_dt a) (ev_la hev)
     | AStuck => True
     end) /\
    (is_full (x_wp a) = true -> eu_pending_read (x_eu a) = false -> eu_pending_read e1 = false /\ act = ANone) /\
    (eu_pending_read (x_eu a) = true -> act = ANone -> eu_memory e1 = eu_memory (x_eu a) /\ eu_pending_read e1 = true).
  Proof.
    intros HF Ef Ed Ee.
    destruct HF as [Hh [n Hq] Hent Hfu Hok _ Hmiss _ HI _ _].
    destruct (fu_du_flow app Happ _ _ _ _ _ _ _ _ _ _ _ _ Hh Hq Hent HI Hfu Ef Ed) as (HI1 & Hfu1 & [n2 Hq2] & Hent2).
    destruct (sks_eu_flow _ _ _ _ _ _ _ _ _ _ Hent2 Hok Hmiss Ee) as (Hns & Hfl & Hok1 & Hmiss1 & Hex & Hfull & Hwait).
    split; [assumption|]. split; [assumption|]. split; [assumption|].
    split; [|split; [rewrite Hfl; assumption | auto 6]].
    exists n2. rewrite q_parts_alt, app_assoc, <- map_app, Hfl. exact Hq2.
  Qed.

  Lemma head_entry_s hev a fu1 l1i1 dbus1 dbus2 ebus1 i pc :
    FInvS hev a ->
    fu_cycle app (x_fu a) (x_l1i a) (x_dbus a) = Ok (fu1, l1i1, dbus1) ->
    du_cycle app dbus1 (x_ebus a) = Ok (dbus2, ebus1) ->
    hd_error (q_eu (x_eu a) ++ q_sb ebus1) = Some (i, pc) ->
    pc = ev_pc hev /\ nth_error app (Z.to_nat (pc / 4)) = Some i.
  Proof.
    intros HF Ef Ed Hhd. destruct HF as [Hh [n Hq] Hent0 Hfu _ _ _ _ HI _ _].
    destruct (fu_du_flow app Happ _ _ _ _ _ _ _ _ _ _ _ _ Hh Hq Hent0 HI Hfu Ef Ed) as (_ & _ & [n2 Hq2] & Hent).
    destruct (q_eu (x_eu a) ++ q_sb ebus1) as [|x l]; [discriminate|]. cbn [hd_error] in Hhd. injection Hhd as ->.
    cbn [map snd List.app] in Hq2. destruct (fq_head app _ _ _ _ _ Hq2) as [Hpc _].
    inversion Hent as [|? ? [_ Hi] _]; subst. split; [reflexivity | exact Hi].
  Qed.
End FrontS.

Lemma sks_next_spec a fu1 l1i1 dbus2 ebus2 e1 add dt1 :
  WInv (x_pw a) (x_wp a) (x_wc a) (x_wu a) (x_l1 a) (x_l2 a) ->
  (forall wr sa, add = Some (wr, sa) -> x_wp a = None /\ (length wr <= 1)%nat /\ (sa <> [] -> wr = [])) ->
  let a2 := sks_next a fu1 l1i1 dbus2 ebus2 e1 add dt1 in
  x_fu a2 = fu1 /\ x_l1i a2 = l1i1 /\ x_dbus a2 = dbus2 /\ x_ebus a2 = ebus2 /\ x_eu a2 = e1 /\ x_dt a2 = dt1 /\
  WInv (x_pw a2) (x_wp a2) (x_wc a2) (x_wu a2) (x_l1 a2) (x_l2 a2) /\
  x_l1 a2 = (match add with None => x_l1 a | Some (_, sa) => sa end) /\
  x_l2 a2 = (match add with None => x_l2 a | Some _ => nnil (x_l1 a) end) /\
  (add = None -> x_wp a = None -> x_wp a2 = None /\
     (wu_pending (x_wu a) = false -> x_wc a2 = None) /\ (wu_pending (x_wu a) = true -> x_wc a2 = x_wc a)).
Proof.
  intros HW Hadd. unfold sks_next. destruct add as [[wr sa]|].
  - destruct (Hadd wr sa eq_refl) as (Hwp & Hl & Hs). rewrite Hwp in HW.
    pose proof (winv_add _ _ _ _ _ wr sa HW Hl Hs) as HW1.
    destruct (sks_wu (pw_add (x_pw a) wr) (x_wu a) (Some (wr, sa, nnil (x_l1 a))) (x_wc a)) as [[[pw2 w2] wp2] wc2] eqn:Ew.
    destruct (winv_wu _ _ _ _ _ _ _ _ _ _ HW1 Ew) as (HW2 & _ & _).
    cbn [x_fu x_l1i x_dbus x_ebus x_eu x_dt x_pw x_wp x_wc x_wu x_l1 x_l2].
    do 6 (split; [reflexivity|]). split; [exact HW2|]. split; [reflexivity|]. split; [reflexivity|]. discriminate.
  - destruct (sks_wu (x_pw a) (x_wu a) (x_wp a) (x_wc a)) as [[[pw2 w2] wp2] wc2] eqn:Ew.
    destruct (winv_wu _ _ _ _ _ _ _ _ _ _ HW Ew) as (HW2 & Hp & Hi).
    cbn [x_fu x_l1i x_dbus x_ebus x_eu x_dt x_pw x_wp x_wc x_wu x_l1 x_l2].
    do 6 (split; [reflexivity|]). split; [exact HW2|]. split; [reflexivity|]. split; [reflexivity|].
    intros _ Hwp. split; [|split].
    + destruct (wu_pending (x_wu a)); [destruct (Hp eq_refl) as [-> _]; assumption | apply (Hi eq_refl)].
    + intros Hw. destruct (Hi Hw) as [_ ->]. assumption.
    + intros Hw. apply (Hp Hw).
Qed.

Lemma sks_pre_none app a hev rest fu1 l1i1 dbus1 dbus2 ebus1 e1 ebus2 dt1 :
  fu_cycle app (x_fu a) (x_l1i a) (x_dbus a) = Ok (fu1, l1i1, dbus1) ->
  du_cycle app dbus1 (x_ebus a) = Ok (dbus2, ebus1) ->
  sks_eu (is_full (x_wp a)) (x_eu a) ebus1 (x_pw a) (x_dt a) (ev_la hev) = (e1, ebus2, dt1, ANone) ->
  sks_pre app a (hev :: rest) = XStep (sks_next a fu1 l1i1 dbus2 ebus2 e1 None dt1) (hev :: rest) 1.
Proof. intros Ef Ed Ee. unfold sks_pre. rewrite Ef, Ed, Ee. reflexivity. Qed.

Lemma sks_pre_exec_eq app a hev rest fu1 l1i1 dbus1 dbus2 ebus1 e1 ebus2 dt1 i pc :
  fu_cycle app (x_fu a) (x_l1i a) (x_dbus a) = Ok (fu1, l1i1, dbus1) ->
  du_cycle app dbus1 (x_ebus a) = Ok (dbus2, ebus1) ->
  sks_eu (is_full (x_wp a)) (x_eu a) ebus1 (x_pw a) (x_dt a) (ev_la hev) = (e1, ebus2, dt1, AExec i pc) ->
  sks_pre app a (hev :: rest) = sks_exec a fu1 l1i1 dbus2 ebus2 e1 dt1 i pc (hev :: rest).
Proof. intros Ef Ed Ee. unfold sks_pre. rewrite Ef, Ed, Ee. reflexivity. Qed.

Section StepS.
  Variable app : list instr.
  Hypothesis Happ : wf_app app.

  Lemma finvs_exec_intro hev' a2 e1 :
    x_eu a2 = e1 -> eu_pending_read e1 = false -> eu_ok e1 ->
    0 <= ev_pc hev' < 2147483644 ->
    (exists n, FQ app (ev_pc hev') n (qlists a2) (x_fu a2)) ->
    Forall (entry_ok app) (q_eu e1 ++ q_sb (x_ebus a2)) ->
    (fu_processing (x_fu a2) = true -> 1 <= fu_remaining (x_fu a2) <= MemoryAccess) ->
    IInv (x_l1i a2) -> WInv (x_pw a2) (x_wp a2) (x_wc a2) (x_wu a2) (x_l1 a2) (x_l2 a2) -> zlen (x_dt a2) <= 16 ->
    FInvS app hev' a2.
  Proof.
    intros He Hp Hok Hh Hq Hent Hfu HI HW Hdt. constructor; auto; rewrite ?He; auto;
      intros Hp'; rewrite Hp in Hp'; discriminate.
  Qed.

  Theorem finvs_step hev rest a a' path' dc :
    FInvS app hev a -> evs_wf app (hev :: rest) -> ns_inv a (hev :: rest) ->
    sks_pre app a (hev :: rest) = XStep a' path' dc ->
    exists hev' rest', path' = hev' :: rest' /\ FInvS app hev' a' /\ evs_wf app path' /\ ns_inv a' path' /\
      (path' = hev :: rest \/ path' = rest).
  Proof.
    intros HF Hwf Hns H.
    destruct (fu_cycle app (x_fu a) (x_l1i a) (x_dbus a)) as [[[fu1 l1i1] dbus1]| |] eqn:Ef;
      [|unfold sks_pre in H; rewrite Ef in H; discriminate|unfold sks_pre in H; rewrite Ef in H; discriminate].
    destruct (du_cycle app dbus1 (x_ebus a)) as [[dbus2 ebus1]| |] eqn:Ed;
      [|unfold sks_pre in H; rewrite Ef, Ed in H; discriminate|unfold sks_pre in H; rewrite Ef, Ed in H; discriminate].
    destruct (sks_eu (is_full (x_wp a)) (x_eu a) ebus1 (x_pw a) (x_dt a) (ev_la hev)) as [[[e1 ebus2] dt1] act] eqn:Ee.
    destruct (fronts_flow app Happ hev a _ _ _ _ _ _ _ _ _ HF Ef Ed Ee)
      as (HI1 & Hfu1 & Hnst & [n' Hq'] & Hent' & Hok1 & Hmiss1 & Hex & Hfull & Hwait).
    pose proof HF as [Hh _ _ _ Hok Hpr Hmiss HI2 _ HW Hdtl].
    pose proof (sks_eu_dt_len _ _ _ _ _ _ _ _ _ _ Hdtl Ee) as Hdt1l.
    cbn [ns_inv] in Hns. destruct Hns as [Hns1 Hns2].
    destruct act as [|i pc|]; [| |congruence].
    - (* nothing executed *)
      rewrite (sks_pre_none app a hev rest _ _ _ _ _ _ _ _ Ef Ed Ee) in H.
      assert (Ha : a' = sks_next a fu1 l1i1 dbus2 ebus2 e1 None dt1 /\ path' = hev :: rest /\ dc = 1)
        by (split; [|split]; congruence).
      destruct Ha as (-> & -> & ->). clear H.
      destruct (sks_next_spec a fu1 l1i1 dbus2 ebus2 e1 None dt1 HW ltac:(discriminate))
        as (E1 & E2 & E3 & E4 & E5 & E6 & HW2 & El1 & El2 & Hwn).
      exists hev, rest. split; [reflexivity|]. split; [|split; [exact Hwf|split; [|auto]]].
      + assert (Hwpn : eu_pending_read e1 = true -> x_wp a = None)
          by (intros Hp1; apply (wp_free _ _ _ _ Hpr Hfull); left; exact Hp1).
        cbn [act_q List.app map] in Hq', Hent'.
        constructor.
        * exact Hh.
        * exists n'. unfold qlists. rewrite E1, E3, E4, E5. exact Hq'.
        * rewrite E5, E4. exact Hent'.
        * rewrite E1. exact Hfu1.
        * rewrite E5. exact Hok1.
        * rewrite E5. intros Hp1. apply (Hwn eq_refl (Hwpn Hp1)).
        * rewrite E5. exact Hmiss1.
        * rewrite E5. intros Hp1 Hm1 x Hx. destruct (Hwn eq_refl (Hwpn Hp1)) as (_ & Hwi & Hwb).
          destruct (wu_pending (x_wu a)) eqn:Ewu; [|rewrite (Hwi eq_refl) in Hx; discriminate].
          rewrite (Hwb eq_refl) in Hx.
          destruct (eu_pending_read (x_eu a)) eqn:Ep0.
          -- destruct (Hwait eq_refl eq_refl) as [Hme _]. apply (HI2 eq_refl); [congruence | exact Hx].
          -- destruct (w_lc _ _ _ _ _ _ HW (Hwpn Hp1) x Hx) as [Hsa Hfl].
             pose proof (w_I1 _ _ _ _ _ _ HW Ewu x Hx) as Hf1. rewrite Hsa. rewrite <- Hfl, Hf1 in Hns1. exact Hns1.
        * rewrite E2. exact HI1.
        * exact HW2.
        * rewrite E6. exact Hdt1l.
      + cbn [ns_inv]. rewrite El1, El2, E5, E6. rewrite Hex. auto.
    - (* (i, pc) executed *)
      destruct Hex as (Hp1 & Hpr1 & Hdt1).
      cbn [act_q map snd List.app] in Hq', Hent'.
      destruct (fq_head app _ _ _ _ _ Hq') as (-> & m & ->).
      assert (Hwp0 : x_wp a = None) by (apply (wp_free _ _ _ _ Hpr Hfull); right; discriminate).
      rewrite (sks_pre_exec_eq app a hev rest _ _ _ _ _ _ _ _ _ _ Ef Ed Ee) in H.
      unfold sks_exec in H. rewrite Z.eqb_refl in H. cbn [negb] in H.
      destruct (is_ret i).
      { destruct rest; [|discriminate]. destruct (sks_wu _ _ _ _) as [[[? ?] ?] ?]. destruct (sks_drain _ _ _ _ _ _ _); discriminate. }
      destruct rest as [|nxt rest']; [discriminate|].
      destruct (evs_wf_tail app _ _ _ Hwf) as [Hwf' Hnext].
      pose proof (addS_next (ev_pc hev) ltac:(lia)) as Hadd.
      assert (Hent1 : Forall (entry_ok app) (q_eu e1 ++ q_sb ebus2)) by (inversion Hent'; assumption).
      unfold ns_tail in Hns2. rewrite <- Hdt1 in Hns2.
      destruct (ev_sa hev) as [|s0 sa'] eqn:Esa.
      + (* not a store *)
        destruct (sks_next_spec a fu1 l1i1 dbus2 ebus2 e1 (Some (instr_WriteRegisters i, [])) dt1 HW)
          as (E1 & E2 & E3 & E4 & E5 & E6 & HW2 & El1 & El2 & _).
        { intros wr sa Hx. injection Hx as <- <-. split; [exact Hwp0|]. split; [apply write_regs_length | congruence]. }
        set (a2 := sks_next a fu1 l1i1 dbus2 ebus2 e1 (Some (instr_WriteRegisters i, [])) dt1) in *.
        cbn [a_get_all fst] in Hns2.
        destruct (sk_flush i (ev_pc hev) (ev_pc nxt)) eqn:Efl.
        * destruct (sks_drain drain_fuel (x_pw a2) (x_wu a2) (x_wp a2) (x_wc a2) 1 true) as [[w3 c3]|] eqn:Edr; [|discriminate].
          injection H as <- <- <-.
          exists nxt, rest'. split; [reflexivity|]. split; [|split; [exact Hwf'|split; [|auto]]].
          -- apply (finvs_exec_intro nxt _ e1); cbn [x_eu x_fu x_l1i x_dbus x_ebus x_pw x_wp x_wc x_wu x_l1 x_l2 x_dt fu_processing]; auto; try discriminate.
             ++ exists O. unfold qlists, q_parts, q_eu. cbn [x_eu x_ebus x_dbus x_fu]. rewrite Hp1.
                cbn [map List.app q_sb sbus_empty sb_current sb_pending olist].
                constructor; cbn [fu_complete fu_pc]; try discriminate; try lia; reflexivity.
             ++ unfold q_eu. rewrite Hp1. constructor.
             ++ apply winv_empty. eapply sks_drain_idle. exact Edr.
          -- apply ns_inv_intro; cbn [x_eu x_dt x_l1 x_l2]; [exact Hpr1|]. rewrite El1, El2. exact Hns2.
        * unfold sk_flush in Efl. apply orb_false_elim in Efl as [_ Efl]. apply negb_false_iff, Z.eqb_eq in Efl.
          rewrite Hadd in Efl. injection H as <- <- <-.
          exists nxt, rest'. split; [reflexivity|]. split; [|split; [exact Hwf'|split; [|auto]]].
          -- apply (finvs_exec_intro nxt _ e1); rewrite ?E1, ?E2, ?E3, ?E4, ?E5, ?E6; auto.
             rewrite Efl. exists m. unfold qlists. rewrite E3, E4, E5. apply (fq_shift app). exact Hq'.
          -- apply ns_inv_intro; rewrite ?E5, ?E6; [exact Hpr1|]. rewrite El1, El2. exact Hns2.
      + (* a store; the next pc is pc + 4 *)
        destruct (Z.eqb_spec (ev_pc nxt) (addS 32 (ev_pc hev) 4)) as [Enx|]; cbn [negb] in H; [|discriminate].
        rewrite Hadd in Enx.
        assert (Hdtn : zlen (fst (a_get_all dt1 (s0 :: sa'))) <= 16) by (rewrite a_get_all_len; exact Hdt1l).
        destruct (snd (a_get_all dt1 (s0 :: sa'))) eqn:Ehit.
        * (* it hits in the L1D *)
          destruct (sks_next_spec a fu1 l1i1 dbus2 ebus2 e1 None (fst (a_get_all dt1 (s0 :: sa'))) HW ltac:(discriminate))
            as (E1 & E2 & E3 & E4 & E5 & E6 & HW2 & El1 & El2 & _).
          set (a2 := sks_next a fu1 l1i1 dbus2 ebus2 e1 None (fst (a_get_all dt1 (s0 :: sa')))) in *.
          injection H as <- <- <-.
          exists nxt, rest'. split; [reflexivity|]. split; [|split; [exact Hwf'|split; [|auto]]].
          -- apply (finvs_exec_intro nxt _ e1); rewrite ?E1, ?E2, ?E3, ?E4, ?E5, ?E6; auto.
             rewrite Enx. exists m. unfold qlists. rewrite E3, E4, E5. apply (fq_shift app). exact Hq'.
          -- apply ns_inv_intro; rewrite ?E5, ?E6; [exact Hpr1|]. rewrite El1, El2. exact Hns2.
        * (* it misses: the store goes on the write bus *)
          destruct (sks_next_spec a fu1 l1i1 dbus2 ebus2 e1 (Some ([], s0 :: sa')) (fst (a_get_all dt1 (s0 :: sa'))) HW)
            as (E1 & E2 & E3 & E4 & E5 & E6 & HW2 & El1 & El2 & _).
          { intros wr sa Hx. injection Hx as <- <-. split; [exact Hwp0|]. split; [cbn; lia | reflexivity]. }
          set (a2 := sks_next a fu1 l1i1 dbus2 ebus2 e1 (Some ([], s0 :: sa')) (fst (a_get_all dt1 (s0 :: sa')))) in *.
          injection H as <- <- <-.
          exists nxt, rest'. split; [reflexivity|]. split; [|split; [exact Hwf'|split; [|auto]]].
          -- apply (finvs_exec_intro nxt _ e1); rewrite ?E1, ?E2, ?E3, ?E4, ?E5, ?E6; auto.
             rewrite Enx. exists m. unfold qlists. rewrite E3, E4, E5. apply (fq_shift app). exact Hq'.
          -- apply ns_inv_intro; rewrite ?E5, ?E6; [exact Hpr1|]. rewrite El1, El2. exact Hns2.
  Qed.
End StepS.

Section ProgressS.
  Variable app : list instr.
  Hypothesis Happ : wf_app app.

  (* projections to the skeleton in which every store hits (Mvp4mSkel.v) *)
  Definition pmz (a : sks) : skm :=
    mk_skm (x_fu a) (x_l1i a) (x_dbus a) (x_ebus a) (x_eu a) zero_pw None (x_dt a).
  Definition pmw (a : sks) : skm :=
    mk_skm (x_fu a) (x_l1i a) (x_dbus a) (x_ebus a) (x_eu a) (x_pw a) (option_map wi_wr (x_wc a)) (x_dt a).

  Definition phif (a : sks) : Z := phim (pmz a).
  Definition fcomp (a : sks) : bool :=
    fu_complete (x_fu a) && negb (eu_processing (x_eu a)) && sbus_is_empty (x_dbus a) && sbus_is_empty (x_ebus a).
  Definition phis (a : sks) : Z := (if fcomp a then 0 else phif a) + wmu (x_wu a) (x_wp a) (x_wc a).

  Lemma finvm_pmz hev a : FInvS app hev a -> FInvM app hev (pmz a).
  Proof.
    intros [Hh Hq Hent Hfu (Hp1 & Hp2 & Hp3) Hpr Hmiss HI2 HI HW Hdt].
    constructor; cbn [pmz m_fu m_l1i m_dbus m_ebus m_eu m_pw m_wb m_dt]; auto; try discriminate.
  Qed.

  Lemma finvm_pmw hev a : FInvS app hev a -> eu_pending_read (x_eu a) = false -> x_wp a = None -> FInvM app hev (pmw a).
  Proof.
    intros [Hh Hq Hent Hfu (Hp1 & Hp2 & Hp3) Hpr Hmiss HI2 HI HW Hdt] Hp Hwp.
    constructor; cbn [pmw m_fu m_l1i m_dbus m_ebus m_eu m_pw m_wb m_dt]; auto.
    all: try (intros Hx; rewrite Hp in Hx; discriminate).
    - rewrite (w_pw _ _ _ _ _ _ HW), Hwp. reflexivity.
    - intros wr Hwr. destruct (x_wc a) as [x|] eqn:Ewc; [|discriminate]. injection Hwr as <-.
      apply (w_wr _ _ _ _ _ _ HW x). auto.
  Qed.

  Lemma phim_parts fu l1 dbus ebus e pw wb dt :
    phim (mk_skm fu l1 dbus ebus e pw wb dt) =
    phim (mk_skm fu l1 dbus ebus e zero_pw None dt) +
    (if eu_processing e && negb (eu_pending_read e) then match wb with Some _ => 1 | None => 0 end else 0).
  Proof.
    unfold phim. cbn [m_eu m_wb m_ebus m_dbus m_fu]. destruct (eu_processing e), (eu_pending_read e), wb; cbn [andb negb]; lia.
  Qed.

  Lemma phim_indep fu l1 l1' dbus ebus e dt dt' :
    phim (mk_skm fu l1 dbus ebus e zero_pw None dt) = phim (mk_skm fu l1' dbus ebus e zero_pw None dt').
  Proof. reflexivity. Qed.

  Lemma phif_bounds hev a : FInvS app hev a -> 1 <= phif a <= phim_max.
  Proof.
    intros HF. pose proof (fuphi_bounds _ (fs_fu _ _ _ HF)) as Hf. destruct (fs_eu _ _ _ HF) as (He & _ & _).
    unfold phif, phim, phim_max, pmz. cbn [m_eu m_wb m_ebus m_dbus m_fu]. destruct (eu_processing (x_eu a)).
    - destruct (He eq_refl) as [Hr _]. unfold Cmax, Rmax, MemoryAccess in *.
      destruct (eu_pending_read (x_eu a)); lia.
    - unfold Cmax, Rmax, MemoryAccess in *.
      destruct (sb_current (x_ebus a)), (sb_pending (x_ebus a)), (sb_current (x_dbus a)), (sb_pending (x_dbus a)); lia.
  Qed.

  Lemma phis_bounds hev a : FInvS app hev a -> 0 <= phis a <= phim_max + 3 * MemoryAccess + 3.
  Proof.
    intros HF. pose proof (phif_bounds hev a HF). pose proof (wmu_bounds _ _ _ _ _ _ (fs_w _ _ _ HF)).
    unfold phis. destruct (fcomp a); unfold phim_max, Cmax, Rmax, MemoryAccess in *; lia.
  Qed.

  (* once the front end is empty it stays empty *)
  Lemma fcomp_stable hev a fu1 l1i1 dbus1 dbus2 ebus1 e1 ebus2 dt1 act :
    FInvS app hev a -> fcomp a = true ->
    fu_cycle app (x_fu a) (x_l1i a) (x_dbus a) = Ok (fu1, l1i1, dbus1) ->
    du_cycle app dbus1 (x_ebus a) = Ok (dbus2, ebus1) ->
    sks_eu (is_full (x_wp a)) (x_eu a) ebus1 (x_pw a) (x_dt a) (ev_la hev) = (e1, ebus2, dt1, act) ->
    act = ANone /\ fu_complete fu1 = true /\ eu_processing e1 = false /\ sbus_is_empty dbus2 = true /\ sbus_is_empty ebus2 = true.
  Proof.
    intros HF Hc. unfold fcomp in Hc. repeat (apply andb_prop in Hc as [Hc ?]). apply negb_true_iff in H1.
    destruct (fs_eu _ _ _ HF) as (_ & Hpp & _).
    assert (Hpr : eu_pending_read (x_eu a) = false).
    { destruct (eu_pending_read (x_eu a)); [|reflexivity]. rewrite (Hpp eq_refl) in H1. discriminate. }
    intros Ef. unfold fu_cycle in Ef. rewrite Hc in Ef. cbv iota in Ef.
    assert (Hx : fu1 = x_fu a /\ l1i1 = x_l1i a /\ dbus1 = x_dbus a) by (repeat split; congruence).
    destruct Hx as (-> & -> & ->). clear Ef.
    assert (Hd : x_dbus a = mk_sbus None None).
    { unfold sbus_is_empty in H0. destruct (x_dbus a) as [[?|] [?|]]; try discriminate. reflexivity. }
    assert (He : x_ebus a = mk_sbus None None).
    { unfold sbus_is_empty in H. destruct (x_ebus a) as [[?|] [?|]]; try discriminate. reflexivity. }
    rewrite Hd, He. unfold du_cycle. cbn [sbus_can_add sb_pending negb sbus_get sb_current].
    intros Ed.
    assert (Hy : dbus2 = mk_sbus None None /\ ebus1 = mk_sbus None None) by (split; congruence).
    destruct Hy as (-> & ->). clear Ed.
    unfold sks_eu, skm_eu, eu_intake. rewrite Hpr, H1. cbn [sbus_get sb_current sb_pending negb].
    intros Ee. destruct (is_full (x_wp a) && true); injection Ee as <- <- <- <-; auto.
  Qed.

  Lemma none_phis hev a fu1 l1i1 dbus1 dbus2 ebus1 e1 ebus2 dt1 :
    FInvS app hev a ->
    fu_cycle app (x_fu a) (x_l1i a) (x_dbus a) = Ok (fu1, l1i1, dbus1) ->
    du_cycle app dbus1 (x_ebus a) = Ok (dbus2, ebus1) ->
    sks_eu (is_full (x_wp a)) (x_eu a) ebus1 (x_pw a) (x_dt a) (ev_la hev) = (e1, ebus2, dt1, ANone) ->
    sks_complete (sks_next a fu1 l1i1 dbus2 ebus2 e1 None dt1) = false ->
    phis (sks_next a fu1 l1i1 dbus2 ebus2 e1 None dt1) < phis a.
  Proof.
    intros HF Ef Ed Ee. pose proof (fs_w _ _ _ HF) as HW.
    unfold sks_next. destruct (sks_wu (x_pw a) (x_wu a) (x_wp a) (x_wc a)) as [[[pw2 w2] wp2] wc2] eqn:Ew.
    set (a2 := mk_sks fu1 l1i1 dbus2 ebus2 e1 pw2 wp2 wc2 w2 dt1 (x_l1 a) (x_l2 a)).
    intros Hnc.
    pose proof (wmu_step _ _ _ _ _ _ _ _ _ _ HW Ew) as Hmu.
    destruct (winv_wu _ _ _ _ _ _ _ _ _ _ HW Ew) as (HW2 & Hwp & Hwi).
    pose proof (wmu_bounds _ _ _ _ _ _ HW) as Hb1. pose proof (wmu_bounds _ _ _ _ _ _ HW2) as Hb2.
    pose proof (phif_bounds hev a HF) as Hpf.
    assert (Hf2 : phif a2 = phim (mk_skm fu1 l1i1 dbus2 ebus2 e1 zero_pw None dt1)) by reflexivity.
    assert (Hc2 : fcomp a2 = skm_complete (mk_skm fu1 l1i1 dbus2 ebus2 e1 zero_pw None dt1)).
    { unfold fcomp, skm_complete, a2. cbn [x_fu x_eu x_dbus x_ebus m_fu m_eu m_dbus m_ebus m_wb]. rewrite andb_true_r. reflexivity. }
    unfold phis. cbn [x_wu x_wp x_wc a2]. fold a2.
    destruct (fcomp a2) eqn:Efc2.
    - (* the front end is empty: the write side makes progress *)
      assert (Hlt : wmu w2 wp2 wc2 < wmu (x_wu a) (x_wp a) (x_wc a)).
      { destruct Hmu as [(_ & _ & Hwi0 & Hwp0 & Hwc0) | Hlt]; [|exact Hlt]. exfalso.
        destruct (Hwi Hwi0) as [-> ->]. rewrite Hwp0 in *.
        unfold sks_wu in Ew. rewrite Hwi0, Hwc0 in Ew. assert (Hw2 : w2 = x_wu a) by congruence. subst w2.
        unfold sks_complete, a2 in Hnc. cbn [x_fu x_eu x_wu x_dbus x_ebus x_wp x_wc is_full negb] in Hnc.
        unfold fcomp, a2 in Efc2. cbn [x_fu x_eu x_dbus x_ebus] in Efc2. rewrite Hwi0 in Hnc.
        repeat (apply andb_prop in Efc2 as [Efc2 ?]). rewrite Hwp0, Efc2, H, H0, H1 in Hnc. cbn in Hnc. discriminate. }
      destruct (fcomp a); lia.
    - assert (Efc : fcomp a = false).
      { destruct (fcomp a) eqn:E; [|reflexivity]. exfalso.
        destruct (fcomp_stable hev a _ _ _ _ _ _ _ _ _ HF E Ef Ed Ee) as (_ & A & B & C & D).
        unfold fcomp, a2 in Efc2. cbn [x_fu x_eu x_dbus x_ebus] in Efc2. rewrite A, B, C, D in Efc2. discriminate. }
      rewrite Efc.
      assert (Hle : wmu w2 wp2 wc2 <= wmu (x_wu a) (x_wp a) (x_wc a)) by (destruct Hmu as [(-> & -> & _) | Hlt]; lia).
      destruct (fs_eu _ _ _ HF) as (Hproc & Hpp & Hmem0).
      destruct (eu_pending_read (x_eu a)) eqn:Epr.
      + (* a load in flight: its counter decreases *)
        pose proof (Hpp eq_refl) as Hp. destruct (Hproc Hp) as [Hr Hrun].
        unfold sks_eu, skm_eu in Ee. rewrite Epr, andb_false_r in Ee.
        destruct (Z.eqb_spec (eu_remaining (x_eu a) - 1) 0); cbn [negb] in Ee.
        * destruct (eu_runner (x_eu a)) as [[i pc]|]; discriminate.
        * injection Ee as <- _ _. rewrite Hf2. unfold phif, phim, pmz.
          cbn [m_eu m_wb set_rem eu_processing eu_pending_read eu_remaining]. rewrite Hp, Epr. lia.
      + destruct (is_full (x_wp a)) eqn:Efl.
        * (* the write bus is full *)
          assert (Hlt : wmu w2 wp2 wc2 < wmu (x_wu a) (x_wp a) (x_wc a)).
          { destruct Hmu as [(_ & _ & _ & Hwp0 & _) | Hlt]; [|exact Hlt]. rewrite Hwp0 in Efl. discriminate. }
          assert (Hphi : phif a2 <= phif a); [|lia].
          pose proof (finvm_pmz hev a HF) as HFm.
          unfold sks_eu in Ee. rewrite Epr in Ee. cbn [andb negb] in Ee.
          destruct (eu_processing (x_eu a)) eqn:Ep.
          -- unfold eu_intake in Ee. rewrite Ep in Ee. cbn [negb] in Ee. destruct (Hproc eq_refl) as [Hr Hrun].
             rewrite Hf2. unfold phif, phim, pmz. cbn [m_eu m_wb]. rewrite Ep, Epr.
             destruct (Z.eqb_spec (eu_remaining (x_eu a) - 1) 0); cbn [negb] in Ee; injection Ee as <- _ _;
               cbn [set_rem eu_processing eu_pending_read eu_remaining]; rewrite Ep, Epr; lia.
          -- destruct (sb_current ebus1) as [[i pc]|] eqn:Ecur.
             ++ unfold eu_intake, sbus_get in Ee. rewrite Ep, Ecur in Ee.
                cbn [negb eu_remaining eu_runner eu_processing eu_addrs eu_memory] in Ee.
                pose proof (cyc_of_bounds i) as Hcy.
                rewrite Hf2. unfold phif, phim, pmz. cbn [m_eu m_wb m_ebus m_dbus m_fu]. rewrite Ep.
                pose proof (fuphi_bounds _ (fs_fu _ _ _ HF)) as Hfb.
                destruct (Z.eqb_spec (cyc_of i - 1) 0); cbn [negb] in Ee; injection Ee as <- _ _;
                  cbn [set_rem eu_processing eu_pending_read eu_remaining]; unfold Cmax, Rmax, MemoryAccess in *;
                  destruct (sb_current (x_ebus a)), (sb_pending (x_ebus a)), (sb_current (x_dbus a)), (sb_pending (x_dbus a)); lia.
             ++ assert (Ee' : skm_eu (m_eu (pmz a)) ebus1 (m_pw (pmz a)) (m_dt (pmz a)) (ev_la hev) = (e1, ebus2, dt1, ANone)).
                { cbn [pmz m_eu m_pw m_dt]. rewrite (skm_eu_idle_none (x_eu a) ebus1 zero_pw (x_dt a) _ Epr Ep Ecur).
                  unfold eu_intake, sbus_get in Ee. rewrite Ep, Ecur in Ee. cbn [negb] in Ee. exact Ee. }
                pose proof (nonem_phi app Happ hev (pmz a) fu1 l1i1 dbus1 dbus2 ebus1 e1 ebus2 dt1 HFm Ef Ed Ee') as Hn.
                unfold after_nonem in Hn. cbn [pmz m_pw m_wb wdel] in Hn. rewrite <- Hc2 in Hn. specialize (Hn eq_refl).
                rewrite Hf2. unfold phif. lia.
        * (* the write bus has room: as in the skeleton with store hits *)
          assert (Hwp0 : x_wp a = None) by (destruct (x_wp a); [discriminate Efl | reflexivity]).
          pose proof (finvm_pmw hev a HF Epr Hwp0) as HFm.
          unfold sks_eu in Ee. cbn [andb] in Ee.
          pose proof (nonem_phi app Happ hev (pmw a) fu1 l1i1 dbus1 dbus2 ebus1 e1 ebus2 dt1 HFm Ef Ed Ee) as Hn.
          unfold after_nonem in Hn. cbn [pmw m_pw m_wb] in Hn.
          assert (Hc3 : skm_complete (mk_skm fu1 l1i1 dbus2 ebus2 e1 (wdel (x_pw a) (option_map wi_wr (x_wc a))) None dt1) = false).
          { rewrite <- Efc2. unfold fcomp, skm_complete, a2. cbn [x_fu x_eu x_dbus x_ebus m_fu m_eu m_dbus m_ebus m_wb]. apply andb_true_r. }
          specialize (Hn Hc3).
          rewrite (phim_parts fu1 l1i1 dbus2 ebus2 e1 _ None dt1) in Hn.
          unfold pmw in Hn. rewrite (phim_parts (x_fu a) (x_l1i a) (x_dbus a) (x_ebus a) (x_eu a) (x_pw a) _ (x_dt a)) in Hn.
          fold (pmz a) in Hn. fold (phif a) in Hn. rewrite <- Hf2 in Hn.
          destruct (x_wc a) as [x|] eqn:Ewc; cbn [option_map] in Hn.
          -- assert (Hlt : wmu w2 wp2 wc2 < wmu (x_wu a) (x_wp a) (Some x)).
             { destruct Hmu as [(_ & _ & _ & _ & Hwc0) | Hlt]; [discriminate | exact Hlt]. }
             destruct (eu_processing e1 && negb (eu_pending_read e1)), (eu_processing (x_eu a) && negb (eu_pending_read (x_eu a))); lia.
          -- destruct (eu_processing e1 && negb (eu_pending_read e1)), (eu_processing (x_eu a) && negb (eu_pending_read (x_eu a))); lia.
  Qed.
End ProgressS.

Section TermS.
  Variable app : list instr.
  Hypothesis Happ : wf_app app.

  Lemma sks_drain_ge : forall fuel pw w wp wc c tick w3 c3,
    sks_drain fuel pw w wp wc c tick = Some (w3, c3) -> c <= c3.
  Proof.
    induction fuel as [|f IH]; intros pw w wp wc c tick w3 c3; cbn [sks_drain]; [discriminate|].
    destruct (negb (wu_pending w) && negb (is_full wp) && negb (is_full wc)).
    - intros H. injection H as _ <-. lia.
    - destruct (sks_wu pw w wp wc) as [[[pw' w'] wp'] wc']. intros H. apply IH in H. destruct tick; lia.
  Qed.

  Lemma drain_fuel_enough : (Z.to_nat (3 * MemoryAccess + 3) < drain_fuel)%nat.
  Proof. vm_compute. lia. Qed.

  Lemma winv_drain pw wp wc w l1 l2 cyc tick : WInv pw wp wc w l1 l2 ->
    exists w3 c3, sks_drain drain_fuel pw w wp wc cyc tick = Some (w3, c3).
  Proof.
    intros HW. pose proof (wmu_bounds _ _ _ _ _ _ HW) as Hb.
    destruct (sks_drain_ok (Z.to_nat (3 * MemoryAccess + 3)) drain_fuel pw wp wc w l1 l2 cyc tick HW ltac:(lia) drain_fuel_enough)
      as (w3 & c3 & E & _). eauto.
  Qed.

  Lemma completes_out hev a : FInvS app hev a -> sks_complete a = true -> nlen app <= ev_pc hev / 4.
  Proof.
    intros HF Hc. unfold sks_complete in Hc. repeat (apply andb_prop in Hc as [Hc ?]).
    destruct (fs_q _ _ _ HF) as [n Hq]. apply negb_true_iff in H4.
    exact (fq_empty_out app _ _ _ _ _ _ Hq Hc H4 H2 H1).
  Qed.

  Lemma sks_pre_exec hev rest a fu1 l1i1 dbus1 dbus2 ebus1 e1 ebus2 dt1 i pc :
    FInvS app hev a -> evs_wf app (hev :: rest) ->
    fu_cycle app (x_fu a) (x_l1i a) (x_dbus a) = Ok (fu1, l1i1, dbus1) ->
    du_cycle app dbus1 (x_ebus a) = Ok (dbus2, ebus1) ->
    sks_eu (is_full (x_wp a)) (x_eu a) ebus1 (x_pw a) (x_dt a) (ev_la hev) = (e1, ebus2, dt1, AExec i pc) ->
    match sks_pre app a (hev :: rest) with
    | XStuck => False
    | XFin dc _ => rest = [] /\ dc = 1
    | XStep _ path' dc => path' = rest /\ 1 <= dc
    end.
  Proof.
    intros HF Hwf Ef Ed Ee.
    destruct (fronts_flow app Happ hev a _ _ _ _ _ _ _ _ _ HF Ef Ed Ee) as (_ & _ & _ & [n' Hq'] & Hent' & _ & _ & Hex & Hfull & _).
    pose proof (fs_w _ _ _ HF) as HW. pose proof (fs_pr _ _ _ HF) as Hpr.
    cbn [act_q map snd List.app] in Hq', Hent'.
    destruct (fq_head app _ _ _ _ _ Hq') as (-> & m & ->).
    inversion Hent' as [|x l [_ Hi] _]; subst. cbn [fst snd] in Hi.
    assert (Hwp0 : x_wp a = None) by (apply (wp_free _ _ _ _ Hpr Hfull); right; discriminate).
    rewrite (sks_pre_exec_eq app a hev rest _ _ _ _ _ _ _ _ _ _ Ef Ed Ee).
    unfold sks_exec. rewrite Z.eqb_refl. cbn [negb].
    pose proof (fs_head _ _ _ HF) as Hh.
    cbn [evs_wf] in Hwf. destruct Hwf as (_ & Hwf). rewrite Hi in Hwf.
    destruct rest as [|nxt r].
    - rewrite Hwf. destruct (sks_wu (x_pw a) (x_wu a) (x_wp a) (x_wc a)) as [[[pw2 w2] wp2] wc2] eqn:Ew.
      destruct (winv_wu _ _ _ _ _ _ _ _ _ _ HW Ew) as (HW2 & _).
      destruct (winv_drain _ _ _ _ _ _ 0 false HW2) as (w3 & c3 & ->). auto.
    - destruct Hwf as ((i' & Hi' & Hr) & Hst & _). injection Hi' as <-. rewrite Hr.
      destruct (ev_sa hev) as [|s0 sa'] eqn:Esa.
      + destruct (sks_next_spec a fu1 l1i1 dbus2 ebus2 e1 (Some (instr_WriteRegisters i, [])) dt1 HW)
          as (_ & _ & _ & _ & _ & _ & HW2 & _).
        { intros wr sa Hx. injection Hx as <- <-. split; [exact Hwp0|]. split; [apply write_regs_length | congruence]. }
        set (a2 := sks_next a fu1 l1i1 dbus2 ebus2 e1 (Some (instr_WriteRegisters i, [])) dt1) in *.
        destruct (sk_flush i (ev_pc hev) (ev_pc nxt)); [|split; [reflexivity | lia]].
        destruct (winv_drain _ _ _ _ _ _ 1 true HW2) as (w3 & c3 & E). rewrite E.
        split; [reflexivity|]. apply sks_drain_ge in E. exact E.
      + rewrite (Hst ltac:(discriminate)).
        pose proof (addS_next (ev_pc hev) ltac:(lia)) as Hadd.
        rewrite Hadd, Z.eqb_refl. cbn [negb].
        destruct (snd (a_get_all dt1 (s0 :: sa'))); split; try reflexivity; lia.
  Qed.

  Theorem sks_progress hev rest a :
    FInvS app hev a -> evs_wf app (hev :: rest) -> ns_inv a (hev :: rest) ->
    match sks_cycle app a (hev :: rest) with
    | XStuck => False
    | XFin dc _ => (exec_count app (hev :: rest) <= 1)%nat /\ 1 <= dc
    | XStep a' path' dc => 1 <= dc /\ (path' = rest \/ (path' = hev :: rest /\ phis a' < phis a))
    end.
  Proof.
    intros HF Hwf Hns.
    assert (Hpre : match sks_pre app a (hev :: rest) with
                   | XStuck => False
                   | XFin dc _ => rest = [] /\ dc = 1
                   | XStep a' path' dc => 1 <= dc /\ (path' = rest \/
                       (path' = hev :: rest /\ (sks_complete a' = false -> phis a' < phis a)))
                   end).
    { pose proof HF as [Hh [n Hq] Hent Hfu Hok Hpr Hmiss HI2 HI HW Hdtl].
      unfold qlists in Hq. rewrite q_parts_alt in Hq.
      destruct (fu_cycle app (x_fu a) (x_l1i a) (x_dbus a)) as [[[fu1 l1i1] dbus1]| |] eqn:Ef.
      2,3: exfalso; destruct (fu_cycle_spec app (x_fu a) (x_l1i a) (x_dbus a) HI) as (? & ? & ? & E & _); [| assumption | congruence].
      2,3: intros Hc; rewrite (q_pc _ _ _ _ _ Hq Hc); pose proof (nlen_small app Happ); destruct n as [|n]; [lia | pose proof (q_in1 _ _ _ _ _ Hq ltac:(lia) Hc); lia].
      destruct (fq_fu app Happ (ev_pc hev) n _ _ _ _ _ _ _ Hh Hq HI Hfu Ef) as (HI1 & Hfu1 & [n1 Hq1] & Hcur & Hfc).
      pose proof (fq_cur_nonneg app (ev_pc hev) _ _ _ _ ltac:(lia) Hq1) as Hpos.
      destruct (du_cycle_spec app dbus1 (x_ebus a) Hpos) as (dbus2 & ebus1 & Ed & _).
      destruct (sks_eu (is_full (x_wp a)) (x_eu a) ebus1 (x_pw a) (x_dt a) (ev_la hev)) as [[[e1 ebus2] dt1] act] eqn:Ee.
      destruct act as [|i pc|].
      - rewrite (sks_pre_none app a hev rest _ _ _ _ _ _ _ _ Ef Ed Ee).
        split; [lia|]. right. split; [reflexivity|]. intros Hnc. eapply none_phis; eassumption.
      - pose proof (sks_pre_exec hev rest a _ _ _ _ _ _ _ _ _ _ HF Hwf Ef Ed Ee) as H.
        destruct (sks_pre app a (hev :: rest)); auto. destruct H. auto.
      - destruct (fronts_flow app Happ hev a _ _ _ _ _ _ _ _ _ HF Ef Ed Ee) as (_ & _ & Hns' & _). congruence. }
    unfold sks_cycle.
    destruct (sks_pre app a (hev :: rest)) as [a2 p dc|dc dt|] eqn:Ep; [| |contradiction].
    - destruct (finvs_step app Happ hev rest a a2 p dc HF Hwf Hns Ep) as (hev' & rest' & -> & HF' & Hwf' & _ & _).
      destruct Hpre as [Hdc Hpre].
      destruct (sks_complete a2) eqn:Ec.
      + pose proof (completes_out hev' a2 HF' Ec) as Hout. pose proof (evs_wf_out app _ _ Hwf' Hout) as ->. split; [|exact Hdc].
        destruct Hpre as [Hp | [Hp _]].
        * subst rest. rewrite exec_count_cons, (exec_count_out app hev' Hout). destruct (_ <? _); lia.
        * injection Hp as -> <-. rewrite (exec_count_out app hev Hout). lia.
      + split; [exact Hdc|]. destruct Hpre as [Hp | [Hp Hphi]]; [left; exact Hp | right; split; [exact Hp | apply Hphi; reflexivity]].
    - destruct Hpre as [-> ->]. split; [|lia]. rewrite exec_count_cons. unfold exec_count. cbn [filter length]. destruct (_ <? _); lia.
  Qed.

  Definition phis_max : Z := phim_max + 3 * MemoryAccess + 3.
  Definition Ksteps : nat := S (Z.to_nat phis_max).

  Definition sks_eres (r : sks_res) : eres sks :=
    match r with XStep a p dc => EStep a p dc | XFin dc dt => EFin dc dt | XStuck => EStuck end.

  Lemma sks_run_erun : forall fuel a path cyc,
    sks_run fuel app a path cyc = erun (fun a path => sks_eres (sks_cycle app a path)) fuel a path cyc.
  Proof.
    induction fuel as [|f IH]; intros a path cyc; [reflexivity|]. cbn [sks_run erun].
    destruct (sks_cycle app a path); cbn [sks_eres]; auto.
  Qed.

  Lemma sks_run_term : forall (m : nat) rest a hev cyc fuel,
    FInvS app hev a -> evs_wf app (hev :: rest) -> ns_inv a (hev :: rest) ->
    (Z.to_nat (phis a) + length rest * Ksteps <= m)%nat -> (m < fuel)%nat ->
    exists c, sks_run fuel app a (hev :: rest) cyc = Some c /\
              cyc + Z.of_nat (exec_count app (hev :: rest)) <= c.
  Proof.
    intros m rest a hev cyc fuel HF Hwf Hns Hm Hfuel.
    set (P := fun hev rest a => FInvS app hev a /\ evs_wf app (hev :: rest) /\ ns_inv a (hev :: rest)).
    destruct (erun_term sks (fun a path => sks_eres (sks_cycle app a path)) P phis phis_max (exec_count app) (exec_count_le app))
      with (m := m) (rest := rest) (a := a) (hev := hev) (cyc := cyc) (fuel := S m) as (c & Hc & Hlo);
      [| | |exact (conj HF (conj Hwf Hns))|exact Hm|lia|].
    - intros h r b b' p' d (HF1 & Hwf1 & Hns1) E.
      assert (Epre : sks_pre app b (h :: r) = XStep b' p' d).
      { unfold sks_cycle in E. destruct (sks_pre app b (h :: r)) as [a2 p0 d0|d0 t|]; try discriminate.
        destruct (sks_complete a2); [discriminate|]. cbn [sks_eres] in E. congruence. }
      destruct (finvs_step app Happ h r b b' p' d HF1 Hwf1 Hns1 Epre) as (h' & r' & -> & HF' & Hwf' & Hns' & _).
      exists h', r'. split; [reflexivity|]. exact (conj HF' (conj Hwf' Hns')).
    - intros h r b (HF1 & Hwf1 & Hns1). pose proof (sks_progress h r b HF1 Hwf1 Hns1) as Hp.
      destruct (sks_cycle app b (h :: r)); cbn [sks_eres]; exact Hp.
    - intros h r b (HF1 & _). exact (phis_bounds app h b HF1).
    - exists c. split; [|exact Hlo]. rewrite sks_run_erun. replace fuel with (S m + (fuel - S m))%nat by lia. apply erun_more. exact Hc.
  Qed.
End TermS.

(* the skeleton in which every store hits (Mvp4mSkel.v) is this one with an empty
   pending slot, an idle write unit and no store on the write bus *)

Definition hit_item (wr : list Z) : witem := (wr, [], false).

Definition sks_of (a : skm) : sks :=
  mk_sks (m_fu a) (m_l1i a) (m_dbus a) (m_ebus a) (m_eu a) (m_pw a) None (option_map hit_item (m_wb a))
         (mk_wu false 0) (m_dt a) [] false.

Lemma sks_wu_hit pw wp wb :
  sks_wu pw (mk_wu false 0) wp (option_map hit_item wb) = (wdel pw wb, mk_wu false 0, None, wp).
Proof. destruct wb; reflexivity. Qed.

Lemma sks_next_hit a fu1 l1i1 dbus2 ebus2 e1 dt1 :
  sks_next (sks_of a) fu1 l1i1 dbus2 ebus2 e1 None dt1 =
  sks_of (mk_skm fu1 l1i1 dbus2 ebus2 e1 (wdel (m_pw a) (m_wb a)) None dt1).
Proof. unfold sks_next. cbn [sks_of x_pw x_wu x_wp x_wc]. rewrite sks_wu_hit. reflexivity. Qed.

Lemma sks_next_hit_add a fu1 l1i1 dbus2 ebus2 e1 wr dt1 :
  sks_next (sks_of a) fu1 l1i1 dbus2 ebus2 e1 (Some (wr, [])) dt1 =
  sks_of (mk_skm fu1 l1i1 dbus2 ebus2 e1 (wdel (pw_add (m_pw a) wr) (m_wb a)) (Some wr) dt1).
Proof. unfold sks_next. cbn [sks_of x_pw x_wu x_wp x_wc x_l1]. rewrite sks_wu_hit. reflexivity. Qed.

(* a register write on the bus drains in one iteration *)
Lemma sks_drain_hit pw wb cyc tick :
  sks_drain drain_fuel pw (mk_wu false 0) None (option_map hit_item wb) cyc tick =
  Some (mk_wu false 0, match wb with Some _ => if tick then cyc + 1 else cyc | None => cyc end).
Proof. destruct wb; reflexivity. Qed.

Lemma sks_complete_hit a : sks_complete (sks_of a) = skm_complete a.
Proof.
  unfold sks_complete, skm_complete. cbn [sks_of x_fu x_eu x_wu x_dbus x_ebus x_wp x_wc wu_pending is_full negb].
  rewrite !andb_true_r. destruct (m_wb a); reflexivity.
Qed.

Lemma skm_cycle_sks app a path :
  match skm_cycle app a path with
  | MStep a' p dc => sks_cycle app (sks_of a) path = XStep (sks_of a') p dc
  | MFin dc dt => sks_cycle app (sks_of a) path = XFin dc dt
  | MStuck => True
  end.
Proof.
  assert (Hpre : match skm_pre app a path with
                 | MStep a' p dc => sks_pre app (sks_of a) path = XStep (sks_of a') p dc
                 | MFin dc dt => sks_pre app (sks_of a) path = XFin dc dt
                 | MStuck => True
                 end).
  { unfold skm_pre, sks_pre, sks_eu. cbn [sks_of x_fu x_l1i x_dbus x_ebus x_eu x_pw x_wp x_dt is_full andb].
    destruct (fu_cycle app (m_fu a) (m_l1i a) (m_dbus a)) as [[[fu1 l1i1] dbus1]| |]; try exact I.
    destruct (du_cycle app dbus1 (m_ebus a)) as [[dbus2 ebus1]| |]; try exact I.
    destruct (skm_eu (m_eu a) ebus1 (m_pw a) (m_dt a) _) as [[[e1 ebus2] dt1] act].
    destruct act as [|i pc|]; [rewrite sks_next_hit; reflexivity | | exact I].
    unfold sks_exec. destruct path as [|ev rest]; [exact I|]. destruct (negb (ev_pc ev =? pc)); [exact I|].
    destruct (is_ret i).
    - destruct rest; [|exact I]. cbn [sks_of x_pw x_wu x_wp x_wc]. rewrite sks_wu_hit.
      rewrite (sks_drain_hit _ None). reflexivity.
    - destruct rest as [|nxt r]; [exact I|]. destruct (ev_sa ev) as [|s0 sa'].
      + rewrite sks_next_hit_add. cbn [sks_of x_pw x_wu x_wp x_wc x_l1 x_l2 m_wb].
        destruct (sk_flush i pc (ev_pc nxt)); [|reflexivity].
        rewrite (sks_drain_hit _ (Some _)). reflexivity.
      + destruct (ev_pc nxt =? addS 32 pc 4); [|rewrite andb_false_r; exact I].
        rewrite andb_true_r. cbn [negb]. destruct (snd (a_get_all dt1 (s0 :: sa'))); [|exact I].
        rewrite sks_next_hit. reflexivity. }
  unfold skm_cycle, sks_cycle. destruct (skm_pre app a path) as [a2 p dc|dc dt|]; [|rewrite Hpre; reflexivity|exact I].
  rewrite Hpre, sks_complete_hit. destruct (skm_complete a2); reflexivity.
Qed.

Lemma skm_run_sks app : forall fuel a path cyc c,
  skm_run fuel app a path cyc = Some c -> sks_run fuel app (sks_of a) path cyc = Some c.
Proof.
  induction fuel as [|f IH]; intros a path cyc c; cbn [skm_run sks_run]; [discriminate|].
  pose proof (skm_cycle_sks app a path) as H.
  destruct (skm_cycle app a path) as [a' p dc|dc dt|]; [rewrite H; apply IH | rewrite H; auto | discriminate].
Qed.

Lemma stores_hit_no_stale : forall evs dt, stores_hit dt evs = true -> no_stale dt [] false evs = true.
Proof.
  induction evs as [|ev t IH]; intros dt H; [reflexivity|].
  cbn [stores_hit] in H. apply andb_prop in H as [H1 H2].
  cbn [no_stale andb negb nnil]. destruct (ev_sa ev) as [|s0 sa'] eqn:Esa.
  - apply IH. exact H2.
  - rewrite H1. apply IH. exact H2.
Qed.

Lemma cost_mem_sm fuel app evs c : mvp4_cost_mem fuel app evs = Some c -> mvp4_cost_sm fuel app evs = Some c.
Proof.
  unfold mvp4_cost_mem, mvp4_cost_sm. destruct (new_cache l1LineSize l1Size) as [ci| |]; try discriminate.
  apply (skm_run_sks app fuel (skm_init ci)).
Qed.
