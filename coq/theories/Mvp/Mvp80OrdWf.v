(* Soundness of the ghost flag of the model of MVP-8.0: one call of a snoop closure in closed form.

   On a cache whose lines are well-formed (wf_line of Mvp80OrdInvDefs.v: aligned, of full length, below 2^31) the search
   of comp.LRUCache never panics and is the pure function fcov / rmcov of Mvp80OrdCache.v, so Get, GetCacheLine,
   EvictCacheLine and Write have closed forms; lines are disjoint, so two addresses with different
   alignments are never covered by one line (nocov_align).  sn_step is given in these terms, one lemma per
   kind of closure (l1Evict; l1WriteBack; l3Evict and l3WriteBack together as l3cl); the commutation of two closures
   (Mvp80OrdSwap*.v) is then a calculation with fcov / rmcov / sb and with the algebra of the directory. *)
From Coq Require Import ZArith List Bool Lia.
From Maj Require Import Comp.MapFacts.
From Maj Require Import Base.Outcome Base.GoInt Base.GoTypes Isa.Spec Isa.Seq.
From Maj Require Import Gen.Latency Gen.RiscTables Gen.Opcodes Comp.Cache Comp.Rat Comp.RatProofs Mvp.Mvp12 Mvp.Mvp3 Mvp.Mvp5 Mvp.Mvp60 Mvp.Mvp63 Mvp.Mvp80.
From Maj Require Import Mvp.Mvp80OrdSnoop Mvp.Mvp80OrdCache Mvp.Mvp80OrdInvDefs Mvp.Mvp80OrdCommDefs Mvp.Mvp80OrdCong.
Import ListNotations.
Open Scope Z_scope.

Lemma p31 : 2^31 = 2147483648. Proof. reflexivity. Qed.

Lemma wrapS32 : forall x, wrapS 32 x = (x + 2147483648) mod 4294967296 - 2147483648.
Proof. intros x. reflexivity. Qed.

Lemma n64 : 0 < 64 <= 2^30. Proof. lia. Qed.
Lemma n128 : 0 < 128 <= 2^30. Proof. lia. Qed.

(* a covering line really contains the address: hi = lo + n did not wrap *)
Lemma covers_range : forall n l a, 0 < n <= 2^30 -> wf_line n l -> covers l a = true ->
  lo l <= a < lo l + n /\ hi l = lo l + n /\ lo l + n < 2^31.
Proof.
  intros n l a Hn (L & R & Hh & Z) C. unfold covers in C. apply andb_true_iff in C. destruct C as [C1 C2].
  apply Z.leb_le in C1. apply Z.ltb_lt in C2. unfold addS, wrapS in Hh. lia.
Qed.

Lemma covers_intro : forall l a, lo l <= a < hi l -> covers l a = true.
Proof. intros l a H. unfold covers. apply andb_true_iff. split; [apply Z.leb_le | apply Z.ltb_lt]; lia. Qed.

Lemma covers_sub : forall n l a, 0 < n <= 2^30 -> wf_line n l -> covers l a = true -> subS 32 a (lo l) = a - lo l.
Proof.
  intros n l a Hn W C. destruct (covers_range n l a Hn W C) as (R1 & _ & R3). destruct W as (L & _).
  unfold subS. rewrite wrapS32. lia.
Qed.

(* the base of a line is the alignment of every address it covers *)
Lemma covers_align : forall n l a, 0 < n <= 2^30 -> wf_line n l -> covers l a = true -> align8 a n = lo l.
Proof.
  intros n l a Hn W C. destruct (covers_range n l a Hn W C) as (R1 & _ & R3). destruct W as (L & M & _).
  rewrite Z.rem_mod_nonneg in M by lia.
  assert (E : a mod n = a - lo l).
  { symmetry. apply (Z.mod_unique_pos a n (lo l / n)); [lia|]. pose proof (Z.div_mod (lo l) n ltac:(lia)). lia. }
  unfold align8, subS, remS. rewrite Z.rem_mod_nonneg by lia. rewrite E, wrapS32. lia.
Qed.

(* a line that covers a covers every address with the alignment of a *)
Lemma covers_same_align : forall n l a b, 0 < n <= 2^30 -> wf_line n l -> covers l a = true -> 0 <= b < 2^31 ->
  align8 a n = align8 b n -> covers l b = true.
Proof.
  intros n l a b Hn W C Hb E. rewrite (covers_align n l a Hn W C) in E.
  destruct (covers_range n l a Hn W C) as (_ & Hh & R3). destruct W as (L & M & _).
  unfold align8, subS, remS in E. rewrite Z.rem_mod_nonneg in E by lia. rewrite wrapS32 in E.
  pose proof (Z.mod_pos_bound b n ltac:(lia)). apply covers_intro. lia.
Qed.

(* lines are disjoint: different alignments, different lines *)
Lemma nocov_align : forall n ls a b, 0 < n <= 2^30 -> Forall (wf_line n) ls -> align8 a n <> align8 b n -> nocov ls a b.
Proof.
  intros n ls a b Hn W NE l I. rewrite Forall_forall in W. specialize (W l I).
  destruct (covers l a) eqn:Ca, (covers l b) eqn:Cb; try reflexivity.
  exfalso. apply NE. rewrite (covers_align n l a Hn W Ca), (covers_align n l b Hn W Cb). reflexivity.
Qed.

Lemma nocov_l1 : forall ls a b, Forall (wf_line 64) ls -> l1_align a = a -> l1_align b = b -> a <> b -> nocov ls a b.
Proof. intros ls a b W Aa Ab NE. apply (nocov_align 64); [exact n64 | exact W |].
  change (l1_align a <> l1_align b). congruence.
Qed.

Lemma nocov_l3 : forall ls a b, Forall (wf_line 128) ls -> l3_align a <> l3_align b -> nocov ls a b.
Proof. intros ls a b W NE. apply (nocov_align 128); [exact n128 | exact W | exact NE]. Qed.

Lemma wf_line_sb : forall m l n vs, wf_line m l -> wf_line m (mkLine (lo l) (hi l) (sb (data l) n vs)).
Proof. intros m l n vs (A & B & C & D). unfold wf_line. cbn [lo hi data]. rewrite zlen_sb. auto. Qed.

(* the byte Get returns *)
Definition fv (l : line) (a : Z) : Z := nth (Z.to_nat (subS 32 a (lo l))) (data l) 0.

Lemma line_get_wf : forall n l a, 0 < n <= 2^30 -> wf_line n l ->
  line_get l a = Ok (if covers l a then Some (fv l a) else None).
Proof.
  intros n l a Hn W. unfold line_get. fold (covers l a). destruct (covers l a) eqn:C; [|reflexivity].
  destruct (covers_range n l a Hn W C) as (R1 & _). unfold fv. rewrite (covers_sub n l a Hn W C).
  destruct W as (_ & _ & _ & D). unfold idx_get. rewrite D.
  replace ((0 <=? a - lo l) && (a - lo l <? n)) with true
    by (symmetry; apply andb_true_iff; split; [apply Z.leb_le | apply Z.ltb_lt]; lia).
  reflexivity.
Qed.

Lemma find_line_wf : forall n ls a, 0 < n <= 2^30 -> Forall (wf_line n) ls ->
  find_line ls a = Ok (match fcov ls a with Some l => Some (fv l a, l, rmcov ls a) | None => None end).
Proof.
  intros n ls a Hn. induction ls as [|l t IH]; intros W; [reflexivity|].
  inversion W as [|? ? W1 W2]; subst. cbn [find_line fcov rmcov].
  rewrite (line_get_wf n l a Hn W1). destruct (covers l a); cbn [bind]; [reflexivity|].
  rewrite (IH W2). cbn [bind]. destruct (fcov t a); reflexivity.
Qed.

Lemma set_lines_id : forall c, set_lines c (lines c) = c.
Proof. intros [n ll ls]. reflexivity. Qed.

Lemma get_wf : forall n c a, 0 < n <= 2^30 -> Forall (wf_line n) (lines c) ->
  get c a = Ok (match fcov (lines c) a with
                | Some l => (set_lines c (l :: rmcov (lines c) a), Some (fv l a))
                | None => (c, None) end).
Proof. intros n c a Hn W. unfold get. rewrite (find_line_wf n _ a Hn W). cbn [bind]. destruct (fcov _ _); reflexivity. Qed.

Lemma get_cache_line_wf : forall n c a, 0 < n <= 2^30 -> Forall (wf_line n) (lines c) ->
  get_cache_line c a = Ok (option_map data (fcov (lines c) a)).
Proof.
  intros n c a Hn W. unfold get_cache_line. rewrite (find_line_wf n _ a Hn W). cbn [bind]. destruct (fcov _ _); reflexivity.
Qed.

Lemma evict_cache_line_wf : forall n c a, 0 < n <= 2^30 -> Forall (wf_line n) (lines c) ->
  evict_cache_line c a = Ok (set_lines c (rmcov (lines c) a), option_map data (fcov (lines c) a)).
Proof.
  intros n c a Hn W. unfold evict_cache_line. rewrite (find_line_wf n _ a Hn W). cbn [bind].
  destruct (fcov (lines c) a) eqn:F; cbn [option_map]; [reflexivity|].
  rewrite (rmcov_none _ _ F), set_lines_id. reflexivity.
Qed.

Lemma evict_wf : forall n c a c' o, 0 < n <= 2^30 -> evict_cache_line c a = Ok (c', o) -> wf_cache n c -> wf_cache n c'.
Proof.
  intros n c a c' o Hn H [L W]. rewrite (evict_cache_line_wf n c a Hn W) in H. injection H as <- _.
  split; [exact L | apply Forall_rmcov; exact W].
Qed.

(* Line.set in a loop, inside the line *)
Lemma set_bytes_sb : forall vs d lo_ a i,
  0 <= lo_ -> 0 <= a -> 0 <= i -> lo_ <= a + i -> a + i + zlen vs <= lo_ + zlen d -> a + i + zlen vs <= 2^31 ->
  set_bytes d lo_ a i vs = Ok (sb d (Z.to_nat (a + i - lo_)) vs).
Proof.
  induction vs as [|v t IH]; intros d lo_ a i H0 Ha H1 H2 H3 H4; cbn [set_bytes sb]; [reflexivity|].
  unfold zlen in H3, H4. cbn [length] in H3, H4.
  assert (E : subS 32 (addS 32 a (to_i32 i)) lo_ = a + i - lo_).
  { unfold subS, addS, to_i32.
    assert (E1 : wrapS 32 i = i) by (unfold wrapS; lia). rewrite E1.
    assert (E2 : wrapS 32 (a + i) = a + i) by (unfold wrapS; lia). rewrite E2.
    unfold wrapS; lia. }
  rewrite E. unfold idx_set.
  assert (R : (0 <=? a + i - lo_) && (a + i - lo_ <? zlen d) = true).
  { apply andb_true_iff. split; [apply Z.leb_le | apply Z.ltb_lt]; unfold zlen; lia. }
  rewrite R. cbn [bind].
  rewrite IH; unfold zlen; rewrite ?upd_length; try lia.
  replace (Z.to_nat (a + (i + 1) - lo_)) with (S (Z.to_nat (a + i - lo_))) by lia. reflexivity.
Qed.

(* Write into the line at the front *)
Lemma write_front_wf : forall n c l r a vs, 0 < n <= 2^30 -> lines c = l :: r -> wf_line n l -> covers l a = true ->
  a + zlen vs <= lo l + n ->
  write c a vs = Ok (set_lines c (mkLine (lo l) (hi l) (sb (data l) (Z.to_nat (a - lo l)) vs) :: r)).
Proof.
  intros n c l r a vs Hn E W C Hv. destruct (covers_range n l a Hn W C) as (R1 & R2 & R3).
  unfold write. rewrite E. cbn [write_lines]. rewrite (line_get_wf n l a Hn W), C. cbn [bind].
  destruct W as (L & _ & _ & D).
  rewrite set_bytes_sb by (rewrite ?D; lia). cbn [bind]. replace (a + 0 - lo l) with (a - lo l) by lia. reflexivity.
Qed.

Lemma seq_upd_eq : forall (d : list Z) n v, Seq.upd d n v = upd d n v.
Proof. induction d as [|x t IH]; intros [|n] v; cbn [Seq.upd upd]; try reflexivity. f_equal. apply IH. Qed.

(* writeToMemory at a non-negative address *)
Lemma write_to_memory_sb : forall d mem a, 0 <= a -> write_to_memory mem a d = Ok (sb mem (Z.to_nat a) d).
Proof.
  induction d as [|v t IH]; intros mem a Ha; cbn [write_to_memory sb]; [reflexivity|].
  destruct (Z.leb_spec (Z.of_nat (length mem)) a) as [H|H].
  - rewrite upd_oob by lia. rewrite sb_oob by lia. reflexivity.
  - destruct (Z.ltb_spec a 0); [lia|].
    rewrite IH by lia. unfold mset. rewrite seq_upd_eq. replace (Z.to_nat (a + 1)) with (S (Z.to_nat a)) by lia. reflexivity.
Qed.

(* the completion callback touches neither l3Lock nor l3Write *)
Lemma cmd_done_setlock : forall k a b key cid, cmd_done (l3_setlock k a b) key cid = l3_setlock (cmd_done k key cid) a b.
Proof. intros. unfold cmd_done, l3_setlock. destruct (_ || _); reflexivity. Qed.

Lemma cmd_done_setl3write : forall k m key cid, cmd_done (set_l3write k m) key cid = set_l3write (cmd_done k key cid) m.
Proof. intros. unfold cmd_done. destruct (_ || _); reflexivity. Qed.

Lemma k_l3write_cmd_done : forall k key cid, k_l3write (cmd_done k key cid) = k_l3write k.
Proof. intros. unfold cmd_done. destruct (_ || _); reflexivity. Qed.

Lemma l3_locked_cmd_done : forall k key cid a, l3_locked (cmd_done k key cid) a = l3_locked k a.
Proof. intros. unfold cmd_done, l3_locked. destruct (_ || _); reflexivity. Qed.

Lemma l3_locked_setl3write : forall k m a, l3_locked (set_l3write k m) a = l3_locked k a.
Proof. reflexivity. Qed.

Lemma l3_locked_setlock : forall k a b v, l3_align a <> l3_align b -> l3_locked (l3_setlock k b v) a = l3_locked k a.
Proof.
  intros k a b v H. unfold l3_locked, l3_setlock. cbn [set_l3lock k_l3lock]. rewrite aget_aset.
  replace (l3_align a =? l3_align b) with false by (symmetry; apply Z.eqb_neq; exact H). reflexivity.
Qed.

Lemma aset_swap : forall {A} (m : list (Z * A)) p q u v x, p <> q ->
  aget x (aset p u (aset q v m)) = aget x (aset q v (aset p u m)).
Proof.
  intros A m p q u v x H. rewrite !aget_aset.
  destruct (x =? p) eqn:E1, (x =? q) eqn:E2; try reflexivity.
  apply Z.eqb_eq in E1. apply Z.eqb_eq in E2. congruence.
Qed.

Lemma setlock_setl3write_equiv : forall K K' M M' b v,
  msi_equiv K K' -> (forall x, aget x M = aget x M') ->
  msi_equiv (l3_setlock (set_l3write K M) b v) (l3_setlock (set_l3write K' M') b v).
Proof. intros K K' M M' b v E HM. apply l3_setlock_equiv. apply set_l3write_equiv; assumption. Qed.

Lemma kind_isl1 : forall s, sn_kind_ok s -> is_l1_req (sn_key s) = sn_isl1 s.
Proof. intros [k c|k c|k c x y z|k c n] H; cbn [sn_kind_ok sn_key sn_isl1] in *; unfold is_l1_req; rewrite H; reflexivity. Qed.

Lemma unary_l1 : forall k id s, sn_unary k id s -> sn_isl1 s = true ->
  l1_align (ck_addr (sn_key s)) = ck_addr (sn_key s).
Proof. intros k id s (K & _ & A & _) L. unfold key_aligned in A. rewrite (kind_isl1 s K), L in A. exact A. Qed.

Lemma unary_l3 : forall k id s, sn_unary k id s -> sn_isl1 s = false ->
  l3_align (ck_addr (sn_key s)) = ck_addr (sn_key s).
Proof. intros k id s (K & _ & A & _) L. unfold key_aligned in A. rewrite (kind_isl1 s K), L in A. exact A. Qed.

(* the hypothesis of cmd_done_comm *)
Lemma unary_pget : forall k id s, sn_unary k id s ->
  is_l1_req (sn_key s) = true -> pget zz_eqb (ck_id (sn_key s), ck_addr (sn_key s)) (k_states k) <> None.
Proof. intros k id s (K & I & _ & P) L. rewrite I. apply P. rewrite <- (kind_isl1 s K). exact L. Qed.

Lemma sn_step_E1 : forall mem l3 k c key cid, Forall (wf_line 64) (lines (c_l1d c)) ->
  sn_step (mk_mw mem l3 k) c (SnL1Evict key cid) =
  Ok (mk_mw mem l3 (cmd_done k key cid),
      set_l1d c (set_lines (c_l1d c) (rmcov (lines (c_l1d c)) (ck_addr key))), None).
Proof. intros mem l3 k c key cid W. unfold sn_step. rewrite (evict_cache_line_wf 64 _ _ n64 W). reflexivity. Qed.

(* the two 64-byte halves of a 128-byte line *)
Lemma half_line : forall l1 l a, wf_line 64 l1 -> wf_line 128 l -> covers l1 a = true -> covers l a = true ->
  l1_align a = a -> a = lo l1 /\ (a = lo l \/ a = lo l + 64).
Proof.
  intros l1 l a W1 W C1 C A.
  pose proof (covers_align 64 l1 a n64 W1 C1) as E. change (l1_align a = lo l1) in E. rewrite A in E.
  destruct (covers_range 128 l a n128 W C) as (R & _). destruct W1 as (L1 & M1 & _). destruct W as (L & M & _).
  rewrite Z.rem_mod_nonneg in M1, M by lia. split; [exact E | lia].
Qed.

Lemma sn_step_W1 : forall mem l3 k c key cid c1 c2 c3,
  Forall (wf_line 64) (lines (c_l1d c)) -> Forall (wf_line 128) (lines l3) -> l1_align (ck_addr key) = ck_addr key ->
  sn_step (mk_mw mem l3 k) c (SnL1WriteBack key cid c1 c2 c3) =
  if 0 <? c1 then Ok (mk_mw mem l3 k, c, Some (SnL1WriteBack key cid (c1 - 1) c2 c3)) else
  match fcov (lines (c_l1d c)) (ck_addr key) with
  | None => Panic
  | Some l1 =>
    match fcov (lines l3) (ck_addr key) with
    | None =>
        if 0 <? c2 then Ok (mk_mw mem l3 k, c, Some (SnL1WriteBack key cid c1 (c2 - 1) c3)) else
        Ok (mk_mw (sb mem (Z.to_nat (ck_addr key)) (data l1)) l3 (cmd_done k key cid),
            set_l1d c (set_lines (c_l1d c) (rmcov (lines (c_l1d c)) (ck_addr key))), None)
    | Some l =>
        if 0 <? c3 then Ok (mk_mw mem (set_lines l3 (l :: rmcov (lines l3) (ck_addr key))) k, c,
                            Some (SnL1WriteBack key cid c1 c2 (c3 - 1))) else
        Ok (mk_mw mem (set_lines l3 (mkLine (lo l) (hi l) (sb (data l) (Z.to_nat (ck_addr key - lo l)) (data l1))
                                     :: rmcov (lines l3) (ck_addr key)))
                  (cmd_done (set_l3write k (aset (l3_align (ck_addr key)) true (k_l3write k))) key cid),
            set_l1d c (set_lines (c_l1d c) (rmcov (lines (c_l1d c)) (ck_addr key))), None)
    end
  end.
Proof.
  intros mem l3 k c key cid c1 c2 c3 W1 W3 A. unfold sn_step. cbn [w_mem w_l3 w_msi].
  destruct (0 <? c1); [reflexivity|].
  rewrite (get_cache_line_wf 64 _ _ n64 W1).
  destruct (fcov (lines (c_l1d c)) (ck_addr key)) as [l1|] eqn:F1; cbn [option_map bind]; [|reflexivity].
  destruct (fcov_some _ _ _ F1) as [_ C1]. pose proof (Forall_fcov _ _ _ _ W1 F1) as WL1.
  destruct (covers_range 64 l1 _ n64 WL1 C1) as (R1 & _).
  rewrite (get_wf 128 _ _ n128 W3).
  destruct (fcov (lines l3) (ck_addr key)) as [l|] eqn:F3; cbn [bind].
  - destruct (0 <? c3); [reflexivity|].
    destruct (fcov_some _ _ _ F3) as [_ C3]. pose proof (Forall_fcov _ _ _ _ W3 F3) as WL.
    destruct (half_line l1 l _ WL1 WL C1 C3 A) as [_ H].
    unfold cc_write_l3. cbn [set_wl3 w_mem w_l3 w_msi].
    rewrite (write_front_wf 128 (set_lines l3 (l :: rmcov (lines l3) (ck_addr key))) l _ _ (data l1) n128 eq_refl WL C3)
      by (destruct WL1 as (_ & _ & _ & D); rewrite D; lia).
    cbn [bind]. rewrite (evict_cache_line_wf 64 _ _ n64 W1), F1. reflexivity.
  - destruct (0 <? c2); [reflexivity|].
    destruct WL1 as (L1 & _). rewrite write_to_memory_sb by lia. cbn [bind].
    rewrite (evict_cache_line_wf 64 _ _ n64 W1), F1. reflexivity.
Qed.

(* l3Evict and l3WriteBack: the same closure, except that l3WriteBack first waits MemoryAccess cycles and writes the
   line to memory before it evicts it *)
Definition l3cl (wb : bool) (key : cmdk) (cid n : Z) : snoop_cl :=
  if wb then SnL3WriteBack key cid n else SnL3Evict key cid.

(* what the last call does to the directory *)
Definition l3msi (k : msi8) (key : cmdk) (cid : Z) : msi8 :=
  l3_setlock (cmd_done (set_l3write k (aset (ck_addr key) false (k_l3write k))) key cid) (ck_addr key) false.

(* what the last call does to memory and to the L3 *)
Definition l3data (wb : bool) (m : list Z) (c : cache) (a : Z) : outcome (list Z * cache) :=
  if wb then
    match fcov (lines c) a with
    | None => Panic
    | Some l => Ok (sb m (Z.to_nat a) (data l), set_lines c (rmcov (lines c) a))
    end
  else Ok (m, set_lines c (rmcov (lines c) a)).

Lemma l3cl_key : forall wb key cid n, sn_key (l3cl wb key cid n) = key.
Proof. intros [|]; reflexivity. Qed.

Lemma l3cl_isl1 : forall wb key cid n, sn_isl1 (l3cl wb key cid n) = false.
Proof. intros [|]; reflexivity. Qed.

Lemma sn_step_count : forall wb key cid n w c, wb && (0 <? n) = true ->
  sn_step w c (l3cl wb key cid n) = Ok (w, c, Some (l3cl wb key cid (n - 1))).
Proof.
  intros wb key cid n w c H. apply andb_true_iff in H as [-> H]. cbn [l3cl sn_step]. rewrite H. reflexivity.
Qed.

Lemma sn_step_l3 : forall wb mem l3 k c key cid n, Forall (wf_line 128) (lines l3) ->
  sn_step (mk_mw mem l3 k) c (l3cl wb key cid n) =
  if wb && (0 <? n) then Ok (mk_mw mem l3 k, c, Some (l3cl wb key cid (n - 1))) else
  if negb (l3_locked k (ck_addr key)) then Ok (mk_mw mem l3 (l3_setlock k (ck_addr key) true), c, Some (l3cl wb key cid n)) else
  d <- l3data wb mem l3 (ck_addr key) ;; Ok (mk_mw (fst d) (snd d) (l3msi k key cid), c, None).
Proof.
  intros wb mem l3 k c key cid n W. destruct wb; cbn [l3cl sn_step andb l3data w_mem w_l3 w_msi set_wmsi].
  - destruct (0 <? n); [reflexivity|]. destruct (negb (l3_locked k (ck_addr key))); [reflexivity|].
    rewrite (get_cache_line_wf 128 _ _ n128 W).
    destruct (fcov (lines l3) (ck_addr key)) as [l|] eqn:F; cbn [option_map bind]; [|reflexivity].
    destruct (fcov_some _ _ _ F) as [_ C]. pose proof (Forall_fcov _ _ _ _ W F) as Wl.
    destruct (covers_range 128 l _ n128 Wl C) as (R1 & _). destruct Wl as (L & _).
    rewrite write_to_memory_sb by lia. cbn [bind].
    rewrite (evict_cache_line_wf 128 _ _ n128 W), F. reflexivity.
  - destruct (negb (l3_locked k (ck_addr key))); [reflexivity|].
    rewrite (evict_cache_line_wf 128 _ _ n128 W). reflexivity.
Qed.

Lemma l3data_wf : forall wb m c a d, Forall (wf_line 128) (lines c) -> l3data wb m c a = Ok d ->
  Forall (wf_line 128) (lines (snd d)).
Proof.
  intros wb m c a d W H.
  assert (G : Forall (wf_line 128) (lines (set_lines c (rmcov (lines c) a)))) by (apply Forall_rmcov; exact W).
  unfold l3data in H. destruct wb; [destruct (fcov (lines c) a); [|discriminate]|]; inversion H; subst; exact G.
Qed.

Lemma sn_compat_sym : forall x y, sn_compat x y -> sn_compat y x.
Proof.
  intros x y [H1 H2]. split.
  - rewrite sn_conflict_sym. exact H1.
  - intros A B E. apply (H2 B A). symmetry. exact E.
Qed.

Lemma swapped_intro : forall w1 w2 (c : cc8) (o1 o2 : option snoop_cl),
  w_mem w1 = w_mem w2 -> w_l3 w1 = w_l3 w2 -> msi_equiv (w_msi w1) (w_msi w2) ->
  sn2_swapped (w1, c, o1, o2) (w2, c, o2, o1).
Proof. intros w1 w2 c o1 o2 A B C. unfold sn2_swapped. cbn [fst snd]. auto 10. Qed.

(* a closure that only counts down commutes with everything *)
Lemma swap_idle_l : forall x y o w c, (forall w c, sn_step w c x = Ok (w, c, o)) ->
  orel_sw sn2_swapped (sn2 w c x y) (sn2 w c y x).
Proof.
  intros x y o w c H. unfold sn2. rewrite H. cbn [bind fst snd].
  destruct (sn_step w c y) as [[[w' c'] o']| e |]; cbn [bind fst snd orel_sw]; [|reflexivity|exact I].
  rewrite H. cbn [bind fst snd orel_sw]. apply swapped_intro; try reflexivity. apply msi_equiv_refl.
Qed.

Lemma swap_idle_r : forall x y o w c, (forall w c, sn_step w c y = Ok (w, c, o)) ->
  orel_sw sn2_swapped (sn2 w c x y) (sn2 w c y x).
Proof.
  intros x y o w c H. unfold sn2. rewrite H. cbn [bind fst snd].
  destruct (sn_step w c x) as [[[w' c'] o']| e |]; cbn [bind fst snd orel_sw]; [|reflexivity|exact I].
  rewrite H. cbn [bind fst snd orel_sw]. apply swapped_intro; try reflexivity. apply msi_equiv_refl.
Qed.

(* the caches of every state in sight are well-formed; the key of an l1WriteBack is aligned *)
Ltac wfs := cbn [lines set_lines c_l1d set_l1d];
  repeat (first [assumption | apply Forall_cons | apply Forall_rmcov | apply wf_line_sb]).

(* the case we are in: the hypotheses left by destruct .. eqn: *)
Ltac rw := repeat match goal with
  | H : (0 <? _) = _ |- _ => rewrite H
  | H : fcov _ _ = _ |- _ => rewrite H
  | H : negb _ = _ |- _ => rewrite H
  end.

(* The second call of each order: put it in closed form in the state the first call left, and bring what it looks up
   there back to the initial state.  N, N': no line covers both addresses, in the cache both closures work on. *)
Ltac go N N' := repeat (
  first [ progress cbn [bind fst snd lines set_lines nlines llen lo hi data c_l1d set_l1d andb l3data]
        | rewrite sn_step_W1 by wfs | rewrite sn_step_l3 by wfs
        | rewrite l3_locked_cmd_done | rewrite l3_locked_setl3write
        | rewrite fcov_cons_nc by assumption | rewrite rmcov_cons_nc by assumption
        | rewrite fcov_cons_c by assumption | rewrite rmcov_cons_c by assumption
        | rewrite (fcov_rmcov _ _ _ N) | rewrite (fcov_rmcov _ _ _ N')
        | progress rw ]).

(* both orders have panicked, or the two results are compared component by component *)
Ltac fin N := cbn [orel_sw];
  first [ exact I | reflexivity
        | rewrite ?(rmcov_comm _ _ _ N); unfold sn2_swapped; cbn [fst snd w_mem w_l3 w_msi];
          split; [|split; [|split; [|split; [|split]]]]; try reflexivity; try apply msi_equiv_refl ].
