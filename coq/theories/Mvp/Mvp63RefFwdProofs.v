(* Refinement of MVP-6.3 to the sequential machine on single-assignment register-only programs with FORWARD control
   flow - last part: a fresh state satisfies the invariant of the main loop (fresh3_G3q), NewCPU ; InitRAT gives a
   fresh state (init3_fresh3), one segment of a run (seg_run3q: main loop, drain loop after ret, the flush loops of
   Mvp63RefFwdFlush.flush_run; seg_fresh: the same from a fresh state, with the sequential run that goes on at the
   target), the induction over the segments (fwd_core3) and the theorem. *)
From Coq Require Import ZArith List Bool Lia Permutation.
From Maj Require Import Base.Outcome Base.GoInt Base.GoTypes Isa.Spec Isa.Embed Isa.Seq Isa.Refine Gen.Opcodes.
From Maj Require Import Gen.Latency Gen.RiscTables Comp.Cache Comp.Rat Comp.RatProofs.
From Maj Require Import Mvp.Mvp12 Mvp.Mvp12Proofs Mvp.Mvp3 Mvp.Mvp3Proofs Mvp.Mvp4Skel Mvp.Mvp4Inv Mvp.Mvp5 Mvp.Mvp60 Mvp.Mvp60Proofs
     Mvp.Mvp60RefSem Mvp.Mvp60RefDefs Mvp.Mvp60RefFront Mvp.Mvp60RefBack Mvp.Mvp60RefStep Mvp.Mvp60RefStep2 Mvp.Mvp60RefSeg Mvp.Mvp60RefProofs
     Mvp.Mvp63 Mvp.Mvp63Proofs Mvp.Mvp63RefDefs Mvp.Mvp63RefInv Mvp.Mvp63RefExec Mvp.Mvp63RefRat Mvp.Mvp63RefStep Mvp.Mvp63RefProofs
     Mvp.Mvp63RefFwdDefs Mvp.Mvp63RefFwdRat Mvp.Mvp63RefFwdFront Mvp.Mvp63RefFwdFlush Mvp.Mvp63RefFwdStep.
Import ListNotations.
Open Scope Z_scope.

(* the text is short enough for the sequence ids (pc + 1000 * ctx.sequenceID, int32; ctx.sequenceID grows by at most
   two per segment: fetchUnit.reset of a jump, CPU.flush) never to wrap *)
Definition seq_ids_fit3 (app : list instr) : Prop := 2004 * Z.of_nat (length app) + 2004 < 2147483648.

(* ticks of Run that suffice for one segment (main loop + flush loops) / for a whole run *)
Definition seg_bound63 (n : nat) : nat := (400 * n + 1600 + 8)%nat.
Definition fuel_bound63_fwd (n : nat) : nat := ((n + 1) * seg_bound63 n)%nat.

(* the hypotheses of a segment *)
Definition SegHyp (app : list instr) (labels : Z -> option Z) (regs0 : list Z) (base : nat) (sq : Z) : Prop :=
  length regs0 = 32%nat /\ Forall int32 regs0 /\ nth 0 regs0 0 = 0 /\ (base <= length app)%nat /\
  (0 <= sq /\ 1000 * sq + 4 * Z.of_nat (length app) + 4 < 2147483648).

(* ------------------------------------------------------------------ *)
(* a fresh state                                                        *)

Lemma cnt_nil f s : cnt f [] s = 0. Proof. reflexivity. Qed.

Lemma fresh3_G3q app labels mem0 t sq R s : Fresh3 app labels mem0 t sq R s -> (t <= length app)%nat ->
  G3q app labels R mem0 t sq t t t t t t s.
Proof.
  intros HF Ht. destruct (fresh3_front app labels mem0 t sq R s HF Ht) as (HFr & HTag & Hcu).
  pose proof (h3_regs _ _ _ _ _ _ _ HF) as Hregs. pose proof (h3_mem _ _ _ _ _ _ _ HF) as Hmem. pose proof (h3_pw _ _ _ _ _ _ _ HF) as Hpw. pose proof (h3_pr _ _ _ _ _ _ _ HF) as Hpr.
  pose proof (h3_l3 _ _ _ _ _ _ _ HF) as Hl3. pose proof (h3_wbus _ _ _ _ _ _ _ HF) as Hwbus. pose proof (h3_ebus _ _ _ _ _ _ _ HF) as Hebus. pose proof (h3_pend _ _ _ _ _ _ _ HF) as Hpend.
  pose proof (h3_prev _ _ _ _ _ _ _ HF) as Hprev. pose proof (h3_pcb _ _ _ _ _ _ _ HF) as Hpcb. pose proof (h3_seq _ _ _ _ _ _ _ HF) as Hseq. pose proof (h3_tab _ _ _ _ _ _ _ HF) as Htab.
  pose proof (h3_fwd _ _ _ _ _ _ _ HF) as Hfwd. pose proof (h3_chan _ _ _ _ _ _ _ HF) as Hchan. pose proof (h3_os _ _ _ _ _ _ _ HF) as Hos. pose proof (h3_eus _ _ _ _ _ _ _ HF) as Heus.
  pose proof (h3_stale _ _ _ _ _ _ _ HF) as Hstale. pose proof (h3_wus _ _ _ _ _ _ _ HF) as Hwus. pose proof (h3_wne _ _ _ _ _ _ _ HF) as Hwne. pose proof (h3_len _ _ _ _ _ _ _ HF) as Hlen.
  pose proof (h3_mode _ _ _ _ _ _ _ HF) as Hmode.
  pose proof (stop_from_ge app t) as HtN.
  constructor.
  - rewrite Hpend. cbn [length]. rewrite Nat.add_0_r. exact HFr.
  - exact HTag.
  - exact Hcu.
  - rewrite Hpend, Hprev. constructor; rewrite ?Hebus, ?Hwbus, ?Hpw, ?Hpr; cbn [flat bb_new bb_q bb_buf map List.app length recvs fwds flat_map];
      try rewrite Nat.sub_diag; cbn [seq map]; auto; try (constructor; fail); try lia.
    + intros s0 Hs. unfold zero_sb. rewrite nth_repeat_same. reflexivity.
    + intros s0 Hs. unfold zero_sb. rewrite nth_repeat_same. reflexivity.
    + rewrite Hpcb. discriminate.
    + intros p [].
  - rewrite Hebus. apply busok_new.
  - rewrite Hebus. unfold blen, bb_new. cbn. lia.
  - exact Heus.
  - exact Hstale.
  - exact Hwus.
  - exact Hwne.
  - exact Hlen.
  - rewrite Hwbus. reflexivity.
  - rewrite Hwbus. unfold blen, bb_new. cbn. lia.
  - rewrite Hwbus. unfold blen, bb_new. cbn. lia.
  - exact Hmode.
Qed.

(* NewCPU ; InitRAT *)
Lemma init3_fresh3 app labels ord par st : (1 <= par)%nat -> length (regs st) = 32%nat -> nth 0 (regs st) 0 = 0 ->
  exists s0, init3 par ord app st = Ok s0 /\ Fresh3 app labels (mem st) 0 0 (regs st) s0.
Proof.
  intros Hpar Hlen Hx0. destruct init_caches as (c0 & E0 & HI0 & _ & _). unfold init3. rewrite E0.
  change (new_cache l3LineSize l3Size) with (Ok (mkCache 16 64 [])). eexists. split; [reflexivity|].
  constructor; cbn [t_x t_eus t_wus t_cycle t_mode x_m x_ebus x_pend x_prev x_pcb x_seq x_crat x_trat x_fwd x_chan x_next x_os
                    m_regs m_mem m_pw m_pr m_l3 m_fu m_l1i m_dret m_dpbr m_cu m_bu m_dbus m_cbus m_ebus m_wbus f_pc f_complete f_co b_btb lines];
    auto; try reflexivity; try (constructor; fail).
  - apply tab_init. assumption.
  - apply Forall_forall. intros e He. apply repeat_spec in He. subst e. split; reflexivity.
  - apply Forall_forall. intros e He. apply repeat_spec in He. subst e. intros r Hr. discriminate Hr.
  - apply Forall_forall. intros e He. apply repeat_spec in He. subst e. reflexivity.
  - destruct par; [lia | discriminate].
  - rewrite !repeat_length. reflexivity.
Qed.

(* ------------------------------------------------------------------ *)
(* one segment                                                          *)

Section SegRun.
  Variables (app : list instr) (labels : Z -> option Z) (regs0 mem0 : list Z) (base : nat) (sq : Z) (ord : Z -> Z -> list Z -> list Z).
  Hypothesis Happ : wf_app app.
  Hypothesis Hreg : reg_only app = true.
  Hypothesis Hssa : ssa app = true.
  Hypothesis Hrng : regs_ok app = true.
  Hypothesis HSeg : SegHyp app labels regs0 base sq.
  Let n := length app.
  Let N := stop_from app base.

  Notation sreg := (sreg app labels regs0 base).
  Notation kout := (kout app labels regs0 base).
  Notation G3q := (G3q app labels regs0 mem0 base sq).
  Notation GR3q := (GR3q app labels regs0 mem0 base sq).
  Notation GF3 := (GF3 app labels regs0 mem0 base sq).
  Notation Fin3q := (Fin3q app labels regs0 mem0 base).

  Hypothesis Hsem : forall k, (base <= k <= N)%nat -> (k < n)%nat ->
    exec (sinstr_of (ik app k)) (rget (sreg k)) labels (pcz k) [] = Ok (eff app labels regs0 base k) /\
    (forall a, etarget (eff app labels regs0 base k) = Some a -> exists t, a = pcz t /\ (k < t <= n)%nat).
  Hypothesis Htot : forall k rr, (k < n)%nat -> exists e, exec (sinstr_of (ik app k)) rr labels (pcz k) [] = Ok e.

  Inductive SInv3q (s : st3) : Prop :=
  | SI3q_n dp d c f xe w : G3q dp d c f xe w s -> SInv3q s
  | SI3q_r w : GR3q w s -> SInv3q s.

  Definition mu3q (s : st3) : Z :=
    match t_mode s with
    | NNormal => phiX app (t_x s) + 3
    | _ => qlen (m_wbus (x_m (t_x s)))
    end.

  Lemma phiX_nn dp d c f xe w s : G3q dp d c f xe w s -> 0 <= phiX app (t_x s).
  Proof.
    intros HG. unfold phiX.
    pose proof (fr_fetch _ _ _ _ _ _ _ (q3_front _ _ _ _ _ _ _ _ _ _ _ _ _ HG)) as HFt.
    pose proof (phiF_nonneg app base _ _ _ HFt) as HP. cbn [untag_m set_cbus m_fu] in HP.
    pose proof (blen_ge0 (m_dbus (x_m (t_x s)))). pose proof (qlen_ge0 (m_dbus (x_m (t_x s)))). pose proof (blen_ge0 (m_cbus (x_m (t_x s)))).
    pose proof (qlen_ge0 (m_cbus (x_m (t_x s)))). pose proof (zlen_nonneg (x_pend (t_x s))). pose proof (blen_ge0 (x_ebus (t_x s))).
    pose proof (qlen_ge0 (x_ebus (t_x s))). pose proof (blen_ge0 (m_wbus (x_m (t_x s)))). pose proof (qlen_ge0 (m_wbus (x_m (t_x s)))). lia.
  Qed.

  Lemma mu3q_nonneg s : SInv3q s -> 0 <= mu3q s.
  Proof.
    intros [dp d c f xe w HG|w HG]; unfold mu3q.
    - rewrite (q3_mode _ _ _ _ _ _ _ _ _ _ _ _ _ HG). pose proof (phiX_nn _ _ _ _ _ _ _ HG). lia.
    - rewrite (rq_mode _ _ _ _ _ _ _ _ HG). apply qlen_ge0.
  Qed.

  (* how a segment ends: Run returns, or a flush leads to a fresh state at the target *)
  Definition SegEnd3 (s : st3) (bound : nat) : Prop :=
    (exists k r, (1 <= k <= bound)%nat /\ (forall extra, run3_st (k + extra) app labels ord s = inl (r, false)) /\ Fin3q r) \/
    (exists k s' E t sqx, (1 <= k <= bound)%nat /\ (forall extra, run3_st (k + extra) app labels ord s = run3_st extra app labels ord s') /\
       Fresh3 app labels mem0 t (sqx + 1) (sreg (S E)) s' /\ (base <= E <= N)%nat /\ (E < t <= n)%nat /\
       (forall k', (base <= k' < E)%nat -> kout k' = euo_none) /\ kout E = mk_euo6 true (pcz E) (pcz t) false /\ sq <= sqx <= sq + 1).

  Lemma run3q_done s r os fuel : step3 app labels ord s = TDone r os -> run3_st (S fuel) app labels ord s = inl (r, os).
  Proof. intros H. cbn [run3_st]. rewrite H. reflexivity. Qed.

  Lemma seg_run3q : forall (b : nat) s, SInv3q s -> mu3q s < Z.of_nat b -> SegEnd3 s (b + 8).
  Proof.
    destruct HSeg as (Hlen0 & Hr32 & Hx0 & Hbase & Hsq).
    induction b as [|b IH]; intros s HS Hmu.
    - pose proof (mu3q_nonneg s HS). lia.
    - assert (Hnext : forall s', step3 app labels ord s = TCont s' -> SInv3q s' -> mu3q s' < mu3q s -> SegEnd3 s (S b + 8)).
      { intros s' Es HS' Hlt. destruct (IH s' HS' ltac:(lia)) as [(k & r & Hk & Hr & HF)|(k & s'' & E & t & sqx & Hk & Hr & Hrest)].
        - left. exists (S k), r. split; [lia|]. split; [|exact HF]. intros extra. cbn [Nat.add]. rewrite (run_S app labels ord _ _ _ Es). apply Hr.
        - right. exists (S k), s'', E, t, sqx. split; [lia|]. split; [|exact Hrest]. intros extra. cbn [Nat.add]. rewrite (run_S app labels ord _ _ _ Es). apply Hr. }
      assert (Hdone : forall r, step3 app labels ord s = TDone r false -> Fin3q r -> SegEnd3 s (S b + 8)).
      { intros r Es HF. left. exists 1%nat, r. split; [lia|]. split; [|exact HF]. intros extra. apply run3q_done. exact Es. }
      destruct HS as [dp d c f xe w HG|w HG].
      + destruct (step_normal3q app labels regs0 mem0 base sq ord Happ Hreg Hssa Hrng Hlen0 Hr32 Hx0 Hbase Hsq Hsem Htot dp d c f xe w s HG)
          as [(s' & dp' & d' & c' & f' & xe' & w' & Es & HG' & Hlt)|[(r & Es & HF)|[(s' & w' & Es & HG')|(s' & w' & E & t & sqx & Es & HG')]]].
        * apply (Hnext s' Es (SI3q_n s' dp' d' c' f' xe' w' HG')). unfold mu3q.
          rewrite (q3_mode _ _ _ _ _ _ _ _ _ _ _ _ _ HG), (q3_mode _ _ _ _ _ _ _ _ _ _ _ _ _ HG'). lia.
        * apply (Hdone r Es HF).
        * apply (Hnext s' Es (SI3q_r s' w' HG')). pose proof (phiX_nn _ _ _ _ _ _ _ HG) as H0.
          unfold mu3q in *. rewrite (q3_mode _ _ _ _ _ _ _ _ _ _ _ _ _ HG) in *. rewrite (rq_mode _ _ _ _ _ _ _ _ HG').
          pose proof (bus_q _ _ (rq_bw _ _ _ _ _ _ _ _ HG')). lia.
        * (* the flush loops *)
          destruct (f3_seq _ _ _ _ _ _ _ _ _ _ _ HG') as (Hsx & Hsq1).
          destruct (flush_run app labels regs0 mem0 base sq ord Hreg Hrng Hlen0 Hx0 Hbase (proj1 Hsq) Hsem w' E t sqx s' ltac:(clear - Hsq Hsq1; lia) HG')
            as (k & s'' & Hk & Hr & HFr).
          destruct (f3_E _ _ _ _ _ _ _ _ _ _ _ HG') as (E1 & E2 & E3 & E4).
          right. exists (S k), s'', E, t, sqx. split; [lia|].
          split; [intros extra; cbn [Nat.add]; rewrite (run_S app labels ord _ _ _ Es); apply Hr|].
          split; [exact HFr|]. split; [fold N in E2; lia|]. split; [fold n; exact E4|].
          split; [exact (f3_exec _ _ _ _ _ _ _ _ _ _ _ HG')|]. split; [exact (f3_out _ _ _ _ _ _ _ _ _ _ _ HG') | exact Hsq1].
      + destruct (step_ret3q app labels regs0 mem0 base sq ord Happ Hreg Hssa Hrng Hlen0 Hr32 Hx0 Hbase Hsq Hsem Htot w s HG) as [(s' & w' & Es & HG' & Hlt)|(r & Es & HF)].
        * apply (Hnext s' Es (SI3q_r s' w' HG')). unfold mu3q. rewrite (rq_mode _ _ _ _ _ _ _ _ HG), (rq_mode _ _ _ _ _ _ _ _ HG'). exact Hlt.
        * apply (Hdone r Es HF).
  Qed.
End SegRun.

(* ------------------------------------------------------------------ *)
(* the segments put together                                            *)

Section Fwd3.
  Variables (app : list instr) (labels : Z -> option Z).
  Hypothesis Happ : wf_app app.
  Hypothesis Hreg : reg_only app = true.
  Hypothesis Hssa : ssa app = true.
  Hypothesis Hrng : regs_ok app = true.
  Hypothesis Hfwd : fwd_ok app labels = true.
  Hypothesis Hfit : seq_ids_fit3 app.
  Let n := length app.
  Let sp := map sinstr_of app.

  (* no instruction of the class fails, whatever the registers: wrong-path execution included *)
  Lemma fwd_tot k rr : (k < n)%nat -> exists e, exec (sinstr_of (ik app k)) rr labels (pcz k) [] = Ok e.
  Proof. intros Hk. destruct (fwd_total app labels k rr Hfwd Hk) as (e & He & _). exists e. exact He. Qed.

  Lemma seghyp t sq R : length R = 32%nat -> Forall int32 R -> nth 0 R 0 = 0 -> (t <= n)%nat -> 0 <= sq <= 2 * Z.of_nat t ->
    SegHyp app labels R t sq.
  Proof.
    intros H1 H2 H3 H4 H5. unfold SegHyp. repeat split; auto; try lia.
    unfold seq_ids_fit3 in Hfit. fold n in Hfit |- *. lia.
  Qed.

  (* one segment from a fresh state: Run returns the sequential result, or a flush leads to a fresh state at a later
     instruction t', from which the sequential run goes on *)
  Lemma seg_fresh ord mem0 t R sq s fuel tr0 st' tr :
    (t <= n)%nat -> Fresh3 app labels mem0 t sq R s -> length R = 32%nat -> Forall int32 R -> nth 0 R 0 = 0 ->
    0 <= sq <= 2 * Z.of_nat t ->
    Seq.run fuel sp labels (mk_arch R mem0) (pcz t) tr0 = Done st' tr ->
    exists k, (k <= seg_bound63 n)%nat /\
      ((exists c, forall extra, run3_st (k + extra) app labels ord s = inl (MDone c st', false)) \/
       (exists s' E t' sqx fuel' tr1,
          (forall extra, run3_st (k + extra) app labels ord s = run3_st extra app labels ord s') /\
          Fresh3 app labels mem0 t' (sqx + 1) (sreg app labels R t (S E)) s' /\ (t < t' <= n)%nat /\ sq <= sqx <= sq + 1 /\
          Seq.run fuel' sp labels (mk_arch (sreg app labels R t (S E)) mem0) (pcz t') tr1 = Done st' tr)).
  Proof.
    intros Htn HF HlR HR Hx0 Hsq Hrun.
    pose proof (seghyp t sq R HlR HR Hx0 Htn Hsq) as HSeg.
    assert (HlR' : (length R <= 32)%nat) by (rewrite HlR; apply le_n).
    pose proof (fresh3_G3q app labels mem0 t sq R s HF Htn) as HG.
    pose proof (fresh3_phi app labels mem0 t sq R s HF) as Hphi.
    assert (Hmu : mu3q app s < Z.of_nat (400 * n + 1600)).
    { unfold mu3q. rewrite (q3_mode _ _ _ _ _ _ _ _ _ _ _ _ _ HG). fold n in Hphi. exact Hphi. }
    destruct (seg_run3q app labels R mem0 t sq ord Happ Hreg Hssa Hrng HSeg (hsem_all app labels Hfwd R t) fwd_tot (400 * n + 1600)%nat s
                (SI3q_n app labels R mem0 t sq s _ _ _ _ _ _ HG) Hmu)
      as [(k & r & Hk & Hr & (off & HFin))|(k & s' & E & t' & sqx & Hk & Hr & HFr & HE & Ht' & Hex & Hout & Hsqx)];
      exists k; (split; [exact (proj2 Hk)|]).
    - left. destruct (seg_seq_fin app labels R mem0 t off Hreg HlR' Htn (hsem_all app labels Hfwd R t) r fuel tr0 st' tr HFin Hrun) as (cf & -> & _).
      exists cf. exact Hr.
    - right. fold n in Ht'.
      destruct (seg_seq_flush app labels R mem0 t Hreg HlR' Htn (hsem_all app labels Hfwd R t) E t' fuel tr0 st' tr HE Ht' Hex Hout Hrun) as (fuel' & tr1 & Hrun').
      exists s', E, t', sqx, fuel', tr1. split; [exact Hr|]. split; [exact HFr|]. split; [clear - HE Ht'; lia|]. split; [exact Hsqx | exact Hrun'].
  Qed.

  Lemma fwd_core3 ord mem0 : forall m t R sq s fuel tr0 st' tr,
    (n - t <= m)%nat -> (t <= n)%nat -> Fresh3 app labels mem0 t sq R s -> length R = 32%nat -> Forall int32 R -> nth 0 R 0 = 0 ->
    0 <= sq <= 2 * Z.of_nat t ->
    Seq.run fuel sp labels (mk_arch R mem0) (pcz t) tr0 = Done st' tr ->
    exists K c, (K <= (m + 1) * seg_bound63 n)%nat /\
                forall extra, run3_st (K + extra) app labels ord s = inl (MDone c st', false).
  Proof.
    induction m as [|m IH]; intros t R sq s fuel tr0 st' tr Hm Htn HF HlR HR Hx0 Hsq Hrun;
      destruct (seg_fresh ord mem0 t R sq s fuel tr0 st' tr Htn HF HlR HR Hx0 Hsq Hrun)
        as (k & Hk & [(c & Hr)|(s' & E & t' & sqx & fuel' & tr1 & Hr & HFr & Ht' & Hsqx & Hrun')]).
    - exists k, c. split; [clear - Hk; lia | exact Hr].
    - (* t = n: the segment cannot end in a flush *)
      exfalso. clear - Hm Htn Ht'. lia.
    - exists k, c. split; [clear - Hk; lia | exact Hr].
    - destruct (IH t' (sreg app labels R t (S E)) (sqx + 1) s' fuel' tr1 st' tr ltac:(clear - Hm Ht'; lia) (proj2 Ht') HFr
                  (sreg_len32 app labels R t HlR (S E)) (sreg_r32 app labels R t HR (S E)) (sreg_x0 app labels R t Hrng HlR Hx0 (S E))
                  ltac:(clear - Hsq Hsqx Ht'; lia) Hrun') as (K' & c & HK' & Hr').
      exists (k + K')%nat, c. split; [clear - Hk HK'; lia|]. intros extra. rewrite <- Nat.add_assoc, Hr. apply Hr'.
  Qed.

  (* forward control flow on single-assignment register-only programs: the pipeline computes the sequential registers
     and memory, the ghost flag stays clear *)
  Theorem mvp63_run_ssa_forward_core par ord fuel st st' tr : (1 <= par)%nat ->
    Forall int32 (regs st) -> length (regs st) = 32%nat -> nth 0 (regs st) 0 = 0 ->
    seq_run fuel sp labels st = Done st' tr ->
    exists c, forall fuel', (fuel_bound63_fwd (length app) <= fuel')%nat -> mvp63_run_os par ord fuel' app labels st = (MDone c st', false).
  Proof.
    intros Hpar HR HlR Hx0 Hrun. destruct (init3_fresh3 app labels ord par st Hpar HlR Hx0) as (s0 & E0 & HF).
    unfold seq_run in Hrun. assert (Hst : st = mk_arch (regs st) (mem st)) by (destruct st; reflexivity).
    rewrite Hst in Hrun at 1. change 0 with (pcz 0) in Hrun.
    destruct (fwd_core3 ord (mem st) n O (regs st) 0 s0 fuel [] st' tr ltac:(lia) ltac:(lia) HF HlR HR Hx0 ltac:(lia) Hrun) as (K & c & HK & Hr).
    exists c. intros fuel' Hf. unfold mvp63_run_os. rewrite E0.
    unfold fuel_bound63_fwd in Hf. fold n in Hf.
    replace fuel' with (K + (fuel' - K))%nat by lia. rewrite Hr. reflexivity.
  Qed.
End Fwd3.

Print Assumptions fresh3_G3q.
Print Assumptions init3_fresh3.
Print Assumptions seg_run3q.
Print Assumptions mvp63_run_ssa_forward_core.
