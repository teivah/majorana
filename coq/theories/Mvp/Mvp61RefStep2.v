(* MVP-6.1 refinement: the loop over the execute units (eus_gen), the timing invariant TI1 (between two
   cycles every execute unit is idle, the queue of the write bus is empty, the execute bus holds the
   dispatched instructions that have not been executed, in order), the invariant GI1 of the main loop
   and one iteration of it: its first half (front_ok1, with the front end's share of the potential),
   then the execute units and the write units (normal_ok2). *)
From Coq Require Import ZArith List Bool Lia Permutation.
From Maj Require Import Base.Outcome Base.GoInt Base.GoTypes Isa.Spec Isa.Embed Isa.Seq Isa.Refine.
From Maj Require Import Gen.Latency Gen.RiscTables Gen.Opcodes Comp.Cache.
From Maj Require Import Mvp.Mvp12 Mvp.Mvp12Proofs Mvp.Mvp3 Mvp.Mvp3Proofs Mvp.Mvp4Skel Mvp.Mvp4Inv Mvp.Mvp5 Mvp.Mvp60 Mvp.Mvp61
     Mvp.Mvp60RefSem Mvp.Mvp60RefDefs Mvp.Mvp60RefFront Mvp.Mvp60RefBack Mvp.Mvp60RefStep
     Mvp.Mvp61RefSem Mvp.Mvp61RefFront Mvp.Mvp61RefBack Mvp.Mvp61RefInv Mvp.Mvp61RefCu Mvp.Mvp61RefExec Mvp.Mvp61RefExec2 Mvp.Mvp61RefStep.
Import ListNotations.
Open Scope Z_scope.

Lemma skipn_seq1 : forall n a len, skipn n (seq a len) = seq (a + n) (len - n).
Proof.
  induction n as [|n IH]; intros a len; [rewrite Nat.add_0_r, Nat.sub_0_r; reflexivity|].
  destruct len as [|len]; [reflexivity|]. cbn [seq skipn]. rewrite IH. f_equal; lia.
Qed.

Lemma firstn_seq1 : forall n a len, firstn n (seq a len) = seq a (Nat.min n len).
Proof.
  induction n as [|n IH]; intros a len; [reflexivity|]. destruct len as [|len]; [reflexivity|]. cbn [seq firstn Nat.min]. rewrite IH. reflexivity.
Qed.

Lemma existsb_false_forall {A} (f : A -> bool) l : existsb f l = false -> forall x, In x l -> f x = false.
Proof. intros H x Hx. destruct (f x) eqn:E; [|reflexivity]. rewrite <- H. symmetry. apply existsb_exists. exists x. auto. Qed.

Lemma phiM1_nn m : 0 <= phiM1 m.
Proof.
  unfold phiM1. pose proof (blen_ge0 (m_dbus (y_m m))). pose proof (qlen_ge0 (m_dbus (y_m m))). pose proof (blen_ge0 (x_cbus (y_x m))).
  pose proof (qlen_ge0 (x_cbus (y_x m))). pose proof (zlen_nonneg (x_cu (y_x m))). pose proof (blen_ge0 (x_ebus (y_x m))). pose proof (qlen_ge0 (x_ebus (y_x m))).
  pose proof (blen_ge0 (m_wbus (y_m m))). pose proof (qlen_ge0 (m_wbus (y_m m))). lia.
Qed.

(* Connect moves entries from the buffer of a bus to its queue, as many as fit; a bus that arrives with
   an empty queue and at most two entries leaves with an empty buffer *)
Lemma conn_drain q b q' b' : q' + b' = q + b -> q <= q' -> b' = 0 \/ q' = 2 -> q = 0 -> 0 <= b' -> b <= 2 ->
  b' = 0 /\ q' = b.
Proof. lia. Qed.

Section Step2.
  Variables (app : list instr) (labels : Z -> option Z) (regs0 mem0 : list Z) (base : nat) (sq : Z) (off : Z).
  Hypothesis Happ : wf_app app.
  Hypothesis Hreg : reg_only app = true.
  Hypothesis Hrng : regs_in_range app = true.
  Hypothesis Hlen32 : length regs0 = 32%nat.
  Hypothesis Hbase : (base <= length app)%nat.
  Let n := length app.
  Let N := stop_from app base.
  Hypothesis Hsq : 0 <= sq /\ 1000 * sq + 4 * Z.of_nat n < 2147483648.

  Notation sreg := (sreg app labels regs0 base).
  Notation eff := (eff app labels regs0 base).
  Notation ik := (ik app).
  Notation rnq := (rnq app sq).
  Notation r1q := (r1q app sq).
  Notation CoreI := (CoreI app labels regs0 mem0 base sq).
  Notation FL1 := (FL1 sq).
  Notation FetchI := (FetchI app).
  Notation phiF := (phiF app).
  Notation wbq := (wbq app labels regs0 base sq).
  Notation FrontI1 := (FrontI1 app base sq).
  Notation phi1 := (phi1 app).

  Hypothesis Hsem : forall k, (base <= k <= N)%nat -> (k < n)%nat ->
    exec (sinstr_of (ik k)) (rget (sreg k)) labels (pcz k) [] = Ok (eff k) /\
    (forall a, etarget (eff k) = Some a -> exists t, a = pcz t /\ (k < t <= n)%nat).
  Hypothesis Hr32 : Forall int32 regs0.

  Set Default Proof Using "All".
  Notation "'IA' L" := (L app labels regs0 mem0 base sq Happ Hreg Hrng Hlen32 Hbase Hsq Hsem) (at level 10, L at level 9, only parsing).
  Notation "'IE' L" := (L app labels regs0 mem0 base sq Happ Hreg Hrng Hlen32 Hbase Hsq Hsem Hr32) (at level 10, L at level 9, only parsing).

  Notation bresp := (bresp app labels regs0 base sq).
  Notation sid := (sid sq).

  Definition notret1 (k : nat) : bool := negb (is_ret (ik k)).

  (* the runner a unit still holds from an earlier execution is older than sequence id v *)
  Definition StaleLt (v : Z) (e : eu1) : Prop := forall r, e_runner (u_e e) = Some r -> r_seq r < v.

  (* if resp.flush && (!flush || resp.sequenceID < sequenceID) {...}; flush ||= resp.flush; ret ||= resp.ret *)
  Definition merge1 (acc : eu_out6) (p : resp1) : eu_out6 :=
    let take := p_flush p && (negb (o_flush acc) || (p_seq p <? o_from acc)) in
    mk_euo6 (o_flush acc || p_flush p) (if take then p_seq p else o_from acc) (if take then p_pc p else o_pc acc) (o_ret acc || p_ret p).

  Lemma sid_lt a b : (a < b)%nat -> sid a < sid b.
  Proof. unfold Mvp61RefFront.sid, pcz. lia. Qed.
  Lemma sid_le a b : (a <= b)%nat -> sid a <= sid b.
  Proof. unfold Mvp61RefFront.sid, pcz. lia. Qed.
  Lemma sid_nonneg a : 0 <= sid a.
  Proof. unfold Mvp61RefFront.sid, pcz. lia. Qed.

  Lemma eu_idle1 ord cy m e s0 : EuNone1 e -> eu_pre1 (eu_sid_set e s0) = false -> bb_q (x_ebus (y_x m)) = [] ->
    eu_cycle1 labels ord cy m (eu_sid_set e s0) = (false, Ok (m, eu_sid_set e s0, resp0)).
  Proof. intros [_ Hc] Hp Hq. unfold eu_cycle1. rewrite Hp. unfold bb_get. cbn [eu_sid_set u_e]. rewrite Hc, Hq. reflexivity. Qed.

  Lemma pre_false v e s0 : StaleLt v e -> (s0 = 0 \/ v <= s0) -> eu_pre1 (eu_sid_set e s0) = false.
  Proof.
    intros Hs Hv. unfold eu_pre1. cbn [eu_sid_set u_sid u_e]. destruct (Z.eqb_spec s0 0); [reflexivity|].
    destruct (e_runner (u_e e)) as [r|] eqn:Er; [|reflexivity]. specialize (Hs r Er). apply Z.ltb_ge. lia.
  Qed.

  (* for i, eu := range m.executeUnits { eu.sequenceID = sequenceID; resp := eu.Cycle(...) }, all units idle:
     they execute the first j instructions of the execute bus, whatever they are *)
  Lemma eus_gen ord cy d P : forall eus m acc x lq v,
    Forall EuNone1 eus -> Forall (StaleLt v) eus -> v <= sid x -> (o_from acc = 0 \/ v <= o_from acc) ->
    CoreI d P m -> BusOK cy (m_wbus (y_m m)) ->
    blen (m_wbus (y_m m)) + Z.of_nat (Nat.min (length eus) lq) <= 2 ->
    map r_b (bb_q (x_ebus (y_x m))) = map rnq (seq x lq) ->
    Forall (fun en => fst en < pcz x) (b_btb (m_bu (y_m m))) ->
    0 <= x_seq (y_x m) /\ x_seq (y_x m) + Z.of_nat lq < 2147483647 ->
    let j := Nat.min (length eus) lq in
    exists m' eus',
      eus_main labels ord cy m eus acc = (false, EAll m' eus' (fold_left merge1 (map bresp (seq x j)) acc) true) /\
      Forall EuNone1 eus' /\ length eus' = length eus /\ Forall (StaleLt (sid (x + j))) eus' /\
      CoreI d P m' /\ BusOK cy (m_wbus (y_m m')) /\ EuFrameW m m' /\
      bb_q (x_ebus (y_x m')) = skipn j (bb_q (x_ebus (y_x m))) /\
      bb_buf (m_wbus (y_m m')) = bb_buf (m_wbus (y_m m)) ++ map (fun k => (cy + 1, wbq k)) (filter notret1 (seq x j)) /\
      (forall k, (x <= k < x + j)%nat -> (base <= k < d)%nat /\ (k <= N)%nat /\ (k < n)%nat) /\
      ((forall k, (x <= k < x + j)%nat -> p_flush (bresp k) = false) ->
         m_fu (y_m m') = m_fu (y_m m) /\ m_dpbr (y_m m') = m_dpbr (y_m m) /\ b_btb (m_bu (y_m m')) = b_btb (m_bu (y_m m)) /\ x_seq (y_x m') = x_seq (y_x m)) /\
      Forall (fun en => fst en < pcz (x + j)) (b_btb (m_bu (y_m m'))) /\
      x_seq (y_x m) <= x_seq (y_x m') <= x_seq (y_x m) + Z.of_nat j.
  Proof.
    induction eus as [|e t IH]; intros m acc x lq v He Hst Hvx Hacc HC HW Hcap Hq Hbtb Hsb; cbv zeta.
    - exists m, []. cbn [eus_main length Nat.min seq map fold_left skipn filter]. rewrite Nat.add_0_r, app_nil_r.
      split; [reflexivity|]. split; [constructor|]. split; [reflexivity|]. split; [constructor|]. split; [exact HC|]. split; [exact HW|].
      split; [apply EuFrameW_refl|]. split; [reflexivity|]. split; [reflexivity|]. split; [intros k Hk; lia|]. split; [auto|]. split; [exact Hbtb | lia].
    - pose proof (Forall_inv He) as He1. pose proof (Forall_inv_tail He) as He2.
      pose proof (Forall_inv Hst) as Hs1. pose proof (Forall_inv_tail Hst) as Hs2. cbn [eus_main].
      pose proof (pre_false v e (o_from acc) Hs1 Hacc) as Hpre.
      destruct (bb_q (x_ebus (y_x m))) as [|r qt] eqn:Eq.
      + (* nothing left in the execute bus *)
        destruct lq; [|discriminate Hq]. rewrite (eu_idle1 ord cy m e (o_from acc) He1 Hpre Eq).
        cbn [p_err resp0 p_flush p_ret p_seq p_pc andb orb].
        replace (mk_euo6 (o_flush acc || false) (o_from acc) (o_pc acc) (o_ret acc || false)) with acc by (rewrite !orb_false_r; destruct acc; reflexivity).
        destruct (IH m acc x O v He2 Hs2 Hvx Hacc HC HW ltac:(rewrite Nat.min_0_r in *; lia) ltac:(rewrite Eq; reflexivity) Hbtb Hsb)
          as (m' & t' & E & A1 & A2 & A3 & A4 & A5 & A6 & A7 & A8 & A9 & A10 & A11 & A12).
        rewrite E. cbn [orb]. exists m', (eu_sid_set e (o_from acc) :: t'). rewrite !Nat.min_0_r in *. cbn [length seq map fold_left skipn filter] in *.
        split; [reflexivity|]. split; [constructor; [exact He1 | exact A1]|]. split; [cbn [length]; lia|].
        split; [constructor; [|exact A3]; intros r0 Hr0; specialize (Hs1 r0 Hr0); rewrite Nat.add_0_r; lia|].
        rewrite Eq in A7. repeat (split; [assumption|]). assumption.
      + destruct lq as [|lq]; [discriminate Hq|]. cbn [seq map] in Hq. injection Hq as Hrb Hq.
        pose proof ((IA kr1_rnq) r x Hrb) as Hkr.
        cbn [length Nat.min] in Hcap |- *.
        assert (Hadd : bb_canadd (m_wbus (y_m m)) = true) by (apply canadd_lt1; [apply (bus_bl _ _ HW) | lia]).
        destruct ((IE eu_exec2) ord cy d P m (eu_sid_set e (o_from acc)) r qt (pcz (S x)) HC He1 Hpre HW Hadd Eq
                    ltac:(rewrite Hkr; intros _; apply (btb_get_none _ (pcz x)); [exact Hbtb | lia]) ltac:(eapply Forall_impl; [|exact Hbtb]; cbn beta; intros en Hen; rewrite pcz_S; lia)
                    ltac:(rewrite Hkr, pcz_S; lia))
          as (m1 & e1 & E1 & B1 & B1' & B1'' & B2 & B3 & B4 & B5 & B6 & B7 & B8 & B9 & B10 & B11 & B12 & B13).
        rewrite Hkr in *. rewrite E1, ((IE bresp_err) x).
        change (mk_euo6 (o_flush acc || p_flush (bresp x))
                  (if p_flush (bresp x) && (negb (o_flush acc) || (p_seq (bresp x) <? o_from acc)) then p_seq (bresp x) else o_from acc)
                  (if p_flush (bresp x) && (negb (o_flush acc) || (p_seq (bresp x) <? o_from acc)) then p_pc (bresp x) else o_pc acc)
                  (o_ret acc || p_ret (bresp x))) with (merge1 acc (bresp x)).
        assert (Hacc' : o_from (merge1 acc (bresp x)) = 0 \/ v <= o_from (merge1 acc (bresp x))).
        { unfold merge1. cbn [o_from]. destruct (p_flush (bresp x) && _) eqn:Et; [|exact Hacc].
          right. apply andb_prop in Et as [Ef _]. unfold Mvp61RefExec2.bresp in Ef |- *. destruct (is_ret (ik x)); [discriminate|].
          destruct (etarget (eff x)); [|discriminate]. destruct (_ || _); [cbn [p_seq]; exact Hvx | discriminate]. }
        assert (Hb1 : blen (m_wbus (y_m m1)) <= blen (m_wbus (y_m m)) + 1).
        { unfold blen. rewrite B6. destruct (is_ret (ik x)); rewrite zlen_app; [rewrite zlen_nil | rewrite zlen_cons, zlen_nil]; lia. }
        assert (Hsb1 : x_seq (y_x m) <= x_seq (y_x m1) <= x_seq (y_x m) + 1).
        { destruct B13 as [->| ->]; [lia|]. unfold addS. rewrite wrapS_id; [lia | lia | apply int32_bounds; lia]. }
        destruct (IH m1 (merge1 acc (bresp x)) (S x) lq v He2 Hs2 ltac:(pose proof (sid_le x (S x)); lia) Hacc' B2 B3 ltac:(lia)
                    ltac:(rewrite B5; exact Hq) B12 ltac:(rewrite Nat2Z.inj_succ in Hsb; lia))
          as (m' & t' & E & A1 & A2 & A3 & A4 & A5 & A6 & A7 & A8 & A9 & A10 & A11 & A12).
        rewrite E. cbn [orb]. exists m', (e1 :: t'). cbn [length seq map fold_left].
        replace (x + S (Nat.min (length t) lq))%nat with (S x + Nat.min (length t) lq)%nat by lia.
        split; [reflexivity|]. split; [constructor; assumption|]. split; [lia|].
        split.
        { constructor; [|exact A3]. intros r0 Hr0. rewrite B1'' in Hr0. injection Hr0 as <-. cbn [Mvp61RefFront.rnq r_seq]. apply sid_lt. lia. }
        split; [exact A4|]. split; [exact A5|]. split; [eapply EuFrameW_trans; eassumption|].
        split; [rewrite A7, B5; reflexivity|].
        split.
        { rewrite A8, B6. cbn [filter]. unfold notret1 at 2. destruct (is_ret (ik x)); cbn [negb map]; rewrite <- ?app_assoc; reflexivity. }
        split.
        { intros k Hk. destruct (Nat.eq_dec k x) as [->|Hne]; [auto | apply A9; lia]. }
        split.
        { intros Hnf. destruct (B11 (Hnf x ltac:(lia))) as (F1 & F2 & F3 & F4).
          destruct (A10 ltac:(intros k Hk; apply Hnf; lia)) as (G1 & G2 & G3 & G4). repeat split; congruence. }
        split; [exact A11|]. rewrite Nat2Z.inj_succ. lia.
  Qed.



  Record TI1 (x d : nat) (m : mach1) (eus : list eu1) (wus : list wu6) : Prop := mkTI1 {
    t1_eus : Forall EuNone1 eus;
    t1_wq : bb_q (m_wbus (y_m m)) = [];
    t1_wb : blen (m_wbus (y_m m)) <= Z.of_nat (length wus);
    t1_wb2 : blen (m_wbus (y_m m)) <= 2;
    t1_len : length eus = length wus;
    t1_ebus : map r_b (EB m) = map rnq (seq x (d - x));
    t1_xd : (base <= x <= d)%nat;
    t1_exec : forall k, (base <= k < x)%nat -> bresp k = resp0;
    t1_stale : Forall (StaleLt (sid x)) eus }.

  Record GI1 (d c f x : nat) (s : st1) : Prop := mkGI1 {
    g1_front : FrontI1 d c f (t_cycle s) (t_m s);
    g1_core : CoreI d (x_cu (y_x (t_m s))) (t_m s);
    g1_prev : PrevB (t_m s);
    g1_ti : TI1 x d (t_m s) (t_eus s) (t_wus s);
    g1_wus : Forall (fun w => u_co w = WNone) (t_wus s);
    g1_wne : t_wus s <> [];
    g1_cyc : Z.of_nat d <= 2 * t_cycle s + off;
    g1_mode : t_mode s = NNormal }.

  Lemma phi1_eq m : phi1 m = phiF (m_fu (y_m m)) + phiM1 m.
  Proof. reflexivity. Qed.

  Lemma phiM1_le0 m : phiM1 m <= 0 ->
    blen (m_dbus (y_m m)) = 0 /\ qlen (m_dbus (y_m m)) = 0 /\ blen (x_cbus (y_x m)) = 0 /\ qlen (x_cbus (y_x m)) = 0 /\
    zlen (x_cu (y_x m)) = 0 /\ blen (x_ebus (y_x m)) = 0 /\ qlen (x_ebus (y_x m)) = 0 /\
    blen (m_wbus (y_m m)) = 0 /\ qlen (m_wbus (y_m m)) = 0.
  Proof.
    unfold phiM1. pose proof (blen_ge0 (m_dbus (y_m m))). pose proof (qlen_ge0 (m_dbus (y_m m))). pose proof (blen_ge0 (x_cbus (y_x m))).
    pose proof (qlen_ge0 (x_cbus (y_x m))). pose proof (zlen_nonneg (x_cu (y_x m))). pose proof (blen_ge0 (x_ebus (y_x m))). pose proof (qlen_ge0 (x_ebus (y_x m))).
    pose proof (blen_ge0 (m_wbus (y_m m))). pose proof (qlen_ge0 (m_wbus (y_m m))). lia.
  Qed.

  Lemma eus_empty1 eus : Forall EuNone1 eus -> forallb eu_empty (map u_e eus) = true.
  Proof.
    intros H. apply forallb_forall. intros e Hin. apply in_map_iff in Hin as (e1 & <- & Hin). rewrite Forall_forall in H.
    destruct (H e1 Hin) as [_ Hc]. unfold eu_empty. rewrite Hc. reflexivity.
  Qed.

  Lemma eus_empty1' eus : Forall EuNone1 eus -> forallb eu_empty1 eus = true.
  Proof.
    intros H. apply forallb_forall. intros e Hin. rewrite Forall_forall in H.
    destruct (H e Hin) as [_ Hc]. unfold eu_empty1, eu_empty. rewrite Hc. reflexivity.
  Qed.

  Lemma kr1_of_rb : forall jj a l, map r_b l = map rnq (seq a jj) -> map kr1 l = seq a jj.
  Proof.
    induction jj as [|j0 IHj]; intros a l Hl.
    - destruct l; [reflexivity | discriminate].
    - destruct l as [|r l]; [discriminate|]. cbn [seq map] in Hl |- *. injection Hl as Hr Hl. rewrite ((IA kr1_rnq) r a Hr). f_equal. apply IHj. exact Hl.
  Qed.

  Lemma bresp_ret k : is_ret (ik k) = true -> bresp k = mk_resp1 false 0 0 true None.
  Proof. intros H. unfold Mvp61RefExec2.bresp. rewrite H. reflexivity. Qed.

  Lemma bresp0_notret k : bresp k = resp0 -> is_ret (ik k) = false.
  Proof. intros H. destruct (is_ret (ik k)) eqn:E; [|reflexivity]. rewrite (bresp_ret k E) in H. discriminate. Qed.

  (* The first half of an iteration: the four Connect calls, fetch, decode, control unit.  The write bus
     arrives with an empty queue, the execute bus holds the instructions x .. d-1.  The potential does not
     grow; when neither the write bus nor (afterwards) the queue of the execute bus holds anything it
     falls, or else nothing is left in the front end and the fetch unit is complete. *)
  Lemma front_ok1 pord d c f x cyc m0 :
    FrontI1 d c f cyc m0 -> CoreI d (x_cu (y_x m0)) m0 -> PrevB m0 ->
    bb_q (m_wbus (y_m m0)) = [] -> blen (m_wbus (y_m m0)) <= 2 ->
    map r_b (EB m0) = map rnq (seq x (d - x)) -> (base <= x <= d)%nat ->
    (forall k, (base <= k < x)%nat -> bresp k = resp0) ->
    exists os0 m4 lp c' f',
      front1 app pord (cyc + 1) m0 = Ok (os0, m4) /\
      FrontI1 (d + lp) c' f' (cyc + 1) m4 /\ CoreI (d + lp) (x_cu (y_x m4)) m4 /\ PrevB m4 /\ (lp <= 2)%nat /\
      map r_b (EB m4) = map rnq (seq x (d + lp - x)) /\
      blen (m_wbus (y_m m4)) = 0 /\ qlen (m_wbus (y_m m4)) = blen (m_wbus (y_m m0)) /\
      phi1 m4 + blen (m_wbus (y_m m0)) <= phi1 m0 /\
      (qlen (x_ebus (y_x m4)) = 0 -> blen (m_wbus (y_m m0)) = 0 ->
         phi1 m4 < phi1 m0 \/ (phiM1 m4 <= 0 /\ f_complete (m_fu (y_m m4)) = true)).
  Proof.
    intros GF GB GP T2 T3 T5 T6 T8.
    destruct (IA conn_ok1 d c f cyc m0 GF GB GP) as (C1 & C2 & C3 & C4 & CP & C5 & C6 & C6' & C7 & D1 & D2 & Cc1 & Cc2 & E1 & E2 & W1 & W2 & K1 & K2 & K3 & K4).
    remember (conn1 m0 (cyc + 1)) as m1 eqn:Em1.
    assert (Wq0 : qlen (m_wbus (y_m m0)) = 0) by (unfold qlen; rewrite T2; reflexivity).
    destruct (conn_drain _ _ _ _ W1 W2 K4 Wq0 (blen_ge0 _) T3) as [Wb1 Wq1].
    destruct (IA fd_ok1 d c f cyc m1 C1 (f1_seq _ _ _ _ _ _ _ _ C1) (c_fwd _ _ _ _ _ _ _ _ _ C2))
      as (m3 & c' & f' & Efd & F3 & R1 & R2 & R3 & R4 & R5 & R7 & (cb & Rx) & R9 & Pfd & Sfd).
    assert (Rcu : x_cu (y_x m3) = x_cu (y_x m1)) by (rewrite Rx; destruct (y_x m1); reflexivity).
    assert (Reb : x_ebus (y_x m3) = x_ebus (y_x m1)) by (rewrite Rx; destruct (y_x m1); reflexivity).
    assert (Rpv : x_prev (y_x m3) = x_prev (y_x m1)) by (rewrite Rx; destruct (y_x m1); reflexivity).
    assert (HEB3 : EB m3 = EB m1) by (unfold EB; rewrite Reb; reflexivity).
    assert (HWB3 : WB m3 = WB m1) by (unfold WB; rewrite R7; reflexivity).
    assert (HB3 : CoreI d (x_cu (y_x m3)) m3).
    { rewrite Rcu. eapply (IA CoreI_ext); [exact HEB3 | exact HWB3 | exact R1 | exact R3 | exact R4 | exact R2 | exact R5 | | | | | | |exact C2];
        rewrite Rx; destruct (y_x m1); reflexivity. }
    assert (HP3 : forall p, In p (x_prev (y_x m3)) -> In p (EB m3) /\ r_fw p = None) by (rewrite Rpv, HEB3; exact CP).
    destruct (IA cu_ok1 pord d c' f' (cyc + 1) m3 F3 HB3 HP3)
      as (lp & F4 & B4 & P4 & Hlp2 & _ & Q1 & _ & Q2 & Q3 & _ & _ & _ & Q4 & Q5 & _ & Q7 & _ & Pcu & Scu).
    remember (snd (cu_cycle1 pord (cyc + 1) m3)) as m4 eqn:Em4.
    exists (fst (cu_cycle1 pord (cyc + 1) m3)), m4, lp, c', f'.
    split.
    { rewrite front1_eq, <- Em1, Efd. cbn [bind]. rewrite Em4. destruct (cu_cycle1 pord (cyc + 1) m3); reflexivity. }
    split; [exact F4|]. split; [exact B4|]. split; [exact P4|]. split; [exact Hlp2|].
    split.
    { rewrite Q7, HEB3, C3, T5. replace d with (x + (d - x))%nat at 2 by (clear - T6; lia). rewrite seq_join. f_equal. f_equal. clear - T6. lia. }
    split; [rewrite Q3, R7; exact Wb1|]. split; [rewrite Q3, R7; exact Wq1|].
    (* the potential, unit by unit *)
    assert (S1 : phi1 m1 + blen (m_wbus (y_m m0)) <= phi1 m0).
    { unfold Mvp61RefStep.phi1, phiM1. rewrite C5, C7, Wb1, Wq1, Wq0. clear - D1 D2 Cc1 Cc2 E1 E2. lia. }
    assert (Y13 : qlen (x_cbus (y_x m3)) = qlen (x_cbus (y_x m1))) by (unfold qlen; rewrite R9; reflexivity).
    assert (S3 : phi1 m3 <= phi1 m1 /\
                 (phiF (m_fu (y_m m3)) + 10 * blen (m_dbus (y_m m3)) + 9 * qlen (m_dbus (y_m m3)) + 8 * blen (x_cbus (y_x m3))
                  < phiF (m_fu (y_m m1)) + 10 * blen (m_dbus (y_m m1)) + 9 * qlen (m_dbus (y_m m1)) + 8 * blen (x_cbus (y_x m1)) -> phi1 m3 < phi1 m1)).
    { unfold Mvp61RefStep.phi1, phiM1. rewrite Rcu, Reb, R7, Y13. clear - Pfd. lia. }
    assert (Y9 : blen (x_cbus (y_x m4)) = blen (x_cbus (y_x m3))) by (unfold blen; rewrite Q4; reflexivity).
    assert (S4 : phi1 m4 <= phi1 m3 /\
                 (6 * zlen (x_cu (y_x m4)) + 7 * qlen (x_cbus (y_x m4)) + 5 * blen (x_ebus (y_x m4))
                  < 6 * zlen (x_cu (y_x m3)) + 7 * qlen (x_cbus (y_x m3)) + 5 * blen (x_ebus (y_x m3)) -> phi1 m4 < phi1 m3)).
    { unfold Mvp61RefStep.phi1, phiM1. rewrite Q1, Q2, Q3, Q5, Y9. clear - Pcu. lia. }
    pose proof (blen_ge0 (m_wbus (y_m m0))) as Wb0.
    split; [clear - S1 S3 S4; lia|].
    intros Eq4 Wz.
    (* nothing in the execute bus, nothing in the write bus: the control unit makes progress unless it
       has nothing to dispatch, fetch and decode unless they are done *)
    assert (Eq0 : qlen (x_ebus (y_x m1)) = 0) by (rewrite <- Reb, <- Q5; exact Eq4).
    assert (Eb0 : blen (x_ebus (y_x m1)) = 0) by (clear - K3 Eq0; lia).
    assert (HFL3 : FL1 m3 = []).
    { unfold Mvp61RefInv.FL1. rewrite HEB3, HWB3. unfold EB, WB. rewrite !flat_nil by (clear - Eq0 Eb0 Wb1 Wq1 Wz; lia). reflexivity. }
    destruct (Scu HFL3) as [Hs|[Hcu0 Hcq0]]; [left; apply (proj2 S4) in Hs; clear - S1 S3 Hs Wb0; lia|].
    assert (Hcu1 : x_cu (y_x m1) = []) by (rewrite <- Rcu; exact Hcu0).
    assert (Cq0 : qlen (x_cbus (y_x m1)) = 0) by (unfold qlen; rewrite <- R9, Hcq0; reflexivity).
    assert (Cb0 : blen (x_cbus (y_x m1)) = 0) by (clear - K2 Cq0; lia).
    destruct Sfd as [Hs|[Hfu Hdu]].
    { left. apply (proj2 S3) in Hs. clear - S1 S4 Hs Wb0. lia. }
    (* nothing is left between decode and write-back: the stopping instruction cannot have been decoded *)
    assert (Hxd : x = d).
    { pose proof T5 as Hx. rewrite <- C3 in Hx. unfold EB in Hx. rewrite flat_nil in Hx by assumption. symmetry in Hx. apply map_eq_nil in Hx.
      apply (f_equal (@length nat)) in Hx. rewrite seq_length in Hx. cbn [length] in Hx. clear - Hx T6. lia. }
    assert (Hdc : d = Nat.min c n).
    { pose proof (f1_cb _ _ _ _ _ _ _ _ C1) as Hcl. rewrite Hcu1, flat_nil in Hcl by assumption. cbn [length] in Hcl.
      symmetry in Hcl. apply map_eq_nil in Hcl.
      pose proof (f1_dc _ _ _ _ _ _ _ _ C1) as Hx. rewrite Hcu1 in Hx. cbn [length] in Hx. apply (f_equal (@length nat)) in Hcl. rewrite seq_length in Hcl. cbn [length] in Hcl.
      clear - Hx Hcl. lia. }
    assert (HNx : (N < n)%nat -> c = S N -> (base <= N < x)%nat).
    { intros HNn ->. pose proof (stop_from_ge app base) as H. fold N in H. clear - H HNn Hdc Hxd. lia. }
    assert (Hdq : bb_q (m_dbus (y_m m1)) = []).
    { destruct Hdu as [Hdr|[Hdp|Hdq]]; [| |exact Hdq]; exfalso.
      - destruct (f1_dret_t _ _ _ _ _ _ _ _ C1 Hdr) as (HNn & Hc & Hret).
        pose proof (bresp0_notret N (T8 N (HNx HNn Hc))) as Hk. change (is_ret (ik N) = true) in Hret. congruence.
      - destruct (f1_dpbr_t _ _ _ _ _ _ _ _ C1 Hdp) as (HNn & Hc & Hjmp).
        pose proof ((IE bresp_flush_jump) N ltac:(split; [apply stop_from_ge | apply le_n]) HNn Hjmp) as Hf. rewrite (T8 N (HNx HNn Hc)) in Hf. discriminate Hf. }
    assert (Dq0 : qlen (m_dbus (y_m m1)) = 0) by (unfold qlen; rewrite Hdq; reflexivity).
    assert (Db0 : blen (m_dbus (y_m m1)) = 0) by (clear - K1 Dq0; lia).
    destruct Hfu as [(Hco & Hfu & Hcomp)|[_ Hnadd]].
    2:{ exfalso. unfold bb_canadd in Hnadd. fold (blen (m_dbus (y_m m1))) in Hnadd. rewrite Db0, (bus_bl _ _ (f1_bsd _ _ _ _ _ _ _ _ C1)) in Hnadd. discriminate. }
    right. split.
    - assert (Hz0 : phiM1 m0 <= 0).
      { unfold phiM1. rewrite <- C7, Hcu1, Wq0, Wz.
        pose proof (qlen_ge0 (m_dbus (y_m m0))). pose proof (qlen_ge0 (x_cbus (y_x m0))). pose proof (qlen_ge0 (x_ebus (y_x m0))).
        pose proof (blen_ge0 (m_dbus (y_m m0))). pose proof (blen_ge0 (x_cbus (y_x m0))). pose proof (blen_ge0 (x_ebus (y_x m0))).
        change (zlen (@nil runner1)) with 0. clear - D1 Cc1 E1 Dq0 Db0 Cq0 Cb0 Eq0 Eb0 H H0 H1 H2 H3 H4. lia. }
      assert (HF : phiF (m_fu (y_m m4)) = phiF (m_fu (y_m m0))) by (rewrite Q1, Hfu, C5; reflexivity).
      rewrite !phi1_eq, HF in *. clear - S1 S3 S4 Hz0 Wz. lia.
    - rewrite Q1, Hcomp, C5. destruct (f_complete (m_fu (y_m m0))) eqn:Ec; [reflexivity|].
      destruct (fi_nc _ _ _ _ (f1_fetch _ _ _ _ _ _ _ _ GF) Ec) as [_ Hx]. rewrite C5 in Hco. contradiction.
  Qed.

  (* one iteration of the main loop, up to and including the write units *)
  Lemma normal_ok2 ord pord d c f x s : GI1 d c f x s ->
    exists os0 m4 m5 b6 eus' d' c' f' lq,
      let j := Nat.min (length (t_eus s)) lq in
      let m6 := set_m m5 b6 in
      let out := fold_left merge1 (map bresp (seq x j)) euo_none in
      let nofl := forall k, (x <= k < x + j)%nat -> p_flush (bresp k) = false in
      front1 app pord (t_cycle s + 1) (t_m s) = Ok (os0, m4) /\
      eus_main labels ord (t_cycle s + 1) m4 (t_eus s) euo_none = (false, EAll m5 eus' out true) /\
      wus_cycle (y_m m5) (t_wus s) (-1) = Ok (b6, t_wus s) /\
      (nofl -> FrontI1 d' c' f' (t_cycle s + 1) m6) /\ CoreI d' (x_cu (y_x m6)) m6 /\ PrevB m6 /\
      Forall EuNone1 eus' /\ length eus' = length (t_eus s) /\ Forall (StaleLt (sid (x + j))) eus' /\
      map r_b (EB m6) = map rnq (seq (x + j) (d' - (x + j))) /\ (x + j <= d')%nat /\
      bb_q (m_wbus (y_m m6)) = [] /\
      bb_buf (m_wbus (y_m m6)) = map (fun k => (t_cycle s + 1 + 1, wbq k)) (filter notret1 (seq x j)) /\ (j <= 2)%nat /\
      (forall k, (x <= k < x + j)%nat -> (base <= k < d')%nat /\ (k <= N)%nat /\ (k < n)%nat) /\
      (forall k, (x <= k < x + j)%nat -> is_ret (ik k) = true -> k = x /\ x = N /\ j = 1%nat /\ d' = S N) /\
      Z.of_nat d' <= 2 * (t_cycle s + 1) + off /\ (d' <= n)%nat /\ (d' <= S N)%nat /\
      IInv (m_l1i (y_m m6)) /\ Forall (fun en => fst en < pcz (x + j)) (b_btb (m_bu (y_m m6))) /\
      BusOK (t_cycle s + 1) (m_wbus (y_m m6)) /\
      (bb_ql (m_dbus (y_m m6)) = 2 /\ bb_bl (m_dbus (y_m m6)) = 2 /\ bb_ql (x_cbus (y_x m6)) = 2 /\ bb_bl (x_cbus (y_x m6)) = 2 /\
       bb_ql (x_ebus (y_x m6)) = 2 /\ bb_bl (x_ebus (y_x m6)) = 2 /\
       m_cu (y_m m6) = [] /\ bb_isempty (m_cbus (y_m m6)) = true /\ bb_isempty (m_ebus (y_m m6)) = true) /\
      sq <= x_seq (y_x m6) <= sq + Z.of_nat j /\
      (nofl -> phi1 m6 <= phi1 (t_m s) /\
               (phi1 m6 < phi1 (t_m s) \/ (lq = O /\ is_empty1 m6 eus' (t_wus s) = true))).
  Proof.
    intros [GF GB GP [T1 T2 T3 T3' T4 T5 T6 T8 T9] GW GWne GC GM].
    destruct (front_ok1 pord d c f x (t_cycle s) (t_m s) GF GB GP T2 T3' T5 T6 T8)
      as (os0 & m4 & lp & c' & f' & Efront & F4 & B4 & P4 & Hlp2 & Hrb4 & Hwb4 & Hwq4 & Pfr & Sfr).
    remember (t_cycle s + 1) as cy eqn:Ecy. remember (d + lp)%nat as d' eqn:Ed'.
    assert (GEne : t_eus s <> []) by (intros E; apply GWne; destruct (t_wus s); [reflexivity | rewrite E in T4; discriminate]).
    destruct ((IA front1_dN) _ _ _ _ _ F4) as (Hd'N & Hd'n & _). fold N in Hd'N. fold n in Hd'n.
    (* the execute bus: the contiguous tail of the dispatched instructions; its queue goes to the units *)
    remember (bb_q (x_ebus (y_x m4))) as rs eqn:Ers. remember (length rs) as lq eqn:Elq.
    assert (HEB4 : EB m4 = rs ++ map snd (bb_buf (x_ebus (y_x m4)))) by (rewrite Ers; reflexivity).
    assert (Hqe4 : qlen (x_ebus (y_x m4)) = Z.of_nat lq) by (unfold qlen, zlen; rewrite <- Ers, Elq; reflexivity).
    assert (Hlq2 : (lq <= 2)%nat) by (pose proof (bus_q _ _ (f1_be _ _ _ _ _ _ _ _ F4)) as Hx; clear - Hx Hqe4; lia).
    assert (Hl4 : (lq <= d' - x)%nat).
    { apply (f_equal (@length runner)) in Hrb4. rewrite !map_length, seq_length, HEB4, app_length, <- Elq in Hrb4. clear - Hrb4. lia. }
    assert (Hrs : map r_b rs = map rnq (seq x lq)).
    { assert (Hf : firstn lq (EB m4) = rs) by (rewrite HEB4, Elq, firstn_app, Nat.sub_diag; cbn [firstn]; rewrite app_nil_r; apply firstn_all).
      rewrite <- Hf, <- firstn_map, Hrb4, firstn_map, firstn_seq1. f_equal. f_equal. clear - Hl4. lia. }
    assert (Hsq4 : x_seq (y_x m4) = sq) by exact (f1_seq _ _ _ _ _ _ _ _ F4).
    assert (Hbtb4 : Forall (fun en => fst en < pcz x) (b_btb (m_bu (y_m m4)))).
    { eapply Forall_impl; [|exact (f1_btb _ _ _ _ _ _ _ _ F4)]. cbn beta. intros en Hen. unfold pcz in *. clear - Hen T6. lia. }
    remember (Nat.min (length (t_eus s)) lq) as j eqn:Ej.
    assert (Hjlq : (j <= lq)%nat) by (clear - Ej; lia).
    destruct (eus_gen ord cy d' (x_cu (y_x m4)) (t_eus s) m4 euo_none x lq (sid x) T1 T9 (Z.le_refl _) (or_introl eq_refl) B4 (f1_bw _ _ _ _ _ _ _ _ F4)
                ltac:(rewrite <- Ej; clear - Hwb4 Hjlq Hlq2; lia) ltac:(rewrite <- Ers; exact Hrs) Hbtb4 ltac:(rewrite Hsq4; clear - Hsq Hlq2; lia))
      as (m5 & eus' & Ee & A1 & A2 & A2' & A3 & A4 & A5 & A6 & A7 & A8 & A9 & A10 & A11).
    rewrite <- Ej in Ee, A2', A6, A7, A8, A9, A10, A11.
    assert (A3' : CoreI d' (x_cu (y_x m5)) m5) by (rewrite (w1_xcu _ _ A5); exact A3).
    destruct ((IE wus_ok1) d' (x_cu (y_x m5)) (t_wus s) m5 A3' GW)
      as (b6 & Ew & B6 & [_ V2 _ _ V5 V6 V7 V8 V9 V10 V11 V12 V13 _ _ V16] & _ & V18).
    exists os0, m4, m5, b6, eus', d', c', f', lq. cbv zeta. rewrite <- Ej.
    remember (set_m m5 b6) as m6 eqn:Em6.
    assert (Ym : y_m m6 = b6) by (rewrite Em6; reflexivity). assert (Yx : y_x m6 = y_x m5) by (rewrite Em6; reflexivity).
    split; [exact Efront|]. split; [exact Ee|]. split; [exact Ew|].
    assert (Hrb6 : map r_b (EB m6) = map rnq (seq (x + j) (d' - (x + j)))).
    { assert (HEB6 : EB m6 = skipn j (EB m4)).
      { unfold EB at 1, flat. rewrite Yx, A6, (w1_ebuf _ _ A5), <- Ers, HEB4, skipn_app.
        replace (j - length rs)%nat with O by (clear - Hjlq Elq; lia). reflexivity. }
      rewrite HEB6, <- skipn_map, Hrb4, skipn_map, skipn_seq1. f_equal. f_equal. clear. lia. }
    assert (Hq6 : bb_q (m_wbus (y_m m6)) = []).
    { rewrite Ym, V16, (w1_wq _ _ A5). apply skipn_all2, Nat2Z.inj_le.
      change (qlen (m_wbus (y_m m4)) <= Z.of_nat (length (t_wus s))). rewrite Hwq4. exact T3. }
    assert (Hb6 : bb_buf (m_wbus (y_m m6)) = map (fun k => (cy + 1, wbq k)) (filter notret1 (seq x j))).
    { rewrite Ym, V13, A7, (zlen_zero _ Hwb4). reflexivity. }
    (* a ret in the execute bus is alone there *)
    assert (Hrtt : forall k, (x <= k < x + j)%nat -> is_ret (ik k) = true -> k = x /\ x = N /\ j = 1%nat /\ d' = S N).
    { intros k Hk Hret. destruct (A8 k Hk) as (K1' & K2' & K3').
      assert (HkN : k = N).
      { destruct (Nat.eq_dec k N) as [|Hne]; [assumption|]. exfalso.
        pose proof (stop_from_before app dfl base k ltac:(fold N; clear - K1' K2' Hne; lia)) as Hs. unfold is_stop in Hs.
        unfold Mvp60RefSem.ik in Hret. rewrite Hret in Hs. discriminate. }
      assert (Hd'S : d' = S N) by (clear - Hd'N K1' HkN; lia).
      rewrite HkN in Hret.
      destruct (c_rete _ _ _ _ _ _ _ _ _ B4 Hd'S Hret) as [Hx|Hx]; rewrite Hrb4 in Hx.
      - exfalso. apply (f_equal (@length runner)) in Hx. rewrite map_length, seq_length in Hx. cbn [length] in Hx. clear - Hx Hk Hjlq Hl4. lia.
      - destruct (d' - x)%nat as [|[|k0]] eqn:Edx; cbn [seq map] in Hx; try discriminate.
        apply (f_equal (map r_pc)) in Hx. cbn [map Mvp61RefFront.rnq r_pc] in Hx. injection Hx as Hx. unfold pcz in Hx.
        clear - Hx Hk HkN Hjlq Hl4 Edx Hd'S. lia. }
    (* the front end, when no unit asked for a flush *)
    assert (HF6 : (forall k, (x <= k < x + j)%nat -> p_flush (bresp k) = false) -> FrontI1 d' c' f' cy m6).
    { intros Hnf. destruct (A9 Hnf) as (X1 & X2 & X3 & X4). destruct A5.
      destruct F4 as [G1 Gc G2 G3 Gb G4 G5 G6 G7 G8 G9 Gbt G10 G11 G12 G13 G14 G15 G16].
      constructor; rewrite ?Ym, ?Yx, ?V5, ?V2, ?V8, ?V10, ?V11, ?V6, ?V7, ?V9, ?V12, ?X1, ?X2, ?X4, ?w1_l1i, ?w1_dret, ?w1_cu, ?w1_dbus, ?w1_cbus, ?w1_ebus, ?w1_xcu, ?w1_xcbus; auto.
      - rewrite X3. exact Gbt.
      - eapply BusOK_frame; [exact w1_ebuf | exact w1_eql | exact w1_ebl | | exact G12]. unfold qlen, zlen. rewrite A6, skipn_length. clear. lia.
      - unfold blen. rewrite w1_ebuf. exact G14. }
    split; [exact HF6|]. split; [rewrite Yx; exact B6|].
    split; [unfold PrevB; rewrite Yx, (w1_prev _ _ A5), (w1_ebuf _ _ A5); exact P4|].
    split; [exact A1|]. split; [exact A2|]. split; [exact A2'|]. split; [exact Hrb6|]. split; [clear - Hjlq Hl4 T6 Ed'; lia|]. split; [exact Hq6|]. split; [exact Hb6|].
    split; [clear - Hjlq Hlq2; lia|]. split; [exact A8|]. split; [exact Hrtt|].
    split; [clear - GC Hlp2 Ed' Ecy; lia|].
    split; [clear - Hd'n; lia|]. split; [clear - Hd'N; lia|].
    split; [rewrite Ym, V2, (w1_l1i _ _ A5); exact (fi_l1 _ _ _ _ (f1_fetch _ _ _ _ _ _ _ _ F4))|].
    split; [rewrite Ym, V9; exact A10|].
    split; [rewrite Ym; apply V18; exact A4|].
    split.
    { rewrite Ym, Yx, V10, V8, V11, V12, (w1_dbus _ _ A5), (w1_cu _ _ A5), (w1_cbus _ _ A5), (w1_ebus _ _ A5), (w1_xcbus _ _ A5), (w1_eql _ _ A5), (w1_ebl _ _ A5).
      pose proof (f1_bsd _ _ _ _ _ _ _ _ F4) as [? ? _ _]. pose proof (f1_bc _ _ _ _ _ _ _ _ F4) as [? ? _ _]. pose proof (f1_be _ _ _ _ _ _ _ _ F4) as [? ? _ _].
      destruct (f1_old _ _ _ _ _ _ _ _ F4) as (O1 & O2 & O3). repeat split; assumption. }
    split; [rewrite Yx, <- Hsq4; exact A11|].
    (* the potential: the units take j entries from the queue of the execute bus and put at most j into
       the buffer of the write bus *)
    intros Hnf. destruct (A9 Hnf) as (X1 & _ & _ & _). specialize (HF6 Hnf).
    assert (Y1 : m_fu (y_m m6) = m_fu (y_m m4)) by (rewrite Ym, V5; exact X1).
    assert (Hle6 : phi1 m6 + 2 * Z.of_nat j <= phi1 m4).
    { assert (Y7 : blen (m_wbus (y_m m6)) <= Z.of_nat j).
      { unfold blen, zlen. rewrite Hb6, map_length. pose proof (filter_len_le notret1 (seq x j)) as Hx. rewrite seq_length in Hx. clear - Hx. lia. }
      assert (Y6 : qlen (x_ebus (y_x m6)) = Z.of_nat (lq - j)) by (rewrite Yx; unfold qlen, zlen; rewrite A6, skipn_length, <- Ers, Elq; reflexivity).
      assert (Y8 : qlen (m_wbus (y_m m6)) = 0) by (unfold qlen; rewrite Hq6; reflexivity).
      pose proof (qlen_ge0 (m_wbus (y_m m4))) as Y9.
      unfold Mvp61RefStep.phi1, phiM1. rewrite Y1, Y6, Y8, Hwb4, Hqe4, Yx, (w1_xcbus _ _ A5), (w1_xcu _ _ A5). unfold blen at 3. rewrite (w1_ebuf _ _ A5). fold (blen (x_ebus (y_x m4))).
      rewrite (f_equal m_dbus Ym), V10, (w1_dbus _ _ A5). clear - Y7 Y9 Hjlq. lia. }
    pose proof (blen_ge0 (m_wbus (y_m (t_m s)))) as Wb0.
    split; [clear - Hle6 Pfr Wb0; lia|].
    destruct (Z.eq_dec (blen (m_wbus (y_m (t_m s)))) 0) as [Wz|Wnz]; [|left; clear - Hle6 Pfr Wnz Wb0; lia].
    destruct (Nat.eq_dec j 0) as [Hj0|Hj0]; [|left; clear - Hle6 Pfr Hj0 Wz; lia].
    assert (Hlq0 : lq = O) by (rewrite Ej in Hj0; destruct (t_eus s); [contradiction | cbn [length] in Hj0; clear - Hj0; lia]).
    destruct (Sfr ltac:(rewrite Hqe4, Hlq0; reflexivity) Wz) as [Hs|[Hz4 Hcomp4]]; [left; clear - Hle6 Hs; lia|].
    right. split; [exact Hlq0|].
    (* nothing moves any more: everything is empty *)
    assert (Hz6 : phiM1 m6 <= 0) by (rewrite !phi1_eq, Y1 in Hle6; clear - Hle6 Hz4; lia).
    destruct (phiM1_le0 _ Hz6) as (Z1 & Z2 & Z3 & Z4 & Z5 & Z6 & Z7 & Z8 & Z9).
    destruct (f1_old _ _ _ _ _ _ _ _ HF6) as (O1 & O2 & O3).
    unfold is_empty1, is_empty6. rewrite Y1, Hcomp4, O1, O2, O3, Z5. cbn [andb Z.eqb].
    rewrite (wus_empty _ GW), !isempty_intro by assumption. rewrite (eus_empty1 _ A1). reflexivity.
  Qed.
End Step2.
