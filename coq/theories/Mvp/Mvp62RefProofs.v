(* Refinement of MVP-6.2 (proc/mvp6-2 = MVP-6.1 + SPECULATIVE REGISTER STATE: register results go to a
   transaction map with one slot per register, committed when a conditional branch resolves not taken,
   rolled back - entries at least as young as the branch dropped, the older ones committed - when it
   resolves taken; final Commit) to the sequential machine Isa/Seq.v on REGISTER-ONLY programs: the
   theorems, for straight-line programs and for forward control flow (class fwd_ok of Mvp60RefProofs.v),
   each with the same cycle count as MVP-6.1.

   Method: the run of the faithful model Mvp62.v follows, tick by tick, the run of the faithful model
   Mvp61.v (Mvp62RefRel.v: the simulation relation; Mvp62RefFront.v, Mvp62RefExec.v, Mvp62RefStep.v: the
   units and one tick of Run), whose states satisfy the invariants of the proof of MVP-6.1
   (Mvp61Ref*.v).  The register file of MVP-6.1 is the view (Transaction entry, else Registers) of the
   context of MVP-6.2.  The invariant on the transaction map:
     on register-only programs with forward control flow an execute unit never waits, so instructions
     execute in program order, a branch executes in the cycle after its dispatch and everything
     written back before it executes is OLDER than it; hence every entry of the map is older than every
     instruction still to execute (TxB).  A rollback therefore commits every entry - it never drops
     one - and a commit on a not-taken branch never commits a wrong-path value: wrong-path results are
     dropped by the write units (sequence ids), exactly as in MVP-6.1, and never reach the map.  The
     one-slot defect (Mvp62Proofs.mvp62_one_slot_witness) needs a branch that resolves late (fed by a
     load); it cannot show on register-only programs.

   Why (nth 0 (regs st) 0 = 0) is needed: Mvp62RefExamples.mvp62_x0_refuted (registerRead returns
   ctx.Registers[zero] when the instruction object carries a Forward for another register). *)
From Coq Require Import ZArith List Bool Lia Permutation.
From Maj Require Import Base.Outcome Base.GoInt Base.GoTypes Isa.Spec Isa.Embed Isa.Seq Isa.Refine.
From Maj Require Import Gen.Latency Gen.RiscTables Gen.Opcodes Comp.Cache Comp.Rat Comp.RatProofs.
From Maj Require Comp.Tx Comp.TxProofs.
From Maj Require Import Mvp.Mvp12 Mvp.Mvp12Proofs Mvp.Mvp3 Mvp.Mvp3Proofs Mvp.Mvp4Skel Mvp.Mvp4Inv Mvp.Mvp4Sim Mvp.Mvp5 Mvp.Mvp60 Mvp.Mvp61
     Mvp.Mvp60RefSem Mvp.Mvp60RefDefs Mvp.Mvp60RefFront Mvp.Mvp60RefBack Mvp.Mvp60RefStep Mvp.Mvp60RefStep2 Mvp.Mvp60RefSeg Mvp.Mvp60RefProofs
     Mvp.Mvp61RefSem Mvp.Mvp61RefFront Mvp.Mvp61RefBack Mvp.Mvp61RefInv Mvp.Mvp61RefCu Mvp.Mvp61RefExec Mvp.Mvp61RefExec2
     Mvp.Mvp61RefStep Mvp.Mvp61RefStep2 Mvp.Mvp61RefStep3 Mvp.Mvp61RefProofs.
From Maj Require Import Mvp.Mvp62 Mvp.Mvp62RefRel Mvp.Mvp62RefFront Mvp.Mvp62RefExec Mvp.Mvp62RefStep.
Import ListNotations.
Open Scope Z_scope.

Lemma run62_S app labels ord s s' fuel : step62 app labels ord s = Mvp62.TCont s' ->
  run62_st (S fuel) app labels ord s = run62_st fuel app labels ord s'.
Proof. intros H. cbn [run62_st]. rewrite H. reflexivity. Qed.

Lemma run62_done app labels ord s r os fuel : step62 app labels ord s = Mvp62.TDone r os ->
  run62_st (S fuel) app labels ord s = inl (r, os).
Proof. intros H. cbn [run62_st]. rewrite H. reflexivity. Qed.

Lemma run62_more app labels ord : forall fuel k s r, run62_st fuel app labels ord s = inl r -> run62_st (fuel + k) app labels ord s = inl r.
Proof.
  induction fuel as [|fuel IH]; intros k s r H; [discriminate|]. cbn [run62_st Nat.add] in *.
  destruct (step62 app labels ord s); [exact H | apply IH; exact H].
Qed.

Lemma mvp62_run_more app labels par ord fuel k st c st' :
  mvp62_run par ord fuel app labels st = MDone c st' -> mvp62_run par ord (fuel + k) app labels st = MDone c st'.
Proof.
  unfold mvp62_run, mvp62_run_os. destruct (init62 par st) as [s0| |]; try discriminate.
  destruct (run62_st fuel app labels ord s0) as [r|s'] eqn:E; [|discriminate].
  intros H. rewrite (run62_more app labels ord _ k _ _ E). exact H.
Qed.

Section Run62.
  Variables (app : list instr) (labels : Z -> option Z) (regs0 mem0 : list Z) (base : nat) (sq : Z) (off : Z).
  Hypothesis Happ : wf_app app.
  Hypothesis Hreg : reg_only app = true.
  Hypothesis Hrng : regs_in_range app = true.
  Hypothesis Hlen32 : length regs0 = 32%nat.
  Hypothesis Hbase : (base <= length app)%nat.
  Let n := length app.
  Let N := stop_from app base.
  Hypothesis Hsq : 0 <= sq /\ 1000 * sq + 4 * Z.of_nat n < 2147483648.

  Notation sreg := (sreg app labels regs0 base).
  Notation eff := (eff app labels regs0 base).
  Notation ik := (ik app).
  Notation sid := (sid sq).
  Notation GI1 := (GI1 app labels regs0 mem0 base sq off).
  Notation GR1 := (GR1 app labels regs0 mem0 base sq off).
  Notation GF1 := (GF1 app labels regs0 mem0 base sq).
  Notation Fin1 := (Fin1 app labels regs0 mem0 base sq off).
  Notation bresp := (bresp app labels regs0 base sq).
  Notation SInv1 := (SInv1 app labels regs0 mem0 base sq off).

  Hypothesis Hsem : forall k, (base <= k <= N)%nat -> (k < n)%nat ->
    exec (sinstr_of (ik k)) (rget (sreg k)) labels (pcz k) [] = Ok (eff k) /\
    (forall a, etarget (eff k) = Some a -> exists t, a = pcz t /\ (k < t <= n)%nat).
  Hypothesis Hr32 : Forall int32 regs0.

  (* as in Mvp62RefStep.v: (IS L) is the lemma L of a section over these variables and hypotheses, applied to them *)
  Set Default Proof Using "All".
  Notation "'IS' L" := (L app labels regs0 mem0 base sq off Happ Hreg Hrng Hlen32 Hbase Hsq Hsem Hr32) (at level 10, L at level 9, only parsing).

  (* the joint invariant: a related pair of states, the invariant of MVP-6.1, the bound on the transaction map *)
  Inductive JInv (s2 : st62) (s1 : st1) : Prop :=
  | JN sg d c f x : RS n sg s2 s1 -> GI1 d c f x s1 -> TxB (n_ctx (Mvp62.t_m s2)) (sid x) -> JInv s2 s1
  | JR sg d bn : RS n sg s2 s1 -> GR1 d s1 -> TxB (n_ctx (Mvp62.t_m s2)) bn -> sid d <= bn -> JInv s2 s1
  | JF sg d E t : RS n sg s2 s1 -> GF1 d E t s1 -> TxB (n_ctx (Mvp62.t_m s2)) (sid E + 1) -> JInv s2 s1.

  Lemma JInv_SInv s2 s1 : JInv s2 s1 -> SInv1 s1.
  Proof. intros [sg d c f x _ H _|sg d bn _ H _ _|sg d E t _ H _]; [eapply SI1_n | eapply SI1_r | eapply SI1_f]; exact H. Qed.

  Definition SegEnd62 (ord : Z -> Z -> list Z -> list Z) (s2 : st62) (s1 : st1) (bound : nat) : Prop :=
    (exists k r os2 os1, (1 <= k <= bound)%nat /\ (forall extra, run62_st (k + extra) app labels ord s2 = inl (r, os2)) /\
       (forall extra, run1_st (k + extra) app labels ord pord0 s1 = inl (r, os1)) /\ Fin1 r) \/
    (exists k s2' s1' sg' E t sq', (1 <= k <= bound)%nat /\ (forall extra, run62_st (k + extra) app labels ord s2 = run62_st extra app labels ord s2') /\
       (forall extra, run1_st (k + extra) app labels ord pord0 s1 = run1_st extra app labels ord pord0 s1') /\
       Fresh1 app mem0 sq' t (sreg (S E)) s1' /\ RS n sg' s2' s1' /\ TxB (n_ctx (Mvp62.t_m s2')) (pcz t + 1000 * sq') /\
       sq < sq' <= sq + 3 /\ (base <= E <= N)%nat /\ (E < t <= n)%nat /\
       (forall k', (base <= k' < E)%nat -> bresp k' = resp0) /\ bresp E = mk_resp1 true (sid E) (pcz t) false None).

  Lemma Fin1_done r : Fin1 r -> exists cf st, r = MDone cf st.
  Proof. intros (cf & xe & -> & _). eauto. Qed.

  Lemma seg_run62 ord : forall (b : nat) s2 s1, JInv s2 s1 -> mu1 app s1 < Z.of_nat b -> SegEnd62 ord s2 s1 b.
  Proof.
    induction b as [|b IH]; intros s2 s1 HJ Hmu.
    - pose proof ((IS mu1_nonneg) s1 (JInv_SInv _ _ HJ)). lia.
    - (* a tick that goes on: the related state of MVP-6.2 exists, the joint invariant is re-established, the measure falls *)
      assert (Hnext : forall bn s1', StepR n bn (step62 app labels ord s2) (step1 app labels ord pord0 s1) ->
                step1 app labels ord pord0 s1 = Mvp61.TCont s1' ->
                (forall sg' s2', RS n sg' s2' s1' -> TxB (n_ctx (Mvp62.t_m s2')) bn -> JInv s2' s1') -> mu1 app s1' < mu1 app s1 ->
                SegEnd62 ord s2 s1 (S b)).
      { intros bn s1' HS Es1 HJ' Hlt. rewrite Es1 in HS. destruct HS as (sg0 & s2' & Es & HRS' & HT'). specialize (HJ' sg0 s2' HRS' HT').
        destruct (IH s2' s1' HJ' ltac:(lia)) as [(k & r & os2 & os1 & Hk & Hr & Hr1 & HF)|(k & s2'' & s1'' & sg' & E & t & sq' & Hk & Hr & Hr1 & Hrest)].
        - left. exists (S k), r, os2, os1. split; [lia|]. split; [|split; [|exact HF]]; intros extra; cbn [Nat.add].
          + rewrite (run62_S _ _ _ _ _ _ Es). apply Hr.
          + rewrite (run1_S _ _ _ _ _ _ _ Es1). apply Hr1.
        - right. exists (S k), s2'', s1'', sg', E, t, sq'. split; [lia|]. split; [|split; [|exact Hrest]]; intros extra; cbn [Nat.add].
          + rewrite (run62_S _ _ _ _ _ _ Es). apply Hr.
          + rewrite (run1_S _ _ _ _ _ _ _ Es1). apply Hr1. }
      assert (Hdone : forall r os os1, step1 app labels ord pord0 s1 = Mvp61.TDone r os1 -> StepR n os (step62 app labels ord s2) (step1 app labels ord pord0 s1) -> Fin1 r -> SegEnd62 ord s2 s1 (S b)).
      { intros r bn os1 Es HS HF. pose proof HS as HS'. rewrite Es in HS'. destruct (Fin1_done r HF) as (cf & st & Er). destruct (HS' cf st Er) as (os2 & Es2).
        left. exists 1%nat, r, os2, os1. split; [lia|]. split; [|split; [|exact HF]]; intros extra; [apply run62_done; exact Es2 | apply run1_done; exact Es]. }
      destruct HJ as [sg d c f x HRS HG HT|sg d bn HRS HG HT Hbn|sg d E t HRS HG HT].
      + destruct ((IS normal_core) sg ord d c f x s2 s1 HRS HG HT) as (HS & Hx & Hfl).
        destruct ((IS step_normal2) ord pord0 d c f x s1 HG)
          as [(s1' & d' & c' & f' & x' & Es & HG' & Hlt)|[(r & os & Es & HF)|[(s1' & d' & Es & HG')|(s1' & d' & E & t & Es & HG' & (fr & sq0 & pc0 & Em))]]].
        * apply (Hnext _ s1' HS Es).
          -- intros sg' s2' HRS' HT'. eapply JN; [exact HRS' | exact HG'|]. eapply TxB_mono; [|exact HT']. apply (IS sid_le). eapply Hx; eassumption.
          -- unfold mu1. rewrite (g1_mode _ _ _ _ _ _ _ _ _ _ _ _ HG), (g1_mode _ _ _ _ _ _ _ _ _ _ _ _ HG'). lia.
        * eapply Hdone; eassumption.
        * apply (Hnext _ s1' HS Es).
          -- intros sg' s2' HRS' HT'. eapply (JR _ _ sg' d' (Z.max (sid x) (sid d'))); [exact HRS' | exact HG' | eapply TxB_mono; [|exact HT']; lia | lia].
          -- pose proof ((IS phis1_nn) _ _ _ _ _ HG) as H0.
             unfold mu1 in *. rewrite (g1_mode _ _ _ _ _ _ _ _ _ _ _ _ HG) in *. rewrite (r1_mode _ _ _ _ _ _ _ _ _ HG').
             pose proof (bus_q _ _ (r1_bw _ _ _ _ _ _ _ _ _ HG')). lia.
        * apply (Hnext _ s1' HS Es).
          -- intros sg' s2' HRS' HT'. eapply (JF _ _ sg' d' E t); [exact HRS' | exact HG'|]. eapply TxB_mono; [|exact HT'].
             pose proof (Hfl _ _ _ _ Es Em) as Hle. pose proof (gf1_mode _ _ _ _ _ _ _ _ _ _ HG') as Hm. rewrite Em in Hm. destruct Hm as (-> & _). lia.
          -- pose proof ((IS phis1_nn) _ _ _ _ _ HG) as H0.
             unfold mu1 in *. rewrite (g1_mode _ _ _ _ _ _ _ _ _ _ _ _ HG) in *. rewrite Em. lia.
      + pose proof ((IS ret_core) sg ord d bn s2 s1 HRS HG HT Hbn) as HS.
        destruct ((IS step_ret1) ord pord0 d s1 HG) as [(s1' & Es & HG' & Hlt)|(r & os & Es & HF)].
        * apply (Hnext _ s1' HS Es).
          -- intros sg' s2' HRS' HT'. eapply JR; eassumption.
          -- unfold mu1. rewrite (r1_mode _ _ _ _ _ _ _ _ _ HG), (r1_mode _ _ _ _ _ _ _ _ _ HG'). exact Hlt.
        * eapply Hdone; eassumption.
      + pose proof ((IS flush_core) sg ord d E t s2 s1 HRS HG HT) as HS.
        destruct ((IS gf1_modes) d E t s1 HG) as [HmO|HmW].
        * destruct ((IS step_flushO) ord pord0 d E t s1 HG HmO) as (s1' & Es & HG' & (k0 & ie0 & fr0 & sq0 & pc0 & Em') & _).
          apply (Hnext _ s1' HS Es).
          -- intros sg' s2' HRS' HT'. eapply JF; eassumption.
          -- destruct HmO as (fr & sq1 & pc1 & Em). unfold mu1. rewrite Em, Em'.
             pose proof (bus_q _ _ (gf1_bw _ _ _ _ _ _ _ _ _ _ HG')). lia.
        * destruct ((IS step_flushW) ord pord0 d E t s1 HG HmW) as [(s1' & Es & HG' & (k0 & ie0 & fr0 & sq0 & pc0 & Em') & Hlt)|(s1' & sq' & Es & HFr & Hsq' & Hcyc)].
          -- apply (Hnext _ s1' HS Es).
             ++ intros sg' s2' HRS' HT'. eapply JF; eassumption.
             ++ destruct HmW as (k1 & ie1 & fr & sq1 & pc1 & Em). unfold mu1. rewrite Em, Em'. exact Hlt.
          -- pose proof HS as HS'. rewrite Es in HS'. destruct HS' as (sg' & s2' & Es2 & HRS' & HT').
             destruct (gf1_E _ _ _ _ _ _ _ _ _ _ HG) as (A1 & A2 & A3 & A4).
             right. exists 1%nat, s2', s1', sg', E, t, sq'. split; [lia|]. split; [intros extra; apply run62_S; exact Es2|]. split; [intros extra; apply run1_S; exact Es|].
             split; [exact HFr|]. split; [exact HRS'|].
             split; [eapply TxB_mono; [|exact HT']; unfold Mvp61RefFront.sid, pcz; lia|].
             split; [exact Hsq'|]. split; [fold N in A4; lia|]. split; [fold n in A2; lia|].
             split; [exact (gf1_exec _ _ _ _ _ _ _ _ _ _ HG) | exact (gf1_out _ _ _ _ _ _ _ _ _ _ HG)].
  Qed.
End Run62.

Lemma aget_combine_seq : forall (l : list Z) off r,
  aget r (combine (map Z.of_nat (seq off (length l))) l) =
  if (Z.of_nat off <=? r) && (r <? Z.of_nat (off + length l)) then Some (nth (Z.to_nat r - off) l 0) else None.
Proof.
  induction l as [|a l IH]; intros off r; cbn [length seq map combine aget].
  - destruct (Z.leb_spec (Z.of_nat off) r), (Z.ltb_spec r (Z.of_nat (off + 0))); cbn [andb]; try reflexivity; lia.
  - destruct (Z.eqb_spec r (Z.of_nat off)) as [->|Hne].
    + destruct (Z.leb_spec (Z.of_nat off) (Z.of_nat off)), (Z.ltb_spec (Z.of_nat off) (Z.of_nat (off + S (length l)))); cbn [andb]; try lia.
      rewrite Nat2Z.id, Nat.sub_diag. reflexivity.
    + rewrite IH. destruct (Z.leb_spec (Z.of_nat (S off)) r), (Z.ltb_spec r (Z.of_nat (S off + length l))),
        (Z.leb_spec (Z.of_nat off) r), (Z.ltb_spec r (Z.of_nat (off + S (length l)))); cbn [andb]; try reflexivity; try lia.
      replace (Z.to_nat r - off)%nat with (S (Z.to_nat r - S off)) by lia. reflexivity.
Qed.

Lemma init_vw rg : length rg = 32%nat -> nth 0 rg 0 = 0 ->
  Vw (Tx.mkCtx (combine (map Z.of_nat (seq 0 (length rg))) rg) [] (Tx.crat (Tx.new_context false)) (Tx.trat (Tx.new_context false)) false) rg.
Proof.
  intros Hl H0. constructor; auto. intros r. unfold view, Tx.reg_get. cbn [Tx.trans Tx.regs aget]. rewrite aget_combine_seq, Hl. unfold rget.
  destruct (Z.leb_spec (Z.of_nat 0) r), (Z.ltb_spec r (Z.of_nat (0 + 32))); cbn [andb].
  - rewrite Nat.sub_0_r. destruct (Z.eqb_spec r 0) as [->|]; [exact H0 | reflexivity].
  - destruct (Z.eqb_spec r 0); [reflexivity|]. rewrite nth_overflow by lia. reflexivity.
  - destruct (Z.eqb_spec r 0); [reflexivity|]. replace (Z.to_nat r) with 0%nat by lia. symmetry. exact H0.
  - lia.
Qed.

Lemma init_rel app par (st : arch) : (1 <= par)%nat -> length (regs st) = 32%nat -> nth 0 (regs st) 0 = 0 ->
  exists s2 s1, init62 par st = Ok s2 /\ init1 par app st = Ok s1 /\ Fresh1 app (mem st) 0 0 (regs st) s1 /\ Mvp61.t_cycle s1 = 0 /\
    RS (length app) (fun c => c) s2 s1 /\ forall b, TxB (n_ctx (Mvp62.t_m s2)) b.
Proof.
  intros Hpar Hl H0. destruct (init_fresh1 app par st Hpar) as (s1 & E1 & HF & Hc).
  unfold init1, init6 in E1 |- *. unfold init62.
  destruct (new_cache l1LineSize l1Size) as [ci| |]; try discriminate E1. destruct (new_cache l3LineSize l3Size) as [c3| |]; try discriminate E1.
  injection E1 as <-. eexists _, _. split; [reflexivity|]. split; [reflexivity|]. split; [exact HF|]. split; [exact Hc|].
  split; [|intros b r u E; cbn in E; discriminate E].
  constructor; cbn [Mvp62.t_m Mvp62.t_eus Mvp62.t_wus Mvp62.t_cycle Mvp62.t_mode Mvp61.t_m Mvp61.t_eus Mvp61.t_wus Mvp61.t_cycle Mvp61.t_mode s_m s_wus].
  - constructor; ss; auto; try reflexivity; try (repeat split; constructor).
    + apply init_vw; assumption.
    + constructor; [intros c c' H1 H2; exact H1 | intros c Hc0; lia].
  - intros p Hp. destruct Hp.
  - clear. induction par as [|k IH]; cbn [repeat]; constructor; [|exact IH]. constructor; reflexivity.
  - reflexivity.
  - reflexivity.
  - exact I.
Qed.

(* a fresh pair of states satisfies the joint invariant of the main loop at base t *)
Lemma fresh_JInv app labels mem0 sq t R off sg s2 s1 : Fresh1 app mem0 sq t R s1 -> (t <= length app)%nat ->
  length R = 32%nat -> Forall int32 R -> Z.of_nat t <= 2 * Mvp61.t_cycle s1 + off ->
  RS (length app) sg s2 s1 -> TxB (n_ctx (Mvp62.t_m s2)) (pcz t + 1000 * sq) ->
  JInv app labels R mem0 t sq off s2 s1.
Proof.
  intros HF Ht HlR HR Hc HRS HT. eapply (JN _ _ _ _ _ _ _ _ _ sg t t t t); [exact HRS | apply fresh_GI1; assumption | exact HT].
Qed.

Section Fwd62.
  Variables (app : list instr) (labels : Z -> option Z).
  Hypothesis Happ : wf_app app.
  Hypothesis Hreg : reg_only app = true.
  Hypothesis Hrng : regs_in_range app = true.
  Hypothesis Hfwd : fwd_ok app labels = true.
  Hypothesis Hfit : seq_ids_fit app.
  Let n := length app.
  Let sp := map sinstr_of app.

  (* m bounds the number of segments: every flush moves the restart point t forward *)
  Lemma fwd_core62 ord mem0 : forall m t R sq sg s2 s1 fuel tr0 st' tr,
    (n - t < m)%nat -> (t <= n)%nat -> Fresh1 app mem0 sq t R s1 -> RS n sg s2 s1 -> TxB (n_ctx (Mvp62.t_m s2)) (pcz t + 1000 * sq) ->
    length R = 32%nat -> Forall int32 R -> 0 <= sq <= 3 * Z.of_nat t ->
    Seq.run fuel sp labels (mk_arch R mem0) (pcz t) tr0 = Done st' tr ->
    exists K c os os1, (K <= m * fuel_bound61 n)%nat /\
                   (forall extra, run62_st (K + extra) app labels ord s2 = inl (MDone c st', os)) /\
                   (forall extra, run1_st (K + extra) app labels ord pord0 s1 = inl (MDone c st', os1)).
  Proof.
    assert (Hsqb : forall t sq, (t <= n)%nat -> 0 <= sq <= 3 * Z.of_nat t -> 0 <= sq /\ 1000 * sq + 4 * Z.of_nat (length app) < 2147483648).
    { intros t sq Ht Hs. unfold seq_ids_fit in Hfit. fold n in Hfit |- *. lia. }
    induction m as [|m IH]; intros t R sq sg s2 s1 fuel tr0 st' tr Hm Htn HF HRS HT HlR HR Hsq Hrun; [lia|].
    set (off := Z.of_nat t - 2 * Mvp61.t_cycle s1).
    assert (HlR' : (length R <= 32)%nat) by (rewrite HlR; apply le_n).
    pose proof (fresh_JInv app labels mem0 sq t R off sg s2 s1 HF Htn HlR HR ltac:(unfold off; lia) HRS HT) as HJ.
    destruct (seg_run62 app labels R mem0 t sq off Happ Hreg Hrng HlR Htn (Hsqb t sq Htn Hsq) (hsem_all app labels Hfwd R t) HR ord (fuel_bound61 n) s2 s1
                HJ (mu1_fresh _ _ _ _ _ _ HF))
      as [(k & r & os & os1 & Hk & Hr & Hr1 & HFin)|(k & s2' & s1' & sg' & E & t' & sq' & Hk & Hr & Hr1 & HFr & HRS' & HT' & Hsq' & HE & Ht' & Hex & Hout)].
    - pose proof (Fin1_Fin app labels R mem0 t sq off Happ Hreg Hrng HlR Htn (Hsqb t sq Htn Hsq) (hsem_all app labels Hfwd R t) HR r HFin) as HFin6.
      destruct (seg_seq_fin app labels R mem0 t off Hreg HlR' Htn (hsem_all app labels Hfwd R t) r fuel tr0 st' tr HFin6 Hrun) as (cf & -> & _).
      exists k, cf, os, os1. split; [lia|]. split; [exact Hr | exact Hr1].
    - fold n in Ht'.
      pose proof (bresp_flush_kout app labels R mem0 t sq off Happ Hreg Hrng HlR Htn (Hsqb t sq Htn Hsq) (hsem_all app labels Hfwd R t) HR E (pcz t') Hout) as Hout6.
      assert (Hex6 : forall k', (t <= k' < E)%nat -> kout app labels R t k' = euo_none).
      { intros k' Hk'. apply (bresp0_kout app labels R mem0 t sq off Happ Hreg Hrng HlR Htn (Hsqb t sq Htn Hsq) (hsem_all app labels Hfwd R t) HR). apply Hex. exact Hk'. }
      destruct (seg_seq_flush app labels R mem0 t Hreg HlR' Htn (hsem_all app labels Hfwd R t) E t' fuel tr0 st' tr HE Ht' Hex6 Hout6 Hrun) as (fuel' & tr1 & Hrun').
      destruct (IH t' (sreg app labels R t (S E)) sq' sg' s2' s1' fuel' tr1 st' tr ltac:(lia) ltac:(lia) HFr HRS' HT'
                  ltac:(rewrite sreg_length; exact HlR) (sreg_int32 app labels R t HR (S E)) ltac:(lia) Hrun') as (K' & c & os & os1 & HK' & Hr' & Hr1').
      exists (k + K')%nat, c, os, os1. split; [lia|]. split; intros extra; rewrite <- Nat.add_assoc; [rewrite Hr; apply Hr' | rewrite Hr1; apply Hr1'].
  Qed.

  (* forward control flow, no div / rem / jalr: MVP-6.2 returns the sequential result in exactly the cycles of
     MVP-6.1: the speculative register state costs nothing here *)
  Theorem mvp62_agrees_mvp61_forward par ord fuel st st' tr : (1 <= par)%nat ->
    Forall int32 (regs st) -> length (regs st) = 32%nat -> nth 0 (regs st) 0 = 0 ->
    seq_run fuel sp labels st = Done st' tr ->
    exists c, forall fuel', (fuel_bound61_fwd (length app) <= fuel')%nat ->
      mvp62_run par ord fuel' app labels st = MDone c st' /\ mvp61_run par ord (pord_policy 0) fuel' app labels st = MDone c st'.
  Proof.
    intros Hpar HR HlR H0 Hrun. destruct (init_rel app par st Hpar HlR H0) as (s2 & s1 & E2 & E1 & HF & Hc & HRS & HT).
    unfold seq_run in Hrun. assert (Hst : st = mk_arch (regs st) (mem st)) by (destruct st; reflexivity).
    rewrite Hst in Hrun at 1. change 0 with (pcz 0) in Hrun.
    destruct (fwd_core62 ord (mem st) (S n) O (regs st) 0 (fun c => c) s2 s1 fuel [] st' tr ltac:(lia) ltac:(lia) HF HRS (HT _) HlR HR ltac:(lia) Hrun) as (K & c & os & os1 & HK & Hr & Hr1).
    exists c. intros fuel' Hf. unfold mvp62_run, mvp62_run_os, mvp61_run, mvp61_run_os. rewrite E2, E1.
    unfold fuel_bound61_fwd in Hf. fold n in Hf.
    replace fuel' with (K + (fuel' - K))%nat by lia. rewrite Hr. change (pord_policy 0) with pord0. rewrite Hr1. split; reflexivity.
  Qed.

  (* forward control flow, no div / rem / jalr: the pipeline with operand forwarding AND the speculative
     register state computes the sequential result; wrong-path instructions leave no architectural trace *)
  Theorem mvp62_refines_seq_forward par ord fuel st st' tr : (1 <= par)%nat ->
    Forall int32 (regs st) -> length (regs st) = 32%nat -> nth 0 (regs st) 0 = 0 ->
    seq_run fuel sp labels st = Done st' tr ->
    exists c, forall fuel', (fuel_bound61_fwd (length app) <= fuel')%nat -> mvp62_run par ord fuel' app labels st = MDone c st'.
  Proof.
    intros Hpar HR HlR H0 Hrun. destruct (mvp62_agrees_mvp61_forward par ord fuel st st' tr Hpar HR HlR H0 Hrun) as (c & Hc).
    exists c. intros fuel' Hf. apply (Hc fuel' Hf).
  Qed.
End Fwd62.

Section Straight62.
  Variables (app : list instr) (labels : Z -> option Z).
  Hypothesis Happ : wf_app app.
  Hypothesis Hstr : straight app = true.
  Hypothesis Hreg : reg_only app = true.
  Hypothesis Hrng : regs_in_range app = true.
  Let n := length app.
  Let sp := map sinstr_of app.

  Variables (par : nat) (ord : Z -> Z -> list Z -> list Z) (fuel : nat) (st st' : arch) (tr : list Z).
  Hypothesis Hpar : (1 <= par)%nat.
  Hypothesis Hr32 : Forall int32 (regs st).
  Hypothesis Hlen : length (regs st) = 32%nat.
  Hypothesis Hx0 : nth 0 (regs st) 0 = 0.
  Hypothesis Hrun : seq_run fuel sp labels st = Done st' tr.

  Theorem mvp62_agrees_mvp61_straight :
    exists c, (forall fuel', (fuel_bound61 (length app) <= fuel')%nat ->
                 mvp62_run par ord fuel' app labels st = MDone c st' /\ mvp61_run par ord (pord_policy 0) fuel' app labels st = MDone c st') /\
              Z.of_nat (length tr) <= 2 * c.
  Proof.
    assert (hsq0' : 0 <= 0 /\ 1000 * 0 + 4 * Z.of_nat (length app) < 2147483648) by (destruct Happ as [_ H]; lia).
    destruct (init_rel app par st Hpar Hlen Hx0) as (s2 & s1 & E2 & E1 & HF & Hc0 & HRS & HT).
    assert (Hle : (length (regs st) <= 32)%nat) by (rewrite Hlen; apply le_n).
    pose proof (hsem_straight app labels Hstr Hreg par fuel st st' tr Hpar Hr32 Hle Hrun) as Hsem.
    pose proof (fresh_JInv app labels (mem st) 0 0%nat (regs st) 0 (fun c => c) s2 s1 HF ltac:(lia) Hlen Hr32 ltac:(rewrite Hc0; lia) HRS (HT _)) as HJ.
    destruct (seg_run62 app labels (regs st) (mem st) 0 0 0 Happ Hreg Hrng Hlen ltac:(lia) hsq0' Hsem Hr32 ord (fuel_bound61 n) s2 s1
                HJ (mu1_fresh _ _ _ _ _ _ HF))
      as [(k & r & os & os1 & Hk & Hr & Hr1 & HFin)|(k & s2' & s1' & sg' & E & t' & sq' & Hk & Hr & Hr1 & HFr & HRS' & HT' & Hsq' & HE & Ht' & Hex & Hout)].
    - pose proof Hrun as Hrun'. unfold seq_run in Hrun'. assert (Hst : st = mk_arch (regs st) (mem st)) by (destruct st; reflexivity).
      rewrite Hst in Hrun' at 1. change 0 with (pcz 0) in Hrun'.
      pose proof (Fin1_Fin app labels (regs st) (mem st) 0 0 0 Happ Hreg Hrng Hlen ltac:(lia) hsq0' Hsem Hr32 r HFin) as HFin6.
      destruct (seg_seq_fin app labels (regs st) (mem st) 0 0 Hreg Hle ltac:(lia) Hsem r fuel [] st' tr HFin6 Hrun') as (cf & -> & Hcf).
      exists cf. split.
      + intros fuel' Hf. unfold mvp62_run, mvp62_run_os, mvp61_run, mvp61_run_os. rewrite E2, E1. unfold fuel_bound61 in Hf. fold n in Hf.
        replace fuel' with (k + (fuel' - k))%nat by (unfold fuel_bound61 in Hk; lia). rewrite Hr. change (pord_policy 0) with pord0. rewrite Hr1. split; reflexivity.
      + cbn [length] in Hcf. rewrite Nat.sub_0_r, Nat.add_0_r in Hcf. lia.
    - (* no instruction of a straight-line program asks for a flush *)
      exfalso. fold n in Ht'.
      assert (HEn : (E < n)%nat) by lia.
      pose proof (eff_kind app labels (regs st) 0 Hsem E HE HEn) as Hkind.
      pose proof (nobranch_uncond _ (ik_nobranch app Hstr E)) as Hj. pose proof (nobranch_cond _ (ik_nobranch app Hstr E)) as Hcd.
      fold (is_jump (ik app E)) in Hj. fold (condbr (ik app E)) in Hcd.
      unfold bresp in Hout. destruct (is_ret (ik app E)); [discriminate|].
      destruct (eff app labels (regs st) 0 E); cbn [etarget] in Hout; try discriminate.
      + destruct Hkind as [Hx|[_ Hx]]; congruence.
      + congruence.
  Qed.

  Theorem mvp62_run_straight :
    exists c, (forall fuel', (fuel_bound61 (length app) <= fuel')%nat -> mvp62_run par ord fuel' app labels st = MDone c st') /\
              Z.of_nat (length tr) <= 2 * c.
  Proof. destruct mvp62_agrees_mvp61_straight as (c & H & Hc). exists c. split; [intros fuel' Hf; apply (H fuel' Hf) | exact Hc]. Qed.

  Theorem mvp62_refines_seq_straight :
    exists c, forall fuel', (fuel_bound61 (length app) <= fuel')%nat -> mvp62_run par ord fuel' app labels st = MDone c st'.
  Proof. destruct mvp62_run_straight as (c & H & _). exists c. exact H. Qed.

  Theorem mvp62_cycles_lower_bound_straight fuel' c st'' :
    mvp62_run par ord fuel' app labels st = MDone c st'' ->
    st'' = st' /\ Z.of_nat (length tr) <= 2 * c /\ (Z.of_nat (length tr) + 1) / 2 <= c.
  Proof.
    intros H. destruct mvp62_run_straight as (c0 & H1 & H2).
    pose proof (mvp62_run_more app labels par ord fuel' (fuel_bound61 (length app)) st c st'' H) as H'.
    rewrite (H1 (fuel' + fuel_bound61 (length app))%nat ltac:(lia)) in H'. injection H' as -> ->.
    split; [reflexivity|]. split; [exact H2|]. assert (Hd := Z.div_lt_upper_bound (Z.of_nat (length tr) + 1) 2 (c + 1)); lia.
  Qed.

  Theorem mvp62_terminates_straight :
    exists c, mvp62_run par ord (fuel_bound61 (length app)) app labels st = MDone c st' /\
              (Z.of_nat (length tr) + 1) / 2 <= c.
  Proof.
    destruct mvp62_run_straight as (c & H1 & H2). exists c. split; [apply H1; lia|]. assert (Hd := Z.div_lt_upper_bound (Z.of_nat (length tr) + 1) 2 (c + 1)); lia.
  Qed.

  Corollary mvp62_no_panic_straight fuel' : (fuel_bound61 (length app) <= fuel')%nat ->
    mvp62_run par ord fuel' app labels st <> MPanic /\ mvp62_run par ord fuel' app labels st <> MOutOfFuel /\
    (forall e, mvp62_run par ord fuel' app labels st <> MErr e).
  Proof.
    intros Hf. destruct mvp62_refines_seq_straight as (c & Hc). rewrite (Hc fuel' Hf). repeat split; try discriminate.
  Qed.
End Straight62.
