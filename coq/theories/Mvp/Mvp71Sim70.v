(* MVP-7.1 (hooks71 of Mvp71.v) = MVP-7.0 (hooks70 of Mvp70.v), tick by tick, on SINGLE-ASSIGNMENT, register-only,
   straight-line programs (straight, reg_only, ssa, regs_ok of Mvp60RefDefs.v / Mvp63RefDefs.v) whose sequential
   run ends: every number of cores >= 1, every iteration order of Go's maps, every state with 32 int32 registers
   and x0 = 0, EVERY fuel.

   The conditions of the unit lemmas of Mvp70Sim63Mvp71.v come from the run invariant, the conjunction of
     SI   (Mvp70Sim63Loops.v)   the memory system of MVP-7.0 is idle, every runner is neither a load nor a store,
     SInv3 (Mvp63RefStep.v)     on the projected state st3_of s of MVP-6.3: the in-order pipeline invariant BI
                                (w <= xe <= d; transactionRAT = tv w: every tag is the pc of one of the first w
                                instructions; the execute bus holds the runners xe .. d-1; every unit is idle
                                between two ticks),
   kept along the run by step_sim (7.0 against 6.3) and step_normal3 / step_ret3 (6.3).  Per tick:
     front     front71_sim; the runners the control unit pushed are on the execute bus (bi_prev), hence NM;
     units     inside the loop over the execute units the invariant WB B is kept (eu_cycle70_WB): transactionRAT
               does not change (no conditional branch), no unit asks for a flush (PcChange = false: run_nobranch_pc),
               every tag of transactionRAT is <= B <= the sequence id of every queued runner (B = pc of instruction
               xe; sequenceID = 0, so SequenceID(pc) = pc); rd_agree71_newest then gives eu_cond71 for each unit;
     drain     after ret every unit is idle and is skipped whatever the hooks;
     final     the final loop finds nothing to do whatever the hooks.

   mvp71_ssa_straight_sim_mvp70     mvp71_run_os par ord fuel app labels st = mvp70_run_os par ord fuel app labels st
   mvp71_run_ssa_straight           transport of mvp70_run_ssa_straight (sequential registers and memory, ghost flag
                                    clear, fuel bound, one cycle more than MVP-6.3) *)
From Coq Require Import ZArith List Bool Lia.
From Maj Require Import Base.Outcome Base.GoInt Base.GoTypes Isa.Spec Isa.Embed Isa.Seq Isa.Refine.
From Maj Require Import Gen.Latency Gen.RiscTables Gen.Opcodes Comp.Cache Comp.Rat Comp.RatProofs.
From Maj Require Import Mvp.Mvp12 Mvp.Mvp12Proofs Mvp.Mvp3 Mvp.Mvp3Proofs Mvp.Mvp4Skel Mvp.Mvp4Inv Mvp.Mvp5 Mvp.Mvp60
     Mvp.Mvp60RefSem Mvp.Mvp60RefDefs Mvp.Mvp60RefFront Mvp.Mvp60RefBack Mvp.Mvp60RefStep Mvp.Mvp63 Mvp.Mvp70 Mvp.Mvp71.
From Maj Require Import Mvp.Mvp60Proofs Mvp.Mvp63Proofs Mvp.Mvp63Class Mvp.Mvp70Proofs Mvp.Mvp70Sim63Defs Mvp.Mvp70Sim63Loops Mvp.Mvp70Sim63Proofs
     Mvp.Mvp70Sim63Mvp71.
From Maj Require Import Mvp.Mvp63RefDefs Mvp.Mvp63RefInv Mvp.Mvp63RefExec Mvp.Mvp63RefStep Mvp.Mvp63RefProofs.
From Maj Require Mvp.Mvp62RefRel.
Import ListNotations.
Open Scope Z_scope.


Section Units.
  Variable NN : Prop.
  Variable app : list instr.
  Hypothesis Happ : reg_only app = true.
  Hypothesis Hnn : NN -> wregs_nonneg app = true.

  Notation NM := (NM NN).
  Notation INV := (INV NN).
  Notation EU := (EU NN).

  (* a queued runner: not older than B, not a branch *)
  Definition QR (B : Z) (r : runner3) : Prop := B <= q_seq r /\ nobranch (q_instr r) = true.

  (* no preference; every tag of transactionRAT <= B <= the sequence id of every runner in the queue of the execute bus *)
  Definition WB (B : Z) (w : w7) : Prop :=
    w_pref w = [] /\
    (forall reg v, rat_read tu0 (x_trat (w_x w)) reg = Some v -> fst v <= B) /\
    Forall (QR B) (bb_q (x_ebus (w_x w))).

  Lemma eu_run70_fr : forall labels ord cycle id w e w' e' o r,
    eu_run7 hooks70 labels ord cycle id w e = Ok (w', e', o) -> h_runner e = Some r -> NM r -> nobranch (q_instr r) = true ->
    w_pref w' = w_pref w /\ x_trat (w_x w') = x_trat (w_x w) /\ x_ebus (w_x w') = x_ebus (w_x w) /\ y_flush o = false.
  Proof.
    intros labels ord cycle id w e w' e' o r H ER HN HB. unfold eu_run7 in H. cbn [hooks70 k_rr] in H. cbv zeta in H. cbv beta iota in H.
    rewrite ER in H.
    destruct (instr_Run _ _ _ _ _ _) as [exe|er|] eqn:EX; [| |discriminate].
    2: { inversion H; subst. repeat split; reflexivity. }
    rewrite (nomem_no_change _ _ _ _ _ _ _ (proj1 HN) EX) in H.
    rewrite (run_nobranch_pc _ _ _ _ _ _ _ (proj1 HN) HB EX) in H.
    destruct (Return exe); [inversion H; subst; repeat split; reflexivity|].
    destruct (q_fwder r) as [ch|].
    - destruct (aget ch _); [discriminate|]. destruct (InstructionType_IsBranch _); [discriminate|].
      inversion H; subst. repeat split; reflexivity.
    - rewrite (nobranch_uncond _ HB), (nobranch_cond _ HB) in H. inversion H; subst. repeat split; reflexivity.
  Qed.

  Lemma eu_prepare70_fr : forall labels ord cycle id w e w' e' o r,
    eu_prepare7 hooks70 labels ord cycle id w e = Ok (w', e', o) -> h_runner e = Some r -> NM r -> nobranch (q_instr r) = true ->
    w_pref w' = w_pref w /\ x_trat (w_x w') = x_trat (w_x w) /\ x_ebus (w_x w') = x_ebus (w_x w) /\ y_flush o = false.
  Proof.
    intros labels ord cycle id w e w' e' o r H ER HN HB. unfold eu_prepare7 in H. cbv zeta in H.
    destruct (negb _); [inversion H; subst; repeat split; reflexivity|].
    rewrite ER in H. cbn [hooks70 k_rr] in H.
    destruct (q_recv r) as [ch|].
    - destruct (aget ch (x_chan (w_x w))) as [v|]; [|inversion H; subst; repeat split; reflexivity].
      cbv beta iota zeta in H. rewrite nomem_no_read in H by exact (proj1 HN).
      eapply eu_run70_fr in H; [|cbn [set_hco h_runner]; reflexivity|exact HN|exact HB].
      destruct H as (A & B & C & D). cbn [set_wx w_x w_pref] in A, B, C.
      cbn [q_r] in B, C. rewrite bu_assert3_trat in B. rewrite bu_assert3_ebus in C. repeat split; assumption.
    - cbv beta iota zeta in H. rewrite nomem_no_read in H by exact (proj1 HN).
      eapply eu_run70_fr in H; [|cbn [set_hco h_runner]; reflexivity|exact HN|exact HB].
      destruct H as (A & B & C & D). cbn [set_wx w_x w_pref] in A, B, C.
      rewrite bu_assert3_trat in B. rewrite bu_assert3_ebus in C. repeat split; assumption.
  Qed.

  (* an idle unit with sequence id 0 *)
  Lemma eu_cycle70_WB : forall labels ord cycle id B w e w' e' o,
    eu_cycle7 hooks70 labels ord cycle id w e = Ok (w', e', o) -> h_co e = HNone -> h_seq e = 0 -> INV w -> WB B w ->
    WB B w' /\ y_flush o = false.
  Proof.
    intros labels ord cycle id B w e w' e' o H HC HS HI (W1 & W2 & W3). unfold eu_cycle7 in H.
    assert (EP : eu_pre7 e = false) by (unfold eu_pre7; rewrite HS; reflexivity).
    rewrite EP, HC in H. cbn [hooks70 k_take] in H. unfold bb_get in H.
    destruct (bb_q (x_ebus (w_x w))) as [|r q'] eqn:EQ.
    - inversion H; subst. split; [|reflexivity]. split; [exact W1|]. split; [exact W2|]. rewrite EQ. exact W3.
    - assert (HN : NM r). { destruct HI as [_ (_ & _ & [_ P3] & _)]. rewrite EQ in P3. inversion P3; assumption. }
      inversion W3 as [|? ? [Q1 Q2] W3']; subst.
      eapply eu_prepare70_fr in H; [|cbn [h_runner]; reflexivity|exact HN|exact Q2].
      destruct H as (A & B' & C & D). cbn [set_wx w_x w_pref set_ebus3 x_trat x_ebus] in A, B', C.
      split; [|exact D]. split; [rewrite A; exact W1|]. split; [rewrite B'; exact W2|]. rewrite C. cbn [bb_q]. exact W3'.
  Qed.

  (* the conditions of eu_cycle71_sim *)
  Lemma WB_cond71 : forall B w e, INV w -> WB B w -> h_co e = HNone -> h_seq e = 0 -> eu_cond71 NN w e.
  Proof.
    intros B w e HI (W1 & W2 & W3) HC HS.
    assert (EP : eu_pre7 e = false) by (unfold eu_pre7; rewrite HS; reflexivity).
    split; [exact W1|]. split; [intros HP; rewrite EP in HP; discriminate HP|]. intros _. rewrite HC.
    intros r b' HG. unfold bb_get in HG. destruct (bb_q (x_ebus (w_x w))) as [|r0 q'] eqn:EQ; inversion HG; subst.
    assert (HN : NM r). { destruct HI as [_ (_ & _ & [_ P3] & _)]. rewrite EQ in P3. inversion P3; assumption. }
    split; [exact HN|]. inversion W3 as [|? ? [Q1 Q2] W3']; subst.
    intros x0 r1 EV. unfold recv3 in EV.
    destruct (q_recv r) as [ch|].
    - destruct (aget ch _) as [v|]; [|discriminate]. inversion EV; subst. apply rd_agree71_newest. intros reg v0 HV.
      rewrite bu_assert3_trat in HV. cbn [set_forward3 set_fwd3 set_chan3 set_ebus3 x_trat] in HV.
      unfold q_seq. cbn [q_r]. fold (q_seq r). specialize (W2 reg v0 HV). clear - W2 Q1. lia.
    - inversion EV; subst. apply rd_agree71_newest. intros reg v0 HV.
      rewrite bu_assert3_trat in HV. cbn [set_ebus3 x_trat] in HV.
      specialize (W2 reg v0 HV). clear - W2 Q1. lia.
  Qed.

  Lemma eus_main71_eq : forall labels ord cycle B eus id w acc,
    INV w -> WB B w -> Forall EU eus -> Forall (fun e => h_co e = HNone) eus -> y_seq acc = 0 ->
    eus_main7 hooks71 labels ord cycle id w eus acc = eus_main7 hooks70 labels ord cycle id w eus acc.
  Proof.
    intros labels ord cycle B. induction eus as [|e t IH]; intros id w acc HI HW HE HC HA; [reflexivity|].
    cbn [eus_main7]. cbv zeta. inversion HE as [|? ? HE1 HET]; subst. inversion HC as [|? ? HC1 HCT]; subst.
    rewrite HA.
    set (e0 := mk_eu7 (h_co e) (h_memory e) (h_runner e) 0 (h_cc e)).
    assert (HE0 : EU e0) by exact HE1.
    rewrite (eu_cycle71_sim NN labels ord cycle id w e0 (WB_cond71 B w e0 HI HW HC1 eq_refl)).
    destruct (eu_cycle7 hooks70 labels ord cycle id w e0) as [[[w1 e1] o]|er|] eqn:E1; [|reflexivity|reflexivity].
    cbn [bind].
    destruct (eu_cycle7_inv NN app Hnn _ _ _ _ _ _ _ _ _ E1 HI HE0) as [HI1 _].
    destruct (eu_cycle70_WB _ _ _ _ B _ _ _ _ _ E1 HC1 eq_refl HI HW) as [HW1 HF].
    destruct (y_err o); [reflexivity|].
    rewrite HF. cbn [andb]. match goal with
    | |- context [eus_main7 hooks71 labels ord cycle (id + 1) w1 t ?a] => rewrite (IH (id + 1) w1 a HI1 HW1 HET HCT eq_refl)
    end. reflexivity.
  Qed.

  (* the drain loop after ret skips idle units whatever the hooks *)
  Lemma eus_drain7_idle_hk : forall hk labels ord cycle eus id w,
    Forall (fun e => h_co e = HNone) eus -> eus_drain7 hk labels ord cycle id w eus = Ok (w, eus, None).
  Proof.
    intros hk labels ord cycle. induction eus as [|e t IH]; intros id w HC; [reflexivity|].
    inversion HC as [|? ? HC1 HCT]; subst. cbn [eus_drain7]. unfold eu_empty7. rewrite HC1. rewrite (IH (id + 1) w HCT). reflexivity.
  Qed.
  Lemma eus_main70_WB : forall labels ord cycle B eus id w acc w' eus' o,
    eus_main7 hooks70 labels ord cycle id w eus acc = Ok (w', eus', o) ->
    INV w -> WB B w -> Forall EU eus -> Forall (fun e => h_co e = HNone) eus -> y_seq acc = 0 -> WB B w'.
  Proof.
    intros labels ord cycle B. induction eus as [|e t IH]; intros id w acc w' eus' o H HI HW HE HC HA; cbn [eus_main7] in H.
    - inversion H; subst. exact HW.
    - cbv zeta in H. inversion HE as [|? ? HE1 HET]; subst. inversion HC as [|? ? HC1 HCT]; subst.
      rewrite HA in H.
      set (e0 := mk_eu7 (h_co e) (h_memory e) (h_runner e) 0 (h_cc e)) in *.
      assert (HE0 : EU e0) by exact HE1.
      apply bind_ok in H as ([[w1 e1] o1] & E1 & H).
      destruct (eu_cycle7_inv NN app Hnn _ _ _ _ _ _ _ _ _ E1 HI HE0) as [HI1 _].
      destruct (eu_cycle70_WB _ _ _ _ B _ _ _ _ _ E1 HC1 eq_refl HI HW) as [HW1 HF].
      destruct (y_err o1).
      + inversion H; subst. exact HW1.
      + rewrite HF in H. cbn [andb] in H. apply bind_ok in H as ([[w2 t'] acc2] & E2 & H). inversion H; subst.
        eapply IH; [exact E2|exact HI1|exact HW1|exact HET|exact HCT|reflexivity].
  Qed.
End Units.

Lemma back7_pref : forall s cycle w eus1 o s', back7 s cycle (w, eus1, o) = UCont s' -> w_pref (v_w s') = w_pref w.
Proof.
  intros s cycle w eus1 o s'. unfold back7. destruct (y_err o); [discriminate|].
  destruct (wus_cycle7 _ _ _) as [[x wus1]|er|]; cbn [res_of7]; try discriminate.
  destruct (y_ret o).
  - unfold ret_check7. cbn [v_eus v_wus v_w v_cycle]. destruct (_ && _); intros H; inversion H; subst; reflexivity.
  - destruct (y_flush o); [intros H; inversion H; subst; reflexivity|].
    destruct (is_empty7 _ _ _); intros H; inversion H; subst; reflexivity.
Qed.

Section Tick.
  Variables (app : list instr) (labels : Z -> option Z) (regs0 mem0 : list Z) (ord : Z -> Z -> list Z -> list Z).
  Hypothesis Happ : wf_app app.
  Hypothesis Hstr : straight app = true.
  Hypothesis Hreg : reg_only app = true.
  Hypothesis Hssa : ssa app = true.
  Hypothesis Hrng : regs_ok app = true.
  Hypothesis Hlen0 : length regs0 = 32%nat.
  Hypothesis Hr32 : Forall int32 regs0.
  Hypothesis Hx0 : nth 0 regs0 0 = 0.
  Hypothesis Hsem : forall k, (0 <= k <= stop_from app 0)%nat -> (k < length app)%nat ->
    exec (sinstr_of (ik app k)) (rget (sreg app labels regs0 0 k)) labels (pcz k) [] = Ok (eff app labels regs0 0 k) /\
    (forall a, etarget (eff app labels regs0 0 k) = Some a -> exists t, a = pcz t /\ (k < t <= length app)%nat).

  Notation "'IE' L" := (L app labels regs0 mem0 ord Happ Hstr Hreg Hssa Hrng Hlen0 Hr32 Hx0 Hsem) (at level 10, L at level 9, only parsing).
  Notation BI := (BI app labels regs0 mem0).
  Notation G3 := (G3 app labels regs0 mem0).
  Notation GR3 := (GR3 app labels regs0 mem0).
  Notation SInv3 := (SInv3 app labels regs0 mem0).
  Notation SI := (SI True).
  Notation INV := (INV True).
  Notation EU := (EU True).

  Lemma nonneg_writes : True -> wregs_nonneg app = true.
  Proof. intros _. exact (regs_ok_wregs_nonneg app Hrng). Qed.

  (* the invariant of MVP-6.3 is kept by a step that goes on *)
  Lemma SInv3_step : forall s s', SInv3 s -> step3 app labels ord s = TCont s' -> SInv3 s'.
  Proof.
    intros s s' [dp d c f xe w HG|w HG] E.
    - destruct (IE step_normal3 dp d c f xe w s HG) as [(s1 & dp' & d' & c' & f' & xe' & w' & Es & HG' & _)|[(r & Es & _)|(s1 & w' & Es & HG')]].
      + rewrite Es in E. inversion E; subst. eapply SI3_n. exact HG'.
      + rewrite Es in E. discriminate E.
      + rewrite Es in E. inversion E; subst. eapply SI3_r. exact HG'.
    - destruct (IE step_ret3 w s HG) as [(s1 & w' & Es & HG' & _)|(r & Es & _)].
      + rewrite Es in E. inversion E; subst. eapply SI3_r. exact HG'.
      + rewrite Es in E. discriminate E.
  Qed.

  (* under BI every tag of transactionRAT is the pc of an instruction before xe, the oldest one not yet executed ... *)
  Lemma BI_tags : forall dp d xe w pl pv x, BI dp d xe w pl pv x ->
    forall reg v, rat_read tu0 (x_trat x) reg = Some v -> fst v <= pcz xe.
  Proof.
    intros dp d xe w pl pv x HB reg v HV. rewrite (bi_trat _ _ _ _ _ _ _ _ _ _ _ HB) in HV.
    assert (HJ : exists j, (j < w)%nat /\ fst v = pcz j).
    { clear - HV. induction w as [|k IH]; cbn [tv] in HV; [discriminate|].
      destruct (_ && _); [inversion HV; subst; exists k; split; [lia|reflexivity]|].
      destruct (IH HV) as (j & A & B). exists j. split; [lia|exact B]. }
    destruct HJ as (j & A & B). rewrite B. pose proof (bi_ord _ _ _ _ _ _ _ _ _ _ _ HB) as Ho. unfold pcz. clear - A Ho. lia.
  Qed.

  (* ... and the queue of the execute bus holds instructions from xe on, none of them a branch *)
  Lemma BI_queue : forall dp d xe w pl pv x, BI dp d xe w pl pv x -> Forall (QR (pcz xe)) (bb_q (x_ebus x)).
  Proof.
    intros dp d xe w pl pv x HB. apply Forall_forall. intros r Hr.
    assert (Hin : In r (flat (x_ebus x))) by (unfold flat; apply in_or_app; left; exact Hr).
    pose proof (bi_ebus _ _ _ _ _ _ _ _ _ _ _ HB) as HE. apply (in_map q_r) in Hin. rewrite HE in Hin.
    apply in_map_iff in Hin as (k & Ek & Hk). apply in_seq in Hk.
    split.
    - unfold q_seq. rewrite <- Ek. cbn [Mvp60RefFront.rn r_seq]. unfold pcz. clear - Hk. lia.
    - unfold q_instr. rewrite <- Ek. cbn [Mvp60RefFront.rn r_instr]. apply (ik_nobr app Hstr).
  Qed.

  Lemma BI_WB : forall dp d xe w pl pv x wv, BI dp d xe w pl pv x -> w_x wv = x -> w_pref wv = [] -> WB (pcz xe) wv.
  Proof.
    intros dp d xe w pl pv x wv HB Ex Ep. subst x.
    split; [exact Ep|]. split; [exact (BI_tags _ _ _ _ _ _ _ HB)|exact (BI_queue _ _ _ _ _ _ _ HB)].
  Qed.

  Lemma idle_of : forall eus, Forall EU eus -> Forall EuIdle (map eu_of eus) -> Forall (fun e => h_co e = HNone) eus.
  Proof.
    intros eus HE Ge. apply Forall_forall. intros e He. rewrite Forall_forall in Ge.
    destruct (Ge (eu_of e) (in_map eu_of _ _ He)) as [Hco _].
    rewrite Forall_forall in HE. destruct (HE e He) as ([A|A] & _); [exact A|].
    unfold eu_of in Hco. cbn [g_co] in Hco. rewrite A in Hco. discriminate Hco.
  Qed.

  (* the main loop *)
  Lemma tick_normal : forall dp d c f xe wb w eus wus cyc,
    SI (mk_st7 w eus wus cyc QNormal) -> w_pref w = [] -> G3 dp d c f xe wb (st3_of (mk_st7 w eus wus cyc QNormal)) ->
    step7 hooks71 app labels ord (mk_st7 w eus wus cyc QNormal) = step7 hooks70 app labels ord (mk_st7 w eus wus cyc QNormal) /\
    (forall s', step7 hooks70 app labels ord (mk_st7 w eus wus cyc QNormal) = UCont s' -> w_pref (v_w s') = []).
  Proof.
    intros dp d c f xe wb w eus wus cyc (HI & HE & HW & _) HP HG. cbn [v_w v_eus v_wus] in HI, HE, HW.
    destruct (IE front_tick3 _ _ _ _ _ _ _ HG) as (x4 & lp & c' & f' & [Efront _ _ HB4 _ _ _ _ _ _ _ _]).
    cbn [st3_of t_x t_cycle v_w v_cycle] in Efront.
    assert (HP4 : PX True x4) by (eapply (front3_px True app Hreg nonneg_writes); [exact Efront|exact (proj2 HI)]).
    assert (HI4 : INV (set_wx w x4)) by (apply INV_set_wx; assumption).
    assert (HW4 : WB (pcz xe) (set_wx w x4)) by (eapply BI_WB; [exact HB4|reflexivity|exact HP]).
    assert (HC : Forall (fun e => h_co e = HNone) eus).
    { apply idle_of; [exact HE|]. exact (g3_eus _ _ _ _ _ _ _ _ _ _ _ HG). }
    assert (EK0 : k_front hooks70 app ord (cyc + 1) w = Ok (set_wx w x4)) by (cbn [hooks70 k_front]; rewrite Efront; reflexivity).
    assert (EK : k_front hooks71 app ord (cyc + 1) w = Ok (set_wx w x4)).
    { rewrite (front71_sim True app ord (cyc + 1) w); [exact EK0| |].
      - rewrite (proj1 HI). reflexivity.
      - intros fu1 l1i1 dbus1 x1 EF ED. pose proof Efront as X. rewrite front3_eq, EF, ED in X. injection X as ->.
        apply Forall_forall. intros p Hp. destruct (bi_prev _ _ _ _ _ _ _ _ _ _ _ HB4 p Hp) as (Hin & _).
        destruct HP4 as (_ & _ & [P3a P3b] & _). unfold flat in Hin. apply in_app_or in Hin as [Hin|Hin].
        + rewrite Forall_forall in P3b. apply P3b. exact Hin.
        + apply in_map_iff in Hin as (y & Ey & Hy). subst p. rewrite Forall_forall in P3a. exact (P3a y Hy). }
    assert (E70 : step7 hooks70 app labels ord (mk_st7 w eus wus cyc QNormal) =
                  res_of7 (v_os (set_wx w x4)) (eus_main7 hooks70 labels ord (cyc + 1) 0 (set_wx w x4) eus yo_none)
                          (back7 (mk_st7 w eus wus cyc QNormal) (cyc + 1))).
    { unfold step7. cbn [v_w v_eus v_wus v_cycle v_mode]. cbv zeta. rewrite EK0. cbn [res_of7].
      rewrite (snoops7_idle True hooks70 eus 0 (set_wx w x4) (proj1 HI4) HE). reflexivity. }
    assert (E71 : step7 hooks71 app labels ord (mk_st7 w eus wus cyc QNormal) =
                  res_of7 (v_os (set_wx w x4)) (eus_main7 hooks71 labels ord (cyc + 1) 0 (set_wx w x4) eus yo_none)
                          (back7 (mk_st7 w eus wus cyc QNormal) (cyc + 1))).
    { unfold step7. cbn [v_w v_eus v_wus v_cycle v_mode]. cbv zeta. rewrite EK. cbn [res_of7].
      rewrite (snoops7_idle True hooks71 eus 0 (set_wx w x4) (proj1 HI4) HE). reflexivity. }
    split.
    - rewrite E70, E71.
      rewrite (eus_main71_eq True app nonneg_writes labels ord (cyc + 1) (pcz xe) eus 0 (set_wx w x4) yo_none HI4 HW4 HE HC eq_refl). reflexivity.
    - intros s' H. rewrite E70 in H.
      destruct (eus_main7 hooks70 labels ord (cyc + 1) 0 (set_wx w x4) eus yo_none) as [[[w2 eus1] o]|er|] eqn:EM;
        cbn [res_of7] in H; try discriminate H.
      apply back7_pref in H. rewrite H.
      exact (proj1 (eus_main70_WB True app nonneg_writes _ _ _ _ _ _ _ _ _ _ _ EM HI4 HW4 HE HC eq_refl)).
  Qed.

  (* the drain loop after ret *)
  Lemma tick_ret : forall wb w eus wus cyc,
    SI (mk_st7 w eus wus cyc QRet) -> w_pref w = [] -> GR3 wb (st3_of (mk_st7 w eus wus cyc QRet)) ->
    step7 hooks71 app labels ord (mk_st7 w eus wus cyc QRet) = step7 hooks70 app labels ord (mk_st7 w eus wus cyc QRet) /\
    (forall s', step7 hooks70 app labels ord (mk_st7 w eus wus cyc QRet) = UCont s' -> w_pref (v_w s') = []).
  Proof.
    intros wb w eus wus cyc (HI & HE & HW & _) HP HG. cbn [v_w v_eus v_wus] in HI, HE, HW.
    assert (HC : Forall (fun e => h_co e = HNone) eus).
    { apply idle_of; [exact HE|]. exact (r3_eus _ _ _ _ _ _ HG). }
    assert (EH : forall hk, step7 hk app labels ord (mk_st7 w eus wus cyc QRet) =
                   res_of7 (v_os w) (wus_cycle7 (w_x w) wus (-1)) (fun r =>
                     let '(x2, wus1) := r in
                     ret_check7 (mk_st7 (w_connect7 (set_wx w x2) (cyc + 1)) eus wus1 (cyc + 1) QRet))).
    { intros hk. unfold step7. cbn [v_w v_eus v_wus v_cycle v_mode]. cbv zeta.
      rewrite (snoops7_idle True hk eus 0 w (proj1 HI) HE). cbn [res_of7 fst snd].
      rewrite (eus_drain7_idle_hk hk labels ord cyc eus 0 w HC). cbn [res_of7]. reflexivity. }
    split; [rewrite !EH; reflexivity|].
    intros s' H. rewrite EH in H.
    destruct (wus_cycle7 (w_x w) wus (-1)) as [[x2 wus1]|er|]; cbn [res_of7] in H; try discriminate H.
    unfold ret_check7 in H. cbn [v_eus v_wus v_w v_cycle] in H.
    destruct (_ && _) in H; inversion H; subst; exact HP.
  Qed.

  (* the run invariant *)
  Definition CI (s : st7) : Prop :=
    SI s /\ w_pref (v_w s) = [] /\ (v_mode s = QFinal \/ SInv3 (st3_of s)).

  Theorem tick71 : forall s, CI s ->
    step7 hooks71 app labels ord s = step7 hooks70 app labels ord s /\
    (forall s', step7 hooks70 app labels ord s = UCont s' -> CI s').
  Proof.
    intros s (HS & HP & HM).
    destruct (v_mode s) eqn:EM.
    5: { rewrite (step_final_hk True app hooks71 labels ord s HS EM), (step_final_hk True app hooks70 labels ord s HS EM).
         split; [reflexivity|intros s' H; discriminate H]. }
    all: destruct HM as [HM|HM]; [discriminate HM|].
    all: assert (HNF : v_mode s <> QFinal) by (rewrite EM; discriminate).
    all: destruct (step_sim True app Hreg nonneg_writes labels ord s HS HNF) as [E3 HR].
    all: assert (HCI : forall s', step7 hooks70 app labels ord s = UCont s' -> w_pref (v_w s') = [] -> CI s')
           by (intros s' H HP'; rewrite H in E3, HR; cbn [proj_res res_SI] in E3, HR;
               split; [exact HR|]; split; [exact HP'|];
               destruct (v_mode s') eqn:EM'; [right| right| right| right| left; reflexivity];
               exact (SInv3_step _ _ HM E3)).
    - destruct s as [w eus wus cyc md]. cbn [v_mode] in EM. subst md.
      destruct HM as [dp d c f xe wb HG|wb HG]; [|pose proof (r3_mode _ _ _ _ _ _ HG) as X; discriminate X].
      destruct (tick_normal dp d c f xe wb w eus wus cyc HS HP HG) as [A B].
      split; [exact A|]. intros s' H. apply HCI; [exact H|exact (B s' H)].
    - destruct s as [w eus wus cyc md]. cbn [v_mode] in EM. subst md.
      destruct HM as [dp d c f xe wb HG|wb HG]; [pose proof (g3_mode _ _ _ _ _ _ _ _ _ _ _ HG) as X; discriminate X|].
      destruct (tick_ret wb w eus wus cyc HS HP HG) as [A B].
      split; [exact A|]. intros s' H. apply HCI; [exact H|exact (B s' H)].
    - exfalso. destruct HM as [dp d c f xe wb HG|wb HG].
      + pose proof (g3_mode _ _ _ _ _ _ _ _ _ _ _ HG) as X. unfold st3_of in X. cbn [t_mode] in X. rewrite EM in X. discriminate X.
      + pose proof (r3_mode _ _ _ _ _ _ HG) as X. unfold st3_of in X. cbn [t_mode] in X. rewrite EM in X. discriminate X.
    - exfalso. destruct HM as [dp d c f xe wb HG|wb HG].
      + pose proof (g3_mode _ _ _ _ _ _ _ _ _ _ _ HG) as X. unfold st3_of in X. cbn [t_mode] in X. rewrite EM in X. discriminate X.
      + pose proof (r3_mode _ _ _ _ _ _ HG) as X. unfold st3_of in X. cbn [t_mode] in X. rewrite EM in X. discriminate X.
  Qed.

  (* the two runs coincide from every state of the invariant, for every fuel *)
  Theorem run71_eq : forall fuel s, CI s -> run7_st hooks71 fuel app labels ord s = run7_st hooks70 fuel app labels ord s.
  Proof.
    induction fuel as [|f IH]; intros s HC; [reflexivity|].
    cbn [run7_st]. destruct (tick71 s HC) as [E HN]. rewrite E.
    destruct (step7 hooks70 app labels ord s) as [r os|s1]; [reflexivity|]. apply IH. apply HN. reflexivity.
  Qed.
End Tick.

Section Straight71.
  Variables (app : list instr) (labels : Z -> option Z).
  Hypothesis Happ : wf_app app.
  Hypothesis Hstr : straight app = true.
  Hypothesis Hreg : reg_only app = true.
  Hypothesis Hssa : ssa app = true.
  Hypothesis Hrng : regs_ok app = true.

  Variables (par : nat) (fuel : nat) (st st' : arch) (tr : list Z).
  Hypothesis Hpar : (1 <= par)%nat.
  Hypothesis Hr32 : Forall int32 (regs st).
  Hypothesis Hlen : length (regs st) = 32%nat.
  Hypothesis Hx0 : nth 0 (regs st) 0 = 0.
  Hypothesis Hrun : seq_run fuel (map sinstr_of app) labels st = Done st' tr.

  (* NewCPU establishes the run invariant *)
  Lemma init71_CI : forall ord s7, init7 par ord app st = Ok s7 -> CI app labels (regs st) (mem st) s7.
  Proof.
    intros ord s7 E7. destruct (init_sim True _ _ _ _ _ E7) as (E3 & HS & HM).
    destruct (init3_G3 app labels ord par st Hpar Hlen Hr32) as (s0 & E0 & HG & _).
    rewrite E0 in E3. inversion E3; subst s0.
    split; [exact HS|]. split; [|right; eapply SI3_n; exact HG].
    unfold init7 in E7. destruct (init3 par ord app st) as [s3| |]; try discriminate E7.
    destruct (new_cache l1LineSize l1Size) as [l1d| |]; try discriminate E7. inversion E7; subst. reflexivity.
  Qed.

  (* MVP-7.1 = MVP-7.0 on single-assignment register-only straight-line programs whose sequential run ends: every
     number of cores, every order of Go's maps, EVERY fuel (results, cycle counts, ghost flags; also the runs that
     exhaust their fuel) *)
  Theorem mvp71_ssa_straight_sim_mvp70 : forall ord fuel',
    mvp71_run_os par ord fuel' app labels st = mvp70_run_os par ord fuel' app labels st.
  Proof.
    intros ord fuel'. unfold mvp71_run_os, mvp70_run_os.
    destruct (init7 par ord app st) as [s7| |] eqn:E7; [|reflexivity|reflexivity].
    rewrite (run71_eq app labels (regs st) (mem st) ord Happ Hstr Hreg Hssa Hrng Hlen Hr32 Hx0
               (hsem63 app labels Hstr Hreg par fuel st st' tr Hpar Hr32 Hlen Hrun) fuel' s7 (init71_CI ord s7 E7)).
    reflexivity.
  Qed.

  (* transport of mvp70_run_ssa_straight *)
  Theorem mvp71_run_ssa_straight ord :
    exists c, (forall fuel', (fuel_bound70 (length app) <= fuel')%nat -> mvp71_run_os par ord fuel' app labels st = (MDone c st', false)) /\
              Z.of_nat (length tr) + 2 <= 2 * c /\
              (forall fuel', (fuel_bound70 (length app) <= fuel')%nat -> mvp70_run_os par ord fuel' app labels st = (MDone c st', false)) /\
              (forall fuel', (fuel_bound63 (length app) <= fuel')%nat -> mvp63_run_os par ord fuel' app labels st = (MDone (c - 1) st', false)).
  Proof.
    destruct (mvp70_run_ssa_straight app labels Happ Hstr Hreg Hssa Hrng par fuel st st' tr Hpar Hr32 Hlen Hx0 Hrun ord) as (c & H & Hb & H3).
    exists c. split; [|split; [exact Hb|split; [exact H|exact H3]]].
    intros fuel' Hf. rewrite mvp71_ssa_straight_sim_mvp70. apply H. exact Hf.
  Qed.

  Theorem mvp71_refines_seq_ssa_straight ord :
    exists c, forall fuel', (fuel_bound70 (length app) <= fuel')%nat -> mvp71_run par ord fuel' app labels st = MDone c st'.
  Proof.
    destruct (mvp71_run_ssa_straight ord) as (c & H & _). exists c.
    exact (bounded_result (fun f => mvp71_run_os par ord f app labels st) _ _ _ H).
  Qed.

  Theorem mvp71_ghost_clear_ssa_straight ord fuel' : (fuel_bound70 (length app) <= fuel')%nat ->
    snd (mvp71_run_os par ord fuel' app labels st) = false.
  Proof.
    destruct (mvp71_run_ssa_straight ord) as (c & H & _).
    exact (bounded_ghost (fun f => mvp71_run_os par ord f app labels st) _ _ _ H fuel').
  Qed.

  Theorem mvp71_terminates_ssa_straight ord :
    exists c, mvp71_run par ord (fuel_bound70 (length app)) app labels st = MDone c st' /\ (Z.of_nat (length tr) + 1) / 2 + 1 <= c.
  Proof.
    destruct (mvp71_run_ssa_straight ord) as (c & H1 & H2 & _). exists c.
    split; [exact (bounded_result (fun f => mvp71_run_os par ord f app labels st) _ _ _ H1 _ (le_n _))|exact (half_cycles _ _ H2)].
  Qed.

  Corollary mvp71_no_panic_ssa_straight ord fuel' : (fuel_bound70 (length app) <= fuel')%nat ->
    mvp71_run par ord fuel' app labels st <> MPanic /\ mvp71_run par ord fuel' app labels st <> MOutOfFuel /\
    (forall e, mvp71_run par ord fuel' app labels st <> MErr e).
  Proof.
    destruct (mvp71_run_ssa_straight ord) as (c & H & _).
    exact (bounded_no_panic (fun f => mvp71_run_os par ord f app labels st) _ _ _ H fuel').
  Qed.
End Straight71.

(* the 14-instruction example of Mvp63RefProofs.v: at every number of cores, for EVERY order function, every fuel *)
Corollary mvp71_ssa_example_sim par ord fuel : (1 <= par)%nat ->
  mvp71_run_os par ord fuel (map instr_of ex63_prog) no_labels zero32 =
  mvp70_run_os par ord fuel (map instr_of ex63_prog) no_labels zero32.
Proof.
  intros Hpar. pose proof ex63_class as (Hwf & H1 & H2 & H3 & H4 & H5 & H6 & H7 & st' & Hs).
  exact (mvp71_ssa_straight_sim_mvp70 ex63_app no_labels Hwf H1 H2 H3 H4 par 100%nat zero32 st' _ Hpar H5 H6 H7 Hs ord fuel).
Qed.

Corollary mvp71_ssa_example_any par ord : (1 <= par)%nat ->
  exists c st', seq_run 100 (map sinstr_of (map instr_of ex63_prog)) no_labels zero32 = Done st' (rev (map (fun k => 4 * Z.of_nat k) (seq 0 14))) /\
    (forall fuel, (fuel_bound70 14 <= fuel)%nat -> mvp71_run_os par ord fuel (map instr_of ex63_prog) no_labels zero32 = (MDone c st', false)) /\
    rget (regs st') 18 = 251 /\ 8 <= c.
Proof.
  intros Hpar. destruct (mvp70_ssa_example_any par ord Hpar) as (c & st' & Hs & Hc & R18 & Hb).
  exists c, st'. split; [exact Hs|]. split; [|split; [exact R18|exact Hb]].
  intros fuel Hf. rewrite (mvp71_ssa_example_sim par ord fuel Hpar). apply Hc. exact Hf.
Qed.

(* the same example at 1..4 cores, both orders, with 3001 ticks: the runs end *)
Example mvp71_ssa_example : forall par, In par [1; 2; 3; 4]%nat ->
  mvp71_run_os par ord_asc 3001 (map instr_of ex63_prog) no_labels zero32 =
  mvp70_run_os par ord_asc 3001 (map instr_of ex63_prog) no_labels zero32 /\
  mvp71_run_os par ord_desc 3001 (map instr_of ex63_prog) no_labels zero32 =
  mvp70_run_os par ord_desc 3001 (map instr_of ex63_prog) no_labels zero32 /\
  fst (mvp71_run_os par ord_asc 3001 (map instr_of ex63_prog) no_labels zero32) <> MOutOfFuel.
Proof.
  intros par HP. assert (Hpar : (1 <= par)%nat) by (destruct HP as [<-|[<-|[<-|[<-|[]]]]]; lia).
  split; [exact (mvp71_ssa_example_sim par ord_asc 3001 Hpar)|]. split; [exact (mvp71_ssa_example_sim par ord_desc 3001 Hpar)|].
  (* MVP-7.1 is MVP-7.0, which follows MVP-6.3 by one tick; MVP-6.3 ends within 3000 ticks by computation *)
  rewrite (mvp71_ssa_example_sim par ord_asc 3001 Hpar). fold ex63_app.
  assert (HR : fst (mvp63_run_os par ord_asc 3000 ex63_app no_labels zero32) <> MOutOfFuel)
    by (destruct HP as [<-|[<-|[<-|[<-|[]]]]]; vm_compute; discriminate).
  pose proof ex63_class as (_ & _ & Hreg & _ & Hrng & _).
  rewrite (mvp70_regonly_sim_mvp63 _ Hreg (regs_ok_wregs_nonneg _ Hrng) par ord_asc 3000 _ _ _ _ HR (surjective_pairing _)). cbn [fst].
  destruct (fst (mvp63_run_os par ord_asc 3000 ex63_app no_labels zero32)); [discriminate|discriminate|discriminate|exact HR].
Qed.

Print Assumptions run_nobranch_pc.
Print Assumptions eus_main71_eq.
Print Assumptions tick71.
Print Assumptions run71_eq.
Print Assumptions mvp71_ssa_straight_sim_mvp70.
Print Assumptions mvp71_run_ssa_straight.
Print Assumptions mvp71_terminates_ssa_straight.
Print Assumptions mvp71_no_panic_ssa_straight.
Print Assumptions mvp71_ssa_example_sim.
Print Assumptions mvp71_ssa_example_any.
Print Assumptions mvp71_ssa_example.
