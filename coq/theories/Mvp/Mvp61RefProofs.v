(* Refinement of MVP-6.1 (proc/mvp6-1 = MVP-6.0 + OPERAND FORWARDING between execute units: a
   RAW-dependent instruction is dispatched one cycle after its producer and receives the operand through
   a channel instead of the register file; sequence ids; a flush that first completes the older
   instructions) to the sequential machine Isa/Seq.v on REGISTER-ONLY programs: the theorems.

   Straight-line programs (no branch, no jump; ret anywhere): mvp61_run_straight and its corollaries.
   FORWARD control flow (class fwd_ok of Mvp60RefProofs.v: branches / j / jal to labels strictly ahead,
   no div / rem / jalr) for texts whose sequence ids cannot wrap (seq_ids_fit):
   mvp61_refines_seq_forward.  The run is cut into straight-line segments at every flush
   (Fresh1 -> seg_run1 -> Fresh1 ...; seg_sim1 puts one segment beside the sequential machine);
   ctx.sequenceID grows by at most three per segment. *)
From Coq Require Import ZArith List Bool Lia Permutation.
From Maj Require Import Base.Outcome Base.GoInt Base.GoTypes Isa.Spec Isa.Embed Isa.Seq Isa.Refine.
From Maj Require Import Gen.Latency Gen.RiscTables Gen.Opcodes Comp.Cache.
From Maj Require Import Mvp.Mvp12 Mvp.Mvp12Proofs Mvp.Mvp3 Mvp.Mvp3Proofs Mvp.Mvp4Skel Mvp.Mvp4Inv Mvp.Mvp4Sim Mvp.Mvp5 Mvp.Mvp60 Mvp.Mvp61
     Mvp.Mvp60RefSem Mvp.Mvp60RefDefs Mvp.Mvp60RefFront Mvp.Mvp60RefBack Mvp.Mvp60RefStep Mvp.Mvp60RefStep2 Mvp.Mvp60RefSeg Mvp.Mvp60RefProofs
     Mvp.Mvp61RefSem Mvp.Mvp61RefFront Mvp.Mvp61RefBack Mvp.Mvp61RefInv Mvp.Mvp61RefCu Mvp.Mvp61RefExec Mvp.Mvp61RefExec2 Mvp.Mvp61RefStep Mvp.Mvp61RefStep2 Mvp.Mvp61RefStep3.
Import ListNotations.
Open Scope Z_scope.

(* ticks of Run that suffice for one straight-line segment / a straight-line text / a text with
   forward control flow (one segment per flush) of n instructions *)
Definition fuel_bound61 (n : nat) : nat := (400 * n + 1600)%nat.
Definition fuel_bound61_fwd (n : nat) : nat := ((n + 1) * fuel_bound61 n)%nat.

(* a fresh state satisfies the invariant of the main loop at base t *)
Lemma fresh_GI1 app labels mem0 sq t R off s : Fresh1 app mem0 sq t R s -> (t <= length app)%nat ->
  length R = 32%nat -> Forall int32 R -> Z.of_nat t <= 2 * t_cycle s + off ->
  GI1 app labels R mem0 t sq off t t t t s.
Proof.
  intros [H1 H2 H3 H4 H5 H6 H7 H8 H9 H10 H11 H12 H13 H14 H15 H16 H17 X1 X2 X3 X4 X5 X6 X7 [X8 X9] H18 H19 H20 H21 H22 H23] Ht HlR HR Hc.
  assert (HEB : EB (t_m s) = []) by (unfold EB; rewrite X7; reflexivity).
  assert (HWB : WB (t_m s) = []) by (unfold WB; rewrite H17; reflexivity).
  constructor; auto.
  - constructor; rewrite ?H14, ?H17, ?X3, ?X6, ?X7, ?H12; try apply busok_new; auto; try lia.
    + constructor; auto.
      * rewrite H8. discriminate.
      * intros _. split; [lia | rewrite H8; discriminate].
      * rewrite H7. discriminate.
    + rewrite Nat.sub_diag. reflexivity.
    + cbn [length]. replace (Nat.min t (length app) - (t + 0))%nat with O by lia. reflexivity.
    + cbn [length]. lia.
    + intros _ _. pose proof (stop_from_ge app t). lia.
    + rewrite H10. discriminate.
    + rewrite H11. discriminate.
    + unfold blen, bb_new. cbn. lia.
  - rewrite X3. constructor; rewrite ?HEB, ?HWB; try (constructor; fail); auto.
    + exists (fun _ => None). split; [|intros r []].
      unfold FL1. rewrite HEB, HWB. cbn [map List.app]. rewrite H1, H3, H4.
      apply bf_init; [rewrite HlR; apply le_n | exact HR | reflexivity | reflexivity].
    + rewrite X5. discriminate.
    + constructor; rewrite ?HEB; cbn [List.app fws rcs flat_map]; auto.
      * rewrite app_nil_r. exact X9.
      * constructor.
      * intros r c [].
      * exact I.
    + intros p c [].
  - unfold PrevB. rewrite X4. constructor.
  - constructor; rewrite ?H17, ?HEB; auto; try reflexivity; try lia;
      try (unfold blen, bb_new; cbn; lia); try (rewrite Nat.sub_diag; reflexivity); try (intros k Hk; lia).
Qed.

(* NewCPU builds a fresh state at 0 *)
Lemma init_fresh1 app par st : (1 <= par)%nat ->
  exists s0, init1 par app st = Ok s0 /\ Fresh1 app (mem st) 0 0 (regs st) s0 /\ t_cycle s0 = 0.
Proof.
  intros Hpar. destruct (init_fresh app par st Hpar) as (s6 & E6 & [F1 F2 F3 F4 F5 F6 F7 F8 F9 F10 F11 F12 F13 F14 F15 F16 F17 F18 F19 F20 F21 F22] & _).
  unfold init1. rewrite E6. eexists. split; [reflexivity|]. split; [|reflexivity].
  assert (Hw : s_wus s6 = repeat (mk_wu6 WNone None) par).
  { unfold init6 in E6. destruct (new_cache l1LineSize l1Size); try discriminate. destruct (new_cache l3LineSize l3Size); try discriminate.
    injection E6 as <-. reflexivity. }
  constructor; cbn [t_m t_eus t_wus t_mode y_m y_x x_seq x_fwd x_cu x_prev x_pcb x_cbus x_ebus x_ch x_nch keys map]; auto.
  - rewrite F15. reflexivity.
  - rewrite F16. reflexivity.
  - split; constructor.
  - apply Forall_forall. intros e He. apply repeat_spec in He. subst e. split; reflexivity.
  - rewrite Hw, !repeat_length. reflexivity.
  - apply Forall_forall. intros e He. apply repeat_spec in He. subst e. intros r Hr. discriminate Hr.
Qed.

Lemma run1_more app labels ord pord : forall fuel k s r, run1_st fuel app labels ord pord s = inl r -> run1_st (fuel + k) app labels ord pord s = inl r.
Proof.
  induction fuel as [|fuel IH]; intros k s r H; [discriminate|]. cbn [run1_st Nat.add] in *.
  destruct (step1 app labels ord pord s); [exact H | apply IH; exact H].
Qed.

Lemma mvp61_run_more app labels par ord pord fuel k st c st' :
  mvp61_run par ord pord fuel app labels st = MDone c st' -> mvp61_run par ord pord (fuel + k) app labels st = MDone c st'.
Proof.
  unfold mvp61_run, mvp61_run_os. destruct (init1 par app st) as [s0| |]; try discriminate.
  destruct (run1_st fuel app labels ord pord s0) as [r|s'] eqn:E; [|discriminate].
  intros H. rewrite (run1_more app labels ord pord _ k _ _ E). exact H.
Qed.

Section Run.
  Variables (app : list instr) (labels : Z -> option Z) (regs0 mem0 : list Z) (base : nat) (sq : Z) (off : Z).
  Hypothesis Happ : wf_app app.
  Hypothesis Hreg : reg_only app = true.
  Hypothesis Hrng : regs_in_range app = true.
  Hypothesis Hlen32 : length regs0 = 32%nat.
  Hypothesis Hbase : (base <= length app)%nat.
  Let n := length app.
  Let N := stop_from app base.
  Hypothesis Hsq : 0 <= sq /\ 1000 * sq + 4 * Z.of_nat n < 2147483648.

  Notation sreg := (sreg app labels regs0 base).
  Notation eff := (eff app labels regs0 base).
  Notation ik := (ik app).
  Notation sid := (sid sq).
  Notation GI1 := (GI1 app labels regs0 mem0 base sq off).
  Notation GR1 := (GR1 app labels regs0 mem0 base sq off).
  Notation GF1 := (GF1 app labels regs0 mem0 base sq).
  Notation Fin1 := (Fin1 app labels regs0 mem0 base sq off).
  Notation bresp := (bresp app labels regs0 base sq).

  Hypothesis Hsem : forall k, (base <= k <= N)%nat -> (k < n)%nat ->
    exec (sinstr_of (ik k)) (rget (sreg k)) labels (pcz k) [] = Ok (eff k) /\
    (forall a, etarget (eff k) = Some a -> exists t, a = pcz t /\ (k < t <= n)%nat).
  Hypothesis Hr32 : Forall int32 regs0.

  Set Default Proof Using "All".
  Notation "'IS' L" := (L app labels regs0 mem0 base sq off Happ Hreg Hrng Hlen32 Hbase Hsq Hsem Hr32) (at level 10, L at level 9, only parsing).

  (* the state is in one of the loops of Run *)
  Inductive SInv1 (s : st1) : Prop :=
  | SI1_n d c f x : GI1 d c f x s -> SInv1 s
  | SI1_r d : GR1 d s -> SInv1 s
  | SI1_f d E t : GF1 d E t s -> SInv1 s.

  Definition mu1 (s : st1) : Z :=
    match t_mode s with
    | NNormal => phis1 app s + 4
    | NFlushO _ _ _ => 3
    | _ => qlen (m_wbus (y_m (t_m s)))
    end.

  (* how a segment ends *)
  Definition SegEnd1 (ord : Z -> Z -> list Z -> list Z) (pord : Z -> Z -> Z) (s : st1) (bound : nat) : Prop :=
    (exists k r os, (1 <= k <= bound)%nat /\ (forall extra, run1_st (k + extra) app labels ord pord s = inl (r, os)) /\ Fin1 r) \/
    (exists k s' E t sq', (1 <= k <= bound)%nat /\ (forall extra, run1_st (k + extra) app labels ord pord s = run1_st extra app labels ord pord s') /\
       Fresh1 app mem0 sq' t (sreg (S E)) s' /\ sq < sq' <= sq + 3 /\ (base <= E <= N)%nat /\ (E < t <= n)%nat /\
       (forall k', (base <= k' < E)%nat -> bresp k' = resp0) /\ bresp E = mk_resp1 true (sid E) (pcz t) false None).

  Lemma phis1_nn d c f x s : GI1 d c f x s -> 0 <= phis1 app s.
  Proof.
    intros HG. unfold phis1, phi1.
    pose proof (f1_fetch _ _ _ _ _ _ _ _ (g1_front _ _ _ _ _ _ _ _ _ _ _ _ HG)) as HFt.
    pose proof (phiF_nonneg app base _ _ _ HFt). pose proof (phiM1_nn (t_m s)). lia.
  Qed.

  Lemma mu1_nonneg s : SInv1 s -> 0 <= mu1 s.
  Proof.
    intros [d c f x HG|d HG|d E t HG]; unfold mu1.
    - rewrite (g1_mode _ _ _ _ _ _ _ _ _ _ _ _ HG). pose proof (phis1_nn _ _ _ _ _ HG). lia.
    - rewrite (r1_mode _ _ _ _ _ _ _ _ _ HG). apply qlen_ge0.
    - pose proof (gf1_mode _ _ _ _ _ _ _ _ _ _ HG) as Hm. destruct (t_mode s); try contradiction; [lia | apply qlen_ge0].
  Qed.

  Lemma gf1_modes d E t s : GF1 d E t s ->
    (exists from seq pc, t_mode s = NFlushO from seq pc) \/ (exists k ie from seq pc, t_mode s = NFlushW k ie from seq pc).
  Proof. intros HG. pose proof (gf1_mode _ _ _ _ _ _ _ _ _ _ HG) as Hm. destruct (t_mode s); try contradiction; [left | right]; eauto 6. Qed.

  Lemma seg_run1 ord pord : forall (b : nat) s, SInv1 s -> mu1 s < Z.of_nat b -> SegEnd1 ord pord s b.
  Proof.
    induction b as [|b IH]; intros s HS Hmu.
    - pose proof (mu1_nonneg s HS). lia.
    - assert (Hnext : forall s', step1 app labels ord pord s = TCont s' -> SInv1 s' -> mu1 s' < mu1 s -> SegEnd1 ord pord s (S b)).
      { intros s' Es HS' Hlt. destruct (IH s' HS' ltac:(lia)) as [(k & r & os & Hk & Hr & HF)|(k & s'' & E & t & sq' & Hk & Hr & Hrest)].
        - left. exists (S k), r, os. split; [lia|]. split; [|exact HF]. intros extra. cbn [Nat.add]. rewrite (run1_S _ _ _ _ _ _ _ Es). apply Hr.
        - right. exists (S k), s'', E, t, sq'. split; [lia|]. split; [|exact Hrest]. intros extra. cbn [Nat.add]. rewrite (run1_S _ _ _ _ _ _ _ Es). apply Hr. }
      assert (Hdone : forall r os, step1 app labels ord pord s = TDone r os -> Fin1 r -> SegEnd1 ord pord s (S b)).
      { intros r os Es HF. left. exists 1%nat, r, os. split; [lia|]. split; [|exact HF]. intros extra. apply run1_done. exact Es. }
      destruct HS as [d c f x HG|d HG|d E t HG].
      + destruct ((IS step_normal2) ord pord d c f x s HG)
          as [(s' & d' & c' & f' & x' & Es & HG' & Hlt)|[(r & os & Es & HF)|[(s' & d' & Es & HG')|(s' & d' & E & t & Es & HG' & (fr & sq0 & pc0 & Em))]]].
        * apply (Hnext s' Es (SI1_n s' d' c' f' x' HG')). unfold mu1. rewrite (g1_mode _ _ _ _ _ _ _ _ _ _ _ _ HG), (g1_mode _ _ _ _ _ _ _ _ _ _ _ _ HG'). lia.
        * apply (Hdone r os Es HF).
        * apply (Hnext s' Es (SI1_r s' d' HG')). pose proof (phis1_nn _ _ _ _ _ HG) as H0.
          unfold mu1 in *. rewrite (g1_mode _ _ _ _ _ _ _ _ _ _ _ _ HG) in *. rewrite (r1_mode _ _ _ _ _ _ _ _ _ HG').
          pose proof (bus_q _ _ (r1_bw _ _ _ _ _ _ _ _ _ HG')). lia.
        * apply (Hnext s' Es (SI1_f s' d' E t HG')). pose proof (phis1_nn _ _ _ _ _ HG) as H0.
          unfold mu1 in *. rewrite (g1_mode _ _ _ _ _ _ _ _ _ _ _ _ HG) in *. rewrite Em. lia.
      + destruct ((IS step_ret1) ord pord d s HG) as [(s' & Es & HG' & Hlt)|(r & os & Es & HF)].
        * apply (Hnext s' Es (SI1_r s' d HG')). unfold mu1. rewrite (r1_mode _ _ _ _ _ _ _ _ _ HG), (r1_mode _ _ _ _ _ _ _ _ _ HG'). exact Hlt.
        * apply (Hdone r os Es HF).
      + destruct (gf1_modes d E t s HG) as [HmO|HmW].
        * destruct ((IS step_flushO) ord pord d E t s HG HmO) as (s' & Es & HG' & (k0 & ie0 & fr0 & sq0 & pc0 & Em') & _).
          apply (Hnext s' Es (SI1_f s' d E t HG')). destruct HmO as (fr & sq1 & pc1 & Em). unfold mu1. rewrite Em, Em'.
          pose proof (bus_q _ _ (gf1_bw _ _ _ _ _ _ _ _ _ _ HG')). lia.
        * destruct ((IS step_flushW) ord pord d E t s HG HmW) as [(s' & Es & HG' & (k0 & ie0 & fr0 & sq0 & pc0 & Em') & Hlt)|(s' & sq' & Es & HFr & Hsq' & Hcyc)].
          -- apply (Hnext s' Es (SI1_f s' d E t HG')). destruct HmW as (k1 & ie1 & fr & sq1 & pc1 & Em). unfold mu1. rewrite Em, Em'. exact Hlt.
          -- right. exists 1%nat, s', E, t, sq'. split; [lia|]. split; [intros extra; apply run1_S; exact Es|].
             split; [exact HFr|]. split; [exact Hsq'|]. destruct (gf1_E _ _ _ _ _ _ _ _ _ _ HG) as (A1 & A2 & A3 & A4).
             split; [fold N in A4; lia|]. split; [fold n in A2; lia|]. split; [exact (gf1_exec _ _ _ _ _ _ _ _ _ _ HG) | exact (gf1_out _ _ _ _ _ _ _ _ _ _ HG)].
  Qed.

  (* the responses of MVP-6.1 and the outputs of MVP-6.0 describe the same control transfers *)
  Lemma bresp0_kout k : bresp k = resp0 -> kout app labels regs0 base k = euo_none.
  Proof.
    unfold Mvp61RefExec2.bresp, Mvp60RefBack.kout. destruct (is_ret (ik k)); [discriminate|]. destruct (etarget (eff k)); [|reflexivity].
    destruct (_ || _); [discriminate | reflexivity].
  Qed.

  Lemma bresp_flush_kout E a : bresp E = mk_resp1 true (sid E) a false None -> kout app labels regs0 base E = mk_euo6 true (pcz E) a false.
  Proof.
    unfold Mvp61RefExec2.bresp, Mvp60RefBack.kout. destruct (is_ret (ik E)); [discriminate|]. destruct (etarget (eff E)); [|discriminate].
    destruct (_ || _); [|discriminate]. intros H. injection H as ->. reflexivity.
  Qed.

  (* Fin1 is the Fin of the development of MVP-6.0: its lemmas about the sequential machine apply *)
  Lemma Fin1_Fin r : Fin1 r -> Fin app labels regs0 mem0 base off r.
  Proof.
    intros (cf & xe & E & Hx & Hall & Hend). exists cf, xe. split; [exact E|]. split; [exact Hx|]. split; [|exact Hend].
    intros k Hk. apply bresp0_kout. apply Hall. exact Hk.
  Qed.
End Run.

(* the potential of a fresh state *)
Lemma mu1_fresh app mem0 sq t R s : Fresh1 app mem0 sq t R s -> mu1 app s < Z.of_nat (fuel_bound61 (length app)).
Proof.
  intros [H1 H2 H3 H4 H5 H6 H7 H8 H9 H10 H11 H12 H13 H14 H15 H16 H17 X1 X2 X3 X4 X5 X6 X7 X8 H18 H19 H20 H21 H22 H23].
  unfold mu1. rewrite H22. unfold phis1, phi1, phiM1. rewrite H14, H17, X3, X6, X7.
  unfold phiF, phi_co. rewrite H6, H8. unfold blen, qlen, zlen, bb_new. cbn [bb_buf bb_q length].
  unfold fuel_bound61, MemoryAccess, pcz. lia.
Qed.


(* the text is short enough for the sequence ids (pc + 1000 * ctx.sequenceID, int32; the sequence
   id grows by at most three per flush) never to wrap *)
Definition seq_ids_fit (app : list instr) : Prop := 3004 * Z.of_nat (length app) < 2147483648.

(* one segment of the machine and of the sequential machine side by side: from a fresh state at t
   both either finish, with the same result, or reach - the machine through a flush - the target t' of
   the first taken branch or jump E, with the registers after E *)
Section Segment1.
  Variables (app : list instr) (labels : Z -> option Z).
  Hypothesis Happ : wf_app app.
  Hypothesis Hreg : reg_only app = true.
  Hypothesis Hrng : regs_in_range app = true.
  Let n := length app.
  Let sp := map sinstr_of app.

  Lemma seg_sim1 ord pord mem0 t R sq off s fuel tr0 st' tr :
    (t <= n)%nat -> Fresh1 app mem0 sq t R s -> length R = 32%nat -> Forall int32 R -> Z.of_nat t <= 2 * t_cycle s + off ->
    0 <= sq /\ 1000 * sq + 4 * Z.of_nat n < 2147483648 ->
    (forall k, (t <= k <= stop_from app t)%nat -> (k < n)%nat ->
       exec (sinstr_of (ik app k)) (rget (sreg app labels R t k)) labels (pcz k) [] = Ok (eff app labels R t k) /\
       (forall a, etarget (eff app labels R t k) = Some a -> exists t', a = pcz t' /\ (k < t' <= n)%nat)) ->
    Seq.run fuel sp labels (mk_arch R mem0) (pcz t) tr0 = Done st' tr ->
    exists k, (1 <= k <= fuel_bound61 n)%nat /\
      ((exists c os, (forall extra, run1_st (k + extra) app labels ord pord s = inl (MDone c st', os)) /\
                     Z.of_nat (length tr - length tr0 + t) <= 2 * c + off) \/
       (exists s' E t' sq' fuel' tr1,
          (forall extra, run1_st (k + extra) app labels ord pord s = run1_st extra app labels ord pord s') /\
          Fresh1 app mem0 sq' t' (sreg app labels R t (S E)) s' /\ sq < sq' <= sq + 3 /\
          (t <= E <= stop_from app t)%nat /\ (E < t' <= n)%nat /\
          bresp app labels R t sq E = mk_resp1 true (sid sq E) (pcz t') false None /\
          Seq.run fuel' sp labels (mk_arch (sreg app labels R t (S E)) mem0) (pcz t') tr1 = Done st' tr)).
  Proof.
    intros Htn HF HlR HR Hc Hsq Hsem Hrun.
    assert (HlR' : (length R <= 32)%nat) by (rewrite HlR; apply le_n).
    pose proof (fresh_GI1 app labels mem0 sq t R off s HF Htn HlR HR Hc) as HG.
    destruct (seg_run1 app labels R mem0 t sq off Happ Hreg Hrng HlR Htn Hsq Hsem HR ord pord (fuel_bound61 n) s
                (SI1_n _ _ _ _ _ _ _ _ _ _ _ _ HG) (mu1_fresh _ _ _ _ _ _ HF))
      as [(k & r & os & Hk & Hr & HFin)|(k & s' & E & t' & sq' & Hk & Hr & HFr & Hsq' & HE & Ht' & Hex & Hout)]; exists k; (split; [exact Hk|]).
    - left. pose proof (Fin1_Fin app labels R mem0 t sq off Happ Hreg Hrng HlR Htn Hsq Hsem HR r HFin) as HFin6.
      destruct (seg_seq_fin app labels R mem0 t off Hreg HlR' Htn Hsem r fuel tr0 st' tr HFin6 Hrun) as (cf & -> & Hcf).
      exists cf, os. split; [exact Hr | exact Hcf].
    - right.
      pose proof (bresp_flush_kout app labels R mem0 t sq off Happ Hreg Hrng HlR Htn Hsq Hsem HR E (pcz t') Hout) as Hout6.
      assert (Hex6 : forall k', (t <= k' < E)%nat -> kout app labels R t k' = euo_none).
      { intros k' Hk'. apply (bresp0_kout app labels R mem0 t sq off Happ Hreg Hrng HlR Htn Hsq Hsem HR). apply Hex. exact Hk'. }
      destruct (seg_seq_flush app labels R mem0 t Hreg HlR' Htn Hsem E t' fuel tr0 st' tr HE Ht' Hex6 Hout6 Hrun) as (fuel' & tr1 & Hrun').
      exists s', E, t', sq', fuel', tr1. auto 8.
  Qed.
End Segment1.

Section Fwd1.
  Variables (app : list instr) (labels : Z -> option Z).
  Hypothesis Happ : wf_app app.
  Hypothesis Hreg : reg_only app = true.
  Hypothesis Hrng : regs_in_range app = true.
  Hypothesis Hfwd : fwd_ok app labels = true.
  Hypothesis Hfit : seq_ids_fit app.
  Let n := length app.
  Let sp := map sinstr_of app.

  (* every flush moves the segment start forward - at most n - t + 1 segments from t on - and adds at
     most three to ctx.sequenceID *)
  Lemma fwd_core1 ord pord mem0 : forall m t R sq s fuel tr0 st' tr,
    (n - t < m)%nat -> (t <= n)%nat -> Fresh1 app mem0 sq t R s -> length R = 32%nat -> Forall int32 R ->
    0 <= sq <= 3 * Z.of_nat t ->
    Seq.run fuel sp labels (mk_arch R mem0) (pcz t) tr0 = Done st' tr ->
    exists K c os, (K <= m * fuel_bound61 n)%nat /\
                   forall extra, run1_st (K + extra) app labels ord pord s = inl (MDone c st', os).
  Proof.
    induction m as [|m IH]; intros t R sq s fuel tr0 st' tr Hm Htn HF HlR HR Hsq Hrun; [lia|].
    assert (Hsqb : 0 <= sq /\ 1000 * sq + 4 * Z.of_nat (length app) < 2147483648).
    { unfold seq_ids_fit in Hfit. fold n in Hfit |- *. lia. }
    destruct (seg_sim1 app labels Happ Hreg Hrng ord pord mem0 t R sq (Z.of_nat t - 2 * t_cycle s) s fuel tr0 st' tr Htn HF HlR HR ltac:(lia) Hsqb
                (hsem_all app labels Hfwd R t) Hrun) as (k & Hk & Hend). fold n in Hk. cbn [Nat.mul].
    destruct Hend as [(c & os & Hr & _)|(s' & E & t' & sq' & fuel' & tr1 & Hr & HFr & Hsq' & HE & Ht' & _ & Hrun')].
    - exists k, c, os. split; [lia | exact Hr].
    - fold n in Ht'.
      destruct (IH t' (sreg app labels R t (S E)) sq' s' fuel' tr1 st' tr ltac:(lia) ltac:(lia) HFr
                  ltac:(rewrite sreg_length; exact HlR) (sreg_int32 app labels R t HR (S E)) ltac:(lia) Hrun') as (K' & c & os & HK' & Hr').
      exists (k + K')%nat, c, os. split; [lia|]. intros extra. rewrite <- Nat.add_assoc, Hr. apply Hr'.
  Qed.

  (* forward control flow without div / rem / jalr: the pipeline with operand forwarding computes the
        sequential result *)
  Theorem mvp61_refines_seq_forward par ord pord fuel st st' tr : (1 <= par)%nat ->
    Forall int32 (regs st) -> length (regs st) = 32%nat ->
    seq_run fuel sp labels st = Done st' tr ->
    exists c, forall fuel', (fuel_bound61_fwd (length app) <= fuel')%nat -> mvp61_run par ord pord fuel' app labels st = MDone c st'.
  Proof.
    intros Hpar HR HlR Hrun. destruct (init_fresh1 app par st Hpar) as (s0 & E0 & HF & _).
    unfold seq_run in Hrun. assert (Hst : st = mk_arch (regs st) (mem st)) by (destruct st; reflexivity).
    rewrite Hst in Hrun at 1. change 0 with (pcz 0) in Hrun.
    destruct (fwd_core1 ord pord (mem st) (S n) O (regs st) 0 s0 fuel [] st' tr ltac:(lia) ltac:(lia) HF HlR HR ltac:(lia) Hrun) as (K & c & os & HK & Hr).
    exists c. intros fuel' Hf. unfold mvp61_run, mvp61_run_os. rewrite E0.
    unfold fuel_bound61_fwd in Hf. fold n in Hf.
    replace fuel' with (K + (fuel' - K))%nat by lia. rewrite Hr. reflexivity.
  Qed.
End Fwd1.


Section Straight1.
  Variables (app : list instr) (labels : Z -> option Z).
  Hypothesis Happ : wf_app app.
  Hypothesis Hstr : straight app = true.
  Hypothesis Hreg : reg_only app = true.
  Hypothesis Hrng : regs_in_range app = true.
  Let n := length app.
  Let sp := map sinstr_of app.

  Variables (par : nat) (ord : Z -> Z -> list Z -> list Z) (pord : Z -> Z -> Z) (fuel : nat) (st st' : arch) (tr : list Z).
  Hypothesis Hpar : (1 <= par)%nat.
  Hypothesis Hr32 : Forall int32 (regs st).
  Hypothesis Hlen : length (regs st) = 32%nat.
  Hypothesis Hrun : seq_run fuel sp labels st = Done st' tr.

  Lemma hsq0 : 0 <= 0 /\ 1000 * 0 + 4 * Z.of_nat (length app) < 2147483648.
  Proof. destruct Happ as [_ H]. lia. Qed.

  (* operand forwarding preserves the sequential result: the pipeline of MVP-6.1 computes the
     sequential registers and memory, without error or panic, for every number of execute / write
     units, every iteration order of both maps, all fuels from fuel_bound61 (length app) on; the
     cycle count is at least half the number of executed instructions (issue width two) *)
  Theorem mvp61_run_straight :
    exists c, (forall fuel', (fuel_bound61 (length app) <= fuel')%nat -> mvp61_run par ord pord fuel' app labels st = MDone c st') /\
              Z.of_nat (length tr) <= 2 * c.
  Proof.
    destruct (init_fresh1 app par st Hpar) as (s0 & E0 & HF & Hc0).
    assert (Hle : (length (regs st) <= 32)%nat) by (rewrite Hlen; apply le_n).
    pose proof (hsem_straight app labels Hstr Hreg par fuel st st' tr Hpar Hr32 Hle Hrun) as Hsem.
    pose proof Hrun as Hrun'. unfold seq_run in Hrun'. assert (Hst : st = mk_arch (regs st) (mem st)) by (destruct st; reflexivity).
    rewrite Hst in Hrun' at 1. change 0 with (pcz 0) in Hrun'.
    destruct (seg_sim1 app labels Happ Hreg Hrng ord pord (mem st) O (regs st) 0 0 s0 fuel [] st' tr ltac:(lia) HF Hlen Hr32 ltac:(rewrite Hc0; lia) hsq0 Hsem Hrun')
      as (k & Hk & [(cf & os & Hr & Hcf)|(s' & E & t' & sq' & fuel1 & tr1 & _ & _ & _ & HE & Ht' & Hout & _)]).
    - exists cf. split.
      + intros fuel' Hf. unfold mvp61_run, mvp61_run_os. rewrite E0.
        replace fuel' with (k + (fuel' - k))%nat by lia. rewrite Hr. reflexivity.
      + cbn [length] in Hcf. rewrite Nat.sub_0_r, Nat.add_0_r in Hcf. lia.
    - (* no instruction of a straight-line program asks for a flush *)
      exfalso. fold n in Ht'.
      assert (HEn : (E < n)%nat) by lia.
      pose proof (eff_kind app labels (regs st) 0 Hsem E HE HEn) as Hkind.
      pose proof (nobranch_uncond _ (ik_nobranch app Hstr E)) as Hj. pose proof (nobranch_cond _ (ik_nobranch app Hstr E)) as Hcd.
      fold (is_jump (ik app E)) in Hj. fold (condbr (ik app E)) in Hcd.
      unfold bresp in Hout. destruct (is_ret (ik app E)); [discriminate|].
      destruct (eff app labels (regs st) 0 E); cbn [etarget] in Hout; try discriminate.
      + destruct Hkind as [Hx|[_ Hx]]; congruence.
      + congruence.
  Qed.

  Theorem mvp61_refines_seq_straight :
    exists c, forall fuel', (fuel_bound61 (length app) <= fuel')%nat -> mvp61_run par ord pord fuel' app labels st = MDone c st'.
  Proof. destruct mvp61_run_straight as (c & H & _). exists c. exact H. Qed.

  (* whenever the model finishes, with whatever fuel, it returns the sequential state and has
     counted at least ceil(executed / 2) cycles *)
  Theorem mvp61_cycles_lower_bound_straight fuel' c st'' :
    mvp61_run par ord pord fuel' app labels st = MDone c st'' ->
    st'' = st' /\ Z.of_nat (length tr) <= 2 * c /\ (Z.of_nat (length tr) + 1) / 2 <= c.
  Proof.
    intros H. destruct mvp61_run_straight as (c0 & H1 & H2).
    pose proof (mvp61_run_more app labels par ord pord fuel' (fuel_bound61 (length app)) st c st'' H) as H'.
    rewrite (H1 (fuel' + fuel_bound61 (length app))%nat ltac:(lia)) in H'. injection H' as -> ->.
    split; [reflexivity|]. split; [exact H2|]. assert (Hd := Z.div_lt_upper_bound (Z.of_nat (length tr) + 1) 2 (c + 1)); lia.
  Qed.

  Theorem mvp61_terminates_straight :
    exists c, mvp61_run par ord pord (fuel_bound61 (length app)) app labels st = MDone c st' /\
              (Z.of_nat (length tr) + 1) / 2 <= c.
  Proof.
    destruct mvp61_run_straight as (c & H1 & H2). exists c. split; [apply H1; lia|]. assert (Hd := Z.div_lt_upper_bound (Z.of_nat (length tr) + 1) 2 (c + 1)); lia.
  Qed.

  Corollary mvp61_no_panic_straight fuel' : (fuel_bound61 (length app) <= fuel')%nat ->
    mvp61_run par ord pord fuel' app labels st <> MPanic /\ mvp61_run par ord pord fuel' app labels st <> MOutOfFuel /\
    (forall e, mvp61_run par ord pord fuel' app labels st <> MErr e).
  Proof.
    intros Hf. destruct mvp61_refines_seq_straight as (c & Hc). rewrite (Hc fuel' Hf). repeat split; try discriminate.
  Qed.
End Straight1.
