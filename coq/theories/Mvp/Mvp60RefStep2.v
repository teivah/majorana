(* Refinement of MVP-6.0 to the sequential machine: one tick of Run in each of its three
   loops (main loop, drain loop after ret, write-back loop before a flush). *)
From Coq Require Import ZArith List Bool Lia Permutation.
From Maj Require Import Mvp.Mvp60Proofs.
From Maj Require Import Base.Outcome Base.GoInt Base.GoTypes Isa.Spec Isa.Embed Isa.Seq Isa.Refine.
From Maj Require Import Gen.Latency Gen.RiscTables Gen.Opcodes Comp.Cache.
From Maj Require Import Mvp.Mvp12 Mvp.Mvp12Proofs Mvp.Mvp3 Mvp.Mvp3Proofs Mvp.Mvp4Skel Mvp.Mvp4Inv Mvp.Mvp5 Mvp.Mvp60
     Mvp.Mvp60RefSem Mvp.Mvp60RefDefs Mvp.Mvp60RefFront Mvp.Mvp60RefBack Mvp.Mvp60RefStep.
Import ListNotations.
Open Scope Z_scope.

(* the machine right after a flush to instruction t (or at start: t = 0): empty pipeline,
   fetch unit at 4t, registers R *)
Record Fresh (app : list instr) (mem0 : list Z) (t : nat) (R : list Z) (s : st6) : Prop := mkFresh {
  fs_regs : m_regs (s_m s) = R;
  fs_mem : m_mem (s_m s) = mem0;
  fs_pw : m_pw (s_m s) = zero_sb;
  fs_pr : m_pr (s_m s) = zero_sb;
  fs_l3 : lines (m_l3 (s_m s)) = [];
  fs_pc : f_pc (m_fu (s_m s)) = pcz t;
  fs_comp : f_complete (m_fu (s_m s)) = false;
  fs_co : f_co (m_fu (s_m s)) = FNone;
  fs_l1i : IInv (m_l1i (s_m s));
  fs_dret : m_dret (s_m s) = false;
  fs_dpbr : m_dpbr (s_m s) = false;
  fs_cu : m_cu (s_m s) = [];
  fs_btb : Forall (fun en => fst en < pcz t) (b_btb (m_bu (s_m s)));
  fs_dbus : m_dbus (s_m s) = bb_new 2 2;
  fs_cbus : m_cbus (s_m s) = bb_new 2 2;
  fs_ebus : m_ebus (s_m s) = bb_new 2 2;
  fs_wbus : m_wbus (s_m s) = bb_new 2 2;
  fs_eus : Forall EuNone (s_eus s);
  fs_wus : Forall (fun w => u_co w = WNone) (s_wus s);
  fs_wne : s_wus s <> [];
  fs_len : length (s_eus s) = length (s_wus s);
  fs_mode : s_mode s = MNormal }.

Lemma flush_next_none wus k : Forall (fun w => u_co w = WNone) wus -> flush_next wus k true = None.
Proof.
  intros H. revert k. induction H as [|w t Hw _ IH]; intros k; [reflexivity|]. cbn [flush_next].
  unfold wu_empty. rewrite Hw. cbn [negb orb]. apply IH.
Qed.

Lemma flush_next_some w t k : flush_next (w :: t) k false = Some k.
Proof. cbn [flush_next]. rewrite orb_true_r. reflexivity. Qed.

Lemma connect_nobuf {T} cyc (b : bbus T) : BusOK cyc b -> bb_buf b = [] ->
  bb_q (bb_connect b (cyc + 1)) = bb_q b /\ bb_buf (bb_connect b (cyc + 1)) = [] /\
  bb_ql (bb_connect b (cyc + 1)) = 2 /\ bb_bl (bb_connect b (cyc + 1)) = 2.
Proof.
  intros HB Hb. destruct (connect_spec cyc b HB) as (H1 & H2 & H3 & H4 & H5).
  assert (Hbl : blen b = 0) by (unfold blen; rewrite Hb; reflexivity).
  pose proof (blen_ge0 (bb_connect b (cyc + 1))).
  assert (Hb' : bb_buf (bb_connect b (cyc + 1)) = []) by (apply zlen_zero; unfold blen in *; lia).
  unfold flat in H1. rewrite Hb, Hb' in H1. cbn [map] in H1. rewrite !app_nil_r in H1.
  repeat split; auto; apply H2.
Qed.

(* the write bus when its queue is empty: Connect moves the whole buffer (at most two) *)
Lemma connect_allq {T} cyc (b : bbus T) : BusOK cyc b -> bb_q b = [] -> blen b <= 2 ->
  bb_q (bb_connect b (cyc + 1)) = map snd (bb_buf b) /\ bb_buf (bb_connect b (cyc + 1)) = [] /\
  bb_ql (bb_connect b (cyc + 1)) = 2 /\ bb_bl (bb_connect b (cyc + 1)) = 2.
Proof.
  intros HB Hq Hbl. destruct (connect_spec cyc b HB) as (H1 & H2 & H3 & H4 & H5).
  assert (Hql : qlen b = 0) by (unfold qlen; rewrite Hq; reflexivity).
  pose proof (blen_ge0 (bb_connect b (cyc + 1))). pose proof (qlen_ge0 (bb_connect b (cyc + 1))).
  assert (Hb' : bb_buf (bb_connect b (cyc + 1)) = []).
  { destruct H5 as [H5|H5]; [exact H5|]. apply zlen_zero. unfold blen in *. lia. }
  unfold flat in H1. rewrite Hq, Hb' in H1. cbn [map List.app] in H1. rewrite app_nil_r in H1.
  repeat split; auto; apply H2.
Qed.

Section Step2.
  Variables (app : list instr) (labels : Z -> option Z) (regs0 mem0 : list Z) (base : nat) (off : Z).
  Hypothesis Happ : wf_app app.
  Hypothesis Hreg : reg_only app = true.
  Hypothesis Hlen0 : (length regs0 <= 32)%nat.
  Hypothesis Hbase : (base <= length app)%nat.
  Let n := length app.
  Let N := stop_from app base.

  Notation sreg := (sreg app labels regs0 base).
  Notation eff := (eff app labels regs0 base).
  Notation rn := (rn app).
  Notation ik := (ik app).
  Notation BackI := (BackI app labels regs0 mem0 base).
  Notation FlushI := (FlushI app labels regs0 mem0 base).
  Notation FrontI := (FrontI app base).
  Notation kout := (kout app labels regs0 base).
  Notation plain := (plain app).
  Notation GI := (GI app labels regs0 mem0 base off).
  Notation TI := (TI app labels regs0 base).
  Notation wbn := (wbn app labels regs0 base).
  Notation phi := (phi app).

  Hypothesis Hsem : forall k, (base <= k <= N)%nat -> (k < n)%nat ->
    exec (sinstr_of (ik k)) (rget (sreg k)) labels (pcz k) [] = Ok (eff k) /\
    (forall a, etarget (eff k) = Some a -> exists t, a = pcz t /\ (k < t <= n)%nat).

  (* what a finished run looks like: the registers are those of the fall-through run up to
     xe, where the text ends or a ret stands; no instruction before xe transferred control *)
  Definition Fin (r : mres) : Prop :=
    exists cf xe, r = MDone cf (mk_arch (sreg xe) mem0) /\ (base <= xe <= n)%nat /\
      (forall k, (base <= k < xe)%nat -> kout k = euo_none) /\
      ((xe = n /\ Z.of_nat xe <= 2 * cf + off) \/
       ((xe < n)%nat /\ is_ret (ik xe) = true /\ Z.of_nat (S xe) <= 2 * cf + off)).

  Definition phis (s : st6) : Z := phi (s_m s) (s_eus s).

  (* drain loop after ret *)
  Record GR (d : nat) (s : st6) : Prop := mkGR {
    gr_back : BackI d (s_m s) (s_eus s);
    gr_eus : Forall EuNone (s_eus s);
    gr_wus : Forall (fun w => u_co w = WNone) (s_wus s);
    gr_wne : s_wus s <> [];
    gr_N : (N < n)%nat /\ d = S N /\ is_ret (ik N) = true;
    gr_ebus : flat (m_ebus (s_m s)) = [];
    gr_wb : bb_buf (m_wbus (s_m s)) = [];
    gr_wq : bb_q (m_wbus (s_m s)) <> [];
    gr_bw : BusOK (s_cycle s) (m_wbus (s_m s));
    gr_exec : forall k, (base <= k < N)%nat -> kout k = euo_none;
    gr_cyc : Z.of_nat d <= 2 * s_cycle s + off;
    gr_mode : s_mode s = MRet }.

  (* write-back loop before the flush requested by instruction E (target: instruction t) *)
  Record GF (d E t : nat) (s : st6) : Prop := mkGF {
    gf_fl : exists D, FlushI d E (s_m s) D;
    gf_eus : Forall EuNone (s_eus s);
    gf_len : length (s_eus s) = length (s_wus s);
    gf_wus : Forall (fun w => u_co w = WNone) (s_wus s);
    gf_wne : s_wus s <> [];
    gf_l1i : IInv (m_l1i (s_m s));
    gf_btb : Forall (fun en => fst en < pcz t) (b_btb (m_bu (s_m s)));
    gf_E : (base <= E < d)%nat /\ (E < t <= n)%nat /\ (d <= n)%nat /\ (E <= N)%nat;
    gf_exec : forall k, (base <= k < E)%nat -> kout k = euo_none;
    gf_out : kout E = mk_euo6 true (pcz E) (pcz t) false;
    gf_wb : bb_buf (m_wbus (s_m s)) = [];
    gf_wq : bb_q (m_wbus (s_m s)) <> [];
    gf_bw : BusOK (s_cycle s) (m_wbus (s_m s));
    gf_par : bb_ql (m_dbus (s_m s)) = 2 /\ bb_bl (m_dbus (s_m s)) = 2 /\ bb_ql (m_cbus (s_m s)) = 2 /\ bb_bl (m_cbus (s_m s)) = 2 /\
             bb_ql (m_ebus (s_m s)) = 2 /\ bb_bl (m_ebus (s_m s)) = 2;
    gf_mode : s_mode s = MFlush 0 (pcz E) (pcz t) }.

  Lemma sreg_ret k : (base <= k)%nat -> is_ret (ik k) = true -> sreg (S k) = sreg k.
  Proof.
    intros Hb H. rewrite sreg_S by assumption. unfold Mvp60RefSem.eff, eff_at. rewrite (is_ret_exec _ _ _ _ _ H). reflexivity.
  Qed.

  (* the drain loop is entered / continued: connect the write bus, then its condition *)
  Lemma ret_tail d cyc m6 eus wus os : BackI d m6 eus -> Forall EuNone eus ->
    Forall (fun w => u_co w = WNone) wus -> wus <> [] ->
    (N < n)%nat /\ d = S N /\ is_ret (ik N) = true -> flat (m_ebus m6) = [] ->
    (bb_q (m_wbus m6) = [] /\ blen (m_wbus m6) <= 2) \/ bb_buf (m_wbus m6) = [] -> BusOK cyc (m_wbus m6) ->
    (forall k, (base <= k < N)%nat -> kout k = euo_none) -> Z.of_nat d <= 2 * cyc + off ->
    let m7 := set_wbus m6 (bb_connect (m_wbus m6) (cyc + 1)) in
    let s2 := mk_st6 m7 eus wus (cyc + 1) MRet os in
    (ret_check s2 = SCont s2 /\ GR d s2 /\ qlen (m_wbus m7) = qlen (m_wbus m6) + blen (m_wbus m6)) \/
    (exists r, ret_check s2 = SDone r os /\ Fin r).
  Proof.
    intros HB He Hw Hwne HN Hebus Hqb HW Hex Hcyc. cbv zeta.
    set (m7 := set_wbus m6 (bb_connect (m_wbus m6) (cyc + 1))).
    assert (Q2 : bb_buf (bb_connect (m_wbus m6) (cyc + 1)) = []).
    { destruct Hqb as [[Hq Hb2]|Hb]; [apply (connect_allq cyc (m_wbus m6) HW Hq Hb2) | apply (connect_nobuf cyc (m_wbus m6) HW Hb)]. }
    destruct (connect_spec cyc (m_wbus m6) HW) as (W1 & W2 & W3 & W4 & W5).
    assert (B7 : BackI d m7 eus).
    { eapply BackI_ext; [| | | | | | |exact HB]; try reflexivity. exact W1. }
    unfold ret_check. cbn [s_eus s_wus s_m s_cycle s_os]. rewrite (eus_empty _ He), (wus_empty _ Hw). cbn [andb].
    destruct (bb_isempty (m_wbus m7)) eqn:Edone.
    - right. eexists. split; [reflexivity|]. destruct HN as (HNn & HdN & Hret).
      rewrite (finish_ok m7 (cyc + 1) (bi_l3 _ _ _ _ _ _ _ _ B7)). exists (cyc + 1), N.
      assert (HFL : FL m7 eus = []).
      { unfold FL. change (m_ebus m7) with (m_ebus m6). rewrite Hebus, (eul_none _ He), (isempty_flat _ Edone). reflexivity. }
      pose proof (bi_sem _ _ _ _ _ _ _ _ B7) as HS. rewrite HFL in HS. apply bs_empty in HS.
      pose proof (stop_from_ge app base) as HbN. fold N in HbN.
      rewrite HS, (bi_mem _ _ _ _ _ _ _ _ B7), HdN, (sreg_ret N HbN Hret). split; [reflexivity|].
      split; [lia|]. split; [exact Hex|]. right. split; [exact HNn|]. split; [exact Hret | lia].
    - left. split; [reflexivity|]. split.
      + constructor; cbn [s_m s_eus s_wus s_cycle s_mode]; auto.
        * unfold m7. cbn [set_wbus m_wbus]. intros Hx. unfold bb_isempty in Edone. unfold m7 in Edone. cbn [set_wbus m_wbus] in Edone.
          rewrite Hx, Q2 in Edone. discriminate.
        * unfold m7. cbn [set_wbus m_wbus]. eapply busok_mono; [|exact W2]. lia.
        * lia.
      + unfold m7. cbn [set_wbus m_wbus].
        assert (blen (bb_connect (m_wbus m6) (cyc + 1)) = 0) by (unfold blen; rewrite Q2; reflexivity). lia.
  Qed.

  Lemma step_ret ord d s : GR d s ->
    (exists s', step6 app labels ord s = SCont s' /\ GR d s' /\ qlen (m_wbus (s_m s')) < qlen (m_wbus (s_m s))) \/
    (exists r os, step6 app labels ord s = SDone r os /\ Fin r).
  Proof.
    intros [GB GE GW GWne GN Geb Gwb Gwq Gbw Gex Gcyc Gmode].
    unfold step6. rewrite Gmode. rewrite (eus_skip labels ord (s_cycle s) (s_m s) euo_none (s_eus s) GE). cbn [res_of].
    unfold drain6.
    destruct (wus_ok app labels regs0 mem0 base Hreg Hlen0 Hbase Hsem d (s_eus s) (s_wus s) (s_m s) GB GW)
      as (m6 & Ew & B6 & [V1 V2 V3 V4 V5 V6 V7 V8 V9 V10 V11 V12 V13 V14 V15 V16] & V17 & V18).
    rewrite Ew. cbn [res_of].
    assert (Hq6 : qlen (m_wbus m6) < qlen (m_wbus (s_m s))).
    { unfold qlen, zlen. rewrite V16, skipn_length. destruct (bb_q (m_wbus (s_m s))); [contradiction|].
      destruct (s_wus s); [contradiction|]. cbn [length]. lia. }
    destruct (ret_tail d (s_cycle s) m6 (s_eus s) (s_wus s) (s_os s || false) B6 GE GW GWne GN ltac:(rewrite V12; exact Geb)
                ltac:(right; rewrite V13; exact Gwb) (V18 _ Gbw) Gex Gcyc) as [(E & G2 & P2)|(r & E & HF)].
    - left. eexists. split; [exact E|]. split; [exact G2|]. cbn [s_m].
      assert (blen (m_wbus m6) = 0) by (unfold blen; rewrite V13, Gwb; reflexivity). lia.
    - right. exists r, (s_os s || false). split; [exact E | exact HF].
  Qed.

  (* one tick of the write-back loop before a flush *)
  Lemma step_flush ord d E t s : GF d E t s ->
    (exists s', step6 app labels ord s = SCont s' /\ GF d E t s' /\ qlen (m_wbus (s_m s')) < qlen (m_wbus (s_m s))) \/
    (exists s', step6 app labels ord s = SCont s' /\ Fresh app mem0 t (sreg (S E)) s' /\ s_cycle s' = s_cycle s + 1 + Flush).
  Proof using Hreg Hlen0 Hbase Hsem.
    clear off. intros [(D & GFl) GE Glen GW GWne Gl1 Gbtb GEt Gex Gout Gwb Gwq Gbw Gpar Gmode].
    unfold step6. rewrite Gmode.
    destruct (s_wus s) as [|w0 wt] eqn:Ewus; [contradiction|]. cbn [nth_error].
    assert (Hw0 : u_co w0 = WNone) by (inversion GW; assumption).
    destruct (wu_flush_step app labels regs0 mem0 base Hreg Hlen0 Hbase Hsem d E (s_m s) D w0 GFl Hw0)
      as (m1 & D' & Ew & F1 & [R1 R2 R3 R4 R5 _ _ _ R6 R11 R12 R13 R7 R8 R9 R10]).
    rewrite Ew. cbn [res_of fst snd]. rewrite (set_nth6_same (w0 :: wt) 0 w0 eq_refl).
    unfold flush_advance. cbn [s_wus s_m s_eus s_cycle s_os skipn].
    assert (Hb1 : bb_buf (m_wbus m1) = []) by (rewrite R7; exact Gwb).
    destruct Gpar as (P1 & P2 & P3 & P4 & P5 & P6).
    destruct (bb_q (m_wbus m1)) as [|y q1] eqn:Eq1.
    - (* the write bus is empty: m.flush(pc) *)
      right. assert (Hemp : bb_isempty (m_wbus m1) = true) by (unfold bb_isempty; rewrite Eq1, Hb1; reflexivity).
      rewrite Hemp, (flush_next_none _ 0 GW). eexists. split; [reflexivity|]. split; [|reflexivity].
      destruct GEt as (HE1 & HE2 & Hdn & HEN). destruct F1 as [W1 W2 W3 W4 W5 W6].
      assert (Hfl : flat (m_wbus m1) = []) by (unfold flat; rewrite Eq1, Hb1; reflexivity).
      rewrite Hfl in W2, W6. cbn [map List.app] in W2, W6.
      assert (Hregs : m_regs m1 = sreg (S E)).
      { eapply bw_squash; [exact Hlen0 | exact W2 | lia|]. intros k. split.
        - intros Hk. split; [apply W5; exact Hk | apply (bw_lt _ _ _ _ _ _ _ W2 k Hk)].
        - intros Hk. apply W6. exact Hk. }
      destruct Gbw as [B1 B2 _ _].
      assert (Hcl : forall T (b : bbus T), bb_ql b = 2 -> bb_bl b = 2 -> bb_clean b = bb_new 2 2).
      { intros T b A B. unfold bb_clean, bb_new. rewrite A, B. reflexivity. }
      rewrite R1 in W3. rewrite R3 in W4.
      constructor; cbn [s_m s_eus s_wus s_mode do_flush6 m_regs m_mem m_pw m_pr m_l3 m_fu m_l1i m_dret m_dpbr m_cu m_bu m_dbus m_cbus m_ebus m_wbus fu_flush6 f_pc f_complete f_co];
        rewrite ?R1, ?R2, ?R3, ?R6; auto.
      + apply Hcl; rewrite R11; assumption.
      + apply Hcl; rewrite R12; assumption.
      + apply Hcl; rewrite R13; assumption.
      + apply Hcl; rewrite ?R8, ?R9; assumption.
      + apply Forall_forall. intros e He. apply in_map_iff in He as (e0 & <- & He0). rewrite Forall_forall in GE. destruct (GE e0 He0) as [A _]. split; [exact A | reflexivity].
      + rewrite map_length. exact Glen.
    - (* go on *)
      left. assert (Hemp : bb_isempty (m_wbus m1) = false) by (unfold bb_isempty; rewrite Eq1; reflexivity).
      rewrite Hemp, flush_next_some. eexists. split; [reflexivity|]. split.
      + constructor; cbn [s_m s_eus s_wus s_cycle s_mode]; rewrite ?R2, ?R6, ?R11, ?R12, ?R13; auto.
        * exists D'. exact F1.
        * rewrite ?Eq1. discriminate.
        * destruct Gbw as [B1 B2 B3 B4]. constructor; rewrite ?R7, ?R8, ?R9; auto; try (eapply Forall_impl; [|exact B4]; cbn beta; intros; lia).
          unfold qlen in *. rewrite Eq1, R10. destruct (bb_q (m_wbus (s_m s))); cbn [skipn]; rewrite ?zlen_cons in *; lia.
        * repeat split; assumption.
      + cbn [s_m]. unfold qlen. rewrite Eq1, R10. destruct (bb_q (m_wbus (s_m s))); [contradiction|]. cbn [skipn]. rewrite zlen_cons. lia.
  Qed.

  Lemma kout_ret_inv k : kout k = mk_euo6 false 0 0 true -> is_ret (ik k) = true.
  Proof.
    unfold Mvp60RefBack.kout. destruct (is_ret (ik k)); [reflexivity|]. destruct (etarget (eff k)); [|discriminate].
    destruct (is_jump (ik k) || negb (pcz (S k) =? z)); discriminate.
  Qed.

  Lemma map_kr_rn l : map kr (map rn l) = l.
  Proof. induction l as [|k t IH]; [reflexivity|]. cbn [map]. rewrite (kr_rn app), IH. reflexivity. Qed.

  Lemma map_kw_wbn (g : nat -> Z) l : map kw (map snd (map (fun k => (g k, wbn k)) l)) = l.
  Proof. induction l as [|k t IH]; [reflexivity|]. cbn [map snd]. rewrite (kw_wbn app labels regs0 base), IH. reflexivity. Qed.

  (* one tick of the main loop *)
  Lemma step_normal ord d c f x s : GI d c f x s ->
    (exists s' d' c' f' x', step6 app labels ord s = SCont s' /\ GI d' c' f' x' s' /\ phis s' < phis s) \/
    (exists r os, step6 app labels ord s = SDone r os /\ Fin r) \/
    (exists s' d', step6 app labels ord s = SCont s' /\ GR d' s') \/
    (exists s' d' E t, step6 app labels ord s = SCont s' /\ GF d' E t s').
  Proof.
    intros HG.
    destruct (front_ok app labels regs0 mem0 base off Happ Hreg Hlen0 Hbase Hsem d c f x s HG)
      as (m4 & d' & c' & f' & lq & Efront & F4 & B4 & Hq4 & Hb4 & Hxlq & Hwb4 & Hwq4 & Hpair4 & Hcyc & Hphi4 & Hstrict).
    destruct HG as [GF0 GB GT GW GWne GC GM]. pose proof GT as [T1 T2 T3 T3' T4 T5 T6 T7 T8].
    assert (GEne : s_eus s <> []) by (intros E; apply GWne; destruct (s_wus s); [reflexivity | rewrite E in T4; discriminate]).
    assert (Hlq2 : (lq <= 2)%nat).
    { pose proof (bus_q _ _ (fr_be _ _ _ _ _ _ _ F4)) as Hx. unfold qlen, zlen in Hx. rewrite Hq4, map_length, seq_length in Hx. lia. }
    (* two instructions run in one cycle only with two units and two in the queue; the second is plain *)
    assert (Hplj : forall k, (x < k < x + Nat.min (length (s_eus s)) lq)%nat -> plain k).
    { intros k Hk. destruct (Hpair4 ltac:(lia)) as [Hp _]. replace k with (S x) by lia. apply Hp. lia. }
    destruct (back_ok app labels regs0 mem0 base Happ Hreg Hlen0 Hbase Hsem ord d' c' f' x lq (s_cycle s + 1) m4 (s_eus s) (s_wus s)
                F4 B4 T1 GEne T4 GW (proj1 T6) Hq4 Hb4 Hxlq Hwb4 Hwq4 Hplj)
      as (m5 & m6 & eus' & Ee & Ew & HF6 & Hl1 & Hbtb & HW6 & Hpar & B6 & A1 & A2 & Hfe6 & Hq6e & Hb6e & Hq6 & Hb6 & Hseq & Hpot).
    destruct (front_dN app labels regs0 base Hlen0 Hbase Hsem _ _ _ _ _ F4) as [HdN Hdn].
    cbv zeta in *.
    set (j := Nat.min (length (s_eus s)) lq) in *.
    assert (Hj1 : lq <> O -> (1 <= j)%nat) by (intros Hl; unfold j; destruct (s_eus s); [contradiction | cbn [length]; lia]).
    assert (Hj2 : (j <= 2)%nat) by (unfold j; lia).
    assert (Hxj : (x + j <= d')%nat) by (unfold j; lia).
    assert (Hblen6 : blen (m_wbus m6) <= Z.of_nat j).
    { unfold blen, zlen. rewrite Hb6, map_length. pose proof (filter_len_le (notret app) (seq x j)) as Hx. rewrite seq_length in Hx. lia. }
    assert (Hjw : (j <= length (s_wus s))%nat) by (unfold j; lia).
    assert (Hpair : (2 <= length (s_eus s))%nat -> bb_q (m_ebus m6) = [] /\ (blen (m_ebus m6) = 2 -> plain (S (x + j)))).
    { intros He2. assert (Hjl : j = lq) by (unfold j; lia). rewrite Hq6e, Hjl, Nat.sub_diag. split; [reflexivity|].
      intros Hb2. apply (proj2 (Hpair4 He2)). unfold blen in *. rewrite <- Hb6e. exact Hb2. }
    (* the potential falls unless the machine is empty *)
    assert (Hphi : o_flush (if (lq =? 0)%nat then euo_none else kout x) = false ->
                   phi m6 eus' < phi (s_m s) (s_eus s) \/ (lq = O /\ is_empty6 m6 eus' (s_wus s) = true)).
    { intros Hnf. destruct (Hpot Hnf) as [Hle Hemp].
      destruct (Nat.eq_dec lq 0) as [Hl0|Hl0]; [|left; specialize (Hj1 Hl0); lia].
      destruct Hstrict as [Hs|[Hs|Hs]]; [left; lia | contradiction | right; auto]. }
    unfold step6. rewrite GM, Efront. cbn [res_of]. rewrite Ee. cbn [res_of]. unfold back6. rewrite Ew. cbn [res_of].
    (* no ret, no flush: the loop goes on or ends *)
    assert (Hcont : (if (lq =? 0)%nat then euo_none else kout x) = euo_none ->
      (exists s' d' c' f' x', (if is_empty6 m6 eus' (s_wus s) then SDone (finish6 m6 (s_cycle s + 1)) (s_os s || false)
                               else SCont (mk_st6 m6 eus' (s_wus s) (s_cycle s + 1) MNormal (s_os s || false))) = SCont s' /\
                              GI d' c' f' x' s' /\ phis s' < phis s) \/
      (exists r os, (if is_empty6 m6 eus' (s_wus s) then SDone (finish6 m6 (s_cycle s + 1)) (s_os s || false)
                     else SCont (mk_st6 m6 eus' (s_wus s) (s_cycle s + 1) MNormal (s_os s || false))) = SDone r os /\ Fin r)).
    { intros Hout. rewrite Hout in HF6, Hphi. specialize (HF6 eq_refl). pose proof (Hphi eq_refl) as Hlt.
      assert (Hexec : forall k, (base <= k < x + j)%nat -> kout k = euo_none).
      { intros k Hk. destruct (Nat.lt_ge_cases k x) as [Hkx|Hkx]; [apply T8; lia|].
        destruct (Nat.eq_dec k x) as [->|Hne].
        - destruct lq; [unfold j in Hk; rewrite Nat.min_0_r in Hk; lia | exact Hout].
        - destruct (Hseq k ltac:(apply in_seq; lia)) as (K1 & K2 & K3).
          apply (plain_kout app labels regs0 base Hsem k ltac:(lia) K3). apply Hplj. lia. }
      destruct (is_empty6 m6 eus' (s_wus s)) eqn:Eemp.
      - right. eexists _, _. split; [reflexivity|].
        destruct (empty_done app labels regs0 mem0 base Hlen0 _ _ _ _ _ _ _ HF6 B6 A1 Eemp) as (Hd'n & HS & Hfe).
        rewrite (finish_ok m6 (s_cycle s + 1) (bi_l3 _ _ _ _ _ _ _ _ B6)). exists (s_cycle s + 1), d'.
        assert (Hxe : (x + j)%nat = d') by (rewrite Hfe in Hfe6; apply map_seq_nil in Hfe6; lia).
        rewrite HS, (bi_mem _ _ _ _ _ _ _ _ B6). split; [reflexivity|]. split; [lia|].
        split; [intros k Hk; apply Hexec; lia|]. left. split; [exact Hd'n | lia].
      - left. eexists _, d', c', f', (x + j)%nat. split; [reflexivity|]. split.
        + constructor; cbn [s_m s_eus s_wus s_cycle s_mode]; auto.
          constructor; auto; try lia.
          rewrite A2. exact Hpair.
        + destruct Hlt as [Hlt|[_ Hx]]; [exact Hlt | congruence]. }
    destruct (Nat.eq_dec lq 0) as [Hlq0|Hlq0].
    { subst lq. cbn [Nat.eqb o_ret o_flush euo_none] in *. destruct (Hcont eq_refl) as [H|H]; [left; exact H | right; left; exact H]. }
    assert (Elq : (lq =? 0)%nat = false) by (apply Nat.eqb_neq; exact Hlq0). rewrite Elq in *.
    specialize (Hj1 Hlq0).
    destruct (Hseq x ltac:(apply in_seq; lia)) as (X1 & X2 & X3).
    destruct (kout_cases app labels regs0 base x) as [Ko|[Ko|(a & Ko & Ea & Hnr)]]; rewrite Ko in *; cbn [o_ret o_flush].
    - destruct (Hcont eq_refl) as [H|H]; [left; exact H | right; left; exact H].
    - (* the ret has been executed: drain loop *)
      pose proof (kout_ret_inv x Ko) as Hret.
      assert (HxN : x = N).
      { destruct (Nat.eq_dec x N) as [|Hne]; [assumption|]. exfalso.
        pose proof (stop_from_before app dfl base x ltac:(fold N; lia)) as Hs. unfold is_stop in Hs.
        unfold ik in Hret. rewrite Hret in Hs. discriminate. }
      assert (Hd' : d' = S N) by (fold N in HdN; lia).
      assert (Hebus : flat (m_ebus m6) = []).
      { rewrite Hfe6. replace (d' - (x + j))%nat with O by lia. reflexivity. }
      assert (HNf : (N < n)%nat /\ d' = S N /\ is_ret (ik N) = true).
      { rewrite <- HxN. split; [exact X3|]. split; [lia | exact Hret]. }
      destruct (ret_tail d' (s_cycle s + 1) m6 eus' (s_wus s) (s_os s || false) B6 A1 GW GWne
                  HNf Hebus ltac:(left; split; [exact Hq6 | lia]) HW6
                  ltac:(intros k Hk; apply T8; lia) Hcyc) as [(E & G2 & _)|(r & E & HFin)].
      + right. right. left. eexists _, d'. split; [exact E | exact G2].
      + right. left. exists r, (s_os s || false). split; [exact E | exact HFin].
    - (* a flush is requested by x *)
      destruct (Hsem x ltac:(lia) X3) as [_ Htgt]. destruct (Htgt a Ea) as (t & -> & Ht).
      destruct (connect_allq (s_cycle s + 1) (m_wbus m6) HW6 Hq6 ltac:(lia)) as (Q1 & Q2 & Q3 & Q4).
      destruct (connect_spec (s_cycle s + 1) (m_wbus m6) HW6) as (W1 & W2 & _).
      set (m7 := set_wbus m6 (bb_connect (m_wbus m6) (s_cycle s + 1 + 1))).
      assert (Hinx : In x (filter (notret app) (seq x j))).
      { apply filter_In. split; [apply in_seq; lia|]. unfold notret. fold (ik x). rewrite Hnr. reflexivity. }
      assert (Hq7 : bb_q (m_wbus m7) <> []).
      { unfold m7. cbn [set_wbus m_wbus]. rewrite Q1, Hb6. intros Hx. apply map_eq_nil, map_eq_nil in Hx. rewrite Hx in Hinx. destruct Hinx. }
      assert (Hemp : bb_isempty (m_wbus m7) = false).
      { unfold bb_isempty. destruct (bb_q (m_wbus m7)); [contradiction | reflexivity]. }
      unfold flush_advance. cbn [s_wus s_m s_eus s_cycle s_os skipn]. fold m7. rewrite Hemp.
      destruct (s_wus s) as [|w0 wt] eqn:Ewus; [contradiction|]. rewrite flush_next_some.
      right. right. right. eexists _, d', x, t. split; [reflexivity|].
      assert (Hkw7 : map kw (flat (m_wbus m7)) = filter (notret app) (seq x j)).
      { unfold m7. cbn [set_wbus m_wbus]. unfold flat. rewrite Q1, Q2, Hb6. cbn [map]. rewrite app_nil_r. apply map_kw_wbn. }
      assert (HD0 : map kr (flat (m_ebus m7)) = seq (x + j) (d' - (x + j))).
      { change (m_ebus m7) with (m_ebus m6). rewrite Hfe6. apply map_kr_rn. }
      constructor; cbn [s_m s_eus s_wus s_cycle s_mode]; auto.
      + exists (map kr (flat (m_ebus m7))). constructor.
        * unfold m7. cbn [set_wbus m_wbus]. rewrite W1. exact (bi_w _ _ _ _ _ _ _ _ B6).
        * eapply bw_perm; [|apply (bs_w _ _ _ _ _ _ _ _ _ (bi_sem _ _ _ _ _ _ _ _ B6))].
          unfold FL. rewrite (eul_none _ A1). cbn [map List.app]. change (m_ebus m7) with (m_ebus m6).
          unfold m7 at 1. cbn [set_wbus m_wbus]. rewrite W1. apply Permutation_app_comm.
        * exact (bi_mem _ _ _ _ _ _ _ _ B6).
        * exact (bi_l3 _ _ _ _ _ _ _ _ B6).
        * intros k Hk. rewrite HD0 in Hk. apply in_seq in Hk. lia.
        * intros k Hk. rewrite Hkw7, HD0. apply in_or_app. destruct (Nat.lt_ge_cases k (x + j)) as [Hlt|Hge].
          -- left. apply filter_In. split; [apply in_seq; lia|]. destruct (Hplj k ltac:(lia)) as [Hr _]. unfold notret. rewrite Hr. reflexivity.
          -- right. apply in_seq. lia.
      + rewrite A2. exact T4.
      + eapply Forall_impl; [|exact Hbtb]. cbn beta. intros en Hen. unfold pcz in *. lia.
  Qed.
End Step2.
