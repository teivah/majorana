(* MVP-6.1 refinement: the invariant FrontI1 of the fetch / decode / control-unit streams, the potential
   phi1, and the first half of an iteration piece by piece: the four Connect calls (conn_ok1), fetch and
   decode (fd_ok1), the control unit (cu_ok1). *)
From Coq Require Import ZArith List Bool Lia Permutation.
From Maj Require Import Base.Outcome Base.GoInt Base.GoTypes Isa.Spec Isa.Embed Isa.Seq Isa.Refine.
From Maj Require Import Gen.Latency Gen.RiscTables Gen.Opcodes Comp.Cache.
From Maj Require Import Mvp.Mvp12 Mvp.Mvp12Proofs Mvp.Mvp3 Mvp.Mvp3Proofs Mvp.Mvp4Skel Mvp.Mvp4Inv Mvp.Mvp5 Mvp.Mvp60 Mvp.Mvp61
     Mvp.Mvp60RefSem Mvp.Mvp60RefDefs Mvp.Mvp60RefFront Mvp.Mvp60RefBack Mvp.Mvp60RefStep
     Mvp.Mvp61RefSem Mvp.Mvp61RefFront Mvp.Mvp61RefBack Mvp.Mvp61RefInv Mvp.Mvp61RefCu Mvp.Mvp61RefExec.
Import ListNotations.
Open Scope Z_scope.

(* the four Connect calls *)
Definition conn1 (m : mach1) (c : Z) : mach1 :=
  mk_m1 (set_wbus (set_dbus (y_m m) (bb_connect (m_dbus (y_m m)) c)) (bb_connect (m_wbus (y_m m)) c))
        (xs_ebus (xs_cbus (y_x m) (bb_connect (x_cbus (y_x m)) c)) (bb_connect (x_ebus (y_x m)) c)).

Definition phiM1 (m : mach1) : Z :=
  10 * blen (m_dbus (y_m m)) + 9 * qlen (m_dbus (y_m m)) + 8 * blen (x_cbus (y_x m)) + 7 * qlen (x_cbus (y_x m))
  + 6 * zlen (x_cu (y_x m)) + 5 * blen (x_ebus (y_x m)) + 4 * qlen (x_ebus (y_x m))
  + 2 * blen (m_wbus (y_m m)) + qlen (m_wbus (y_m m)).

(* the runners pushed in this cycle are in the buffer of the execute bus, without Forwarder *)
Definition PrevB (m : mach1) : Prop :=
  Forall (fun o => In o (map snd (bb_buf (x_ebus (y_x m)))) /\ r_fw o = None) (x_prev (y_x m)).

Lemma front1_eq app pord c m : front1 app pord c m =
  (m3 <- (r <- fu_cycle6 app c (m_fu (y_m (conn1 m c))) (m_l1i (y_m (conn1 m c))) (m_dbus (y_m (conn1 m c))) ;;
          let '(fu1, l1i1, dbus1) := r in
          du_cycle1 app c (mk_m1 (set_dbus (set_l1i (set_fu (y_m (conn1 m c)) fu1) l1i1) dbus1) (y_x (conn1 m c)))) ;;
   Ok (cu_cycle1 pord c m3)).
Proof.
  unfold front1, conn1. cbn [y_m y_x set_wbus set_dbus m_fu m_l1i m_dbus].
  destruct (fu_cycle6 app c (m_fu (y_m m)) (m_l1i (y_m m)) (bb_connect (m_dbus (y_m m)) c)) as [[[fu1 l1i1] dbus1]| |];
    cbn [bind]; reflexivity.
Qed.

Section Step1.
  Variables (app : list instr) (labels : Z -> option Z) (regs0 mem0 : list Z) (base : nat) (sq : Z).
  Hypothesis Happ : wf_app app.
  Hypothesis Hreg : reg_only app = true.
  Hypothesis Hrng : regs_in_range app = true.
  Hypothesis Hlen32 : length regs0 = 32%nat.
  Hypothesis Hbase : (base <= length app)%nat.
  Let n := length app.
  Let N := stop_from app base.
  Hypothesis Hsq : 0 <= sq /\ 1000 * sq + 4 * Z.of_nat n < 2147483648.

  Notation sreg := (sreg app labels regs0 base).
  Notation eff := (eff app labels regs0 base).
  Notation ik := (ik app).
  Notation rnq := (rnq app sq).
  Notation r1q := (r1q app sq).
  Notation CoreI := (CoreI app labels regs0 mem0 base sq).
  Notation FL1 := (FL1 sq).
  Notation FetchI := (FetchI app).
  Notation phiF := (phiF app).

  Hypothesis Hsem : forall k, (base <= k <= N)%nat -> (k < n)%nat ->
    exec (sinstr_of (ik k)) (rget (sreg k)) labels (pcz k) [] = Ok (eff k) /\
    (forall a, etarget (eff k) = Some a -> exists t, a = pcz t /\ (k < t <= n)%nat).

  Set Default Proof Using "All".
  Notation "'IA' L" := (L app labels regs0 mem0 base sq Happ Hreg Hrng Hlen32 Hbase Hsq Hsem) (at level 10, L at level 9, only parsing).

  Definition phi1 (m : mach1) : Z := phiF (m_fu (y_m m)) + phiM1 m.

  Record FrontI1 (d c f : nat) (cyc : Z) (m : mach1) : Prop := mkFrontI1 {
    f1_fetch : FetchI f (m_fu (y_m m)) (m_l1i (y_m m));
    f1_clean : f_clean (m_fu (y_m m)) = true -> bb_buf (m_dbus (y_m m)) = [] /\ bb_q (m_dbus (y_m m)) = [];
    f1_dbus : flat (m_dbus (y_m m)) = map pcz (seq c (f - c));
    f1_cf : (c <= f)%nat;
    f1_bd : (base <= d)%nat;
    f1_cb : flat (x_cbus (y_x m)) = map r1q (seq (d + length (x_cu (y_x m))) (Nat.min c n - (d + length (x_cu (y_x m)))));
    f1_dc : (d + length (x_cu (y_x m)) <= Nat.min c n)%nat;
    f1_cu : (length (x_cu (y_x m)) <= 1)%nat;
    f1_flags_f : m_dret (y_m m) = false -> m_dpbr (y_m m) = false -> (Nat.min c n <= N)%nat;
    f1_dret_t : m_dret (y_m m) = true -> (N < n)%nat /\ c = S N /\ is_ret (ik N) = true;
    f1_dpbr_t : m_dpbr (y_m m) = true -> (N < n)%nat /\ c = S N /\ is_jump (ik N) = true;
    f1_btb : Forall (fun e => fst e < pcz base) (b_btb (m_bu (y_m m)));
    f1_bsd : BusOK cyc (m_dbus (y_m m));
    f1_bc : BusOK cyc (x_cbus (y_x m));
    f1_be : BusOK cyc (x_ebus (y_x m));
    f1_bw : BusOK cyc (m_wbus (y_m m));
    f1_eb : blen (x_ebus (y_x m)) <= 2;
    f1_old : m_cu (y_m m) = [] /\ bb_isempty (m_cbus (y_m m)) = true /\ bb_isempty (m_ebus (y_m m)) = true;
    f1_seq : x_seq (y_x m) = sq }.

  Lemma front1_dN d c f cyc m : FrontI1 d c f cyc m -> (d + length (x_cu (y_x m)) <= S N)%nat /\ (d + length (x_cu (y_x m)) <= n)%nat /\
    (Nat.min c n <= S N)%nat.
  Proof.
    intros H. pose proof (f1_dc _ _ _ _ _ H). destruct (m_dret (y_m m)) eqn:E.
    - destruct (f1_dret_t _ _ _ _ _ H E) as (A & B & _). lia.
    - destruct (m_dpbr (y_m m)) eqn:E2.
      + destruct (f1_dpbr_t _ _ _ _ _ H E2) as (A & B & _). lia.
      + pose proof (f1_flags_f _ _ _ _ _ H E E2). lia.
  Qed.

  Lemma FrontI1_mono d c f cy cy' m : cy <= cy' -> FrontI1 d c f cy m -> FrontI1 d c f cy' m.
  Proof.
    intros Hc [F1 Fc F2 F3 Fb F4 F5 F6 F7 F8 F9 Fbt F10 F11 F12 F13 F14 F15 F16].
    constructor; auto; eapply busok_mono; eassumption.
  Qed.

  (* the four Connect calls *)
  Lemma conn_ok1 d c f cyc m : FrontI1 d c f cyc m -> CoreI d (x_cu (y_x m)) m -> PrevB m ->
    let m1 := conn1 m (cyc + 1) in
    FrontI1 d c f cyc m1 /\ CoreI d (x_cu (y_x m1)) m1 /\ EB m1 = EB m /\ WB m1 = WB m /\
    (forall p, In p (x_prev (y_x m1)) -> In p (EB m1) /\ r_fw p = None) /\
    m_fu (y_m m1) = m_fu (y_m m) /\ m_dret (y_m m1) = m_dret (y_m m) /\ m_dpbr (y_m m1) = m_dpbr (y_m m) /\ x_cu (y_x m1) = x_cu (y_x m) /\
    qlen (m_dbus (y_m m1)) + blen (m_dbus (y_m m1)) = qlen (m_dbus (y_m m)) + blen (m_dbus (y_m m)) /\ qlen (m_dbus (y_m m)) <= qlen (m_dbus (y_m m1)) /\
    qlen (x_cbus (y_x m1)) + blen (x_cbus (y_x m1)) = qlen (x_cbus (y_x m)) + blen (x_cbus (y_x m)) /\ qlen (x_cbus (y_x m)) <= qlen (x_cbus (y_x m1)) /\
    qlen (x_ebus (y_x m1)) + blen (x_ebus (y_x m1)) = qlen (x_ebus (y_x m)) + blen (x_ebus (y_x m)) /\ qlen (x_ebus (y_x m)) <= qlen (x_ebus (y_x m1)) /\
    qlen (m_wbus (y_m m1)) + blen (m_wbus (y_m m1)) = qlen (m_wbus (y_m m)) + blen (m_wbus (y_m m)) /\ qlen (m_wbus (y_m m)) <= qlen (m_wbus (y_m m1)) /\
    (blen (m_dbus (y_m m1)) = 0 \/ qlen (m_dbus (y_m m1)) = 2) /\ (blen (x_cbus (y_x m1)) = 0 \/ qlen (x_cbus (y_x m1)) = 2) /\
    (blen (x_ebus (y_x m1)) = 0 \/ qlen (x_ebus (y_x m1)) = 2) /\ (blen (m_wbus (y_m m1)) = 0 \/ qlen (m_wbus (y_m m1)) = 2).
  Proof.
    intros HF HB HP. cbv zeta. pose proof HF as [F1 Fc F2 F3 Fb F4 F5 F6 F7 F8 F9 Fbt F10 F11 F12 F13 F14 F15 F16].
    destruct (connect_spec cyc (m_dbus (y_m m)) F10) as (D1 & D2 & D3 & D4 & D5).
    destruct (connect_spec cyc (x_cbus (y_x m)) F11) as (C1 & C2 & C3 & C4 & C5).
    destruct (connect_spec cyc (x_ebus (y_x m)) F12) as (E1 & E2 & E3 & E4 & E5).
    destruct (connect_spec cyc (m_wbus (y_m m)) F13) as (W1 & W2 & W3 & W4 & W5).
    assert (X : forall T (b : bbus T), bb_buf b = [] \/ qlen b = 2 -> blen b = 0 \/ qlen b = 2).
    { intros T b [A|A]; [left; unfold blen; rewrite A; reflexivity | right; exact A]. }
    unfold conn1. cbn [y_m y_x set_wbus set_dbus xs_ebus xs_cbus m_fu m_dret m_dpbr m_dbus m_wbus x_cu x_cbus x_ebus x_prev].
    assert (HEB : EB (conn1 m (cyc + 1)) = EB m) by exact E1.
    assert (HWB : WB (conn1 m (cyc + 1)) = WB m) by exact W1.
    split; [|split; [|split; [exact E1|split; [exact W1|split]]]].
    - constructor; cbn [y_m y_x set_wbus set_dbus xs_ebus xs_cbus m_fu m_l1i m_dret m_dpbr m_cu m_bu m_dbus m_cbus m_ebus m_wbus x_cu x_cbus x_ebus];
        rewrite ?D1, ?C1; auto.
      + intros Hc. destruct (Fc Hc) as [A B]. assert (Hx : flat (bb_connect (m_dbus (y_m m)) (cyc + 1)) = []) by (rewrite D1; unfold flat; rewrite A, B; reflexivity).
        apply flat_nil_inv in Hx. tauto.
      + pose proof (blen_ge0 (bb_connect (x_ebus (y_x m)) (cyc + 1))). pose proof (qlen_ge0 (x_ebus (y_x m))). lia.
    - eapply (IA CoreI_ext); [exact HEB | exact HWB | | | | | | | | | | | |exact HB]; reflexivity.
    - intros p Hp. unfold PrevB in HP. rewrite Forall_forall in HP. destruct (HP p Hp) as [A B]. split; [|exact B].
      change (In p (flat (bb_connect (x_ebus (y_x m)) (cyc + 1)))). rewrite E1. unfold flat. apply in_or_app. right. exact A.
    - repeat split; auto; lia.
  Qed.
  (* fetchUnit.cycle ; decodeUnit.cycle *)
  Lemma fd_ok1 d c f cyc m : FrontI1 d c f cyc m -> x_seq (y_x m) = sq -> x_fwd (y_x m) = repeat no_fwd n ->
    exists m3 c' f',
      (r <- fu_cycle6 app (cyc + 1) (m_fu (y_m m)) (m_l1i (y_m m)) (m_dbus (y_m m)) ;;
       let '(fu1, l1i1, dbus1) := r in
       du_cycle1 app (cyc + 1) (mk_m1 (set_dbus (set_l1i (set_fu (y_m m) fu1) l1i1) dbus1) (y_x m))) = Ok m3 /\
      FrontI1 d c' f' (cyc + 1) m3 /\
      m_regs (y_m m3) = m_regs (y_m m) /\ m_mem (y_m m3) = m_mem (y_m m) /\ m_pw (y_m m3) = m_pw (y_m m) /\ m_pr (y_m m3) = m_pr (y_m m) /\
      m_l3 (y_m m3) = m_l3 (y_m m) /\ m_wbus (y_m m3) = m_wbus (y_m m) /\
      (exists cb, y_x m3 = xs_cbus (y_x m) cb) /\ bb_q (x_cbus (y_x m3)) = bb_q (x_cbus (y_x m)) /\
      phiF (m_fu (y_m m3)) + 10 * blen (m_dbus (y_m m3)) + 9 * qlen (m_dbus (y_m m3)) + 8 * blen (x_cbus (y_x m3))
        <= phiF (m_fu (y_m m)) + 10 * blen (m_dbus (y_m m)) + 9 * qlen (m_dbus (y_m m)) + 8 * blen (x_cbus (y_x m)) /\
      (phiF (m_fu (y_m m3)) + 10 * blen (m_dbus (y_m m3)) + 9 * qlen (m_dbus (y_m m3)) + 8 * blen (x_cbus (y_x m3))
        < phiF (m_fu (y_m m)) + 10 * blen (m_dbus (y_m m)) + 9 * qlen (m_dbus (y_m m)) + 8 * blen (x_cbus (y_x m)) \/
       (((f_co (m_fu (y_m m)) = FDone /\ phiF (m_fu (y_m m3)) = phiF (m_fu (y_m m)) /\ f_complete (m_fu (y_m m3)) = f_complete (m_fu (y_m m))) \/
         (f_co (m_fu (y_m m)) = FNone /\ bb_canadd (m_dbus (y_m m)) = false)) /\
        (m_dret (y_m m) = true \/ m_dpbr (y_m m) = true \/ bb_q (m_dbus (y_m m)) = []))).
  Proof.
    intros HF Hxs Hxf. pose proof HF as [F1 Fc F2 F3 Fb F4 F5 F6 F7 F8 F9 Fbt F10 F11 F12 F13 F14 F15 F16].
    set (b := y_m m) in *. set (xx := y_x m) in *.
    destruct (fu_ok app base Happ cyc f (m_fu b) (m_l1i b) (m_dbus b) F1 F10 Fc) as (fu' & l1i' & k & E & G1 & Gcl & G2 & G3).
    rewrite E. cbn [bind].
    set (dbus2 := bus_push (m_dbus b) (cyc + 2) (map pcz (seq f k))).
    set (m2 := mk_m1 (set_dbus (set_l1i (set_fu b fu') l1i') dbus2) xx).
    destruct (seq_split pcz (bb_q (m_dbus b)) (map snd (bb_buf (m_dbus b))) c (f - c) F2) as (Q1 & Q2 & Q3).
    rewrite map_length in Q2, Q3.
    set (len := length (bb_q (m_dbus b))) in *. set (lb := length (bb_buf (m_dbus b))) in *.
    assert (Bd2 : BusOK (cyc + 1) dbus2).
    { unfold dbus2. replace (cyc + 2) with (cyc + 1 + 1) by lia. apply bus_push_ok. eapply busok_mono; [|exact F10]. lia. }
    assert (Bc1 : BusOK (cyc + 1) (x_cbus xx)) by (eapply busok_mono; [|exact F11]; lia).
    assert (Be1 : BusOK (cyc + 1) (x_ebus xx)) by (eapply busok_mono; [|exact F12]; lia).
    assert (Bw1 : BusOK (cyc + 1) (m_wbus b)) by (eapply busok_mono; [|exact F13]; lia).
    assert (Hb2 : blen dbus2 = blen (m_dbus b) + Z.of_nat k).
    { unfold dbus2, bus_push, blen. cbn [bb_buf]. rewrite zlen_app, stamped_len. unfold zlen. rewrite map_length, seq_length. reflexivity. }
    assert (Hfco : f_co (m_fu b) = FDone -> phiF fu' = phiF (m_fu b) /\ f_complete fu' = f_complete (m_fu b) /\ k = O).
    { intros Hd. unfold fu_cycle6 in E. rewrite Hd in E. injection E as E1 _ E3.
      assert (k = O).
      { apply (f_equal (fun b0 => zlen (bb_buf b0))) in E3. fold dbus2 in E3. fold (blen dbus2) in E3.
        assert (blen (if f_clean (m_fu b) then bb_clean (m_dbus b) else m_dbus b) <= blen (m_dbus b)).
        { destruct (f_clean (m_fu b)); [unfold blen, bb_clean; cbn [bb_buf]; rewrite zlen_nil; apply zlen_nonneg | lia]. }
        unfold blen in *. lia. }
      rewrite <- E1. split; [unfold Mvp60RefFront.phiF, phi_co; cbn [f_pc f_co f_rem]; rewrite Hd; reflexivity | split; [reflexivity | assumption]]. }
    assert (Hcase : (m_dret b = true \/ m_dpbr b = true) \/ (m_dret b = false /\ m_dpbr b = false))
      by (destruct (m_dret b), (m_dpbr b); auto).
    destruct Hcase as [Hflag|[Edr Edp]].
    { exists m2, c, (f + k)%nat. split; [apply du1_idle; exact Hflag|].
      split; [|split; [|split; [|split; [|split; [|split; [|split; [|split; [|split; [|split]]]]]]]]]; try reflexivity.
      + constructor; unfold m2; cbn [y_m y_x set_dbus set_l1i set_fu m_fu m_l1i m_bu m_dbus m_cbus m_ebus m_wbus m_cu m_dret m_dpbr]; auto.
        * intros Hx. congruence.
        * unfold dbus2. rewrite bus_push_flat, F2. replace f with (c + (f - c))%nat at 2 by (clear - F3; lia). rewrite seq_join. f_equal. f_equal. clear - F3. lia.
        * clear - F3. lia.
      + exists (x_cbus xx). destruct xx; reflexivity.
      + unfold m2. cbn [y_m y_x set_dbus set_l1i set_fu m_fu m_dbus]. fold dbus2. unfold dbus2 at 2, bus_push, qlen. cbn [bb_q]. fold (qlen (m_dbus b)). clear - G2 Hb2. lia.
      + unfold m2. cbn [y_m y_x set_dbus set_l1i set_fu m_fu m_dbus]. fold dbus2.
        assert (Hq2 : qlen dbus2 = qlen (m_dbus b)) by reflexivity.
        assert (Hfl : m_dret b = true \/ m_dpbr b = true \/ bb_q (m_dbus b) = []) by tauto.
        destruct (f_co (m_fu b)) eqn:Eco.
        * destruct (bb_canadd (m_dbus b)) eqn:Eadd; [left; specialize (G3 (or_intror (conj eq_refl eq_refl))); clear - G3 Hb2 Hq2; lia|].
          right. split; [right; auto | exact Hfl].
        * left. specialize (G3 (or_introl eq_refl)). clear - G3 Hb2 Hq2. lia.
        * right. split; [left; split; [reflexivity | destruct (Hfco eq_refl) as (A & B & _); auto] | exact Hfl]. }
    (* decode *)
    assert (Hq2 : bb_q (m_dbus (y_m m2)) = map pcz (seq c len)).
    { unfold m2. cbn [y_m set_dbus m_dbus]. unfold dbus2, bus_push. cbn [bb_q]. exact Q1. }
    assert (Hbc : (base <= c)%nat) by (clear - Fb F5; lia).
    destruct (du1_ok app base sq Hsq cyc m2 c len Hq2 Hbc (F7 Edr Edp) Edr Edp Hxs Hxf) as (j & ret' & pbr' & E2 & Hj & Hj0 & Hrt & Hpt & Hrf).
    rewrite E2. unfold m2. cbn [y_m y_x set_dbus set_l1i set_fu m_dbus set_du].
    fold n in E2, Hrt, Hpt, Hrf |- *. fold N in Hrt, Hpt, Hrf |- *.
    eexists _, (c + j)%nat, (f + k)%nat. split; [reflexivity|].
    set (em := Nat.min c n) in *. set (em' := Nat.min (c + j) n) in *.
    assert (Hem : (em <= em')%nat) by (unfold em, em'; clear; lia).
    match goal with |- FrontI1 _ _ _ _ ?x /\ _ => set (m3 := x) end.
    assert (P1 : m_fu (y_m m3) = fu') by reflexivity.
    assert (P2 : blen (m_dbus (y_m m3)) = blen (m_dbus b) + Z.of_nat k) by exact Hb2.
    assert (P3 : qlen (m_dbus (y_m m3)) = Z.of_nat (len - j)).
    { unfold m3, qlen, zlen. cbn [y_m set_dbus m_dbus bb_q]. rewrite map_length, seq_length. reflexivity. }
    assert (P4 : blen (x_cbus (y_x m3)) = blen (x_cbus xx) + Z.of_nat (em' - em)).
    { unfold m3, blen, bus_push. cbn [y_x xs_cbus x_cbus bb_buf]. rewrite zlen_app, stamped_len. unfold zlen. rewrite map_length, seq_length. reflexivity. }
    assert (P5 : qlen (m_dbus b) = Z.of_nat len) by reflexivity.
    assert (Hemj : (em' - em <= j)%nat) by (unfold em, em'; clear; lia).
    assert (Pcu : x_cu (y_x m3) = x_cu xx) by (unfold m3; destruct xx; reflexivity).
    assert (Peb : x_ebus (y_x m3) = x_ebus xx) by (unfold m3; destruct xx; reflexivity).
    split; [|split; [|split; [|split; [|split; [|split; [|split; [|split; [|split; [|split]]]]]]]]]; try reflexivity.
    + constructor; rewrite ?Pcu, ?Peb; unfold m3; cbn [y_m y_x xs_cbus x_cbus set_dbus set_du set_l1i set_fu m_fu m_l1i m_bu m_dbus m_cbus m_ebus m_wbus m_cu m_dret m_dpbr]; auto.
      * intros Hx. congruence.
      * unfold flat. cbn [bb_q bb_buf]. unfold dbus2, bus_push. cbn [bb_buf]. rewrite map_app, stamped_snd, Q2.
        replace (c + len)%nat with (c + j + (len - j))%nat by (clear - Hj; lia). rewrite app_assoc, seq_join.
        replace f with (c + j + (len - j + lb))%nat at 1 by (clear - Hj Q3 F3; lia). rewrite seq_join. f_equal. f_equal. clear - Hj Q3 F3. lia.
      * clear - Hj Q3 F3. lia.
      * rewrite bus_push_flat, F4. fold em.
        set (d1 := (d + length (x_cu xx))%nat) in *. replace em with (d1 + (em - d1))%nat at 2 by (clear - F5; lia).
        rewrite seq_join. f_equal. f_equal. fold em'. clear - F5 Hem. lia.
      * fold em'. clear - F5 Hem. lia.
      * apply busok_newq; [exact Bd2|]. unfold zlen. rewrite map_length, seq_length. pose proof (bus_q _ _ F10) as Hq. unfold qlen, zlen in Hq. fold len in Hq. clear - Hq. lia.
      * replace (cyc + 2) with (cyc + 1 + 1) by lia. apply bus_push_ok. exact Bc1.
    + eexists. unfold m3. cbn [y_x]. reflexivity.
    + rewrite P1, P2, P3, P4, P5. clear - G2 Hj Hemj. lia.
    + rewrite P1, P2, P3, P4, P5.
      destruct (Nat.eq_dec j 0) as [Ej|Ej]; [|left; clear - G2 Hj Hemj Ej; lia].
      assert (Hlen00 : len = O) by (clear - Hj0 Ej; lia).
      assert (Hq0 : bb_q (m_dbus b) = []) by (unfold len in Hlen00; destruct (bb_q (m_dbus b)); [reflexivity | discriminate]).
      destruct (f_co (m_fu b)) eqn:Eco.
      * destruct (bb_canadd (m_dbus b)) eqn:Eadd; [left; specialize (G3 (or_intror (conj eq_refl eq_refl))); clear - G3 Hj Hemj; lia|].
        right. split; [right; auto | right; right; exact Hq0].
      * left. specialize (G3 (or_introl eq_refl)). clear - G3 Hj Hemj. lia.
      * right. split; [left; split; [reflexivity | destruct (Hfco eq_refl) as (A & B & _); auto] | right; right; exact Hq0].
  Qed.
  Notation CUI := (CUI app labels regs0 mem0 base sq).

  (* controlUnit.cycle *)
  Lemma cu_ok1 pord d c f cy m : FrontI1 d c f cy m -> CoreI d (x_cu (y_x m)) m ->
    (forall p, In p (x_prev (y_x m)) -> In p (EB m) /\ r_fw p = None) ->
    exists lp, let m4 := snd (cu_cycle1 pord cy m) in
      FrontI1 (d + lp) c f cy m4 /\ CoreI (d + lp) (x_cu (y_x m4)) m4 /\ PrevB m4 /\
      (lp <= 2)%nat /\ Z.of_nat lp <= 2 - blen (x_ebus (y_x m)) /\
      m_fu (y_m m4) = m_fu (y_m m) /\ m_l1i (y_m m4) = m_l1i (y_m m) /\ m_dbus (y_m m4) = m_dbus (y_m m) /\ m_wbus (y_m m4) = m_wbus (y_m m) /\
      m_bu (y_m m4) = m_bu (y_m m) /\ m_dret (y_m m4) = m_dret (y_m m) /\ m_dpbr (y_m m4) = m_dpbr (y_m m) /\
      bb_buf (x_cbus (y_x m4)) = bb_buf (x_cbus (y_x m)) /\
      qlen (x_ebus (y_x m4)) = qlen (x_ebus (y_x m)) /\ blen (x_ebus (y_x m4)) = blen (x_ebus (y_x m)) + Z.of_nat lp /\
      map r_b (EB m4) = map r_b (EB m) ++ map rnq (seq d lp) /\ WB m4 = WB m /\
      6 * zlen (x_cu (y_x m4)) + 7 * qlen (x_cbus (y_x m4)) + 5 * blen (x_ebus (y_x m4))
        <= 6 * zlen (x_cu (y_x m)) + 7 * qlen (x_cbus (y_x m)) + 5 * blen (x_ebus (y_x m)) /\
      (FL1 m = [] ->
       6 * zlen (x_cu (y_x m4)) + 7 * qlen (x_cbus (y_x m4)) + 5 * blen (x_ebus (y_x m4))
         < 6 * zlen (x_cu (y_x m)) + 7 * qlen (x_cbus (y_x m)) + 5 * blen (x_ebus (y_x m)) \/
       (x_cu (y_x m) = [] /\ bb_q (x_cbus (y_x m)) = [])).
  Proof.
    intros HF HC HPF. pose proof HF as [F1 Fc F2 F3 Fb F4 F5 F6 F7 F8 F9 Fbt F10 F11 F12 F13 F14 F15 F16].
    destruct (front1_dN _ _ _ _ _ HF) as (HdN & Hdn & HcN).
    (* the state at the start of the loops *)
    assert (HG0 : CUI cy m d 0 [] false (x_cu (y_x m)) m).
    { constructor; rewrite ?Nat.add_0_r; auto.
      - apply CuFrame_refl.
      - change (Z.of_nat 0) with 0. lia.
      - cbn [seq map]. rewrite app_nil_r. reflexivity.
      - intros p Hp. destruct (HPF p Hp) as [A _]. pose proof (c_idlt _ _ _ _ _ _ _ _ _ HC) as Hid. rewrite Forall_forall in Hid. apply Hid. exact A.
      - lia. }
    destruct (seq_split r1q (bb_q (x_cbus (y_x m))) (map snd (bb_buf (x_cbus (y_x m)))) _ _ F4) as (Q1 & Q2 & Q3).
    rewrite map_length in Q2, Q3.
    set (lc := length (x_cu (y_x m))) in *. set (lq := length (bb_q (x_cbus (y_x m)))) in *. set (lb := length (bb_buf (x_cbus (y_x m)))) in *.
    (* however the cycle ends - execute bus full, stopped in the pending queue, or after the control bus -
       it has pushed lp runners and left pend in the pending queue, q' in the queue of the control bus *)
    assert (Hshape : exists lp cur st pend m' q',
              snd (cu_cycle1 pord cy m)
              = set_x m' (xs_prev (xs_cu (xs_cbus (y_x m') (mk_bb (bb_buf (x_cbus (y_x m))) q' (bb_ql (x_cbus (y_x m))) (bb_bl (x_cbus (y_x m))))) pend) cur) /\
              CUI cy m d lp cur st pend m' /\ (length pend <= 1)%nat /\
              (lp + length pend + length q' = lc + lq)%nat /\ q' = map r1q (seq (d + lp + length pend) (length q')) /\
              (length q' <= lq)%nat /\
              (FL1 m = [] -> (0 < lp)%nat \/ (x_cu (y_x m) = [] /\ bb_q (x_cbus (y_x m)) = []))).
    { assert (Hsame : forall m1 pend cur, x_cbus (y_x m1) = x_cbus (y_x m) ->
                set_x m1 (xs_prev (xs_cu (y_x m1) pend) cur)
                = set_x m1 (xs_prev (xs_cu (xs_cbus (y_x m1) (mk_bb (bb_buf (x_cbus (y_x m))) (bb_q (x_cbus (y_x m))) (bb_ql (x_cbus (y_x m))) (bb_bl (x_cbus (y_x m))))) pend) cur)).
      { intros m1 pend cur Ecb. f_equal. f_equal. f_equal. rewrite <- Ecb. destruct (y_x m1) as [a1 a2 a3 a4 a5 cb a7 a8 a9 a10]. destruct cb. reflexivity. }
      unfold cu_cycle1. destruct (bb_canadd (x_ebus (y_x m))) eqn:Eadd; cbn [negb].
      2:{ exists O, [], false, (x_cu (y_x m)), m, (bb_q (x_cbus (y_x m))). cbn [snd]. rewrite <- Hsame by reflexivity.
          split; [destruct m as [bm xm]; destruct xm; reflexivity|]. split; [exact HG0|]. split; [exact F6|].
          split; [reflexivity|]. split; [rewrite Q1 at 1; f_equal; f_equal; lia|]. split; [apply le_n|].
          intros HFL. exfalso. destruct ((IA EB_nil_empty) m HFL) as [_ HE]. unfold EB, flat in HE. apply app_eq_nil in HE as [_ HE].
          apply map_eq_nil in HE. unfold bb_canadd in Eadd. apply negb_false_iff, Z.eqb_eq in Eadd. rewrite (bus_bl _ _ F12), HE in Eadd. discriminate. }
      destruct (cu_pending_ok app labels regs0 mem0 base sq Happ Hreg Hrng Hlen32 Hbase Hsq Hsem pord cy m d (x_cu (y_x m)) HG0 F6 ltac:(fold lc; lia) ltac:(fold lc; fold N; lia) Fb)
        as (os1 & stopped & pend1 & pb1 & sk1 & cur1 & m1 & lp1 & st1 & E1 & G1 & S1 & Hns & Hpb1 & Hfree1).
      rewrite E1. fold lc in S1. pose proof (cf_xcbus _ _ (cu_frame _ _ _ _ _ _ _ _ _ _ _ _ _ _ G1)) as Ecb. destruct stopped.
      - (* stopped inside the pending queue *)
        cbn [snd]. exists lp1, cur1, st1, pend1, m1, (bb_q (x_cbus (y_x m))).
        split; [apply Hsame; exact Ecb|]. split; [exact G1|]. split; [lia|]. split; [fold lq; lia|].
        split; [rewrite Q1 at 1; f_equal; f_equal; lia|]. split; [apply le_n|].
        intros HFL. destruct (x_cu (y_x m)) as [|r0 t0] eqn:Ecu; [|left; apply Hfree1; [exact HFL | discriminate]].
        (* an empty pending queue does not stop the loop *)
        exfalso. cbn [cu_pending1] in E1. discriminate E1.
      - destruct (Hns eq_refl) as (-> & -> & ->). cbn [length] in S1. rewrite Ecb.
        destruct (cu_incoming_ok app labels regs0 mem0 base sq Happ Hreg Hrng Hlen32 Hbase Hsq Hsem pord cy m d (bb_q (x_cbus (y_x m))) lp1 cur1 m1 pb1 G1
                    ltac:(rewrite Q1 at 1; f_equal; f_equal; lia) ltac:(fold lq; lia) ltac:(fold lq; fold N; lia) Fb Hpb1)
          as (os2 & q' & pend2 & cur2 & m2 & lp2 & st2 & E2 & G2 & A1 & A2 & A3 & A4 & Hfree2).
        rewrite E2. cbn [snd]. rewrite (cf_xcbus _ _ (cu_frame _ _ _ _ _ _ _ _ _ _ _ _ _ _ G2)).
        exists lp2, cur2, st2, pend2, m2, q'. fold lq in A3.
        split; [reflexivity|]. split; [exact G2|]. split; [exact A2|]. split; [lia|]. split; [exact A4|]. split; [lia|].
        intros HFL. destruct (x_cu (y_x m)) as [|r0 t0] eqn:Ecu.
        + destruct (bb_q (x_cbus (y_x m))) as [|r1 t1] eqn:Eq; [right; auto|]. left.
          assert (HFL1 : FL1 m1 = []).
          { (* nothing was pushed from an empty pending queue *)
            cbn [cu_pending1] in E1. injection E1 as _ _ _ <-. exact HFL. }
          specialize (Hfree2 HFL1 ltac:(discriminate)). lia.
        + left. specialize (Hfree1 HFL ltac:(discriminate)). lia. }
    destruct Hshape as (lp & cur & st & pend & m' & q' & Em4 & [G1 G2 G3 G4 G5 G6 G7 G8 G9 G10 G11] & Hpl & Hsum & Hq' & Hq'l & Hstrict).
    exists lp. cbv zeta. rewrite Em4.
    set (m4 := set_x m' _). destruct G2.
    assert (X1 : x_cu (y_x m4) = pend) by reflexivity.
    assert (X2 : x_ebus (y_x m4) = x_ebus (y_x m')) by reflexivity.
    assert (X3 : flat (x_cbus (y_x m4)) = q' ++ map snd (bb_buf (x_cbus (y_x m)))) by reflexivity.
    assert (X4 : EB m4 = EB m') by reflexivity.
    assert (Hlp : (lp <= 2)%nat) by (pose proof (blen_ge0 (x_ebus (y_x m))); lia).
    pose proof (blen_ge0 (x_ebus (y_x m))) as Hbge.
    split; [|split; [|split; [|split; [exact Hlp|split; [lia|]]]]].
    - constructor; rewrite ?X1, ?X2; unfold m4; cbn [set_x y_m y_x xs_prev xs_cu xs_cbus x_cbus x_seq];
        rewrite ?cf_fu, ?cf_l1i, ?cf_dbus, ?cf_dret, ?cf_dpbr, ?cf_bu, ?cf_wbus, ?cf_cu, ?cf_cbus, ?cf_ebus, ?cf_seq; auto.
      + lia.
      + unfold flat. cbn [bb_q bb_buf]. rewrite Hq', Q2. fold lc.
        replace (d + lc + lq)%nat with (d + lp + length pend + length q')%nat by lia. rewrite seq_join. f_equal. f_equal. lia.
      + lia.
      + apply busok_newq; [exact F11|]. pose proof (bus_q _ _ F11) as Hx. unfold qlen, zlen in *. fold lq in Hx. lia.
    - rewrite X1. eapply (IA CoreI_ext); [| | | | | | | | | | | | |exact G1]; reflexivity.
    - unfold PrevB. change (x_prev (y_x m4)) with cur. change (x_ebus (y_x m4)) with (x_ebus (y_x m')). eapply Forall_impl; [|exact G10]. cbn beta. intros o (A & B & _). auto.
    - change (y_m m4) with (y_m m'). rewrite cf_fu, cf_l1i, cf_dbus, cf_wbus, cf_bu, cf_dret, cf_dpbr.
      repeat (split; [reflexivity|]). rewrite X2, X4. split; [exact G3|]. split; [exact G4|]. split; [exact G5|].
      split; [unfold WB; change (y_m m4) with (y_m m'); rewrite cf_wbus; reflexivity|].
      assert (Y1 : zlen (x_cu (y_x m4)) = Z.of_nat (length pend)) by (rewrite X1; reflexivity).
      assert (Y2 : qlen (x_cbus (y_x m4)) = Z.of_nat (length q')) by reflexivity.
      assert (Y3 : zlen (x_cu (y_x m)) = Z.of_nat lc) by reflexivity.
      assert (Y4 : qlen (x_cbus (y_x m)) = Z.of_nat lq) by reflexivity.
      rewrite Y1, Y2, Y3, Y4, G4. split; [lia|]. intros HFL. destruct (Hstrict HFL) as [Hpos|Hemp]; [left; lia | right; exact Hemp].
  Qed.
End Step1.
