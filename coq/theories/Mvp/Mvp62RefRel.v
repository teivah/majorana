(* Refinement of MVP-6.2 (Mvp62.v = MVP-6.1 + speculative register state: transaction map, commit on a
   not-taken conditional branch, rollback on a taken one) to the sequential machine on REGISTER-ONLY
   programs: the simulation relation between a state of Mvp62.v and a state of Mvp61.v.

   proc/mvp6-2 is proc/mvp6-1 plus the transaction map; Mvp62.v and Mvp61.v use different records and name
   channels and pointers differently.  The proof of MVP-6.1 (Mvp61Ref*.v) is not redone: the run of
   Mvp62.v is shown to follow the run of Mvp61.v tick by tick
   (same mode, same cycle counter, same buses, scoreboards, fetch / decode / branch units), where
     - the register file of MVP-6.1 is the VIEW of the context of MVP-6.2: Transaction entry if there
       is one, Registers otherwise (Vw);
     - a channel of Mvp61.v (numbered by x_nch) is the channel of Mvp62.v named by the identity of its
       sender: sg : channel -> identity, strictly increasing on the channels made so far (SgOK);
     - pointer identities differ by one (n_nid starts at 1, x_nid at 0).
   The invariant on the transaction map that makes Rollback harmless: every entry carries a sequence id
   BELOW the sequence id of every instruction that is still to execute (TxB); so a rollback keeps every
   entry (it commits them) and the view does not change.  Wrong-path results never reach the map: the
   write units drop them by their sequence ids exactly as in MVP-6.1. *)
From Coq Require Import ZArith List Bool Lia.
From Maj Require Import Base.Outcome Base.GoInt Base.GoTypes Isa.Spec Isa.Embed Isa.Seq Isa.Refine.
From Maj Require Import Gen.Latency Gen.RiscTables Gen.Opcodes Comp.Cache Comp.Rat Comp.RatProofs Comp.Tx Comp.TxProofs.
From Maj Require Import Mvp.Mvp12 Mvp.Mvp12Proofs Mvp.Mvp3 Mvp.Mvp3Proofs Mvp.Mvp4Skel Mvp.Mvp4Inv Mvp.Mvp4Sim Mvp.Mvp5 Mvp.Mvp60 Mvp.Mvp60RefSem Mvp.Mvp60RefDefs Mvp.Mvp61 Mvp.Mvp62.
Import ListNotations.
Open Scope Z_scope.

Definition view (c : Tx.ctx) (r : Z) : Z :=
  match aget r (Tx.trans c) with Some u => snd u | None => Tx.reg_get c r end.

Set Implicit Arguments.
Record Vw (c : Tx.ctx) (rg : list Z) : Prop := mkVw {
  vw_rd : forall r, view c r = rget rg r;
  vw_0 : nth 0 rg 0 = 0;
  vw_len : length rg = 32%nat;
  vw_rat : Tx.ratflag c = false }.
Unset Implicit Arguments.

(* every entry of the transaction map is older than b *)
Definition TxB (c : Tx.ctx) (b : Z) : Prop := forall r u, aget r (Tx.trans c) = Some u -> fst u < b.

Lemma TxB_mono c b b' : b <= b' -> TxB c b -> TxB c b'.
Proof. intros H HT r u E. specialize (HT r u E). lia. Qed.

Lemma register_read_view c f rg r : Vw c rg -> Tx.register_read c f r 0 = rr1 f rg r.
Proof.
  intros [H1 H2 H3 H4]. unfold Tx.register_read, rr1. rewrite H4. destruct (r =? fst f); [reflexivity|].
  rewrite <- H1. unfold view. destruct (aget r (Tx.trans c)); reflexivity.
Qed.

Lemma view_commit c r : view (Tx.commit [] c) r = view c r.
Proof.
  unfold view. cbn [Tx.trans Tx.commit aget]. unfold Tx.reg_get. rewrite (commit_regs [] c r).
  destruct (aget r (Tx.trans c)); reflexivity.
Qed.

Lemma view_rollback c s r : TxB c s -> view (Tx.rollback [] s c) r = view c r.
Proof.
  intros HT. unfold view. cbn [Tx.trans Tx.rollback aget]. unfold Tx.reg_get. rewrite (rollback_regs [] s c r).
  destruct (aget r (Tx.trans c)) as [u|] eqn:E; [|reflexivity].
  specialize (HT r u E). destruct (Z.ltb_spec (fst u) s); [reflexivity | lia].
Qed.

Lemma Vw_commit c rg : Vw c rg -> Vw (Tx.commit [] c) rg.
Proof. intros [H1 H2 H3 H4]. constructor; auto. intros r. rewrite view_commit. apply H1. Qed.

Lemma Vw_rollback c rg s : TxB c s -> Vw c rg -> Vw (Tx.rollback [] s c) rg.
Proof. intros HT [H1 H2 H3 H4]. constructor; auto. intros r. rewrite (view_rollback c s r HT). apply H1. Qed.

Lemma TxB_commit c b : TxB (Tx.commit [] c) b.
Proof. intros r u E. cbn in E. discriminate. Qed.
Lemma TxB_rollback c s b : TxB (Tx.rollback [] s c) b.
Proof. intros r u E. cbn in E. discriminate. Qed.

Lemma view_tx_write c r v s r' : view (Tx.tx_write c r v s) r' = if r' =? r then v else view c r'.
Proof.
  unfold view, Tx.tx_write, Tx.reg_get. cbn [Tx.trans Tx.regs]. rewrite aget_aset.
  destruct (r' =? r); reflexivity.
Qed.

Lemma rget_rset rg r v r' : 0 <= r < Z.of_nat (length rg) -> (r = 0 -> v = 0) -> nth 0 rg 0 = 0 ->
  rget (rset rg r v) r' = if r' =? r then v else rget rg r'.
Proof.
  intros Hr H0 Hz. unfold rget, rset. destruct (Z.eqb_spec r 0) as [->|Hnz].
  - destruct (Z.eqb_spec r' 0) as [->|Hne]; [symmetry; apply H0; reflexivity | reflexivity].
  - destruct (Z.eqb_spec r' r) as [->|Hne].
    + destruct (Z.eqb_spec r 0); [contradiction|]. apply supd_nth_eq. lia.
    + destruct (Z.eqb_spec r' 0) as [->|Hne0]; [reflexivity|].
      destruct (Z_lt_le_dec r' 0) as [Hneg|Hpos].
      * replace (Z.to_nat r') with 0%nat by lia. rewrite supd_nth_neq by lia. reflexivity.
      * apply supd_nth_neq. lia.
Qed.

Lemma Vw_write c rg r v s : Vw c rg -> 0 <= r < 32 -> (r = 0 -> v = 0) -> Vw (Tx.tx_write c r v s) (rset rg r v).
Proof.
  intros [H1 H2 H3 H4] Hr H0. constructor.
  - intros r'. rewrite view_tx_write, rget_rset; [|rewrite H3; exact Hr | exact H0 | exact H2].
    destruct (r' =? r); [reflexivity | apply H1].
  - unfold rset. destruct (Z.eqb_spec r 0); [exact H2|]. rewrite supd_nth_neq by lia. exact H2.
  - rewrite rset_length. exact H3.
  - exact H4.
Qed.

Lemma TxB_write c r v s b : TxB c b -> s < b -> TxB (Tx.tx_write c r v s) b.
Proof.
  intros HT Hs r' u E. unfold Tx.tx_write in E. cbn [Tx.trans] in E. rewrite aget_aset in E.
  destruct (r' =? r); [injection E as <-; exact Hs | exact (HT r' u E)].
Qed.

(* ctx.Registers after the final Commit *)
Lemma regs_of_commit c rg : Vw c rg -> regs_of (Tx.commit [] c) = rg.
Proof.
  intros [H1 H2 H3 H4]. unfold regs_of. apply (nth_ext _ _ 0 0).
  - rewrite map_length, seq_length. symmetry. exact H3.
  - intros i Hi. rewrite map_length, seq_length in Hi.
    set (f := fun i0 : nat => Tx.reg_get (Tx.commit [] c) (Z.of_nat i0)).
    rewrite (nth_indep _ 0 (f 0%nat)) by (rewrite map_length, seq_length; exact Hi).
    rewrite (map_nth f), seq_nth by exact Hi. cbn [Nat.add]. unfold f.
    assert (E : Tx.reg_get (Tx.commit [] c) (Z.of_nat i) = view (Tx.commit [] c) (Z.of_nat i)) by (unfold view; reflexivity).
    rewrite E, view_commit, H1. unfold rget. destruct (Z.eqb_spec (Z.of_nat i) 0) as [E0|E0].
    + assert (i = 0%nat) by lia. subst i. symmetry. exact H2.
    + rewrite Nat2Z.id. reflexivity.
Qed.

Section Rel.
  Variable nap : nat.         (* length of the text *)
  Variable sg : Z -> Z.       (* channel of Mvp61.v -> identity of its sender in Mvp62.v *)

  Set Implicit Arguments.

  (* what does not depend on the pointer identity *)
  Record RC (nch : Z) (r2 : runner2) (r1 : runner1) : Prop := mkRC {
    rc_i : q_instr r2 = r_instr (r_b r1);
    rc_pc : q_pc r2 = r_pc (r_b r1);
    rc_sq : q_seq r2 = r_seq (r_b r1);
    rc_fr : q_freg r2 = r_freg r1;
    rc_rc : match r_rc r1 with None => q_recv r2 = None | Some c => q_recv r2 = Some (sg c) /\ c < nch end;
    rc_rng : (iidx (q_pc r2) < nap)%nat;
    rc_nm : nomem (q_instr r2) = true }.

  (* a runner that has not been pushed: no Forwarder *)
  Definition RRu (nch : Z) (r2 : runner2) (r1 : runner1) : Prop :=
    RC nch r2 r1 /\ r_fw r1 = None /\ q_fwd r2 = false.
  (* an object on the execute bus *)
  Definition RRp (nch : Z) (r2 : runner2) (r1 : runner1) : Prop :=
    RC nch r2 r1 /\ q_id r2 = r_id r1 + 1 /\
    match r_fw r1 with None => q_fwd r2 = false | Some c => q_fwd r2 = true /\ c < nch /\ sg c = q_id r2 end.

  Definition RBus {A B} (P : A -> B -> Prop) (b2 : bbus A) (b1 : bbus B) : Prop :=
    Forall2 (fun x y => fst x = fst y /\ P (snd x) (snd y)) (bb_buf b2) (bb_buf b1) /\
    Forall2 P (bb_q b2) (bb_q b1) /\ bb_ql b2 = bb_ql b1 /\ bb_bl b2 = bb_bl b1.

  (* the channels made so far: strictly increasing sender identities, all pushed *)
  Record SgOK (nch nid : Z) : Prop := mkSg {
    sg_mono : forall c c', c < c' -> c' < nch -> sg c < sg c';
    sg_lt : forall c, c < nch -> sg c < nid }.

  (* clean: the Forward tables are known to be empty; they are, except inside an execute unit between the
     Receiver and the end of run *)
  Record RMg (clean : bool) (m2 : mach2) (m1 : mach1) : Prop := mkRM {
    rm_vw : Vw (n_ctx m2) (m_regs (y_m m1));
    rm_mem : n_mem m2 = m_mem (y_m m1);
    rm_pw : n_pw m2 = m_pw (y_m m1);
    rm_pr : n_pr m2 = m_pr (y_m m1);
    rm_l1i : n_l1i m2 = m_l1i (y_m m1);
    rm_l3 : n_l3 m2 = m_l3 (y_m m1);
    rm_pend : n_pend m2 = m_pend (y_m m1);
    rm_fu : n_fu m2 = m_fu (y_m m1);
    rm_dret : n_dret m2 = m_dret (y_m m1);
    rm_dpbr : n_dpbr m2 = m_dpbr (y_m m1);
    rm_bu : n_bu m2 = m_bu (y_m m1);
    rm_dbus : n_dbus m2 = m_dbus (y_m m1);
    rm_wbus : n_wbus m2 = m_wbus (y_m m1);
    rm_cu : Forall2 (RRu (x_nch (y_x m1))) (n_cu m2) (x_cu (y_x m1));
    rm_prev : Forall2 (RRp (x_nch (y_x m1))) (n_prev m2) (x_prev (y_x m1));
    rm_pcb : n_pcb m2 = x_pcb (y_x m1);
    rm_cbus : RBus (RRu (x_nch (y_x m1))) (n_cbus m2) (x_cbus (y_x m1));
    rm_ebus : RBus (RRp (x_nch (y_x m1))) (n_ebus m2) (x_ebus (y_x m1));
    rm_seq : n_seq m2 = Mvp61.x_seq (y_x m1);
    rm_nid : n_nid m2 = x_nid (y_x m1) + 1;
    rm_chan : n_chan m2 = map (fun cv => (sg (fst cv), snd cv)) (x_ch (y_x m1));
    rm_chlt : Forall (fun cv => fst cv < x_nch (y_x m1)) (x_ch (y_x m1));
    rm_fwd : clean = true -> x_fwd (y_x m1) = repeat no_fwd nap;
    rm_fw : clean = true -> forall idx, fw_get m2 idx = (0, 0);
    rm_sg : SgOK (x_nch (y_x m1)) (n_nid m2) }.
  Definition RM := RMg true.
  Definition RMc := RMg false.

  (* the runners pushed in the previous cycle are younger than every sender so far *)
  Definition PrevOK (m2 : mach2) (nch : Z) : Prop :=
    forall p, In p (n_prev m2) -> q_id p < n_nid m2 /\ forall c, c < nch -> sg c < q_id p.

  (* an idle execute unit (the runner it still holds only matters through its sequence id) *)
  Record REi (e2 : eu62) (e1 : eu1) : Prop := mkREi {
    re_co2 : x_co e2 = ENone;
    re_co1 : e_co (u_e e1) = ENone;
    re_mem : x_memory e2 = e_memory (u_e e1);
    re_seq : Mvp62.x_seq e2 = u_sid e1;
    re_run : option_map q_seq (x_runner e2) = option_map r_seq (e_runner (u_e e1)) }.

  Unset Implicit Arguments.
End Rel.

Ltac s2 := cbn [n_ctx n_mem n_pw n_pr n_l1i n_l3 n_pend n_fu n_dret n_dpbr n_cu n_prev n_pcb n_bu n_dbus n_cbus n_ebus n_wbus n_seq n_nid n_chan n_fw
  set_n_ctx set_n_mem set_n_pw set_n_pr set_n_l1i set_n_l3 set_n_pend set_n_fu set_n_dret set_n_dpbr set_n_cu set_n_prev set_n_pcb set_n_bu
  set_n_dbus set_n_cbus set_n_ebus set_n_wbus set_n_seq set_n_nid set_n_chan set_n_fw add_pending62 del_pending62 fw_set fu_reset62 fu_flush62] in *.
Ltac s1 := cbn [y_m y_x set_m set_x xs_seq xs_fwd xs_cu xs_prev xs_pcb xs_cbus xs_ebus xs_ch xs_nch xs_nid
  Mvp61.x_seq x_fwd x_cu x_prev x_pcb x_cbus x_ebus x_ch x_nch x_nid inc_seq set_fwd
  m_regs m_mem m_pw m_pr m_l1i m_l3 m_pend m_fu m_dret m_dpbr m_cu m_bu m_dbus m_cbus m_ebus m_wbus
  set_regs set_mem set_sb set_l1i set_l3 set_fu set_du set_cu set_bu set_dbus set_cbus set_ebus set_wbus add_pending6 del_pending6] in *.
Ltac ss := s1; s2.

(* Machines obtained from a related pair by setters: once the projections of the setters are computed, every
   clause about a field the setters leave alone is the old clause.  [rm_frame H], H the relation before,
   leaves the clauses the update has touched.  (The clauses of H enter the context under the names of the
   projections, which hides these: take what is needed of H by projection first.) *)
Ltac rm_frame H := destruct H; constructor; ss; auto.

Lemma RM_RMc nap sg m2 m1 : RM nap sg m2 m1 -> RMc nap sg m2 m1.
Proof. intros H. destruct H. constructor; auto; discriminate. Qed.

(* a newer channel does not disturb the relations *)
Lemma RC_ext nap sg sg' nch nch' r2 r1 : (forall c, c < nch -> sg' c = sg c) -> nch <= nch' ->
  RC nap sg nch r2 r1 -> RC nap sg' nch' r2 r1.
Proof.
  intros He Hn [H1 H2 H3 H4 H5 H6 H7]. constructor; auto.
  destruct (r_rc r1) as [c|]; [|exact H5]. destruct H5 as [A B]. rewrite (He c B). split; [exact A | lia].
Qed.

Lemma RRu_ext nap sg sg' nch nch' r2 r1 : (forall c, c < nch -> sg' c = sg c) -> nch <= nch' ->
  RRu nap sg nch r2 r1 -> RRu nap sg' nch' r2 r1.
Proof. intros He Hn (A & B & C). split; [eapply RC_ext; eassumption | auto]. Qed.

Lemma RRp_ext nap sg sg' nch nch' r2 r1 : (forall c, c < nch -> sg' c = sg c) -> nch <= nch' ->
  RRp nap sg nch r2 r1 -> RRp nap sg' nch' r2 r1.
Proof.
  intros He Hn (A & B & C). split; [eapply RC_ext; eassumption|]. split; [exact B|].
  destruct (r_fw r1) as [c|]; [|exact C]. destruct C as (C1 & C2 & C3). rewrite (He c C2). repeat split; auto; lia.
Qed.

Lemma Forall2_impl {A B} (P Q : A -> B -> Prop) l1 l2 : (forall a b, P a b -> Q a b) -> Forall2 P l1 l2 -> Forall2 Q l1 l2.
Proof. intros H. induction 1; constructor; auto. Qed.

Lemma F2_length {A B} (P : A -> B -> Prop) l2 l1 : Forall2 P l2 l1 -> length l2 = length l1.
Proof. induction 1; cbn; congruence. Qed.

Lemma F2_len {A B} (P : A -> B -> Prop) l2 l1 : Forall2 P l2 l1 -> zlen l2 = zlen l1.
Proof. intros H. unfold zlen. rewrite (F2_length _ _ _ H). reflexivity. Qed.

Lemma RBus_impl {A B} (P Q : A -> B -> Prop) b2 b1 : (forall a b, P a b -> Q a b) -> RBus P b2 b1 -> RBus Q b2 b1.
Proof.
  intros H (H1 & H2 & H3 & H4). split; [|split; [|split]]; auto.
  - eapply Forall2_impl; [|exact H1]. cbv beta. intros a b [E Hp]. split; auto.
  - eapply Forall2_impl; eassumption.
Qed.

Section Bus.
  Context {A B : Type} (P : A -> B -> Prop).

  Lemma RBus_canadd b2 b1 : RBus P b2 b1 -> bb_canadd b2 = bb_canadd b1.
  Proof. intros (H1 & H2 & H3 & H4). unfold bb_canadd. rewrite (F2_len _ _ _ H1), H4. reflexivity. Qed.

  Lemma RBus_isempty b2 b1 : RBus P b2 b1 -> bb_isempty b2 = bb_isempty b1.
  Proof. intros (H1 & H2 & H3 & H4). unfold bb_isempty. rewrite (F2_len _ _ _ H1), (F2_len _ _ _ H2). reflexivity. Qed.

  Lemma RBus_add b2 b1 x y c : RBus P b2 b1 -> P x y -> RBus P (bb_add b2 x c) (bb_add b1 y c).
  Proof.
    intros (H1 & H2 & H3 & H4) Hp. unfold bb_add. split; [|split; [|split]]; cbn [bb_buf bb_q bb_ql bb_bl]; auto.
    apply Forall2_app; [exact H1|]. constructor; [|constructor]. split; [reflexivity | exact Hp].
  Qed.

  Lemma RBus_clean b2 b1 : RBus P b2 b1 -> RBus P (bb_clean b2) (bb_clean b1).
  Proof. intros (H1 & H2 & H3 & H4). unfold bb_clean. split; [|split; [|split]]; cbn [bb_buf bb_q bb_ql bb_bl]; auto. Qed.

  Lemma RBus_get b2 b1 : RBus P b2 b1 ->
    match bb_get b1 with
    | (b1', None) => bb_get b2 = (b2, None) /\ b1' = b1
    | (b1', Some y) => exists b2' x, bb_get b2 = (b2', Some x) /\ P x y /\ RBus P b2' b1'
    end.
  Proof.
    intros (H1 & H2 & H3 & H4). unfold bb_get. destruct H2 as [|x y q2 q1 Hp Hq].
    - split; reflexivity.
    - eexists _, x. split; [reflexivity|]. split; [exact Hp|].
      split; [|split; [|split]]; cbn [bb_buf bb_q bb_ql bb_bl]; auto.
  Qed.

  Lemma connect_loop_rel ql c : forall buf2 buf1 q2 q1,
    Forall2 (fun x y => fst x = fst y /\ P (snd x) (snd y)) buf2 buf1 -> Forall2 P q2 q1 ->
    Forall2 P (fst (bb_connect_loop ql c q2 buf2)) (fst (bb_connect_loop ql c q1 buf1)) /\
    Forall2 (fun x y => fst x = fst y /\ P (snd x) (snd y)) (snd (bb_connect_loop ql c q2 buf2)) (snd (bb_connect_loop ql c q1 buf1)).
  Proof.
    induction buf2 as [|[a x] buf2 IH]; intros buf1 q2 q1 Hb Hq; inversion Hb as [|? [a' y] ? buf1' [Ea Hp] Hb']; subst.
    - cbn. split; [exact Hq | constructor].
    - cbn [fst snd] in Ea, Hp. subst a'. cbn [bb_connect_loop]. rewrite (F2_len _ _ _ Hq).
      destruct (zlen q1 =? ql); [cbn [fst snd]; split; [exact Hq | exact Hb]|].
      destruct (a >? c); [cbn [fst snd]; split; [exact Hq | exact Hb]|].
      apply IH; [exact Hb'|]. apply Forall2_app; [exact Hq | constructor; [exact Hp | constructor]].
  Qed.

  Lemma RBus_connect b2 b1 c : RBus P b2 b1 -> RBus P (bb_connect b2 c) (bb_connect b1 c).
  Proof.
    intros (H1 & H2 & H3 & H4). unfold bb_connect. rewrite (F2_len _ _ _ H2), H3.
    destruct (zlen (bb_q b1) =? bb_ql b1); [split; [|split; [|split]]; auto|].
    destruct (connect_loop_rel (bb_ql b1) c _ _ _ _ H1 H2) as [Aq Bq].
    destruct (bb_connect_loop (bb_ql b1) c (bb_q b2) (bb_buf b2)) as [q2' buf2'].
    destruct (bb_connect_loop (bb_ql b1) c (bb_q b1) (bb_buf b1)) as [q1' buf1'].
    cbn [fst snd] in Aq, Bq. split; [|split; [|split]]; cbn [bb_buf bb_q bb_ql bb_bl]; auto.
  Qed.
End Bus.

(* instr_Run / MemoryRead only look at the register-read function pointwise *)
Lemma instr_Run_ext i f g labels pc mem sq : (forall r, f r = g r) -> instr_Run i f labels pc mem sq = instr_Run i g labels pc mem sq.
Proof.
  intros H. destruct i; cbv beta iota zeta delta [instr_Run]; autounfold with opcodes; cbv beta zeta; rewrite ?H; reflexivity.
Qed.

Lemma instr_MemoryRead_ext i f g sq : (forall r, f r = g r) -> instr_MemoryRead i f sq = instr_MemoryRead i g sq.
Proof. intros H. rewrite !memory_read_exact. destruct (sinstr_of i); cbn [load_addrs]; rewrite ?H; reflexivity. Qed.

(* a register-only instruction changes no memory *)
Lemma nomem_nochange i rr labels pc mem sq exe : nomem i = true -> instr_Run i rr labels pc mem sq = Ok exe -> MemoryChange exe = false.
Proof.
  intros Hn E. destruct i; try discriminate Hn; cbv beta iota zeta delta [instr_Run] in E; autounfold with opcodes in E; cbv beta zeta in E;
    repeat match type of E with
           | context [IsRegisterChange ?a ?b] => destruct (IsRegisterChange a b)
           | context [if ?c then _ else _] => destruct c
           | context [match ?x with _ => _ end] => destruct x
           end; try discriminate E; injection E as <-; reflexivity.
Qed.
