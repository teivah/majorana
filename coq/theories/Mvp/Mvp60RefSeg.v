(* Refinement of MVP-6.0 to the sequential machine: one straight-line segment
   of a run.  From a state of the main loop, of the drain loop after ret or of the
   write-back loop before a flush, the machine either ends the run with the registers of
   the fall-through run, or reaches - after a flush requested by a jump or a taken branch
   E with target t - a fresh state at t whose registers are those after E.  The sequential
   machine does the same. *)
From Coq Require Import ZArith List Bool Lia Permutation.
From Maj Require Import Base.Outcome Base.GoInt Base.GoTypes Isa.Spec Isa.Embed Isa.Seq Isa.Refine.
From Maj Require Import Gen.Latency Gen.RiscTables Gen.Opcodes Comp.Cache.
From Maj Require Import Mvp.Mvp12 Mvp.Mvp12Proofs Mvp.Mvp3 Mvp.Mvp3Proofs Mvp.Mvp4Skel Mvp.Mvp4Inv Mvp.Mvp4Sim Mvp.Mvp5 Mvp.Mvp60
     Mvp.Mvp60RefSem Mvp.Mvp60RefDefs Mvp.Mvp60RefFront Mvp.Mvp60RefBack Mvp.Mvp60RefStep Mvp.Mvp60RefStep2.
Import ListNotations.
Open Scope Z_scope.

Lemma run6_S app labels ord s s' fuel : step6 app labels ord s = SCont s' ->
  run6_st (S fuel) app labels ord s = run6_st fuel app labels ord s'.
Proof. intros H. cbn [run6_st]. rewrite H. reflexivity. Qed.

Lemma run6_done app labels ord s r os fuel : step6 app labels ord s = SDone r os ->
  run6_st (S fuel) app labels ord s = inl (r, os).
Proof. intros H. cbn [run6_st]. rewrite H. reflexivity. Qed.

Section Seg.
  Variables (app : list instr) (labels : Z -> option Z) (regs0 mem0 : list Z) (base : nat) (off : Z).
  Hypothesis Happ : wf_app app.
  Hypothesis Hreg : reg_only app = true.
  Hypothesis Hlen0 : (length regs0 <= 32)%nat.
  Hypothesis Hbase : (base <= length app)%nat.
  Let n := length app.
  Let N := stop_from app base.
  Let sp := map sinstr_of app.

  Notation sreg := (sreg app labels regs0 base).
  Notation eff := (eff app labels regs0 base).
  Notation ik := (ik app).
  Notation kout := (kout app labels regs0 base).
  Notation GI := (GI app labels regs0 mem0 base off).
  Notation GR := (GR app labels regs0 mem0 base off).
  Notation GF := (GF app labels regs0 mem0 base).
  Notation Fin := (Fin app labels regs0 mem0 base off).

  Hypothesis Hsem : forall k, (base <= k <= N)%nat -> (k < n)%nat ->
    exec (sinstr_of (ik k)) (rget (sreg k)) labels (pcz k) [] = Ok (eff k) /\
    (forall a, etarget (eff k) = Some a -> exists t, a = pcz t /\ (k < t <= n)%nat).

  (* the state is in one of the three loops of Run *)
  Inductive SInv (s : st6) : Prop :=
  | SI_n d c f x : GI d c f x s -> SInv s
  | SI_r d : GR d s -> SInv s
  | SI_f d E t : GF d E t s -> SInv s.

  Definition mu (s : st6) : Z :=
    match s_mode s with
    | MNormal => phis app s + 3
    | _ => qlen (m_wbus (s_m s))
    end.

  (* how a segment ends *)
  Definition SegEnd (ord : Z -> Z -> list Z -> list Z) (s : st6) (bound : nat) : Prop :=
    (exists k r os, (1 <= k <= bound)%nat /\ (forall extra, run6_st (k + extra) app labels ord s = inl (r, os)) /\ Fin r) \/
    (exists k s' E t, (1 <= k <= bound)%nat /\ (forall extra, run6_st (k + extra) app labels ord s = run6_st extra app labels ord s') /\
       Fresh app mem0 t (sreg (S E)) s' /\ (base <= E <= N)%nat /\ (E < t <= n)%nat /\
       (forall k', (base <= k' < E)%nat -> kout k' = euo_none) /\ kout E = mk_euo6 true (pcz E) (pcz t) false).

  Lemma phis_nn d c f x s : GI d c f x s -> 0 <= phis app s.
  Proof.
    intros HG. unfold phis, phi, phiR.
    pose proof (phiF_nonneg app base _ _ _ (fr_fetch _ _ _ _ _ _ _ (gi_front _ _ _ _ _ _ _ _ _ _ _ HG))).
    pose proof (phiM_nn app labels regs0 base Hlen0 Hbase Hsem (s_m s)). pose proof (zlen_nonneg (eul (s_eus s))). lia.
  Qed.

  Lemma mu_nonneg s : SInv s -> 0 <= mu s.
  Proof.
    intros [d c f x HG|d HG|d E t HG]; unfold mu.
    - rewrite (gi_mode _ _ _ _ _ _ _ _ _ _ _ HG). pose proof (phis_nn _ _ _ _ _ HG). lia.
    - rewrite (gr_mode _ _ _ _ _ _ _ _ HG). apply qlen_ge0.
    - rewrite (gf_mode _ _ _ _ _ _ _ _ _ HG). apply qlen_ge0.
  Qed.

  Lemma seg_run ord : forall (b : nat) s, SInv s -> mu s < Z.of_nat b -> SegEnd ord s b.
  Proof.
    induction b as [|b IH]; intros s HS Hmu.
    - pose proof (mu_nonneg s HS). lia.
    - assert (Hnext : forall s', step6 app labels ord s = SCont s' -> SInv s' -> mu s' < mu s -> SegEnd ord s (S b)).
      { intros s' Es HS' Hlt. destruct (IH s' HS' ltac:(lia)) as [(k & r & os & Hk & Hr & HF)|(k & s'' & E & t & Hk & Hr & Hrest)].
        - left. exists (S k), r, os. split; [lia|]. split; [|exact HF]. intros extra. cbn [Nat.add]. rewrite (run6_S _ _ _ _ _ _ Es). apply Hr.
        - right. exists (S k), s'', E, t. split; [lia|]. split; [|exact Hrest]. intros extra. cbn [Nat.add]. rewrite (run6_S _ _ _ _ _ _ Es). apply Hr. }
      assert (Hdone : forall r os, step6 app labels ord s = SDone r os -> Fin r -> SegEnd ord s (S b)).
      { intros r os Es HF. left. exists 1%nat, r, os. split; [lia|]. split; [|exact HF]. intros extra. apply run6_done. exact Es. }
      destruct HS as [d c f x HG|d HG|d E t HG].
      + destruct (step_normal app labels regs0 mem0 base off Happ Hreg Hlen0 Hbase Hsem ord d c f x s HG)
          as [(s' & d' & c' & f' & x' & Es & HG' & Hlt)|[(r & os & Es & HF)|[(s' & d' & Es & HG')|(s' & d' & E & t & Es & HG')]]].
        * apply (Hnext s' Es (SI_n s' d' c' f' x' HG')). unfold mu. rewrite (gi_mode _ _ _ _ _ _ _ _ _ _ _ HG), (gi_mode _ _ _ _ _ _ _ _ _ _ _ HG'). lia.
        * apply (Hdone r os Es HF).
        * apply (Hnext s' Es (SI_r s' d' HG')). pose proof (phis_nn _ _ _ _ _ HG) as H0.
          unfold mu in *. rewrite (gi_mode _ _ _ _ _ _ _ _ _ _ _ HG) in *. rewrite (gr_mode _ _ _ _ _ _ _ _ HG').
          pose proof (bus_q _ _ (gr_bw _ _ _ _ _ _ _ _ HG')). lia.
        * apply (Hnext s' Es (SI_f s' d' E t HG')). pose proof (phis_nn _ _ _ _ _ HG) as H0.
          unfold mu in *. rewrite (gi_mode _ _ _ _ _ _ _ _ _ _ _ HG) in *. rewrite (gf_mode _ _ _ _ _ _ _ _ _ HG').
          pose proof (bus_q _ _ (gf_bw _ _ _ _ _ _ _ _ _ HG')). lia.
      + destruct (step_ret app labels regs0 mem0 base off Hreg Hlen0 Hbase Hsem ord d s HG) as [(s' & Es & HG' & Hlt)|(r & os & Es & HF)].
        * apply (Hnext s' Es (SI_r s' d HG')). unfold mu. rewrite (gr_mode _ _ _ _ _ _ _ _ HG), (gr_mode _ _ _ _ _ _ _ _ HG'). exact Hlt.
        * apply (Hdone r os Es HF).
      + destruct (step_flush app labels regs0 mem0 base Hreg Hlen0 Hbase Hsem ord d E t s HG) as [(s' & Es & HG' & Hlt)|(s' & Es & HFr & Hcyc)].
        * apply (Hnext s' Es (SI_f s' d E t HG')). unfold mu. rewrite (gf_mode _ _ _ _ _ _ _ _ _ HG), (gf_mode _ _ _ _ _ _ _ _ _ HG'). exact Hlt.
        * right. exists 1%nat, s', E, t. split; [lia|]. split; [intros extra; apply run6_S; exact Es|].
          split; [exact HFr|]. destruct (gf_E _ _ _ _ _ _ _ _ _ HG) as (A1 & A2 & A3 & A4).
          split; [fold N in A4; lia|]. split; [fold n; lia|]. split; [exact (gf_exec _ _ _ _ _ _ _ _ _ HG) | exact (gf_out _ _ _ _ _ _ _ _ _ HG)].
  Qed.

  Lemma seq_step_k k : (base <= k <= N)%nat -> (k < n)%nat ->
    Seq.step sp labels (mk_arch (sreg k) mem0) (pcz k) =
      match eff k with
      | EReturn => Halt (mk_arch (sreg k) mem0)
      | EGoto a | ELink _ _ a => Next (mk_arch (sreg (S k)) mem0) a
      | _ => Next (mk_arch (sreg (S k)) mem0) (pcz (S k))
      end.
  Proof.
    intros H1 H2.
    assert (Hi : nth_error app (Z.to_nat (pcz k / 4)) = Some (ik k)).
    { rewrite pcz_div, Nat2Z.id. apply ik_nth. exact H2. }
    unfold sp. rewrite (step_nomem app labels Hreg _ (pcz k) (ik k) (pcz_nonneg k) Hi). cbn [regs Seq.mem].
    destruct (Hsem k H1 H2) as [He _]. rewrite He.
    pose proof (eff_nostore app labels regs0 base Hreg Hsem k) as Hns.
    rewrite (sreg_S app labels regs0 base) by lia. rewrite pcz_S.
    destruct (eff k) as [rd v|bs| |a|rd v a|]; cbn [apply_eff]; try reflexivity.
    exfalso. exact (Hns bs H1 H2 eq_refl).
  Qed.

  Lemma kout_none_step k : (base <= k <= N)%nat -> (k < n)%nat -> kout k = euo_none ->
    Seq.step sp labels (mk_arch (sreg k) mem0) (pcz k) = Next (mk_arch (sreg (S k)) mem0) (pcz (S k)).
  Proof.
    intros H1 H2 Hk. rewrite (seq_step_k k H1 H2). unfold Mvp60RefBack.kout in Hk.
    pose proof (eff_ret app labels regs0 base Hsem k H1 H2) as Hr.
    destruct (is_ret (ik k)) eqn:Er; [discriminate|].
    destruct (eff k) as [rd v|bs| |a|rd v a|]; cbn [etarget] in Hk; try reflexivity.
    - destruct (is_jump (ik k) || negb (pcz (S k) =? a)) eqn:Ec; [discriminate|]. apply orb_false_iff in Ec as [_ Ec].
      apply negb_false_iff, Z.eqb_eq in Ec. rewrite Ec. reflexivity.
    - destruct (is_jump (ik k) || negb (pcz (S k) =? a)) eqn:Ec; [discriminate|]. apply orb_false_iff in Ec as [_ Ec].
      apply negb_false_iff, Z.eqb_eq in Ec. rewrite Ec. reflexivity.
    - discriminate (proj1 Hr eq_refl).
  Qed.

  Lemma kout_flush_step E t : (base <= E <= N)%nat -> (E < n)%nat -> kout E = mk_euo6 true (pcz E) (pcz t) false ->
    Seq.step sp labels (mk_arch (sreg E) mem0) (pcz E) = Next (mk_arch (sreg (S E)) mem0) (pcz t).
  Proof.
    intros H1 H2 Hk. rewrite (seq_step_k E H1 H2). unfold Mvp60RefBack.kout in Hk.
    destruct (is_ret (ik E)); [discriminate|].
    destruct (eff E) as [rd v|bs| |a|rd v a|]; cbn [etarget] in Hk; try discriminate;
      destruct (is_jump (ik E) || negb (pcz (S E) =? a)); try discriminate; injection Hk as ->; reflexivity.
  Qed.

  (* the instructions in front of xe neither stop nor redirect the run: none of them is the
     stopping instruction N *)
  Lemma none_below_N xe : (base <= xe <= n)%nat -> (forall k, (base <= k < xe)%nat -> kout k = euo_none) -> (xe <= N)%nat.
  Proof.
    intros Hx Hall. destruct (Nat.le_gt_cases xe N) as [H|H]; [exact H|]. exfalso.
    pose proof (stop_from_ge app base) as HbN. fold N in HbN.
    assert (HNn : (N < n)%nat) by lia.
    pose proof (stop_from_at app dfl base HNn) as Hs. fold N in Hs. unfold is_stop in Hs.
    specialize (Hall N ltac:(lia)).
    apply orb_prop in Hs as [Hs|Hs].
    - rewrite (kout_ret app labels regs0 base N Hs) in Hall. discriminate.
    - pose proof (kout_jump app labels regs0 base Hreg Hsem N ltac:(lia) HNn Hs) as Hf. rewrite Hall in Hf. discriminate.
  Qed.

  Lemma seq_straight_seg xe : (xe <= N)%nat -> (xe <= n)%nat -> forall m k fuel tr0 st' tr, (k + m)%nat = xe -> (base <= k)%nat ->
    (forall k', (k <= k' < xe)%nat -> kout k' = euo_none) ->
    Seq.run fuel sp labels (mk_arch (sreg k) mem0) (pcz k) tr0 = Done st' tr ->
    exists fuel' tr1, Seq.run fuel' sp labels (mk_arch (sreg xe) mem0) (pcz xe) tr1 = Done st' tr /\
                      length tr1 = (length tr0 + m)%nat.
  Proof.
    intros HxN Hxn. induction m as [|m IH]; intros k fuel tr0 st' tr Hk Hb Hall Hrun.
    - assert (k = xe) by lia. subst k. exists fuel, tr0. split; [exact Hrun | lia].
    - destruct fuel as [|fuel]; [discriminate|]. cbn [Seq.run] in Hrun.
      rewrite (kout_none_step k ltac:(lia) ltac:(lia) (Hall k ltac:(lia))) in Hrun.
      destruct (IH (S k) fuel (pcz k :: tr0) st' tr ltac:(lia) ltac:(lia) ltac:(intros k' Hk'; apply Hall; lia) Hrun) as (fuel' & tr1 & E & Hl).
      exists fuel', tr1. split; [exact E|]. cbn [length] in Hl. lia.
  Qed.

  (* the segment ends the run *)
  Lemma seg_seq_fin r fuel tr0 st' tr : Fin r ->
    Seq.run fuel sp labels (mk_arch regs0 mem0) (pcz base) tr0 = Done st' tr ->
    exists cf, r = MDone cf st' /\ Z.of_nat (length tr - length tr0 + base) <= 2 * cf + off.
  Proof.
    intros (cf & xe & -> & Hx & Hall & Hend) Hrun.
    pose proof (none_below_N xe Hx Hall) as HxN.
    assert (Hsb : sreg base = regs0) by (apply sreg_base; auto). rewrite <- Hsb in Hrun.
    destruct (seq_straight_seg xe HxN ltac:(lia) (xe - base) base fuel tr0 st' tr ltac:(lia) (le_n _) Hall Hrun) as (fuel' & tr1 & E & Hl).
    exists cf. destruct fuel' as [|fuel']; [discriminate|]. cbn [Seq.run] in E.
    destruct Hend as [[Hxe Hc]|(Hxe & Hret & Hc)].
    - rewrite (step_out app labels _ (pcz xe) (pcz_nonneg xe)) in E.
      2:{ rewrite pcz_div. unfold Mvp4.nlen. fold n. lia. }
      unfold fetch in E. destruct (Z.ltb_spec (pcz xe) 0); [pose proof (pcz_nonneg xe); lia|].
      assert (Hnone : nth_error sp (Z.to_nat (pcz xe / 4)) = None).
      { apply nth_error_None. unfold sp. rewrite map_length, pcz_div, Nat2Z.id. fold n. lia. }
      rewrite Hnone in E. injection E as <- <-. split; [reflexivity | lia].
    - rewrite (seq_step_k xe ltac:(lia) Hxe) in E.
      rewrite (proj2 (eff_ret app labels regs0 base Hsem xe ltac:(lia) Hxe) Hret) in E.
      unfold fetch in E. destruct (Z.ltb_spec (pcz xe) 0); [pose proof (pcz_nonneg xe); lia|].
      assert (Hsome : nth_error sp (Z.to_nat (pcz xe / 4)) = Some (sinstr_of (ik xe))).
      { unfold sp. rewrite pcz_div, Nat2Z.id, nth_error_map, (ik_nth app xe Hxe). reflexivity. }
      rewrite Hsome in E. injection E as <- <-. split; [reflexivity|]. cbn [length]. lia.
  Qed.

  (* the segment ends with a transfer of control *)
  Lemma seg_seq_flush E t fuel tr0 st' tr : (base <= E <= N)%nat -> (E < t <= n)%nat ->
    (forall k', (base <= k' < E)%nat -> kout k' = euo_none) -> kout E = mk_euo6 true (pcz E) (pcz t) false ->
    Seq.run fuel sp labels (mk_arch regs0 mem0) (pcz base) tr0 = Done st' tr ->
    exists fuel' tr1, Seq.run fuel' sp labels (mk_arch (sreg (S E)) mem0) (pcz t) tr1 = Done st' tr.
  Proof.
    intros HE Ht Hall Hout Hrun.
    assert (Hsb : sreg base = regs0) by (apply sreg_base; auto). rewrite <- Hsb in Hrun.
    destruct (seq_straight_seg E ltac:(lia) ltac:(lia) (E - base) base fuel tr0 st' tr ltac:(lia) (le_n _) Hall Hrun) as (fuel' & tr1 & Er & _).
    destruct fuel' as [|fuel']; [discriminate|]. cbn [Seq.run] in Er.
    rewrite (kout_flush_step E t HE ltac:(lia) Hout) in Er. eauto.
  Qed.
End Seg.
