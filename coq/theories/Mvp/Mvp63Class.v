(* The decode unit and the control unit of MVP-6.3 (du.go, cu.go; shared unchanged by MVP-7.0, 7.1 and 8.0) on a
   program whose instructions all lie in a class G: every runner they put on the control bus, into the pendings of
   the control unit or on the execute bus carries an instruction of G, and they leave alone ctx.Memory, the L3, the
   write bus and the two alias tables (rest_of).
   Used with G = "neither a load nor a store" by the simulations of MVP-7.0 and MVP-8.0 against MVP-6.3, which also
   share the few facts about the model at the head of the file and the two predicates that say how a tick of Run
   can end (goes_on, tick_ok). *)
From Coq Require Import ZArith List Bool Lia.
From Maj Require Import Base.Outcome Base.GoInt Base.GoTypes Isa.Spec.
From Maj Require Import Gen.Latency Gen.RiscTables Gen.Opcodes Comp.Cache Comp.Rat Mvp.Mvp12 Mvp.Mvp3 Mvp.Mvp5 Mvp.Mvp60 Mvp.Mvp63.
From Maj Require Mvp.Mvp4Skel Mvp.Mvp4Inv Mvp.Mvp62RefRel.
From Maj Require Import Mvp.Mvp60RefDefs.
Import ListNotations.
Open Scope Z_scope.

Lemma or_os_false : forall x, or_os x false = x.
Proof. intros [m eb pe pr pcb sq cr tr fw ch nx os]. unfold or_os, set_os3. cbn. rewrite orb_false_r. reflexivity. Qed.

Lemma map_repeat : forall {A B} (f : A -> B) a n, map f (repeat a n) = repeat (f a) n.
Proof. intros A B f a n. induction n as [|n IH]; cbn [repeat map]; [reflexivity|]. rewrite IH. reflexivity. Qed.

(* NewLRUCache returns a cache without lines *)
Lemma new_cache_lines : forall a b c, new_cache a b = Ok c -> lines c = [].
Proof.
  intros a b c H. unfold new_cache in H. destruct (a =? 0); [discriminate|]. destruct (negb _); [discriminate|].
  injection H as <-. reflexivity.
Qed.

(* what the loop over the execute units remembers after a unit has run: the oldest flush request, a ret seen *)
Definition acc_next (acc o : eu_out3) : eu_out3 :=
  let take := y_flush o && (negb (y_flush acc) || (y_seq o <? y_seq acc)) in
  mk_euo3 (y_flush acc || y_flush o) (if take then y_seq o else y_seq acc)
          (if take then y_pc o else y_pc acc) (y_ret acc || y_ret o) None.

(* a program without loads and stores (Mvp4Skel.reg_only); an instruction that is neither reads no memory and
   produces no memory change *)
Lemma reg_only_nth : forall app n i, Mvp4Skel.reg_only app = true -> nth_error app n = Some i -> Mvp4Skel.nomem i = true.
Proof.
  intros app n i H HN. unfold Mvp4Skel.reg_only in H. rewrite forallb_forall in H.
  apply H. eapply nth_error_In; eassumption.
Qed.

Lemma nomem_no_read : forall i rr seq, Mvp4Skel.nomem i = true -> instr_MemoryRead i rr seq = [].
Proof. intros i rr seq H. apply Mvp4Inv.nomem_no_read. exact H. Qed.

Lemma nomem_no_change : forall i rr labels pc memory seq exe,
  Mvp4Skel.nomem i = true -> instr_Run i rr labels pc memory seq = Ok exe -> MemoryChange exe = false.
Proof. intros i rr labels pc memory seq exe H E. eapply Mvp62RefRel.nomem_nochange; [exact H | exact E]. Qed.

(* an instruction that is neither a load, a store nor a branch does not change the pc *)
Lemma run_nobranch_pc : forall i rr labels pc mem sq exe,
  Mvp4Skel.nomem i = true -> nobranch i = true -> instr_Run i rr labels pc mem sq = Ok exe -> PcChange exe = false.
Proof.
  intros i rr labels pc mem sq exe Hm Hn E. destruct i; try discriminate Hn; try discriminate Hm;
    cbv beta iota zeta delta [instr_Run] in E; autounfold with opcodes in E; cbv beta zeta in E;
    unfold IsRegisterChange in E;
    repeat match type of E with
           | context [if ?c then _ else _] => destruct c eqn:?
           | context [match ?x with _ => _ end] => destruct x eqn:?
           end; try discriminate E; inversion E; subst; reflexivity.
Qed.

(* Run never looks at its sequence id argument *)
Lemma instr_Run_seq0 : forall i f labels pc mem s, instr_Run i f labels pc mem s = instr_Run i f labels pc mem 0.
Proof. intros i f labels pc mem s. destruct i; reflexivity. Qed.

(* A tick is seen as the result with which Run returns (inl) or as the cycle counter of the state from which Run
   goes on (inr).
   goes_on n: Run returns only with an error or a panic; otherwise the counter is at least n. *)
Definition goes_on (n : Z) (v : mres + Z) : Prop :=
  match v with
  | inr c => n <= c
  | inl (MErr _) | inl MPanic => True
  | inl _ => False
  end.

(* tick_ok final cyc: Run returns a result only if `final` holds (the tick belongs to the final loop), and then at
   least one cycle after cyc; MOutOfFuel is never the answer of a tick *)
Definition tick_ok (final : Prop) (cyc : Z) (v : mres + Z) : Prop :=
  match v with
  | inl (MDone c _) => final /\ cyc + 1 <= c
  | _ => goes_on cyc v
  end.

Lemma goes_on_le : forall n m v, n <= m -> goes_on m v -> goes_on n v.
Proof. intros n m [[c st| | |]|c] L H; simpl in *; auto. lia. Qed.

Lemma goes_on_tick_ok : forall final cyc v, goes_on cyc v -> tick_ok final cyc v.
Proof. intros final cyc [[c st| | |]|c] H; try exact H. contradiction. Qed.

(* every entry of the buffer and of the queue of a bus satisfies P *)
Definition on_bus {T} (P : T -> Prop) (b : bbus T) : Prop :=
  Forall (fun p => P (snd p)) (bb_buf b) /\ Forall P (bb_q b).

Lemma on_bus_new : forall {T} (P : T -> Prop) a b, on_bus P (bb_new a b).
Proof. intros. split; constructor. Qed.

Lemma on_bus_clean : forall {T} (P : T -> Prop) b, on_bus P (bb_clean b).
Proof. intros. split; constructor. Qed.

Lemma on_bus_add : forall {T} (P : T -> Prop) b t cycle, on_bus P b -> P t -> on_bus P (bb_add b t cycle).
Proof.
  intros T P b t cycle [H1 H2] HP. split; cbn [bb_add bb_buf bb_q]; [|exact H2].
  apply Forall_app. split; [exact H1|]. constructor; [exact HP|constructor].
Qed.

Lemma on_bus_setq : forall {T} (P : T -> Prop) b q,
  on_bus P b -> Forall P q -> on_bus P (mk_bb (bb_buf b) q (bb_ql b) (bb_bl b)).
Proof. intros T P b q [H1 _] HQ. split; assumption. Qed.

Lemma connect_loop_on : forall {T} (P : T -> Prop) ql c buf q q' buf',
  bb_connect_loop ql c q buf = (q', buf') ->
  Forall (fun p => P (snd p)) buf -> Forall P q -> Forall (fun p => P (snd p)) buf' /\ Forall P q'.
Proof.
  intros T P ql c. induction buf as [|[a t] buf IH]; intros q q' buf' H HB HQ; cbn [bb_connect_loop] in H.
  - inversion H; subst. split; [constructor|exact HQ].
  - destruct (zlen q =? ql); [inversion H; subst; split; assumption|].
    destruct (a >? c); [inversion H; subst; split; assumption|].
    inversion HB as [|? ? HP HB']; subst. eapply IH; [exact H|exact HB'|].
    apply Forall_app. split; [exact HQ|]. constructor; [exact HP|constructor].
Qed.

Lemma on_bus_connect : forall {T} (P : T -> Prop) b c, on_bus P b -> on_bus P (bb_connect b c).
Proof.
  intros T P b c [H1 H2]. unfold bb_connect.
  destruct (zlen (bb_q b) =? bb_ql b); [split; assumption|].
  destruct (bb_connect_loop (bb_ql b) c (bb_q b) (bb_buf b)) as [q buf] eqn:E.
  destruct (connect_loop_on P _ _ _ _ _ _ E H1 H2) as [A B]. split; assumption.
Qed.

(* what decode and control never touch *)
Definition rest_of (x : mx) : list Z * cache * bbus wb6 * @rat Z * @rat (Z * Z) :=
  (m_mem (x_m x), m_l3 (x_m x), m_wbus (x_m x), x_crat x, x_trat x).

(* where they keep runners *)
Definition runners_of (x : mx) : bbus runner * bbus runner3 * list runner3 :=
  (m_cbus (x_m x), x_ebus x, x_pend x).

(* branchUnit.assert only writes the branch unit (and, on a hit in the branch target buffer, the fetch unit) *)
Lemma bu_assert3_frame : forall x r,
  runners_of (bu_assert3 x r) = runners_of x /\ rest_of (bu_assert3 x r) = rest_of x.
Proof.
  intros x r. unfold bu_assert3. cbv zeta.
  destruct (InstructionType_IsUnconditionalBranch _); [destruct (btb_get _ _); split; reflexivity|].
  destruct (InstructionType_IsConditionalBranch _); split; reflexivity.
Qed.

Lemma bu_assert3_ebus : forall x r, x_ebus (bu_assert3 x r) = x_ebus x.
Proof. intros x r. exact (f_equal (fun t => snd (fst t)) (proj1 (bu_assert3_frame x r))). Qed.

Lemma bu_assert3_wbus : forall x r, m_wbus (x_m (bu_assert3 x r)) = m_wbus (x_m x).
Proof. intros x r. exact (f_equal (fun t => snd (fst (fst t))) (proj2 (bu_assert3_frame x r))). Qed.

Lemma bu_assert3_crat : forall x r, x_crat (bu_assert3 x r) = x_crat x.
Proof. intros x r. exact (f_equal (fun t => snd (fst t)) (proj2 (bu_assert3_frame x r))). Qed.

Lemma bu_assert3_trat : forall x r, x_trat (bu_assert3 x r) = x_trat x.
Proof. intros x r. exact (f_equal snd (proj2 (bu_assert3_frame x r))). Qed.

Section Class.
  Variable G : instr -> Prop.

  Definition Gr (r : runner) : Prop := G (r_instr r).
  Definition Gq (r : runner3) : Prop := G (q_instr r).

  Definition runners_ok (x : mx) : Prop :=
    on_bus Gr (m_cbus (x_m x)) /\ on_bus Gq (x_ebus x) /\ Forall Gq (x_pend x).

  (* what holds of the machine x while decode and control work on a machine that was x0: its runners are in the
     class, the rest is that of x0 *)
  Definition Kept (x0 x : mx) : Prop := runners_ok x /\ rest_of x = rest_of x0.

  Lemma Kept_refl : forall x, runners_ok x -> Kept x x.
  Proof. intros x H. split; [exact H|reflexivity]. Qed.

  (* a step that changes none of the fields the invariant speaks of *)
  Lemma Kept_same : forall x0 x x', runners_of x' = runners_of x -> rest_of x' = rest_of x -> Kept x0 x -> Kept x0 x'.
  Proof.
    intros x0 x x' E1 E2 [H1 H2]. unfold runners_of in E1. inversion E1 as [[A B C]].
    split; [|rewrite E2; exact H2]. unfold runners_ok. rewrite A, B, C. exact H1.
  Qed.

  (* --- du.go --- *)

  Variable app : list instr.
  Hypothesis Happ : forall n i, nth_error app n = Some i -> G i.

  Lemma du_loop3_class : forall q cycle ret pbr cbus x ret' pbr' q' cbus' x',
    du_loop3 q app cycle ret pbr cbus x = Ok (ret', pbr', q', cbus', x') ->
    on_bus Gr cbus -> on_bus Gr cbus' /\ runners_of x' = runners_of x /\ rest_of x' = rest_of x.
  Proof.
    induction q as [|pc q IH]; intros cycle ret pbr cbus x ret' pbr' q' cbus' x' H HB; cbn [du_loop3] in H.
    - inversion H; subst. auto.
    - destruct (nlen6 app <=? Z.quot pc 4); [inversion H; subst; auto|].
      destruct (Z.quot pc 4 <? 0); [discriminate|].
      destruct (nth_error app (Z.to_nat (Z.quot pc 4))) as [i|] eqn:EN; [|discriminate].
      cbv zeta in H.
      assert (HA : on_bus Gr (bb_add cbus (mk_runner i pc (sequence_id (set_forward3 x pc 0 0) pc)) cycle)).
      { apply on_bus_add; [exact HB|]. exact (Happ _ _ EN). }
      destruct (InstructionType_IsUnconditionalBranch (instr_InstructionType i)); [inversion H; subst; auto|].
      destruct (instr_InstructionType i =? Ret); [inversion H; subst; auto|].
      apply IH in H; [|exact HA]. exact H.
  Qed.

  Lemma du_cycle3_class : forall cycle x0 x x', du_cycle3 app cycle x = Ok x' -> Kept x0 x -> Kept x0 x'.
  Proof.
    intros cycle x0 x x' H HK. unfold du_cycle3 in H. cbv zeta in H.
    destruct (m_dret (x_m x)); [inversion H; subst; exact HK|].
    destruct (m_dpbr (x_m x)); [inversion H; subst; exact HK|].
    apply bind_ok in H as ([[[[ret pbr] q'] cbus'] x1] & E & H). inversion H; subst.
    destruct HK as [(P1 & P2 & P3) HR].
    apply du_loop3_class in E; [|exact P1]. destruct E as (A & B & C).
    unfold runners_of in B. inversion B as [[B1 B2 B3]]. unfold rest_of in C. inversion C as [[C1 C2 C3 C4 C5]].
    split; [|rewrite <- HR; unfold rest_of; cbn [x_m set_m set_cbus set_dbus set_du m_mem m_l3 m_wbus x_crat x_trat]; congruence].
    unfold runners_ok. cbn [x_m set_m set_cbus m_cbus x_ebus x_pend]. rewrite B2, B3. auto.
  Qed.

  (* --- cu.go --- *)

  Lemma ebus_mark_on : forall b id ch, on_bus Gq b -> on_bus Gq (ebus_mark b id ch).
  Proof.
    assert (M : forall r id ch, Gq r -> Gq (mark_fwder id ch r)).
    { intros r id ch H. unfold mark_fwder. destruct (q_id r =? id); exact H. }
    intros b id ch [H1 H2]. split; cbn [ebus_mark bb_buf bb_q]; apply Forall_map.
    - eapply Forall_impl; [|exact H1]. intros a HA. apply M. exact HA.
    - eapply Forall_impl; [|exact H2]. intros a HA. apply M. exact HA.
  Qed.

  Lemma push_runner3_class : forall x0 x cycle r x' r',
    push_runner3 x cycle r = Some (x', r') -> Kept x0 x -> Gq r -> Kept x0 x' /\ Gq r'.
  Proof.
    intros x0 x cycle r x' r' H [(P1 & P2 & P3) HR] HG. unfold push_runner3 in H.
    destruct (negb _); [discriminate|]. cbv zeta in H. inversion H; subst.
    split; [|exact HG]. split; [|exact HR].
    unfold runners_ok. cbn [set_next3 set_m set_ebus3 x_m x_ebus x_pend add_pending6 set_sb m_cbus].
    split; [exact P1|]. split; [|exact P3]. apply on_bus_add; [exact P2|exact HG].
  Qed.

  Lemma push_or_stop3_class : forall x0 x cycle r stop push st r1 x1,
    push_or_stop3 x cycle r stop = (push, st, r1, x1) -> Kept x0 x -> Gq r -> Kept x0 x1 /\ Gq r1.
  Proof.
    intros x0 x cycle r stop push st r1 x1 H HK HG. unfold push_or_stop3 in H.
    destruct (push_runner3 x cycle r) as [[x' r']|] eqn:E; inversion H; subst.
    - eapply push_runner3_class; eassumption.
    - split; assumption.
  Qed.

  (* the control unit looks at one runner: it is pushed (after the execute bus has been marked for forwarding, in
     one case), kept, or skipped - always the same instruction *)
  Lemma handle_runner3_class : forall ord cycle x0 x skipped pb r push stop r1 x1,
    handle_runner3 ord cycle x skipped pb r = (push, stop, r1, x1) -> Kept x0 x -> Gq r -> Kept x0 x1 /\ Gq r1.
  Proof.
    intros ord cycle x0 x skipped pb r push stop r1 x1 H HK HG. unfold handle_runner3 in H. cbv zeta in H.
    destruct (_ && pb); [inversion H; subst; split; assumption|].
    destruct (_ && _); [inversion H; subst; split; assumption|].
    destruct (skipped_hazard3 _ _); [inversion H; subst; split; assumption|].
    destruct (zlen _ =? 0); [eapply push_or_stop3_class; eassumption|].
    destruct (should_forward3 _ _ _ _ _) as [[p reg]|].
    - eapply push_or_stop3_class; [exact H| |exact HG].
      destruct HK as [(P1 & P2 & P3) HR]. split; [|exact HR].
      split; [exact P1|]. split; [|exact P3]. apply ebus_mark_on. exact P2.
    - destruct (should_rename3 _); [eapply push_or_stop3_class; eassumption|].
      inversion H; subst; split; assumption.
  Qed.

  Lemma after_push3_class : forall x0 x l r, Kept x0 x -> Kept x0 (fst (after_push3 x l r)).
  Proof.
    intros x0 x l r. apply Kept_same; unfold after_push3; cbv zeta; cbn [fst];
      destruct (InstructionType_IsConditionalBranch _); reflexivity.
  Qed.

  Lemma cu_pending3_class : forall ord cycle x0 ps kept l x st pend' l' x',
    cu_pending3 ord cycle ps kept l x = (st, pend', l', x') ->
    Kept x0 x -> Forall Gq ps -> Forall Gq kept -> Kept x0 x' /\ Forall Gq pend'.
  Proof.
    intros ord cycle x0. induction ps as [|r t IH]; intros kept l x st pend' l' x' H HK HPS HKP; cbn [cu_pending3] in H.
    - inversion H; subst. split; [exact HK|]. apply Forall_rev. exact HKP.
    - inversion HPS as [|? ? HR HT]; subst.
      destruct (handle_runner3 ord cycle x (l_skipped l) (l_pbranch l) r) as [[[push stop] r1] x1] eqn:E.
      apply (handle_runner3_class _ _ x0) in E; [|exact HK|exact HR]. destruct E as [HK1 HR1].
      destruct push.
      + pose proof (after_push3_class x0 x1 l r1 HK1) as HK2.
        destruct (after_push3 x1 l r1) as [x2 l2]. cbn [fst] in HK2. cbv beta iota zeta in H.
        destruct stop.
        * inversion H; subst. split; [exact HK2|]. apply Forall_app. split; [apply Forall_rev; exact HKP|exact HT].
        * eapply IH; [exact H|exact HK2|exact HT|exact HKP].
      + cbv beta iota zeta in H. destruct stop.
        * inversion H; subst. split; [exact HK1|]. apply Forall_app.
          split; [apply Forall_app; split; [apply Forall_rev; exact HKP|constructor; [exact HR|constructor]]|exact HT].
        * eapply IH; [exact H|exact HK1|exact HT|constructor; assumption].
  Qed.

  Lemma cu_incoming3_class : forall ord cycle x0 q pend l x q' pend' l' x',
    cu_incoming3 ord cycle q pend l x = (q', pend', l', x') ->
    Kept x0 x -> Forall Gr q -> Forall Gq pend -> Kept x0 x' /\ Forall Gr q' /\ Forall Gq pend'.
  Proof.
    intros ord cycle x0. induction q as [|r0 t IH]; intros pend l x q' pend' l' x' H HK HQ HPD; cbn [cu_incoming3] in H.
    - destruct (pendingLength <=? zlen pend); inversion H; subst; auto.
    - destruct (pendingLength <=? zlen pend); [inversion H; subst; auto|].
      inversion HQ as [|? ? HR HT]; subst.
      destruct (handle_runner3 ord cycle x (l_skipped l) (l_pbranch l) (r3_of r0)) as [[[push stop] r1] x1] eqn:E.
      apply (handle_runner3_class _ _ x0) in E; [|exact HK|exact HR]. destruct E as [HK1 HR1].
      destruct push.
      + pose proof (after_push3_class x0 x1 l r1 HK1) as HK2.
        destruct (after_push3 x1 l r1) as [x2 l2]. cbn [fst] in HK2. cbv beta iota zeta in H.
        destruct stop.
        * inversion H; subst. auto.
        * eapply IH; [exact H|exact HK2|exact HT|exact HPD].
      + cbv beta iota zeta in H.
        assert (HPD' : Forall Gq (pend ++ [r1])).
        { apply Forall_app. split; [exact HPD|constructor; [exact HR1|constructor]]. }
        destruct stop.
        * inversion H; subst. auto.
        * eapply IH; [exact H|exact HK1|exact HT|exact HPD'].
  Qed.

  Lemma cu_cycle3_class : forall ord cycle x0 x, Kept x0 x -> Kept x0 (cu_cycle3 ord cycle x).
  Proof.
    intros ord cycle x0 x HK. unfold cu_cycle3.
    destruct (negb _); [eapply Kept_same; [| |exact HK]; reflexivity|].
    destruct (cu_pending3 ord cycle (x_pend x) [] (mk_cul [] [] false) x) as [[[stopped pend1] l1] x1] eqn:E1.
    apply (cu_pending3_class _ _ x0) in E1; [|exact HK|exact (proj2 (proj2 (proj1 HK)))|constructor].
    destruct E1 as [[(P1 & P2 & P3) HR] HPD1].
    destruct stopped.
    - split; [|exact HR]. split; [exact P1|]. split; [exact P2|exact HPD1].
    - destruct (cu_incoming3 ord cycle (bb_q (m_cbus (x_m x1))) pend1 l1 x1) as [[[q' pend2] l2] x2] eqn:E2.
      apply (cu_incoming3_class _ _ x0) in E2; [|split; [split; [|split]|]; assumption|exact (proj2 P1)|exact HPD1].
      destruct E2 as [[(Q1 & Q2 & Q3) HR2] [HQ' HPD2]].
      split; [|exact HR2]. unfold runners_ok. cbn [set_prev3 set_pend3 set_m set_cbus x_m x_ebus x_pend m_cbus].
      split; [apply on_bus_setq; assumption|]. split; assumption.
  Qed.
End Class.
