(* MVP-6.1 refinement: the program class (registers in range), sequence ids, the runners and write-back
   records that stand for instruction k, and the decode unit (du_loop1: as MVP-6.0 plus the sequence id
   and the clearing of the decoded instruction's Forward).  The fetch unit is the one of MVP-6.0
   (Mvp60RefFront.fu_ok). *)
From Coq Require Import ZArith List Bool Lia Permutation.
From Maj Require Import Base.Outcome Base.GoInt Base.GoTypes Isa.Spec Isa.Embed Isa.Seq Isa.Refine.
From Maj Require Import Gen.Latency Gen.RiscTables Gen.Opcodes Comp.Cache.
From Maj Require Import Mvp.Mvp12 Mvp.Mvp12Proofs Mvp.Mvp3 Mvp.Mvp3Proofs Mvp.Mvp4Skel Mvp.Mvp5 Mvp.Mvp60 Mvp.Mvp61
     Mvp.Mvp60RefSem Mvp.Mvp60RefDefs Mvp.Mvp60RefFront.
Import ListNotations.
Open Scope Z_scope.

(* registers 0..31 only (the Go type RegisterType has these 32 values; the model and the
   sequential machine accept any integer) *)

Definition reg_ok (r : Z) : bool := (0 <=? r) && (r <? 32).
Definition regs_ok (i : instr) : bool := forallb reg_ok (instr_ReadRegisters i) && forallb reg_ok (instr_WriteRegisters i).
Definition regs_in_range (app : list instr) : bool := forallb regs_ok app.

Lemma reg_ok_inj r r' : reg_ok r = true -> reg_ok r' = true -> Z.to_nat r = Z.to_nat r' -> r = r'.
Proof. unfold reg_ok. intros H H' E. apply andb_prop in H as [A B], H' as [A' B']. apply Z.leb_le in A, A'. lia. Qed.

Lemma reg_ok_slot r : reg_ok r = true -> (Z.to_nat r < 32)%nat.
Proof. unfold reg_ok. intros H. apply andb_prop in H as [A B]. apply Z.leb_le in A. apply Z.ltb_lt in B. lia. Qed.


Lemma upd_repeat {A} (a : A) n i : Seq.upd (repeat a n) i a = repeat a n.
Proof.
  revert i. induction n as [|n IH]; intros i; cbn [repeat Seq.upd]; [destruct i; reflexivity|].
  destruct i as [|i]; [reflexivity|]. rewrite IH. reflexivity.
Qed.

Lemma upd_upd {A} (l : list A) i a b : Seq.upd (Seq.upd l i a) i b = Seq.upd l i b.
Proof.
  revert i. induction l as [|h t IH]; intros i; cbn [Seq.upd]; [destruct i; reflexivity|].
  destruct i as [|i]; cbn [Seq.upd]; [reflexivity|]. rewrite IH. reflexivity.
Qed.

Section Front1.
  (* [base]: start of the current straight-line segment; [sq]: ctx.sequenceID during it *)
  Variables (app : list instr) (base : nat) (sq : Z).
  Hypothesis Happ : wf_app app.
  Let n := length app.
  Let N := stop_from app base.
  Hypothesis Hsq : 0 <= sq /\ 1000 * sq + 4 * Z.of_nat n < 2147483648.

  (* SequenceID of instruction k *)
  Definition sid (k : nat) : Z := pcz k + 1000 * sq.
  Definition rnq (k : nat) : runner := mk_runner (ik app k) (pcz k) (sid k).
  (* the object the decode unit puts on the control bus *)
  Definition r1q (k : nat) : runner1 := mk_r1 (rnq k) 0 None None Zero.

  Lemma seq_id_sid x k : x_seq x = sq -> (k < n)%nat -> seq_id x (pcz k) = sid k.
  Proof.
    intros Hx Hk. unfold seq_id, sid, addS, mulS. rewrite Hx.
    rewrite (wrapS_id 32 (sq * 1000)); [|lia | apply int32_bounds; lia].
    rewrite Z.mul_comm. apply wrapS_id; [lia|]. apply int32_bounds. unfold pcz. lia.
  Qed.

  Lemma iidx_pcz k : iidx (pcz k) = k.
  Proof. unfold iidx. rewrite pcz_quot. apply Nat2Z.id. Qed.

  Lemma du_loop1_ok cycle x : x_seq x = sq -> forall len c cbus l, (base <= c)%nat -> (Nat.min c n <= N)%nat ->
    exists j ret' pbr',
      du_loop1 (map pcz (seq c len)) app cycle false false x (repeat no_fwd n) (bus_push cbus (cycle + 1) l)
      = Ok (ret', pbr', map pcz (seq (c + j) (len - j)), repeat no_fwd n,
            bus_push cbus (cycle + 1) (l ++ map r1q (seq (Nat.min c n) (Nat.min (c + j) n - Nat.min c n)))) /\
      (j <= len)%nat /\ ((0 < len)%nat -> (0 < j)%nat) /\
      (ret' = true -> (N < n)%nat /\ (c + j)%nat = S N /\ is_ret (ik app N) = true) /\
      (pbr' = true -> (N < n)%nat /\ (c + j)%nat = S N /\ is_jump (ik app N) = true) /\
      (ret' = false -> pbr' = false -> (Nat.min (c + j) n <= N)%nat).
  Proof.
    intros Hx. induction len as [|len IH]; intros c cbus l Hbc Hc.
    - exists O, false, false. cbn [seq map du_loop1]. replace (Nat.min (c + 0) n - Nat.min c n)%nat with O by (rewrite Nat.add_0_r; lia).
      cbn [seq map]. rewrite app_nil_r.
      split; [reflexivity|]. split; [lia|]. split; [lia|]. split; [discriminate|]. split; [discriminate|]. intros _ _. rewrite Nat.add_0_r. exact Hc.
    - cbn [seq map du_loop1]. rewrite pcz_quot. unfold nlen6. fold n.
      destruct (Z.leb_spec (Z.of_nat n) (Z.of_nat c)) as [Hout|Hin].
      + exists 1%nat, false, false. replace (S len - 1)%nat with len by lia. replace (c + 1)%nat with (S c) by lia.
        replace (Nat.min (S c) n - Nat.min c n)%nat with O by lia. cbn [seq map]. rewrite app_nil_r.
        split; [reflexivity|]. split; [lia|]. split; [lia|]. split; [discriminate|]. split; [discriminate|]. intros _ _. lia.
      + assert (Hcn : (c < n)%nat) by lia.
        destruct (Z.ltb_spec (Z.of_nat c) 0); [lia|]. rewrite iidx_pcz, (ik_nth app c Hcn).
        fold (is_jump (ik app c)). rewrite is_ret_type. rewrite (seq_id_sid x c Hx Hcn), upd_repeat.
        change (mk_r1 (mk_runner (ik app c) (pcz c) (sid c)) 0 None None Zero) with (r1q c). rewrite bus_push_add.
        assert (HcN : (c <= N)%nat) by lia.
        assert (HatN : is_ret (ik app c) = true \/ is_jump (ik app c) = true -> c = N).
        { intros Hy. destruct (Nat.eq_dec c N) as [|Hne]; [assumption|]. exfalso.
          destruct (ik_not_stop app base c ltac:(fold N; lia)) as [A B]. destruct Hy; congruence. }
        destruct (is_jump (ik app c)) eqn:Ejmp.
        * assert (c = N) by (apply HatN; right; reflexivity). subst c.
          exists 1%nat, false, true. replace (S len - 1)%nat with len by lia. replace (N + 1)%nat with (S N) by lia.
          replace (Nat.min (S N) n - Nat.min N n)%nat with 1%nat by lia. replace (Nat.min N n) with N by lia.
          cbn [seq map]. split; [reflexivity|]. split; [lia|]. split; [lia|]. split; [discriminate|].
          split; [intros _; auto | discriminate].
        * destruct (is_ret (ik app c)) eqn:Eret.
          -- assert (c = N) by (apply HatN; left; reflexivity). subst c.
             exists 1%nat, true, false. replace (S len - 1)%nat with len by lia. replace (N + 1)%nat with (S N) by lia.
             replace (Nat.min (S N) n - Nat.min N n)%nat with 1%nat by lia. replace (Nat.min N n) with N by lia.
             cbn [seq map]. split; [reflexivity|]. split; [lia|]. split; [lia|]. split; [intros _; auto|].
             split; discriminate.
          -- assert (Hne : c <> N).
             { intros ->. pose proof (ik_stop app base Hcn) as Hy. unfold is_stop in Hy. fold N in Hy. rewrite Eret, Ejmp in Hy. discriminate. }
             destruct (IH (S c) cbus (l ++ [r1q c]) ltac:(lia) ltac:(lia)) as (j & ret' & pbr' & E & Hj & Hj0 & Hrt & Hpt & Hrf).
             exists (S j), ret', pbr'. rewrite E. replace (c + S j)%nat with (S c + j)%nat by lia. cbn [Nat.sub].
             replace (Nat.min c n) with c by lia. replace (Nat.min (S c) n) with (S c) in * by lia.
             rewrite (seq_cons_min c (Nat.min (S c + j) n)) by lia. cbn [map]. rewrite <- app_assoc. cbn [List.app].
             split; [reflexivity|]. split; [lia|]. split; [lia|]. split; [assumption|]. split; assumption.
  Qed.

  (* decodeUnit.cycle when it is active *)
  Lemma du1_ok cyc m c len : bb_q (m_dbus (y_m m)) = map pcz (seq c len) -> (base <= c)%nat -> (Nat.min c n <= N)%nat ->
    m_dret (y_m m) = false -> m_dpbr (y_m m) = false -> x_seq (y_x m) = sq -> x_fwd (y_x m) = repeat no_fwd n ->
    exists j ret' pbr',
      du_cycle1 app (cyc + 1) m
      = Ok (mk_m1 (set_dbus (set_du (y_m m) ret' pbr')
                            (mk_bb (bb_buf (m_dbus (y_m m))) (map pcz (seq (c + j) (len - j))) (bb_ql (m_dbus (y_m m))) (bb_bl (m_dbus (y_m m)))))
                  (xs_cbus (y_x m)
                     (bus_push (x_cbus (y_x m)) (cyc + 2) (map r1q (seq (Nat.min c n) (Nat.min (c + j) n - Nat.min c n)))))) /\
      (j <= len)%nat /\ ((0 < len)%nat -> (0 < j)%nat) /\
      (ret' = true -> (N < n)%nat /\ (c + j)%nat = S N /\ is_ret (ik app N) = true) /\
      (pbr' = true -> (N < n)%nat /\ (c + j)%nat = S N /\ is_jump (ik app N) = true) /\
      (ret' = false -> pbr' = false -> (Nat.min (c + j) n <= N)%nat).
  Proof.
    intros Hq Hbc Hc Hr Hp Hs Hf. unfold du_cycle1. rewrite Hr, Hp, Hq, Hf.
    destruct (du_loop1_ok (cyc + 1) (y_x m) Hs len c (x_cbus (y_x m)) [] Hbc Hc) as (j & ret' & pbr' & E & Hrest).
    rewrite bus_push_nil in E. rewrite E. cbn [bind List.app]. exists j, ret', pbr'.
    replace (cyc + 1 + 1) with (cyc + 2) by lia. split; [|exact Hrest].
    f_equal. f_equal. destruct (y_x m); cbn in *. subst. reflexivity.
  Qed.

  Lemma du1_idle cyc m : m_dret (y_m m) = true \/ m_dpbr (y_m m) = true -> du_cycle1 app (cyc + 1) m = Ok m.
  Proof. intros [H|H]; unfold du_cycle1; rewrite H; [|destruct (m_dret (y_m m))]; reflexivity. Qed.
End Front1.
