(* Refinement of MVP-6.0 (proc/mvp6-0, the first superscalar variant: dispatch of up
   to two instructions per cycle to 1..4 execute units under the RAW / WAW / WAR
   checks of the scoreboard, out-of-order write-back) to the sequential machine
   Isa/Seq.v on REGISTER-ONLY programs: the theorems.

   Straight-line programs (no branch, no jump; ret anywhere): mvp60_refines_seq_straight,
   with the cycle bound mvp60_cycles_lower_bound_straight.
   Programs with FORWARD control flow - conditional branches, j, jal to defined,
   4-aligned labels strictly ahead of the instruction and at most at the end of the
   text - without div / rem / jalr (class fwd_ok): mvp60_refines_seq_forward.  The
   run is cut into straight-line segments at every flush; the wrong path (instructions
   dispatched behind a taken branch, executed or not) is squashed because all of it is
   still in the execute bus / write bus when the branch executes, and the flush loop
   drops it (Mvp60RefSem.bw_squash).  div and rem are excluded because a wrong-path
   division by zero aborts the run (Mvp60RefBranch.v). *)
From Coq Require Import ZArith List Bool Lia Permutation.
From Maj Require Import Base.Outcome Base.GoInt Base.GoTypes Isa.Spec Isa.Embed Isa.Seq Isa.Refine.
From Maj Require Import Gen.Latency Gen.RiscTables Gen.Opcodes Comp.Cache.
From Maj Require Import Mvp.Mvp12 Mvp.Mvp12Proofs Mvp.Mvp3 Mvp.Mvp3Proofs Mvp.Mvp4Skel Mvp.Mvp4Inv Mvp.Mvp4Sim Mvp.Mvp5 Mvp.Mvp60
     Mvp.Mvp60RefSem Mvp.Mvp60RefDefs Mvp.Mvp60RefFront Mvp.Mvp60RefBack Mvp.Mvp60RefStep Mvp.Mvp60RefStep2 Mvp.Mvp60RefSeg.
Import ListNotations.
Open Scope Z_scope.

(* ticks of Run that suffice for one straight-line segment / for a whole run *)
Definition seg_bound60 (n : nat) : nat := (400 * n + 1600)%nat.
Definition fuel_bound60 (n : nat) : nat := seg_bound60 n.
Definition fuel_bound60_fwd (n : nat) : nat := ((n + 1) * seg_bound60 n)%nat.

Lemma busok_new {T} cyc : BusOK cyc (@bb_new T 2 2).
Proof. constructor; try reflexivity. unfold qlen, bb_new. cbn. lia. constructor. Qed.

(* a fresh state satisfies the invariant of the main loop at base t *)
Lemma fresh_GI app labels mem0 t R off s : Fresh app mem0 t R s -> (t <= length app)%nat ->
  (length R <= 32)%nat -> Forall int32 R -> Z.of_nat t <= 2 * s_cycle s + off ->
  GI app labels R mem0 t off t t t t s.
Proof.
  intros [H1 H2 H3 H4 H5 H6 H7 H8 H9 H10 H11 H12 H13 H14 H15 H16 H17 H18 H19 H20 H21 H22] Ht HlR HR Hc.
  assert (Heul : eul (s_eus s) = []) by (apply eul_none; exact H18).
  constructor; auto.
  - constructor; rewrite ?H14, ?H15, ?H16, ?H17, ?H12; try apply busok_new; auto; try lia.
    + constructor; auto.
      * rewrite H8. discriminate.
      * intros _. split; [lia | rewrite H8; discriminate].
      * rewrite H7. discriminate.
    + rewrite Nat.sub_diag. reflexivity.
    + replace (Nat.min t (length app) - t)%nat with O by lia. reflexivity.
    + intros _ _. pose proof (stop_from_ge app t). lia.
    + rewrite H10. discriminate.
    + rewrite H11. discriminate.
    + unfold blen, bb_new. cbn. lia.
  - constructor; rewrite ?H16, ?H17; try (constructor; fail); auto.
    + eapply Forall_impl; [|exact H18]. intros e. apply EuNone_ok.
    + unfold FL. rewrite H16, H17, Heul. cbn [flat bb_new bb_q bb_buf map List.app]. rewrite H1, H3, H4.
      apply bs_init; [exact HlR | exact HR | reflexivity | reflexivity].
  - constructor; rewrite ?H16, ?H17; auto; try reflexivity; try lia;
      try (unfold blen, bb_new; cbn; lia); try (rewrite Nat.sub_diag; reflexivity);
      try (intros _; split; [reflexivity|]; unfold blen, bb_new; cbn; discriminate); try (intros k Hk; lia).
Qed.

(* NewCPU builds a fresh state at 0 *)
Lemma init_fresh app par st : (1 <= par)%nat ->
  exists s0, init6 par st = Ok s0 /\ Fresh app (mem st) 0 (regs st) s0 /\ s_cycle s0 = 0.
Proof.
  intros Hpar. destruct init_caches as (c0 & E0 & HI0 & _ & _). unfold init6. rewrite E0.
  change (new_cache l3LineSize l3Size) with (Ok (mkCache 16 64 [])). eexists. split; [reflexivity|]. split; [|reflexivity].
  constructor; cbn [s_m s_eus s_wus s_mode m_regs m_mem m_pw m_pr m_l3 m_fu m_l1i m_dret m_dpbr m_cu m_bu m_dbus m_cbus m_ebus m_wbus
                    f_pc f_complete f_co b_btb lines]; auto; try reflexivity;
    try (apply Forall_forall; intros e He; apply repeat_spec in He; subst e; try split; reflexivity);
    try (destruct par; [lia | discriminate]); try (rewrite !repeat_length; reflexivity).
Qed.

Lemma run6_more app labels ord : forall fuel k s r, run6_st fuel app labels ord s = inl r -> run6_st (fuel + k) app labels ord s = inl r.
Proof.
  induction fuel as [|fuel IH]; intros k s r H; [discriminate|]. cbn [run6_st Nat.add] in *.
  destruct (step6 app labels ord s); [exact H | apply IH; exact H].
Qed.

Lemma mvp60_run_more app labels par ord fuel k st c st' :
  mvp60_run par ord fuel app labels st = MDone c st' -> mvp60_run par ord (fuel + k) app labels st = MDone c st'.
Proof.
  unfold mvp60_run, mvp60_run_os. destruct (init6 par st) as [s0| |]; try discriminate. unfold run6.
  destruct (run6_st fuel app labels ord s0) as [r|s'] eqn:E; [|discriminate].
  intros H. rewrite (run6_more app labels ord _ k _ _ E). exact H.
Qed.

(* the potential of a fresh state *)
Lemma mu_fresh app mem0 t R s : Fresh app mem0 t R s -> mu app s < Z.of_nat (seg_bound60 (length app)).
Proof.
  intros [H1 H2 H3 H4 H5 H6 H7 H8 H9 H10 H11 H12 H13 H14 H15 H16 H17 H18 H19 H20 H21 H22].
  unfold mu. rewrite H22. unfold phis, phi, phiR, phiM. rewrite (eul_none _ H18), H14, H15, H16, H17, H12.
  unfold phiF, phi_co. rewrite H6, H8. unfold blen, qlen, zlen, bb_new. cbn [bb_buf bb_q length].
  unfold seg_bound60, MemoryAccess, pcz. lia.
Qed.

(* instruction k may transfer control only forward, to a defined 4-aligned label inside
   the text or just behind it; it cannot fail (no div, rem) and its target does not
   depend on a register (no jalr) *)
Definition label_fwd (n : nat) (labels : Z -> option Z) (k : nat) (l : Z) : bool :=
  match labels l with
  | Some a => (pcz k <? a) && (a <=? pcz n) && (a mod 4 =? 0)
  | None => false
  end.
Definition instr_fwd (n : nat) (labels : Z -> option Z) (k : nat) (i : instr) : bool :=
  match sinstr_of i with
  | SDiv _ _ _ | SRem _ _ _ | SJalr _ _ _ => false
  | SBeq _ _ l | SBne _ _ l | SBlt _ _ l | SBge _ _ l | SBle _ _ l | SBltu _ _ l | SBgeu _ _ l
  | SBeqz _ l | SBnez _ l | SJ l | SJal _ l => label_fwd n labels k l
  | _ => true
  end.
Definition fwd_ok (app : list instr) (labels : Z -> option Z) : bool :=
  forallb (fun ki => instr_fwd (length app) labels (fst ki) (snd ki)) (combine (seq 0 (length app)) app).

Lemma label_fwd_target n labels k l : label_fwd n labels k l = true ->
  exists t, labels l = Some (pcz t) /\ (k < t <= n)%nat.
Proof.
  unfold label_fwd. destruct (labels l) as [a|]; [|discriminate]. intros H.
  apply andb_prop in H as [H H3]. apply andb_prop in H as [H1 H2].
  apply Z.ltb_lt in H1. apply Z.leb_le in H2. apply Z.eqb_eq in H3. unfold pcz in *.
  exists (Z.to_nat (a / 4)). assert (a = 4 * (a / 4)) by (rewrite (Z.div_mod a 4) at 1 by lia; lia).
  assert (0 <= a / 4) by (apply Z.div_pos; lia).
  split; [f_equal; rewrite Z2Nat.id by lia; exact H | lia].
Qed.

Lemma fwd_total app labels k rr : fwd_ok app labels = true -> (k < length app)%nat ->
  exists e, exec (sinstr_of (ik app k)) rr labels (pcz k) [] = Ok e /\
            (forall a, etarget e = Some a -> exists t, a = pcz t /\ (k < t <= length app)%nat).
Proof.
  intros Hf Hk. unfold fwd_ok in Hf. rewrite forallb_forall in Hf.
  assert (Hin : In (k, ik app k) (combine (seq 0 (length app)) app)).
  { unfold ik. assert (Hs : nth k (seq 0 (length app)) O = k) by (rewrite seq_nth by exact Hk; reflexivity).
    rewrite <- Hs at 1. rewrite <- combine_nth by (rewrite seq_length; reflexivity).
    apply nth_In. rewrite combine_length, seq_length. lia. }
  specialize (Hf _ Hin). cbn [fst snd] in Hf. unfold instr_fwd in Hf.
  destruct (sinstr_of (ik app k)); try discriminate Hf; cbn [exec]; unfold branch;
    try (eexists; split; [reflexivity | intros a Ha; discriminate Ha]);
    try (destruct (label_fwd_target _ _ _ _ Hf) as (t & -> & Ht);
         match goal with
         | |- context [if ?c then _ else _] => destruct c
         | _ => idtac
         end;
         eexists; (split; [reflexivity|]); cbn [etarget]; intros a Ha; try discriminate Ha; injection Ha as <-; eauto).
Qed.

(* one segment of the machine and of the sequential machine side by side: from a fresh state
   at t both either finish, with the same result, or reach - the machine through a flush - the
   target t' of the first taken branch or jump E, with the registers after E *)
Section Segment.
  Variables (app : list instr) (labels : Z -> option Z).
  Hypothesis Happ : wf_app app.
  Hypothesis Hreg : reg_only app = true.
  Let n := length app.
  Let sp := map sinstr_of app.

  Lemma seg_sim ord mem0 t R off s fuel tr0 st' tr :
    (t <= n)%nat -> Fresh app mem0 t R s -> (length R <= 32)%nat -> Forall int32 R -> Z.of_nat t <= 2 * s_cycle s + off ->
    (forall k, (t <= k <= stop_from app t)%nat -> (k < n)%nat ->
       exec (sinstr_of (ik app k)) (rget (sreg app labels R t k)) labels (pcz k) [] = Ok (eff app labels R t k) /\
       (forall a, etarget (eff app labels R t k) = Some a -> exists t', a = pcz t' /\ (k < t' <= n)%nat)) ->
    Seq.run fuel sp labels (mk_arch R mem0) (pcz t) tr0 = Done st' tr ->
    exists k, (1 <= k <= seg_bound60 n)%nat /\
      ((exists c os, (forall extra, run6_st (k + extra) app labels ord s = inl (MDone c st', os)) /\
                     Z.of_nat (length tr - length tr0 + t) <= 2 * c + off) \/
       (exists s' E t' fuel' tr1,
          (forall extra, run6_st (k + extra) app labels ord s = run6_st extra app labels ord s') /\
          Fresh app mem0 t' (sreg app labels R t (S E)) s' /\ (t <= E <= stop_from app t)%nat /\ (E < t' <= n)%nat /\
          kout app labels R t E = mk_euo6 true (pcz E) (pcz t') false /\
          Seq.run fuel' sp labels (mk_arch (sreg app labels R t (S E)) mem0) (pcz t') tr1 = Done st' tr)).
  Proof.
    intros Htn HF HlR HR Hc Hsem Hrun.
    pose proof (fresh_GI app labels mem0 t R off s HF Htn HlR HR Hc) as HG.
    destruct (seg_run app labels R mem0 t off Happ Hreg HlR Htn Hsem ord (seg_bound60 n) s (SI_n _ _ _ _ _ _ _ _ _ _ _ HG) (mu_fresh _ _ _ _ _ HF))
      as [(k & r & os & Hk & Hr & HFin)|(k & s' & E & t' & Hk & Hr & HFr & HE & Ht' & Hex & Hout)]; exists k; (split; [exact Hk|]).
    - left. destruct (seg_seq_fin app labels R mem0 t off Hreg HlR Htn Hsem r fuel tr0 st' tr HFin Hrun) as (cf & -> & Hcf).
      exists cf, os. split; [exact Hr | exact Hcf].
    - right. destruct (seg_seq_flush app labels R mem0 t Hreg HlR Htn Hsem E t' fuel tr0 st' tr HE Ht' Hex Hout Hrun) as (fuel' & tr1 & Hrun').
      exists s', E, t', fuel', tr1. auto 6.
  Qed.
End Segment.

Section Fwd.
  Variables (app : list instr) (labels : Z -> option Z).
  Hypothesis Happ : wf_app app.
  Hypothesis Hreg : reg_only app = true.
  Hypothesis Hfwd : fwd_ok app labels = true.
  Let n := length app.
  Let sp := map sinstr_of app.

  (* in this class no instruction fails, whatever the registers: the hypothesis of a
     segment holds for every base and every register file *)
  Lemma hsem_all regs0 base : forall k, (base <= k <= stop_from app base)%nat -> (k < n)%nat ->
    exec (sinstr_of (ik app k)) (rget (sreg app labels regs0 base k)) labels (pcz k) [] = Ok (eff app labels regs0 base k) /\
    (forall a, etarget (eff app labels regs0 base k) = Some a -> exists t, a = pcz t /\ (k < t <= n)%nat).
  Proof.
    intros k _ Hk. destruct (fwd_total app labels k (rget (sreg app labels regs0 base k)) Hfwd Hk) as (e & He & Ht).
    unfold eff, eff_at. rewrite He. split; [reflexivity | exact Ht].
  Qed.

  (* every flush moves the segment start forward: at most n - t + 1 segments from t on *)
  Lemma fwd_core ord mem0 : forall m t R s fuel tr0 st' tr,
    (n - t < m)%nat -> (t <= n)%nat -> Fresh app mem0 t R s -> (length R <= 32)%nat -> Forall int32 R ->
    Seq.run fuel sp labels (mk_arch R mem0) (pcz t) tr0 = Done st' tr ->
    exists K c os, (K <= m * seg_bound60 n)%nat /\
                   forall extra, run6_st (K + extra) app labels ord s = inl (MDone c st', os).
  Proof.
    induction m as [|m IH]; intros t R s fuel tr0 st' tr Hm Htn HF HlR HR Hrun; [lia|].
    destruct (seg_sim app labels Happ Hreg ord mem0 t R (Z.of_nat t - 2 * s_cycle s) s fuel tr0 st' tr Htn HF HlR HR ltac:(lia) (hsem_all R t) Hrun)
      as (k & Hk & Hend). fold n in Hk. cbn [Nat.mul].
    destruct Hend as [(c & os & Hr & _)|(s' & E & t' & fuel' & tr1 & Hr & HFr & HE & Ht' & _ & Hrun')].
    - exists k, c, os. split; [lia | exact Hr].
    - fold n in Ht'.
      destruct (IH t' (sreg app labels R t (S E)) s' fuel' tr1 st' tr ltac:(lia) ltac:(lia) HFr
                  ltac:(rewrite sreg_length; exact HlR) (sreg_int32 app labels R t HR (S E)) Hrun') as (K' & c & os & HK' & Hr').
      exists (k + K')%nat, c, os. split; [lia|]. intros extra. rewrite <- Nat.add_assoc, Hr. apply Hr'.
  Qed.

  (* forward control flow without div / rem / jalr: the pipeline computes the sequential result *)
  Theorem mvp60_refines_seq_forward par ord fuel st st' tr : (1 <= par)%nat ->
    Forall int32 (regs st) -> (length (regs st) <= 32)%nat ->
    seq_run fuel sp labels st = Done st' tr ->
    exists c, forall fuel', (fuel_bound60_fwd (length app) <= fuel')%nat -> mvp60_run par ord fuel' app labels st = MDone c st'.
  Proof.
    intros Hpar HR HlR Hrun. destruct (init_fresh app par st Hpar) as (s0 & E0 & HF & _).
    unfold seq_run in Hrun. assert (Hst : st = mk_arch (regs st) (mem st)) by (destruct st; reflexivity).
    rewrite Hst in Hrun at 1. change 0 with (pcz 0) in Hrun.
    destruct (fwd_core ord (mem st) (S n) O (regs st) s0 fuel [] st' tr ltac:(lia) ltac:(lia) HF HlR HR Hrun) as (K & c & os & HK & Hr).
    exists c. intros fuel' Hf. unfold mvp60_run, mvp60_run_os. rewrite E0. unfold run6.
    unfold fuel_bound60_fwd in Hf. fold n in Hf.
    replace fuel' with (K + (fuel' - K))%nat by lia. rewrite Hr. reflexivity.
  Qed.
End Fwd.

Section Straight.
  Variables (app : list instr) (labels : Z -> option Z).
  Hypothesis Happ : wf_app app.
  Hypothesis Hstr : straight app = true.
  Hypothesis Hreg : reg_only app = true.
  Let n := length app.
  Let N := stop_from app 0.
  Let sp := map sinstr_of app.

  Lemma ik_nobranch k : nobranch (ik app k) = true.
  Proof.
    unfold ik. destruct (Nat.lt_ge_cases k n) as [H|H].
    - unfold straight in Hstr. rewrite forallb_forall in Hstr. apply Hstr. apply nth_In. exact H.
    - rewrite nth_overflow by exact H. reflexivity.
  Qed.

  (* the sequential machine runs straight up to the first ret: every instruction before it
     executes without error and writes at most a register *)
  Lemma seq_straight regs0 mem0 : (length regs0 <= 32)%nat -> forall fuel k tr0 st' tr, (k <= N)%nat ->
    Seq.run fuel sp labels (mk_arch (sreg app labels regs0 0 k) mem0) (pcz k) tr0 = Done st' tr ->
    forall j, (k <= j < N)%nat ->
      exec (sinstr_of (ik app j)) (rget (sreg app labels regs0 0 j)) labels (pcz j) [] = Ok (eff app labels regs0 0 j) /\
      (eff app labels regs0 0 j = EFall \/ exists rd v, eff app labels regs0 0 j = EReg rd v).
  Proof.
    intros Hl0. induction fuel as [|fuel IH]; intros k tr0 st' tr HkN H; [discriminate|]. cbn [Seq.run] in H.
    assert (HNn : (N <= n)%nat) by (apply stop_from_le, Nat.le_0_l).
    intros j Hj. assert (Hkn : (k < n)%nat) by lia.
    assert (Hi : nth_error app (Z.to_nat (pcz k / 4)) = Some (ik app k)).
    { rewrite pcz_div, Nat2Z.id. apply ik_nth. exact Hkn. }
    unfold sp in H. rewrite (step_nomem app labels Hreg _ (pcz k) (ik app k) (pcz_nonneg k) Hi) in H. cbn [regs Seq.mem] in H.
    destruct (exec (sinstr_of (ik app k)) (rget (sreg app labels regs0 0 k)) labels (pcz k) []) as [e|err|] eqn:Ee; [|discriminate|discriminate].
    assert (Heff : eff app labels regs0 0 k = e) by (unfold eff, eff_at; rewrite Ee; reflexivity).
    assert (Hnr : is_ret (ik app k) = false) by (apply (ik_not_stop app 0 k); fold N; lia).
    destruct (class_exec _ _ _ _ _ (ik_nomem app Hreg k) (ik_nobranch k) Ee) as [[Hret _]|[_ Hcl]]; [congruence|].
    destruct (Nat.eq_dec j k) as [->|Hjk]; [rewrite Heff; split; [exact Ee | exact Hcl]|].
    assert (Hstep : Seq.run fuel sp labels (mk_arch (sreg app labels regs0 0 (S k)) mem0) (pcz (S k)) (pcz k :: tr0) = Done st' tr).
    { rewrite sreg_S by (assumption || lia). rewrite Heff, pcz_S. destruct Hcl as [->|(rd & v & ->)]; cbn [apply_eff]; exact H. }
    apply (IH (S k) (pcz k :: tr0) st' tr ltac:(lia) Hstep). lia.
  Qed.

  Section Thm.
    Variables (par : nat) (ord : Z -> Z -> list Z -> list Z) (fuel : nat) (st st' : arch) (tr : list Z).
    Hypothesis Hpar : (1 <= par)%nat.
    Hypothesis Hr32 : Forall int32 (regs st).
    Hypothesis Hlen : (length (regs st) <= 32)%nat.
    Hypothesis Hrun : seq_run fuel sp labels st = Done st' tr.

    Lemma hsem_straight : forall k, (0 <= k <= N)%nat -> (k < n)%nat ->
      exec (sinstr_of (ik app k)) (rget (sreg app labels (regs st) 0 k)) labels (pcz k) [] = Ok (eff app labels (regs st) 0 k) /\
      (forall a, etarget (eff app labels (regs st) 0 k) = Some a -> exists t, a = pcz t /\ (k < t <= n)%nat).
    Proof.
      intros k Hk Hkn. pose proof Hrun as Hrun'. unfold seq_run in Hrun'.
      assert (Hst : st = mk_arch (sreg app labels (regs st) 0 0) (mem st)) by (destruct st; reflexivity).
      rewrite Hst in Hrun' at 1. change 0 with (pcz 0) in Hrun'.
      destruct (Nat.eq_dec k N) as [->|Hne].
      - (* the first ret *)
        pose proof (ik_stop app 0 Hkn) as Hret. fold N in Hret. unfold is_stop, is_jump in Hret.
        rewrite (nobranch_uncond _ (ik_nobranch N)), orb_false_r in Hret.
        unfold eff, eff_at. rewrite (is_ret_exec _ _ _ _ _ Hret). split; [reflexivity | intros a Ha; discriminate Ha].
      - destruct (seq_straight (regs st) (mem st) Hlen fuel 0 [] st' tr ltac:(lia) Hrun' k ltac:(lia)) as [He Hcl].
        split; [exact He|]. intros a Ha. destruct Hcl as [Hc|(rd & v & Hc)]; rewrite Hc in Ha; discriminate Ha.
    Qed.

    (* the superscalar pipeline computes the sequential registers and memory, without error
       or panic, for every number of execute / write units, every iteration order, all fuels
       from fuel_bound60 (length app) on; the cycle count is at least half the number of
       executed instructions (issue width two) *)
    Theorem mvp60_run_straight :
      exists c, (forall fuel', (fuel_bound60 (length app) <= fuel')%nat -> mvp60_run par ord fuel' app labels st = MDone c st') /\
                Z.of_nat (length tr) <= 2 * c.
    Proof.
      destruct (init_fresh app par st Hpar) as (s0 & E0 & HF & Hc0).
      pose proof Hrun as Hrun'. unfold seq_run in Hrun'. assert (Hst : st = mk_arch (regs st) (mem st)) by (destruct st; reflexivity).
      rewrite Hst in Hrun' at 1. change 0 with (pcz 0) in Hrun'.
      destruct (seg_sim app labels Happ Hreg ord (mem st) 0 (regs st) 0 s0 fuel [] st' tr ltac:(lia) HF Hlen Hr32 ltac:(rewrite Hc0; lia) hsem_straight Hrun')
        as (k & Hk & [(c & os & Hr & Hc)|(s' & E & t' & fuel' & tr1 & _ & _ & HE & Ht' & Hout & _)]).
      - exists c. split.
        + intros fuel' Hf. unfold mvp60_run, mvp60_run_os. rewrite E0. unfold run6. unfold fuel_bound60 in Hf.
          replace fuel' with (k + (fuel' - k))%nat by lia. rewrite Hr. reflexivity.
        + cbn [length] in Hc. lia.
      - (* no instruction of a straight-line program asks for a flush *)
        exfalso. fold N in HE. fold n in Ht'.
        assert (HEn : (E < n)%nat) by lia.
        pose proof (eff_kind app labels (regs st) 0 hsem_straight E HE HEn) as Hkind.
        pose proof (nobranch_uncond _ (ik_nobranch E)) as Hj. pose proof (nobranch_cond _ (ik_nobranch E)) as Hcd.
        fold (is_jump (ik app E)) in Hj. fold (condbr (ik app E)) in Hcd.
        unfold kout in Hout. destruct (is_ret (ik app E)); [discriminate|].
        destruct (eff app labels (regs st) 0 E); cbn [etarget] in Hout; try discriminate.
        + destruct Hkind as [Hx|[_ Hx]]; congruence.
        + congruence.
    Qed.

    Theorem mvp60_refines_seq_straight :
      exists c, forall fuel', (fuel_bound60 (length app) <= fuel')%nat -> mvp60_run par ord fuel' app labels st = MDone c st'.
    Proof. destruct mvp60_run_straight as (c & H & _). exists c. exact H. Qed.

    (* whenever the model finishes, with whatever fuel, it returns the sequential state and
       has counted at least ceil(executed / 2) cycles *)
    Theorem mvp60_cycles_lower_bound_straight fuel' c st'' :
      mvp60_run par ord fuel' app labels st = MDone c st'' ->
      st'' = st' /\ Z.of_nat (length tr) <= 2 * c /\ (Z.of_nat (length tr) + 1) / 2 <= c.
    Proof.
      intros H. destruct mvp60_run_straight as (c0 & H1 & H2).
      pose proof (mvp60_run_more app labels par ord fuel' (fuel_bound60 (length app)) st c st'' H) as H'.
      rewrite (H1 (fuel' + fuel_bound60 (length app))%nat ltac:(lia)) in H'. injection H' as -> ->.
      split; [reflexivity|]. split; [exact H2|]. assert (Hd := Z.div_lt_upper_bound (Z.of_nat (length tr) + 1) 2 (c + 1)); lia.
    Qed.

    Theorem mvp60_terminates_straight :
      exists c, mvp60_run par ord (fuel_bound60 (length app)) app labels st = MDone c st' /\
                (Z.of_nat (length tr) + 1) / 2 <= c.
    Proof.
      destruct mvp60_run_straight as (c & H1 & H2). exists c. split; [apply H1; lia|]. assert (Hd := Z.div_lt_upper_bound (Z.of_nat (length tr) + 1) 2 (c + 1)); lia.
    Qed.

    Corollary mvp60_no_panic_straight fuel' : (fuel_bound60 (length app) <= fuel')%nat ->
      mvp60_run par ord fuel' app labels st <> MPanic /\ mvp60_run par ord fuel' app labels st <> MOutOfFuel /\
      (forall e, mvp60_run par ord fuel' app labels st <> MErr e).
    Proof.
      intros Hf. destruct mvp60_refines_seq_straight as (c & Hc). rewrite (Hc fuel' Hf). repeat split; try discriminate.
    Qed.
  End Thm.
End Straight.
