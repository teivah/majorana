(* Soundness of the ghost flag of the cycle-level model of MVP-8.0 (Mvp80.v).

   mvp80_ord_irrelevant_snoop: a run that ends with the ghost flag clear returns the same result (and the flag clear)
   under every other order function that agrees with the first one on the RAT value maps ONLY (ords_rat of
   Mvp80OrdProofs.v): no condition on the iteration orders of controlUnit.pushedRunnersInPreviousCycle (map (b))
   and of the request maps of coSnoop (map (d)).  mvp80_ord_irrelevant of Mvp80OrdProofs.v (hypothesis ords_ok3) is a
   special case.

   Proof.  The two runs are not equal state by state: after a coSnoop call with several requests the snoop lists of
   a controller are permutations of each other, and later the lists k_done (a set), k_l3lock, k_l3write (maps) of the
   directory differ by their order.  The runs are related by st_rel (Mvp80OrdStep.v):
     - every function of the model is a congruence for msi_equiv (Mvp80OrdCong.v) and, outside the snoop phase, for
       cc_perm (Mvp80OrdPerm.v);
     - the snoop phase: coSnoop creates the same closures in a permuted order (Mvp80OrdSnoop.v); a snoop list can be
       run in any order (sn_run_perm, Mvp80OrdComm.v) because two closures of one list commute (Mvp80OrdSwapA-D.v:
       the 10 pairs of kinds) - they are pairwise conflict-free because the ghost flag was clear when the list was
       created, and the caches and the directory are well-formed (invariants my_inv, Mvp80OrdInvDefs.v, preserved by
       every tick whose flag stays clear, Mvp80OrdInv.v);
     - the control unit: cu_cycle3_ord of Mvp63Proofs.v (map (b)). *)
From Coq Require Import ZArith List Bool Lia Permutation.
From Maj Require Import Base.Outcome Base.GoInt Base.GoTypes Isa.Spec Isa.Seq.
From Maj Require Import Gen.Latency Gen.RiscTables Gen.Opcodes Comp.Cache Comp.Rat Mvp.Mvp12 Mvp.Mvp3 Mvp.Mvp5 Mvp.Mvp60 Mvp.Mvp63 Mvp.Mvp80.
From Maj Require Import Mvp.Mvp60Proofs Mvp.Mvp63Proofs Mvp.Mvp80Proofs Mvp.Mvp80OrdIds Mvp.Mvp80OrdFrame Mvp.Mvp80OrdProofs.
From Maj Require Import Mvp.Mvp80OrdSnoop Mvp.Mvp80OrdCache Mvp.Mvp80OrdInvDefs Mvp.Mvp80OrdCommDefs Mvp.Mvp80OrdCong Mvp.Mvp80OrdWf Mvp.Mvp80OrdComm Mvp.Mvp80OrdStep.
From Maj Require Mvp.Mvp80OrdInv.
Import ListNotations.
Open Scope Z_scope.


(* two compatible closures of one snoop list commute: the 16 ordered pairs of kinds *)
Theorem swap_all : forall x y, sn_swap_stmt x y.
Proof. exact sn_swap_all. Qed.

(* the snoop phase of a tick under two order functions *)
Theorem snoops8_any_order : forall ord1 ord2 cycle y1 y2, my_rel y1 y2 -> my_inv y1 ->
  orel my_rel (snoops8 ord1 cycle y1) (snoops8 ord2 cycle y2).
Proof.
  exact snoops8_rel.
Qed.

(* a run of MVP-8.0 that ends with the ghost flag clear returns the same result whatever the iteration orders of the
   control unit's map of the runners pushed in the previous cycle and of the request maps of coSnoop *)
Theorem mvp80_ord_irrelevant_snoop : forall par fuel app labels st ord1 ord2 r,
  ords_rat ord1 ord2 ->
  mvp80_run_os par ord1 fuel app labels st = (r, false) ->
  mvp80_run_os par ord2 fuel app labels st = (r, false).
Proof.
  intros par fuel app labels st ord1 ord2 r O H. unfold mvp80_run_os in *.
  rewrite <- (init8_ord par ord1 ord2 app st O).
  destruct (init8 par ord1 app st) as [s| |] eqn:EI; auto.
  assert (F : final_os8 (run8_st fuel app labels ord1 s) = false).
  { destruct (run8_st fuel app labels ord1 s) as [[r1 os1]|s1]; inversion H; reflexivity. }
  pose proof (run8_rel ord1 ord2 O fuel app labels s s (st_rel_refl s) (Mvp80OrdInv.init8_inv _ _ _ _ _ EI) F) as R.
  destruct (run8_st fuel app labels ord1 s) as [[r1 os1]|s1], (run8_st fuel app labels ord2 s) as [[r2 os2]|s2];
    try contradiction.
  - rewrite <- R. exact H.
  - destruct R as (Ry & _). rewrite <- (my_rel_os _ _ Ry). exact H.
Qed.

(* the statement announced in Mvp80OrdSnoop.v *)
Theorem mvp80_snoop_statement_holds : mvp80_ord_irrelevant_snoop_statement.
Proof. unfold mvp80_ord_irrelevant_snoop_statement. intros. eapply mvp80_ord_irrelevant_snoop; eauto. Qed.

(* with the hypothesis of mvp63_ord_irrelevant / mvp70_ord_irrelevant (a special case: ords_ok3 also fixes the order
   of the snoop request maps) *)
Corollary mvp80_ord_irrelevant_ok3 : forall par fuel app labels st ord1 ord2 r,
  ords_ok3 ord1 ord2 ->
  mvp80_run_os par ord1 fuel app labels st = (r, false) ->
  mvp80_run_os par ord2 fuel app labels st = (r, false).
Proof. intros. eapply mvp80_ord_irrelevant_snoop; eauto. apply ords_ok3_rat. assumption. Qed.

(* the order function that reverses the maps (b) and (d) satisfies the hypothesis against the ascending order *)
Example ords_rat_example : ords_rat ord_asc ord_bd_desc.
Proof. exact ords_rat_asc_bd_desc. Qed.

(* the theorem is not vacuous beyond mvp80_ord_irrelevant_both_flags: three loads of three lines on one core, then
   three stores to these lines that fire in the same cycle on three cores (their data comes from one mul): the
   coSnoop call of the loading core sees several l1Evict requests (second ghost flag SET), the ghost flag of the
   model stays clear, and reversing the orders of the maps (b) and (d) gives the same run *)
Definition fire_ld (ln : Z) : list instr :=
  [I_li (mk_li 10 ln); I_add (mk_add 10 10 9); I_lw (mk_lw 5 0 10); I_sub (mk_sub 9 5 5)].
Definition fire_prog : list instr :=
  flat_map fire_ld [0; 64; 256] ++
  [I_addi (mk_addi 0 11 9); I_addi (mk_addi 64 12 9); I_addi (mk_addi 256 13 9); I_addi (mk_addi 1024 15 9);
   I_mul (mk_mul 7 6 6); I_sw (mk_sw 7 4 11); I_sw (mk_sw 7 4 12); I_sw (mk_sw 7 4 13); I_ret mk_ret].
Definition fire_st : arch := mk_arch (Seq.upd (repeat 0 32) 6 77) (repeat 0 512).

Example multi_request_flag_clear_example :
  mvp80_snoop_multi 3 ord_asc 4000 fire_prog no_labels fire_st = true /\
  snd (mvp80_run_os 3 ord_asc 4000 fire_prog no_labels fire_st) = false /\
  mvp80_run_os 3 ord_bd_desc 4000 fire_prog no_labels fire_st = mvp80_run_os 3 ord_asc 4000 fire_prog no_labels fire_st.
Proof.
  assert (F : snd (mvp80_run_os 3 ord_asc 4000 fire_prog no_labels fire_st) = false) by (vm_compute; reflexivity).
  split; [vm_compute; reflexivity|]. split; [exact F|].
  destruct (mvp80_run_os 3 ord_asc 4000 fire_prog no_labels fire_st) as [r os] eqn:E. cbn [snd] in F. subst os.
  apply (mvp80_ord_irrelevant_snoop 3 4000 fire_prog no_labels fire_st ord_asc ord_bd_desc r ords_rat_asc_bd_desc E).
Qed.

Print Assumptions swap_all.
Print Assumptions snoops8_any_order.
Print Assumptions mvp80_ord_irrelevant_snoop.
Print Assumptions mvp80_snoop_statement_holds.
Print Assumptions mvp80_ord_irrelevant_ok3.
Print Assumptions multi_request_flag_clear_example.
