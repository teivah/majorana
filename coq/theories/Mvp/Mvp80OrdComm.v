(* Soundness of the ghost flag of the model of MVP-8.0: from the commutation of two compatible snoop closures
   (sn_swap_stmt, Mvp80OrdSwap*.v) and the invariants (Mvp80OrdInv.v) to: the snoop list of a controller can be run
   in any order (sn_run_perm), one call of cc.snoop.Cycle and the loop over the controllers under two order functions
   (cc_snoop_cycle_rel, snoops_cycle_rel). *)
From Coq Require Import ZArith List Bool Lia Permutation.
From Maj Require Import Base.Outcome Base.GoInt Base.GoTypes Isa.Spec Isa.Seq.
From Maj Require Import Gen.Latency Gen.RiscTables Gen.Opcodes Comp.Cache Comp.Rat Comp.RatProofs Mvp.Mvp12 Mvp.Mvp3 Mvp.Mvp5 Mvp.Mvp60 Mvp.Mvp63 Mvp.Mvp80.
From Maj Require Import Mvp.Mvp60Proofs Mvp.Mvp63Proofs Mvp.Mvp80Proofs Mvp.Mvp80OrdIds Mvp.Mvp80OrdFrame Mvp.Mvp80OrdProofs.
From Maj Require Import Mvp.Mvp80OrdSnoop Mvp.Mvp80OrdCache Mvp.Mvp80OrdInvDefs Mvp.Mvp80OrdCommDefs Mvp.Mvp80OrdCong Mvp.Mvp80OrdWf.
From Maj Require Mvp.Mvp80OrdSwapA Mvp.Mvp80OrdSwapB Mvp.Mvp80OrdSwapC Mvp.Mvp80OrdSwapD Mvp.Mvp80OrdInv.
Import ListNotations.
Open Scope Z_scope.

Module SA := Mvp.Mvp80OrdSwapA.
Module SB := Mvp.Mvp80OrdSwapB.
Module SC := Mvp.Mvp80OrdSwapC.
Module SD := Mvp.Mvp80OrdSwapD.
Module IV := Mvp.Mvp80OrdInv.

Lemma mw_equiv_sym : forall w1 w2, mw_equiv w1 w2 -> mw_equiv w2 w1.
Proof. intros w1 w2 (A & B & C). unfold mw_equiv. split; [auto|]. split; [auto|]. apply msi_equiv_sym; exact C. Qed.

Lemma mw_equiv_trans : forall w1 w2 w3, mw_equiv w1 w2 -> mw_equiv w2 w3 -> mw_equiv w1 w3.
Proof.
  intros w1 w2 w3 (A & B & C) (A' & B' & C'). unfold mw_equiv.
  split; [congruence|]. split; [congruence|]. eapply msi_equiv_trans; eauto.
Qed.

Lemma orel_trans : forall A (R : A -> A -> Prop) o1 o2 o3,
  (forall a b c, R a b -> R b c -> R a c) -> orel R o1 o2 -> orel R o2 o3 -> orel R o1 o3.
Proof.
  intros A R [a|e|] [b|e'|] [c|e''|] T H1 H2; cbn [orel] in *; try contradiction; eauto. congruence.
Qed.

Lemma orel_sw_orel : forall A (R : A -> A -> Prop) o1 o2, orel_sw R o1 o2 <-> orel R o1 o2.
Proof. intros. reflexivity. Qed.

(* the result of running a snoop list: related memory systems, equal controllers, the remaining closures permuted *)
Definition run_rel (r1 r2 : mw * cc8 * list snoop_cl) : Prop :=
  mw_equiv (fst (fst r1)) (fst (fst r2)) /\ snd (fst r1) = snd (fst r2) /\ Permutation (snd r1) (snd r2).

Lemma run_rel_trans : forall a b c, run_rel a b -> run_rel b c -> run_rel a c.
Proof.
  intros a b c (A1 & A2 & A3) (B1 & B2 & B3). unfold run_rel.
  split; [eapply mw_equiv_trans; eauto|]. split; [congruence|]. eapply Permutation_trans; eauto.
Qed.

Lemma sn_list_ok_perm : forall k id l1 l2, Permutation l1 l2 -> sn_list_ok k id l1 -> sn_list_ok k id l2.
Proof.
  intros k id l1 l2 P [U C]. split.
  - eapply Permutation_Forall; eauto.
  - eapply ForallOrdPairs_perm; eauto. exact sn_compat_sym.
Qed.

Lemma sn_list_ok_tail : forall k id x l, sn_list_ok k id (x :: l) -> sn_list_ok k id l.
Proof. intros k id x l [U C]. inversion U; subst. inversion C; subst. split; assumption. Qed.

(* two compatible closures of one snoop list commute, whatever their kinds: ten ordered pairs are calculated in
   Mvp80OrdSwapA-D.v, the other six follow by the symmetry of the statement *)
Theorem sn_swap_all : forall x y, sn_swap_stmt x y.
Proof.
  intros [k1 c1|k1 c1|k1 c1 a b d|k1 c1 n] [k2 c2|k2 c2|k2 c2 a' b' d'|k2 c2 n'].
  - apply SA.swap_E1_E1.
  - apply SA.swap_E1_E3.
  - apply SA.swap_E1_W1.
  - apply SA.swap_E1_W3.
  - apply SA.sn_swap_sym, SA.swap_E1_E3.
  - apply SB.swap_E3_E3.
  - apply SA.sn_swap_sym, SC.swap_W1_E3.
  - apply SB.swap_E3_W3.
  - apply SA.sn_swap_sym, SA.swap_E1_W1.
  - apply SC.swap_W1_E3.
  - apply SD.swap_W1_W1.
  - apply SC.swap_W1_W3.
  - apply SA.sn_swap_sym, SA.swap_E1_W3.
  - apply SA.sn_swap_sym, SB.swap_E3_W3.
  - apply SA.sn_swap_sym, SC.swap_W1_W3.
  - apply SB.swap_W3_W3.
Qed.

Definition ocons {A} (o : option A) (l : list A) : list A := match o with Some a => a :: l | None => l end.

Lemma sn_run_cons : forall w c s t,
  sn_run w c (s :: t) =
  r <- sn_step w c s ;; r2 <- sn_run (fst (fst r)) (snd (fst r)) t ;;
  Ok (fst (fst r2), snd (fst r2), ocons (snd r) (snd r2)).
Proof.
  intros. cbn [sn_run]. destruct (sn_step w c s) as [[[w1 c1] o]| |]; cbn [bind fst snd]; try reflexivity.
  destruct (sn_run w1 c1 t) as [[[w2 c2] t']| |]; cbn [bind fst snd]; reflexivity.
Qed.

Lemma sn_run_cons2 : forall w c x y t,
  sn_run w c (x :: y :: t) =
  r <- sn2 w c x y ;; r2 <- sn_run (fst (fst (fst r))) (snd (fst (fst r))) t ;;
  Ok (fst (fst r2), snd (fst r2), ocons (snd (fst r)) (ocons (snd r) (snd r2))).
Proof.
  intros. rewrite sn_run_cons. unfold sn2.
  destruct (sn_step w c x) as [[[w1 c1] ox]| |]; cbn [bind fst snd]; try reflexivity.
  rewrite sn_run_cons.
  destruct (sn_step w1 c1 y) as [[[w2 c2] oy]| |]; cbn [bind fst snd]; try reflexivity.
  destruct (sn_run w2 c2 t) as [[[w3 c3] t']| |]; cbn [bind fst snd]; reflexivity.
Qed.

Lemma ocons_swap : forall A (a b : option A) l, Permutation (ocons a (ocons b l)) (ocons b (ocons a l)).
Proof. intros A [a|] [b|] l; cbn [ocons]; try apply Permutation_refl. apply perm_swap. Qed.

Lemma sn_run_equiv_rel : forall l w1 w2 c, mw_equiv w1 w2 -> orel run_rel (sn_run w1 c l) (sn_run w2 c l).
Proof.
  intros l w1 w2 c H. pose proof (sn_run_equiv l w1 w2 c H) as E.
  eapply orel_impl; [|exact E]. intros [[a1 a2] a3] [[b1 b2] b3] (X & Y & Z). cbn [fst snd] in *.
  unfold run_rel. cbn [fst snd]. subst. auto.
Qed.

Theorem sn_run_perm : forall l1 l2, Permutation l1 l2 -> forall w1 w2 c,
  mw_equiv w1 w2 -> mw_ok w1 -> cc_ok c -> sn_list_ok (w_msi w1) (c_id c) l1 ->
  orel run_rel (sn_run w1 c l1) (sn_run w2 c l2).
Proof.
  intros l1 l2 P. induction P as [|x l l' P IH|x y l|l l' l'' P1 IH1 P2 IH2]; intros w1 w2 c E MW CC OK.
  - apply sn_run_equiv_rel. exact E.
  - (* the same closure first *)
    rewrite !sn_run_cons.
    pose proof (sn_step_equiv w1 w2 c x E) as S.
    destruct (sn_step w1 c x) as [[[wa ca] oa]| |] eqn:E1, (sn_step w2 c x) as [[[wb cb] ob]| |];
      cbn [orel] in S; try contradiction; cbn [bind fst snd]; try exact I; try exact S.
    destruct S as (Sw & Sc & So). cbn [fst snd] in Sw, Sc, So. subst cb ob.
    destruct (IV.sn_step_inv _ _ _ _ _ _ E1 MW CC) as (MW' & CC' & KL & _ & _).
    assert (OK' : sn_list_ok (w_msi wa) (c_id ca) l).
    { rewrite (sn_step_id _ _ _ _ _ _ E1). eapply IV.sn_list_ok_keys_le; [exact KL|]. eapply sn_list_ok_tail; eauto. }
    specialize (IH wa wb ca Sw MW' CC' OK').
    destruct (sn_run wa ca l) as [[[wa' ca'] la]| |], (sn_run wb ca l') as [[[wb' cb'] lb]| |];
      cbn [orel] in IH; try contradiction; cbn [bind orel fst snd]; auto.
    destruct IH as (X & Y & Z). cbn [fst snd] in *. unfold run_rel. cbn [fst snd].
    split; [exact X|]. split; [exact Y|]. destruct oa; cbn [ocons]; [apply perm_skip|]; exact Z.
  - (* two closures swapped *)
    eapply orel_trans; [exact run_rel_trans | | apply sn_run_equiv_rel; exact E].
    rewrite !sn_run_cons2.
    destruct OK as [U C]. inversion U as [|? ? Uy U']; subst. inversion U' as [|? ? Ux U'']; subst.
    inversion C as [|? ? Cy C']; subst. inversion Cy as [|? ? Cyx _]; subst.
    pose proof (sn_swap_all y x w1 c MW CC Uy Ux Cyx) as S. unfold orel_sw in S.
    destruct (sn2 w1 c y x) as [[[[wa ca] oy] ox]| |], (sn2 w1 c x y) as [[[[wb cb] ox'] oy']| |];
      try contradiction; cbn [bind fst snd orel]; auto.
    destruct S as (Sm & Sl & Sk & Sc & So1 & So2). cbn [fst snd] in *. subst cb ox' oy'.
    assert (Ew : mw_equiv wa wb) by (unfold mw_equiv; auto).
    pose proof (sn_run_equiv l wa wb ca Ew) as R.
    destruct (sn_run wa ca l) as [[[wa' ca'] la]| |], (sn_run wb ca l) as [[[wb' cb'] lb]| |];
      cbn [orel] in R; try contradiction; cbn [bind orel fst snd]; auto.
    destruct R as (X & Y & Z). cbn [fst snd] in *. subst. unfold run_rel. cbn [fst snd].
    split; [exact X|]. split; [reflexivity|]. apply ocons_swap.
  - eapply orel_trans; [exact run_rel_trans | apply (IH1 w1 w1 c (mw_equiv_refl w1) MW CC OK) |].
    apply IH2; auto. eapply sn_list_ok_perm; eauto.
Qed.


Lemma cc_perm_trans : forall a b c, cc_perm a b -> cc_perm b c -> cc_perm a c.
Proof. exact Mvp80OrdSnoop.cc_perm_trans. Qed.

Lemma cc_perm_sym : forall a b, cc_perm a b -> cc_perm b a.
Proof. exact Mvp80OrdSnoop.cc_perm_sym. Qed.

Lemma set_snoop_cc_perm : forall c1 c2 l1 l2, cc_perm c1 c2 -> Permutation l1 l2 -> cc_perm (set_snoop c1 l1) (set_snoop c2 l2).
Proof.
  intros c1 c2 l1 l2 (A1 & A2 & A3 & A4 & A5 & A6 & A7 & A8) P. unfold cc_perm, set_snoop.
  cbn [c_id c_l1d c_read c_write c_snoop c_rsems c_wsems c_post]. repeat split; auto.
Qed.

Lemma cc_perm_nil : forall c1 c2, cc_perm c1 c2 -> c_snoop c1 = [] -> c1 = c2.
Proof.
  intros [i1 l1 r1 w1 s1 rs1 ws1 p1] [i2 l2 r2 w2 s2 rs2 ws2 p2] (A1 & A2 & A3 & A4 & A5 & A6 & A7 & A8) E.
  cbn [c_id c_l1d c_read c_write c_snoop c_rsems c_wsems c_post] in *. subst.
  apply Permutation_nil in A5. subst. reflexivity.
Qed.

(* the controller result of a snoop step: only the L1 is read and written *)
Definition stepc_rel (r1 r2 : mw * cc8 * option snoop_cl) : Prop :=
  fst (fst r1) = fst (fst r2) /\ cc_perm (snd (fst r1)) (snd (fst r2)) /\ snd r1 = snd r2.

Lemma cc_perm_set_l1d : forall c1 c2 l, cc_perm c1 c2 -> cc_perm (set_l1d c1 l) (set_l1d c2 l).
Proof.
  intros c1 c2 l (A1 & A2 & A3 & A4 & A5 & A6 & A7 & A8). unfold cc_perm, set_l1d.
  cbn [c_id c_l1d c_read c_write c_snoop c_rsems c_wsems c_post]. repeat split; auto.
Qed.

Lemma sn_step_ccperm : forall w c1 c2 s, cc_perm c1 c2 -> orel stepc_rel (sn_step w c1 s) (sn_step w c2 s).
Proof.
  intros w c1 c2 s H. pose proof H as (A1 & A2 & A3 & A4 & A5 & A6 & A7 & A8).
  unfold sn_step. rewrite <- A2.
  destruct s; cbv zeta;
  repeat match goal with
         | |- orel _ (bind ?m _) (bind ?m _) => destruct m as [?x| |]; cbn [bind orel]; auto
         | |- orel _ (match ?e with _ => _ end) (match ?e with _ => _ end) => destruct e
         | |- orel _ (if ?e then _ else _) (if ?e then _ else _) => destruct e
         end;
  cbn [orel]; auto;
  unfold stepc_rel; cbn [fst snd]; repeat split; auto using cc_perm_set_l1d.
Qed.

Definition runc_rel (r1 r2 : mw * cc8 * list snoop_cl) : Prop :=
  fst (fst r1) = fst (fst r2) /\ cc_perm (snd (fst r1)) (snd (fst r2)) /\ snd r1 = snd r2.

Lemma sn_run_ccperm : forall l w c1 c2, cc_perm c1 c2 -> orel runc_rel (sn_run w c1 l) (sn_run w c2 l).
Proof.
  induction l as [|s t IH]; intros w c1 c2 H.
  - cbn [sn_run orel]. unfold runc_rel. cbn [fst snd]. auto.
  - rewrite !sn_run_cons. pose proof (sn_step_ccperm w c1 c2 s H) as S.
    destruct (sn_step w c1 s) as [[[wa ca] oa]| |], (sn_step w c2 s) as [[[wb cb] ob]| |];
      cbn [orel] in S; try contradiction; cbn [bind fst snd orel]; auto.
    destruct S as (X & Y & Z). cbn [fst snd] in *. subst.
    specialize (IH wb ca cb Y).
    destruct (sn_run wb ca t) as [[[wa' ca'] la]| |], (sn_run wb cb t) as [[[wb' cb'] lb]| |];
      cbn [orel] in IH; try contradiction; cbn [bind fst snd orel]; auto.
    destruct IH as (X' & Y' & Z'). cbn [fst snd] in *. subst. unfold runc_rel. cbn [fst snd]. auto.
Qed.

(* the result of a call: related memory systems, controllers that differ by the order of their closures *)
Definition snoopc_rel (r1 r2 : mw * cc8) : Prop := mw_equiv (fst r1) (fst r2) /\ cc_perm (snd r1) (snd r2).

Theorem cc_snoop_cycle_rel : forall ord1 ord2 cycle w1 w2 c1 c2,
  mw_equiv w1 w2 -> cc_perm c1 c2 -> mw_ok w1 -> cc_ok c1 -> sn_list_ok (w_msi w1) (c_id c1) (c_snoop c1) ->
  fst (cc_snoop_cycle ord1 cycle w1 c1) = fst (cc_snoop_cycle ord2 cycle w2 c2) /\
  orel snoopc_rel (snd (cc_snoop_cycle ord1 cycle w1 c1)) (snd (cc_snoop_cycle ord2 cycle w2 c2)).
Proof.
  intros ord1 ord2 cycle w1 w2 c1 c2 E P MW CC OK.
  pose proof P as (A1 & A2 & A3 & A4 & A5 & A6 & A7 & A8).
  unfold cc_snoop_cycle.
  destruct (c_snoop c1) as [|s1 t1] eqn:S1.
  - (* coSnoop *)
    assert (c1 = c2) by (eapply cc_perm_nil; eauto). subst c2. rewrite S1.
    destruct E as (Em & El & Ek). pose proof Ek as (_ & _ & _ & Ecmds & _).
    rewrite <- Ecmds. cbn [fst snd]. split; [reflexivity|].
    set (reqs := filter (fun kc => ck_id (fst kc) =? c_id c1) (k_cmds (w_msi w1))).
    assert (N : NoDup (map snd reqs)).
    { apply NoDup_map_filter. destruct MW as (_ & N & _). exact N. }
    pose proof (snoop_sorted_perm ord1 cycle (- (3 + c_id c1)) reqs N) as P1.
    pose proof (snoop_sorted_perm ord2 cycle (- (3 + c_id c1)) reqs N) as P2.
    unfold snoop_sorted in P1, P2.
    assert (P12 : Permutation
              (flat_map (fun cid => filter (fun kc => snd kc =? cid) reqs) (map_order ord1 cycle (- (3 + c_id c1)) (map snd reqs)))
              (flat_map (fun cid => filter (fun kc => snd kc =? cid) reqs) (map_order ord2 cycle (- (3 + c_id c1)) (map snd reqs))))
      by (eapply Permutation_trans; [exact P1 | apply Permutation_sym; exact P2]).
    pose proof (sn_create_all_perm _ _ w1 c1 P12) as C.
    assert (Ew : mw_equiv w1 w2) by (unfold mw_equiv; auto).
    pose proof (sn_create_all_equiv
                  (flat_map (fun cid => filter (fun kc => snd kc =? cid) reqs) (map_order ord2 cycle (- (3 + c_id c1)) (map snd reqs)))
                  w1 w2 c1 Ew) as Q.
    destruct (sn_create_all w1 c1 (flat_map _ (map_order ord1 _ _ _))) as [[wa ca]| |],
             (sn_create_all w1 c1 (flat_map _ (map_order ord2 _ _ _))) as [[wb cb]| |],
             (sn_create_all w2 c1 (flat_map _ (map_order ord2 _ _ _))) as [[wc cc]| |];
      cbn [orel] in *; try contradiction; auto; try congruence.
    destruct C as [-> C]. destruct Q as [Q1 Q2]. cbn [fst snd] in *. subst.
    unfold snoopc_rel. cbn [fst snd]. auto.
  - (* the closures of the list *)
    destruct (c_snoop c2) as [|s2 t2] eqn:S2.
    { apply Permutation_sym, Permutation_nil in A5. discriminate. }
    cbn [fst snd]. split; [reflexivity|].
    pose proof (sn_run_perm (s1 :: t1) (s2 :: t2) A5 w1 w2 c1 E MW CC OK) as R1.
    pose proof (sn_run_ccperm (s2 :: t2) w2 c1 c2 P) as R2.
    destruct (sn_run w1 c1 (s1 :: t1)) as [[[wa ca] la]| |], (sn_run w2 c1 (s2 :: t2)) as [[[wb cb] lb]| |],
             (sn_run w2 c2 (s2 :: t2)) as [[[wc cc] lc]| |];
      cbn [orel] in *; try contradiction; cbn [bind orel]; auto; try congruence.
    destruct R1 as (X1 & Y1 & Z1). destruct R2 as (X2 & Y2 & Z2). cbn [fst snd] in *. subst.
    unfold snoopc_rel. cbn [fst snd]. split; [exact X1|]. apply set_snoop_cc_perm; auto.
Qed.


Definition snoops_rel (r1 r2 : mw * list cc8) : Prop := mw_equiv (fst r1) (fst r2) /\ Forall2 cc_perm (snd r1) (snd r2).

Theorem snoops_cycle_rel : forall ord1 ord2 cycle ccs1 ccs2, Forall2 cc_perm ccs1 ccs2 -> forall w1 w2,
  mw_equiv w1 w2 -> mw_ok w1 -> Forall cc_ok ccs1 ->
  Forall (fun c => sn_list_ok (w_msi w1) (c_id c) (c_snoop c)) ccs1 ->
  fst (snoops_cycle ord1 cycle w1 ccs1) = fst (snoops_cycle ord2 cycle w2 ccs2) /\
  orel snoops_rel (snd (snoops_cycle ord1 cycle w1 ccs1)) (snd (snoops_cycle ord2 cycle w2 ccs2)).
Proof.
  intros ord1 ord2 cycle ccs1 ccs2 F. induction F as [|c1 c2 t1 t2 P F IH]; intros w1 w2 E MW CCS OKS.
  - cbn [snoops_cycle fst snd orel]. split; [reflexivity|]. unfold snoops_rel. cbn [fst snd]. auto.
  - cbn [snoops_cycle].
    inversion CCS as [|? ? CC CCt]; subst. inversion OKS as [|? ? OK OKt]; subst.
    destruct (cc_snoop_cycle_rel ord1 ord2 cycle w1 w2 c1 c2 E P MW CC OK) as [EF ER].
    pose proof (IV.cc_snoop_cycle_inv_weak ord1 cycle w1 c1) as CI.
    destruct (cc_snoop_cycle ord1 cycle w1 c1) as [osa ra], (cc_snoop_cycle ord2 cycle w2 c2) as [osb rb].
    cbn [fst snd] in *. subst osb.
    destruct ra as [[wa ca]| |], rb as [[wb cb]| |]; cbn [orel] in ER; try contradiction;
      cbn [fst snd orel]; auto.
    destruct ER as [Ew Ec]. cbn [fst snd] in Ew, Ec.
    destruct (CI wa ca eq_refl MW CC OK) as (MW' & CC' & KL & _).
    assert (OKt' : Forall (fun c => sn_list_ok (w_msi wa) (c_id c) (c_snoop c)) t1).
    { eapply Forall_impl; [|exact OKt]. intros c H. eapply IV.sn_list_ok_keys_le; eauto. }
    destruct (IH wa wb Ew MW' CCt OKt') as [EF2 ER2].
    destruct (snoops_cycle ord1 cycle wa t1) as [os2a r2a], (snoops_cycle ord2 cycle wb t2) as [os2b r2b].
    cbn [fst snd] in *. subst os2b. split; [reflexivity|].
    destruct r2a as [[wa' la]| |], r2b as [[wb' lb]| |]; cbn [orel] in ER2; try contradiction;
      cbn [bind orel fst snd]; auto.
    destruct ER2 as [X Y]. cbn [fst snd] in X, Y. unfold snoops_rel. cbn [fst snd]. split; [exact X|].
    constructor; assumption.
Qed.

(* two machines: the same pipeline, directories related by msi_equiv, controllers by cc_perm *)
Definition my_rel (y1 y2 : my) : Prop :=
  y_x y1 = y_x y2 /\ msi_equiv (y_msi y1) (y_msi y2) /\ y_copy y1 = y_copy y2 /\ y_pref y1 = y_pref y2 /\
  Forall2 cc_perm (y_ccs y1) (y_ccs y2).

Theorem snoops8_rel : forall ord1 ord2 cycle y1 y2, my_rel y1 y2 -> my_inv y1 ->
  orel my_rel (snoops8 ord1 cycle y1) (snoops8 ord2 cycle y2).
Proof.
  intros ord1 ord2 cycle y1 y2 (Rx & Rk & Rc & Rp & Rcc) (MW & CCS & OKS). unfold snoops8.
  assert (E : mw_equiv (mw_of y1) (mw_of y2)).
  { unfold mw_equiv, mw_of. cbn [w_mem w_l3 w_msi]. rewrite Rx. auto. }
  destruct (snoops_cycle_rel ord1 ord2 cycle _ _ Rcc _ _ E MW CCS OKS) as [EF ER].
  destruct (snoops_cycle ord1 cycle (mw_of y1) (y_ccs y1)) as [osa ra],
           (snoops_cycle ord2 cycle (mw_of y2) (y_ccs y2)) as [osb rb].
  cbn [fst snd] in *. subst osb.
  destruct ra as [[wa la]| |], rb as [[wb lb]| |]; cbn [orel] in ER; try contradiction; cbn [bind orel fst snd]; auto.
  destruct ER as [(Em & El & Ek) Ecc]. cbn [fst snd] in *.
  unfold my_rel, or_os8, set_ccs, put_mw, set_ymsi, set_x.
  cbn [y_x y_msi y_copy y_pref y_ccs].
  rewrite Rx, Em, El. auto.
Qed.

