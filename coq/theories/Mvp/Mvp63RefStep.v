(* Refinement of MVP-6.3 to the sequential machine on single-assignment, register-only,
   straight-line programs: one tick of Run.

   du_cycle3_eq     decodeUnit.cycle of MVP-6.3 is that of MVP-6.0 while ctx.sequenceID = 0 and all forward
                    fields are clear (the bridge to Mvp60RefStep.fd_ok);
   cu_cycle3_cbuf   controlUnit.cycle leaves the buffer of the control bus alone (Mvp63Proofs.cu_cycle3_frame);
   G3 / GR3         the invariants of the main loop and of the drain loop after ret: FrontI of the
                    MVP-6.0 proof on the shared machine, BI, and the timing facts (idle execute units,
                    empty write-bus queue between ticks);
   phi3             the potential (every item moves downstream): phiX_conn3, phiX_fd, phiX_cu, phiX_back say
                    what each stage of a tick does to it; when nothing moves the machine is Drained and Run returns;
   front_tick3      the front end of a tick of the main loop, up to the control unit (Mid3 is what holds then);
   back_tick3, ret_tick3     the execute units and the write units after it;
   step_normal3, step_ret3   one tick in either loop. *)
From Coq Require Import ZArith List Bool Lia Permutation.
From Maj Require Import Base.Outcome Base.GoInt Base.GoTypes Isa.Spec Isa.Embed Isa.Seq Isa.Refine.
From Maj Require Import Gen.Latency Gen.RiscTables Gen.Opcodes Comp.Cache Comp.Rat Comp.RatProofs.
From Maj Require Import Mvp.Mvp12 Mvp.Mvp12Proofs Mvp.Mvp3 Mvp.Mvp3Proofs Mvp.Mvp4Skel Mvp.Mvp4Inv Mvp.Mvp5 Mvp.Mvp60
     Mvp.Mvp60RefSem Mvp.Mvp60RefDefs Mvp.Mvp60RefFront Mvp.Mvp60RefBack Mvp.Mvp60RefStep Mvp.Mvp60RefStep2
     Mvp.Mvp63 Mvp.Mvp63Proofs Mvp.Mvp63RefDefs Mvp.Mvp63RefInv Mvp.Mvp63RefExec Mvp.Mvp63RefRat.
From Maj Require Export Mvp.Mvp63Class.
Import ListNotations.
Open Scope Z_scope.

(* ------------------------------------------------------------------ *)
(* controlUnit.cycle and the control bus                                *)

Lemma cu_cycle3_cbuf ord cy x : bb_buf (m_cbus (x_m (cu_cycle3 ord cy x))) = bb_buf (m_cbus (x_m x)).
Proof.
  apply (cu_cycle3_frame (fun x x' => bb_buf (m_cbus (x_m x')) = bb_buf (m_cbus (x_m x)))); clear; try reflexivity.
  - intros a b c H1 H2. congruence.
  - intros x cycle r x' r'. unfold push_runner3. destruct (negb (bb_canadd (x_ebus x))); [discriminate|]. intros H; injection H as <- _. reflexivity.
  - intros x l r. unfold after_push3. cbn [fst]. destruct (InstructionType_IsConditionalBranch _); reflexivity.
Qed.

(* ------------------------------------------------------------------ *)
(* the decode unit                                                      *)

Lemma set_fwd3_same x : set_fwd3 x (x_fwd x) = x. Proof. destruct x; reflexivity. Qed.

(* ------------------------------------------------------------------ *)
(* CPU.isEmpty                                                         *)

Definition Drained (x : mx) : Prop :=
  f_complete (m_fu (x_m x)) = true /\ x_pend x = [] /\ flat (m_dbus (x_m x)) = [] /\ flat (m_cbus (x_m x)) = [] /\
  flat (x_ebus x) = [] /\ flat (m_wbus (x_m x)) = [].

Lemma is_empty3_idle x eus wus : Forall EuIdle eus -> Forall (fun u => u_co u = WNone) wus ->
  (is_empty3 x eus wus = true <-> Drained x).
Proof.
  intros He Hw. unfold is_empty3, Drained. rewrite (eus_empty3 _ He), (wus_empty3 _ Hw).
  rewrite !andb_true_iff, !isempty_iff, Z.eqb_eq.
  assert (Hz : zlen (x_pend x) = 0 <-> x_pend x = []) by (split; [apply zlen_zero | intros ->; reflexivity]).
  rewrite Hz. tauto.
Qed.

Lemma Drained_back x x5 x6 : EuFrame3 x x5 -> WuFrame3 x5 x6 -> bb_q (x_ebus x5) = bb_q (x_ebus x) ->
  flat (m_wbus (x_m x6)) = [] -> Drained x -> Drained x6.
Proof.
  intros EF WF Hq Hw (Hc & Hp & Hd & Hcb & He & _). unfold Drained, flat in *.
  rewrite (w3_fu _ _ WF), (e3_fu _ _ EF), (w3_pend _ _ WF), (e3_pend _ _ EF), (w3_dbus _ _ WF), (e3_dbus _ _ EF),
    (w3_cbus _ _ WF), (e3_cbus _ _ EF), (w3_ebus _ _ WF), (e3_ebuf _ _ EF), Hq. auto 6.
Qed.

Section Step3.
  Variables (app : list instr) (labels : Z -> option Z) (regs0 mem0 : list Z) (ord : Z -> Z -> list Z -> list Z).
  Hypothesis Happ : wf_app app.
  Hypothesis Hstr : straight app = true.
  Hypothesis Hreg : reg_only app = true.
  Hypothesis Hssa : ssa app = true.
  Hypothesis Hrng : regs_ok app = true.
  Hypothesis Hlen0 : length regs0 = 32%nat.
  Hypothesis Hr32 : Forall int32 regs0.
  Hypothesis Hx0 : nth 0 regs0 0 = 0.
  Let n := length app.
  Let N := stop_from app 0.

  Notation sreg := (sreg app labels regs0 0).
  Notation eff := (eff app labels regs0 0).
  Notation rn := (rn app).
  Notation ik := (ik app).
  Notation wbn := (wbn app labels regs0 0).
  Notation BI := (BI app labels regs0 mem0).
  Notation FrontI := (FrontI app 0).
  Notation phiF := (phiF app).
  Notation kout := (kout app labels regs0 0).

  Hypothesis Hsem : forall k, (0 <= k <= N)%nat -> (k < n)%nat ->
    exec (sinstr_of (ik k)) (rget (sreg k)) labels (pcz k) [] = Ok (eff k) /\
    (forall a, etarget (eff k) = Some a -> exists t, a = pcz t /\ (k < t <= n)%nat).

  (* every lemma of the section takes all its hypotheses, whether its proof needs them or not, like those of
     Section Exec of Mvp63RefExec.v: IE L is L applied to that one list of arguments *)
  Set Default Proof Using "All".
  Notation "'IE' L" := (L app labels regs0 mem0 ord Happ Hstr Hreg Hssa Hrng Hlen0 Hr32 Hx0 Hsem) (at level 10, L at level 9, only parsing).

  Lemma regs0_le32 : (length regs0 <= 32)%nat. Proof. lia. Qed.

  Lemma set_forward3_id x pc : x_fwd x = repeat (0, 0) n -> set_forward3 x pc 0 0 = x.
  Proof. intros H. unfold set_forward3. rewrite H, upd3_repeat, <- H. apply set_fwd3_same. Qed.

  Lemma du_loop3_eq cycle : forall l ret pbr cbus x, x_seq x = 0 -> x_fwd x = repeat (0, 0) n ->
    du_loop3 (map pcz l) app cycle ret pbr cbus x =
    match du_loop (map pcz l) app cycle ret pbr cbus with
    | Ok (a, b, c, d) => Ok (a, b, c, d, x)
    | Err e => Err e
    | Panic => Panic
    end.
  Proof.
    induction l as [|k t IH]; intros ret pbr cbus x Hs Hf; cbn [map du_loop3 du_loop]; [reflexivity|].
    rewrite pcz_quot. unfold nlen6. fold n.
    destruct (Z.leb_spec (Z.of_nat n) (Z.of_nat k)) as [Hout|Hin]; [reflexivity|].
    destruct (Z.of_nat k <? 0); [reflexivity|]. destruct (nth_error app (Z.to_nat (Z.of_nat k))) as [i|]; [|reflexivity].
    cbv zeta. rewrite (set_forward3_id x (pcz k) Hf).
    rewrite (sequence_id_0 app labels regs0 Happ Hlen0 Hsem x k Hs ltac:(fold n; lia)).
    destruct (InstructionType_IsUnconditionalBranch (instr_InstructionType i)); [reflexivity|].
    destruct (instr_InstructionType i =? Ret); [reflexivity|]. apply IH; assumption.
  Qed.

  Lemma du_cycle3_eq cycle x l : x_seq x = 0 -> x_fwd x = repeat (0, 0) n -> bb_q (m_dbus (x_m x)) = map pcz l ->
    du_cycle3 app cycle x = match du_cycle6 app cycle (x_m x) with Ok m' => Ok (set_m x m') | Err e => Err e | Panic => Panic end.
  Proof.
    intros Hs Hf Hq. unfold du_cycle3, du_cycle6. destruct (m_dret (x_m x)); [rewrite set_m_same; reflexivity|].
    destruct (m_dpbr (x_m x)); [rewrite set_m_same; reflexivity|]. rewrite Hq, (du_loop3_eq cycle l _ _ _ x Hs Hf).
    destruct (du_loop (map pcz l) app cycle false false (m_cbus (x_m x))) as [[[[a b] c] d]| |]; reflexivity.
  Qed.

  (* fetchUnit.cycle ; decodeUnit.cycle *)
  Lemma fd_ok3 d c f cyc x : FrontI d c f cyc (x_m x) -> x_seq x = 0 -> x_fwd x = repeat (0, 0) n ->
    exists fu1 l1i1 dbus1 m3 c' f',
      fu_cycle6 app (cyc + 1) (m_fu (x_m x)) (m_l1i (x_m x)) (m_dbus (x_m x)) = Ok (fu1, l1i1, dbus1) /\
      du_cycle3 app (cyc + 1) (set_m x (set_dbus (set_l1i (set_fu (x_m x) fu1) l1i1) dbus1)) = Ok (set_m x m3) /\
      FrontI d c' f' (cyc + 1) m3 /\
      m_regs m3 = m_regs (x_m x) /\ m_mem m3 = m_mem (x_m x) /\ m_pw m3 = m_pw (x_m x) /\ m_pr m3 = m_pr (x_m x) /\ m_l3 m3 = m_l3 (x_m x) /\
      m_ebus m3 = m_ebus (x_m x) /\ m_wbus m3 = m_wbus (x_m x) /\ m_cu m3 = m_cu (x_m x) /\ bb_q (m_cbus m3) = bb_q (m_cbus (x_m x)) /\
      phiF (m_fu m3) + 10 * blen (m_dbus m3) + 9 * qlen (m_dbus m3) + 8 * blen (m_cbus m3)
        <= phiF (m_fu (x_m x)) + 10 * blen (m_dbus (x_m x)) + 9 * qlen (m_dbus (x_m x)) + 8 * blen (m_cbus (x_m x)) /\
      (phiF (m_fu m3) + 10 * blen (m_dbus m3) + 9 * qlen (m_dbus m3) + 8 * blen (m_cbus m3)
        < phiF (m_fu (x_m x)) + 10 * blen (m_dbus (x_m x)) + 9 * qlen (m_dbus (x_m x)) + 8 * blen (m_cbus (x_m x)) \/
       (((f_co (m_fu (x_m x)) = FDone /\ phiF (m_fu m3) = phiF (m_fu (x_m x)) /\ f_complete (m_fu m3) = f_complete (m_fu (x_m x))) \/
         (f_co (m_fu (x_m x)) = FNone /\ bb_canadd (m_dbus (x_m x)) = false)) /\
        (m_dret (x_m x) = true \/ m_dpbr (x_m x) = true \/ bb_q (m_dbus (x_m x)) = []))).
  Proof.
    intros HF Hs Hf. set (m := x_m x) in *.
    destruct (fd_ok app labels regs0 0 Happ regs0_le32 (Nat.le_0_l _) Hsem d c f cyc m HF) as (m3 & c' & f' & E & Hrest).
    pose proof HF as [F1 Fc F2 F3 Fb F4 F5 F6 F7 F8 F9 Fbt F10 F11 F12 F13 F14].
    destruct (fu_ok app 0 Happ cyc f (m_fu m) (m_l1i m) (m_dbus m) F1 F10 Fc) as (fu' & l1i' & k & Efu & _).
    rewrite Efu in E. cbn [bind] in E.
    eexists _, _, _, m3, c', f'. split; [exact Efu|]. split; [|exact Hrest].
    destruct (seq_split pcz (bb_q (m_dbus m)) (map snd (bb_buf (m_dbus m))) c (f - c) F2) as (Q1 & _ & _).
    rewrite (du_cycle3_eq (cyc + 1) _ (seq c (length (bb_q (m_dbus m))))); [| exact Hs | exact Hf | exact Q1].
    cbn [x_m set_m]. rewrite E. reflexivity.
  Qed.

  (* ---------------------------------------------------------------- *)
  (* the four Connect calls                                             *)

  Lemma conn3_ok D c f cyc x : FrontI D c f cyc (x_m x) -> BusOK cyc (x_ebus x) ->
    let x1 := connected3 x (cyc + 1) in
    FrontI D c f cyc (x_m x1) /\ BusOK cyc (x_ebus x1) /\
    flat (x_ebus x1) = flat (x_ebus x) /\ flat (m_wbus (x_m x1)) = flat (m_wbus (x_m x)) /\
    m_fu (x_m x1) = m_fu (x_m x) /\ m_dret (x_m x1) = m_dret (x_m x) /\ m_dpbr (x_m x1) = m_dpbr (x_m x) /\ m_cu (x_m x1) = m_cu (x_m x) /\
    qlen (m_dbus (x_m x1)) + blen (m_dbus (x_m x1)) = qlen (m_dbus (x_m x)) + blen (m_dbus (x_m x)) /\ qlen (m_dbus (x_m x)) <= qlen (m_dbus (x_m x1)) /\
    qlen (m_cbus (x_m x1)) + blen (m_cbus (x_m x1)) = qlen (m_cbus (x_m x)) + blen (m_cbus (x_m x)) /\ qlen (m_cbus (x_m x)) <= qlen (m_cbus (x_m x1)) /\
    qlen (x_ebus x1) + blen (x_ebus x1) = qlen (x_ebus x) + blen (x_ebus x) /\ qlen (x_ebus x) <= qlen (x_ebus x1) /\
    (blen (m_dbus (x_m x1)) = 0 \/ qlen (m_dbus (x_m x1)) = 2) /\ (blen (m_cbus (x_m x1)) = 0 \/ qlen (m_cbus (x_m x1)) = 2) /\
    (blen (x_ebus x1) = 0 \/ qlen (x_ebus x1) = 2).
  Proof.
    intros HF HE. cbv zeta. pose proof HF as [F1 Fc F2 F3 Fb F4 F5 F6 F7 F8 F9 Fbt F10 F11 F12 F13 F14].
    set (m := x_m x) in *.
    destruct (connect_spec cyc (m_dbus m) F10) as (D1 & D2 & D3 & D4 & D5).
    destruct (connect_spec cyc (m_cbus m) F11) as (C1 & C2 & C3 & C4 & C5).
    destruct (connect_spec cyc (x_ebus x) HE) as (E1 & E2 & E3 & E4 & E5).
    destruct (connect_spec cyc (m_wbus m) F13) as (W1 & W2 & W3 & W4 & W5).
    assert (X : forall T (b : bbus T), bb_buf b = [] \/ qlen b = 2 -> blen b = 0 \/ qlen b = 2).
    { intros T b [A|A]; [left; unfold blen; rewrite A; reflexivity | right; exact A]. }
    unfold connected3. fold m. cbn [x_m x_ebus set_ebus3 set_m set_wbus set_cbus set_dbus m_fu m_dret m_dpbr m_cu m_dbus m_cbus m_wbus].
    split; [|split; [exact E2|split; [exact E1|split; [exact W1|]]]].
    - constructor; cbn [set_wbus set_cbus set_dbus m_fu m_l1i m_dret m_dpbr m_cu m_bu m_dbus m_cbus m_ebus m_wbus];
        rewrite ?D1, ?C1; auto.
      intros Hc. destruct (Fc Hc) as [A B]. assert (Hx : flat (bb_connect (m_dbus m) (cyc + 1)) = []) by (rewrite D1; unfold flat; rewrite A, B; reflexivity).
      apply flat_nil_inv in Hx. tauto.
    - repeat split; auto; lia.
  Qed.

  (* ---------------------------------------------------------------- *)
  (* invariants of the two loops, potential                             *)

  Record G3 (dp d c f xe w : nat) (s : st3) : Prop := mkG3 {
    g3_front : FrontI (d + length (x_pend (t_x s))) c f (t_cycle s) (x_m (t_x s));
    g3_cu : m_cu (x_m (t_x s)) = [];
    g3_bi : BI dp d xe w (x_pend (t_x s)) (x_prev (t_x s)) (t_x s);
    g3_be : BusOK (t_cycle s) (x_ebus (t_x s));
    g3_eb : blen (x_ebus (t_x s)) <= 2;
    g3_eus : Forall EuIdle (t_eus s);
    g3_wus : Forall (fun u => u_co u = WNone) (t_wus s);
    g3_wne : t_wus s <> [];
    g3_len : length (t_eus s) = length (t_wus s);
    g3_wq : bb_q (m_wbus (x_m (t_x s))) = [];
    g3_wb : blen (m_wbus (x_m (t_x s))) <= Z.of_nat (length (t_wus s));
    g3_wb2 : blen (m_wbus (x_m (t_x s))) <= 2;
    g3_cyc : Z.of_nat d <= 2 * t_cycle s;
    g3_mode : t_mode s = NNormal }.

  Record GR3 (w : nat) (s : st3) : Prop := mkGR3 {
    r3_bi : exists dp, BI dp N N w [] [] (t_x s);
    r3_N : (N < n)%nat /\ is_ret (ik N) = true;
    r3_eus : Forall EuIdle (t_eus s);
    r3_wus : Forall (fun u => u_co u = WNone) (t_wus s);
    r3_wne : t_wus s <> [];
    r3_wb : bb_buf (m_wbus (x_m (t_x s))) = [];
    r3_wq : bb_q (m_wbus (x_m (t_x s))) <> [];
    r3_bw : BusOK (t_cycle s) (m_wbus (x_m (t_x s)));
    r3_cyc : Z.of_nat (S N) <= 2 * t_cycle s;
    r3_mode : t_mode s = NRet }.

  Definition phiX (x : mx) : Z :=
    let m := x_m x in
    phiF (m_fu m) + 10 * blen (m_dbus m) + 9 * qlen (m_dbus m) + 8 * blen (m_cbus m) + 7 * qlen (m_cbus m) + 7 * zlen (x_pend x)
    + 5 * blen (x_ebus x) + 4 * qlen (x_ebus x) + 2 * blen (m_wbus m) + qlen (m_wbus m).
  Definition phi3 (s : st3) : Z := phiX (t_x s).

  Definition Fin3 (r : mres) : Prop := Fin app labels regs0 mem0 0 0 r.

  (* j runners leave the queue of the execute bus, their results enter the buffer of the write bus;
     the write units empty its queue *)
  Lemma phiX_back x x5 x6 j : EuFrame3 x x5 -> WuFrame3 x5 x6 ->
    bb_q (x_ebus x5) = skipn j (bb_q (x_ebus x)) -> (j <= length (bb_q (x_ebus x)))%nat ->
    blen (m_wbus (x_m x5)) = blen (m_wbus (x_m x)) + Z.of_nat j -> bb_q (m_wbus (x_m x6)) = [] ->
    phiX x6 = phiX x - 2 * Z.of_nat j - qlen (m_wbus (x_m x)).
  Proof using.
    intros EF WF Hq Hj Hb Hq6. unfold blen in Hb. unfold phiX, blen, qlen. cbv zeta.
    rewrite (w3_fu _ _ WF), (e3_fu _ _ EF), (w3_dbus _ _ WF), (e3_dbus _ _ EF), (w3_cbus _ _ WF), (e3_cbus _ _ EF),
      (w3_pend _ _ WF), (e3_pend _ _ EF), (w3_ebus _ _ WF), (e3_ebuf _ _ EF), Hq, (w3_wbuf _ _ WF), Hb, Hq6.
    unfold zlen. rewrite skipn_length. cbn [length]. clear - Hj. lia.
  Qed.

  (* fetch and decode *)
  Lemma phiX_fd x m3 : m_wbus m3 = m_wbus (x_m x) -> bb_q (m_cbus m3) = bb_q (m_cbus (x_m x)) ->
    phiX (set_m x m3) - phiX x =
    phiF (m_fu m3) + 10 * blen (m_dbus m3) + 9 * qlen (m_dbus m3) + 8 * blen (m_cbus m3)
    - (phiF (m_fu (x_m x)) + 10 * blen (m_dbus (x_m x)) + 9 * qlen (m_dbus (x_m x)) + 8 * blen (m_cbus (x_m x))).
  Proof using.
    intros E1 E2. assert (Hq : qlen (m_cbus m3) = qlen (m_cbus (x_m x))) by (unfold qlen; rewrite E2; reflexivity).
    unfold phiX. cbn [x_m set_m x_pend x_ebus]. rewrite E1, Hq. ring.
  Qed.

  Lemma kout_plain k : (k < N)%nat -> kout k = euo_none.
  Proof.
    intros Hk. pose proof (N_le app labels regs0 Hlen0 Hsem) as HN. fold N n in HN.
    apply (plain_kout app labels regs0 0 Hsem k); [fold N; lia | fold n; lia|]. split.
    - destruct (is_ret (ik k)) eqn:E; [|reflexivity]. exfalso.
      assert (k = N) by (apply (is_ret_N app labels regs0 Hstr Hlen0 Hsem k); [fold N; lia | fold n; lia | exact E]). lia.
    - apply nobranch_branch. apply (ik_nobr app Hstr).
  Qed.

  (* the run ends at the end of the text: everything has been written back *)
  Lemma fin_end dp pl pv x cy : BI dp n n n pl pv x -> Z.of_nat n <= 2 * cy -> Fin3 (finish3 ord x cy).
  Proof.
    intros HB Hc. rewrite (finish3_ok app labels regs0 mem0 ord Hrng Hlen0 Hx0 _ _ _ _ _ _ _ cy HB).
    pose proof (bi_xeN _ _ _ _ _ _ _ _ _ _ _ HB) as HxN. fold N in HxN.
    exists cy, n. split; [reflexivity|]. split; [fold n; lia|]. split; [intros k Hk; apply kout_plain; lia|].
    left. split; [reflexivity | lia].
  Qed.

  (* ... or behind the ret *)
  Lemma fin_ret dp x cy : BI dp N N N [] [] x -> (N < n)%nat -> is_ret (ik N) = true -> Z.of_nat (S N) <= 2 * cy -> Fin3 (finish3 ord x cy).
  Proof.
    intros HB HNn Hret Hc. rewrite (finish3_ok app labels regs0 mem0 ord Hrng Hlen0 Hx0 _ _ _ _ _ _ _ cy HB).
    exists cy, N. split; [reflexivity|]. split; [fold n; lia|]. split; [intros k Hk; apply kout_plain; lia|].
    right. split; [exact HNn|]. split; [exact Hret | lia].
  Qed.

  (* ---------------------------------------------------------------- *)
  (* how many runners and results the buses hold                        *)

  Lemma BI_flat_len dp d xe w pl pv x : BI dp d xe w pl pv x -> qlen (x_ebus x) + blen (x_ebus x) = Z.of_nat (d - xe).
  Proof.
    intros HB. rewrite <- flat_len. pose proof (bi_ebus _ _ _ _ _ _ _ _ _ _ _ HB) as H. apply (f_equal (@length _)) in H.
    rewrite !map_length, seq_length in H. unfold zlen. rewrite H. reflexivity.
  Qed.

  Lemma BI_wflat_len dp d xe w pl pv x : BI dp d xe w pl pv x -> qlen (m_wbus (x_m x)) + blen (m_wbus (x_m x)) = Z.of_nat (xe - w).
  Proof.
    intros HB. rewrite <- flat_len. pose proof (bi_wbus _ _ _ _ _ _ _ _ _ _ _ HB) as H. apply (f_equal (@length _)) in H.
    rewrite !map_length, seq_length in H. unfold zlen. rewrite H. reflexivity.
  Qed.

  Lemma ebus_nil_xe dp d xe w pl pv x : BI dp d xe w pl pv x -> flat (x_ebus x) = [] -> xe = d.
  Proof.
    intros HB Hfl. pose proof (BI_flat_len _ _ _ _ _ _ _ HB) as H. rewrite <- flat_len, Hfl in H.
    rewrite zlen_nil in H. pose proof (bi_ord _ _ _ _ _ _ _ _ _ _ _ HB). lia.
  Qed.

  Lemma wbus_nil_w dp d xe w pl pv x : BI dp d xe w pl pv x -> flat (m_wbus (x_m x)) = [] -> w = xe.
  Proof.
    intros HB Hfl. pose proof (BI_wflat_len _ _ _ _ _ _ _ HB) as H. rewrite <- flat_len, Hfl in H.
    rewrite zlen_nil in H. pose proof (bi_ord _ _ _ _ _ _ _ _ _ _ _ HB). lia.
  Qed.

  Lemma front_cl_len D c f cy m : FrontI D c f cy m -> m_cu m = [] -> qlen (m_cbus m) + blen (m_cbus m) = Z.of_nat (Nat.min c n - D) /\ (D <= Nat.min c n)%nat.
  Proof. apply front_cl_len_b. Qed.

  (* ---------------------------------------------------------------- *)
  (* Run returns when CPU.isEmpty                                       *)


  (* everything has been fetched, dispatched, executed and written back *)
  Lemma fin_drained dp d c f xe w x cy : Drained x -> FrontI (d + length (x_pend x)) c f cy (x_m x) -> m_cu (x_m x) = [] ->
    BI dp d xe w (x_pend x) (x_prev x) x -> Z.of_nat d <= 2 * cy -> Fin3 (finish3 ord x cy).
  Proof.
    intros (Hc & Hp & Hd & Hcb & He & Hw) HF Hcu HB Hcyc.
    pose proof (ebus_nil_xe _ _ _ _ _ _ _ HB He) as Hxe. pose proof (wbus_nil_w _ _ _ _ _ _ _ HB Hw) as Hwx.
    rewrite Hp in HF, HB. cbn [length] in HF. rewrite Nat.add_0_r in HF.
    destruct (front_cl_len _ _ _ _ _ HF Hcu) as [Hcl Hdc]. rewrite <- flat_len, Hcb, zlen_nil in Hcl.
    pose proof (fr_dbus _ _ _ _ _ _ _ HF) as Hdb. rewrite Hd in Hdb. apply (f_equal (@length _)) in Hdb. rewrite map_length, seq_length in Hdb.
    destruct (fi_c _ _ _ _ (fr_fetch _ _ _ _ _ _ _ HF) Hc) as (_ & HfM & _). fold n in HfM.
    pose proof (fr_cf _ _ _ _ _ _ _ HF) as Hcf.
    assert (Hdn : d = n) by (cbn [length] in Hdb; lia).
    subst w xe. rewrite Hdn in HB. apply (fin_end dp [] (x_prev x) x cy HB). lia.
  Qed.

  (* the drain loop is entered / continued: connect the write bus, then its condition *)
  Lemma ret_tail3 dp w cyc x6 eus wus : BI dp N N w [] [] x6 -> Forall EuIdle eus ->
    Forall (fun u => u_co u = WNone) wus -> wus <> [] -> (N < n)%nat /\ is_ret (ik N) = true ->
    (bb_q (m_wbus (x_m x6)) = [] /\ blen (m_wbus (x_m x6)) <= 2) \/ bb_buf (m_wbus (x_m x6)) = [] -> BusOK cyc (m_wbus (x_m x6)) ->
    Z.of_nat (S N) <= 2 * cyc ->
    let x7 := wbus_connect3 x6 (cyc + 1) in
    let s2 := mk_st3 x7 eus wus (cyc + 1) NRet in
    (ret_check3 ord s2 = TCont s2 /\ GR3 w s2 /\ qlen (m_wbus (x_m x7)) = qlen (m_wbus (x_m x6)) + blen (m_wbus (x_m x6))) \/
    (exists r, ret_check3 ord s2 = TDone r false /\ Fin3 r).
  Proof.
    intros HB He Hw Hwne HN Hqb HW Hcyc. cbv zeta.
    set (x7 := wbus_connect3 x6 (cyc + 1)).
    assert (Q2 : bb_buf (bb_connect (m_wbus (x_m x6)) (cyc + 1)) = []).
    { destruct Hqb as [[Hq Hb2]|Hb]; [apply (connect_allq cyc (m_wbus (x_m x6)) HW Hq Hb2) | apply (connect_nobuf cyc (m_wbus (x_m x6)) HW Hb)]. }
    destruct (connect_spec cyc (m_wbus (x_m x6)) HW) as (W1 & W2 & W3 & W4 & W5).
    assert (B7 : BI dp N N w [] [] x7).
    { eapply BI_ext; [| | | | | | | | | | | | | | |exact HB]; try reflexivity. exact W1. }
    unfold ret_check3. cbn [t_eus t_wus t_x t_cycle]. rewrite (eus_empty3 _ He), (wus_empty3 _ Hw). cbn [andb].
    rewrite (bi_os _ _ _ _ _ _ _ _ _ _ _ B7).
    destruct (bb_isempty (m_wbus (x_m x7))) eqn:Edone.
    - right. eexists. split; [reflexivity|]. destruct HN as (HNn & Hret).
      assert (HwN : w = N) by (eapply wbus_nil_w; [exact B7 | apply isempty_flat; exact Edone]). subst w.
      apply (fin_ret dp x7 (cyc + 1) B7 HNn Hret). lia.
    - left. split; [reflexivity|]. split.
      + constructor; cbn [t_x t_eus t_wus t_cycle t_mode]; auto.
        * exists dp. exact B7.
        * intros Hx. unfold bb_isempty in Edone. unfold x7, wbus_connect3 in Edone, Hx. cbn [x_m set_m set_wbus m_wbus] in Edone, Hx.
          rewrite Hx, Q2 in Edone. discriminate.
        * unfold x7, wbus_connect3. cbn [x_m set_m set_wbus m_wbus]. eapply busok_mono; [|exact W2]. lia.
        * lia.
      + unfold x7, wbus_connect3. cbn [x_m set_m set_wbus m_wbus].
        assert (blen (bb_connect (m_wbus (x_m x6)) (cyc + 1)) = 0) by (unfold blen; rewrite Q2; reflexivity). lia.
  Qed.

  Lemma step_ret3 w s : GR3 w s ->
    (exists s' w', step3 app labels ord s = TCont s' /\ GR3 w' s' /\ qlen (m_wbus (x_m (t_x s'))) < qlen (m_wbus (x_m (t_x s)))) \/
    (exists r, step3 app labels ord s = TDone r false /\ Fin3 r).
  Proof.
    intros [(dp & GB) GN GE GW GWne Gwb Gwq Gbw Gcyc Gmode].
    unfold step3. rewrite Gmode. rewrite (IE eus_drain_idle (t_cycle s) (t_x s) _ GE). cbn [orb res_of3].
    rewrite or_os_false.
    destruct (IE wus_ok3 dp N N [] [] (t_wus s) (t_x s) w GW GB) as (x2 & Ew & B2 & F2 & Q2).
    rewrite Ew. cbn [res_of3].
    set (w' := (w + Nat.min (length (t_wus s)) (length (bb_q (m_wbus (x_m (t_x s))))))%nat) in *.
    assert (Hq6 : qlen (m_wbus (x_m x2)) < qlen (m_wbus (x_m (t_x s)))).
    { unfold qlen, zlen. rewrite Q2, skipn_length. destruct (bb_q (m_wbus (x_m (t_x s)))); [contradiction|].
      destruct (t_wus s); [contradiction|]. cbn [length]. lia. }
    assert (HW2 : BusOK (t_cycle s) (m_wbus (x_m x2))).
    { destruct F2. eapply BusOK_frame; [eassumption | eassumption | eassumption | | exact Gbw]. lia. }
    destruct (ret_tail3 dp w' (t_cycle s) x2 (t_eus s) (t_wus s) B2 GE GW GWne GN
                ltac:(right; rewrite (w3_wbuf _ _ F2); exact Gwb) HW2 Gcyc) as [(E & G2 & P2)|(r & E & HF)].
    - left. eexists _, w'. split; [exact E|]. split; [exact G2|]. cbn [t_x].
      assert (blen (m_wbus (x_m x2)) = 0) by (unfold blen; rewrite (w3_wbuf _ _ F2), Gwb; reflexivity). lia.
    - right. exists r. split; [exact E | exact HF].
  Qed.
  (* ---------------------------------------------------------------- *)
  (* one tick of the main loop: frames and potential                    *)

  Notation acc_of b := (mk_euo3 false 0 0 b None).

  Lemma FrontI_frame D c f cy m m' : FrontI D c f cy m ->
    m_fu m' = m_fu m -> m_l1i m' = m_l1i m -> m_dret m' = m_dret m -> m_dpbr m' = m_dpbr m -> m_cu m' = m_cu m ->
    m_dbus m' = m_dbus m -> m_cbus m' = m_cbus m -> m_ebus m' = m_ebus m -> b_btb (m_bu m') = b_btb (m_bu m) ->
    BusOK cy (m_wbus m') -> FrontI D c f cy m'.
  Proof. apply FrontI_frame_b. Qed.

  (* the execute units and the write units leave the front end alone *)
  Lemma FrontI_back D c f cy x x5 x6 : EuFrame3 x x5 -> WuFrame3 x5 x6 -> BusOK cy (m_wbus (x_m x6)) ->
    FrontI D c f cy (x_m x) -> FrontI D c f cy (x_m x6).
  Proof. intros [] [] HW HF. apply (FrontI_frame _ _ _ _ _ _ HF); [congruence.. | exact HW]. Qed.

  (* Connect moves runners from the buffers to the queues, the whole buffer of the write bus *)
  Lemma phiX_conn3 D c f cyc x : FrontI D c f cyc (x_m x) -> BusOK cyc (x_ebus x) ->
    bb_q (m_wbus (x_m x)) = [] -> blen (m_wbus (x_m x)) <= 2 ->
    phiX (connected3 x (cyc + 1)) + blen (m_wbus (x_m x)) <= phiX x.
  Proof.
    intros HF HE Hq Hb.
    destruct (conn3_ok D c f cyc x HF HE) as (_ & _ & _ & _ & C5 & _ & _ & _ & D1 & D2 & Cc1 & Cc2 & E1 & E2 & _).
    destruct (connect_allq cyc (m_wbus (x_m x)) (fr_bw _ _ _ _ _ _ _ HF) Hq Hb) as (Wq & Wb & _).
    unfold phiX. cbv zeta. rewrite C5.
    change (x_pend (connected3 x (cyc + 1))) with (x_pend x).
    change (m_wbus (x_m (connected3 x (cyc + 1)))) with (bb_connect (m_wbus (x_m x)) (cyc + 1)).
    assert (Wb' : blen (bb_connect (m_wbus (x_m x)) (cyc + 1)) = 0) by (unfold blen; rewrite Wb; reflexivity).
    assert (Wq' : qlen (bb_connect (m_wbus (x_m x)) (cyc + 1)) = blen (m_wbus (x_m x))) by (unfold qlen, blen, zlen; rewrite Wq, map_length; reflexivity).
    assert (Hq0 : qlen (m_wbus (x_m x)) = 0) by (unfold qlen; rewrite Hq; reflexivity).
    rewrite Wb', Wq', Hq0. lia.
  Qed.

  (* every runner the control unit dispatches goes from the queue of the control bus (or from pendings)
     to the buffer of the execute bus *)
  Lemma phiX_cu dp dp' d lp xe w c f cy x x' :
    BI dp d xe w (x_pend x) (x_prev x) x -> FrontI (d + length (x_pend x)) c f cy (x_m x) -> m_cu (x_m x) = [] ->
    BI dp' (d + lp) xe w (x_pend x') (x_prev x') x' -> FrontI (d + lp + length (x_pend x')) c f cy (x_m x') -> m_cu (x_m x') = [] ->
    qlen (x_ebus x') = qlen (x_ebus x) -> m_wbus (x_m x') = m_wbus (x_m x) -> m_fu (x_m x') = m_fu (x_m x) ->
    m_dbus (x_m x') = m_dbus (x_m x) -> bb_buf (m_cbus (x_m x')) = bb_buf (m_cbus (x_m x)) ->
    phiX x' + 2 * Z.of_nat lp = phiX x.
  Proof.
    intros HB HF Hcu HB' HF' Hcu' Q1 Q2 Q4 Q5 Qc.
    assert (Qc' : blen (m_cbus (x_m x')) = blen (m_cbus (x_m x))) by (unfold blen; rewrite Qc; reflexivity).
    pose proof (BI_flat_len _ _ _ _ _ _ _ HB) as L. pose proof (BI_flat_len _ _ _ _ _ _ _ HB') as L'. rewrite Q1 in L'.
    destruct (front_cl_len _ _ _ _ _ HF Hcu) as [N3 N3']. destruct (front_cl_len _ _ _ _ _ HF' Hcu') as [N4 N4']. rewrite Qc' in N4.
    pose proof (bi_ord _ _ _ _ _ _ _ _ _ _ _ HB) as Ho.
    unfold phiX. cbv zeta. rewrite Q1, Q2, Q4, Q5, Qc'. unfold zlen. clear - L L' N3 N3' N4 N4' Ho. lia.
  Qed.

  (* fetch and decode cannot move although nothing waits behind them: the text has been fetched and decoded *)
  Lemma fd_stuck D c f cyc m : FrontI D c f cyc m -> blen (m_dbus m) = 0 \/ qlen (m_dbus m) = 2 -> (Nat.min c n <= N)%nat ->
    f_co (m_fu m) = FDone \/ (f_co (m_fu m) = FNone /\ bb_canadd (m_dbus m) = false) ->
    m_dret m = true \/ m_dpbr m = true \/ bb_q (m_dbus m) = [] ->
    f_co (m_fu m) = FDone /\ f_complete (m_fu m) = true /\ flat (m_dbus m) = [].
  Proof.
    intros HF K1 HcN Hfu Hdu.
    assert (Hdq : bb_q (m_dbus m) = []).
    { destruct Hdu as [Hd|[Hd|Hd]]; [| |exact Hd]; exfalso.
      - destruct (fr_dret_t _ _ _ _ _ _ _ HF Hd) as (A & B & _). fold n N in A, B. lia.
      - destruct (fr_dpbr_t _ _ _ _ _ _ _ HF Hd) as (A & B & _). fold n N in A, B. lia. }
    assert (Db0 : blen (m_dbus m) = 0) by (destruct K1 as [K|K]; [exact K | unfold qlen in K; rewrite Hdq in K; discriminate K]).
    destruct Hfu as [Hco|[_ Hna]].
    2:{ exfalso. unfold bb_canadd in Hna. fold (blen (m_dbus m)) in Hna. rewrite Db0, (bus_bl _ _ (fr_bsd _ _ _ _ _ _ _ HF)) in Hna. discriminate. }
    split; [exact Hco|]. split; [|apply flat_nil; [unfold qlen; rewrite Hdq; reflexivity | exact Db0]].
    destruct (f_complete (m_fu m)) eqn:Ec; [reflexivity|]. destruct (fi_nc _ _ _ _ (fr_fetch _ _ _ _ _ _ _ HF) Ec) as [_ Hx]. contradiction.
  Qed.

  Lemma front3_ok x c x3 fu1 l1i1 dbus1 :
    fu_cycle6 app c (m_fu (x_m (connected3 x c))) (m_l1i (x_m (connected3 x c))) (m_dbus (x_m (connected3 x c))) = Ok (fu1, l1i1, dbus1) ->
    du_cycle3 app c (set_m (connected3 x c) (set_dbus (set_l1i (set_fu (x_m (connected3 x c)) fu1) l1i1) dbus1)) = Ok x3 ->
    front3 app ord c x = Ok (cu_cycle3 ord c x3).
  Proof. intros H1 H2. rewrite front3_eq, H1, H2. reflexivity. Qed.

  Lemma busok_succ {T} cy (b : bbus T) : BusOK cy b -> BusOK (cy + 1) b.
  Proof. apply busok_mono. lia. Qed.

  (* the write units take the whole queue of the write bus *)
  Lemma wus_all3 dp d xe pl pv wus x w : Forall (fun u => u_co u = WNone) wus -> BI dp d xe w pl pv x ->
    (length (bb_q (m_wbus (x_m x))) <= length wus)%nat ->
    exists x', wus_cycle3 x wus (-1) = Ok (x', wus) /\ BI dp d xe (w + length (bb_q (m_wbus (x_m x)))) pl pv x' /\
      WuFrame3 x x' /\ bb_q (m_wbus (x_m x')) = [].
  Proof.
    intros Hw HB Hl. destruct (IE wus_ok3 dp d xe pl pv wus x w Hw HB) as (x' & E & HB' & WF & Hq).
    rewrite Nat.min_r in HB' by exact Hl. rewrite skipn_all2 in Hq by exact Hl. exists x'. auto.
  Qed.

  (* ---------------------------------------------------------------- *)
  (* one tick of the main loop                                          *)

  (* between front3 and the loop over the execute units: x4 is the machine, d' - d runners have been dispatched *)
  Record Mid3 (d d' c f xe w : nat) (s : st3) (x4 : mx) : Prop := mkMid3 {
    md_run : front3 app ord (t_cycle s + 1) (t_x s) = Ok x4;
    md_front : FrontI (d' + length (x_pend x4)) c f (t_cycle s + 1) (x_m x4);
    md_cu : m_cu (x_m x4) = [];
    md_bi : BI d d' xe w (x_pend x4) (x_prev x4) x4;
    md_be : BusOK (t_cycle s + 1) (x_ebus x4);
    md_eb : blen (x_ebus x4) <= 2;
    md_eq : (xe + length (bb_q (x_ebus x4)) <= d)%nat;
    md_wb : bb_buf (m_wbus (x_m x4)) = [];
    md_wq : (length (bb_q (m_wbus (x_m x4))) <= length (t_wus s))%nat;
    md_cyc : Z.of_nat d' <= 2 * (t_cycle s + 1);
    md_phi : phiX x4 <= phi3 s;
    md_stuck : phiX x4 < phi3 s \/ bb_q (x_ebus x4) <> [] \/ Drained x4 }.

  (* the four Connect calls, fetch, decode, the control unit *)
  Lemma front_tick3 dp d c f xe w s : G3 dp d c f xe w s -> exists x4 lp c' f', Mid3 d (d + lp) c' f' xe w s x4.
  Proof.
    intros [GF Gcu GB Gbe Geb _ _ _ _ Gwq Gwb Gwb2 Gcyc _].
    set (x0 := t_x s) in *. set (cyc := t_cycle s) in *. set (D := (d + length (x_pend x0))%nat) in *.
    destruct (conn3_ok D c f cyc x0 GF Gbe) as (C1 & CE & C3 & C4 & _ & _ & _ & C7 & _ & _ & _ & _ & E1 & E2 & K1 & K2 & K3).
    pose proof (phiX_conn3 D c f cyc x0 GF Gbe Gwq Gwb2) as P1.
    destruct (connect_allq cyc (m_wbus (x_m x0)) (fr_bw _ _ _ _ _ _ _ GF) Gwq Gwb2) as (Wq1 & Wb1 & _).
    set (x1 := connected3 x0 (cyc + 1)) in *.
    assert (HB1 : BI dp d xe w (x_pend x0) (x_prev x0) x1) by (eapply BI_ext; [..|exact GB]; try reflexivity; assumption).
    destruct (fd_ok3 D c f cyc x1 C1 (bi_seq _ _ _ _ _ _ _ _ _ _ _ HB1) (bi_fwd _ _ _ _ _ _ _ _ _ _ _ HB1))
      as (fu1 & l1i1 & dbus1 & m3 & c' & f' & Efu & Efd & F3 & R1 & R2 & R3 & R4 & R5 & R6 & R7 & R8 & R9 & Pfd & Sfd).
    pose proof (phiX_fd x1 m3 R7 R9) as P3.
    set (x3 := set_m x1 m3) in *.
    assert (HB3 : BI dp d xe w (x_pend x3) (x_prev x3) x3) by (eapply BI_ext; [..|exact HB1]; try reflexivity; cbn [x3 x_m set_m]; congruence).
    assert (Hcu3 : m_cu (x_m x3) = []) by (cbn [x3 x_m set_m]; congruence).
    pose proof (busok_succ _ _ CE) as HE3. change (x_ebus x1) with (x_ebus x3) in HE3.
    destruct (cu_cycle_ok app labels regs0 mem0 ord Hstr Hssa Hrng Hlen0 Hsem (cyc + 1) dp d xe w c' f' x3 HB3 F3 Hcu3 HE3)
      as (lp & HB4 & F4 & Hcu4 & HE4 & Q1 & Q2 & Q3 & Q4 & Q5 & Hprog & Hlp0).
    pose proof (phiX_cu dp d d lp xe w c' f' (cyc + 1) x3 _ HB3 F3 Hcu3 HB4 F4 Hcu4 Q1 Q2 Q4 Q5 (cu_cycle3_cbuf ord (cyc + 1) x3)) as P4.
    set (x4 := cu_cycle3 ord (cyc + 1) x3) in *.
    assert (Hw41 : m_wbus (x_m x4) = bb_connect (m_wbus (x_m x0)) (cyc + 1)) by (rewrite Q2; cbn [x3 x_m set_m]; rewrite R7; reflexivity).
    pose proof (BI_flat_len _ _ _ _ _ _ _ HB3) as L3. pose proof (BI_flat_len _ _ _ _ _ _ _ HB4) as L4. rewrite Q1 in L4.
    pose proof (bi_ord _ _ _ _ _ _ _ _ _ _ _ HB3) as Ho. pose proof (blen_ge0 (x_ebus x3)) as Gb3. pose proof (qlen_ge0 (x_ebus x0)) as Gq0.
    assert (Hbe4 : blen (x_ebus x4) <= 2).
    { apply (mvp63_dispatch_width ord (cyc + 1) x3); [apply (bus_bl _ _ HE3)|]. unfold ebus_ok. rewrite (bus_bl _ _ HE3).
      change (blen (x_ebus x1) <= 2). clear - E1 E2 Geb Gq0. lia. }
    exists x4, lp, c', f'. constructor.
    - exact (front3_ok x0 (cyc + 1) x3 fu1 l1i1 dbus1 Efu Efd).
    - exact F4.
    - exact Hcu4.
    - exact HB4.
    - exact HE4.
    - exact Hbe4.
    - change (Z.of_nat (length (bb_q (x_ebus x4)))) with (qlen (x_ebus x4)) in *. unfold qlen, zlen in Q1. clear - Q1 L3 Gb3 Ho. unfold qlen, zlen in L3. lia.
    - rewrite Hw41. exact Wb1.
    - rewrite Hw41, Wq1, map_length. unfold blen, zlen in Gwb. clear - Gwb. lia.
    - clear - Gcyc L3 L4 Hbe4 Gb3 Ho. lia.
    - change (phi3 s) with (phiX x0). clear - P1 P3 P4 Pfd Gwb. pose proof (blen_ge0 (m_wbus (x_m x0))). lia.
    - (* no progress anywhere: everything is empty *)
      change (phi3 s) with (phiX x0).
      destruct (Z.eq_dec (blen (m_wbus (x_m x0))) 0) as [Wz|Wnz]; [|left; pose proof (blen_ge0 (m_wbus (x_m x0))); clear - P1 P3 P4 Pfd Wnz H; lia].
      destruct (Nat.eq_dec lp 0) as [Hlpz|Hlpz]; [|left; clear - P1 P3 P4 Pfd Wz Hlpz; lia].
      destruct Sfd as [Hs|[Hfu Hdu]]; [left; clear - P1 P3 P4 Hs Wz; lia|].
      destruct (bb_q (x_ebus x4)) eqn:Eq4; [|right; left; discriminate]. right. right.
      assert (Eq0 : qlen (x_ebus x3) = 0) by (rewrite <- Q1; unfold qlen; rewrite Eq4; reflexivity).
      assert (Eb0 : blen (x_ebus x3) = 0) by (destruct K3 as [K|K]; [exact K | change (qlen (x_ebus x3) = 2) in K; clear - K Eq0; lia]).
      pose proof (flat_nil _ Eq0 Eb0) as Hfl3.
      pose proof (ebus_nil_xe _ _ _ _ _ _ _ HB3 Hfl3) as Hxd.
      assert (Hfw0 : flat (m_wbus (x_m x0)) = []) by (apply flat_nil; [unfold qlen; rewrite Gwq; reflexivity | exact Wz]).
      pose proof (wbus_nil_w _ _ _ _ _ _ _ GB Hfw0) as Hwx.
      assert (Hwd : w = d) by congruence. subst lp.
      assert (Hp0 : x_pend x3 = []).
      { destruct (x_pend x3) eqn:Ep; [reflexivity|]. exfalso. apply (Nat.lt_irrefl 0), (Hprog Hfl3 Hwd). left. discriminate. }
      assert (Hcq0 : bb_q (m_cbus (x_m x3)) = []).
      { destruct (bb_q (m_cbus (x_m x3))) eqn:Ec; [reflexivity|]. exfalso. apply (Nat.lt_irrefl 0), (Hprog Hfl3 Hwd). right. discriminate. }
      specialize (Hlp0 eq_refl). rewrite Hp0, Hcq0 in Hlp0. cbn [length] in Hlp0.
      assert (Hp4 : x_pend x4 = []) by (destruct (x_pend x4); [reflexivity | discriminate Hlp0]).
      assert (Hcq4 : bb_q (m_cbus (x_m x4)) = []) by (rewrite Hp4 in Hlp0; destruct (bb_q (m_cbus (x_m x4))); [reflexivity | discriminate Hlp0]).
      (* the control bus was empty after Connect, so fetch and decode have nothing left to do *)
      cbn [x3 x_m set_m] in Hcq0. rewrite R9 in Hcq0.
      assert (Cq0 : qlen (m_cbus (x_m x1)) = 0) by (unfold qlen; rewrite Hcq0; reflexivity).
      assert (Cb0 : blen (m_cbus (x_m x1)) = 0) by (destruct K2 as [K|K]; [exact K | clear - K Cq0; lia]).
      destruct (front_cl_len _ _ _ _ _ C1 ltac:(rewrite C7; exact Gcu)) as [N1 N1'].
      change (x_pend x3) with (x_pend x0) in Hp0.
      assert (HcN : (Nat.min c n <= N)%nat).
      { pose proof (bi_xeN _ _ _ _ _ _ _ _ _ _ _ GB) as HxN. fold N in HxN. unfold D in N1, N1'. rewrite Hp0 in N1, N1'. cbn [length] in N1, N1'.
        clear - N1 N1' Cq0 Cb0 HxN Hxd. lia. }
      destruct (fd_stuck D c f cyc (x_m x1) C1 K1 HcN ltac:(destruct Hfu as [(A & _)|A]; [left; exact A | right; exact A]) Hdu) as (Hco & Hcomp & Hfd1).
      destruct Hfu as [(_ & Hfu & Hcomp3)|[Hx _]]; [|congruence].
      pose proof (flat_len (m_dbus (x_m x1))) as Ld1. rewrite Hfd1, zlen_nil in Ld1.
      pose proof (blen_ge0 (m_dbus (x_m x1))). pose proof (qlen_ge0 (m_dbus (x_m x1))).
      pose proof (blen_ge0 (m_dbus m3)) as P5. pose proof (qlen_ge0 (m_dbus m3)) as P6. pose proof (blen_ge0 (m_cbus m3)) as P7.
      assert (Z3 : blen (m_dbus m3) = 0 /\ qlen (m_dbus m3) = 0 /\ blen (m_cbus m3) = 0) by (clear - Pfd Hfu Ld1 Cb0 H H0 P5 P6 P7; lia).
      destruct Z3 as (Zd & Zq & Zc).
      split; [rewrite Q4; cbn [x3 x_m set_m]; congruence|]. split; [exact Hp4|].
      split; [rewrite Q5; apply flat_nil; assumption|].
      split; [apply flat_nil; [unfold qlen; rewrite Hcq4; reflexivity | unfold blen, x4; rewrite cu_cycle3_cbuf; exact Zc]|].
      split; [|rewrite Hw41; change (flat (m_wbus (x_m x1)) = []); rewrite C4; exact Hfw0].
      pose proof (blen_ge0 (x_ebus x4)). apply flat_nil; [unfold qlen; rewrite Eq4; reflexivity | clear - L4 Eq0 Hxd H1; lia].
  Qed.

  (* the execute units took j runners, none of them the ret; then the write units: Run returns or goes on *)
  Lemma back_tick3 dp d0 c0 f0 d d' c f xe w s x4 x5 eus' j : G3 dp d0 c0 f0 xe w s -> Mid3 d d' c f xe w s x4 ->
    eus_main3 labels ord (t_cycle s + 1) x4 (t_eus s) (acc_of false) = (false, Ok (x5, eus', acc_of false)) ->
    Forall EuIdle eus' -> length eus' = length (t_eus s) -> BI d d' (xe + j) w (x_pend x4) (x_prev x4) x5 -> EuFrame3 x4 x5 ->
    bb_q (x_ebus x5) = skipn j (bb_q (x_ebus x4)) -> BusOK (t_cycle s + 1) (m_wbus (x_m x5)) ->
    blen (m_wbus (x_m x5)) = Z.of_nat j ->
    (j <= length (bb_q (x_ebus x4)))%nat -> (j <= length (t_eus s))%nat -> (j = O -> bb_q (x_ebus x4) = []) ->
    (exists s' dp' d' c' f' xe' w', step3 app labels ord s = TCont s' /\ G3 dp' d' c' f' xe' w' s' /\ phi3 s' < phi3 s) \/
    (exists r, step3 app labels ord s = TDone r false /\ Fin3 r) \/
    (exists s' w', step3 app labels ord s = TCont s' /\ GR3 w' s').
  Proof.
    intros [_ _ _ _ _ _ Gw Gwne Glen _ _ _ _ Gmode] [Efront F4 Hcu4 _ HE4 Hbe4 _ Hwb4 Hwq4 Hcyc Hphi Hstuck]
      Ee A1 A2 HB5 EF5 Hq5 HW5 Hb5 Hjq Hje Hj0.
    destruct (wus_all3 d d' (xe + j) (x_pend x4) (x_prev x4) (t_wus s) x5 w Gw HB5) as (x6 & Ew & HB6 & WF6 & Hq6);
      [rewrite (e3_wq _ _ EF5); exact Hwq4|].
    rewrite (e3_wq _ _ EF5) in HB6. set (nw := length (bb_q (m_wbus (x_m x4)))) in *.
    assert (Ypend : x_pend x6 = x_pend x4) by (rewrite (w3_pend _ _ WF6); exact (e3_pend _ _ EF5)).
    assert (Yprev : x_prev x6 = x_prev x4) by (rewrite (w3_prev _ _ WF6); exact (e3_prev _ _ EF5)).
    rewrite <- Ypend, <- Yprev in HB6.
    assert (HW6 : BusOK (t_cycle s + 1) (m_wbus (x_m x6))).
    { eapply BusOK_frame; [exact (w3_wbuf _ _ WF6) | exact (w3_wql _ _ WF6) | exact (w3_wbl _ _ WF6) | | exact HW5].
      unfold qlen. rewrite Hq6. apply zlen_nonneg. }
    assert (HF6 : FrontI (d' + length (x_pend x6)) c f (t_cycle s + 1) (x_m x6)) by (rewrite Ypend; exact (FrontI_back _ _ _ _ _ _ _ EF5 WF6 HW6 F4)).
    assert (Hcu6 : m_cu (x_m x6) = []) by (rewrite (w3_cu _ _ WF6), (e3_cu _ _ EF5); exact Hcu4).
    assert (HE6 : BusOK (t_cycle s + 1) (x_ebus x6)).
    { rewrite (w3_ebus _ _ WF6). eapply BusOK_frame; [exact (e3_ebuf _ _ EF5) | exact (e3_eql _ _ EF5) | exact (e3_ebl _ _ EF5) | | exact HE4].
      unfold qlen, zlen. rewrite Hq5, skipn_length. lia. }
    assert (Hb6 : blen (m_wbus (x_m x6)) = Z.of_nat j) by (unfold blen; rewrite (w3_wbuf _ _ WF6); exact Hb5).
    assert (Hphi6 : phiX x6 = phiX x4 - 2 * Z.of_nat j - qlen (m_wbus (x_m x4))).
    { apply (phiX_back x4 x5 x6 j EF5 WF6 Hq5 Hjq); [|exact Hq6]. rewrite Hb5. unfold blen. rewrite Hwb4. reflexivity. }
    unfold step3. rewrite Gmode, Efront. cbn [res_of3]. change yo_none with (acc_of false). rewrite Ee. cbn [res_of3 orb].
    rewrite or_os_false. unfold back3. cbn [y_err y_flush y_ret]. rewrite Ew. cbn [res_of3].
    destruct (is_empty3 x6 eus' (t_wus s)) eqn:Eemp.
    - right. left. rewrite (bi_os _ _ _ _ _ _ _ _ _ _ _ HB6). eexists. split; [reflexivity|].
      apply (is_empty3_idle x6 eus' (t_wus s) A1 Gw) in Eemp.
      exact (fin_drained d d' c f (xe + j) (w + nw) x6 (t_cycle s + 1) Eemp HF6 Hcu6 HB6 Hcyc).
    - left. eexists _, d, d', c, f, (xe + j)%nat, (w + nw)%nat. split; [reflexivity|]. split.
      + constructor; cbn [t_x t_eus t_wus t_cycle t_mode].
        * exact HF6.
        * exact Hcu6.
        * exact HB6.
        * exact HE6.
        * rewrite (w3_ebus _ _ WF6). unfold blen. rewrite (e3_ebuf _ _ EF5). exact Hbe4.
        * exact A1.
        * exact Gw.
        * exact Gwne.
        * congruence.
        * exact Hq6.
        * rewrite Hb6. clear - Hje Glen. lia.
        * rewrite Hb6. pose proof (bus_q _ _ HE4) as Hx. unfold qlen, zlen in Hx. clear - Hjq Hx. lia.
        * exact Hcyc.
        * reflexivity.
      + unfold phi3 at 1. cbn [t_x]. pose proof (qlen_ge0 (m_wbus (x_m x4))) as Hq4.
        destruct (Nat.eq_dec j 0) as [Hjz|Hjz]; [|clear - Hphi6 Hphi Hq4 Hjz; lia].
        destruct Hstuck as [Hs|[Hs|Hs]]; [clear - Hphi6 Hs Hq4; lia | destruct (Hs (Hj0 Hjz)) |].
        (* nothing moved in this tick: everything is empty, so Run has returned *)
        exfalso. subst j. assert (HD6 : Drained x6).
        { apply (Drained_back x4 x5 x6 EF5 WF6 Hq5); [|exact Hs]. apply flat_nil; [unfold qlen; rewrite Hq6; reflexivity | exact Hb6]. }
        rewrite (proj2 (is_empty3_idle x6 eus' (t_wus s) A1 Gw) HD6) in Eemp. discriminate Eemp.
  Qed.

  (* the ret is at the head of the execute bus: the first unit executes it and the drain loop is entered *)
  Lemma ret_tick3 dp d0 c0 f0 d d' c f xe w s x4 r q' : G3 dp d0 c0 f0 xe w s -> Mid3 d d' c f xe w s x4 ->
    bb_q (x_ebus x4) = r :: q' -> is_ret (ik xe) = true ->
    (exists r, step3 app labels ord s = TDone r false /\ Fin3 r) \/
    (exists s' w', step3 app labels ord s = TCont s' /\ GR3 w' s').
  Proof.
    intros [_ _ _ _ _ Ge Gw Gwne Glen _ _ _ _ Gmode] [Efront F4 Hcu4 HB4 HE4 _ _ Hwb4 Hwq4 Hcyc _ _] Eq4 Eret.
    assert (GEne : t_eus s <> []) by (intros E; apply Gwne; destruct (t_wus s); [reflexivity | rewrite E in Glen; discriminate]).
    assert (Hfl4 : flat (x_ebus x4) = r :: (q' ++ map snd (bb_buf (x_ebus x4)))) by (unfold flat; rewrite Eq4; reflexivity).
    destruct (head_entry app labels regs0 mem0 ord Hlen0 Hsem _ _ _ _ _ _ _ _ _ HB4 Hfl4) as (_ & _ & Hxd).
    destruct (front_dN app labels regs0 0 regs0_le32 (Nat.le_0_l _) Hsem _ _ _ _ _ F4) as [HdS Hdn]. fold n N in HdS, Hdn.
    pose proof (bi_xeN _ _ _ _ _ _ _ _ _ _ _ HB4) as HxN. fold N in HxN.
    assert (HxeN : xe = N) by (apply (is_ret_N app labels regs0 Hstr Hlen0 Hsem xe HxN ltac:(fold n; lia)); exact Eret).
    assert (Hd4 : d' = S N) by lia.
    assert (Hp4 : x_pend x4 = []) by (destruct (x_pend x4); [reflexivity | cbn [length] in HdS; lia]).
    assert (Hq'b : q' = []).
    { pose proof (BI_flat_len _ _ _ _ _ _ _ HB4) as L4. unfold qlen, zlen in L4. rewrite Eq4 in L4. cbn [length] in L4.
      pose proof (blen_ge0 (x_ebus x4)) as Hbg. destruct q'; [reflexivity | cbn [length] in L4; lia]. }
    subst q'. rewrite Hp4, HxeN in HB4. rewrite HxeN in Eret.
    assert (Hadd4 : bb_canadd (m_wbus (x_m x4)) = true).
    { apply canadd_lt3; [apply (bus_bl _ _ (fr_bw _ _ _ _ _ _ _ F4)) | unfold blen; rewrite Hwb4; reflexivity]. }
    destruct (IE eus_main_ret (t_cycle s + 1) d d' w (x_prev x4) x4 r (t_eus s) GEne Ge HB4 Eq4 Eret Hadd4)
      as (x5 & eus' & Ee & A1 & A2 & _ & HB5 & EF5 & Hq5 & Hw5).
    destruct (wus_all3 d N N [] [] (t_wus s) x5 w Gw HB5) as (x6 & Ew & HB6 & WF6 & Hq6); [rewrite Hw5; exact Hwq4|].
    unfold step3. rewrite Gmode, Efront. cbn [res_of3]. change yo_none with (acc_of false). rewrite Ee. cbn [res_of3 orb].
    rewrite or_os_false. unfold back3. cbn [y_err y_flush y_ret]. rewrite Ew. cbn [res_of3].
    assert (Hb6 : blen (m_wbus (x_m x6)) = 0) by (unfold blen; rewrite (w3_wbuf _ _ WF6), Hw5, Hwb4; reflexivity).
    assert (HW6 : BusOK (t_cycle s + 1) (m_wbus (x_m x6))).
    { eapply BusOK_frame; [exact (w3_wbuf _ _ WF6) | exact (w3_wql _ _ WF6) | exact (w3_wbl _ _ WF6) | | rewrite Hw5; exact (fr_bw _ _ _ _ _ _ _ F4)].
      unfold qlen. rewrite Hq6. apply zlen_nonneg. }
    assert (HNr : (N < n)%nat /\ is_ret (ik N) = true) by (split; [lia | exact Eret]).
    destruct (ret_tail3 d _ (t_cycle s + 1) x6 eus' (t_wus s) HB6 A1 Gw Gwne HNr
                ltac:(left; split; [exact Hq6 | rewrite Hb6; lia]) HW6 ltac:(lia))
      as [(E & G2 & _)|(r0 & E & HFin)].
    - right. eexists _, _. split; [exact E | exact G2].
    - left. exists r0. split; [exact E | exact HFin].
  Qed.

  Lemma step_normal3 dp d c f xe w s : G3 dp d c f xe w s ->
    (exists s' dp' d' c' f' xe' w', step3 app labels ord s = TCont s' /\ G3 dp' d' c' f' xe' w' s' /\ phi3 s' < phi3 s) \/
    (exists r, step3 app labels ord s = TDone r false /\ Fin3 r) \/
    (exists s' w', step3 app labels ord s = TCont s' /\ GR3 w' s').
  Proof.
    intros HG. destruct (front_tick3 dp d c f xe w s HG) as (x4 & lp & c' & f' & HM).
    pose proof HG as [_ _ _ _ _ Ge _ Gwne Glen _ _ _ _ _]. pose proof HM as [_ F4 _ HB4 HE4 _ Hlqd Hwb4 _ _ _ _].
    pose proof (fr_bw _ _ _ _ _ _ _ F4) as HW4.
    assert (Hwb0 : blen (m_wbus (x_m x4)) = 0) by (unfold blen; rewrite Hwb4; reflexivity).
    destruct (bb_q (x_ebus x4)) as [|r q'] eqn:Eq4.
    - (* nothing to execute *)
      destruct (eus_main_idle labels ord (t_cycle s + 1) x4 false (t_eus s) Ge Eq4) as (eus' & Ee & A1 & A2).
      apply (back_tick3 _ _ _ _ _ _ _ _ _ _ _ _ x4 eus' O HG HM Ee A1 A2); [rewrite Nat.add_0_r; exact HB4 | apply EuFrame3_refl | reflexivity | exact HW4 | exact Hwb0
        | apply Nat.le_0_l | apply Nat.le_0_l | intros _; exact Eq4].
    - destruct (is_ret (ik xe)) eqn:Eret.
      + destruct (ret_tick3 _ _ _ _ _ _ _ _ _ _ _ _ r q' HG HM Eq4 Eret) as [H|H]; [right; left; exact H | right; right; exact H].
      + (* no ret in flight *)
        assert (Hfl4 : flat (x_ebus x4) = r :: (q' ++ map snd (bb_buf (x_ebus x4)))) by (unfold flat; rewrite Eq4; reflexivity).
        destruct (head_entry app labels regs0 mem0 ord Hlen0 Hsem _ _ _ _ _ _ _ _ _ HB4 Hfl4) as (_ & _ & Hxd).
        destruct (front_dN app labels regs0 0 regs0_le32 (Nat.le_0_l _) Hsem _ _ _ _ _ F4) as [_ Hdn]. fold n in Hdn.
        pose proof (bi_xeN _ _ _ _ _ _ _ _ _ _ _ HB4) as HxN. fold N in HxN.
        pose proof (bi_ret _ _ _ _ _ _ _ _ _ _ _ HB4) as Hbr. fold N in Hbr.
        assert (HxNne : xe <> N).
        { intros E. rewrite (proj2 (is_ret_N app labels regs0 Hstr Hlen0 Hsem xe HxN ltac:(fold n; lia)) E) in Eret. discriminate. }
        assert (HdN' : (d + lp <= N)%nat) by (destruct (Nat.le_gt_cases (d + lp) N) as [Hx|Hx]; [exact Hx | specialize (Hbr Hx); lia]).
        pose proof (bus_q _ _ HE4) as Hlq2. unfold qlen, zlen in Hlq2. rewrite Eq4 in Hlq2.
        destruct (IE eus_main_plain (t_cycle s + 1) d (d + lp)%nat w (x_pend x4) (x_prev x4) false (t_eus s) x4 xe (length (r :: q')) Ge HB4 HdN'
                    ltac:(rewrite Eq4; reflexivity) Hlqd HW4 ltac:(rewrite Hwb0; lia))
          as (x5 & eus' & Ee & A1 & A2 & HB5 & EF5 & Hq5 & HW5 & Hb5).
        apply (back_tick3 _ _ _ _ _ _ _ _ _ _ _ _ x5 eus' (Nat.min (length (t_eus s)) (length (r :: q'))) HG HM Ee A1 A2 HB5 EF5).
        * exact Hq5.
        * exact HW5.
        * unfold blen. rewrite Hb5, Hwb4. cbn [List.app]. unfold zlen. rewrite map_length, seq_length. reflexivity.
        * rewrite Eq4. apply Nat.le_min_r.
        * apply Nat.le_min_l.
        * intros Hz. exfalso. destruct (t_eus s); [apply Gwne; destruct (t_wus s); [reflexivity | discriminate Glen] | cbn [length] in Hz; lia].
  Qed.

  (* ---------------------------------------------------------------- *)
  (* the two loops together: a run from a state of either loop ends, with the sequential result *)

  Lemma run3_S s s' fuel : step3 app labels ord s = TCont s' -> run3_st (S fuel) app labels ord s = run3_st fuel app labels ord s'.
  Proof. intros H. cbn [run3_st]. rewrite H. reflexivity. Qed.

  Lemma run3_done s r os fuel : step3 app labels ord s = TDone r os -> run3_st (S fuel) app labels ord s = inl (r, os).
  Proof. intros H. cbn [run3_st]. rewrite H. reflexivity. Qed.

  Inductive SInv3 (s : st3) : Prop :=
  | SI3_n dp d c f xe w : G3 dp d c f xe w s -> SInv3 s
  | SI3_r w : GR3 w s -> SInv3 s.

  Definition mu3 (s : st3) : Z :=
    match t_mode s with
    | NNormal => phi3 s + 3
    | _ => qlen (m_wbus (x_m (t_x s)))
    end.

  Lemma phi3_nn dp d c f xe w s : G3 dp d c f xe w s -> 0 <= phi3 s.
  Proof.
    intros HG. unfold phi3, phiX.
    pose proof (fr_fetch _ _ _ _ _ _ _ (g3_front _ _ _ _ _ _ _ HG)) as HFt.
    pose proof (phiF_nonneg app 0 _ _ _ HFt).
    pose proof (blen_ge0 (m_dbus (x_m (t_x s)))). pose proof (qlen_ge0 (m_dbus (x_m (t_x s)))). pose proof (blen_ge0 (m_cbus (x_m (t_x s)))).
    pose proof (qlen_ge0 (m_cbus (x_m (t_x s)))). pose proof (zlen_nonneg (x_pend (t_x s))). pose proof (blen_ge0 (x_ebus (t_x s))).
    pose proof (qlen_ge0 (x_ebus (t_x s))). pose proof (blen_ge0 (m_wbus (x_m (t_x s)))). pose proof (qlen_ge0 (m_wbus (x_m (t_x s)))). lia.
  Qed.

  Lemma mu3_nonneg s : SInv3 s -> 0 <= mu3 s.
  Proof.
    intros [dp d c f xe w HG|w HG]; unfold mu3.
    - rewrite (g3_mode _ _ _ _ _ _ _ HG). pose proof (phi3_nn _ _ _ _ _ _ _ HG). lia.
    - rewrite (r3_mode _ _ HG). apply qlen_ge0.
  Qed.

  Lemma seg_run3 : forall (b : nat) s, SInv3 s -> mu3 s < Z.of_nat b ->
    exists k r, (1 <= k <= b)%nat /\ (forall extra, run3_st (k + extra) app labels ord s = inl (r, false)) /\ Fin3 r.
  Proof.
    induction b as [|b IH]; intros s HS Hmu.
    - pose proof (mu3_nonneg s HS). lia.
    - assert (Hnext : forall s', step3 app labels ord s = TCont s' -> SInv3 s' -> mu3 s' < mu3 s ->
                exists k r, (1 <= k <= S b)%nat /\ (forall extra, run3_st (k + extra) app labels ord s = inl (r, false)) /\ Fin3 r).
      { intros s' Es HS' Hlt. destruct (IH s' HS' ltac:(lia)) as (k & r & Hk & Hr & HF).
        exists (S k), r. split; [lia|]. split; [|exact HF]. intros extra. cbn [Nat.add]. rewrite (run3_S _ _ _ Es). apply Hr. }
      assert (Hdone : forall r, step3 app labels ord s = TDone r false -> Fin3 r ->
                exists k r, (1 <= k <= S b)%nat /\ (forall extra, run3_st (k + extra) app labels ord s = inl (r, false)) /\ Fin3 r).
      { intros r Es HF. exists 1%nat, r. split; [lia|]. split; [|exact HF]. intros extra. apply run3_done. exact Es. }
      destruct HS as [dp d c f xe w HG|w HG].
      + destruct (step_normal3 dp d c f xe w s HG) as [(s' & dp' & d' & c' & f' & xe' & w' & Es & HG' & Hlt)|[(r & Es & HF)|(s' & w' & Es & HG')]].
        * apply (Hnext s' Es (SI3_n s' dp' d' c' f' xe' w' HG')). unfold mu3. rewrite (g3_mode _ _ _ _ _ _ _ HG), (g3_mode _ _ _ _ _ _ _ HG'). lia.
        * apply (Hdone r Es HF).
        * apply (Hnext s' Es (SI3_r s' w' HG')). pose proof (phi3_nn _ _ _ _ _ _ _ HG) as H0.
          unfold mu3 in *. rewrite (g3_mode _ _ _ _ _ _ _ HG) in *. rewrite (r3_mode _ _ HG').
          pose proof (bus_q _ _ (r3_bw _ _ HG')). lia.
      + destruct (step_ret3 w s HG) as [(s' & w' & Es & HG' & Hlt)|(r & Es & HF)].
        * apply (Hnext s' Es (SI3_r s' w' HG')). unfold mu3. rewrite (r3_mode _ _ HG), (r3_mode _ _ HG'). exact Hlt.
        * apply (Hdone r Es HF).
  Qed.
End Step3.

