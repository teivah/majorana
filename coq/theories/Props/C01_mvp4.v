(* C01 / C12 / C07 for MVP-4 (five-stage in-order pipeline: fetch unit with L1I,
   decode unit, execute unit with the simple branch unit, write unit, SimpleBus
   latches, scoreboard of pending writes) on REGISTER-ONLY programs.
   Property theorems only; the proofs are in Mvp/Mvp4Proofs.v (and Mvp4Skel,
   Mvp4Inv, Mvp4Units, Mvp4Front, Mvp4Sim), about the cycle-level model
   Mvp/Mvp4.v, which is tied to proc/mvp4 by exact equality of cycles, registers
   and memory in the system differential.

   Hypotheses:
     wf_app, wf_labels : as for MVP-1..3 (int32 immediates and label targets,
                         text shorter than 2^31 - 8 bytes);
     reg_only app      : no load and no store instruction in the text
                         (InstructionType_IsMemoryRead / IsMemoryWrite);
     inv, length <= 32 : int32 registers (at most 32 of them), int8 memory;
     path_below        : every pc the SEQUENTIAL run visits, including the one at
                         which it leaves the text, is below 2^31 - 4.  Inside the
                         text this is implied by wf_app; it only restricts the
                         target of a final jump out of the text (see
                         C01_mvp4_exit_near_int32_max_panics_refuted).
   seq_path is the list of visited pcs (executed pcs + the halting pc);
   fuel_bound n = (n + 1) * 415 iterations of the Run loop.

   Programs with loads and stores: Props/C05_mvp4.v (the unrestricted statement is
   false - cold-store-then-load; proved under "every store hits in the L1D"). *)
From Coq Require Import ZArith List Bool Lia.
From Maj Require Import Base.Outcome Base.GoInt Isa.Spec Isa.Seq Isa.Refine Gen.Opcodes.
From Maj Require Import Mvp.Mvp12 Mvp.Mvp12Proofs Mvp.Mvp4 Mvp.Mvp4Skel Mvp.Mvp4Proofs.
Import ListNotations.
Open Scope Z_scope.

(* C01: for every register-only program on which the sequential machine terminates,
   the pipeline returns - no error, no panic - exactly the sequential registers and
   memory, for every fuel from fuel_bound (length tr) on *)
Theorem C01_mvp4_refines_seq_regonly : forall app labels, wf_app app -> wf_labels labels ->
  reg_only app = true ->
  forall fuel st st' tr,
  inv (regs st) (mem st) -> (length (regs st) <= 32)%nat ->
  seq_run fuel (map sinstr_of app) labels st = Done st' tr ->
  path_below (seq_path fuel (map sinstr_of app) labels st 0) = true ->
  exists c, forall fuel', (fuel_bound (length tr) <= fuel')%nat -> mvp4_run fuel' app labels st = MDone c st'.
Proof. intros app labels Ha Hl Hr. exact (path_refines_seq _ _ _ _ _ (mvp4_run_path app labels Ha Hl Hr)). Qed.
Print Assumptions C01_mvp4_refines_seq_regonly.

(* C12: a finished run counted at least one cycle (any program, any state) *)
Theorem C12_mvp4_cycles_at_least_one : forall fuel app labels st c st',
  mvp4_run fuel app labels st = MDone c st' -> 1 <= c.
Proof. exact mvp4_cycles_at_least_one. Qed.
Print Assumptions C12_mvp4_cycles_at_least_one.

(* C12: whenever the model finishes, with whatever fuel, it returns the sequential
   state and has counted at least one cycle per executed instruction (issue width 1) *)
Theorem C12_mvp4_cycles_lower_bound : forall app labels, wf_app app -> wf_labels labels ->
  reg_only app = true ->
  forall fuel st st' tr fuel' c st'',
  inv (regs st) (mem st) -> (length (regs st) <= 32)%nat ->
  seq_run fuel (map sinstr_of app) labels st = Done st' tr ->
  path_below (seq_path fuel (map sinstr_of app) labels st 0) = true ->
  mvp4_run fuel' app labels st = MDone c st'' ->
  st'' = st' /\ 1 <= c /\ Z.of_nat (length tr) <= c.
Proof. intros app labels Ha Hl Hr. exact (path_cycles_lower_bound _ _ _ _ _ (mvp4_run_more app labels) (fun f => mvp4_cycles_at_least_one f app labels)
         (mvp4_run_path app labels Ha Hl Hr)). Qed.
Print Assumptions C12_mvp4_cycles_lower_bound.

(* C12: the cycle count is mvp4_cost, a function of the program and the path only
   (the skeleton of the pipeline, which contains no register value) *)
Theorem C12_mvp4_cycles_function_of_path : forall app labels, wf_app app -> wf_labels labels ->
  reg_only app = true ->
  forall fuel st st' tr,
  inv (regs st) (mem st) -> (length (regs st) <= 32)%nat ->
  seq_run fuel (map sinstr_of app) labels st = Done st' tr ->
  path_below (seq_path fuel (map sinstr_of app) labels st 0) = true ->
  forall fuel', (fuel_bound (length tr) <= fuel')%nat ->
  exists c, mvp4_cost fuel' app (seq_path fuel (map sinstr_of app) labels st 0) = Some c /\
            mvp4_run fuel' app labels st = MDone c st'.
Proof. intros app labels Ha Hl Hr. exact (path_cycles_function _ _ _ _ _ (mvp4_run_path app labels Ha Hl Hr)). Qed.
Print Assumptions C12_mvp4_cycles_function_of_path.

(* C12: two initial states with the same path take the same number of cycles *)
Theorem C12_mvp4_value_independent : forall app labels, wf_app app -> wf_labels labels ->
  reg_only app = true ->
  forall fuel st1 st2 st1' st2' tr1 tr2,
  inv (regs st1) (mem st1) -> (length (regs st1) <= 32)%nat ->
  inv (regs st2) (mem st2) -> (length (regs st2) <= 32)%nat ->
  seq_run fuel (map sinstr_of app) labels st1 = Done st1' tr1 ->
  seq_run fuel (map sinstr_of app) labels st2 = Done st2' tr2 ->
  seq_path fuel (map sinstr_of app) labels st1 0 = seq_path fuel (map sinstr_of app) labels st2 0 ->
  path_below (seq_path fuel (map sinstr_of app) labels st1 0) = true ->
  exists c, forall fuel', (fuel_bound (Nat.max (length tr1) (length tr2)) <= fuel')%nat ->
    mvp4_run fuel' app labels st1 = MDone c st1' /\ mvp4_run fuel' app labels st2 = MDone c st2'.
Proof. intros app labels Ha Hl Hr. exact (path_value_independent _ _ _ _ _ fuel_bound_mono (mvp4_run_path app labels Ha Hl Hr)). Qed.
Print Assumptions C12_mvp4_value_independent.

(* C07: the run terminates within fuel_bound (length tr) iterations and
   2 * fuel_bound (length tr) cycles *)
Theorem C07_mvp4_terminates : forall app labels, wf_app app -> wf_labels labels ->
  reg_only app = true ->
  forall fuel st st' tr,
  inv (regs st) (mem st) -> (length (regs st) <= 32)%nat ->
  seq_run fuel (map sinstr_of app) labels st = Done st' tr ->
  path_below (seq_path fuel (map sinstr_of app) labels st 0) = true ->
  exists c, mvp4_run (fuel_bound (length tr)) app labels st = MDone c st' /\
            Z.of_nat (length tr) <= c <= 2 * Z.of_nat (fuel_bound (length tr)).
Proof. intros app labels Ha Hl Hr. exact (path_terminates _ _ _ _ _ (mvp4_run_path app labels Ha Hl Hr)). Qed.
Print Assumptions C07_mvp4_terminates.

Theorem C07_mvp4_no_panic : forall app labels, wf_app app -> wf_labels labels ->
  reg_only app = true ->
  forall fuel st st' tr fuel',
  inv (regs st) (mem st) -> (length (regs st) <= 32)%nat ->
  seq_run fuel (map sinstr_of app) labels st = Done st' tr ->
  path_below (seq_path fuel (map sinstr_of app) labels st 0) = true ->
  (fuel_bound (length tr) <= fuel')%nat ->
  mvp4_run fuel' app labels st <> MPanic /\ mvp4_run fuel' app labels st <> MOutOfFuel /\
  (forall e, mvp4_run fuel' app labels st <> MErr e).
Proof. intros app labels Ha Hl Hr. exact (path_no_panic _ _ _ _ _ (mvp4_run_path app labels Ha Hl Hr)). Qed.
Print Assumptions C07_mvp4_no_panic.

Theorem C07_mvp4_fuel_bound_value : forall n, fuel_bound n = ((n + 1) * 415)%nat.
Proof. exact fuel_bound_value. Qed.

(* findings: why path_below is a hypothesis, and why "same path" cannot be
   weakened to "same trace of executed pcs" *)
Theorem C01_mvp4_exit_near_int32_max_panics_refuted :
  let p := [SJalr 0 0 2147483646] in
  wf_app (map instr_of p) /\ reg_only (map instr_of p) = true /\
  (exists st' tr, seq_run 10 (map sinstr_of (map instr_of p)) no_lab zero_state = Done st' tr) /\
  path_below (seq_path 10 (map sinstr_of (map instr_of p)) no_lab zero_state 0) = false /\
  mvp4_run 2000 (map instr_of p) no_lab zero_state = MPanic.
Proof. exact mvp4_exit_near_int32_max_panics_refuted. Qed.
Print Assumptions C01_mvp4_exit_near_int32_max_panics_refuted.

Theorem C12_mvp4_same_trace_different_cycles_refuted :
  let p := [SJalr 0 5 0] in
  exists st1' st2' tr,
    seq_run 10 (map sinstr_of (map instr_of p)) no_lab (state_x5 4) = Done st1' tr /\
    seq_run 10 (map sinstr_of (map instr_of p)) no_lab (state_x5 1000) = Done st2' tr /\
    mvp4_run 2000 (map instr_of p) no_lab (state_x5 4) = MDone 314 st1' /\
    mvp4_run 2000 (map instr_of p) no_lab (state_x5 1000) = MDone 622 st2'.
Proof. exact mvp4_same_trace_different_cycles_refuted. Qed.
Print Assumptions C12_mvp4_same_trace_different_cycles_refuted.

Theorem C01_mvp4_more_than_32_registers_refuted :
  let p := [SLi 35 7; SAddi 36 35 1; SRet] in
  let st := mk_arch (repeat 0 40) (repeat 0 64) in
  exists st' tr c st4,
    seq_run 10 p no_lab st = Done st' tr /\
    mvp4_run 2000 (map instr_of p) no_lab st = MDone c st4 /\
    nth 36 (regs st') 0 = 8 /\ nth 36 (regs st4) 0 = 1.
Proof. exact mvp4_more_than_32_registers_refuted. Qed.
Print Assumptions C01_mvp4_more_than_32_registers_refuted.

(* non-vacuity: a loop with a taken backward branch (mispredicted four times: the
   pipeline flushes), RAW hazards (x5 -> add, x7 -> mul) and a final ret *)
Definition ex4_prog : list sinstr :=
  [SLi 5 0; SLi 6 5; (* 8: loop *) SAddi 5 5 1; SAdd 7 7 5; SBlt 5 6 1; SMul 8 7 7; SRet].
Definition ex4_labels : Z -> option Z := lookup [(1, 8)].

Example C01_mvp4_example :
  let app := map instr_of ex4_prog in
  wf_app app /\ wf_labels ex4_labels /\ reg_only app = true /\
  inv (regs zero_state) (mem zero_state) /\ (length (regs zero_state) <= 32)%nat /\
  path_below (seq_path 100 (map sinstr_of app) ex4_labels zero_state 0) = true /\
  exists st' tr c,
    seq_run 100 (map sinstr_of app) ex4_labels zero_state = Done st' tr /\
    mvp4_run (fuel_bound (length tr)) app ex4_labels zero_state = MDone c st' /\
    mvp4_cost (fuel_bound (length tr)) app (seq_path 100 (map sinstr_of app) ex4_labels zero_state 0) = Some c /\
    length tr = 19%nat /\ c = 346 /\ rget (regs st') 7 = 15 /\ rget (regs st') 8 = 225.
Proof.
  cbv zeta. split; [|split; [|split; [|split; [|split; [|split]]]]].
  - split; [|vm_compute; reflexivity]. cbn [map ex4_prog instr_of]. repeat constructor; vm_compute; discriminate.
  - intros l a H. unfold ex4_labels in H. cbn [lookup] in H.
    destruct (l =? 1); [injection H as <-; apply int32_bounds; lia | discriminate].
  - vm_compute. reflexivity.
  - split; apply Forall_forall; intros x Hx; apply repeat_spec in Hx; subst x; [apply int32_0 | apply int8_0].
  - vm_compute. lia.
  - vm_compute. reflexivity.
  - do 3 eexists. split; [vm_compute; reflexivity|]. split; [vm_compute; reflexivity|].
    split; [vm_compute; reflexivity|]. vm_compute. repeat split; reflexivity.
Qed.
