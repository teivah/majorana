(* C05 / C12 / C07 for MVP-4 on programs WITH loads and stores.
   Property theorems only; proofs in Mvp/Mvp4mProofs.v (skeleton Mvp4mSkel.v,
   invariants and progress Mvp4mInv.v / Mvp4mFront.v; the simulation is that of
   Mvp4sSim.v, whose skeleton this one is a special case of), about the
   cycle-level model Mvp/Mvp4.v.

   The unrestricted statement is FALSE for the faithful model
   (C05_mvp4_cold_store_then_load_refuted below: a store that misses in the L1D
   waits in the write bus behind earlier memory writes, a later load of its line
   fetches the stale line from memory).  Hypothesis used to exclude it:

     stores_hit [] evs : EVERY STORE HITS IN THE L1D - its 64-byte line was
                         loaded earlier and is still resident (recency list of the
                         16-line LRU L1D, computed from the addresses of the
                         sequential run only; no timing involved).

   Other hypotheses, as for MVP-3 (Props/C05_mvp3.v) and for register-only
   programs (Props/C01_mvp4.v): wf_app, wf_labels, int32 registers (at most 32),
   int8 memory of at most 2^31 - 64 bytes, every access inside one 64-byte line
   (accesses_ok), every visited pc below 2^31 - 4 (evs_below).
   seq_evs = events (pc, loaded addresses, stored addresses) of the sequential run,
   including the pc at which it halts; fuel_bound_m n = (n + 1) * 1035. *)
From Coq Require Import ZArith List Bool Lia.
From Maj Require Import Base.Outcome Base.GoInt Isa.Spec Isa.Seq Isa.Refine Gen.Opcodes Gen.Latency.
From Maj Require Import Mvp.Mvp12 Mvp.Mvp12Proofs Mvp.Mvp3 Mvp.Mvp3Proofs Mvp.Mvp4 Mvp.Mvp4Skel Mvp.Mvp4Proofs
     Mvp.Mvp4mSkel Mvp.Mvp4mProofs.
Import ListNotations.
Open Scope Z_scope.

(* the pipeline with its L1D returns exactly the sequential registers AND memory (all
   stores are in main memory after the final flush), no error, no panic, for every fuel
   from fuel_bound_m (length tr) on; at least one cycle per executed instruction *)
Theorem C05_mvp4_refines_seq_storehit : forall app labels, wf_app app -> wf_labels labels ->
  forall fuel st st' tr,
  inv (regs st) (mem st) -> (length (regs st) <= 32)%nat -> mem_small st ->
  accesses_ok fuel (map sinstr_of app) labels st 0 ->
  seq_run fuel (map sinstr_of app) labels st = Done st' tr ->
  evs_below (seq_evs fuel (map sinstr_of app) labels st 0) = true ->
  stores_hit [] (seq_evs fuel (map sinstr_of app) labels st 0) = true ->
  exists c, (forall fuel', (fuel_bound_m (length tr) <= fuel')%nat -> mvp4_run fuel' app labels st = MDone c st') /\
            Z.of_nat (length tr) <= c <= 2 * Z.of_nat (fuel_bound_m (length tr)) + MemoryAccess * 16.
Proof. exact mvp4_refines_seq_storehit. Qed.
Print Assumptions C05_mvp4_refines_seq_storehit.

(* the cycle count is mvp4_cost_mem: a function of the program and the events *)
Theorem C12_mvp4_cycles_function_of_events : forall app labels, wf_app app -> wf_labels labels ->
  forall fuel st st' tr,
  inv (regs st) (mem st) -> (length (regs st) <= 32)%nat -> mem_small st ->
  accesses_ok fuel (map sinstr_of app) labels st 0 ->
  seq_run fuel (map sinstr_of app) labels st = Done st' tr ->
  evs_below (seq_evs fuel (map sinstr_of app) labels st 0) = true ->
  stores_hit [] (seq_evs fuel (map sinstr_of app) labels st 0) = true ->
  exists c, (forall fuel', (fuel_bound_m (length tr) <= fuel')%nat ->
               mvp4_run fuel' app labels st = MDone c st' /\
               mvp4_cost_mem fuel' app (seq_evs fuel (map sinstr_of app) labels st 0) = Some c) /\
            Z.of_nat (length tr) <= c <= 2 * Z.of_nat (fuel_bound_m (length tr)) + MemoryAccess * 16.
Proof. exact mvp4_run_events. Qed.
Print Assumptions C12_mvp4_cycles_function_of_events.

Theorem C12_mvp4_value_independent_mem : forall app labels, wf_app app -> wf_labels labels ->
  forall fuel st1 st2 st1' st2' tr1 tr2,
  inv (regs st1) (mem st1) -> (length (regs st1) <= 32)%nat -> mem_small st1 ->
  accesses_ok fuel (map sinstr_of app) labels st1 0 ->
  inv (regs st2) (mem st2) -> (length (regs st2) <= 32)%nat -> mem_small st2 ->
  accesses_ok fuel (map sinstr_of app) labels st2 0 ->
  seq_run fuel (map sinstr_of app) labels st1 = Done st1' tr1 ->
  seq_run fuel (map sinstr_of app) labels st2 = Done st2' tr2 ->
  seq_evs fuel (map sinstr_of app) labels st1 0 = seq_evs fuel (map sinstr_of app) labels st2 0 ->
  evs_below (seq_evs fuel (map sinstr_of app) labels st1 0) = true ->
  stores_hit [] (seq_evs fuel (map sinstr_of app) labels st1 0) = true ->
  exists c, forall fuel', (fuel_bound_m (Nat.max (length tr1) (length tr2)) <= fuel')%nat ->
    mvp4_run fuel' app labels st1 = MDone c st1' /\ mvp4_run fuel' app labels st2 = MDone c st2'.
Proof. exact mvp4_value_independent_mem. Qed.
Print Assumptions C12_mvp4_value_independent_mem.

(* C07: no panic, no error, termination within fuel_bound_m (length tr) iterations *)
Theorem C07_mvp4_no_panic_mem : forall app labels, wf_app app -> wf_labels labels ->
  forall fuel st st' tr fuel',
  inv (regs st) (mem st) -> (length (regs st) <= 32)%nat -> mem_small st ->
  accesses_ok fuel (map sinstr_of app) labels st 0 ->
  seq_run fuel (map sinstr_of app) labels st = Done st' tr ->
  evs_below (seq_evs fuel (map sinstr_of app) labels st 0) = true ->
  stores_hit [] (seq_evs fuel (map sinstr_of app) labels st 0) = true ->
  (fuel_bound_m (length tr) <= fuel')%nat ->
  mvp4_run fuel' app labels st <> MPanic /\ mvp4_run fuel' app labels st <> MOutOfFuel /\
  (forall e, mvp4_run fuel' app labels st <> MErr e).
Proof. exact mvp4_no_panic_mem. Qed.
Print Assumptions C07_mvp4_no_panic_mem.

Theorem C07_mvp4_fuel_bound_m_value : forall n, fuel_bound_m n = ((n + 1) * 1035)%nat.
Proof. exact fuel_bound_m_value. Qed.

(* the finding: without the hypothesis the statement is false *)
Theorem C05_mvp4_cold_store_then_load_refuted :
  let p := [SLi 5 7; SSw 5 0 0; SSw 5 128 0; SSw 5 64 0; SLw 6 64 0; SRet] in
  let st := mk_arch (repeat 0 32) (repeat 0 256) in
  exists st' tr c st4,
    seq_run 20 p no_lab st = Done st' tr /\
    mvp4_run 5000 (map instr_of p) no_lab st = MDone c st4 /\
    rget (regs st') 6 = 7 /\ mget (mem st') 64 = 7 /\
    rget (regs st4) 6 = 0 /\ mget (mem st4) 64 = 0.
Proof. exact mvp4_cold_store_then_load_refuted. Qed.
Print Assumptions C05_mvp4_cold_store_then_load_refuted.

(* non-vacuity: read-modify-write over 20 lines (16 fit: evictions and write-backs),
   a second loop reading everything back, RAW hazards, taken backward branches *)
Definition ex4m_prog : list sinstr :=
  [SLi 5 0; SLi 6 1280;
   (* 8: loop1 *) SLw 7 0 5; SAddi 7 7 1; SSw 7 0 5; SSb 7 9 5; SAddi 5 5 64; SBlt 5 6 1;
   SLi 5 0;
   (* 36: loop2 *) SLw 8 0 5; SAdd 9 9 8; SAddi 5 5 64; SBlt 5 6 2;
   SLb 1 0 0; SSw 9 4 0].
Definition ex4m_labels : Z -> option Z := lookup [(1, 8); (2, 36)].
Definition ex4m_state : arch := mk_arch (repeat 0 32) (repeat 3 4096).

Example C05_mvp4_example :
  let app := map instr_of ex4m_prog in
  wf_app app /\ wf_labels ex4m_labels /\ inv (regs ex4m_state) (mem ex4m_state) /\
  (length (regs ex4m_state) <= 32)%nat /\ mem_small ex4m_state /\
  accesses_ok 400 (map sinstr_of app) ex4m_labels ex4m_state 0 /\
  evs_below (seq_evs 400 (map sinstr_of app) ex4m_labels ex4m_state 0) = true /\
  stores_hit [] (seq_evs 400 (map sinstr_of app) ex4m_labels ex4m_state 0) = true /\
  exists st' tr c,
    seq_run 400 (map sinstr_of app) ex4m_labels ex4m_state = Done st' tr /\
    mvp4_run (50 * 1000) app ex4m_labels ex4m_state = MDone c st' /\
    mvp4_cost_mem (50 * 1000) app (seq_evs 400 (map sinstr_of app) ex4m_labels ex4m_state 0) = Some c /\
    length tr = 205%nat /\ c = 20351 /\ mget (mem st') 0 = 4 /\ mget (mem st') 9 = 4 /\ mget (mem st') 1216 = 4.
Proof.
  cbv zeta. set (app := map instr_of ex4m_prog).
  assert (Happ : wf_app app).
  { split; [|vm_compute; reflexivity]. unfold app. cbn [map ex4m_prog instr_of]. repeat constructor; vm_compute; discriminate. }
  assert (Hlab : wf_labels ex4m_labels).
  { intros l a H. unfold ex4m_labels in H. cbn [lookup] in H.
    destruct (l =? 1); [injection H as <-; apply int32_bounds; lia|].
    destruct (l =? 2); [injection H as <-; apply int32_bounds; lia | discriminate]. }
  assert (Hinv : inv (regs ex4m_state) (mem ex4m_state)).
  { split; apply Forall_forall; intros x Hx; apply repeat_spec in Hx; subst x; [apply int32_0 | apply int8_bounds; lia]. }
  assert (Hlen : (length (regs ex4m_state) <= 32)%nat) by (vm_compute; lia).
  assert (Hsm : mem_small ex4m_state) by (vm_compute; discriminate).
  (* one pass over the sequential run gives its events, the check of its accesses and
     its outcome; of the two machines only the skeleton is run on the events, the model
     follows by the simulation theorem *)
  assert (Hall : match seq_all 400 (map sinstr_of app) ex4m_labels ex4m_state 0 [] with
                 | (evs, ok, Done st' tr) =>
                     ok = true /\ evs_below evs = true /\ stores_hit [] evs = true /\
                     mvp4_cost_mem (50 * 1000) app evs = Some 20351 /\
                     length tr = 205%nat /\ mget (mem st') 0 = 4 /\ mget (mem st') 9 = 4 /\ mget (mem st') 1216 = 4
                 | _ => False
                 end) by (vm_compute; repeat split; reflexivity).
  rewrite seq_all_spec in Hall. unfold seq_run.
  destruct (Seq.run 400 (map sinstr_of app) ex4m_labels ex4m_state 0 []) as [st' tr| |] eqn:Hrun; try contradiction.
  destruct Hall as (Hacc & Hb & Hsh & Hc & Htr & Hm). apply accesses_okb_spec in Hacc.
  split; [exact Happ|]. split; [exact Hlab|]. split; [exact Hinv|]. split; [exact Hlen|]. split; [exact Hsm|].
  split; [exact Hacc|]. split; [exact Hb|]. split; [exact Hsh|].
  exists st', tr, 20351. split; [reflexivity|].
  split; [exact (mvp4_storehit_sim app ex4m_labels Happ Hlab 400 _ st' tr _ _ Hinv Hlen Hsm Hacc Hrun Hb Hsh Hc)|].
  split; [exact Hc|]. split; [exact Htr|]. split; [reflexivity | exact Hm].
Qed.
