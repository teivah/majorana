(* C05 / C07 / C12 for MVP-5 on programs WITH loads and stores whose stores may
   MISS in the L1D.  Property theorems only; proofs in Mvp/Mvp5sProofs.v (skeleton
   Mvp5sSkel.v, invariants and progress Mvp5sFront.v, simulation Mvp5sSim.v, built on
   the MVP-4 files Mvp4s*.v as Mvp5m*.v are built on Mvp4m*.v), about the cycle-level
   model Mvp/Mvp5.v.  Generalises Props/C05_mvp5.v (every store hits).

   Hypothesis, as for MVP-4 (Props/C05_mvp4s.v): no_stale [] [] false evs forbids
   exactly the pattern   S0 (store hits)* S (store hits)* L   of the sequential run,
   S0, S stores that MISS in the L1D and are consecutive as bus items (= executed
   instructions other than stores that hit and the ret), L a load of the 64-byte line
   written by S.  fuel_bound_s n = (n + 1) * 1965. *)
From Coq Require Import ZArith List Bool Lia.
From Maj Require Import Base.Outcome Base.GoInt Isa.Spec Isa.Seq Isa.Refine Gen.Opcodes Gen.Latency.
From Maj Require Import Mvp.Mvp12 Mvp.Mvp12Proofs Mvp.Mvp3 Mvp.Mvp3Proofs Mvp.Mvp4 Mvp.Mvp5 Mvp.Mvp4Skel Mvp.Mvp4Proofs
     Mvp.Mvp4mSkel Mvp.Mvp4mProofs Mvp.Mvp4sSkel Mvp.Mvp4sProofs Mvp.Mvp5sSkel Mvp.Mvp5sProofs.
Import ListNotations.
Open Scope Z_scope.

Theorem C05_mvp5s_refines_seq_storemiss : forall app labels, wf_app app -> wf_labels labels ->
  forall fuel st st' tr,
  inv (regs st) (mem st) -> (length (regs st) <= 32)%nat -> mem_small st ->
  accesses_ok fuel (map sinstr_of app) labels st 0 ->
  seq_run fuel (map sinstr_of app) labels st = Done st' tr ->
  evs_below (seq_evs fuel (map sinstr_of app) labels st 0) = true ->
  no_stale [] [] false (seq_evs fuel (map sinstr_of app) labels st 0) = true ->
  exists c, (forall fuel', (fuel_bound_s (length tr) <= fuel')%nat -> mvp5_run fuel' app labels st = MDone c st') /\
            Z.of_nat (length tr) <= c.
Proof. exact mvp5_refines_seq_storemiss. Qed.
Print Assumptions C05_mvp5s_refines_seq_storemiss.

Theorem C12_mvp5s_cycles_function_of_events : forall app labels, wf_app app -> wf_labels labels ->
  forall fuel st st' tr,
  inv (regs st) (mem st) -> (length (regs st) <= 32)%nat -> mem_small st ->
  accesses_ok fuel (map sinstr_of app) labels st 0 ->
  seq_run fuel (map sinstr_of app) labels st = Done st' tr ->
  evs_below (seq_evs fuel (map sinstr_of app) labels st 0) = true ->
  no_stale [] [] false (seq_evs fuel (map sinstr_of app) labels st 0) = true ->
  exists c, (forall fuel', (fuel_bound_s (length tr) <= fuel')%nat ->
               mvp5_run fuel' app labels st = MDone c st' /\
               mvp5_cost_sm fuel' app (seq_evs fuel (map sinstr_of app) labels st 0) = Some c) /\
            Z.of_nat (length tr) <= c.
Proof. exact mvp5_run_events_s. Qed.
Print Assumptions C12_mvp5s_cycles_function_of_events.

Theorem C12_mvp5s_value_independent : forall app labels, wf_app app -> wf_labels labels ->
  forall fuel st1 st2 st1' st2' tr1 tr2,
  inv (regs st1) (mem st1) -> (length (regs st1) <= 32)%nat -> mem_small st1 ->
  accesses_ok fuel (map sinstr_of app) labels st1 0 ->
  inv (regs st2) (mem st2) -> (length (regs st2) <= 32)%nat -> mem_small st2 ->
  accesses_ok fuel (map sinstr_of app) labels st2 0 ->
  seq_run fuel (map sinstr_of app) labels st1 = Done st1' tr1 ->
  seq_run fuel (map sinstr_of app) labels st2 = Done st2' tr2 ->
  seq_evs fuel (map sinstr_of app) labels st1 0 = seq_evs fuel (map sinstr_of app) labels st2 0 ->
  evs_below (seq_evs fuel (map sinstr_of app) labels st1 0) = true ->
  no_stale [] [] false (seq_evs fuel (map sinstr_of app) labels st1 0) = true ->
  exists c, forall fuel', (fuel_bound_s (Nat.max (length tr1) (length tr2)) <= fuel')%nat ->
    mvp5_run fuel' app labels st1 = MDone c st1' /\ mvp5_run fuel' app labels st2 = MDone c st2'.
Proof. exact mvp5_value_independent_sm. Qed.
Print Assumptions C12_mvp5s_value_independent.

Theorem C05_mvp5s_simulation : forall app labels, wf_app app -> wf_labels labels ->
  forall fuel st st' tr fuel' c,
  inv (regs st) (mem st) -> (length (regs st) <= 32)%nat -> mem_small st ->
  accesses_ok fuel (map sinstr_of app) labels st 0 ->
  seq_run fuel (map sinstr_of app) labels st = Done st' tr ->
  evs_below (seq_evs fuel (map sinstr_of app) labels st 0) = true ->
  no_stale [] [] false (seq_evs fuel (map sinstr_of app) labels st 0) = true ->
  mvp5_cost_sm fuel' app (seq_evs fuel (map sinstr_of app) labels st 0) = Some c ->
  mvp5_run fuel' app labels st = MDone c st'.
Proof. exact mvp5_storemiss_sim. Qed.
Print Assumptions C05_mvp5s_simulation.

Theorem C07_mvp5s_no_panic : forall app labels, wf_app app -> wf_labels labels ->
  forall fuel st st' tr fuel',
  inv (regs st) (mem st) -> (length (regs st) <= 32)%nat -> mem_small st ->
  accesses_ok fuel (map sinstr_of app) labels st 0 ->
  seq_run fuel (map sinstr_of app) labels st = Done st' tr ->
  evs_below (seq_evs fuel (map sinstr_of app) labels st 0) = true ->
  no_stale [] [] false (seq_evs fuel (map sinstr_of app) labels st 0) = true ->
  (fuel_bound_s (length tr) <= fuel')%nat ->
  mvp5_run fuel' app labels st <> MPanic /\ mvp5_run fuel' app labels st <> MOutOfFuel /\
  (forall e, mvp5_run fuel' app labels st <> MErr e).
Proof. exact mvp5_no_panic_sm. Qed.
Print Assumptions C07_mvp5s_no_panic.

(* sharpness *)
Theorem C05_mvp5s_three_cold_stores_one_line_refuted :
  let p := [SLi 5 7; SSb 5 0 0; SSb 5 1 0; SSb 5 2 0; SLb 6 2 0; SRet] in
  no_stale [] [] false (seq_evs 20 (map sinstr_of (map instr_of p)) no_lab st_w 0) = false /\
  exists st' tr c st4,
    seq_run 20 p no_lab st_w = Done st' tr /\
    mvp5_run 5000 (map instr_of p) no_lab st_w = MDone c st4 /\
    rget (regs st') 6 = 7 /\ mget (mem st') 2 = 7 /\
    rget (regs st4) 6 = 0 /\ mget (mem st4) 2 = 0.
Proof. exact mvp5_three_cold_stores_one_line_refuted. Qed.
Print Assumptions C05_mvp5s_three_cold_stores_one_line_refuted.

Theorem C05_mvp5s_one_cold_store_then_load_ok :
  let p := [SLi 5 7; SSw 5 64 0; SLw 6 64 0; SRet] in
  no_stale [] [] false (seq_evs 20 (map sinstr_of (map instr_of p)) no_lab st_w 0) = true /\
  exists st' tr c,
    seq_run 20 p no_lab st_w = Done st' tr /\
    mvp5_run 5000 (map instr_of p) no_lab st_w = MDone c st' /\ rget (regs st') 6 = 7.
Proof. exact mvp5_one_cold_store_then_load_ok. Qed.

Theorem C05_mvp5s_two_cold_stores_then_load_still_right :
  let p := [SLi 5 7; SSw 5 0 0; SSw 5 64 0; SLw 6 64 0; SRet] in
  no_stale [] [] false (seq_evs 20 (map sinstr_of (map instr_of p)) no_lab st_w 0) = false /\
  exists st' tr c,
    seq_run 20 p no_lab st_w = Done st' tr /\
    mvp5_run 5000 (map instr_of p) no_lab st_w = MDone c st' /\ rget (regs st') 6 = 7.
Proof. exact mvp5_two_cold_stores_then_load_still_right. Qed.

Theorem C05_mvp5s_cold_stores_then_other_load_ok :
  let p := [SLi 5 7; SSw 5 0 0; SSw 5 128 0; SSw 5 64 0; SLw 6 192 0; SSw 5 0 0; SSw 5 128 0; SSw 5 64 0; SLw 7 128 0; SRet] in
  no_stale [] [] false (seq_evs 20 (map sinstr_of (map instr_of p)) no_lab st_w 0) = true /\
  exists st' tr c,
    seq_run 20 p no_lab st_w = Done st' tr /\
    mvp5_run 9000 (map instr_of p) no_lab st_w = MDone c st' /\ rget (regs st') 7 = 7 /\ mget (mem st') 64 = 7.
Proof. exact mvp5_cold_stores_then_other_load_ok. Qed.

(* non-vacuity: a loop of 20 iterations that stores to fresh lines 2048 + 64 i which it
   never reads back and to the cold line of 3500 (all these stores miss), calls a
   subroutine (jal at 12: BTB miss the first time, hit afterwards; the jalr at 48 always
   returns to 16: BTB hit), loads from the lines 64 i (20 lines, 16 fit: evictions and
   write-backs), RAW hazards, taken backward branches; finally a jump over the
   subroutine, a load of the evicted line 0, a store that hits in it and one that misses *)
Definition ex5s_prog : list sinstr :=
  [SLi 5 0; SLi 6 1280;
   (* 8: loop *) SSw 5 2048 5; SJal 1 2; SSb 9 2052 5; SLw 7 0 5; SSw 7 3500 0; SSw 7 3504 0; SAddi 5 5 64; SBlt 5 6 1;
   SJ 3;
   (* 44: subroutine *) SAddi 9 9 100; SJalr 0 1 0;
   (* 52 *) SLw 8 0 0; SSw 9 4 0; SSw 9 1000 0; SRet].
Definition ex5s_labels : Z -> option Z := lookup [(1, 8); (2, 44); (3, 52)].
Definition ex5s_state : arch := mk_arch (repeat 0 32) (repeat 3 4096).

Example C05_mvp5s_example :
  let app := map instr_of ex5s_prog in
  wf_app app /\ wf_labels ex5s_labels /\ inv (regs ex5s_state) (mem ex5s_state) /\
  (length (regs ex5s_state) <= 32)%nat /\ mem_small ex5s_state /\
  accesses_ok 600 (map sinstr_of app) ex5s_labels ex5s_state 0 /\
  evs_below (seq_evs 600 (map sinstr_of app) ex5s_labels ex5s_state 0) = true /\
  no_stale [] [] false (seq_evs 600 (map sinstr_of app) ex5s_labels ex5s_state 0) = true /\
  stores_hit [] (seq_evs 600 (map sinstr_of app) ex5s_labels ex5s_state 0) = false /\
  exists st' tr c,
    seq_run 600 (map sinstr_of app) ex5s_labels ex5s_state = Done st' tr /\
    mvp5_run (208 * 2000) app ex5s_labels ex5s_state = MDone c st' /\
    mvp5_cost_sm (208 * 2000) app (seq_evs 600 (map sinstr_of app) ex5s_labels ex5s_state 0) = Some c /\
    length tr = 207%nat /\ c = 31664 /\ mget (mem st') 2048 = 0 /\ mget (mem st') (2048 + 64 * 19) = -64 /\
    mget (mem st') (2052 + 64 * 19) = -48 /\ mget (mem st') 3500 = 3 /\ mget (mem st') 4 = -48 /\ mget (mem st') 1000 = -48.
Proof.
  cbv zeta. set (app := map instr_of ex5s_prog).
  assert (Happ : wf_app app).
  { split; [|vm_compute; reflexivity]. unfold app. cbn [map ex5s_prog instr_of]. repeat constructor; vm_compute; discriminate. }
  assert (Hlab : wf_labels ex5s_labels).
  { intros l a H. unfold ex5s_labels in H. cbn [lookup] in H.
    destruct (l =? 1); [injection H as <-; apply int32_bounds; lia|].
    destruct (l =? 2); [injection H as <-; apply int32_bounds; lia|].
    destruct (l =? 3); [injection H as <-; apply int32_bounds; lia | discriminate]. }
  assert (Hinv : inv (regs ex5s_state) (mem ex5s_state)).
  { split; apply Forall_forall; intros x Hx; apply repeat_spec in Hx; subst x; [apply int32_0 | apply int8_bounds; lia]. }
  assert (Hlen : (length (regs ex5s_state) <= 32)%nat) by (vm_compute; lia).
  assert (Hsm : mem_small ex5s_state) by (vm_compute; discriminate).
  (* one pass over the sequential run gives its events, the check of its accesses and
     its outcome; of the two machines only the skeleton is run on the events, the model
     follows by the simulation theorem *)
  assert (Hall : match seq_all 600 (map sinstr_of app) ex5s_labels ex5s_state 0 [] with
                 | (evs, ok, Done st' tr) =>
                     ok = true /\ evs_below evs = true /\ no_stale [] [] false evs = true /\ stores_hit [] evs = false /\
                     mvp5_cost_sm (208 * 2000) app evs = Some 31664 /\
                     length tr = 207%nat /\ mget (mem st') 2048 = 0 /\ mget (mem st') (2048 + 64 * 19) = -64 /\
                     mget (mem st') (2052 + 64 * 19) = -48 /\ mget (mem st') 3500 = 3 /\ mget (mem st') 4 = -48 /\ mget (mem st') 1000 = -48
                 | _ => False
                 end) by (vm_compute; repeat split; reflexivity).
  rewrite seq_all_spec in Hall. unfold seq_run.
  destruct (Seq.run 600 (map sinstr_of app) ex5s_labels ex5s_state 0 []) as [st' tr| |] eqn:Hrun; try contradiction.
  destruct Hall as (Hacc & Hb & Hns & Hsh & Hc & Htr & Hm). apply accesses_okb_spec in Hacc.
  split; [exact Happ|]. split; [exact Hlab|]. split; [exact Hinv|]. split; [exact Hlen|]. split; [exact Hsm|].
  split; [exact Hacc|]. split; [exact Hb|]. split; [exact Hns|]. split; [exact Hsh|].
  exists st', tr, 31664. split; [reflexivity|].
  split; [exact (mvp5_storemiss_sim app ex5s_labels Happ Hlab 600 _ st' tr _ _ Hinv Hlen Hsm Hacc Hrun Hb Hns Hc)|].
  split; [exact Hc|]. split; [exact Htr|]. split; [reflexivity | exact Hm].
Qed.
