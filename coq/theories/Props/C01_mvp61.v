(* C01 / C12 / C07 for MVP-6.1 (proc/mvp6-1 = MVP-6.0 + OPERAND FORWARDING between the execute
   units: the control unit dispatches an instruction with exactly one RAW hazard one cycle after
   its producer - shouldUseForwarding over the runners pushed in the previous cycle - and links
   them by a channel: Forwarder on the producer, set through the pointer held by the execute bus,
   Receiver / ForwardRegister on the consumer; the consumer's execute unit takes the value from
   the channel and stores it as the Forward of the instruction object; sequence ids; Pre hook)
   on REGISTER-ONLY programs.
   Property theorems only; the proofs are in Mvp/Mvp61RefProofs.v (and Mvp61RefSem, Mvp61RefFront,
   Mvp61RefBack, Mvp61RefInv, Mvp61RefCu, Mvp61RefExec, Mvp61RefExec2, Mvp61RefStep, Mvp61RefStep2,
   Mvp61RefStep3, on top of the development for MVP-6.0), about the cycle-level model Mvp/Mvp61.v,
   which is tied to proc/mvp6-1 by exact equality of cycles, registers and memory in the system
   differential.

   Two program classes (as for MVP-6.0, Props/C01_mvp60.v):
     straight app      : no conditional branch, no j / jal / jalr; ret may occur anywhere, the run
                         ends at the first one; division is allowed (a division by zero makes the
                         sequential run fail and the hypothesis false);
     fwd_ok app labels : FORWARD control flow - every branch / j / jal names a defined, 4-aligned
                         label strictly ahead of the instruction and at most at the end of the text -
                         and no div, rem, jalr (a wrong-path division by zero aborts the run:
                         C01_mvp61_taken_branch_shadow_error_refuted).  Branch shadows may contain
                         anything else.  With seq_ids_fit app: 3004 * length app < 2^31 (the sequence
                         id pc + 1000 * ctx.sequenceID is an int32 and ctx.sequenceID grows by up to
                         three per flush; beyond that bound the ids wrap and the write units would
                         compare wrapped ids - not exhibited, a text of 700 000 instructions).
   Common hypotheses:
     wf_app            : int32 immediates, text shorter than 2^31 - 8 bytes;
     reg_only app      : no load and no store (without it: C01_mvp61_memory_order_refuted);
     regs_in_range app : every register operand is one of x0..x31, as in the Go type RegisterType
                         (the model takes any integer; without it shouldUseForwarding may forward a
                         register the scoreboard does not track: C01_mvp61_register_number_refuted);
     1 <= par          : any number of execute / write units;
     ord, pord         : any iteration order of Go's maps (a store's MemoryChanges;
                         pushedRunnersInPreviousCycle in shouldUseForwarding);
     Forall int32 regs, length regs = 32 : the register file has exactly the 32 registers (ctx.Registers
                         is a map in Go: every register can be written.  The list-based model drops a
                         write beyond the end of the list, the forwarded value is not dropped:
                         C01_mvp61_short_register_file_refuted).
   No hypothesis on the memory; none on the labels for straight-line programs.
   fuel_bound61 n = 400 * n + 1600 ticks of Run, fuel_bound61_fwd n = (n + 1) * (400 * n + 1600).

   What the proofs show about the design
   - an instruction in flight is WAW- and WAR-independent of every younger dispatched instruction,
     and RAW-independent except for ONE register of ONE older instruction pushed in the previous
     cycle: that operand is forwarded (Mvp61RefSem.BackSemF);
   - the value the producer sends is the sequential value of that register at the consumer:
     nobody between the two writes it (Mvp61RefSem.bf_stable, Mvp61RefInv.fwd_value); with the
     Forward in place the consumer computes its sequential effect whenever it runs (bf_exec);
   - the execute bus is a FIFO and an execute unit runs an instruction in the cycle it takes it,
     so the producer has always sent when the consumer looks into the channel: a unit never waits
     on a Receiver (Mvp61RefInv.ChI, Mvp61RefBack.AvE); a channel is written once and read at most once, the
     Forwarder of a runner is set at most once (it is only set on runners pushed in the previous
     cycle, and a forwarding push ends the dispatch of the cycle);
   - the Forward is stored on the shared instruction object, but the unit that receives it runs
     the instruction in the same call and clears it: between two unit cycles every Forward is
     clear (CoreI.c_fwd), no other dynamic instance can read it;
   - a runner that could not be pushed after the channel was made (execute bus full) keeps its
     Receiver in the pending queue and is pushed later, when its producer has written back: it
     still receives the right value from the channel;
   - forward control flow: as in MVP-6.0 an execute unit never waits, so a branch executes in the
     cycle after its dispatch; everything dispatched behind it is still in the execute bus or
     (executed in the same cycle) in the buffer of the write bus.  The flush branch of MVP-6.1
     first runs the non-empty execute units (there are none), then every write unit drains the
     write bus with writeUnit.cycle(ctx, sequenceID of the branch): younger entries are dropped
     by their sequence ids (monotone along a forward path; Mvp60RefSem.bw_squash).  The README's
     "MVP-6.1 writes wrong-path results" does not show on register-only programs: the wrong-path
     results never reach the register file; a value forwarded to a wrong-path consumer stays in
     its channel for ever (channels are never reused).  The Pre hook of the execute units never
     fires: the runner a unit still holds is older than the flushing instruction. *)
From Coq Require Import ZArith List Bool Lia.
From Maj Require Import Base.Outcome Base.GoInt Isa.Spec Isa.Seq Isa.Refine Gen.Opcodes.
From Maj Require Import Mvp.Mvp12 Mvp.Mvp12Proofs Mvp.Mvp4Skel Mvp.Mvp4Proofs Mvp.Mvp60 Mvp.Mvp61 Mvp.Mvp60RefDefs Mvp.Mvp60RefProofs Mvp.Mvp60RefBranch
     Mvp.Mvp61RefFront Mvp.Mvp61RefProofs.
Import ListNotations.
Open Scope Z_scope.

(* C01: for every straight-line register-only program on which the sequential machine terminates,
   multiple issue WITH OPERAND FORWARDING and out-of-order write-back returns - no error, no panic -
   exactly the sequential registers and memory, for every fuel from fuel_bound61 on *)
Theorem C01_mvp61_refines_seq_straight : forall app labels, wf_app app ->
  straight app = true -> reg_only app = true -> regs_in_range app = true ->
  forall par ord pord fuel st st' tr, (1 <= par)%nat ->
  Forall int32 (regs st) -> length (regs st) = 32%nat ->
  seq_run fuel (map sinstr_of app) labels st = Done st' tr ->
  exists c, forall fuel', (fuel_bound61 (length app) <= fuel')%nat -> mvp61_run par ord pord fuel' app labels st = MDone c st'.
Proof. exact mvp61_refines_seq_straight. Qed.
Print Assumptions C01_mvp61_refines_seq_straight.

(* the same with the cycle count: at least half the number of executed instructions *)
Theorem C12_mvp61_run_straight : forall app labels, wf_app app ->
  straight app = true -> reg_only app = true -> regs_in_range app = true ->
  forall par ord pord fuel st st' tr, (1 <= par)%nat ->
  Forall int32 (regs st) -> length (regs st) = 32%nat ->
  seq_run fuel (map sinstr_of app) labels st = Done st' tr ->
  exists c, (forall fuel', (fuel_bound61 (length app) <= fuel')%nat -> mvp61_run par ord pord fuel' app labels st = MDone c st') /\
            Z.of_nat (length tr) <= 2 * c.
Proof. exact mvp61_run_straight. Qed.
Print Assumptions C12_mvp61_run_straight.

(* C12: whenever the model finishes, with whatever fuel, it returns the sequential state and has
   counted at least ceil(executed instructions / 2) cycles (issue width two) *)
Theorem C12_mvp61_cycles_lower_bound_straight : forall app labels, wf_app app ->
  straight app = true -> reg_only app = true -> regs_in_range app = true ->
  forall par ord pord fuel st st' tr, (1 <= par)%nat ->
  Forall int32 (regs st) -> length (regs st) = 32%nat ->
  seq_run fuel (map sinstr_of app) labels st = Done st' tr ->
  forall fuel' c st'', mvp61_run par ord pord fuel' app labels st = MDone c st'' ->
  st'' = st' /\ Z.of_nat (length tr) <= 2 * c /\ (Z.of_nat (length tr) + 1) / 2 <= c.
Proof. exact mvp61_cycles_lower_bound_straight. Qed.
Print Assumptions C12_mvp61_cycles_lower_bound_straight.

(* C07: termination within fuel_bound61 (length app) ticks *)
Theorem C07_mvp61_terminates_straight : forall app labels, wf_app app ->
  straight app = true -> reg_only app = true -> regs_in_range app = true ->
  forall par ord pord fuel st st' tr, (1 <= par)%nat ->
  Forall int32 (regs st) -> length (regs st) = 32%nat ->
  seq_run fuel (map sinstr_of app) labels st = Done st' tr ->
  exists c, mvp61_run par ord pord (fuel_bound61 (length app)) app labels st = MDone c st' /\
            (Z.of_nat (length tr) + 1) / 2 <= c.
Proof. exact mvp61_terminates_straight. Qed.
Print Assumptions C07_mvp61_terminates_straight.

Theorem C07_mvp61_no_panic_straight : forall app labels, wf_app app ->
  straight app = true -> reg_only app = true -> regs_in_range app = true ->
  forall par ord pord fuel st st' tr, (1 <= par)%nat ->
  Forall int32 (regs st) -> length (regs st) = 32%nat ->
  seq_run fuel (map sinstr_of app) labels st = Done st' tr ->
  forall fuel', (fuel_bound61 (length app) <= fuel')%nat ->
  mvp61_run par ord pord fuel' app labels st <> MPanic /\ mvp61_run par ord pord fuel' app labels st <> MOutOfFuel /\
  (forall e, mvp61_run par ord pord fuel' app labels st <> MErr e).
Proof. exact mvp61_no_panic_straight. Qed.
Print Assumptions C07_mvp61_no_panic_straight.

Theorem C07_mvp61_fuel_bound_value : forall n, fuel_bound61 n = (400 * n + 1600)%nat.
Proof. reflexivity. Qed.

(* C01 with forward control flow: conditional branches, j and jal to labels ahead, arbitrary branch
   shadows (no div / rem / jalr): the pipeline - operand forwarding, speculative dispatch behind
   branches, sequence ids, flush, BTB - returns exactly the sequential registers and memory *)
Theorem C01_mvp61_refines_seq_forward : forall app labels, wf_app app ->
  reg_only app = true -> regs_in_range app = true -> fwd_ok app labels = true -> seq_ids_fit app ->
  forall par ord pord fuel st st' tr, (1 <= par)%nat ->
  Forall int32 (regs st) -> length (regs st) = 32%nat ->
  seq_run fuel (map sinstr_of app) labels st = Done st' tr ->
  exists c, forall fuel', (fuel_bound61_fwd (length app) <= fuel')%nat -> mvp61_run par ord pord fuel' app labels st = MDone c st'.
Proof. exact mvp61_refines_seq_forward. Qed.
Print Assumptions C01_mvp61_refines_seq_forward.

Theorem C07_mvp61_fuel_bound_fwd_value : forall n, fuel_bound61_fwd n = ((n + 1) * (400 * n + 1600))%nat.
Proof. reflexivity. Qed.

Theorem C01_mvp61_seq_ids_fit_value : forall app, seq_ids_fit app <-> 3004 * Z.of_nat (length app) < 2147483648.
Proof. intros app. reflexivity. Qed.

(* findings: why the hypotheses are there *)

(* programs WITH loads and stores: false for the faithful model at two or more execute units, as
   for MVP-6.0 (no memory dependence is tracked; forwarding concerns registers only)
   lw x6,0(x0) ; li x5,7 ; sw x5,0(x0) ; lw x6,0(x0) : expected x6 = 7, mem[0] = 7 *)
Theorem C01_mvp61_memory_order_refuted :
  let p := [SLw 6 0 0; SLi 5 7; SSw 5 0 0; SLw 6 0 0] in
  let st := mk_arch (repeat 0 32) (repeat 0 256) in
  wf_app (map instr_of p) /\ straight (map instr_of p) = true /\ regs_in_range (map instr_of p) = true /\
  exists st' tr st6,
    seq_run 20 p no_lab st = Done st' tr /\
    mvp61_run 2 (ord_policy 0) (pord_policy 0) 5000 (map instr_of p) no_lab st = MDone 985 st6 /\
    rget (regs st') 6 = 7 /\ mget (mem st') 0 = 7 /\
    rget (regs st6) 6 = 0 /\ mget (mem st6) 0 = 0.
Proof.
  cbv zeta. split; [|split; [|split]].
  - split; [|vm_compute; reflexivity]. repeat constructor; vm_compute; discriminate.
  - vm_compute. reflexivity.
  - vm_compute. reflexivity.
  - do 3 eexists. split; [vm_compute; reflexivity|]. split; [vm_compute; reflexivity|]. vm_compute. repeat split; reflexivity.
Qed.
Print Assumptions C01_mvp61_memory_order_refuted.

(* why (regs_in_range app): nop ; li x5,7 ; li x40,9 ; add x6,x40,x5.  Register 40 is not tracked by
   the 32-slot scoreboard, so the add has ONE hazard (x5); both li were pushed in the previous
   cycle and both "match" in shouldUseForwarding (x5 by the first, x40 by the second); when the map
   iteration yields the second, x40 is forwarded (value 9; sequentially x40 does not exist and
   reads 0) and x5 is read from the register file before its producer has written back:
   x6 = 9 instead of 7.  (RegisterType has the values 0..31 in Go; the model takes any integer.) *)
Theorem C01_mvp61_register_number_refuted :
  let p := [SNop; SLi 5 7; SLi 40 9; SAdd 6 40 5] in
  wf_app (map instr_of p) /\ straight (map instr_of p) = true /\ reg_only (map instr_of p) = true /\
  regs_in_range (map instr_of p) = false /\
  exists st' tr c st6,
    seq_run 10 p no_lab zero_state = Done st' tr /\
    mvp61_run 2 (ord_policy 0) (pord_policy 0) 3000 (map instr_of p) no_lab zero_state = MDone c st' /\
    mvp61_run 2 (ord_policy 0) (pord_policy 1) 3000 (map instr_of p) no_lab zero_state = MDone c st6 /\
    rget (regs st') 6 = 7 /\ rget (regs st6) 6 = 9.
Proof.
  cbv zeta. split; [|split; [|split; [|split]]].
  - split; [|vm_compute; reflexivity]. repeat constructor; vm_compute; discriminate.
  - vm_compute. reflexivity.
  - vm_compute. reflexivity.
  - vm_compute. reflexivity.
  - do 4 eexists. split; [vm_compute; reflexivity|]. split; [vm_compute; reflexivity|]. split; [vm_compute; reflexivity|].
    vm_compute. split; reflexivity.
Qed.
Print Assumptions C01_mvp61_register_number_refuted.

(* why (length (regs st) = 32) and not (<= 32) as for MVP-6.0: li x7,5 ; addi x3,x7,1 with a register
   file of 5 entries.  The sequential machine and the write unit drop the write to x7 (beyond the
   end of the list), x7 reads 0 and x3 = 1; but the value 5 is FORWARDED to the addi: x3 = 6.
   (In Go ctx.Registers is a map: no write is dropped.) *)
Theorem C01_mvp61_short_register_file_refuted :
  let p := [SLi 7 5; SAddi 3 7 1] in
  let st := mk_arch (repeat 0 5) (repeat 0 64) in
  wf_app (map instr_of p) /\ straight (map instr_of p) = true /\ reg_only (map instr_of p) = true /\
  regs_in_range (map instr_of p) = true /\
  exists st' tr c st6 c0 st0,
    seq_run 10 p no_lab st = Done st' tr /\
    mvp61_run 2 (ord_policy 0) (pord_policy 0) 3000 (map instr_of p) no_lab st = MDone c st6 /\
    mvp60_run 2 (ord_policy 0) 3000 (map instr_of p) no_lab st = MDone c0 st0 /\
    rget (regs st') 3 = 1 /\ rget (regs st6) 3 = 6 /\ rget (regs st0) 3 = 1.
Proof.
  cbv zeta. split; [|split; [|split; [|split]]].
  - split; [|vm_compute; reflexivity]. repeat constructor; vm_compute; discriminate.
  - vm_compute. reflexivity.
  - vm_compute. reflexivity.
  - vm_compute. reflexivity.
  - do 6 eexists. split; [vm_compute; reflexivity|]. split; [vm_compute; reflexivity|]. split; [vm_compute; reflexivity|].
    vm_compute. repeat split; reflexivity.
Qed.
Print Assumptions C01_mvp61_short_register_file_refuted.

(* non-vacuity: fifteen instructions (thirteen executed, a ret, one behind it) with chained RAW
   dependences that are forwarded (x5 -> addi x6 -> add x7 ; x7 -> mul x8 -> addi x7 -> sub x9 ; ...),
   WAW (x5, x7, x8 written twice) and WAR (li x5 after add reads x5; li x8 after addi reads x8),
   three execute / write units.  MVP-6.1 needs 335 cycles, MVP-6.0 (no forwarding) 349. *)
Definition ex61_prog : list sinstr :=
  [SLi 5 3; SAddi 6 5 1; SAdd 7 5 6; SLi 5 9; SMul 8 7 5; SAddi 7 8 2;
   SSub 9 7 5; SLi 8 1; SAdd 10 8 9; SMv 5 10; SXor 11 5 6; SAddi 12 11 1; SSlli 13 12 2; SRet; SLi 14 1].

Example C01_mvp61_example :
  let app := map instr_of ex61_prog in
  wf_app app /\ straight app = true /\ reg_only app = true /\ regs_in_range app = true /\
  Forall int32 (regs zero_state) /\ length (regs zero_state) = 32%nat /\
  exists st' tr c,
    seq_run 100 (map sinstr_of app) no_lab zero_state = Done st' tr /\
    mvp61_run 3 (ord_policy 0) (pord_policy 0) (fuel_bound61 (length app)) app no_lab zero_state = MDone c st' /\
    mvp60_run 3 (ord_policy 0) (fuel_bound61 (length app)) app no_lab zero_state = MDone 349 st' /\
    length tr = 14%nat /\ c = 335 /\ (Z.of_nat (length tr) + 1) / 2 <= c /\
    rget (regs st') 5 = 57 /\ rget (regs st') 7 = 65 /\ rget (regs st') 8 = 1 /\ rget (regs st') 12 = 62 /\
    rget (regs st') 13 = 248 /\ rget (regs st') 14 = 0.
Proof.
  cbv zeta. split; [|split; [|split; [|split; [|split; [|split]]]]].
  - split; [|vm_compute; reflexivity]. cbn [map ex61_prog instr_of]. repeat constructor; vm_compute; discriminate.
  - vm_compute. reflexivity.
  - vm_compute. reflexivity.
  - vm_compute. reflexivity.
  - apply Forall_forall. intros x Hx. apply repeat_spec in Hx. subst x. apply int32_0.
  - vm_compute. reflexivity.
  - do 3 eexists. split; [vm_compute; reflexivity|]. split; [vm_compute; reflexivity|]. split; [vm_compute; reflexivity|].
    vm_compute. repeat split; try reflexivity; discriminate.
Qed.

(* FINDING (as for MVP-6.0, known as SYS-wrong-path-error-6x): the forward theorem does not extend to
   div / rem.  li x5,0 ; beq x5,x5,L ; div x6,x5,x5 ; L: li x7,9 - the sequential machine skips the
   div; with two or more execute units MVP-6.1 dispatches the div together with the branch and
   executes it, on the wrong path, in the cycle in which the branch is resolved: Run returns
   "division by zero".  One execute unit: correct. *)
Theorem C01_mvp61_taken_branch_shadow_error_refuted :
  let app := map instr_of shadow_div_prog in
  wf_app app /\ reg_only app = true /\ regs_in_range app = true /\ one_forward_branch app shadow_labels = true /\
  exists st' tr,
    seq_run 10 (map sinstr_of app) shadow_labels zero_state = Done st' tr /\
    length tr = 3%nat /\ rget (regs st') 7 = 9 /\
    mvp61_run 1 (ord_policy 0) (pord_policy 0) 3000 app shadow_labels zero_state = MDone 323 st' /\
    mvp61_run 2 (ord_policy 0) (pord_policy 0) 3000 app shadow_labels zero_state = MErr EDivZero /\
    mvp61_run 3 (ord_policy 0) (pord_policy 0) 3000 app shadow_labels zero_state = MErr EDivZero /\
    mvp61_run 4 (ord_policy 0) (pord_policy 0) 3000 app shadow_labels zero_state = MErr EDivZero.
Proof.
  cbv zeta. split; [|split; [|split; [|split]]].
  - split; [|vm_compute; reflexivity]. repeat constructor; vm_compute; discriminate.
  - vm_compute. reflexivity.
  - vm_compute. reflexivity.
  - vm_compute. reflexivity.
  - do 2 eexists. split; [vm_compute; reflexivity|]. split; [reflexivity|]. split; [vm_compute; reflexivity|].
    split; [vm_compute; reflexivity|]. split; [vm_compute; reflexivity|]. split; vm_compute; reflexivity.
Qed.
Print Assumptions C01_mvp61_taken_branch_shadow_error_refuted.

(* NOT a counterexample: register writes in the shadow of a taken branch are dropped by the flush *)
Example C01_mvp61_taken_branch_shadow_write_example :
  let app := map instr_of shadow_write_prog in
  wf_app app /\ reg_only app = true /\ one_forward_branch app shadow_write_labels = true /\
  exists st' tr,
    seq_run 10 (map sinstr_of app) shadow_write_labels zero_state = Done st' tr /\
    length tr = 3%nat /\ rget (regs st') 6 = 0 /\ rget (regs st') 7 = 0 /\ rget (regs st') 8 = 4 /\
    mvp61_run 1 (ord_policy 0) (pord_policy 0) 3000 app shadow_write_labels zero_state = MDone 323 st' /\
    mvp61_run 2 (ord_policy 0) (pord_policy 0) 3000 app shadow_write_labels zero_state = MDone 323 st' /\
    mvp61_run 4 (ord_policy 0) (pord_policy 0) 3000 app shadow_write_labels zero_state = MDone 323 st'.
Proof.
  cbv zeta. split; [|split; [|split]].
  - split; [|vm_compute; reflexivity]. repeat constructor; vm_compute; discriminate.
  - vm_compute. reflexivity.
  - vm_compute. reflexivity.
  - do 2 eexists. split; [vm_compute; reflexivity|]. split; [reflexivity|]. split; [vm_compute; reflexivity|].
    split; [vm_compute; reflexivity|]. split; [vm_compute; reflexivity|]. split; [vm_compute; reflexivity|].
    split; [vm_compute; reflexivity|]. split; vm_compute; reflexivity.
Qed.

(* non-vacuity of the forward class: a not-taken branch, a jump over an instruction, a taken branch
   with two register writes in its shadow, a jal (link register), a ret with an instruction behind
   it; addi x7,x5,1 / add x10,x7,x5 -> mul x11,x10,x10 are forwarded; 10 of the 15 instructions are executed *)
Definition exf61_prog : list sinstr :=
  [SLi 5 3; SLi 6 4; SBeq 5 6 1; SAddi 7 5 1; SJ 2; SLi 7 99; (* 24: L2 *) SBne 5 6 3; SLi 8 77; SLi 9 88;
   (* 36: L3 *) SJal 1 4; SNop; (* 44: L4 *) SAdd 10 7 5; SMul 11 10 10; SRet; SLi 12 1].
Definition exf61_labels : Z -> option Z := lookup [(1, 20); (2, 24); (3, 36); (4, 44)].

Example C01_mvp61_forward_example :
  let app := map instr_of exf61_prog in
  wf_app app /\ reg_only app = true /\ regs_in_range app = true /\ fwd_ok app exf61_labels = true /\ seq_ids_fit app /\
  Forall int32 (regs zero_state) /\ length (regs zero_state) = 32%nat /\
  exists st' tr c,
    seq_run 100 (map sinstr_of app) exf61_labels zero_state = Done st' tr /\
    mvp61_run 3 (ord_policy 0) (pord_policy 0) (fuel_bound61_fwd (length app)) app exf61_labels zero_state = MDone c st' /\
    length tr = 10%nat /\ c = 342 /\
    rget (regs st') 1 = 40 /\ rget (regs st') 7 = 4 /\ rget (regs st') 8 = 0 /\ rget (regs st') 9 = 0 /\
    rget (regs st') 11 = 49 /\ rget (regs st') 12 = 0.
Proof.
  cbv zeta. split; [|split; [|split; [|split; [|split; [|split; [|split]]]]]].
  - split; [|vm_compute; reflexivity]. cbn [map exf61_prog instr_of]. repeat constructor; vm_compute; discriminate.
  - vm_compute. reflexivity.
  - vm_compute. reflexivity.
  - vm_compute. reflexivity.
  - vm_compute. reflexivity.
  - apply Forall_forall. intros x Hx. apply repeat_spec in Hx. subst x. apply int32_0.
  - vm_compute. reflexivity.
  - do 3 eexists. split; [vm_compute; reflexivity|]. split; [vm_compute; reflexivity|].
    vm_compute. repeat split; reflexivity.
Qed.
