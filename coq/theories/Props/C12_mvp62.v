(* C12 / C08 / C03 / C07 for MVP-6.2 (MVP-6.1 + speculative register results in a
   transaction map, committed or rolled back when a branch resolves).
   Property theorems only; proofs in Mvp/Mvp62Proofs.v about the faithful
   cycle-level model Mvp/Mvp62.v (built on Mvp60.v and the proved transaction-map
   model Comp/Tx.v), tied to proc/mvp6-2 by exact equality of (cycles, registers,
   memory) at 1..4 units (lib/vf/c12.py, lib/vf/modeltie.py; bin/tie_m62.py for
   all sampled iteration orders and the state at the tick budget). *)
From Coq Require Import ZArith List Bool Lia.
From Maj Require Import Base.Outcome Base.GoInt Base.GoTypes Isa.Spec Isa.Seq.
From Maj Require Import Gen.Latency Gen.RiscTables Gen.Opcodes Comp.Cache Mvp.Mvp12 Mvp.Mvp3 Mvp.Mvp5 Mvp.Mvp60 Mvp.Mvp60Proofs Mvp.Mvp62.
From Maj Require Comp.Rat Comp.Tx.
Import ListNotations.
Open Scope Z_scope.
From Maj Require Import Mvp.Mvp62Proofs.

(* C12: a returning run reports at least one cycle *)
Theorem C12_mvp62_cycles_positive :
  forall par ord fuel app labels st c st',
  mvp62_run par ord fuel app labels st = MDone c st' -> 1 <= c.
Proof. exact mvp62_cycles_pos. Qed.
Print Assumptions C12_mvp62_cycles_positive.

(* C12: at most busSize = 2 instructions are dispatched per cycle whatever the number of units *)
Theorem C12_mvp62_issue_width_two :
  forall cycle m,
  ebuf2 m <= ebl2 m ->
  ebuf2 (fst (cu_cycle62 cycle m)) - ebuf2 m <= ebl2 m.
Proof. exact cu62_dispatch_le_buslen. Qed.
Print Assumptions C12_mvp62_issue_width_two.

(* C08: a run ending with the ghost flag clear is the same for every iteration order of the stores' maps *)
Theorem C08_mvp62_order_irrelevant_when_flag_clear :
  forall par fuel app labels st ord1 ord2 r,
  ord_ok ord1 -> ord_ok ord2 ->
  mvp62_run_os par ord1 fuel app labels st = (r, false) ->
  mvp62_run_os par ord2 fuel app labels st = (r, false).
Proof. exact run62_ord_irrelevant. Qed.
Print Assumptions C08_mvp62_order_irrelevant_when_flag_clear.

(* C07: an error raised inside the flush loop ends the run with that error (witness) *)
Theorem C07_mvp62_error_in_flush_loop_is_returned :
  mvp62_run 3 (ord_policy 0) 1000 zero_prog zero_labels (mk_arch (repeat 0 32) (repeat 0 64)) = MErr EDivZero
  /\ mvp62_run 3 (ord_policy 0) 627 zero_prog zero_labels (mk_arch (repeat 0 32) (repeat 0 64)) = MOutOfFuel.
Proof. exact mvp62_flush_loop_error_witness. Qed.
Print Assumptions C07_mvp62_error_in_flush_loop_is_returned.

(* C03 / C15 finding SYS-shadow-writeback-6x as a theorem about the model: the transaction map has one slot per
   register, a wrong-path write overwrites the uncommitted older value and the rollback drops both *)
Theorem C03_mvp62_one_slot_refuted :
  exists c st', mvp62_run 3 (ord_policy 0) 2000 slot_prog slot_labels (mk_arch (repeat 0 32) (repeat 0 2048)) = MDone c st'
              /\ nth 13 (regs st') 0 = 1976 /\ nth 18 (regs st') 0 = 0.
Proof. exact mvp62_one_slot_witness. Qed.
Print Assumptions C03_mvp62_one_slot_refuted.
