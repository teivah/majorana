(* C01 / C12 / C07 for MVP-7.1 (proc/mvp7-1 = MVP-7.0 with sequence-id-tagged register reads, inBus.Pick by preferred
   unit, isPendingMessages, msi.staleState) on SINGLE-ASSIGNMENT, register-only, straight-line programs.
   Property theorems only; proofs in Mvp/Mvp71Sim70.v (run invariant = SI of Mvp70Sim63Loops.v + the in-order
   pipeline invariant of MVP-6.3 on the projected state; one tick: tick71; whole runs: run71_eq) on top of the unit
   lemmas of Mvp/Mvp70Sim63Mvp71.v, about the faithful cycle-level models Mvp/Mvp71.v and Mvp/Mvp70.v (each tied to
   the Go code by exact checks of cycles, registers, memory).

   The class (Mvp60RefDefs.v, Mvp4Skel.v, Mvp63RefDefs.v):
     straight app   no branch, no jump;          reg_only app   no load, no store;
     ssa app        every register but x0 has at most one writer, no instruction reads a register a later one writes;
     regs_ok app    register numbers x0 .. x31;
   states with 32 int32 registers and x0 = 0; the sequential run ends (Done).

   The theorems (all closed under the global context).
     C01_mvp71_ssa_straight_sim_mvp70    on the class, every number of cores >= 1, EVERY order function, EVERY fuel:
                                         mvp71_run_os = mvp70_run_os (result, cycles, ghost flag; runs that exhaust
                                         their fuel included).  On straight-line code ctx.sequenceID stays 0, so
                                         SequenceID(pc) = pc; the pipeline is in order (every tag of transactionRAT
                                         belongs to an instruction that wrote back before the oldest instruction not
                                         yet executed), so the read by sequence id is the newest-slot read; no
                                         preference is computed, isPendingMessages is never consulted, staleState
                                         stays clear.
     C01_mvp71_refines_seq_ssa_straight, C12_mvp71_run_ssa_straight, C12_mvp71_ghost_clear_ssa_straight,
     C07_mvp71_terminates_ssa_straight, C07_mvp71_no_panic_ssa_straight
                                         TRANSPORT of the MVP-7.0 / MVP-6.3 refinement theorem (Props/C01_mvp70.v,
                                         Props/C01_mvp63.v): MVP-7.1 returns the sequential registers and memory at
                                         every number of cores, for every order, ghost flag clear, within
                                         fuel_bound70 (length app) = 400 * length app + 1601 ticks, with the cycle
                                         count of MVP-7.0 (= MVP-6.3 + 1).
     C01_mvp71_tick                      one tick under the run invariant CI.
     C01_mvp71_example_sim, C01_mvp71_example_any, C01_mvp71_example
                                         non-vacuity: the 14-instruction example of C01_mvp63.v (any number of cores,
                                         any order; and at 1..4 cores, both orders, with 3001 ticks).
   Outside the class the statement "MVP-7.1 = MVP-7.0" is FALSE in general
   (C01_mvp71_regonly_sim_mvp63_refuted in Props/C01_mvp70.v: a jump back by more than 2000 bytes). *)
From Coq Require Import ZArith List Bool Lia.
From Maj Require Import Base.Outcome Base.GoInt Base.GoTypes Isa.Spec Isa.Seq Isa.Refine Gen.Opcodes Comp.Rat.
From Maj Require Import Mvp.Mvp12 Mvp.Mvp12Proofs Mvp.Mvp4Skel Mvp.Mvp60 Mvp.Mvp60RefDefs Mvp.Mvp63 Mvp.Mvp63Proofs Mvp.Mvp63RefDefs
     Mvp.Mvp63RefProofs Mvp.Mvp70 Mvp.Mvp71 Mvp.Mvp70Proofs Mvp.Mvp70Sim63Defs Mvp.Mvp70Sim63Loops Mvp.Mvp70Sim63Proofs Mvp.Mvp70Sim63Mvp71
     Mvp.Mvp71Sim70.
Import ListNotations.
Open Scope Z_scope.

(* C01: MVP-7.1 = MVP-7.0 on single-assignment, register-only, straight-line programs: every number of cores,
   every order function, every fuel *)
Theorem C01_mvp71_ssa_straight_sim_mvp70 : forall app labels, wf_app app ->
  straight app = true -> reg_only app = true -> ssa app = true -> regs_ok app = true ->
  forall par fuel st st' tr, (1 <= par)%nat ->
  Forall int32 (regs st) -> length (regs st) = 32%nat -> nth 0 (regs st) 0 = 0 ->
  seq_run fuel (map sinstr_of app) labels st = Done st' tr ->
  forall ord fuel', mvp71_run_os par ord fuel' app labels st = mvp70_run_os par ord fuel' app labels st.
Proof. exact mvp71_ssa_straight_sim_mvp70. Qed.
Print Assumptions C01_mvp71_ssa_straight_sim_mvp70.

(* one tick: under the run invariant the two step functions agree and the invariant is kept *)
Theorem C01_mvp71_tick : forall app labels regs0 mem0 ord, wf_app app ->
  straight app = true -> reg_only app = true -> ssa app = true -> regs_ok app = true ->
  length regs0 = 32%nat -> Forall int32 regs0 -> nth 0 regs0 0 = 0 ->
  (forall k, (0 <= k <= stop_from app 0)%nat -> (k < length app)%nat ->
     exec (sinstr_of (Mvp60RefSem.ik app k)) (rget (Mvp60RefSem.sreg app labels regs0 0 k)) labels (Mvp60RefSem.pcz k) [] =
       Ok (Mvp60RefSem.eff app labels regs0 0 k) /\
     (forall a, Mvp60RefBack.etarget (Mvp60RefSem.eff app labels regs0 0 k) = Some a ->
        exists t, a = Mvp60RefSem.pcz t /\ (k < t <= length app)%nat)) ->
  forall s, CI app labels regs0 mem0 s ->
    step7 hooks71 app labels ord s = step7 hooks70 app labels ord s /\
    (forall s', step7 hooks70 app labels ord s = UCont s' -> CI app labels regs0 mem0 s').
Proof. exact tick71. Qed.
Print Assumptions C01_mvp71_tick.

(* C01: MVP-7.1 computes the sequential result on the class, at every number of cores, for EVERY order function,
   for all fuels from fuel_bound70 (length app) on *)
Theorem C01_mvp71_refines_seq_ssa_straight : forall app labels, wf_app app ->
  straight app = true -> reg_only app = true -> ssa app = true -> regs_ok app = true ->
  forall par fuel st st' tr, (1 <= par)%nat ->
  Forall int32 (regs st) -> length (regs st) = 32%nat -> nth 0 (regs st) 0 = 0 ->
  seq_run fuel (map sinstr_of app) labels st = Done st' tr ->
  forall ord, exists c, forall fuel', (fuel_bound70 (length app) <= fuel')%nat -> mvp71_run par ord fuel' app labels st = MDone c st'.
Proof. exact mvp71_refines_seq_ssa_straight. Qed.
Print Assumptions C01_mvp71_refines_seq_ssa_straight.

(* C12: ... with the ghost flag clear, at least ceil(executed / 2) + 1 cycles, the cycle count of MVP-7.0, one
   cycle more than MVP-6.3 *)
Theorem C12_mvp71_run_ssa_straight : forall app labels, wf_app app ->
  straight app = true -> reg_only app = true -> ssa app = true -> regs_ok app = true ->
  forall par fuel st st' tr, (1 <= par)%nat ->
  Forall int32 (regs st) -> length (regs st) = 32%nat -> nth 0 (regs st) 0 = 0 ->
  seq_run fuel (map sinstr_of app) labels st = Done st' tr ->
  forall ord, exists c,
    (forall fuel', (fuel_bound70 (length app) <= fuel')%nat -> mvp71_run_os par ord fuel' app labels st = (MDone c st', false)) /\
    Z.of_nat (length tr) + 2 <= 2 * c /\
    (forall fuel', (fuel_bound70 (length app) <= fuel')%nat -> mvp70_run_os par ord fuel' app labels st = (MDone c st', false)) /\
    (forall fuel', (fuel_bound63 (length app) <= fuel')%nat -> mvp63_run_os par ord fuel' app labels st = (MDone (c - 1) st', false)).
Proof. exact mvp71_run_ssa_straight. Qed.
Print Assumptions C12_mvp71_run_ssa_straight.

Theorem C12_mvp71_ghost_clear_ssa_straight : forall app labels, wf_app app ->
  straight app = true -> reg_only app = true -> ssa app = true -> regs_ok app = true ->
  forall par fuel st st' tr, (1 <= par)%nat ->
  Forall int32 (regs st) -> length (regs st) = 32%nat -> nth 0 (regs st) 0 = 0 ->
  seq_run fuel (map sinstr_of app) labels st = Done st' tr ->
  forall ord fuel', (fuel_bound70 (length app) <= fuel')%nat -> snd (mvp71_run_os par ord fuel' app labels st) = false.
Proof. exact mvp71_ghost_clear_ssa_straight. Qed.
Print Assumptions C12_mvp71_ghost_clear_ssa_straight.

(* C07: termination within the bound, no panic, no error *)
Theorem C07_mvp71_terminates_ssa_straight : forall app labels, wf_app app ->
  straight app = true -> reg_only app = true -> ssa app = true -> regs_ok app = true ->
  forall par fuel st st' tr, (1 <= par)%nat ->
  Forall int32 (regs st) -> length (regs st) = 32%nat -> nth 0 (regs st) 0 = 0 ->
  seq_run fuel (map sinstr_of app) labels st = Done st' tr ->
  forall ord, exists c, mvp71_run par ord (fuel_bound70 (length app)) app labels st = MDone c st' /\ (Z.of_nat (length tr) + 1) / 2 + 1 <= c.
Proof. exact mvp71_terminates_ssa_straight. Qed.
Print Assumptions C07_mvp71_terminates_ssa_straight.

Theorem C07_mvp71_no_panic_ssa_straight : forall app labels, wf_app app ->
  straight app = true -> reg_only app = true -> ssa app = true -> regs_ok app = true ->
  forall par fuel st st' tr, (1 <= par)%nat ->
  Forall int32 (regs st) -> length (regs st) = 32%nat -> nth 0 (regs st) 0 = 0 ->
  seq_run fuel (map sinstr_of app) labels st = Done st' tr ->
  forall ord fuel', (fuel_bound70 (length app) <= fuel')%nat ->
  mvp71_run par ord fuel' app labels st <> MPanic /\ mvp71_run par ord fuel' app labels st <> MOutOfFuel /\
  (forall e, mvp71_run par ord fuel' app labels st <> MErr e).
Proof. exact mvp71_no_panic_ssa_straight. Qed.
Print Assumptions C07_mvp71_no_panic_ssa_straight.

(* an instance of the theorem itself: ANY number of cores, ANY order function, ANY fuel *)
Theorem C01_mvp71_example_sim : forall par ord fuel, (1 <= par)%nat ->
  mvp71_run_os par ord fuel (map instr_of ex63_prog) no_labels zero32 =
  mvp70_run_os par ord fuel (map instr_of ex63_prog) no_labels zero32.
Proof. exact mvp71_ssa_example_sim. Qed.
Print Assumptions C01_mvp71_example_sim.

Theorem C01_mvp71_example_any : forall par ord, (1 <= par)%nat ->
  exists c st', seq_run 100 (map sinstr_of (map instr_of ex63_prog)) no_labels zero32 = Done st' (rev (map (fun k => 4 * Z.of_nat k) (seq 0 14))) /\
    (forall fuel, (fuel_bound70 14 <= fuel)%nat -> mvp71_run_os par ord fuel (map instr_of ex63_prog) no_labels zero32 = (MDone c st', false)) /\
    rget (regs st') 18 = 251 /\ 8 <= c.
Proof. exact mvp71_ssa_example_any. Qed.
Print Assumptions C01_mvp71_example_any.

(* 1..4 cores, both orders, 3001 ticks: the runs end *)
Theorem C01_mvp71_example : forall par, In par [1; 2; 3; 4]%nat ->
  mvp71_run_os par ord_asc 3001 (map instr_of ex63_prog) no_labels zero32 =
  mvp70_run_os par ord_asc 3001 (map instr_of ex63_prog) no_labels zero32 /\
  mvp71_run_os par ord_desc 3001 (map instr_of ex63_prog) no_labels zero32 =
  mvp70_run_os par ord_desc 3001 (map instr_of ex63_prog) no_labels zero32 /\
  fst (mvp71_run_os par ord_asc 3001 (map instr_of ex63_prog) no_labels zero32) <> MOutOfFuel.
Proof. exact mvp71_ssa_example. Qed.
Print Assumptions C01_mvp71_example.
