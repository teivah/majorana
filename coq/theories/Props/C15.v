(* C15 - Speculative register state commits and rolls back by program order.
   Property theorems only.  Models (hand-written, tied to the code on every run
   by lib/vf/c15.py): Comp/Rat.v (proc/comp/rat.go), Comp/Tx.v (risc/app.go
   Context + registerRead of risc/opcodes.go).  Spec: Comp/TxSpec.v.

   Vocabulary.  A history is a list of operations (mop: the Transaction-map
   discipline of MVP-6.2; rop: the rename-table discipline of MVP-6.3+), run
   from NewContext (ctx0m / ctx0r).  pend kind h r = the tagged writes (tag,
   value) to register r since the last commit/rollback of h, newest arrival
   first.  youngest P l = the write of l with the greatest tag satisfying P.
   Contracts (boolean predicates over the history):
     tags_increasing : writes to one register arrive in strictly increasing tag order
     within_slots n  : at most n uncommitted writes per register (1: map, 10: ring)
   arch c r = the committed value registerRead falls back to on the RAT path
   (committedRAT, else 0); arch_or_reg = what RATFlush leaves in Registers.
   The `hint` arguments stand for Go's map iteration order; every theorem
   holds for all hints. *)
From Coq Require Import ZArith List Bool Permutation.
From Maj Require Import Base.Outcome Comp.Rat Comp.Tx Comp.TxSpec Comp.RatProofs Comp.TxProofs.
Import ListNotations.
Open Scope Z_scope.

(* the specification's `youngest` is what it says *)
Theorem C15_youngest_is_youngest : forall P l,
  (forall u, youngest P l = Some u ->
     In u l /\ P (fst u) = true /\ forall u', In u' l -> P (fst u') = true -> fst u' <= fst u) /\
  (youngest P l = None -> forall u, In u l -> P (fst u) = false).
Proof.
  exact (fun P l => conj (fun u H => conj (proj1 (youngest_In P l u H))
                                          (conj (proj2 (youngest_In P l u H)) (youngest_max P l u H)))
                         (youngest_none P l)).
Qed.
Print Assumptions C15_youngest_is_youngest.

Theorem C15_map_commit_youngest : forall h hint r,
  tags_increasing mkind h = true ->
  reg_get (mrun (h ++ [MCommit hint]) ctx0m) r =
  value_or (youngest all_tags (pend mkind h r)) (reg_get (mrun h ctx0m) r).
Proof. exact m_commit_youngest. Qed.
Print Assumptions C15_map_commit_youngest.

Theorem C15_map_rollback_youngest_older_than_s : forall h hint s r,
  within_slots mkind 1 h = true ->
  reg_get (mrun (h ++ [MRollback hint s]) ctx0m) r =
  value_or (youngest (older_than s) (pend mkind h r)) (reg_get (mrun h ctx0m) r).
Proof. exact m_rollback_youngest_older_than_s. Qed.
Print Assumptions C15_map_rollback_youngest_older_than_s.

Theorem C15_map_untouched_unchanged : forall h hint s r,
  pend mkind h r = [] ->
  reg_get (mrun (h ++ [MCommit hint]) ctx0m) r = reg_get (mrun h ctx0m) r /\
  reg_get (mrun (h ++ [MRollback hint s]) ctx0m) r = reg_get (mrun h ctx0m) r.
Proof. exact m_untouched_unchanged. Qed.
Print Assumptions C15_map_untouched_unchanged.

Theorem C15_map_read_never_younger : forall h r t fw,
  t <> 0 -> r <> fst fw ->
  let v := register_read (mrun h ctx0m) fw r t in
  (exists u, In u (pend mkind h r) /\ fst u <= t /\ snd u = v) \/ v = reg_get (mrun h ctx0m) r.
Proof. exact m_read_never_younger. Qed.
Print Assumptions C15_map_read_never_younger.

Theorem C15_map_commit_and_plain_read_still_youngest : forall h hint r fw,
  tags_increasing mkind h = true ->
  reg_get (mrun (h ++ [MCommit hint]) ctx0m) r =
    value_or (youngest all_tags (pend mkind h r)) (reg_get (mrun h ctx0m) r) /\
  (r <> fst fw ->
   register_read (mrun h ctx0m) fw r 0 =
    value_or (youngest all_tags (pend mkind h r)) (reg_get (mrun h ctx0m) r)).
Proof. exact (fun h hint r fw Ht => conj (m_commit_youngest h hint r Ht) (m_plain_read_youngest h r fw Ht)). Qed.
Print Assumptions C15_map_commit_and_plain_read_still_youngest.

(* lost beyond the slot: [t0 := 1 tag 1; t0 := 2 tag 5; Rollback 3] leaves t0 = 0, not 1 *)
Theorem C15_map_rollback_beyond_slot_refuted :
  exists h s r,
    tags_increasing mkind h = true /\ within_slots mkind 1 h = false /\
    reg_get (mrun (h ++ [MRollback [] s]) ctx0m) r = 0 /\
    value_or (youngest (older_than s) (pend mkind h r)) (reg_get (mrun h ctx0m) r) = 1.
Proof. exact m_rollback_beyond_slot_refuted. Qed.
Print Assumptions C15_map_rollback_beyond_slot_refuted.

(* out-of-order arrival: [t0 := 1 tag 9; t0 := 2 tag 3; Commit] gives t0 = 2 (last arrival), youngest is 1 *)
Theorem C15_map_commit_last_arrival_refuted :
  exists h r,
    tags_increasing mkind h = false /\ within_slots mkind 2 h = true /\
    reg_get (mrun (h ++ [MCommit []]) ctx0m) r = 2 /\
    value_or (youngest all_tags (pend mkind h r)) (reg_get (mrun h ctx0m) r) = 1.
Proof. exact m_commit_last_arrival_refuted. Qed.
Print Assumptions C15_map_commit_last_arrival_refuted.

Theorem C15_map_commit_last_arrival : forall h hint r,
  reg_get (mrun (h ++ [MCommit hint]) ctx0m) r =
  value_or (hd_error (pend mkind h r)) (reg_get (mrun h ctx0m) r).
Proof. exact m_commit_last_arrival. Qed.
Print Assumptions C15_map_commit_last_arrival.

Theorem C15_map_order_independent : forall h1 h2 c1 c2,
  map merase h1 = map merase h2 -> mceq c1 c2 ->
  mtrace h1 c1 = mtrace h2 c2 /\ mceq (mrun h1 c1) (mrun h2 c2).
Proof. exact m_order_independent. Qed.
Print Assumptions C15_map_order_independent.

Theorem C15_rat_commit_youngest : forall h hint r,
  tags_increasing rkind h = true ->
  arch (rrun (h ++ [RCommit hint]) ctx0r) r =
  value_or (youngest all_tags (pend rkind h r)) (arch (rrun h ctx0r) r).
Proof. exact r_commit_youngest. Qed.
Print Assumptions C15_rat_commit_youngest.

Theorem C15_rat_commit_flush_youngest : forall h hint1 hint2 r,
  tags_increasing rkind h = true ->
  reg_get (rrun (h ++ [RCommit hint1; RFlush hint2]) ctx0r) r =
  value_or (youngest all_tags (pend rkind h r)) (arch_or_reg (rrun h ctx0r) r).
Proof. exact r_commit_flush_youngest. Qed.
Print Assumptions C15_rat_commit_flush_youngest.

Theorem C15_rat_rollback_youngest_older_than_s : forall h hint s r,
  tags_increasing rkind h = true -> within_slots rkind 10 h = true ->
  arch (rrun (h ++ [RRollback hint s]) ctx0r) r =
  value_or (youngest (older_than s) (pend rkind h r)) (arch (rrun h ctx0r) r).
Proof. exact r_rollback_youngest_older_than_s. Qed.
Print Assumptions C15_rat_rollback_youngest_older_than_s.

Theorem C15_rat_rollback_flush_youngest_older_than_s : forall h hint1 hint2 s r,
  tags_increasing rkind h = true -> within_slots rkind 10 h = true ->
  reg_get (rrun (h ++ [RRollback hint1 s; RFlush hint2]) ctx0r) r =
  value_or (youngest (older_than s) (pend rkind h r)) (arch_or_reg (rrun h ctx0r) r).
Proof. exact r_rollback_flush_youngest_older_than_s. Qed.
Print Assumptions C15_rat_rollback_flush_youngest_older_than_s.

(* Registers and committed RAT agree where the latter has no entry, unless a
   WriteRegister follows the last InitRAT *)
Theorem C15_rat_registers_agree : forall h r,
  no_late_regwrite h = true -> arch_or_reg (rrun h ctx0r) r = arch (rrun h ctx0r) r.
Proof. exact r_arch_or_reg. Qed.
Print Assumptions C15_rat_registers_agree.

Theorem C15_rat_untouched_unchanged : forall h hint s r,
  pend rkind h r = [] ->
  arch (rrun (h ++ [RCommit hint]) ctx0r) r = arch (rrun h ctx0r) r /\
  arch (rrun (h ++ [RRollback hint s]) ctx0r) r = arch (rrun h ctx0r) r.
Proof. exact r_untouched_unchanged. Qed.
Print Assumptions C15_rat_untouched_unchanged.

Theorem C15_rat_read_never_younger : forall h r t fw,
  t <> 0 -> r <> fst fw ->
  let v := register_read (rrun h ctx0r) fw r t in
  (exists u, In u (pend rkind h r) /\ fst u <= t /\ snd u = v) \/ v = arch (rrun h ctx0r) r.
Proof. exact r_read_never_younger. Qed.
Print Assumptions C15_rat_read_never_younger.

Theorem C15_rat_read_youngest_not_younger : forall h r t fw,
  tags_increasing rkind h = true -> within_slots rkind 10 h = true ->
  t <> 0 -> r <> fst fw ->
  register_read (rrun h ctx0r) fw r t =
  value_or (youngest (not_younger_than t) (pend rkind h r)) (arch (rrun h ctx0r) r).
Proof. exact r_read_youngest_not_younger. Qed.
Print Assumptions C15_rat_read_youngest_not_younger.

Theorem C15_rat_commit_and_plain_read_still_youngest : forall h hint r fw,
  tags_increasing rkind h = true ->
  arch (rrun (h ++ [RCommit hint]) ctx0r) r =
    value_or (youngest all_tags (pend rkind h r)) (arch (rrun h ctx0r) r) /\
  (r <> fst fw ->
   register_read (rrun h ctx0r) fw r 0 =
    value_or (youngest all_tags (pend rkind h r)) (arch (rrun h ctx0r) r)).
Proof. exact (fun h hint r fw Ht => conj (r_commit_youngest h hint r Ht) (r_plain_read_youngest h r fw Ht)). Qed.
Print Assumptions C15_rat_commit_and_plain_read_still_youngest.

(* lost beyond the 10 slots: [t0 := 100+i tag i, i = 1..11; RATRollback 2 (; RATFlush)]
   leaves t0 = 0, not 101 *)
Theorem C15_rat_rollback_beyond_slots_refuted :
  exists h s r,
    tags_increasing rkind h = true /\ within_slots rkind 10 h = false /\
    arch (rrun (h ++ [RRollback [] s]) ctx0r) r = 0 /\
    reg_get (rrun (h ++ [RRollback [] s; RFlush []]) ctx0r) r = 0 /\
    value_or (youngest (older_than s) (pend rkind h r)) (arch (rrun h ctx0r) r) = 101.
Proof. exact r_rollback_beyond_slots_refuted. Qed.
Print Assumptions C15_rat_rollback_beyond_slots_refuted.

Theorem C15_rat_tagged_read_beyond_slots_refuted :
  exists h t r,
    tags_increasing rkind h = true /\ within_slots rkind 10 h = false /\
    register_read (rrun h ctx0r) (0, 0) r t = 0 /\
    value_or (youngest (not_younger_than t) (pend rkind h r)) (arch (rrun h ctx0r) r) = 101.
Proof. exact r_tagged_read_beyond_slots_refuted. Qed.
Print Assumptions C15_rat_tagged_read_beyond_slots_refuted.

(* out-of-order arrival: [t0 := 1 tag 9; t0 := 2 tag 3; RATCommit (; RATFlush)] gives 2, youngest is 1 *)
Theorem C15_rat_commit_last_arrival_refuted :
  exists h r,
    tags_increasing rkind h = false /\ within_slots rkind 10 h = true /\
    arch (rrun (h ++ [RCommit []]) ctx0r) r = 2 /\
    reg_get (rrun (h ++ [RCommit []; RFlush []]) ctx0r) r = 2 /\
    value_or (youngest all_tags (pend rkind h r)) (arch (rrun h ctx0r) r) = 1.
Proof. exact r_commit_last_arrival_refuted. Qed.
Print Assumptions C15_rat_commit_last_arrival_refuted.

(* [t0 := 1 tag 4; t0 := 2 tag 2; t0 := 3 tag 9; RATRollback 5] commits 2 (newest arrival older than 5), youngest older than 5 is 1 *)
Theorem C15_rat_rollback_arrival_order_refuted :
  exists h s r,
    tags_increasing rkind h = false /\ within_slots rkind 10 h = true /\
    arch (rrun (h ++ [RRollback [] s]) ctx0r) r = 2 /\
    value_or (youngest (older_than s) (pend rkind h r)) (arch (rrun h ctx0r) r) = 1.
Proof. exact r_rollback_arrival_order_refuted. Qed.
Print Assumptions C15_rat_rollback_arrival_order_refuted.

Theorem C15_rat_commit_last_arrival : forall h hint r,
  arch (rrun (h ++ [RCommit hint]) ctx0r) r =
  value_or (hd_error (pend rkind h r)) (arch (rrun h ctx0r) r).
Proof. exact r_commit_last_arrival. Qed.
Print Assumptions C15_rat_commit_last_arrival.

Theorem C15_rat_order_independent : forall h1 h2 c1 c2,
  map rerase h1 = map rerase h2 -> rceq c1 c2 ->
  rtrace h1 c1 = rtrace h2 c2 /\ rceq (rrun h1 c1) (rrun h2 c2).
Proof. exact r_order_independent. Qed.
Print Assumptions C15_rat_order_independent.

Theorem C15_ring_keeps_last_arrivals : forall (V : Type) (zero : V) len ws, 1 <= len ->
  rat_ok (rat_writes zero (rat_new len) ws) /\
  r_len (rat_writes zero (rat_new len) ws) = len /\
  forall k, rat_view (rat_writes zero (rat_new len) ws) k = firstn (Z.to_nat len) (arrivals k ws).
Proof. exact @rat_keeps_last_arrivals. Qed.
Print Assumptions C15_ring_keeps_last_arrivals.

Theorem C15_ring_read_find_values : forall (V : Type) (zero : V) len ws k p, 1 <= len ->
  rat_read zero (rat_writes zero (rat_new len) ws) k = hd_error (arrivals k ws) /\
  rat_find zero (rat_writes zero (rat_new len) ws) k p = find p (firstn (Z.to_nat len) (arrivals k ws)) /\
  aget k (rat_values zero (rat_writes zero (rat_new len) ws)) = hd_error (arrivals k ws) /\
  aget k (rat_findvalues zero (rat_writes zero (rat_new len) ws) p) = find p (firstn (Z.to_nat len) (arrivals k ws)).
Proof.
  exact (fun V zero len ws k p H =>
           conj (rat_read_last_arrival zero len ws k H)
          (conj (rat_find_newest_match zero len ws k p H)
          (conj (rat_values_last_arrival zero len ws k H)
                (rat_findvalues_newest_match zero len ws k p H)))).
Qed.
Print Assumptions C15_ring_read_find_values.

Theorem C15_ring_write_never_panics : forall (V : Type) (zero : V) len ws k v, 1 <= len ->
  rat_write_o zero (rat_writes zero (rat_new len) ws) k v
  = Ok (rat_write zero (rat_writes zero (rat_new len) ws) k v).
Proof. exact @rat_write_never_panics. Qed.
Print Assumptions C15_ring_write_never_panics.

(* the hints range over exactly the permutations of the keys *)
Theorem C15_iteration_orders : forall keys, NoDup keys ->
  (forall hint, Permutation (iter_order hint keys) keys) /\
  (forall p, Permutation p keys -> iter_order p keys = p).
Proof. exact (fun keys H => conj (fun hint => iter_order_perm hint keys H) (fun p => iter_order_any p keys H)). Qed.
Print Assumptions C15_iteration_orders.

(* non-vacuity: concrete non-trivial histories satisfying the contracts, evaluated by the kernel *)
Example C15_example_map :
  tags_increasing mkind m_example = true /\ within_slots mkind 1 m_example = true /\
  map (reg_get (mrun m_example ctx0m)) [5; 6; 7] = [11; 13; 14].
Proof. vm_compute. repeat split. Qed.
Example C15_example_rat :
  tags_increasing rkind r_example = true /\ within_slots rkind 10 r_example = true /\
  no_late_regwrite r_example = true /\
  map (reg_get (rrun r_example ctx0r)) [5; 6; 7] = [11; 13; 14].
Proof. vm_compute. repeat split. Qed.
