(* C12 / C08 / C04 / C07 for MVP-6.3 (MVP-6.2 with a register alias table instead of the
   transaction map and a control unit that dispatches through one outstanding WAW/WAR hazard).
   Property theorems only; proofs in Mvp/Mvp63Proofs.v about the faithful cycle-level model
   Mvp/Mvp63.v (built on Mvp60.v, Comp/Rat.v, Comp/Scoreboard.v), tied to proc/mvp6-3 by exact
   equality of (cycles, registers, memory) at 1..4 units (lib/vf/c12.py, lib/vf/modeltie.py;
   bin/tie_m63.py for all sampled iteration orders and the state - including the speculative
   register file - at the tick budget). *)
From Coq Require Import ZArith List Bool Lia.
From Maj Require Import Base.Outcome Base.GoInt Base.GoTypes Isa.Spec Isa.Seq.
From Maj Require Import Gen.Latency Gen.RiscTables Gen.Opcodes Comp.Cache Comp.Rat Mvp.Mvp12 Mvp.Mvp3 Mvp.Mvp5 Mvp.Mvp60 Mvp.Mvp63.
From Maj Require Import Mvp.Mvp60Proofs.
Import ListNotations.
Open Scope Z_scope.
From Maj Require Import Mvp.Mvp63Proofs.

(* C12: a returning run reports at least one cycle *)
Theorem C12_mvp63_cycles_positive :
  forall par ord fuel app labels st c st',
  mvp63_run par ord fuel app labels st = MDone c st' -> 1 <= c.
Proof. exact mvp63_cycles_pos. Qed.
Print Assumptions C12_mvp63_cycles_positive.

(* C12: at most two instructions are dispatched per cycle whatever the number of units *)
Theorem C12_mvp63_issue_width_two :
  forall ord cycle x,
  bb_bl (x_ebus x) = 2 -> ebus_ok x ->
  zlen (bb_buf (x_ebus (cu_cycle3 ord cycle x))) <= 2.
Proof. exact mvp63_dispatch_width. Qed.
Print Assumptions C12_mvp63_issue_width_two.

(* C08: a run ending with the ghost flag clear is the same for all iteration orders that agree on the RAT value maps *)
Theorem C08_mvp63_order_irrelevant_when_flag_clear :
  forall par fuel app labels st ord1 ord2 r,
  ords_ok3 ord1 ord2 ->
  mvp63_run_os par ord1 fuel app labels st = (r, false) ->
  mvp63_run_os par ord2 fuel app labels st = (r, false).
Proof. exact mvp63_ord_irrelevant. Qed.
Print Assumptions C08_mvp63_order_irrelevant_when_flag_clear.

(* C04 finding SYS-renaming-6.3plus as theorems about the model: "renaming" renames nothing - a younger writer
   overtakes an older reader (WAR) ... *)
Theorem C04_mvp63_war_refuted :
  reg_of (mvp12_run V1 1000 war_prog no_labels (st_of [(5, 1)] [(0, 5)])) 7 = Some 6 /\
  reg_of (mvp63_run 1 ord_asc 2000 war_prog no_labels (st_of [(5, 1)] [(0, 5)])) 7 = Some 6 /\
  reg_of (mvp63_run 3 ord_asc 2000 war_prog no_labels (st_of [(5, 1)] [(0, 5)])) 7 = Some 82.
Proof. exact war_unsound. Qed.
Print Assumptions C04_mvp63_war_refuted.

(* ... and the older of two writers writes back last (WAW) *)
Theorem C04_mvp63_waw_refuted :
  reg_of (mvp12_run V1 1000 waw_prog no_labels (st_of [] [(0, 5)])) 6 = Some 3 /\
  reg_of (mvp63_run 1 ord_asc 2000 waw_prog no_labels (st_of [] [(0, 5)])) 6 = Some 3 /\
  reg_of (mvp63_run 2 ord_asc 2000 waw_prog no_labels (st_of [] [(0, 5)])) 6 = Some 5.
Proof. exact waw_unsound. Qed.
Print Assumptions C04_mvp63_waw_refuted.

(* C08: the forwarding source is chosen by map iteration order: two orders, two results *)
Theorem C08_mvp63_forwarding_source_depends_on_map_order :
  (let r := mvp63_run_os 2 ord_asc 2000 fwd_prog no_labels (st_of [] []) in (reg_of (fst r) 5, snd r)) = (Some 3, true) /\
  (let r := mvp63_run_os 2 ord_desc 2000 fwd_prog no_labels (st_of [] []) in (reg_of (fst r) 5, snd r)) = (Some 93, true).
Proof. exact forward_order. Qed.
Print Assumptions C08_mvp63_forwarding_source_depends_on_map_order.

(* C07 finding SYS-memory-6x: a store that misses L3 leaves a pending range that a later load of the line waits for *)
Theorem C07_mvp63_store_miss_then_load_hangs :
  mvp63_run 1 ord_asc 20000 stld_prog no_labels (st_of [] []) = MOutOfFuel.
Proof. exact store_miss_hang. Qed.
Print Assumptions C07_mvp63_store_miss_then_load_hangs.

(* C07: an error raised inside the flush loop is what Run returns (/repo 1ed8ef8) *)
Theorem C07_mvp63_error_in_flush_loop_is_returned :
  mvp12_run V1 1000 flusherr_prog (one_label 16) (st_of [(28, 5)] []) = MErr EDivZero /\
  mvp63_run 2 ord_asc 2000 flusherr_prog (one_label 16) (st_of [(28, 5)] []) = MErr EDivZero /\
  mvp63_run 3 ord_asc 2000 flusherr_prog (one_label 16) (st_of [(28, 5)] []) = MErr EDivZero.
Proof. exact flush_error. Qed.
Print Assumptions C07_mvp63_error_in_flush_loop_is_returned.
