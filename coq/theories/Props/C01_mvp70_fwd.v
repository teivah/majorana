(* C01 / C07 for MVP-7.0 on single-assignment register-only programs with forward control flow.
   Property theorems only: the MVP-6.3 theorem (Props/C01_mvp63_fwd.v) transported through the
   proved lock-step simulation "MVP-7.0 = MVP-6.3 + one cycle on programs without loads and stores"
   (Props/C01_mvp70.v).  Models: Mvp/Mvp70.v, tied to proc/mvp7-0 by exact equality of (cycles,
   registers, memory) at 1..4 cores. *)
From Coq Require Import ZArith List Bool.
From Maj Require Import Base.Outcome Base.GoInt Base.GoTypes Isa.Spec Isa.Seq Isa.Refine Gen.Opcodes.
From Maj Require Import Mvp.Mvp12 Mvp.Mvp12Proofs Mvp.Mvp60 Mvp.Mvp63 Mvp.Mvp70 Mvp.Mvp4Skel Mvp.Mvp60RefDefs Mvp.Mvp60RefProofs
     Mvp.Mvp63RefDefs Mvp.Mvp63RefFwdDefs Mvp.Mvp63RefFwdProofs Mvp.Mvp63RefFwdThm Mvp.Mvp70Sim63Fwd.
Import ListNotations.
Open Scope Z_scope.

(* every register-only single-assignment program with forward control flow (conditional branches
   with register-writing shadows, j, jal strictly ahead, ret anywhere; no div/rem/jalr), every number
   of cores >= 1, every iteration order: the run of MVP-7.0 returns the sequential registers and
   memory, with the ghost flag clear (deterministic), for every fuel from the bound on *)
Theorem C01_mvp70_refines_seq_ssa_forward : forall app labels,
  wf_app app -> reg_only app = true -> ssa app = true -> regs_ok app = true ->
  fwd_ok app labels = true -> seq_ids_fit3 app ->
  forall par ord fuel st st' tr, (1 <= par)%nat ->
    Forall int32 (regs st) -> length (regs st) = 32%nat -> nth 0 (regs st) 0 = 0 ->
    seq_run fuel (map sinstr_of app) labels st = Done st' tr ->
    exists c, forall fuel', (fuel_bound70_fwd (length app) <= fuel')%nat ->
      mvp70_run_os par ord fuel' app labels st = (MDone c st', false).
Proof. exact mvp70_refines_seq_ssa_forward. Qed.
Print Assumptions C01_mvp70_refines_seq_ssa_forward.

Theorem C07_mvp70_no_panic_ssa_forward : forall app labels,
  wf_app app -> reg_only app = true -> ssa app = true -> regs_ok app = true ->
  fwd_ok app labels = true -> seq_ids_fit3 app ->
  forall par ord fuel st st' tr, (1 <= par)%nat ->
    Forall int32 (regs st) -> length (regs st) = 32%nat -> nth 0 (regs st) 0 = 0 ->
    seq_run fuel (map sinstr_of app) labels st = Done st' tr ->
    forall fuel', (fuel_bound70_fwd (length app) <= fuel')%nat ->
      mvp70_run par ord fuel' app labels st <> MPanic /\ mvp70_run par ord fuel' app labels st <> MOutOfFuel /\
      (forall e, mvp70_run par ord fuel' app labels st <> MErr e) /\ snd (mvp70_run_os par ord fuel' app labels st) = false.
Proof. exact mvp70_no_panic_ssa_forward. Qed.
Print Assumptions C07_mvp70_no_panic_ssa_forward.

Theorem C07_mvp70_fuel_bound_fwd_value : forall n, fuel_bound70_fwd n = S (fuel_bound63_fwd n).
Proof. reflexivity. Qed.
