(* C01 / C12 / C07 for MVP-6.0 (proc/mvp6-0: the first superscalar variant - fetch unit
   with L1I, decode unit, control unit dispatching up to two instructions per cycle
   to `par` execute units under the scoreboard's RAW / WAW / WAR checks, `par` write
   units, out-of-order write-back, branch unit + BTB, flush) on REGISTER-ONLY programs.
   Property theorems only; the proofs are in Mvp/Mvp60RefProofs.v (and Mvp60RefSem,
   Mvp60RefDefs, Mvp60RefFront, Mvp60RefBack, Mvp60RefStep, Mvp60RefStep2, Mvp60RefSeg,
   Mvp60RefBranch), about the cycle-level model Mvp/Mvp60.v, which is tied to proc/mvp6-0
   by exact equality of cycles, registers and memory in the system differential.

   Two program classes:
     straight app      : no conditional branch and no j / jal / jalr in the text
                         (InstructionType_IsBranch); ret may occur anywhere, the run ends
                         at the first one.  Division is allowed (a division by zero makes
                         the sequential run fail, the hypothesis is then false).
     fwd_ok app labels : FORWARD control flow - every beq/bne/blt/bge/ble/bltu/bgeu/beqz/
                         bnez/j/jal names a defined, 4-aligned label strictly ahead of the
                         instruction and at most at the end of the text - and no div, rem,
                         jalr.  Branch shadows may contain anything else, including
                         instructions that write registers, ret, other branches and jumps.
                         div / rem are excluded because of the FINDING below.
   Common hypotheses:
     wf_app            : int32 immediates, text shorter than 2^31 - 8 bytes (as for MVP-1..5);
     reg_only app      : no load and no store instruction in the text
                         (without it the statement is false: C01_mvp60_memory_order_refuted);
     1 <= par          : any number of execute / write units (NewCPU is called with 1..4);
     ord               : any iteration order of Go's maps;
     Forall int32 regs, length regs <= 32 : int32 registers, at most 32 of them (the
                         scoreboard has 32 slots: C01_mvp60_more_than_32_registers_refuted).
   No hypothesis on the memory; none on the labels for straight-line programs.
   fuel_bound60 n = 400 * n + 1600 ticks of Run for a straight-line text of n instructions,
   fuel_bound60_fwd n = (n + 1) * (400 * n + 1600) with forward control flow (one segment
   per flush).

   What the proofs show about the design
   - the scoreboard makes every instruction in flight independent (no RAW, no WAW, no WAR
     on a register slot) of EVERY younger dispatched instruction, written back or not;
     therefore write-backs commute, an instruction reads its sequential operands whenever
     an execute unit gets to it, and the register file is the sequential one as soon as
     nothing is in flight (Mvp60RefSem.BackSem, bs_dispatch / bs_writeback / bs_reads);
   - on register-only programs an execute unit never waits for the write bus, so a branch
     executes in the cycle after its dispatch; everything dispatched behind it is then still
     in the execute bus or (executed in the same cycle) in the buffer of the write bus, and
     the write-back loop of the flush drops it (writeUnit.cycle(ctx, from)): wrong-path
     register writes never reach the register file (Mvp60RefSem.bw_squash);
   - but a wrong-path instruction that FAILS (div / rem by zero) aborts the run when it is
     executed in the same cycle as the branch: C01_mvp60_taken_branch_shadow_error_refuted. *)
From Coq Require Import ZArith List Bool Lia.
From Maj Require Import Base.Outcome Base.GoInt Isa.Spec Isa.Seq Isa.Refine Gen.Opcodes.
From Maj Require Import Mvp.Mvp12 Mvp.Mvp12Proofs Mvp.Mvp4Skel Mvp.Mvp4Proofs Mvp.Mvp60 Mvp.Mvp60RefDefs Mvp.Mvp60RefProofs Mvp.Mvp60RefBranch.
Import ListNotations.
Open Scope Z_scope.

(* C01: for every straight-line register-only program on which the sequential machine
   terminates, multiple issue with out-of-order write-back returns - no error, no panic -
   exactly the sequential registers and memory, for every fuel from fuel_bound60 on *)
Theorem C01_mvp60_refines_seq_straight : forall app labels, wf_app app ->
  straight app = true -> reg_only app = true ->
  forall par ord fuel st st' tr, (1 <= par)%nat ->
  Forall int32 (regs st) -> (length (regs st) <= 32)%nat ->
  seq_run fuel (map sinstr_of app) labels st = Done st' tr ->
  exists c, forall fuel', (fuel_bound60 (length app) <= fuel')%nat -> mvp60_run par ord fuel' app labels st = MDone c st'.
Proof. exact mvp60_refines_seq_straight. Qed.
Print Assumptions C01_mvp60_refines_seq_straight.

(* the same with the cycle count: at least half the number of executed instructions *)
Theorem C12_mvp60_run_straight : forall app labels, wf_app app ->
  straight app = true -> reg_only app = true ->
  forall par ord fuel st st' tr, (1 <= par)%nat ->
  Forall int32 (regs st) -> (length (regs st) <= 32)%nat ->
  seq_run fuel (map sinstr_of app) labels st = Done st' tr ->
  exists c, (forall fuel', (fuel_bound60 (length app) <= fuel')%nat -> mvp60_run par ord fuel' app labels st = MDone c st') /\
            Z.of_nat (length tr) <= 2 * c.
Proof. exact mvp60_run_straight. Qed.
Print Assumptions C12_mvp60_run_straight.

(* C12: whenever the model finishes, with whatever fuel, it returns the sequential state
   and has counted at least ceil(executed instructions / 2) cycles (issue width two) *)
Theorem C12_mvp60_cycles_lower_bound_straight : forall app labels, wf_app app ->
  straight app = true -> reg_only app = true ->
  forall par ord fuel st st' tr, (1 <= par)%nat ->
  Forall int32 (regs st) -> (length (regs st) <= 32)%nat ->
  seq_run fuel (map sinstr_of app) labels st = Done st' tr ->
  forall fuel' c st'', mvp60_run par ord fuel' app labels st = MDone c st'' ->
  st'' = st' /\ Z.of_nat (length tr) <= 2 * c /\ (Z.of_nat (length tr) + 1) / 2 <= c.
Proof. exact mvp60_cycles_lower_bound_straight. Qed.
Print Assumptions C12_mvp60_cycles_lower_bound_straight.

(* C07: termination within fuel_bound60 (length app) ticks *)
Theorem C07_mvp60_terminates_straight : forall app labels, wf_app app ->
  straight app = true -> reg_only app = true ->
  forall par ord fuel st st' tr, (1 <= par)%nat ->
  Forall int32 (regs st) -> (length (regs st) <= 32)%nat ->
  seq_run fuel (map sinstr_of app) labels st = Done st' tr ->
  exists c, mvp60_run par ord (fuel_bound60 (length app)) app labels st = MDone c st' /\
            (Z.of_nat (length tr) + 1) / 2 <= c.
Proof. exact mvp60_terminates_straight. Qed.
Print Assumptions C07_mvp60_terminates_straight.

Theorem C07_mvp60_no_panic_straight : forall app labels, wf_app app ->
  straight app = true -> reg_only app = true ->
  forall par ord fuel st st' tr, (1 <= par)%nat ->
  Forall int32 (regs st) -> (length (regs st) <= 32)%nat ->
  seq_run fuel (map sinstr_of app) labels st = Done st' tr ->
  forall fuel', (fuel_bound60 (length app) <= fuel')%nat ->
  mvp60_run par ord fuel' app labels st <> MPanic /\ mvp60_run par ord fuel' app labels st <> MOutOfFuel /\
  (forall e, mvp60_run par ord fuel' app labels st <> MErr e).
Proof. exact mvp60_no_panic_straight. Qed.
Print Assumptions C07_mvp60_no_panic_straight.

(* C01 with forward control flow: conditional branches, j and jal to labels ahead, arbitrary
   branch shadows (no div / rem / jalr): the pipeline - speculative dispatch behind branches,
   flush, BTB - returns exactly the sequential registers and memory *)
Theorem C01_mvp60_refines_seq_forward : forall app labels, wf_app app ->
  reg_only app = true -> fwd_ok app labels = true ->
  forall par ord fuel st st' tr, (1 <= par)%nat ->
  Forall int32 (regs st) -> (length (regs st) <= 32)%nat ->
  seq_run fuel (map sinstr_of app) labels st = Done st' tr ->
  exists c, forall fuel', (fuel_bound60_fwd (length app) <= fuel')%nat -> mvp60_run par ord fuel' app labels st = MDone c st'.
Proof. exact mvp60_refines_seq_forward. Qed.
Print Assumptions C01_mvp60_refines_seq_forward.

Theorem C07_mvp60_fuel_bound_fwd_value : forall n, fuel_bound60_fwd n = ((n + 1) * (400 * n + 1600))%nat.
Proof. reflexivity. Qed.

Theorem C07_mvp60_fuel_bound_value : forall n, fuel_bound60 n = (400 * n + 1600)%nat.
Proof. reflexivity. Qed.

(* findings: why the hypotheses are there *)

(* programs WITH loads and stores: false for the faithful model at two or more execute
   units.  MVP-6.0 tracks no memory dependence: the second load is dispatched with the
   store (no register hazard between them), finds the line in L3 while the store is
   still waiting in the write bus, and reads the old word; the memory word itself is
   still 0 when the run returns.
   lw x6,0(x0) ; li x5,7 ; sw x5,0(x0) ; lw x6,0(x0) : expected x6 = 7, mem[0] = 7 *)
Theorem C01_mvp60_memory_order_refuted :
  let p := [SLw 6 0 0; SLi 5 7; SSw 5 0 0; SLw 6 0 0] in
  let st := mk_arch (repeat 0 32) (repeat 0 256) in
  wf_app (map instr_of p) /\ straight (map instr_of p) = true /\
  exists st' tr st6,
    seq_run 20 p no_lab st = Done st' tr /\
    mvp60_run 2 (ord_policy 0) 5000 (map instr_of p) no_lab st = MDone 985 st6 /\
    rget (regs st') 6 = 7 /\ mget (mem st') 0 = 7 /\
    rget (regs st6) 6 = 0 /\ mget (mem st6) 0 = 0.
Proof.
  cbv zeta. split; [|split].
  - split; [|vm_compute; reflexivity]. repeat constructor; vm_compute; discriminate.
  - vm_compute. reflexivity.
  - do 3 eexists. split; [vm_compute; reflexivity|]. split; [vm_compute; reflexivity|]. vm_compute. repeat split; reflexivity.
Qed.
Print Assumptions C01_mvp60_memory_order_refuted.

(* why (length (regs st) <= 32): the scoreboard has 32 slots; a write to a register number
   above 31 is not tracked, the dependent instruction is dispatched one cycle later,
   executes in the cycle in which the first one is still in the write bus and reads the
   old value (the Go code uses a [32]int32 array, where such a number cannot occur; the
   list-based model and the sequential machine accept any length) *)
Theorem C01_mvp60_more_than_32_registers_refuted :
  let p := [SLi 35 7; SAddi 36 35 1] in
  let st := mk_arch (repeat 0 40) (repeat 0 64) in
  exists st' tr c st6,
    seq_run 10 p no_lab st = Done st' tr /\
    mvp60_run 1 (ord_policy 0) 3000 (map instr_of p) no_lab st = MDone c st6 /\
    nth 36 (regs st') 0 = 8 /\ nth 36 (regs st6) 0 = 1.
Proof. cbv zeta. do 4 eexists. split; [vm_compute; reflexivity|]. split; [vm_compute; reflexivity|]. vm_compute. split; reflexivity. Qed.
Print Assumptions C01_mvp60_more_than_32_registers_refuted.

(* FINDING: the theorem does not extend to programs with one taken forward branch.
   li x5,0 ; beq x5,x5,L ; div x6,x5,x5 ; L: li x7,9  - the sequential machine skips the div
   and ends with x7 = 9 after three instructions; with two or more execute units MVP-6.0
   dispatches the div together with the branch and executes it, on the wrong path, in the
   cycle in which the branch is resolved: Run returns "division by zero".  One execute
   unit: correct. *)
Theorem C01_mvp60_taken_branch_shadow_error_refuted :
  let app := map instr_of shadow_div_prog in
  wf_app app /\ reg_only app = true /\ one_forward_branch app shadow_labels = true /\
  exists st' tr,
    seq_run 10 (map sinstr_of app) shadow_labels zero_state = Done st' tr /\
    length tr = 3%nat /\ rget (regs st') 7 = 9 /\
    mvp60_run 1 (ord_policy 0) 3000 app shadow_labels zero_state = MDone 323 st' /\
    mvp60_run 2 (ord_policy 0) 3000 app shadow_labels zero_state = MErr EDivZero /\
    mvp60_run 3 (ord_policy 0) 3000 app shadow_labels zero_state = MErr EDivZero /\
    mvp60_run 4 (ord_policy 0) 3000 app shadow_labels zero_state = MErr EDivZero.
Proof. exact mvp60_taken_branch_shadow_error_refuted. Qed.
Print Assumptions C01_mvp60_taken_branch_shadow_error_refuted.

(* the wrong-path instruction need not write a register: rem x0,x5,x5 *)
Theorem C01_mvp60_taken_branch_shadow_x0_error_refuted :
  let app := map instr_of shadow_div0_prog in
  wf_app app /\ reg_only app = true /\ one_forward_branch app shadow_labels = true /\
  exists st' tr,
    seq_run 10 (map sinstr_of app) shadow_labels zero_state = Done st' tr /\
    length tr = 3%nat /\ rget (regs st') 7 = 9 /\
    mvp60_run 1 (ord_policy 0) 3000 app shadow_labels zero_state = MDone 323 st' /\
    mvp60_run 2 (ord_policy 0) 3000 app shadow_labels zero_state = MErr EDivZero.
Proof. exact mvp60_taken_branch_shadow_x0_error_refuted. Qed.
Print Assumptions C01_mvp60_taken_branch_shadow_x0_error_refuted.

(* not a counterexample: register writes in
   the shadow of a taken branch are dropped by the flush (writeUnit.cycle(ctx, from)) *)
Example C01_mvp60_taken_branch_shadow_write_example :
  let app := map instr_of shadow_write_prog in
  wf_app app /\ reg_only app = true /\ one_forward_branch app shadow_write_labels = true /\
  exists st' tr,
    seq_run 10 (map sinstr_of app) shadow_write_labels zero_state = Done st' tr /\
    length tr = 3%nat /\ rget (regs st') 6 = 0 /\ rget (regs st') 7 = 0 /\ rget (regs st') 8 = 4 /\
    mvp60_run 1 (ord_policy 0) 3000 app shadow_write_labels zero_state = MDone 323 st' /\
    mvp60_run 2 (ord_policy 0) 3000 app shadow_write_labels zero_state = MDone 324 st' /\
    mvp60_run 3 (ord_policy 0) 3000 app shadow_write_labels zero_state = MDone 324 st' /\
    mvp60_run 4 (ord_policy 0) 3000 app shadow_write_labels zero_state = MDone 324 st'.
Proof. exact mvp60_taken_branch_shadow_write_example. Qed.

(* non-vacuity: twelve instructions with RAW (x5 -> addi, x7 -> mul, ...), WAW (x5, x7, x8
   written twice) and WAR (li x5 after add reads x5; li x8 after addi reads x8) dependences,
   three execute / write units *)
Definition ex60_prog : list sinstr :=
  [SLi 5 3; SAddi 6 5 1; SAdd 7 5 6; SLi 5 9; SMul 8 7 5; SAddi 7 8 2;
   SSub 9 7 5; SLi 8 1; SAdd 10 8 9; SMv 5 10; SXor 11 5 6; SAddi 12 11 1].

Example C01_mvp60_example :
  let app := map instr_of ex60_prog in
  wf_app app /\ straight app = true /\ reg_only app = true /\
  Forall int32 (regs zero_state) /\ (length (regs zero_state) <= 32)%nat /\
  exists st' tr c,
    seq_run 100 (map sinstr_of app) no_lab zero_state = Done st' tr /\
    mvp60_run 3 (ord_policy 0) (fuel_bound60 (length app)) app no_lab zero_state = MDone c st' /\
    length tr = 12%nat /\ c = 344 /\ (Z.of_nat (length tr) + 1) / 2 <= c /\
    rget (regs st') 5 = 57 /\ rget (regs st') 7 = 65 /\ rget (regs st') 8 = 1 /\ rget (regs st') 12 = 62.
Proof.
  cbv zeta. split; [|split; [|split; [|split; [|split]]]].
  - split; [|vm_compute; reflexivity]. cbn [map ex60_prog instr_of]. repeat constructor; vm_compute; discriminate.
  - vm_compute. reflexivity.
  - vm_compute. reflexivity.
  - apply Forall_forall. intros x Hx. apply repeat_spec in Hx. subst x. apply int32_0.
  - vm_compute. lia.
  - do 3 eexists. split; [vm_compute; reflexivity|]. split; [vm_compute; reflexivity|].
    vm_compute. repeat split; try reflexivity; discriminate.
Qed.

(* non-vacuity of the forward class: a not-taken branch, a jump over an instruction, a taken
   branch with two register writes in its shadow, a jal (link register), a ret with an
   instruction behind it; 10 of the 15 instructions are executed *)
Definition exf_prog : list sinstr :=
  [SLi 5 3; SLi 6 4; SBeq 5 6 1; SAddi 7 5 1; SJ 2; SLi 7 99; (* 24: L2 *) SBne 5 6 3; SLi 8 77; SLi 9 88;
   (* 36: L3 *) SJal 1 4; SNop; (* 44: L4 *) SAdd 10 7 5; SMul 11 10 10; SRet; SLi 12 1].
Definition exf_labels : Z -> option Z := lookup [(1, 20); (2, 24); (3, 36); (4, 44)].

Example C01_mvp60_forward_example :
  let app := map instr_of exf_prog in
  wf_app app /\ reg_only app = true /\ fwd_ok app exf_labels = true /\
  Forall int32 (regs zero_state) /\ (length (regs zero_state) <= 32)%nat /\
  exists st' tr c,
    seq_run 100 (map sinstr_of app) exf_labels zero_state = Done st' tr /\
    mvp60_run 3 (ord_policy 0) (fuel_bound60_fwd (length app)) app exf_labels zero_state = MDone c st' /\
    length tr = 10%nat /\ c = 343 /\
    rget (regs st') 1 = 40 /\ rget (regs st') 7 = 4 /\ rget (regs st') 8 = 0 /\ rget (regs st') 9 = 0 /\
    rget (regs st') 11 = 49 /\ rget (regs st') 12 = 0.
Proof.
  cbv zeta. split; [|split; [|split; [|split; [|split]]]].
  - split; [|vm_compute; reflexivity]. cbn [map exf_prog instr_of]. repeat constructor; vm_compute; discriminate.
  - vm_compute. reflexivity.
  - vm_compute. reflexivity.
  - apply Forall_forall. intros x Hx. apply repeat_spec in Hx. subst x. apply int32_0.
  - vm_compute. lia.
  - do 3 eexists. split; [vm_compute; reflexivity|]. split; [vm_compute; reflexivity|].
    vm_compute. repeat split; reflexivity.
Qed.
