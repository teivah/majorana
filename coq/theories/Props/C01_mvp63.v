(* C01 / C12 for MVP-6.3 (proc/mvp6-3 = MVP-6.0 + operand forwarding between execute units +
   sequence ids + a register alias table for speculative results + a control unit that dispatches
   through ONE outstanding WAW / WAR hazard without renaming anything) on SINGLE-ASSIGNMENT,
   register-only, straight-line programs.  Property theorems only; proofs in Mvp/Mvp63RefDefs.v,
   Mvp63RefInv.v, Mvp63RefExec.v, Mvp63RefRat.v, Mvp63RefStep.v, Mvp63RefProofs.v, about the cycle-level model
   Mvp/Mvp63.v (tied to the Go code by exact differential checks).

   The class:  straight app (no branch / jump, ret allowed), reg_only app (no load / store),
     ssa app     every register but x0 is written by at most one instruction of the text and no
                 instruction reads a register that a LATER instruction writes (no WAW, no WAR);
     regs_ok app register numbers 0 .. 31;
   initial state: 32 int32 registers, x0 = 0 (each needed: the three ..._refuted examples below).

   The refinement theorem for the class (straight-line):
     C01_mvp63_refines_seq_ssa_straight   Run returns the sequential registers and memory, for every number
                                          of units, EVERY order function, all fuels from fuel_bound63 on
     C12_mvp63_run_ssa_straight           ... with the ghost flag clear and ceil(executed / 2) <= cycles
     C12_mvp63_deterministic_ssa_straight every iteration order gives the sequential state (and the same
                                          cycle count for orders related by ords_ok3)
     C12_mvp63_cycles_lower_bound_ssa_straight, C07_mvp63_terminates_ssa_straight, C07_mvp63_no_panic_ssa_straight
     C01_mvp63_example_any                the 14-instruction example at ANY number of units and ANY order
   The unit theorems (..._partial) are the steps of its proof: control unit, head operands, write unit.
   The extension to forward branches / jumps on single-assignment programs is proved in Props/C01_mvp63_fwd.v
   (C01_mvp63_refines_seq_ssa_forward; Mvp/Mvp63RefFwd*.v). *)
From Coq Require Import ZArith List Bool Lia.
From Maj Require Import Base.Outcome Base.GoInt Base.GoTypes Isa.Spec Isa.Seq Isa.Refine Gen.Opcodes Comp.Rat.
From Maj Require Import Mvp.Mvp12 Mvp.Mvp12Proofs Mvp.Mvp4Skel Mvp.Mvp60 Mvp.Mvp60RefSem Mvp.Mvp60RefDefs Mvp.Mvp60RefBack Mvp.Mvp60RefStep
     Mvp.Mvp63 Mvp.Mvp63Proofs Mvp.Mvp63RefDefs Mvp.Mvp63RefInv Mvp.Mvp63RefExec Mvp.Mvp63RefStep Mvp.Mvp63RefProofs.
Import ListNotations.
Open Scope Z_scope.

(* the sequential machine runs the text up to the first ret without error (what
   seq_run ... = Done gives on straight-line programs: Mvp60RefProofs.hsem_straight) *)
Definition seq_ok (app : list instr) (labels : Z -> option Z) (regs0 : list Z) : Prop :=
  forall k, (0 <= k <= stop_from app 0)%nat -> (k < length app)%nat ->
    exec (sinstr_of (ik app k)) (rget (sreg app labels regs0 0 k)) labels (pcz k) [] = Ok (eff app labels regs0 0 k) /\
    (forall a, etarget (eff app labels regs0 0 k) = Some a -> exists t, a = pcz t /\ (k < t <= length app)%nat).

(* controlUnit.cycle keeps the invariant of the back end and of the front end *)
Theorem C01_mvp63_control_unit_partial : forall app labels regs0 mem0 ord,
  straight app = true -> ssa app = true -> regs_ok app = true -> length regs0 = 32%nat -> seq_ok app labels regs0 ->
  forall cy dp d xe w c f x,
    BI app labels regs0 mem0 dp d xe w (x_pend x) (x_prev x) x ->
    FrontI app 0 (d + length (x_pend x)) c f cy (x_m x) -> m_cu (x_m x) = [] -> BusOK cy (x_ebus x) ->
    exists lp, let x' := cu_cycle3 ord cy x in
      BI app labels regs0 mem0 d (d + lp) xe w (x_pend x') (x_prev x') x' /\
      FrontI app 0 (d + lp + length (x_pend x')) c f cy (x_m x') /\
      m_cu (x_m x') = [] /\ BusOK cy (x_ebus x') /\ qlen (x_ebus x') = qlen (x_ebus x) /\
      m_wbus (x_m x') = m_wbus (x_m x) /\ m_bu (x_m x') = m_bu (x_m x) /\ m_fu (x_m x') = m_fu (x_m x) /\
      m_dbus (x_m x') = m_dbus (x_m x) /\
      (flat (x_ebus x) = [] -> w = d -> x_pend x <> [] \/ bb_q (m_cbus (x_m x)) <> [] -> (0 < lp)%nat) /\
      (lp = O -> length (x_pend x') + length (bb_q (m_cbus (x_m x'))) = length (x_pend x) + length (bb_q (m_cbus (x_m x))))%nat.
Proof. exact cu_cycle_ok. Qed.
Print Assumptions C01_mvp63_control_unit_partial.

(* ssa -> os = false, for the control unit (the only place where the flag is raised on
   register-only programs): the forwarding source is unique *)
Theorem C01_mvp63_control_unit_os_clear : forall app labels regs0 mem0 ord,
  straight app = true -> ssa app = true -> regs_ok app = true -> length regs0 = 32%nat -> seq_ok app labels regs0 ->
  forall cy dp d xe w c f x,
    BI app labels regs0 mem0 dp d xe w (x_pend x) (x_prev x) x ->
    FrontI app 0 (d + length (x_pend x)) c f cy (x_m x) -> m_cu (x_m x) = [] -> BusOK cy (x_ebus x) ->
    x_os (cu_cycle3 ord cy x) = false.
Proof. exact cu_cycle_os_clear. Qed.
Print Assumptions C01_mvp63_control_unit_os_clear.

(* the head of the execute bus: its channel (if any) holds a value, registerRead returns the
   sequential operands, Runner.Run the sequential execution record *)
Theorem C01_mvp63_head_operands_partial : forall app labels regs0 mem0 (ord : Z -> Z -> list Z -> list Z),
  wf_app app -> reg_only app = true -> ssa app = true -> regs_ok app = true ->
  length regs0 = 32%nat -> Forall int32 regs0 -> nth 0 regs0 0 = 0 -> seq_ok app labels regs0 ->
  forall dp d xe w pl pv x r E',
    BI app labels regs0 mem0 dp d xe w pl pv x -> flat (x_ebus x) = r :: E' ->
    (forall ch, q_recv r = Some ch -> exists v, aget ch (x_chan x) = Some v) /\
    (forall q, In q (rds app xe) -> reg_read3 (head_fw x r) (x_crat x) (x_trat x) q = rget (sreg app labels regs0 0 xe) q) /\
    (forall q, int32 (reg_read3 (head_fw x r) (x_crat x) (x_trat x) q)) /\
    instr_Run (ik app xe) (reg_read3 (head_fw x r) (x_crat x) (x_trat x)) labels (pcz xe) [] 0 = Ok (exe app labels regs0 xe).
Proof. exact head_operands. Qed.
Print Assumptions C01_mvp63_head_operands_partial.

(* a write unit that finds a result in the queue of the write bus *)
Theorem C01_mvp63_write_unit_partial : forall app labels regs0 mem0 (ord : Z -> Z -> list Z -> list Z),
  straight app = true -> reg_only app = true -> length regs0 = 32%nat -> seq_ok app labels regs0 ->
  forall dp d xe w pl pv x wu c q',
    BI app labels regs0 mem0 dp d xe w pl pv x -> u_co wu = WNone -> bb_q (m_wbus (x_m x)) = c :: q' ->
    exists x', wu_cycle3 x wu (-1) = Ok (x', wu) /\ BI app labels regs0 mem0 dp d xe (S w) pl pv x' /\
      x_ebus x' = x_ebus x /\ x_pend x' = x_pend x /\ x_prev x' = x_prev x /\
      bb_q (m_wbus (x_m x')) = q' /\ bb_buf (m_wbus (x_m x')) = bb_buf (m_wbus (x_m x)).
Proof. exact wu_take_ok. Qed.
Print Assumptions C01_mvp63_write_unit_partial.

(* ------------------------------------------------------------------ *)
(* the refinement theorem on the class                                  *)

(* C01: MVP-6.3 computes the sequential result on single-assignment, register-only, straight-line programs,
   at every number of execute / write units, for EVERY order function (Go's map iteration), for all fuels
   from fuel_bound63 (length app) = 400 * length app + 1600 ticks on *)
Theorem C01_mvp63_refines_seq_ssa_straight : forall app labels, wf_app app ->
  straight app = true -> reg_only app = true -> ssa app = true -> regs_ok app = true ->
  forall par fuel st st' tr, (1 <= par)%nat ->
  Forall int32 (regs st) -> length (regs st) = 32%nat -> nth 0 (regs st) 0 = 0 ->
  seq_run fuel (map sinstr_of app) labels st = Done st' tr ->
  forall ord, exists c, forall fuel', (fuel_bound63 (length app) <= fuel')%nat -> mvp63_run par ord fuel' app labels st = MDone c st'.
Proof. exact mvp63_refines_seq_ssa_straight. Qed.
Print Assumptions C01_mvp63_refines_seq_ssa_straight.

(* C12: ... with the ghost flag clear on the whole run and at least ceil(executed / 2) cycles *)
Theorem C12_mvp63_run_ssa_straight : forall app labels, wf_app app ->
  straight app = true -> reg_only app = true -> ssa app = true -> regs_ok app = true ->
  forall par fuel st st' tr, (1 <= par)%nat ->
  Forall int32 (regs st) -> length (regs st) = 32%nat -> nth 0 (regs st) 0 = 0 ->
  seq_run fuel (map sinstr_of app) labels st = Done st' tr ->
  forall ord, exists c,
    (forall fuel', (fuel_bound63 (length app) <= fuel')%nat -> mvp63_run_os par ord fuel' app labels st = (MDone c st', false)) /\
    Z.of_nat (length tr) <= 2 * c.
Proof. exact mvp63_run_ssa_straight. Qed.
Print Assumptions C12_mvp63_run_ssa_straight.

Theorem C12_mvp63_ghost_clear_ssa_straight : forall app labels, wf_app app ->
  straight app = true -> reg_only app = true -> ssa app = true -> regs_ok app = true ->
  forall par fuel st st' tr, (1 <= par)%nat ->
  Forall int32 (regs st) -> length (regs st) = 32%nat -> nth 0 (regs st) 0 = 0 ->
  seq_run fuel (map sinstr_of app) labels st = Done st' tr ->
  forall ord fuel', (fuel_bound63 (length app) <= fuel')%nat -> snd (mvp63_run_os par ord fuel' app labels st) = false.
Proof. exact mvp63_ghost_clear_ssa_straight. Qed.

(* C12: determinism - whatever the iteration orders of Go's maps, Run returns the sequential state; orders that
   are iteration orders and agree on the alias-table maps give the same cycle count too *)
Theorem C12_mvp63_deterministic_ssa_straight : forall app labels, wf_app app ->
  straight app = true -> reg_only app = true -> ssa app = true -> regs_ok app = true ->
  forall par fuel st st' tr, (1 <= par)%nat ->
  Forall int32 (regs st) -> length (regs st) = 32%nat -> nth 0 (regs st) 0 = 0 ->
  seq_run fuel (map sinstr_of app) labels st = Done st' tr ->
  forall ord1 ord2 fuel', (fuel_bound63 (length app) <= fuel')%nat ->
  exists c1 c2, mvp63_run par ord1 fuel' app labels st = MDone c1 st' /\ mvp63_run par ord2 fuel' app labels st = MDone c2 st' /\
                (ords_ok3 ord1 ord2 -> c1 = c2).
Proof. exact mvp63_deterministic_ssa_straight. Qed.
Print Assumptions C12_mvp63_deterministic_ssa_straight.

(* C12: whenever the model finishes, with whatever fuel: the sequential state, ceil(executed / 2) <= cycles *)
Theorem C12_mvp63_cycles_lower_bound_ssa_straight : forall app labels, wf_app app ->
  straight app = true -> reg_only app = true -> ssa app = true -> regs_ok app = true ->
  forall par fuel st st' tr, (1 <= par)%nat ->
  Forall int32 (regs st) -> length (regs st) = 32%nat -> nth 0 (regs st) 0 = 0 ->
  seq_run fuel (map sinstr_of app) labels st = Done st' tr ->
  forall ord fuel' c st'', mvp63_run par ord fuel' app labels st = MDone c st'' ->
  st'' = st' /\ Z.of_nat (length tr) <= 2 * c /\ (Z.of_nat (length tr) + 1) / 2 <= c.
Proof. exact mvp63_cycles_lower_bound_ssa_straight. Qed.
Print Assumptions C12_mvp63_cycles_lower_bound_ssa_straight.

(* C07: termination within the bound, no panic, no error *)
Theorem C07_mvp63_terminates_ssa_straight : forall app labels, wf_app app ->
  straight app = true -> reg_only app = true -> ssa app = true -> regs_ok app = true ->
  forall par fuel st st' tr, (1 <= par)%nat ->
  Forall int32 (regs st) -> length (regs st) = 32%nat -> nth 0 (regs st) 0 = 0 ->
  seq_run fuel (map sinstr_of app) labels st = Done st' tr ->
  forall ord, exists c, mvp63_run par ord (fuel_bound63 (length app)) app labels st = MDone c st' /\ (Z.of_nat (length tr) + 1) / 2 <= c.
Proof. exact mvp63_terminates_ssa_straight. Qed.
Print Assumptions C07_mvp63_terminates_ssa_straight.

Theorem C07_mvp63_no_panic_ssa_straight : forall app labels, wf_app app ->
  straight app = true -> reg_only app = true -> ssa app = true -> regs_ok app = true ->
  forall par fuel st st' tr, (1 <= par)%nat ->
  Forall int32 (regs st) -> length (regs st) = 32%nat -> nth 0 (regs st) 0 = 0 ->
  seq_run fuel (map sinstr_of app) labels st = Done st' tr ->
  forall ord fuel', (fuel_bound63 (length app) <= fuel')%nat ->
  mvp63_run par ord fuel' app labels st <> MPanic /\ mvp63_run par ord fuel' app labels st <> MOutOfFuel /\
  (forall e, mvp63_run par ord fuel' app labels st <> MErr e).
Proof. exact mvp63_no_panic_ssa_straight. Qed.
Print Assumptions C07_mvp63_no_panic_ssa_straight.

(* non-vacuity of the theorem itself: the 14-instruction example at ANY number of units, for ANY order function *)
Theorem C01_mvp63_example_any : forall par ord, (1 <= par)%nat ->
  exists c st', seq_run 100 (map sinstr_of (map instr_of ex63_prog)) no_labels zero32 = Done st' (rev (map (fun k => 4 * Z.of_nat k) (seq 0 14))) /\
    (forall fuel, (fuel_bound63 14 <= fuel)%nat -> mvp63_run_os par ord fuel (map instr_of ex63_prog) no_labels zero32 = (MDone c st', false)) /\
    rget (regs st') 18 = 251 /\ 7 <= c.
Proof. exact mvp63_ssa_example_any. Qed.
Print Assumptions C01_mvp63_example_any.

(* the steps of the proof, at machine level: executeUnit.Cycle on the head of the execute bus, the loops over the
   units, one tick of Run in the main loop and in the drain loop after ret *)
Theorem C01_mvp63_execute_unit : forall app labels regs0 mem0 ord,
  wf_app app -> straight app = true -> reg_only app = true -> ssa app = true -> regs_ok app = true ->
  length regs0 = 32%nat -> Forall int32 regs0 -> nth 0 regs0 0 = 0 -> seq_ok app labels regs0 ->
  forall cy dp d xe w pl pv x e r q',
    BI app labels regs0 mem0 dp d xe w pl pv x -> bb_q (x_ebus x) = r :: q' -> EuIdle e -> g_seq e = 0 ->
    bb_canadd (m_wbus (x_m x)) = true ->
    eu_cycle3 labels ord cy x e =
      (false, Ok (exec_head app labels regs0 x cy r xe, mk_eu3 ENone [] (Some (recvd r)) 0, out_of app xe)) /\
    ((forall p, In p pv -> (xe < kq p)%nat) -> is_ret (ik app xe) = false ->
     BI app labels regs0 mem0 dp d (S xe) w pl pv (exec_head app labels regs0 x cy r xe)).
Proof.
  intros app labels regs0 mem0 ord H1 H2 H3 H4 H5 H6 H7 H8 H9 cy dp d xe w pl pv x e r q' HB Hq He Hs Hc. split.
  - exact (eu_head_eq app labels regs0 mem0 ord H1 H2 H3 H4 H5 H6 H7 H8 H9 cy dp d xe w pl pv x e r q' HB Hq He Hs Hc).
  - intros Hp Hr. exact (proj1 (BI_exec_head app labels regs0 mem0 ord H1 H2 H3 H4 H5 H6 H7 H8 H9 cy dp d xe w pl pv x r q' HB Hq Hp) Hr).
Qed.
Print Assumptions C01_mvp63_execute_unit.

Theorem C01_mvp63_tick_main_loop : forall app labels regs0 mem0 ord,
  wf_app app -> straight app = true -> reg_only app = true -> ssa app = true -> regs_ok app = true ->
  length regs0 = 32%nat -> Forall int32 regs0 -> nth 0 regs0 0 = 0 -> seq_ok app labels regs0 ->
  forall dp d c f xe w s, G3 app labels regs0 mem0 dp d c f xe w s ->
    (exists s' dp' d' c' f' xe' w', step3 app labels ord s = TCont s' /\ G3 app labels regs0 mem0 dp' d' c' f' xe' w' s' /\ phi3 app s' < phi3 app s) \/
    (exists r, step3 app labels ord s = TDone r false /\ Fin3 app labels regs0 mem0 r) \/
    (exists s' w', step3 app labels ord s = TCont s' /\ GR3 app labels regs0 mem0 w' s').
Proof. exact step_normal3. Qed.
Print Assumptions C01_mvp63_tick_main_loop.

(* one program of the extension to forward control flow (Props/C01_mvp63_fwd.v), by vm_compute: a single-assignment
   program with a not-taken and a taken forward branch and a forward jump gives the sequential result at 1..4 units,
   both orders, ghost flag clear *)
Theorem C01_mvp63_forward_example :
  let app := map instr_of fwd63_prog in
  straight app = false /\ reg_only app = true /\ ssa app = true /\ regs_ok app = true /\ Mvp60RefProofs.fwd_ok app fwd63_labels = true /\
  exists st' tr,
    seq_run 100 (map sinstr_of app) fwd63_labels zero32 = Done st' tr /\ length tr = 9%nat /\
    map (fun k => nth k (regs st') 0) [7; 8; 9; 10; 11]%nat = [4; 0; 9; 0; 11] /\
    map (fun par => (mvp63_run_os par ord_asc 5000 app fwd63_labels zero32, mvp63_run_os par ord_desc 5000 app fwd63_labels zero32))
        [1%nat; 2%nat; 3%nat; 4%nat]
    = [((MDone 335 st', false), (MDone 335 st', false)); ((MDone 333 st', false), (MDone 333 st', false));
       ((MDone 333 st', false), (MDone 333 st', false)); ((MDone 333 st', false), (MDone 333 st', false))].
Proof. exact mvp63_forward_ssa_example. Qed.
Print Assumptions C01_mvp63_forward_example.

(* non-vacuity: 14 instructions, chained RAW dependences, single assignment; 1..4 units, both
   orders: sequential registers, ghost flag clear, ceil(14/2) <= cycles *)
Theorem C01_mvp63_example :
  let app := map instr_of ex63_prog in
  straight app = true /\ reg_only app = true /\ ssa app = true /\ regs_ok app = true /\
  exists st' tr,
    seq_run 100 (map sinstr_of app) no_labels zero32 = Done st' tr /\ length tr = 14%nat /\
    mvp63_run_os 1 ord_asc 3000 app no_labels zero32 = (MDone 333 st', false) /\
    mvp63_run_os 2 ord_asc 3000 app no_labels zero32 = (MDone 332 st', false) /\
    mvp63_run_os 3 ord_asc 3000 app no_labels zero32 = (MDone 332 st', false) /\
    mvp63_run_os 4 ord_asc 3000 app no_labels zero32 = (MDone 332 st', false) /\
    mvp63_run_os 3 ord_desc 3000 app no_labels zero32 = (MDone 332 st', false) /\
    rget (regs st') 9 = 63 /\ rget (regs st') 13 = 57 /\ rget (regs st') 18 = 251 /\ (14 + 1) / 2 <= 332.
Proof. exact mvp63_ssa_example. Qed.
Print Assumptions C01_mvp63_example.

Theorem C01_mvp63_example_all_orders : forall ord, ords_ok3 ord_asc ord ->
  exists st', mvp63_run_os 3 ord 3000 (map instr_of ex63_prog) no_labels zero32 = (MDone 332 st', false) /\
              rget (regs st') 18 = 251.
Proof. exact mvp63_ssa_example_all_orders. Qed.
Print Assumptions C01_mvp63_example_all_orders.

(* FINDING (class boundary): the smallest register-only straight-line program outside the class,
   li a5,2 ; li a5,92 ; addi t0,a5,1 (a5 written twice): STALE FORWARDING - the addi is forwarded from
   the first li (dispatched in the previous cycle) although the second li was dispatched just before it
   in the same cycle: t0 = 3 instead of 93 at every number of units, for both iteration orders, ghost
   flag clear (not the map-order ambiguity) *)
Theorem C01_mvp63_non_ssa_regonly_refuted :
  straight waw3_prog = true /\ reg_only waw3_prog = true /\ regs_ok waw3_prog = true /\ ssa waw3_prog = false /\
  exists st' tr,
    seq_run 10 (map sinstr_of waw3_prog) no_labels (st_of [] []) = Done st' tr /\ nth 5 (regs st') 0 = 93 /\
    map (fun par => (reg_of (mvp63_run par ord_asc 3000 waw3_prog no_labels (st_of [] [])) 5,
                     reg_of (mvp63_run par ord_desc 3000 waw3_prog no_labels (st_of [] [])) 5)) [1%nat; 2%nat; 3%nat; 4%nat]
    = [(Some 3, Some 3); (Some 3, Some 3); (Some 3, Some 3); (Some 3, Some 3)] /\
    snd (mvp63_run_os 1 ord_asc 3000 waw3_prog no_labels (st_of [] [])) = false.
Proof. exact mvp63_non_ssa_regonly_refuted. Qed.
Print Assumptions C01_mvp63_non_ssa_regonly_refuted.

(* ... and with a nop in front the result depends on Go's map order (3 or 93) at every number of units *)
Theorem C01_mvp63_non_ssa_order_dependent :
  ssa fwd_prog = false /\
  map (fun par => (reg_of (mvp63_run par ord_asc 3000 fwd_prog no_labels (st_of [] [])) 5,
                   reg_of (mvp63_run par ord_desc 3000 fwd_prog no_labels (st_of [] [])) 5)) [1%nat; 2%nat; 3%nat; 4%nat]
  = [(Some 3, Some 93); (Some 3, Some 93); (Some 3, Some 93); (Some 3, Some 93)].
Proof. exact mvp63_non_ssa_order_dependent. Qed.

(* why the hypotheses on the initial registers *)
Theorem C01_mvp63_x0_nonzero_refuted :
  let p := [SLi 5 1; SAdd 6 5 0] in
  let st := mk_arch (7 :: repeat 0 31) (repeat 0 64) in
  ssa (map instr_of p) = true /\ regs_ok (map instr_of p) = true /\
  exists st' tr c st6,
    seq_run 10 p no_labels st = Done st' tr /\ mvp63_run 1 ord_asc 3000 (map instr_of p) no_labels st = MDone c st6 /\
    nth 6 (regs st') 0 = 1 /\ nth 6 (regs st6) 0 = 8.
Proof. exact mvp63_x0_nonzero_refuted. Qed.

Theorem C01_mvp63_x0_write_refuted :
  let p := [SAddi 0 0 5] in
  let st := mk_arch (7 :: repeat 0 31) (repeat 0 64) in
  exists st' tr c st6,
    seq_run 10 p no_labels st = Done st' tr /\ mvp63_run 1 ord_asc 3000 (map instr_of p) no_labels st = MDone c st6 /\
    nth 0 (regs st') 0 = 7 /\ nth 0 (regs st6) 0 = 0.
Proof. exact mvp63_x0_write_refuted. Qed.

Theorem C01_mvp63_short_regfile_refuted :
  let p := [SLi 7 3; SNop; SNop; SNop; SNop; SAddi 2 7 1] in
  let st := mk_arch (repeat 0 5) (repeat 0 64) in
  ssa (map instr_of p) = true /\
  exists st' tr c st6,
    seq_run 10 p no_labels st = Done st' tr /\ mvp63_run 1 ord_asc 3000 (map instr_of p) no_labels st = MDone c st6 /\
    nth 2 (regs st') 0 = 1 /\ nth 2 (regs st6) 0 = 4.
Proof. exact mvp63_short_regfile_refuted. Qed.
Print Assumptions C01_mvp63_short_regfile_refuted.
