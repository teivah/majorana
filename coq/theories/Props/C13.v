(* C13 - The line cache behaves as an LRU cache of its reference model.
   Property theorems only.  Models: Comp/Cache.v (proc/comp/cache.go),
   Comp/Lru.v (common/cache/lru.go); reference: Comp/CacheSpec.v,
   Comp/LruSpec.v; proofs: Comp/CacheProofs.v, Comp/LruProofs.v.

   hist_ok L CL ops  =  the geometry is sane and the history respects the
   usage contract (CacheSpec.contract, a boolean predicate of the history).
   model_run L CL ops = NewLRUCache(L, CL) followed by the operations. *)
From Coq Require Import ZArith List.
From Maj Require Import Base.Outcome Comp.Cache Comp.Lru Comp.CacheSpec Comp.LruSpec
  Comp.CacheProofs Comp.LruProofs.
Import ListNotations.
Open Scope Z_scope.

(* every contract-respecting history runs without a panic, every output is the
   reference model's, and the final state satisfies the invariant (no two
   resident lines overlap or share a base, hi = lo + lineLength, len data =
   lineLength, at most numberOfLines+1 lines) and represents the reference state *)
Theorem C13_cache_refines_spec : forall L CL ops, hist_ok L CL ops ->
  exists c, model_run L CL ops = Ok (c, snd (s_run (s_new L CL) ops)) /\
            Inv c /\ R c (fst (s_run (s_new L CL) ops)).
Proof. exact cache_refines_spec. Qed.
Print Assumptions C13_cache_refines_spec.

(* a read returns the last value written to that byte since its line was inserted *)
Theorem C13_read_last_write : forall L CL ops a, hist_ok L CL (ops ++ [OGet a]) ->
  exists c outs, model_run L CL (ops ++ [OGet a]) = Ok (c, outs) /\
    forall v, last outs RUnit = RByte (Some v) -> last_written L ops a = Some v.
Proof. exact read_last_write. Qed.
Print Assumptions C13_read_last_write.

(* a byte is present exactly when a resident line covers it *)
Theorem C13_present_iff_covered : forall L CL ops a, hist_ok L CL (ops ++ [OGet a]) ->
  exists c outs, model_run L CL (ops ++ [OGet a]) = Ok (c, outs) /\
    ((exists v, last outs RUnit = RByte (Some v)) <->
     (exists b, In b (resident L CL ops) /\ b <= a < b + L)).
Proof. exact present_iff_covered. Qed.
Print Assumptions C13_present_iff_covered.

(* inserting into a full cache displaces the least recently used line and
   reports that line's contents (earlier Writes included) *)
Theorem C13_push_full_displaces_lru_and_reports_it : forall L CL ops b d,
  hist_ok L CL (ops ++ [OPush b d]) ->
  let s := state_after L CL ops in
  zlen (s_rec s) = s_cap s -> 0 < s_cap s ->
  exists c outs, model_run L CL (ops ++ [OPush b d]) = Ok (c, outs) /\
    last outs RUnit = RData (Some (s_data s (lru_base s))) /\
    bases c = b :: removelast (s_rec s) /\
    (forall i, 0 <= i < L -> last_written L ops (lru_base s + i) = Some (byte_at (s_data s (lru_base s)) i)).
Proof. exact push_full_displaces_lru_and_reports_it. Qed.
Print Assumptions C13_push_full_displaces_lru_and_reports_it.

(* how each operation changes the recency order of the reference *)
Theorem C13_recency_only_get_and_insert : forall s o,
  match o with
  | OLine _ | OSub _ _ | OWrite _ _ => s_rec (fst (s_step s o)) = s_rec s
  | OEvict a => s_rec (fst (s_step s o)) = match s_cover s a with Some b => remove_first b (s_rec s) | None => s_rec s end
  | OGet a => s_rec (fst (s_step s o)) = match s_cover s a with Some b => b :: remove_first b (s_rec s) | None => s_rec s end
  | OPushW b _ => s_rec (fst (s_step s o)) = b :: s_rec s
  | OPush b d => s_rec (fst (s_step s o)) =
                 if over (s_insert s b d) then remove_first (last (b :: s_rec s) 0) (b :: s_rec s) else b :: s_rec s
  end.
Proof. exact recency_only_get_and_insert. Qed.
Print Assumptions C13_recency_only_get_and_insert.

(* the number of resident lines returns to capacity once the reported victim is removed *)
Theorem C13_capacity_restored_after_victim_removed : forall L CL ops b d,
  hist_ok L CL (ops ++ [OPushW b d]) ->
  exists c outs, model_run L CL (ops ++ [OPushW b d]) = Ok (c, outs) /\
    forall vl, last outs RUnit = RVictim (Some vl) ->
      zlen (lines c) = nlines c + 1 /\
      lo vl = last (b :: resident L CL ops) 0 /\
      exists c' outs', model_run L CL (ops ++ [OPushW b d; OEvict (lo vl)]) = Ok (c', outs') /\
        last outs' RUnit = RData (Some (data vl)) /\
        zlen (lines c') = nlines c' /\ ~ In (lo vl) (bases c').
Proof. exact capacity_restored_after_victim_removed. Qed.
Print Assumptions C13_capacity_restored_after_victim_removed.

Theorem C13_no_duplicate_lines : forall L CL ops, hist_ok L CL ops ->
  exists c outs, model_run L CL ops = Ok (c, outs) /\
    NoDup (bases c) /\
    (forall l1 l2, In l1 (lines c) -> In l2 (lines c) -> l1 = l2 \/ hi l1 <= lo l2 \/ hi l2 <= lo l1) /\
    Forall (fun l => hi l = lo l + llen c /\ zlen (data l) = llen c) (lines c).
Proof. exact no_duplicate_lines. Qed.
Print Assumptions C13_no_duplicate_lines.

(* at most numberOfLines lines; numberOfLines+1 exactly between a
   PushLineWithEvictionWarning that reported a victim and the next successful EvictCacheLine *)
Theorem C13_length_le_capacity : forall L CL ops, hist_ok L CL ops ->
  exists c outs, model_run L CL ops = Ok (c, outs) /\
    zlen (lines c) <= nlines c + 1 /\
    (zlen (lines c) = nlines c + 1 <-> pending false ops outs = true) /\
    (pending false ops outs = false -> zlen (lines c) <= nlines c).
Proof. exact length_le_capacity. Qed.
Print Assumptions C13_length_le_capacity.

(* the contract is satisfiable by a non-trivial history *)
Theorem C13_contract_example : hist_ok 2 4 example_history /\
  exists c, model_run 2 4 example_history =
    Ok (c, [RData None; RData None; RByte (Some 2); RUnit; RData (Some [3; 9]);
            RVictim (Some (mkLine 0 2 [1; 2])); RData (Some [1; 2]); RSub (Some (5, [6]));
            RData (Some [5; 6]); RByte None; RByte (Some 6)]) /\
    bases c = [4; 6].
Proof. exact (conj example_history_ok example_history_outputs). Qed.
Print Assumptions C13_contract_example.

(* without the contract (overlapping lines) a read returns a stale byte *)
Theorem C13_overlap_stale_read_refuted :
  exists L CL ops a v,
    geometry_ok L CL = true /\ contract (s_new L CL) ops = false /\
    (exists c outs, model_run L CL (ops ++ [OGet a]) = Ok (c, outs) /\
       last outs RUnit = RByte (Some v)) /\
    last_written L ops a <> Some v.
Proof. exact overlap_stale_read_refuted. Qed.
Print Assumptions C13_overlap_stale_read_refuted.

(* the generic key-value LRU (common/cache/lru.go), used for unit selection *)
Theorem C13_lru_refines_spec : forall capacity ops, 0 < capacity ->
  exists l, lmodel_run capacity ops = Ok (l, snd (sl_run (sl_new capacity) ops)) /\
            LR l (fst (sl_run (sl_new capacity) ops)).
Proof. exact lru_refines_spec. Qed.
Print Assumptions C13_lru_refines_spec.

Theorem C13_lru_size_le_capacity : forall capacity ops, 0 < capacity ->
  exists l outs, lmodel_run capacity ops = Ok (l, outs) /\
    Z.of_nat (length (cmap l)) <= cap l /\ cap l = capacity /\
    NoDup (order l) /\ NoDup (map fst (cmap l)) /\
    (forall k, In k (order l) <-> In k (map fst (cmap l))).
Proof. exact lru_size_le_capacity. Qed.
Print Assumptions C13_lru_size_le_capacity.

Theorem C13_lru_get_last_put : forall capacity ops k, 0 < capacity ->
  exists l outs, lmodel_run capacity (ops ++ [LGet k]) = Ok (l, outs) /\
    forall v, last outs LUnit = LVal (Some v) -> last_put ops k = Some v.
Proof. exact lru_get_last_put. Qed.
Print Assumptions C13_lru_get_last_put.

Theorem C13_lru_put_full_evicts_lru : forall l s k v, LR l s ->
  m_get k (cmap l) = None -> Z.of_nat (length (cmap l)) = cap l ->
  exists o0 rest l', order l = o0 :: rest /\ lru_put l k v = Ok l' /\
    order l' = rest ++ [k] /\
    m_get o0 (cmap l') = None /\ m_get k (cmap l') = Some v /\
    (forall k', k' <> o0 -> k' <> k -> m_get k' (cmap l') = m_get k' (cmap l)) /\
    Z.of_nat (length (cmap l')) = cap l'.
Proof. exact lru_put_full_evicts_lru. Qed.
Print Assumptions C13_lru_put_full_evicts_lru.

Theorem C13_lru_find_picks_least_recent_candidate : forall l ks,
  match snd (lru_find l ks) with
  | Some k =>
    In k ks /\
    (exists pre post, order l = pre ++ k :: post /\ (forall x, In x pre -> ~ In x ks)) /\
    order (fst (lru_find l ks)) = remove_first k (order l) ++ [k] /\
    cmap (fst (lru_find l ks)) = cmap l
  | None => (forall x, In x (order l) -> ~ In x ks) /\ fst (lru_find l ks) = l
  end.
Proof. exact lru_find_picks_least_recent_candidate. Qed.
Print Assumptions C13_lru_find_picks_least_recent_candidate.

Theorem C13_lru_example :
  exists l, lmodel_run 2 [LPut 1 10; LPut 2 20; LGet 1; LPut 3 30; LGet 2; LFind [3; 1]; LPut 1 11; LGet 1] =
    Ok (l, [LUnit; LUnit; LVal (Some 10); LUnit; LVal None; LKey (Some 1); LUnit; LVal (Some 11)]) /\
    order l = [3; 1].
Proof. exact lru_example. Qed.
Print Assumptions C13_lru_example.
