(* C05 / C07 / C12 for MVP-4 on programs WITH loads and stores whose stores may
   MISS in the L1D.  Property theorems only; proofs in Mvp/Mvp4sProofs.v (skeleton
   Mvp4sSkel.v, invariants and progress Mvp4sFront.v, simulation Mvp4sSim.v), about the
   cycle-level model Mvp/Mvp4.v.  Generalises Props/C05_mvp4.v (every store hits:
   C05_mvp4s_stores_hit_is_special_case).

   A store that misses in the L1D is put on the write bus (two slots); the write unit
   writes it to memory and then stays busy for MemoryAccess cycles; the execute unit
   stalls while the pending slot is occupied; ret / the end of the text / a flush drain
   the write unit.  The unrestricted statement is FALSE for the faithful model
   (C05_mvp4_cold_store_then_load_refuted, C05_mvp4s_three_cold_stores_one_line_refuted).
   Hypothesis used to exclude the defect, computed from the events (pc, loaded
   addresses, stored addresses) of the sequential run and the recency list of the
   16-line LRU L1D only - no timing:

     no_stale [] [] false evs.  Call "bus items" the executed instructions that are
       put on the write bus: all but the stores that hit in the L1D (and the ret).
       no_stale forbids exactly the pattern
           S0 (store hits)* S (store hits)* L
       S0, S: stores that MISS in the L1D, consecutive as bus items;
       L: a load of the 64-byte line written by S.

   So (by the theorem): one cold store followed by a load of its line is right; any
   number of cold stores followed by a load of a different line, or of the line of a
   store that is not the last bus item, is right; a cold store, any other instruction,
   a load of the stored line is right.  Outside the hypothesis: two cold stores + load
   of the second line is still right on the witness below (the stale fetch needs a
   third, earlier store keeping the write unit busy: timing), three are wrong.

   Other hypotheses as in Props/C05_mvp4.v.  fuel_bound_s n = (n + 1) * 1965. *)
From Coq Require Import ZArith List Bool Lia.
From Maj Require Import Base.Outcome Base.GoInt Isa.Spec Isa.Seq Isa.Refine Gen.Opcodes Gen.Latency.
From Maj Require Import Mvp.Mvp12 Mvp.Mvp12Proofs Mvp.Mvp3 Mvp.Mvp3Proofs Mvp.Mvp4 Mvp.Mvp4Skel Mvp.Mvp4Proofs
     Mvp.Mvp4mSkel Mvp.Mvp4mProofs Mvp.Mvp4sSkel Mvp.Mvp4sProofs.
Import ListNotations.
Open Scope Z_scope.

(* the pipeline returns exactly the sequential registers AND memory (every store is in
   main memory after the drain of the write unit and the final flush of the L1D), no
   error, no panic, for every fuel from fuel_bound_s (length tr) on; at least one cycle
   per executed instruction *)
Theorem C05_mvp4s_refines_seq_storemiss : forall app labels, wf_app app -> wf_labels labels ->
  forall fuel st st' tr,
  inv (regs st) (mem st) -> (length (regs st) <= 32)%nat -> mem_small st ->
  accesses_ok fuel (map sinstr_of app) labels st 0 ->
  seq_run fuel (map sinstr_of app) labels st = Done st' tr ->
  evs_below (seq_evs fuel (map sinstr_of app) labels st 0) = true ->
  no_stale [] [] false (seq_evs fuel (map sinstr_of app) labels st 0) = true ->
  exists c, (forall fuel', (fuel_bound_s (length tr) <= fuel')%nat -> mvp4_run fuel' app labels st = MDone c st') /\
            Z.of_nat (length tr) <= c.
Proof. exact mvp4_refines_seq_storemiss. Qed.
Print Assumptions C05_mvp4s_refines_seq_storemiss.

(* the cycle count is mvp4_cost_sm: a function of the program and the events *)
Theorem C12_mvp4s_cycles_function_of_events : forall app labels, wf_app app -> wf_labels labels ->
  forall fuel st st' tr,
  inv (regs st) (mem st) -> (length (regs st) <= 32)%nat -> mem_small st ->
  accesses_ok fuel (map sinstr_of app) labels st 0 ->
  seq_run fuel (map sinstr_of app) labels st = Done st' tr ->
  evs_below (seq_evs fuel (map sinstr_of app) labels st 0) = true ->
  no_stale [] [] false (seq_evs fuel (map sinstr_of app) labels st 0) = true ->
  exists c, (forall fuel', (fuel_bound_s (length tr) <= fuel')%nat ->
               mvp4_run fuel' app labels st = MDone c st' /\
               mvp4_cost_sm fuel' app (seq_evs fuel (map sinstr_of app) labels st 0) = Some c) /\
            Z.of_nat (length tr) <= c.
Proof. exact mvp4_run_events_s. Qed.
Print Assumptions C12_mvp4s_cycles_function_of_events.

Theorem C12_mvp4s_value_independent : forall app labels, wf_app app -> wf_labels labels ->
  forall fuel st1 st2 st1' st2' tr1 tr2,
  inv (regs st1) (mem st1) -> (length (regs st1) <= 32)%nat -> mem_small st1 ->
  accesses_ok fuel (map sinstr_of app) labels st1 0 ->
  inv (regs st2) (mem st2) -> (length (regs st2) <= 32)%nat -> mem_small st2 ->
  accesses_ok fuel (map sinstr_of app) labels st2 0 ->
  seq_run fuel (map sinstr_of app) labels st1 = Done st1' tr1 ->
  seq_run fuel (map sinstr_of app) labels st2 = Done st2' tr2 ->
  seq_evs fuel (map sinstr_of app) labels st1 0 = seq_evs fuel (map sinstr_of app) labels st2 0 ->
  evs_below (seq_evs fuel (map sinstr_of app) labels st1 0) = true ->
  no_stale [] [] false (seq_evs fuel (map sinstr_of app) labels st1 0) = true ->
  exists c, forall fuel', (fuel_bound_s (Nat.max (length tr1) (length tr2)) <= fuel')%nat ->
    mvp4_run fuel' app labels st1 = MDone c st1' /\ mvp4_run fuel' app labels st2 = MDone c st2'.
Proof. exact mvp4_value_independent_sm. Qed.
Print Assumptions C12_mvp4s_value_independent.

(* without the termination argument: whenever the cost function is defined, the model
   agrees with it and with the sequential machine (any fuel') *)
Theorem C05_mvp4s_simulation : forall app labels, wf_app app -> wf_labels labels ->
  forall fuel st st' tr fuel' c,
  inv (regs st) (mem st) -> (length (regs st) <= 32)%nat -> mem_small st ->
  accesses_ok fuel (map sinstr_of app) labels st 0 ->
  seq_run fuel (map sinstr_of app) labels st = Done st' tr ->
  evs_below (seq_evs fuel (map sinstr_of app) labels st 0) = true ->
  no_stale [] [] false (seq_evs fuel (map sinstr_of app) labels st 0) = true ->
  mvp4_cost_sm fuel' app (seq_evs fuel (map sinstr_of app) labels st 0) = Some c ->
  mvp4_run fuel' app labels st = MDone c st'.
Proof. exact mvp4_storemiss_sim. Qed.
Print Assumptions C05_mvp4s_simulation.

(* C07: no panic, no error, termination within fuel_bound_s (length tr) iterations *)
Theorem C07_mvp4s_no_panic : forall app labels, wf_app app -> wf_labels labels ->
  forall fuel st st' tr fuel',
  inv (regs st) (mem st) -> (length (regs st) <= 32)%nat -> mem_small st ->
  accesses_ok fuel (map sinstr_of app) labels st 0 ->
  seq_run fuel (map sinstr_of app) labels st = Done st' tr ->
  evs_below (seq_evs fuel (map sinstr_of app) labels st 0) = true ->
  no_stale [] [] false (seq_evs fuel (map sinstr_of app) labels st 0) = true ->
  (fuel_bound_s (length tr) <= fuel')%nat ->
  mvp4_run fuel' app labels st <> MPanic /\ mvp4_run fuel' app labels st <> MOutOfFuel /\
  (forall e, mvp4_run fuel' app labels st <> MErr e).
Proof. exact mvp4_no_panic_sm. Qed.
Print Assumptions C07_mvp4s_no_panic.

Theorem C07_mvp4s_fuel_bound_s_value : forall n, fuel_bound_s n = ((n + 1) * 1965)%nat.
Proof. exact fuel_bound_s_value. Qed.

(* the hypothesis of Props/C05_mvp4.v implies this one *)
Theorem C05_mvp4s_stores_hit_is_special_case : forall evs dt, stores_hit dt evs = true -> no_stale dt [] false evs = true.
Proof. exact Mvp4sFront.stores_hit_no_stale. Qed.
Print Assumptions C05_mvp4s_stores_hit_is_special_case.

(* sharpness *)
Theorem C05_mvp4s_three_cold_stores_one_line_refuted :
  let p := [SLi 5 7; SSb 5 0 0; SSb 5 1 0; SSb 5 2 0; SLb 6 2 0; SRet] in
  no_stale [] [] false (seq_evs 20 (map sinstr_of (map instr_of p)) no_lab st_w 0) = false /\
  exists st' tr c st4,
    seq_run 20 p no_lab st_w = Done st' tr /\
    mvp4_run 5000 (map instr_of p) no_lab st_w = MDone c st4 /\
    rget (regs st') 6 = 7 /\ mget (mem st') 2 = 7 /\
    rget (regs st4) 6 = 0 /\ mget (mem st4) 2 = 0.
Proof. exact mvp4_three_cold_stores_one_line_refuted. Qed.
Print Assumptions C05_mvp4s_three_cold_stores_one_line_refuted.

Theorem C05_mvp4s_one_cold_store_then_load_ok :
  let p := [SLi 5 7; SSw 5 64 0; SLw 6 64 0; SRet] in
  no_stale [] [] false (seq_evs 20 (map sinstr_of (map instr_of p)) no_lab st_w 0) = true /\
  exists st' tr c,
    seq_run 20 p no_lab st_w = Done st' tr /\
    mvp4_run 5000 (map instr_of p) no_lab st_w = MDone c st' /\ rget (regs st') 6 = 7.
Proof. exact mvp4_one_cold_store_then_load_ok. Qed.

Theorem C05_mvp4s_two_cold_stores_then_load_still_right :
  let p := [SLi 5 7; SSw 5 0 0; SSw 5 64 0; SLw 6 64 0; SRet] in
  no_stale [] [] false (seq_evs 20 (map sinstr_of (map instr_of p)) no_lab st_w 0) = false /\
  exists st' tr c,
    seq_run 20 p no_lab st_w = Done st' tr /\
    mvp4_run 5000 (map instr_of p) no_lab st_w = MDone c st' /\ rget (regs st') 6 = 7.
Proof. exact mvp4_two_cold_stores_then_load_still_right. Qed.

Theorem C05_mvp4s_cold_stores_then_other_load_ok :
  let p := [SLi 5 7; SSw 5 0 0; SSw 5 128 0; SSw 5 64 0; SLw 6 192 0; SSw 5 0 0; SSw 5 128 0; SSw 5 64 0; SLw 7 128 0; SRet] in
  no_stale [] [] false (seq_evs 20 (map sinstr_of (map instr_of p)) no_lab st_w 0) = true /\
  exists st' tr c,
    seq_run 20 p no_lab st_w = Done st' tr /\
    mvp4_run 9000 (map instr_of p) no_lab st_w = MDone c st' /\ rget (regs st') 7 = 7 /\ mget (mem st') 64 = 7.
Proof. exact mvp4_cold_stores_then_other_load_ok. Qed.

(* non-vacuity: a loop of 20 iterations that stores (word, then byte) to fresh lines at
   2048 + 64 i which it never reads back (all these stores miss), loads from the lines
   64 i (20 lines, 16 fit: evictions and write-backs), RAW hazards, taken backward
   branches; finally a load of the evicted line 0 and a store that hits in it *)
Definition ex4s_prog : list sinstr :=
  [SLi 5 0; SLi 6 1280;
   (* 8: loop *) SSw 5 2048 5; SLw 7 0 5; SAdd 9 9 7; SSb 9 2052 5; SAddi 5 5 64; SBlt 5 6 1;
   SLw 8 0 0; SSw 9 4 0; SRet].
Definition ex4s_labels : Z -> option Z := lookup [(1, 8)].
Definition ex4s_state : arch := mk_arch (repeat 0 32) (repeat 3 4096).

Example C05_mvp4s_example :
  let app := map instr_of ex4s_prog in
  wf_app app /\ wf_labels ex4s_labels /\ inv (regs ex4s_state) (mem ex4s_state) /\
  (length (regs ex4s_state) <= 32)%nat /\ mem_small ex4s_state /\
  accesses_ok 400 (map sinstr_of app) ex4s_labels ex4s_state 0 /\
  evs_below (seq_evs 400 (map sinstr_of app) ex4s_labels ex4s_state 0) = true /\
  no_stale [] [] false (seq_evs 400 (map sinstr_of app) ex4s_labels ex4s_state 0) = true /\
  stores_hit [] (seq_evs 400 (map sinstr_of app) ex4s_labels ex4s_state 0) = false /\
  exists st' tr c,
    seq_run 400 (map sinstr_of app) ex4s_labels ex4s_state = Done st' tr /\
    mvp4_run (125 * 2000) app ex4s_labels ex4s_state = MDone c st' /\
    mvp4_cost_sm (125 * 2000) app (seq_evs 400 (map sinstr_of app) ex4s_labels ex4s_state 0) = Some c /\
    length tr = 125%nat /\ c = 19194 /\ mget (mem st') 2048 = 0 /\ mget (mem st') (2048 + 64 * 19) = -64 /\
    mget (mem st') (2052 + 64 * 19) = 60 /\ mget (mem st') 4 = 60.
Proof.
  cbv zeta. set (app := map instr_of ex4s_prog).
  assert (Happ : wf_app app).
  { split; [|vm_compute; reflexivity]. unfold app. cbn [map ex4s_prog instr_of]. repeat constructor; vm_compute; discriminate. }
  assert (Hlab : wf_labels ex4s_labels).
  { intros l a H. unfold ex4s_labels in H. cbn [lookup] in H.
    destruct (l =? 1); [injection H as <-; apply int32_bounds; lia | discriminate]. }
  assert (Hinv : inv (regs ex4s_state) (mem ex4s_state)).
  { split; apply Forall_forall; intros x Hx; apply repeat_spec in Hx; subst x; [apply int32_0 | apply int8_bounds; lia]. }
  assert (Hlen : (length (regs ex4s_state) <= 32)%nat) by (vm_compute; lia).
  assert (Hsm : mem_small ex4s_state) by (vm_compute; discriminate).
  (* one pass over the sequential run gives its events, the check of its accesses and
     its outcome; of the two machines only the skeleton is run on the events, the model
     follows by the simulation theorem *)
  assert (Hall : match seq_all 400 (map sinstr_of app) ex4s_labels ex4s_state 0 [] with
                 | (evs, ok, Done st' tr) =>
                     ok = true /\ evs_below evs = true /\ no_stale [] [] false evs = true /\ stores_hit [] evs = false /\
                     mvp4_cost_sm (125 * 2000) app evs = Some 19194 /\
                     length tr = 125%nat /\ mget (mem st') 2048 = 0 /\ mget (mem st') (2048 + 64 * 19) = -64 /\
                     mget (mem st') (2052 + 64 * 19) = 60 /\ mget (mem st') 4 = 60
                 | _ => False
                 end) by (vm_compute; repeat split; reflexivity).
  rewrite seq_all_spec in Hall. unfold seq_run.
  destruct (Seq.run 400 (map sinstr_of app) ex4s_labels ex4s_state 0 []) as [st' tr| |] eqn:Hrun; try contradiction.
  destruct Hall as (Hacc & Hb & Hns & Hsh & Hc & Htr & Hm). apply accesses_okb_spec in Hacc.
  split; [exact Happ|]. split; [exact Hlab|]. split; [exact Hinv|]. split; [exact Hlen|]. split; [exact Hsm|].
  split; [exact Hacc|]. split; [exact Hb|]. split; [exact Hns|]. split; [exact Hsh|].
  exists st', tr, 19194. split; [reflexivity|].
  split; [exact (mvp4_storemiss_sim app ex4s_labels Happ Hlab 400 _ st' tr _ _ Hinv Hlen Hsm Hacc Hrun Hb Hns Hc)|].
  split; [exact Hc|]. split; [exact Htr|]. split; [reflexivity | exact Hm].
Qed.
