(* C10 - Memory dependences between in-flight loads and stores are honoured.
   Property theorems only.  At the level of one memory system performing accesses
   in program order (what MVP-1..5 do, and what each core of the later variants
   does for its own accesses) the three clauses are corollaries of the write-back
   cache theorem (Mem/WriteBack.v): the memory seen through any protocol-following
   cache is the flat memory that executed the stores in order.  What the multi-issue
   variants add - accesses performed OUT of program order - is the subject of
   Props/C10_order.v (model Ooo/MemOrder.v); the code is tied to it by the per-run
   differential (lib/vf/c10.py) and the known findings (the 6.x variants have no
   memory-dependence tracking). *)
From Coq Require Import ZArith List.
From Maj Require Import Mem.WriteBack.
Import ListNotations.
Open Scope Z_scope.

(* a load that follows a store to the same byte returns the stored data, whatever
   cache operations (fills, evictions, recency updates, other stores to other
   bytes) happen in between *)
Theorem C10_load_after_store : forall LS, 0 < LS -> forall s a v between s',
  Inv LS s ->
  (forall o, In o between -> match o with Store a' _ => a' <> a | _ => True end) ->
  run LS s (Store a v :: between) = Some s' ->
  view LS s' a = v.
Proof.
  intros LS HLS s a v between s' HI Hb Hrun.
  destruct (view_is_flat LS HLS _ _ _ HI Hrun) as [_ Hv]. rewrite Hv. cbn [flat].
  rewrite flat_other by exact Hb. unfold upd. now rewrite Z.eqb_refl.
Qed.
Print Assumptions C10_load_after_store.

(* two stores to the same byte leave the later one *)
Theorem C10_store_store : forall LS, 0 < LS -> forall s a v1 v2 s',
  Inv LS s -> run LS s [Store a v1; Store a v2] = Some s' -> view LS s' a = v2.
Proof.
  intros LS HLS s a v1 v2 s' HI Hrun.
  destruct (view_is_flat LS HLS _ _ _ HI Hrun) as [_ Hv]. rewrite Hv. cbn [flat]. unfold upd.
  rewrite Z.eqb_refl. reflexivity.
Qed.
Print Assumptions C10_store_store.

(* a store that follows a load does not affect what that load returned: the value a
   load returns is a function of the operations before it only (view of the state at
   the time), stated as: the earlier view is unchanged by appending operations *)
Theorem C10_store_after_load : forall LS, 0 < LS -> forall s before a v s1 s2,
  Inv LS s -> run LS s before = Some s1 -> run LS s1 [Store a v] = Some s2 ->
  forall x, view LS s1 x = flat (view LS s) before x.
Proof.
  intros LS HLS s before a v s1 s2 HI H1 _. apply (view_is_flat LS HLS _ _ _ HI H1).
Qed.
