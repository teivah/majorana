(* C08 (determinism) for MVP-8.0: soundness of the ghost flag of the faithful cycle-level model Mvp/Mvp80.v.
   The model takes the iteration order of every Go map whose order can matter as an argument `ord` and raises a
   ghost flag when such an iteration can influence the run; the exact tie (lib/vf/modeltie.py, bin/tie_m80.py) compares
   the Go code with the model under ONE order and skips the runs whose flag is set.  Property theorems only; proofs in
   Mvp/Mvp80OrdProofs.v (equal states) and Mvp/Mvp80OrdFinal.v (every order of the snoop request maps), which says how
   the other Mvp/Mvp80Ord*.v files hang together.

   Proved: a run that ends with the flag clear is the same for ALL iteration orders of
   controlUnit.pushedRunnersInPreviousCycle (map (b)) and of the request maps of coSnoop (map (d)): order functions
   that agree on the RAT value maps only (ords_rat), C08_mvp80_order_irrelevant_all_maps.  The version with the
   hypothesis of the theorems for MVP-6.3 / 7.0 / 7.1 (ords_ok3) is a special case; the version with the second ghost
   flag (no coSnoop call with two or more requests) has a proof in which the two runs are equal state by state. *)
From Coq Require Import ZArith List Bool Lia.
From Maj Require Import Base.Outcome Base.GoInt Base.GoTypes Isa.Spec Isa.Seq.
From Maj Require Import Gen.Latency Gen.RiscTables Gen.Opcodes Comp.Cache Comp.Rat Mvp.Mvp12 Mvp.Mvp3 Mvp.Mvp5 Mvp.Mvp60 Mvp.Mvp63 Mvp.Mvp80.
From Maj Require Import Mvp.Mvp60Proofs Mvp.Mvp63Proofs Mvp.Mvp80Proofs Mvp.Mvp80OrdProofs Mvp.Mvp80OrdSnoop Mvp.Mvp80OrdFinal.
From Maj Require Mvp.Mvp80RegOnly Mvp.Mvp80RegOnly63 Mvp.Mvp80Sim63Refute.
From Coq Require Import Permutation.
Import ListNotations.
Open Scope Z_scope.

(* C08: with the ghost flag clear the result does not depend on the iteration order of the control unit's map *)
Theorem C08_mvp80_order_irrelevant_when_flag_clear :
  forall par fuel app labels st ord1 ord2 r,
  ords_ok3 ord1 ord2 ->
  mvp80_run_os par ord1 fuel app labels st = (r, false) ->
  mvp80_run_os par ord2 fuel app labels st = (r, false).
Proof. exact mvp80_ord_irrelevant. Qed.
Print Assumptions C08_mvp80_order_irrelevant_when_flag_clear.

(* C08: with the ghost flag clear the result does not depend on the iteration orders of the control unit's map and of
   the request maps of coSnoop: order functions that agree on the RAT value maps only *)
Theorem C08_mvp80_order_irrelevant_all_maps :
  forall par fuel app labels st ord1 ord2 r,
  ords_rat ord1 ord2 ->
  mvp80_run_os par ord1 fuel app labels st = (r, false) ->
  mvp80_run_os par ord2 fuel app labels st = (r, false).
Proof. exact mvp80_ord_irrelevant_snoop. Qed.
Print Assumptions C08_mvp80_order_irrelevant_all_maps.

(* the hypotheses are satisfiable by a run in which a coSnoop call sees several requests: flag clear, second flag set *)
Theorem C08_mvp80_multi_request_flag_clear_example :
  mvp80_snoop_multi 3 ord_asc 4000 fire_prog no_labels fire_st = true /\
  snd (mvp80_run_os 3 ord_asc 4000 fire_prog no_labels fire_st) = false /\
  mvp80_run_os 3 ord_bd_desc 4000 fire_prog no_labels fire_st = mvp80_run_os 3 ord_asc 4000 fire_prog no_labels fire_st.
Proof. exact multi_request_flag_clear_example. Qed.
Print Assumptions C08_mvp80_multi_request_flag_clear_example.

(* C08: with both ghost flags clear the result does not depend on the iteration orders of the control unit's map and
   of the request maps of coSnoop (order functions that agree on the RAT value maps only) *)
Theorem C08_mvp80_order_irrelevant_when_both_flags_clear :
  forall par fuel app labels st ord1 ord2 r,
  ords_rat ord1 ord2 ->
  mvp80_snoop_multi par ord1 fuel app labels st = false ->
  mvp80_run_os par ord1 fuel app labels st = (r, false) ->
  mvp80_run_os par ord2 fuel app labels st = (r, false).
Proof. exact mvp80_ord_irrelevant_both_flags. Qed.
Print Assumptions C08_mvp80_order_irrelevant_when_both_flags_clear.

(* the hypotheses are satisfiable: three cores, loads and a store of one cache line, every map reversed *)
Theorem C08_mvp80_both_flags_clear_example :
  mvp80_snoop_multi 3 ord_asc 4000 stale_prog no_labels (st_of [(5, 7)] []) = false /\
  snd (mvp80_run_os 3 ord_asc 4000 stale_prog no_labels (st_of [(5, 7)] [])) = false /\
  reg_of (fst (mvp80_run_os 3 ord_bd_desc 4000 stale_prog no_labels (st_of [(5, 7)] []))) 10 = Some 0.
Proof. exact both_flags_clear_example. Qed.
Print Assumptions C08_mvp80_both_flags_clear_example.

(* C08: one call of coSnoop under two iteration orders fails in both cases or leaves the same memory system and
   controllers that differ by the order of the new snoop closures only *)
Theorem C08_mvp80_cosnoop_orders_permute :
  forall l1 l2 w c, Permutation l1 l2 ->
  match sn_create_all w c l1, sn_create_all w c l2 with
  | Ok (w1, c1), Ok (w2, c2) => w1 = w2 /\ cc_perm c1 c2
  | Panic, Panic => True
  | _, _ => False
  end.
Proof. exact sn_create_all_perm. Qed.
Print Assumptions C08_mvp80_cosnoop_orders_permute.

(* C08 / C01: on a program without loads and stores the memory system of MVP-8.0 is never used: a run returns the
   initial memory *)
Theorem C08_mvp80_regonly_memory_unchanged :
  forall par ord fuel app labels st c st' os,
  Mvp80RegOnly.regonly app = true ->
  mvp80_run_os par ord fuel app labels st = (MDone c st', os) -> mem st' = mem st.
Proof. exact Mvp80RegOnly.mvp80_regonly_memory_unchanged. Qed.
Print Assumptions C08_mvp80_regonly_memory_unchanged.

(* finding: MVP-8.0 is NOT MVP-6.3 plus one cycle on register-only programs - the register read by sequence id
   (pc + 1000 * sequenceID is not monotone in program order after a jump back by more than 2000 bytes) returns a
   stale value: x7 = 1 instead of 77 on a 504-instruction program, on the Go code as well (bin/one_m80.py style case) *)
Theorem C01_mvp80_regonly_equals_mvp63_refuted : ~ Mvp80RegOnly63.mvp80_regonly_equals_mvp63_statement.
Proof. exact Mvp80Sim63Refute.mvp80_regonly_equals_mvp63_refuted. Qed.
Print Assumptions C01_mvp80_regonly_equals_mvp63_refuted.
