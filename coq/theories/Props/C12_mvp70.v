(* C12 / C08 / C07 / C03 / C10 for MVP-7.0 and MVP-7.1 (the pipeline of MVP-6.3 on per-core L1 caches
   behind cache controllers kept coherent by an MSI directory; 7.1 adds sequence-id-tagged register
   reads, a preferred execution unit and the stale-state copy of the directory).  Property theorems
   only; proofs in Mvp/Mvp70Proofs.v about the faithful cycle-level models Mvp/Mvp70.v and Mvp/Mvp71.v
   (cc.go and msi.go as explicit state machines, one step per VerifTick; the 7.1 delta is a record of
   hooks), tied to proc/mvp7-0 and proc/mvp7-1 by exact equality of (cycles, registers, memory) at
   1..4 cores (lib/vf/c12.py, lib/vf/modeltie.py; bin/tie_m70.py for all sampled iteration orders
   and the state at the tick budget). *)
From Coq Require Import ZArith List Bool Lia.
From Maj Require Import Base.Outcome Base.GoInt Base.GoTypes Isa.Spec Isa.Seq Isa.Refine.
From Maj Require Import Gen.Latency Gen.RiscTables Gen.Opcodes Comp.Cache Comp.Rat Mvp.Mvp12 Mvp.Mvp3 Mvp.Mvp5 Mvp.Mvp60 Mvp.Mvp63 Mvp.Mvp70 Mvp.Mvp71.
From Maj Require Import Mvp.Mvp60Proofs Mvp.Mvp63Proofs.
Import ListNotations.
Open Scope Z_scope.
From Maj Require Import Mvp.Mvp70Proofs.

(* C12: a returning run reports at least one cycle (7.0, 7.1) *)
Theorem C12_mvp70_cycles_positive :
  forall par ord fuel app labels st c st',
  mvp70_run par ord fuel app labels st = MDone c st' -> 1 <= c.
Proof. exact mvp70_cycles_pos. Qed.
Print Assumptions C12_mvp70_cycles_positive.

Theorem C12_mvp71_cycles_positive :
  forall par ord fuel app labels st c st',
  mvp71_run par ord fuel app labels st = MDone c st' -> 1 <= c.
Proof. exact mvp71_cycles_pos. Qed.
Print Assumptions C12_mvp71_cycles_positive.

(* C12: at most two instructions are dispatched per cycle whatever the number of cores *)
Theorem C12_mvp70_issue_width_two :
  forall ord cycle x,
  ebus_ok x -> ebus_ok (cu_cycle3 ord cycle x) /\ bb_bl (x_ebus (cu_cycle3 ord cycle x)) = bb_bl (x_ebus x).
Proof. exact mvp70_dispatch_width. Qed.
Print Assumptions C12_mvp70_issue_width_two.

(* C08: a run ending with the ghost flag clear is the same for all iteration orders (7.0, 7.1): only the maps
   inherited from the 6.3 front end can matter, none of the maps of msi.go / cc.go *)
Theorem C08_mvp70_order_irrelevant_when_flag_clear :
  forall par fuel app labels st ord1 ord2 r,
  ords_ok3 ord1 ord2 ->
  mvp70_run_os par ord1 fuel app labels st = (r, false) ->
  mvp70_run_os par ord2 fuel app labels st = (r, false).
Proof. exact mvp70_ord_irrelevant. Qed.
Print Assumptions C08_mvp70_order_irrelevant_when_flag_clear.

Theorem C08_mvp71_order_irrelevant_when_flag_clear :
  forall par fuel app labels st ord1 ord2 r,
  ords_ok3 ord1 ord2 ->
  mvp71_run_os par ord1 fuel app labels st = (r, false) ->
  mvp71_run_os par ord2 fuel app labels st = (r, false).
Proof. exact mvp71_ord_irrelevant. Qed.
Print Assumptions C08_mvp71_order_irrelevant_when_flag_clear.

(* C07 finding SYS-multicore-7x8: three units add to the write bus in one cycle, the write-back loop before a
   flush never calls Connect and spins for ever (a five-instruction loop, 3 cores) *)
Theorem C07_mvp70_flush_loop_hang_refuted :
  cycles_of (mvp70_run 2 ord_asc 6000 hang_prog (one_label 4) (st7_of 128 [] [])) = Some 669 /\
  mvp70_run 3 ord_asc 6000 hang_prog (one_label 4) (st7_of 128 [] []) = MOutOfFuel /\
  mvp71_run 3 ord_asc 6000 hang_prog (one_label 4) (st7_of 128 [] []) = MOutOfFuel.
Proof. exact flush_loop_hang. Qed.
Print Assumptions C07_mvp70_flush_loop_hang_refuted.

(* C03 / C06 finding C06-flush-stale-locksems at pipeline level: a wrong-path store holds the write lock when the
   branch resolves; Pre hook and CPU.flush both unlock: panic "write is negative" *)
Theorem C03_mvp70_flush_unlock_panic_refuted :
  cycles_of (mvp70_run 2 ord_asc 3000 unlock_prog (one_label 16) (st7_of 1024 [] [(3, -56)])) = Some 631 /\
  mvp70_run 3 ord_asc 3000 unlock_prog (one_label 16) (st7_of 1024 [] [(3, -56)]) = MPanic /\
  mvp71_run 3 ord_asc 3000 unlock_prog (one_label 16) (st7_of 1024 [] [(3, -56)]) = MPanic.
Proof. exact flush_unlock_panic. Qed.
Print Assumptions C03_mvp70_flush_unlock_panic_refuted.

(* C10 finding SYS-multicore-7x8: no store -> load ordering across cores *)
Theorem C10_mvp70_stale_load_refuted :
  reg_of (mvp12_run V1 1000 stale_prog no_labels (st7_of 64 [(8, 1897636091)] [])) 19 = Some (-1280) /\
  reg_of (mvp70_run 1 ord_asc 3000 stale_prog no_labels (st7_of 64 [(8, 1897636091)] [])) 19 = Some (-1280) /\
  reg_of (mvp70_run 4 ord_asc 3000 stale_prog no_labels (st7_of 64 [(8, 1897636091)] [])) 19 = Some 0.
Proof. exact stale_load. Qed.
Print Assumptions C10_mvp70_stale_load_refuted.

(* C07, 7.1 only: when msi.staleState is set the control unit keeps the runners of two cycles ago as forwarding
   sources; a receiver then waits for ever *)
Theorem C07_mvp71_stale_forward_hang_refuted :
  cycles_of (mvp70_run 2 ord_asc 6000 stalefwd_prog no_labels (st7_of 2048 [] [])) = Some 1562 /\
  cycles_of (mvp71_run 1 ord_asc 6000 stalefwd_prog no_labels (st7_of 2048 [] [])) = Some 1878 /\
  mvp71_run 2 ord_asc 6000 stalefwd_prog no_labels (st7_of 2048 [] []) = MOutOfFuel.
Proof. exact stale_forward_hang. Qed.
Print Assumptions C07_mvp71_stale_forward_hang_refuted.
