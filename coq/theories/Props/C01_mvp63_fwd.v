(* C01 for MVP-6.3 (proc/mvp6-3) on SINGLE-ASSIGNMENT, register-only programs with FORWARD control flow: conditional
   branches, j, jal to defined aligned labels strictly ahead (class fwd_ok of Mvp/Mvp60RefProofs.v: no div / rem / jalr),
   arbitrary register-writing shadows, ret anywhere.  Property theorems only; proofs in Mvp/Mvp63RefFwdDefs.v (definitions),
   Mvp63RefFwdRat.v (alias tables across TransactionRATWrite / RATCommit / RATRollback / RATFlush), Mvp63RefFwdFront.v
   (fetch / decode with sequence ids), Mvp63RefFwdInv.v (control unit: pendingConditionalBranch, pushedBranchInCurrentCycle),
   Mvp63RefFwdExec.v / Mvp63RefFwdStep.v (execute units incl. the taken branch, the jump and the shadow; one tick of the
   main loop), Mvp63RefFwdFlush.v (the two flush loops), Mvp63RefFwdProofs.v / Mvp63RefFwdThm.v (segments, theorem), about
   the cycle-level model Mvp/Mvp63.v.

   The class:  reg_only app, fwd_ok app labels,
     ssa app       (about the TEXT) every register but x0 is written by at most one instruction of the text and no
                   instruction reads a register that a textually LATER instruction writes; with forward-only control flow
                   every instruction executes at most once, so a skipped shadow simply never writes its register;
     regs_ok app   register numbers 0 .. 31;
     seq_ids_fit3  2004 * (length app + 1) < 2^31: the tags pc + 1000 * ctx.sequenceID (int32) never wrap
                   (ctx.sequenceID grows by at most two per segment);
   initial state: 32 int32 registers, x0 = 0. *)
From Coq Require Import ZArith List Bool Lia.
From Maj Require Import Base.Outcome Base.GoInt Base.GoTypes Isa.Spec Isa.Seq Isa.Refine Gen.Opcodes Comp.Rat.
From Maj Require Import Mvp.Mvp12 Mvp.Mvp12Proofs Mvp.Mvp4Skel Mvp.Mvp60 Mvp.Mvp60RefSem Mvp.Mvp60RefDefs Mvp.Mvp60RefBack Mvp.Mvp60RefStep
     Mvp.Mvp60RefProofs Mvp.Mvp63 Mvp.Mvp63Proofs Mvp.Mvp63RefDefs Mvp.Mvp63RefInv Mvp.Mvp63RefExec Mvp.Mvp63RefStep Mvp.Mvp63RefProofs
     Mvp.Mvp63RefFwdDefs Mvp.Mvp63RefFwdRat Mvp.Mvp63RefFwdFront Mvp.Mvp63RefFwdInv Mvp.Mvp63RefFwdFlush Mvp.Mvp63RefFwdProofs
     Mvp.Mvp63RefFwdThm.
Import ListNotations.
Open Scope Z_scope.

(* For every number of units, EVERY order function (Go's map iteration orders), all fuels from
   fuel_bound63_fwd (length app) = (n + 1) (400 n + 1608) ticks on, Run returns the sequential registers and memory,
   without error or panic, and the ghost flag is clear *)
Theorem C01_mvp63_refines_seq_ssa_forward : forall app labels,
  wf_app app -> reg_only app = true -> ssa app = true -> regs_ok app = true -> fwd_ok app labels = true -> seq_ids_fit3 app ->
  forall par ord fuel st st' tr, (1 <= par)%nat ->
    Forall int32 (regs st) -> length (regs st) = 32%nat -> nth 0 (regs st) 0 = 0 ->
    seq_run fuel (map sinstr_of app) labels st = Done st' tr ->
    exists c, forall fuel', (fuel_bound63_fwd (length app) <= fuel')%nat ->
      mvp63_run_os par ord fuel' app labels st = (MDone c st', false).
Proof. exact mvp63_refines_seq_ssa_forward. Qed.
Print Assumptions C01_mvp63_refines_seq_ssa_forward.

Theorem C01_mvp63_no_panic_ssa_forward : forall app labels,
  wf_app app -> reg_only app = true -> ssa app = true -> regs_ok app = true -> fwd_ok app labels = true -> seq_ids_fit3 app ->
  forall par ord fuel st st' tr, (1 <= par)%nat ->
    Forall int32 (regs st) -> length (regs st) = 32%nat -> nth 0 (regs st) 0 = 0 ->
    seq_run fuel (map sinstr_of app) labels st = Done st' tr ->
    forall fuel', (fuel_bound63_fwd (length app) <= fuel')%nat ->
      mvp63_run par ord fuel' app labels st <> MPanic /\ mvp63_run par ord fuel' app labels st <> MOutOfFuel /\
      (forall e, mvp63_run par ord fuel' app labels st <> MErr e) /\ snd (mvp63_run_os par ord fuel' app labels st) = false.
Proof. exact mvp63_no_panic_ssa_forward. Qed.
Print Assumptions C01_mvp63_no_panic_ssa_forward.

(* a program of the class: li x5,1 ; li x6,2 ; beq x5,x6,L1 (NOT TAKEN) ; addi x7,x5,3 ; bne x5,x6,L2 (TAKEN, forward) ;
   addi x8,x7,1 (its register-writing SHADOW, squashed) ; L1/L2: addi x9,x7,5 ; j L3 (forward JUMP) ; addi x10,x9,1 (skipped) ;
   L3: addi x11,x9,2 ; ret   - it satisfies every hypothesis, and the model run at three units agrees *)
Example C01_mvp63_forward_example :
  let app := map instr_of fwd63_prog in
  wf_app app /\ reg_only app = true /\ ssa app = true /\ regs_ok app = true /\ fwd_ok app fwd63_labels = true /\ seq_ids_fit3 app /\
  straight app = false /\
  exists st' tr,
    seq_run 100 (map sinstr_of app) fwd63_labels zero32 = Done st' tr /\ length tr = 9%nat /\
    map (fun k => nth k (regs st') 0) [7; 8; 9; 10; 11]%nat = [4; 0; 9; 0; 11] /\
    mvp63_run_os 3 ord_asc 5000 app fwd63_labels zero32 = (MDone 333 st', false) /\
    mvp63_run_os 3 ord_desc 5000 app fwd63_labels zero32 = (MDone 333 st', false).
Proof.
  cbv zeta. split.
  { split; [|vm_compute; reflexivity]. unfold fwd63_prog; cbn [map]; repeat constructor; vm_compute; discriminate. }
  split; [vm_compute; reflexivity|]. split; [vm_compute; reflexivity|]. split; [vm_compute; reflexivity|].
  split; [vm_compute; reflexivity|]. split; [vm_compute; reflexivity|]. split; [vm_compute; reflexivity|].
  do 2 eexists. split; [vm_compute; reflexivity|]. split; [vm_compute; reflexivity|]. split; [vm_compute; reflexivity|].
  split; vm_compute; reflexivity.
Qed.

(* ... and, as an instance of the theorem, at EVERY number of units and for EVERY order function *)
Corollary C01_mvp63_forward_example_any : forall par ord, (1 <= par)%nat ->
  exists c st', seq_run 100 (map sinstr_of (map instr_of fwd63_prog)) fwd63_labels zero32 = Done st' (rev [0; 4; 8; 12; 16; 24; 28; 36; 40]) /\
    (forall fuel, (fuel_bound63_fwd 11 <= fuel)%nat -> mvp63_run_os par ord fuel (map instr_of fwd63_prog) fwd63_labels zero32 = (MDone c st', false)) /\
    map (fun k => nth k (regs st') 0) [7; 8; 9; 10; 11]%nat = [4; 0; 9; 0; 11].
Proof.
  intros par ord Hpar. destruct C01_mvp63_forward_example as (H1 & H2 & H3 & H4 & H5 & H6 & _).
  assert (Hseq : exists st', seq_run 100 (map sinstr_of (map instr_of fwd63_prog)) fwd63_labels zero32 = Done st' (rev [0; 4; 8; 12; 16; 24; 28; 36; 40]) /\
                             map (fun k => nth k (regs st') 0) [7; 8; 9; 10; 11]%nat = [4; 0; 9; 0; 11]).
  { eexists. split; vm_compute; reflexivity. }
  destruct Hseq as (st' & Hs & Hv).
  assert (H7 : Forall int32 (regs zero32)) by (unfold zero32; cbn [regs repeat]; repeat constructor; vm_compute; discriminate).
  destruct (C01_mvp63_refines_seq_ssa_forward _ _ H1 H2 H3 H4 H5 H6 par ord 100%nat zero32 st' _ Hpar H7 eq_refl eq_refl Hs) as (c & Hc).
  exists c, st'. split; [exact Hs|]. split; [exact Hc | exact Hv].
Qed.
Print Assumptions C01_mvp63_forward_example_any.

(* ------------------------------------------------------------------ *)
(* the parts                                                            *)

(* controlUnit.cycle with branches: a second branch is not dispatched in the same cycle, ret waits for an empty execute
   bus and no pending conditional branch, a marked forwarder is never a branch *)
Theorem C01_mvp63_control_unit_fwd_partial : forall app labels regs0 mem0 base sq ord,
  ssa app = true -> regs_ok app = true -> length regs0 = 32%nat -> (base <= length app)%nat ->
  (forall k, (base <= k <= stop_from app base)%nat -> (k < length app)%nat ->
     exec (sinstr_of (ik app k)) (rget (sreg app labels regs0 base k)) labels (pcz k) [] = Ok (eff app labels regs0 base k) /\
     (forall a, etarget (eff app labels regs0 base k) = Some a -> exists t, a = pcz t /\ (k < t <= length app)%nat)) ->
  forall cy dp d xe w c f x,
    BIq app labels regs0 mem0 base sq dp d xe w (x_pend x) (x_prev x) x ->
    FrontI app base (d + length (x_pend x)) c f cy (untag_m (x_m x)) -> TagOK sq (m_cbus (x_m x)) ->
    m_cu (x_m x) = [] -> BusOK cy (x_ebus x) ->
    exists lp, let x' := cu_cycle3 ord cy x in
      BIq app labels regs0 mem0 base sq d (d + lp) xe w (x_pend x') (x_prev x') x' /\
      FrontI app base (d + lp + length (x_pend x')) c f cy (untag_m (x_m x')) /\ TagOK sq (m_cbus (x_m x')) /\
      m_cu (x_m x') = [] /\ BusOK cy (x_ebus x') /\ qlen (x_ebus x') = qlen (x_ebus x) /\
      m_wbus (x_m x') = m_wbus (x_m x) /\ m_bu (x_m x') = m_bu (x_m x) /\ m_fu (x_m x') = m_fu (x_m x) /\
      m_dbus (x_m x') = m_dbus (x_m x) /\ m_l1i (x_m x') = m_l1i (x_m x) /\
      (flat (x_ebus x) = [] -> w = d -> x_pend x <> [] \/ bb_q (m_cbus (x_m x)) <> [] -> (0 < lp)%nat) /\
      (lp = O -> length (x_pend x') + length (bb_q (m_cbus (x_m x'))) = length (x_pend x) + length (bb_q (m_cbus (x_m x))))%nat.
Proof. exact cu_cycle_okq. Qed.
Print Assumptions C01_mvp63_control_unit_fwd_partial.

(* RATCommit (not-taken branch) and RATRollback (taken branch with tag T, every entry of transactionRAT being older)
   keep what registerRead sees: the sequential register file after w write-backs *)
Theorem C01_mvp63_rat_commit_rollback_partial : forall app labels regs0 base sq ord w crat trat cy,
  length regs0 = 32%nat ->
  TabOK app labels regs0 base sq w crat trat ->
  TabOK app labels regs0 base sq w (commit_vals ord cy crat (rat_values tu0 trat)) (rat_new ratLength) /\
  (forall T, sid3 sq w <= T ->
     TabOK app labels regs0 base sq w (commit_vals ord cy crat (rat_findvalues tu0 trat (fun u => fst u <? T))) (rat_new ratLength)).
Proof.
  intros app labels regs0 base sq ord w crat trat cy Hlen H. split.
  - exact (tab_commit app labels regs0 base Hlen sq ord w crat trat cy H).
  - intros T HT. exact (tab_rollback app labels regs0 base Hlen sq ord w crat trat cy T H HT).
Qed.
Print Assumptions C01_mvp63_rat_commit_rollback_partial.

(* the two flush loops (execute units, then write units dropping the wrong path) and CPU.flush: from the tick in which a
   jump / taken branch E executed to a fresh pipeline at its target, the alias tables showing the registers after E *)
Theorem C01_mvp63_flush_loops_partial : forall app labels regs0 mem0 base sq ord,
  reg_only app = true -> regs_ok app = true -> length regs0 = 32%nat -> nth 0 regs0 0 = 0 -> (base <= length app)%nat -> 0 <= sq ->
  (forall k, (base <= k <= stop_from app base)%nat -> (k < length app)%nat ->
     exec (sinstr_of (ik app k)) (rget (sreg app labels regs0 base k)) labels (pcz k) [] = Ok (eff app labels regs0 base k) /\
     (forall a, etarget (eff app labels regs0 base k) = Some a -> exists t, a = pcz t /\ (k < t <= length app)%nat)) ->
  forall w E t sqx s, sqx < 2147483647 -> GF3 app labels regs0 mem0 base sq w E t sqx s ->
  exists k s', (1 <= k <= 8)%nat /\
    (forall extra, run3_st (k + extra) app labels ord s = run3_st extra app labels ord s') /\
    Fresh3 app labels mem0 t (sqx + 1) (sreg app labels regs0 base (S E)) s'.
Proof. exact flush_run. Qed.
Print Assumptions C01_mvp63_flush_loops_partial.
