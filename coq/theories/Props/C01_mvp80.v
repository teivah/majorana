(* C01 / C12 / C07 for MVP-8.0 (proc/mvp8-0: the pipeline of MVP-6.3 with register reads by sequence id, the Pre hook
   that looks at pending older runners, the execution-unit preference for loads, on the MSI memory system with a
   shared L3) on SINGLE-ASSIGNMENT, register-only, straight-line programs.
   Property theorems only; proofs in Mvp/Mvp80SimSsa.v and Mvp/Mvp63L3Indep.v (run invariant CI8 = SI of Mvp80RegOnly.v + no preference +
   the in-order pipeline invariant of MVP-6.3 on the projected state; one tick: tick8, final8; whole runs: run8_sim)
   on top of the conditional unit lemmas of Mvp/Mvp80Sim63Defs.v and Loops.v, about the faithful cycle-level
   models Mvp/Mvp80.v and Mvp/Mvp63.v.

   The class (Mvp60RefDefs.v, Mvp4Skel.v, Mvp63RefDefs.v):
     straight app   no branch, no jump;          reg_only app   no load, no store;
     ssa app        every register but x0 has at most one writer, no instruction reads a register a later one writes;
     regs_ok app    register numbers x0 .. x31;
   states with 32 int32 registers and x0 = 0; the sequential run ends (Done); every number of cores >= 1; EVERY order
   function (RATCommit ; RATFlush runs one cycle later in MVP-8.0: the alias tables hold no negative key, invariant RK).

   The theorems (all closed under the global context).
     C01_mvp80_ssa_straight_sim_mvp63    MVP-8.0 = MVP-6.3 one tick and one cycle later: if mvp63_run_os with fuel returns
                                         (r, os), r <> MOutOfFuel, then mvp80_run_os with S fuel returns
                                         (plus_one_cycle r, os): registers, memory, cycles + 1, ghost flag; errors and
                                         panics alike.  Two halves:
     C01_mvp80_ssa_straight_sim_mvp63g     MVP-8.0 against the pipeline of MVP-6.3 started with the (empty, never used)
                                           L3 of MVP-8.0 (st3_of of NewCPU of MVP-8.0);
     C01_mvp80_mvp63g_l3_80                that pipeline IS MVP-6.3, every fuel: the pipeline does not depend on the
                                           geometry of an L3 it never uses (Mvp/Mvp63L3Indep.v);
     C01_mvp80_mvp63g_own                  with the L3 of MVP-6.3 mvp63g_run_os is mvp63_run_os by reflexivity.
     C01_mvp80_refines_seq_ssa_straight, C12_mvp80_run_ssa_straight, C12_mvp80_ghost_clear_ssa_straight,
     C07_mvp80_terminates_ssa_straight, C07_mvp80_no_panic_ssa_straight
                                         MVP-8.0 returns the sequential registers and memory, ghost flag clear, within
                                         fuel_bound80 (length app) = 400 * length app + 1601 ticks, with at least
                                         (executed + 1) / 2 + 1 cycles, one cycle more than MVP-6.3.
     C01_mvp80_example_any, C01_mvp80_example_sim, C01_mvp80_example
                                         non-vacuity: the 14-instruction example of C01_mvp63.v (any number of cores,
                                         any order; at 1..4 cores, two orders, with 3000 ticks: c80 = c63 + 1).
   Outside the class the statement "MVP-8.0 = MVP-6.3 + one cycle on register-only programs" is FALSE in general
   (Mvp80Sim63Refute.v: a jump back by more than 2000 bytes). *)
From Coq Require Import ZArith List Bool Lia.
From Maj Require Import Base.Outcome Base.GoInt Base.GoTypes Isa.Spec Isa.Seq Isa.Refine Gen.Opcodes Comp.Cache Comp.Rat.
From Maj Require Import Mvp.Mvp12 Mvp.Mvp12Proofs Mvp.Mvp4Skel Mvp.Mvp60 Mvp.Mvp60RefDefs Mvp.Mvp63 Mvp.Mvp63Proofs Mvp.Mvp63RefDefs
     Mvp.Mvp63RefStep Mvp.Mvp63RefProofs Mvp.Mvp80 Mvp.Mvp80RegOnly Mvp.Mvp80RegOnly63 Mvp.Mvp80Sim63Defs Mvp.Mvp80SimSsa.
Import ListNotations.
Open Scope Z_scope.

(* C01: MVP-8.0 = the pipeline of MVP-6.3 (with the L3 of MVP-8.0) + one tick and one cycle *)
Theorem C01_mvp80_ssa_straight_sim_mvp63g : forall app labels, wf_app app ->
  straight app = true -> reg_only app = true -> ssa app = true -> regs_ok app = true ->
  forall par fuel st st' tr, (1 <= par)%nat ->
  Forall int32 (regs st) -> length (regs st) = 32%nat -> nth 0 (regs st) 0 = 0 ->
  seq_run fuel (map sinstr_of app) labels st = Done st' tr ->
  forall ord fuel' r os,
  mvp63g_run_os l3_80 par ord fuel' app labels st = (r, os) -> r <> MOutOfFuel ->
  mvp80_run_os par ord (S fuel') app labels st = (plus_one_cycle r, os).
Proof. exact mvp80_ssa_straight_sim_mvp63g. Qed.
Print Assumptions C01_mvp80_ssa_straight_sim_mvp63g.

Theorem C01_mvp80_mvp63g_own : forall par ord fuel app labels st,
  mvp63g_run_os (new_cache l3LineSize l3Size) par ord fuel app labels st = mvp63_run_os par ord fuel app labels st.
Proof. exact mvp63g_own. Qed.
Print Assumptions C01_mvp80_mvp63g_own.

Theorem C01_mvp80_mvp63g_l3_80 : forall app labels, wf_app app ->
  straight app = true -> reg_only app = true -> ssa app = true -> regs_ok app = true ->
  forall par fuel st st' tr, (1 <= par)%nat ->
  Forall int32 (regs st) -> length (regs st) = 32%nat -> nth 0 (regs st) 0 = 0 ->
  seq_run fuel (map sinstr_of app) labels st = Done st' tr ->
  forall ord fuel', mvp63g_run_os l3_80 par ord fuel' app labels st = mvp63_run_os par ord fuel' app labels st.
Proof. exact mvp63g_l3_80. Qed.
Print Assumptions C01_mvp80_mvp63g_l3_80.

(* C01: MVP-8.0 = MVP-6.3 + one tick and one cycle *)
Theorem C01_mvp80_ssa_straight_sim_mvp63 : forall app labels, wf_app app ->
  straight app = true -> reg_only app = true -> ssa app = true -> regs_ok app = true ->
  forall par fuel st st' tr, (1 <= par)%nat ->
  Forall int32 (regs st) -> length (regs st) = 32%nat -> nth 0 (regs st) 0 = 0 ->
  seq_run fuel (map sinstr_of app) labels st = Done st' tr ->
  forall ord fuel' r os, mvp63_run_os par ord fuel' app labels st = (r, os) -> r <> MOutOfFuel ->
  mvp80_run_os par ord (S fuel') app labels st = (plus_one_cycle r, os).
Proof. exact mvp80_ssa_straight_sim_mvp63. Qed.
Print Assumptions C01_mvp80_ssa_straight_sim_mvp63.

(* C01: refinement of the sequential machine *)
Theorem C01_mvp80_refines_seq_ssa_straight : forall app labels, wf_app app ->
  straight app = true -> reg_only app = true -> ssa app = true -> regs_ok app = true ->
  forall par fuel st st' tr, (1 <= par)%nat ->
  Forall int32 (regs st) -> length (regs st) = 32%nat -> nth 0 (regs st) 0 = 0 ->
  seq_run fuel (map sinstr_of app) labels st = Done st' tr ->
  forall ord,
  exists c, (forall fuel', (fuel_bound80 (length app) <= fuel')%nat ->
               mvp80_run par ord fuel' app labels st = MDone c st' /\ snd (mvp80_run_os par ord fuel' app labels st) = false) /\
            (Z.of_nat (length tr) + 1) / 2 + 1 <= c.
Proof. exact mvp80_refines_seq_ssa_straight. Qed.
Print Assumptions C01_mvp80_refines_seq_ssa_straight.

Theorem C12_mvp80_run_ssa_straight : forall app labels, wf_app app ->
  straight app = true -> reg_only app = true -> ssa app = true -> regs_ok app = true ->
  forall par fuel st st' tr, (1 <= par)%nat ->
  Forall int32 (regs st) -> length (regs st) = 32%nat -> nth 0 (regs st) 0 = 0 ->
  seq_run fuel (map sinstr_of app) labels st = Done st' tr ->
  forall ord,
  exists c, (forall fuel', (fuel_bound80 (length app) <= fuel')%nat -> mvp80_run_os par ord fuel' app labels st = (MDone c st', false)) /\
            Z.of_nat (length tr) + 2 <= 2 * c /\
            (forall fuel', (fuel_bound63 (length app) <= fuel')%nat -> mvp63_run_os par ord fuel' app labels st = (MDone (c - 1) st', false)).
Proof. exact mvp80_run_ssa_straight. Qed.
Print Assumptions C12_mvp80_run_ssa_straight.

Theorem C12_mvp80_ghost_clear_ssa_straight : forall app labels, wf_app app ->
  straight app = true -> reg_only app = true -> ssa app = true -> regs_ok app = true ->
  forall par fuel st st' tr, (1 <= par)%nat ->
  Forall int32 (regs st) -> length (regs st) = 32%nat -> nth 0 (regs st) 0 = 0 ->
  seq_run fuel (map sinstr_of app) labels st = Done st' tr ->
  forall ord fuel', (fuel_bound80 (length app) <= fuel')%nat ->
  snd (mvp80_run_os par ord fuel' app labels st) = false.
Proof. exact mvp80_ghost_clear_ssa_straight. Qed.
Print Assumptions C12_mvp80_ghost_clear_ssa_straight.

Theorem C07_mvp80_terminates_ssa_straight : forall app labels, wf_app app ->
  straight app = true -> reg_only app = true -> ssa app = true -> regs_ok app = true ->
  forall par fuel st st' tr, (1 <= par)%nat ->
  Forall int32 (regs st) -> length (regs st) = 32%nat -> nth 0 (regs st) 0 = 0 ->
  seq_run fuel (map sinstr_of app) labels st = Done st' tr ->
  forall ord,
  exists c, mvp80_run par ord (fuel_bound80 (length app)) app labels st = MDone c st' /\ (Z.of_nat (length tr) + 1) / 2 + 1 <= c.
Proof. exact mvp80_terminates_ssa_straight. Qed.
Print Assumptions C07_mvp80_terminates_ssa_straight.

Theorem C07_mvp80_no_panic_ssa_straight : forall app labels, wf_app app ->
  straight app = true -> reg_only app = true -> ssa app = true -> regs_ok app = true ->
  forall par fuel st st' tr, (1 <= par)%nat ->
  Forall int32 (regs st) -> length (regs st) = 32%nat -> nth 0 (regs st) 0 = 0 ->
  seq_run fuel (map sinstr_of app) labels st = Done st' tr ->
  forall ord fuel', (fuel_bound80 (length app) <= fuel')%nat ->
  mvp80_run par ord fuel' app labels st <> MPanic /\ mvp80_run par ord fuel' app labels st <> MOutOfFuel /\
  (forall e, mvp80_run par ord fuel' app labels st <> MErr e).
Proof. exact mvp80_no_panic_ssa_straight. Qed.
Print Assumptions C07_mvp80_no_panic_ssa_straight.

(* non-vacuity *)
Theorem C01_mvp80_example_any : forall par ord, (1 <= par)%nat ->
  exists c st', seq_run 100 (map sinstr_of (map instr_of ex63_prog)) no_labels zero32 = Done st' (rev (map (fun k => 4 * Z.of_nat k) (seq 0 14))) /\
    (forall fuel, (fuel_bound80 14 <= fuel)%nat -> mvp80_run_os par ord fuel (map instr_of ex63_prog) no_labels zero32 = (MDone c st', false)) /\
    rget (regs st') 18 = 251 /\ 8 <= c.
Proof. exact mvp80_ssa_example_any. Qed.
Print Assumptions C01_mvp80_example_any.

Theorem C01_mvp80_example_sim : forall par ord fuel r os, (1 <= par)%nat ->
  mvp63_run_os par ord fuel (map instr_of ex63_prog) no_labels zero32 = (r, os) -> r <> MOutOfFuel ->
  mvp80_run_os par ord (S fuel) (map instr_of ex63_prog) no_labels zero32 = (plus_one_cycle r, os).
Proof. exact mvp80_ssa_example_sim. Qed.
Print Assumptions C01_mvp80_example_sim.

Theorem C01_mvp80_example : forall par, In par [1; 2; 3; 4]%nat ->
  mvp80_run_os par ord_asc 3001 (map instr_of ex63_prog) no_labels zero32 =
    (plus_one_cycle (fst (mvp63_run_os par ord_asc 3000 (map instr_of ex63_prog) no_labels zero32)),
     snd (mvp63_run_os par ord_asc 3000 (map instr_of ex63_prog) no_labels zero32)) /\
  mvp80_run_os par ord_desc 3001 (map instr_of ex63_prog) no_labels zero32 =
    (plus_one_cycle (fst (mvp63_run_os par ord_desc 3000 (map instr_of ex63_prog) no_labels zero32)),
     snd (mvp63_run_os par ord_desc 3000 (map instr_of ex63_prog) no_labels zero32)) /\
  fst (mvp63_run_os par ord_asc 3000 (map instr_of ex63_prog) no_labels zero32) <> MOutOfFuel /\
  mvp63g_run_os l3_80 par ord_asc 3000 (map instr_of ex63_prog) no_labels zero32 =
    mvp63_run_os par ord_asc 3000 (map instr_of ex63_prog) no_labels zero32.
Proof. exact mvp80_ssa_example. Qed.
Print Assumptions C01_mvp80_example.
