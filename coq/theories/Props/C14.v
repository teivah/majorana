(* C14 - Pipeline buses deliver each item once, in order, a cycle later, within
   capacity.  Property theorems only; the models are theories/Comp/Bus.v
   (SimpleBus, BufferedBus of proc/comp/bus.go) and theories/Comp/Queue.v
   (Queue of proc/comp/queue.go), hand-written and tied to the code by the
   correspondence check of lib/vf/c14.py.  All statements quantify over ALL
   histories (operation lists of any length) and all capacities.

   Vocabulary (Comp/BusProofs.v): added h / reverted h = items of the Add /
   Revert operations of h, in order; delivered outs = items returned by
   Get / Pick; contents b = queue b ++ items (buffer b); dropped b h = what
   DeleteLast / Clean threw away; subseq = order-preserving subsequence;
   nondecr lo h = the cycle arguments of Add / Revert / Connect never decrease;
   disciplined b h = Add and Revert are only performed when CanAdd is true. *)
From Coq Require Import ZArith List Bool Permutation.
From Maj Require Import Base.Outcome Comp.Bus Comp.BusProofs Comp.Queue Comp.QueueProofs.
Import ListNotations.
Open Scope Z_scope.

(* exactly once, nothing invented: multiset equation for every history *)
Theorem C14_conservation : forall ql bl h,
  Permutation (added h ++ reverted h)
              (delivered (snd (b_run (b_new ql bl) h)) ++ contents (fst (b_run (b_new ql bl) h))
               ++ dropped (b_new ql bl) h).
Proof. exact conservation_new. Qed.
Print Assumptions C14_conservation.

Theorem C14_exactly_once : forall ql bl h,
  NoDup (added h ++ reverted h) ->
  NoDup (delivered (snd (b_run (b_new ql bl) h)) ++ contents (fst (b_run (b_new ql bl) h))).
Proof. exact exactly_once. Qed.
Print Assumptions C14_exactly_once.

Theorem C14_nothing_lost : forall ql bl h,
  no_drop h = true ->
  Permutation (added h ++ reverted h)
              (delivered (snd (b_run (b_new ql bl) h)) ++ contents (fst (b_run (b_new ql bl) h))).
Proof. exact nothing_lost. Qed.
Print Assumptions C14_nothing_lost.

(* in order: delivered ++ queue ++ buffer = the added items in insertion order,
   minus what DeleteLast / Clean removed *)
Theorem C14_fifo_order : forall ql bl h,
  no_revert h = true -> no_pick h = true ->
  let s := fst (b_run (b_new ql bl) h) in
  let d := delivered (snd (b_run (b_new ql bl) h)) in
  subseq (d ++ queue s ++ items (buffer s)) (added h) /\
  (no_drop h = true -> d ++ queue s ++ items (buffer s) = added h).
Proof. exact fifo_order. Qed.
Print Assumptions C14_fifo_order.

Theorem C14_delivered_in_order : forall ql bl h,
  no_revert h = true -> no_pick h = true ->
  subseq (delivered (snd (b_run (b_new ql bl) h))) (added h).
Proof. exact delivered_in_order. Qed.
Print Assumptions C14_delivered_in_order.

(* Pick: first match out, the rest keep their order *)
Theorem C14_pick_first : forall b p,
  (exists q1 t q2, queue b = q1 ++ t :: q2 /\
     forallb (fun x => negb (p x)) q1 = true /\ p t = true /\
     b_pick b p = (mkB (buffer b) (q1 ++ q2) (queueLength b) (bufferLength b), (t, true)))
  \/ (forallb (fun x => negb (p x)) (queue b) = true /\ snd (b_pick b p) = (0, false) /\
      queue (fst (b_pick b p)) = queue b /\ buffer (fst (b_pick b p)) = buffer b).
Proof. exact pick_delivers_first. Qed.
Print Assumptions C14_pick_first.

Theorem C14_rest_order : forall ql bl h,
  no_revert h = true ->
  let s := fst (b_run (b_new ql bl) h) in
  subseq (queue s ++ items (buffer s)) (added h).
Proof. exact rest_order. Qed.
Print Assumptions C14_rest_order.

(* one cycle of latency, lower bound *)
Theorem C14_one_cycle_latency : forall ql bl h1 t c h2,
  ~ In t (added h1 ++ reverted h1) ->
  nondecr c h2 = true -> no_connect_after c h2 = true -> ~ In t (reverted h2) ->
  ~ In t (delivered (snd (b_run (b_new ql bl) (h1 ++ BAdd t c :: h2)))).
Proof. exact one_cycle_latency. Qed.
Print Assumptions C14_one_cycle_latency.

(* ... and upper bound: one cycle, not more, unless the queue is full *)
Theorem C14_visible_next_cycle : forall ql bl lo h c',
  nondecr lo h = true -> last_cycle lo h < c' ->
  let s := fst (b_run (b_new ql bl) (h ++ [BConnect c'])) in
  buffer s = [] \/ len (queue s) = ql.
Proof. exact visible_next_cycle. Qed.
Print Assumptions C14_visible_next_cycle.

(* capacity, in every reachable state *)
Theorem C14_capacity : forall ql bl h,
  0 <= ql -> 0 <= bl -> disciplined (b_new ql bl) h = true ->
  forall h1 h2, h = h1 ++ h2 ->
  let s := fst (b_run (b_new ql bl) h1) in
  len (buffer s) <= bl /\ len (queue s) <= ql.
Proof. exact capacity. Qed.
Print Assumptions C14_capacity.

Theorem C14_queue_capacity : forall ql bl h,
  0 <= ql -> len (queue (fst (b_run (b_new ql bl) h))) <= ql.
Proof. exact queue_capacity. Qed.
Print Assumptions C14_queue_capacity.

(* CanAdd and RemainingToAdd report the same room *)
Theorem C14_remaining_canadd : forall b,
  (len (buffer b) <= bufferLength b /\ len (queue b) <= queueLength b) ->
  (b_canadd b = true <-> 0 < b_remainingtoadd b).
Proof. exact remaining_canadd. Qed.
Print Assumptions C14_remaining_canadd.

Theorem C14_remaining_after_add : forall b t c,
  b_remainingtoadd (b_add b t c) = b_remainingtoadd b - 1.
Proof. exact remaining_after_add. Qed.
Print Assumptions C14_remaining_after_add.

(* refuted: guarding Add alone does not bound the buffer (Revert does not look) *)
Theorem C14_capacity_add_guard_only_refuted :
  exists ql bl h,
    0 <= ql /\ 0 <= bl /\ add_disciplined (b_new ql bl) h = true /\ nondecr 0 h = true /\
    let s := fst (b_run (b_new ql bl) h) in
    bl < len (buffer s) /\ b_canadd s = true.
Proof. exact capacity_add_guard_only_refuted. Qed.
Print Assumptions C14_capacity_add_guard_only_refuted.

(* Clean *)
Theorem C14_clean_empties : forall b,
  b_isempty (b_clean b) = true /\ queue (b_clean b) = [] /\ buffer (b_clean b) = [].
Proof. exact clean_empties. Qed.
Print Assumptions C14_clean_empties.

Theorem C14_clean_forgets : forall b h1 h2 x,
  In x (delivered (snd (b_run (fst (b_run b (h1 ++ [BClean]))) h2))) ->
  In x (added h2 ++ reverted h2).
Proof. exact clean_forgets. Qed.
Print Assumptions C14_clean_forgets.

(* Revert: next delivered when the visible queue is empty ... *)
Theorem C14_revert_is_next : forall b t c c',
  queue b = [] -> queueLength b <> 0 -> c <= c' ->
  snd (b_step (b_connect (b_revert b t c) c') BGet) = OItem t true.
Proof. exact revert_is_next. Qed.
Print Assumptions C14_revert_is_next.

(* ... and NOT otherwise (known finding; Revert is dead code in every variant) *)
Theorem C14_revert_not_next_refuted :
  exists ql bl h t c,
    0 < ql /\ 0 < bl /\ nondecr 0 (h ++ [BRevert t c; BConnect c; BGet]) = true /\
    disciplined (b_new ql bl) (h ++ [BRevert t c; BConnect c; BGet]) = true /\
    let s := fst (b_run (b_new ql bl) h) in
    snd (b_step (b_connect (b_revert s t c) c) BGet) = OItem 1 true /\ t = 2 /\
    delivered (snd (b_run (b_new ql bl) (h ++ [BRevert t c; BConnect c; BGet]))) = [1].
Proof. exact revert_not_next_refuted. Qed.
Print Assumptions C14_revert_not_next_refuted.

Theorem C14_simple_positions : forall h b,
  s_no_flush h = true ->
  get_results (snd (s_run b h)) = firstn (gets h) (s_current b :: segs (s_pending b) h).
Proof. exact simple_positions. Qed.
Print Assumptions C14_simple_positions.

Theorem C14_simple_k_plus_2 : forall b h1 t h2,
  s_no_flush (h1 ++ SAdd t :: h2) = true ->
  s_disciplined b (h1 ++ SAdd t :: h2) = true ->
  (2 <= gets h2)%nat ->
  nth_error (get_results (snd (s_run b (h1 ++ SAdd t :: h2)))) (gets h1 + 1) = Some (Some t).
Proof. exact simple_k_plus_2. Qed.
Print Assumptions C14_simple_k_plus_2.

Theorem C14_simple_fifo : forall h b,
  s_no_flush h = true -> s_disciplined b h = true ->
  somes (get_results (snd (s_run b h))) ++ opt (s_current (fst (s_run b h)))
    ++ opt (s_pending (fst (s_run b h)))
  = opt (s_current b) ++ opt (s_pending b) ++ s_added h.
Proof. exact simple_fifo. Qed.
Print Assumptions C14_simple_fifo.

Theorem C14_simple_exactly_once : forall h,
  s_no_flush h = true -> s_disciplined s_new h = true -> NoDup (s_added h) ->
  let r := s_run s_new h in
  NoDup (somes (get_results (snd r))) /\
  exists inside, somes (get_results (snd r)) ++ inside = s_added h /\ (length inside <= 2)%nat.
Proof. exact simple_exactly_once. Qed.
Print Assumptions C14_simple_exactly_once.

(* loss when the contract is broken *)
Theorem C14_simple_add_overwrites : forall b t0 t, s_add (s_add b t0) t = s_add b t.
Proof. exact simple_add_overwrites. Qed.
Print Assumptions C14_simple_add_overwrites.

Theorem C14_simple_undisciplined_loses_refuted :
  exists h, s_no_flush h = true /\ s_disciplined s_new h = false /\
            s_added h = [1; 2] /\
            get_results (snd (s_run s_new h)) = [None; Some 2; None; None] /\
            s_isempty (fst (s_run s_new h)) = true.
Proof. exact simple_undisciplined_loses_refuted. Qed.
Print Assumptions C14_simple_undisciplined_loses_refuted.

Theorem C14_simple_clean_empties : forall b,
  s_isempty (s_clean b) = true /\ s_isempty (s_flush b) = true /\
  s_clean b = s_new /\ s_flush b = s_new.
Proof. exact simple_clean_empties. Qed.
Print Assumptions C14_simple_clean_empties.

Theorem C14_queue_reachable_wf : forall cap h, q_wf (fst (q_run (q_new cap) h)).
Proof. exact wf_reachable. Qed.
Print Assumptions C14_queue_reachable_wf.

Theorem C14_queue_iter_push_order : forall cap vs,
  map q_value (q_iterator (fold_left q_push vs (q_new cap))) = vs.
Proof. exact iter_push_order. Qed.
Print Assumptions C14_queue_iter_push_order.

Theorem C14_queue_iter_remove : forall q p,
  q_wf q ->
  q_items (fst (q_iter q p (-1))) = filter (fun x => negb (p (q_value x))) (q_items q) /\
  snd (q_iter q p (-1)) = map q_value (q_items q).
Proof. exact iter_remove. Qed.
Print Assumptions C14_queue_iter_remove.

Theorem C14_queue_iter_remove_partial : forall q p limit,
  q_wf q -> 0 <= limit ->
  let n := Z.to_nat limit in
  q_items (fst (q_iter q p limit))
  = filter (fun x => negb (p (q_value x))) (firstn n (q_items q)) ++ skipn n (q_items q) /\
  snd (q_iter q p limit) = map q_value (firstn n (q_items q)).
Proof. exact iter_remove_partial. Qed.
Print Assumptions C14_queue_iter_remove_partial.

Theorem C14_queue_order : forall cap h,
  subseq (map q_value (q_items (fst (q_run (q_new cap) h)))) (pushed h).
Proof. exact queue_order_new. Qed.
Print Assumptions C14_queue_order.

Theorem C14_queue_isfull_iff : forall q, q_isfull q = true <-> q_length q >= q_cap q.
Proof. exact isfull_iff. Qed.
Print Assumptions C14_queue_isfull_iff.
