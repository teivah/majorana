(* C01 / C12 / C07 for MVP-7.0 (proc/mvp7-0 = the pipeline of MVP-6.3 on per-core L1 caches behind cache
   controllers kept coherent by an MSI directory) on programs WITHOUT LOADS AND STORES, by a lock-step simulation
   with MVP-6.3.  Property theorems only; proofs in Mvp/Mvp70Sim63Defs.v (projection, invariant, execute units),
   Mvp70Sim63Loops.v (the loops over the units, one tick: step_sim, step_final), Mvp70Sim63Proofs.v (end of Run,
   whole runs, transport), about the faithful cycle-level models Mvp/Mvp70.v and Mvp/Mvp63.v (each tied to the Go
   code by exact checks of cycles, registers, memory).

   The class:  reg_only app     no instruction of the TEXT is a load or a store (Mvp4Skel);
               wregs_nonneg app no instruction writes a register with a negative number (every parsed program;
                                implied by regs_ok).

   The theorems.
     C01_mvp70_regonly_sim_mvp63          on the class, for every number of cores, EVERY order function,
                                          every initial state, every fuel: a run of MVP-6.3 that ends (result,
                                          error or panic) within `fuel` ticks is the run of MVP-7.0 within
                                          `fuel + 1` ticks: same registers, same memory, same ghost flag, same error,
                                          cycles + 1.  (The loop after the main loop of mvp7-0/cpu.go runs once and
                                          finds nothing to do: c70 = c63 + 1.)
     C07_mvp70_regonly_out_of_fuel        ... and a run of MVP-6.3 that exhausts its fuel: so does MVP-7.0.
     C01_mvp70_regonly_sim_mvp63_stable_order   the same for EVERY program without loads / stores (negative register
                                          numbers included) if the order function ignores the cycle on the RAT maps.
     C01_mvp70_regonly_sim_mvp63_refuted  FINDING (model level): with neither hypothesis the statement is false -
                                          `li x(-1), 5`: RATFlush writes register -1 into slot 0 of the register
                                          list, MVP-7.0 ranges over the committed table one cycle later, an order
                                          function that changes with the cycle orders the keys -1 and 0 differently.
     C06_mvp70_regonly_memory_system_idle in every state MVP-7.0 reaches on a program without loads / stores the
                                          directory is msi_new, every cache controller is as NewCPU built it, no
                                          execute unit is inside cc.read / cc.write, no write unit writes memory.
     C01_mvp70_refines_seq_ssa_straight, C12_mvp70_run_ssa_straight, C12_mvp70_ghost_clear_ssa_straight,
     C07_mvp70_terminates_ssa_straight, C07_mvp70_no_panic_ssa_straight
                                          TRANSPORT of the MVP-6.3 refinement theorem (Props/C01_mvp63.v): on
                                          single-assignment register-only straight-line programs MVP-7.0 returns the
                                          sequential registers and memory at every number of cores, for every order,
                                          ghost flag clear, within fuel_bound70 (length app) = 400 * length app + 1601
                                          ticks.
     C01_mvp70_example_any, C01_mvp70_example   non-vacuity: the 14-instruction example of C01_mvp63.v.
   MVP-7.1 (Mvp/Mvp70Sim63Mvp71.v):
     C01_mvp71_regonly_sim_mvp63_refuted  FINDING: "MVP-7.1 = MVP-6.3 + one cycle on programs without loads and
                                          stores" is false (registerRead by sequence id, ids not monotone after a
                                          jump back by more than 2000 bytes; the MVP-8.0 witness).
     C01_mvp71_execute_unit_partial, C01_mvp71_register_read_partial, C01_mvp71_front_partial
                                          unit lemmas towards "MVP-7.1 = MVP-7.0 on straight-line programs without
                                          loads and stores" (proved for single-assignment programs: C01_mvp71.v). *)
From Coq Require Import ZArith List Bool Lia.
From Maj Require Import Base.Outcome Base.GoInt Base.GoTypes Isa.Spec Isa.Seq Isa.Refine Gen.Opcodes Comp.Rat.
From Maj Require Import Mvp.Mvp12 Mvp.Mvp12Proofs Mvp.Mvp4Skel Mvp.Mvp60 Mvp.Mvp60RefDefs Mvp.Mvp63 Mvp.Mvp63Proofs Mvp.Mvp63RefDefs
     Mvp.Mvp63RefProofs Mvp.Mvp70 Mvp.Mvp71 Mvp.Mvp70Proofs Mvp.Mvp70Sim63Defs Mvp.Mvp70Sim63Loops Mvp.Mvp70Sim63Proofs Mvp.Mvp70Sim63Mvp71.
Import ListNotations.
Open Scope Z_scope.

(* C01: MVP-7.0 = MVP-6.3 + one cycle on programs without loads and stores, for every order function *)
Theorem C01_mvp70_regonly_sim_mvp63 : forall app, reg_only app = true -> wregs_nonneg app = true ->
  forall par ord fuel labels st r os,
  r <> MOutOfFuel ->
  mvp63_run_os par ord fuel app labels st = (r, os) ->
  mvp70_run_os par ord (S fuel) app labels st = (plus_one_cycle r, os).
Proof. exact mvp70_regonly_sim_mvp63. Qed.
Print Assumptions C01_mvp70_regonly_sim_mvp63.

(* ... in terms of the architectural result *)
Theorem C01_mvp70_regonly_same_state : forall app, reg_only app = true -> wregs_nonneg app = true ->
  forall par ord fuel labels st c st',
  mvp63_run par ord fuel app labels st = MDone c st' ->
  mvp70_run par ord (S fuel) app labels st = MDone (c + 1) st'.
Proof. exact mvp70_regonly_same_state. Qed.
Print Assumptions C01_mvp70_regonly_same_state.

(* C07: a run of MVP-6.3 that is still going after `fuel` ticks: so is MVP-7.0, same ghost flag *)
Theorem C07_mvp70_regonly_out_of_fuel : forall app, reg_only app = true -> wregs_nonneg app = true ->
  forall par ord fuel labels st os,
  mvp63_run_os par ord fuel app labels st = (MOutOfFuel, os) ->
  mvp70_run_os par ord fuel app labels st = (MOutOfFuel, os).
Proof. exact mvp70_regonly_outoffuel. Qed.
Print Assumptions C07_mvp70_regonly_out_of_fuel.

(* the same for every program without loads / stores when the order function ignores the cycle on the RAT maps *)
Theorem C01_mvp70_regonly_sim_mvp63_stable_order : forall app, reg_only app = true ->
  forall par ord fuel labels st r os,
  ord_stable ord ->
  r <> MOutOfFuel ->
  mvp63_run_os par ord fuel app labels st = (r, os) ->
  mvp70_run_os par ord (S fuel) app labels st = (plus_one_cycle r, os).
Proof. exact mvp70_regonly_sim_mvp63_stable. Qed.
Print Assumptions C01_mvp70_regonly_sim_mvp63_stable_order.

(* FINDING (model level): neither hypothesis can be dropped *)
Theorem C01_mvp70_regonly_sim_mvp63_refuted :
  ~ (forall app, reg_only app = true ->
     forall par ord fuel labels st r os,
     r <> MOutOfFuel ->
     mvp63_run_os par ord fuel app labels st = (r, os) ->
     mvp70_run_os par ord (S fuel) app labels st = (plus_one_cycle r, os)).
Proof. exact mvp70_regonly_sim_mvp63_refuted. Qed.
Print Assumptions C01_mvp70_regonly_sim_mvp63_refuted.

(* the witness: one instruction, `li x(-1), 5`, registers [7; 8], order ascending in even and descending in odd cycles *)
Theorem C01_mvp70_negative_register_witness :
  reg_only neg_prog = true /\ wregs_nonneg neg_prog = false /\
  mvp63_run_os 1 alt_ord 400 neg_prog no_labels neg_st = (MDone 314 (mk_arch [5; 8] []), false) /\
  mvp70_run_os 1 alt_ord 401 neg_prog no_labels neg_st = (MDone 315 (mk_arch [7; 8] []), false) /\
  mvp70_run_os 1 ord_asc 401 neg_prog no_labels neg_st = (MDone 315 (mk_arch [5; 8] []), false) /\
  mvp70_run_os 1 ord_desc 401 neg_prog no_labels neg_st = (MDone 315 (mk_arch [7; 8] []), false).
Proof. exact neg_runs. Qed.
Print Assumptions C01_mvp70_negative_register_witness.

(* C06: the memory system of MVP-7.0 is never used on a program without loads and stores *)
Theorem C06_mvp70_regonly_memory_system_idle : forall app, reg_only app = true ->
  forall par ord fuel labels st s s',
  init7 par ord app st = Ok s -> run7_st hooks70 fuel app labels ord s = inr s' ->
  w_i (v_w s') = msi_new /\
  Forall (fun e => CC (h_cc e) /\ (h_co e = HNone \/ h_co e = HPrepare)) (v_eus s') /\
  Forall (fun u => u_co u = WNone) (v_wus s').
Proof. exact mvp70_regonly_memsys_idle. Qed.
Print Assumptions C06_mvp70_regonly_memory_system_idle.

(* the two steps of the simulation, at machine level: one tick of Run in any loop but the final one is the tick of
   MVP-6.3 on the projected state; the final loop runs once *)
Theorem C01_mvp70_tick_simulation : forall (NN : Prop) app, reg_only app = true -> (NN -> wregs_nonneg app = true) ->
  forall labels ord s, SI NN s -> v_mode s <> QFinal ->
  step3 app labels ord (st3_of s) = proj_res ord (step7 hooks70 app labels ord s) /\
  res_SI NN (step7 hooks70 app labels ord s).
Proof. exact step_sim. Qed.
Print Assumptions C01_mvp70_tick_simulation.

Theorem C01_mvp70_final_loop_once : forall (NN : Prop) app labels ord s, SI NN s -> v_mode s = QFinal ->
  step7 hooks70 app labels ord s = UDone (finish7 ord (v_w s) (v_eus s) (v_cycle s + 1)) (v_os (v_w s)).
Proof. exact step_final. Qed.
Print Assumptions C01_mvp70_final_loop_once.

(* RATCommit ; RATFlush does not depend on Go's map order when the tables are well formed with non-negative keys *)
Theorem C08_mvp70_rat_flush_order_independent : forall ord1 c1 ord2 c2 x,
  Comp.RatProofs.rat_ok (x_crat x) ->
  (forall k v, rat_read 0 (x_crat x) k = Some v -> 0 <= k) ->
  (forall k v, rat_read tu0 (x_trat x) k = Some v -> 0 <= k) ->
  rat_flush3 ord1 c1 (rat_commit3 ord1 c1 x) = rat_flush3 ord2 c2 (rat_commit3 ord2 c2 x).
Proof. exact fin_indep. Qed.
Print Assumptions C08_mvp70_rat_flush_order_independent.

(* C01: MVP-7.0 computes the sequential result on single-assignment, register-only, straight-line programs, at
   every number of cores, for EVERY order function, for all fuels from fuel_bound70 (length app) on *)
Theorem C01_mvp70_refines_seq_ssa_straight : forall app labels, wf_app app ->
  straight app = true -> reg_only app = true -> ssa app = true -> regs_ok app = true ->
  forall par fuel st st' tr, (1 <= par)%nat ->
  Forall int32 (regs st) -> length (regs st) = 32%nat -> nth 0 (regs st) 0 = 0 ->
  seq_run fuel (map sinstr_of app) labels st = Done st' tr ->
  forall ord, exists c, forall fuel', (fuel_bound70 (length app) <= fuel')%nat -> mvp70_run par ord fuel' app labels st = MDone c st'.
Proof. exact mvp70_refines_seq_ssa_straight. Qed.
Print Assumptions C01_mvp70_refines_seq_ssa_straight.

(* C12: ... with the ghost flag clear, at least ceil(executed / 2) + 1 cycles, exactly one cycle more than MVP-6.3 *)
Theorem C12_mvp70_run_ssa_straight : forall app labels, wf_app app ->
  straight app = true -> reg_only app = true -> ssa app = true -> regs_ok app = true ->
  forall par fuel st st' tr, (1 <= par)%nat ->
  Forall int32 (regs st) -> length (regs st) = 32%nat -> nth 0 (regs st) 0 = 0 ->
  seq_run fuel (map sinstr_of app) labels st = Done st' tr ->
  forall ord, exists c,
    (forall fuel', (fuel_bound70 (length app) <= fuel')%nat -> mvp70_run_os par ord fuel' app labels st = (MDone c st', false)) /\
    Z.of_nat (length tr) + 2 <= 2 * c /\
    (forall fuel', (fuel_bound63 (length app) <= fuel')%nat -> mvp63_run_os par ord fuel' app labels st = (MDone (c - 1) st', false)).
Proof. exact mvp70_run_ssa_straight. Qed.
Print Assumptions C12_mvp70_run_ssa_straight.

Theorem C12_mvp70_ghost_clear_ssa_straight : forall app labels, wf_app app ->
  straight app = true -> reg_only app = true -> ssa app = true -> regs_ok app = true ->
  forall par fuel st st' tr, (1 <= par)%nat ->
  Forall int32 (regs st) -> length (regs st) = 32%nat -> nth 0 (regs st) 0 = 0 ->
  seq_run fuel (map sinstr_of app) labels st = Done st' tr ->
  forall ord fuel', (fuel_bound70 (length app) <= fuel')%nat -> snd (mvp70_run_os par ord fuel' app labels st) = false.
Proof. exact mvp70_ghost_clear_ssa_straight. Qed.
Print Assumptions C12_mvp70_ghost_clear_ssa_straight.

(* C07: termination within the bound, no panic, no error *)
Theorem C07_mvp70_terminates_ssa_straight : forall app labels, wf_app app ->
  straight app = true -> reg_only app = true -> ssa app = true -> regs_ok app = true ->
  forall par fuel st st' tr, (1 <= par)%nat ->
  Forall int32 (regs st) -> length (regs st) = 32%nat -> nth 0 (regs st) 0 = 0 ->
  seq_run fuel (map sinstr_of app) labels st = Done st' tr ->
  forall ord, exists c, mvp70_run par ord (fuel_bound70 (length app)) app labels st = MDone c st' /\ (Z.of_nat (length tr) + 1) / 2 + 1 <= c.
Proof. exact mvp70_terminates_ssa_straight. Qed.
Print Assumptions C07_mvp70_terminates_ssa_straight.

Theorem C07_mvp70_no_panic_ssa_straight : forall app labels, wf_app app ->
  straight app = true -> reg_only app = true -> ssa app = true -> regs_ok app = true ->
  forall par fuel st st' tr, (1 <= par)%nat ->
  Forall int32 (regs st) -> length (regs st) = 32%nat -> nth 0 (regs st) 0 = 0 ->
  seq_run fuel (map sinstr_of app) labels st = Done st' tr ->
  forall ord fuel', (fuel_bound70 (length app) <= fuel')%nat ->
  mvp70_run par ord fuel' app labels st <> MPanic /\ mvp70_run par ord fuel' app labels st <> MOutOfFuel /\
  (forall e, mvp70_run par ord fuel' app labels st <> MErr e).
Proof. exact mvp70_no_panic_ssa_straight. Qed.
Print Assumptions C07_mvp70_no_panic_ssa_straight.

(* non-vacuity of the theorem itself: the 14-instruction example at ANY number of cores, for ANY order function *)
Theorem C01_mvp70_example_any : forall par ord, (1 <= par)%nat ->
  exists c st', seq_run 100 (map sinstr_of (map instr_of ex63_prog)) no_labels zero32 = Done st' (rev (map (fun k => 4 * Z.of_nat k) (seq 0 14))) /\
    (forall fuel, (fuel_bound70 14 <= fuel)%nat -> mvp70_run_os par ord fuel (map instr_of ex63_prog) no_labels zero32 = (MDone c st', false)) /\
    rget (regs st') 18 = 251 /\ 8 <= c.
Proof. exact mvp70_ssa_example_any. Qed.
Print Assumptions C01_mvp70_example_any.

(* non-vacuity by computation: 14 instructions, chained RAW dependences, single assignment; the hypotheses hold; 1 and
   3 cores, three orders: the sequential registers, ghost flag clear, one cycle more than MVP-6.3 *)
Theorem C01_mvp70_example :
  let app := map instr_of ex63_prog in
  straight app = true /\ reg_only app = true /\ ssa app = true /\ regs_ok app = true /\ wregs_nonneg app = true /\
  exists st' tr,
    seq_run 100 (map sinstr_of app) no_labels zero32 = Done st' tr /\ length tr = 14%nat /\
    mvp63_run_os 3 ord_asc 3000 app no_labels zero32 = (MDone 332 st', false) /\
    mvp70_run_os 1 ord_asc 3001 app no_labels zero32 = (MDone 334 st', false) /\
    mvp70_run_os 3 ord_asc 3001 app no_labels zero32 = (MDone 333 st', false) /\
    mvp70_run_os 3 ord_desc 3001 app no_labels zero32 = (MDone 333 st', false) /\
    mvp70_run_os 3 alt_ord 3001 app no_labels zero32 = (MDone 333 st', false) /\
    rget (regs st') 9 = 63 /\ rget (regs st') 13 = 57 /\ rget (regs st') 18 = 251.
Proof. exact mvp70_ssa_example. Qed.
Print Assumptions C01_mvp70_example.

(* non-vacuity of the lock-step theorem outside the class of the refinement theorem: a taken branch, a flush, a
   wrong-path instruction, forwarding, a write-after-read, at 1..4 cores *)
Theorem C01_mvp70_regonly_example :
  reg_only ro70_prog = true /\ wregs_nonneg ro70_prog = true /\
  forall par, In par [1; 2; 3; 4]%nat ->
    fst (mvp63_run_os par ord_asc 3000 ro70_prog (one_label 12) (st_of [] [(0, 5); (70, 3)])) <> MOutOfFuel /\
    mvp70_run_os par ord_asc 3001 ro70_prog (one_label 12) (st_of [] [(0, 5); (70, 3)]) =
      (plus_one_cycle (fst (mvp63_run_os par ord_asc 3000 ro70_prog (one_label 12) (st_of [] [(0, 5); (70, 3)]))),
       snd (mvp63_run_os par ord_asc 3000 ro70_prog (one_label 12) (st_of [] [(0, 5); (70, 3)]))).
Proof. exact mvp70_regonly_example. Qed.
Print Assumptions C01_mvp70_regonly_example.

(* FINDING: the lock-step statement is false for MVP-7.1 (as for MVP-8.0): a jump back by more than 2000 bytes *)
Theorem C01_mvp71_regonly_sim_mvp63_refuted :
  ~ (forall app, reg_only app = true -> wregs_nonneg app = true ->
     forall par ord fuel labels st r os,
     r <> MOutOfFuel ->
     mvp63_run_os par ord fuel app labels st = (r, os) ->
     mvp71_run_os par ord (S fuel) app labels st = (plus_one_cycle r, os)).
Proof. exact mvp71_regonly_sim_mvp63_refuted. Qed.
Print Assumptions C01_mvp71_regonly_sim_mvp63_refuted.

Theorem C01_mvp71_long_backward_jump_witness :
  reg_only cx71_prog = true /\ wregs_nonneg cx71_prog = true /\
  (exists s3, mvp63_run_os 2 ord_asc 3000 cx71_prog cx71_labels cx71_st = (MDone 638 s3, false) /\ nth 7 (regs s3) 0 = 77) /\
  (exists s0, mvp70_run_os 2 ord_asc 3001 cx71_prog cx71_labels cx71_st = (MDone 639 s0, false) /\ nth 7 (regs s0) 0 = 77) /\
  (exists s1, mvp71_run_os 2 ord_asc 3001 cx71_prog cx71_labels cx71_st = (MDone 639 s1, false) /\ nth 7 (regs s1) 0 = 1).
Proof. exact cx71_runs. Qed.
Print Assumptions C01_mvp71_long_backward_jump_witness.

(* registerRead with a sequence id = the newest-slot read when the newest slot is not younger than the reader *)
Theorem C01_mvp71_register_read_partial : forall fw crat trat sid reg,
  (forall v, rat_read tu0 trat reg = Some v -> fst v <= sid) ->
  reg_read_tag fw crat trat sid reg = reg_read3 fw crat trat reg.
Proof. exact reg_read_tag_newest. Qed.
Print Assumptions C01_mvp71_register_read_partial.

(* executeUnit.Cycle of MVP-7.1 = that of MVP-7.0 under explicit conditions *)
Theorem C01_mvp71_execute_unit_partial : forall NN labels ord cycle id w e, eu_cond71 NN w e ->
  eu_cycle7 hooks71 labels ord cycle id w e = eu_cycle7 hooks70 labels ord cycle id w e.
Proof. exact eu_cycle71_sim. Qed.
Print Assumptions C01_mvp71_execute_unit_partial.

(* the first half of a tick of MVP-7.1 = front3 when staleState is clear and the pushed runners are no loads / stores *)
Theorem C01_mvp71_front_partial : forall NN app ord cycle w,
  i_stale (w_i w) = false ->
  (forall fu1 l1i1 dbus1 x1,
     fu_cycle6 app cycle (m_fu (x_m (connected3 (w_x w) cycle))) (m_l1i (x_m (connected3 (w_x w) cycle)))
               (m_dbus (x_m (connected3 (w_x w) cycle))) = Ok (fu1, l1i1, dbus1) ->
     du_cycle3 app cycle (set_m (connected3 (w_x w) cycle)
                                (set_dbus (set_l1i (set_fu (x_m (connected3 (w_x w) cycle)) fu1) l1i1) dbus1)) = Ok x1 ->
     Forall (NM NN) (x_prev (cu_cycle3 ord cycle x1))) ->
  k_front hooks71 app ord cycle w = k_front hooks70 app ord cycle w.
Proof. exact front71_sim. Qed.
Print Assumptions C01_mvp71_front_partial.

(* evidence for the intended statement: the 14-instruction example, 1..4 cores *)
Theorem C01_mvp71_example : forall par, In par [1; 2; 3; 4]%nat ->
  mvp71_run_os par ord_asc 3001 (map instr_of ex63_prog) no_labels zero32 =
  mvp70_run_os par ord_asc 3001 (map instr_of ex63_prog) no_labels zero32.
Proof. exact mvp71_instances. Qed.
Print Assumptions C01_mvp71_example.
