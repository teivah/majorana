(* C06 - MSI coherence invariants, the THREE-LEVEL hierarchy of MVP-8.0 (per-core
   L1 / shared L3 / main memory) and the DATA VALUE property.
   Property theorems only; proofs are in Msi/L3*.v.

   Model: Msi/L3Protocol.v, read off proc/mvp8-0/{cc,msi,mmu}.go: the machine
   of Msi/Protocol.v (imported unchanged) whose next level is now a shared L3
   (LRU list of lines of w bytes, capacity cap lines, dirty flags, deferred
   victim commands) over main memory; N cores, any number of lines, every
   interleaving, every length.  `view w s` is the state the cores see: its
   next level is `next w s l` = the L3 copy when L3 holds the line, main
   memory otherwise.  step3 N g fm rep w cap:  g / fm as in Props/C06.v,
   rep = false the L3 refill AS CODED, rep = true the repaired refill.
   Tie to the code: the extracted l3_b / violated3 are evaluated on a snapshot
   of the implementation after every cycle (lib/vf/c06.py). *)
From Coq Require Import List ZArith Bool.
From Maj Require Import Msi.Protocol Msi.Invariant Msi.L3Protocol Msi.L3Invariant Msi.L3Lemmas Msi.L3DataValue
  Msi.L3Proofs Msi.L3Coded Msi.L3Refuted Msi.L3Examples Msi.L3SnapProofs.
Import ListNotations.
Open Scope Z_scope.

(* ---- the repaired refill (memory read, push and victim handling in one step) ---- *)

(* L1 PROTOCOL AS CODED (unguarded locks, flush excluded) over the repaired L3:
   every reachable state satisfies (a) the C06 invariant Inv (+ J) of the state
   the cores see, (c) the L3 invariant, (d) the data-value invariant w.r.t. the
   history of completed writes *)
Theorem C06_l3_inv_reachable : forall N w cap, 0 < w -> (0 < cap)%nat -> forall m0 s,
  reach3 N false NoFlush true w cap m0 s ->
  Inv N (view w s) /\ J N (view w s) /\ L3I w cap s /\ DV N (view w s) (lastw m0 (hist s)).
Proof. exact l3_reachable_repaired. Qed.
Print Assumptions C06_l3_inv_reachable.

(* the repaired L1 protocol (guarded locks; with or without the repaired flush) over the repaired L3 *)
Theorem C06_l3_inv_reachable_repaired : forall N w cap, 0 < w -> (0 < cap)%nat -> forall fm m0 s,
  reach3 N true fm true w cap m0 s ->
  Inv N (view w s) /\ L3I w cap s /\ DV N (view w s) (lastw m0 (hist s)).
Proof. exact l3_reachable_repaired_guarded. Qed.
Print Assumptions C06_l3_inv_reachable_repaired.

(* (a) the clauses of C06 (1 single writer, 2 Shared = next level, 3 in L1 iff
   not Invalid outside a transfer, 5 lock counters) for the three-level state *)
Theorem C06_l3_inv_implies_clauses : forall N w s, Inv N (view w s) -> clauses (obs_of_st N (view w s)).
Proof. exact (fun N w s => StepProofs.inv_clauses N (view w s)). Qed.
Print Assumptions C06_l3_inv_implies_clauses.

(* (b) a Shared L1 line equals the L3 copy when L3 holds the line, main memory otherwise *)
Theorem C06_l3_shared_equals_next_level : forall N w s i l, Inv N (view w s) -> (i < N)%nat ->
  ms (core s) i l = S ->
  (in_l3 w s l = true -> l1 (core s) i l = Some (l3d s l)) /\
  (in_l3 w s l = false -> l1 (core s) i l = Some (mem (core s) l)).
Proof. exact l3_shared_equals_next. Qed.
Print Assumptions C06_l3_shared_equals_next_level.

(* (c) L3 never holds two copies of a line, its lines are aligned, occupancy <= capacity *)
Theorem C06_l3_structure : forall w cap s, L3I w cap s ->
  NoDup (l3q s) /\ (forall b, In b (l3q s) -> b mod w = 0) /\ (length (l3q s) <= cap)%nat.
Proof. exact l3_structure. Qed.
Print Assumptions C06_l3_structure.

(* (d) DATA VALUE: the current value of every line (the Modified L1 copy if any,
   else the L3 copy if present, else main memory) is the last value written;
   so is every valid (Shared or Modified) L1 copy: a load returns it *)
Theorem C06_l3_current_value : forall N w s lw l,
  Inv N (view w s) -> DV N (view w s) lw -> current N w s l (lw l).
Proof. exact l3_current_value. Qed.
Print Assumptions C06_l3_current_value.

Theorem C06_l3_valid_copy_is_last_write : forall N w s lw i l,
  Inv N (view w s) -> DV N (view w s) lw -> (i < N)%nat -> ms (core s) i l <> I ->
  l1 (core s) i l = Some (lw l).
Proof. exact (fun N w s => dv_valid_copy N (view w s)). Qed.
Print Assumptions C06_l3_valid_copy_is_last_write.

(* the one place where msi.go of 8.0 differs from 7.0 on the L1 side
   (evictL1ExtraCacheLine: l1Evict for an Invalid victim) is unreachable *)
Theorem C06_l3_victim_never_invalid : forall N s i l a, Inv N s -> (i < N)%nat ->
  tx_line (ph s i) = Some l -> victim_ok s i l (Some a) -> ms s i a <> I.
Proof. exact victim_not_invalid. Qed.
Print Assumptions C06_l3_victim_never_invalid.

(* ---- THE CODE AS IT IS (L1 protocol unguarded, flush excluded, L3 as coded) ---- *)

(* the protocol part of the invariant (everything that is not about the data
   carried: Inv and J of the data-erased core state) and the L3 structure
   "one copy per line, aligned" hold in every reachable state ... *)
Theorem C06_l3_coded_reachable : forall N w cap, 0 < w -> forall m0 s,
  reach3 N false NoFlush false w cap m0 s ->
  Inv N (erase (core s)) /\ J N (erase (core s)) /\ L3wf w s.
Proof. exact l3_reachable_coded. Qed.
Print Assumptions C06_l3_coded_reachable.

(* ... which gives clauses 1, 3 and 5 of the property for the code as it is *)
Theorem C06_l3_coded_clauses_1_3_5 : forall N b, Inv N (erase b) ->
  clause1 (obs_of_st N b) /\ clause3 (obs_of_st N b) /\ clause5 (obs_of_st N b).
Proof. exact erased_clauses. Qed.
Print Assumptions C06_l3_coded_clauses_1_3_5.

(* (d), (b) and the supporting "clean L3 line = memory" FAIL as coded - known
   finding C06-l3-refill-race: 3 cores, L3 lines of 128 bytes, capacity 1 *)
Theorem C06_l3_refill_race_refuted :
  exists s, trace3 3 false NoFlush false 128 1 (init3 m0) race_trace s /\
    reach3 3 false NoFlush false 128 1 m0 s /\
    ms (core s) 2%nat 64 = S /\ l1 (core s) 2%nat 64 = Some 64 /\ lastw m0 (hist s) 64 = 5 /\
    in_l3 128 s 64 = true /\ l3w s 0 = false /\ l3d s 64 = 64 /\ mem (core s) 64 = 5 /\
    ~ DV 3 (view 128 s) (lastw m0 (hist s)) /\
    ~ (forall b k, In b (l3q s) -> l3w s b = false -> grp 128 k = b -> l3d s k = mem (core s) k).
Proof. exact l3_refill_race_refuted. Qed.
Print Assumptions C06_l3_refill_race_refuted.

Theorem C06_l3_refill_race_breaks_clause2_refuted :
  exists s, trace3 3 false NoFlush false 128 1 (init3 m0) race_trace2 s /\
    reach3 3 false NoFlush false 128 1 m0 s /\
    ms (core s) 2%nat 64 = S /\ l1 (core s) 2%nat 64 = Some 5 /\ next 128 s 64 = 64 /\
    ~ clause2 (obs_of_st 3 (view 128 s)).
Proof. exact l3_refill_race_breaks_clause2_refuted. Qed.
Print Assumptions C06_l3_refill_race_breaks_clause2_refuted.

(* (c) occupancy FAILS as coded, and an l3WriteBack command can find its line
   gone (Go: panic "memory address should exist") - known finding C06-l3-double-victim *)
Theorem C06_l3_double_victim_panic_refuted :
  exists s, trace3 3 false NoFlush false 128 1 (init3 m0) victim_trace_wb s /\
    reach3 3 false NoFlush false 128 1 m0 s /\
    l3c s = [(1%nat, 0, true)] /\ l3q s = [256; 128] /\ ~ l3_cmds_have_lines s.
Proof. exact l3_double_victim_panic_refuted. Qed.
Print Assumptions C06_l3_double_victim_panic_refuted.

Theorem C06_l3_double_victim_occupancy_refuted :
  exists s, trace3 3 false NoFlush false 128 1 (init3 m0) victim_trace_ev s /\
    reach3 3 false NoFlush false 128 1 m0 s /\
    l3c s = [] /\ l3q s = [256; 128] /\ ~ l3_occupancy_ok 1 s.
Proof. exact l3_double_victim_occupancy_refuted. Qed.
Print Assumptions C06_l3_double_victim_occupancy_refuted.

(* one core is enough (coRead does not wait for its own victim command) *)
Theorem C06_l3_same_core_double_victim_refuted :
  exists s, trace3 3 false NoFlush false 128 1 (init3 m0) victim_trace_same_core s /\
    reach3 3 false NoFlush false 128 1 m0 s /\
    l3c s = [] /\ l3q s = [256; 128] /\ ~ l3_occupancy_ok 1 s.
Proof. exact l3_same_core_double_victim_refuted. Qed.
Print Assumptions C06_l3_same_core_double_victim_refuted.

(* (d) FAILS as coded for a third reason - finding C06-l3-victim-kind-race, found
   by this model and then reproduced on the implementation: the kind of the L3
   victim command is fixed when it is issued *)
Theorem C06_l3_victim_kind_race_refuted :
  exists s, trace3 3 false NoFlush false 128 1 (init3 m0) kind_trace s /\
    reach3 3 false NoFlush false 128 1 m0 s /\
    ms (core s) 2%nat 0 = S /\ l1 (core s) 2%nat 0 = Some 0 /\ lastw m0 (hist s) 0 = 5 /\
    next 128 s 0 = 0 /\ mem (core s) 0 = 0 /\
    ~ DV 3 (view 128 s) (lastw m0 (hist s)).
Proof. exact l3_victim_kind_race_refuted. Qed.
Print Assumptions C06_l3_victim_kind_race_refuted.

(* ---- the two-level machine of MVP-7.0 / 7.1: DATA VALUE as well ---- *)
Theorem C06_data_value_reachable : forall N m0 s h, hreach N false NoFlush m0 s h ->
  Inv N s /\ J N s /\ DV N s (lastw m0 h).
Proof. exact dv_reachable_coded. Qed.
Print Assumptions C06_data_value_reachable.

Theorem C06_data_value_reachable_repaired : forall N fm m0 s h, hreach N true fm m0 s h ->
  Inv N s /\ DV N s (lastw m0 h).
Proof. exact dv_reachable_guarded. Qed.
Print Assumptions C06_data_value_reachable_repaired.

Theorem C06_valid_copy_is_last_write : forall N s lw i l,
  Inv N s -> DV N s lw -> (i < N)%nat -> ms s i l <> I -> l1 s i l = Some (lw l).
Proof. exact dv_valid_copy. Qed.
Print Assumptions C06_valid_copy_is_last_write.

(* ---- the boolean judge of the L3 / data-value clauses on a snapshot is the Prop ---- *)
Theorem C06_l3_b_correct : forall s, l3_b s = true <-> L3SInv s.
Proof. exact l3_b_correct. Qed.
Print Assumptions C06_l3_b_correct.

Theorem C06_violated3_nil : forall s, violated3 s = [] <-> l3_b s = true.
Proof. exact violated3_nil. Qed.
Print Assumptions C06_violated3_nil.

(* ---- non-vacuity: the repaired three-level machine (L1 protocol as coded)
   reaches states with an L3 hit, a write-back into L3, a dirty victim written
   back by the refill, and a Shared copy whose next level is main memory ---- *)
Theorem C06_l3_reach_nontrivial :
  exists s, trace3 2 false NoFlush true 128 1 (init3 (fun l => l)) example3_trace s /\
            ms (core s) 0%nat 0 = I /\ ms (core s) 1%nat 0 = S /\ l1 (core s) 1%nat 0 = Some 5 /\
            ms (core s) 0%nat 128 = S /\ l3q s = [128] /\ in_l3 128 s 0 = false /\ mem (core s) 0 = 5 /\
            l3w s 0 = false /\ lastw (fun l => l) (hist s) 0 = 5.
Proof. exact reach3_example. Qed.
Print Assumptions C06_l3_reach_nontrivial.
