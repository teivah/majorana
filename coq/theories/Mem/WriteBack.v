(* A write-back cache of aligned lines over a flat byte memory, parametric in
   the line size.  This is the protocol the memory management units of MVP-3,
   4 and 5 are meant to follow (and, line by line, the L1/L3 levels of the later
   variants): aligned fills of absent lines, stores into a resident line or
   straight to memory, eviction with write-back of the VICTIM, final flush.

   Main theorem (view_is_flat): for EVERY sequence of protocol operations, of
   any length, with any eviction pattern, the memory a program sees through the
   cache equals the flat memory that executed the same stores; after a flush,
   main memory itself equals it (flush_complete).  The two ways the pinned tree
   broke the protocol (unaligned fills, write-back of the incoming line) are
   refuted below with concrete operation sequences. *)
From Coq Require Import ZArith List Bool Lia.
From Maj Require Import Comp.ListFacts.
Import ListNotations.
Open Scope Z_scope.

Section WB.
  Variable LS : Z.                       (* line size in bytes *)
  Hypothesis LS_pos : 0 < LS.

  Definition memory := Z -> Z.
  Record line := mk_line { base : Z; data : list Z }.
  Record state := mk_state { lines : list line; mem : memory }.

  Definition covers (l : line) (a : Z) : bool := (base l <=? a) && (a <? base l + LS).

  Fixpoint find_line (ls : list line) (a : Z) : option line :=
    match ls with
    | [] => None
    | l :: t => if covers l a then Some l else find_line t a
    end.

  (* what a load of byte a returns *)
  Definition view (s : state) (a : Z) : Z :=
    match find_line (lines s) a with
    | Some l => nth (Z.to_nat (a - base l)) (data l) 0
    | None => mem s a
    end.

  Definition upd (m : memory) (a v : Z) : memory := fun x => if x =? a then v else m x.

  Definition fetch (m : memory) (b : Z) : list Z := map (fun i => m (b + Z.of_nat i)) (seq 0 (Z.to_nat LS)).

  Fixpoint set_nth (l : list Z) (n : nat) (v : Z) : list Z :=
    match l, n with
    | [], _ => []
    | _ :: t, O => v :: t
    | h :: t, S k => h :: set_nth t k v
    end.

  Fixpoint store_in (ls : list line) (a v : Z) : list line :=
    match ls with
    | [] => []
    | l :: t => if covers l a then mk_line (base l) (set_nth (data l) (Z.to_nat (a - base l)) v) :: t
                else l :: store_in t a v
    end.

  (* write the bytes of a line back to memory *)
  Fixpoint write_back_from (m : memory) (b : Z) (d : list Z) : memory :=
    match d with
    | [] => m
    | v :: t => write_back_from (upd m b v) (b + 1) t
    end.
  Definition write_back (m : memory) (l : line) : memory := write_back_from m (base l) (data l).

  Fixpoint remove_base (ls : list line) (b : Z) : list line :=
    match ls with
    | [] => []
    | l :: t => if base l =? b then t else l :: remove_base t b
    end.

  Definition has_base (ls : list line) (b : Z) : bool := existsb (fun l => base l =? b) ls.

  Inductive op :=
  | Fill (b : Z)            (* fetch the aligned line at b from memory; it must be absent *)
  | Store (a v : Z)         (* store one byte: into the resident line, else into memory *)
  | Evict (b : Z)           (* write the line at b back and drop it *)
  | Touch (a : Z)           (* recency update: no effect on contents *)
  | Flush.                  (* write every line back (lines stay resident) *)

  (* None = the operation is outside the protocol *)
  Definition step (s : state) (o : op) : option state :=
    match o with
    | Fill b =>
        if (b mod LS =? 0) && negb (has_base (lines s) b)
        then Some (mk_state (mk_line b (fetch (mem s) b) :: lines s) (mem s))
        else None
    | Store a v =>
        match find_line (lines s) a with
        | Some _ => Some (mk_state (store_in (lines s) a v) (mem s))
        | None => Some (mk_state (lines s) (upd (mem s) a v))
        end
    | Evict b =>
        match find (fun l => base l =? b) (lines s) with
        | Some l => Some (mk_state (remove_base (lines s) b) (write_back (mem s) l))
        | None => None
        end
    | Touch _ => Some s
    | Flush => Some (mk_state (lines s) (fold_left write_back (lines s) (mem s)))
    end.

  Fixpoint run (s : state) (ops : list op) : option state :=
    match ops with
    | [] => Some s
    | o :: t => match step s o with Some s' => run s' t | None => None end
    end.

  (* the flat memory that executes the same stores *)
  Fixpoint flat (m : memory) (ops : list op) : memory :=
    match ops with
    | [] => m
    | Store a v :: t => flat (upd m a v) t
    | _ :: t => flat m t
    end.

  (* invariant: aligned, distinct bases, full lines *)
  Definition Inv (s : state) : Prop :=
    NoDup (map base (lines s)) /\
    Forall (fun l => base l mod LS = 0 /\ Z.of_nat (length (data l)) = LS) (lines s).

  (* what Inv asks of each line *)
  Definition line_ok (l : line) : Prop :=
    base l mod LS = 0 /\ Z.of_nat (length (data l)) = LS.

  Lemma covers_spec l a : covers l a = true <-> base l <= a < base l + LS.
  Proof. unfold covers. rewrite andb_true_iff, Z.leb_le, Z.ltb_lt. tauto. Qed.

  Lemma aligned_cover_unique b1 b2 a :
    b1 mod LS = 0 -> b2 mod LS = 0 -> b1 <= a < b1 + LS -> b2 <= a < b2 + LS -> b1 = b2.
  Proof.
    intros H1 H2 Ha1 Ha2.
    apply Z.mod_divide in H1; [|lia]. apply Z.mod_divide in H2; [|lia].
    destruct H1 as [k1 ->]. destruct H2 as [k2 ->].
    assert (k1 = k2) by nia. subst. reflexivity.
  Qed.

  Lemma find_line_some ls a l : find_line ls a = Some l -> In l ls /\ covers l a = true.
  Proof.
    induction ls as [|h t IH]; simpl; [discriminate|].
    destruct (covers h a) eqn:E; intros H.
    - injection H as <-. auto.
    - destruct (IH H). auto.
  Qed.

  Lemma find_line_none ls a : find_line ls a = None -> forall l, In l ls -> covers l a = false.
  Proof.
    induction ls as [|h t IH]; simpl; intros H l Hl; [contradiction|].
    destruct (covers h a) eqn:E; [discriminate|]. destruct Hl as [<-|Hl]; auto.
  Qed.

  Lemma nth_set_nth l n m v d : (n < length l)%nat ->
    nth m (set_nth l n v) d = if Nat.eqb m n then v else nth m l d.
  Proof.
    revert n m. induction l as [|h t IH]; intros n m Hn; simpl in Hn; [lia|].
    destruct n, m; simpl; try reflexivity. apply IH. lia.
  Qed.

  Lemma length_set_nth l n v : length (set_nth l n v) = length l.
  Proof. revert n. induction l; intros [|n]; simpl; auto. Qed.

  Lemma nth_fetch m b k : (k < Z.to_nat LS)%nat -> nth k (fetch m b) 0 = m (b + Z.of_nat k).
  Proof. intros Hk. unfold fetch. now rewrite nth_map_seq. Qed.

  Lemma length_fetch m b : Z.of_nat (length (fetch m b)) = LS.
  Proof. unfold fetch. rewrite map_length, seq_length. lia. Qed.

  Lemma write_back_from_spec d : forall m b x,
    write_back_from m b d x =
    if (b <=? x) && (x <? b + Z.of_nat (length d)) then nth (Z.to_nat (x - b)) d 0 else m x.
  Proof.
    induction d as [|v t IH]; intros m b x; simpl write_back_from.
    - simpl length. replace (x <? b + Z.of_nat 0) with (x <? b) by (f_equal; lia).
      destruct (Z.leb_spec b x); destruct (Z.ltb_spec x b); simpl; try reflexivity; lia.
    - rewrite IH. cbn [length]. rewrite Nat2Z.inj_succ.
      destruct (Z.leb_spec (b + 1) x); destruct (Z.ltb_spec x (b + 1 + Z.of_nat (length t)));
      destruct (Z.leb_spec b x); destruct (Z.ltb_spec x (b + Z.succ (Z.of_nat (length t)))); simpl; try lia.
      + replace (Z.to_nat (x - b)) with (S (Z.to_nat (x - (b + 1)))) by lia. reflexivity.
      + unfold upd. destruct (Z.eqb_spec x b); [lia | reflexivity].
      + unfold upd. destruct (Z.eqb_spec x b); [|lia]. subst. replace (b - b) with 0 by lia. reflexivity.
      + unfold upd. destruct (Z.eqb_spec x b); [lia | reflexivity].
  Qed.

  Lemma write_back_spec m l x : Z.of_nat (length (data l)) = LS ->
    write_back m l x = if covers l x then nth (Z.to_nat (x - base l)) (data l) 0 else m x.
  Proof. intros H. unfold write_back, covers. rewrite write_back_from_spec, H. reflexivity. Qed.

  (* in an Inv state the line covering an address is determined by its base *)
  Lemma inv_cover_unique s l1 l2 a : Inv s -> In l1 (lines s) -> In l2 (lines s) ->
    covers l1 a = true -> covers l2 a = true -> base l1 = base l2.
  Proof.
    intros [_ Hf] H1 H2 C1 C2. rewrite Forall_forall in Hf.
    apply covers_spec in C1. apply covers_spec in C2.
    eapply aligned_cover_unique; try eassumption; [apply (Hf l1 H1) | apply (Hf l2 H2)].
  Qed.

  Lemma NoDup_base_eq ls l1 l2 : NoDup (map base ls) -> In l1 ls -> In l2 ls -> base l1 = base l2 -> l1 = l2.
  Proof.
    induction ls as [|h t IH]; simpl; intros Hnd H1 H2 E; [contradiction|].
    inversion Hnd as [|? ? Hnotin Hnd']; subst.
    destruct H1 as [<-|H1], H2 as [<-|H2]; auto.
    - exfalso. apply Hnotin. rewrite E. apply in_map. exact H2.
    - exfalso. apply Hnotin. rewrite <- E. apply in_map. exact H1.
  Qed.

  (* view through find_line is independent of the position of the line in the list *)
  Lemma view_of_member s l a : Inv s -> In l (lines s) -> covers l a = true ->
    view s a = nth (Z.to_nat (a - base l)) (data l) 0.
  Proof.
    intros HI Hin Hc. unfold view.
    destruct (find_line (lines s) a) as [l'|] eqn:E.
    - destruct (find_line_some _ _ _ E) as [Hin' Hc'].
      assert (l' = l).
      { destruct HI as [Hnd Hf]. eapply NoDup_base_eq; try eassumption.
        eapply inv_cover_unique; try eassumption. split; assumption. }
      subst. reflexivity.
    - rewrite (find_line_none _ _ E l Hin) in Hc. discriminate.
  Qed.

  Lemma view_of_absent s a : (forall l, In l (lines s) -> covers l a = false) -> view s a = mem s a.
  Proof.
    intros H. unfold view. destruct (find_line (lines s) a) as [l|] eqn:E; [|reflexivity].
    destruct (find_line_some _ _ _ E) as [Hin Hc]. rewrite (H l Hin) in Hc. discriminate.
  Qed.

  Lemma store_in_bases ls a v : map base (store_in ls a v) = map base ls.
  Proof.
    induction ls as [|h t IH]; simpl; [reflexivity|].
    destruct (covers h a); simpl; [reflexivity | rewrite IH; reflexivity].
  Qed.

  Lemma store_in_forall ls a v :
    Forall line_ok ls -> Forall line_ok (store_in ls a v).
  Proof.
    induction 1 as [|h t [H1 H2] Ht IH]; simpl; [constructor|].
    destruct (covers h a); constructor; auto; split; auto. cbn [data]. now rewrite length_set_nth.
  Qed.

  Lemma in_store_in ls a v l' : In l' (store_in ls a v) ->
    exists l, In l ls /\ base l' = base l /\
      (data l' = data l \/ (covers l a = true /\ data l' = set_nth (data l) (Z.to_nat (a - base l)) v)).
  Proof.
    induction ls as [|h t IH]; simpl; [contradiction|].
    destruct (covers h a) eqn:E; simpl; intros [E1|Hin].
    - subst l'. exists h. simpl. auto.
    - exists l'. auto.
    - subst l'. exists h. auto.
    - destruct (IH Hin) as (l & Hl & Hb & Hd). exists l. auto.
  Qed.

  Lemma store_in_first ls a v l : find_line ls a = Some l ->
    In (mk_line (base l) (set_nth (data l) (Z.to_nat (a - base l)) v)) (store_in ls a v).
  Proof.
    induction ls as [|h t IH]; simpl; [discriminate|].
    destruct (covers h a) eqn:E; intros H.
    - injection H as <-. left. reflexivity.
    - right. auto.
  Qed.

  Lemma store_in_other ls a v l : In l ls -> covers l a = false -> In l (store_in ls a v).
  Proof.
    induction ls as [|h t IH]; simpl; [contradiction|].
    intros [<-|Hin] Hc.
    - rewrite Hc. left. reflexivity.
    - destruct (covers h a); [right; exact Hin | right; auto].
  Qed.

  Lemma has_base_false ls b : has_base ls b = false -> ~ In b (map base ls).
  Proof.
    unfold has_base. induction ls as [|h t IH]; simpl; [tauto|].
    destruct (Z.eqb_spec (base h) b); simpl; [discriminate|]. intros H [E|Hin]; [contradiction | exact (IH H Hin)].
  Qed.

  Lemma remove_base_sub ls b l : In l (remove_base ls b) -> In l ls.
  Proof.
    induction ls as [|h t IH]; simpl; [tauto|].
    destruct (base h =? b); simpl; [tauto|]. intros [<-|H]; auto.
  Qed.

  Lemma remove_base_nodup ls b : NoDup (map base ls) -> NoDup (map base (remove_base ls b)).
  Proof.
    induction ls as [|h t IH]; simpl; intros H; [constructor|].
    inversion H as [|? ? Hn Hd]; subst. destruct (base h =? b); simpl; [exact Hd|].
    constructor; [|auto]. intros Hin. apply Hn. apply in_map_iff in Hin as (l & El & Hl).
    apply in_map_iff. exists l. split; [exact El | eapply remove_base_sub; exact Hl].
  Qed.

  Lemma remove_base_not_in ls b l : NoDup (map base ls) -> In l (remove_base ls b) -> base l <> b.
  Proof.
    induction ls as [|h t IH]; simpl; intros Hnd Hin; [contradiction|].
    inversion Hnd as [|? ? Hn Hd]; subst.
    destruct (Z.eqb_spec (base h) b).
    - intros E. apply Hn. rewrite e, <- E. apply in_map. exact Hin.
    - destruct Hin as [<-|Hin]; [assumption | auto].
  Qed.

  Lemma remove_base_keeps ls b l : In l ls -> base l <> b -> In l (remove_base ls b).
  Proof.
    induction ls as [|h t IH]; simpl; [tauto|].
    intros [<-|Hin] Hb.
    - destruct (Z.eqb_spec (base h) b); [contradiction | left; reflexivity].
    - destruct (base h =? b); [exact Hin | right; auto].
  Qed.

  Lemma step_inv s o s' : Inv s -> step s o = Some s' -> Inv s'.
  Proof.
    intros [Hnd Hf] H. destruct o as [b|a v|b|a|]; cbn [step] in H.
    - destruct ((b mod LS =? 0) && negb (has_base (lines s) b)) eqn:E; [|discriminate].
      injection H as <-. apply andb_true_iff in E as [E1 E2]. apply Z.eqb_eq in E1.
      apply negb_true_iff in E2. split; cbn [lines map].
      + constructor; [apply has_base_false; exact E2 | exact Hnd].
      + constructor; [|exact Hf]. cbn [base data]. split; [exact E1 | apply length_fetch].
    - destruct (find_line (lines s) a); injection H as <-; split; cbn [lines]; auto.
      + rewrite store_in_bases. exact Hnd.
      + apply store_in_forall. exact Hf.
    - destruct (find (fun l => base l =? b) (lines s)) as [lv|]; [|discriminate]. injection H as <-.
      split; cbn [lines]; [apply remove_base_nodup; exact Hnd|].
      rewrite Forall_forall in *. intros l0 Hl0. apply Hf. eapply remove_base_sub; exact Hl0.
    - injection H as <-. split; assumption.
    - injection H as <-. split; assumption.
  Qed.

  (* every protocol step changes the view exactly as flat memory changes *)
  Lemma fold_write_back_spec ls : forall m x,
    Forall line_ok ls ->
    NoDup (map base ls) ->
    fold_left write_back ls m x =
    match find_line ls x with Some l => nth (Z.to_nat (x - base l)) (data l) 0 | None => m x end.
  Proof.
    induction ls as [|h t IH]; intros m x Hf Hnd; cbn [fold_left find_line]; [reflexivity|].
    inversion Hf as [|? ? [Hal Hlen] Hf']; subst. inversion Hnd as [|? ? Hnot Hnd']; subst.
    rewrite IH by assumption.
    destruct (covers h x) eqn:Ec.
    - destruct (find_line t x) as [l|] eqn:E.
      + exfalso. destruct (find_line_some _ _ _ E) as [Hin Hc]. apply Hnot.
        rewrite Forall_forall in Hf'. destruct (Hf' l Hin) as [Hal' _].
        apply covers_spec in Ec. apply covers_spec in Hc.
        rewrite (aligned_cover_unique _ _ _ Hal Hal' Ec Hc). apply in_map. exact Hin.
      + rewrite write_back_spec by exact Hlen. rewrite Ec. reflexivity.
    - destruct (find_line t x); [reflexivity|]. rewrite write_back_spec by exact Hlen. rewrite Ec. reflexivity.
  Qed.

  Lemma step_view s o s' : Inv s -> step s o = Some s' ->
    forall x, view s' x = match o with Store a v => upd (view s) a v x | _ => view s x end.
  Proof.
    intros HI H x. pose proof (step_inv _ _ _ HI H) as HI'. pose proof HI as HIs. destruct HI as [Hnd Hf].
    destruct o as [b|a v|b|a|]; cbn [step] in H.
    - (* fill: the new line holds what memory holds *)
      destruct ((b mod LS =? 0) && negb (has_base (lines s) b)) eqn:E; [|discriminate].
      injection H as <-. apply andb_true_iff in E as [E1 E2]. apply Z.eqb_eq in E1.
      apply negb_true_iff in E2.
      unfold view at 1. cbn [lines find_line mem].
      destruct (covers (mk_line b (fetch (mem s) b)) x) eqn:Ec.
      + cbn [base data]. apply covers_spec in Ec. cbn [base] in Ec.
        rewrite nth_fetch by lia. replace (b + Z.of_nat (Z.to_nat (x - b))) with x by lia.
        symmetry. apply view_of_absent. intros l Hl.
        destruct (covers l x) eqn:Ecl; [|reflexivity]. exfalso.
        rewrite Forall_forall in Hf. destruct (Hf l Hl) as [Hal _]. apply covers_spec in Ecl.
        apply (has_base_false _ _ E2). rewrite (aligned_cover_unique _ _ _ E1 Hal Ec Ecl).
        apply in_map. exact Hl.
      + reflexivity.
    - (* store *)
      unfold upd. destruct (find_line (lines s) a) as [l|] eqn:E; injection H as <-.
      + destruct (find_line_some _ _ _ E) as [Hin Hc].
        rewrite Forall_forall in Hf. destruct (Hf l Hin) as [Hal Hlen].
        destruct (covers l x) eqn:Ecx.
        * (* x in the stored line *)
          rewrite (view_of_member _ (mk_line (base l) (set_nth (data l) (Z.to_nat (a - base l)) v)) x HI').
          2:{ cbn [lines]. apply store_in_first. exact E. }
          2:{ exact Ecx. }
          cbn [base data]. apply covers_spec in Hc. apply covers_spec in Ecx.
          rewrite nth_set_nth by lia.
          destruct (Z.eqb_spec x a).
          -- subst. rewrite Nat.eqb_refl. reflexivity.
          -- replace (Nat.eqb (Z.to_nat (x - base l)) (Z.to_nat (a - base l))) with false
               by (symmetry; apply Nat.eqb_neq; lia).
             symmetry. apply (view_of_member s l x HIs Hin). apply covers_spec; exact Ecx.
        * (* x elsewhere *)
          assert (x <> a).
          { intros ->. rewrite Hc in Ecx. discriminate. }
          replace (x =? a) with false by (symmetry; apply Z.eqb_neq; assumption).
          destruct (find_line (lines s) x) as [lx|] eqn:Ex.
          -- destruct (find_line_some _ _ _ Ex) as [Hinx Hcx].
             assert (Hca : covers lx a = false).
             { destruct (covers lx a) eqn:Eca; [|reflexivity]. exfalso.
               assert (lx = l).
               { eapply NoDup_base_eq; try eassumption.
                 eapply (inv_cover_unique s lx l a); try eassumption. }
               subst. rewrite Hcx in Ecx. discriminate. }
             pose proof (store_in_other _ a v lx Hinx Hca) as Hin2.
             rewrite (view_of_member _ lx x HI' Hin2 Hcx).
             symmetry. apply (view_of_member s lx x HIs Hinx Hcx).
          -- rewrite (view_of_absent s x) by (apply find_line_none; exact Ex).
             apply (view_of_absent (mk_state (store_in (lines s) a v) (mem s)) x). cbn [lines]. intros l' Hl'.
             destruct (in_store_in _ _ _ _ Hl') as (l0 & Hl0 & Hb & _).
             pose proof (find_line_none _ _ Ex l0 Hl0) as Hn. unfold covers in *. rewrite Hb. exact Hn.
      + unfold view. cbn [lines mem]. destruct (find_line (lines s) x) as [lx|] eqn:Ex.
        * destruct (find_line_some _ _ _ Ex) as [Hinx Hcx].
          assert (x <> a).
          { intros ->. rewrite (find_line_none _ _ E lx Hinx) in Hcx. discriminate. }
          replace (x =? a) with false by (symmetry; apply Z.eqb_neq; assumption). reflexivity.
        * reflexivity.
    - (* evict: the victim's bytes are in memory afterwards *)
      destruct (find (fun l => base l =? b) (lines s)) as [l|] eqn:Ef; [|discriminate]. injection H as <-.
      apply find_some in Ef as [Hin Hb]. apply Z.eqb_eq in Hb.
      rewrite Forall_forall in Hf. destruct (Hf l Hin) as [Hal Hlen].
      destruct (covers l x) eqn:Ecx.
      + rewrite (view_of_member s l x HIs Hin Ecx).
        rewrite view_of_absent.
        * cbn [mem]. rewrite write_back_spec by exact Hlen. rewrite Ecx. reflexivity.
        * cbn [lines]. intros l' Hl'. destruct (covers l' x) eqn:Ec'; [|reflexivity]. exfalso.
          pose proof (remove_base_sub _ _ _ Hl') as Hl'in.
          pose proof (remove_base_not_in _ _ _ Hnd Hl') as Hne.
          apply Hne. rewrite <- Hb. symmetry.
          eapply (inv_cover_unique s l l' x); try eassumption.
      + destruct (find_line (lines s) x) as [lx|] eqn:Ex.
        * destruct (find_line_some _ _ _ Ex) as [Hinx Hcx].
          assert (Hne : base lx <> b).
          { intros E. assert (lx = l) by (eapply NoDup_base_eq; try eassumption; congruence).
            subst. rewrite Hcx in Ecx. discriminate. }
          pose proof (remove_base_keeps _ _ _ Hinx Hne) as Hk.
          rewrite (view_of_member _ lx x HI' Hk Hcx).
          symmetry. apply (view_of_member s lx x HIs Hinx Hcx).
        * rewrite (view_of_absent s x) by (apply find_line_none; exact Ex).
          rewrite view_of_absent.
          -- cbn [mem]. rewrite write_back_spec by exact Hlen. rewrite Ecx. reflexivity.
          -- cbn [lines]. intros l' Hl'. apply (find_line_none _ _ Ex). eapply remove_base_sub; exact Hl'.
    - injection H as <-. reflexivity.
    - (* flush *)
      injection H as <-. unfold view. cbn [lines mem].
      destruct (find_line (lines s) x) eqn:E; [reflexivity|].
      rewrite fold_write_back_spec by assumption. rewrite E. reflexivity.
  Qed.

  Lemma flat_ext ops : forall m1 m2, (forall y, m1 y = m2 y) -> forall y, flat m1 ops y = flat m2 ops y.
  Proof.
    induction ops as [|o t IH]; intros m1 m2 Hm y; cbn [flat]; [apply Hm|].
    destruct o; try (apply IH; exact Hm). apply IH. intros z. unfold upd. now rewrite Hm.
  Qed.

  Lemma flat_other ops a :
    (forall o, In o ops -> match o with Store a' _ => a' <> a | _ => True end) ->
    forall m, flat m ops a = m a.
  Proof.
    induction ops as [|o t IH]; intros H m; cbn [flat]; [reflexivity|].
    pose proof (H o (or_introl eq_refl)) as Ho.
    assert (Ht : forall m', flat m' t a = m' a) by (apply IH; intros; apply H; now right).
    destruct o; rewrite Ht; try reflexivity.
    unfold upd. destruct (Z.eqb_spec a a0); [congruence|reflexivity].
  Qed.

  Lemma run_app ops1 : forall s ops2,
    run s (ops1 ++ ops2) = match run s ops1 with Some s1 => run s1 ops2 | None => None end.
  Proof.
    induction ops1 as [|o t IH]; intros s ops2; cbn [run app]; [reflexivity|].
    destruct (step s o); [apply IH|reflexivity].
  Qed.

  Theorem view_is_flat ops : forall s s', Inv s -> run s ops = Some s' ->
    Inv s' /\ forall x, view s' x = flat (view s) ops x.
  Proof.
    induction ops as [|o t IH]; intros s s' HI H; cbn [run] in H.
    - injection H as <-. split; [exact HI | reflexivity].
    - destruct (step s o) as [s1|] eqn:E; [|discriminate].
      pose proof (step_inv _ _ _ HI E) as HI1. pose proof (step_view _ _ _ HI E) as Hv.
      destruct (IH s1 s' HI1 H) as [HI' Hflat]. split; [exact HI'|]. intros x. rewrite Hflat.
      destruct o; cbn [flat]; apply flat_ext; intros y; rewrite Hv; reflexivity.
  Qed.

  (* after a flush main memory holds every store: nothing is left behind in the cache *)
  Theorem flush_complete ops : forall s s', Inv s -> run s (ops ++ [Flush]) = Some s' ->
    forall x, mem s' x = flat (view s) ops x.
  Proof.
    intros s s' HI H. rewrite run_app in H.
    destruct (run s ops) as [s1|] eqn:H1; [|discriminate].
    destruct (view_is_flat ops s s1 HI H1) as [[Hnd Hf] Hflat]. intros x. rewrite <- Hflat.
    cbn [run step] in H. injection H as <-. cbn [mem].
    rewrite fold_write_back_spec by assumption. unfold view. reflexivity.
  Qed.
End WB.

(* why the protocol's side conditions matter: the two ways the pinned tree's
   memory management units left it (DESIGN.md D19, D20), as kernel-checked
   witnesses with 4-byte lines *)

Definition fill_raw (s : state) (b : Z) : state :=
  mk_state (mk_line b (fetch 4 (mem s) b) :: lines s) (mem s).

(* D19: a line keyed by the first missing address instead of the aligned base
   overlaps its neighbour; after a recency reorder a load returns a stale byte *)
Example unaligned_fill_stale_read_refuted :
  let s0 := mk_state [] (fun _ => 0) in
  let s1 := fill_raw s0 1 in                 (* miss at address 1: line [1,5) *)
  let s2 := fill_raw s1 0 in                 (* miss at address 0: line [0,4) overlaps it *)
  exists s3, step 4 s2 (Store 2 9) = Some s3 /\      (* the store hits the first line found: [0,4) *)
    let s4 := mk_state (rev (lines s3)) (mem s3) in  (* a hit on address 4 moves [1,5) to the front *)
    view 4 s4 2 = 0 /\ flat (view 4 s0) [Store 2 9] 2 = 9.
Proof. eexists. split; [reflexivity|]. vm_compute. split; reflexivity. Qed.

(* D20: writing back the incoming line instead of the victim loses the victim's dirty byte *)
Example evict_incoming_loses_store_refuted :
  let s0 := mk_state [] (fun _ => 0) in
  exists s1 s2, step 4 s0 (Fill 0) = Some s1 /\ step 4 s1 (Store 1 7) = Some s2 /\
    (* capacity one line: line 4 comes in, the (incoming) line is "written back", line 0 is dropped *)
    let incoming := mk_line 4 (fetch 4 (mem s2) 4) in
    let s3 := mk_state [incoming] (write_back (mem s2) incoming) in
    view 4 s3 1 = 0 /\ flat (view 4 s0) [Store 1 7] 1 = 7.
Proof. do 2 eexists. split; [reflexivity|]. split; [reflexivity|]. vm_compute. split; reflexivity. Qed.
