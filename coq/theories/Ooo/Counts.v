(* Ooo/Counts.v - structural invariant of the machine (Base) and the scoreboard theorem:
   the STORED counters of risc/app.go (PendingWriteRegisters / PendingReadRegisters, incremented
   by AddPendingRegisters at dispatch, decremented by DeletePendingRegisters at release) equal
   the counters DERIVED from the in-flight set, in every reachable state of every policy. *)
From Coq Require Import ZArith List Lia Arith Bool.
From Maj Require Import Comp.ListFacts.
From Maj Require Import Ooo.Machine.
Import ListNotations.

Lemma setf_same {A} (f : nat -> A) j x : setf f j x j = x.
Proof. unfold setf. now rewrite Nat.eqb_refl. Qed.
Lemma setf_other {A} (f : nat -> A) j x i : i <> j -> setf f j x i = f i.
Proof. unfold setf. intros. destruct (Nat.eqb_spec i j); congruence. Qed.

Lemma upd_same f d v : upd f d v d = v.
Proof. unfold upd. now rewrite Nat.eqb_refl. Qed.
Lemma upd_other f d v r : r <> d -> upd f d v r = f r.
Proof. unfold upd. intros H. destruct (Nat.eqb_spec r d); congruence. Qed.

Fixpoint sumto (g : nat -> nat) (n : nat) : nat :=
  match n with O => 0 | S n' => sumto g n' + g n' end.

Lemma sumto_ext g h n : (forall j, j < n -> g j = h j) -> sumto g n = sumto h n.
Proof.
  induction n as [|n IH]; simpl; intros H; auto.
  rewrite IH, H; auto.
Qed.

Lemma sumto_upd g h n j : j < n -> (forall i, i < n -> i <> j -> g i = h i) ->
  sumto g n + h j = sumto h n + g j.
Proof.
  induction n as [|n IH]; simpl; intros Hj H; [lia|].
  destruct (Nat.eq_dec j n) as [->|Hne].
  - rewrite (sumto_ext g h n); [lia|]. intros i Hi. apply H; lia.
  - rewrite (H n) by lia. assert (sumto g n + h j = sumto h n + g j); [|lia].
    apply IH; [lia|]. intros; apply H; lia.
Qed.

Lemma sumto_zero g n : sumto g n = 0 <-> forall j, j < n -> g j = 0.
Proof.
  induction n as [|n IH]; simpl.
  - split; intros; auto; lia.
  - split.
    + intros H j Hj. destruct (Nat.eq_dec j n) as [->|]; [lia|]. apply IH; lia.
    + intros H. assert (sumto g n = 0) by (apply IH; intros; apply H; lia).
      rewrite H0, H; lia.
Qed.

Lemma sumto_ge g n j : j < n -> g j <= sumto g n.
Proof.
  induction n as [|n IH]; simpl; intros Hj; [lia|].
  destruct (Nat.eq_dec j n) as [->|]; [lia|]. specialize (IH ltac:(lia)). lia.
Qed.

Lemma wcount_zero i r : wcount i r = 0 <-> wr i <> Some r.
Proof.
  unfold wcount. destruct (wr i) as [d|].
  - destruct (Nat.eqb_spec d r); split; intros; try congruence; try lia.
  - split; intros; auto; discriminate.
Qed.

Lemma rcount_zero i r : rcount i r = 0 <-> ~ In r (srcs i).
Proof. unfold rcount. symmetry. apply count_occ_not_In. Qed.

Section Counts.
Variable text : list instr.
Variable rf0 : rfile.
Variable P : policy.

Definition pending (s : state) (j : nat) : Prop := pendingb s j = true.
Definition writes (s : state) (j : nat) (r : reg) : Prop := wr (ins text s j) = Some r.
Definition reads (s : state) (j : nat) (r : reg) : Prop := In r (srcs (ins text s j)).
Definition unres (s : state) (u : nat) : Prop := unresb text s u = true.

Lemma unres_iff s u : unres s u <-> pending s u /\ is_branch (ins text s u) = true.
Proof. unfold unres, unresb, pending. apply andb_true_iff. Qed.

Lemma disp_pending s i fw : stat s i = Disp fw -> pending s i.
Proof. intros H. unfold pending, pendingb. now rewrite H. Qed.
Lemma exec_pending s i v : stat s i = Exec v -> pending s i.
Proof. intros H. unfold pending, pendingb. now rewrite H. Qed.

(* the in-flight set when the status of instance j changes *)
Lemma pending_kept s s' j x i : stat s' = setf (stat s) j x -> pending s j -> inflight x = true ->
  (pending s' i <-> pending s i).
Proof.
  intros Hs Hj Hx. unfold pending, pendingb in *. rewrite Hs.
  destruct (Nat.eq_dec i j) as [->|]; [rewrite setf_same | rewrite setf_other by auto]; tauto.
Qed.

Lemma pending_done s s' j i : stat s' = setf (stat s) j Done ->
  (pending s' i <-> pending s i /\ i <> j).
Proof.
  intros Hs. unfold pending, pendingb. rewrite Hs.
  destruct (Nat.eq_dec i j) as [->|]; [rewrite setf_same | rewrite setf_other by auto].
  - split; [discriminate|tauto].
  - tauto.
Qed.

Record Base (s : state) : Prop := {
  b_notyet : forall j, nxt s <= j -> stat s j = NotYet;
  b_started : forall j, j < nxt s -> stat s j <> NotYet;
  (* decode stops at ret: a ret in the stream is the youngest instance *)
  b_ret : forall j, j < nxt s -> is_ret (ins text s j) = true -> S j = nxt s
}.

Lemma stat_lt s j : Base s -> stat s j <> NotYet -> j < nxt s.
Proof.
  intros B H. destruct (Nat.lt_ge_cases j (nxt s)); auto.
  exfalso. apply H. now apply (b_notyet _ B).
Qed.

Lemma pending_lt s j : Base s -> pending s j -> j < nxt s.
Proof.
  intros B H. apply stat_lt; auto. intros E. unfold pending, pendingb in H. now rewrite E in H.
Qed.

Lemma no_ret_spec s : no_ret text s = true ->
  forall j, j < nxt s -> is_ret (ins text s j) = false.
Proof. intros H j Hj. apply negb_true_iff. exact (forallb_seq_spec _ _ H j Hj). Qed.

Lemma older_done_spec s e : older_done s e = true -> forall j, j < e -> pendingb s j = false.
Proof. intros H j Hj. apply negb_true_iff. exact (forallb_seq_spec _ _ H j Hj). Qed.

Lemma all_done_spec s : all_done s = true -> forall j, j < nxt s -> pendingb s j = false.
Proof. exact (older_done_spec s (nxt s)). Qed.

Lemma ins_dispatch_other s fw j : j <> nxt s -> ins text (do_dispatch text s fw) j = ins text s j.
Proof. intros. unfold ins. simpl. now rewrite setf_other. Qed.
Lemma ins_dispatch_same s fw : ins text (do_dispatch text s fw) (nxt s) = cur_ins text s.
Proof. unfold ins, cur_ins. simpl. now rewrite setf_same. Qed.

Lemma pending_dispatch s fw j : Base s ->
  (pending (do_dispatch text s fw) j <-> j = nxt s \/ (j < nxt s /\ pending s j)).
Proof.
  intros B. unfold pending at 1, pendingb. simpl. destruct (Nat.eq_dec j (nxt s)) as [->|].
  - rewrite setf_same. simpl. tauto.
  - rewrite setf_other by auto. split; [|tauto]. intros H. right. split; auto.
    now apply pending_lt.
Qed.

Lemma unres_dispatch s fw u : Base s ->
  unres (do_dispatch text s fw) u -> u = nxt s \/ (u < nxt s /\ unres s u).
Proof.
  intros B Hu. apply unres_iff in Hu. destruct Hu as [Hp Hb].
  apply pending_dispatch in Hp; auto. destruct Hp as [|[Hlt Hp]]; auto. right. split; auto.
  apply unres_iff. split; auto. rewrite <- (ins_dispatch_other s fw u); auto. lia.
Qed.

(* a retiring instance that is not a branch leaves the unresolved branches as they are *)
Lemma unres_done s s' j u : ipc s' = ipc s -> stat s' = setf (stat s) j Done ->
  is_branch (ins text s j) = false -> (unres s' u <-> unres s u).
Proof.
  intros Hi Hs Hj. rewrite !unres_iff, (pending_done s s' j u Hs). unfold ins. rewrite Hi.
  split; [tauto|]. intros [H1 H2]. repeat split; auto. intros ->. unfold ins in Hj. congruence.
Qed.

Lemma base_init : Base (init rf0).
Proof. constructor; simpl; intros; auto; lia. Qed.

Lemma base_dispatch s fw : Base s -> no_ret text s = true -> Base (do_dispatch text s fw).
Proof.
  intros [B1 B2 B3] Hn. constructor; simpl.
  - intros j Hj. rewrite setf_other by lia. apply B1. lia.
  - intros j Hj. destruct (Nat.eq_dec j (nxt s)) as [->|].
    + rewrite setf_same. discriminate.
    + rewrite setf_other by auto. apply B2. lia.
  - intros j Hj Hr. destruct (Nat.eq_dec j (nxt s)) as [->|]; auto.
    rewrite ins_dispatch_other in Hr by auto.
    rewrite (no_ret_spec s Hn j) in Hr by lia. discriminate.
Qed.

(* Base only looks at the stream and at which instances have started *)
Lemma base_frame s s' :
  Base s -> nxt s' = nxt s -> ipc s' = ipc s ->
  (forall j, stat s' j = NotYet <-> stat s j = NotYet) -> Base s'.
Proof.
  intros [B1 B2 B3] Hn Hi Hs. constructor; rewrite Hn.
  - intros j Hj. apply Hs. now apply B1.
  - intros j Hj E. apply (B2 j Hj). now apply Hs.
  - intros j. unfold ins. rewrite Hi. apply B3.
Qed.

(* any change of the status of a started instance to another started status *)
Lemma base_setstat s s' j x :
  Base s -> nxt s' = nxt s -> ipc s' = ipc s -> stat s' = setf (stat s) j x ->
  stat s j <> NotYet -> x <> NotYet -> Base s'.
Proof.
  intros B Hn Hi Hs Hj Hx. apply (base_frame s); auto. intros i. rewrite Hs.
  destruct (Nat.eq_dec i j) as [->|Hne]; [rewrite setf_same | rewrite setf_other by auto]; tauto.
Qed.

Lemma base_mark_done s b : Base s -> pending s b -> Base (mark_done text s b).
Proof.
  intros B Hp. apply (base_setstat s _ b Done); auto; [|discriminate].
  intros E. unfold pending, pendingb in Hp. now rewrite E in Hp.
Qed.

(* a taken branch is resolved like a not-taken one, after the squash *)
Lemma resolve_t_squash s b t :
  do_resolve_t text P s b t = do_resolve_nt text P (squash text s b t) b.
Proof. reflexivity. Qed.

Lemma base_resolve s b : Base s -> pending s b -> Base (do_resolve_nt text P s b).
Proof.
  intros B Hp. apply (base_frame (mark_done text s b)); try easy. now apply base_mark_done.
Qed.

Lemma base_squash s b t : Base s -> b < nxt s -> Base (squash text s b t).
Proof.
  intros [B1 B2 B3] Hb. constructor; simpl.
  - intros j Hj. destruct (Nat.leb_spec j b); auto. lia.
  - intros j Hj. destruct (Nat.leb_spec j b); [|lia]. apply B2. lia.
  - intros j Hj Hr. unfold ins in Hr; simpl in Hr.
    assert (S j = nxt s) by (apply B3; auto; lia). lia.
Qed.

Lemma pending_squash s b t j : pending (squash text s b t) j <-> j <= b /\ pending s j.
Proof.
  unfold pending, pendingb. simpl. destruct (Nat.leb_spec j b); [tauto|].
  split; [discriminate|lia].
Qed.

Lemma unres_squash s b t u : unres (squash text s b t) u <-> u <= b /\ unres s u.
Proof.
  rewrite !unres_iff, pending_squash.
  change (ins text (squash text s b t) u) with (ins text s u). tauto.
Qed.

Lemma base_step s s' : Base s -> step text P s s' -> Base s'.
Proof.
  intros B H.
  destruct H as [s fw _ _ Hn _ | s j fw _ Hs _ _ _ | s j v _ Hs _ _ | s b v t _ Hs _ _ _
                | s b v t _ Hs _ _ _ | s e fw _ _ _ _ | s _ _ _ | s _ _].
  - now apply base_dispatch.
  - apply (base_setstat s _ j (Exec (exec_val text s j fw))); auto; congruence.
  - apply (base_setstat s _ j Done); auto; congruence.
  - apply exec_pending in Hs. rewrite resolve_t_squash. apply base_resolve.
    + apply base_squash; auto. now apply pending_lt.
    + apply pending_squash. auto.
  - apply base_resolve; eauto using exec_pending.
  - now apply (base_frame s).
  - now apply (base_frame s).
  - now apply (base_frame s).
Qed.

Lemma reach_base s : reach text rf0 P s -> Base s.
Proof. induction 1; [apply base_init | eapply base_step; eauto]. Qed.

(* derived counters: number of in-flight instances that declare r as destination / source
   (sources with multiplicity, as AddPendingRegisters counts them) *)
Definition cnt (c : instr -> reg -> nat) (s : state) (n : nat) (r : reg) : nat :=
  sumto (fun j => if pendingb s j then c (ins text s j) r else 0) n.
Definition cnt_w (s : state) (r : reg) : nat := cnt wcount s (nxt s) r.
Definition cnt_r (s : state) (r : reg) : nat := cnt rcount s (nxt s) r.

Definition counts_ok (s : state) : Prop :=
  forall r, pw s r = cnt_w s r /\ pr s r = cnt_r s r.

(* The two counters are handled alike: `tracks c f s` says that the stored counter f equals the
   counter derived with weight c; each transformer is followed once, for any weight. *)
Definition tracks (c : instr -> reg -> nat) (f : reg -> nat) (s : state) : Prop :=
  forall r, f r = cnt c s (nxt s) r.

Lemma counts_ok_iff s : counts_ok s <-> tracks wcount (pw s) s /\ tracks rcount (pr s) s.
Proof.
  split.
  - intros H. split; intros r; apply H.
  - intros [Hw Hr] r. split; [apply Hw | apply Hr].
Qed.

Lemma cnt_ext c s s' n r :
  (forall j, j < n -> pendingb s' j = pendingb s j /\ ipc s' j = ipc s j) ->
  cnt c s' n r = cnt c s n r.
Proof.
  intros H. apply sumto_ext. intros j Hj. destruct (H j Hj) as [H1 H2].
  unfold ins. now rewrite H1, H2.
Qed.

(* nothing enters or leaves the in-flight set *)
Lemma tracks_frame c f s s' : tracks c f s -> nxt s' = nxt s ->
  (forall j, j < nxt s -> pendingb s' j = pendingb s j /\ ipc s' j = ipc s j) -> tracks c f s'.
Proof. intros T Hn H r. rewrite Hn, (T r). symmetry. now apply cnt_ext. Qed.

Lemma tracks_dispatch c f s fw :
  tracks c f s -> tracks c (fun r => f r + c (cur_ins text s) r) (do_dispatch text s fw).
Proof.
  intros T r. rewrite (T r). unfold cnt. simpl. f_equal.
  - apply sumto_ext. intros j Hj. unfold pendingb, ins. simpl.
    now rewrite !setf_other by lia.
  - unfold pendingb. simpl. rewrite setf_same. simpl. now rewrite ins_dispatch_same.
Qed.

(* instance j leaves the in-flight set *)
Lemma tracks_release c f s s' j :
  tracks c f s -> nxt s' = nxt s -> ipc s' = ipc s -> stat s' = setf (stat s) j Done ->
  j < nxt s -> pendingb s j = true -> tracks c (fun r => f r - c (ins text s j) r) s'.
Proof.
  intros T Hn Hi Hs Hj Hp r. cbv beta. rewrite Hn, (T r). unfold cnt.
  assert (H : forall i, i < nxt s -> i <> j ->
            (if pendingb s i then c (ins text s i) r else 0)
            = if pendingb s' i then c (ins text s' i) r else 0).
  { intros i _ Hne. unfold pendingb, ins. rewrite Hs, Hi. now rewrite setf_other. }
  apply (sumto_upd _ _ (nxt s) j Hj) in H. cbv beta in H.
  assert (Hd : pendingb s' j = false) by (unfold pendingb; now rewrite Hs, setf_same).
  rewrite Hp, Hd in H. lia.
Qed.

Lemma rel_range_spec c sub s lo n r :
  (forall f i r', sub f i r' = f r' - c i r') ->
  forall f, f r = cnt c s (lo + n) r -> rel_range text s lo n f sub r = cnt c s lo r.
Proof.
  intros Hsub. induction n as [|n IH]; intros f Hf; simpl.
  - now rewrite Nat.add_0_r in Hf.
  - apply IH. replace (lo + S n) with (S (lo + n)) in Hf by lia.
    unfold cnt in Hf. simpl in Hf. fold (cnt c s (lo + n) r) in Hf.
    destruct (pendingb s (lo + n)).
    + rewrite Hsub. lia.
    + lia.
Qed.

Lemma tracks_squash c sub f s b t :
  (forall f i r, sub f i r = f r - c i r) -> tracks c f s -> b < nxt s ->
  tracks c (rel_range text s (S b) (nxt s - S b) f sub) (squash text s b t).
Proof.
  intros Hsub T Hb r.
  rewrite (rel_range_spec c sub s (S b) (nxt s - S b) r Hsub).
  - symmetry. apply cnt_ext. intros j Hj. unfold pendingb. simpl.
    destruct (Nat.leb_spec j b); [auto|lia].
  - rewrite (T r). f_equal. lia.
Qed.

Lemma counts_init : counts_ok (init rf0).
Proof. intros r. split; reflexivity. Qed.

Lemma counts_frame s s' : counts_ok s ->
  nxt s' = nxt s -> ipc s' = ipc s -> pw s' = pw s -> pr s' = pr s ->
  (forall j, pendingb s' j = pendingb s j) -> counts_ok s'.
Proof.
  intros C Hn Hi Hw Hr Hp. apply counts_ok_iff in C. apply counts_ok_iff. rewrite Hw, Hr.
  split; (eapply tracks_frame; [apply C | exact Hn | intros; now rewrite Hp, Hi]).
Qed.

Lemma counts_mark_done s b : Base s -> counts_ok s -> pending s b -> counts_ok (mark_done text s b).
Proof.
  intros B C Hp. apply counts_ok_iff in C. apply counts_ok_iff.
  split; apply (tracks_release _ _ s _ b); auto using pending_lt; apply C.
Qed.

Lemma counts_squash s b t : counts_ok s -> b < nxt s -> counts_ok (squash text s b t).
Proof.
  intros C Hb. apply counts_ok_iff in C. apply counts_ok_iff.
  split; apply tracks_squash; auto; apply C.
Qed.

Lemma counts_resolve s b :
  Base s -> counts_ok s -> pending s b -> counts_ok (do_resolve_nt text P s b).
Proof.
  intros B C Hp. apply (counts_frame (mark_done text s b)); try easy.
  now apply counts_mark_done.
Qed.

Lemma counts_step s s' : Base s -> counts_ok s -> step text P s s' -> counts_ok s'.
Proof.
  intros B C H.
  destruct H as [s fw _ _ _ _ | s j fw _ Hs _ _ _ | s j v _ Hs _ _ | s b v t _ Hs _ _ _
                | s b v t _ Hs _ _ _ | s e fw _ _ _ _ | s _ _ _ | s _ _].
  - apply counts_ok_iff in C. apply counts_ok_iff. split; apply tracks_dispatch; apply C.
  - apply (counts_frame s); auto. intros i. unfold pendingb. simpl.
    destruct (Nat.eq_dec i j) as [->|]; [now rewrite setf_same, Hs | now rewrite setf_other].
  - apply (counts_frame (mark_done text s j)); auto.
    apply counts_mark_done; eauto using exec_pending.
  - apply exec_pending in Hs. pose proof (pending_lt s b B Hs) as Hb.
    rewrite resolve_t_squash. apply counts_resolve.
    + now apply base_squash.
    + now apply counts_squash.
    + apply pending_squash. auto.
  - apply counts_resolve; eauto using exec_pending.
  - now apply (counts_frame s).
  - now apply (counts_frame s).
  - now apply (counts_frame s).
Qed.

(* C04 scoreboard_counts: stored counters = derived counters, every policy, every schedule *)
Theorem scoreboard_counts s : reach text rf0 P s -> counts_ok s.
Proof.
  induction 1 as [|s s' R IH H]; [apply counts_init|].
  eapply counts_step; eauto. now apply reach_base.
Qed.

Lemma cnt_zero c s n r :
  cnt c s n r = 0 <-> forall j, j < n -> pendingb s j = true -> c (ins text s j) r = 0.
Proof.
  unfold cnt. rewrite sumto_zero. split; intros H j Hj.
  - intros Hp. specialize (H j Hj). now rewrite Hp in H.
  - destruct (pendingb s j) eqn:E; auto.
Qed.

Lemma tracks_zero c f s r : Base s -> tracks c f s ->
  (f r = 0 <-> forall j, pending s j -> c (ins text s j) r = 0).
Proof.
  intros B T. rewrite (T r), cnt_zero. split; intros H j.
  - intros Hp. apply H; auto. now apply pending_lt.
  - intros _. apply H.
Qed.

(* what `> 0` in the guards of risc/app.go (IsDataHazard3) therefore means *)
Lemma pw_zero s r : Base s -> counts_ok s ->
  (pw s r = 0 <-> forall j, pending s j -> ~ writes s j r).
Proof.
  intros B C. apply counts_ok_iff in C. rewrite (tracks_zero wcount _ s r B (proj1 C)).
  split; intros H j Hp; apply wcount_zero, H, Hp.
Qed.

Lemma pr_zero s r : Base s -> counts_ok s ->
  (pr s r = 0 <-> forall j, pending s j -> ~ reads s j r).
Proof.
  intros B C. apply counts_ok_iff in C. rewrite (tracks_zero rcount _ s r B (proj2 C)).
  split; intros H j Hp; apply rcount_zero, H, Hp.
Qed.

(* ctx.Flush() after a drained flush: when nothing is in flight the stored counters are 0 *)
Lemma counts_drained s : Base s -> counts_ok s ->
  (forall j, j < nxt s -> pendingb s j = false) -> forall r, pw s r = 0 /\ pr s r = 0.
Proof.
  intros B C H r.
  assert (Hn : forall j, ~ pending s j).
  { intros j Hp. unfold pending in Hp. rewrite H in Hp; [discriminate|]. now apply pending_lt. }
  split; [apply pw_zero | apply pr_zero]; auto; intros j Hp; destruct (Hn j Hp).
Qed.

End Counts.
