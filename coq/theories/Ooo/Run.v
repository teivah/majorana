(* Ooo/Run.v - executable schedules are sound: a label list accepted by Machine.run is a path
   of the transition relation; `witness` is the shape used by every refutation and example. *)
From Coq Require Import ZArith List Lia Arith Bool.
From Maj Require Import Ooo.Machine.
Import ListNotations.

Section Run.
Variable text : list instr.
Variable rf0 : rfile.
Variable P : policy.

Notation exec_label := (exec_label text P).
Notation run := (run text P).
Notation step := (step text P).
Notation reach := (reach text rf0 P).
Notation init := (init rf0).
Notation ins := (ins text).

Lemma guard_some b s s' : guard b s = Some s' -> b = true /\ s' = s.
Proof. unfold guard. destruct b; intros H; inversion H; auto. Qed.

Lemma exec_label_sound l s s' : exec_label l s = Some s' -> step s s'.
Proof.
  destruct l; simpl; intros H.
  - apply guard_some in H. destruct H as [H ->].
    rewrite !andb_true_iff, negb_true_iff, Nat.ltb_lt in H.
    destruct H as (((H1 & H2) & H3) & H4). now apply s_dispatch.
  - destruct (stat s j) eqn:E; try discriminate.
    apply guard_some in H. destruct H as [H ->].
    rewrite !andb_true_iff, !negb_true_iff in H.
    destruct H as (((H1 & H2) & H3) & H4). now apply s_execute.
  - destruct (stat s j) eqn:E; try discriminate.
    apply guard_some in H. destruct H as [H ->].
    rewrite !andb_true_iff, !negb_true_iff in H.
    destruct H as ((H1 & H2) & H3). now apply s_writeback.
  - destruct (stat s b) eqn:E; try discriminate.
    destruct (kind (ins s b)) as [|t|] eqn:K; try discriminate.
    apply guard_some in H. destruct H as [H ->].
    rewrite andb_true_iff, negb_true_iff in H. destruct H as [H1 H2].
    destruct (Z.eqb_spec v 0).
    + now apply (s_resolve_not_taken text P s b v t).
    + now apply (s_resolve_taken text P s b v t).
  - destruct (stat s e) eqn:E; try discriminate.
    apply guard_some in H. destruct H as [H ->].
    rewrite !andb_true_iff, negb_true_iff in H.
    destruct H as ((H1 & H2) & H3). now apply (s_exit_ret text P s e fw).
  - apply guard_some in H. destruct H as [H ->].
    rewrite !andb_true_iff, negb_true_iff, Nat.leb_le in H.
    destruct H as ((H1 & H2) & H3). now apply s_exit_end.
  - apply guard_some in H. destruct H as [H ->].
    rewrite andb_true_iff, negb_true_iff in H. destruct H as [H1 H2]. now apply s_finish.
Qed.

Lemma run_reach ls : forall s s', reach s -> run ls s = Some s' -> reach s'.
Proof.
  induction ls as [|l ls IH]; simpl; intros s s' R H.
  - inversion H; subst; auto.
  - destruct (exec_label l s) as [s1|] eqn:E; try discriminate.
    eapply IH; [|exact H]. eapply r_step; [exact R|]. eapply exec_label_sound; exact E.
Qed.

(* the state a schedule leads to is reachable (the initial state stands in for a rejected one) *)
Lemma run_or_init_reach ls :
  reach (match run ls init with Some s => s | None => init end).
Proof.
  destruct (run ls init) as [s|] eqn:E; [|constructor].
  eapply run_reach; [constructor|exact E].
Qed.

(* the shape used by every refutation: a schedule, and a boolean test on the state reached *)
Lemma witness (ls : list label) (chk : state -> bool) :
  match run ls init with Some s => chk s | None => false end = true ->
  exists s, reach s /\ chk s = true.
Proof.
  destruct (run ls init) as [s|] eqn:E; try discriminate.
  intros H. exists s. split; auto. eapply run_reach; [apply r_init|exact E].
Qed.

End Run.
