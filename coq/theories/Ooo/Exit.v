(* Ooo/Exit.v - C09: returning completes everything older than the return.

   exit_complete : if Exit is only taken when no older instance is dispatched, executing or
                   awaiting write-back (cpu.go: the drain loop after `if ret`, cu.go: ret waits
                   for the execute bus and for the pending conditional branch), then the final
                   state is the sequential one - for every hazard-safe dispatch guard and either
                   buffer discipline covered by sound_policy.
   exit_at_seq_halt : the machine only ever halts where the sequential run halts.
   The negative half (an exit that does not drain loses results) is
   Refute.exit_without_drain_refuted. *)
From Coq Require Import ZArith List Lia Arith Bool.
From Maj Require Import Ooo.Machine Ooo.Counts Ooo.InvDefs Ooo.InvSteps Ooo.InvResolve Ooo.Path.
Import ListNotations.

Section Exit.
Variable text : list instr.
Variable rf0 : rfile.
Variable P : policy.

Theorem exit_complete :
  (forall s fw, Base text s -> counts_ok text s -> Inv text rf0 P s ->
                dispatch_ok P s fw = true -> safe_dispatch text s fw) ->
  (bufm P = Full \/
   (bufm P = NoBuf /\
    forall s fw, Base text s -> dispatch_ok P s fw = true -> forall u, ~ unres text s u)) ->
  commit_all P = false ->
  exit_drains P ->
  forall s, reach text rf0 P s -> fin s = true ->
  exists e, halts_at text rf0 e /\ forall r, rf s r = seq_rf text rf0 e r.
Proof.
  intros H1 H2 H3 H4. apply ooo_correct. constructor; auto.
Qed.

Theorem exit_at_seq_halt : sound_policy text rf0 P ->
  forall s, reach text rf0 P s -> fin s = false -> halted s = true ->
  exists e, halts_at text rf0 e /\
            (forall r, D text rf0 s (nxt s) r = seq_rf text rf0 e r) /\
            (forall j r, pending s j -> ~ writes text s j r).
Proof.
  intros SP s R Hf Hh. exact (pathinv_halt text rf0 s (path_inv text rf0 P SP s R Hf) Hh).
Qed.

End Exit.
