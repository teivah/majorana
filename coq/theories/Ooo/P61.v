(* Ooo/P61.v - forwarding (proc/mvp6-1/cu.go shouldUseForwarding, eu.go Receiver/Forwarder).

   forward_unique   : in every reachable state the forwarding source accepted by the guard is
                      unique (at most one pending writer of the hazard register)
   forward_value    : the value received through the channel is the sequential value of the
                      forward register just before the consumer
   p61_correct      : 6.1 as it is, branch-free programs, every schedule
   p61ns_correct    : 6.1 + no speculation, every program, every schedule *)
From Coq Require Import ZArith List Lia Arith Bool.
From Maj Require Import Ooo.Machine Ooo.Counts Ooo.InvDefs Ooo.InvSteps Ooo.InvResolve Ooo.Path
  Ooo.Policies Ooo.Guards Ooo.P60.
Import ListNotations.

Section P61.
Variable text : list instr.
Variable rf0 : rfile.

Notation halts_at := (halts_at text rf0).
Notation seq_rf := (seq_rf text rf0).

Lemma sound_P61ns : sound_policy text rf0 (P61ns text).
Proof. rewrite P61ns_stalling. exact (sound_stalling text rf0 _ (guard61_safe text rf0)). Qed.

Theorem p61ns_correct s : reach text rf0 (P61ns text) s -> fin s = true ->
  exists e, halts_at e /\ forall r, rf s r = seq_rf e r.
Proof. apply ooo_correct. apply sound_P61ns. Qed.

(* 6.1 as it is, branch-free programs: every schedule gives the sequential register file *)
Theorem p61_correct s : straight text -> reach text rf0 (P61 text) s -> fin s = true ->
  exists e, halts_at e /\ forall r, rf s r = seq_rf e r.
Proof. rewrite P61_as_is. exact (as_is_correct text rf0 _ (guard61_safe text rf0) s). Qed.

Theorem p61_correct_straight s : plain_text text ->
  reach text rf0 (P61 text) s -> fin s = true -> forall r, rf s r = run_straight text rf0 r.
Proof.
  rewrite P61_as_is. exact (as_is_correct_straight text rf0 _ (guard61_safe text rf0) s).
Qed.

(* forwarding, for every sound policy *)
Section Fwd.
Variable P : policy.
Hypothesis SP : sound_policy text rf0 P.

Theorem forward_unique s p r p' r' : reach text rf0 P s -> fin s = false ->
  guard61 text s (Some (p, r)) = true -> guard61 text s (Some (p', r')) = true ->
  p = p' /\ r = r'.
Proof.
  intros R Hf. apply (forward_unique_inv text rf0 P).
  - eapply reach_base; eauto.
  - eapply scoreboard_counts; eauto.
  - now apply (reach_inv text rf0 P SP).
Qed.

(* the forwarded value is the value the sequential execution of the stream has in r just
   before the consumer *)
Theorem forward_value s i p r v : reach text rf0 P s -> fin s = false ->
  stat s i = Disp (Some (p, r)) -> res s p = Some v -> v = D text rf0 s i r.
Proof.
  intros R Hf Hs Hr.
  assert (B : Base text s) by (eapply reach_base; eauto).
  assert (I : Inv text rf0 P s) by (now apply (reach_inv text rf0 P SP)).
  rewrite (fwd_value text rf0 P s i p r I Hs).
  destruct (i_fwd _ _ _ _ I i p r Hs) as (Hpi & _).
  apply (i_res _ _ _ _ I p v); auto.
  assert (i < nxt s) by (apply (stat_lt text s i B); congruence). lia.
Qed.
End Fwd.

(* for 6.1 as it is on branch-free programs *)
Theorem forward_unique_P61 s p r p' r' : straight text ->
  reach text rf0 (P61 text) s -> fin s = false ->
  guard61 text s (Some (p, r)) = true -> guard61 text s (Some (p', r')) = true ->
  p = p' /\ r = r'.
Proof.
  intros Hs R. apply (forward_unique (P61ns text) sound_P61ns).
  rewrite P61ns_stalling. now apply reach_straight.
Qed.

End P61.
