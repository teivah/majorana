(* Ooo/Hazards.v - C04: the three register-dependence statements as corollaries of the master
   invariant, for every sound policy, every program and every schedule. *)
From Coq Require Import ZArith List Lia Arith Bool.
From Maj Require Import Ooo.Machine Ooo.Counts Ooo.InvDefs Ooo.InvSteps Ooo.InvResolve Ooo.Path.
Import ListNotations.

Section Hazards.
Variable text : list instr.
Variable rf0 : rfile.
Variable P : policy.
Hypothesis SP : sound_policy text rf0 P.

Notation writes := (writes text).
Notation reads := (reads text).
Notation ins := (ins text).
Notation Inv := (Inv text rf0 P).
Notation D := (D text rf0).
Notation dval := (dval text rf0).
Notation path := (path text rf0).
Notation seq_rf := (seq_rf text rf0).
Notation halts_at := (halts_at text rf0).
Notation at_pc := (at_pc text).

Lemma D_no_writer s j r : (forall m, m < j -> ~ writes s m r) -> D s j r = rf0 r.
Proof.
  intros Hno. change (rf0 r) with (D s 0 r). apply D_stable; [lia|].
  intros x Hx. apply Hno. lia.
Qed.

Lemma reach_rd_value s j fw r : reach text rf0 P s -> fin s = false ->
  stat s j = Disp fw -> fw_ready s fw = true -> reads s j r -> rd s fw r = D s j r.
Proof.
  intros R Hf. apply (rd_value text rf0 P).
  - eapply reach_base; eauto.
  - now apply (reach_inv text rf0 P SP).
Qed.

(* every instance that executes reads, for each declared source, the value of its last older
   writer in the stream (from the file, the buffer or the forwarding channel) ... *)
Theorem raw_value s j fw r m : reach text rf0 P s -> fin s = false ->
  stat s j = Disp fw -> fw_ready s fw = true -> reads s j r ->
  m < j -> writes s m r -> (forall m', m < m' < j -> ~ writes s m' r) ->
  rd s fw r = dval s m.
Proof.
  intros R Hf Hs Hfw Hr Hm Hw Hno.
  rewrite (reach_rd_value s j fw r) by auto. now apply D_last_writer.
Qed.

(* ... or the initial value if there is none ... *)
Theorem raw_value_init s j fw r : reach text rf0 P s -> fin s = false ->
  stat s j = Disp fw -> fw_ready s fw = true -> reads s j r ->
  (forall m, m < j -> ~ writes s m r) -> rd s fw r = rf0 r.
Proof.
  intros R Hf Hs Hfw Hr Hno.
  rewrite (reach_rd_value s j fw r) by auto. now apply D_no_writer.
Qed.

(* ... and for an instance on the true path this is the sequential value *)
Theorem raw_value_seq s j fw r : reach text rf0 P s -> fin s = false ->
  stat s j = Disp fw -> fw_ready s fw = true -> reads s j r ->
  (forall k, k < j -> ipc s k = path k) -> rd s fw r = seq_rf j r.
Proof.
  intros R Hf Hs Hfw Hr Hp.
  rewrite (reach_rd_value s j fw r) by auto. now rewrite (D_path text rf0 s j Hp).
Qed.

Definition swrites (k : nat) (r : reg) : Prop := wr (at_pc (path k)) = Some r.
Definition sval (k : nat) : Z := value (at_pc (path k)) (seq_rf k).

Lemma seq_rf_stable a b r : a <= b -> (forall m, a <= m < b -> ~ swrites m r) ->
  seq_rf b r = seq_rf a r.
Proof.
  induction 1 as [|b Hle IH]; intros H; auto.
  rewrite seq_rf_S, apply_other.
  - apply IH. intros m Hm. apply H. lia.
  - apply (H b). lia.
Qed.

(* after Finish every register holds the value of its last writer in program order *)
Theorem waw_last_writer s : reach text rf0 P s -> fin s = true ->
  exists e, halts_at e /\ forall r,
    (forall m, m < e -> swrites m r -> (forall m', m < m' < e -> ~ swrites m' r) ->
               rf s r = sval m) /\
    ((forall m, m < e -> ~ swrites m r) -> rf s r = rf0 r).
Proof.
  intros R Hf. destruct (ooo_correct text rf0 P SP s R Hf) as (e & He & H).
  exists e. split; auto. intros r. rewrite H. split.
  - intros m Hm Hw Hno. unfold sval. rewrite <- (apply_same _ _ r Hw), <- seq_rf_S.
    apply seq_rf_stable; [lia|]. intros x Hx. apply Hno. lia.
  - intros Hno. change (rf0 r) with (seq_rf 0 r). apply seq_rf_stable; [lia|].
    intros x Hx. apply Hno. lia.
Qed.

Lemma ipc_step s s' k : Base text s -> step text P s s' -> k < nxt s -> ipc s' k = ipc s k.
Proof.
  intros B H Hk. inversion H; subst; simpl; auto. rewrite setf_other; auto. lia.
Qed.

(* no transition - in particular no write-back of a younger writer - changes what a dispatched,
   not yet executed instance will read for a declared source *)
Theorem war_old_value s s' j fw r : reach text rf0 P s -> step text P s s' -> fin s' = false ->
  stat s j = Disp fw -> stat s' j = Disp fw -> reads s j r -> (forall p, fw <> Some (p, r)) ->
  view s' r = view s r.
Proof.
  intros R H Hf Hs Hs' Hr Hnf.
  assert (Hf0 : fin s = false) by (eapply fin_step; eauto).
  assert (B : Base text s) by (eapply reach_base; eauto).
  assert (B' : Base text s') by (eapply base_step; eauto).
  assert (I : Inv s) by (now apply (reach_inv text rf0 P SP)).
  assert (I' : Inv s').
  { apply (reach_inv text rf0 P SP); auto. eapply r_step; eauto. }
  assert (Hj : j < nxt s) by (apply (stat_lt text s j B); congruence).
  assert (Hj' : j < nxt s') by (apply (stat_lt text s' j B'); congruence).
  assert (Hipc : forall k, k <= j -> ipc s' k = ipc s k).
  { intros k Hk. apply ipc_step; auto. lia. }
  unfold view.
  rewrite (src_value text rf0 P s j fw r (nxt s) B I Hs Hr Hnf (safe_top text s) Hj).
  assert (Hr' : reads s' j r).
  { unfold Counts.reads, Machine.ins. rewrite Hipc; auto. }
  rewrite (src_value text rf0 P s' j fw r (nxt s') B' I' Hs' Hr' Hnf (safe_top text s') Hj').
  rewrite (D_ext text rf0 s s' j); auto. intros; apply Hipc; lia.
Qed.

End Hazards.
