(* Ooo/InvResolve.v - the master invariant is preserved by branch resolution (squash, rollback,
   commit) and hence by every transition of a sound policy: reach_inv. *)
From Coq Require Import ZArith List Lia Arith Bool.
From Maj Require Import Ooo.Machine Ooo.Counts Ooo.InvDefs Ooo.InvSteps.
Import ListNotations.

Lemma branch_no_write i : is_branch i = true -> wr i = None.
Proof. unfold is_branch, wr. destruct (kind i); auto; discriminate. Qed.
Lemma ret_no_write i : is_ret i = true -> wr i = None.
Proof. unfold is_ret, wr. destruct (kind i); auto; discriminate. Qed.

Lemma find_seq_first p n : forall a u, find p (seq a n) = Some u ->
  forall x, a <= x < a + n -> p x = true -> u <= x.
Proof.
  induction n as [|n IH]; simpl; intros a u H x Hx Hp; [lia|].
  destruct (p a) eqn:Ea.
  - inversion H; subst. lia.
  - destruct (Nat.eq_dec x a) as [->|]; [congruence|].
    apply (IH (S a) u H x); auto. lia.
Qed.

Section InvResolve.
Variable text : list instr.
Variable rf0 : rfile.
Variable P : policy.

Notation writes := (writes text).
Notation reads := (reads text).
Notation unres := (unres text).
Notation ins := (ins text).
Notation Inv := (Inv text rf0 P).
Notation D := (D text rf0).
Notation dval := (dval text rf0).
Notation safe := (safe text).

Lemma inv_mark_done s b : Base text s -> Inv s ->
  pending s b -> is_branch (ins s b) = true -> Inv (mark_done text s b).
Proof.
  intros B I Hpb Hbr.
  assert (Hp : forall x, pending (mark_done text s b) x <-> pending s x /\ x <> b).
  { intros x. now apply (pending_done s _ b). }
  apply (inv_shrink text rf0 P s); simpl;
    auto using safe_top, (i_sorted _ _ _ _ I), (i_res _ _ _ _ I).
  - intros x Hx. now apply Hp.
  - intros x r _ Hx Hw. apply Hp. split; auto. intros ->.
    unfold Counts.writes in Hw. rewrite branch_no_write in Hw; auto. discriminate.
  - intros i fw. destruct (Nat.eq_dec i b) as [->|].
    + rewrite setf_same. discriminate.
    + now rewrite setf_other.
  - intros x _ Hx. destruct (Nat.eq_dec x b) as [->|].
    + apply setf_same.
    + now rewrite setf_other.
  - intros x v. destruct (Nat.eq_dec x b) as [->|].
    + rewrite setf_same. discriminate.
    + rewrite setf_other by auto. apply (i_exec _ _ _ _ I).
  - intros e He. split; auto. apply (i_sb _ _ _ _ I e He).
Qed.

Lemma inv_squash s b t : Base text s -> Inv s -> unres s b -> Inv (squash text s b t).
Proof.
  intros B I Hub.
  assert (Hpb : pending s b) by (apply unres_iff in Hub; tauto).
  assert (Hb : b < nxt s) by (apply (pending_lt text s b B Hpb)).
  apply (inv_shrink text rf0 P s); auto.
  - split; [exact Hb|]. right. exists b. auto.
  - intros x Hx. now apply pending_squash in Hx.
  - intros x r Hx Hpx _. apply pending_squash. simpl in Hx. split; auto. lia.
  - intros i fw. simpl. destruct (i <=? b); [auto|discriminate].
  - intros x Hx Hd. simpl in *. destruct (Nat.leb_spec x b); [auto|lia].
  - intros x v. simpl. destruct (x <=? b); [apply (i_exec _ _ _ _ I)|discriminate].
  - intros x v Hx. simpl in Hx. apply (i_res _ _ _ _ I). lia.
  - intros c r Hc _. now apply viewc_rollback.
  - intros e He. apply filter_In in He. destruct He as [He Hle]. apply Nat.leb_le in Hle.
    split; auto. simpl. lia.
  - apply bsorted_filter, (i_sorted _ _ _ _ I).
Qed.

Lemma inv_commit s lim : Inv s -> (forall c, safe s c -> lim <= c) -> Inv (do_commit s lim).
Proof.
  intros I Hlim.
  apply (inv_shrink text rf0 P s); simpl;
    auto using safe_top, (i_exec _ _ _ _ I), (i_res _ _ _ _ I).
  - intros c r _ Hc. apply viewc_commit; [apply (i_sorted _ _ _ _ I) | now apply Hlim].
  - intros e He. apply filter_In in He. destruct He as [He _].
    split; auto. apply (i_sb _ _ _ _ I e He).
  - apply bsorted_filter, (i_sorted _ _ _ _ I).
Qed.

Lemma inv_exit s : Inv s -> Inv (do_exit s).
Proof. intros []. constructor; assumption. Qed.

Lemma first_unres_le s c : Base text s -> safe s c -> first_unres text s <= c.
Proof.
  intros B [H1 H2]. unfold first_unres.
  destruct (find (unresb text s) (seq 0 (nxt s))) as [u|] eqn:E.
  - destruct H2 as [->|(u0 & Hu1 & Hu2)].
    + apply find_some in E. destruct E as [E _]. apply in_seq in E. lia.
    + assert (u <= u0); [|lia]. apply (find_seq_first _ _ _ _ E); auto. lia.
  - destruct H2 as [->|(u0 & Hu1 & Hu2)]; auto.
    exfalso. assert (Hf : unresb text s u0 = false).
    { apply (find_none _ _ E u0). apply in_seq. lia. }
    unfold Counts.unres in Hu2. congruence.
Qed.

Hypothesis SP : sound_policy text rf0 P.

Lemma mode_cases : bufm P = Full \/ bufm P = NoBuf.
Proof. destruct (sp_buf _ _ _ SP) as [H|[H _]]; auto. Qed.

(* a resolved branch leaves the in-flight set; what is older than every unresolved branch is
   committed *)
Lemma inv_resolve s b : Base text s -> Inv s -> unres s b -> Inv (do_resolve_nt text P s b).
Proof.
  intros B I Hu. apply unres_iff in Hu. destruct Hu as [Hp Hbr].
  unfold do_resolve_nt. rewrite (sp_commit _ _ _ SP). apply inv_commit.
  - now apply inv_mark_done.
  - intros c Hc. apply first_unres_le; auto. now apply base_mark_done.
Qed.

Lemma inv_step s s' : Base text s -> counts_ok text s -> Inv s ->
  step text P s s' -> fin s' = false -> Inv s'.
Proof.
  intros B C I H Hfin.
  destruct H as [s fw _ _ _ Hd | s j fw _ Hs _ Hf _ | s j v _ Hs Hb _ | s b v t _ Hs Hk _ _
                | s b v t _ Hs Hk _ _ | s e fw _ _ _ _ | s _ _ _ | s _ _].
  - apply inv_dispatch; auto.
    + apply (sp_dispatch _ _ _ SP); auto.
    + intros Hb u. destruct (sp_buf _ _ _ SP) as [Hf|[_ Hn]]; [congruence|]. eapply (Hn s fw); eauto.
  - apply inv_execute; auto.
  - apply inv_writeback; auto using mode_cases.
  - (* taken *)
    assert (Hu : unres s b).
    { apply unres_iff. split; [eapply exec_pending; eauto|]. unfold is_branch. now rewrite Hk. }
    assert (Hlt : b < nxt s) by (apply (stat_lt text s b B); congruence).
    rewrite resolve_t_squash.
    apply inv_resolve; [now apply base_squash | now apply inv_squash |].
    apply unres_squash. auto.
  - (* not taken *)
    apply inv_resolve; auto.
    apply unres_iff. split; [eapply exec_pending; eauto|]. unfold is_branch. now rewrite Hk.
  - now apply inv_exit.
  - now apply inv_exit.
  - simpl in Hfin. discriminate.
Qed.

Lemma fin_step s s' : step text P s s' -> fin s' = false -> fin s = false.
Proof. intros H. inversion H; subst; simpl; auto; discriminate. Qed.

Theorem reach_inv s : reach text rf0 P s -> fin s = false -> Inv s.
Proof.
  induction 1 as [|s s' R IH H]; intros Hf; [apply inv_init|].
  apply (inv_step s s'); auto.
  - eapply reach_base; eauto.
  - eapply scoreboard_counts; eauto.
  - apply IH. eapply fin_step; eauto.
Qed.

End InvResolve.
