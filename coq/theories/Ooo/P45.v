(* Ooo/P45.v - MVP-4 / MVP-5: one in-order execute unit with the source interlock of
   proc/mvp4/eu.go (an instruction waits while one of its sources has a pending write, i.e. an
   older instance has executed and not yet written back), results written back in order through
   the one-entry write bus.  There is no WAW / WAR guard: order does the work.  Wrong-path
   instances may execute behind an executed, unresolved branch but can never write back (the
   branch is older and resolves - squashing them - first).

   p45_correct: every program (control flow included), every schedule. *)
From Coq Require Import ZArith List Lia Arith Bool.
From Maj Require Import Comp.ListFacts.
From Maj Require Import Ooo.Machine Ooo.Counts Ooo.InvDefs Ooo.InvResolve Ooo.Path Ooo.Policies
  Ooo.Guards.
Import ListNotations.

Section P45.
Variable text : list instr.
Variable rf0 : rfile.

Notation P := (P45 text).
Notation writes := (writes text).
Notation ins := (ins text).
Notation D := (D text rf0).
Notation dval := (dval text rf0).

(* The statuses are Done^w Exec^(x-w) Disp^(nxt-x): the status of instance j as a function of
   the two marks (d j = the result of an executed instance) *)
Definition zstat (d : nat -> Z) (w x j : nat) : status :=
  if j <? w then Done else if j <? x then Exec (d j) else Disp None.

Lemma zstat_exec d w x j v : zstat d w x j = Exec v -> w <= j < x /\ v = d j.
Proof.
  unfold zstat. destruct (Nat.ltb_spec j w); [discriminate|].
  destruct (Nat.ltb_spec j x); [|discriminate]. intros [= <-]. split; [lia|reflexivity].
Qed.

Lemma zstat_disp d w x j fw : zstat d w x j = Disp fw -> x <= j /\ fw = None.
Proof.
  unfold zstat. destruct (Nat.ltb_spec j w); [discriminate|].
  destruct (Nat.ltb_spec j x); [discriminate|]. intros [= <-]. auto.
Qed.

Lemma zstat_pending d w x j : w <= j -> inflight (zstat d w x j) = true.
Proof.
  intros H. unfold zstat. destruct (Nat.ltb_spec j w); [lia|]. now destruct (j <? x).
Qed.

Lemma zstat_done d w x j : j < w -> zstat d w x j = Done.
Proof. intros H. unfold zstat. destruct (Nat.ltb_spec j w); [reflexivity|lia]. Qed.

Lemma zstat_executed d w x j : w <= j < x -> zstat d w x j = Exec (d j).
Proof.
  intros H. unfold zstat. destruct (Nat.ltb_spec j w), (Nat.ltb_spec j x); try lia. reflexivity.
Qed.

Lemma zstat_waiting d w x j : w <= x <= j -> zstat d w x j = Disp None.
Proof.
  intros H. unfold zstat. destruct (Nat.ltb_spec j w), (Nat.ltb_spec j x); try lia. reflexivity.
Qed.

(* the two moves: the oldest dispatched instance executes, the oldest executed one retires *)
Lemma zstat_execute d w x j : w <= x -> setf (zstat d w x) x (Exec (d x)) j = zstat d w (S x) j.
Proof.
  intros H. unfold setf, zstat. destruct (Nat.eqb_spec j x) as [->|].
  - destruct (Nat.ltb_spec x w), (Nat.ltb_spec x (S x)); try lia; reflexivity.
  - destruct (Nat.ltb_spec j w), (Nat.ltb_spec j x), (Nat.ltb_spec j (S x)); try lia; reflexivity.
Qed.

Lemma zstat_retire d w x j : setf (zstat d w x) w Done j = zstat d (S w) x j.
Proof.
  unfold setf, zstat. destruct (Nat.eqb_spec j w) as [->|].
  - destruct (Nat.ltb_spec w (S w)); [reflexivity|lia].
  - destruct (Nat.ltb_spec j w), (Nat.ltb_spec j (S w)); try lia; reflexivity.
Qed.

(* the buffer is unused, the statuses are zstat of two marks w <= x, and the file is the
   stream-sequential state after the w written-back instances *)
Definition Inv45 (s : state) : Prop :=
  sb s = [] /\
  exists w x, w <= x <= nxt s /\
    (forall j, j < nxt s -> stat s j = zstat (dval s) w x j) /\
    (forall r, rf s r = D s w r).

(* what the correctness theorem takes from Inv45 *)
Lemma inv45_exec s j v : Base text s -> Inv45 s -> stat s j = Exec v -> v = dval s j.
Proof.
  intros B [_ (w & x & _ & Hz & _)] Hs. apply (zstat_exec _ w x). rewrite <- Hz; auto.
  apply (stat_lt text); auto. congruence.
Qed.

Lemma inv45_drained s : Inv45 s -> (forall j r, pending s j -> ~ writes s j r) ->
  forall r, viewc (sb s) (rf s) (nxt s) r = D s (nxt s) r.
Proof.
  intros [Hsb (w & x & Hwx & Hz & Hrf)] Hnw r.
  rewrite Hsb, viewc_nil, Hrf. symmetry. apply D_stable; [lia|].
  intros m Hm. apply Hnw. unfold pending, pendingb. rewrite Hz by lia.
  apply zstat_pending. lia.
Qed.

Lemma inv45_init : Inv45 (init rf0).
Proof.
  split; [reflexivity|]. exists 0, 0. simpl. repeat split; auto; intros; lia.
Qed.

Lemma exec45_spec s j : exec45 text s j = true ->
  (forall x, x < j -> is_disp (stat s x) = false) /\
  (forall r x, In r (srcs (ins s j)) -> x < j ->
               is_exec (stat s x) = true -> ~ writes s x r).
Proof.
  unfold exec45. intros H. apply andb_prop in H. destruct H as [H1 H2]. split.
  - intros x Hx. apply negb_true_iff. exact (forallb_seq_spec _ _ H1 x Hx).
  - intros r x Hr Hx He Hw. rewrite forallb_forall in H2.
    pose proof (forallb_seq_spec _ _ (H2 r Hr) x Hx) as H. cbv beta in H.
    apply wr_is_spec in Hw. rewrite He, Hw in H. discriminate.
Qed.

Lemma commit_nil lim f : fst (commit lim [] f) = [] /\ forall r, snd (commit lim [] f) r = f r.
Proof. split; reflexivity. Qed.

Lemma inv45_step s s' : Base text s -> Inv45 s -> step text P s s' -> fin s' = false ->
  Inv45 s'.
Proof.
  intros B [Hsb (w & x & Hwx & Hz & Hrf)] H Hfin.
  assert (Hex : forall j v, stat s j = Exec v -> w <= j < x /\ v = dval s j).
  { intros j v E. apply (zstat_exec (dval s)). rewrite <- Hz; auto.
    apply (stat_lt text); auto. congruence. }
  (* write-back and resolution wait for every older instance: only the oldest executed
     instance can go *)
  assert (Hold : forall j v, stat s j = Exec v -> older_done s j = true -> j = w).
  { intros j v E Ho. destruct (Hex j v E) as [[Hj Hjx] _].
    destruct (Nat.eq_dec j w); auto. exfalso.
    pose proof (older_done_spec s j Ho w ltac:(lia)) as Hn. unfold pendingb in Hn.
    rewrite Hz, zstat_pending in Hn by lia. discriminate. }
  assert (Hbr : forall b t r, kind (ins s b) = Branch t -> apply (ins s b) (D s b) r = D s b r).
  { intros b t r Hk. apply apply_other. rewrite branch_no_write; [discriminate|].
    unfold is_branch. now rewrite Hk. }
  destruct H as [s fw _ _ _ Hd | s j fw _ Hs _ _ He | s j v _ Hs _ Hw | s b v t _ Hs Hk _ Hw
                | s b v t _ Hs Hk _ Hw | s e fw _ _ _ _ | s _ _ _ | s _ _].
  - (* dispatch *)
    simpl in Hd. destruct fw; [discriminate|].
    split; [exact Hsb|]. exists w, x. simpl. repeat split; try lia.
    + intros j Hj. destruct (Nat.eq_dec j (nxt s)) as [->|].
      * rewrite setf_same, zstat_waiting by lia. reflexivity.
      * rewrite setf_other, Hz by lia. unfold zstat.
        destruct (j <? w); auto. destruct (Nat.ltb_spec j x); auto.
        now rewrite dval_dispatch by lia.
    + intros r. rewrite D_dispatch by lia. apply Hrf.
  - (* execute: necessarily the oldest dispatched instance *)
    destruct (exec45_spec s j He) as [Ho Hi].
    assert (Hjn : j < nxt s) by (apply (stat_lt text s j B); congruence).
    rewrite Hz in Hs by auto. apply zstat_disp in Hs. destruct Hs as [Hxj ->].
    assert (j = x) as ->.
    { destruct (Nat.eq_dec j x); auto. exfalso.
      specialize (Ho x ltac:(lia)). rewrite Hz, zstat_waiting in Ho by lia. discriminate. }
    assert (Hv : exec_val text s x None = dval s x).
    { unfold exec_val, InvDefs.dval, value. f_equal. apply map_ext_in. intros r Hr.
      simpl. unfold view. rewrite Hsb, viewc_nil, Hrf. symmetry.
      apply D_stable; [lia|]. intros m Hm. apply (Hi r m Hr); [lia|].
      rewrite Hz, zstat_executed by lia. reflexivity. }
    rewrite Hv. split; [exact Hsb|]. exists w, (S x). simpl. repeat split; try lia; auto.
    intros j Hj. unfold setf. rewrite Hz by auto. apply zstat_execute. lia.
  - (* write-back: necessarily the oldest executed instance *)
    simpl in Hw. assert (j = w) as -> by (eapply Hold; eauto).
    destruct (Hex w v Hs) as [[_ Hwx'] ->].
    split.
    + simpl. unfold wb_res. destruct (wr (ins s w)); simpl; auto.
    + exists (S w), x. simpl. repeat split; try lia.
      * intros j Hj. unfold setf. rewrite Hz by auto. apply zstat_retire.
      * intros r. change (D (do_writeback text P s w (dval s w)) (S w) r) with (D s (S w) r).
        rewrite D_S. unfold apply, wb_res.
        destruct (wr (ins s w)) as [d|] eqn:Ew; simpl; [|apply Hrf].
        unfold upd. destruct (Nat.eqb_spec r d); [reflexivity|apply Hrf].
  - (* branch taken: b = w, everything younger is squashed *)
    simpl in Hw. assert (b = w) as -> by (eapply Hold; eauto).
    destruct (Hex w v Hs) as [[_ Hwx'] _].
    split; [simpl; now rewrite Hsb|].
    exists (S w), (S w). simpl. repeat split; try lia.
    + intros j Hj. rewrite zstat_done by auto. destruct (Nat.eq_dec j w) as [->|].
      * apply setf_same.
      * rewrite setf_other by auto. destruct (Nat.leb_spec j w); [|lia].
        rewrite Hz by lia. apply zstat_done. lia.
    + intros r. rewrite Hsb. change (rf s r = D s (S w) r).
      rewrite D_S, (Hbr w t r Hk). apply Hrf.
  - (* branch not taken: b = w *)
    simpl in Hw. assert (b = w) as -> by (eapply Hold; eauto).
    destruct (Hex w v Hs) as [[_ Hwx'] _].
    split; [simpl; now rewrite Hsb|].
    exists (S w), x. simpl. repeat split; try lia.
    + intros j Hj. unfold setf. rewrite Hz by auto. apply zstat_retire.
    + intros r. rewrite Hsb. change (rf s r = D s (S w) r).
      rewrite D_S, (Hbr w t r Hk). apply Hrf.
  - split; [exact Hsb|]. exists w, x. auto.
  - split; [exact Hsb|]. exists w, x. auto.
  - simpl in Hfin. discriminate.
Qed.

Lemma reach_inv45 s : reach text rf0 P s -> fin s = false -> Inv45 s.
Proof.
  induction 1 as [|s s' R IH H]; intros Hf; [apply inv45_init|].
  apply (inv45_step s s'); auto.
  - eapply reach_base; eauto.
  - apply IH. eapply fin_step; eauto.
Qed.

Theorem p45_correct s : reach text rf0 P s -> fin s = true ->
  exists e, halts_at text rf0 e /\ forall r, rf s r = seq_rf text rf0 e r.
Proof.
  apply (ooo_correct_gen text rf0 P).
  - intros s0 e H. simpl in H. now apply older_done_spec.
  - intros s0 R Hf j v. apply inv45_exec; [eapply reach_base; eauto | now apply reach_inv45].
  - intros s0 R Hf _. apply inv45_drained. now apply reach_inv45.
Qed.

End P45.
