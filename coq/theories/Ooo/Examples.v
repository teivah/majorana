(* Ooo/Examples.v - the hypotheses of the main theorems are satisfiable: concrete programs run
   to completion under concrete (overtaking) schedules of each sound policy, and the result is
   the sequential one.  All closed by vm_compute. *)
From Coq Require Import ZArith List Lia Arith Bool.
From Maj Require Import Ooo.Machine Ooo.Run Ooo.Counts Ooo.Policies Ooo.Refute.
Import ListNotations.

Definition final_is (text : list instr) (rf0 : rfile) (e : nat) (rs : list reg) (s : state) : bool :=
  fin s && halts text (seq_at text rf0 e)
  && forallb (fun r => Z.eqb (rf s r) (seq_rf text rf0 e r)) rs.

Lemma final_by text rf0 P ls e rs :
  match run text P ls (init rf0) with Some s => final_is text rf0 e rs s | None => false end = true ->
  exists s, reach text rf0 P s /\ fin s = true /\ halts_at text rf0 e /\
            forall r, In r rs -> rf s r = seq_rf text rf0 e r.
Proof.
  intros H. destruct (witness text rf0 P ls (final_is text rf0 e rs) H) as (s & R & Hb).
  unfold final_is in Hb. apply andb_prop in Hb. destruct Hb as [Hb H3].
  apply andb_prop in Hb. destruct Hb as [H1 H2].
  exists s. repeat split; auto. intros r Hr. rewrite forallb_forall in H3.
  now apply Z.eqb_eq, H3.
Qed.

(* P60: straight-line, completion out of order *)
(*  0: li r1, 5    1: addi r2, r1, 1    2: li r3, 2        (runs off the end of the text) *)
Definition ex60_text := [li 1 5; addi 2 1 1; li 3 2].
Definition ex60_sched :=
  [LDispatch None; LExecute 0; LWriteBack 0;   (* addi must wait: RAW on r1 *)
   LDispatch None; LDispatch None;
   LExecute 2; LWriteBack 2;                   (* the younger li completes first *)
   LExecute 1; LWriteBack 1; LExitEnd; LFinish].

Example ex_p60 :
  exists s, reach ex60_text (regs []) (P60 ex60_text) s /\ fin s = true /\
            halts_at ex60_text (regs []) 3 /\
            forall r, In r [1; 2; 3] -> rf s r = seq_rf ex60_text (regs []) 3 r.
Proof. apply (final_by _ _ _ ex60_sched). vm_compute. reflexivity. Qed.

(* P61: the same program, addi dispatched at once with forwarding *)
Definition ex61_sched :=
  [LDispatch None; LDispatch (Some (0, 1)); LDispatch None;
   LExecute 0; LExecute 2; LWriteBack 2;
   LExecute 1;                                  (* receives 5 through the channel *)
   LWriteBack 1; LWriteBack 0; LExitEnd; LFinish].

Example ex_p61 :
  exists s, reach ex60_text (regs []) (P61 ex60_text) s /\ fin s = true /\
            halts_at ex60_text (regs []) 3 /\
            forall r, In r [1; 2; 3] -> rf s r = seq_rf ex60_text (regs []) 3 r.
Proof. apply (final_by _ _ _ ex61_sched). vm_compute. reflexivity. Qed.

(* a state in which the hypotheses of raw_value / forward_value / forward_unique hold:
   instance 1 dispatched with forwarding source (0, r1), producer executed *)
Definition ex61_mid : state :=
  match run ex60_text (P61 ex60_text)
            [LDispatch None; LDispatch (Some (0, 1)); LExecute 0] (init (regs [])) with
  | Some s => s | None => init (regs []) end.

Example ex_forward_state :
  reach ex60_text (regs []) (P61 ex60_text) ex61_mid /\ fin ex61_mid = false /\
  stat ex61_mid 1 = Disp (Some (0, 1)) /\ fw_ready ex61_mid (Some (0, 1)) = true /\
  reads ex60_text ex61_mid 1 1 /\ writes ex60_text ex61_mid 0 1 /\
  res ex61_mid 0 = Some 5%Z /\ rd ex61_mid (Some (0, 1)) 1 = 5%Z.
Proof.
  split; [apply run_or_init_reach|]. repeat split; try reflexivity.
  vm_compute. auto.
Qed.

(* P62r: speculation past two branches, wrong-path writes dropped *)
Example ex_spec_nested :
  exists s, reach nested_text nested_rf0 (P62r nested_text) s /\ fin s = true /\
            halts_at nested_text nested_rf0 1 /\
            forall r, In r [1; 2; 3] -> rf s r = seq_rf nested_text nested_rf0 1 r.
Proof. apply (final_by _ _ _ nested_sched). vm_compute. reflexivity. Qed.

Example ex_spec_oneslot_program :
  exists s, reach oneslot_text oneslot_rf0 (P62r oneslot_text) s /\ fin s = true /\
            halts_at oneslot_text oneslot_rf0 2 /\
            forall r, In r [1; 2] -> rf s r = seq_rf oneslot_text oneslot_rf0 2 r.
Proof. apply (final_by _ _ _ oneslot_sched). vm_compute. reflexivity. Qed.

(* a loop: three iterations, every back edge mispredicted (fall-through prediction), the
   wrong-path ret fetched and squashed each time, forwarding from addi to bnez *)
(*  0: li r1, 3    1: addi r1, r1, -1    2: bnez r1, 1    3: ret *)
Definition loop_text := [li 1 3; addi 1 1 (-1); bnez 1 1; ret].
Definition loop_sched :=
  [LDispatch None; LExecute 0; LWriteBack 0;
   LDispatch None; LDispatch (Some (1, 1)); LDispatch None;
   LExecute 1; LExecute 2; LWriteBack 1; LResolve 2;
   LDispatch None; LDispatch (Some (3, 1)); LDispatch None;
   LExecute 3; LExecute 4; LWriteBack 3; LResolve 4;
   LDispatch None; LDispatch (Some (5, 1)); LDispatch None;
   LExecute 5; LWriteBack 5; LExecute 6; LResolve 6;
   LExit 7; LFinish].

Example ex_spec_loop :
  exists s, reach loop_text (regs []) (P62r loop_text) s /\ fin s = true /\
            halts_at loop_text (regs []) 7 /\
            forall r, In r [1] -> rf s r = seq_rf loop_text (regs []) 7 r.
Proof. apply (final_by _ _ _ loop_sched). vm_compute. reflexivity. Qed.

(* P45: in order, interlock, a WAW pair and a branch *)
(*  0: li r1, 5   1: addi r2, r1, 1   2: li r1, 9   3: bnez r2, 5   4: li r2, 0   5: ret *)
Definition ex45_text := [li 1 5; addi 2 1 1; li 1 9; bnez 2 5; li 2 0; ret].
Definition ex45_sched :=
  [LDispatch None; LDispatch None; LDispatch None; LDispatch None; LDispatch None;
   LExecute 0; LWriteBack 0;                   (* addi waits for the write-back of r1 *)
   LExecute 1; LExecute 2; LWriteBack 1;
   LExecute 3;                                 (* waits for nothing: r2 written back *)
   LExecute 4;                                 (* wrong path executes ... *)
   LWriteBack 2; LResolve 3;                   (* ... and is squashed before it can write *)
   LDispatch None; LExit 4; LFinish].

Example ex_p45 :
  exists s, reach ex45_text (regs []) (P45 ex45_text) s /\ fin s = true /\
            halts_at ex45_text (regs []) 4 /\
            forall r, In r [1; 2] -> rf s r = seq_rf ex45_text (regs []) 4 r.
Proof. apply (final_by _ _ _ ex45_sched). vm_compute. reflexivity. Qed.
