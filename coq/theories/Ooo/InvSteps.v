(* Ooo/InvSteps.v - the master invariant is preserved by Dispatch, Execute, WriteBack.
   inv_shrink is the frame lemma for every transition that fetches nothing and writes no
   register: Execute here, the parts of branch resolution in Ooo/InvResolve.v. *)
From Coq Require Import ZArith List Lia Arith Bool.
From Maj Require Import Ooo.Machine Ooo.Counts Ooo.InvDefs.
Import ListNotations.

Section InvSteps.
Variable text : list instr.
Variable rf0 : rfile.
Variable P : policy.

Notation writes := (writes text).
Notation reads := (reads text).
Notation unres := (unres text).
Notation ins := (ins text).
Notation Inv := (Inv text rf0 P).
Notation D := (D text rf0).
Notation dval := (dval text rf0).
Notation safe := (safe text).

Lemma inv_init : Inv (init rf0).
Proof.
  constructor; simpl; intros; auto; try discriminate.
  - destruct H as [H _]. simpl in H. assert (c = 0) by lia. subst. reflexivity.
  - contradiction.
  - constructor.
  - split; auto. intros u Hu. apply unres_iff in Hu. destruct Hu as [Hu _]. discriminate.
Qed.

Lemma safe_direct s c : Inv s -> bufm P = NoBuf -> safe s c -> c = nxt s.
Proof.
  intros I Hb [H1 [H2|(u & Hu1 & Hu2)]]; auto.
  destruct (i_direct _ _ _ _ I Hb) as [_ H]. specialize (H u Hu2). lia.
Qed.

(* Execute, the release of a branch, squash and commit keep the stream or truncate it at a
   safe cut, let no writer leave the in-flight set and change no view at a safe cut.  The
   hypotheses list everything through which Inv depends on the state. *)
Lemma inv_shrink s s' : Inv s ->
  nxt s' <= nxt s -> ipc s' = ipc s -> safe s (nxt s') ->
  (forall x, pending s' x -> pending s x) ->
  (forall x r, x < nxt s' -> pending s x -> writes s x r -> pending s' x) ->
  (forall i fw, stat s' i = Disp fw -> stat s i = Disp fw) ->
  (forall x, x < nxt s' -> stat s x = Done -> stat s' x = Done) ->
  (forall j v, stat s' j = Exec v -> v = dval s j) ->
  (forall j v, j < nxt s' -> res s' j = Some v -> v = dval s j) ->
  (forall c r, c <= nxt s' -> safe s c ->
               viewc (sb s') (rf s') c r = viewc (sb s) (rf s) c r) ->
  (forall e, In e (sb s') -> In e (sb s) /\ etag e < nxt s') -> bsorted (sb s') ->
  Inv s'.
Proof.
  intros I Hn Hi Htop Hp Hw Hd Hdone He Hr Hv Hsb Hsorted.
  assert (EW : Counts.writes text s' = writes s)
    by (unfold Counts.writes, Machine.ins; now rewrite Hi).
  assert (ER : Counts.reads text s' = reads s)
    by (unfold Counts.reads, Machine.ins; now rewrite Hi).
  assert (ED : InvDefs.D text rf0 s' = D s) by (unfold InvDefs.D; now rewrite Hi).
  assert (EV : InvDefs.dval text rf0 s' = dval s)
    by (unfold InvDefs.dval, InvDefs.D, Machine.ins; now rewrite Hi).
  assert (Hu : forall u, unres s' u -> unres s u).
  { intros u. rewrite !unres_iff. unfold Machine.ins. rewrite Hi. intros [H1 H2]. auto. }
  assert (Hsafe : forall c, safe s' c -> c <= nxt s' /\ safe s c).
  { intros c [H1 [->|(u & Hu1 & Hu2)]]; split; auto. split; [lia|]. right. exists u. auto. }
  constructor; rewrite ?EW, ?ER, ?ED, ?EV.
  - intros j r Hj Hwj m Hm. apply (i_waw _ _ _ _ I j r (Hp j Hj) Hwj). lia.
  - intros j r Hj Hrj m Hm. apply (i_war _ _ _ _ I j r (Hp j Hj) Hrj). lia.
  - intros c r Hc Hno. destruct (Hsafe c Hc) as [Hcn Hcs]. rewrite Hv by auto.
    apply (i_clean _ _ _ _ I c r Hcs). intros j Hj Hpj Hwj.
    apply (Hno j Hj); auto. apply (Hw j r); auto. lia.
  - intros c j r Hc Hj Hpj Hwj. destruct (Hsafe c Hc) as [Hcn Hcs]. rewrite Hv by auto.
    exact (i_dirty _ _ _ _ I c j r Hcs Hj (Hp j Hpj) Hwj).
  - intros i fw r Hsi Hri Hnf j Hji Hpj.
    exact (i_raw _ _ _ _ I i fw r (Hd i fw Hsi) Hri Hnf j Hji (Hp j Hpj)).
  - intros i p r Hsi. exact (i_fwd _ _ _ _ I i p r (Hd _ _ Hsi)).
  - exact He.
  - exact Hr.
  - intros e Hin. destruct (Hsb e Hin) as [Hin0 Ht].
    destruct (i_sb _ _ _ _ I e Hin0) as (_ & H2 & H3). auto.
  - exact Hsorted.
  - intros Hb. destruct (i_direct _ _ _ _ I Hb) as [H1 H2]. split.
    + destruct (sb s') as [|e l]; auto.
      destruct (Hsb e (or_introl eq_refl)) as [Hin _]. rewrite H1 in Hin. destruct Hin.
    + intros u Hu'. rewrite (safe_direct s _ I Hb Htop). auto.
Qed.

Lemma inv_execute s j fw : Base text s -> Inv s ->
  stat s j = Disp fw -> fw_ready s fw = true ->
  Inv (do_execute s j (exec_val text s j fw)).
Proof.
  intros B I Hs Hf. rewrite (exec_value text rf0 P s j fw B I Hs Hf).
  assert (Hp : forall x, pending (do_execute s j (dval s j)) x <-> pending s x).
  { intros x. apply (pending_kept s _ j (Exec (dval s j))); eauto using disp_pending. }
  apply (inv_shrink s); simpl; auto using safe_top, (i_sorted _ _ _ _ I).
  - apply Hp.
  - intros x r _ Hx _. now apply Hp.
  - intros i fw0. destruct (Nat.eq_dec i j) as [->|].
    + rewrite setf_same. discriminate.
    + now rewrite setf_other.
  - intros x _ Hx. rewrite setf_other; congruence.
  - intros x v. destruct (Nat.eq_dec x j) as [->|].
    + rewrite setf_same. now intros [= <-].
    + rewrite setf_other by auto. apply (i_exec _ _ _ _ I).
  - intros x v Hx. destruct (Nat.eq_dec x j) as [->|].
    + rewrite setf_same. now intros [= <-].
    + rewrite setf_other by auto. now apply (i_res _ _ _ _ I).
  - intros e He. split; auto. apply (i_sb _ _ _ _ I e He).
Qed.

Lemma inv_dispatch s fw : Base text s -> Inv s ->
  safe_dispatch text s fw ->
  (bufm P = NoBuf -> forall u, ~ unres s u) ->
  Inv (do_dispatch text s fw).
Proof.
  intros B I [Sraw Swaw Swar Sfw] Hns.
  set (s' := do_dispatch text s fw). set (k := nxt s).
  assert (Hst : forall j, j <> k -> stat s' j = stat s j).
  { intros j Hj. simpl. now rewrite setf_other. }
  assert (Hstk : stat s' k = Disp fw) by (simpl; apply setf_same).
  assert (Hins : forall j, j <> k -> ins s' j = ins s j).
  { intros j Hj. now apply ins_dispatch_other. }
  assert (Hinsk : ins s' k = cur_ins text s) by apply ins_dispatch_same.
  assert (Hp : forall j, pending s' j -> j = k \/ (j < k /\ pending s j)).
  { intros j. now apply pending_dispatch. }
  assert (Hp' : forall j, pending s j -> pending s' j).
  { intros j Hj. apply pending_dispatch; auto. right. split; auto. now apply (pending_lt text). }
  assert (Hw : forall j r, j <> k -> (writes s' j r <-> writes s j r)).
  { intros j r Hj. unfold Counts.writes. rewrite Hins by auto. tauto. }
  assert (Hwk : forall r, writes s' k r <-> wr (cur_ins text s) = Some r).
  { intros r. unfold Counts.writes. rewrite Hinsk. tauto. }
  assert (Hrd : forall j r, j <> k -> (reads s' j r <-> reads s j r)).
  { intros j r Hj. unfold Counts.reads. rewrite Hins by auto. tauto. }
  assert (HD : forall c, c <= k -> D s' c = D s c) by (intros; now apply D_dispatch).
  assert (Hun : forall u, unres s' u -> u = k \/ (u < k /\ unres s u))
    by (intros u; now apply unres_dispatch).
  assert (Hsafe : forall c, safe s' c -> c = S k \/ (c <= k /\ safe s c))
    by (intros c; now apply safe_after_dispatch).
  assert (Htag : forall e, In e (sb s) -> etag e < k).
  { intros e He. apply (i_sb _ _ _ _ I e He). }
  assert (Hview : forall r, viewc (sb s) (rf s) (S k) r = viewc (sb s) (rf s) k r).
  { intros r. apply viewc_mono; auto. }
  constructor.
  - (* waw *)
    intros j r Hj Hwj m Hm. simpl in Hm. fold k in Hm.
    destruct (Hp j Hj) as [->|[Hlt Hpj]]; [lia|].
    apply Hw in Hwj; [|lia].
    destruct (Nat.eq_dec m k) as [->|Hne].
    + rewrite Hwk. intros Hk. exact (Swaw r Hk j Hpj Hwj).
    + rewrite Hw by auto. apply (i_waw _ _ _ _ I j r Hpj Hwj). fold k. lia.
  - (* war *)
    intros j r Hj Hrj m Hm. simpl in Hm. fold k in Hm.
    destruct (Hp j Hj) as [->|[Hlt Hpj]]; [lia|].
    apply Hrd in Hrj; [|lia].
    destruct (Nat.eq_dec m k) as [->|Hne].
    + rewrite Hwk. intros Hk. exact (Swar r Hk j Hpj Hrj).
    + rewrite Hw by auto. apply (i_war _ _ _ _ I j r Hpj Hrj). fold k. lia.
  - (* clean *)
    intros c r Hc Hn. change (sb s') with (sb s). change (rf s') with (rf s).
    destruct (Hsafe c Hc) as [->|[Hck Hcs]].
    + rewrite Hview.
      assert (Hk : ~ wr (cur_ins text s) = Some r).
      { rewrite <- Hwk. apply Hn; [lia|]. apply (pending_dispatch text s fw k B). now left. }
      rewrite D_S, Hinsk, apply_other by exact Hk. rewrite HD by lia.
      apply (i_clean _ _ _ _ I k r (safe_top text s)).
      intros j Hj Hpj. rewrite <- Hw by lia. apply Hn; auto.
    + rewrite HD by auto. apply (i_clean _ _ _ _ I c r Hcs).
      intros j Hj Hpj. rewrite <- Hw by lia. apply Hn; auto.
  - (* dirty *)
    intros c j r Hc Hjc Hj Hwj. change (sb s') with (sb s). change (rf s') with (rf s).
    destruct (Hsafe c Hc) as [->|[Hck Hcs]].
    + rewrite Hview. destruct (Hp j Hj) as [->|[Hlt Hpj]].
      * rewrite HD by lia. apply (i_clean _ _ _ _ I k r (safe_top text s)).
        intros x Hx Hpx. apply (Swaw r); auto. now apply Hwk.
      * rewrite HD by lia. apply (i_dirty _ _ _ _ I k j r (safe_top text s)); auto.
        apply Hw; auto. lia.
    + destruct (Hp j Hj) as [->|[Hlt Hpj]]; [lia|].
      rewrite HD by lia. apply (i_dirty _ _ _ _ I c j r Hcs); auto. apply Hw; auto. lia.
  - (* raw *)
    intros i fw0 r Hi Hr Hnf j Hji Hpj.
    destruct (Hp j Hpj) as [->|[Hlt Hpj']].
    + assert (i <> k) by lia. rewrite Hst in Hi by auto.
      assert (i < k) by (apply (stat_lt text s i B); congruence). lia.
    + rewrite Hw by lia. destruct (Nat.eq_dec i k) as [->|Hne].
      * rewrite Hstk in Hi. inversion Hi; subst fw0.
        intros Hwj. unfold Counts.reads in Hr. rewrite Hinsk in Hr.
        apply (Hnf j). exact (Sraw r Hr j Hpj' Hwj).
      * rewrite Hst in Hi by auto. apply Hrd in Hr; auto.
        exact (i_raw _ _ _ _ I i fw0 r Hi Hr Hnf j Hji Hpj').
  - (* fwd *)
    intros i p r Hi. destruct (Nat.eq_dec i k) as [->|Hne].
    + rewrite Hstk in Hi. inversion Hi; subst fw.
      destruct (Sfw p r eq_refl) as [Hpp Hwp].
      assert (p < k) by (apply (pending_lt text s p B Hpp)).
      split; auto. split; [apply Hw; auto; lia|].
      intros m Hm. rewrite Hw by lia. apply (i_waw _ _ _ _ I p r Hpp Hwp). fold k. lia.
    + rewrite Hst in Hi by auto.
      assert (i < k) by (apply (stat_lt text s i B); congruence).
      destruct (i_fwd _ _ _ _ I i p r Hi) as (H1 & H2 & H3).
      split; auto. split; [apply Hw; auto; lia|].
      intros m Hm. rewrite Hw by lia. now apply H3.
  - (* exec *)
    intros j v Hj. destruct (Nat.eq_dec j k) as [->|Hne].
    + rewrite Hstk in Hj. discriminate.
    + rewrite Hst in Hj by auto.
      assert (j < k) by (apply (stat_lt text s j B); congruence).
      unfold s'. rewrite dval_dispatch by auto. exact (i_exec _ _ _ _ I j v Hj).
  - (* res *)
    intros j v Hj Hr. simpl in Hj, Hr. fold k in Hj, Hr.
    destruct (Nat.eq_dec j k) as [->|Hne].
    + rewrite setf_same in Hr. discriminate.
    + rewrite setf_other in Hr by auto. unfold s'. rewrite dval_dispatch by (fold k; lia).
      apply (i_res _ _ _ _ I j v); auto. fold k. lia.
  - (* sb *)
    intros e He. change (sb s') with (sb s) in He.
    destruct (i_sb _ _ _ _ I e He) as (H1 & H2 & H3). fold k in H1.
    split; [simpl; fold k; lia|]. split.
    + rewrite Hst by lia. exact H2.
    + apply Hw; auto. lia.
  - exact (i_sorted _ _ _ _ I).
  - intros Hb. destruct (i_direct _ _ _ _ I Hb) as [H1 H2]. split; auto.
    intros u Hu. destruct (Hun u Hu) as [->|[_ Hu']]; [reflexivity|].
    exfalso. exact (Hns Hb u Hu').
Qed.

Lemma wb_view_other s j v c r : bufm P = Full \/ bufm P = NoBuf ->
  wr (ins s j) <> Some r ->
  viewc (sb (do_writeback text P s j v)) (rf (do_writeback text P s j v)) c r
  = viewc (sb s) (rf s) c r.
Proof.
  intros Hm Hw. simpl. unfold wb_res. destruct (wr (ins s j)) as [d|]; [|reflexivity].
  assert (d <> r) by congruence.
  destruct Hm as [-> | ->]; simpl.
  - rewrite viewc_cons. unfold hit. simpl.
    rewrite (proj2 (Nat.eqb_neq d r)) by auto. now rewrite andb_false_r.
  - apply viewc_fext. apply upd_other. auto.
Qed.

Lemma wb_view_same s j v c r : Base text s -> Inv s -> bufm P = Full \/ bufm P = NoBuf ->
  j < nxt s -> wr (ins s j) = Some r -> safe s c ->
  viewc (sb (do_writeback text P s j v)) (rf (do_writeback text P s j v)) c r
  = if j <? c then v else viewc (sb s) (rf s) c r.
Proof.
  intros B I Hm Hj Hw Hc. simpl. unfold wb_res. rewrite Hw.
  destruct Hm as [Hm | Hm]; rewrite Hm; simpl.
  - rewrite viewc_cons. unfold hit. simpl. rewrite Nat.eqb_refl, andb_true_r. reflexivity.
  - destruct (i_direct _ _ _ _ I Hm) as [Hsb _]. rewrite Hsb. rewrite !viewc_nil.
    rewrite (safe_direct s c I Hm Hc). rewrite (proj2 (Nat.ltb_lt _ _) Hj). apply upd_same.
Qed.

Lemma inv_writeback s j v : Base text s -> Inv s -> bufm P = Full \/ bufm P = NoBuf ->
  stat s j = Exec v -> is_branch (ins s j) = false ->
  Inv (do_writeback text P s j v).
Proof.
  intros B I Hm Hs Hnb.
  set (s' := do_writeback text P s j v).
  assert (Hj : j < nxt s) by (apply (stat_lt text s j B); congruence).
  assert (Hpj : pending s j) by (eapply exec_pending; eauto).
  assert (Hv : v = dval s j) by (apply (i_exec _ _ _ _ I j v Hs)).
  assert (Hst : forall x, x <> j -> stat s' x = stat s x).
  { intros x Hx. simpl. now rewrite setf_other. }
  assert (Hstj : stat s' j = Done) by (simpl; apply setf_same).
  assert (Hp : forall x, pending s' x <-> pending s x /\ x <> j).
  { intros x. now apply (pending_done s s' j). }
  assert (Hu : forall x, unres s' x <-> unres s x)
    by (intros x; now apply (unres_done text s s' j)).
  assert (Hsafe : forall c, safe s' c <-> safe s c) by (intros c; now apply safe_same).
  destruct I. constructor.
  - intros x r Hx. apply Hp in Hx. destruct Hx as [Hx _]. exact (i_waw x r Hx).
  - intros x r Hx. apply Hp in Hx. destruct Hx as [Hx _]. exact (i_war x r Hx).
  - (* clean *)
    intros c r Hc Hn. apply Hsafe in Hc.
    change (D s' c r) with (D s c r).
    destruct (writes_dec text s j r) as [Hw|Hw].
    + unfold s'. rewrite wb_view_same; auto; try (constructor; assumption).
      destruct (Nat.ltb_spec j c) as [Hjc|Hjc].
      * rewrite Hv. symmetry. apply D_last_writer; auto.
        intros m Hm'. apply (i_waw j r Hpj Hw m). destruct Hc. lia.
      * apply (i_clean c r Hc). intros x Hx Hpx. apply Hn; auto. apply Hp. split; auto. lia.
    + unfold s'. rewrite wb_view_other; auto. apply (i_clean c r Hc).
      intros x Hx Hpx. destruct (Nat.eq_dec x j) as [->|Hne]; auto.
      apply Hn; auto. apply Hp. split; auto.
  - (* dirty *)
    intros c x r Hc Hx Hpx Hwx. apply Hsafe in Hc. apply Hp in Hpx. destruct Hpx as [Hpx Hne].
    change (D s' x r) with (D s x r). change (writes s' x r) with (writes s x r) in Hwx.
    destruct (writes_dec text s j r) as [Hw|Hw].
    + exfalso. apply Hne.
      apply (pending_uniq text rf0 P s x j r B); auto. constructor; assumption.
    + unfold s'. rewrite wb_view_other; auto.
  - (* raw *)
    intros i fw0 r Hi Hr Hnf x Hxi Hpx. apply Hp in Hpx. destruct Hpx as [Hpx _].
    destruct (Nat.eq_dec i j) as [->|Hne].
    + rewrite Hstj in Hi. discriminate.
    + rewrite Hst in Hi by auto. exact (i_raw i fw0 r Hi Hr Hnf x Hxi Hpx).
  - intros i p r Hi. destruct (Nat.eq_dec i j) as [->|Hne].
    + rewrite Hstj in Hi. discriminate.
    + rewrite Hst in Hi by auto. exact (i_fwd i p r Hi).
  - intros x v0 Hx. destruct (Nat.eq_dec x j) as [->|Hne].
    + rewrite Hstj in Hx. discriminate.
    + rewrite Hst in Hx by auto. exact (i_exec x v0 Hx).
  - exact i_res.
  - (* sb *)
    intros e He.
    assert (Hold : forall e, In e (sb s) ->
              etag e < nxt s' /\ stat s' (etag e) = Done /\ writes s' (etag e) (ereg e)).
    { intros e0 He0. destruct (i_sb e0 He0) as (H1 & H2 & H3). repeat split; auto.
      rewrite Hst; auto. intros E. rewrite E, Hs in H2. discriminate. }
    simpl in He. unfold wb_res in He. destruct (wr (ins s j)) as [d|] eqn:Ew; [|auto].
    destruct Hm as [Hm|Hm]; rewrite Hm in He; simpl in He; [|auto].
    destruct He as [<-|He]; [|auto]. simpl. repeat split; auto.
  - (* sorted *)
    simpl. unfold wb_res. destruct (wr (ins s j)) as [d|] eqn:Ew; [|exact i_sorted].
    destruct Hm as [Hm|Hm]; rewrite Hm; simpl; [|exact i_sorted].
    constructor; auto. simpl. intros e' He' Er.
    destruct (i_sb e' He') as (H1 & H2 & H3). rewrite Er in H3.
    destruct (lt_eq_lt_dec (etag e') j) as [[H|H]|H]; auto; exfalso.
    + rewrite H, Hs in H2. discriminate.
    + apply (i_waw j d Hpj Ew (etag e')); auto.
  - intros Hb. destruct (i_direct Hb) as [H1 H2]. split.
    + simpl. unfold wb_res. destruct (wr (ins s j)); auto. rewrite Hb. simpl. auto.
    + intros u Hx. apply Hu in Hx. exact (H2 u Hx).
Qed.

End InvSteps.
