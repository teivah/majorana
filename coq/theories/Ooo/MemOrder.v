(* Ooo/MemOrder.v - C10: memory dependences between in-flight loads and stores.

   A small abstract machine of its own (the register side is Ooo/Machine.v): the dynamic
   sequence of memory operations with their resolved addresses, each performed at some moment
   chosen by the schedule, subject to a rule.  Loads read the bytes of their footprint from the
   memory at the moment they perform; stores write theirs (Execution.MemoryChanges).

   mem_order_correct          : rule "a load waits for every older unperformed store to
                                overlapping bytes; stores perform in program order AND wait for
                                every older unperformed load to overlapping bytes": every
                                schedule gives the sequential memory and sequential load results
   rule_without_war_refuted   : the rule exactly as worded in DESIGN C10 (without the last
                                clause) is NOT sufficient: load -> store to the same byte
   no_mem_hazard_rule_refuted : the rule of 6.x (none): store -> load at distance 1 *)
From Coq Require Import ZArith List Lia Arith Bool.
From Maj Require Import Comp.ListFacts.
Import ListNotations.

Definition memory := nat -> Z.
Definition updm (m : memory) (a : nat) (v : Z) : memory :=
  fun x => if Nat.eqb x a then v else m x.

Inductive mop := Ld (fp : list nat) | St (w : list (nat * Z)).

Definition footprint (o : mop) : list nat :=
  match o with Ld fp => fp | St w => map fst w end.
Definition is_store (o : mop) : bool := match o with St _ => true | _ => false end.
Definition overlapb (a b : mop) : bool :=
  existsb (fun x => existsb (Nat.eqb x) (footprint b)) (footprint a).

Definition wmem (m : memory) (w : list (nat * Z)) : memory :=
  fold_left (fun m p => updm m (fst p) (snd p)) w m.
Definition sstep (m : memory) (o : mop) : memory :=
  match o with Ld _ => m | St w => wmem m w end.

Lemma wmem_ext w : forall m m' a, m a = m' a -> wmem m w a = wmem m' w a.
Proof.
  induction w as [|p w IH]; simpl; intros m m' a H; auto.
  apply IH. unfold updm. destruct (Nat.eqb a (fst p)); auto.
Qed.

Lemma wmem_other w : forall m a, ~ In a (map fst w) -> wmem m w a = m a.
Proof.
  induction w as [|p w IH]; simpl; intros m a H; auto.
  rewrite IH by tauto. unfold updm. destruct (Nat.eqb_spec a (fst p)); auto.
  exfalso. apply H. auto.
Qed.

Lemma overlapb_false a b x : overlapb a b = false ->
  In x (footprint a) -> In x (footprint b) -> False.
Proof.
  unfold overlapb. intros H Ha Hb.
  assert (existsb (fun x => existsb (Nat.eqb x) (footprint b)) (footprint a) = true).
  { apply existsb_exists. exists x. split; auto. apply existsb_exists. exists x.
    split; auto. apply Nat.eqb_refl. }
  congruence.
Qed.

Section Mem.
Variable prog : list mop.
Variable m0 : memory.

Definition op (j : nat) : mop := nth j prog (Ld []).
Definition n := length prog.

(* sequential memory before operation k *)
Fixpoint M (k : nat) : memory := match k with O => m0 | S k' => sstep (M k') (op k') end.

Record mstate := { mm : memory; pf : nat -> bool; lv : nat -> list Z }.

Definition setb {A} (f : nat -> A) j x := fun k => if Nat.eqb k j then x else f k.

Definition perform (s : mstate) (j : nat) : mstate :=
  match op j with
  | Ld fp => {| mm := mm s; pf := setb (pf s) j true; lv := setb (lv s) j (map (mm s) fp) |}
  | St w => {| mm := wmem (mm s) w; pf := setb (pf s) j true; lv := lv s |}
  end.

Definition rule := mstate -> nat -> bool.

Inductive mstep (R : rule) : mstate -> mstate -> Prop :=
| m_perform s j : j < n -> pf s j = false -> R s j = true -> mstep R s (perform s j).

Definition minit : mstate := {| mm := m0; pf := fun _ => false; lv := fun _ => [] |}.

Inductive mreach (R : rule) : mstate -> Prop :=
| mr_init : mreach R minit
| mr_step s s' : mreach R s -> mstep R s s' -> mreach R s'.

(* older stores that overlap are performed *)
Definition ld_ok (s : mstate) (j : nat) : bool :=
  forallb (fun i => negb (is_store (op i) && overlapb (op i) (op j)) || pf s i) (seq 0 j).
(* stores in program order *)
Definition st_order (s : mstate) (j : nat) : bool :=
  forallb (fun i => negb (is_store (op i)) || pf s i) (seq 0 j).
(* older loads that overlap are performed *)
Definition st_war (s : mstate) (j : nat) : bool :=
  forallb (fun i => negb (negb (is_store (op i)) && overlapb (op i) (op j)) || pf s i) (seq 0 j).

Definition rule_safe : rule :=
  fun s j => if is_store (op j) then st_order s j && st_war s j else ld_ok s j.
(* the rule as worded in DESIGN.md C10 *)
Definition rule_design : rule :=
  fun s j => if is_store (op j) then st_order s j else ld_ok s j.
(* 6.x: no memory-dependence tracking at all *)
Definition rule_none : rule := fun _ _ => true.

Inductive MInv (s : mstate) : Prop :=
| MInv_intro (sp : nat) :
    sp <= n ->
    (* performed stores are a prefix of the stores *)
    (forall j, j < n -> is_store (op j) = true -> (pf s j = true <-> j < sp)) ->
    (forall a, mm s a = M sp a) ->
    (* a performed store does not overlap an older unperformed load *)
    (forall j m, j < m -> m < n -> is_store (op j) = false -> pf s j = false ->
                 is_store (op m) = true -> pf s m = true -> overlapb (op j) (op m) = false) ->
    (forall j fp, j < n -> op j = Ld fp -> pf s j = true -> lv s j = map (M j) fp) ->
    MInv s.

Lemma M_stable a x y : x <= y ->
  (forall k, x <= k < y -> is_store (op k) = true -> ~ In a (footprint (op k))) ->
  M y a = M x a.
Proof.
  induction 1 as [|y Hle IH]; intros H; auto.
  simpl. rewrite <- IH by (intros; apply H; auto; lia).
  destruct (op y) as [fp|w] eqn:E; simpl; auto.
  apply wmem_other. specialize (H y ltac:(lia)). rewrite E in H. apply H. reflexivity.
Qed.

Lemma minv_init : MInv minit.
Proof.
  apply (MInv_intro minit 0); simpl; intros; auto; try lia; try discriminate.
Qed.

Lemma minv_step s s' : MInv s -> mstep rule_safe s s' -> MInv s'.
Proof.
  intros [sp0 Hle Hst Hmem Hwar Hld] H. inversion H; subst; clear H.
  unfold rule_safe in H2. unfold perform.
  destruct (op j) as [fp|w] eqn:Eo; simpl in H2.
  - (* a load performs *)
    pose proof (forallb_seq_spec _ _ H2) as Hok. cbv beta in Hok.
    apply (MInv_intro _ sp0); simpl; auto.
    + intros i Hi Hs. unfold setb. destruct (Nat.eqb_spec i j) as [->|]; [|auto].
      rewrite Eo in Hs. discriminate.
    + intros i m Hi Hm Hsi Hpi Hsm Hpm. unfold setb in *.
      destruct (Nat.eqb_spec i j); [discriminate|].
      destruct (Nat.eqb_spec m j) as [->|]; [rewrite Eo in Hsm; discriminate|].
      eapply Hwar; eauto.
    + intros i fp' Hi Ho Hp. unfold setb in *. destruct (Nat.eqb_spec i j) as [->|].
      * rewrite Eo in Ho. inversion Ho; subst fp'. apply map_ext_in. intros a Ha.
        rewrite Hmem.
        destruct (Nat.le_ge_cases sp0 j) as [Hc|Hc].
        -- symmetry. apply M_stable; auto. intros k Hk Hs Hin.
           specialize (Hok k ltac:(lia)). rewrite Hs in Hok. simpl in Hok.
           assert (Hpk : pf s k = false).
           { destruct (pf s k) eqn:E; auto. apply (Hst k ltac:(lia) Hs) in E. lia. }
           rewrite Hpk, orb_false_r in Hok. apply negb_true_iff in Hok.
           apply (overlapb_false _ _ a Hok); auto. rewrite Eo. exact Ha.
        -- apply M_stable; auto. intros k Hk Hs Hin.
           assert (Hpk : pf s k = true) by (apply (Hst k ltac:(lia) Hs); lia).
           assert (Hjk : j < k).
           { destruct (Nat.eq_dec j k) as [E|]; [|lia]. rewrite <- E, Eo in Hs. discriminate. }
           assert (Hov : overlapb (op j) (op k) = false).
           { apply (Hwar j k); auto; try lia. now rewrite Eo. }
           apply (overlapb_false _ _ a Hov); auto. rewrite Eo. exact Ha.
      * eapply Hld; eauto.
  - (* a store performs: it is the oldest unperformed store *)
    apply andb_prop in H2. destruct H2 as [Ho Hw].
    pose proof (forallb_seq_spec _ _ Ho) as Hord. cbv beta in Hord.
    pose proof (forallb_seq_spec _ _ Hw) as Hwr. cbv beta in Hwr.
    assert (Hjs : sp0 <= j).
    { destruct (Nat.le_gt_cases sp0 j); auto. exfalso.
      assert (pf s j = true) by (apply Hst; auto; now rewrite Eo). congruence. }
    assert (Hnone : forall k, sp0 <= k < j -> is_store (op k) = false).
    { intros k Hk. destruct (is_store (op k)) eqn:E; auto. exfalso.
      specialize (Hord k ltac:(lia)). rewrite E in Hord. simpl in Hord.
      apply (Hst k ltac:(lia) E) in Hord. lia. }
    apply (MInv_intro _ (S j)); simpl; auto.
    + intros i Hi Hs. unfold setb. destruct (Nat.eqb_spec i j) as [->|Hne].
      * split; auto; lia.
      * rewrite (Hst i Hi Hs). split; intros; [lia|].
        destruct (Nat.lt_ge_cases i sp0); auto. rewrite (Hnone i) in Hs; [discriminate|lia].
    + intros a. rewrite Eo. simpl. apply wmem_ext. rewrite Hmem. symmetry.
      apply M_stable; auto. intros k Hk Hs. rewrite (Hnone k Hk) in Hs. discriminate.
    + intros i m Hi Hm Hsi Hpi Hsm Hpm. unfold setb in *.
      destruct (Nat.eqb_spec i j) as [|Hne]; [discriminate|].
      destruct (Nat.eqb_spec m j) as [->|Hnm].
      * specialize (Hwr i Hi). rewrite Hsi, Hpi in Hwr. simpl in Hwr.
        rewrite orb_false_r in Hwr. now apply negb_true_iff in Hwr.
      * eapply Hwar; eauto.
    + intros i fp' Hi Hoi Hp. unfold setb in *. destruct (Nat.eqb_spec i j) as [->|].
      * rewrite Eo in Hoi. discriminate.
      * eapply Hld; eauto.
Qed.

Lemma mreach_inv s : mreach rule_safe s -> MInv s.
Proof. induction 1; [apply minv_init | eapply minv_step; eauto]. Qed.

(* every schedule allowed by the rule, run until everything has performed, gives the
   sequential memory and the sequential result of every load *)
Theorem mem_order_correct s : mreach rule_safe s -> (forall j, j < n -> pf s j = true) ->
  (forall a, mm s a = M n a) /\
  (forall j fp, j < n -> op j = Ld fp -> lv s j = map (M j) fp).
Proof.
  intros R Hall. destruct (mreach_inv s R) as [sp0 Hle Hst Hmem Hwar Hld]. split.
  - intros a. rewrite Hmem. symmetry. apply M_stable; auto.
    intros k Hk Hs. exfalso.
    assert (k < sp0) by (apply (Hst k ltac:(lia) Hs); apply Hall; lia). lia.
  - intros j fp Hj Ho. apply Hld; auto.
Qed.

End Mem.

Definition mrefutes (prog : list mop) (m0 : memory) (R : rule) : Prop :=
  exists s, mreach prog m0 R s /\ (forall j, j < length prog -> pf s j = true) /\
    ((exists a, mm s a <> M prog m0 (length prog) a) \/
     (exists j fp, op prog j = Ld fp /\ lv s j <> map (M prog m0 j) fp)).

(* 6.x, distance 1:   0: sw [a] <- 5      1: lw [a]      the load performs first and reads 0 *)
Theorem no_mem_hazard_rule_refuted :
  mrefutes [St [(0, 5%Z)]; Ld [0]] (fun _ => 0%Z) (rule_none).
Proof.
  set (prog := [St [(0, 5%Z)]; Ld [0]]). set (m0 := fun _ : nat => 0%Z).
  exists (perform prog (perform prog (minit m0) 1) 0). split; [|split].
  - eapply mr_step; [eapply mr_step; [apply mr_init|]|]; constructor; simpl; auto.
  - intros j Hj. simpl in Hj. destruct j as [|[|]]; try lia; reflexivity.
  - right. exists 1, [0]. split; [reflexivity|]. vm_compute. discriminate.
Qed.

(* the rule as worded in DESIGN C10 forgets load -> store:
     0: lw [a]      1: sw [a] <- 5      the store performs first, the load reads 5 *)
Theorem rule_without_war_refuted :
  mrefutes [Ld [0]; St [(0, 5%Z)]] (fun _ => 0%Z) (rule_design [Ld [0]; St [(0, 5%Z)]]).
Proof.
  set (prog := [Ld [0]; St [(0, 5%Z)]]). set (m0 := fun _ : nat => 0%Z).
  exists (perform prog (perform prog (minit m0) 1) 0). split; [|split].
  - eapply mr_step; [eapply mr_step; [apply mr_init|]|]; constructor; simpl; auto.
  - intros j Hj. simpl in Hj. destruct j as [|[|]]; try lia; reflexivity.
  - right. exists 0, [0]. split; [reflexivity|]. vm_compute. discriminate.
Qed.

(* the hypotheses of mem_order_correct are satisfiable: store, overlapping load, overlapping
   store, independent load - performed in an order that overtakes where that is allowed *)
Example mem_order_example :
  let prog := [St [(0, 5%Z)]; Ld [0]; St [(0, 7%Z)]; Ld [4]] in
  let m0 := fun _ : nat => 0%Z in
  exists s, mreach prog m0 (rule_safe prog) s /\ (forall j, j < 4 -> pf s j = true) /\
            lv s 1 = [5%Z] /\ mm s 0 = 7%Z.
Proof.
  intros prog m0.
  exists (perform prog (perform prog (perform prog (perform prog (minit m0) 3) 0) 1) 2).
  split; [|split; [|split]].
  - repeat (eapply mr_step; [|constructor; simpl; auto]). apply mr_init.
  - intros j Hj. destruct j as [|[|[|[|]]]]; try lia; reflexivity.
  - reflexivity.
  - reflexivity.
Qed.
