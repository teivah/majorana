(* Ooo/Path.v - the fetch stream versus the TRUE sequential path, and the main theorem.

   path_inv: in every reachable state there is a prefix 0..t-1 of the stream whose instances are
   exactly the first t instructions of the sequential execution (same pc, hence - by the stream
   invariant - same operands and results); either t = nxt and the fetch cursor is on the true
   path, or instance t-1 is an unresolved branch that the sequential execution takes: everything
   behind it is the wrong path.  A wrong-path instance can never resolve the branch t-1, a
   true-path branch always computes the sequential outcome, so the prefix only grows or is cut
   back to a true-path branch.

   ooo_correct: under a sound policy EVERY schedule that reaches a final state produces the
   sequential register file (and the sequential run terminates at the same instruction). *)
From Coq Require Import ZArith List Lia Arith Bool.
From Maj Require Import Ooo.Machine Ooo.Counts Ooo.InvDefs Ooo.InvSteps Ooo.InvResolve.
Import ListNotations.

Section Path.
Variable text : list instr.
Variable rf0 : rfile.
Variable P : policy.

Notation writes := (writes text).
Notation reads := (reads text).
Notation unres := (unres text).
Notation ins := (ins text).
Notation Inv := (Inv text rf0 P).
Notation D := (D text rf0).
Notation dval := (dval text rf0).
Notation path := (path text rf0).
Notation seq_rf := (seq_rf text rf0).
Notation seq_at := (seq_at text rf0).
Notation halts_at := (halts_at text rf0).
Notation at_pc := (at_pc text).

Lemma at_pc_some pc i : nth_error text pc = Some i -> at_pc pc = i.
Proof. intros H. unfold Machine.at_pc. now apply nth_error_nth. Qed.

Lemma at_pc_none pc : nth_error text pc = None -> at_pc pc = nop.
Proof. intros H. unfold Machine.at_pc. apply nth_overflow. now apply nth_error_None. Qed.

Lemma at_pc_cases pc :
  (exists i, nth_error text pc = Some i /\ at_pc pc = i) \/
  (nth_error text pc = None /\ at_pc pc = nop).
Proof.
  destruct (nth_error text pc) as [i|] eqn:E.
  - left. exists i. split; auto. now apply at_pc_some.
  - right. split; auto. now apply at_pc_none.
Qed.

Lemma seq_rf_S k : seq_rf (S k) = apply (at_pc (path k)) (seq_rf k).
Proof.
  unfold Machine.seq_rf, Machine.path. simpl. unfold adv.
  destruct (at_pc_cases (s_pc (seq_at k))) as [(i & E & A)|[E A]]; rewrite E, A.
  - unfold apply, wr. destruct (kind i); reflexivity.
  - reflexivity.
Qed.

Lemma path_plain k : kind (at_pc (path k)) = Plain -> nth_error text (path k) <> None ->
  path (S k) = S (path k).
Proof.
  intros Hk Hn. unfold Machine.path in *. simpl. unfold adv.
  destruct (at_pc_cases (s_pc (seq_at k))) as [(i & E & A)|[E A]]; [|congruence].
  rewrite E. rewrite A in Hk. rewrite Hk. reflexivity.
Qed.

Lemma path_branch k t : kind (at_pc (path k)) = Branch t ->
  path (S k) = if Z.eqb (value (at_pc (path k)) (seq_rf k)) 0 then S (path k) else t.
Proof.
  intros Hk. unfold Machine.path, Machine.seq_rf in *. simpl. unfold adv.
  destruct (at_pc_cases (s_pc (seq_at k))) as [(i & E & A)|[E A]].
  - rewrite E. rewrite A in *. rewrite Hk. reflexivity.
  - rewrite A in Hk. discriminate.
Qed.

Lemma halts_ret k : is_ret (at_pc (path k)) = true -> halts_at k.
Proof.
  intros H. unfold Machine.halts_at, halts. fold (path k).
  destruct (at_pc_cases (path k)) as [(i & E & A)|[E A]]; rewrite E; auto. now rewrite <- A.
Qed.

Lemma halts_end k : length text <= path k -> halts_at k.
Proof.
  intros H. unfold Machine.halts_at, halts. fold (path k).
  apply nth_error_None in H. now rewrite H.
Qed.

(* once the sequential run has halted it stays where it is, so its result does not depend on
   which halting index is taken *)
Lemma seq_stutter e : halts_at e -> forall e', e <= e' -> seq_at e' = seq_at e.
Proof.
  intros He. induction 1 as [|e' Hle IH]; auto.
  simpl. rewrite IH. unfold Machine.halts_at, halts in He. unfold adv.
  destruct (nth_error text (s_pc (seq_at e))) as [i|]; auto.
  unfold is_ret in He. destruct (kind i); auto; discriminate.
Qed.

Lemma halts_unique e e' : halts_at e -> halts_at e' -> seq_at e = seq_at e'.
Proof.
  intros He He'. destruct (Nat.le_ge_cases e e').
  - symmetry. now apply seq_stutter.
  - now apply seq_stutter.
Qed.

Definition on_path (s : state) (t : nat) : Prop :=
  t <= nxt s /\ forall k, k < t -> ipc s k = path k.

Lemma D_path s n : (forall k, k < n -> ipc s k = path k) -> D s n = seq_rf n.
Proof.
  induction n as [|n IH]; intros H; [reflexivity|].
  rewrite D_S, seq_rf_S, IH by (intros; apply H; lia).
  unfold Machine.ins. now rewrite H by lia.
Qed.

Definition caseA (s : state) (t : nat) : Prop :=
  t = nxt s /\ ((forall j, j < nxt s -> is_ret (ins s j) = false) -> cur s = path (nxt s)).
Definition caseB (s : state) (t : nat) : Prop :=
  exists b, S b = t /\ unres s b /\ value (ins s b) (seq_rf b) <> 0%Z.

(* a ret instance stays dispatched until the exit or a squash *)
Definition RetDisp (s : state) : Prop :=
  forall j, j < nxt s -> is_ret (ins s j) = true -> exists fw, stat s j = Disp fw.

Definition Halt (s : state) : Prop :=
  exists e, halts_at e /\ (forall r, D s (nxt s) r = seq_rf e r) /\
            (forall j r, pending s j -> ~ writes s j r).

Definition PathInv (s : state) : Prop :=
  (exists t, on_path s t /\ (caseA s t \/ caseB s t)) /\ RetDisp s /\
  (halted s = true -> Halt s).

(* the three parts of PathInv *)
Lemma pathinv_prefix s : PathInv s -> exists t, on_path s t /\ (caseA s t \/ caseB s t).
Proof. intros H. apply H. Qed.
Lemma pathinv_ret s j : PathInv s ->
  j < nxt s -> is_ret (ins s j) = true -> exists fw, stat s j = Disp fw.
Proof. intros H. apply H. Qed.
Lemma pathinv_halt s : PathInv s -> halted s = true -> Halt s.
Proof. intros H. apply H. Qed.

(* what the path argument needs from the data side: an executed instance holds the
   stream-sequential result; and the exit waits for every older instance *)
Definition ExecOK (s : state) : Prop := forall j v, stat s j = Exec v -> v = dval s j.
Definition exit_drains : Prop :=
  forall s e, exit_ok P s e = true -> forall j, j < e -> pendingb s j = false.
Hypothesis HX : exit_drains.

Lemma path_init : PathInv (init rf0).
Proof.
  split; [|split].
  - exists 0. split.
    + split; simpl; auto. intros; lia.
    + left. split; reflexivity.
  - intros j Hj. simpl in Hj. lia.
  - simpl. discriminate.
Qed.

(* the outcome computed for a true-path branch is the sequential one *)
Lemma branch_outcome s b v t : ExecOK s -> on_path s t -> b < t ->
  stat s b = Exec v -> v = value (ins s b) (seq_rf b).
Proof.
  intros I [_ Hp] Hb Hs. rewrite (I b v Hs). unfold InvDefs.dval.
  rewrite D_path; auto. intros; apply Hp; lia.
Qed.

Lemma kind_not_ret i t : kind i = Branch t -> is_ret i = false.
Proof. unfold is_ret. now intros ->. Qed.

Lemma path_dispatch s fw : Base text s -> PathInv s -> halted s = false ->
  cur s < length text -> no_ret text s = true -> PathInv (do_dispatch text s fw).
Proof.
  intros B ((t & [Ht Hp] & Hc) & HR & _) Hh Hcur Hnr.
  set (s' := do_dispatch text s fw). set (k := nxt s).
  assert (Hins : forall j, j <> k -> ins s' j = ins s j) by (intros; now apply ins_dispatch_other).
  assert (Hipc : forall j, j <> k -> ipc s' j = ipc s j) by (intros; simpl; now rewrite setf_other).
  split; [|split]; [| |simpl; congruence].
  - destruct Hc as [[-> Hc]|(b & Hb & Hub & Htk)].
    + (* on the true path *)
      assert (Hcp : cur s = path k) by (apply Hc; apply no_ret_spec; auto).
      assert (Hpk : ipc s' k = path k) by (simpl; now rewrite setf_same).
      assert (Hp' : forall j, j < S k -> ipc s' j = path j).
      { intros j Hj. destruct (Nat.eq_dec j k) as [->|]; auto. rewrite Hipc by auto.
        apply Hp. fold k. lia. }
      assert (Hat : ins s' k = at_pc (path k)) by (unfold Machine.ins; now rewrite Hpk).
      assert (Hnn : nth_error text (path k) <> None).
      { rewrite <- Hcp. apply nth_error_Some. exact Hcur. }
      exists (S k). split; [split; simpl; auto|].
      destruct (kind (at_pc (path k))) as [|tg|] eqn:K.
      * left. split; [reflexivity|]. intros _. simpl. fold k. rewrite Hcp. symmetry.
        now apply path_plain.
      * destruct (Z.eqb_spec (value (at_pc (path k)) (seq_rf k)) 0) as [E|E].
        -- left. split; [reflexivity|]. intros _. simpl. fold k. rewrite Hcp.
           rewrite (path_branch k tg K). apply Z.eqb_eq in E. now rewrite E.
        -- right. exists k. split; auto. split.
           ++ apply unres_iff. split.
              ** apply (pending_dispatch text); auto.
              ** rewrite Hat. unfold is_branch. now rewrite K.
           ++ now rewrite Hat.
      * left. split; [reflexivity|]. intros Hno. exfalso.
        specialize (Hno k). simpl in Hno. fold k in Hno. specialize (Hno ltac:(lia)).
        rewrite Hat in Hno. unfold is_ret in Hno. rewrite K in Hno. discriminate.
    + (* in the shadow of a truly taken branch *)
      assert (Hbk : b < k) by (subst t; fold k in Ht; lia).
      exists t. split; [split; [simpl; lia|]|].
      * intros j Hj. rewrite Hipc by (fold k in Ht; lia). now apply Hp.
      * right. exists b. split; auto. split.
        -- apply unres_iff in Hub. destruct Hub as [H1 H2]. apply unres_iff.
           rewrite Hins by lia. split; auto. apply (pending_dispatch text); auto.
        -- rewrite Hins by lia. exact Htk.
  - intros j Hj Hr. simpl in Hj. fold k in Hj. destruct (Nat.eq_dec j k) as [->|Hne].
    + exists fw. simpl. now rewrite setf_same.
    + rewrite Hins in Hr by auto. destruct (HR j ltac:(fold k; lia) Hr) as [fw0 H0].
      exists fw0. simpl. now rewrite setf_other.
Qed.

(* transitions that keep the stream and only move one instance between in-flight states,
   or retire an instance that is neither a ret nor the unresolved branch of case B *)
Lemma path_keep s s' j :
  PathInv s -> halted s = false -> halted s' = false ->
  nxt s' = nxt s -> cur s' = cur s -> ipc s' = ipc s ->
  (forall x, x <> j -> stat s' x = stat s x) ->
  is_ret (ins s j) = false ->
  (forall b, unres s b -> value (ins s b) (seq_rf b) <> 0%Z -> b = j ->
             on_path s (S b) -> pending s' j) ->
  PathInv s'.
Proof.
  intros ((t & [Ht Hp] & Hc) & HR & _) Hh Hh' Hn Hcu Hi Hst Hnr Hj.
  assert (Hins : forall x, ins s' x = ins s x) by (intros; unfold Machine.ins; now rewrite Hi).
  split; [|split]; [| |congruence].
  - exists t. split; [split; [lia|intros; rewrite Hi; auto]|].
    destruct Hc as [[-> Hc]|(b & Hb & Hub & Htk)].
    + left. split; auto. rewrite Hn, Hcu. intros Hno. apply Hc.
      intros x Hx. rewrite <- Hins. now apply Hno.
    + right. exists b. split; auto. rewrite Hins. split; auto.
      apply unres_iff in Hub. destruct Hub as [H1 H2]. apply unres_iff. rewrite Hins.
      split; auto. destruct (Nat.eq_dec b j) as [->|Hne].
      * apply (Hj j); auto.
        -- apply unres_iff; auto.
        -- split; [lia|]. intros; apply Hp; lia.
      * unfold pending, pendingb in *. now rewrite Hst.
  - intros x Hx Hr. rewrite Hn in Hx. rewrite Hins in Hr.
    destruct (HR x Hx Hr) as [fw0 H0]. exists fw0. rewrite Hst; auto.
    intros ->. congruence.
Qed.

Lemma path_commit s lim : PathInv s -> halted s = false -> PathInv (do_commit s lim).
Proof.
  intros H Hh. destruct H as ((t & Hp & Hc) & HR & _).
  split; [|split]; [| |simpl; congruence].
  - exists t. split; [exact Hp|]. destruct Hc as [Hc|Hc]; [left|right]; exact Hc.
  - exact HR.
Qed.

Lemma path_resolve_t s b v tg : Base text s -> ExecOK s -> PathInv s -> halted s = false ->
  stat s b = Exec v -> kind (ins s b) = Branch tg -> v <> 0%Z ->
  PathInv (mark_done text (squash text s b tg) b).
Proof.
  intros B I ((t & [Ht Hp] & Hc) & HR & _) Hh Hs Hk Hv.
  set (s' := mark_done text (squash text s b tg) b).
  assert (Hb : b < nxt s) by (apply (stat_lt text s b B); congruence).
  assert (Hins : forall x, ins s' x = ins s x) by reflexivity.
  split; [|split]; [| |simpl; congruence].
  - destruct (Nat.lt_ge_cases b t) as [Hbt|Hbt].
    + (* a true-path branch: the sequential run takes it too *)
      assert (Hvb : v = value (ins s b) (seq_rf b)).
      { apply (branch_outcome s b v t I); auto. split; auto. }
      assert (Hat : ins s b = at_pc (path b)) by (unfold Machine.ins; rewrite Hp; auto).
      exists (S b). split; [split; [simpl; lia|intros; apply Hp; lia]|].
      left. split; [reflexivity|]. intros _. simpl.
      rewrite Hat in Hk. rewrite (path_branch b tg Hk).
      rewrite <- Hat, <- Hvb. destruct (Z.eqb_spec v 0); [contradiction|reflexivity].
    + (* a wrong-path branch: the unresolved true-path branch stays *)
      destruct Hc as [[-> _]|(b0 & Hb0 & Hub & Htk)]; [lia|].
      exists t. split; [split; [simpl; lia|exact Hp]|].
      right. exists b0. split; auto. rewrite Hins. split; auto.
      apply unres_iff in Hub. destruct Hub as [H1 H2]. apply unres_iff. rewrite Hins.
      split; auto. unfold pending, pendingb in *. simpl.
      rewrite setf_other by lia. destruct (Nat.leb_spec b0 b); auto. lia.
  - intros x Hx Hr. simpl in Hx. rewrite Hins in Hr.
    destruct (HR x ltac:(lia) Hr) as [fw0 H0]. exists fw0. simpl.
    assert (x <> b).
    { intros ->. rewrite (kind_not_ret _ _ Hk) in Hr. discriminate. }
    rewrite setf_other by auto. destruct (Nat.leb_spec x b); auto. lia.
Qed.

Lemma no_unres_caseA s t : (caseA s t \/ caseB s t) ->
  (forall u, ~ unres s u) -> caseA s t.
Proof. intros [H|(b & _ & Hu & _)] Hn; auto. exfalso. exact (Hn b Hu). Qed.

(* Exit: no branch is unresolved, so the whole stream is the true path; it remains to show that
   the sequential run halts where the stream ends *)
Lemma path_exit s : PathInv s -> (forall u, ~ unres s u) ->
  ((forall k, k < nxt s -> ipc s k = path k) ->
   ((forall j, j < nxt s -> is_ret (ins s j) = false) -> cur s = path (nxt s)) -> Halt s) ->
  PathInv (do_exit s).
Proof.
  intros ((t & [Ht Hp] & Hc) & HR & _) Hnu HH.
  destruct (no_unres_caseA s t Hc Hnu) as [-> HA].
  split; [|split].
  - exists (nxt s). split; [split; auto|]. left. split; auto.
  - exact HR.
  - intros _. exact (HH Hp HA).
Qed.

Lemma path_exit_ret s e fw : Base text s -> PathInv s ->
  stat s e = Disp fw -> is_ret (ins s e) = true -> exit_ok P s e = true ->
  PathInv (do_exit s).
Proof.
  intros B HP Hs Hr Hx.
  assert (He : e < nxt s) by (apply (stat_lt text s e B); congruence).
  assert (Hen : S e = nxt s) by (apply (b_ret text s B e He Hr)).
  assert (Hpe : forall j, pending s j -> j = e).
  { intros j Hj. assert (j < nxt s) by (apply (pending_lt text s j B Hj)).
    destruct (Nat.eq_dec j e); auto. unfold pending in Hj.
    rewrite (HX s e Hx) in Hj; [discriminate|lia]. }
  assert (Hnw : forall r, ~ writes s e r).
  { intros r. unfold Counts.writes. rewrite ret_no_write; auto. discriminate. }
  apply path_exit; auto.
  - intros u Hu. apply unres_iff in Hu. destruct Hu as [H1 H2].
    rewrite (Hpe u H1) in H2. unfold is_branch in H2. unfold is_ret in Hr.
    destruct (kind (ins s e)); discriminate.
  - intros Hp _. exists e. split; [|split].
    + apply halts_ret. unfold Machine.ins in Hr. rewrite Hp in Hr; auto.
    + intros r. rewrite <- Hen, D_S, apply_other by apply Hnw.
      rewrite D_path; auto. intros; apply Hp; lia.
    + intros j r Hj. rewrite (Hpe j Hj). apply Hnw.
Qed.

Lemma path_exit_end s : Base text s -> PathInv s ->
  length text <= cur s -> all_done s = true -> PathInv (do_exit s).
Proof.
  intros B HP Hcur Hd.
  assert (Hnp : forall j, ~ pending s j).
  { intros j Hj. assert (j < nxt s) by (apply (pending_lt text s j B Hj)).
    unfold pending in Hj. rewrite (all_done_spec s Hd) in Hj; auto. discriminate. }
  assert (Hno : forall j, j < nxt s -> is_ret (ins s j) = false).
  { intros j Hj. destruct (is_ret (ins s j)) eqn:E; auto. exfalso.
    destruct (pathinv_ret s j HP Hj E) as [fw0 H0]. apply (Hnp j). eapply disp_pending; eauto. }
  apply path_exit; auto.
  - intros u Hu. apply unres_iff in Hu. destruct Hu as [H1 _]. exact (Hnp u H1).
  - intros Hp HA. exists (nxt s). split; [|split].
    + apply halts_end. rewrite <- (HA Hno). exact Hcur.
    + intros r. now rewrite D_path.
    + intros j r Hj. destruct (Hnp j Hj).
Qed.

Lemma path_step s s' : Base text s -> ExecOK s -> PathInv s ->
  step text P s s' -> fin s' = false -> PathInv s'.
Proof.
  intros B I HP H Hfin. inversion H; subst; clear H.
  - now apply path_dispatch.
  - apply (path_keep s _ j); auto; simpl; auto.
    + intros x Hx. now rewrite setf_other.
    + intros _ _ _ _ _. unfold pending, pendingb. simpl. now rewrite setf_same.
  - assert (Hnr : is_ret (ins s j) = false).
    { destruct (is_ret (ins s j)) eqn:E; auto. exfalso.
      assert (Hj : j < nxt s) by (apply (stat_lt text s j B); congruence).
      destruct (pathinv_ret s j HP Hj E) as [fw0 Hd0]. congruence. }
    apply (path_keep s _ j); auto; simpl; auto.
    + intros x Hx. now rewrite setf_other.
    + intros b Hub _ -> _. apply unres_iff in Hub. destruct Hub as [_ Hub]. congruence.
  - unfold do_resolve_t. apply path_commit; [|exact H0].
    eapply path_resolve_t; eauto.
  - unfold do_resolve_nt. apply path_commit; [|exact H0].
    apply (path_keep s _ b); auto; simpl; auto.
    + intros x Hx. now rewrite setf_other.
    + now apply (kind_not_ret _ t).
    + intros b0 Hub Htk -> Hop. exfalso. apply Htk.
      rewrite <- (branch_outcome s b 0%Z (S b) I Hop); auto.
  - eapply path_exit_ret; eauto.
  - now apply path_exit_end.
  - simpl in Hfin. discriminate.
Qed.

Hypothesis HE : forall s, reach text rf0 P s -> fin s = false -> ExecOK s.

Theorem path_inv_gen s : reach text rf0 P s -> fin s = false -> PathInv s.
Proof.
  induction 1 as [|s s' R IH H]; intros Hf; [apply path_init|].
  assert (Hf0 : fin s = false) by (eapply fin_step; eauto).
  apply (path_step s s'); auto.
  eapply reach_base; eauto.
Qed.

Lemma fin_halted s : reach text rf0 P s -> fin s = true -> halted s = true.
Proof.
  induction 1 as [|s s' R IH H]; simpl; [discriminate|].
  inversion H; subst; simpl; auto.
Qed.

Lemma fin_origin s : reach text rf0 P s -> fin s = true ->
  exists s0, reach text rf0 P s0 /\ fin s0 = false /\ halted s0 = true /\ s = do_finish s0.
Proof.
  induction 1 as [|s s' R IH H]; simpl; [discriminate|]. intros Hf.
  destruct (fin s) eqn:E.
  - exfalso. assert (Hh : halted s = true) by (apply fin_halted; auto).
    inversion H; subst; congruence.
  - inversion H; subst; simpl in Hf; try congruence.
    exists s. auto.
Qed.

(* what Finish commits, when only instances that write nothing are still in flight, is the
   stream-sequential file *)
Hypothesis HF : forall s, reach text rf0 P s -> fin s = false -> halted s = true ->
  (forall j r, pending s j -> ~ writes s j r) ->
  forall r, viewc (sb s) (rf s) (nxt s) r = D s (nxt s) r.

Theorem ooo_correct_gen s : reach text rf0 P s -> fin s = true ->
  exists e, halts_at e /\ forall r, rf s r = seq_rf e r.
Proof.
  intros R Hf. destruct (fin_origin s R Hf) as (s0 & R0 & Hf0 & Hh0 & ->).
  destruct (pathinv_halt s0 (path_inv_gen s0 R0 Hf0) Hh0) as (e & He & HD & Hnw).
  exists e. split; auto. intros r. simpl.
  rewrite <- HD. now apply HF.
Qed.

End Path.

Section Correct.
Variable text : list instr.
Variable rf0 : rfile.
Variable P : policy.
Hypothesis SP : sound_policy text rf0 P.

Lemma sound_exec_ok s : reach text rf0 P s -> fin s = false -> ExecOK text rf0 s.
Proof. intros R Hf. exact (i_exec _ _ _ _ (reach_inv text rf0 P SP s R Hf)). Qed.

Theorem path_inv s : reach text rf0 P s -> fin s = false -> PathInv text rf0 s.
Proof. apply (path_inv_gen text rf0 P (sp_exit _ _ _ SP) sound_exec_ok). Qed.

(* C01 for the abstract machine / C03 wrong_path_invisible / C09 exit_complete:
   every schedule of a sound policy ends in the sequential architectural register file *)
Theorem ooo_correct s : reach text rf0 P s -> fin s = true ->
  exists e, halts_at text rf0 e /\ forall r, rf s r = seq_rf text rf0 e r.
Proof.
  apply (ooo_correct_gen text rf0 P (sp_exit _ _ _ SP) sound_exec_ok).
  intros s0 R Hf _ Hnw r.
  apply (i_clean _ _ _ _ (reach_inv text rf0 P SP s0 R Hf) (nxt s0) r (safe_top text s0)).
  intros j _ Hj. apply Hnw. exact Hj.
Qed.

End Correct.
