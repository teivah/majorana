(* Ooo/Refute.v - kernel-checked refutations: for each discipline the Go code really has and the
   DESIGN lists as unsound, a concrete small program and a concrete schedule (a list of
   transitions of the abstract machine under that policy) that ends in a final state different
   from the sequential one.  Every witness is closed by vm_compute. *)
From Coq Require Import ZArith List Lia Arith Bool.
From Maj Require Import Ooo.Machine Ooo.Run Ooo.Path Ooo.Policies.
Import ListNotations.

Definition li (d : reg) (c : Z) : instr :=
  {| srcs := []; dst := Some d; sem := fun _ => c; kind := Plain |}.
Definition addi (d s : reg) (c : Z) : instr :=
  {| srcs := [s]; dst := Some d; sem := fun l => (hd 0%Z l + c)%Z; kind := Plain |}.
Definition add (d s1 s2 : reg) : instr :=
  {| srcs := [s1; s2]; dst := Some d; sem := fun l => (hd 0%Z l + hd 0%Z (tl l))%Z; kind := Plain |}.
Definition bnez (s : reg) (t : nat) : instr :=
  {| srcs := [s]; dst := None; sem := fun l => hd 0%Z l; kind := Branch t |}.
Definition ret : instr :=
  {| srcs := []; dst := None; sem := fun _ => 0%Z; kind := Ret |}.

Arguments li d c%Z.
Arguments addi d s c%Z.

Definition regs (l : list (reg * Z)) : rfile :=
  fun r => match find (fun p => Nat.eqb (fst p) r) l with Some p => snd p | None => 0%Z end.

(* some schedule of policy P on this program reaches a final state whose register r differs
   from the sequential result (the sequential run halts after e steps) *)
Definition refutes (text : list instr) (rf0 : rfile) (P : policy) : Prop :=
  exists s e r, reach text rf0 P s /\ fin s = true /\
                halts_at text rf0 e /\ rf s r <> seq_rf text rf0 e r.

Definition bad (text : list instr) (rf0 : rfile) (e : nat) (r : reg) (s : state) : bool :=
  fin s && halts text (seq_at text rf0 e) && negb (Z.eqb (rf s r) (seq_rf text rf0 e r)).

Lemma refute_by text rf0 P (ls : list label) (e : nat) (r : reg) :
  match run text P ls (init rf0) with Some s => bad text rf0 e r s | None => false end = true ->
  refutes text rf0 P.
Proof.
  intros H. destruct (witness text rf0 P ls (bad text rf0 e r) H) as (s & R & Hb).
  unfold bad in Hb. apply andb_prop in Hb. destruct Hb as [Hb H3].
  apply andb_prop in Hb. destruct Hb as [H1 H2].
  exists s, e, r. repeat split; auto.
  apply negb_true_iff in H3. now apply Z.eqb_neq.
Qed.

(* the sequential result does not depend on the halting index (Path.halts_unique), so a
   refutation contradicts ooo_correct's conclusion *)
Theorem refutes_not_correct text rf0 P : refutes text rf0 P ->
  ~ (forall s, reach text rf0 P s -> fin s = true ->
       exists e, halts_at text rf0 e /\ forall r, rf s r = seq_rf text rf0 e r).
Proof.
  intros (s & e & r & R & Hf & He & Hne) H.
  destruct (H s R Hf) as (e' & He' & Heq). apply Hne. rewrite Heq.
  unfold seq_rf. now rewrite (halts_unique text rf0 e e').
Qed.

(* C03: 6.0 / 6.1 write wrong-path results straight into the file *)

(*  0: bnez r1, 3     (r1 = 1: taken)
    1: li   r2, 7     <- wrong path
    2: ret
    3: ret                                   sequential: r2 = 0 *)
Definition shadow_text := [bnez 1 3; li 2 7; ret; ret].
Definition shadow_rf0 := regs [(1, 1%Z)].
Definition shadow_sched :=
  [LDispatch None; LDispatch None;         (* branch, then the wrong-path li *)
   LExecute 1; LWriteBack 1;               (* li completes: r2 := 7 in the FILE *)
   LExecute 0; LResolve 0;                 (* branch taken: squash - nothing left to undo *)
   LDispatch None; LExit 1; LFinish].      (* ret at the target *)

Theorem p60_shadow_writeback_refuted : refutes shadow_text shadow_rf0 (P60 shadow_text).
Proof. apply (refute_by _ _ _ shadow_sched 1 2). vm_compute. reflexivity. Qed.

Theorem p61_shadow_writeback_refuted : refutes shadow_text shadow_rf0 (P61 shadow_text).
Proof. apply (refute_by _ _ _ shadow_sched 1 2). vm_compute. reflexivity. Qed.

Theorem p60_p61_shadow_writeback_refuted :
  refutes shadow_text shadow_rf0 (P60 shadow_text) /\
  refutes shadow_text shadow_rf0 (P61 shadow_text).
Proof. split; [apply p60_shadow_writeback_refuted | apply p61_shadow_writeback_refuted]. Qed.

(* C03: 6.2, one slot per register (D16) *)

(*  0: li   r2, 5
    1: bnez r1, 4     (r1 = 1: taken)
    2: li   r2, 9     <- wrong path, same destination
    3: ret
    4: ret                                   sequential: r2 = 5 *)
Definition oneslot_text := [li 2 5; bnez 1 4; li 2 9; ret; ret].
Definition oneslot_rf0 := regs [(1, 1%Z)].
Definition oneslot_sched :=
  [LDispatch None; LExecute 0; LWriteBack 0;   (* Transaction[r2] = (tag 0, 5), not committed *)
   LDispatch None; LDispatch None;             (* branch; wrong-path li (no hazard: 0 is done) *)
   LExecute 2; LWriteBack 2;                   (* Transaction[r2] = (tag 2, 9): 5 overwritten *)
   LExecute 1; LResolve 1;                     (* Rollback(1): tag 2 dropped - and 5 is gone *)
   LDispatch None; LExit 2; LFinish].

Theorem p62_one_slot_refuted : refutes oneslot_text oneslot_rf0 (P62 oneslot_text).
Proof. apply (refute_by _ _ _ oneslot_sched 2 2). vm_compute. reflexivity. Qed.

(* C03: commit everything when a branch is not taken (D28) *)

(*  0: bnez r1, 5     (r1 = 1: taken)         outer, resolves late
    1: li   r2, 9     <- wrong path
    2: bnez r3, 5     (r3 = 0: not taken)     inner, in the shadow of the outer one
    3: ret
    4: ret
    5: ret                                   sequential: r2 = 0 *)
Definition nested_text := [bnez 1 5; li 2 9; bnez 3 5; ret; ret; ret].
Definition nested_rf0 := regs [(1, 1%Z)].
Definition nested_sched :=
  [LDispatch None; LDispatch None; LDispatch None;
   LExecute 1; LWriteBack 1;               (* buffer: (tag 1, r2, 9) *)
   LExecute 2; LResolve 2;                 (* inner not taken: Commit() - r2 := 9 in the file *)
   LExecute 0; LResolve 0;                 (* outer taken: nothing left in the buffer to drop *)
   LDispatch None; LExit 1; LFinish].

(* 6.2's commit rule, even on a perfect (full) buffer *)
Theorem commit_all_on_not_taken_refuted : refutes nested_text nested_rf0 (P62ca nested_text).
Proof. apply (refute_by _ _ _ nested_sched 1 2). vm_compute. reflexivity. Qed.

(* and 6.2 itself *)
Theorem p62_commit_all_refuted : refutes nested_text nested_rf0 (P62 nested_text).
Proof. apply (refute_by _ _ _ nested_sched 1 2). vm_compute. reflexivity. Qed.

(* C04: 6.3 dispatches through a single WAW / WAR without renaming (D13) *)

(*  0: li r1, 1
    1: li r1, 2
    2: ret                                   sequential: r1 = 2 *)
Definition waw_text := [li 1 1; li 1 2; ret].
Definition waw_rf0 := regs [].
Definition waw_sched :=
  [LDispatch None; LDispatch None;         (* second li: the only hazard is one WAW -> pushed *)
   LExecute 0; LExecute 1;
   LWriteBack 1; LWriteBack 0;             (* the OLDER write arrives last and wins *)
   LDispatch None; LExit 2; LFinish].

Theorem p63_waw_refuted : refutes waw_text waw_rf0 (P63 waw_text).
Proof. apply (refute_by _ _ _ waw_sched 2 1). vm_compute. reflexivity. Qed.

(* the other write-back order gives the right answer: the result is schedule dependent *)
Definition waw_sched_ok :=
  [LDispatch None; LDispatch None; LExecute 0; LExecute 1;
   LWriteBack 0; LWriteBack 1; LDispatch None; LExit 2; LFinish].
Example p63_waw_other_order :
  match run waw_text (P63 waw_text) waw_sched_ok (init waw_rf0) with
  | Some s => fin s && Z.eqb (rf s 1) 2%Z | None => false end = true.
Proof. vm_compute. reflexivity. Qed.

(*  0: addi r2, r1, 0   (r1 = 3)
    1: li   r1, 7
    2: ret                                   sequential: r2 = 3 *)
Definition war_text := [addi 2 1 0; li 1 7; ret].
Definition war_rf0 := regs [(1, 3%Z)].
Definition war_sched :=
  [LDispatch None; LDispatch None;         (* li: the only hazard is one WAR -> pushed *)
   LExecute 1; LWriteBack 1;               (* r1 = 7 visible *)
   LExecute 0; LWriteBack 0;               (* the older reader now reads 7 *)
   LDispatch None; LExit 2; LFinish].

Theorem p63_war_refuted : refutes war_text war_rf0 (P63 war_text).
Proof. apply (refute_by _ _ _ war_sched 2 2). vm_compute. reflexivity. Qed.

(* with two writers of r1 in flight the guard of shouldUseForwarding accepts BOTH as source
   (forward_unique fails: the Go map iteration decides), and the older one gives a wrong value
     0: li r1, 1    1: li r1, 2    2: addi r2, r1, 0        sequential: r2 = 2 *)
Definition amb_text := [li 1 1; li 1 2; addi 2 1 0].
Definition amb_rf0 := regs [].
Definition amb_state : state :=
  match run amb_text (P63 amb_text) [LDispatch None; LDispatch None] (init amb_rf0) with
  | Some s => s | None => init amb_rf0 end.

Theorem p63_forward_ambiguous :
  reach amb_text amb_rf0 (P63 amb_text) amb_state /\
  guard61 amb_text amb_state (Some (0, 1)) = true /\
  guard61 amb_text amb_state (Some (1, 1)) = true.
Proof.
  split; [apply run_or_init_reach|split; vm_compute; reflexivity].
Qed.

Definition amb_sched :=
  [LDispatch None; LDispatch None; LDispatch (Some (0, 1));   (* forward from the OLDER li *)
   LExecute 0; LExecute 1; LExecute 2;
   LWriteBack 0; LWriteBack 1; LWriteBack 2; LExitEnd; LFinish].

Theorem p63_forward_source_refuted : refutes amb_text amb_rf0 (P63 amb_text).
Proof. apply (refute_by _ _ _ amb_sched 3 2). vm_compute. reflexivity. Qed.

(* C09: exit without waiting for older instances (D17 / D29) *)

(*  0: li r1, 5
    1: ret                                   sequential: r1 = 5 *)
Definition tail_text := [li 1 5; ret].
Definition tail_rf0 := regs [].
Definition tail_sched :=
  [LDispatch None; LDispatch None;
   LExecute 0;                             (* result on its way to a write unit *)
   LExit 1; LFinish].                      (* ret ends the run: the result is lost *)

Theorem exit_without_drain_refuted : refutes tail_text tail_rf0 (P60x tail_text).
Proof. apply (refute_by _ _ _ tail_sched 1 1). vm_compute. reflexivity. Qed.

(* with the drain guard the same schedule is rejected ... *)
Example exit_drain_blocks :
  run tail_text (P60 tail_text) tail_sched (init tail_rf0) = None.
Proof. vm_compute. reflexivity. Qed.
(* ... and the completed one gives the sequential result *)
Example exit_drain_ok :
  match run tail_text (P60 tail_text)
            [LDispatch None; LDispatch None; LExecute 0; LWriteBack 0; LExit 1; LFinish]
            (init tail_rf0) with
  | Some s => fin s && Z.eqb (rf s 1) 5%Z | None => false end = true.
Proof. vm_compute. reflexivity. Qed.
