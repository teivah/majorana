(* Ooo/InvDefs.v - the master invariant of the abstract machine (stream level) and the
   hypotheses on a policy under which it is inductive (sound_policy).

   The invariant is stated relative to the FETCH STREAM: D s k = the register file obtained by
   executing instances 0..k-1 of the stream one after the other.  Wrong-path instances are not
   special at this level: they are simply younger instances, and the buffer discipline has to
   make every cut of the stream just after an unresolved branch recoverable.  That is what the
   cut-indexed conjuncts i_clean / i_dirty say: for every SAFE cut c (c = nxt, or c is above some
   unresolved branch) the registers as seen through the buffered writes of instances < c hold
   the stream-sequential values.  Ooo/Path.v relates the stream to the true path. *)
From Coq Require Import ZArith List Lia Arith Bool.
From Maj Require Import Ooo.Machine Ooo.Counts.
Import ListNotations.

Inductive bsorted : list entry -> Prop :=
| bs_nil : bsorted []
| bs_cons e l : (forall e', In e' l -> ereg e' = ereg e -> etag e' < etag e) ->
                bsorted l -> bsorted (e :: l).

Lemma bsorted_filter p l : bsorted l -> bsorted (filter p l).
Proof.
  induction 1 as [|e l H Hs IH]; simpl; [constructor|].
  destruct (p e); auto. constructor; auto.
  intros e' He'. apply filter_In in He'. destruct He'. now apply H.
Qed.

Lemma viewc_nil f c r : viewc [] f c r = f r.
Proof. reflexivity. Qed.

Lemma viewc_cons e sb f c r :
  viewc (e :: sb) f c r = if hit c r e then eval e else viewc sb f c r.
Proof. unfold viewc. simpl. destruct (hit c r e); reflexivity. Qed.

Lemma viewc_fext sb f g c r : f r = g r -> viewc sb f c r = viewc sb g c r.
Proof. unfold viewc. destruct (find (hit c r) sb); auto. Qed.

Lemma viewc_noreg sb f c r : (forall e, In e sb -> ereg e <> r) -> viewc sb f c r = f r.
Proof.
  induction sb as [|e sb IH]; intros H; [reflexivity|].
  rewrite viewc_cons. unfold hit.
  destruct (Nat.eqb_spec (ereg e) r) as [E|E].
  - exfalso. apply (H e); simpl; auto.
  - rewrite andb_false_r. apply IH. intros e' He'. apply H. simpl; auto.
Qed.

Lemma viewc_mono sb f c1 c2 r :
  (forall e, In e sb -> etag e < c1) -> c1 <= c2 -> viewc sb f c2 r = viewc sb f c1 r.
Proof.
  induction sb as [|e sb IH]; intros H Hc; [reflexivity|].
  rewrite !viewc_cons. unfold hit.
  assert (He : etag e < c1) by (apply H; simpl; auto).
  destruct (Nat.ltb_spec (etag e) c1); [|lia].
  destruct (Nat.ltb_spec (etag e) c2); [|lia].
  simpl. destruct (ereg e =? r); auto. apply IH; auto. intros; apply H; simpl; auto.
Qed.

Lemma viewc_rollback sb f b c r : c <= S b -> viewc (rollback b sb) f c r = viewc sb f c r.
Proof.
  intros Hc. induction sb as [|e sb IH]; [reflexivity|].
  unfold rollback in *. simpl. rewrite viewc_cons.
  destruct (Nat.leb_spec (etag e) b).
  - rewrite viewc_cons. destruct (hit c r e); auto.
  - unfold hit. destruct (Nat.ltb_spec (etag e) c); [lia|]. simpl. exact IH.
Qed.

Lemma viewc_commit sb f lim c r : bsorted sb -> lim <= c ->
  viewc (fst (commit lim sb f)) (snd (commit lim sb f)) c r = viewc sb f c r.
Proof.
  unfold commit. simpl. intros Hs Hc. induction Hs as [|e sb He Hs IH]; [reflexivity|].
  simpl. destruct (Nat.ltb_spec (etag e) lim) as [Hlt|Hge]; simpl.
  - (* e is committed *)
    rewrite (viewc_cons e sb f c r). unfold hit.
    destruct (Nat.ltb_spec (etag e) c); [|lia]. simpl.
    destruct (Nat.eqb_spec (ereg e) r) as [E|E].
    + rewrite viewc_noreg.
      * rewrite viewc_cons. unfold hit. rewrite (proj2 (Nat.ltb_lt _ _) Hlt).
        rewrite (proj2 (Nat.eqb_eq _ _) E). reflexivity.
      * intros e' He' Er. apply filter_In in He'. destruct He' as [Hin Hk].
        assert (etag e' < etag e) by (apply He; auto; congruence).
        apply negb_true_iff in Hk. apply Nat.ltb_ge in Hk. lia.
    + rewrite <- IH. apply viewc_fext. rewrite viewc_cons. unfold hit.
      rewrite (proj2 (Nat.eqb_neq _ _) E). now rewrite andb_false_r.
  - (* e stays *)
    rewrite !viewc_cons. destruct (hit c r e) eqn:Eh; auto.
    rewrite <- IH. apply viewc_fext. rewrite viewc_cons. unfold hit.
    rewrite (proj2 (Nat.ltb_ge _ _) Hge). reflexivity.
Qed.

Section Inv.
Variable text : list instr.
Variable rf0 : rfile.
Variable P : policy.

Notation pending := (pending).
Notation writes := (writes text).
Notation reads := (reads text).
Notation unres := (unres text).
Notation ins := (ins text).

Definition D (s : state) (k : nat) : rfile := dyn text rf0 (ipc s) k.
Definition dval (s : state) (j : nat) : Z := value (ins s j) (D s j).

Lemma dyn_ext ip ip' n : (forall k, k < n -> ip k = ip' k) -> dyn text rf0 ip n = dyn text rf0 ip' n.
Proof.
  induction n as [|n IH]; intros H; simpl; auto.
  rewrite IH, H; auto.
Qed.

Lemma apply_other i f r : wr i <> Some r -> apply i f r = f r.
Proof.
  unfold apply. destruct (wr i) as [d|]; auto. intros H. apply upd_other. congruence.
Qed.

Lemma apply_same i f r : wr i = Some r -> apply i f r = value i f.
Proof. unfold apply. intros ->. apply upd_same. Qed.

Lemma D_S s k : D s (S k) = apply (ins s k) (D s k).
Proof. reflexivity. Qed.

Lemma D_stable s a b r : a <= b -> (forall m, a <= m < b -> ~ writes s m r) -> D s b r = D s a r.
Proof.
  induction 1 as [|b Hle IH]; intros H; auto.
  rewrite D_S, apply_other.
  - apply IH. intros m Hm. apply H. lia.
  - apply (H b). lia.
Qed.

Lemma D_write s j r : writes s j r -> D s (S j) r = dval s j.
Proof. intros H. rewrite D_S. now apply apply_same. Qed.

Lemma D_last_writer s j m r : m < j -> writes s m r ->
  (forall m', m < m' < j -> ~ writes s m' r) -> D s j r = dval s m.
Proof.
  intros Hm Hw Hno. rewrite <- (D_write s m r Hw).
  apply D_stable; [lia|]. intros x Hx. apply Hno. lia.
Qed.

Lemma D_ext s s' n : (forall k, k < n -> ipc s' k = ipc s k) -> D s' n = D s n.
Proof. intros H. unfold D. now apply dyn_ext. Qed.

Lemma dval_ext s s' j : (forall k, k <= j -> ipc s' k = ipc s k) -> dval s' j = dval s j.
Proof.
  intros H. unfold dval, ins. rewrite H by lia. rewrite (D_ext s s'); auto.
  intros; apply H; lia.
Qed.

(* dispatch extends the stream and leaves what precedes the new instance as it is *)
Lemma D_dispatch s fw c : c <= nxt s -> D (do_dispatch text s fw) c = D s c.
Proof. intros H. apply D_ext. intros k Hk. simpl. rewrite setf_other; auto. lia. Qed.

Lemma dval_dispatch s fw j : j < nxt s -> dval (do_dispatch text s fw) j = dval s j.
Proof. intros H. apply dval_ext. intros k Hk. simpl. rewrite setf_other; auto. lia. Qed.

Lemma writes_dec s j r : {writes s j r} + {~ writes s j r}.
Proof.
  unfold Counts.writes. destruct (wr (ins s j)) as [d|].
  - destruct (Nat.eq_dec d r); [left|right]; congruence.
  - right. discriminate.
Qed.

Definition safe (s : state) (c : nat) : Prop :=
  c <= nxt s /\ (c = nxt s \/ exists u, u < c /\ unres s u).

Lemma safe_top s : safe s (nxt s).
Proof. split; auto. Qed.

Lemma safe_after_dispatch s fw c : Base text s ->
  safe (do_dispatch text s fw) c -> c = S (nxt s) \/ (c <= nxt s /\ safe s c).
Proof.
  intros B [H1 H2]. simpl in H1. destruct (Nat.eq_dec c (S (nxt s))) as [|Hne]; auto. right.
  assert (c <= nxt s) by lia. split; auto. split; auto.
  destruct H2 as [H2|(u & Hu1 & Hu2)]; [simpl in H2; lia|].
  right. exists u. split; auto.
  destruct (unres_dispatch text s fw u B Hu2) as [->|[_ ?]]; auto. lia.
Qed.

Lemma safe_same s s' c : nxt s' = nxt s -> (forall u, unres s' u <-> unres s u) ->
  (safe s' c <-> safe s c).
Proof.
  intros Hn Hu. unfold safe. rewrite Hn.
  split; intros [H1 [H2|(u & Hu1 & Hu2)]]; split; auto; right; exists u; split; auto;
    now apply Hu.
Qed.

Record Inv (s : state) : Prop := {
  (* a pending writer of r is the last writer of r in the stream *)
  i_waw : forall j r, pending s j -> writes s j r -> forall m, j < m < nxt s -> ~ writes s m r;
  (* a pending reader of r has no younger writer of r in the stream *)
  i_war : forall j r, pending s j -> reads s j r -> forall m, j < m < nxt s -> ~ writes s m r;
  (* at every safe cut, a register without pending writer below the cut is up to date ... *)
  i_clean : forall c r, safe s c -> (forall j, j < c -> pending s j -> ~ writes s j r) ->
            viewc (sb s) (rf s) c r = D s c r;
  (* ... and a register with a pending writer j still has the value before j *)
  i_dirty : forall c j r, safe s c -> j < c -> pending s j -> writes s j r ->
            viewc (sb s) (rf s) c r = D s j r;
  (* no older pending writer of a source that is not forwarded *)
  i_raw : forall i fw r, stat s i = Disp fw -> reads s i r -> (forall p, fw <> Some (p, r)) ->
          forall j, j < i -> pending s j -> ~ writes s j r;
  (* the forwarding source is the last older writer of the forward register *)
  i_fwd : forall i p r, stat s i = Disp (Some (p, r)) ->
          p < i /\ writes s p r /\ forall m, p < m < i -> ~ writes s m r;
  i_exec : forall j v, stat s j = Exec v -> v = dval s j;
  i_res : forall j v, j < nxt s -> res s j = Some v -> v = dval s j;
  (* buffered writes belong to written-back writers of the stream *)
  i_sb : forall e, In e (sb s) ->
         etag e < nxt s /\ stat s (etag e) = Done /\ writes s (etag e) (ereg e);
  i_sorted : bsorted (sb s);
  (* without a buffer nothing is in flight behind an unresolved branch *)
  i_direct : bufm P = NoBuf -> sb s = [] /\ forall u, unres s u -> S u = nxt s
}.

(* what a policy must guarantee *)
Record safe_dispatch (s : state) (fw : option (nat * reg)) : Prop := {
  sd_raw : forall r, In r (srcs (cur_ins text s)) ->
           forall j, pending s j -> writes s j r -> fw = Some (j, r);
  sd_waw : forall d, wr (cur_ins text s) = Some d -> forall j, pending s j -> ~ writes s j d;
  sd_war : forall d, wr (cur_ins text s) = Some d -> forall j, pending s j -> ~ reads s j d;
  sd_fw : forall p r, fw = Some (p, r) -> pending s p /\ writes s p r
}.

Record sound_policy : Prop := {
  sp_dispatch : forall s fw, Base text s -> counts_ok text s -> Inv s ->
                dispatch_ok P s fw = true -> safe_dispatch s fw;
  (* either every write is buffered, or nothing is dispatched past an unresolved branch *)
  sp_buf : bufm P = Full \/
           (bufm P = NoBuf /\
            forall s fw, Base text s -> dispatch_ok P s fw = true -> forall u, ~ unres s u);
  sp_commit : commit_all P = false;
  sp_exit : forall s e, exit_ok P s e = true -> forall j, j < e -> pendingb s j = false
}.

Lemma pending_uniq s j j' r : Base text s -> Inv s ->
  pending s j -> pending s j' -> writes s j r -> writes s j' r -> j = j'.
Proof.
  intros B I Hp Hp' Hw Hw'.
  destruct (lt_eq_lt_dec j j') as [[H|H]|H]; auto; exfalso.
  - apply (i_waw s I j r Hp Hw j'); auto. split; auto. now apply (pending_lt text).
  - apply (i_waw s I j' r Hp' Hw' j); auto. split; auto. now apply (pending_lt text).
Qed.

(* the value a dispatched instance will read for a source that is not forwarded, at any safe
   cut above it *)
Lemma src_value s i fw r c : Base text s -> Inv s ->
  stat s i = Disp fw -> reads s i r -> (forall p, fw <> Some (p, r)) ->
  safe s c -> i < c -> viewc (sb s) (rf s) c r = D s i r.
Proof.
  intros B I Hs Hr Hnf Hc Hic.
  assert (Hp : pending s i) by (eapply disp_pending; eauto).
  destruct Hc as [Hcn Hc'].
  destruct (writes_dec s i r) as [Hw|Hw].
  - apply (i_dirty s I c i r); auto. split; auto.
  - rewrite (i_clean s I c r).
    + apply D_stable; [lia|]. intros m Hm. destruct (Nat.eq_dec m i) as [->|]; auto.
      apply (i_war s I i r Hp Hr). lia.
    + split; auto.
    + intros j Hj Hpj. destruct (lt_eq_lt_dec j i) as [[H|H]|H].
      * apply (i_raw s I i fw r Hs Hr Hnf j H Hpj).
      * now subst.
      * apply (i_war s I i r Hp Hr). lia.
Qed.

(* the forwarded value is the stream-sequential one *)
Lemma fwd_value s i p r : Inv s -> stat s i = Disp (Some (p, r)) -> D s i r = dval s p.
Proof.
  intros I Hs. destruct (i_fwd s I i p r Hs) as (Hpi & Hw & Hno). now apply D_last_writer.
Qed.

(* C04 raw_value at the stream level: Execute reads, for every declared source, the value the
   stream-sequential execution has just before the instance *)
Lemma rd_value s i fw r : Base text s -> Inv s ->
  stat s i = Disp fw -> fw_ready s fw = true -> reads s i r -> rd s fw r = D s i r.
Proof.
  intros B I Hs Hf Hr.
  assert (Hlt : i < nxt s) by (apply (stat_lt text); auto; congruence).
  unfold rd. destruct fw as [[p fr]|].
  - destruct (Nat.eqb_spec r fr) as [->|Hne].
    + simpl in Hf. destruct (res s p) as [v|] eqn:Er; [|discriminate].
      rewrite (fwd_value s i p fr I Hs).
      destruct (i_fwd s I i p fr Hs) as (Hpi & _).
      apply (i_res s I p v); auto. lia.
    + unfold view. eapply src_value; eauto using safe_top. intros p' E. congruence.
  - unfold view. eapply src_value; eauto using safe_top. discriminate.
Qed.

Lemma exec_value s i fw : Base text s -> Inv s ->
  stat s i = Disp fw -> fw_ready s fw = true -> exec_val text s i fw = dval s i.
Proof.
  intros B I Hs Hf. unfold exec_val, dval, value. f_equal.
  apply map_ext_in. intros r Hr. eapply rd_value; eauto.
Qed.

End Inv.
