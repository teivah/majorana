(* Ooo/Guards.v - what the guards of the Go control units guarantee, given that the stored
   scoreboard counters equal the derived ones (Counts.scoreboard_counts) and the master
   invariant: guard60 / guard61 imply InvDefs.safe_dispatch; forward_unique. *)
From Coq Require Import ZArith List Lia Arith Bool.
From Maj Require Import Ooo.Machine Ooo.Counts Ooo.InvDefs Ooo.Policies.
Import ListNotations.

Section Guards.
Variable text : list instr.
Variable rf0 : rfile.
Variable P : policy.

Notation writes := (writes text).
Notation reads := (reads text).
Notation unres := (unres text).
Notation ins := (ins text).
Notation Inv := (Inv text rf0 P).

Lemma wr_is_spec i r : wr_is i r = true <-> wr i = Some r.
Proof.
  unfold wr_is. destruct (wr i) as [d|].
  - rewrite Nat.eqb_eq. split; congruence.
  - split; discriminate.
Qed.

Lemma no_unres_spec s : Base text s -> no_unres text s = true -> forall u, ~ unres s u.
Proof.
  intros B H u Hu. unfold no_unres in H. rewrite forallb_forall in H.
  assert (Hlt : u < nxt s).
  { apply unres_iff in Hu. apply (pending_lt text s u B). tauto. }
  specialize (H u). rewrite in_seq in H. specialize (H ltac:(lia)).
  unfold Counts.unres in Hu. rewrite Hu in H. discriminate.
Qed.

(* a source register that has a pending writer is in raw_list *)
Lemma raw_list_in s i r : Base text s -> counts_ok text s ->
  In r (srcs i) -> forall j, pending s j -> writes s j r -> In r (raw_list s i).
Proof.
  intros B C Hr j Hp Hw. unfold raw_list. apply filter_In. split; auto.
  apply Nat.ltb_lt. destruct (Nat.eq_dec (pw s r) 0) as [E|]; [|lia].
  exfalso. apply (proj1 (pw_zero text s r B C) E j Hp Hw).
Qed.

Lemma waw_false s i d : Base text s -> counts_ok text s ->
  waw_b s i = false -> wr i = Some d -> forall j, pending s j -> ~ writes s j d.
Proof.
  intros B C H Hd. unfold waw_b in H. rewrite Hd in H. apply Nat.ltb_ge in H.
  apply (pw_zero text s d B C). lia.
Qed.

Lemma war_false s i d : Base text s -> counts_ok text s ->
  war_b s i = false -> wr i = Some d -> forall j, pending s j -> ~ reads s j d.
Proof.
  intros B C H Hd. unfold war_b in H. rewrite Hd in H. apply Nat.ltb_ge in H.
  apply (pr_zero text s d B C). lia.
Qed.

Lemma hazards_le s i n : hazards s i = n ->
  length (raw_list s i) <= n /\
  (length (raw_list s i) = n -> waw_b s i = false /\ war_b s i = false).
Proof.
  unfold hazards. destruct (waw_b s i), (war_b s i); intros; split; auto; lia.
Qed.

Lemma nohazard_safe s : Base text s -> counts_ok text s ->
  hazards s (cur_ins text s) = 0 -> safe_dispatch text s None.
Proof.
  intros B C H. destruct (hazards_le _ _ _ H) as [H1 H2].
  assert (Hl : raw_list s (cur_ins text s) = []).
  { destruct (raw_list s (cur_ins text s)); auto. simpl in H1. lia. }
  rewrite Hl in H2. destruct (H2 eq_refl) as [Hw Hr]. constructor.
  - intros r Hr' j Hp Hwj. exfalso.
    pose proof (raw_list_in s (cur_ins text s) r B C Hr' j Hp Hwj) as Hin.
    rewrite Hl in Hin. contradiction.
  - intros d Hd. eapply waw_false; eauto.
  - intros d Hd. eapply war_false; eauto.
  - discriminate.
Qed.

Lemma guard60_safe s fw : Base text s -> counts_ok text s ->
  guard60 text s fw = true -> safe_dispatch text s fw.
Proof.
  intros B C H. unfold guard60 in H. destruct fw; [discriminate|].
  apply Nat.eqb_eq in H. now apply nohazard_safe.
Qed.

Lemma guard61_safe s fw : Base text s -> counts_ok text s -> Inv s ->
  guard61 text s fw = true -> safe_dispatch text s fw.
Proof.
  intros B C I H. unfold guard61 in H. destruct fw as [[p r]|].
  - repeat (apply andb_prop in H; destruct H as [H ?]).
    apply Nat.eqb_eq in H.
    destruct (raw_list s (cur_ins text s)) as [|r' [|]] eqn:El; try discriminate.
    apply Nat.eqb_eq in H2. subst r'.
    destruct (hazards_le _ _ _ H) as [_ H3]. rewrite El in H3.
    destruct (H3 eq_refl) as [Hw Hr].
    assert (Hwp : writes s p r) by (now apply wr_is_spec).
    constructor.
    + intros r1 Hr1 j Hp Hwj.
      pose proof (raw_list_in s (cur_ins text s) r1 B C Hr1 j Hp Hwj) as Hin.
      rewrite El in Hin. destruct Hin as [<-|[]].
      f_equal. f_equal. apply (pending_uniq text rf0 P s p j r B I); auto.
    + intros d Hd. eapply waw_false; eauto.
    + intros d Hd. eapply war_false; eauto.
    + intros p0 r0 E. inversion E; subst. split; auto.
  - apply Nat.eqb_eq in H. now apply nohazard_safe.
Qed.

(* C04 forward_unique: under the 6.1 / 6.2 guard the forwarding source is determined - there is
   at most one pending writer of the hazard register, so the iteration order of the Go map
   pushedRunnersInPreviousCycle in shouldUseForwarding cannot matter *)
Theorem forward_unique_inv s p r p' r' : Base text s -> counts_ok text s -> Inv s ->
  guard61 text s (Some (p, r)) = true -> guard61 text s (Some (p', r')) = true ->
  p = p' /\ r = r'.
Proof.
  intros B C I H H'.
  pose proof (guard61_safe s _ B C I H) as [_ _ _ Hf].
  pose proof (guard61_safe s _ B C I H') as [_ _ _ Hf'].
  destruct (Hf p r eq_refl) as [Hp Hw]. destruct (Hf' p' r' eq_refl) as [Hp' Hw'].
  unfold guard61 in H, H'.
  repeat (apply andb_prop in H; destruct H as [H ?]).
  repeat (apply andb_prop in H'; destruct H' as [H' ?]).
  destruct (raw_list s (cur_ins text s)) as [|r1 [|]]; try discriminate.
  apply Nat.eqb_eq in H2, H5. subst r r'. split; auto.
  apply (pending_uniq text rf0 P s p p' r1 B I); auto.
Qed.

End Guards.
