(* Ooo/P60.v - the scoreboard policy of proc/mvp6-0.

   sound_P60ns : the guard of 6.0 + "no dispatch past an unresolved branch" is a sound policy,
                 hence (Path.ooo_correct) correct for ALL programs, control flow included.
   p60_correct : the policy of 6.0 AS IT IS is correct on branch-free programs: every schedule
                 gives the sequential register file.  (With branches it is refuted:
                 Refute.p60_p61_shadow_writeback_refuted.) *)
From Coq Require Import ZArith List Lia Arith Bool.
From Maj Require Import Ooo.Machine Ooo.Counts Ooo.InvDefs Ooo.InvSteps Ooo.InvResolve Ooo.Path
  Ooo.Policies Ooo.Guards.
Import ListNotations.

(* a policy that only differs by a stronger dispatch guard *)
Section Sim.
Variable text : list instr.
Variable rf0 : rfile.
Variables P Q : policy.
Hypothesis He : exec_ok P = exec_ok Q.
Hypothesis Hw : wb_ok P = wb_ok Q.
Hypothesis Hx : exit_ok P = exit_ok Q.
Hypothesis Hb : bufm P = bufm Q.
Hypothesis Hc : commit_all P = commit_all Q.

Lemma step_sim s s' :
  (forall fw, dispatch_ok P s fw = true -> dispatch_ok Q s fw = true) ->
  step text P s s' -> step text Q s s'.
Proof.
  intros Hd H.
  destruct H as [s fw | s j fw | s j v | s b v t | s b v t | s e fw | s | s].
  - apply s_dispatch; auto.
  - apply s_execute; auto. now rewrite <- He.
  - replace (do_writeback text P s j v) with (do_writeback text Q s j v)
      by (unfold do_writeback, wb_res; now rewrite Hb).
    apply s_writeback; auto. now rewrite <- Hw.
  - replace (do_resolve_t text P s b t) with (do_resolve_t text Q s b t)
      by (unfold do_resolve_t; now rewrite Hc).
    apply (s_resolve_taken text Q s b v t); auto. now rewrite <- Hw.
  - replace (do_resolve_nt text P s b) with (do_resolve_nt text Q s b)
      by (unfold do_resolve_nt; now rewrite Hc).
    apply (s_resolve_not_taken text Q s b v t); auto. now rewrite <- Hw.
  - apply (s_exit_ret text Q s e fw); auto. now rewrite <- Hx.
  - apply s_exit_end; auto.
  - apply s_finish; auto.
Qed.

Lemma reach_sim :
  (forall s fw, dispatch_ok P s fw = true -> dispatch_ok Q s fw = true) ->
  forall s, reach text rf0 P s -> reach text rf0 Q s.
Proof.
  intros Hd s. induction 1 as [|s s' R IH H]; [constructor|].
  eapply r_step; eauto. eapply step_sim; eauto.
Qed.
End Sim.

Lemma firstn_snoc {A} (l : list A) : forall k i,
  nth_error l k = Some i -> firstn (S k) l = firstn k l ++ [i].
Proof.
  induction l as [|a l IH]; intros [|k] i E; try discriminate; simpl in *.
  - now inversion E.
  - f_equal. now apply IH.
Qed.

Section Straight.
Variable text : list instr.
Variable rf0 : rfile.

Notation halts_at := (halts_at text rf0).
Notation seq_rf := (seq_rf text rf0).
Notation seq_at := (seq_at text rf0).

Definition straight : Prop := forall i, In i text -> is_branch i = false.

Lemma at_pc_straight pc : straight -> is_branch (at_pc text pc) = false.
Proof.
  intros H. unfold at_pc. destruct (nth_in_or_default pc text nop) as [Hin | ->]; auto.
Qed.

Lemma straight_no_unres s : straight -> no_unres text s = true.
Proof.
  intros H. unfold no_unres. apply forallb_forall. intros j _.
  unfold unresb, ins. rewrite at_pc_straight by auto. now rewrite andb_false_r.
Qed.

(* the sequential result of a straight-line program, in closed form *)
Definition plain_text : Prop := forall i, In i text -> kind i = Plain.
Definition run_straight : rfile := fold_left (fun f i => apply i f) text rf0.

Lemma plain_straight : plain_text -> straight.
Proof. intros H i Hi. unfold is_branch. now rewrite (H i Hi). Qed.

Lemma seq_at_prefix : plain_text -> forall k, k <= length text ->
  seq_at k = {| s_pc := k; s_rf := fold_left (fun f i => apply i f) (firstn k text) rf0 |}.
Proof.
  intros Hp. induction k as [|k IH]; intros Hk; [reflexivity|].
  cbn [Machine.seq_at]. rewrite IH by lia. unfold adv. cbn [s_pc s_rf].
  destruct (nth_error text k) as [i|] eqn:E.
  - assert (Hi : In i text) by (eapply nth_error_In; eauto).
    rewrite (Hp i Hi). f_equal. now rewrite (firstn_snoc text k i E), fold_left_app.
  - apply nth_error_None in E. lia.
Qed.

Lemma halts_straight e : plain_text -> halts_at e -> forall r, seq_rf e r = run_straight r.
Proof.
  intros Hp He r.
  assert (Hn : nth_error text (length text) = None) by (apply nth_error_None; lia).
  assert (Hl : halts_at (length text)).
  { unfold Machine.halts_at, halts. rewrite seq_at_prefix by auto. simpl. now rewrite Hn. }
  unfold Machine.seq_rf. rewrite (halts_unique text rf0 e (length text) He Hl).
  rewrite seq_at_prefix by auto. simpl. now rewrite firstn_all.
Qed.

End Straight.

(* the scoreboard policy of 6.0 / 6.1 for any hazard-safe dispatch guard *)
Section Guard.
Variable text : list instr.
Variable rf0 : rfile.

Notation halts_at := (halts_at text rf0).
Notation seq_rf := (seq_rf text rf0).

(* as the code has it, and with "nothing is dispatched past an unresolved branch";
   P60 / P61 and P60ns / P61ns of Ooo/Policies.v are the instances guard60 / guard61 *)
Definition as_is (g : state -> option (nat * reg) -> bool) : policy :=
  {| dispatch_ok := g; exec_ok := yes2; wb_ok := yes2; exit_ok := older_done;
     bufm := NoBuf; commit_all := false |}.
Definition stalling (g : state -> option (nat * reg) -> bool) : policy :=
  {| dispatch_ok := fun s fw => g s fw && no_unres text s;
     exec_ok := yes2; wb_ok := yes2; exit_ok := older_done;
     bufm := NoBuf; commit_all := false |}.

Lemma P60_as_is : P60 text = as_is (guard60 text).
Proof. reflexivity. Qed.
Lemma P61_as_is : P61 text = as_is (guard61 text).
Proof. reflexivity. Qed.
Lemma P60ns_stalling : P60ns text = stalling (guard60 text).
Proof. reflexivity. Qed.
Lemma P61ns_stalling : P61ns text = stalling (guard61 text).
Proof. reflexivity. Qed.

Variable g : state -> option (nat * reg) -> bool.
Hypothesis g_safe : forall P s fw, Base text s -> counts_ok text s -> Inv text rf0 P s ->
  g s fw = true -> safe_dispatch text s fw.

Lemma sound_stalling : sound_policy text rf0 (stalling g).
Proof.
  constructor.
  - intros s fw B C I H. simpl in H. apply andb_prop in H. destruct H as [H _].
    now apply (g_safe (stalling g)).
  - right. split; auto. intros s fw B H. simpl in H. apply andb_prop in H.
    destruct H as [_ H]. now apply (no_unres_spec text).
  - reflexivity.
  - intros s e H. now apply older_done_spec.
Qed.

(* on a branch-free program the stall never triggers *)
Lemma reach_straight s : straight text ->
  reach text rf0 (as_is g) s -> reach text rf0 (stalling g) s.
Proof.
  intros Hs. apply reach_sim; try reflexivity.
  intros s0 fw H. simpl in *. rewrite H. now apply straight_no_unres.
Qed.

Theorem as_is_correct s : straight text -> reach text rf0 (as_is g) s -> fin s = true ->
  exists e, halts_at e /\ forall r, rf s r = seq_rf e r.
Proof.
  intros Hs R. apply (ooo_correct text rf0 _ sound_stalling). now apply reach_straight.
Qed.

Theorem as_is_correct_straight s : plain_text text ->
  reach text rf0 (as_is g) s -> fin s = true -> forall r, rf s r = run_straight text rf0 r.
Proof.
  intros Hp R Hf r. destruct (as_is_correct s (plain_straight text Hp) R Hf) as (e & He & H).
  rewrite H. now apply halts_straight.
Qed.

End Guard.

Section P60.
Variable text : list instr.
Variable rf0 : rfile.

Notation halts_at := (halts_at text rf0).
Notation seq_rf := (seq_rf text rf0).

Lemma guard60_safe_any (P : policy) s fw : Base text s -> counts_ok text s ->
  Inv text rf0 P s -> guard60 text s fw = true -> safe_dispatch text s fw.
Proof. intros B C _. now apply guard60_safe. Qed.

Lemma sound_P60ns : sound_policy text rf0 (P60ns text).
Proof. rewrite P60ns_stalling. exact (sound_stalling text rf0 _ guard60_safe_any). Qed.

(* 6.0 + no speculation: correct for every program and every schedule *)
Theorem p60ns_correct s : reach text rf0 (P60ns text) s -> fin s = true ->
  exists e, halts_at e /\ forall r, rf s r = seq_rf e r.
Proof. apply ooo_correct. apply sound_P60ns. Qed.

(* 6.0 as it is, branch-free programs: every schedule gives the sequential register file *)
Theorem p60_correct s : straight text -> reach text rf0 (P60 text) s -> fin s = true ->
  exists e, halts_at e /\ forall r, rf s r = seq_rf e r.
Proof. rewrite P60_as_is. exact (as_is_correct text rf0 _ guard60_safe_any s). Qed.

(* in closed form: the final file is the fold of `apply` over the text *)
Theorem p60_correct_straight s : plain_text text ->
  reach text rf0 (P60 text) s -> fin s = true -> forall r, rf s r = run_straight text rf0 r.
Proof. rewrite P60_as_is. exact (as_is_correct_straight text rf0 _ guard60_safe_any s). Qed.

End P60.
