(* Go fixed-width integers on Z.

   A value of a Go integer type is represented by the mathematical integer it
   denotes: int32 values are Z in [-2^31, 2^31), uint32 values Z in [0, 2^32),
   and so on.  Every Go operator the translator (tools/gotrans) emits is a
   named function of this file, so that "what Go does" is stated in one place:

     arithmetic    + - *      wrap of the exact result to the operand type
     / %                       truncated; the caller guards the zero divisor
                               (integer divide by zero is a run-time panic)
     & | ^ &^                  Z.land / Z.lor / Z.lxor / Z.ldiff (closed on
                               two's-complement ranges)
     x << n                    wrap (x * 2^n)   (n >= 0; gives 0 once n >= width)
     x >> n                    Z.shiftr x n     (n >= 0; arithmetic for signed x,
                               logical for unsigned x because x >= 0)
                               a negative signed count is a run-time panic:
                               the translator emits a guard for it
     T(x)                      wrap to T
   This file is part of the trusted base (DESIGN.md section 7); it is validated
   on every run by executing the generated models against the Go code. *)
From Coq Require Import ZArith Lia Bool.
Open Scope Z_scope.

Ltac Zify.zify_post_hook ::= Z.div_mod_to_equations.

(* signed / unsigned wrap to w bits *)
Definition wrapS (w x : Z) : Z := (x + 2^(w-1)) mod 2^w - 2^(w-1).
Definition wrapU (w x : Z) : Z := x mod 2^w.

Definition inS (w x : Z) : Prop := - 2^(w-1) <= x < 2^(w-1).
Definition inU (w x : Z) : Prop := 0 <= x < 2^w.

Definition inSb (w x : Z) : bool := (- 2^(w-1) <=? x) && (x <? 2^(w-1)).
Definition inUb (w x : Z) : bool := (0 <=? x) && (x <? 2^w).

Notation int32 := (inS 32).
Notation int16 := (inS 16).
Notation int8 := (inS 8).
Notation uint32 := (inU 32).
Notation uint8 := (inU 8).

(* conversions *)
Definition to_i32 := wrapS 32.
Definition to_i16 := wrapS 16.
Definition to_i8 := wrapS 8.
Definition to_u32 := wrapU 32.
Definition to_u8 := wrapU 8.
Definition to_u64 := wrapU 64.   (* Go uint on the 64-bit targets the repo builds for *)
Definition to_i64 := wrapS 64.   (* Go int *)

(* arithmetic at a signed width *)
Definition addS w x y := wrapS w (x + y).
Definition subS w x y := wrapS w (x - y).
Definition mulS w x y := wrapS w (x * y).
Definition quoS w x y := wrapS w (Z.quot x y).   (* INT_MIN / -1 wraps to INT_MIN, as Go specifies *)
Definition remS (w : Z) x y := Z.rem x y.
Definition shlS w x n := wrapS w (x * 2^n).
Definition shrS (w : Z) x n := Z.shiftr x n.
(* arithmetic at an unsigned width *)
Definition addU w x y := wrapU w (x + y).
Definition subU w x y := wrapU w (x - y).
Definition mulU w x y := wrapU w (x * y).
Definition shlU w x n := wrapU w (x * 2^n).
Definition shrU (w : Z) x n := Z.shiftr x n.

(* ------------------------------------------------------------------ *)
(* range facts                                                          *)

Lemma pow2_pos n : 0 <= n -> 0 < 2^n.
Proof. intros; apply Z.pow_pos_nonneg; lia. Qed.

Lemma pow2_split w : 0 < w -> 2^w = 2 * 2^(w-1).
Proof. intros. replace w with (Z.succ (w-1)) at 1 by lia. rewrite Z.pow_succ_r; lia. Qed.

Lemma wrapS_range w x : 0 < w -> inS w (wrapS w x).
Proof.
  intros Hw. unfold inS, wrapS.
  pose proof (pow2_pos (w-1) ltac:(lia)). pose proof (pow2_split w Hw).
  pose proof (Z.mod_pos_bound (x + 2^(w-1)) (2^w) ltac:(lia)). lia.
Qed.

Lemma wrapU_range w x : 0 <= w -> inU w (wrapU w x).
Proof. intros Hw. unfold inU, wrapU. apply Z.mod_pos_bound. apply pow2_pos; lia. Qed.

Lemma wrapS_id w x : 0 < w -> inS w x -> wrapS w x = x.
Proof.
  intros Hw [Hlo Hhi]. unfold wrapS.
  pose proof (pow2_split w Hw).
  rewrite Z.mod_small; lia.
Qed.

Lemma wrapU_id w x : inU w x -> wrapU w x = x.
Proof. intros [Hlo Hhi]. unfold wrapU. apply Z.mod_small; lia. Qed.

Lemma wrapS_mod w x : 0 < w -> (wrapS w x) mod 2^w = x mod 2^w.
Proof.
  intros Hw. unfold wrapS.
  pose proof (pow2_pos w ltac:(lia)). pose proof (pow2_split w Hw).
  rewrite Zminus_mod, Zmod_mod, <- Zminus_mod. f_equal. lia.
Qed.

Lemma wrapS_wrapU w x : 0 < w -> wrapS w (wrapU w x) = wrapS w x.
Proof.
  intros Hw. unfold wrapS, wrapU.
  pose proof (pow2_pos w ltac:(lia)).
  f_equal. rewrite Zplus_mod_idemp_l. reflexivity.
Qed.

Lemma wrapU_wrapS w x : 0 < w -> wrapU w (wrapS w x) = wrapU w x.
Proof. intros. unfold wrapU. apply wrapS_mod; assumption. Qed.

Lemma wrapS_eq_mod w x y : 0 < w -> x mod 2^w = y mod 2^w -> wrapS w x = wrapS w y.
Proof.
  intros Hw H. unfold wrapS. f_equal.
  rewrite (Zplus_mod x), (Zplus_mod y), H. reflexivity.
Qed.

Lemma wrapS_idem w x : 0 < w -> wrapS w (wrapS w x) = wrapS w x.
Proof. intros. apply wrapS_id; [assumption | apply wrapS_range; assumption]. Qed.

(* the unsigned reading of a signed value and back *)
Lemma wrapS_of_U w x : 0 < w -> inS w x -> wrapS w (wrapU w x) = x.
Proof. intros. rewrite wrapS_wrapU by assumption. apply wrapS_id; assumption. Qed.

Lemma wrapU_of_S_nonneg w x : inS w x -> 0 <= x -> wrapU w x = x.
Proof.
  intros [Hlo Hhi] H0. unfold wrapU. apply Z.mod_small.
  destruct (Z_lt_le_dec 0 w) as [Hw|Hw].
  - pose proof (pow2_split w Hw). pose proof (pow2_pos (w-1) ltac:(lia)). lia.
  - assert (w - 1 < 0) by lia. rewrite Z.pow_neg_r in Hhi by lia. lia.
Qed.

Lemma wrapU_of_S_neg w x : 0 < w -> inS w x -> x < 0 -> wrapU w x = x + 2^w.
Proof.
  intros Hw [Hlo Hhi] H0. unfold wrapU.
  pose proof (pow2_split w Hw). pose proof (pow2_pos (w-1) ltac:(lia)).
  symmetry. apply Z.mod_unique with (q := -1); lia.
Qed.

(* ------------------------------------------------------------------ *)
(* bit-level characterisation: wrapS copies bit w-1 upwards             *)

Lemma wrapU_testbit w x i : 0 <= w -> 0 <= i ->
  Z.testbit (wrapU w x) i = if i <? w then Z.testbit x i else false.
Proof.
  intros Hw Hi. unfold wrapU. destruct (Z.ltb_spec i w).
  - apply Z.mod_pow2_bits_low; lia.
  - apply Z.mod_pow2_bits_high; lia.
Qed.

(* from bit w-1 on, a w-bit signed value shows its sign *)
Lemma inS_testbit_sign w y i : 0 < w -> inS w y -> w - 1 <= i -> Z.testbit y i = (y <? 0).
Proof.
  intros Hw [Hlo Hhi] Hi. pose proof (pow2_pos (w-1) ltac:(lia)) as Hp.
  replace i with ((i - (w-1)) + (w-1)) by lia. rewrite <- Z.div_pow2_bits by lia.
  destruct (Z.ltb_spec y 0).
  - replace (y / 2^(w-1)) with (-1) by (apply Z.div_unique with (r := y + 2^(w-1)); lia).
    apply Z.bits_m1. lia.
  - rewrite Z.div_small by lia. apply Z.testbit_0_l.
Qed.

Lemma inS_testbit_high w x i : 0 < w -> inS w x -> w - 1 <= i -> Z.testbit x i = Z.testbit x (w-1).
Proof. intros Hw Hx Hi. rewrite !(inS_testbit_sign w) by (assumption || lia). reflexivity. Qed.

(* the bits below w are those of x, since wrapS w x = x modulo 2^w; the others repeat bit w-1 *)
Lemma wrapS_testbit w x i : 0 < w -> 0 <= i ->
  Z.testbit (wrapS w x) i = Z.testbit x (Z.min i (w-1)).
Proof.
  intros Hw Hi.
  assert (Hlow : forall j, 0 <= j < w -> Z.testbit (wrapS w x) j = Z.testbit x j).
  { intros j Hj. rewrite <- (Z.mod_pow2_bits_low (wrapS w x) w j), wrapS_mod by lia. apply Z.mod_pow2_bits_low; lia. }
  destruct (Z.ltb_spec i w).
  - rewrite Hlow by lia. f_equal. lia.
  - rewrite Z.min_r, <- Hlow, (inS_testbit_high w) by (try apply wrapS_range; lia). reflexivity.
Qed.

Lemma inS_of_bits w x : 0 < w ->
  (forall i, w - 1 <= i -> Z.testbit x i = Z.testbit x (w-1)) -> inS w x.
Proof.
  intros Hw H. assert (E : wrapS w x = x).
  { apply Z.bits_inj'. intros i Hi. rewrite wrapS_testbit by lia.
    destruct (Z.le_gt_cases (w-1) i).
    - rewrite Z.min_r by lia. symmetry. apply H; lia.
    - rewrite Z.min_l by lia. reflexivity. }
  rewrite <- E. apply wrapS_range; assumption.
Qed.

(* closure of the bitwise operators on signed ranges *)
Lemma land_inS w x y : 0 < w -> inS w x -> inS w y -> inS w (Z.land x y).
Proof.
  intros Hw Hx Hy. apply inS_of_bits; [assumption|]. intros i Hi.
  rewrite !Z.land_spec. rewrite (inS_testbit_high w x i), (inS_testbit_high w y i) by assumption.
  reflexivity.
Qed.
Lemma lor_inS w x y : 0 < w -> inS w x -> inS w y -> inS w (Z.lor x y).
Proof.
  intros Hw Hx Hy. apply inS_of_bits; [assumption|]. intros i Hi.
  rewrite !Z.lor_spec. rewrite (inS_testbit_high w x i), (inS_testbit_high w y i) by assumption.
  reflexivity.
Qed.
Lemma lxor_inS w x y : 0 < w -> inS w x -> inS w y -> inS w (Z.lxor x y).
Proof.
  intros Hw Hx Hy. apply inS_of_bits; [assumption|]. intros i Hi.
  rewrite !Z.lxor_spec. rewrite (inS_testbit_high w x i), (inS_testbit_high w y i) by assumption.
  reflexivity.
Qed.
Lemma ldiff_inS w x y : 0 < w -> inS w x -> inS w y -> inS w (Z.ldiff x y).
Proof.
  intros Hw Hx Hy. apply inS_of_bits; [assumption|]. intros i Hi.
  rewrite !Z.ldiff_spec. rewrite (inS_testbit_high w x i), (inS_testbit_high w y i) by assumption.
  reflexivity.
Qed.
Lemma shiftr_inS w x n : 0 < w -> 0 <= n -> inS w x -> inS w (Z.shiftr x n).
Proof.
  intros Hw Hn Hx. apply inS_of_bits; [assumption|]. intros i Hi.
  rewrite !Z.shiftr_spec by lia.
  rewrite (inS_testbit_high w x (i+n)), (inS_testbit_high w x (w-1+n)) by (assumption || lia).
  reflexivity.
Qed.

Lemma inSb_spec w x : inSb w x = true <-> inS w x.
Proof. unfold inSb, inS. rewrite andb_true_iff, Z.leb_le, Z.ltb_lt. tauto. Qed.
Lemma inUb_spec w x : inUb w x = true <-> inU w x.
Proof. unfold inUb, inU. rewrite andb_true_iff, Z.leb_le, Z.ltb_lt. tauto. Qed.

(* numerals *)
Lemma int32_bounds x : int32 x <-> -2147483648 <= x < 2147483648.
Proof. unfold inS. change (2^(32-1)) with 2147483648. tauto. Qed.
Lemma int8_bounds x : int8 x <-> -128 <= x < 128.
Proof. unfold inS. change (2^(8-1)) with 128. tauto. Qed.
Lemma int16_bounds x : int16 x <-> -32768 <= x < 32768.
Proof. unfold inS. change (2^(16-1)) with 32768. tauto. Qed.
Lemma uint32_bounds x : uint32 x <-> 0 <= x < 4294967296.
Proof. unfold inU. change (2^32) with 4294967296. tauto. Qed.
