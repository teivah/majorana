(* C06 / L3 - small facts used by Msi/L3Proofs.v: pointwise-equal core states,
   the list operations of L3 (inq / del / touch / last), alignment of grp. *)
From Coq Require Import List ZArith Lia Bool Arith.
From Maj Require Import Comp.ListFacts.
From Maj Require Import Msi.Protocol Msi.Invariant Msi.InvProofs Msi.StepProofs Msi.CodedProofs
  Msi.L3Protocol Msi.L3Invariant.
Import ListNotations.
Open Scope Z_scope.

(* ---- pointwise equality of core states ---- *)
Lemma st_eq_refl a : st_eq a a.
Proof. constructor; auto. Qed.
Lemma st_eq_sym a b : st_eq a b -> st_eq b a.
Proof. intros [A B C D E F G]. constructor; intros; symmetry; auto. Qed.
Lemma st_eq_trans a b c : st_eq a b -> st_eq b c -> st_eq a c.
Proof.
  intros [A B C D E F G] [A' B' C' D' E' F' G'].
  constructor; intros; [rewrite A'|rewrite B'|rewrite C'|rewrite D'|rewrite E'|rewrite F'|rewrite G']; auto.
Qed.

Lemma inv_st_eq N a b : st_eq a b -> Inv N a -> Inv N b.
Proof. intros [A B C D E F G]. apply (inv_ext N a b); auto. Qed.

Lemma just_st_eq N a b j l c : st_eq a b -> just N a j l c -> just N b j l c.
Proof. intros E [h [Hh X]]. exists h. split; auto. now rewrite (eq_ph _ _ E). Qed.

Lemma J_st_eq N a b : st_eq a b -> J N a -> J N b.
Proof.
  intros E J0 j l Hj Hc. rewrite (eq_cm _ _ E) in *. apply (just_st_eq N a b); auto.
Qed.

Lemma DV_st_eq N a b lw lw' : st_eq a b -> (forall l, lw' l = lw l) -> DV N a lw -> DV N b lw'.
Proof.
  intros E Hl D l. destruct (D l) as [D1 D2]. rewrite Hl. split.
  - intros i Hi. rewrite (eq_ms _ _ E), (eq_l1 _ _ E). now apply D1.
  - intros H. rewrite (eq_mem _ _ E). apply D2. intros i Hi. rewrite <- (eq_ms _ _ E). now apply H.
Qed.

(* ---- inq / del / touch / last ---- *)
Lemma inq_iff b q : inq b q = true <-> In b q.
Proof.
  unfold inq. rewrite existsb_exists. split.
  - intros [x [Hin He]]. apply Z.eqb_eq in He. now subst.
  - intros H. exists b. split; auto. apply Z.eqb_refl.
Qed.
Lemma inq_false b q : inq b q = false <-> ~ In b q.
Proof.
  split.
  - intros H Hin. apply inq_iff in Hin. congruence.
  - intros H. destruct (inq b q) eqn:E; auto. apply inq_iff in E. contradiction.
Qed.

Lemma del_in x b q : In x (del b q) <-> In x q /\ x <> b.
Proof.
  unfold del. rewrite filter_In, negb_true_iff, Z.eqb_neq. tauto.
Qed.
Lemma del_nodup b q : NoDup q -> NoDup (del b q).
Proof. apply NoDup_filter. Qed.
Lemma del_notin b q : ~ In b q -> del b q = q.
Proof.
  unfold del. induction q as [|a q IH]; simpl; auto. intros H.
  destruct (Z.eqb_spec a b) as [->|]; simpl; [exfalso; auto|]. f_equal. apply IH. tauto.
Qed.
Lemma del_length_nodup b q : NoDup q -> In b q -> Datatypes.S (length (del b q)) = length q.
Proof.
  induction 1 as [|a q Hna Hnd IH]; [intros []|]. unfold del in *. simpl. intros [->|Hin].
  - rewrite Z.eqb_refl. simpl. f_equal. now apply f_equal, del_notin.
  - destruct (Z.eqb_spec a b) as [->|]; [contradiction|]. simpl. f_equal. auto.
Qed.

Lemma touch_in x b q : In x (touch b q) <-> In x q.
Proof.
  unfold touch. destruct (inq b q) eqn:E; [|tauto]. apply inq_iff in E. simpl. rewrite del_in.
  split.
  - intros [<-|[H _]]; auto.
  - intros H. destruct (Z.eq_dec x b) as [->|Hne]; auto.
Qed.
Lemma touch_nodup b q : NoDup q -> NoDup (touch b q).
Proof.
  intros H. unfold touch. destruct (inq b q); auto. constructor; [|now apply del_nodup].
  rewrite del_in. tauto.
Qed.
Lemma touch_length b q : NoDup q -> length (touch b q) = length q.
Proof.
  intros H. unfold touch. destruct (inq b q) eqn:E; auto. apply inq_iff in E. simpl.
  now apply del_length_nodup.
Qed.
Lemma inq_touch x b q : inq x (touch b q) = inq x q.
Proof.
  destruct (inq x q) eqn:E.
  - apply inq_iff. apply touch_in. now apply inq_iff.
  - apply inq_false. rewrite touch_in. now apply inq_false.
Qed.

(* ---- alignment ---- *)
Lemma grp_aligned w l : 0 < w -> grp w l mod w = 0.
Proof. intros Hw. unfold grp. rewrite Zminus_mod_idemp_r. rewrite Z.sub_diag. apply Z.mod_0_l. lia. Qed.

(* ---- one entry per line, at aligned bases (L3wf is this of l3q): kept by
        touch, by del, and by a new head that is the group of a line not in the list ---- *)
Definition qwf (w : Z) (q : list line) : Prop := NoDup q /\ forall b, In b q -> b mod w = 0.

Lemma qwf_touch w b q : qwf w q -> qwf w (touch b q).
Proof. intros [A B]. split; [now apply touch_nodup|]. intros x Hx. apply touch_in in Hx. auto. Qed.
Lemma qwf_del w b q : qwf w q -> qwf w (del b q).
Proof. intros [A B]. split; [now apply del_nodup|]. intros x Hx. apply del_in in Hx. apply B. tauto. Qed.
Lemma qwf_cons w l q : 0 < w -> ~ In (grp w l) q -> qwf w q -> qwf w (grp w l :: q).
Proof. intros Hw Hn [A B]. split; [now constructor|]. intros x [<-|Hx]; [now apply grp_aligned|auto]. Qed.

Lemma inq_cons x b q : inq x (b :: q) = Z.eqb x b || inq x q.
Proof. reflexivity. Qed.
Lemma inq_del x b q : inq x (del b q) = negb (Z.eqb x b) && inq x q.
Proof.
  destruct (Z.eqb_spec x b) as [->|Hne]; simpl.
  - apply inq_false. rewrite del_in. tauto.
  - destruct (inq x q) eqn:E.
    + apply inq_iff. apply del_in. split; auto. now apply inq_iff.
    + apply inq_false. rewrite del_in. apply inq_false in E. tauto.
Qed.
Lemma full_nonempty (q : list line) cap : (0 < cap)%nat -> Nat.leb cap (length q) = true -> q <> [].
Proof. intros Hc H. apply Nat.leb_le in H. destruct q; simpl in *; [lia|discriminate]. Qed.
