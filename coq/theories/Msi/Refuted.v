(* C06 - cacheController.flush AS CODED (Protocol.v: flush_coded / cstep)
   leaves the invariant: three kernel-checked witness traces.  Each trace is
   also a rig script (tools/harness/msi.go, command msi-rig) on which the
   implementation shows the same violation - see known_findings.json. *)
From Coq Require Import List ZArith Lia Bool Arith.
From Maj Require Import Msi.Protocol Msi.Invariant Msi.Examples.
Import ListNotations.
Open Scope Z_scope.

Definition m0 : line -> val := fun l => l.   (* any initial memory *)

Inductive ctrace (N : nat) : cst -> list label -> cst -> Prop :=
| ct_nil s : ctrace N s [] s
| ct_cons s lab s1 t s2 : cstep N s lab s1 -> ctrace N s1 t s2 -> ctrace N s (lab :: t) s2.

Lemma ctrace_reach N s t s' : creach N s -> ctrace N s t s' -> creach N s'.
Proof. intros R T. induction T; auto. apply IHT. eapply creach_step; eauto. Qed.

(* named_witness (Msi/Examples.v) for a run from the initial state, whose last state is reachable *)
Lemma witness N t s (P : cst -> Prop) : ctrace N (cinit m0) t s -> (let s' := s in P s') ->
  exists s, ctrace N (cinit m0) t s /\ creach N s /\ P s.
Proof.
  intros T H. apply (named_witness _ (fun s => creach N s /\ P s) s T).
  split; [exact (ctrace_reach N _ t s (creach_init N m0) T)|exact H].
Qed.

Ltac cb := eapply ct_cons; [apply c_base; econstructor; side|simpl].
Ltac cf := eapply ct_cons; [apply c_flush; lia|simpl].

(* (a) flush between fill and settle: the line stays in L1, the state stays Invalid
       rig script (2 cores): q 0 0 R 64 4;f 311 0 *)
Definition trace_a := [L_rlock_I 0 64; L_fetch_rd 0 64; L_fill_rd 0 64 None; L_flush 0].

Theorem flush_after_fill_breaks_3_refuted :
  exists s, ctrace 2 (cinit m0) trace_a s /\ creach 2 s /\ ~ clause3 (obs_of_st 2 (base s)).
Proof.
  eapply witness.
  - unfold trace_a. cb. cb. cb. cf. apply ct_nil.
  - intros s' C3. destruct (C3 0%nat 64 ltac:(simpl; lia)) as [_ X]. simpl in X.
    apply X; [|discriminate|reflexivity].
    intros [vic [E|E]]; discriminate.
Qed.

(* (b) a flushed write stays in lockSems (the loop deletes from rlockSems): the
       next flush of the core unlocks the line's semaphore a second time
       rig script: q 0 0 W 64 5;f 100 0;f 102 0   (Go: panic "write is negative") *)
Definition trace_b := [L_lock_I 0 64; L_flush 0; L_flush 0].

Theorem flush_twice_breaks_5_refuted :
  exists s, ctrace 2 (cinit m0) trace_b s /\ creach 2 s /\ wc (base s) 64 = -1 /\ ~ clause5 (obs_of_st 2 (base s)).
Proof.
  eapply witness.
  - unfold trace_b. cb. cf. cf. apply ct_nil.
  - intros s'. split; [reflexivity|].
    intros C5. destruct (C5 64) as [_ [X _]]. now apply X.
Qed.

(* (c) a read of a Modified line takes the WRITE lock (rLock case modified) but is
       recorded in rlockSems: flushing it calls RUnlock on a semaphore that has
       no reader and leaves the write counter held for ever
       rig script: q 0 0 W 64 5;q 0 0 R 64 2;f 315 0   (Go: panic "read is negative") *)
Definition trace_c := [L_lock_I 0 64; L_fetch_wr 0 64; L_fill_wr 0 64 None; L_settle_wr 0 64 5;
                       L_rlock_M 0 64; L_flush 0].

Theorem flush_own_read_breaks_5_refuted :
  exists s, ctrace 2 (cinit m0) trace_c s /\ creach 2 s /\
            rc (base s) 64 = -1 /\ wc (base s) 64 = 1 /\ ph (base s) 0%nat = Idle /\
            ~ clause5 (obs_of_st 2 (base s)).
Proof.
  eapply witness.
  - unfold trace_c. cb. cb. cb. cb. cb. cf. apply ct_nil.
  - intros s'. repeat (split; [reflexivity|]).
    intros C5. destruct (C5 64) as [X _]. now apply X.
Qed.
