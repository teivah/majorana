(* C06 - non-vacuity of the three-level machine with the REPAIRED refill (L1
   protocol as coded): with an L3 of one line, core 0 writes line 0 (refill,
   fetch from L3, fill, settle), core 1 reads it (core 0's Modified copy is
   written back INTO L3, which becomes dirty; core 1 is served from L3), then
   core 0 misses on line 128: the refill writes the dirty victim back to
   memory and removes it.  Core 1 still holds line 0 Shared; its next level is
   now main memory, which holds the written value. *)
From Coq Require Import List ZArith Lia Bool Arith.
From Maj Require Import Msi.Protocol Msi.Invariant Msi.Examples Msi.L3Protocol Msi.L3Invariant.
Import ListNotations.
Open Scope Z_scope.

Definition example3_trace : list label3 :=
  [ K_core (L_lock_I 0 0); K_refill 0 0; K_fetch_l3 0 0; K_core (L_fill_wr 0 0 None); K_core (L_settle_wr 0 0 5);
    K_core (L_rlock_I 1 0); K_wb_done 0 0; K_fetch_l3 1 0; K_core (L_fill_rd 1 0 None); K_core (L_settle_rd 1 0);
    K_core (L_rlock_I 0 128); K_refill 0 128; K_fetch_l3 0 128; K_core (L_fill_rd 0 128 None);
    K_core (L_settle_rd 0 128) ].

(* One tactic per kind of transition takes the next label of a trace3 goal (used by
   Msi/L3Refuted.v as well): kc a lifted transition of the core machine, kwb v the
   L1 write-back of the value v, krf the repaired refill, kfr / kfw the fetch from
   L3 of a read / write.  `others` proves others_not_M / others_I for up to three
   cores. *)
Ltac others :=
  let j := fresh "j" in intros j ? ?; destruct j as [|[|[|j]]]; simpl; try discriminate; try reflexivity; try lia.
Ltac kc := eapply t3_cons; [apply s3_core; [reflexivity|econstructor; side]|simpl].
Ltac kwb v0 := eapply t3_cons; [eapply s3_wb_done with (v := v0); side|simpl].
Ltac krf := eapply t3_cons;
  [eapply s3_refill; [reflexivity|lia|first [left; reflexivity|right; reflexivity]|reflexivity]|simpl].
Ltac kfr := eapply t3_cons;
  [eapply s3_fetch_rd; [lia|reflexivity|others|reflexivity|first [left; reflexivity|right; reflexivity]]|simpl].
Ltac kfw := eapply t3_cons;
  [eapply s3_fetch_wr; [lia|reflexivity|others|reflexivity|first [left; reflexivity|right; reflexivity]]|simpl].

Example reach3_example :
  exists s, trace3 2 false NoFlush true 128 1 (init3 (fun l => l)) example3_trace s /\
            ms (core s) 0%nat 0 = I /\ ms (core s) 1%nat 0 = S /\ l1 (core s) 1%nat 0 = Some 5 /\
            ms (core s) 0%nat 128 = S /\ l3q s = [128] /\ in_l3 128 s 0 = false /\ mem (core s) 0 = 5 /\
            l3w s 0 = false /\ lastw (fun l => l) (hist s) 0 = 5.
Proof.
  eapply named_witness.
  - unfold example3_trace. kc. krf. kfw. kc. kc. kc. kwb 5. kfr. kc. kc. kc. krf. kfr. kc. kc. apply t3_nil.
  - intros s'. repeat split; reflexivity.
Qed.
