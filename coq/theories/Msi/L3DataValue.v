(* C06 - DATA VALUE on the two-level machine of Msi/Protocol.v: if lw is the
   last value written to each line, then after any transition lw_after is.
   Needs Inv (the kind of a command matches the state of its target, a phase
   fixes the state of its core, single writer).  Lifted to the three-level
   machine in Msi/L3Proofs.v through `view`; the history of completed writes
   (wr_event, hist_after, lastw) is defined with that machine, which carries it
   as a field (Msi/L3Protocol.v). *)
From Coq Require Import List ZArith Lia Bool Arith.
From Maj Require Import Msi.Protocol Msi.Invariant Msi.InvProofs Msi.StepProofs Msi.CodedProofs
  Msi.L3Protocol Msi.L3Invariant Msi.L3Lemmas.
Import ListNotations.
Open Scope Z_scope.

(* the last value written to each line, after a transition *)
Definition lw_after (lab : label) (lw : line -> val) : line -> val :=
  match lab with
  | L_settle_wr i l v | L_settle_upg i l v | L_done_ownwr i l v => updl lw l v
  | _ => lw
  end.

Lemma lastw_after m0 lab h l : lastw m0 (hist_after lab h) l = lw_after lab (lastw m0 h) l.
Proof.
  destruct lab; simpl; auto; unfold updl; destruct (Z.eqb_spec l0 l), (Z.eqb_spec l l0); subst; auto; congruence.
Qed.

Section DataValue.
Variable N : nat.
Notation Inv := (Inv N).
Notation DV := (DV N).

(* the same copies are Modified, with the same contents, over the same next level *)
Lemma dv_weak s s' lw :
  (forall j k, (j < N)%nat -> ms s' j k = M <-> ms s j k = M) -> (forall k, mem s' k = mem s k) ->
  (forall j k, (j < N)%nat -> ms s j k = M -> l1 s' j k = l1 s j k) ->
  DV s lw -> DV s' lw.
Proof.
  intros Hm Hmem Hl D l. destruct (D l) as [D1 D2]. split.
  - intros i Hi HM. apply Hm in HM; auto. rewrite Hl; auto.
  - intros H. rewrite Hmem. apply D2. intros i Hi HM. apply (H i Hi). now apply Hm.
Qed.

(* what its phase says of a core that is on line l *)
Lemma phase_state s l i p : Inv s -> (i < N)%nat -> ph s i = p -> tx_line p = Some l ->
  phase_view p (ms s i l) (l1 s i l).
Proof. intros I0 Hi <- Ht. apply (view_on N s l (I0 l) i Hi). now apply on_line_iff. Qed.

Lemma upd2_at {A} (f : nat -> line -> A) i l x j k :
  upd2 f i l x j k = if Nat.eqb j i && Z.eqb k l then x else f j k.
Proof. reflexivity. Qed.

(* the core's own entry for l changes, its state for l is not Modified before *)
Lemma dv_own_l1 s s' lw i l b' :
  (forall j k, ms s' j k = ms s j k) -> (forall k, mem s' k = mem s k) ->
  (forall j k, l1 s' j k = upd2 (l1 s) i l b' j k) -> ms s i l <> M ->
  DV s lw -> DV s' lw.
Proof.
  intros Hm Hmem Hl Hn. apply dv_weak; auto.
  - intros j k _. now rewrite Hm.
  - intros j k Hj HM. rewrite Hl, upd2_at.
    destruct (Nat.eqb_spec j i) as [->|]; simpl; auto. destruct (Z.eqb_spec k l) as [->|]; auto. congruence.
Qed.

(* a write completes: core i becomes / stays the only Modified holder of l with value v *)
Lemma dv_write s s' lw i l v :
  (i < N)%nat ->
  (forall j k, ms s' j k = upd2 (ms s) i l M j k) -> (forall k, mem s' k = mem s k) ->
  (forall j k, l1 s' j k = upd2 (l1 s) i l (Some v) j k) ->
  (forall j, (j < N)%nat -> j <> i -> ms s j l <> M) ->
  (ms s i l = M \/ forall j, (j < N)%nat -> ms s j l <> M) ->
  DV s lw -> DV s' (updl lw l v).
Proof.
  intros Hi Hm Hmem Hl Ho Hown D k. destruct (D k) as [D1 D2]. unfold updl.
  destruct (Z.eqb_spec k l) as [->|Hk].
  - split.
    + intros j Hj. rewrite Hm, Hl, !upd2_at, Z.eqb_refl, andb_true_r.
      destruct (Nat.eqb_spec j i) as [->|Hne]; auto. intros HM. exfalso. exact (Ho j Hj Hne HM).
    + intros H. exfalso. apply (H i Hi). rewrite Hm, upd2_at, Nat.eqb_refl, Z.eqb_refl. reflexivity.
  - split.
    + intros j Hj. rewrite Hm, Hl, !upd2_at. destruct (Z.eqb_spec k l); [congruence|].
      rewrite andb_false_r. auto.
    + intros H. rewrite Hmem. apply D2. intros j Hj. specialize (H j Hj).
      now rewrite Hm, upd2_other_line in H by auto.
Qed.

(* core j drops its copy of l (state -> Invalid); the next level of l holds
   lw l afterwards (it did before, or j's Modified copy was written to it) *)
Lemma dv_drop s s' lw j l :
  (forall a k, ms s' a k = upd2 (ms s) j l I a k) ->
  (forall a k, l1 s' a k = upd2 (l1 s) j l None a k) ->
  (forall k, k <> l -> mem s' k = mem s k) ->
  ((ms s j l <> M /\ mem s' l = mem s l) \/ mem s' l = lw l) ->
  DV s lw -> DV s' lw.
Proof.
  intros Hm Hl Hmem Hcase D k. destruct (D k) as [D1 D2]. split.
  - intros a Ha. rewrite Hm, Hl, !upd2_at. destruct (Nat.eqb a j && Z.eqb k l); [discriminate|auto].
  - intros H. destruct (Z.eq_dec k l) as [->|Hk].
    + destruct Hcase as [[Hn Hsame]|Hlw]; auto. rewrite Hsame. apply D2. intros a Ha.
      specialize (H a Ha). rewrite Hm in H.
      destruct (Nat.eq_dec a j) as [E|E]; [subst a; exact Hn|now rewrite upd2_other_core in H by auto].
    + rewrite Hmem by auto. apply D2. intros a Ha. specialize (H a Ha).
      now rewrite Hm, upd2_other_line in H by auto.
Qed.

Lemma dv_flush s i lw : Inv s -> (i < N)%nat -> DV s lw -> DV (flush_rep s i) lw.
Proof.
  intros I0 Hi D. unfold flush_rep. destruct (ph s i) eqn:Hp; auto.
  all: eapply (dv_own_l1 s _ lw i l); simpl; auto using upd2_keep.
  all: destruct (phase_state s l i _ I0 Hi Hp eq_refl) as [-> _]; discriminate.
Qed.

Theorem dv_step g fm s lab s' lw :
  Inv s -> DV s lw -> step N g fm s lab s' -> DV s' (lw_after lab lw).
Proof.
  intros I0 D Hs. destruct Hs; simpl lw_after.
  all: try (apply (dv_weak s); simpl; tauto).
  - (* fill_rd *)
    apply (dv_own_l1 s _ lw i l (Some v)); simpl; auto.
    destruct (phase_state s l i _ I0 H H0 eq_refl) as [-> _]. discriminate.
  - (* settle_rd: the core was Invalid and becomes Shared *)
    destruct (phase_state s l i _ I0 H H0 eq_refl) as [Vm _].
    apply (dv_weak s); simpl; auto. intros j k _. rewrite upd2_at.
    destruct (Nat.eqb_spec j i) as [->|]; simpl; [|tauto]. destruct (Z.eqb_spec k l) as [->|]; [|tauto].
    rewrite Vm. split; discriminate.
  - (* fill_wr *)
    apply (dv_own_l1 s _ lw i l (Some v)); simpl; auto.
    destruct (phase_state s l i _ I0 H H0 eq_refl) as [-> _]. discriminate.
  - (* settle_wr *)
    pose proof (filled_wr _ _ _ (I0 l) i vic H H0) as Ho.
    destruct (phase_state s l i _ I0 H H0 eq_refl) as [Vm _].
    apply (dv_write s _ lw i l v'); simpl; auto.
    + intros j Hj Hne. rewrite (Ho j Hj Hne). discriminate.
    + right. intros j Hj. destruct (Nat.eq_dec j i) as [->|Hne]; [rewrite Vm|rewrite (Ho j Hj Hne)]; discriminate.
  - (* settle_upg *)
    destruct (phase_state s l i _ I0 H H0 eq_refl) as [Vm _].
    apply (dv_write s _ lw i l v'); simpl; auto.
    + intros j Hj Hne. rewrite (H1 j Hj Hne). discriminate.
    + right. intros j Hj. destruct (Nat.eq_dec j i) as [->|Hne]; [rewrite Vm|rewrite (H1 j Hj Hne)]; discriminate.
  - (* done_ownwr *)
    destruct (phase_state s l i _ I0 H H0 eq_refl) as [Vm _].
    apply (dv_write s _ lw i l v'); simpl; auto using upd2_keep.
    + rewrite <- Vm. apply upd2_keep.
    + intros j Hj Hne. rewrite (swmr _ _ _ (I0 l) i j H Hj Vm Hne). discriminate.
  - (* cmd_evict_done *)
    apply (dv_drop s _ lw j l); simpl; auto. left. split; auto.
    pose proof (cmd_kind _ _ _ (I0 l) j H) as K. rewrite H0 in K. simpl in K. rewrite K. discriminate.
  - (* cmd_writeback_done *)
    apply (dv_drop s _ lw j l); simpl; auto.
    + intros k Hk. now rewrite updl_other.
    + right. rewrite updl_same.
      pose proof (cmd_kind _ _ _ (I0 l) j H) as K. rewrite H0 in K. simpl in K.
      destruct (D l) as [D1 _]. specialize (D1 j H K). congruence.
  - (* export *)
    intros k. destruct (D k) as [D1 D2]. simpl. split; auto.
    intros Hn. unfold updl. destruct (Z.eqb_spec k l) as [->|]; auto.
    destruct (D l) as [E1 _]. specialize (E1 i H H0). congruence.
  - (* flush *) now apply dv_flush.
Qed.

Lemma dv_init m0 : DV (init m0) m0.
Proof. intros l. simpl. split; [discriminate|auto]. Qed.

(* every valid L1 copy holds the last value written *)
Theorem dv_valid_copy s lw i l : Inv s -> DV s lw -> (i < N)%nat -> ms s i l <> I -> l1 s i l = Some (lw l).
Proof.
  intros I0 D Hi Hm. destruct (D l) as [D1 D2]. destruct (ms s i l) eqn:Em; [congruence| |now apply D1].
  rewrite (shared_clean _ _ _ (I0 l) i Hi Em). f_equal. apply D2.
  intros j Hj HM. destruct (Nat.eq_dec j i) as [->|Hne]; [congruence|].
  pose proof (swmr _ _ _ (I0 l) j i Hj Hi HM ltac:(congruence)). congruence.
Qed.

Lemma M_dec s l : (exists i, (i < N)%nat /\ ms s i l = M) \/ (forall i, (i < N)%nat -> ms s i l <> M).
Proof.
  induction N as [|n IH].
  - right. intros i Hi. lia.
  - destruct IH as [[i [Hi HM]]|Hn].
    + left. exists i. split; auto.
    + destruct (ms s n l) eqn:E.
      * right. intros i Hi. destruct (Nat.eq_dec i n) as [->|]; [rewrite E; discriminate|apply Hn; lia].
      * right. intros i Hi. destruct (Nat.eq_dec i n) as [->|]; [rewrite E; discriminate|apply Hn; lia].
      * left. exists n. split; auto.
Qed.

End DataValue.

(* ---- the two-level machine itself (MVP-7.0 / 7.1): reachability with the
   ghost history of completed writes ---- *)
Inductive hreach (N : nat) (g : bool) (fm : flush_mode) (m0 : line -> val) : st -> list wr_event -> Prop :=
| hr_init : hreach N g fm m0 (init m0) []
| hr_step s h lab s' : hreach N g fm m0 s h -> step N g fm s lab s' -> hreach N g fm m0 s' (hist_after lab h).

(* what holds of a state and its history, for the code as it is (flush
   excluded) and for the guarded machine: initially, after a transition, and
   of any state that agrees pointwise *)
Definition coded_inv N m0 (s : st) (h : list wr_event) : Prop := Inv N s /\ J N s /\ DV N s (lastw m0 h).
Definition guarded_inv N m0 (s : st) (h : list wr_event) : Prop := Inv N s /\ DV N s (lastw m0 h).

Lemma dv_step_hist N g fm m0 s h lab s' : Inv N s -> DV N s (lastw m0 h) -> step N g fm s lab s' ->
  DV N s' (lastw m0 (hist_after lab h)).
Proof.
  intros I0 D Hs. apply (DV_st_eq N s' _ (lw_after lab (lastw m0 h))); [apply st_eq_refl|apply lastw_after|].
  now apply (dv_step N g fm s).
Qed.

Lemma coded_inv_init N m0 : coded_inv N m0 (init m0) [].
Proof. split; [apply inv_init|split; [apply J_init|apply dv_init]]. Qed.
Lemma coded_inv_step N m0 s h lab s' : coded_inv N m0 s h -> step N false NoFlush s lab s' ->
  coded_inv N m0 s' (hist_after lab h).
Proof.
  intros [I0 [J0 D0]] Hs. destruct (inv_step_coded N s lab s' I0 J0 Hs). split; [assumption|split; [assumption|]].
  now apply (dv_step_hist N false NoFlush m0 s).
Qed.
Lemma coded_inv_st_eq N m0 a b h : st_eq a b -> coded_inv N m0 a h -> coded_inv N m0 b h.
Proof.
  intros E [I0 [J0 D0]]. split; [now apply (inv_st_eq N a)|split; [now apply (J_st_eq N a)|]].
  now apply (DV_st_eq N a b (lastw m0 h)).
Qed.

Lemma guarded_inv_init N m0 : guarded_inv N m0 (init m0) [].
Proof. split; [apply inv_init|apply dv_init]. Qed.
Lemma guarded_inv_step N fm m0 s h lab s' : guarded_inv N m0 s h -> step N true fm s lab s' ->
  guarded_inv N m0 s' (hist_after lab h).
Proof.
  intros [I0 D0] Hs. split; [now apply (inv_step_guarded N fm s lab)|now apply (dv_step_hist N true fm m0 s)].
Qed.
Lemma guarded_inv_st_eq N m0 a b h : st_eq a b -> guarded_inv N m0 a h -> guarded_inv N m0 b h.
Proof. intros E [I0 D0]. split; [now apply (inv_st_eq N a)|now apply (DV_st_eq N a b (lastw m0 h))]. Qed.

Theorem dv_reachable_coded N m0 s h : hreach N false NoFlush m0 s h ->
  Inv N s /\ J N s /\ DV N s (lastw m0 h).
Proof. induction 1; [apply coded_inv_init|eapply coded_inv_step; eauto]. Qed.

Theorem dv_reachable_guarded N fm m0 s h : hreach N true fm m0 s h -> Inv N s /\ DV N s (lastw m0 h).
Proof. induction 1; [apply guarded_inv_init|eapply guarded_inv_step; eauto]. Qed.
