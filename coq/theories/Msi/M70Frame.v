(* Frame lemmas for the cycle-level model of MVP-7.0 (Mvp70.v): the pipeline (front end, write units, the
   parts of the execute units that are not calls of the cache controller) never changes main memory
   (m_mem) nor the MSI directory (w_i); the execute-unit functions are decomposed so that the calls of
   cc_read_cycle / cc_write_cycle are isolated. *)
From Coq Require Import ZArith List Bool Lia.
From Maj Require Import Base.Outcome Base.GoInt Base.GoTypes Isa.Spec Isa.Seq.
From Maj Require Import Gen.Latency Gen.RiscTables Gen.Opcodes Comp.Cache Comp.Rat Mvp.Mvp12 Mvp.Mvp3 Mvp.Mvp5 Mvp.Mvp60 Mvp.Mvp63 Mvp.Mvp63Proofs Mvp.Mvp70 Mvp.Mvp70Proofs.
From Maj Require Import Msi.M70Inv.
Import ListNotations. Open Scope Z_scope.

Ltac inv H := inversion H; subst; clear H.

(* ------------------------------------------------------------------ *)
(* 1. primitives                                                        *)
(* ------------------------------------------------------------------ *)

Lemma set_wbus_mem : forall m b, m_mem (set_wbus m b) = m_mem m.
Proof. reflexivity. Qed.
Lemma set_bu_mem : forall m b, m_mem (set_bu m b) = m_mem m.
Proof. reflexivity. Qed.
Lemma set_cbus_mem : forall m b, m_mem (set_cbus m b) = m_mem m.
Proof. reflexivity. Qed.
Lemma set_dbus_mem : forall m b, m_mem (set_dbus m b) = m_mem m.
Proof. reflexivity. Qed.
Lemma set_fu_mem : forall m b, m_mem (set_fu m b) = m_mem m.
Proof. reflexivity. Qed.
Lemma set_l1i_mem : forall m b, m_mem (set_l1i m b) = m_mem m.
Proof. reflexivity. Qed.
Lemma set_du_mem : forall m a b, m_mem (set_du m a b) = m_mem m.
Proof. reflexivity. Qed.
Lemma set_sb_mem : forall m a b, m_mem (set_sb m a b) = m_mem m.
Proof. reflexivity. Qed.
Lemma del_pending6_mem : forall m r w, m_mem (del_pending6 m r w) = m_mem m.
Proof. reflexivity. Qed.
Lemma add_pending6_mem : forall m r w, m_mem (add_pending6 m r w) = m_mem m.
Proof. reflexivity. Qed.

Lemma set_forward3_mem : forall x pc reg v, m_mem (x_m (set_forward3 x pc reg v)) = m_mem (x_m x).
Proof. reflexivity. Qed.
Lemma set_pcb3_mem : forall x b, m_mem (x_m (set_pcb3 x b)) = m_mem (x_m x).
Proof. reflexivity. Qed.
Lemma set_chan3_mem : forall x c, m_mem (x_m (set_chan3 x c)) = m_mem (x_m x).
Proof. reflexivity. Qed.
Lemma set_ebus3_mem : forall x b, m_mem (x_m (set_ebus3 x b)) = m_mem (x_m x).
Proof. reflexivity. Qed.
Lemma set_rats3_mem : forall x c t, m_mem (x_m (set_rats3 x c t)) = m_mem (x_m x).
Proof. reflexivity. Qed.
Lemma set_pend3_mem : forall x p, m_mem (x_m (set_pend3 x p)) = m_mem (x_m x).
Proof. reflexivity. Qed.
Lemma set_prev3_mem : forall x p, m_mem (x_m (set_prev3 x p)) = m_mem (x_m x).
Proof. reflexivity. Qed.
Lemma set_next3_mem : forall x n, m_mem (x_m (set_next3 x n)) = m_mem (x_m x).
Proof. reflexivity. Qed.
Lemma set_os3_mem : forall x b, m_mem (x_m (set_os3 x b)) = m_mem (x_m x).
Proof. reflexivity. Qed.
Lemma set_seq3_mem : forall x s, m_mem (x_m (set_seq3 x s)) = m_mem (x_m x).
Proof. reflexivity. Qed.
Lemma set_m_mem : forall x m, m_mem (x_m (set_m x m)) = m_mem m.
Proof. reflexivity. Qed.
Lemma wbus_connect3_mem : forall x cycle, m_mem (x_m (wbus_connect3 x cycle)) = m_mem (x_m x).
Proof. reflexivity. Qed.
Lemma fu_reset3_mem : forall x pc, m_mem (x_m (fu_reset3 x pc)) = m_mem (x_m x).
Proof. reflexivity. Qed.
Lemma rat_rollback3_mem : forall ord cycle x s, m_mem (x_m (rat_rollback3 ord cycle x s)) = m_mem (x_m x).
Proof. reflexivity. Qed.
Lemma rat_commit3_mem : forall ord cycle x, m_mem (x_m (rat_commit3 ord cycle x)) = m_mem (x_m x).
Proof. reflexivity. Qed.
Lemma bu_resolved3_mem : forall x pc pcTo, m_mem (x_m (bu_resolved3 x pc pcTo)) = m_mem (x_m x).
Proof. reflexivity. Qed.
Lemma bu_assert3_mem : forall x r, m_mem (x_m (bu_assert3 x r)) = m_mem (x_m x).
Proof.
  intros. unfold bu_assert3.
  destruct (InstructionType_IsUnconditionalBranch _).
  - destruct (btb_get _ _); reflexivity.
  - destruct (InstructionType_IsConditionalBranch _); reflexivity.
Qed.

(* trivial facts about w7 *)
Lemma w_mem_set_wi : forall w i, w_mem (set_wi w i) = w_mem w.
Proof. reflexivity. Qed.
Lemma w_i_set_wi : forall w i, w_i (set_wi w i) = i.
Proof. reflexivity. Qed.
Lemma w_i_set_wx : forall w x, w_i (set_wx w x) = w_i w.
Proof. reflexivity. Qed.
Lemma w_mem_set_wx : forall w x, w_mem (set_wx w x) = m_mem (x_m x).
Proof. reflexivity. Qed.
Lemma w_i_set_wmem : forall w m, w_i (set_wmem w m) = w_i w.
Proof. reflexivity. Qed.
Lemma w_mem_set_wmem : forall w m, w_mem (set_wmem w m) = m.
Proof. reflexivity. Qed.

(* ------------------------------------------------------------------ *)
(* 3. write units                                                       *)
(* ------------------------------------------------------------------ *)

Lemma wu_cycle7_mem : forall x u before x' u', wu_cycle7 x u before = Ok (x', u') -> m_mem (x_m x') = m_mem (x_m x).
Proof.
  intros x u before x' u' H. unfold wu_cycle7 in H.
  split_hyp H; try discriminate; inversion H; subst; reflexivity.
Qed.

Lemma wus_cycle7_mem : forall wus x before x' wus', wus_cycle7 x wus before = Ok (x', wus') -> m_mem (x_m x') = m_mem (x_m x).
Proof.
  induction wus as [|u t IH]; intros x before x' wus' H; simpl in H.
  - inversion H; reflexivity.
  - apply bind_ok in H as ([x1 u1] & E1 & H). apply bind_ok in H as ([x2 t'] & E2 & H).
    inversion H; subst. apply wu_cycle7_mem in E1. apply IH in E2. simpl in *. congruence.
Qed.

(* ------------------------------------------------------------------ *)
(* 2. the front end                                                     *)
(* ------------------------------------------------------------------ *)

Lemma du_loop3_mem : forall q app cycle ret pbr cbus x ret' pbr' q' cbus' x',
  du_loop3 q app cycle ret pbr cbus x = Ok (ret', pbr', q', cbus', x') -> m_mem (x_m x') = m_mem (x_m x).
Proof.
  induction q as [|pc q IH]; intros app cycle ret pbr cbus x ret' pbr' q' cbus' x' H; simpl in H.
  - inversion H; reflexivity.
  - destruct (nlen6 app <=? Z.quot pc 4); [inversion H; reflexivity|].
    destruct (Z.quot pc 4 <? 0); [discriminate|].
    destruct (nth_error app (Z.to_nat (Z.quot pc 4))) as [i|]; [|discriminate].
    destruct (InstructionType_IsUnconditionalBranch (instr_InstructionType i)); [inversion H; reflexivity|].
    destruct (instr_InstructionType i =? Ret); [inversion H; reflexivity|].
    apply IH in H. exact H.
Qed.

Lemma du_cycle3_mem : forall app cycle x x', du_cycle3 app cycle x = Ok x' -> m_mem (x_m x') = m_mem (x_m x).
Proof.
  intros app cycle x x' H. unfold du_cycle3 in H.
  destruct (m_dret (x_m x)); [inversion H; reflexivity|].
  destruct (m_dpbr (x_m x)); [inversion H; reflexivity|].
  destruct (du_loop3 _ _ _ _ _ _ _) as [[[[[ret pbr] q'] cbus'] x1]| |] eqn:E; simpl in H; try discriminate.
  inversion H; subst. reflexivity.
Qed.

Lemma push_or_stop3_mem : forall x cycle r stop p s r' x',
  push_or_stop3 x cycle r stop = (p, s, r', x') -> m_mem (x_m x') = m_mem (x_m x).
Proof.
  intros x cycle r stop p s r' x' H. unfold push_or_stop3, push_runner3 in H.
  destruct (negb (bb_canadd (x_ebus x))); inversion H; reflexivity.
Qed.

Lemma handle_runner3_mem : forall ord cycle x sk pb r p s r' x',
  handle_runner3 ord cycle x sk pb r = (p, s, r', x') -> m_mem (x_m x') = m_mem (x_m x).
Proof.
  intros ord cycle x sk pb r p s r' x' H. unfold handle_runner3 in H.
  destruct (_ && pb); [inversion H; subst; auto|].
  destruct (_ && _); [inversion H; subst; auto|].
  destruct (skipped_hazard3 sk (q_instr r)); [inversion H; subst; auto|].
  destruct (zlen (hazards_of x (q_instr r)) =? 0).
  - eapply push_or_stop3_mem; eauto.
  - destruct (should_forward3 ord cycle x r (hazards_of x (q_instr r))) as [[pr reg]|].
    + apply push_or_stop3_mem in H. exact H.
    + destruct (should_rename3 _).
      * eapply push_or_stop3_mem; eauto.
      * inversion H; subst; auto.
Qed.

Lemma after_push3_mem : forall x l r, m_mem (x_m (fst (after_push3 x l r))) = m_mem (x_m x).
Proof. intros. unfold after_push3. simpl. destruct (InstructionType_IsConditionalBranch _); reflexivity. Qed.

Lemma cu_pending3_mem : forall ord cycle ps kept l x st pend l' x',
  cu_pending3 ord cycle ps kept l x = (st, pend, l', x') -> m_mem (x_m x') = m_mem (x_m x).
Proof.
  induction ps as [|r t IH]; intros kept l x st pend l' x' H; simpl in H.
  - inversion H; subst; auto.
  - destruct (handle_runner3 ord cycle x (l_skipped l) (l_pbranch l) r) as [[[p s] r1] x1] eqn:EH.
    apply handle_runner3_mem in EH.
    destruct p.
    + destruct (after_push3 x1 l r1) as [x2 l2] eqn:EA.
      assert (HE : m_mem (x_m x2) = m_mem (x_m x1)) by (pose proof (after_push3_mem x1 l r1) as Q; rewrite EA in Q; exact Q).
      destruct s.
      * inversion H; subst. congruence.
      * apply IH in H. congruence.
    + destruct s.
      * inversion H; subst. auto.
      * apply IH in H. congruence.
Qed.

Lemma cu_incoming3_mem : forall ord cycle q pend l x q' pend' l' x',
  cu_incoming3 ord cycle q pend l x = (q', pend', l', x') -> m_mem (x_m x') = m_mem (x_m x).
Proof.
  induction q as [|r0 t IH]; intros pend l x q' pend' l' x' H; simpl in H.
  - destruct (pendingLength <=? zlen pend); inversion H; subst; auto.
  - destruct (pendingLength <=? zlen pend); [inversion H; subst; auto|].
    destruct (handle_runner3 ord cycle x (l_skipped l) (l_pbranch l) (r3_of r0)) as [[[p s] r1] x1] eqn:EH.
    apply handle_runner3_mem in EH.
    destruct p.
    + destruct (after_push3 x1 l r1) as [x2 l2] eqn:EA.
      assert (HE : m_mem (x_m x2) = m_mem (x_m x1)) by (pose proof (after_push3_mem x1 l r1) as Q; rewrite EA in Q; exact Q).
      destruct s.
      * inversion H; subst. congruence.
      * apply IH in H. congruence.
    + destruct s.
      * inversion H; subst. auto.
      * apply IH in H. congruence.
Qed.

Lemma cu_cycle3_mem : forall ord cycle x, m_mem (x_m (cu_cycle3 ord cycle x)) = m_mem (x_m x).
Proof.
  intros ord cycle x. unfold cu_cycle3.
  destruct (negb (bb_canadd (x_ebus x))); [reflexivity|].
  destruct (cu_pending3 ord cycle (x_pend x) [] (mk_cul [] [] false) x) as [[[st pend1] l1] x1] eqn:E1.
  apply cu_pending3_mem in E1.
  destruct st; [exact E1|].
  destruct (cu_incoming3 ord cycle (bb_q (m_cbus (x_m x1))) pend1 l1 x1) as [[[q' pend2] l2] x2] eqn:E2.
  apply cu_incoming3_mem in E2. cbn [set_prev3 set_pend3 set_m x_m set_cbus m_mem]. congruence.
Qed.

Lemma connected3_mem : forall x cycle, m_mem (x_m (connected3 x cycle)) = m_mem (x_m x).
Proof. reflexivity. Qed.

Lemma front3_mem : forall app ord cycle x x', front3 app ord cycle x = Ok x' -> m_mem (x_m x') = m_mem (x_m x).
Proof.
  intros app ord cycle x x' H. rewrite front3_eq in H.
  destruct (fu_cycle6 app cycle _ _ _) as [[[fu1 l1i1] dbus1]| |]; try discriminate H.
  destruct (du_cycle3 app cycle _) as [x1| |] eqn:ED; try discriminate H.
  injection H as H. subst x'.
  rewrite cu_cycle3_mem. apply du_cycle3_mem in ED. rewrite ED. reflexivity.
Qed.

(* ------------------------------------------------------------------ *)
(* 4. the hooks                                                         *)
(* ------------------------------------------------------------------ *)

Record hooks_frame (hk : hooks7) : Prop := mk_hooks_frame {
  hf_take : forall id w, w_i (fst (k_take hk id w)) = w_i w /\ w_mem (fst (k_take hk id w)) = w_mem w;
  hf_front : forall app ord cycle w w', k_front hk app ord cycle w = Ok w' -> w_i w' = w_i w /\ w_mem w' = w_mem w;
  hf_evict : forall i, k_evict hk i = i }.

Lemma hooks70_frame : hooks_frame hooks70.
Proof.
  constructor.
  - intros id w. cbn [hooks70 k_take].
    destruct (bb_get (x_ebus (w_x w))) as [ebus' [r|]]; split; reflexivity.
  - intros app ord cycle w w' H. cbn [hooks70 k_front] in H.
    apply bind_ok in H as (x1 & E & H). inversion H; subst.
    apply front3_mem in E. split; [reflexivity | exact E].
  - reflexivity.
Qed.

(* ------------------------------------------------------------------ *)
(* 5. the execute units                                                 *)
(* ------------------------------------------------------------------ *)

Definition wframe (w0 w : w7) : Prop := w_i w0 = w_i w /\ w_mem w0 = w_mem w.

Lemma wframe_refl : forall w, wframe w w.
Proof. intros; split; reflexivity. Qed.

Lemma wframe_set_wx : forall w x, m_mem (x_m x) = w_mem w -> wframe (set_wx w x) w.
Proof. intros w x H; split; [reflexivity | exact H]. Qed.

Lemma eu_write7_split : forall id w e addrs data w' e' o,
  eu_write7 id w e addrs data = Ok (w', e', o) ->
  exists i1 c1 done, cc_write_cycle (w_mem w) (w_i w) id (h_cc e) addrs data = Ok (i1, c1, done) /\
    w' = set_wi w i1 /\ h_cc e' = c1 /\ h_co e' = (if done then HNone else HWrite addrs data) /\ h_seq e' = h_seq e.
Proof.
  intros id w e addrs data w' e' o H. unfold eu_write7 in H.
  apply bind_ok in H as ([[i1 c1] done] & E & H). inversion H; subst.
  exists i1, c1, done. repeat split; auto.
Qed.

Lemma eu_run7_split : forall hk labels ord cycle id w e w' e' o,
  eu_run7 hk labels ord cycle id w e = Ok (w', e', o) ->
  (wframe w' w /\ h_cc e' = h_cc e /\ h_co e' = HNone /\ h_seq e' = h_seq e) \/
  (exists w0 addrs data, wframe w0 w /\ eu_write7 id w0 (set_hco e HNone) addrs data = Ok (w', e', o)).
Proof.
  intros hk labels ord cycle id w e w' e' o H. unfold eu_run7 in H.
  destruct (h_runner e) as [r|]; [|discriminate].
  destruct (k_rr hk (w_x w) (q_pc r) (q_seq r)) as [rr sid].
  destruct (instr_Run _ _ _ _ _ _) as [exe| |]; try discriminate.
  - destruct (Return exe); [inversion H; subst; left; repeat split; reflexivity|].
    destruct (MemoryChange exe).
    + right. eexists _, _, _. split; [|exact H]. split; reflexivity.
    + left. cbv zeta in H. destruct (q_fwder r) as [ch|].
      * destruct (aget ch _); [discriminate|]. destruct (InstructionType_IsBranch _); [discriminate|].
        inversion H; subst. repeat split; reflexivity.
      * destruct (PcChange exe); cbn [andb] in H; [destruct (bu_should_flush6 _ _) as [b' fl]|];
          destruct (InstructionType_IsUnconditionalBranch _); destruct (InstructionType_IsConditionalBranch _);
          try destruct (negb _); inversion H; subst; repeat split; reflexivity.
  - inversion H; subst; left; repeat split; reflexivity.
Qed.

Lemma eu_read7_split : forall hk labels ord cycle id w e addrs w' e' o,
  eu_read7 hk labels ord cycle id w e addrs = Ok (w', e', o) ->
  exists i1 c1 resp, cc_read_cycle (w_mem w) (w_i w) id (h_cc e) addrs = Ok (i1, c1, resp) /\
    match resp with
    | None => w' = set_wi w i1 /\ h_cc e' = c1 /\ h_co e' = HRead addrs /\ h_seq e' = h_seq e
    | Some bytes => eu_run7 hk labels ord cycle id (set_wi w i1) (mk_eu7 HNone bytes (h_runner e) (h_seq e) c1) = Ok (w', e', o)
    end.
Proof.
  intros hk labels ord cycle id w e addrs w' e' o H. unfold eu_read7 in H.
  apply bind_ok in H as ([[i1 c1] resp] & E & H).
  exists i1, c1, resp. split; [exact E|].
  destruct resp; [exact H|]. inversion H; subst. repeat split; reflexivity.
Qed.

Lemma eu_prepare7_split : forall hk labels ord cycle id w e w' e' o,
  eu_prepare7 hk labels ord cycle id w e = Ok (w', e', o) ->
  (wframe w' w /\ h_cc e' = h_cc e /\ h_co e' = h_co e /\ h_seq e' = h_seq e) \/
  (exists w0 e0, wframe w0 w /\ h_cc e0 = h_cc e /\ h_co e0 = h_co e /\ h_seq e0 = h_seq e /\
     (eu_run7 hk labels ord cycle id w0 (set_hco e0 HNone) = Ok (w', e', o) \/
      exists addrs, eu_read7 hk labels ord cycle id w0 e0 addrs = Ok (w', e', o))).
Proof.
  intros hk labels ord cycle id w e w' e' o H. unfold eu_prepare7 in H.
  destruct (negb (bb_canadd _)); [inversion H; subst; left; repeat split; reflexivity|].
  destruct (h_runner e) as [r|]; [|discriminate].
  match type of H with context [match ?rcv with Some _ => _ | None => _ end] =>
    destruct rcv as [[x0 r1]|] eqn:ER end; [|inversion H; subst; left; repeat split; reflexivity].
  assert (HX : m_mem (x_m x0) = w_mem w).
  { destruct (q_recv r); [|inversion ER; reflexivity].
    destruct (aget z (x_chan (w_x w))); [|discriminate]. inversion ER; reflexivity. }
  destruct (k_rr hk _ _ _) as [rr sid].
  right.
  exists (set_wx w (bu_assert3 x0 (q_r r1))), (mk_eu7 (h_co e) (h_memory e) (Some r1) (h_seq e) (h_cc e)).
  split; [apply wframe_set_wx; rewrite bu_assert3_mem; exact HX|].
  split; [reflexivity|]. split; [reflexivity|]. split; [reflexivity|].
  destruct (instr_MemoryRead _ _ _) as [|a0 at0].
  - left. exact H.
  - right. eexists. exact H.
Qed.

(* ------------------------------------------------------------------ *)
(* 6. lists of units, loops                                             *)
(* ------------------------------------------------------------------ *)

Lemma idle_post : forall c, c_rd c = RStart -> c_wr c = WStart -> cur_post c = None.
Proof. intros c R W. unfold cur_post. rewrite R, W. reflexivity. Qed.

Lemma eu7_reseq : forall e q, h_seq e = q -> mk_eu7 (h_co e) (h_memory e) (h_runner e) q (h_cc e) = e.
Proof. intros [] q <-. reflexivity. Qed.

Lemma snoc_app {A} (D : list A) e T : (D ++ [e]) ++ T = D ++ e :: T.
Proof. rewrite <- app_assoc. reflexivity. Qed.
Lemma snoc_len {A} (D : list A) e : Z.of_nat (length (D ++ [e])) = Z.of_nat (length D) + 1.
Proof. rewrite app_length. cbn [length]. lia. Qed.

Lemma res_of7_cont : forall A os (o : outcome A) k s', res_of7 os o k = UCont s' -> exists x, o = Ok x /\ k x = UCont s'.
Proof. intros A os o k s' H. destruct o; cbn [res_of7] in H; try discriminate. eauto. Qed.

Lemma ret_check7_same : forall s s', ret_check7 s = UCont s' -> v_w s' = v_w s /\ v_eus s' = v_eus s.
Proof. intros s s' H. unfold ret_check7 in H. destruct (_ && _); inv H; split; reflexivity. Qed.

(* once a flush is raised in the main loop it stays raised *)
Lemma eus_main7_flush_mono : forall hk labels ord cycle eus id w acc w' eus' o,
  eus_main7 hk labels ord cycle id w eus acc = Ok (w', eus', o) -> y_flush acc = true -> y_flush o = true.
Proof.
  intros hk labels ord cycle. induction eus as [|e tl IH]; intros id w acc w' eus' o H F; cbn [eus_main7] in H.
  - inv H. exact F.
  - apply bind_ok in H as ([[w1 e1] o1] & E1 & H). destruct (y_err o1); [inv H; exact F|].
    apply bind_ok in H as ([[w2 t'] acc2] & E2 & H). inv H. eapply IH; [exact E2|]. cbn [y_flush]. rewrite F. reflexivity.
Qed.

Print Assumptions front3_mem.
Print Assumptions eu_prepare7_split.
Print Assumptions hooks70_frame.
