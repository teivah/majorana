(* C06 - the three-level machine (Msi/L3Protocol.v), REPAIRED refill: every
   transition is, on the state the cores see (`view`: next level = L3 copy if
   present, else main memory), either a transition of the two-level machine of
   Msi/Protocol.v or invisible - up to pointwise equality of states.  Hence
   Inv (clauses 1-5, with "next level" = L3 / memory), the L3 invariant L3I
   and the data-value invariant DV hold in every reachable state, for every
   number of cores, every interleaving, every length. *)
From Coq Require Import List ZArith Lia Bool Arith.
From Maj Require Import Comp.ListFacts.
From Maj Require Import Msi.Protocol Msi.Invariant Msi.InvProofs Msi.StepProofs Msi.CodedProofs
  Msi.L3Protocol Msi.L3Invariant Msi.L3Lemmas Msi.L3DataValue.
Import ListNotations.
Open Scope Z_scope.

(* ---- the lifted transitions neither read nor write the next level ---- *)
Lemma core_lab_mem N g fm b lab b' : core_lab lab = true -> step N g fm b lab b' -> mem b' = mem b.
Proof.
  intros Hc Hs. destruct Hs; simpl in *; try discriminate; try reflexivity.
  unfold flush_rep. destruct (ph s i); reflexivity.
Qed.

Lemma flush_rep_set_mem s i m : set_mem (flush_rep s i) m = flush_rep (set_mem s m) i.
Proof. unfold flush_rep, set_mem. simpl. destruct (ph s i); reflexivity. Qed.

Lemma step_set_mem N g fm b lab b' m : core_lab lab = true -> step N g fm b lab b' ->
  step N g fm (set_mem b m) lab (set_mem b' m).
Proof.
  intros Hc Hs. destruct Hs; simpl in Hc; try discriminate.
  all: try (econstructor; eassumption).
  - apply (fill_rd N g fm i l v vic (set_mem s m)); assumption.
  - apply (fill_wr N g fm i l v vic (set_mem s m)); assumption.
  - rewrite flush_rep_set_mem. now constructor.
Qed.

(* msi.evictL1ExtraCacheLine of MVP-8.0 sends l1Evict for an Invalid victim too
   (7.0 / 7.1: nothing), and coSnoop then panics on assertAddrInState: under
   the invariant the LRU victim of a fill is never Invalid, so req_victim of
   Msi/Protocol.v is what 8.0 does as well *)
Lemma victim_not_invalid N s i l a : Inv N s -> (i < N)%nat -> tx_line (ph s i) = Some l ->
  victim_ok s i l (Some a) -> ms s i a <> I.
Proof.
  intros I0 Hi Ht [Hne Hl]. apply (view_off N s a (I0 a) i Hi); auto.
  apply (on_line_false _ _ l); auto.
Qed.

Section L3P.
Variable N : nat.
Variable w : Z.
Variable cap : nat.
Hypothesis Hw : 0 < w.
Hypothesis Hcap : (0 < cap)%nat.

Notation refill := (refill w cap).
Notation store_next := (store_next w).
Notation next := (next w).
Notation view := (view w).
Notation in_l3 := (in_l3 w).
Notation grp := (grp w).
Notation L3I := (L3I w cap).

(* ---- what the cores see of the next level after an L3 transition ---- *)
Lemma vic_in s : Nat.leb cap (length (l3q s)) = true -> In (last (l3q s) 0) (l3q s).
Proof. intros H. apply last_in. now apply (full_nonempty _ cap). Qed.

Lemma next_refill s l k : L3I s -> in_l3 s l = false -> next (refill s l) k = next s k.
Proof.
  intros L Hl. unfold L3Protocol.next, L3Protocol.in_l3, L3Protocol.refill. simpl.
  unfold L3Protocol.in_l3 in Hl.
  set (q := l3q s) in *. set (vic := last q 0).
  destruct (Z.eqb_spec (grp k) (grp l)) as [E|E]; simpl.
  - rewrite E, Hl. destruct (Nat.leb cap (length q)) eqn:F; simpl; auto.
    destruct (l3w s vic); auto. unfold wb_group.
    destruct (Z.eqb_spec (L3Protocol.grp w k) vic) as [E'|]; auto. exfalso.
    apply inq_false in Hl. apply Hl. rewrite <- E, E'. now apply vic_in.
  - destruct (Nat.leb cap (length q)) eqn:F; simpl; auto.
    pose proof (vic_in s F) as Hv. fold q vic in Hv.
    rewrite inq_del. destruct (Z.eqb_spec (grp k) vic) as [E'|E']; simpl.
    + assert (Hin : inq (grp k) q = true) by (apply inq_iff; now rewrite E').
      rewrite Hin. destruct (l3w s vic) eqn:Hd.
      * unfold wb_group. now rewrite E', Z.eqb_refl.
      * symmetry. apply (l3_clean _ _ _ L vic k); auto.
    + destruct (inq (grp k) q); auto. destruct (l3w s vic); auto. unfold wb_group.
      destruct (Z.eqb_spec (L3Protocol.grp w k) vic); [contradiction|reflexivity].
Qed.

Lemma next_store s b' l v k : mem b' = mem (core s) -> next (store_next s b' l v) k = updl (next s) l v k.
Proof.
  intros Hm. unfold L3Protocol.store_next. destruct (in_l3 s l) eqn:E.
  - unfold L3Protocol.next, L3Protocol.in_l3. simpl. rewrite inq_touch, Hm. unfold updl.
    destruct (Z.eqb_spec k l) as [->|]; auto. unfold L3Protocol.in_l3 in E. now rewrite E.
  - unfold L3Protocol.next, L3Protocol.in_l3. simpl. rewrite Hm. unfold updl.
    destruct (Z.eqb_spec k l) as [->|]; auto. unfold L3Protocol.in_l3 in E. now rewrite E.
Qed.

Lemma next_l3_flush s b k c : In b (l3q s) ->
  next {| core := set_mem (core s) (wb_group w s b); ax := ax s; l3q := l3q s; l3d := l3d s; l3w := l3w s;
          l3c := c; hist := hist s |} k = next s k.
Proof.
  intros Hb. unfold L3Protocol.next, L3Protocol.in_l3. simpl.
  destruct (inq (grp k) (l3q s)) eqn:E; auto. unfold wb_group.
  destruct (Z.eqb_spec (L3Protocol.grp w k) b) as [E'|]; auto. exfalso.
  apply inq_false in E. apply E. now rewrite E'.
Qed.

(* ---- what the cores see after a fetch from L3, and after a line went to the next level ---- *)
Lemma view_fetch s i l p : st_eq (set_ph (view s) i p) (view (fetch_l3 w s i l p)).
Proof.
  constructor; intros; simpl; auto.
  unfold L3Protocol.next, L3Protocol.in_l3. simpl. destruct (is_pushed (ax s i)); now rewrite ?inq_touch.
Qed.

Lemma view_store s b' l v : mem b' = mem (core s) ->
  st_eq (set_mem b' (updl (next s) l v)) (view (store_next s b' l v)) /\ hist (store_next s b' l v) = hist s.
Proof.
  intros Hm. split; [constructor; intros; simpl|].
  (* only the next level differs *)
  all: try (unfold L3Protocol.store_next; destruct (in_l3 s l); reflexivity).
  now apply next_store.
Qed.

(* ---- the simulation ---- *)
Lemma sim_rep g fm s k s' : L3I s -> step3 N g fm true w cap s k s' ->
  (st_eq (view s) (view s') /\ hist s' = hist s) \/
  (exists lab b', step N g fm (view s) lab b' /\ st_eq b' (view s') /\ hist s' = hist_after lab (hist s)).
Proof.
  intros L Hs. destruct Hs.
  - (* lifted *)
    right. exists lab, (set_mem b' (next s)). split; [|split; [|reflexivity]].
    + now apply step_set_mem.
    + constructor; intros; simpl; auto.
      unfold L3Protocol.next, L3Protocol.in_l3. simpl. now rewrite (core_lab_mem _ _ _ _ _ _ H H0).
  - (* fetch_rd: the L3 copy is the next level of the line *)
    right. eexists (L_fetch_rd i l), _. split; [apply fetch_rd; eassumption|]. split; [|reflexivity].
    simpl. replace (next s l) with (l3d s l) by (unfold L3Protocol.next; now rewrite H2). apply view_fetch.
  - (* fetch_wr *)
    right. eexists (L_fetch_wr i l), _. split; [apply fetch_wr; eassumption|]. split; [|reflexivity].
    simpl. replace (next s l) with (l3d s l) by (unfold L3Protocol.next; now rewrite H2). apply view_fetch.
  - discriminate.
  - discriminate.
  - (* refill *)
    left. split; [|reflexivity]. constructor; intros; simpl; auto. now apply next_refill.
  - rewrite (l3_nocmd _ _ _ L) in H. destruct H.
  - rewrite (l3_nocmd _ _ _ L) in H. destruct H.
  - (* l1 write-back *)
    right. eexists (L_cmd_writeback_done j l), _. split; [eapply cmd_writeback_done with (v := v); eassumption|].
    now apply (view_store s (wb_core (core s) j l) l v).
  - (* export *)
    right. eexists (L_export i l), _. split; [eapply export_line with (v := v); eassumption|].
    now apply (view_store s (core s) l v).
  - (* L3 line copied to memory *)
    left. split; [|reflexivity]. constructor; intros; simpl; auto. now apply next_l3_flush.
Qed.

(* ---- the L3 invariant is inductive ---- *)
Lemma l3i_refill s l : L3I s -> in_l3 s l = false -> L3I (refill s l).
Proof.
  intros L Hl. pose proof L as [A B C D E F G]. unfold L3Protocol.in_l3 in Hl. apply inq_false in Hl.
  unfold L3Protocol.refill. set (q := l3q s) in *. set (vic := last q 0).
  destruct (Nat.leb cap (length q)) eqn:Full; simpl.
  - pose proof (vic_in s Full) as Hv. fold q vic in Hv.
    constructor; simpl; [| | | | |exact F|exact G].
    + constructor; [rewrite del_in; tauto|now apply del_nodup].
    + intros b [<-|Hb]; [now apply grp_aligned|]. apply del_in in Hb. apply B. tauto.
    + pose proof (del_length_nodup vic q A Hv). fold q in C. lia.
    + intros b k [<-|Hb] Hd Hg.
      * now rewrite Hg, Z.eqb_refl.
      * apply del_in in Hb. destruct Hb as [Hb Hne].
        destruct (Z.eqb_spec (L3Protocol.grp w k) (grp l)) as [E'|_]; [exfalso; apply Hl; now rewrite <- E', Hg|].
        rewrite updl_other in Hd by auto. rewrite (D b k Hb Hd Hg).
        destruct (l3w s vic); auto. unfold wb_group. rewrite Hg.
        destruct (Z.eqb_spec b vic); [contradiction|reflexivity].
    + intros b Hn. unfold updl. destruct (Z.eqb_spec b vic) as [->|Hne]; auto. apply E. intro Hb. apply Hn.
      right. apply del_in. tauto.
  - apply Nat.leb_gt in Full. constructor; simpl.
    + constructor; auto.
    + intros b [<-|Hb]; [now apply grp_aligned|auto].
    + fold q. lia.
    + intros b k [<-|Hb] Hd Hg.
      * now rewrite Hg, Z.eqb_refl.
      * destruct (Z.eqb_spec (L3Protocol.grp w k) (grp l)) as [E'|_]; [exfalso; apply Hl; now rewrite <- E', Hg|].
        now apply (D b k).
    + intros b Hn. apply E. tauto.
    + exact F.
    + exact G.
Qed.

Lemma l3i_store s b' l v : L3I s -> mem b' = mem (core s) -> L3I (store_next s b' l v).
Proof.
  intros L Hm. pose proof L as [A B C D E F G]. unfold L3Protocol.store_next.
  destruct (in_l3 s l) eqn:Hl; unfold L3Protocol.in_l3 in Hl.
  - apply inq_iff in Hl. constructor; simpl; auto.
    + now apply touch_nodup.
    + intros b Hb. apply touch_in in Hb. auto.
    + now rewrite touch_length.
    + intros b k Hb Hd Hg. apply touch_in in Hb. rewrite Hm. unfold updl in *.
      destruct (Z.eqb_spec b (grp l)) as [->|Hne]; [discriminate|].
      destruct (Z.eqb_spec k l) as [->|]; [congruence|]. now apply (D b k).
    + intros b Hn. rewrite touch_in in Hn. unfold updl.
      destruct (Z.eqb_spec b (grp l)) as [->|]; [contradiction|auto].
  - apply inq_false in Hl. constructor; simpl; auto.
    intros b k Hb Hd Hg. rewrite Hm. unfold updl. destruct (Z.eqb_spec k l) as [->|]; [|now apply (D b k)].
    exfalso. apply Hl. now rewrite Hg.
Qed.

Lemma l3i_fetch s i l p : L3I s -> L3I (fetch_l3 w s i l p).
Proof.
  intros [A B C D E F G]. unfold fetch_l3. rewrite (G i). constructor; simpl.
  - now apply touch_nodup.
  - intros b Hb. apply touch_in in Hb. auto.
  - now rewrite touch_length.
  - intros b k Hb. apply touch_in in Hb. now apply D.
  - intros b Hn. rewrite touch_in in Hn. auto.
  - exact F.
  - intros j. unfold upd. destruct (Nat.eqb j i); auto.
Qed.

Lemma l3i_step g fm s k s' : L3I s -> step3 N g fm true w cap s k s' -> L3I s'.
Proof.
  intros L Hs. pose proof L as [A B C D E F G]. destruct Hs.
  - constructor; simpl; auto. intros b k. rewrite (core_lab_mem _ _ _ _ _ _ H H0). apply D.
  - now apply l3i_fetch.
  - now apply l3i_fetch.
  - discriminate.
  - discriminate.
  - now apply l3i_refill.
  - rewrite F in H. destruct H.
  - rewrite F in H. destruct H.
  - now apply l3i_store.
  - now apply l3i_store.
  - constructor; simpl; auto. intros b0 k Hb Hd Hg. unfold wb_group. rewrite Hg.
    destruct (Z.eqb_spec b0 b); auto. now apply (D b0 k).
Qed.

Lemma l3i_init m0 : L3I (init3 m0).
Proof. constructor; simpl; auto; try tauto; try lia. constructor. Qed.

Lemma view_init m0 : st_eq (init m0) (view (init3 m0)).
Proof. constructor; reflexivity. Qed.

(* ---- every reachable state ---- *)
(* what is invariant under pointwise equality and preserved by the transitions
   of the two-level machine holds of what the cores see, along every run *)
Lemma sim_rep_preserves (P : st -> list wr_event -> Prop) g fm s k s' :
  (forall a b h, st_eq a b -> P a h -> P b h) ->
  (forall b h lab b', P b h -> step N g fm b lab b' -> P b' (hist_after lab h)) ->
  L3I s -> step3 N g fm true w cap s k s' -> P (view s) (hist s) -> P (view s') (hist s').
Proof.
  intros Heq Hst L Hs H. destruct (sim_rep _ _ _ _ _ L Hs) as [[E Hh]|[lab [b' [X [E Hh]]]]]; rewrite Hh; eauto.
Qed.

(* the L1 protocol as coded (unguarded locks, flush excluded) over the repaired L3 *)
Theorem l3_reachable_repaired m0 s : reach3 N false NoFlush true w cap m0 s ->
  Inv N (view s) /\ J N (view s) /\ L3I s /\ DV N (view s) (lastw m0 (hist s)).
Proof.
  intros R. cut (coded_inv N m0 (view s) (hist s) /\ L3I s); [unfold coded_inv; tauto|].
  induction R as [|s k s' Hr [C0 L0] Hs].
  - split; [apply (coded_inv_st_eq N m0 (init m0)); [apply view_init|apply coded_inv_init]|apply l3i_init].
  - split; [|exact (l3i_step _ _ _ _ _ L0 Hs)].
    apply (sim_rep_preserves (coded_inv N m0) false NoFlush s k); auto.
    + apply coded_inv_st_eq.
    + apply coded_inv_step.
Qed.

(* the repaired L1 protocol (guarded locks, with or without the repaired flush) over the repaired L3 *)
Theorem l3_reachable_repaired_guarded fm m0 s : reach3 N true fm true w cap m0 s ->
  Inv N (view s) /\ L3I s /\ DV N (view s) (lastw m0 (hist s)).
Proof.
  intros R. cut (guarded_inv N m0 (view s) (hist s) /\ L3I s); [unfold guarded_inv; tauto|].
  induction R as [|s k s' Hr [C0 L0] Hs].
  - split; [apply (guarded_inv_st_eq N m0 (init m0)); [apply view_init|apply guarded_inv_init]|apply l3i_init].
  - split; [|exact (l3i_step _ _ _ _ _ L0 Hs)].
    apply (sim_rep_preserves (guarded_inv N m0) true fm s k); auto.
    + apply guarded_inv_st_eq.
    + intros b h lab b'. apply guarded_inv_step.
Qed.

(* ---- what the invariants say, in terms of the three-level state ---- *)
(* (clauses 1-5 with "next level" = the L3 copy when L3 holds the line, main memory
   otherwise, are inv_clauses of view s; that every valid copy holds the last value
   written is dv_valid_copy of view s) *)
Theorem l3_shared_equals_next s i l : Inv N (view s) -> (i < N)%nat -> ms (core s) i l = S ->
  (in_l3 s l = true -> l1 (core s) i l = Some (l3d s l)) /\
  (in_l3 s l = false -> l1 (core s) i l = Some (mem (core s) l)).
Proof.
  intros I0 Hi Hs. pose proof (shared_clean _ _ _ (I0 l) i Hi Hs) as X. simpl in X.
  unfold L3Protocol.next in X. split; intros E; now rewrite E in X.
Qed.

(* the structure of L3: one copy per line, aligned, within capacity *)
Theorem l3_structure s : L3I s ->
  NoDup (l3q s) /\ (forall b, In b (l3q s) -> b mod w = 0) /\ (length (l3q s) <= cap)%nat.
Proof. intros [A B C _ _ _ _]. auto. Qed.

(* data value: the current value of every line is the last value written *)
Theorem l3_current_value s lw l : Inv N (view s) -> DV N (view s) lw -> current N w s l (lw l).
Proof.
  intros I0 D. destruct (D l) as [D1 D2]. destruct (M_dec N (view s) l) as [[i [Hi HM]]|Hn].
  - left. exists i. split; auto. split; auto. now apply D1.
  - right. split; auto. specialize (D2 Hn). simpl in D2. unfold L3Protocol.next in D2.
    destruct (in_l3 s l); auto.
Qed.

End L3P.
