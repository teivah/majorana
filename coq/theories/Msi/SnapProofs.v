(* C06 - the boolean invariant of a snapshot is the Prop invariant:
   inv_b s = true <-> SInv s  (definitions in Msi/Invariant.v). *)
From Coq Require Import List ZArith Lia Bool Arith.
From Maj Require Import Msi.Protocol Msi.Invariant.
Import ListNotations.
Open Scope Z_scope.

(* ---- reflection of the elementary tests ---- *)
Lemma mstate_eqb_eq a b : mstate_eqb a b = true <-> a = b.
Proof. destruct a, b; cbn; split; congruence. Qed.

Lemma data_eqb_eq a : forall b, data_eqb a b = true <-> a = b.
Proof.
  induction a as [|x a IH]; destruct b as [|y b]; cbn [data_eqb]; try (split; congruence).
  rewrite andb_true_iff, Z.eqb_eq, IH.
  split; [intros [-> ->]; reflexivity | intros H; injection H; auto].
Qed.

Lemma is_some_iff {A} (o : option A) : is_some o = true <-> o <> None.
Proof. destruct o; cbn; split; congruence. Qed.

Lemma pair_eqb_eq x y : pair_eqb x y = true <-> x = y.
Proof.
  destruct x, y; unfold pair_eqb; cbn [fst snd].
  rewrite andb_true_iff, Nat.eqb_eq, Z.eqb_eq.
  split; [intros [-> ->]; reflexivity | intros H; injection H; auto].
Qed.

Lemma existsb_pair x t : existsb (pair_eqb x) t = true <-> In x t.
Proof.
  rewrite existsb_exists; split.
  - intros [y [Hin He]]; apply pair_eqb_eq in He; subst; auto.
  - intros; exists x; split; auto; apply pair_eqb_eq; reflexivity.
Qed.

Lemma nodup_keys_iff l : nodup_keys l = true <-> NoDup l.
Proof.
  induction l as [|a l IH]; cbn [nodup_keys].
  - split; [constructor | reflexivity].
  - rewrite andb_true_iff, negb_true_iff, IH. split.
    + intros [H1 H2]; constructor; auto.
      intro Hin; apply existsb_pair in Hin; congruence.
    + intros H; inversion H; subst; split; auto.
      destruct (existsb (pair_eqb a) l) eqn:E; auto.
      apply existsb_pair in E; contradiction.
Qed.

Lemma in_cores s i : In i (cores_of s) <-> (i < sn_cores s)%nat.
Proof. unfold cores_of; rewrite in_seq; lia. Qed.

(* ---- a line the snapshot does not mention is in the default state ---- *)
Lemma lookup_state_notin l i k :
  ~ In k (map (fun e => snd (fst e)) l) -> lookup_state l i k = 0.
Proof.
  induction l as [|[[j a] v] t IH]; intros H; cbn [lookup_state]; [reflexivity|].
  cbn [map In fst snd] in H. destruct (Z.eqb_spec a k).
  - exfalso; apply H; left; auto.
  - rewrite andb_false_r. apply IH. intro; apply H; right; auto.
Qed.

Lemma lookup_l1_notin l i k :
  ~ In k (map (fun e => snd (fst e)) l) -> lookup_l1 l i k = None.
Proof.
  induction l as [|[[j a] v] t IH]; intros H; cbn [lookup_l1]; [reflexivity|].
  cbn [map In fst snd] in H. destruct (Z.eqb_spec a k).
  - exfalso; apply H; left; auto.
  - rewrite andb_false_r. apply IH. intro; apply H; right; auto.
Qed.

Lemma lookup_sem_notin l k :
  ~ In k (map (fun e => fst (fst e)) l) -> lookup_sem l k = (0, 0).
Proof.
  induction l as [|[[a r] w] t IH]; intros H; cbn [lookup_sem]; [reflexivity|].
  cbn [map In fst snd] in H. destruct (Z.eqb_spec a k).
  - exfalso; apply H; left; auto.
  - apply IH. intro; apply H; right; auto.
Qed.

Lemma ms_default s i l : ~ In l (lines_of s) -> s_ms s i l = I.
Proof.
  intros H. unfold s_ms. rewrite lookup_state_notin; [reflexivity|].
  intro; apply H; unfold lines_of; rewrite !in_app_iff; auto.
Qed.

Lemma l1_default s i l : ~ In l (lines_of s) -> s_l1 s i l = None.
Proof.
  intros H. unfold s_l1. apply lookup_l1_notin.
  intro; apply H; unfold lines_of; rewrite !in_app_iff; auto.
Qed.

Lemma sem_default s l : ~ In l (lines_of s) -> s_rc s l = 0 /\ s_wc s l = 0.
Proof.
  intros H. unfold s_rc, s_wc. rewrite lookup_sem_notin; [split; reflexivity|].
  intro; apply H; unfold lines_of; rewrite !in_app_iff; auto.
Qed.

(* ---- the body of each boolean clause, at one point ---- *)
Lemma body1 a b (i j : nat) :
  negb (mstate_eqb a M) || Nat.eqb j i || mstate_eqb b I = true <-> (a = M -> j <> i -> b = I).
Proof.
  rewrite !orb_true_iff, negb_true_iff, Nat.eqb_eq, mstate_eqb_eq. split.
  - intros [[H|H]|H] Ha Hji; auto.
    + apply mstate_eqb_eq in Ha; congruence.
    + contradiction.
  - intros H. destruct (mstate_eqb a M) eqn:E; [|auto].
    destruct (Nat.eq_dec j i); [auto|].
    right. apply H; auto. apply mstate_eqb_eq; auto.
Qed.

Lemma body2 a (o : option data) n :
  negb (mstate_eqb a S) || match o with Some d => data_eqb d n | None => false end = true
  <-> (a = S -> o = Some n).
Proof.
  split.
  - intros H Ha. subst a. cbn [mstate_eqb negb orb] in H.
    destruct o; [apply data_eqb_eq in H; subst; auto | discriminate].
  - intros H. destruct (mstate_eqb a S) eqn:E; [|reflexivity].
    apply mstate_eqb_eq in E. rewrite (H E). cbn [negb orb].
    apply data_eqb_eq; reflexivity.
Qed.

Lemma body3 a (o : option data) (t : bool) :
  (mstate_eqb a I || is_some o) && (t || negb (is_some o) || negb (mstate_eqb a I)) = true
  <-> (a <> I -> o <> None) /\ (~ t = true -> o <> None -> a <> I).
Proof.
  destruct a, o, t; cbn; split; try discriminate; try (intros _; split; congruence);
    intros [H1 H2]; try reflexivity; exfalso.
  all: try (apply H1; congruence).
  all: try (apply H2; congruence).
Qed.

Lemma body5 r w :
  Z.leb 0 r && Z.leb 0 w && Z.leb w 1 && (negb (Z.eqb w 1) || Z.eqb r 0) = true
  <-> 0 <= r /\ 0 <= w /\ w <= 1 /\ (w = 1 -> r = 0).
Proof.
  rewrite !andb_true_iff, !Z.leb_le, orb_true_iff, negb_true_iff, Z.eqb_neq, Z.eqb_eq.
  split; [intros [[[? ?] ?] ?] | intros (?&?&?&?)]; repeat split; auto; lia.
Qed.

(* ---- clause by clause ---- *)
(* a test on every core; a test on every line the snapshot mentions, where the
   property tested holds of every other line by default *)
Lemma forallb_cores s (f : nat -> bool) (P : nat -> Prop) : (forall i, f i = true <-> P i) ->
  forallb f (cores_of s) = true <-> forall i, (i < sn_cores s)%nat -> P i.
Proof. intros H. rewrite forallb_forall. split; intros X i Hi; apply H, X; now apply in_cores. Qed.

Lemma forallb_lines s (f : line -> bool) (P : line -> Prop) : (forall l, f l = true <-> P l) ->
  (forall l, ~ In l (lines_of s) -> P l) -> forallb f (lines_of s) = true <-> forall l, P l.
Proof.
  intros H Hd. rewrite forallb_forall. split; intros X l; [|intros _; now apply H].
  destruct (in_dec Z.eq_dec l (lines_of s)); [apply H, X|apply Hd]; auto.
Qed.

Lemma c1_iff s : c1_b s = true <-> clause1 (obs_of_snap s).
Proof.
  transitivity (forall l i, (i < sn_cores s)%nat -> forall j, (j < sn_cores s)%nat ->
                  s_ms s i l = M -> j <> i -> s_ms s j l = I).
  - apply forallb_lines.
    + intros l. apply forallb_cores. intros i. apply forallb_cores. intros j. apply body1.
    + intros l Hn i _ j _ _ _. now apply ms_default.
  - unfold clause1. simpl. split; intros H; [intros i j l Hi Hj|intros l i Hi j Hj]; now apply H.
Qed.

Lemma c2_iff s : c2_b s = true <-> clause2 (obs_of_snap s).
Proof.
  transitivity (forall l i, (i < sn_cores s)%nat -> s_ms s i l = S -> s_l1 s i l = Some (s_next s l)).
  - apply forallb_lines.
    + intros l. apply forallb_cores. intros i. apply body2.
    + intros l Hn i _ Hm. rewrite (ms_default s i l Hn) in Hm. discriminate.
  - unfold clause2. simpl. split; intros H; [intros i l|intros l i]; now apply H.
Qed.

Lemma c3_iff s : c3_b s = true <-> clause3 (obs_of_snap s).
Proof.
  transitivity (forall l i, (i < sn_cores s)%nat ->
                  (s_ms s i l <> I -> s_l1 s i l <> None) /\
                  (~ s_transfer s i l = true -> s_l1 s i l <> None -> s_ms s i l <> I)).
  - apply forallb_lines.
    + intros l. apply forallb_cores. intros i. apply body3.
    + intros l Hn i _. rewrite (ms_default s i l Hn), (l1_default s i l Hn). split; congruence.
  - unfold clause3. simpl. split; intros H; [intros i l|intros l i]; now apply H.
Qed.

Lemma c4_iff s : c4_b s = true <-> l1_wellformed s.
Proof.
  unfold c4_b, l1_wellformed.
  rewrite andb_true_iff, nodup_keys_iff, forallb_forall.
  split; intros [Hn H]; split; auto.
  - intros i a d Hin. specialize (H _ Hin). cbn beta iota in H.
    rewrite andb_true_iff, !Z.eqb_eq in H. exact H.
  - intros [[i a] d] Hin. destruct (H i a d Hin).
    rewrite andb_true_iff, !Z.eqb_eq; auto.
Qed.

Lemma c5_iff s : c5_b s = true <-> clause5 (obs_of_snap s).
Proof.
  apply forallb_lines.
  - intros l. apply body5.
  - intros l Hn. simpl. destruct (sem_default s l Hn) as [-> ->]. lia.
Qed.

(* ---- the theorems ---- *)
Theorem inv_b_correct : forall s, inv_b s = true <-> SInv s.
Proof.
  intros s. unfold inv_b, SInv, clauses.
  rewrite !andb_true_iff, c1_iff, c2_iff, c3_iff, c4_iff, c5_iff. tauto.
Qed.

Theorem inv_b_sound : forall s, inv_b s = true -> SInv s.
Proof. intros s; apply inv_b_correct. Qed.

Theorem inv_b_complete : forall s, SInv s -> inv_b s = true.
Proof. intros s; apply inv_b_correct. Qed.

Print Assumptions inv_b_correct.
