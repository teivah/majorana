(* C06 - every transition of the machine preserves Inv (given that a lock
   transition finds no outstanding command for (requester, line)); Inv holds
   initially; hence Inv holds in every reachable state of the guarded machine,
   with or without the repaired flush. *)
From Coq Require Import List ZArith Lia Bool Arith.
From Maj Require Import Msi.Protocol Msi.Invariant Msi.InvProofs.
Import ListNotations.
Open Scope Z_scope.

Definition lock_target (lab : label) : option (nat * line) :=
  match lab with
  | L_rlock_I i l | L_rlock_S i l | L_rlock_M i l | L_lock_I i l | L_lock_S i l | L_lock_M i l => Some (i, l)
  | _ => None
  end.

Lemma upd_id_fun {A} (g : nat -> line -> A) l i k : upd (fun j => g j l) i (g i l) k = g k l.
Proof. unfold upd. destruct (Nat.eqb_spec k i); subst; auto. Qed.
Lemma upd_id {A} (f : nat -> A) i k : upd f i (f i) k = f k.
Proof. unfold upd. destruct (Nat.eqb_spec k i); subst; auto. Qed.
Lemma upd2_keep {A} (f : nat -> line -> A) i l j k : f j k = upd2 f i l (f i l) j k.
Proof. unfold upd2. destruct (Nat.eqb_spec j i), (Z.eqb_spec k l); subst; auto. Qed.

(* shape: a field of a successor state written out as a record is the pointwise
   update invL_local speaks of.  onl: rd_on / wr_on / on_line of a constant phase,
   evaluated (the line compared with itself). *)
Ltac shape :=
  intros; simpl; try rewrite upd2_line; try rewrite updl_same;
  first [reflexivity | symmetry; apply upd_id_fun | apply upd_id_fun].
Ltac onl := unfold rd_on, wr_on, on_line; simpl; rewrite ?Z.eqb_refl; simpl.

Section Steps.
Variable N : nat.
Notation InvL := (InvL N).
Notation Inv := (Inv N).
Notation others_I := (others_I N).
Notation others_not_M := (others_not_M N).

(* lines other than the one the transition is about *)
Lemma invL_other s s' i l k p' :
  InvL s k -> k <> l -> (i < N)%nat ->
  (tx_line (ph s i) = None \/ tx_line (ph s i) = Some l) ->
  (tx_line p' = None \/ tx_line p' = Some l) ->
  (forall j, ph s' j = upd (ph s) i p' j) ->
  (forall j, ms s' j k = ms s j k) -> (forall j, l1 s' j k = l1 s j k) ->
  (forall j, (j < N)%nat -> cm s' j k = cm s j k \/
     (on_line (ph s j) k = false /\ cmd_matches (cm s' j k) (ms s j k))) ->
  mem s' k = mem s k -> rc s' k = rc s k -> wc s' k = wc s k ->
  InvL s' k.
Proof.
  intros I0 Hk Hi Hp Hp' Hph Hm Hl Hc Hmem Hr Hw.
  apply (invL_frame_cmds N s); auto.
  intros j Hj. rewrite Hph. apply pview_upd_off.
  - unfold on_line. destruct Hp as [->| ->]; auto. apply Z.eqb_neq; congruence.
  - unfold on_line. destruct Hp' as [->| ->]; auto. apply Z.eqb_neq; congruence.
Qed.

(* s' is s after core i moved to phase p' and wrote b' to its L1 entry for l;
   nothing is said of the commands and of the counters of l *)
Record move (s s' : st) (i : nat) (l : line) (p' : phase) (b' : option val) : Prop := {
  mv_ph : forall j, ph s' j = upd (ph s) i p' j;
  mv_ms : forall j k, ms s' j k = ms s j k;
  mv_l1 : forall j k, l1 s' j k = upd2 (l1 s) i l b' j k;
  mv_mem : forall k, mem s' k = mem s k;
  mv_rc : forall k, k <> l -> rc s' k = rc s k;
  mv_wc : forall k, k <> l -> wc s' k = wc s k
}.

(* `move` for a successor state written out as a record: each field by reflexivity,
   or because an update with the old value, or on another line, changes nothing *)
Ltac moved := apply Build_move; intros; simpl; auto using upd2_keep, updl_other.

(* invL_local on line l with the protocol state of the core unchanged, the frame
   on every other line: a core that is Idle or on l moves to a phase that is
   Idle or on l; the commands it sends go to cores that are not on the line
   concerned and match their state *)
Lemma inv_move s s' i l p' b' :
  Inv s -> (i < N)%nat -> move s s' i l p' b' ->
  (tx_line (ph s i) = None \/ tx_line (ph s i) = Some l) ->
  (tx_line p' = None \/ tx_line p' = Some l) ->
  cm s' i l = cm s i l ->
  (forall j k, (j < N)%nat -> cm s' j k = cm s j k \/
     (on_line (ph s j) k = false /\ cmd_matches (cm s' j k) (ms s j k))) ->
  rc s' l + b2z (rd_on (ph s i) l) = rc s l + b2z (rd_on p' l) ->
  wc s' l + b2z (wr_on (ph s i) l) = wc s l + b2z (wr_on p' l) ->
  (wc s' l <= 1 /\ (wc s' l = 1 -> rc s' l = 0)) ->
  own_ok p' l (ms s i l) b' (cm s i l) ->
  (ms s i l = S -> b' = Some (mem s l)) ->
  fetched_ok N s i l p' b' ->
  Inv s'.
Proof.
  intros I0 Hi [Hph Hms Hl1 Hmem Hrc Hwc] Htx Htx' Hcmi Hcm Hr Hw Hx Hown HS Hfo k.
  destruct (Z.eq_dec k l) as [->|Hk].
  - apply (invL_local N s s' i l p' (ms s i l) b' (I0 l) Hi); auto.
    + intros j. rewrite Hms. symmetry. apply upd_id_fun.
    + intros j. now rewrite Hl1, upd2_line.
    + intros Hm. now apply swmr_others_I.
    + intros Hm. now apply swmr_others_notM.
    + now apply (cmd_kind _ _ _ (I0 l)).
  - apply (invL_other s s' i l k p' (I0 k)); auto.
    intros j. rewrite Hl1. now apply upd2_other_line.
Qed.

Lemma l1_none_of_I s l i : InvL s l -> (i < N)%nat -> on_line (ph s i) l = false -> ms s i l = I -> l1 s i l = None.
Proof.
  intros I0 Hi Ho Hm. destruct (l1 s i l) eqn:E; auto. exfalso.
  pose proof (view_off N s l I0 i Hi Ho) as [X _]. apply X; [rewrite E; discriminate|exact Hm].
Qed.
Lemma l1_some_of_nonI s l i : InvL s l -> (i < N)%nat -> on_line (ph s i) l = false -> ms s i l <> I -> l1 s i l <> None.
Proof. intros I0 Hi Ho Hm. now apply (view_off N s l I0 i Hi Ho). Qed.

Lemma idle_off s i l : ph s i = Idle -> on_line (ph s i) l = false.
Proof. intros ->. reflexivity. Qed.

(* the commands of a request go to other cores, which are not on the line:
   nobody holds its semaphore against the requester *)
Lemma req_read_own s i l : req_read s i l i l = cm s i l.
Proof. destruct (req_read_spec s i l i l) as [E|[_ [E _]]]; auto. congruence. Qed.
Lemma req_write_own s i l : req_write s i l i l = cm s i l.
Proof. destruct (req_write_spec s i l i l) as [E|[_ [E _]]]; auto. congruence. Qed.

Lemma req_read_ok s i l j k : Inv s -> wc s l = 0 -> (j < N)%nat ->
  req_read s i l j k = cm s j k \/
  (on_line (ph s j) k = false /\ cmd_matches (req_read s i l j k) (ms s j k)).
Proof.
  intros I0 Hw Hj. destruct (req_read_spec s i l j k) as [E|[-> [Hne [E Hm]]]]; auto.
  right. rewrite E, Hm. split; [|reflexivity]. now apply (M_idle N s l (I0 l)).
Qed.
Lemma req_write_ok s i l j k : Inv s -> wc s l = 0 -> rc s l = 0 -> (j < N)%nat ->
  req_write s i l j k = cm s j k \/
  (on_line (ph s j) k = false /\ cmd_matches (req_write s i l j k) (ms s j k)).
Proof.
  intros I0 Hw Hr Hj. destruct (req_write_spec s i l j k) as [E|[-> [Hne [_ K]]]]; auto.
  right. split; [|exact K]. now apply (free_line_off N s l (I0 l)).
Qed.

(* the command for the victim goes to the core itself, for a line it holds and is not on *)
Lemma req_victim_ok s i vic l j k : victim_ok s i l vic -> tx_line (ph s i) = Some l ->
  req_victim s i vic j k = cm s j k \/
  (on_line (ph s j) k = false /\ cmd_matches (req_victim s i vic j k) (ms s j k)).
Proof.
  intros Hv Hp. destruct (req_victim_spec s i vic j k) as [E|[-> [-> [_ K]]]]; auto.
  right. split; auto. destruct Hv as [Hne _]. apply (on_line_false _ _ l); congruence.
Qed.

Lemma req_victim_own s i vic l : victim_ok s i l vic -> req_victim s i vic i l = cm s i l.
Proof.
  intros Hv. destruct (req_victim_spec s i vic i l) as [E|[_ [-> _]]]; auto. destruct Hv as [Hne _]. congruence.
Qed.

(* ---- the lock transitions: an idle core enters the phase that goes with its
        protocol state for l; the counter it takes is free ---- *)
Definition lock_phase (p : phase) (m : mstate) : Prop :=
  match p with
  | RdWait _ | WrWait _ => m = I
  | ShRd _ | UpgWait _ => m = S
  | OwnRd _ | OwnWr _ => m = M
  | _ => False
  end.

Lemma inv_lock s s' i l p' : Inv s -> (i < N)%nat -> move s s' i l p' (l1 s i l) ->
  ph s i = Idle -> tx_line p' = Some l -> lock_phase p' (ms s i l) ->
  wc s l = 0 -> (wr_on p' l = true -> rc s l = 0) -> cm s i l = NoCmd ->
  rc s' l = rc s l + b2z (rd_on p' l) -> wc s' l = wc s l + b2z (wr_on p' l) ->
  cm s' i l = cm s i l ->
  (forall j k, (j < N)%nat -> cm s' j k = cm s j k \/
     (on_line (ph s j) k = false /\ cmd_matches (cm s' j k) (ms s j k))) ->
  Inv s'.
Proof.
  intros I0 Hi Hmv Hp Htx Hlk Hw Hwr Hc Hr' Hw' Hcmi Hcm.
  pose proof (idle_off s i l Hp) as Hoff.
  apply (inv_move s s' i l p' (l1 s i l)); auto.
  - left. now rewrite Hp.
  - rewrite Hp, Hr'. onl. lia.
  - rewrite Hp, Hw'. onl. lia.
  - rewrite Hw', Hr', Hw. destruct (wr_on p' l) eqn:Ew, (rd_on p' l) eqn:Er; simpl; rewrite ?Hwr by reflexivity;
      try lia. exfalso. exact (rd_wr_excl _ _ Er Ew).
  - unfold own_ok. rewrite (proj2 (on_line_iff p' l) Htx). split; [exact Hc|].
    destruct p'; try contradiction; simpl in *; split; auto.
    all: first [now apply (l1_none_of_I s l i) | apply (l1_some_of_nonI s l i); auto; congruence].
  - apply (shared_clean _ _ _ (I0 l)); auto.
  - destruct p'; try contradiction; exact Logic.I.
Qed.

(* ---- a core that is on line l stays on it or becomes idle, protocol state
        unchanged, no command sent: fetch, done_shrd, done_ownrd, done_ownwr,
        flush ---- *)
Lemma inv_keep s s' i l p' b' : Inv s -> (i < N)%nat -> move s s' i l p' b' ->
  (forall j k, cm s' j k = cm s j k) ->
  tx_line (ph s i) = Some l -> (tx_line p' = None \/ tx_line p' = Some l) ->
  rc s' l + b2z (rd_on (ph s i) l) = rc s l + b2z (rd_on p' l) ->
  wc s' l + b2z (wr_on (ph s i) l) = wc s l + b2z (wr_on p' l) ->
  (rd_on p' l = true -> rd_on (ph s i) l = true) ->
  (wr_on p' l = true -> wr_on (ph s i) l = true) ->
  own_ok p' l (ms s i l) b' NoCmd ->
  (ms s i l = S -> b' = Some (mem s l)) ->
  fetched_ok N s i l p' b' ->
  Inv s'.
Proof.
  intros I0 Hi Hmv Hcm Htx Htx' Hr Hw Hmr Hmw Hown HS Hfo.
  assert (Hon : on_line (ph s i) l = true) by now apply on_line_iff.
  destruct (view_on N s l (I0 l) i Hi Hon) as [Hc V].
  apply (inv_move s s' i l p' b'); auto.
  - (* the counter held before is the one held after, or none *)
    destruct (sem_x _ _ _ (I0 l)) as [X1 X2].
    pose proof (rc_nonneg N s l (I0 l)). pose proof (wc_nonneg N s l (I0 l)).
    destruct (on_line_rd_or_wr _ _ Hon) as [E|E].
    + pose proof (reader_pos N s l (I0 l) i Hi E).
      assert (E' : wr_on (ph s i) l = false).
      { destruct (wr_on (ph s i) l) eqn:E'; auto. exfalso. exact (rd_wr_excl _ _ E E'). }
      rewrite E in Hr. rewrite E' in Hw. simpl in Hr, Hw.
      destruct (wr_on p' l) eqn:Ew'; [specialize (Hmw eq_refl); congruence|].
      destruct (rd_on p' l); simpl in *; lia.
    + destruct (writer_excl N s l (I0 l) i Hi E) as [Y1 Y2].
      assert (E' : rd_on (ph s i) l = false).
      { destruct (rd_on (ph s i) l) eqn:E'; auto. exfalso. exact (rd_wr_excl _ _ E' E). }
      rewrite E in Hw. rewrite E' in Hr. simpl in Hr, Hw.
      destruct (rd_on p' l) eqn:Er'; [specialize (Hmr eq_refl); congruence|].
      destruct (wr_on p' l); simpl in *; lia.
  - now rewrite Hc.
Qed.

(* ---- fetch: every pending command is done, the line is read from the next level ---- *)
Lemma inv_fetch s i l p' : Inv s -> (i < N)%nat ->
  ((ph s i = RdWait l /\ p' = RdFetched l (mem s l) /\ others_not_M s i l) \/
   (ph s i = WrWait l /\ p' = WrFetched l (mem s l) /\ others_I s i l)) ->
  Inv {| ms := ms s; ph := upd (ph s) i p'; cm := cm s; l1 := l1 s; mem := mem s; rc := rc s; wc := wc s |}.
Proof.
  intros I0 Hi [[Hp [-> X]]|[Hp [-> X]]].
  all: destruct (view_on N s l (I0 l) i Hi) as [_ V]; [rewrite Hp; now apply on_line_iff|];
    rewrite Hp in V; destruct V as [Vm Vl].
  (* the core stays on l, Invalid and without the line, and holds the same counter:
     of the premises of inv_keep only own_ok is not immediate *)
  all: eapply (inv_keep s _ i l _ (l1 s i l)); [exact I0|exact Hi|moved|..]; rewrite ?Hp; simpl; auto; try congruence.
  all: unfold own_ok; onl; rewrite Vm, Vl; auto.
Qed.

(* ---- fill: the fetched line enters L1; the LRU victim (if any) gets its command ---- *)
Lemma inv_fill s i l v vic p' : Inv s -> (i < N)%nat ->
  ((ph s i = RdFetched l v /\ p' = RdFilled l vic) \/ (ph s i = WrFetched l v /\ p' = WrFilled l vic)) ->
  victim_ok s i l vic ->
  Inv {| ms := ms s; ph := upd (ph s) i p'; cm := req_victim s i vic; l1 := upd2 (l1 s) i l (Some v);
         mem := mem s; rc := rc s; wc := wc s |}.
Proof.
  intros I0 Hi [[Hp ->]|[Hp ->]] Hv.
  all: pose proof (view_on N s l (I0 l) i Hi) as V; rewrite Hp in V; destruct V as [Hc [Vm _]];
    [now apply on_line_iff|].
  all: eapply (inv_move s _ i l _ (Some v)); [exact I0|exact Hi|moved|..]; rewrite ?Hp; simpl; auto.
  (* the commands *)
  all: try (now apply req_victim_own).
  all: try (intros j k _; apply (req_victim_ok s i vic l); [exact Hv|now rewrite Hp]).
  (* the counters do not move; the core is Invalid and now has the line *)
  all: try apply (sem_x _ _ _ (I0 l)); try congruence.
  all: try (unfold own_ok; onl; rewrite Hc, Vm; repeat split; discriminate).
  (* what the fetched phase promised holds of the filled one *)
  - intros _. destruct (fetched_rd _ _ _ (I0 l) i v Hi Hp) as [-> X]. auto.
  - intros _. apply (fetched_wr _ _ _ (I0 l) i v Hi Hp).
Qed.

(* ---- settle: the post closure of a transaction that changes the protocol state ---- *)
Lemma inv_settle_S s i l vic : Inv s -> (i < N)%nat -> ph s i = RdFilled l vic ->
  Inv {| ms := upd2 (ms s) i l S; ph := upd (ph s) i Idle; cm := cm s; l1 := l1 s; mem := mem s;
         rc := updl (rc s) l (rc s l - 1); wc := wc s |}.
Proof.
  intros I0 Hi Hp k.
  assert (Hon : on_line (ph s i) l = true) by (rewrite Hp; onl; reflexivity).
  assert (Hrd : rd_on (ph s i) l = true) by (rewrite Hp; onl; reflexivity).
  assert (Hwr : wr_on (ph s i) l = false) by (rewrite Hp; onl; reflexivity).
  destruct (view_on N s l (I0 l) i Hi Hon) as [Hc V]. rewrite Hp in V. simpl in V. destruct V as [Vm Vl].
  destruct (filled_rd _ _ _ (I0 l) i vic Hi Hp) as [Fl Fo].
  pose proof (reader_pos N s l (I0 l) i Hi Hrd) as Hpos.
  destruct (Z.eq_dec k l) as [->|Hk].
  - apply (invL_local N s _ i l Idle S (l1 s i l) (I0 l) Hi); try shape; simpl; rewrite ?updl_same; auto;
      try discriminate.
    + rewrite Hrd. simpl. lia.
    + rewrite Hwr. simpl. lia.
    + destruct (sem_x _ _ _ (I0 l)) as [X1 X2]. split; auto. intros X. specialize (X2 X). lia.
    + unfold own_ok. simpl. split; intros; [discriminate|exact Vl].
    + now rewrite Hc.
    + right. intros j Hj Hne. split; [discriminate|].
      destruct (wr_on (ph s j) l) eqn:E; auto. exfalso. exact (reader_writer N s l (I0 l) i j Hi Hj Hrd E).
  - apply (invL_other s _ i l k Idle); simpl; auto; try (intros; now rewrite ?updl_other, ?upd2_other_line by auto).
    right. now rewrite Hp.
Qed.

Lemma inv_settle_M s i l v' : Inv s -> (i < N)%nat ->
  ((exists vic, ph s i = WrFilled l vic) \/ (ph s i = UpgWait l /\ others_I s i l)) ->
  Inv {| ms := upd2 (ms s) i l M; ph := upd (ph s) i Idle; cm := cm s; l1 := upd2 (l1 s) i l (Some v');
         mem := mem s; rc := rc s; wc := updl (wc s) l (wc s l - 1) |}.
Proof.
  intros I0 Hi Hp k.
  assert (Htx : tx_line (ph s i) = Some l) by (destruct Hp as [[vic ->]|[-> _]]; reflexivity).
  assert (Hon : on_line (ph s i) l = true) by now apply on_line_iff.
  assert (Hrd : rd_on (ph s i) l = false) by (destruct Hp as [[vic ->]|[-> _]]; onl; reflexivity).
  assert (Hwr : wr_on (ph s i) l = true) by (destruct Hp as [[vic ->]|[-> _]]; onl; reflexivity).
  destruct (view_on N s l (I0 l) i Hi Hon) as [Hc V].
  destruct (writer_excl N s l (I0 l) i Hi Hwr) as [W1 R0].
  assert (Ho : others_I s i l).
  { destruct Hp as [[vic E]|[_ X]]; auto. apply (filled_wr _ _ _ (I0 l) i vic Hi E). }
  destruct (Z.eq_dec k l) as [->|Hk].
  - apply (invL_local N s _ i l Idle M (Some v') (I0 l) Hi); try shape; simpl; rewrite ?updl_same; auto;
      try discriminate.
    + rewrite Hrd. simpl. lia.
    + rewrite Hwr. simpl. lia.
    + rewrite W1. split; [lia|]. intros; lia.
    + unfold own_ok. simpl. split; intros; discriminate.
    + intros _ j Hj Hne. rewrite (Ho j Hj Hne). discriminate.
    + now rewrite Hc.
    + right. intros j Hj Hne. split.
      * intros _. destruct (rd_on (ph s j) l) eqn:E; auto. exfalso. exact (reader_writer N s l (I0 l) j i Hj Hi E Hwr).
      * destruct (wr_on (ph s j) l) eqn:E; auto. exfalso.
        exact (two_writers N s l (I0 l) i j Hi Hj ltac:(congruence) Hwr E).
  - apply (invL_other s _ i l k Idle); simpl; auto; try (intros; now rewrite ?updl_other, ?upd2_other_line by auto).
Qed.

(* ---- snoop command completions: the target, which is not on the line, drops it ---- *)
Lemma inv_cmd_done s j l nm : Inv s -> (j < N)%nat -> cm s j l <> NoCmd ->
  (nm = mem s \/ (cm s j l = Wb /\ exists v, nm = updl (mem s) l v)) ->
  Inv {| ms := upd2 (ms s) j l I; ph := ph s; cm := upd2 (cm s) j l NoCmd; l1 := upd2 (l1 s) j l None;
         mem := nm; rc := rc s; wc := wc s |}.
Proof.
  intros I0 Hj Hc Hnm k. apply (invL_still N s); simpl; auto.
  - intros a Ha. unfold upd2. destruct (Nat.eqb_spec a j) as [->|]; destruct (Z.eqb_spec k l) as [->|]; simpl; auto.
    right. split; auto. now apply (cmd_off N s l (I0 l)).
  - destruct Hnm as [->|[Hwb [v ->]]]; auto. unfold updl. destruct (Z.eqb_spec k l) as [->|]; auto.
    right. exists j. split; auto. pose proof (cmd_kind _ _ _ (I0 l) j Hj) as K. now rewrite Hwb in K.
Qed.

(* ---- export: a Modified line is written to the next level ---- *)
Lemma inv_export s i l v : Inv s -> (i < N)%nat -> ms s i l = M ->
  Inv {| ms := ms s; ph := ph s; cm := cm s; l1 := l1 s; mem := updl (mem s) l v; rc := rc s; wc := wc s |}.
Proof.
  intros I0 Hi Hm k. apply (invL_still N s); simpl; auto.
  unfold updl. destruct (Z.eqb_spec k l) as [->|]; eauto.
Qed.

Lemma inv_ext s s' :
  (forall j k, ms s' j k = ms s j k) -> (forall j k, l1 s' j k = l1 s j k) ->
  (forall j k, cm s' j k = cm s j k) -> (forall j, ph s' j = ph s j) ->
  (forall k, mem s' k = mem s k) -> (forall k, rc s' k = rc s k) -> (forall k, wc s' k = wc s k) ->
  Inv s -> Inv s'.
Proof.
  intros Hm Hl Hc Hp Hmem Hr Hw I0 k. apply (invL_frame N s); auto.
  intros j Hj. now rewrite Hp.
Qed.

(* ---- the transaction of a core that holds the line ends (or is flushed):
        it gives back the counter it holds; its L1 entry stays as it is, or is
        dropped while the core is Invalid, or written while it is Modified ---- *)
Lemma inv_leave s s' i l b' : Inv s -> (i < N)%nat -> move s s' i l Idle b' ->
  (forall j k, cm s' j k = cm s j k) -> tx_line (ph s i) = Some l ->
  rc s' l + b2z (rd_on (ph s i) l) = rc s l -> wc s' l + b2z (wr_on (ph s i) l) = wc s l ->
  ((b' = l1 s i l /\ match ph s i with RdFilled _ _ | WrFilled _ _ => False | _ => True end) \/
   (b' = None /\ ms s i l = I) \/
   (b' <> None /\ ms s i l = M)) ->
  Inv s'.
Proof.
  intros I0 Hi Hmv Hcm Htx Hr Hw Hb.
  destruct (view_on N s l (I0 l) i Hi (proj2 (on_line_iff _ _) Htx)) as [Hc V].
  apply (inv_keep s s' i l Idle b'); auto; try discriminate.
  - now rewrite Hr, Z.add_0_r.
  - now rewrite Hw, Z.add_0_r.
  - unfold own_ok. simpl. destruct Hb as [[-> Hb]|[[-> Hm]|[Hb Hm]]].
    + destruct (ph s i); simpl in *; try discriminate Htx; try tauto; destruct V as [-> V]; split; intros; try congruence; try discriminate.
    + rewrite Hm. split; intros; congruence.
    + rewrite Hm. split; intros; auto; discriminate.
  - intros Hs. destruct Hb as [[-> Hb]|[[_ Hm]|[_ Hm]]]; try congruence.
    apply (shared_clean _ _ _ (I0 l)); auto.
  - exact Logic.I.
Qed.

Lemma inv_flush_rep s i : Inv s -> (i < N)%nat -> Inv (flush_rep s i).
Proof.
  intros I0 Hi. unfold flush_rep. destruct (ph s i) eqn:Hp; auto.
  all: pose proof (view_on N s l (I0 l) i Hi) as V; rewrite Hp in V; destruct V as [_ V]; [onl; reflexivity|].
  (* every phase is on a line l and leaves through inv_leave: the shape of the
     state, the line of the phase, the counter given back *)
  all: eapply (inv_leave s _ i l); auto.
  all: try moved.
  all: try (rewrite Hp; reflexivity).
  all: try (simpl; rewrite ?updl_same, Hp; onl; lia).
  (* the L1 entry stays, except that an unsettled fill is undone: the core is still Invalid *)
  all: first [left; split; [reflexivity|rewrite Hp; exact Logic.I] | right; left; split; [reflexivity|apply V]].
Qed.

(* the side conditions of inv_lock and inv_leave when the successor state is
   written out as a record and Hph says which phase the core leaves: `auto` takes
   the premises of the transition (the core exists, its phase and protocol state,
   the free counters, no command, the L1 entry kept); `moved` proves the shape of
   the state; `onl; lia` the two equations for the counters of l, where b2z of
   rd_on / wr_on of a constant phase is 0 or 1; `discriminate` the premise "the
   phase takes the write counter" of a read lock.  What is left is about the
   commands sent, or the L1 entry written. *)
Ltac by_record Hph :=
  simpl; rewrite ?updl_same; try rewrite Hph; auto; try moved; try (onl; lia); try discriminate.

(* ---- the step theorem ---- *)
Theorem inv_step g fm s lab s' :
  Inv s -> step N g fm s lab s' ->
  (forall i l, lock_target lab = Some (i, l) -> cm s i l = NoCmd) ->
  Inv s'.
Proof.
  intros I0 Hs Hlk. destruct Hs; try (specialize (Hlk _ _ eq_refl)).
  all: try match goal with H : ph _ _ = _ |- _ => rename H into Hph end.
  - (* rlock_I *)
    apply (inv_lock s _ i l (RdWait l)); by_record Hph.
    + apply req_read_own.
    + intros j k Hj. now apply req_read_ok.
  - (* fetch_rd *) apply (inv_fetch s i l); auto.
  - (* fill_rd *) apply (inv_fill s i l v vic); auto.
  - (* settle_rd *) apply (inv_settle_S s i l vic); auto.
  - (* rlock_S *) apply (inv_lock s _ i l (ShRd l)); by_record Hph.
  - (* done_shrd *) apply (inv_leave s _ i l (l1 s i l)); by_record Hph.
  - (* rlock_M *) apply (inv_lock s _ i l (OwnRd l)); by_record Hph.
  - (* done_ownrd *) apply (inv_leave s _ i l (l1 s i l)); by_record Hph.
  - (* lock_I *)
    apply (inv_lock s _ i l (WrWait l)); by_record Hph.
    + apply req_write_own.
    + intros j k Hj. now apply req_write_ok.
  - (* fetch_wr *) apply (inv_fetch s i l); auto.
  - (* fill_wr *) apply (inv_fill s i l v vic); auto.
  - (* settle_wr *) apply inv_settle_M; eauto.
  - (* lock_S *)
    apply (inv_lock s _ i l (UpgWait l)); by_record Hph.
    + apply req_write_own.
    + intros j k Hj. now apply req_write_ok.
  - (* settle_upg *) apply inv_settle_M; auto.
  - (* lock_M *) apply (inv_lock s _ i l (OwnWr l)); by_record Hph.
  - (* done_ownwr: the core is Modified and writes its entry *)
    pose proof (view_on N s l (I0 l) i ltac:(assumption)) as V. rewrite Hph in V.
    destruct V as [_ [Vm _]]; [onl; reflexivity|].
    apply (inv_leave s _ i l (Some v')); by_record Hph.
    right. right. split; [discriminate|exact Vm].
  - (* cmd_evict_done *) apply inv_cmd_done; auto. congruence.
  - (* cmd_writeback_done *) apply inv_cmd_done; auto; [congruence|]. right. eauto.
  - (* export *) apply (inv_export s i l v); auto.
  - (* flush *) apply inv_flush_rep; auto.
Qed.

Lemma count_init l : Invariant.count N (fun _ : nat => rd_on Idle l) = 0.
Proof. apply count_false. reflexivity. Qed.

Theorem inv_init m0 : Inv (init m0).
Proof.
  intros l. constructor; simpl; try discriminate; try (intros; discriminate).
  - intros. unfold own_ok. simpl. split; intros; congruence.
  - symmetry. apply count_false. reflexivity.
  - symmetry. apply count_false. reflexivity.
  - split; [lia|]. intros; lia.
  - intros. exact Logic.I.
Qed.

End Steps.

Lemma guarded_lock_ok N fm s lab s' i l : step N true fm s lab s' -> lock_target lab = Some (i, l) ->
  cm s i l = NoCmd.
Proof. intros Hs Hl. destruct Hs; simpl in Hl; try discriminate; inversion Hl; subst; auto. Qed.

Lemma inv_step_guarded N fm s lab s' : Inv N s -> step N true fm s lab s' -> Inv N s'.
Proof. intros I0 Hs. apply (inv_step N true fm s lab s' I0 Hs). intros i l. apply (guarded_lock_ok N fm s lab s' i l Hs). Qed.

(* every reachable state of the guarded machine (with or without the repaired
   flush), for every number of cores, every interleaving, every length *)
Theorem inv_reachable_guarded N fm s : reach N true fm s -> Inv N s.
Proof. induction 1; [apply inv_init|eapply inv_step_guarded; eauto]. Qed.

(* the five clauses follow from the invariant *)
Theorem inv_clauses N s : Inv N s -> clauses (obs_of_st N s).
Proof.
  intros I0. unfold clauses, clause1, clause2, clause3, clause5. simpl. repeat split.
  - intros i j l Hi Hj. apply (swmr _ _ _ (I0 l)); auto.
  - intros i l Hi. apply (shared_clean _ _ _ (I0 l)); auto.
  - intros Hm. pose proof (phases _ _ _ (I0 l) i H) as P. unfold own_ok in P.
    destruct (on_line (ph s i) l) eqn:E.
    + destruct P as [_ V]. destruct (ph s i); simpl in V; try discriminate E; destruct V; congruence.
    + now apply P.
  - intros Ht Hl. pose proof (phases _ _ _ (I0 l) i H) as P. unfold own_ok in P.
    destruct (on_line (ph s i) l) eqn:E.
    + destruct P as [_ V]. apply on_line_iff in E.
      destruct (ph s i) eqn:Hp; simpl in V, E; try discriminate E; inversion E; subst; destruct V as [Vm Vl];
        try congruence; exfalso; apply Ht; eauto.
    + now apply P.
  - apply (rc_nonneg N s l (I0 l)).
  - apply (wc_nonneg N s l (I0 l)).
  - apply (sem_x _ _ _ (I0 l)).
  - apply (sem_x _ _ _ (I0 l)).
Qed.

(* under the invariant none of the explicit panics of cc.go / semaphore.go is
   reachable: coRead's "invalid state" (line already in L1 when a fetch starts),
   the snoop write-back's "memory address should exist", LRUCache.Write's
   "cache line doesn't exist" in coWriteToL1, Sem's "read/write is negative" *)
Theorem inv_no_panic N s i l : Inv N s -> (i < N)%nat ->
  (ph s i = RdWait l -> l1 s i l = None) /\
  (cm s i l <> NoCmd -> l1 s i l <> None) /\
  ((ph s i = UpgWait l \/ ph s i = OwnWr l \/ exists vic, ph s i = WrFilled l vic) -> l1 s i l <> None) /\
  (rd_on (ph s i) l = true -> 1 <= rc s l) /\
  (wr_on (ph s i) l = true -> wc s l = 1).
Proof.
  intros I0 Hi. repeat split.
  - intros Hp. destruct (view_on N s l (I0 l) i Hi) as [_ V]; [rewrite Hp; onl; reflexivity|].
    rewrite Hp in V. apply V.
  - apply (cmd_present N s l (I0 l) i Hi).
  - intros Hp. destruct (view_on N s l (I0 l) i Hi) as [_ V].
    + destruct Hp as [->|[->|[vic ->]]]; onl; reflexivity.
    + destruct Hp as [Hp|[Hp|[vic Hp]]]; rewrite Hp in V; apply V.
  - apply (reader_pos N s l (I0 l) i Hi).
  - intros E. apply (writer_excl N s l (I0 l) i Hi E).
Qed.
