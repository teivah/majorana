(* C06 about the faithful model of MVP-7.0, part 4: clause 3 (a core holds a line in its L1 exactly when its
   directory state for the line is not Invalid, outside a transfer in progress) on flush-free runs.

   On top of K1' (part 2) and GI (part 3):
     Sn i id items   the closures of the snoop list of core id have their commands in the directory and name
                     distinct lines;
     Sh st c addrs   the shape of one controller c whose core has the state function st:
                       clause 3 for this core; while the line is being fetched (RPend / RFetch / WPend / WFetch
                       with fetch) the `post` closure is the installing one for exactly the line that is pushed,
                       the state is Invalid; in RL1 the line of `post` is in L1; the line of `post` is the
                       aligned address of the request the execute unit repeats every cycle (addrs).
   K3 = GI + Sn + Sh for every core.  F3 = K3 + K1' (part 2) + the structural invariant of a controller (part 1) is
   preserved by every call of cc.read.Cycle / cc.write.Cycle / cc.snoop.Cycle (cc_read_B3, cc_write_B3, snoop_one_F)
   and gives clause 3 (F3_clause3).

   The walk through a tick, clause 2 and the five clauses together: part 5 (M70Proofs5.v); soundness of the boolean
   judge: part 6. *)
From Coq Require Import ZArith List Bool Lia.
From Maj Require Import Base.Outcome Base.GoInt Base.GoTypes Isa.Spec Isa.Seq.
From Maj Require Import Gen.Latency Gen.RiscTables Gen.Opcodes Comp.Cache Comp.Rat Comp.RatProofs Mvp.Mvp12 Mvp.Mvp3 Mvp.Mvp5 Mvp.Mvp60 Mvp.Mvp63 Mvp.Mvp63Proofs Mvp.Mvp70 Mvp.Mvp70Proofs.
From Maj Require Import Msi.M70Inv Msi.M70Frame Msi.M70Proofs Msi.M70Proofs2 Msi.M70Proofs3.
Import ListNotations.
Open Scope Z_scope.

(* ------------------------------------------------------------------ *)
(* A. which lines an L1 holds, through the operations of comp.LRUCache  *)
(* ------------------------------------------------------------------ *)

Lemma holds_iff : forall c a, l1_holds c a = true <-> exists l, In l (lines c) /\ covers_b l a = true.
Proof.
  intros c a. unfold l1_holds, l1_line. destruct (find _ _) as [l|] eqn:F.
  - split; [intros _|reflexivity]. apply find_some in F. exists l. exact F.
  - split; [discriminate|]. intros (l & I & C). eapply find_none in F; [|exact I]. cbn in F. congruence.
Qed.

Lemma holds_same_lines : forall c c' a, (forall l, In l (lines c') <-> In l (lines c)) -> l1_holds c' a = l1_holds c a.
Proof.
  intros c c' a H. apply eq_true_iff_eq. rewrite !holds_iff. split; intros (l & I & C); exists l; (split; [apply H; exact I|exact C]).
Qed.

Lemma get_lines : forall c a c' r, get c a = Ok (c', r) -> forall l, In l (lines c') <-> In l (lines c).
Proof.
  intros c a c' r H l. unfold get in H. apply bind_ok in H as (f & E & H).
  destruct f as [[[v l0] rest]|]; inv H; [|tauto].
  destruct (find_line_some _ _ _ _ _ E) as (pre & post & E1 & -> & _). cbn [set_lines lines]. rewrite E1.
  split; intros I.
  - destruct I as [<-|I]; apply in_or_app; [right; left; reflexivity|]. apply in_app_or in I as [I|I]; [left; exact I|right; right; exact I].
  - apply in_app_or in I as [I|[<-|I]]; [right; apply in_or_app; left; exact I|left; reflexivity|right; apply in_or_app; right; exact I].
Qed.

Lemma holds_get : forall c a c' r b, get c a = Ok (c', r) -> l1_holds c' b = l1_holds c b.
Proof. intros c a c' r b H. apply holds_same_lines. eapply get_lines; eauto. Qed.

Lemma get_hit : forall c a c' v, get c a = Ok (c', Some v) -> l1_holds c a = true.
Proof.
  intros c a c' v H. unfold get in H. apply bind_ok in H as (f & E & H). destruct f as [[[v0 l0] rest]|]; inv H.
  unfold l1_holds. erewrite find_line_some_view; eauto.
Qed.

Lemma holds_get_all : forall addrs c acc c' r b, get_all c addrs acc = Ok (c', r) -> l1_holds c' b = l1_holds c b.
Proof.
  induction addrs as [|a t IH]; intros c acc c' r b H; cbn [get_all] in H.
  - inv H. reflexivity.
  - apply bind_ok in H as ([c1 [v|]] & E & H).
    + rewrite (IH _ _ _ _ _ H). eapply holds_get; eauto.
    + inv H. eapply holds_get; eauto.
Qed.

Lemma get_all_hit : forall a0 tl c c' data, get_all c (a0 :: tl) [] = Ok (c', Some data) -> l1_holds c' a0 = true.
Proof.
  intros a0 tl c c' data H. rewrite (holds_get_all _ _ _ _ _ a0 H). cbn [get_all] in H.
  apply bind_ok in H as ([c1 [v|]] & E & H); [|discriminate]. eapply get_hit; eauto.
Qed.

(* the line that covers an address covers the aligned address *)
Lemma aligned_in_line : forall l a0, line_wf l -> covers_b l a0 = true -> subS 32 a0 (remS 32 a0 l1LineSize) = lo l /\ covers_b l (lo l) = true.
Proof.
  intros l a0 W C. destruct (line_wf_covers _ _ W C) as [R1 R2]. destruct W as (A & B & _ & D). unfold l1LineSize in *.
  unfold covers_b, addS, subS, remS, wrapS in *. change (2 ^ (32 - 1)) with 2147483648 in *. change (2 ^ 32) with 4294967296 in *.
  rewrite Z.rem_mod_nonneg by lia. split; [lia|]. apply andb_true_iff. split; [apply Z.leb_le; lia|apply Z.ltb_lt; lia].
Qed.

Lemma holds_aligned : forall c a0 tl a, l1_wf c -> l1_holds c a0 = true -> aligned7 (a0 :: tl) = Ok a -> l1_holds c a = true.
Proof.
  intros c a0 tl a (_ & _ & W) H A. cbn [aligned7] in A. inv A. apply holds_iff in H as (l & I & C).
  destruct (aligned_in_line l a0 (W l I) C) as [E C2]. apply holds_iff. exists l. split; [exact I|]. rewrite E. exact C2.
Qed.

(* pushLineToL1 of an aligned full line: nothing is removed, the other aligned lines are as before *)
Lemma new_line_covers : forall c la d b, llen c = l1LineSize -> 0 <= la -> la mod l1LineSize = 0 -> b mod l1LineSize = 0 ->
  covers_b (new_line c la d) b = true -> b = la.
Proof.
  intros c la d b L A0 A1 B C.
  destruct (covers_block (new_line c la d) b) as [R _]; [exact A0|unfold new_line; cbn [lo hi]; rewrite L; reflexivity|exact C|].
  cbn [new_line lo] in R. unfold l1LineSize in *. lia.
Qed.

Lemma holds_push : forall c la d c' v, push_line_to_l1 c la d = Ok (c', v) -> llen c = l1LineSize -> fetch_ok la d ->
  (forall b, l1_holds c b = true -> l1_holds c' b = true) /\
  (forall b, b mod l1LineSize = 0 -> b <> la -> l1_holds c' b = l1_holds c b).
Proof.
  intros c la d c' v H L (A0 & A1 & _). unfold push_line_to_l1 in H. apply bind_ok in H as ([c1 r] & E & H).
  destruct r.
  - inv H. split; intros; [rewrite (holds_get _ _ _ _ _ E); assumption|eapply holds_get; eauto].
  - assert (c1 = c) as ->.
    { unfold get in E. apply bind_ok in E as (f & E1 & E). destruct f as [[[v0 l0] r0]|]; [discriminate|]. inv E. reflexivity. }
    assert (EL : lines c' = new_line c la d :: lines c) by (unfold push_line_warn in H; destruct (_ >? _); inv H; reflexivity).
    split.
    + intros b Hb. apply holds_iff in Hb as (l & I & C). apply holds_iff. exists l. rewrite EL. split; [right; exact I|exact C].
    + intros b B NE. apply eq_true_iff_eq. rewrite !holds_iff. rewrite EL. split.
      * intros (l & [<-|I] & C); [|exists l; split; assumption]. exfalso. apply NE. eapply new_line_covers; eauto.
      * intros (l & I & C). exists l. split; [right; exact I|exact C].
Qed.

(* EvictCacheLine of an aligned line *)
Lemma holds_evict : forall c b c' r, evict_cache_line c b = Ok (c', r) -> l1_wf c -> b mod l1LineSize = 0 ->
  l1_holds c' b = false /\ (forall b', b' mod l1LineSize = 0 -> b' <> b -> l1_holds c' b' = l1_holds c b').
Proof.
  intros c b c' r H W B. unfold evict_cache_line in H. apply bind_ok in H as (f & E & H).
  destruct f as [[[v l] rest]|]; inv H.
  - destruct (find_line_some _ _ _ _ _ E) as (pre & post & E1 & -> & Cl & Hp). cbn [set_lines].
    destruct W as (_ & W1 & W2). split.
    + destruct (l1_holds _ b) eqn:Hb; [exfalso|reflexivity]. apply holds_iff in Hb as (l' & I & C). cbn [lines] in I.
      specialize (W1 b). rewrite E1, cnt_mid, Cl in W1. apply in_app_or in I as [I|I].
      * rewrite (Hp _ I) in C. discriminate.
      * pose proof (cnt_nonneg (fun l0 => covers_b l0 b) pre). 
        assert (1 <= cnt (fun l0 => covers_b l0 b) post); [|lia].
        apply In_nth_error in I as [n I]. eapply cnt_ge1; eauto.
    + intros b' B' NE. apply eq_true_iff_eq. rewrite !holds_iff. cbn [lines]. rewrite E1. split.
      * intros (l' & I & C). exists l'. split; [|exact C]. apply in_app_or in I as [I|I]; apply in_or_app; [left|right; right]; exact I.
      * intros (l' & I & C). apply in_app_or in I as [I|[<-|I]]; [exists l'; split; [apply in_or_app; left; exact I|exact C]| |exists l'; split; [apply in_or_app; right; exact I|exact C]].
        exfalso. assert (WL : line_wf l) by (apply W2; rewrite E1; apply in_or_app; right; left; reflexivity).
        destruct (line_wf_covers _ _ WL Cl) as [R1 _]. destruct (line_wf_covers _ _ WL C) as [R2 _]. destruct WL as (_ & M & _).
        unfold l1LineSize in *. apply NE. lia.
  - apply find_line_none_view in E. split; [unfold l1_holds; rewrite E; reflexivity|reflexivity].
Qed.

(* Write keeps the bounds *)
Lemma holds_write : forall c a0 vs c' b, write c a0 vs = Ok c' -> l1_holds c' b = l1_holds c b.
Proof.
  intros c a0 vs c' b H. unfold write in H. apply bind_ok in H as (ls & E & H). inv H. apply write_lines_bounds in E.
  unfold l1_holds, l1_line. cbn [set_lines lines]. induction E as [|l l' t t' (E1 & E2 & _) F IH]; [reflexivity|].
  cbn [find]. unfold covers_b at 1 3. rewrite E1, E2. destruct ((lo l <=? b) && (b <? hi l)); [reflexivity|exact IH].
Qed.
Lemma write_hit : forall c a0 vs c', write c a0 vs = Ok c' -> l1_holds c a0 = true.
Proof.
  intros c a0 vs c' H. unfold write in H. apply bind_ok in H as (ls & E & _). apply holds_iff.
  revert ls E. induction (lines c) as [|l t IH]; intros ls E; cbn [write_lines] in E; [discriminate|].
  apply bind_ok in E as (r & G & E). pose proof (line_get_covers _ _ _ G) as C. destruct r.
  - exists l. split; [left; reflexivity|]. apply C. discriminate.
  - apply bind_ok in E as (t' & E & _). destruct (IH _ E) as (l' & I & C'). exists l'. split; [right; exact I|exact C'].
Qed.

(* ------------------------------------------------------------------ *)
(* B. definitions: Sn, Sh                                               *)
(* ------------------------------------------------------------------ *)

Definition it_line (it : snoop_item) : Z := match it with SEvict a => a | SWriteBack a _ => a end.
Definition it_rq (it : snoop_item) : Z := match it with SEvict _ => rqEvict | SWriteBack _ _ => rqWriteBack end.
Definition Sn (i : msi7) (id : Z) (items : list snoop_item) : Prop :=
  (forall it, In it items -> exists c, In (id, it_line it, it_rq it, c) (i_cmds i)) /\ NoDup (map it_line items).

Definition al (a : Z) : Prop := a mod l1LineSize = 0.
Definition hold (c : cc7) (a : Z) : Prop := l1_holds (c_l1d c) a = true.
Definition transfer_cc (c : cc7) (a : Z) : bool :=
  match cur_post c with Some (PShareRUnlock b) | Some (PModUnlock b) => b =? a | _ => false end.

Definition phase_ok (st : Z -> Z) (c : cc7) : Prop :=
  match c_rd c with
  | RPend _ fetch p => fetch = true -> exists a, p = PShareRUnlock a
  | RFetch _ la _ p => p = PShareRUnlock la
  | RL1 _ _ => forall a, post_line (c_post c) = Some a -> hold c a
  | _ => True
  end /\
  match c_wr c with
  | WPend _ fetch p => fetch = true -> exists a, p = PModUnlock a /\ st a = stInvalid
  | WFetch _ la _ p => p = PModUnlock la /\ st la = stInvalid
  | _ => True
  end.

Definition c3_ok (st : Z -> Z) (l1 : cache) (tr : Z -> bool) : Prop :=
  (forall a, st a <> stInvalid -> al a) /\
  (forall a, al a -> st a <> stInvalid -> l1_holds l1 a = true) /\
  (forall a, al a -> l1_holds l1 a = true -> st a <> stInvalid \/ tr a = true).

Definition Sh (st : Z -> Z) (c : cc7) (addrs : list Z) : Prop :=
  c3_ok st (c_l1d c) (transfer_cc c) /\ phase_ok st c /\
  (forall p, cur_post c = Some p -> exists a, post_line p = Some a /\ aligned7 addrs = Ok a).

Lemma Sn_mono : forall i i' id items, incl (i_cmds i) (i_cmds i') -> Sn i id items -> Sn i' id items.
Proof. intros i i' id items C [A B]. split; [|exact B]. intros it I. destruct (A it I) as [c H]. exists c. apply C. exact H. Qed.

Lemma c3_ok_ext : forall st st' l1 tr, (forall a, st' a = st a) -> c3_ok st l1 tr -> c3_ok st' l1 tr.
Proof. intros st st' l1 tr E (A & B & C). split; [|split]; intros a; rewrite ?E; auto. Qed.

Lemma Sh_ext : forall st st' c addrs, (forall a, st' a = st a) -> Sh st c addrs -> Sh st' c addrs.
Proof.
  intros st st' c addrs E (A & [B1 B2] & C). split; [eapply c3_ok_ext; eauto|]. split; [|exact C]. split; [exact B1|].
  destruct (c_wr c); try exact I.
  - intros F. destruct (B2 F) as (a & P & S). exists a. rewrite E. auto.
  - rewrite E. exact B2.
Qed.

Lemma aligned7_al : forall addrs a, aligned7 addrs = Ok a -> al a.
Proof. intros [|a0 tl] a H; cbn [aligned7] in H; [discriminate|]. inv H. apply aligned_mod. Qed.

(* ------------------------------------------------------------------ *)
(* C. coSnoop                                                           *)
(* ------------------------------------------------------------------ *)

Definition c_line (x : Z * Z * Z * Z) : Z := match x with (_, b, _, _) => b end.
Definition c_tgt (x : Z * Z * Z * Z) : Z := match x with (t, _, _, _) => t end.

Lemma cmd_done_sub : forall i m a rq x, In x (i_cmds (cmd_done i m a rq)) -> In x (i_cmds i).
Proof. intros i m a rq x H. unfold cmd_done in H. cbn [i_cmds] in H. apply filter_In in H as [H _]. exact H. Qed.
Lemma cmd_done_keep : forall i m a rq x, In x (i_cmds i) -> (c_tgt x <> m \/ c_line x <> a) -> In x (i_cmds (cmd_done i m a rq)).
Proof.
  intros i m a rq [[[x b] rq'] c] H N. apply In_cmd_done; [exact H|]. apply cmd_key_other. cbn [c_tgt c_line] in N.
  destruct (x =? m) eqn:Q1; [|reflexivity]. destruct (b =? a) eqn:Q2; [|reflexivity]. apply Z.eqb_eq in Q1, Q2. destruct N; contradiction.
Qed.

Section Snoop.
Variables (vs : list view3) (nid : nat) (vid : view3).
Let id := Z.of_nat nid.
Hypothesis HV : nth_error vs nid = Some vid.

Definition SnoopPost (i i' : msi7) (l1 l1' : cache) (items items' : list snoop_item) : Prop :=
  GI i' vs /\ Sn i' id items' /\ l1_wf l1' /\
  (forall b, state_get i' id b = state_get i id b \/ (state_get i' id b = stInvalid /\ l1_holds l1' b = false /\ In b (map it_line items))) /\
  (forall b, al b -> l1_holds l1' b = l1_holds l1 b \/ (l1_holds l1' b = false /\ state_get i' id b = stInvalid /\ In b (map it_line items))) /\
  (forall x, In x (i_cmds i') -> In x (i_cmds i)) /\
  (forall x, In x (i_cmds i) -> (c_tgt x <> id \/ ~ In (c_line x) (map it_line items)) -> In x (i_cmds i')) /\
  (forall b, In b (map it_line items') -> In b (map it_line items)) /\
  (forall n b, n <> id -> state_get i' n b = state_get i n b).

Lemma snoop_one : forall i l1 a rq c l1a r, GI i vs -> In (id, a, rq, c) (i_cmds i) -> l1_wf l1 ->
  (forall b, state_get i id b <> stInvalid -> al b) -> evict_cache_line l1 a = Ok (l1a, r) ->
  let ia := cmd_done i id a rq in
  GI ia vs /\ l1_wf l1a /\ al a /\ (forall b, state_get ia id b <> stInvalid -> al b) /\
  l1_holds l1a a = false /\ state_get ia id a = stInvalid /\
  (forall b, b <> a -> state_get ia id b = state_get i id b) /\
  (forall b, al b -> b <> a -> l1_holds l1a b = l1_holds l1 b) /\
  (forall n b, n <> id -> state_get ia n b = state_get i n b).
Proof.
  intros i l1 a rq c l1a r G I W SA E ia.
  assert (AL : al a).
  { apply SA. pose proof (g1 _ _ G _ I) as K. cbn [kind_ok] in K. destruct K as [[_ K]|[_ K]]; rewrite K; discriminate. }
  destruct (holds_evict _ _ _ _ E W AL) as [H1 H2].
  split; [eapply GI_cmd_done; eauto|]. split; [eapply evict_wf; eauto|]. split; [exact AL|].
  assert (ST : forall n b, state_get ia n b = if (n =? id) && (b =? a) then stInvalid else state_get i n b) by (intros; apply state_get_cmd_done).
  split; [|split; [exact H1|split; [|split; [|split; [exact H2|]]]]].
  - intros b. rewrite ST, Z.eqb_refl. cbn [andb]. destruct (b =? a); [intros X; contradiction|apply SA].
  - rewrite ST, !Z.eqb_refl. reflexivity.
  - intros b N. rewrite ST, Z.eqb_refl. cbn [andb]. destruct (b =? a) eqn:Q; [apply Z.eqb_eq in Q; contradiction|reflexivity].
  - intros n b N. rewrite ST. destruct (n =? id) eqn:Q; [apply Z.eqb_eq in Q; contradiction|reflexivity].
Qed.

Lemma snoop_done_post : forall i l1 a rq l1a i' l1' t items' (ia := cmd_done i id a rq) (x0 : snoop_item),
  it_line x0 = a ->
  al a -> l1_holds l1a a = false -> state_get ia id a = stInvalid ->
  (forall b, b <> a -> state_get ia id b = state_get i id b) ->
  (forall b, al b -> b <> a -> l1_holds l1a b = l1_holds l1 b) ->
  (forall n b, n <> id -> state_get ia n b = state_get i n b) ->
  ~ In a (map it_line t) ->
  SnoopPost ia i' l1a l1' t items' -> SnoopPost i i' l1 l1' (x0 :: t) items'.
Proof.
  intros i l1 a rq l1a i' l1' t items' ia x0 EL AL H1 S1 S2 H2 S3 NI (G & SN & W & P1 & P2 & Q1 & Q2 & R & F).
  split; [exact G|]. split; [exact SN|]. split; [exact W|]. cbn [map]. rewrite EL.
  split; [|split; [|split; [|split; [|split]]]].
  - intros b. destruct (Z.eq_dec b a) as [->|N].
    + right. destruct (P1 a) as [X|(X & Y & _)]; (split; [congruence|]); (split; [|left; reflexivity]); [|exact Y].
      destruct (P2 a AL) as [Z1|(Z1 & _)]; congruence.
    + destruct (P1 b) as [X|(X & Y & Z1)]; [left; rewrite X; apply S2; exact N|right; split; [exact X|split; [exact Y|right; exact Z1]]].
  - intros b AB. destruct (Z.eq_dec b a) as [->|N].
    + right. destruct (P2 a AL) as [X|(X & Y & _)]; (split; [congruence|]); (split; [|left; reflexivity]); [|exact Y].
      destruct (P1 a) as [Z1|(Z1 & _)]; congruence.
    + destruct (P2 b AB) as [X|(X & Y & Z1)]; [left; rewrite X; apply H2; assumption|right; split; [exact X|split; [exact Y|right; exact Z1]]].
  - intros x I. apply Q1 in I. eapply cmd_done_sub; eauto.
  - intros x I N. apply Q2.
    + apply cmd_done_keep; [exact I|]. destruct N as [N|N]; [left; exact N|right]. intros E. apply N. left. symmetry. exact E.
    + destruct N as [N|N]; [left; exact N|right]. intros E. apply N. right. exact E.
  - intros b I. right. apply R. exact I.
  - intros n b N. rewrite F by exact N. apply S3. exact N.
Qed.

Lemma snoop_items_3 : forall items mem i l1 mem' i' l1' items', snoop_items mem i id l1 items = Ok (mem', i', l1', items') ->
  GI i vs -> Sn i id items -> l1_wf l1 -> (forall b, state_get i id b <> stInvalid -> al b) ->
  SnoopPost i i' l1 l1' items items'.
Proof.
  induction items as [|it tl IH]; intros mem i l1 mem' i' l1' items' H G [SN ND] W SA; cbn [snoop_items] in H.
  - inv H. split; [exact G|]. split; [split; [intros it []|constructor]|]. split; [exact W|]. repeat split; auto.
  - cbn [map] in ND. inversion ND as [|? ? ND1 ND2]; subst.
    destruct it as [a|a cyc]; cbn [it_line] in ND1.
    + apply bind_ok in H as ([l1a r] & E & H). cbn [fst] in H.
      destruct (SN (SEvict a) (or_introl eq_refl)) as [c IC]. cbn [it_line it_rq] in IC.
      destruct (snoop_one _ _ _ _ _ _ _ G IC W SA E) as (Ga & Wa & AL & SAa & H1 & S1 & S2 & H2 & S3).
      eapply (snoop_done_post i l1 a rqEvict l1a i' l1' tl items' (SEvict a)); eauto.
      eapply IH; [exact H|exact Ga| |exact Wa|exact SAa].
      split; [|exact ND2]. intros it I. destruct (SN it (or_intror I)) as [c' IC']. exists c'.
      apply cmd_done_keep; [exact IC'|]. right. cbn [c_line]. intros Q. apply ND1. rewrite <- Q. apply in_map. exact I.
    + destruct (0 <? cyc).
      * apply bind_ok in H as ([[[m1 i1] l2] t'] & E & H). inv H.
        assert (SNt' : Sn i id tl) by (split; [intros it I; apply SN; right; exact I|exact ND2]).
        destruct (IH _ _ _ _ _ _ _ E G SNt' W SA) as (G' & [SN' ND'] & W' & P1 & P2 & Q1 & Q2 & R & F).
        split; [exact G'|]. split; [|split; [exact W'|]].
        { split.
          - intros it [<-|I]; [|apply SN'; exact I]. destruct (SN (SWriteBack a cyc) (or_introl eq_refl)) as [c IC]. exists c.
            cbn [it_line it_rq] in *. apply Q2; [exact IC|]. right. exact ND1.
          - cbn [map it_line]. constructor; [|exact ND']. intros I. apply ND1. apply R. exact I. }
        cbn [map it_line]. split; [|split; [|split; [exact Q1|split; [|split; [|exact F]]]]].
        { intros b. destruct (P1 b) as [X|(X & Y & Z1)]; [left; exact X|right; split; [exact X|split; [exact Y|right; exact Z1]]]. }
        { intros b AB. destruct (P2 b AB) as [X|(X & Y & Z1)]; [left; exact X|right; split; [exact X|split; [exact Y|right; exact Z1]]]. }
        { intros x I N. apply Q2; [exact I|]. destruct N as [N|N]; [left; exact N|right]. intros Q. apply N. right. exact Q. }
        { intros b [<-|I]; [left; reflexivity|right; apply R; exact I]. }
      * apply bind_ok in H as (g & E0 & H). destruct g as [dd|]; [|discriminate].
        apply bind_ok in H as (m1 & E1 & H). apply bind_ok in H as ([l1a r] & E & H). cbn [fst snd] in H.
        destruct r; [|discriminate].
        destruct (SN (SWriteBack a cyc) (or_introl eq_refl)) as [c IC]. cbn [it_line it_rq] in IC.
        destruct (snoop_one _ _ _ _ _ _ _ G IC W SA E) as (Ga & Wa & AL & SAa & H1 & S1 & S2 & H2 & S3).
        eapply (snoop_done_post i l1 a rqWriteBack l1a i' l1' tl items' (SWriteBack a cyc)); eauto.
        eapply IH; [exact H|exact Ga| |exact Wa|exact SAa].
        split; [|exact ND2]. intros it I. destruct (SN it (or_intror I)) as [c' IC']. exists c'.
        apply cmd_done_keep; [exact IC'|]. right. cbn [c_line]. intros Q. apply ND1. rewrite <- Q. apply in_map. exact I.
Qed.

End Snoop.

(* coSnoop builds its list from the commands to this core *)
Definition cs_f (kev : msi7 -> msi7) (id : Z) (acc : outcome (msi7 * list snoop_item)) (e : Z * Z * Z * Z) : outcome (msi7 * list snoop_item) :=
  il <- acc ;; let '(j, l) := il in let '(id', a, rq, _) := e in
  if negb (id' =? id) then Ok (j, l) else if rq =? rqEvict then Ok (kev j, l ++ [SEvict a])
  else if rq =? rqWriteBack then Ok (j, l ++ [SWriteBack a MemoryAccess]) else Panic.
Lemma co_snoop_eq : forall kev i id, co_snoop kev i id = fold_left (cs_f kev id) (i_cmds i) (Ok (i, [])).
Proof. reflexivity. Qed.
Lemma co_snoop_fold_err : forall kev id suf, 
  fold_left (cs_f kev id) suf Panic = Panic.
Proof. intros kev id. induction suf as [|e t IH]; [reflexivity|]. cbn [fold_left]. unfold cs_f at 2. cbn [bind]. exact IH. Qed.
Lemma co_snoop_fold_err2 : forall kev id suf er, 
  fold_left (cs_f kev id) suf (Err er) = Err er.
Proof. intros kev id. induction suf as [|e t IH]; intros er; [reflexivity|]. cbn [fold_left]. unfold cs_f at 2. cbn [bind]. apply IH. Qed.

Definition SnL (id : Z) (cmds : list (Z * Z * Z * Z)) (l : list snoop_item) : Prop :=
  (forall it, In it l -> exists c, In (id, it_line it, it_rq it, c) cmds) /\ NoDup (map it_line l).

Lemma co_snoop_fold : forall kev id suf pre j l0 i' l,
  fold_left (cs_f kev id) suf (Ok (j, l0)) = Ok (i', l) ->
  NoDup (map ckey (pre ++ suf)) -> SnL id pre l0 -> SnL id (pre ++ suf) l.
Proof.
  intros kev id. induction suf as [|e t IH]; intros pre j l0 i' l H ND [A B].
  - cbn in H. inv H. rewrite app_nil_r. split; assumption.
  - cbn [fold_left] in H. unfold cs_f at 2 in H. cbn [bind] in H. destruct e as [[[id' a] rq] c].
    replace (pre ++ (id', a, rq, c) :: t) with ((pre ++ [(id', a, rq, c)]) ++ t) in * by (rewrite <- app_assoc; reflexivity).
    assert (MONO : forall l1, SnL id pre l1 -> SnL id (pre ++ [(id', a, rq, c)]) l1).
    { intros l1 [A1 B1]. split; [|exact B1]. intros it I. destruct (A1 it I) as [c' I']. exists c'. apply in_or_app. left. exact I'. }
    assert (NEW : forall it, it_line it = a -> it_rq it = rq -> id' = id -> SnL id (pre ++ [(id', a, rq, c)]) (l0 ++ [it])).
    { intros it E1 E2 E3. subst id'. split.
      - intros it' I. apply in_app_or in I as [I|[<-|[]]]; [destruct (A it' I) as [c' I']; exists c'; apply in_or_app; left; exact I'|].
        exists c. rewrite E1, E2. apply in_or_app. right. left. reflexivity.
      - rewrite map_app. cbn [map]. apply NoDup_snoc; [exact B|]. rewrite E1. intros I. apply in_map_iff in I as (it' & E' & I).
        destruct (A it' I) as [c' I']. rewrite E' in I'.
        rewrite <- app_assoc in ND. cbn [app] in ND. rewrite map_app in ND. cbn [map ckey] in ND.
        apply NoDup_remove_2 in ND. apply ND. apply in_or_app. left. apply in_map_iff. exists (id, a, it_rq it', c'). split; [reflexivity|exact I']. }
    destruct (negb (id' =? id)) eqn:Q.
    + eapply IH; [exact H|exact ND|]. apply MONO. split; assumption.
    + apply negb_false_iff in Q. apply Z.eqb_eq in Q. destruct (rq =? rqEvict) eqn:Q1.
      * apply Z.eqb_eq in Q1. eapply IH; [exact H|exact ND|]. apply NEW; auto.
      * destruct (rq =? rqWriteBack) eqn:Q2; [|rewrite co_snoop_fold_err in H; discriminate].
        apply Z.eqb_eq in Q2. eapply IH; [exact H|exact ND|]. apply NEW; auto.
Qed.

Lemma co_snoop_Sn : forall kev i id i' l, co_snoop kev i id = Ok (i', l) -> NoDup (map ckey (i_cmds i)) -> SnL id (i_cmds i) l.
Proof.
  intros kev i id i' l H ND. rewrite co_snoop_eq in H. apply (co_snoop_fold kev id (i_cmds i) [] i [] i' l H ND).
  split; [intros it []|constructor].
Qed.

Lemma cur_post_same : forall c c', c_rd c' = c_rd c -> c_wr c' = c_wr c -> c_post c' = c_post c -> cur_post c' = cur_post c.
Proof. intros c c' R W P. unfold cur_post. rewrite R, W, P. reflexivity. Qed.
Lemma v3_cc_same : forall c c', c_rd c' = c_rd c -> c_wr c' = c_wr c -> c_post c' = c_post c -> v3_cc c' = v3_cc c.
Proof. intros c c' R W P. unfold v3_cc, cur_post, cur_pend, cur_ev. rewrite R, W, P. reflexivity. Qed.

Lemma Sh_snoop : forall st st' c c' addrs (items : list Z),
  Sh st c addrs -> c_rd c' = c_rd c -> c_wr c' = c_wr c -> c_post c' = c_post c ->
  (forall b, st' b = st b \/ (st' b = stInvalid /\ l1_holds (c_l1d c') b = false /\ In b items)) ->
  (forall b, al b -> l1_holds (c_l1d c') b = l1_holds (c_l1d c) b \/ (l1_holds (c_l1d c') b = false /\ st' b = stInvalid /\ In b items)) ->
  (forall p a, cur_post c = Some p -> post_line p = Some a -> ~ In a items) ->
  Sh st' c' addrs.
Proof.
  intros st st' c c' addrs items ((S0 & A & B) & [PH1 PH2] & TIE) R W P P1 P2 NI.
  pose proof (cur_post_same _ _ R W P) as CP.
  assert (TR : forall a, transfer_cc c' a = transfer_cc c a) by (intros; unfold transfer_cc; rewrite CP; reflexivity).
  split; [split; [|split]|split; [split|]].
  - intros a N. destruct (P1 a) as [E|(E & _)]; [rewrite E in N; auto|exfalso; apply N; exact E].
  - intros a AL N. destruct (P1 a) as [E|(E & _)]; [|exfalso; apply N; exact E]. rewrite E in N.
    destruct (P2 a AL) as [E2|(_ & E2 & _)]; [rewrite E2; auto|]. destruct (P1 a) as [E3|(E3 & _)]; [|congruence]. exfalso. apply N. congruence.
  - intros a AL H. destruct (P2 a AL) as [E2|(E2 & _)]; [|congruence]. rewrite E2 in H. rewrite TR.
    destruct (B a AL H) as [N|T]; [|right; exact T]. left. destruct (P1 a) as [E|(_ & E & _)]; [rewrite E; exact N|congruence].
  - rewrite R. destruct (c_rd c) eqn:ER; try exact PH1. rewrite P. intros a PL. unfold hold.
    assert (CPo : cur_post c = Some (c_post c)) by (unfold cur_post; rewrite ER; reflexivity).
    destruct (TIE _ CPo) as (a' & PL' & AL). rewrite PL in PL'. inv PL'. apply aligned7_al in AL.
    destruct (P2 a' AL) as [E2|(_ & _ & I)]; [rewrite E2; apply PH1; exact PL|exfalso; eapply NI; eauto].
  - rewrite W. destruct (c_wr c) eqn:EW; try exact PH2.
    + intros F. destruct (PH2 F) as (a & PP & SI). exists a. split; [exact PP|]. destruct (P1 a) as [E|(E & _)]; congruence.
    + destruct PH2 as [PP SI]. split; [exact PP|]. destruct (P1 lineAddr) as [E|(E & _)]; congruence.
  - intros p CP'. rewrite CP in CP'. apply TIE. exact CP'.
Qed.

Lemma cc_snoop_cycle_3 : forall kev, (forall j, kev j = j) -> forall vs nid mem i c mem' i' c' addrs,
  nth_error vs nid = Some (v3_cc c) -> GI i vs -> Sn i (Z.of_nat nid) (c_snoop c) -> l1_wf (c_l1d c) ->
  Sh (state_get i (Z.of_nat nid)) c addrs ->
  cc_snoop_cycle kev mem i (Z.of_nat nid) c = Ok (mem', i', c') ->
  GI i' vs /\ Sn i' (Z.of_nat nid) (c_snoop c') /\ Sh (state_get i' (Z.of_nat nid)) c' addrs /\
  c_rd c' = c_rd c /\ c_wr c' = c_wr c /\ c_post c' = c_post c /\
  (forall n b, n <> Z.of_nat nid -> state_get i' n b = state_get i n b) /\
  (forall x, In x (i_cmds i) -> c_tgt x <> Z.of_nat nid -> In x (i_cmds i')).
Proof.
  intros kev KV vs nid mem i c mem' i' c' addrs HV G SN W SH H. unfold cc_snoop_cycle in H.
  apply bind_ok in H as ([[[m1 i1] l1] items] & E & H).
  assert (SA : forall b, state_get i (Z.of_nat nid) b <> stInvalid -> al b) by (destruct SH as ((S0 & _) & _); exact S0).
  destruct (snoop_items_3 vs nid _ _ _ _ _ _ _ _ E G SN W SA) as (G1 & SN1 & W1 & P1 & P2 & Q1 & Q2 & R & F).
  assert (NI : forall p a, cur_post c = Some p -> post_line p = Some a -> ~ In a (map it_line (c_snoop c))).
  { intros p a CP PL I. apply in_map_iff in I as (it & EL & I). destruct SN as [SNa _]. destruct (SNa it I) as [c0 IC].
    eapply (g2 _ _ G _ _ _ _ nid _ IC eq_refl HV). unfold v_line, v_post, v3_cc. cbn [fst]. rewrite CP, EL. exact PL. }
  assert (SH1 : forall sl, Sh (state_get i1 (Z.of_nat nid)) (set_snoop (set_snoop (set_l1d c l1) items) sl) addrs).
  { intros sl. eapply (Sh_snoop _ _ c); [exact SH|reflexivity|reflexivity|reflexivity|exact P1|exact P2|exact NI]. }
  destruct (c_snoop c) eqn:ES.
  - apply bind_ok in H as ([i2 l2] & E2 & H). pose proof (co_snoop_i _ KV _ _ _ _ E2) as EI. subst i2. inv H. cbn [fst snd].
    split; [exact G1|]. split; [|split; [apply SH1|]].
    + cbn [set_snoop c_snoop]. apply (co_snoop_Sn _ _ _ _ _ E2). apply (g8 _ _ G1).
    + repeat split; auto; try (intros x I N; apply Q2; [exact I|left; exact N]).
  - inv H. split; [exact G1|]. split; [exact SN1|]. split; [apply (SH1 items)|].
    repeat split; auto; try (intros x I N; apply Q2; [exact I|left; exact N]).
Qed.

(* ------------------------------------------------------------------ *)
(* D. coRead / coWrite: the shape of the controller that moves          *)
(* ------------------------------------------------------------------ *)

Definition tr_of (p : post7) (a : Z) : bool := match p with PShareRUnlock b | PModUnlock b => b =? a | _ => false end.
Lemma transfer_cc_eq : forall c a, transfer_cc c a = match cur_post c with Some p => tr_of p a | None => false end.
Proof. intros c a. unfold transfer_cc. destruct (cur_post c) as [[| | | |]|]; reflexivity. Qed.

Lemma c3_ok_tr : forall st l1 tr tr', (forall a, tr a = true -> tr' a = true) -> c3_ok st l1 tr -> c3_ok st l1 tr'.
Proof. intros st l1 tr tr' M (S0 & A & B). split; [exact S0|]. split; [exact A|]. intros a AL H. destruct (B a AL H); auto. Qed.
Lemma c3_ok_tr_eq : forall st l1 tr tr', (forall a, tr' a = tr a) -> c3_ok st l1 tr -> c3_ok st l1 tr'.
Proof. intros st l1 tr tr' M. apply c3_ok_tr. intros a. rewrite M. auto. Qed.
Lemma c3_ok_holds_eq : forall st l1 l1' tr, (forall b, l1_holds l1' b = l1_holds l1 b) -> c3_ok st l1 tr -> c3_ok st l1' tr.
Proof. intros st l1 l1' tr E (S0 & A & B). split; [exact S0|]. split; intros a; rewrite E; auto. Qed.

Lemma c3_ok_push : forall st l1 l1' tr la,
  (forall b, l1_holds l1 b = true -> l1_holds l1' b = true) ->
  (forall b, b mod l1LineSize = 0 -> b <> la -> l1_holds l1' b = l1_holds l1 b) -> tr la = true ->
  c3_ok st l1 tr -> c3_ok st l1' tr.
Proof.
  intros st l1 l1' tr la M O T (S0 & A & B). split; [exact S0|]. split.
  - intros a AL N. apply M. auto.
  - intros a AL H. destruct (Z.eq_dec a la) as [->|N]; [right; exact T|]. rewrite (O a AL N) in H. auto.
Qed.

Definition st_after (p : post7) (st : Z -> Z) (b : Z) : Z :=
  match p with
  | PShareRUnlock a => if b =? a then stShared else st b
  | PModUnlock a => if b =? a then stModified else st b
  | _ => st b
  end.

Lemma run_post_states : forall i id p i', run_post i id p = Ok i' ->
  i_cmds i' = i_cmds i /\ (forall b, state_get i' id b = st_after p (state_get i id) b) /\
  (forall n b, n <> id -> state_get i' n b = state_get i n b).
Proof.
  intros i id p i' R. destruct p; cbn [run_post] in R; try discriminate; unfold sem_runlock, sem_unlock in R;
    destruct (sem_get _ _) as [r w]; destruct (_ <? 0); inv R; (split; [reflexivity|]); cbn [st_after]; split;
    intros; rewrite ?state_get_sem_set, ?state_get_state_set, ?Z.eqb_refl; cbn [andb]; try reflexivity;
    destruct (n =? id) eqn:Q; try reflexivity; apply Z.eqb_eq in Q; contradiction.
Qed.

Lemma c3_ok_install : forall st l1 p, c3_ok st l1 (tr_of p) -> (forall a, post_line p = Some a -> al a /\ l1_holds l1 a = true) ->
  c3_ok (st_after p st) l1 (fun _ => false).
Proof.
  intros st l1 p (S0 & A & B) H.
  assert (K : forall a s, s <> stInvalid -> (p = PShareRUnlock a \/ p = PModUnlock a) ->
              c3_ok (fun b => if b =? a then s else st b) l1 (fun _ => false)).
  { intros a s NS PP. assert (PL : post_line p = Some a) by (destruct PP as [-> | ->]; reflexivity). destruct (H a PL) as [AL HO].
    assert (TR : forall b, tr_of p b = (a =? b)) by (intros b; destruct PP as [-> | ->]; reflexivity).
    split; [|split].
    - intros b. destruct (b =? a) eqn:Q; [apply Z.eqb_eq in Q; subst; auto|apply S0].
    - intros b AB. destruct (b =? a) eqn:Q; [apply Z.eqb_eq in Q; subst; auto|apply A; exact AB].
    - intros b AB HB. left. destruct (b =? a) eqn:Q; [exact NS|]. destruct (B b AB HB) as [N|T]; [exact N|].
      rewrite TR in T. apply Z.eqb_eq in T. subst b. rewrite Z.eqb_refl in Q. discriminate. }
  destruct p; cbn [st_after]; try (eapply c3_ok_tr; [|split; [exact S0|split; [exact A|exact B]]]; cbn [tr_of]; intros; discriminate).
  - apply (K a stShared); [discriminate|left; reflexivity].
  - apply (K a stModified); [discriminate|right; reflexivity].
Qed.

Section CoreSh.
Variable id : Z.

Definition Vp (st : Z -> Z) (l1 : cache) (p : post7) (addrs : list Z) : Prop :=
  c3_ok st l1 (tr_of p) /\ exists a, post_line p = Some a /\ aligned7 addrs = Ok a.

Definition ShRes (i i' : msi7) (c c' : cc7) (addrs : list Z) : Prop :=
  Sh (state_get i' id) c' addrs /\ (forall n b, n <> id -> state_get i' n b = state_get i n b) /\
  incl (i_cmds i) (i_cmds i') /\ c_snoop c' = c_snoop c.

Lemma ShRes_trans_i : forall i0 i i' c0 c c' addrs, (forall n b, state_get i n b = state_get i0 n b) -> incl (i_cmds i0) (i_cmds i) ->
  c_snoop c = c_snoop c0 -> ShRes i i' c c' addrs -> ShRes i0 i' c0 c' addrs.
Proof.
  intros i0 i i' c0 c c' addrs S C SN (A & B & D & E). split; [exact A|]. split; [intros; rewrite B by assumption; apply S|].
  split; [eapply incl_tran; eauto|congruence].
Qed.

Lemma Sh_phase : forall st c addrs p, c3_ok st (c_l1d c) (tr_of p) -> cur_post c = Some p -> phase_ok st c ->
  (exists a, post_line p = Some a /\ aligned7 addrs = Ok a) -> Sh st c addrs.
Proof.
  intros st c addrs p C CP PH TIE. split; [|split; [exact PH|]].
  - eapply c3_ok_tr_eq; [|exact C]. intros a. rewrite transfer_cc_eq, CP. reflexivity.
  - intros q CQ. rewrite CP in CQ. inv CQ. exact TIE.
Qed.

Lemma Sh_idle : forall st c addrs, c3_ok st (c_l1d c) (fun _ => false) -> c_rd c = RStart -> c_wr c = WStart -> Sh st c addrs.
Proof.
  intros st c addrs C R W. assert (CP : cur_post c = None) by (unfold cur_post; rewrite R, W; reflexivity). split; [|split].
  - eapply c3_ok_tr_eq; [|exact C]. intros a. rewrite transfer_cc_eq, CP. reflexivity.
  - unfold phase_ok. rewrite R, W. split; exact I.
  - intros q CQ. rewrite CP in CQ. discriminate.
Qed.

(* what Sh says about the transaction in progress *)
Lemma Sh_Vp : forall st c addrs p, Sh st c addrs -> cur_post c = Some p -> Vp st (c_l1d c) p addrs.
Proof.
  intros st c addrs p (C & _ & TIE) CP. split; [|apply TIE; exact CP].
  eapply c3_ok_tr_eq; [|exact C]. intros b. rewrite transfer_cc_eq, CP. reflexivity.
Qed.

(* ---- read ---- *)

Lemma rd_l1_Sh : forall i c addrs cyc data i' c' r, Vp (state_get i id) (c_l1d c) (c_post c) addrs ->
  (forall a, post_line (c_post c) = Some a -> hold c a) -> c_wr c = WStart ->
  rd_l1 i id c addrs cyc data = Ok (i', c', r) -> ShRes i i' c c' addrs.
Proof.
  intros i c addrs cyc data i' c' r [C TIE] HO W H. unfold rd_l1 in H. destruct (0 <? cyc).
  - inv H. split; [|split; [auto|split; [apply incl_refl|reflexivity]]].
    apply (Sh_phase _ _ _ (c_post c)); [exact C|reflexivity| |exact TIE]. unfold phase_ok. cbn [set_rd c_rd c_wr c_post]. rewrite W. split; [exact HO|exact I].
  - apply bind_ok in H as (i1 & E1 & H). apply bind_ok in H as (a & E2 & H). inv H.
    destruct (run_post_states _ _ _ _ E1) as (CM & ST & OT).
    split; [|split; [exact OT|split; [rewrite CM; apply incl_refl|reflexivity]]].
    apply Sh_idle; [|reflexivity|exact W]. cbn [set_rsems set_rd set_post c_l1d].
    eapply c3_ok_ext; [exact ST|]. apply c3_ok_install; [exact C|]. intros b PL. split; [|apply HO; exact PL].
    destruct TIE as (a' & PL' & AL). rewrite PL in PL'. inv PL'. eapply aligned7_al; eauto.
Qed.

Lemma rd_from_l1_Sh : forall i c addrs i' c' r, Vp (state_get i id) (c_l1d c) (c_post c) addrs -> l1_wf (c_l1d c) -> c_wr c = WStart ->
  rd_from_l1 i id c addrs = Ok (i', c', r) -> ShRes i i' c c' addrs.
Proof.
  intros i c addrs i' c' r [C TIE] WF W H. unfold rd_from_l1 in H. apply bind_ok in H as ([l1 g] & E & H).
  destruct g as [data|]; [|discriminate].
  assert (HE : forall b, l1_holds l1 b = l1_holds (c_l1d c) b) by (intros; eapply holds_get_all; eauto).
  eapply (ShRes_trans_i i i i' c (set_l1d c l1)); [reflexivity|apply incl_refl|reflexivity|].
  eapply rd_l1_Sh; [| | |exact H]; cbn [set_l1d c_l1d c_post c_wr]; [split; [eapply c3_ok_holds_eq; eauto|exact TIE]| |exact W].
  intros a PL. unfold hold. cbn [set_l1d c_l1d]. destruct TIE as (a' & PL' & AL). rewrite PL in PL'. inv PL'.
  destruct addrs as [|a0 tl]; [discriminate|]. eapply holds_aligned; [eapply get_all_wf; eauto| |exact AL]. eapply get_all_hit; eauto.
Qed.

Lemma rd_evict_Sh : forall i c addrs pending post i' c' r, Vp (state_get i id) (c_l1d c) post addrs -> l1_wf (c_l1d c) -> c_wr c = WStart ->
  rd_evict i id c addrs pending post = Ok (i', c', r) -> ShRes i i' c c' addrs.
Proof.
  intros i c addrs pending post i' c' r [C TIE] WF W H. unfold rd_evict in H.
  assert (STAY : ShRes i i (c) (set_rd c (REvict pending post)) addrs).
  { split; [|split; [auto|split; [apply incl_refl|reflexivity]]].
    apply (Sh_phase _ _ _ post); [exact C|reflexivity| |exact TIE]. unfold phase_ok. cbn [set_rd c_rd c_wr]. rewrite W. split; exact I. }
  assert (GO : rd_from_l1 i id (set_post c post) addrs = Ok (i', c', r) -> ShRes i i' c c' addrs).
  { intros H'. eapply (ShRes_trans_i i i i' c (set_post c post)); [reflexivity|apply incl_refl|reflexivity|].
    eapply rd_from_l1_Sh; [| | |exact H']; cbn [set_post c_l1d c_post c_wr]; [split; assumption|exact WF|exact W]. }
  destruct pending as [p|]; [destruct (negb (cmd_isdone i p))|]; [inv H; exact STAY|apply GO; exact H|apply GO; exact H].
Qed.

Lemma rd_fetch_Sh : forall i c addrs cyc la dt post i' c' r, Vp (state_get i id) (c_l1d c) post addrs -> l1_wf (c_l1d c) -> c_wr c = WStart ->
  post = PShareRUnlock la -> fetch_ok la dt -> rd_fetch i id c addrs cyc la dt post = Ok (i', c', r) -> ShRes i i' c c' addrs.
Proof.
  intros i c addrs cyc la dt post i' c' r [C TIE] WF W PP FO H. unfold rd_fetch in H. destruct (0 <? cyc).
  - inv H. split; [|split; [auto|split; [apply incl_refl|reflexivity]]].
    apply (Sh_phase _ _ _ (PShareRUnlock la)); [exact C|reflexivity| |exact TIE]. unfold phase_ok. cbn [set_rd c_rd c_wr]. rewrite W. split; [reflexivity|exact I].
  - apply bind_ok in H as ([l1 v] & E & H). cbn [fst snd] in H.
    destruct (holds_push _ _ _ _ _ E (proj1 WF) FO) as [MO OT].
    assert (C1 : c3_ok (state_get i id) l1 (tr_of post)).
    { eapply c3_ok_push; [exact MO|exact OT| |exact C]. subst post. cbn [tr_of]. apply Z.eqb_refl. }
    assert (WF1 : l1_wf l1) by (eapply push_line_to_l1_wf; eauto).
    destruct v as [victim|].
    + destruct (msi_evict_extra i id (lo victim)) as [i1 pe] eqn:EE. inv H. apply msi_evict_extra_spec in EE as [S CI].
      split; [|split; [intros; apply (same_ss_state _ _ _ _ S)|split; [exact CI|reflexivity]]].
      eapply Sh_ext; [intros; apply (same_ss_state _ _ _ _ S)|].
      apply (Sh_phase _ _ _ (PShareRUnlock la)); [exact C1|reflexivity| |exact TIE]. unfold phase_ok. cbn [set_rd set_l1d c_rd c_wr]. rewrite W. split; exact I.
    + eapply (ShRes_trans_i i i i' c (set_post (set_l1d c l1) post)); [reflexivity|apply incl_refl|reflexivity|].
      eapply rd_from_l1_Sh; [| | |exact H]; cbn [set_post set_l1d c_l1d c_post c_wr]; [split; assumption|exact WF1|exact W].
Qed.

Lemma rd_pend_Sh : forall mem i c addrs ps fetch post i' c' r, Vp (state_get i id) (c_l1d c) post addrs -> l1_wf (c_l1d c) -> c_wr c = WStart ->
  (fetch = true -> exists a, post = PShareRUnlock a) -> rd_pend mem i id c addrs ps fetch post = Ok (i', c', r) -> ShRes i i' c c' addrs.
Proof.
  intros mem i c addrs ps fetch post i' c' r [C TIE] WF W FP H. unfold rd_pend in H. destruct (negb (all_done i ps)).
  - inv H. split; [|split; [auto|split; [apply incl_refl|reflexivity]]].
    apply (Sh_phase _ _ _ post); [exact C|reflexivity| |exact TIE]. unfold phase_ok. cbn [set_rd c_rd c_wr]. rewrite W. split; [exact FP|exact I].
  - destruct fetch; cbn [negb] in H.
    + apply bind_ok in H as (a & E1 & H). apply bind_ok in H as (g & E2 & H). destruct g; [discriminate|].
      destruct addrs as [|a0 tl]; [discriminate|]. apply bind_ok in H as (ln & E3 & H).
      destruct (FP eq_refl) as [a' PP]. destruct TIE as (a'' & PL & AL). subst post. cbn [post_line] in PL. inv PL.
      rewrite AL in E1. inv E1. cbn [aligned7] in AL. inv AL. apply fetch_cache_line_ok in E3 as [FO _].
      eapply rd_fetch_Sh; [| | | | |exact H]; [split; [exact C|eexists; split; reflexivity]|exact WF|exact W|reflexivity|exact FO].
    + eapply (ShRes_trans_i i i i' c (set_post c post)); [reflexivity|apply incl_refl|reflexivity|].
      eapply rd_from_l1_Sh; [| | |exact H]; cbn [set_post c_l1d c_post c_wr]; [split; assumption|exact WF|exact W].
Qed.

Lemma rd_start_Sh : forall mem i c addrs0 addrs i' c' r, Sh (state_get i id) c addrs0 -> l1_wf (c_l1d c) -> c_rd c = RStart -> c_wr c = WStart ->
  rd_start mem i id c addrs = Ok (i', c', r) -> ShRes i i' c c' addrs.
Proof.
  intros mem i c addrs0 addrs i' c' r (C & _ & _) WF R W H. unfold rd_start in H. apply bind_ok in H as (a & E1 & H).
  apply bind_ok in H as ([i1 lr] & E2 & H). cbn [fst snd] in H.
  assert (CP : cur_post c = None) by (unfold cur_post; rewrite R, W; reflexivity).
  assert (C0 : c3_ok (state_get i id) (c_l1d c) (fun _ => false)).
  { eapply c3_ok_tr_eq; [|exact C]. intros b. rewrite transfer_cc_eq, CP. reflexivity. }
  destruct lr as [|fetch ps post].
  - inv H. apply msi_rlock_wait in E2. subst i'. split; [|split; [auto|split; [apply incl_refl|reflexivity]]]. apply Sh_idle; assumption.
  - destruct (msi_rlock_shape _ _ _ _ _ _ _ E2) as [ST SH]. pose proof (proj2 (msi_rlock_frame _ _ _ _ _ E2)) as CI.
    eapply (ShRes_trans_i i i1 i' c (set_rsems c (keys_add a (c_rsems c)))); [intros; apply ST|exact CI|reflexivity|].
    eapply rd_pend_Sh; [| | | |exact H]; cbn [set_rsems c_l1d c_wr]; [|exact WF|exact W|].
    + split; [eapply c3_ok_ext; [intros; apply ST|]; eapply c3_ok_tr; [|exact C0]; intros; discriminate|].
      exists a. split; [|exact E1]. destruct SH as [(_ & -> & _)|(_ & _ & [(-> & _)|(-> & _)])]; reflexivity.
    + intros F. destruct SH as [(_ & -> & _)|(F' & _)]; [eauto|congruence].
Qed.

Lemma cc_read_cycle_Sh : forall mem i c addrs i' c' r, Sh (state_get i id) c addrs -> CS c -> c_wr c = WStart ->
  cc_read_cycle mem i id c addrs = Ok (i', c', r) -> ShRes i i' c c' addrs.
Proof.
  intros mem i c addrs i' c' r SH (WF & RO & _) W H. unfold cc_read_cycle in H. pose proof SH as (_ & [PH _] & _).
  assert (VP : forall p, cur_post c = Some p -> Vp (state_get i id) (c_l1d c) p addrs) by (intros; eapply Sh_Vp; eauto).
  unfold cur_post in VP. destruct (c_rd c) eqn:E.
  - eapply rd_start_Sh; eauto.
  - eapply rd_pend_Sh; [apply VP; reflexivity|exact WF|exact W|exact PH|exact H].
  - eapply rd_fetch_Sh; [apply VP; reflexivity|exact WF|exact W|exact PH|exact RO|exact H].
  - eapply rd_evict_Sh; [apply VP; reflexivity|exact WF|exact W|exact H].
  - eapply rd_l1_Sh; [apply VP; reflexivity|exact PH|exact W|exact H].
Qed.


(* ---- write ---- *)

Lemma wr_l1_Sh : forall i c addrs data cyc i' c' r, Vp (state_get i id) (c_l1d c) (c_post c) addrs -> l1_wf (c_l1d c) -> c_rd c = RStart ->
  wr_l1 i id c addrs data cyc = Ok (i', c', r) -> ShRes i i' c c' addrs.
Proof.
  intros i c addrs data cyc i' c' r [C TIE] WF R H. unfold wr_l1 in H. destruct (0 <? cyc).
  - inv H. split; [|split; [auto|split; [apply incl_refl|reflexivity]]].
    apply (Sh_phase _ _ _ (c_post c)); [exact C|unfold cur_post; cbn [set_wr c_rd c_wr c_post]; rewrite R; reflexivity| |exact TIE].
    unfold phase_ok. cbn [set_wr c_rd c_wr c_post]. rewrite R. split; exact I.
  - destruct addrs as [|a0 tl]; [discriminate|].
    apply bind_ok in H as (l1 & E0 & H). apply bind_ok in H as (i1 & E1 & H). apply bind_ok in H as (a & E2 & H). inv H.
    destruct (run_post_states _ _ _ _ E1) as (CM & ST & OT).
    split; [|split; [exact OT|split; [rewrite CM; apply incl_refl|reflexivity]]].
    apply Sh_idle; [|exact R|reflexivity]. cbn [set_wsems set_wr set_post set_l1d c_l1d].
    assert (HE : forall b, l1_holds l1 b = l1_holds (c_l1d c) b) by (intros; eapply holds_write; eauto).
    eapply c3_ok_ext; [exact ST|]. apply c3_ok_install; [eapply c3_ok_holds_eq; eauto|]. intros b PL.
    destruct TIE as (a' & PL' & AL). rewrite PL in PL'. inv PL'. split; [eapply aligned7_al; eauto|].
    rewrite HE. eapply holds_aligned; [exact WF| |exact AL]. eapply write_hit; eauto.
Qed.

Lemma wr_evict_Sh : forall i c addrs data pending cyc post i' c' r, Vp (state_get i id) (c_l1d c) post addrs -> l1_wf (c_l1d c) -> c_rd c = RStart ->
  wr_evict i id c addrs data pending cyc post = Ok (i', c', r) -> ShRes i i' c c' addrs.
Proof.
  intros i c addrs data pending cyc post i' c' r [C TIE] WF R H. unfold wr_evict in H.
  assert (STAY : forall k, ShRes i i (c) (set_wr c (WEvict pending k post)) addrs).
  { intros k. split; [|split; [auto|split; [apply incl_refl|reflexivity]]].
    apply (Sh_phase _ _ _ post); [exact C|unfold cur_post; cbn [set_wr c_rd c_wr]; rewrite R; reflexivity| |exact TIE].
    unfold phase_ok. cbn [set_wr c_rd c_wr]. rewrite R. split; exact I. }
  destruct (match pending with Some p => negb (cmd_isdone i p) | None => false end); [inv H; apply STAY|].
  destruct (0 <? cyc); [inv H; apply STAY|].
  eapply (ShRes_trans_i i i i' c (set_post c post)); [reflexivity|apply incl_refl|reflexivity|].
  eapply wr_l1_Sh; [| | |exact H]; cbn [set_post c_l1d c_post c_rd]; [split; assumption|exact WF|exact R].
Qed.

Lemma wr_fetch_Sh : forall i c addrs data cyc la dt post i' c' r, Vp (state_get i id) (c_l1d c) post addrs -> l1_wf (c_l1d c) -> c_rd c = RStart ->
  post = PModUnlock la -> state_get i id la = stInvalid -> fetch_ok la dt ->
  wr_fetch i id c addrs data cyc la dt post = Ok (i', c', r) -> ShRes i i' c c' addrs.
Proof.
  intros i c addrs data cyc la dt post i' c' r [C TIE] WF R PP SI FO H. unfold wr_fetch in H. destruct (0 <? cyc).
  - inv H. split; [|split; [auto|split; [apply incl_refl|reflexivity]]].
    apply (Sh_phase _ _ _ (PModUnlock la)); [exact C|unfold cur_post; cbn [set_wr c_rd c_wr]; rewrite R; reflexivity| |exact TIE].
    unfold phase_ok. cbn [set_wr c_rd c_wr]. rewrite R. split; [exact I|split; [reflexivity|exact SI]].
  - apply bind_ok in H as ([l1 v] & E & H). cbn [fst snd] in H.
    destruct (holds_push _ _ _ _ _ E (proj1 WF) FO) as [MO OT].
    assert (C1 : c3_ok (state_get i id) l1 (tr_of post)).
    { eapply c3_ok_push; [exact MO|exact OT| |exact C]. subst post. cbn [tr_of]. apply Z.eqb_refl. }
    assert (WF1 : l1_wf l1) by (eapply push_line_to_l1_wf; eauto).
    destruct v as [victim|].
    + destruct (msi_evict_extra i id (lo victim)) as [i1 pe] eqn:EE. inv H. apply msi_evict_extra_spec in EE as [S CI].
      split; [|split; [intros; apply (same_ss_state _ _ _ _ S)|split; [exact CI|reflexivity]]].
      eapply Sh_ext; [intros; apply (same_ss_state _ _ _ _ S)|].
      apply (Sh_phase _ _ _ (PModUnlock la)); [exact C1|unfold cur_post; cbn [set_wr set_l1d c_rd c_wr]; rewrite R; reflexivity| |exact TIE].
      unfold phase_ok. cbn [set_wr set_l1d c_rd c_wr]. rewrite R. split; exact I.
    + eapply (ShRes_trans_i i i i' c (set_post (set_l1d c l1) post)); [reflexivity|apply incl_refl|reflexivity|].
      eapply wr_l1_Sh; [| | |exact H]; cbn [set_post set_l1d c_l1d c_post c_rd]; [split; assumption|exact WF1|exact R].
Qed.

Lemma wr_pend_Sh : forall mem i c addrs data ps fetch post i' c' r, Vp (state_get i id) (c_l1d c) post addrs -> l1_wf (c_l1d c) -> c_rd c = RStart ->
  (fetch = true -> exists a, post = PModUnlock a /\ state_get i id a = stInvalid) ->
  wr_pend mem i id c addrs data ps fetch post = Ok (i', c', r) -> ShRes i i' c c' addrs.
Proof.
  intros mem i c addrs data ps fetch post i' c' r [C TIE] WF R FP H. unfold wr_pend in H. destruct (negb (all_done i ps)).
  - inv H. split; [|split; [auto|split; [apply incl_refl|reflexivity]]].
    apply (Sh_phase _ _ _ post); [exact C|unfold cur_post; cbn [set_wr c_rd c_wr]; rewrite R; reflexivity| |exact TIE].
    unfold phase_ok. cbn [set_wr c_rd c_wr]. rewrite R. split; [exact I|exact FP].
  - destruct fetch.
    + destruct addrs as [|a0 tl]; [discriminate|]. apply bind_ok in H as (a & E1 & H). apply bind_ok in H as (ln & E3 & H).
      destruct (FP eq_refl) as (a' & PP & SI). destruct TIE as (a'' & PL & AL). subst post. cbn [post_line] in PL. inv PL.
      rewrite AL in E1. inv E1. cbn [aligned7] in AL. inv AL. apply fetch_cache_line_ok in E3 as [FO _].
      eapply wr_fetch_Sh; [| | | | | |exact H]; [split; [exact C|eexists; split; reflexivity]|exact WF|exact R|reflexivity|exact SI|exact FO].
    + eapply (ShRes_trans_i i i i' c (set_post c post)); [reflexivity|apply incl_refl|reflexivity|].
      eapply wr_l1_Sh; [| | |exact H]; cbn [set_post c_l1d c_post c_rd]; [split; assumption|exact WF|exact R].
Qed.

Lemma wr_start_Sh : forall mem i c addrs0 addrs data i' c' r, Sh (state_get i id) c addrs0 -> l1_wf (c_l1d c) -> c_rd c = RStart -> c_wr c = WStart ->
  wr_start mem i id c addrs data = Ok (i', c', r) -> ShRes i i' c c' addrs.
Proof.
  intros mem i c addrs0 addrs data i' c' r (C & _ & _) WF R W H. unfold wr_start in H. apply bind_ok in H as (a & E1 & H).
  apply bind_ok in H as ([i1 lr] & E2 & H). cbn [fst snd] in H.
  assert (CP : cur_post c = None) by (unfold cur_post; rewrite R, W; reflexivity).
  assert (C0 : c3_ok (state_get i id) (c_l1d c) (fun _ => false)).
  { eapply c3_ok_tr_eq; [|exact C]. intros b. rewrite transfer_cc_eq, CP. reflexivity. }
  destruct lr as [|fetch ps post].
  - inv H. apply msi_lock_wait in E2. subst i'. split; [|split; [auto|split; [apply incl_refl|reflexivity]]]. apply Sh_idle; assumption.
  - destruct (msi_lock_shape _ _ _ _ _ _ _ E2) as [ST SH]. pose proof (proj2 (msi_lock_frame _ _ _ _ _ E2)) as CI.
    eapply (ShRes_trans_i i i1 i' c (set_wsems c (keys_add a (c_wsems c)))); [intros; apply ST|exact CI|reflexivity|].
    eapply wr_pend_Sh; [| | | |exact H]; cbn [set_wsems c_l1d c_rd]; [|exact WF|exact R|].
    + split; [eapply c3_ok_ext; [intros; apply ST|]; eapply c3_ok_tr; [|exact C0]; intros; discriminate|].
      exists a. split; [|exact E1]. destruct SH as [(_ & -> & _)|(_ & [(-> & _)|(-> & _)])]; reflexivity.
    + intros F. destruct SH as [(_ & -> & SI)|(F' & _)]; [|congruence]. exists a. split; [reflexivity|]. rewrite ST. exact SI.
Qed.

Lemma cc_write_cycle_Sh : forall mem i c addrs data i' c' r, Sh (state_get i id) c addrs -> CS c -> c_rd c = RStart ->
  cc_write_cycle mem i id c addrs data = Ok (i', c', r) -> ShRes i i' c c' addrs.
Proof.
  intros mem i c addrs data i' c' r SH (WF & _ & WO) R H. unfold cc_write_cycle in H. pose proof SH as (_ & [_ PH] & _).
  assert (VP : forall p, cur_post c = Some p -> Vp (state_get i id) (c_l1d c) p addrs) by (intros; eapply Sh_Vp; eauto).
  unfold cur_post in VP. rewrite R in VP. destruct (c_wr c) eqn:E.
  - eapply wr_start_Sh; eauto.
  - eapply wr_pend_Sh; [apply VP; reflexivity|exact WF|exact R|exact PH|exact H].
  - destruct PH as [PP SI]. eapply wr_fetch_Sh; [apply VP; reflexivity|exact WF|exact R|exact PP|exact SI|exact WO|exact H].
  - eapply wr_evict_Sh; [apply VP; reflexivity|exact WF|exact R|exact H].
  - eapply wr_l1_Sh; [apply VP; reflexivity|exact WF|exact R|exact H].
Qed.

End CoreSh.

(* ------------------------------------------------------------------ *)
(* E. the invariant K3 over the execute units; cc.read / cc.write.Cycle  *)
(* ------------------------------------------------------------------ *)

Definition core_ok (i : msi7) (n : nat) (e : eu7) : Prop :=
  Sn i (Z.of_nat n) (c_snoop (h_cc e)) /\ Sh (state_get i (Z.of_nat n)) (h_cc e) (eu_addrs e).
Definition K3 (i : msi7) (eus : list eu7) : Prop :=
  GI i (map v3_of eus) /\ forall n e, nth_error eus n = Some e -> core_ok i n e.

Lemma sums_v3 : forall eus, map v_sum (map v3_of eus) = map sum_of eus.
Proof. intros. rewrite map_map. apply map_ext. reflexivity. Qed.

Lemma Sh_addrs : forall st c a1 a2, cur_post c = None -> Sh st c a1 -> Sh st c a2.
Proof. intros st c a1 a2 CP (A & B & _). split; [exact A|split; [exact B|]]. intros p Q. congruence. Qed.

Lemma FetchI_of : forall i vs n c addrs, GI i vs -> nth_error vs n = Some (v3_cc c) -> Sh (state_get i (Z.of_nat n)) c addrs ->
  FetchI i (Z.of_nat n) c.
Proof.
  intros i vs n c addrs G H (_ & [P1 P2] & _). split.
  - destruct (c_rd c) eqn:E; try exact I.
    + destruct fetch; [|exact I]. destruct (P1 eq_refl) as [a ->].
      assert (O : own_ok i (Z.of_nat n) (PShareRUnlock a)).
      { eapply (g7 _ _ G _ _ _ H). unfold v_post, v3_cc, cur_post. cbn [fst]. rewrite E. reflexivity. }
      intros b PB. cbn in PB. inv PB. exact O.
    + subst post.
      assert (O : own_ok i (Z.of_nat n) (PShareRUnlock lineAddr)).
      { eapply (g7 _ _ G _ _ _ H). unfold v_post, v3_cc, cur_post. cbn [fst]. rewrite E. reflexivity. }
      intros b PB. cbn in PB. inv PB. exact O.
  - destruct (c_wr c) eqn:E; try exact I.
    + destruct fetch; [|exact I]. destruct (P2 eq_refl) as (a & -> & SI). intros b PB. cbn in PB. inv PB. exact SI.
    + destruct P2 as [-> SI]. intros b PB. cbn in PB. inv PB. exact SI.
Qed.

Section OneCore3.
Variables (D T : list eu7).
Let id := Z.of_nat (length D).

Lemma K3_core_step : forall i i' e e' addrs, K3 i (D ++ e :: T) -> GI i' (map v3_of (D ++ e' :: T)) ->
  ShRes id i i' (h_cc e) (h_cc e') addrs -> (eu_addrs e' = addrs \/ cur_post (h_cc e') = None) -> K3 i' (D ++ e' :: T).
Proof.
  intros i i' e e' addrs [G C] G' (SH & OT & CI & SN) AD. split; [exact G'|]. intros n x H.
  destruct (Nat.eq_dec n (length D)) as [->|N].
  - rewrite nth_error_mid in H. inv H. destruct (C (length D) e (nth_error_mid D e T)) as [S1 _]. split.
    + rewrite SN. eapply Sn_mono; eauto.
    + destruct AD as [->|CP]; [exact SH|eapply Sh_addrs; eauto].
  - rewrite (nth_error_mid_other D e e' T n N) in H. destruct (C n x H) as [S1 S2]. split; [eapply Sn_mono; eauto|].
    eapply Sh_ext; [|exact S2]. intros a. apply OT. unfold id. lia.
Qed.

Definition B3 (i : msi7) (e : eu7) : Prop :=
  K3 i (D ++ e :: T) /\ K1' i (map sum_of D ++ sum_of e :: map sum_of T) /\ CS (h_cc e).

Lemma B3_same_cc : forall i e e', h_cc e' = h_cc e -> (eu_addrs e' = eu_addrs e \/ cur_post (h_cc e) = None) -> B3 i e -> B3 i e'.
Proof.
  intros i e e' E AD ([G C] & K & S). split; [|split; [unfold sum_of in *; rewrite E; exact K|rewrite E; exact S]]. split.
  - rewrite map_app in *. cbn [map] in *. unfold v3_of in *. rewrite E. exact G.
  - intros n x H. destruct (Nat.eq_dec n (length D)) as [->|N].
    + rewrite nth_error_mid in H. inv H. destruct (C (length D) e (nth_error_mid D e T)) as [S1 S2]. unfold core_ok. rewrite E. split; [exact S1|].
      destruct AD as [->|CP]; [exact S2|eapply Sh_addrs; eauto].
    + rewrite (nth_error_mid_other D e e' T n N) in H. apply C. exact H.
Qed.

Lemma B3_parts : forall i e, B3 i e -> GI i (map v3_of D ++ v3_cc (h_cc e) :: map v3_of T) /\
  K1' i (map v_sum (map v3_of D ++ v3_cc (h_cc e) :: map v3_of T)) /\ Sh (state_get i id) (h_cc e) (eu_addrs e) /\
  nth_error (map v3_of D ++ v3_cc (h_cc e) :: map v3_of T) (length D) = Some (v3_cc (h_cc e)).
Proof.
  intros i e ([G C] & K & S). rewrite map_app in G. cbn [map] in G. split; [exact G|]. split; [|split].
  - rewrite map_app. cbn [map]. rewrite !sums_v3. exact K.
  - apply (C (length D) e (nth_error_mid D e T)).
  - rewrite <- (map_length v3_of D). apply nth_error_mid.
Qed.

Lemma cc_write_B3 : forall mem i e addrs data i1 c1 done, B3 i e -> c_rd (h_cc e) = RStart ->
  (eu_addrs e = addrs \/ cur_post (h_cc e) = None) -> cc_write_cycle mem i id (h_cc e) addrs data = Ok (i1, c1, done) ->
  (forall ex, h_cc ex = c1 -> (eu_addrs ex = addrs \/ cur_post c1 = None) -> B3 i1 ex) /\
  c_rd c1 = RStart /\ (done = true -> c_wr c1 = WStart) /\ ShRes id i i1 (h_cc e) c1 addrs /\ Sh (state_get i id) (h_cc e) addrs.
Proof.
  intros mem i e addrs data i1 c1 done BB R AD E. pose proof BB as (K3e & K & S). destruct (B3_parts _ _ BB) as (G & K1 & SH & NV).
  pose proof (cc_write_cycle_K (map sum_of D) (map sum_of T)) as XK. rewrite map_length in XK.
  destruct (XK _ _ _ _ _ _ _ _ K R E) as (K2 & R2 & W2).
  destruct (cc_write_cycle_S _ _ _ _ _ _ _ _ _ E (proj1 K) S) as [SI2 S2].
  assert (SHa : Sh (state_get i id) (h_cc e) addrs) by (destruct AD as [<-|CP]; [exact SH|eapply Sh_addrs; eauto]).
  pose proof (cc_write_cycle_G (map v3_of D) (map v3_of T)) as XG. rewrite map_length in XG.
  assert (FI : FetchI i id (h_cc e)) by (eapply FetchI_of; eauto).
  pose proof (XG _ _ _ _ _ _ _ _ G K1 R FI E) as G2. unfold G3Res in G2.
  pose proof (cc_write_cycle_Sh id _ _ _ _ _ _ _ _ SHa S R E) as SR.
  split; [|auto]. intros ex EX AX. split; [|split; [unfold sum_of; rewrite EX; exact K2|rewrite EX; exact S2]].
  eapply K3_core_step; [exact K3e| |rewrite EX; exact SR|rewrite EX; exact AX].
  rewrite map_app. cbn [map]. unfold v3_of at 2. rewrite EX. exact G2.
Qed.

Lemma cc_read_B3 : forall mem i e addrs i1 c1 resp, B3 i e -> c_wr (h_cc e) = WStart ->
  (eu_addrs e = addrs \/ cur_post (h_cc e) = None) -> cc_read_cycle mem i id (h_cc e) addrs = Ok (i1, c1, resp) ->
  (forall ex, h_cc ex = c1 -> (eu_addrs ex = addrs \/ cur_post c1 = None) -> B3 i1 ex) /\
  c_wr c1 = WStart /\ (resp <> None -> c_rd c1 = RStart) /\ ShRes id i i1 (h_cc e) c1 addrs /\ Sh (state_get i id) (h_cc e) addrs /\
  FetchI i id (h_cc e).
Proof.
  intros mem i e addrs i1 c1 resp BB W AD E. pose proof BB as (K3e & K & S). destruct (B3_parts _ _ BB) as (G & K1 & SH & NV).
  pose proof (cc_read_cycle_K (map sum_of D) (map sum_of T)) as XK. rewrite map_length in XK.
  destruct (XK _ _ _ _ _ _ _ K W E) as (K2 & W2 & R2).
  destruct (cc_read_cycle_S _ _ _ _ _ _ _ _ E (proj1 K) S) as [SI2 S2].
  assert (SHa : Sh (state_get i id) (h_cc e) addrs) by (destruct AD as [<-|CP]; [exact SH|eapply Sh_addrs; eauto]).
  pose proof (cc_read_cycle_G (map v3_of D) (map v3_of T)) as XG. rewrite map_length in XG.
  assert (FI : FetchI i id (h_cc e)) by (eapply FetchI_of; eauto).
  pose proof (XG _ _ _ _ _ _ _ G K1 W FI E) as G2. unfold G3Res in G2.
  pose proof (cc_read_cycle_Sh id _ _ _ _ _ _ _ SHa S W E) as SR.
  split; [|auto 6]. intros ex EX AX. split; [|split; [unfold sum_of; rewrite EX; exact K2|rewrite EX; exact S2]].
  eapply K3_core_step; [exact K3e| |rewrite EX; exact SR|rewrite EX; exact AX].
  rewrite map_app. cbn [map]. unfold v3_of at 2. rewrite EX. exact G2.
Qed.

End OneCore3.

(* ------------------------------------------------------------------ *)
(* F. the invariant F3 of a state; cc.snoop.Cycle of one controller      *)
(* ------------------------------------------------------------------ *)

Definition F3 (i : msi7) (eus : list eu7) : Prop :=
  K3 i eus /\ K1' i (map sum_of eus) /\ CSs eus /\ Forall EO eus.

Lemma Forall_mid {A} (P : A -> Prop) d x t : Forall P (d ++ x :: t) <-> Forall P d /\ P x /\ Forall P t.
Proof.
  rewrite Forall_app. split.
  - intros [H1 H2]. inversion H2; subst. auto.
  - intros (H1 & H2 & H3). split; [exact H1|constructor; assumption].
Qed.

Lemma F3_split : forall i D e T, F3 i (D ++ e :: T) -> B3 D T i e /\ EO e /\ CSs D /\ CSs T /\ Forall EO D /\ Forall EO T.
Proof.
  intros i D e T (K & K1 & C & O). unfold CSs in *. apply Forall_mid in C as (C1 & C2 & C3). apply Forall_mid in O as (O1 & O2 & O3).
  split; [|auto 6]. split; [exact K|]. split; [rewrite sums_snoc in K1; exact K1|exact C2].
Qed.
Lemma F3_join : forall i D e T, B3 D T i e -> EO e -> CSs D -> CSs T -> Forall EO D -> Forall EO T -> F3 i (D ++ e :: T).
Proof.
  intros i D e T (K & K1 & C) O C1 C3 O1 O3. split; [exact K|]. split; [rewrite sums_snoc; exact K1|].
  split; [unfold CSs in *|]; apply Forall_mid; auto.
Qed.

Section StepF.
Variable hk : hooks7.
Hypothesis HF : hooks_frame hk.

(* cc.snoop.Cycle of one controller *)
Lemma snoop_one_F : forall D e T mem i mem' i' c', F3 i (D ++ e :: T) ->
  cc_snoop_cycle (k_evict hk) mem i (Z.of_nat (length D)) (h_cc e) = Ok (mem', i', c') -> F3 i' (D ++ set_hcc e c' :: T).
Proof.
  intros D e T mem i mem' i' c' F H. pose proof F as ([G C] & K1 & _ & _).
  apply F3_split in F as (BB & [O Q] & C1 & C3 & O1 & O3). pose proof BB as (_ & K1m & S).
  destruct (C (length D) e (nth_error_mid D e T)) as [SN SH].
  assert (NV : nth_error (map v3_of (D ++ e :: T)) (length D) = Some (v3_cc (h_cc e))).
  { rewrite map_app. cbn [map]. rewrite <- (map_length v3_of D). apply nth_error_mid. }
  destruct (cc_snoop_cycle_3 _ (hf_evict hk HF) _ _ _ _ _ _ _ _ _ NV G SN (proj1 S) SH H) as (G2 & SN2 & SH2 & R2 & W2 & P2 & OT & KEEP).
  destruct (cc_snoop_cycle_K _ (hf_evict hk HF) (map sum_of (D ++ e :: T)) _ _ _ _ _ _ _ H K1) as (K2 & SS & _ & _).
  destruct (cc_snoop_cycle_S _ (hf_evict hk HF) _ _ _ _ _ _ _ H (proj1 K1) S) as [_ S2].
  assert (VE : map v3_of (D ++ set_hcc e c' :: T) = map v3_of (D ++ e :: T)).
  { rewrite !map_app. cbn [map]. unfold v3_of at 2 4. cbn [set_hcc h_cc]. rewrite (v3_cc_same _ _ R2 W2 P2). reflexivity. }
  apply F3_join; try assumption.
  - split; [split|split].
    + rewrite VE. exact G2.
    + intros n x HX. destruct (Nat.eq_dec n (length D)) as [->|N].
      * rewrite nth_error_mid in HX. inv HX. split; [exact SN2|]. cbn [set_hcc h_cc]. exact SH2.
      * rewrite (nth_error_mid_other D e (set_hcc e c') T n N) in HX. destruct (C n x HX) as [S1 S2']. split.
        -- destruct S1 as [A1 A2]. split; [|exact A2]. intros it I. destruct (A1 it I) as [c0 I0]. exists c0. apply KEEP; [exact I0|]. cbn [c_tgt]. lia.
        -- eapply Sh_ext; [|exact S2']. intros a. apply OT. lia.
    + rewrite sums_snoc in K2. unfold sum_of at 2. cbn [set_hcc h_cc]. rewrite SS. exact K2.
    + cbn [set_hcc h_cc]. exact S2.
  - split; [|exact Q]. unfold eu_ok in *. cbn [set_hcc h_cc h_co]. rewrite R2, W2. exact O.
Qed.

End StepF.

Definition F3St (s : st7) : Prop := F3 (st_msi s) (v_eus s).

(* ------------------------------------------------------------------ *)
(* G. the initial state; clause 3                                       *)
(* ------------------------------------------------------------------ *)

Lemma state_get_new : forall id a, state_get msi_new id a = stInvalid.
Proof. reflexivity. Qed.

Lemma init7_F3 : forall par ord app st s, init7 par ord app st = Ok s -> F3St s.
Proof.
  intros par ord app st s H. pose proof (init7_K1 _ _ _ _ _ H) as [K1 O]. pose proof (init7_struct _ _ _ _ _ H) as [_ C].
  unfold F3St. split; [|split; [exact K1|split; [exact C|exact O]]].
  unfold init7 in H. destruct (init3 par ord app st); try discriminate.
  destruct (new_cache l1LineSize l1Size) as [l1d| |] eqn:EC; try discriminate. inv H. unfold st_msi. cbn [v_eus v_w w_i].
  assert (LN : lines l1d = []).
  { unfold new_cache in EC. destruct (l1LineSize =? 0); [discriminate|]. destruct (negb _); [discriminate|]. inv EC. reflexivity. }
  set (cc := mk_cc7 l1d RStart WStart [] [] [] PNil). set (e0 := mk_eu7 HNone [] None 0 cc).
  assert (IDLE : forall n v, nth_error (map v3_of (repeat e0 par)) n = Some v -> v = idle3).
  { intros n v HN. apply nth_error_In in HN. apply in_map_iff in HN as (e & <- & He). apply repeat_spec in He. subst e. reflexivity. }
  split.
  - constructor.
    + intros ? [].
    + intros ? ? ? ? ? ? [].
    + intros ? ? ? ? [].
    + intros ? ? ? ? ? ? ? _ _ _ [].
    + intros ? ? ? ? ? ? _ _ _ [].
    + intros n0 v0 p0 HN P. apply IDLE in HN. subst v0. discriminate.
    + constructor.
    + constructor.
  - intros n e HN. apply nth_error_In in HN. apply repeat_spec in HN. subst e. split.
    + split; [intros it []|constructor].
    + apply Sh_idle; [|reflexivity|reflexivity]. split; [|split].
      * intros a N. exfalso. apply N. reflexivity.
      * intros a _ N. exfalso. apply N. reflexivity.
      * intros a _ HO. exfalso. unfold l1_holds, l1_line in HO. cbn [e0 cc h_cc c_l1d] in HO. rewrite LN in HO. discriminate.
Qed.

Lemma F3_clause3 : forall s, F3St s -> clause3_70 (st_msi s) (v_eus s).
Proof.
  intros s ([_ C] & _) n e a HN AL. unfold core in HN. destruct (C n e HN) as [_ ((S0 & A & B) & _)]. split.
  - intros N. apply A; assumption.
  - intros TR HO. destruct (B a AL HO) as [N|T]; [exact N|]. unfold transfer7 in TR. unfold transfer_cc in T. congruence.
Qed.

(* what the invariant says about the commands in flight, for the record *)
Definition cmds_ok70 (i : msi7) (eus : list eu7) : Prop :=
  (forall t b rq c, In (t, b, rq, c) (i_cmds i) ->
     ((rq = rqEvict /\ state_get i t b = stShared) \/ (rq = rqWriteBack /\ state_get i t b = stModified)) /\
     (forall n e, t = Z.of_nat n -> nth_error eus n = Some e -> tx_line7 e <> Some b)) /\
  (forall n e it, nth_error eus n = Some e -> In it (c_snoop (h_cc e)) -> exists c, In (Z.of_nat n, it_line it, it_rq it, c) (i_cmds i)).

Lemma F3_cmds : forall s, F3St s -> cmds_ok70 (st_msi s) (v_eus s).
Proof.
  intros s ([G C] & _). split.
  - intros t b rq c I. split; [exact (g1 _ _ G _ I)|]. intros n e E HN.
    apply (g2 _ _ G _ _ _ _ n (v3_of e) I E). apply map_nth_error. exact HN.
  - intros n e it HN I. destruct (C n e HN) as [[A _] _]. apply A. exact I.
Qed.
