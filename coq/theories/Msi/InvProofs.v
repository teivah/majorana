(* C06 - Inv (Msi/Invariant.v) is an inductive invariant of the machine of
   Msi/Protocol.v: it holds initially and every transition preserves it, given
   that a lock transition finds no outstanding command for (requester, line).
   With guarded = true that is a premise of the transition (and flush may be
   the repaired one); for the code as it is (guarded = false, no flush) it is
   derived in Msi/CodedProofs.v. *)
From Coq Require Import List ZArith Lia Bool Arith.
From Maj Require Import Msi.Protocol Msi.Invariant.
Import ListNotations.
Open Scope Z_scope.

(* ---- pointwise updates ---- *)
Lemma upd_same {A} (f : nat -> A) i x : upd f i x i = x.
Proof. unfold upd. now rewrite Nat.eqb_refl. Qed.
Lemma upd_other {A} (f : nat -> A) i x j : j <> i -> upd f i x j = f j.
Proof. unfold upd. intros. destruct (Nat.eqb_spec j i); congruence. Qed.
Lemma updl_same {A} (f : line -> A) l x : updl f l x l = x.
Proof. unfold updl. now rewrite Z.eqb_refl. Qed.
Lemma updl_other {A} (f : line -> A) l x k : k <> l -> updl f l x k = f k.
Proof. unfold updl. intros. destruct (Z.eqb_spec k l); congruence. Qed.
Lemma upd2_same {A} (f : nat -> line -> A) i l x : upd2 f i l x i l = x.
Proof. unfold upd2. now rewrite Nat.eqb_refl, Z.eqb_refl. Qed.
Lemma upd2_other_core {A} (f : nat -> line -> A) i l x j k : j <> i -> upd2 f i l x j k = f j k.
Proof. unfold upd2. intros. destruct (Nat.eqb_spec j i); [congruence|reflexivity]. Qed.
Lemma upd2_other_line {A} (f : nat -> line -> A) i l x j k : k <> l -> upd2 f i l x j k = f j k.
Proof. unfold upd2. intros. destruct (Z.eqb_spec k l); [congruence|]. now rewrite andb_false_r. Qed.
Lemma upd2_line {A} (f : nat -> line -> A) i l x j : upd2 f i l x j l = upd (fun j => f j l) i x j.
Proof. unfold upd2, upd. rewrite Z.eqb_refl, andb_true_r. reflexivity. Qed.

(* ---- phases and lines ---- *)
Lemma on_line_iff p l : on_line p l = true <-> tx_line p = Some l.
Proof.
  unfold on_line. destruct (tx_line p) as [k|]; split; intros H; try discriminate.
  - apply Z.eqb_eq in H. now subst.
  - inversion H. apply Z.eqb_refl.
Qed.
Lemma on_line_false p l k : tx_line p = Some k -> k <> l -> on_line p l = false.
Proof. unfold on_line. intros -> H. now apply Z.eqb_neq. Qed.
Lemma on_line_idle l : on_line Idle l = false.
Proof. reflexivity. Qed.
Lemma rd_on_line p l : rd_on p l = true -> on_line p l = true.
Proof. unfold rd_on. intros H. now apply andb_true_iff in H. Qed.
Lemma wr_on_line p l : wr_on p l = true -> on_line p l = true.
Proof. unfold wr_on. intros H. now apply andb_true_iff in H. Qed.
Lemma on_line_rd_or_wr p l : on_line p l = true -> rd_on p l = true \/ wr_on p l = true.
Proof. unfold rd_on, wr_on. intros H. rewrite H. destruct p; simpl; auto. Qed.
Lemma rd_wr_excl p l : rd_on p l = true -> wr_on p l = true -> False.
Proof. unfold rd_on, wr_on. destruct p; simpl; intros; discriminate. Qed.
Lemma off_line_rd p l : on_line p l = false -> rd_on p l = false.
Proof. unfold rd_on. intros ->. apply andb_false_r. Qed.
Lemma off_line_wr p l : on_line p l = false -> wr_on p l = false.
Proof. unfold wr_on. intros ->. apply andb_false_r. Qed.
Lemma rd_on_intro p l : is_rd p = true -> tx_line p = Some l -> rd_on p l = true.
Proof. unfold rd_on. intros -> H. now apply on_line_iff. Qed.
Lemma wr_on_intro p l : is_wr p = true -> tx_line p = Some l -> wr_on p l = true.
Proof. unfold wr_on. intros -> H. now apply on_line_iff. Qed.

(* ---- the commands a request sends: each is new only for a core in the
        matching protocol state ---- *)
Lemma req_read_spec s i l j k :
  req_read s i l j k = cm s j k \/ (k = l /\ j <> i /\ req_read s i l j k = Wb /\ ms s j l = M).
Proof.
  unfold req_read. destruct (Z.eqb_spec k l), (Nat.eqb_spec j i); simpl; auto.
  destruct (ms s j l); auto.
Qed.
Lemma req_write_spec s i l j k :
  req_write s i l j k = cm s j k \/
  (k = l /\ j <> i /\ req_write s i l j k <> NoCmd /\ cmd_matches (req_write s i l j k) (ms s j l)).
Proof.
  unfold req_write. destruct (Z.eqb_spec k l), (Nat.eqb_spec j i); simpl; auto.
  destruct (ms s j l); auto; right; repeat split; auto; discriminate.
Qed.
Lemma req_victim_spec s i vic j k :
  req_victim s i vic j k = cm s j k \/
  (j = i /\ vic = Some k /\ req_victim s i vic j k <> NoCmd /\ cmd_matches (req_victim s i vic j k) (ms s i k)).
Proof.
  unfold req_victim. destruct vic as [a|]; auto. unfold upd2.
  destruct (ms s i a) eqn:Em; auto; destruct (Nat.eqb_spec j i), (Z.eqb_spec k a); simpl; subst; auto;
    right; rewrite Em; repeat split; auto; discriminate.
Qed.

Section Proofs.
Variable N : nat.
Notation count := (count N).
Notation InvL := (InvL N).
Notation Inv := (Inv N).
Notation others_I := (others_I N).
Notation others_not_M := (others_not_M N).

(* ---- counting ---- *)
Lemma count_ext f g : (forall i, (i < N)%nat -> f i = g i) -> count f = count g.
Proof.
  intros H. unfold Invariant.count. do 2 f_equal. apply filter_ext_in.
  intros a Ha. apply in_seq in Ha. apply H. lia.
Qed.

Lemma filter_same (f g : nat -> bool) i l : ~ In i l -> (forall j, j <> i -> g j = f j) ->
  filter g l = filter f l.
Proof. intros Hn Hg. apply filter_ext_in. intros a Ha. apply Hg. intro; subst; auto. Qed.

Lemma filter_upd_len (f g : nat -> bool) i l : NoDup l -> In i l ->
  (forall j, j <> i -> g j = f j) ->
  (length (filter g l) + Nat.b2n (f i) = length (filter f l) + Nat.b2n (g i))%nat.
Proof.
  intros Hnd Hin Hg. induction l as [|a l IH]; [destruct Hin|].
  inversion Hnd as [|? ? Hna Hnd']; subst. simpl.
  destruct (Nat.eq_dec a i) as [->|Hne].
  - rewrite (filter_same f g i l Hna Hg).
    destruct (f i), (g i); simpl; lia.
  - destruct Hin as [Heq|Hin]; [congruence|].
    specialize (IH Hnd' Hin). rewrite (Hg a Hne).
    destruct (f a); simpl; lia.
Qed.

Lemma count_upd_gen (f g : nat -> bool) i : (i < N)%nat ->
  (forall j, j <> i -> g j = f j) ->
  count g + b2z (f i) = count f + b2z (g i).
Proof.
  intros Hi Hg. unfold Invariant.count.
  pose proof (filter_upd_len f g i (seq 0 N) (seq_NoDup N 0)) as H.
  assert (Hin : In i (seq 0 N)) by (apply in_seq; lia).
  specialize (H Hin Hg). destruct (f i), (g i); simpl in *; lia.
Qed.

Lemma count_pos f i : (i < N)%nat -> f i = true -> 1 <= count f.
Proof.
  intros Hi Hf. unfold Invariant.count.
  assert (In i (filter f (seq 0 N))). { apply filter_In. split; auto. apply in_seq. lia. }
  destruct (filter f (seq 0 N)); simpl in *; [tauto | lia].
Qed.

Lemma count_nonneg f : 0 <= count f.
Proof. unfold Invariant.count. lia. Qed.

Lemma count_false f : (forall i, (i < N)%nat -> f i = false) -> count f = 0.
Proof.
  intros H. rewrite (count_ext f (fun _ => false) H). unfold Invariant.count.
  induction (seq 0 N); simpl; auto.
Qed.

(* ---- consequences of the invariant on one line ---- *)
Section Line.
Variables (s : st) (l : line).
Hypothesis I0 : InvL s l.

Lemma rc_nonneg : 0 <= rc s l.
Proof. rewrite (sem_r _ _ _ I0). apply count_nonneg. Qed.
Lemma wc_nonneg : 0 <= wc s l.
Proof. rewrite (sem_w _ _ _ I0). apply count_nonneg. Qed.

Lemma no_writer j : wc s l = 0 -> (j < N)%nat -> wr_on (ph s j) l = false.
Proof.
  intros Hw Hj. destruct (wr_on (ph s j) l) eqn:E; auto.
  pose proof (count_pos (fun i => wr_on (ph s i) l) j Hj E) as H.
  rewrite (sem_w _ _ _ I0) in Hw. lia.
Qed.

Lemma no_reader j : rc s l = 0 -> (j < N)%nat -> rd_on (ph s j) l = false.
Proof.
  intros Hr Hj. destruct (rd_on (ph s j) l) eqn:E; auto.
  pose proof (count_pos (fun i => rd_on (ph s i) l) j Hj E) as H.
  rewrite (sem_r _ _ _ I0) in Hr. lia.
Qed.

Lemma writer_excl i : (i < N)%nat -> wr_on (ph s i) l = true -> wc s l = 1 /\ rc s l = 0.
Proof.
  intros Hi E. pose proof (count_pos (fun k => wr_on (ph s k) l) i Hi E) as H.
  destruct (sem_x _ _ _ I0) as [Hle Hx].
  assert (Hw : wc s l = 1) by (rewrite (sem_w _ _ _ I0) in *; lia).
  split; auto.
Qed.

Lemma reader_pos i : (i < N)%nat -> rd_on (ph s i) l = true -> 1 <= rc s l.
Proof. intros Hi E. rewrite (sem_r _ _ _ I0). apply (count_pos _ i Hi E). Qed.

Lemma reader_writer i k : (i < N)%nat -> (k < N)%nat ->
  rd_on (ph s i) l = true -> wr_on (ph s k) l = true -> False.
Proof.
  intros Hi Hk Ei Ek. pose proof (reader_pos i Hi Ei). destruct (writer_excl k Hk Ek). lia.
Qed.

Lemma two_writers i k : (i < N)%nat -> (k < N)%nat -> i <> k ->
  wr_on (ph s i) l = true -> wr_on (ph s k) l = true -> False.
Proof.
  intros Hi Hk Hne Ei Ek.
  pose proof (count_upd_gen (fun j => wr_on (ph s j) l)
                (fun j => if Nat.eqb j i then false else wr_on (ph s j) l) i Hi) as Hc.
  simpl in Hc. rewrite Nat.eqb_refl, Ei in Hc. simpl in Hc.
  assert (1 <= count (fun j => if Nat.eqb j i then false else wr_on (ph s j) l)).
  { apply (count_pos _ k Hk). destruct (Nat.eqb_spec k i); [congruence|exact Ek]. }
  destruct (sem_x _ _ _ I0) as [Hle _]. rewrite (sem_w _ _ _ I0) in Hle.
  specialize (Hc ltac:(intros j Hj; destruct (Nat.eqb_spec j i); [congruence|reflexivity])). lia.
Qed.

(* a core that is on the line is a reader or a writer of its semaphore *)
Lemma only_writer i j : (i < N)%nat -> (j < N)%nat -> j <> i ->
  wr_on (ph s i) l = true -> on_line (ph s j) l = false.
Proof.
  intros Hi Hj Hne Ei. destruct (on_line (ph s j) l) eqn:E; auto. exfalso.
  destruct (on_line_rd_or_wr _ _ E) as [Er|Ew].
  - exact (reader_writer j i Hj Hi Er Ei).
  - exact (two_writers i j Hi Hj ltac:(congruence) Ei Ew).
Qed.

Lemma view_on i : (i < N)%nat -> on_line (ph s i) l = true ->
  cm s i l = NoCmd /\ phase_view (ph s i) (ms s i l) (l1 s i l).
Proof. intros Hi E. pose proof (phases _ _ _ I0 i Hi) as P. unfold own_ok in P. now rewrite E in P. Qed.

Lemma view_off i : (i < N)%nat -> on_line (ph s i) l = false ->
  (l1 s i l <> None <-> ms s i l <> I).
Proof. intros Hi E. pose proof (phases _ _ _ I0 i Hi) as P. unfold own_ok in P. now rewrite E in P. Qed.

Lemma M_on_is_writer j : (j < N)%nat -> ms s j l = M -> on_line (ph s j) l = true -> wr_on (ph s j) l = true.
Proof.
  intros Hj Hm E. destruct (view_on j Hj E) as [_ V]. unfold wr_on. rewrite E, andb_true_r.
  destruct (ph s j); simpl in *; auto; destruct V; congruence.
Qed.

Lemma rd_not_M i : (i < N)%nat -> rd_on (ph s i) l = true -> ms s i l <> M.
Proof.
  intros Hi E Em. destruct (view_on i Hi (rd_on_line _ _ E)) as [_ V]. rewrite Em in V.
  unfold rd_on in E. destruct (ph s i); simpl in *; try discriminate; destruct V; discriminate.
Qed.

Lemma M_idle j : wc s l = 0 -> (j < N)%nat -> ms s j l = M -> on_line (ph s j) l = false.
Proof.
  intros Hw Hj Hm. destruct (on_line (ph s j) l) eqn:E; auto.
  pose proof (M_on_is_writer j Hj Hm E). pose proof (no_writer j Hw Hj). congruence.
Qed.

Lemma free_line_off j : wc s l = 0 -> rc s l = 0 -> (j < N)%nat -> on_line (ph s j) l = false.
Proof.
  intros Hw Hr Hj. destruct (on_line (ph s j) l) eqn:E; auto.
  destruct (on_line_rd_or_wr _ _ E) as [X|X].
  - pose proof (no_reader j Hr Hj). congruence.
  - pose proof (no_writer j Hw Hj). congruence.
Qed.

Lemma cmd_off j : (j < N)%nat -> cm s j l <> NoCmd -> on_line (ph s j) l = false.
Proof.
  intros Hj Hc. destruct (on_line (ph s j) l) eqn:E; auto.
  destruct (view_on j Hj E). congruence.
Qed.

Lemma cmd_nonI j : (j < N)%nat -> cm s j l <> NoCmd -> ms s j l <> I.
Proof.
  intros Hj Hc. pose proof (cmd_kind _ _ _ I0 j Hj) as K. unfold cmd_matches in K.
  destruct (cm s j l); congruence.
Qed.

Lemma cmd_present j : (j < N)%nat -> cm s j l <> NoCmd -> l1 s j l <> None.
Proof. intros Hj Hc. apply (view_off j Hj (cmd_off j Hj Hc)). now apply cmd_nonI. Qed.

Lemma swmr_others_notM i : (i < N)%nat -> ms s i l <> I -> others_not_M s i l.
Proof. intros Hi Hn j Hj Hne Hm. apply Hn. apply (swmr _ _ _ I0 j i); auto. Qed.

Lemma swmr_others_I i : (i < N)%nat -> ms s i l = M -> others_I s i l.
Proof. intros Hi Hm j Hj Hne. apply (swmr _ _ _ I0 i j); auto. Qed.

End Line.

(* ---- a state that agrees with an invariant state on everything about line l ---- *)
Definition pview (p : phase) (l : line) : option phase := if on_line p l then Some p else None.

Lemma pview_eq p q l : pview p l = pview q l -> p = q \/ (on_line p l = false /\ on_line q l = false).
Proof. unfold pview. destruct (on_line p l), (on_line q l); intros H; auto; inversion H; auto. Qed.
Lemma pview_rd p q l : pview p l = pview q l -> rd_on p l = rd_on q l.
Proof. intros H. destruct (pview_eq _ _ _ H) as [->|[A B]]; auto. now rewrite !off_line_rd. Qed.
Lemma pview_wr p q l : pview p l = pview q l -> wr_on p l = wr_on q l.
Proof. intros H. destruct (pview_eq _ _ _ H) as [->|[A B]]; auto. now rewrite !off_line_wr. Qed.
Lemma pview_is p q l : pview p l = pview q l -> tx_line p = Some l -> p = q.
Proof. intros H E. destruct (pview_eq _ _ _ H) as [->|[A _]]; auto. apply on_line_iff in E. congruence. Qed.

Lemma pview_upd_off (f : nat -> phase) i p' l j :
  on_line (f i) l = false -> on_line p' l = false -> pview (upd f i p' j) l = pview (f j) l.
Proof.
  intros A B. unfold upd. destruct (Nat.eqb_spec j i); subst; auto.
  unfold pview. now rewrite A, B.
Qed.

Lemma own_ok_pview p q l m b c : pview p l = pview q l -> own_ok q l m b c -> own_ok p l m b c.
Proof. intros H. destruct (pview_eq _ _ _ H) as [->|[A B]]; auto. unfold own_ok. now rewrite A, B. Qed.

(* ---- no core moves on line l: each core keeps its state and L1 entry for l,
        with its command or - not being on the line - with a new command that
        matches its state; or, not being on the line, it drops the line and its
        command.  The next level may change while some core is Modified: then no
        core is Shared and none is reading the line in ---- *)
Lemma invL_still s s' l :
  (forall j, (j < N)%nat -> pview (ph s' j) l = pview (ph s j) l) ->
  rc s' l = rc s l -> wc s' l = wc s l ->
  (forall j, (j < N)%nat ->
     (ms s' j l = ms s j l /\ l1 s' j l = l1 s j l /\
      (cm s' j l = cm s j l \/ (on_line (ph s j) l = false /\ cmd_matches (cm s' j l) (ms s j l)))) \/
     (on_line (ph s j) l = false /\ ms s' j l = I /\ l1 s' j l = None /\ cm s' j l = NoCmd)) ->
  (mem s' l = mem s l \/ exists j, (j < N)%nat /\ ms s j l = M) ->
  InvL s l -> InvL s' l.
Proof.
  intros Hp Hr Hw Hcore Hmem I0. pose proof I0 as [A B C D E F G H1 H2 H3 H4].
  assert (Hph : forall j q, (j < N)%nat -> ph s' j = q -> tx_line q = Some l -> ph s j = q).
  { intros j q Hj Hq Hq'. rewrite <- Hq. symmetry. apply (pview_is _ _ l (Hp j Hj)). now rewrite Hq. }
  assert (Hms : forall j, (j < N)%nat -> ms s' j l = ms s j l \/ ms s' j l = I).
  { intros j Hj. destruct (Hcore j Hj) as [[X _]|[_ [X _]]]; auto. }
  assert (HnM : forall i, others_not_M s i l -> others_not_M s' i l).
  { intros i X j Hj Hne. destruct (Hms j Hj) as [-> | ->]; [now apply X|discriminate]. }
  assert (HoI : forall i, others_I s i l -> others_I s' i l).
  { intros i X j Hj Hne. destruct (Hms j Hj) as [-> | ->]; [now apply X|reflexivity]. }
  assert (Hmem' : forall i, (i < N)%nat -> ms s i l <> M -> others_not_M s i l -> mem s' l = mem s l).
  { intros i Hi Hn X. destruct Hmem as [|[j [Hj Em]]]; auto. exfalso.
    destruct (Nat.eq_dec j i) as [->|Hne]; [contradiction|exact (X j Hj Hne Em)]. }
  assert (Hon : forall i, (i < N)%nat -> on_line (ph s i) l = true -> ms s' i l = ms s i l /\ l1 s' i l = l1 s i l).
  { intros i Hi Eo. destruct (Hcore i Hi) as [[X [Y _]]|[Eo' _]]; [auto|congruence]. }
  constructor.
  - intros i j Hi Hj Em Hne. destruct (Hms i Hi) as [X|X]; [|congruence]. rewrite X in Em.
    destruct (Hms j Hj) as [-> | ->]; [now apply (A i j)|reflexivity].
  - intros i Hi Es. destruct (Hcore i Hi) as [[X [Y _]]|[_ [X _]]]; [|congruence]. rewrite X in Es.
    rewrite Y, (B i Hi Es). f_equal. symmetry. apply (Hmem' i Hi); [congruence|].
    apply swmr_others_notM; auto. congruence.
  - intros i Hi. apply (own_ok_pview _ _ _ _ _ _ (Hp i Hi)). specialize (C i Hi).
    destruct (Hcore i Hi) as [[-> [-> [-> |[Eo _]]]]|[Eo [-> [-> ->]]]]; auto; unfold own_ok in *; rewrite Eo in *; auto.
    split; congruence.
  - rewrite Hr, D. apply count_ext. intros i Hi. symmetry. now apply pview_rd, Hp.
  - rewrite Hw, E. apply count_ext. intros i Hi. symmetry. now apply pview_wr, Hp.
  - now rewrite Hr, Hw.
  - intros j Hj. destruct (Hcore j Hj) as [[-> [_ [-> |[_ K]]]]|[_ [_ [_ ->]]]]; auto. exact Logic.I.
  - intros i v Hi Hq. apply (Hph i _ Hi) in Hq; [|reflexivity]. destruct (H1 i v Hi Hq) as [X Y].
    rewrite (Hmem' i Hi); auto. apply (rd_not_M s l I0 i Hi). rewrite Hq. now apply rd_on_intro.
  - intros i vic Hi Hq. apply (Hph i _ Hi) in Hq; [|reflexivity]. destruct (H2 i vic Hi Hq) as [X Y].
    assert (Erd : rd_on (ph s i) l = true) by (rewrite Hq; now apply rd_on_intro).
    destruct (Hon i Hi (rd_on_line _ _ Erd)) as [_ ->]. rewrite (Hmem' i Hi); auto. now apply (rd_not_M s l I0 i Hi).
  - intros i v Hi Hq. apply (Hph i _ Hi) in Hq; [|reflexivity]. eauto.
  - intros i vic Hi Hq. apply (Hph i _ Hi) in Hq; [|reflexivity]. eauto.
Qed.

Lemma invL_frame_cmds s s' l :
  (forall j, (j < N)%nat -> ms s' j l = ms s j l) ->
  (forall j, (j < N)%nat -> l1 s' j l = l1 s j l) ->
  (forall j, (j < N)%nat -> cm s' j l = cm s j l \/
     (on_line (ph s j) l = false /\ cmd_matches (cm s' j l) (ms s j l))) ->
  (forall j, (j < N)%nat -> pview (ph s' j) l = pview (ph s j) l) ->
  mem s' l = mem s l -> rc s' l = rc s l -> wc s' l = wc s l ->
  InvL s l -> InvL s' l.
Proof. intros Hm Hl Hc Hp Hmem Hr Hw. apply invL_still; auto. Qed.

Lemma invL_frame s s' l :
  (forall j, (j < N)%nat -> ms s' j l = ms s j l) ->
  (forall j, (j < N)%nat -> l1 s' j l = l1 s j l) ->
  (forall j, (j < N)%nat -> cm s' j l = cm s j l) ->
  (forall j, (j < N)%nat -> pview (ph s' j) l = pview (ph s j) l) ->
  mem s' l = mem s l -> rc s' l = rc s l -> wc s' l = wc s l ->
  InvL s l -> InvL s' l.
Proof. intros Hm Hl Hc. apply invL_frame_cmds; auto. Qed.

(* what the fetched and filled phases of core i on line l promise (the last
   four clauses of InvL, for one core, with b its L1 entry for l) *)
Definition fetched_ok (s : st) (i : nat) (l : line) (p : phase) (b : option val) : Prop :=
  match p with
  | RdFetched k v => k = l -> v = mem s l /\ others_not_M s i l
  | RdFilled k _ => k = l -> b = Some (mem s l) /\ others_not_M s i l
  | WrFetched k _ | WrFilled k _ => k = l -> others_I s i l
  | _ => True
  end.

(* ---- core i moves between phases on line l (or Idle), possibly
        changing its own state / L1 entry for l and the counters of l, and
        sending commands for l to other cores that are not on it.
        The premises, in order: what s' is on line l (state, L1, phases,
        commands, next level); the counters of l follow the phase of i (b2z of
        rd_on / wr_on: 1 while the phase holds the counter) and stay exclusive;
        then the clauses of InvL for core i in its new phase p', state m' and
        entry b'.  The last premise is for the OTHER cores' fetched / filled
        phases, which promise "no other core Modified" to a reader and "every
        other core Invalid" to a writer: the state of i does not change, or no
        other core is writing l (nor, if i becomes Modified, reading it). ---- *)
Lemma invL_local s s' i l p' m' b' :
  InvL s l -> (i < N)%nat ->
  (forall j, ms s' j l = upd (fun j => ms s j l) i m' j) ->
  (forall j, l1 s' j l = upd (fun j => l1 s j l) i b' j) ->
  (forall j, ph s' j = upd (ph s) i p' j) ->
  cm s' i l = cm s i l ->
  (forall j, (j < N)%nat -> j <> i -> cm s' j l = cm s j l \/
     (on_line (ph s j) l = false /\ cmd_matches (cm s' j l) (ms s j l))) ->
  mem s' l = mem s l ->
  rc s' l + b2z (rd_on (ph s i) l) = rc s l + b2z (rd_on p' l) ->
  wc s' l + b2z (wr_on (ph s i) l) = wc s l + b2z (wr_on p' l) ->
  (wc s' l <= 1 /\ (wc s' l = 1 -> rc s' l = 0)) ->
  own_ok p' l m' b' (cm s i l) ->
  (m' = M -> others_I s i l) ->
  (m' <> I -> others_not_M s i l) ->
  (m' = S -> b' = Some (mem s l)) ->
  cmd_matches (cm s i l) m' ->
  fetched_ok s i l p' b' ->
  (m' = ms s i l \/
   forall k, (k < N)%nat -> k <> i -> (m' = M -> rd_on (ph s k) l = false) /\ wr_on (ph s k) l = false) ->
  InvL s' l.
Proof.
  intros I0 Hi Hms Hl1 Hph Hcmi Hcm Hmem Hr Hw Hx Hown HM HnI HS Hcmd Hfo Hoth.
  pose proof I0 as [A B C D E F G H1 H2 H3 H4].
  (* a reader (writer) other than i still sees no other core Modified (valid) *)
  assert (HnM : forall k, (k < N)%nat -> k <> i -> rd_on (ph s k) l = true ->
                others_not_M s k l -> others_not_M s' k l).
  { intros k Hk Hne Erd X j Hj Hjk. rewrite Hms. unfold upd. destruct (Nat.eqb_spec j i) as [->|]; auto.
    destruct Hoth as [->|Ho]; auto. intro Em. destruct (Ho k Hk Hne) as [Y _]. rewrite (Y Em) in Erd. discriminate. }
  assert (HoI : forall k, (k < N)%nat -> k <> i -> wr_on (ph s k) l = true ->
                others_I s k l -> others_I s' k l).
  { intros k Hk Hne Ewr X j Hj Hjk. rewrite Hms. unfold upd. destruct (Nat.eqb_spec j i) as [->|]; auto.
    destruct Hoth as [->|Ho]; auto. destruct (Ho k Hk Hne) as [_ Y]. rewrite Y in Ewr. discriminate. }
  assert (HnMi : others_not_M s i l -> others_not_M s' i l).
  { intros X j Hj Hne. rewrite Hms, upd_other by auto. now apply X. }
  assert (HoIi : others_I s i l -> others_I s' i l).
  { intros X j Hj Hne. rewrite Hms, upd_other by auto. now apply X. }
  constructor.
  - intros a b Ha Hb. rewrite !Hms. unfold upd.
    destruct (Nat.eqb_spec a i) as [->|Hai]; destruct (Nat.eqb_spec b i) as [->|Hbi]; intros Hma Hne;
      try congruence.
    + apply HM; auto.
    + destruct m' eqn:Em; auto; exfalso; apply (HnI ltac:(discriminate) a Ha Hai Hma).
    + apply A with a; auto.
  - intros a Ha. rewrite Hms, Hl1, Hmem. unfold upd. destruct (Nat.eqb_spec a i) as [->|Hai]; auto.
  - intros a Ha. rewrite Hms, Hl1, Hph. unfold upd. destruct (Nat.eqb_spec a i) as [->|Hai]; [now rewrite Hcmi|].
    specialize (C a Ha). destruct (Hcm a Ha Hai) as [->|[Eo _]]; auto.
    unfold own_ok in *. now rewrite Eo in *.
  - pose proof (count_upd_gen (fun j => rd_on (ph s j) l) (fun j => rd_on (ph s' j) l) i Hi) as Hc.
    simpl in Hc. rewrite Hph, upd_same in Hc.
    specialize (Hc ltac:(intros j Hj; rewrite Hph, upd_other by auto; reflexivity)). lia.
  - pose proof (count_upd_gen (fun j => wr_on (ph s j) l) (fun j => wr_on (ph s' j) l) i Hi) as Hc.
    simpl in Hc. rewrite Hph, upd_same in Hc.
    specialize (Hc ltac:(intros j Hj; rewrite Hph, upd_other by auto; reflexivity)). lia.
  - exact Hx.
  - intros j Hj. rewrite Hms. unfold upd. destruct (Nat.eqb_spec j i) as [->|Hne]; [now rewrite Hcmi|].
    destruct (Hcm j Hj Hne) as [->|[_ K]]; auto.
  - intros a v Ha. rewrite Hph. unfold upd. destruct (Nat.eqb_spec a i) as [->|Hai]; intros Hq.
    + rewrite Hq in Hfo. destruct (Hfo eq_refl). rewrite Hmem. auto.
    + destruct (H1 a v Ha Hq) as [X Y]. rewrite Hmem. split; auto.
      apply (HnM a); auto. rewrite Hq. now apply rd_on_intro.
  - intros a vic Ha. rewrite Hph, Hl1, Hmem. unfold upd. destruct (Nat.eqb_spec a i) as [->|Hai]; intros Hq.
    + rewrite Hq in Hfo. destruct (Hfo eq_refl). auto.
    + destruct (H2 a vic Ha Hq) as [X Y]. split; auto.
      apply (HnM a); auto. rewrite Hq. now apply rd_on_intro.
  - intros a v Ha. rewrite Hph. unfold upd. destruct (Nat.eqb_spec a i) as [->|Hai]; intros Hq.
    + rewrite Hq in Hfo. auto.
    + apply (HoI a); auto; [rewrite Hq; now apply wr_on_intro|exact (H3 a v Ha Hq)].
  - intros a vic Ha. rewrite Hph. unfold upd. destruct (Nat.eqb_spec a i) as [->|Hai]; intros Hq.
    + rewrite Hq in Hfo. auto.
    + apply (HoI a); auto; [rewrite Hq; now apply wr_on_intro|exact (H4 a vic Ha Hq)].
Qed.

End Proofs.
