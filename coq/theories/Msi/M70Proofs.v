(* C06 about the faithful model of MVP-7.0, part 1: the STRUCTURAL part of the invariant
   (clause 4: no address covered by two L1 lines, aligned full lines; clause 5: lock counters; directory states in
   range) holds in EVERY state reachable by step7 - pipeline flushes included - because each operation of the
   cache controller, of the directory and of comp.LRUCache preserves it locally.
   Main results: step7_struct, reach7_struct. *)
From Coq Require Import ZArith List Bool Lia.
From Maj Require Import Comp.MapFacts.
From Maj Require Import Base.Outcome Base.GoInt Base.GoTypes Isa.Spec Isa.Seq.
From Maj Require Import Gen.Latency Gen.RiscTables Gen.Opcodes Comp.Cache Comp.Rat Comp.RatProofs Mvp.Mvp12 Mvp.Mvp3 Mvp.Mvp5 Mvp.Mvp60 Mvp.Mvp63 Mvp.Mvp63Proofs Mvp.Mvp70 Mvp.Mvp70Proofs.
From Maj Require Import Msi.M70Inv Msi.M70Frame.
Import ListNotations.
Open Scope Z_scope.

(* ------------------------------------------------------------------ *)
(* lists                                                                *)
(* ------------------------------------------------------------------ *)

Lemma cnt_nil {A} (f : A -> bool) : cnt f [] = 0.
Proof. reflexivity. Qed.
Lemma cnt_cons {A} (f : A -> bool) x l : cnt f (x :: l) = (if f x then 1 else 0) + cnt f l.
Proof. unfold cnt. cbn [filter]. destruct (f x); cbn [length]; lia. Qed.
Lemma cnt_app {A} (f : A -> bool) l1 l2 : cnt f (l1 ++ l2) = cnt f l1 + cnt f l2.
Proof. unfold cnt. rewrite filter_app, app_length. lia. Qed.
Lemma cnt_nonneg {A} (f : A -> bool) l : 0 <= cnt f l.
Proof. unfold cnt. lia. Qed.
Lemma cnt_zero {A} (f : A -> bool) l : (forall x, In x l -> f x = false) -> cnt f l = 0.
Proof.
  induction l as [|x t IH]; intros H; [reflexivity|]. rewrite cnt_cons, IH.
  - rewrite (H x (or_introl eq_refl)). reflexivity.
  - intros y Hy. apply H. right. exact Hy.
Qed.
Lemma cnt_zero_inv {A} (f : A -> bool) l : cnt f l = 0 -> forall x, In x l -> f x = false.
Proof.
  induction l as [|x t IH]; intros H y Hy; [destruct Hy|]. rewrite cnt_cons in H.
  pose proof (cnt_nonneg f t). destruct Hy as [->|Hy].
  - destruct (f y); [lia|reflexivity].
  - apply IH; [|exact Hy]. destruct (f x); lia.
Qed.
Lemma cnt_le {A} (f g : A -> bool) l : (forall x, In x l -> f x = true -> g x = true) -> cnt f l <= cnt g l.
Proof.
  induction l as [|x t IH]; intros H; [reflexivity|]. rewrite !cnt_cons.
  assert (cnt f t <= cnt g t) by (apply IH; intros y Hy; apply H; right; exact Hy).
  destruct (f x) eqn:E; [rewrite (H x (or_introl eq_refl) E); lia|]. destruct (g x); lia.
Qed.

(* ------------------------------------------------------------------ *)
(* comp.LRUCache                                                        *)
(* ------------------------------------------------------------------ *)

Lemma line_get_covers : forall l a r, line_get l a = Ok r -> (r <> None <-> covers_b l a = true).
Proof.
  intros l a r H. unfold line_get, covers_b in *. destruct ((lo l <=? a) && (a <? hi l)).
  - apply bind_ok in H as (v & _ & H). inversion H. split; [reflexivity|discriminate].
  - inversion H. split; [congruence|discriminate].
Qed.

Lemma find_line_some : forall ls a v l rest, find_line ls a = Ok (Some (v, l, rest)) ->
  exists pre post, ls = pre ++ l :: post /\ rest = pre ++ post /\ covers_b l a = true /\
                   (forall l', In l' pre -> covers_b l' a = false).
Proof.
  induction ls as [|l0 t IH]; intros a v l rest H; cbn [find_line] in H; [discriminate|].
  apply bind_ok in H as (r & E & H). pose proof (line_get_covers _ _ _ E) as C. destruct r as [v0|].
  - inversion H; subst. exists [], rest. repeat split; [|intros l' []]. apply C. discriminate.
  - apply bind_ok in H as (r' & E' & H). destruct r' as [[[v1 l1] t1]|]; [|discriminate].
    inversion H; subst. destruct (IH _ _ _ _ E') as (pre & post & -> & -> & Hc & Hp).
    exists (l0 :: pre), post. repeat split; [exact Hc|].
    intros l' [E0|Hl]; [subst l'|apply Hp; exact Hl].
    destruct (covers_b l0 a); [|reflexivity]. exfalso. apply (proj2 C eq_refl). reflexivity.
Qed.

Lemma find_line_none : forall ls a, find_line ls a = Ok None -> forall l, In l ls -> covers_b l a = false.
Proof.
  induction ls as [|l0 t IH]; intros a H l Hl; [destruct Hl|]. cbn [find_line] in H.
  apply bind_ok in H as (r & E & H). pose proof (line_get_covers _ _ _ E) as C. destruct r as [v0|]; [discriminate|].
  apply bind_ok in H as (r' & E' & H). destruct r' as [[[v1 l1] t1]|]; [discriminate|].
  destruct Hl as [<-|Hl]; [|eapply IH; eauto].
  destruct (covers_b l0 a); [|reflexivity]. exfalso. apply (proj2 C eq_refl). reflexivity.
Qed.

(* the views agree with find_line *)
Lemma l1_line_app : forall pre l post a, (forall l', In l' pre -> covers_b l' a = false) -> covers_b l a = true ->
  find (fun l => covers_b l a) (pre ++ l :: post) = Some l.
Proof.
  induction pre as [|p t IH]; intros l post a Hp Hc; cbn [app find].
  - rewrite Hc. reflexivity.
  - rewrite (Hp p (or_introl eq_refl)). apply IH; [|exact Hc]. intros l' Hl. apply Hp. right. exact Hl.
Qed.
Lemma find_none_all {A} (f : A -> bool) l : (forall x, In x l -> f x = false) -> find f l = None.
Proof.
  induction l as [|x t IH]; intros H; [reflexivity|]. cbn [find]. rewrite (H x (or_introl eq_refl)).
  apply IH. intros y Hy. apply H. right. exact Hy.
Qed.

Lemma find_line_some_view : forall c a v l rest, find_line (lines c) a = Ok (Some (v, l, rest)) -> l1_line c a = Some l.
Proof.
  intros c a v l rest H. destruct (find_line_some _ _ _ _ _ H) as (pre & post & E & _ & Hc & Hp).
  unfold l1_line. rewrite E. apply l1_line_app; assumption.
Qed.
Lemma find_line_none_view : forall c a, find_line (lines c) a = Ok None -> l1_line c a = None.
Proof. intros c a H. unfold l1_line. apply find_none_all. apply find_line_none. exact H. Qed.

(* ---- well-formedness ---- *)

Definition lines_wf (ls : list line) : Prop :=
  (forall x, cnt (fun l => covers_b l x) ls <= 1) /\ (forall l, In l ls -> line_wf l).

Lemma l1_wf_lines : forall c, l1_wf c <-> llen c = l1LineSize /\ lines_wf (lines c).
Proof. intros c. unfold l1_wf, lines_wf. tauto. Qed.

Lemma lines_wf_move : forall pre l post, lines_wf (pre ++ l :: post) -> lines_wf (l :: pre ++ post).
Proof.
  intros pre l post [H1 H2]. split.
  - intros x. specialize (H1 x). rewrite cnt_app, cnt_cons in H1. rewrite cnt_cons, cnt_app. lia.
  - intros l' [<-|Hl]; apply H2; apply in_or_app; [right; left; reflexivity|].
    apply in_app_or in Hl as [Hl|Hl]; [left; exact Hl|right; right; exact Hl].
Qed.
Lemma lines_wf_drop : forall pre l post, lines_wf (pre ++ l :: post) -> lines_wf (pre ++ post).
Proof.
  intros pre l post H. apply lines_wf_move in H. destruct H as [H1 H2]. split.
  - intros x. specialize (H1 x). rewrite cnt_cons in H1. destruct (covers_b l x); lia.
  - intros l' Hl. apply H2. right. exact Hl.
Qed.

Lemma get_wf : forall c a c' r, get c a = Ok (c', r) -> l1_wf c -> l1_wf c'.
Proof.
  intros c a c' r H W. unfold get in H. apply bind_ok in H as (f & E & H).
  destruct f as [[[v l] rest]|]; inversion H; subst; [|exact W].
  destruct (find_line_some _ _ _ _ _ E) as (pre & post & E1 & -> & _).
  apply l1_wf_lines in W as [WL W]. apply l1_wf_lines. split; [exact WL|]. cbn [set_lines lines].
  apply lines_wf_move. rewrite <- E1. exact W.
Qed.

Lemma get_all_wf : forall addrs c acc c' r, get_all c addrs acc = Ok (c', r) -> l1_wf c -> l1_wf c'.
Proof.
  induction addrs as [|a t IH]; intros c acc c' r H W; cbn [get_all] in H.
  - inversion H; subst; exact W.
  - apply bind_ok in H as ([c1 [v|]] & E & H).
    + eapply IH; [exact H|]. eapply get_wf; eauto.
    + inversion H; subst. eapply get_wf; eauto.
Qed.

Lemma evict_wf : forall c a c' r, evict_cache_line c a = Ok (c', r) -> l1_wf c -> l1_wf c'.
Proof.
  intros c a c' r H W. unfold evict_cache_line in H. apply bind_ok in H as (f & E & H).
  destruct f as [[[v l] rest]|]; inversion H; subst; [|exact W].
  destruct (find_line_some _ _ _ _ _ E) as (pre & post & E1 & -> & _).
  apply l1_wf_lines in W as [WL W]. apply l1_wf_lines. split; [exact WL|]. cbn [set_lines lines].
  eapply lines_wf_drop. rewrite <- E1. exact W.
Qed.

(* Write changes the data of one line, not the bounds *)
Lemma idx_set_len : forall d i v d', idx_set d i v = Ok d' -> zlen d' = zlen d.
Proof.
  intros d i v d' H. unfold idx_set in H. destruct ((0 <=? i) && (i <? zlen d)); inversion H.
  unfold zlen. rewrite upd_length. reflexivity.
Qed.
Lemma set_bytes_len : forall vs d lo_ addr i d', set_bytes d lo_ addr i vs = Ok d' -> zlen d' = zlen d.
Proof.
  induction vs as [|v t IH]; intros d lo_ addr i d' H; cbn [set_bytes] in H.
  - inversion H; reflexivity.
  - apply bind_ok in H as (d1 & E & H). apply IH in H. apply idx_set_len in E. lia.
Qed.

Definition same_bounds (l l' : line) : Prop := lo l' = lo l /\ hi l' = hi l /\ zlen (data l') = zlen (data l).

Lemma write_lines_bounds : forall ls a vs ls', write_lines ls a vs = Ok ls' -> Forall2 same_bounds ls ls'.
Proof.
  induction ls as [|l t IH]; intros a vs ls' H; cbn [write_lines] in H; [discriminate|].
  apply bind_ok in H as (r & _ & H). destruct r.
  - apply bind_ok in H as (d & E & H). inversion H; subst. constructor.
    + repeat split. cbn [data]. eapply set_bytes_len; eauto.
    + clear. induction t; constructor; [repeat split|assumption].
  - apply bind_ok in H as (t' & E & H). inversion H; subst. constructor; [repeat split|eapply IH; eauto].
Qed.

Lemma same_bounds_wf : forall ls ls', Forall2 same_bounds ls ls' -> lines_wf ls -> lines_wf ls'.
Proof.
  intros ls ls' F [H1 H2]. split.
  - intros x. specialize (H1 x). assert (cnt (fun l => covers_b l x) ls' = cnt (fun l => covers_b l x) ls); [|lia].
    clear H1 H2. induction F as [|l l' t t' [E1 [E2 _]] F IH]; [reflexivity|]. rewrite !cnt_cons, IH.
    unfold covers_b. rewrite E1, E2. reflexivity.
  - clear H1. induction F as [|l l' t t' [E1 [E2 E3]] F IH]; intros k Hk; [destruct Hk|].
    destruct Hk as [<-|Hk]; [|apply IH; [intros; apply H2; right; assumption|exact Hk]].
    destruct (H2 l (or_introl eq_refl)) as (A & B & C & D). unfold line_wf. rewrite E1, E2, E3. tauto.
Qed.

Lemma write_wf : forall c a vs c', write c a vs = Ok c' -> l1_wf c -> l1_wf c'.
Proof.
  intros c a vs c' H W. unfold write in H. apply bind_ok in H as (ls & E & H). inversion H; subst.
  apply l1_wf_lines in W as [WL W]. apply l1_wf_lines. split; [exact WL|]. cbn [set_lines lines].
  eapply same_bounds_wf; [eapply write_lines_bounds; eauto|exact W].
Qed.

(* a well-formed line covers only addresses of its own 64-byte block *)
Lemma covers_block : forall l x, 0 <= lo l -> hi l = addS 32 (lo l) l1LineSize -> covers_b l x = true ->
  lo l <= x < lo l + 64 /\ hi l = lo l + 64.
Proof.
  intros l x A D H. unfold covers_b in H. apply andb_true_iff in H as [H1 H2].
  apply Z.leb_le in H1. apply Z.ltb_lt in H2. unfold l1LineSize in *.
  unfold addS, wrapS in D. change (2 ^ (32 - 1)) with 2147483648 in D. change (2 ^ 32) with 4294967296 in D.
  lia.
Qed.

Lemma line_wf_covers : forall l x, line_wf l -> covers_b l x = true -> lo l <= x < lo l + 64 /\ hi l = lo l + 64.
Proof. intros l x (A & _ & _ & D). apply covers_block; assumption. Qed.

Lemma aligned_block : forall a b x, a mod 64 = 0 -> b mod 64 = 0 -> a <= x < a + 64 -> b <= x < b + 64 -> a = b.
Proof. intros a b x Ha Hb H1 H2. lia. Qed.

(* PushLineWithEvictionWarning of an aligned full line that nothing covers *)
Lemma push_warn_wf : forall c a d c' v, push_line_warn c a d = Ok (c', v) -> l1_wf c ->
  0 <= a -> a mod l1LineSize = 0 -> zlen d = l1LineSize -> l1_line c a = None -> l1_wf c'.
Proof.
  intros c a d c' v H W A0 A1 D N. apply l1_wf_lines in W as [WL [W1 W2]].
  assert (E : c' = set_lines c (new_line c a d :: lines c)).
  { unfold push_line_warn in H. destruct (_ >? _); inversion H; reflexivity. }
  subst c'. apply l1_wf_lines. split; [exact WL|]. cbn [set_lines lines].
  assert (NW : line_wf (new_line c a d)).
  { unfold line_wf, new_line. cbn [lo hi data]. rewrite WL. repeat split; try assumption. }
  split.
  - intros x. rewrite cnt_cons. destruct (covers_b (new_line c a d) x) eqn:Cn; [|apply W1].
    rewrite cnt_zero; [lia|]. intros l Hl. destruct (covers_b l x) eqn:Cl; [exfalso|reflexivity].
    destruct (line_wf_covers _ _ NW Cn) as [R1 R1']. destruct (line_wf_covers _ _ (W2 l Hl) Cl) as [R2 R2'].
    destruct (W2 l Hl) as (_ & B & _). unfold l1LineSize in *. cbn [new_line lo] in R1.
    assert (lo l = a) by (eapply aligned_block; eauto).
    unfold l1_line in N. apply (find_none _ _ N l) in Hl. clear N. rename Hl into N.
    unfold covers_b in N. rewrite R2' in N.
    apply andb_false_iff in N as [N|N]; [apply Z.leb_gt in N|apply Z.ltb_ge in N]; lia.
  - intros l [<-|Hl]; [exact NW|apply W2; exact Hl].
Qed.

(* ------------------------------------------------------------------ *)
(* msi.go: views after each primitive                                   *)
(* ------------------------------------------------------------------ *)

Lemma sem_get_sem_set : forall i a s b, sem_get (sem_set i a s) b = if b =? a then s else sem_get i b.
Proof. intros. unfold sem_get, sem_set. cbn [i_sems]. rewrite aget_aset. destruct (b =? a); reflexivity. Qed.
Lemma state_get_sem_set : forall i a s id b, state_get (sem_set i a s) id b = state_get i id b.
Proof. reflexivity. Qed.
Lemma sem_get_state_set : forall i id a s b, sem_get (state_set i id a s) b = sem_get i b.
Proof. reflexivity. Qed.

Lemma states_set_find : forall l id a s id' a',
  find (fun e => (fst (fst e) =? id') && (snd (fst e) =? a')) (states_set l id a s) =
  if (id' =? id) && (a' =? a) then Some (id, a, s) else find (fun e => (fst (fst e) =? id') && (snd (fst e) =? a')) l.
Proof.
  induction l as [|[[i0 a0] s0] t IH]; intros id a s id' a'; cbn [states_set find fst snd].
  - rewrite (Z.eqb_sym id id'), (Z.eqb_sym a a'). destruct ((id' =? id) && (a' =? a)); reflexivity.
  - destruct ((i0 =? id) && (a0 =? a)) eqn:E; cbn [find fst snd].
    + apply andb_true_iff in E as [E1 E2]. apply Z.eqb_eq in E1, E2. subst.
      rewrite (Z.eqb_sym id id'), (Z.eqb_sym a a'). destruct ((id' =? id) && (a' =? a)); reflexivity.
    + rewrite IH. destruct ((i0 =? id') && (a0 =? a')) eqn:E'; [|reflexivity].
      apply andb_true_iff in E' as [E1 E2]. apply Z.eqb_eq in E1, E2. subst.
      rewrite E. reflexivity.
Qed.

Lemma state_get_state_set : forall i id a s id' a',
  state_get (state_set i id a s) id' a' = if (id' =? id) && (a' =? a) then s else state_get i id' a'.
Proof.
  intros. unfold state_get, state_set. cbn [i_states]. rewrite states_set_find.
  destruct ((id' =? id) && (a' =? a)); reflexivity.
Qed.

(* same semaphores and states *)
Definition same_ss (i i' : msi7) : Prop := i_sems i' = i_sems i /\ i_states i' = i_states i.
Lemma same_ss_refl : forall i, same_ss i i. Proof. split; reflexivity. Qed.
Lemma same_ss_trans : forall i j k, same_ss i j -> same_ss j k -> same_ss i k.
Proof. intros i j k [A B] [C D]. split; congruence. Qed.
Lemma same_ss_sem : forall i i' a, same_ss i i' -> sem_get i' a = sem_get i a.
Proof. intros i i' a [A _]. unfold sem_get. rewrite A. reflexivity. Qed.
Lemma same_ss_state : forall i i' id a, same_ss i i' -> state_get i' id a = state_get i id a.
Proof. intros i i' id a [_ B]. unfold state_get. rewrite B. reflexivity. Qed.

Lemma msi_send_ss : forall i id a rq, same_ss i (fst (msi_send i id a rq)).
Proof. intros. unfold msi_send. destruct (find _ _); split; reflexivity. Qed.

(* readRequest / invalidationRequest: a loop over the other holders of the line that sends to each a request chosen
   by the holder's state, or none *)
Definition sends (a : Z) (pick : Z -> option Z) (l : list (Z * Z)) (acc : msi7 * list Z) : msi7 * list Z :=
  fold_left (fun acc e => match pick (snd e) with
                          | Some rq => let '(i1, c) := msi_send (fst acc) (fst e) a rq in (i1, snd acc ++ [c])
                          | None => acc
                          end) l acc.
Definition pick_rr (s : Z) : option Z := if s =? stModified then Some rqWriteBack else None.
Definition pick_inv (s : Z) : option Z :=
  if s =? stModified then Some rqWriteBack else if s =? stShared then Some rqEvict else None.

Lemma fold_left_pointwise {A B} (f g : A -> B -> A) l a : (forall x y, f x y = g x y) -> fold_left f l a = fold_left g l a.
Proof. intros E. revert a. induction l as [|y t IH]; intros a; [reflexivity|]. cbn [fold_left]. rewrite E. apply IH. Qed.

Lemma msi_read_request_sends : forall i id a, msi_read_request i id a = sends a pick_rr (msi_others i id a) (i, []).
Proof. intros. apply fold_left_pointwise. intros acc e. unfold pick_rr. destruct (snd e =? stModified); reflexivity. Qed.
Lemma msi_invalidate_sends : forall i id a, msi_invalidate i id a = sends a pick_inv (msi_others i id a) (i, []).
Proof.
  intros. apply fold_left_pointwise. intros acc e. unfold pick_inv. destruct (snd e =? stModified); [reflexivity|].
  destruct (snd e =? stShared); reflexivity.
Qed.

(* what every send of the loop preserves, the loop preserves *)
Lemma sends_inv : forall a pick (Q : msi7 * list Z -> Prop) l acc, Q acc ->
  (forall acc x s rq, Q acc -> In (x, s) l -> pick s = Some rq ->
     Q (let '(i1, c) := msi_send (fst acc) x a rq in (i1, snd acc ++ [c]))) -> Q (sends a pick l acc).
Proof.
  intros a pick Q. induction l as [|[x s] tl IH]; intros acc Q0 ST; unfold sends; cbn [fold_left fst snd]; [exact Q0|].
  apply IH; [|intros; eapply ST; eauto; right; assumption]. destruct (pick s) as [rq|] eqn:P; [|exact Q0].
  eapply ST; eauto. left. reflexivity.
Qed.

Lemma sends_ss : forall a pick l i, same_ss i (fst (sends a pick l (i, []))).
Proof.
  intros a pick l i. apply (sends_inv a pick (fun acc => same_ss i (fst acc))); [apply same_ss_refl|].
  intros acc x s rq Q _ _. pose proof (msi_send_ss (fst acc) x a rq) as S. destruct (msi_send _ _ _ _).
  eapply same_ss_trans; eauto.
Qed.

Lemma msi_read_request_ss : forall i id a, same_ss i (fst (msi_read_request i id a)).
Proof. intros. rewrite msi_read_request_sends. apply sends_ss. Qed.
Lemma msi_invalidate_ss : forall i id a, same_ss i (fst (msi_invalidate i id a)).
Proof. intros. rewrite msi_invalidate_sends. apply sends_ss. Qed.

Lemma msi_evict_extra_ss : forall i id a, same_ss i (fst (msi_evict_extra i id a)).
Proof.
  intros. unfold msi_evict_extra. destruct (_ =? stShared).
  - pose proof (msi_send_ss i id a rqEvict) as S. destruct (msi_send _ _ _ _). exact S.
  - destruct (_ =? stModified); [|apply same_ss_refl].
    pose proof (msi_send_ss i id a rqWriteBack) as S. destruct (msi_send _ _ _ _). exact S.
Qed.

Lemma cmd_done_ss : forall i id a rq, same_ss (state_set i id a stInvalid) (cmd_done i id a rq).
Proof. intros. split; reflexivity. Qed.

(* ------------------------------------------------------------------ *)
(* the structural invariant of the directory                            *)
(* ------------------------------------------------------------------ *)

Definition sem_okP (s : Z * Z) : Prop := 0 <= fst s /\ 0 <= snd s /\ snd s <= 1 /\ (snd s = 1 -> fst s = 0).
Definition SI (i : msi7) : Prop := clause5_70 i /\ states_ok i.

Lemma SI_ss : forall i i', same_ss i i' -> SI i -> SI i'.
Proof.
  intros i i' S [A B]. split.
  - intros a. rewrite (same_ss_sem _ _ a S). apply A.
  - intros id a. rewrite (same_ss_state _ _ id a S). apply B.
Qed.

Lemma SI_state_set : forall i id a s, SI i -> 0 <= s <= 2 -> SI (state_set i id a s).
Proof.
  intros i id a s [A B] H. split.
  - intros b. rewrite sem_get_state_set. apply A.
  - intros id' b. rewrite state_get_state_set. destruct (_ && _); [exact H|apply B].
Qed.

(* the counters of line a move by (dr, dw); nothing else changes *)
Definition sem_moved (i i' : msi7) (a dr dw : Z) : Prop :=
  i_states i' = i_states i /\ i_cmds i' = i_cmds i /\
  forall b, fst (sem_get i' b) = fst (sem_get i b) + (if b =? a then dr else 0) /\
            snd (sem_get i' b) = snd (sem_get i b) + (if b =? a then dw else 0).

Lemma sem_set_moved : forall i a r w r' w' dr dw, sem_get i a = (r, w) -> r' = r + dr -> w' = w + dw ->
  sem_moved i (sem_set i a (r', w')) a dr dw.
Proof.
  intros i a r w r' w' dr dw G -> ->. split; [reflexivity|]. split; [reflexivity|]. intros b. rewrite sem_get_sem_set.
  destruct (Z.eqb_spec b a) as [->|]; [rewrite G; split; reflexivity|lia].
Qed.

(* Sem.RLock, Lock, RUnlock, Unlock: which counter moves, and when; a failed RLock / Lock changes nothing *)
Lemma sem_rlock_moved : forall i a i1, sem_rlock i a = (i1, true) -> snd (sem_get i a) <= 0 /\ sem_moved i i1 a 1 0.
Proof.
  intros i a i1 H. unfold sem_rlock in H. destruct (sem_get i a) as [r w] eqn:G. destruct (Z.ltb_spec 0 w); inv H.
  split; [assumption|eapply sem_set_moved; [exact G|lia|lia]].
Qed.
Lemma sem_lock_moved : forall i a i1, sem_lock i a = (i1, true) ->
  fst (sem_get i a) <= 0 /\ snd (sem_get i a) <= 0 /\ sem_moved i i1 a 0 1.
Proof.
  intros i a i1 H. unfold sem_lock in H. destruct (sem_get i a) as [r w] eqn:G.
  destruct (Z.ltb_spec 0 w); [discriminate|]. destruct (Z.ltb_spec 0 r); inv H.
  split; [assumption|]. split; [assumption|eapply sem_set_moved; [exact G|lia|lia]].
Qed.
Lemma sem_runlock_moved : forall i a i1, sem_runlock i a = Ok i1 -> 1 <= fst (sem_get i a) /\ sem_moved i i1 a (-1) 0.
Proof.
  intros i a i1 H. unfold sem_runlock in H. destruct (sem_get i a) as [r w] eqn:G. destruct (Z.ltb_spec (r - 1) 0); inv H.
  split; [cbn [fst]; lia|eapply sem_set_moved; [exact G|lia|lia]].
Qed.
Lemma sem_unlock_moved : forall i a i1, sem_unlock i a = Ok i1 -> 1 <= snd (sem_get i a) /\ sem_moved i i1 a 0 (-1).
Proof.
  intros i a i1 H. unfold sem_unlock in H. destruct (sem_get i a) as [r w] eqn:G. destruct (Z.ltb_spec (w - 1) 0); inv H.
  split; [cbn [snd]; lia|eapply sem_set_moved; [exact G|lia|lia]].
Qed.
Lemma sem_rlock_fail : forall i a i1, sem_rlock i a = (i1, false) -> i1 = i.
Proof. intros i a i1 H. unfold sem_rlock in H. destruct (sem_get i a). destruct (0 <? z0); inv H. reflexivity. Qed.
Lemma sem_lock_fail : forall i a i1, sem_lock i a = (i1, false) -> i1 = i.
Proof. intros i a i1 H. unfold sem_lock in H. destruct (sem_get i a). destruct (_ || _); inv H. reflexivity. Qed.

Lemma SI_moved : forall i i' a dr dw, SI i -> sem_moved i i' a dr dw ->
  sem_okP (fst (sem_get i a) + dr, snd (sem_get i a) + dw) -> SI i'.
Proof.
  intros i i' a dr dw [A B] (S & _ & M) O. split.
  - intros b. destruct (M b) as [M1 M2]. rewrite M1, M2. clear M1 M2. destruct (Z.eqb_spec b a) as [E|]; [subst b; exact O|].
    rewrite !Z.add_0_r. apply A.
  - intros id b. unfold state_get. rewrite S. apply B.
Qed.

Lemma sem_rlock_SI : forall i a, SI i -> SI (fst (sem_rlock i a)).
Proof.
  intros i a H. destruct (sem_rlock i a) as [i1 [|]] eqn:L; cbn [fst]; [|rewrite (sem_rlock_fail _ _ _ L); exact H].
  destruct (sem_rlock_moved _ _ _ L) as [W M]. apply (SI_moved _ _ _ _ _ H M). destruct (proj1 H a) as (? & ? & ? & ?).
  unfold sem_okP. cbn [fst snd]. lia.
Qed.
Lemma sem_lock_SI : forall i a, SI i -> SI (fst (sem_lock i a)).
Proof.
  intros i a H. destruct (sem_lock i a) as [i1 [|]] eqn:L; cbn [fst]; [|rewrite (sem_lock_fail _ _ _ L); exact H].
  destruct (sem_lock_moved _ _ _ L) as (R & W & M). apply (SI_moved _ _ _ _ _ H M). destruct (proj1 H a) as (? & ? & ? & ?).
  unfold sem_okP. cbn [fst snd]. lia.
Qed.
Lemma sem_runlock_SI : forall i a i', sem_runlock i a = Ok i' -> SI i -> SI i'.
Proof.
  intros i a i' E H. destruct (sem_runlock_moved _ _ _ E) as [R M]. apply (SI_moved _ _ _ _ _ H M).
  destruct (proj1 H a) as (? & ? & ? & ?). unfold sem_okP. cbn [fst snd]. lia.
Qed.
Lemma sem_unlock_SI : forall i a i', sem_unlock i a = Ok i' -> SI i -> SI i'.
Proof.
  intros i a i' E H. destruct (sem_unlock_moved _ _ _ E) as [W M]. apply (SI_moved _ _ _ _ _ H M).
  destruct (proj1 H a) as (? & ? & ? & ?). unfold sem_okP. cbn [fst snd]. lia.
Qed.

Lemma run_post_SI : forall i id p i', run_post i id p = Ok i' -> SI i -> SI i'.
Proof.
  intros i id p i' E H. destruct p; cbn [run_post] in E; try discriminate.
  - eapply sem_runlock_SI; [exact E|]. apply SI_state_set; [exact H|]. unfold stShared. lia.
  - eapply sem_unlock_SI; [exact E|]. apply SI_state_set; [exact H|]. unfold stModified. lia.
  - eapply sem_runlock_SI; eauto.
  - eapply sem_unlock_SI; eauto.
Qed.

(* msi.rLock: waits and changes nothing, or takes the semaphore of the line - the read counter, the write counter
   when the core holds the line Modified - and, from Invalid, sends the write-back requests *)
Lemma msi_rlock_cases : forall i id a i' r, msi_rlock i id a = Ok (i', r) ->
  (r = LWait /\ i' = i) \/
  (state_get i id a = stInvalid /\ exists i1 ps, sem_rlock i a = (i1, true) /\ msi_read_request i1 id a = (i', ps) /\
     r = LGo true ps (PShareRUnlock a)) \/
  (state_get i id a = stModified /\ sem_lock i a = (i', true) /\ r = LGo false [] (PUnlock a)) \/
  (state_get i id a = stShared /\ sem_rlock i a = (i', true) /\ r = LGo false [] (PRUnlock a)).
Proof.
  intros i id a i' r H. unfold msi_rlock in H. destruct (Z.eqb_spec (state_get i id a) stInvalid) as [QI|_].
  - destruct (sem_rlock i a) as [i1 [|]] eqn:L; cbn [negb] in H.
    + destruct (msi_read_request i1 id a) as [i2 ps] eqn:RR. inv H. right. left. split; [exact QI|]. exists i1, ps. auto.
    + inv H. left. split; [reflexivity|eapply sem_rlock_fail; eauto].
  - destruct (Z.eqb_spec (state_get i id a) stModified) as [QM|_].
    + destruct (sem_lock i a) as [i1 [|]] eqn:L; cbn [negb] in H; inv H;
        [right; right; left; auto|left; split; [reflexivity|eapply sem_lock_fail; eauto]].
    + destruct (Z.eqb_spec (state_get i id a) stShared) as [QS|_]; [|discriminate].
      destruct (sem_rlock i a) as [i1 [|]] eqn:L; cbn [negb] in H; inv H;
        [right; right; right; auto|left; split; [reflexivity|eapply sem_rlock_fail; eauto]].
Qed.

(* msi.lock: waits, or takes the write counter and, unless the core holds the line Modified, sends the requests that
   invalidate the other copies; the line is fetched when the core has no copy *)
Lemma msi_lock_cases : forall i id a i' r, msi_lock i id a = Ok (i', r) ->
  (r = LWait /\ i' = i) \/
  (state_get i id a = stModified /\ sem_lock i a = (i', true) /\ r = LGo false [] (PUnlock a)) \/
  (exists i1 ps fetch, sem_lock i a = (i1, true) /\ msi_invalidate i1 id a = (i', ps) /\ r = LGo fetch ps (PModUnlock a) /\
     state_get i id a = if fetch then stInvalid else stShared).
Proof.
  intros i id a i' r H. unfold msi_lock in H. destruct (Z.eqb_spec (state_get i id a) stInvalid) as [QI|_].
  - destruct (sem_lock i a) as [i1 [|]] eqn:L; cbn [negb] in H.
    + destruct (msi_invalidate i1 id a) as [i2 ps] eqn:RR. inv H. right. right. exists i1, ps, true. auto.
    + inv H. left. split; [reflexivity|eapply sem_lock_fail; eauto].
  - destruct (Z.eqb_spec (state_get i id a) stModified) as [QM|_].
    + destruct (sem_lock i a) as [i1 [|]] eqn:L; cbn [negb] in H; inv H;
        [right; left; auto|left; split; [reflexivity|eapply sem_lock_fail; eauto]].
    + destruct (Z.eqb_spec (state_get i id a) stShared) as [QS|_]; [|discriminate].
      destruct (sem_lock i a) as [i1 [|]] eqn:L; cbn [negb] in H.
      * destruct (msi_invalidate i1 id a) as [i2 ps] eqn:RR. inv H. right. right. exists i1, ps, false. auto.
      * inv H. left. split; [reflexivity|eapply sem_lock_fail; eauto].
Qed.

Lemma msi_rlock_SI : forall i id a i' r, msi_rlock i id a = Ok (i', r) -> SI i -> SI i'.
Proof.
  intros i id a i' r E H. pose proof (sem_rlock_SI i a H) as SR. pose proof (sem_lock_SI i a H) as SL.
  destruct (msi_rlock_cases _ _ _ _ _ E) as [[_ ->]|[(_ & i1 & ps & L & RR & _)|[(_ & L & _)|(_ & L & _)]]];
    rewrite ?L in *; try assumption.
  pose proof (msi_read_request_ss i1 id a) as R. rewrite RR in R. exact (SI_ss _ _ R SR).
Qed.

Lemma msi_lock_SI : forall i id a i' r, msi_lock i id a = Ok (i', r) -> SI i -> SI i'.
Proof.
  intros i id a i' r E H. pose proof (sem_lock_SI i a H) as SL.
  destruct (msi_lock_cases _ _ _ _ _ E) as [[_ ->]|[(_ & L & _)|(i1 & ps & fetch & L & RR & _)]]; rewrite ?L in *; try assumption.
  pose proof (msi_invalidate_ss i1 id a) as R. rewrite RR in R. exact (SI_ss _ _ R SL).
Qed.

Lemma msi_evict_extra_SI : forall i id a, SI i -> SI (fst (msi_evict_extra i id a)).
Proof. intros. eapply SI_ss; [apply msi_evict_extra_ss|assumption]. Qed.

Lemma cmd_done_SI : forall i id a rq, SI i -> SI (cmd_done i id a rq).
Proof.
  intros. eapply SI_ss; [apply cmd_done_ss|]. apply SI_state_set; [assumption|]. unfold stInvalid. lia.
Qed.

(* ------------------------------------------------------------------ *)
(* cc.go: the structural invariant of a controller                      *)
(* ------------------------------------------------------------------ *)

Definition fetch_ok (la : Z) (d : list Z) : Prop := 0 <= la /\ la mod l1LineSize = 0 /\ zlen d = l1LineSize.
Definition rd_ok (r : rd_co) : Prop := match r with RFetch _ la d _ => fetch_ok la d | _ => True end.
Definition wr_ok (r : wr_co) : Prop := match r with WFetch _ la d _ => fetch_ok la d | _ => True end.
Definition CS (c : cc7) : Prop := l1_wf (c_l1d c) /\ rd_ok (c_rd c) /\ wr_ok (c_wr c).

Lemma aligned_mod : forall a, (subS 32 a (remS 32 a l1LineSize)) mod l1LineSize = 0.
Proof.
  intros a. unfold subS, remS, wrapS, l1LineSize. pose proof (Z.quot_rem' a 64) as Q.
  replace (a - Z.rem a 64) with (64 * (a ÷ 64)) by lia. generalize (a ÷ 64). intros q.
  change (2 ^ (32 - 1)) with 2147483648. change (2 ^ 32) with 4294967296. lia.
Qed.

Lemma fetch_cache_line_ok : forall mem a0 ln, fetch_cache_line mem a0 = Ok ln ->
  fetch_ok (subS 32 a0 (remS 32 a0 l1LineSize)) ln /\ ln = mem_line mem (subS 32 a0 (remS 32 a0 l1LineSize)).
Proof.
  intros mem a0 ln H. unfold fetch_cache_line in H. destruct (_ <? 0) eqn:E; [discriminate|]. injection H as H.
  rewrite <- H. clear H.
  apply Z.ltb_ge in E. split; [|reflexivity]. split; [exact E|]. split; [apply aligned_mod|].
  reflexivity.
Qed.

Lemma push_line_to_l1_wf : forall c la d c' v, push_line_to_l1 c la d = Ok (c', v) -> l1_wf c -> fetch_ok la d -> l1_wf c'.
Proof.
  intros c la d c' v H W (A & B & C). unfold push_line_to_l1 in H. apply bind_ok in H as ([c1 r] & E & H).
  destruct r; [inversion H; subst; eapply get_wf; eauto|].
  assert (c1 = c /\ l1_line c la = None) as [-> N].
  { unfold get in E. apply bind_ok in E as (f & E1 & E). destruct f as [[[v0 l0] r0]|]; [discriminate|].
    inversion E; subst. split; [reflexivity|apply find_line_none_view; exact E1]. }
  eapply push_warn_wf; eauto.
Qed.

Ltac csplit := unfold CS; cbn [set_rd set_wr set_l1d set_post set_rsems set_wsems set_snoop c_l1d c_rd c_wr rd_ok wr_ok];
  (split; [|split]); try assumption; try exact I.

Lemma rd_l1_S : forall i id c addrs cyc data i' c' r, rd_l1 i id c addrs cyc data = Ok (i', c', r) ->
  SI i -> CS c -> SI i' /\ CS c'.
Proof.
  intros i id c addrs cyc data i' c' r H S (W & R & Wr). unfold rd_l1 in H. destruct (0 <? cyc).
  - inv H. split; [exact S|]. csplit.
  - apply bind_ok in H as (i1 & E1 & H). apply bind_ok in H as (a & E2 & H). inv H.
    split; [eapply run_post_SI; eauto|]. csplit.
Qed.

Lemma rd_from_l1_S : forall i id c addrs i' c' r, rd_from_l1 i id c addrs = Ok (i', c', r) ->
  SI i -> CS c -> SI i' /\ CS c'.
Proof.
  intros i id c addrs i' c' r H S (W & R & Wr). unfold rd_from_l1 in H. apply bind_ok in H as ([l1 g] & E & H).
  destruct g; [|discriminate]. eapply rd_l1_S; [exact H|exact S|].
  csplit. cbn [set_l1d c_l1d]. eapply get_all_wf; eauto.
Qed.

Lemma CS_set_post : forall c p, CS c -> CS (set_post c p). Proof. intros c p H; exact H. Qed.
Lemma CS_set_rsems : forall c p, CS c -> CS (set_rsems c p). Proof. intros c p H; exact H. Qed.
Lemma CS_set_wsems : forall c p, CS c -> CS (set_wsems c p). Proof. intros c p H; exact H. Qed.

Lemma rd_evict_S : forall i id c addrs pending post i' c' r, rd_evict i id c addrs pending post = Ok (i', c', r) ->
  SI i -> CS c -> SI i' /\ CS c'.
Proof.
  intros i id c addrs pending post i' c' r H S C. unfold rd_evict in H.
  destruct pending as [p|]; [destruct (negb (cmd_isdone i p))|].
  - inv H. split; [exact S|]. destruct C as (W & R & Wr). csplit.
  - eapply rd_from_l1_S; eauto.
  - eapply rd_from_l1_S; eauto.
Qed.

Lemma rd_fetch_S : forall i id c addrs cyc la d post i' c' r, rd_fetch i id c addrs cyc la d post = Ok (i', c', r) ->
  SI i -> CS c -> fetch_ok la d -> SI i' /\ CS c'.
Proof.
  intros i id c addrs cyc la d post i' c' r H S (W & R & Wr) F. unfold rd_fetch in H. destruct (0 <? cyc).
  - inv H. split; [exact S|]. csplit.
  - apply bind_ok in H as ([c1 v] & E & H). cbn [fst snd] in H.
    pose proof (push_line_to_l1_wf _ _ _ _ _ E W F) as W1. destruct v as [victim|].
    + pose proof (msi_evict_extra_SI i id (lo victim) S) as S1. destruct (msi_evict_extra i id (lo victim)) as [i1 pe].
      inv H. split; [exact S1|]. csplit.
    + eapply rd_from_l1_S; [exact H|exact S|]. csplit.
Qed.

Lemma rd_pend_S : forall mem i id c addrs ps fetch post i' c' r, rd_pend mem i id c addrs ps fetch post = Ok (i', c', r) ->
  SI i -> CS c -> SI i' /\ CS c'.
Proof.
  intros mem i id c addrs ps fetch post i' c' r H S C. unfold rd_pend in H. destruct (negb (all_done i ps)).
  - inv H. split; [exact S|]. destruct C as (W & R & Wr). csplit.
  - destruct (negb fetch); [eapply rd_from_l1_S; eauto|].
    apply bind_ok in H as (a & E1 & H). apply bind_ok in H as (g & E2 & H). destruct g; [discriminate|].
    destruct addrs as [|a0 t]; [discriminate|]. apply bind_ok in H as (ln & E3 & H).
    cbn [aligned7] in E1. inv E1. apply fetch_cache_line_ok in E3 as [F _]. eapply rd_fetch_S; eauto.
Qed.

Lemma rd_start_S : forall mem i id c addrs i' c' r, rd_start mem i id c addrs = Ok (i', c', r) ->
  SI i -> CS c -> SI i' /\ CS c'.
Proof.
  intros mem i id c addrs i' c' r H S C. unfold rd_start in H. apply bind_ok in H as (a & E1 & H).
  apply bind_ok in H as ([i1 lr] & E2 & H). cbn [fst snd] in H. pose proof (msi_rlock_SI _ _ _ _ _ E2 S) as S1.
  destruct lr; [inv H; split; assumption|]. eapply rd_pend_S; eauto.
Qed.

Lemma cc_read_cycle_S : forall mem i id c addrs i' c' r, cc_read_cycle mem i id c addrs = Ok (i', c', r) ->
  SI i -> CS c -> SI i' /\ CS c'.
Proof.
  intros mem i id c addrs i' c' r H S C. unfold cc_read_cycle in H. destruct (c_rd c) eqn:E.
  - eapply rd_start_S; eauto.
  - eapply rd_pend_S; eauto.
  - eapply rd_fetch_S; eauto. destruct C as (_ & R & _). rewrite E in R. exact R.
  - eapply rd_evict_S; eauto.
  - eapply rd_l1_S; eauto.
Qed.

(* ---- write ---- *)

Lemma wr_l1_S : forall i id c addrs data cyc i' c' r, wr_l1 i id c addrs data cyc = Ok (i', c', r) ->
  SI i -> CS c -> SI i' /\ CS c'.
Proof.
  intros i id c addrs data cyc i' c' r H S (W & R & Wr). unfold wr_l1 in H. destruct (0 <? cyc).
  - inv H. split; [exact S|]. csplit.
  - destruct addrs as [|a0 t]; [discriminate|].
    apply bind_ok in H as (l1 & E0 & H). apply bind_ok in H as (i1 & E1 & H). apply bind_ok in H as (a & E2 & H). inv H.
    split; [eapply run_post_SI; eauto|]. csplit. cbn. eapply write_wf; eauto.
Qed.

Lemma wr_evict_S : forall i id c addrs data pending cyc post i' c' r, wr_evict i id c addrs data pending cyc post = Ok (i', c', r) ->
  SI i -> CS c -> SI i' /\ CS c'.
Proof.
  intros i id c addrs data pending cyc post i' c' r H S C. unfold wr_evict in H.
  destruct (match pending with Some p => negb (cmd_isdone i p) | None => false end).
  - inv H. split; [exact S|]. destruct C as (W & R & Wr). csplit.
  - destruct (0 <? cyc).
    + inv H. split; [exact S|]. destruct C as (W & R & Wr). csplit.
    + eapply wr_l1_S; eauto.
Qed.

Lemma wr_fetch_S : forall i id c addrs data cyc la d post i' c' r, wr_fetch i id c addrs data cyc la d post = Ok (i', c', r) ->
  SI i -> CS c -> fetch_ok la d -> SI i' /\ CS c'.
Proof.
  intros i id c addrs data cyc la d post i' c' r H S (W & R & Wr) F. unfold wr_fetch in H. destruct (0 <? cyc).
  - inv H. split; [exact S|]. csplit.
  - apply bind_ok in H as ([c1 v] & E & H). cbn [fst snd] in H.
    pose proof (push_line_to_l1_wf _ _ _ _ _ E W F) as W1. destruct v as [victim|].
    + pose proof (msi_evict_extra_SI i id (lo victim) S) as S1. destruct (msi_evict_extra i id (lo victim)) as [i1 pe].
      inv H. split; [exact S1|]. csplit.
    + eapply wr_l1_S; [exact H|exact S|]. csplit.
Qed.

Lemma wr_pend_S : forall mem i id c addrs data ps fetch post i' c' r, wr_pend mem i id c addrs data ps fetch post = Ok (i', c', r) ->
  SI i -> CS c -> SI i' /\ CS c'.
Proof.
  intros mem i id c addrs data ps fetch post i' c' r H S C. unfold wr_pend in H. destruct (negb (all_done i ps)).
  - inv H. split; [exact S|]. destruct C as (W & R & Wr). csplit.
  - destruct fetch; [|eapply wr_l1_S; eauto].
    destruct addrs as [|a0 t]; [discriminate|]. apply bind_ok in H as (a & E1 & H). apply bind_ok in H as (ln & E3 & H).
    cbn [aligned7] in E1. inv E1. apply fetch_cache_line_ok in E3 as [F _]. eapply wr_fetch_S; eauto.
Qed.

Lemma wr_start_S : forall mem i id c addrs data i' c' r, wr_start mem i id c addrs data = Ok (i', c', r) ->
  SI i -> CS c -> SI i' /\ CS c'.
Proof.
  intros mem i id c addrs data i' c' r H S C. unfold wr_start in H. apply bind_ok in H as (a & E1 & H).
  apply bind_ok in H as ([i1 lr] & E2 & H). cbn [fst snd] in H. pose proof (msi_lock_SI _ _ _ _ _ E2 S) as S1.
  destruct lr; [inv H; split; assumption|]. eapply wr_pend_S; eauto.
Qed.

Lemma cc_write_cycle_S : forall mem i id c addrs data i' c' r, cc_write_cycle mem i id c addrs data = Ok (i', c', r) ->
  SI i -> CS c -> SI i' /\ CS c'.
Proof.
  intros mem i id c addrs data i' c' r H S C. unfold cc_write_cycle in H. destruct (c_wr c) eqn:E.
  - eapply wr_start_S; eauto.
  - eapply wr_pend_S; eauto.
  - eapply wr_fetch_S; eauto. destruct C as (_ & _ & R). rewrite E in R. exact R.
  - eapply wr_evict_S; eauto.
  - eapply wr_l1_S; eauto.
Qed.

(* ---- snoop ---- *)

Lemma snoop_items_S : forall items mem i id l1 mem' i' l1' items', snoop_items mem i id l1 items = Ok (mem', i', l1', items') ->
  SI i -> l1_wf l1 -> SI i' /\ l1_wf l1'.
Proof.
  induction items as [|it t IH]; intros mem i id l1 mem' i' l1' items' H S W; cbn [snoop_items] in H.
  - inv H. split; assumption.
  - destruct it as [a|a cyc].
    + apply bind_ok in H as ([c1 r] & E & H). cbn [fst] in H. eapply IH; [exact H|apply cmd_done_SI; exact S|].
      eapply evict_wf; eauto.
    + destruct (0 <? cyc).
      * apply bind_ok in H as ([[[m1 i1] l2] t'] & E & H). inv H. eapply IH; eauto.
      * apply bind_ok in H as (g & E0 & H). destruct g as [d|]; [|discriminate].
        apply bind_ok in H as (m1 & E1 & H). apply bind_ok in H as ([c1 r] & E2 & H). cbn [fst snd] in H.
        destruct r; [|discriminate]. eapply IH; [exact H|apply cmd_done_SI; exact S|]. eapply evict_wf; eauto.
Qed.

Lemma co_snoop_i : forall kev, (forall j, kev j = j) -> forall i id i' l, co_snoop kev i id = Ok (i', l) -> i' = i.
Proof.
  intros kev K i id i' l H. unfold co_snoop in H.
  remember (Ok (i, @nil snoop_item)) as acc eqn:EA.
  assert (A : forall j l0, acc = Ok (j, l0) -> j = i) by (intros j l0 E; rewrite EA in E; inv E; reflexivity).
  clear EA. revert acc A H. generalize (i_cmds i) as cs.
  induction cs as [|e t IH]; intros acc A H; cbn [fold_left] in H; [eapply A; eauto|].
  eapply IH; [|exact H]. intros j l0 E. destruct acc as [[j0 l1]| |]; cbn [bind] in E; try discriminate.
  destruct e as [[[id' a] rq] c0]. specialize (A j0 l1 eq_refl). subst j0.
  destruct (negb (id' =? id)); [inv E; reflexivity|]. destruct (rq =? rqEvict); [inv E; apply K|].
  destruct (rq =? rqWriteBack); [inv E; reflexivity|discriminate].
Qed.

Lemma cc_snoop_cycle_S : forall kev, (forall j, kev j = j) -> forall mem i id c mem' i' c',
  cc_snoop_cycle kev mem i id c = Ok (mem', i', c') -> SI i -> CS c -> SI i' /\ CS c'.
Proof.
  intros kev K mem i id c mem' i' c' H S (W & R & Wr). unfold cc_snoop_cycle in H.
  apply bind_ok in H as ([[[m1 i1] l1] items] & E & H). destruct (snoop_items_S _ _ _ _ _ _ _ _ _ E S W) as [S1 W1].
  destruct (c_snoop c).
  - apply bind_ok in H as ([i2 l2] & E2 & H). apply co_snoop_i in E2; [|exact K]. subst i2. inv H. cbn [fst].
    split; [exact S1|]. csplit.
  - inv H. split; [exact S1|]. csplit.
Qed.

(* ---- flush ---- *)

Lemma fold_runlock_SI : forall ks acc i', fold_left (fun acc k => j <- acc ;; sem_runlock j k) ks acc = Ok i' ->
  (forall j, acc = Ok j -> SI j) -> SI i'.
Proof.
  induction ks as [|k t IH]; intros acc i' H A; cbn [fold_left] in H; [apply A; exact H|].
  eapply IH; [exact H|]. intros j E. apply bind_ok in E as (j0 & E0 & E). eapply sem_runlock_SI; eauto.
Qed.
Lemma fold_unlock_SI : forall ks acc i', fold_left (fun acc k => j <- acc ;; sem_unlock j k) ks acc = Ok i' ->
  (forall j, acc = Ok j -> SI j) -> SI i'.
Proof.
  induction ks as [|k t IH]; intros acc i' H A; cbn [fold_left] in H; [apply A; exact H|].
  eapply IH; [exact H|]. intros j E. apply bind_ok in E as (j0 & E0 & E). eapply sem_unlock_SI; eauto.
Qed.

Lemma cc_flush_S : forall i c i' c', cc_flush i c = Ok (i', c') -> SI i -> CS c -> SI i' /\ CS c'.
Proof.
  intros i c i' c' H S (W & R & Wr). unfold cc_flush in H. apply bind_ok in H as (i1 & E1 & H).
  apply bind_ok in H as (i2 & E2 & H). inv H. split.
  - eapply fold_unlock_SI; [exact E2|]. intros j E. inv E. eapply fold_runlock_SI; [exact E1|].
    intros j' E. inv E. exact S.
  - csplit.
Qed.

(* ------------------------------------------------------------------ *)
(* eu.go, cpu.go: the structural invariant through a tick               *)
(* ------------------------------------------------------------------ *)

Section Struct.
Variable hk : hooks7.
Hypothesis HF : hooks_frame hk.

Lemma eu_write7_S : forall id w e addrs data w' e' o, eu_write7 id w e addrs data = Ok (w', e', o) ->
  SI (w_i w) -> CS (h_cc e) -> SI (w_i w') /\ CS (h_cc e').
Proof.
  intros id w e addrs data w' e' o H S C. apply eu_write7_split in H as (i1 & c1 & done & E & -> & -> & _).
  rewrite w_i_set_wi. eapply cc_write_cycle_S; eauto.
Qed.

Lemma eu_run7_S : forall labels ord cycle id w e w' e' o, eu_run7 hk labels ord cycle id w e = Ok (w', e', o) ->
  SI (w_i w) -> CS (h_cc e) -> SI (w_i w') /\ CS (h_cc e').
Proof.
  intros labels ord cycle id w e w' e' o H S C. apply eu_run7_split in H as [([F _] & -> & _)|(w0 & addrs & data & [F _] & H)].
  - rewrite F. split; assumption.
  - eapply eu_write7_S; [exact H| rewrite F; exact S|exact C].
Qed.

Lemma eu_read7_S : forall labels ord cycle id w e addrs w' e' o, eu_read7 hk labels ord cycle id w e addrs = Ok (w', e', o) ->
  SI (w_i w) -> CS (h_cc e) -> SI (w_i w') /\ CS (h_cc e').
Proof.
  intros labels ord cycle id w e addrs w' e' o H S C. apply eu_read7_split in H as (i1 & c1 & resp & E & H).
  destruct (cc_read_cycle_S _ _ _ _ _ _ _ _ E S C) as [S1 C1]. destruct resp.
  - eapply eu_run7_S; [exact H|rewrite w_i_set_wi; exact S1|exact C1].
  - destruct H as (-> & -> & _). rewrite w_i_set_wi. split; assumption.
Qed.

Lemma eu_prepare7_S : forall labels ord cycle id w e w' e' o, eu_prepare7 hk labels ord cycle id w e = Ok (w', e', o) ->
  SI (w_i w) -> CS (h_cc e) -> SI (w_i w') /\ CS (h_cc e').
Proof.
  intros labels ord cycle id w e w' e' o H S C.
  apply eu_prepare7_split in H as [([F _] & -> & _)|(w0 & e0 & [F _] & E0 & _ & _ & [H|[addrs H]])].
  - rewrite F. split; assumption.
  - eapply eu_run7_S; [exact H|rewrite F; exact S|]. cbn [set_hco h_cc]. rewrite E0. exact C.
  - eapply eu_read7_S; [exact H|rewrite F; exact S|rewrite E0; exact C].
Qed.

Lemma eu_flush7_S : forall i e i' e', eu_flush7 i e = Ok (i', e') -> SI i -> CS (h_cc e) -> SI i' /\ CS (h_cc e').
Proof.
  intros i e i' e' H S C. unfold eu_flush7 in H. apply bind_ok in H as ([i1 c1] & E & H). inv H.
  cbn [fst snd h_cc]. eapply cc_flush_S; eauto.
Qed.

Lemma eu_cycle7_S : forall labels ord cycle id w e w' e' o, eu_cycle7 hk labels ord cycle id w e = Ok (w', e', o) ->
  SI (w_i w) -> CS (h_cc e) -> SI (w_i w') /\ CS (h_cc e').
Proof.
  intros labels ord cycle id w e w' e' o H S C. unfold eu_cycle7 in H. destruct (eu_pre7 e).
  - destruct (k_pending hk w (h_seq e)); [discriminate|]. apply bind_ok in H as ([i1 e1] & E & H). inv H.
    cbn [fst snd]. rewrite w_i_set_wi. eapply eu_flush7_S; eauto.
  - destruct (h_co e).
    + pose proof (hf_take hk HF id w) as [T _]. destruct (k_take hk id w) as [w1 [r|]]; cbn [fst] in T.
      * eapply eu_prepare7_S; [exact H|rewrite T; exact S|exact C].
      * inv H. rewrite T. split; assumption.
    + eapply eu_prepare7_S; eauto.
    + eapply eu_read7_S; eauto.
    + eapply eu_write7_S; eauto.
Qed.

Definition CSs (eus : list eu7) : Prop := Forall (fun e => CS (h_cc e)) eus.

Lemma eus_main7_S : forall labels ord cycle eus id w acc w' eus' o,
  eus_main7 hk labels ord cycle id w eus acc = Ok (w', eus', o) -> SI (w_i w) -> CSs eus -> SI (w_i w') /\ CSs eus'.
Proof.
  intros labels ord cycle. induction eus as [|e t IH]; intros id w acc w' eus' o H S C; cbn [eus_main7] in H.
  - inv H. split; assumption.
  - inversion C as [|? ? C1 C2]; subst. apply bind_ok in H as ([[w1 e1] o1] & E1 & H).
    apply eu_cycle7_S in E1 as [S1 D1]; [|exact S|exact C1].
    destruct (y_err o1); [inv H; split; [exact S1|constructor; assumption]|].
    apply bind_ok in H as ([[w2 t'] acc2] & E2 & H). inv H. apply IH in E2 as [S2 D2]; [|exact S1|exact C2].
    split; [exact S2|constructor; assumption].
Qed.

Lemma eus_drain7_S : forall labels ord cycle eus id w w' eus' o,
  eus_drain7 hk labels ord cycle id w eus = Ok (w', eus', o) -> SI (w_i w) -> CSs eus -> SI (w_i w') /\ CSs eus'.
Proof.
  intros labels ord cycle. induction eus as [|e t IH]; intros id w w' eus' o H S C; cbn [eus_drain7] in H.
  - inv H. split; assumption.
  - inversion C as [|? ? C1 C2]; subst. destruct (eu_empty7 e).
    + apply bind_ok in H as ([[w2 t'] er] & E2 & H). inv H. apply IH in E2 as [S2 D2]; [|exact S|exact C2].
      split; [exact S2|constructor; assumption].
    + apply bind_ok in H as ([[w1 e1] o1] & E1 & H).
      apply eu_cycle7_S in E1 as [S1 D1]; [|exact S|exact C1].
      destruct (y_err o1); [inv H; split; [exact S1|constructor; assumption]|].
      apply bind_ok in H as ([[w2 t'] er] & E2 & H). inv H. apply IH in E2 as [S2 D2]; [|exact S1|exact C2].
      split; [exact S2|constructor; assumption].
Qed.

Lemma eus_flush7_S : forall labels ord from eus id w acc w' eus' o,
  eus_flush7 hk labels ord from id w eus acc = Ok (w', eus', o) -> SI (w_i w) -> CSs eus -> SI (w_i w') /\ CSs eus'.
Proof.
  intros labels ord from. induction eus as [|e t IH]; intros id w acc w' eus' o H S C; cbn [eus_flush7] in H.
  - inv H. split; assumption.
  - inversion C as [|? ? C1 C2]; subst. destruct (_ && _).
    + apply bind_ok in H as ([[w2 t'] er] & E2 & H). inv H. apply IH in E2 as [S2 D2]; [|exact S|exact C2].
      split; [exact S2|constructor; assumption].
    + apply bind_ok in H as ([[w1 e1] o1] & E1 & H).
      apply eu_cycle7_S in E1 as [S1 D1]; [|exact S|exact C1].
      destruct (y_err o1); [inv H; split; [exact S1|constructor; assumption]|].
      apply bind_ok in H as ([[w2 t'] er] & E2 & H). inv H. apply IH in E2 as [S2 D2]; [|exact S1|exact C2].
      split; [exact S2|constructor; assumption].
Qed.

Lemma eus_final7_S : forall labels ord cycle eus id w w' eus' o,
  eus_final7 hk labels ord cycle id w eus = Ok (w', eus', o) -> SI (w_i w) -> CSs eus -> SI (w_i w') /\ CSs eus'.
Proof.
  intros labels ord cycle. induction eus as [|e t IH]; intros id w w' eus' o H S C; cbn [eus_final7] in H.
  - inv H. split; assumption.
  - inversion C as [|? ? C1 C2]; subst. destruct (_ && _).
    + apply bind_ok in H as ([[w2 t'] er] & E2 & H). inv H. apply IH in E2 as [S2 D2]; [|exact S|exact C2].
      split; [exact S2|constructor; assumption].
    + apply bind_ok in H as ([[w1 e1] o1] & E1 & H).
      apply eu_cycle7_S in E1 as [S1 D1]; [|exact S|exact C1].
      apply bind_ok in H as ([[w2 t'] er] & E2 & H). inv H. apply IH in E2 as [S2 D2]; [|exact S1|exact C2].
      split; [exact S2|constructor; assumption].
Qed.

Lemma snoops7_S : forall eus id w w' eus', snoops7 hk id w eus = Ok (w', eus') -> SI (w_i w) -> CSs eus -> SI (w_i w') /\ CSs eus'.
Proof.
  induction eus as [|e t IH]; intros id w w' eus' H S C; cbn [snoops7] in H.
  - inv H. split; assumption.
  - inversion C as [|? ? C1 C2]; subst. apply bind_ok in H as ([[mem1 i1] c1] & E1 & H).
    apply cc_snoop_cycle_S in E1 as [S1 D1]; [|apply (hf_evict hk HF)|exact S|exact C1].
    apply bind_ok in H as ([w2 t'] & E2 & H). inv H. apply IH in E2 as [S2 D2]; [|exact S1|exact C2].
    split; [exact S2|constructor; assumption].
Qed.

Lemma eus_flush_all7_S : forall eus i i' eus', eus_flush_all7 i eus = Ok (i', eus') -> SI i -> CSs eus -> SI i' /\ CSs eus'.
Proof.
  induction eus as [|e t IH]; intros i i' eus' H S C; cbn [eus_flush_all7] in H.
  - inv H. split; assumption.
  - inversion C as [|? ? C1 C2]; subst. apply bind_ok in H as ([i1 e1] & E1 & H).
    apply eu_flush7_S in E1 as [S1 D1]; [|exact S|exact C1].
    apply bind_ok in H as ([i2 t'] & E2 & H). inv H. apply IH in E2 as [S2 D2]; [|exact S1|exact C2].
    split; [exact S2|constructor; assumption].
Qed.

Definition StructSt (s : st7) : Prop := SI (st_msi s) /\ CSs (v_eus s).

Lemma ret_check7_S : forall s s', ret_check7 s = UCont s' -> StructSt s -> StructSt s'.
Proof. intros s s' H S. unfold ret_check7 in H. destruct (_ && _); inv H; exact S. Qed.

Lemma flush_advance7_S : forall s k seq pc from empty s', flush_advance7 s k seq pc from empty = UCont s' -> StructSt s -> StructSt s'.
Proof.
  intros s k seq pc from empty s' H [S C]. unfold flush_advance7 in H. destruct (flush_next _ _ _).
  - inv H. split; assumption.
  - destruct empty; [|inv H; split; assumption].
    apply res_of7_cont in H as ([i1 eus1] & E & H). inv H. apply eus_flush_all7_S in E as [S1 C1]; [|exact S|exact C].
    split; assumption.
Qed.

Lemma CSs_map_seq : forall eus q, CSs eus -> CSs (map (fun e => mk_eu7 (h_co e) (h_memory e) (h_runner e) q (h_cc e)) eus).
Proof. intros eus q H. induction H; constructor; assumption. Qed.

Lemma back7_S : forall s cycle w eus o s', back7 s cycle (w, eus, o) = UCont s' -> SI (w_i w) -> CSs eus -> StructSt s'.
Proof.
  intros s cycle w eus o s' H S C. unfold back7 in H. destruct (y_err o); [discriminate|].
  apply res_of7_cont in H as ([x wus1] & E & H). destruct (y_ret o).
  - eapply ret_check7_S; [exact H|]. split; assumption.
  - destruct (y_flush o); [inv H; split; [exact S|apply CSs_map_seq; exact C]|].
    destruct (is_empty7 x eus wus1); inv H; split; assumption.
Qed.

Theorem step7_struct : forall app labels ord s s', step7 hk app labels ord s = UCont s' -> StructSt s -> StructSt s'.
Proof.
  intros app labels ord s s' H [S C]. unfold step7 in H. unfold st_msi in S. destruct (v_mode s) eqn:M.
  - apply res_of7_cont in H as (w1 & E1 & H). apply (hf_front hk HF) in E1 as [F _].
    apply res_of7_cont in H as ([w2 eus2] & E2 & H). apply snoops7_S in E2 as [S2 C2]; [|rewrite F; exact S|exact C].
    apply res_of7_cont in H as ([[w3 eus3] o] & E3 & H). apply eus_main7_S in E3 as [S3 C3]; [|exact S2|exact C2].
    eapply back7_S; eauto.
  - apply res_of7_cont in H as ([w2 eus2] & E2 & H). apply snoops7_S in E2 as [S2 C2]; [|exact S|exact C].
    apply res_of7_cont in H as ([[w3 eus3] er] & E3 & H). apply eus_drain7_S in E3 as [S3 C3]; [|exact S2|exact C2].
    destruct er; [discriminate|]. apply res_of7_cont in H as ([x2 wus1] & E4 & H).
    eapply ret_check7_S; [exact H|]. split; assumption.
  - apply res_of7_cont in H as ([w2 eus2] & E2 & H). apply snoops7_S in E2 as [S2 C2]; [|exact S|exact C].
    apply res_of7_cont in H as ([[w3 eus3] acc] & E3 & H). apply eus_flush7_S in E3 as [S3 C3]; [|exact S2|exact C2].
    destruct (a_err acc); [discriminate|]. eapply flush_advance7_S; [exact H|]. split; assumption.
  - destruct (nth_error (v_wus s) k); [|discriminate]. apply res_of7_cont in H as ([x u] & E & H).
    eapply flush_advance7_S; [exact H|]. split; assumption.
  - apply res_of7_cont in H as ([w2 eus2] & E2 & H). apply snoops7_S in E2 as [S2 C2]; [|exact S|exact C].
    apply res_of7_cont in H as ([[w3 eus3] sk] & E3 & H). apply eus_final7_S in E3 as [S3 C3]; [|exact S2|exact C2].
    destruct (_ && _); inv H. split; assumption.
Qed.

Theorem reach7_struct : forall app labels ord s0 s, reach7 hk app labels ord s0 s -> StructSt s0 -> StructSt s.
Proof. intros app labels ord s0 s R S0. induction R; [exact S0|]. eapply step7_struct; eauto. Qed.

End Struct.

(* the initial state *)
Lemma SI_new : SI msi_new.
Proof. split; [intros a|intros id a]; unfold sem_get, state_get, msi_new, stInvalid; cbn; lia. Qed.

Lemma init7_struct : forall par ord app st s, init7 par ord app st = Ok s -> StructSt s.
Proof.
  intros par ord app st s H. unfold init7 in H. destruct (init3 par ord app st); try discriminate.
  destruct (new_cache l1LineSize l1Size) as [l1d| |] eqn:EC; try discriminate. inv H.
  split; [exact SI_new|]. cbn [v_eus]. unfold CSs. apply Forall_forall. intros e He. apply repeat_spec in He. subst e.
  cbn [h_cc]. split; [|split; exact I]. cbn [c_l1d]. vm_compute in EC. inv EC.
  split; [reflexivity|]. split; [intros x0; cbn; lia|intros l []].
Qed.

(* from the structural invariant to the clauses *)
Lemma StructSt_clauses : forall s, StructSt s -> C06Struct70_st s.
Proof.
  intros s [[A B] C]. split; [|split; assumption]. intros n e He. unfold core in He. apply nth_error_In in He.
  unfold CSs in C. rewrite Forall_forall in C. apply (C e He).
Qed.

Theorem mvp70_struct : forall par ord app labels st s0 s, init7 par ord app st = Ok s0 ->
  reach7 hooks70 app labels ord s0 s -> C06Struct70_st s.
Proof.
  intros par ord app labels st s0 s I R. apply StructSt_clauses.
  eapply reach7_struct; [exact hooks70_frame|exact R|]. eapply init7_struct; eauto.
Qed.

(* the states a run of mvp70_run goes through are reach7-states *)
Lemma run7_st_reach : forall hk fuel app labels ord s0 s s', reach7 hk app labels ord s0 s ->
  run7_st hk fuel app labels ord s = inr s' -> reach7 hk app labels ord s0 s'.
Proof.
  intros hk. induction fuel as [|f IH]; intros app labels ord s0 s s' R H; cbn [run7_st] in H.
  - inv H. exact R.
  - destruct (step7 hk app labels ord s) as [r os|s1] eqn:E; [discriminate|]. eapply IH; [|exact H].
    eapply r7a_step; eauto.
Qed.
