(* C06 - the boolean L3 / data-value judge of a snapshot is the Prop:
   l3_b s = true <-> L3SInv s  (definitions in Msi/L3Invariant.v). *)
From Coq Require Import List ZArith Lia Bool Arith.
From Maj Require Import Msi.Protocol Msi.Invariant Msi.SnapProofs Msi.L3Protocol Msi.L3Invariant Msi.L3Lemmas.
Import ListNotations.
Open Scope Z_scope.

(* mem_line (Msi/Invariant.v) and inq (Msi/L3Protocol.v) are the same test *)
Lemma mem_line_iff x l : mem_line x l = true <-> In x l.
Proof. exact (inq_iff x l). Qed.

Lemma nodup_lines_iff l : nodup_lines l = true <-> NoDup l.
Proof.
  induction l as [|a l IH]; cbn [nodup_lines].
  - split; [constructor|reflexivity].
  - rewrite andb_true_iff, negb_true_iff, IH. split.
    + intros [H1 H2]. constructor; auto. intro Hin. apply mem_line_iff in Hin. congruence.
    + intros H. inversion H; subst. split; auto.
      destruct (mem_line a l) eqn:E; auto. apply mem_line_iff in E. contradiction.
Qed.

Lemma l3_wf_iff s : l3_wf_b s = true <-> l3_wellformed s.
Proof.
  unfold l3_wf_b, l3_wellformed. rewrite andb_true_iff, nodup_lines_iff, forallb_forall.
  split; intros [Hn H]; split; auto.
  - intros a d Hin. specialize (H _ Hin). cbn beta iota in H. rewrite andb_true_iff, !Z.eqb_eq in H. exact H.
  - intros [a d] Hin. destruct (H a d Hin). rewrite andb_true_iff, !Z.eqb_eq. auto.
Qed.

Lemma l3_cap_iff s : l3_cap_b s = true <-> l3_within_capacity s.
Proof. unfold l3_cap_b, l3_within_capacity. apply Z.leb_le. Qed.

Lemma l3_clean_iff s : l3_clean_b s = true <-> l3_clean_eq_memory s.
Proof.
  unfold l3_clean_b, l3_clean_eq_memory. rewrite forallb_forall. split.
  - intros H a d Hin Hd. specialize (H _ Hin). cbn beta iota in H. rewrite Hd in H. simpl in H.
    now apply data_eqb_eq.
  - intros H [a d] Hin. destruct (mem_line a (sn_l3dirty s)) eqn:E; auto. simpl.
    apply data_eqb_eq. now apply H.
Qed.

Lemma opt_data_eqb_eq o d : opt_data_eqb o d = true <-> o = Some d.
Proof.
  destruct o as [d'|]; simpl.
  - rewrite data_eqb_eq. split; [intros ->; reflexivity|intros H; now inversion H].
  - split; discriminate.
Qed.

Lemma dv_entry_iff s k d :
  forallb (fun i => negb (mstate_eqb (s_ms s i k) M) || opt_data_eqb (s_l1 s i k) d) (cores_of s) &&
  (existsb (fun i => mstate_eqb (s_ms s i k) M) (cores_of s) || data_eqb (s_next s k) d) = true
  <-> (forall i, (i < sn_cores s)%nat -> s_ms s i k = M -> s_l1 s i k = Some d) /\
      ((forall i, (i < sn_cores s)%nat -> s_ms s i k <> M) -> s_next s k = d).
Proof.
  rewrite andb_true_iff, forallb_forall. split.
  - intros [H1 H2]. split.
    + intros i Hi HM. specialize (H1 i (proj2 (in_cores s i) Hi)).
      rewrite orb_true_iff, negb_true_iff in H1. destruct H1 as [H1|H1].
      * apply mstate_eqb_eq in HM. congruence.
      * now apply opt_data_eqb_eq.
    + intros Hn. rewrite orb_true_iff in H2. destruct H2 as [H2|H2].
      * apply existsb_exists in H2. destruct H2 as [i [Hin HM]]. apply in_cores in Hin.
        apply mstate_eqb_eq in HM. exfalso. exact (Hn i Hin HM).
      * now apply data_eqb_eq.
  - intros [H1 H2]. split.
    + intros i Hin. apply in_cores in Hin. destruct (mstate_eqb (s_ms s i k) M) eqn:E; auto. simpl.
      apply opt_data_eqb_eq. apply H1; auto. now apply mstate_eqb_eq.
    + destruct (existsb (fun i => mstate_eqb (s_ms s i k) M) (cores_of s)) eqn:E; auto. simpl.
      apply data_eqb_eq. apply H2. intros i Hi HM.
      assert (X : existsb (fun i => mstate_eqb (s_ms s i k) M) (cores_of s) = true).
      { apply existsb_exists. exists i. split; [now apply in_cores|now apply mstate_eqb_eq]. }
      congruence.
Qed.

Lemma dv_iff s : dv_b s = true <-> data_value s.
Proof.
  unfold dv_b, data_value. rewrite forallb_forall. split.
  - intros H k d Hin. specialize (H _ Hin). cbn beta iota in H. now apply dv_entry_iff.
  - intros H [k d] Hin. apply dv_entry_iff. now apply H.
Qed.

Theorem l3_b_correct : forall s, l3_b s = true <-> L3SInv s.
Proof.
  intros s. unfold l3_b, L3SInv. rewrite !andb_true_iff, l3_wf_iff, l3_cap_iff, l3_clean_iff, dv_iff. tauto.
Qed.

(* the list of violated clauses is empty exactly when the judge says true *)
Theorem violated3_nil : forall s, violated3 s = [] <-> l3_b s = true.
Proof.
  intros s. unfold violated3, l3_b.
  destruct (l3_wf_b s), (l3_cap_b s), (l3_clean_b s), (dv_b s); simpl; split; intros; congruence.
Qed.
