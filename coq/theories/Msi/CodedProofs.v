(* C06 - the code as it is (no guard on the lock transitions), flush excluded:
   the supporting conjunct J (an outstanding command is justified by a core
   that holds the line's semaphore and waits for it, or by its own target
   evicting the line for capacity) is inductive, and under Inv + J a lock
   transition never finds a command outstanding for (requester, line).  So
   Inv /\ J holds in every reachable state of step N false NoFlush. *)
From Coq Require Import List ZArith Lia Bool Arith.
From Maj Require Import Msi.Protocol Msi.Invariant Msi.InvProofs Msi.StepProofs.
Import ListNotations.
Open Scope Z_scope.

Section Coded.
Variable N : nat.
Notation Inv := (Inv N).
Notation J := (J N).
Notation just := (just N).
Notation step0 := (step N false NoFlush).

(* the phases that justify a command, and what they say about it *)
Lemma justifies_inv p h j l c : justifies p h j l c ->
  match p with
  | RdWait k => k = l /\ h <> j /\ c = Wb
  | WrWait k | UpgWait k => k = l /\ h <> j
  | RdFilled _ (Some a) | WrFilled _ (Some a) => a = l /\ h = j
  | _ => False
  end.
Proof. intros [[Hne [->|[->|[-> Hc]]]]|[He [l' [->| ->]]]]; auto. Qed.

(* core i moves to phase p': a command is justified afterwards when i justifies
   it now, or it is an old command that i was not the one to justify *)
Lemma J_move s s' i p' : J s -> (i < N)%nat -> (forall h, ph s' h = upd (ph s) i p' h) ->
  (forall j l, (j < N)%nat -> cm s' j l <> NoCmd ->
     justifies p' i j l (cm s' j l) \/
     (cm s' j l = cm s j l /\ ~ justifies (ph s i) i j l (cm s j l))) ->
  J s'.
Proof.
  intros J0 Hi Hp H j l Hj Hc. destruct (H j l Hj Hc) as [X|[E X]].
  - exists i. split; auto. now rewrite Hp, upd_same.
  - rewrite E in *. destruct (J0 j l Hj Hc) as [h [Hh Y]]. exists h. split; auto.
    rewrite Hp, upd_other; auto. intros ->. contradiction.
Qed.

(* no core moves and no command appears *)
Lemma J_shrink s s' : J s -> (forall h, ph s' h = ph s h) ->
  (forall j l, cm s' j l = cm s j l \/ cm s' j l = NoCmd) -> J s'.
Proof.
  intros J0 Hp H j l Hj Hc. destruct (H j l) as [E|E]; [|contradiction].
  rewrite E in *. destruct (J0 j l Hj Hc) as [h [Hh X]]. exists h. split; auto. now rewrite Hp.
Qed.

Lemma cmd_is_kind s j l : Inv s -> (j < N)%nat -> ms s j l = M -> cm s j l <> NoCmd -> cm s j l = Wb.
Proof.
  intros I0 Hj Hm Hc. pose proof (cmd_kind _ _ _ (I0 l) j Hj) as K. unfold cmd_matches in K.
  destruct (cm s j l); congruence.
Qed.
Lemma cmd_is_kind_S s j l : Inv s -> (j < N)%nat -> ms s j l = S -> cm s j l <> NoCmd -> cm s j l = Ev.
Proof.
  intros I0 Hj Hm Hc. pose proof (cmd_kind _ _ _ (I0 l) j Hj) as K. unfold cmd_matches in K.
  destruct (cm s j l); congruence.
Qed.

(* an idle core has no command outstanding for a line whose semaphore would
   let it in: whoever justified the command would hold that semaphore *)
Lemma idle_no_cmd s i l : Inv s -> J s -> (i < N)%nat -> ph s i = Idle -> wc s l = 0 ->
  (ms s i l = M -> rc s l = 0) -> cm s i l = NoCmd.
Proof.
  intros I0 J0 Hi Hp Hw HM. destruct (cm s i l) eqn:Ec; auto; exfalso.
  all: destruct (J0 i l Hi ltac:(congruence)) as [h [Hh X]]; apply justifies_inv in X.
  all: pose proof (no_writer N s l (I0 l) h Hw Hh) as Nw.
  all: pose proof (cmd_kind _ _ _ (I0 l) i Hi) as K; rewrite Ec in *; simpl in K.
  (* h is core i evicting its victim - but i is idle -, or a writer waiting on l - but
     wc is 0 -, or a reader waiting for a write-back - but then i is Modified and rc is 0 *)
  all: destruct (ph s h) as [ |k| |k [a|]| | |k| |k [a|]|k| ] eqn:Eh; try contradiction.
  all: try (destruct X as [_ <-]; congruence).
  all: try (destruct X as [-> _]; rewrite wr_on_intro in Nw by reflexivity; discriminate).
  - destruct X as [_ [_ X]]. discriminate.
  - destruct X as [-> _]. pose proof (no_reader N s l (I0 l) h (HM K) Hh) as Nr.
    rewrite Eh, rd_on_intro in Nr by reflexivity. discriminate.
Qed.

(* a lock transition of the unguarded machine never meets an outstanding command *)
Lemma coded_lock_ok s lab s' i l : Inv s -> J s -> step0 s lab s' -> lock_target lab = Some (i, l) ->
  cm s i l = NoCmd.
Proof.
  intros I0 J0 Hs Hl.
  destruct Hs; simpl in Hl; try discriminate; inversion Hl; subst; apply idle_no_cmd; auto; congruence.
Qed.

Lemma J_step s lab s' : Inv s -> J s -> step0 s lab s' -> J s'.
Proof.
  intros I0 J0 Hs. destruct Hs.
  (* the premises of the transition, named by what they say *)
  all: try match goal with H : ph _ _ = _ |- _ => rename H into Hph end.
  all: try match goal with H : others_not_M _ _ _ _ |- _ => rename H into Hoth end.
  all: try match goal with H : others_I _ _ _ _ |- _ => rename H into Hoth end.
  (* no core moves (cmd_evict_done, cmd_writeback_done, export): commands only go *)
  all: try (apply (J_shrink s _ J0);
            [reflexivity|intros tj k; simpl; unfold upd2; try destruct (Nat.eqb tj j && Z.eqb k l); now auto]).
  (* a core moves (all the others but flush) *)
  all: try (eapply (J_move s _ i); [exact J0|assumption|intro; reflexivity|intros tj k Htj Hc; simpl in *]).
  (* where no command is sent: what did the phase that is left justify?  Nothing,
     if it is Idle, ShRd, OwnRd or OwnWr *)
  all: try (right; split; [reflexivity|rewrite Hph; intros X; apply justifies_inv in X; simpl in X; try contradiction]).
  - (* rlock_I: the requester waits for the write-backs it asks for *)
    destruct (req_read_spec s i l tj k) as [E|[-> [Hne [E _]]]]; rewrite E.
    + right. split; auto. rewrite Hph. exact (justifies_inv _ _ _ _ _).
    + left. left. auto.
  - (* fetch_rd waited for them: no other core is Modified any more *)
    destruct X as [<- [Hne Ec]]. pose proof (cmd_kind _ _ _ (I0 l) tj Htj) as K. rewrite Ec in K.
    exact (Hoth tj Htj ltac:(congruence) K).
  - (* fill_rd: the core waits for the eviction of its own victim *)
    destruct (req_victim_spec s i vic tj k) as [E|[-> [-> _]]]; [rewrite E|].
    + right. split; auto. rewrite Hph. exact (justifies_inv _ _ _ _ _).
    + left. right. eauto.
  - (* settle_rd waited for it *)
    destruct vic as [a|]; [|contradiction]. destruct X as [-> <-]. contradiction.
  - (* lock_I *)
    destruct (req_write_spec s i l tj k) as [E|[-> [Hne _]]]; [rewrite E|].
    + right. split; auto. rewrite Hph. exact (justifies_inv _ _ _ _ _).
    + left. left. auto.
  - (* fetch_wr: the other cores are Invalid, so they have no command *)
    destruct X as [<- Hne]. exact (cmd_nonI N s l (I0 l) tj Htj Hc (Hoth tj Htj ltac:(congruence))).
  - (* fill_wr *)
    destruct (req_victim_spec s i vic tj k) as [E|[-> [-> _]]]; [rewrite E|].
    + right. split; auto. rewrite Hph. exact (justifies_inv _ _ _ _ _).
    + left. right. eauto.
  - (* settle_wr *)
    destruct vic as [a|]; [|contradiction]. destruct X as [-> <-]. contradiction.
  - (* lock_S *)
    destruct (req_write_spec s i l tj k) as [E|[-> [Hne _]]]; [rewrite E|].
    + right. split; auto. rewrite Hph. exact (justifies_inv _ _ _ _ _).
    + left. left. auto.
  - (* settle_upg *)
    destruct X as [<- Hne]. exact (cmd_nonI N s l (I0 l) tj Htj Hc (Hoth tj Htj ltac:(congruence))).
  - (* flush is not a transition of this machine *) discriminate.
Qed.

Lemma J_init m0 : J (init m0).
Proof. intros j l Hj Hc. simpl in Hc. congruence. Qed.

Theorem inv_step_coded s lab s' : Inv s -> J s -> step0 s lab s' -> Inv s' /\ J s'.
Proof.
  intros I0 J0 Hs. split.
  - apply (inv_step N false NoFlush s lab s' I0 Hs). intros i l Hl. exact (coded_lock_ok s lab s' i l I0 J0 Hs Hl).
  - exact (J_step s lab s' I0 J0 Hs).
Qed.

End Coded.

(* every reachable state of the code-as-it-is machine without flush *)
Theorem inv_reachable_coded N s : reach N false NoFlush s -> Inv N s /\ J N s.
Proof.
  induction 1 as [m0|s lab s' Hr [I0 J0] Hs].
  - split; [apply inv_init|apply J_init].
  - exact (inv_step_coded N s lab s' I0 J0 Hs).
Qed.
