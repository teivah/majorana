(* C06 about the faithful model of MVP-7.0, part 3: the COMMAND invariant GI of the directory, on flush-free runs.

   Part 2 (M70Proofs2.v) abstracts a controller to (cur_post, cur_pend) and proves K1' (clause 1, counters, covers).
   Here a controller is abstracted to a VIEW (cur_post, cur_pend, cur_ev): cur_ev = the identity of the command the
   controller waits for in REvict / WEvict (the eviction of the line displaced by its own fill).  GI i views says,
   of every command (t, b, rq, c) of the directory:
     G1  its kind matches the state of its target: Evict <-> Shared, WriteBack <-> Modified;
     G2  its target is not inside a transaction on line b;
     G3  it is JUSTIFIED: the target waits for it (cur_ev = c), or the write counter of b is held, or it is a
         write-back and the read counter of b is held   (so the target can never take the semaphore of b);
     G4  a core that waits for its pending commands on line b (cur_pend = Some ps) has the identity of every
         command on b to another core in ps, unless that command is the target's own eviction;
     G5  a core past that wait sees only own-eviction commands on its line;
     G7  a core inside a READ transaction (PShareRUnlock / PRUnlock) on b is not Modified on b;
     G8  at most one command per (target, line).
   This replaces the conjuncts cmds_b / just_b of the boolean judge of M70Inv.v by statements over the
   semaphores, which are inductive without any timing argument.
   Seven abstract lemmas (stutter, commands sent by an acquire, pend exit, own eviction start / end, release,
   command done) are composed along coRead / coWrite / coSnoop exactly as in part 2. *)
From Coq Require Import ZArith List Bool Lia.
From Maj Require Import Base.Outcome Base.GoInt Base.GoTypes Isa.Spec Isa.Seq.
From Maj Require Import Gen.Latency Gen.RiscTables Gen.Opcodes Comp.Cache Comp.Rat Comp.RatProofs Mvp.Mvp12 Mvp.Mvp3 Mvp.Mvp5 Mvp.Mvp60 Mvp.Mvp63 Mvp.Mvp63Proofs Mvp.Mvp70 Mvp.Mvp70Proofs.
From Maj Require Import Msi.M70Inv Msi.M70Frame Msi.M70Proofs Msi.M70Proofs2.
Import ListNotations.
Open Scope Z_scope.

(* ------------------------------------------------------------------ *)
(* definitions                                                          *)
(* ------------------------------------------------------------------ *)

Definition cur_ev (c : cc7) : option Z :=
  match c_rd c with
  | REvict (Some x) _ => Some x
  | RStart => match c_wr c with WEvict (Some x) _ _ => Some x | _ => None end
  | _ => None
  end.

Definition view3 : Type := (option post7 * option (list Z) * option Z)%type.
Definition v3_cc (c : cc7) : view3 := (cur_post c, cur_pend c, cur_ev c).
Definition v3_of (e : eu7) : view3 := v3_cc (h_cc e).
Definition v_post (v : view3) : option post7 := fst (fst v).
Definition v_pend (v : view3) : option (list Z) := snd (fst v).
Definition v_ev (v : view3) : option Z := snd v.
Definition v_line (v : view3) : option Z := match v_post v with Some p => post_line p | None => None end.
Definition v_sum (v : view3) : summary := fst v.

Definition self_ev (vs : list view3) (t c : Z) : Prop :=
  exists n v, t = Z.of_nat n /\ nth_error vs n = Some v /\ v_ev v = Some c.

(* what the `post` closure of a transaction says about the state of its own core on its line *)
Definition own_ok (i : msi7) (id : Z) (p : post7) : Prop :=
  match p with
  | PNil => True
  | PShareRUnlock b => state_get i id b = stInvalid
  | PRUnlock b => state_get i id b = stShared
  | PUnlock b => state_get i id b = stModified
  | PModUnlock b => state_get i id b <> stModified
  end.

Definition kind_ok (i : msi7) (x : Z * Z * Z * Z) : Prop :=
  match x with (t, b, rq, _) =>
    (rq = rqEvict /\ state_get i t b = stShared) \/ (rq = rqWriteBack /\ state_get i t b = stModified) end.
Definition ckey (e : Z * Z * Z * Z) : Z * Z := match e with (t, b, _, _) => (t, b) end.

Record GI (i : msi7) (vs : list view3) : Prop := mk_GI {
  g1 : forall x, In x (i_cmds i) -> kind_ok i x;
  g2 : forall t b rq c n v, In (t, b, rq, c) (i_cmds i) -> t = Z.of_nat n -> nth_error vs n = Some v -> v_line v <> Some b;
  g3 : forall t b rq c, In (t, b, rq, c) (i_cmds i) ->
         self_ev vs t c \/ 1 <= snd (sem_get i b) \/ (rq = rqWriteBack /\ 1 <= fst (sem_get i b));
  g4 : forall n v ps b t rq c, nth_error vs n = Some v -> v_pend v = Some ps -> v_line v = Some b ->
         In (t, b, rq, c) (i_cmds i) -> t <> Z.of_nat n -> In c ps \/ self_ev vs t c;
  g5 : forall n v b t rq c, nth_error vs n = Some v -> v_pend v = None -> v_line v = Some b ->
         In (t, b, rq, c) (i_cmds i) -> t <> Z.of_nat n -> self_ev vs t c;
  g7 : forall n v p, nth_error vs n = Some v -> v_post v = Some p -> own_ok i (Z.of_nat n) p;
  g8 : NoDup (map ckey (i_cmds i));
  g9 : NoDup (map fst (i_states i)) }.

(* ------------------------------------------------------------------ *)
(* lists, views                                                         *)
(* ------------------------------------------------------------------ *)

Lemma v_line_post : forall v b, v_line v = Some b -> exists p, v_post v = Some p /\ post_line p = Some b.
Proof. intros v b H. unfold v_line in H. destruct (v_post v) as [p|]; [|discriminate]. eauto. Qed.

Section Mid.
Variables (d t : list view3).
Let id := Z.of_nat (length d).

Lemma self_ev_repl : forall v v' x c, self_ev (d ++ v :: t) x c -> (x = id -> v_ev v = Some c -> v_ev v' = Some c) ->
  self_ev (d ++ v' :: t) x c.
Proof.
  intros v v' x c (n & w & E & H & V) F. exists n. destruct (Nat.eq_dec n (length d)) as [->|N].
  - rewrite nth_error_mid in H. inv H. exists v'. split; [reflexivity|]. split; [apply nth_error_mid|]. apply F; [reflexivity|exact V].
  - exists w. split; [exact E|]. split; [|exact V]. rewrite (nth_error_mid_other d v v' t n N). exact H.
Qed.

Lemma self_ev_other : forall v v' x c, x <> id -> self_ev (d ++ v :: t) x c -> self_ev (d ++ v' :: t) x c.
Proof. intros v v' x c N H. eapply self_ev_repl; [exact H|]. intros E. contradiction. Qed.

Lemma self_ev_id : forall v c, self_ev (d ++ v :: t) id c -> v_ev v = Some c.
Proof.
  intros v c (n & w & E & H & V). unfold id in E. apply Nat2Z.inj in E. subst n. rewrite nth_error_mid in H. inv H. exact V.
Qed.

Lemma isdone_spec : forall i c x, cmd_isdone i c = true -> In x (i_cmds i) -> snd x <> c.
Proof.
  intros i c x H I E. unfold cmd_isdone in H. apply negb_true_iff in H.
  assert (existsb (fun e => snd e =? c) (i_cmds i) = true); [|congruence].
  apply existsb_exists. exists x. split; [exact I|]. apply Z.eqb_eq. exact E.
Qed.

(* the view of one core changes, the directory does not: same post; the pend phase may end when every pending
   command is done; the eviction wait may end when its command is done *)
Lemma GI_local : forall i v v', GI i (d ++ v :: t) -> v_post v' = v_post v ->
  (v_pend v' = v_pend v \/ (v_pend v' = None /\ exists ps, v_pend v = Some ps /\ all_done i ps = true)) ->
  (forall c, v_ev v = Some c -> v_ev v' = Some c \/ cmd_isdone i c = true) ->
  GI i (d ++ v' :: t).
Proof.
  intros i v v' G P Q R.
  assert (L : v_line v' = v_line v) by (unfold v_line; rewrite P; reflexivity).
  assert (SE : forall x b rq c, In (x, b, rq, c) (i_cmds i) -> self_ev (d ++ v :: t) x c -> self_ev (d ++ v' :: t) x c).
  { intros x b rq c I S. eapply self_ev_repl; [exact S|]. intros E V. destruct (R c V) as [A|A]; [exact A|].
    exfalso. exact (isdone_spec i c _ A I eq_refl). }
  constructor.
  - apply (g1 _ _ G).
  - intros x b rq c n w I E H. destruct (Nat.eq_dec n (length d)) as [->|N].
    + rewrite nth_error_mid in H. inv H. rewrite L. eapply (g2 _ _ G); [exact I|reflexivity|apply nth_error_mid].
    + rewrite (nth_error_mid_other d v v' t n N) in H. eapply (g2 _ _ G); eauto.
  - intros x b rq c I. destruct (g3 _ _ G _ _ _ _ I) as [S|S]; [left; eapply SE; eauto|right; exact S].
  - intros n w ps b x rq c H PE LI I NE. destruct (Nat.eq_dec n (length d)) as [->|N].
    + rewrite nth_error_mid in H. inv H. destruct Q as [Q|[Q _]]; [|congruence]. rewrite Q in PE. rewrite L in LI.
      destruct (g4 _ _ G _ _ _ _ _ _ _ (nth_error_mid d v t) PE LI I NE) as [A|A]; [left; exact A|right; eapply SE; eauto].
    + rewrite (nth_error_mid_other d v v' t n N) in H.
      destruct (g4 _ _ G _ _ _ _ _ _ _ H PE LI I NE) as [A|A]; [left; exact A|right; eapply SE; eauto].
  - intros n w b x rq c H PE LI I NE. destruct (Nat.eq_dec n (length d)) as [->|N].
    + rewrite nth_error_mid in H. inv H. rewrite L in LI. destruct Q as [Q|(_ & ps & Q & AD)].
      * rewrite Q in PE. eapply SE; [exact I|]. eapply (g5 _ _ G); eauto using nth_error_mid.
      * destruct (g4 _ _ G _ _ _ _ _ _ _ (nth_error_mid d v t) Q LI I NE) as [A|A]; [|eapply SE; eauto].
        exfalso. eapply all_done_spec; eauto.
    + rewrite (nth_error_mid_other d v v' t n N) in H. eapply SE; [exact I|]. eapply (g5 _ _ G); eauto.
  - intros n w p H PE. destruct (Nat.eq_dec n (length d)) as [->|N].
    + rewrite nth_error_mid in H. inv H. rewrite P in PE. eapply (g7 _ _ G); eauto using nth_error_mid.
    + rewrite (nth_error_mid_other d v v' t n N) in H. eapply (g7 _ _ G); eauto.
  - apply (g8 _ _ G).
  - apply (g9 _ _ G).
Qed.

End Mid.


(* the keys of msi.states are distinct *)
Lemma states_set_keys_in : forall l id a s k, In k (map fst (states_set l id a s)) -> In k (map fst l) \/ k = (id, a).
Proof.
  induction l as [|e t IH]; intros id a s k H; cbn [states_set] in H.
  - cbn in H. destruct H as [H|[]]. right. symmetry. exact H.
  - destruct ((fst (fst e) =? id) && (snd (fst e) =? a)) eqn:Q; cbn [map In] in *.
    + destruct H as [H|H]; [right; symmetry; exact H|left; right; exact H].
    + destruct H as [H|H]; [left; left; exact H|]. apply IH in H as [H|H]; [left; right; exact H|right; exact H].
Qed.
Lemma states_set_nodup : forall l id a s, NoDup (map fst l) -> NoDup (map fst (states_set l id a s)).
Proof.
  induction l as [|e t IH]; intros id a s N; cbn [states_set].
  - cbn. constructor; [intros []|constructor].
  - cbn [map] in N. inversion N as [|? ? N1 N2]; subst.
    destruct ((fst (fst e) =? id) && (snd (fst e) =? a)) eqn:Q; cbn [map fst].
    + apply andb_true_iff in Q as [Q1 Q2]. apply Z.eqb_eq in Q1, Q2. constructor; [|exact N2].
      destruct e as [[x y] z]. cbn [fst snd] in *. subst. exact N1.
    + constructor; [|apply IH; exact N2]. intros H. apply states_set_keys_in in H as [H|H]; [contradiction|].
      destruct e as [[x y] z]. cbn [fst snd] in *. inv H. rewrite !Z.eqb_refl in Q. discriminate.
Qed.
Lemma state_get_in : forall i t a s, NoDup (map fst (i_states i)) -> In (t, a, s) (i_states i) -> state_get i t a = s.
Proof.
  intros i t a s. unfold state_get. induction (i_states i) as [|e l IH]; intros N H; [destruct H|].
  cbn [map] in N. inversion N as [|? ? N1 N2]; subst. cbn [find].
  destruct ((fst (fst e) =? t) && (snd (fst e) =? a)) eqn:Q.
  - destruct H as [->|H]; [reflexivity|]. exfalso. apply N1. apply andb_true_iff in Q as [Q1 Q2]. apply Z.eqb_eq in Q1, Q2.
    destruct e as [[x y] z]. cbn [fst snd] in *. subst. apply (in_map fst) in H. exact H.
  - destruct H as [->|H]; [cbn [fst snd] in Q; rewrite !Z.eqb_refl in Q; discriminate|]. apply IH; assumption.
Qed.

(* a command completes *)
Lemma GI_cmd_done : forall i vs m a rq c, GI i vs -> In (m, a, rq, c) (i_cmds i) -> GI (cmd_done i m a rq) vs.
Proof.
  intros i vs m a rq c G I0.
  assert (SUB : forall x, In x (i_cmds (cmd_done i m a rq)) -> In x (i_cmds i) /\ cmd_key x m a rq = false).
  { intros x H. unfold cmd_done in H. cbn [i_cmds] in H. apply filter_In in H as [H1 H2]. split; [exact H1|].
    apply negb_true_iff in H2. exact H2. }
  assert (SEM : forall b, sem_get (cmd_done i m a rq) b = sem_get i b).
  { intros b. rewrite (same_ss_sem _ _ _ (cmd_done_ss i m a rq)). apply sem_get_state_set. }
  constructor.
  - intros x H. apply SUB in H as [H1 H2]. pose proof (g1 _ _ G _ H1) as K. destruct x as [[[x b] rq'] c']. unfold kind_ok in *.
    rewrite state_get_cmd_done. destruct ((x =? m) && (b =? a)) eqn:Q; [|exact K]. exfalso.
    apply andb_true_iff in Q as [Q1 Q2]. apply Z.eqb_eq in Q1, Q2. subst x b.
    assert (E : (m, a, rq', c') = (m, a, rq, c)) by (eapply (NoDup_map_inj ckey); [apply (g8 _ _ G)|exact H1|exact I0|reflexivity]).
    inv E. cbn [cmd_key] in H2. rewrite !Z.eqb_refl in H2. discriminate.
  - intros x b rq' c' n v H E N. apply SUB in H as [H _]. eapply (g2 _ _ G); eauto.
  - intros x b rq' c' H. apply SUB in H as [H _]. rewrite SEM. eapply (g3 _ _ G); eauto.
  - intros n v ps b x rq' c' N P L H NE. apply SUB in H as [H _]. eapply (g4 _ _ G); eauto.
  - intros n v b x rq' c' N P L H NE. apply SUB in H as [H _]. eapply (g5 _ _ G); eauto.
  - intros n v p N P. pose proof (g7 _ _ G _ _ _ N P) as O.
    assert (X : forall b, post_line p = Some b -> state_get (cmd_done i m a rq) (Z.of_nat n) b = state_get i (Z.of_nat n) b).
    { intros b PL. rewrite state_get_cmd_done. destruct ((Z.of_nat n =? m) && (b =? a)) eqn:Q; [|reflexivity]. exfalso.
      apply andb_true_iff in Q as [Q1 Q2]. apply Z.eqb_eq in Q1, Q2. subst b.
      eapply (g2 _ _ G _ _ _ _ n v I0); [symmetry; exact Q1|exact N|]. unfold v_line. rewrite P. exact PL. }
    destruct p; cbn [own_ok post_line] in *; try exact I; rewrite X; auto.
  - unfold cmd_done. cbn [i_cmds]. apply NoDup_map_filter. apply (g8 _ _ G).
  - unfold cmd_done, state_set. cbn [i_states]. apply states_set_nodup. apply (g9 _ _ G).
Qed.

(* ------------------------------------------------------------------ *)
(* release, semaphores, new commands, entering a transaction            *)
(* ------------------------------------------------------------------ *)

Definition idle3 : view3 := (None, None, None).

Lemma nth_mid_cases : forall (d t : list view3) v n w, nth_error (d ++ v :: t) n = Some w ->
  (n = length d /\ w = v) \/ (n <> length d /\ forall v', nth_error (d ++ v' :: t) n = Some w).
Proof.
  intros d t v n w H. destruct (Nat.eq_dec n (length d)) as [->|N].
  - rewrite nth_error_mid in H. inv H. left. split; reflexivity.
  - right. split; [exact N|]. intros v'. rewrite (nth_error_mid_other d v v' t n N). exact H.
Qed.

Section Mid2.
Variables (d t : list view3).
Let id := Z.of_nat (length d).

(* the `post` closure runs *)
Lemma GI_release : forall i p i', GI i (d ++ (Some p, None, None) :: t) -> run_post i id p = Ok i' ->
  GI i' (d ++ idle3 :: t).
Proof.
  intros i p i' G R.
  set (v := (Some p, @None (list Z), @None Z) : view3) in *.
  assert (exists a, post_line p = Some a) as [a PL] by (destruct p; cbn [run_post] in R; try discriminate; cbn; eauto).
  assert (CM : i_cmds i' = i_cmds i).
  { destruct p; cbn [run_post] in R; try discriminate; unfold sem_runlock, sem_unlock in R;
      destruct (sem_get _ _) as [r w]; destruct (_ <? 0); inv R; reflexivity. }
  assert (ST : forall x b, (x = id -> b <> a) -> state_get i' x b = state_get i x b).
  { intros x b NE. destruct p; cbn [run_post post_line] in *; try discriminate; inv PL; unfold sem_runlock, sem_unlock in R;
      destruct (sem_get _ _) as [r w] eqn:SG; destruct (_ <? 0); inv R; rewrite ?state_get_sem_set, ?state_get_state_set; try reflexivity;
      (destruct ((x =? id) && (b =? a)) eqn:Q; [|reflexivity]); apply andb_true_iff in Q as [Q1 Q2]; apply Z.eqb_eq in Q1, Q2;
      exfalso; apply NE; assumption. }
  assert (SM : forall b, b <> a -> sem_get i' b = sem_get i b).
  { intros b NE. destruct p; cbn [run_post post_line] in *; try discriminate; inv PL; unfold sem_runlock, sem_unlock in R;
      destruct (sem_get _ _) as [r w] eqn:SG; destruct (_ <? 0); inv R; rewrite sem_get_sem_set;
      (destruct (b =? a) eqn:Q; [apply Z.eqb_eq in Q; contradiction|]); rewrite ?sem_get_state_set; reflexivity. }
  assert (NOID : forall b rq c, In (id, b, rq, c) (i_cmds i) -> b <> a).
  { intros b rq c I E. subst b. eapply (g2 _ _ G _ _ _ _ (length d) v I); [reflexivity|apply nth_error_mid|]. exact PL. }
  assert (LV : v_line v = Some a) by exact PL.
  assert (SE : forall x c, self_ev (d ++ v :: t) x c -> self_ev (d ++ idle3 :: t) x c).
  { intros x c S. eapply self_ev_repl; [exact S|]. intros _ V. discriminate. }
  constructor.
  - intros x I. rewrite CM in I. pose proof (g1 _ _ G _ I) as K. destruct x as [[[x b] rq] c]. unfold kind_ok in *.
    rewrite ST; [exact K|]. intros E. subst x. eapply NOID; eauto.
  - intros x b rq c n w I E H. rewrite CM in I. destruct (nth_mid_cases _ _ _ _ _ H) as [[-> ->]|[N H']]; [discriminate|].
    eapply (g2 _ _ G); [exact I|exact E|apply H'].
  - intros x b rq c I. rewrite CM in I. destruct (Z.eq_dec b a) as [->|NB].
    + left. destruct (Z.eq_dec x id) as [->|NX]; [exfalso; eapply NOID; eauto|].
      apply SE. eapply (g5 _ _ G (length d) v); [apply nth_error_mid|reflexivity|exact LV|exact I|exact NX].
    + rewrite (SM _ NB). destruct (g3 _ _ G _ _ _ _ I) as [S|S]; [left; apply SE; exact S|right; exact S].
  - intros n w ps b x rq c H PE LI I NE. rewrite CM in I. destruct (nth_mid_cases _ _ _ _ _ H) as [[-> ->]|[N H']]; [discriminate|].
    destruct (g4 _ _ G _ _ _ _ _ _ _ (H' v) PE LI I NE) as [A|A]; [left; exact A|right; apply SE; exact A].
  - intros n w b x rq c H PE LI I NE. rewrite CM in I. destruct (nth_mid_cases _ _ _ _ _ H) as [[-> ->]|[N H']]; [discriminate|].
    apply SE. eapply (g5 _ _ G); [apply (H' v)|exact PE|exact LI|exact I|exact NE].
  - intros n w q H PE. destruct (nth_mid_cases _ _ _ _ _ H) as [[-> ->]|[N H']]; [discriminate|].
    pose proof (g7 _ _ G _ _ _ (H' v) PE) as O.
    assert (NI : Z.of_nat n <> id) by (unfold id; lia).
    destruct q; cbn [own_ok] in *; try exact I; rewrite ST; auto; intros; contradiction.
  - rewrite CM. apply (g8 _ _ G).
  - destruct p; cbn [run_post] in R; try discriminate; unfold sem_runlock, sem_unlock in R;
      destruct (sem_get _ _) as [r w]; destruct (_ <? 0); inv R; cbn [sem_set state_set i_states];
      try apply states_set_nodup; apply (g9 _ _ G).
Qed.

End Mid2.

(* the counters of a line grow (RLock / Lock succeeded) *)
Lemma GI_sem_up : forall i i' vs, GI i vs -> i_states i' = i_states i -> i_cmds i' = i_cmds i ->
  (forall b, fst (sem_get i b) <= fst (sem_get i' b) /\ snd (sem_get i b) <= snd (sem_get i' b)) -> GI i' vs.
Proof.
  intros i i' vs G S C M.
  assert (ST : forall x b, state_get i' x b = state_get i x b) by (intros; unfold state_get; rewrite S; reflexivity).
  constructor.
  - intros x I. rewrite C in I. pose proof (g1 _ _ G _ I) as K. destruct x as [[[x b] rq] c]. unfold kind_ok in *. rewrite ST. exact K.
  - intros x b rq c n v I. rewrite C in I. eapply (g2 _ _ G); eauto.
  - intros x b rq c I. rewrite C in I. destruct (M b) as [M1 M2].
    destruct (g3 _ _ G _ _ _ _ I) as [A|[A|[A B]]]; [left; exact A|right; left; lia|right; right; split; [exact A|lia]].
  - intros n v ps b x rq c N P L I. rewrite C in I. eapply (g4 _ _ G); eauto.
  - intros n v b x rq c N P L I. rewrite C in I. eapply (g5 _ _ G); eauto.
  - intros n v p N P. pose proof (g7 _ _ G _ _ _ N P) as O. destruct p; cbn [own_ok] in *; try exact I; rewrite ST; exact O.
  - rewrite C. apply (g8 _ _ G).
  - rewrite S. apply (g9 _ _ G).
Qed.

Lemma sem_rlock_ok : forall i a i1, SI i -> sem_rlock i a = (i1, true) ->
  i_states i1 = i_states i /\ i_cmds i1 = i_cmds i /\ snd (sem_get i a) = 0 /\ snd (sem_get i1 a) = 0 /\ 1 <= fst (sem_get i1 a) /\
  (forall b, fst (sem_get i b) <= fst (sem_get i1 b) /\ snd (sem_get i b) <= snd (sem_get i1 b)).
Proof.
  intros i a i1 [C5 _] H. destruct (sem_rlock_moved _ _ _ H) as (W & S & C & M). destruct (C5 a) as (A & B & _).
  destruct (M a) as [M1 M2]. rewrite Z.eqb_refl in M1, M2. split; [exact S|]. split; [exact C|].
  split; [lia|]. split; [lia|]. split; [lia|]. intros b. destruct (M b) as [N1 N2]. destruct (b =? a); lia.
Qed.

Lemma sem_lock_ok : forall i a i1, SI i -> sem_lock i a = (i1, true) ->
  i_states i1 = i_states i /\ i_cmds i1 = i_cmds i /\ fst (sem_get i a) = 0 /\ snd (sem_get i a) = 0 /\ 1 <= snd (sem_get i1 a) /\
  (forall b, fst (sem_get i b) <= fst (sem_get i1 b) /\ snd (sem_get i b) <= snd (sem_get i1 b)).
Proof.
  intros i a i1 [C5 _] H. destruct (sem_lock_moved _ _ _ H) as (R & W & S & C & M). destruct (C5 a) as (A & B & _).
  destruct (M a) as [M1 M2]. rewrite Z.eqb_refl in M1, M2. split; [exact S|]. split; [exact C|].
  split; [lia|]. split; [lia|]. split; [lia|]. intros b. destruct (M b) as [N1 N2]. destruct (b =? a); lia.
Qed.

(* one more command *)
Definition add_cmd (i : msi7) (x : Z * Z * Z * Z) : msi7 :=
  mk_msi7 (i_sems i) (i_states i) (i_cmds i ++ [x]) (i_next i + 1) (i_stale i).

Lemma msi_send_cases : forall i t b rq i' c, msi_send i t b rq = (i', c) ->
  (i' = i /\ In (t, b, rq, c) (i_cmds i)) \/ (i' = add_cmd i (t, b, rq, c) /\ forall c', ~ In (t, b, rq, c') (i_cmds i)).
Proof.
  intros i t b rq i' c H. unfold msi_send in H. destruct (find _ _) as [e|] eqn:F; inv H.
  - left. split; [reflexivity|]. apply find_some in F as [F1 F2].
    destruct e as [[[x y] z] c0]. cbn [cmd_key snd] in *. apply andb_true_iff in F2 as [F2 F3].
    apply andb_true_iff in F2 as [F2 F4]. apply Z.eqb_eq in F2, F3, F4. subst. exact F1.
  - right. split; [reflexivity|]. intros c' I. eapply find_none in F; [|exact I]. cbn [cmd_key] in F. rewrite !Z.eqb_refl in F. discriminate.
Qed.

Lemma GI_add : forall i vs t b rq c, GI i vs -> kind_ok i (t, b, rq, c) ->
  (forall n v, t = Z.of_nat n -> nth_error vs n = Some v -> v_line v <> Some b) ->
  (self_ev vs t c \/ 1 <= snd (sem_get i b) \/ (rq = rqWriteBack /\ 1 <= fst (sem_get i b))) ->
  (forall n v, nth_error vs n = Some v -> v_line v = Some b -> t <> Z.of_nat n -> self_ev vs t c) ->
  (forall c', ~ In (t, b, rq, c') (i_cmds i)) -> GI (add_cmd i (t, b, rq, c)) vs.
Proof.
  intros i vs t b rq c G K N2 J N45 NF.
  assert (CS : forall x, In x (i_cmds (add_cmd i (t, b, rq, c))) -> In x (i_cmds i) \/ x = (t, b, rq, c)).
  { intros x H. cbn [add_cmd i_cmds] in H. apply in_app_or in H as [H|[H|[]]]; [left; exact H|right; symmetry; exact H]. }
  constructor.
  - intros x H. apply CS in H as [H| ->]; [|exact K]. pose proof (g1 _ _ G _ H) as K'. destruct x as [[[x b'] rq'] c']. exact K'.
  - intros x b' rq' c' n v H E NV. apply CS in H as [H|H]; [eapply (g2 _ _ G); eauto|]. inv H. eapply N2; eauto.
  - intros x b' rq' c' H. apply CS in H as [H|H]; [exact (g3 _ _ G _ _ _ _ H)|]. inv H. exact J.
  - intros n v ps b' x rq' c' NV P L H NE. apply CS in H as [H|H]; [eapply (g4 _ _ G); eauto|]. inv H. right. eapply N45; eauto.
  - intros n v b' x rq' c' NV P L H NE. apply CS in H as [H|H]; [eapply (g5 _ _ G); eauto|]. inv H. eapply N45; eauto.
  - intros n v p NV P. exact (g7 _ _ G _ _ _ NV P).
  - cbn [add_cmd i_cmds]. rewrite map_app. cbn [map ckey]. apply NoDup_snoc; [apply (g8 _ _ G)|].
    intros H. apply in_map_iff in H as ([[[x b'] rq'] c'] & E & H). cbn [ckey] in E. inv E.
    pose proof (g1 _ _ G _ H) as K'. cbn [kind_ok] in K, K'.
    assert (rq' = rq) by (destruct K as [[? ?]|[? ?]], K' as [[? ?]|[? ?]]; subst; try reflexivity; unfold stShared, stModified in *; congruence).
    subst rq'. exact (NF _ H).
  - apply (g9 _ _ G).
Qed.

(* a request is sent to core x on line a while the views vs stand: what makes it legal *)
Definition send_ok (i : msi7) (vs : list view3) (x a rq : Z) : Prop :=
  kind_ok i (x, a, rq, 0) /\
  (forall n v, x = Z.of_nat n -> nth_error vs n = Some v -> v_line v <> Some a) /\
  (1 <= snd (sem_get i a) \/ (rq = rqWriteBack /\ 1 <= fst (sem_get i a))) /\
  (forall n v, nth_error vs n = Some v -> v_line v = Some a -> x <> Z.of_nat n -> exists c', In (x, a, rq, c') (i_cmds i)).

Lemma GI_send : forall i0 i vs x a rq i' c, GI i vs -> send_ok i0 vs x a rq -> same_ss i0 i -> incl (i_cmds i0) (i_cmds i) ->
  msi_send i x a rq = (i', c) -> GI i' vs /\ same_ss i0 i' /\ incl (i_cmds i0) (i_cmds i').
Proof.
  intros i0 i vs x a rq i' c G (K & N2 & J & N45) S C H. apply msi_send_cases in H as [[-> _]|[-> NF]]; [auto|].
  split; [|split; [exact S|cbn [add_cmd i_cmds]; apply incl_appl; exact C]].
  apply GI_add; [exact G| | | | |exact NF].
  - cbn [kind_ok] in *. rewrite (same_ss_state _ _ _ _ S). exact K.
  - exact N2.
  - right. rewrite (same_ss_sem _ _ _ S). exact J.
  - intros n v NV L NE. exfalso. destruct (N45 n v NV L NE) as [c' I]. apply (NF c'). apply C. exact I.
Qed.

Lemma sends_GI : forall i0 vs a pick l acc, GI (fst acc) vs -> same_ss i0 (fst acc) -> incl (i_cmds i0) (i_cmds (fst acc)) ->
  (forall x s rq, In (x, s) l -> pick s = Some rq -> send_ok i0 vs x a rq) -> GI (fst (sends a pick l acc)) vs.
Proof.
  intros i0 vs a pick l acc G S C OK.
  apply (sends_inv a pick (fun acc => GI (fst acc) vs /\ same_ss i0 (fst acc) /\ incl (i_cmds i0) (i_cmds (fst acc)))); [auto|].
  intros acc0 x s rq (G0 & S0 & C0) IN P. destruct (msi_send (fst acc0) x a rq) as [i1 c] eqn:E.
  exact (GI_send _ _ _ _ _ _ _ _ G0 (OK x s rq IN P) S0 C0 E).
Qed.

Lemma others_spec : forall i id a x s, NoDup (map fst (i_states i)) -> In (x, s) (msi_others i id a) -> x <> id /\ state_get i x a = s.
Proof.
  intros i id a x s N H. unfold msi_others in H. apply in_map_iff in H as ([[y b] z] & E & H). cbn [fst snd] in E. inv E.
  apply filter_In in H as [H Q]. cbn [fst snd] in Q. apply andb_true_iff in Q as [Q1 Q2]. apply Z.eqb_eq in Q2. subst b.
  split; [intros ->; rewrite Z.eqb_refl in Q1; discriminate|]. apply state_get_in; assumption.
Qed.

(* ------------------------------------------------------------------ *)
(* acquire                                                              *)
(* ------------------------------------------------------------------ *)

Lemma K1'_view : forall i vs n v, K1' i (map v_sum vs) -> nth_error vs n = Some v -> sum_ok i (Z.of_nat n) (v_sum v).
Proof. intros i vs n v (_ & _ & _ & E) H. apply E. apply map_nth_error. exact H. Qed.

Lemma no_w_view : forall i vs a n v p, K1' i (map v_sum vs) -> snd (sem_get i a) = 0 -> nth_error vs n = Some v ->
  v_post v = Some p -> post_w p a = false.
Proof.
  intros i vs a n v p (_ & _ & D & _) Z0 H P. destruct (D a) as [_ D2]. rewrite Z0 in D2. symmetry in D2.
  pose proof (cnt_zero_inv _ _ D2 (v_sum v)) as X. unfold sw, v_sum in X. unfold v_post in P. rewrite P in X. apply X.
  apply in_map. eapply nth_error_In; eauto.
Qed.
Lemma no_r_view : forall i vs a n v p, K1' i (map v_sum vs) -> fst (sem_get i a) = 0 -> nth_error vs n = Some v ->
  v_post v = Some p -> post_r p a = false.
Proof.
  intros i vs a n v p (_ & _ & D & _) Z0 H P. destruct (D a) as [D2 _]. rewrite Z0 in D2. symmetry in D2.
  pose proof (cnt_zero_inv _ _ D2 (v_sum v)) as X. unfold sr, v_sum in X. unfold v_post in P. rewrite P in X. apply X.
  apply in_map. eapply nth_error_In; eauto.
Qed.

Lemma post_rw_line : forall p a, post_line p = Some a -> post_r p a = false -> post_w p a = false -> False.
Proof. intros p a L R W. destruct p; cbn in *; try discriminate; inv L; rewrite Z.eqb_refl in *; discriminate. Qed.
Lemma post_r_cases : forall p a, post_line p = Some a -> post_w p a = false -> p = PShareRUnlock a \/ p = PRUnlock a.
Proof. intros p a L W. destruct p; cbn in *; try discriminate; inv L; auto; rewrite Z.eqb_refl in W; discriminate. Qed.

Section Acq.
Variables (d t : list view3).
Let id := Z.of_nat (length d).
Let vs0 := d ++ idle3 :: t.

Lemma GI_enter : forall i p ps a, GI i vs0 -> post_line p = Some a ->
  (forall rq c, ~ In (id, a, rq, c) (i_cmds i)) ->
  (forall x rq c, In (x, a, rq, c) (i_cmds i) -> x <> id -> In c ps \/ self_ev vs0 x c) ->
  own_ok i id p -> GI i (d ++ (Some p, Some ps, None) :: t).
Proof.
  intros i p ps a G PL N2 N4 OW. set (v := (Some p, Some ps, @None Z) : view3).
  assert (SE : forall x c, self_ev vs0 x c -> self_ev (d ++ v :: t) x c).
  { intros x c S. eapply self_ev_repl; [exact S|]. intros _ V. discriminate. }
  constructor.
  - apply (g1 _ _ G).
  - intros x b rq c n w I E H. destruct (nth_mid_cases _ _ _ _ _ H) as [[-> ->]|[N H']].
    + unfold v_line. cbn. rewrite PL. intros Q. inv Q. eapply N2; eauto.
    + eapply (g2 _ _ G); [exact I|exact E|apply H'].
  - intros x b rq c I. destruct (g3 _ _ G _ _ _ _ I) as [S|S]; [left; apply SE; exact S|right; exact S].
  - intros n w ps' b x rq c H PE LI I NE. destruct (nth_mid_cases _ _ _ _ _ H) as [[-> ->]|[N H']].
    + cbn in PE. inv PE. unfold v_line in LI. cbn in LI. rewrite PL in LI. inv LI.
      destruct (N4 _ _ _ I NE) as [A|A]; [left; exact A|right; apply SE; exact A].
    + destruct (g4 _ _ G _ _ _ _ _ _ _ (H' idle3) PE LI I NE) as [A|A]; [left; exact A|right; apply SE; exact A].
  - intros n w b x rq c H PE LI I NE. destruct (nth_mid_cases _ _ _ _ _ H) as [[-> ->]|[N H']]; [discriminate|].
    apply SE. eapply (g5 _ _ G); [apply (H' idle3)|exact PE|exact LI|exact I|exact NE].
  - intros n w q H PE. destruct (nth_mid_cases _ _ _ _ _ H) as [[-> ->]|[N H']].
    + cbn in PE. inv PE. exact OW.
    + eapply (g7 _ _ G); [apply (H' idle3)|exact PE].
  - apply (g8 _ _ G).
  - apply (g9 _ _ G).
Qed.

Lemma idle_line : forall n v b, nth_error vs0 n = Some v -> v_line v = Some b -> n <> length d.
Proof. intros n v b H L ->. unfold vs0 in H. rewrite nth_error_mid in H. inv H. discriminate. Qed.

(* a hit: every command on the line is the target's own eviction, nothing is pending *)
Lemma GI_enter_own : forall i p a, GI i vs0 -> post_line p = Some a ->
  (forall x rq c, In (x, a, rq, c) (i_cmds i) -> self_ev vs0 x c) -> own_ok i id p -> GI i (d ++ (Some p, Some [], None) :: t).
Proof.
  intros i p a G PL ALL OW. apply (GI_enter i p [] a G PL); [|intros x rq c I _; right; eapply ALL; eauto|exact OW].
  intros rq c I. apply ALL in I. apply self_ev_id in I. discriminate.
Qed.

(* the targets of a write request *)
Lemma send_ok_w : forall i i1 a x rq, GI i vs0 -> K1' i (map v_sum vs0) -> sem_lock i a = (i1, true) -> x <> id ->
  kind_ok i (x, a, rq, 0) -> send_ok i1 vs0 x a rq.
Proof.
  intros i i1 a x rq G K L NX KO. destruct (sem_lock_ok _ _ _ (proj1 K) L) as (S & C & R0 & W0 & W1 & _).
  assert (NOTX : forall n v, nth_error vs0 n = Some v -> v_line v = Some a -> False).
  { intros n v H LI. apply v_line_post in LI as (p & P & PL).
    eapply post_rw_line; [exact PL|eapply no_r_view; eauto|eapply no_w_view; eauto]. }
  split; [|split; [|split]].
  - cbn [kind_ok] in *. unfold state_get in *. rewrite S. exact KO.
  - intros n v _ H LI. eapply NOTX; eauto.
  - left. exact W1.
  - intros n v H LI. exfalso. eapply NOTX; eauto.
Qed.

(* the targets of a read request *)
Lemma send_ok_r : forall i i1 a x, GI i vs0 -> K1' i (map v_sum vs0) -> sem_rlock i a = (i1, true) -> x <> id ->
  state_get i x a = stModified -> send_ok i1 vs0 x a rqWriteBack.
Proof.
  intros i i1 a x G K L NX M. destruct (sem_rlock_ok _ _ _ (proj1 K) L) as (S & C & W0 & _ & R1 & _).
  assert (RD : forall n v, nth_error vs0 n = Some v -> v_line v = Some a -> exists p, v_post v = Some p /\ (p = PShareRUnlock a \/ p = PRUnlock a)).
  { intros n v H LI. apply v_line_post in LI as (p & P & PL). exists p. split; [exact P|].
    apply post_r_cases; [exact PL|eapply no_w_view; eauto]. }
  split; [|split; [|split]].
  - cbn [kind_ok]. right. split; [reflexivity|]. unfold state_get in *. rewrite S. exact M.
  - intros n v E H LI. exfalso. destruct (RD _ _ H LI) as (p & P & [-> | ->]); pose proof (g7 _ _ G _ _ _ H P) as O; cbn [own_ok] in O;
      rewrite <- E in O; rewrite O in M; discriminate.
  - right. split; [reflexivity|exact R1].
  - intros n v H LI NE. destruct (RD _ _ H LI) as (p & P & PP). rewrite C.
    pose proof (K1'_view _ _ _ _ K H) as SO. pose proof (g7 _ _ G _ _ _ H P) as O.
    destruct K as (_ & C1 & _ & _). unfold v_sum in SO. destruct v as [[vp vq] ve]. cbn [v_post fst snd] in *. subst vp.
    destruct PP as [-> | ->].
    + destruct vq as [ps'|]; cbn [sum_ok pend_ok post_ok] in SO.
      * destruct (SO x NE M) as (c & _ & I). exists c. exact I.
      * exfalso. exact (SO x NE M).
    + exfalso. cbn [own_ok] in O. assert (Z.of_nat n <> x) by congruence. rewrite (C1 x (Z.of_nat n) a M H0) in O. discriminate.
Qed.

Lemma kind_of_state : forall i x a s c, state_get i x a = s -> (s = stModified -> kind_ok i (x, a, rqWriteBack, c)) /\ (s = stShared -> kind_ok i (x, a, rqEvict, c)).
Proof. intros i x a s c E. split; intros ->; cbn [kind_ok]; [right|left]; split; auto. Qed.

(* rLock succeeded *)
Lemma msi_rlock_GI : forall i a i' fetch ps post, GI i vs0 -> K1' i (map v_sum vs0) ->
  msi_rlock i id a = Ok (i', LGo fetch ps post) -> GI i' (d ++ (Some post, Some ps, None) :: t) /\ post_line post = Some a.
Proof.
  intros i a i' fetch ps post G K H. pose proof K as (SIi & C1 & _ & _).
  destruct (msi_rlock_cases _ _ _ _ _ H) as [[E _]|[(QI & i1 & ps0 & L & RR & E)|[(QM & L & E)|(QS & L & E)]]];
    [discriminate|injection E as -> <- ->|injection E as -> -> ->|injection E as -> -> ->]; (split; [|reflexivity]).
  - destruct (sem_rlock_ok _ _ _ SIi L) as (S & C & W0 & W1 & R1 & UP).
    assert (G1 : GI i1 vs0) by (eapply GI_sem_up; eauto).
    pose proof (msi_read_request_cover _ _ _ _ _ RR) as (SS & IC & CV).
    assert (G2 : GI i' vs0).
    { rewrite msi_read_request_sends in RR.
      pose proof (sends_GI i1 vs0 a pick_rr (msi_others i1 id a) (i1, []) G1 (same_ss_refl _) (incl_refl _)) as X.
      rewrite RR in X. apply X. intros x s rq IN P. unfold pick_rr in P. destruct (Z.eqb_spec s stModified) as [->|]; inv P.
      apply others_spec in IN as [NX ST]; [|apply (g9 _ _ G1)]. apply (send_ok_r i i1 a x G K L NX).
      unfold state_get in *. rewrite S in ST. exact ST. }
    assert (ST' : forall x b, state_get i' x b = state_get i x b).
    { intros. rewrite (same_ss_state _ _ _ _ SS). unfold state_get. rewrite S. reflexivity. }
    apply (GI_enter i' (PShareRUnlock a) ps a G2 eq_refl).
    + intros rq c I. pose proof (g1 _ _ G2 _ I) as KO. cbn [kind_ok] in KO. rewrite ST', QI in KO. destruct KO as [[_ ?]|[_ ?]]; discriminate.
    + intros x rq c I NX. pose proof (g1 _ _ G2 _ I) as KO. cbn [kind_ok] in KO. destruct KO as [[-> KS]|[-> KM]].
      * destruct (g3 _ _ G2 _ _ _ _ I) as [A|[A|[A _]]]; [right; exact A| |discriminate].
        rewrite (same_ss_sem _ _ _ SS) in A. lia.
      * left. destruct (CV x NX KM) as (c' & IC' & I').
        assert (E : (x, a, rqWriteBack, c') = (x, a, rqWriteBack, c)) by (eapply (NoDup_map_inj ckey); [apply (g8 _ _ G2)|exact I'|exact I|reflexivity]).
        inv E. exact IC'.
    + cbn [own_ok]. rewrite ST'. exact QI.
  - destruct (sem_lock_ok _ _ _ SIi L) as (S & C & R0 & W0 & W1 & UP).
    apply (GI_enter_own i' (PUnlock a) a); [eapply GI_sem_up; eauto|reflexivity| |cbn [own_ok]; unfold state_get in *; rewrite S; exact QM].
    intros x rq c I. rewrite C in I. destruct (g3 _ _ G _ _ _ _ I) as [A|[A|[_ A]]]; [exact A|lia|lia].
  - destruct (sem_rlock_ok _ _ _ SIi L) as (S & C & W0 & W1 & R1 & UP).
    apply (GI_enter_own i' (PRUnlock a) a); [eapply GI_sem_up; eauto|reflexivity| |cbn [own_ok]; unfold state_get in *; rewrite S; exact QS].
    intros x rq c I. rewrite C in I. destruct (g3 _ _ G _ _ _ _ I) as [A|[A|[-> A]]]; [exact A|lia|].
    exfalso. pose proof (g1 _ _ G _ I) as KO. cbn [kind_ok] in KO. destruct KO as [[? _]|[_ KM]]; [discriminate|].
    destruct (Z.eq_dec x id) as [->|NX]; [rewrite KM in QS; discriminate|].
    assert (NX' : id <> x) by congruence. rewrite (C1 x id a KM NX') in QS. discriminate.
Qed.

(* lock succeeded *)
Lemma msi_lock_GI : forall i a i' fetch ps post, GI i vs0 -> K1' i (map v_sum vs0) ->
  msi_lock i id a = Ok (i', LGo fetch ps post) -> GI i' (d ++ (Some post, Some ps, None) :: t) /\ post_line post = Some a.
Proof.
  intros i a i' fetch ps post G K H. pose proof K as (SIi & C1 & _ & _).
  assert (exists i1, sem_lock i a = (i1, true)) as [i1 L].
  { destruct (msi_lock_cases _ _ _ _ _ H) as [[E _]|[(_ & L & _)|(i1 & ? & ? & L & _)]]; [discriminate|eauto..]. }
  destruct (sem_lock_ok _ _ _ SIi L) as (S & C & R0 & W0 & W1 & UP).
  assert (G1 : GI i1 vs0) by (eapply GI_sem_up; eauto).
  assert (ALL : forall x rq c, In (x, a, rq, c) (i_cmds i1) -> self_ev vs0 x c).
  { intros x rq c I. rewrite C in I. destruct (g3 _ _ G _ _ _ _ I) as [A|[A|[_ A]]]; [exact A|lia|lia]. }
  assert (ST1 : forall x b, state_get i1 x b = state_get i x b) by (intros; unfold state_get; rewrite S; reflexivity).
  assert (INV : forall i2 ps2 p, msi_invalidate i1 id a = (i2, ps2) -> post_line p = Some a -> own_ok i id p ->
            GI i2 (d ++ (Some p, Some ps2, None) :: t)).
  { intros i2 ps2 p RR PL OW. pose proof (msi_invalidate_cover _ _ _ _ _ RR) as (SS & IC & CV1 & CV2).
    assert (G2 : GI i2 vs0).
    { rewrite msi_invalidate_sends in RR.
      pose proof (sends_GI i1 vs0 a pick_inv (msi_others i1 id a) (i1, []) G1 (same_ss_refl _) (incl_refl _)) as X.
      rewrite RR in X. apply X. intros x s rq IN P. apply others_spec in IN as [NX ST]; [|apply (g9 _ _ G1)]. rewrite ST1 in ST.
      apply (send_ok_w i i1 a x _ G K L NX). unfold pick_inv in P.
      destruct (Z.eqb_spec s stModified) as [->|]; [|destruct (Z.eqb_spec s stShared) as [->|]]; inv P; eapply kind_of_state; eauto. }
    assert (ST' : forall x b, state_get i2 x b = state_get i x b) by (intros; rewrite (same_ss_state _ _ _ _ SS); apply ST1).
    assert (OLD : forall x rq c, In (x, a, rq, c) (i_cmds i2) -> x <> id -> In c ps2 \/ self_ev vs0 x c).
    { intros x rq c I NX. pose proof (g1 _ _ G2 _ I) as KO. cbn [kind_ok] in KO. left. destruct KO as [[-> KS]|[-> KM]].
      - destruct (CV2 x NX KS) as (c' & IC' & I').
        assert (E : (x, a, rqEvict, c') = (x, a, rqEvict, c)) by (eapply (NoDup_map_inj ckey); [apply (g8 _ _ G2)|exact I'|exact I|reflexivity]).
        inv E. exact IC'.
      - destruct (CV1 x NX KM) as (c' & IC' & I').
        assert (E : (x, a, rqWriteBack, c') = (x, a, rqWriteBack, c)) by (eapply (NoDup_map_inj ckey); [apply (g8 _ _ G2)|exact I'|exact I|reflexivity]).
        inv E. exact IC'. }
    apply (GI_enter i2 p ps2 a G2 PL); [|exact OLD|].
    - intros rq c I.
      assert (NEWT : forall y, In y (i_cmds i2) -> In y (i_cmds i1) \/ fst (fst (fst y)) <> id).
      { rewrite msi_invalidate_sends in RR.
        pose proof (sends_inv a pick_inv (fun acc => forall y, In y (i_cmds (fst acc)) -> In y (i_cmds i1) \/ fst (fst (fst y)) <> id)
                      (msi_others i1 id a) (i1, [])) as X. rewrite RR in X. apply X; [auto|].
        intros acc x s rq0 Q IN _ y. apply others_spec in IN as [NX _]; [|apply (g9 _ _ G1)].
        destruct (msi_send (fst acc) x a rq0) as [j c0] eqn:E. apply msi_send_cases in E as [[-> _]|[-> _]]; [apply Q|].
        cbn [add_cmd i_cmds fst]. intros Y. apply in_app_or in Y as [Y|[<-|[]]]; [apply Q; exact Y|right; exact NX]. }
      destruct (NEWT _ I) as [I1|NE]; [|cbn [fst] in NE; contradiction]. apply ALL in I1. apply self_ev_id in I1. discriminate.
    - destruct p; cbn [own_ok] in *; try exact I; rewrite ST'; exact OW. }
  destruct (msi_lock_cases _ _ _ _ _ H) as [[E _]|[(QM & L' & E)|(j & ps0 & f & L' & RR & E & Q)]]; [discriminate| |];
    rewrite L in L'; injection L' as <-; [injection E as -> -> ->|injection E as -> <- ->]; (split; [|reflexivity]).
  - apply (GI_enter_own i1 (PUnlock a) a G1 eq_refl ALL). cbn [own_ok]. rewrite ST1. exact QM.
  - apply (INV _ _ (PModUnlock a) RR eq_refl). cbn [own_ok]. rewrite Q. destruct f; discriminate.
Qed.

End Acq.

(* ------------------------------------------------------------------ *)
(* the eviction of the line displaced by a fill                         *)
(* ------------------------------------------------------------------ *)

Section Ev.
Variables (d t : list view3).
Let id := Z.of_nat (length d).

Lemma GI_evict_start : forall i p vl i' pe, GI i (d ++ (Some p, None, None) :: t) ->
  (post_line p = Some vl -> state_get i id vl = stInvalid) -> msi_evict_extra i id vl = (i', pe) -> GI i' (d ++ (Some p, None, pe) :: t).
Proof.
  intros i p vl i' pe G NE H.
  assert (SEND : forall rq c, kind_ok i (id, vl, rq, c) -> msi_send i id vl rq = (i', c) -> GI i' (d ++ (Some p, None, Some c) :: t)).
  { intros rq c KO E.
    assert (G1 : GI i (d ++ (Some p, None, Some c) :: t)).
    { eapply GI_local; [exact G|reflexivity|left; reflexivity|]. intros c0 V. discriminate. }
    apply msi_send_cases in E as [[-> _]|[-> NF]]; [exact G1|].
    assert (SV : self_ev (d ++ (Some p, None, Some c) :: t) id c).
    { exists (length d), (Some p, None, Some c). split; [reflexivity|]. split; [apply nth_error_mid|reflexivity]. }
    apply GI_add; [exact G1|exact KO| |left; exact SV|intros; exact SV|exact NF].
    intros n v E H0. unfold id in E. apply Nat2Z.inj in E. subst n. rewrite nth_error_mid in H0. inv H0.
    unfold v_line. cbn. intros Q. apply NE in Q. cbn [kind_ok] in KO. rewrite Q in KO. destruct KO as [[_ ?]|[_ ?]]; discriminate. }
  unfold msi_evict_extra in H. destruct (state_get i id vl =? stShared) eqn:QS.
  - apply Z.eqb_eq in QS. destruct (msi_send i id vl rqEvict) as [i1 c] eqn:E. inv H. eapply SEND; [|exact E]. left. split; [reflexivity|exact QS].
  - destruct (state_get i id vl =? stModified) eqn:QM.
    + apply Z.eqb_eq in QM. destruct (msi_send i id vl rqWriteBack) as [i1 c] eqn:E. inv H. eapply SEND; [|exact E]. right. split; [reflexivity|exact QM].
    + inv H. exact G.
Qed.

End Ev.

(* ------------------------------------------------------------------ *)
(* cc.go: GI along coRead / coWrite                                     *)
(* ------------------------------------------------------------------ *)

Ltac v3cc := unfold v3_cc, cur_post, cur_pend, cur_ev;
  cbn [set_rd set_wr set_l1d set_post set_rsems set_wsems set_snoop c_l1d c_rd c_wr c_post].

Lemma msi_rlock_wait : forall i id a i', msi_rlock i id a = Ok (i', LWait) -> i' = i.
Proof.
  intros i id a i' H.
  destruct (msi_rlock_cases _ _ _ _ _ H) as [[_ E]|[(_ & ? & ? & _ & _ & E)|[(_ & _ & E)|(_ & _ & E)]]]; [exact E|discriminate..].
Qed.
Lemma msi_lock_wait : forall i id a i', msi_lock i id a = Ok (i', LWait) -> i' = i.
Proof.
  intros i id a i' H.
  destruct (msi_lock_cases _ _ _ _ _ H) as [[_ E]|[(_ & _ & E)|(? & ? & ? & _ & _ & E & _)]]; [exact E|discriminate..].
Qed.

(* what rLock / lock return *)
Lemma msi_rlock_shape : forall i id a i' fetch ps post, msi_rlock i id a = Ok (i', LGo fetch ps post) ->
  (forall x b, state_get i' x b = state_get i x b) /\
  ((fetch = true /\ post = PShareRUnlock a /\ state_get i id a = stInvalid) \/
   (fetch = false /\ ps = [] /\ ((post = PUnlock a /\ state_get i id a = stModified) \/ (post = PRUnlock a /\ state_get i id a = stShared)))).
Proof.
  intros i id a i' fetch ps post H. split; [apply (msi_rlock_frame _ _ _ _ _ H)|].
  destruct (msi_rlock_cases _ _ _ _ _ H) as [[E _]|[(Q & ? & ? & _ & _ & E)|[(Q & _ & E)|(Q & _ & E)]]]; inv E; auto 6.
Qed.

Lemma msi_lock_shape : forall i id a i' fetch ps post, msi_lock i id a = Ok (i', LGo fetch ps post) ->
  (forall x b, state_get i' x b = state_get i x b) /\
  ((fetch = true /\ post = PModUnlock a /\ state_get i id a = stInvalid) \/
   (fetch = false /\ ((post = PUnlock a /\ ps = [] /\ state_get i id a = stModified) \/ (post = PModUnlock a /\ state_get i id a = stShared)))).
Proof.
  intros i id a i' fetch ps post H. split; [apply (msi_lock_frame _ _ _ _ _ H)|].
  destruct (msi_lock_cases _ _ _ _ _ H) as [[E _]|[(Q & _ & E)|(? & ? & f & _ & _ & E & Q)]]; [discriminate|inv E; auto 6|].
  destruct f; inv E; auto 6.
Qed.

Definition post_I (i : msi7) (id : Z) (p : post7) : Prop := forall a, post_line p = Some a -> state_get i id a = stInvalid.

Section CoreG.
Variables (d t : list view3).
Let id := Z.of_nat (length d).

Definition G3Res (i' : msi7) (c' : cc7) : Prop := GI i' (d ++ v3_cc c' :: t).

Lemma rd_l1_G : forall i c addrs cyc data i' c' r, GI i (d ++ (Some (c_post c), None, None) :: t) -> c_wr c = WStart ->
  rd_l1 i id c addrs cyc data = Ok (i', c', r) -> G3Res i' c'.
Proof.
  intros i c addrs cyc data i' c' r K W H. unfold rd_l1 in H. unfold G3Res. destruct (0 <? cyc).
  - inv H. v3cc. exact K.
  - apply bind_ok in H as (i1 & E1 & H). apply bind_ok in H as (a & E2 & H). inv H.
    v3cc. rewrite W. eapply GI_release; eauto.
Qed.

Lemma rd_from_l1_G : forall i c addrs i' c' r, GI i (d ++ (Some (c_post c), None, None) :: t) -> c_wr c = WStart ->
  rd_from_l1 i id c addrs = Ok (i', c', r) -> G3Res i' c'.
Proof.
  intros i c addrs i' c' r K W H. unfold rd_from_l1 in H. apply bind_ok in H as ([l1 g] & E & H).
  destruct g; [|discriminate]. eapply rd_l1_G; [| |exact H]; [exact K|exact W].
Qed.

Lemma GI_ev_exit : forall i p pe, GI i (d ++ (Some p, None, pe) :: t) -> match pe with Some x => cmd_isdone i x = true | None => True end ->
  GI i (d ++ (Some p, None, None) :: t).
Proof.
  intros i p pe G D. eapply GI_local; [exact G|reflexivity|left; reflexivity|]. intros c0 V. cbn in V. subst pe. right. exact D.
Qed.

Lemma rd_evict_G : forall i c addrs pending post i' c' r, GI i (d ++ (Some post, None, pending) :: t) -> c_wr c = WStart ->
  rd_evict i id c addrs pending post = Ok (i', c', r) -> G3Res i' c'.
Proof.
  intros i c addrs pending post i' c' r K W H. unfold rd_evict in H.
  destruct pending as [p|]; [destruct (cmd_isdone i p) eqn:D; cbn [negb] in H|].
  - eapply rd_from_l1_G; [| |exact H]; [|exact W]. cbn [set_post c_post]. eapply GI_ev_exit; [exact K|exact D].
  - inv H. unfold G3Res. v3cc. exact K.
  - eapply rd_from_l1_G; [| |exact H]; [exact K|exact W].
Qed.

Lemma rd_fetch_G : forall i c addrs cyc la dt post i' c' r, GI i (d ++ (Some post, None, None) :: t) -> c_wr c = WStart ->
  post_I i id post -> rd_fetch i id c addrs cyc la dt post = Ok (i', c', r) -> G3Res i' c'.
Proof.
  intros i c addrs cyc la dt post i' c' r K W PI H. unfold rd_fetch in H. destruct (0 <? cyc).
  - inv H. unfold G3Res. v3cc. exact K.
  - apply bind_ok in H as ([c1 v] & E & H). cbn [fst snd] in H. destruct v as [victim|].
    + destruct (msi_evict_extra i id (lo victim)) as [i1 pe] eqn:EE. inv H. unfold G3Res. v3cc.
      pose proof (GI_evict_start d t i post (lo victim) i' pe K) as X.
      replace (match pe with Some x => Some x | None => None end) with pe by (destruct pe; reflexivity).
      apply X; [|exact EE]. apply PI.
    + eapply rd_from_l1_G; [| |exact H]; [exact K|exact W].
Qed.


Lemma GI_pend_exit : forall i p ps, GI i (d ++ (Some p, Some ps, None) :: t) -> all_done i ps = true ->
  GI i (d ++ (Some p, None, None) :: t).
Proof.
  intros i p ps G AD. eapply GI_local; [exact G|reflexivity| |intros c0 V; discriminate].
  right. split; [reflexivity|]. exists ps. split; [reflexivity|exact AD].
Qed.

Lemma rd_pend_G : forall mem i c addrs ps fetch post i' c' r, GI i (d ++ (Some post, Some ps, None) :: t) -> c_wr c = WStart ->
  (fetch = true -> post_I i id post) -> rd_pend mem i id c addrs ps fetch post = Ok (i', c', r) -> G3Res i' c'.
Proof.
  intros mem i c addrs ps fetch post i' c' r K W FI H. unfold rd_pend in H. destruct (all_done i ps) eqn:AD; cbn [negb] in H.
  - pose proof (GI_pend_exit _ _ _ K AD) as K2.
    destruct fetch; cbn [negb] in H; [|eapply rd_from_l1_G; [| |exact H]; [exact K2|exact W]].
    apply bind_ok in H as (a & E1 & H). apply bind_ok in H as (g & E2 & H). destruct g; [discriminate|].
    destruct addrs as [|a0 tl]; [discriminate|]. apply bind_ok in H as (ln & E3 & H).
    eapply rd_fetch_G; [| | |exact H]; [exact K2|exact W|apply FI; reflexivity].
  - inv H. unfold G3Res. v3cc. exact K.
Qed.

Lemma rd_start_G : forall mem i c addrs i' c' r, GI i (d ++ idle3 :: t) -> K1' i (map v_sum (d ++ idle3 :: t)) ->
  c_rd c = RStart -> c_wr c = WStart -> rd_start mem i id c addrs = Ok (i', c', r) -> G3Res i' c'.
Proof.
  intros mem i c addrs i' c' r K K1 R W H. unfold rd_start in H. apply bind_ok in H as (a & E1 & H).
  apply bind_ok in H as ([i1 lr] & E2 & H). cbn [fst snd] in H. destruct lr as [|fetch ps post].
  - inv H. apply msi_rlock_wait in E2. subst i'. unfold G3Res. v3cc. rewrite R, W. exact K.
  - destruct (msi_rlock_GI d t _ _ _ _ _ _ K K1 E2) as [G2 PL]. destruct (msi_rlock_shape _ _ _ _ _ _ _ E2) as [ST SH].
    eapply rd_pend_G; [| | |exact H]; [exact G2|exact W|]. intros F b PB.
    destruct SH as [(_ & -> & SI)|(F' & _)]; [|congruence]. cbn in PB. inv PB. rewrite ST. exact SI.
Qed.

(* what the stored phases of a controller say about the state of its own core on the line being fetched *)
Definition FetchI (i : msi7) (id : Z) (c : cc7) : Prop :=
  match c_rd c with RPend _ true p | RFetch _ _ _ p => post_I i id p | _ => True end /\
  match c_wr c with WPend _ true p | WFetch _ _ _ p => post_I i id p | _ => True end.

Lemma cc_read_cycle_G : forall mem i c addrs i' c' r, GI i (d ++ v3_cc c :: t) -> K1' i (map v_sum (d ++ v3_cc c :: t)) ->
  c_wr c = WStart -> FetchI i id c -> cc_read_cycle mem i id c addrs = Ok (i', c', r) -> G3Res i' c'.
Proof.
  intros mem i c addrs i' c' r K K1 W [FI _] H. unfold cc_read_cycle in H. unfold v3_cc, cur_post, cur_pend, cur_ev in K, K1.
  destruct (c_rd c) eqn:E.
  - rewrite W in K, K1. eapply rd_start_G; eauto.
  - eapply rd_pend_G; [exact K|exact W| |exact H]. intros ->. exact FI.
  - eapply rd_fetch_G; eauto.
  - eapply rd_evict_G; [|exact W|exact H]. destruct pending; exact K.
  - eapply rd_l1_G; eauto.
Qed.

(* ---- write ---- *)

Lemma wr_l1_G : forall i c addrs data cyc i' c' r, GI i (d ++ (Some (c_post c), None, None) :: t) -> c_rd c = RStart ->
  wr_l1 i id c addrs data cyc = Ok (i', c', r) -> G3Res i' c'.
Proof.
  intros i c addrs data cyc i' c' r K R H. unfold wr_l1 in H. unfold G3Res. destruct (0 <? cyc).
  - inv H. v3cc. rewrite R. exact K.
  - destruct addrs as [|a0 tl]; [discriminate|].
    apply bind_ok in H as (l1 & E0 & H). apply bind_ok in H as (i1 & E1 & H). apply bind_ok in H as (a & E2 & H). inv H.
    v3cc. rewrite R. eapply GI_release; eauto.
Qed.

Lemma wr_evict_G : forall i c addrs data pending cyc post i' c' r, GI i (d ++ (Some post, None, pending) :: t) -> c_rd c = RStart ->
  wr_evict i id c addrs data pending cyc post = Ok (i', c', r) -> G3Res i' c'.
Proof.
  intros i c addrs data pending cyc post i' c' r K R H. unfold wr_evict in H.
  destruct (match pending with Some p => negb (cmd_isdone i p) | None => false end) eqn:WT.
  - inv H. unfold G3Res. v3cc. rewrite R. destruct pending; exact K.
  - assert (K2 : GI i (d ++ (Some post, None, None) :: t)).
    { eapply GI_ev_exit; [exact K|]. destruct pending; [|exact I]. apply negb_false_iff in WT. exact WT. }
    destruct (0 <? cyc).
    + inv H. unfold G3Res. v3cc. rewrite R. destruct pending; exact K.
    + eapply wr_l1_G; [| |exact H]; [exact K2|exact R].
Qed.

Lemma wr_fetch_G : forall i c addrs data cyc la dt post i' c' r, GI i (d ++ (Some post, None, None) :: t) -> c_rd c = RStart ->
  post_I i id post -> wr_fetch i id c addrs data cyc la dt post = Ok (i', c', r) -> G3Res i' c'.
Proof.
  intros i c addrs data cyc la dt post i' c' r K R PI H. unfold wr_fetch in H. destruct (0 <? cyc).
  - inv H. unfold G3Res. v3cc. rewrite R. exact K.
  - apply bind_ok in H as ([c1 v] & E & H). cbn [fst snd] in H. destruct v as [victim|].
    + destruct (msi_evict_extra i id (lo victim)) as [i1 pe] eqn:EE. inv H. unfold G3Res. v3cc. rewrite R.
      pose proof (GI_evict_start d t i post (lo victim) i' pe K) as X.
      replace (match pe with Some x => Some x | None => None end) with pe by (destruct pe; reflexivity).
      apply X; [|exact EE]. apply PI.
    + eapply wr_l1_G; [| |exact H]; [exact K|exact R].
Qed.

Lemma wr_pend_G : forall mem i c addrs data ps fetch post i' c' r, GI i (d ++ (Some post, Some ps, None) :: t) -> c_rd c = RStart ->
  (fetch = true -> post_I i id post) -> wr_pend mem i id c addrs data ps fetch post = Ok (i', c', r) -> G3Res i' c'.
Proof.
  intros mem i c addrs data ps fetch post i' c' r K R FI H. unfold wr_pend in H. destruct (all_done i ps) eqn:AD; cbn [negb] in H.
  - pose proof (GI_pend_exit _ _ _ K AD) as K2.
    destruct fetch; [|eapply wr_l1_G; [| |exact H]; [exact K2|exact R]].
    destruct addrs as [|a0 tl]; [discriminate|]. apply bind_ok in H as (a & E1 & H). apply bind_ok in H as (ln & E3 & H).
    eapply wr_fetch_G; [| | |exact H]; [exact K2|exact R|apply FI; reflexivity].
  - inv H. unfold G3Res. v3cc. rewrite R. exact K.
Qed.

Lemma wr_start_G : forall mem i c addrs data i' c' r, GI i (d ++ idle3 :: t) -> K1' i (map v_sum (d ++ idle3 :: t)) ->
  c_rd c = RStart -> c_wr c = WStart -> wr_start mem i id c addrs data = Ok (i', c', r) -> G3Res i' c'.
Proof.
  intros mem i c addrs data i' c' r K K1 R W H. unfold wr_start in H. apply bind_ok in H as (a & E1 & H).
  apply bind_ok in H as ([i1 lr] & E2 & H). cbn [fst snd] in H. destruct lr as [|fetch ps post].
  - inv H. apply msi_lock_wait in E2. subst i'. unfold G3Res. v3cc. rewrite R, W. exact K.
  - destruct (msi_lock_GI d t _ _ _ _ _ _ K K1 E2) as [G2 PL]. destruct (msi_lock_shape _ _ _ _ _ _ _ E2) as [ST SH].
    eapply wr_pend_G; [| | |exact H]; [exact G2|exact R|]. intros F b PB.
    destruct SH as [(_ & -> & SI)|(F' & _)]; [|congruence]. cbn in PB. inv PB. rewrite ST. exact SI.
Qed.

Lemma cc_write_cycle_G : forall mem i c addrs data i' c' r, GI i (d ++ v3_cc c :: t) -> K1' i (map v_sum (d ++ v3_cc c :: t)) ->
  c_rd c = RStart -> FetchI i id c -> cc_write_cycle mem i id c addrs data = Ok (i', c', r) -> G3Res i' c'.
Proof.
  intros mem i c addrs data i' c' r K K1 R [_ FI] H. unfold cc_write_cycle in H. unfold v3_cc, cur_post, cur_pend, cur_ev in K, K1.
  rewrite R in K, K1. destruct (c_wr c) eqn:E.
  - eapply wr_start_G; eauto.
  - eapply wr_pend_G; [exact K|exact R| |exact H]. intros ->. exact FI.
  - eapply wr_fetch_G; eauto.
  - eapply wr_evict_G; [|exact R|exact H]. destruct pending; exact K.
  - eapply wr_l1_G; eauto.
Qed.

End CoreG.
