(* C06 - the L3 level AS CODED (Msi/L3Protocol.v, rep = false) leaves the
   invariants: kernel-checked witness traces, all with L3 lines of 128 bytes
   (two L1 lines of 64), an L3 of capacity ONE line (the code: 32; the traces
   need "L3 full", which a capacity of one gives at once) and initial memory
   m0 l = l.  No flush, L1 protocol as coded.

   (1) l3_refill_race_refuted - known finding C06-l3-refill-race: the copy of
       main memory taken when a miss starts is pushed into L3 after the
       write-back of a Modified L1 line of that L3 line went to memory: L3
       holds a line that is not marked dirty and differs from memory, the
       "current value" is no longer the last value written, a reader gets the
       old value.
   (2) l3_double_victim_panic_refuted / l3_double_victim_occupancy_refuted -
       known finding C06-l3-double-victim: two cores that fill the full L3 are
       both told to evict the same line; the second l3WriteBack command finds
       it gone (Go: panic "memory address should exist"); with l3Evict the
       second is ignored and L3 stays over capacity with nothing outstanding.
       l3_same_core_double_victim_refuted: one core is enough (coRead does not
       wait for its victim command).
   (3) l3_victim_kind_race_refuted - finding C06-l3-victim-kind-race (found by
       this model, then reproduced on the implementation): the kind of the
       victim command (l3Evict / l3WriteBack) is fixed when it is issued; an L1
       write-back into the victim line before the command runs is dropped with
       the line: the last value written is lost, the next reader gets the old
       value.  (In the implementation the command waits behind the snoop
       coroutine's own l1WriteBack of a Modified line of the victim.) *)
From Coq Require Import List ZArith Lia Bool Arith.
From Maj Require Import Msi.Protocol Msi.Invariant Msi.L3Protocol Msi.L3Invariant Msi.L3Lemmas Msi.Examples Msi.L3Examples.
Import ListNotations.
Open Scope Z_scope.

Definition m0 : line -> val := fun l => l.

Lemma trace3_reach N g fm rep w cap m s t s' :
  reach3 N g fm rep w cap m s -> trace3 N g fm rep w cap s t s' -> reach3 N g fm rep w cap m s'.
Proof. intros R T. induction T; auto. apply IHT. eapply reach3_step; eauto. Qed.

(* as in Msi/L3Examples.v, for the transitions of the refill as coded: kmr / kmw the copy
   of memory taken by a read / write miss, kp the push of that copy, kev / kwl the
   victim command l3Evict / l3WriteBack *)
Ltac kmr := eapply t3_cons;
  [eapply s3_mem_fetch; [reflexivity|lia|left; split; [reflexivity|others]|reflexivity|reflexivity]|simpl].
Ltac kmw := eapply t3_cons;
  [eapply s3_mem_fetch; [reflexivity|lia|right; split; [reflexivity|others]|reflexivity|reflexivity]|simpl].
Ltac kp := eapply t3_cons;
  [eapply s3_push; [reflexivity|lia|first [left; reflexivity|right; reflexivity]|reflexivity]|simpl].
Ltac kev := eapply t3_cons; [eapply s3_l3cmd_ev; simpl; tauto|simpl].
Ltac kwl := eapply t3_cons; [eapply s3_l3cmd_wb; simpl; tauto|simpl].

Notation T3 := (trace3 3 false NoFlush false 128 1).
Notation R3 := (reach3 3 false NoFlush false 128 1 m0).

(* named_witness (Msi/Examples.v) for a run from the initial state, whose last state is reachable *)
Lemma witness3 N g fm rep w cap m t s (P : st3 -> Prop) :
  trace3 N g fm rep w cap (init3 m) t s -> (let s' := s in P s') ->
  exists s, trace3 N g fm rep w cap (init3 m) t s /\ reach3 N g fm rep w cap m s /\ P s.
Proof.
  intros T H. apply (named_witness _ (fun s => reach3 N g fm rep w cap m s /\ P s) s T).
  split; [exact (trace3_reach _ _ _ _ _ _ _ _ _ _ (reach3_init _ _ _ _ _ _ _) T)|exact H].
Qed.

Lemma below3 (P : nat -> Prop) : P 0%nat -> P 1%nat -> P 2%nat -> forall i, (i < 3)%nat -> P i.
Proof. intros ? ? ? [|[|[|i]]] ?; auto; lia. Qed.

(* no core holds the line Modified and the next level differs from the last value written *)
Lemma not_DV N b lw l : (forall i, (i < N)%nat -> ms b i l <> M) -> mem b l <> lw l -> ~ DV N b lw.
Proof. intros Hn Hne D. exact (Hne (proj2 (D l) Hn)). Qed.

(* ---- (1) the refill race ---- *)
Definition race_trace : list label3 :=
  [ (* core 1 misses on line 0: the L3 line 0 (L1 lines 0 and 64) is copied out of memory *)
    K_core (L_rlock_I 1 0); K_mem_fetch 1 0;
    (* core 0 writes line 64 (same L3 line): refill, fetch, fill, settle: Modified, value 5 *)
    K_core (L_lock_I 0 64); K_mem_fetch 0 64; K_push 0 64; K_fetch_l3 0 64;
    K_core (L_fill_wr 0 64 None); K_core (L_settle_wr 0 64 5);
    (* core 0 misses on line 128: L3 is full, the L3 line 0 is the victim (clean): evicted *)
    K_core (L_rlock_I 0 128); K_mem_fetch 0 128; K_push 0 128; K_l3cmd_done 0 0 false;
    (* core 2 reads line 64: core 0 writes its Modified copy back - to MEMORY, L3 does not hold the line *)
    K_core (L_rlock_I 2 64); K_wb_done 0 64;
    (* core 1 pushes its old copy of the L3 line 0 *)
    K_push 1 0;
    (* core 2 is served from L3 *)
    K_fetch_l3 2 64; K_core (L_fill_rd 2 64 None); K_core (L_settle_rd 2 64) ].

Theorem l3_refill_race_refuted : exists s, T3 (init3 m0) race_trace s /\ R3 s /\
  (* core 2 completed a read of line 64 with the value 64; the last value written to it is 5 *)
  ms (core s) 2%nat 64 = S /\ l1 (core s) 2%nat 64 = Some 64 /\ lastw m0 (hist s) 64 = 5 /\
  (* L3 holds the line, not marked dirty, and differs from memory *)
  in_l3 128 s 64 = true /\ l3w s 0 = false /\ l3d s 64 = 64 /\ mem (core s) 64 = 5 /\
  ~ DV 3 (view 128 s) (lastw m0 (hist s)) /\
  ~ (forall b k, In b (l3q s) -> l3w s b = false -> grp 128 k = b -> l3d s k = mem (core s) k).
Proof.
  eapply witness3.
  - unfold race_trace. kc. kmr. kc. kmw. kp. kfw. kc. kc. kc. kmr. kp. kev. kc. kwb 5. kp. kfr. kc. kc.
    apply t3_nil.
  - intros s'. repeat (split; [reflexivity|]). split.
    + apply (not_DV 3 _ _ 64); [apply below3|]; discriminate.
    + intros H. discriminate (H 0 64); [now left|reflexivity|reflexivity].
Qed.

(* the same race, one eviction later: a Shared copy differs from the next level *)
Definition race_trace2 : list label3 :=
  [ K_core (L_rlock_I 1 0); K_mem_fetch 1 0;
    K_core (L_lock_I 0 64); K_mem_fetch 0 64; K_push 0 64; K_fetch_l3 0 64;
    K_core (L_fill_wr 0 64 None); K_core (L_settle_wr 0 64 5);
    K_core (L_rlock_I 0 128); K_mem_fetch 0 128; K_push 0 128; K_l3cmd_done 0 0 false;
    K_fetch_l3 0 128; K_core (L_fill_rd 0 128 None); K_core (L_settle_rd 0 128);
    (* core 2 reads line 64: write-back to memory, fresh refill, Shared with the value 5 *)
    K_core (L_rlock_I 2 64); K_wb_done 0 64; K_mem_fetch 2 64; K_push 2 64; K_l3cmd_done 2 128 false;
    K_fetch_l3 2 64; K_core (L_fill_rd 2 64 None); K_core (L_settle_rd 2 64);
    (* the L3 line 0 is evicted once more, then core 1 pushes its old copy *)
    K_core (L_rlock_I 0 256); K_mem_fetch 0 256; K_push 0 256; K_l3cmd_done 0 0 false;
    K_push 1 0 ].

Theorem l3_refill_race_breaks_clause2_refuted : exists s, T3 (init3 m0) race_trace2 s /\ R3 s /\
  ms (core s) 2%nat 64 = S /\ l1 (core s) 2%nat 64 = Some 5 /\ next 128 s 64 = 64 /\
  ~ clause2 (obs_of_st 3 (view 128 s)).
Proof.
  eapply witness3.
  - unfold race_trace2. kc. kmr. kc. kmw. kp. kfw. kc. kc. kc. kmr. kp. kev. kfr. kc. kc.
    kc. kwb 5. kmr. kp. kev. kfr. kc. kc. kc. kmr. kp. kev. kp. apply t3_nil.
  - intros s'. repeat (split; [reflexivity|]).
    intros C2. discriminate (C2 2%nat 64); [simpl; lia|reflexivity].
Qed.

(* ---- (2) the double victim ---- *)
Definition victim_trace_wb : list label3 :=
  [ (* core 0 writes line 0, core 1 reads it: the Modified copy is written back INTO L3: line 0 dirty *)
    K_core (L_lock_I 0 0); K_mem_fetch 0 0; K_push 0 0; K_fetch_l3 0 0;
    K_core (L_fill_wr 0 0 None); K_core (L_settle_wr 0 0 5);
    K_core (L_rlock_I 1 0); K_wb_done 0 0; K_fetch_l3 1 0; K_core (L_fill_rd 1 0 None); K_core (L_settle_rd 1 0);
    (* both cores miss on other L3 lines; each push names the last line - line 0 - as victim *)
    K_core (L_rlock_I 0 128); K_mem_fetch 0 128; K_core (L_rlock_I 1 256); K_mem_fetch 1 256;
    K_push 0 128; K_push 1 256;
    (* the command of core 0 writes line 0 back and evicts it *)
    K_l3cmd_done 0 0 true ].

Theorem l3_double_victim_panic_refuted : exists s, T3 (init3 m0) victim_trace_wb s /\ R3 s /\
  l3c s = [(1%nat, 0, true)] /\ l3q s = [256; 128] /\ ~ l3_cmds_have_lines s.
Proof.
  eapply witness3.
  - unfold victim_trace_wb. kc. kmw. kp. kfw. kc. kc. kc. kwb 5. kfr. kc. kc. kc. kmr. kc. kmr. kp. kp. kwl.
    apply t3_nil.
  - intros s'. repeat (split; [reflexivity|]).
    intros H. destruct (H 1%nat 0) as [E|[E|[]]]; [now left|discriminate E|discriminate E].
Qed.

Definition victim_trace_ev : list label3 :=
  [ K_core (L_rlock_I 0 0); K_mem_fetch 0 0; K_push 0 0; K_fetch_l3 0 0;
    K_core (L_fill_rd 0 0 None); K_core (L_settle_rd 0 0);
    K_core (L_rlock_I 0 128); K_mem_fetch 0 128; K_core (L_rlock_I 1 256); K_mem_fetch 1 256;
    K_push 0 128; K_push 1 256;
    K_l3cmd_done 0 0 false; K_l3cmd_done 1 0 false ].

Theorem l3_double_victim_occupancy_refuted : exists s, T3 (init3 m0) victim_trace_ev s /\ R3 s /\
  l3c s = [] /\ l3q s = [256; 128] /\ ~ l3_occupancy_ok 1 s.
Proof.
  eapply witness3.
  - unfold victim_trace_ev. kc. kmr. kp. kfr. kc. kc. kc. kmr. kc. kmr. kp. kp. kev. kev. apply t3_nil.
  - intros s'. repeat (split; [reflexivity|]). intros H. specialize (H eq_refl). simpl in H. lia.
Qed.

(* one core suffices: coRead does not wait for its own victim command (cc.go 262-271 falls through
   to coSyncReadFromL1), so the next miss of the same core names the same last line again and
   msi.sendNewL3MSICommand reuses the outstanding command: two lines over capacity, one command *)
Definition victim_trace_same_core : list label3 :=
  [ K_core (L_rlock_I 0 0); K_mem_fetch 0 0; K_push 0 0; K_fetch_l3 0 0;
    K_core (L_fill_rd 0 0 None); K_core (L_settle_rd 0 0);
    K_core (L_rlock_I 0 128); K_mem_fetch 0 128; K_push 0 128; K_fetch_l3 0 128;
    K_core (L_fill_rd 0 128 None); K_core (L_settle_rd 0 128);
    K_core (L_rlock_I 0 256); K_mem_fetch 0 256; K_push 0 256;
    K_l3cmd_done 0 0 false ].

Theorem l3_same_core_double_victim_refuted : exists s, T3 (init3 m0) victim_trace_same_core s /\ R3 s /\
  l3c s = [] /\ l3q s = [256; 128] /\ ~ l3_occupancy_ok 1 s.
Proof.
  eapply witness3.
  - unfold victim_trace_same_core. kc. kmr. kp. kfr. kc. kc. kc. kmr. kp. kfr. kc. kc. kc. kmr. kp. kev.
    apply t3_nil.
  - intros s'. repeat (split; [reflexivity|]). intros H. specialize (H eq_refl). simpl in H. lia.
Qed.

(* ---- (3) the kind of the victim command is fixed too early ---- *)
Definition kind_trace : list label3 :=
  [ (* core 0 writes line 0: Modified, value 5; the L3 line 0 is clean *)
    K_core (L_lock_I 0 0); K_mem_fetch 0 0; K_push 0 0; K_fetch_l3 0 0;
    K_core (L_fill_wr 0 0 None); K_core (L_settle_wr 0 0 5);
    (* core 1 misses on line 128: victim = line 0, clean now: command l3Evict *)
    K_core (L_rlock_I 1 128); K_mem_fetch 1 128; K_push 1 128;
    (* core 2 reads line 0: core 0 writes its copy back into L3 (line 0 is still there): dirty *)
    K_core (L_rlock_I 2 0); K_wb_done 0 0;
    (* the l3Evict command runs: the line goes without being written to memory *)
    K_l3cmd_done 1 0 false;
    (* core 2 is served from memory *)
    K_mem_fetch 2 0; K_push 2 0; K_fetch_l3 2 0; K_core (L_fill_rd 2 0 None); K_core (L_settle_rd 2 0) ].

Theorem l3_victim_kind_race_refuted : exists s, T3 (init3 m0) kind_trace s /\ R3 s /\
  ms (core s) 2%nat 0 = S /\ l1 (core s) 2%nat 0 = Some 0 /\ lastw m0 (hist s) 0 = 5 /\
  next 128 s 0 = 0 /\ mem (core s) 0 = 0 /\
  ~ DV 3 (view 128 s) (lastw m0 (hist s)).
Proof.
  eapply witness3.
  - unfold kind_trace. kc. kmw. kp. kfw. kc. kc. kc. kmr. kp. kc. kwb 5. kev. kmr. kp. kfr. kc. kc.
    apply t3_nil.
  - intros s'. repeat (split; [reflexivity|]). apply (not_DV 3 _ _ 0); [apply below3|]; discriminate.
Qed.
