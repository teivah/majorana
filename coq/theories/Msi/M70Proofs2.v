(* C06 about the faithful model of MVP-7.0, part 2: the invariant K1' - clause 1 (single writer: a line Modified in one
   core is Invalid in every other core) and the exactness of the semaphore counters (the counters of every line equal
   the numbers of cores inside a transaction that will release them) - along the calls of the cache controller.

   The part of a controller that matters for clause 1 is abstracted to a SUMMARY (cur_post, cur_pend): the `post`
   closure it will run and, while it waits for its pending commands, their identities.  K1' is an invariant over
   (directory, list of summaries); six abstract lemmas (stutter, more commands, acquire, pend exit, release, command
   done) are composed along the code of coRead / coWrite / coSnoop: cc_read_cycle_K, cc_write_cycle_K,
   cc_snoop_cycle_K.
   K1' holds on the flush-free prefix of a run (reach7nf).  The walk through a tick is made once, for any predicate
   over (memory, directory, execute units) that those three calls preserve (section Tick, reach7nf_inv); it is
   instantiated in part 5 with all the invariants together.  The header of part 5 also says what is NOT proved
   about the faithful model. *)
From Coq Require Import ZArith List Bool Lia.
From Maj Require Import Base.Outcome Base.GoInt Base.GoTypes Isa.Spec Isa.Seq.
From Maj Require Import Gen.Latency Gen.RiscTables Gen.Opcodes Comp.Cache Comp.Rat Comp.RatProofs Mvp.Mvp12 Mvp.Mvp3 Mvp.Mvp5 Mvp.Mvp60 Mvp.Mvp63 Mvp.Mvp63Proofs Mvp.Mvp70 Mvp.Mvp70Proofs.
From Maj Require Import Msi.M70Inv Msi.M70Frame Msi.M70Proofs.
Import ListNotations.
Open Scope Z_scope.

(* ------------------------------------------------------------------ *)
(* definitions                                                          *)
(* ------------------------------------------------------------------ *)

Definition summary : Type := option post7 * option (list Z).

Definition cur_pend (c : cc7) : option (list Z) :=
  match c_rd c with
  | RPend ps _ _ => Some ps
  | RStart => match c_wr c with WPend ps _ _ => Some ps | _ => None end
  | _ => None
  end.
Definition sum_cc (c : cc7) : summary := (cur_post c, cur_pend c).
Definition sum_of (e : eu7) : summary := sum_cc (h_cc e).

Definition sr (a : Z) (s : summary) : bool := match fst s with Some p => post_r p a | None => false end.
Definition sw (a : Z) (s : summary) : bool := match fst s with Some p => post_w p a | None => false end.

Definition others_I (i : msi7) (id a : Z) : Prop := forall id', id' <> id -> state_get i id' a = stInvalid.
Definition others_notM (i : msi7) (id a : Z) : Prop := forall id', id' <> id -> state_get i id' a <> stModified.
Definition cover_r (i : msi7) (id a : Z) (ps : list Z) : Prop :=
  forall id', id' <> id -> state_get i id' a = stModified -> exists c, In c ps /\ In (id', a, rqWriteBack, c) (i_cmds i).
Definition cover_s (i : msi7) (id a : Z) (ps : list Z) : Prop :=
  forall id', id' <> id -> state_get i id' a = stShared -> exists c, In c ps /\ In (id', a, rqEvict, c) (i_cmds i).

Definition post_ok (i : msi7) (id : Z) (p : post7) : Prop :=
  match p with PShareRUnlock a => others_notM i id a | PModUnlock a => others_I i id a | _ => True end.
Definition pend_ok (i : msi7) (id : Z) (ps : list Z) (p : post7) : Prop :=
  match p with
  | PShareRUnlock a => cover_r i id a ps
  | PModUnlock a => cover_r i id a ps /\ cover_s i id a ps
  | _ => True
  end.
Definition sum_ok (i : msi7) (id : Z) (s : summary) : Prop :=
  match s with
  | (None, _) => True
  | (Some p, Some ps) => pend_ok i id ps p
  | (Some p, None) => post_ok i id p
  end.

Definition K1' (i : msi7) (sums : list summary) : Prop :=
  SI i /\ clause1_70 i /\
  (forall a, fst (sem_get i a) = cnt (sr a) sums /\ snd (sem_get i a) = cnt (sw a) sums) /\
  (forall n s, nth_error sums n = Some s -> sum_ok i (Z.of_nat n) s).

(* the coroutine of an execute unit and those of its controller agree: a unit that repeats a read (write) request
   has an idle write (read) side, any other unit an idle controller *)
Definition eu_ok (e : eu7) : Prop :=
  match h_co e with
  | HRead _ => c_wr (h_cc e) = WStart
  | HWrite _ _ => c_rd (h_cc e) = RStart
  | _ => c_rd (h_cc e) = RStart /\ c_wr (h_cc e) = WStart
  end.

Definition K1 (i : msi7) (eus : list eu7) : Prop :=
  K1' i (map sum_of eus) /\ (forall e, In e eus -> eu_ok e /\ h_seq e = 0).

(* ------------------------------------------------------------------ *)
(* lists                                                                *)
(* ------------------------------------------------------------------ *)

Lemma nth_error_mid {A} (d : list A) x t : nth_error (d ++ x :: t) (length d) = Some x.
Proof. induction d; cbn; auto. Qed.

Lemma nth_error_mid_other {A} (d : list A) x y t n : n <> length d -> nth_error (d ++ y :: t) n = nth_error (d ++ x :: t) n.
Proof.
  revert n. induction d as [|z d IH]; intros [|n] H; cbn in *; try reflexivity; try lia. apply IH. lia.
Qed.

Lemma cnt_mid {A} (f : A -> bool) d x t : cnt f (d ++ x :: t) = cnt f d + (if f x then 1 else 0) + cnt f t.
Proof. rewrite cnt_app, cnt_cons. lia. Qed.

Lemma cnt_ge1 {A} (f : A -> bool) l n x : nth_error l n = Some x -> f x = true -> 1 <= cnt f l.
Proof.
  revert n. induction l as [|y t IH]; intros [|n] H F; cbn in H; try discriminate.
  - inv H. rewrite cnt_cons, F. pose proof (cnt_nonneg f t). lia.
  - rewrite cnt_cons. specialize (IH _ H F). destruct (f y); lia.
Qed.
Lemma cnt_ge2 {A} (f : A -> bool) l n m x y : n <> m -> nth_error l n = Some x -> nth_error l m = Some y ->
  f x = true -> f y = true -> 2 <= cnt f l.
Proof.
  revert n m. induction l as [|z t IH]; intros [|n] [|m] D H1 H2 F1 F2; cbn in H1, H2; try discriminate; try lia.
  - inv H1. rewrite cnt_cons, F1. pose proof (cnt_ge1 f t m y H2 F2). lia.
  - inv H2. rewrite cnt_cons, F2. pose proof (cnt_ge1 f t n x H1 F1). lia.
  - rewrite cnt_cons. assert (2 <= cnt f t) by (eapply (IH n m); eauto). destruct (f z); lia.
Qed.

(* ------------------------------------------------------------------ *)
(* the six abstract lemmas                                              *)
(* ------------------------------------------------------------------ *)

Lemma sum_ok_st : forall i i' id s, (forall id' b, state_get i' id' b = state_get i id' b) ->
  incl (i_cmds i) (i_cmds i') -> sum_ok i id s -> sum_ok i' id s.
Proof.
  intros i i' id [[p|] [ps|]] S C H; cbn [sum_ok] in *; try exact I.
  - destruct p; cbn [pend_ok] in *; try exact I.
    + intros id' D M. rewrite S in M. destruct (H id' D M) as (c & A & B). eauto.
    + destruct H as [H1 H2]. split; intros id' D M; rewrite S in M.
      * destruct (H1 id' D M) as (c & A & B). eauto.
      * destruct (H2 id' D M) as (c & A & B). eauto.
  - destruct p; cbn [post_ok] in *; try exact I; intros id' D; rewrite S; apply H; exact D.
Qed.
Lemma sum_ok_ss : forall i i' id s, same_ss i i' -> incl (i_cmds i) (i_cmds i') -> sum_ok i id s -> sum_ok i' id s.
Proof. intros i i' id s S. apply sum_ok_st. intros. apply same_ss_state. exact S. Qed.

(* more commands, same states and semaphores *)
Lemma K1'_ss : forall i i' sums, same_ss i i' -> incl (i_cmds i) (i_cmds i') -> K1' i sums -> K1' i' sums.
Proof.
  intros i i' sums S C (A & B & D & E). split; [eapply SI_ss; eauto|]. split; [|split].
  - intros id id' a. rewrite !(same_ss_state _ _ _ _ S). apply B.
  - intros a. rewrite (same_ss_sem _ _ _ S). apply D.
  - intros n s H. eapply sum_ok_ss; eauto.
Qed.

(* the summary of the core at position (length d) changes and the counters of every line move with what it holds;
   states are as before, commands may be added *)
Lemma K1'_move : forall i i' d s s' t, K1' i (d ++ s :: t) -> SI i' ->
  (forall id b, state_get i' id b = state_get i id b) -> incl (i_cmds i) (i_cmds i') ->
  (forall b, fst (sem_get i' b) - fst (sem_get i b) = (if sr b s' then 1 else 0) - (if sr b s then 1 else 0) /\
             snd (sem_get i' b) - snd (sem_get i b) = (if sw b s' then 1 else 0) - (if sw b s then 1 else 0)) ->
  sum_ok i' (Z.of_nat (length d)) s' -> K1' i' (d ++ s' :: t).
Proof.
  intros i i' d s s' t (A & B & D & E) A' S0 C0 M O. split; [exact A'|]. split; [intros id id' b; rewrite !S0; apply B|]. split.
  - intros b. destruct (D b) as [D1 D2]. destruct (M b) as [M1 M2]. rewrite !cnt_mid in *. lia.
  - intros n x H. destruct (Nat.eq_dec n (length d)) as [->|N].
    + rewrite nth_error_mid in H. inv H. exact O.
    + rewrite (nth_error_mid_other d s s' t n N) in H. eapply sum_ok_st; [exact S0|exact C0|apply E; exact H].
Qed.

(* when every pending command is done *)
Lemma all_done_spec : forall i ps c id a rq, all_done i ps = true -> In c ps -> In (id, a, rq, c) (i_cmds i) -> False.
Proof.
  intros i ps c id a rq H C I. unfold all_done in H. rewrite forallb_forall in H. specialize (H c C).
  unfold cmd_isdone in H. apply negb_true_iff in H.
  assert (existsb (fun e => snd e =? c) (i_cmds i) = true); [|congruence].
  apply existsb_exists. exists (id, a, rq, c). split; [exact I|]. cbn [snd]. apply Z.eqb_refl.
Qed.

Lemma K1'_pend_exit : forall i d p ps t, K1' i (d ++ (Some p, Some ps) :: t) -> all_done i ps = true ->
  K1' i (d ++ (Some p, None) :: t).
Proof.
  intros i d p ps t K AD. pose proof K as (S & _ & _ & E). specialize (E _ _ (nth_error_mid d _ t)).
  apply (K1'_move i i d _ _ t K S); [reflexivity|apply incl_refl|intros b; unfold sr, sw; cbn [fst]; lia|].
  cbn [sum_ok] in *. destruct p; cbn [pend_ok post_ok] in *; try exact I.
  - intros id' D M. destruct (E id' D M) as (c & A & B). eapply all_done_spec; eauto.
  - destruct E as [H1 H2]. intros id' D. destruct S as [_ R]. specialize (R id' a).
    destruct (Z.eq_dec (state_get i id' a) stModified) as [M|M].
    + exfalso. destruct (H1 id' D M) as (c & A & B). eapply all_done_spec; eauto.
    + destruct (Z.eq_dec (state_get i id' a) stShared) as [M'|M'].
      * exfalso. destruct (H2 id' D M') as (c & A & B). eapply all_done_spec; eauto.
      * unfold stModified, stShared, stInvalid in *. lia.
Qed.

(* two cores inside transactions on the same line both hold the read counter *)
Lemma K1'_excl_rw : forall i sums n m s1 s2 a, K1' i sums -> nth_error sums n = Some s1 -> nth_error sums m = Some s2 ->
  sr a s1 = true -> sw a s2 = true -> False.
Proof.
  intros i sums n m s1 s2 a ([S _] & _ & D & _) H1 H2 R W. destruct (D a) as [Dr Dw]. destruct (S a) as (A & B & C & E).
  pose proof (cnt_ge1 _ _ _ _ H1 R). pose proof (cnt_ge1 _ _ _ _ H2 W). lia.
Qed.
Lemma K1'_excl_ww : forall i sums n m s1 s2 a, K1' i sums -> n <> m -> nth_error sums n = Some s1 -> nth_error sums m = Some s2 ->
  sw a s1 = true -> sw a s2 = true -> False.
Proof.
  intros i sums n m s1 s2 a ([S _] & _ & D & _) N H1 H2 R W. destruct (D a) as [Dr Dw]. destruct (S a) as (A & B & C & E).
  pose proof (cnt_ge2 _ _ _ _ _ _ N H1 H2 R W). lia.
Qed.

(* acquire: Sem.RLock / Sem.Lock succeeded for a core that was idle; the commands have been sent *)
Lemma K1'_acquire : forall i d t a i1 i2 p ps dr dw, K1' i (d ++ (None, None) :: t) -> SI i1 -> sem_moved i i1 a dr dw ->
  same_ss i1 i2 -> incl (i_cmds i1) (i_cmds i2) ->
  (forall b, (if post_r p b then 1 else 0) = if b =? a then dr else 0) ->
  (forall b, (if post_w p b then 1 else 0) = if b =? a then dw else 0) ->
  pend_ok i2 (Z.of_nat (length d)) ps p -> K1' i2 (d ++ (Some p, Some ps) :: t).
Proof.
  intros i d t a i1 i2 p ps dr dw K A1 (ST & CM & M) S C PR PW PO. apply (K1'_move i i2 d _ _ t K (SI_ss _ _ S A1)).
  - intros. rewrite (same_ss_state _ _ _ _ S). unfold state_get. rewrite ST. reflexivity.
  - rewrite <- CM. exact C.
  - intros b. rewrite (same_ss_sem _ _ _ S). destruct (M b) as [M1 M2]. unfold sr, sw. cbn [fst]. rewrite PR, PW. lia.
  - exact PO.
Qed.

Lemma K1'_acquire_r : forall i d t a i1 i2 p ps, K1' i (d ++ (None, None) :: t) -> sem_rlock i a = (i1, true) ->
  same_ss i1 i2 -> incl (i_cmds i1) (i_cmds i2) -> (forall b, post_r p b = (b =? a)) -> (forall b, post_w p b = false) ->
  pend_ok i2 (Z.of_nat (length d)) ps p -> K1' i2 (d ++ (Some p, Some ps) :: t).
Proof.
  intros i d t a i1 i2 p ps K L S C PR PW. pose proof (sem_rlock_SI i a (proj1 K)) as X. rewrite L in X.
  apply (K1'_acquire _ _ _ _ _ _ _ _ _ _ K X (proj2 (sem_rlock_moved _ _ _ L)) S C); intros b; rewrite ?PR, ?PW; destruct (b =? a); reflexivity.
Qed.

Lemma K1'_acquire_w : forall i d t a i1 i2 p ps, K1' i (d ++ (None, None) :: t) -> sem_lock i a = (i1, true) ->
  same_ss i1 i2 -> incl (i_cmds i1) (i_cmds i2) -> (forall b, post_w p b = (b =? a)) -> (forall b, post_r p b = false) ->
  pend_ok i2 (Z.of_nat (length d)) ps p -> K1' i2 (d ++ (Some p, Some ps) :: t).
Proof.
  intros i d t a i1 i2 p ps K L S C PW PR. pose proof (sem_lock_SI i a (proj1 K)) as X. rewrite L in X.
  apply (K1'_acquire _ _ _ _ _ _ _ _ _ _ K X (proj2 (proj2 (sem_lock_moved _ _ _ L))) S C); intros b; rewrite ?PR, ?PW; destruct (b =? a); reflexivity.
Qed.

(* a snoop command completes: the state of its target becomes Invalid, the commands with its key go *)
Lemma In_cmd_done : forall i m a rq x, In x (i_cmds i) -> cmd_key x m a rq = false -> In x (i_cmds (cmd_done i m a rq)).
Proof. intros i m a rq x H F. unfold cmd_done. cbn [i_cmds]. apply filter_In. split; [exact H|]. rewrite F. reflexivity. Qed.

Lemma state_get_cmd_done : forall i m a rq id b, state_get (cmd_done i m a rq) id b = if (id =? m) && (b =? a) then stInvalid else state_get i id b.
Proof. intros. rewrite (same_ss_state _ _ _ _ (cmd_done_ss i m a rq)). apply state_get_state_set. Qed.

Lemma cmd_key_other : forall id' b rq' c m a rq, (id' =? m) && (b =? a) = false -> cmd_key (id', b, rq', c) m a rq = false.
Proof. intros. unfold cmd_key. rewrite H. reflexivity. Qed.

Lemma K1'_cmd_done : forall i sums m a rq, K1' i sums -> K1' (cmd_done i m a rq) sums.
Proof.
  intros i sums m a rq (A & B & D & E). split; [apply cmd_done_SI; exact A|]. split; [|split].
  - intros id id' b. rewrite !state_get_cmd_done. destruct ((id =? m) && (b =? a)); [unfold stInvalid, stModified; lia|].
    intros M N. destruct ((id' =? m) && (b =? a)); [reflexivity|]. apply (B id id' b M N).
  - intros b. rewrite (same_ss_sem _ _ _ (cmd_done_ss i m a rq)), sem_get_state_set. apply D.
  - intros n s H. specialize (E n s H). destruct s as [[p|] [ps|]]; cbn [sum_ok] in *; try exact I.
    + assert (CR : forall b, cover_r i (Z.of_nat n) b ps -> cover_r (cmd_done i m a rq) (Z.of_nat n) b ps).
      { intros b X id' N M. rewrite state_get_cmd_done in M. destruct ((id' =? m) && (b =? a)) eqn:Q; [discriminate|].
        destruct (X id' N M) as (c & C1 & C2). exists c. split; [exact C1|]. apply In_cmd_done; [exact C2|].
        apply cmd_key_other. exact Q. }
      destruct p; cbn [pend_ok] in *; try exact I; [apply CR; exact E|]. destruct E as [E1 E2]. split; [apply CR; exact E1|].
      intros id' N M. rewrite state_get_cmd_done in M. destruct ((id' =? m) && (a0 =? a)) eqn:Q; [discriminate|].
      destruct (E2 id' N M) as (c & C1 & C2). exists c. split; [exact C1|]. apply In_cmd_done; [exact C2|].
      apply cmd_key_other. exact Q.
    + destruct p; cbn [post_ok] in *; try exact I; intros id' N; rewrite state_get_cmd_done; specialize (E id' N);
        destruct (_ && _); try exact E; try reflexivity. unfold stInvalid, stModified. lia.
Qed.

(* release: the `post` closure *)
Lemma sum_ok_set_S : forall i id a m s, id <> m -> sum_ok i m s -> sw a s = false ->
  sum_ok (state_set i id a stShared) m s.
Proof.
  intros i id a m [[p|] [ps|]] N H W; cbn [sum_ok] in *; try exact I; unfold sw in W; cbn [fst] in W.
  - assert (CR : forall b, cover_r i m b ps -> cover_r (state_set i id a stShared) m b ps).
    { intros b X id' N' M. rewrite state_get_state_set in M. destruct ((id' =? id) && (b =? a)); [discriminate|].
      exact (X id' N' M). }
    destruct p; cbn [pend_ok post_w] in *; try exact I; [apply CR; exact H|]. destruct H as [H1 H2]. split; [apply CR; exact H1|].
    intros id' N' M. rewrite state_get_state_set in M. destruct ((id' =? id) && (a0 =? a)) eqn:Q; [|exact (H2 id' N' M)].
    apply andb_true_iff in Q as [_ Q]. rewrite Q in W. discriminate.
  - destruct p; cbn [post_ok post_w] in *; try exact I; intros id' N'; rewrite state_get_state_set.
    + destruct (_ && _); [discriminate|apply H; exact N'].
    + destruct ((id' =? id) && (a0 =? a)) eqn:Q; [|apply H; exact N'].
      apply andb_true_iff in Q as [_ Q]. rewrite Q in W. discriminate.
Qed.

Lemma sum_ok_set_M : forall i id a m s, id <> m -> sum_ok i m s -> sw a s = false -> sr a s = false ->
  sum_ok (state_set i id a stModified) m s.
Proof.
  intros i id a m [[p|] [ps|]] N H W R; cbn [sum_ok] in *; try exact I; unfold sw, sr in *; cbn [fst] in *.
  - destruct p; cbn [pend_ok post_w post_r] in *; try exact I.
    + intros id' N' M. rewrite state_get_state_set in M. destruct ((id' =? id) && (a0 =? a)) eqn:Q; [|exact (H id' N' M)].
      apply andb_true_iff in Q as [_ Q]. rewrite Q in R. discriminate.
    + destruct H as [H1 H2]. split; intros id' N' M; rewrite state_get_state_set in M;
        (destruct ((id' =? id) && (a0 =? a)) eqn:Q; [apply andb_true_iff in Q as [_ Q]; rewrite Q in W; discriminate|]).
      * exact (H1 id' N' M).
      * exact (H2 id' N' M).
  - destruct p; cbn [post_ok post_w post_r] in *; try exact I; intros id' N'; rewrite state_get_state_set;
      (destruct ((id' =? id) && (a0 =? a)) eqn:Q; [apply andb_true_iff in Q as [_ Q]|apply H; exact N']).
    + rewrite Q in R. discriminate.
    + rewrite Q in W. discriminate.
Qed.

Lemma K1'_set_S : forall i d t a, K1' i (d ++ (Some (PShareRUnlock a), None) :: t) ->
  K1' (state_set i (Z.of_nat (length d)) a stShared) (d ++ (Some (PShareRUnlock a), None) :: t).
Proof.
  intros i d t a K. pose proof K as (A & B & D & E). set (id := Z.of_nat (length d)).
  pose proof (E _ _ (nth_error_mid d _ t)) as O. cbn [sum_ok post_ok] in O. fold id in O.
  split; [apply SI_state_set; [exact A|unfold stShared; lia]|]. split; [|split].
  - intros id1 id2 b. rewrite !state_get_state_set. destruct ((id1 =? id) && (b =? a)) eqn:Q1; [discriminate|].
    intros M N. destruct ((id2 =? id) && (b =? a)) eqn:Q2; [|apply (B id1 id2 b M N)].
    exfalso. apply andb_true_iff in Q2 as [Q2 Q3]. apply Z.eqb_eq in Q2, Q3. subst id2 b. apply (O id1); [congruence|exact M].
  - intros b. rewrite sem_get_state_set. apply D.
  - intros n s H. destruct (Nat.eq_dec n (length d)) as [->|N].
    + rewrite nth_error_mid in H. inv H. cbn [sum_ok post_ok]. intros id' N'. rewrite state_get_state_set.
      fold id. destruct (id' =? id) eqn:Q; [apply Z.eqb_eq in Q; contradiction|]. cbn [andb]. apply O. exact N'.
    + apply sum_ok_set_S; [unfold id; lia|apply E; exact H|].
      destruct (sw a s) eqn:W; [exfalso|reflexivity].
      eapply (K1'_excl_rw i _ (length d) n _ s a K); [apply nth_error_mid|exact H| |exact W].
      unfold sr. cbn [fst post_r]. apply Z.eqb_refl.
Qed.

Lemma K1'_set_M : forall i d t a, K1' i (d ++ (Some (PModUnlock a), None) :: t) ->
  K1' (state_set i (Z.of_nat (length d)) a stModified) (d ++ (Some (PModUnlock a), None) :: t).
Proof.
  intros i d t a K. pose proof K as (A & B & D & E). set (id := Z.of_nat (length d)).
  pose proof (E _ _ (nth_error_mid d _ t)) as O. cbn [sum_ok post_ok] in O. fold id in O.
  split; [apply SI_state_set; [exact A|unfold stModified; lia]|]. split; [|split].
  - intros id1 id2 b. rewrite !state_get_state_set. destruct ((id1 =? id) && (b =? a)) eqn:Q1.
    + intros _ N. apply andb_true_iff in Q1 as [Q1 Q3]. apply Z.eqb_eq in Q1, Q3. subst id1 b.
      destruct (id2 =? id) eqn:Q; [apply Z.eqb_eq in Q; contradiction|]. cbn [andb]. apply O. exact N.
    + intros M N. destruct ((id2 =? id) && (b =? a)) eqn:Q2; [|apply (B id1 id2 b M N)].
      exfalso. apply andb_true_iff in Q2 as [Q2 Q3]. apply Z.eqb_eq in Q2, Q3. subst id2 b.
      assert (X : id1 <> id) by congruence. specialize (O id1 X). unfold stModified, stInvalid in *. lia.
  - intros b. rewrite sem_get_state_set. apply D.
  - intros n s H. destruct (Nat.eq_dec n (length d)) as [->|N].
    + rewrite nth_error_mid in H. inv H. cbn [sum_ok post_ok]. intros id' N'. rewrite state_get_state_set.
      fold id. destruct (id' =? id) eqn:Q; [apply Z.eqb_eq in Q; contradiction|]. cbn [andb]. apply O. exact N'.
    + assert (WT : sw a (Some (PModUnlock a), @None (list Z)) = true) by (unfold sw; cbn [fst post_w]; apply Z.eqb_refl).
      apply sum_ok_set_M; [unfold id; lia|apply E; exact H| |].
      * destruct (sw a s) eqn:W; [exfalso|reflexivity].
        eapply (K1'_excl_ww i _ (length d) n _ s a K); [lia|apply nth_error_mid|exact H|exact WT|exact W].
      * destruct (sr a s) eqn:W; [exfalso|reflexivity].
        eapply (K1'_excl_rw i _ n (length d) s _ a K); [exact H|apply nth_error_mid|exact W|exact WT].
Qed.

(* the counters that the `post` closure held are given back *)
Lemma K1'_leave : forall j d p t a j' dr dw, K1' j (d ++ (Some p, None) :: t) -> SI j' -> sem_moved j j' a dr dw ->
  (forall b, - (if post_r p b then 1 else 0) = if b =? a then dr else 0) ->
  (forall b, - (if post_w p b then 1 else 0) = if b =? a then dw else 0) -> K1' j' (d ++ (None, None) :: t).
Proof.
  intros j d p t a j' dr dw K A' (ST & CM & M) PR PW. apply (K1'_move j j' d _ _ t K A').
  - intros. unfold state_get. rewrite ST. reflexivity.
  - rewrite CM. apply incl_refl.
  - intros b. destruct (M b) as [M1 M2]. unfold sr, sw. cbn [fst]. specialize (PR b). specialize (PW b). lia.
  - exact I.
Qed.

Lemma K1'_runlock : forall j d p t a j', K1' j (d ++ (Some p, None) :: t) -> (forall b, post_r p b = (b =? a)) ->
  (forall b, post_w p b = false) -> sem_runlock j a = Ok j' -> K1' j' (d ++ (None, None) :: t).
Proof.
  intros j d p t a j' K PR PW L.
  apply (K1'_leave _ _ _ _ _ _ _ _ K (sem_runlock_SI _ _ _ L (proj1 K)) (proj2 (sem_runlock_moved _ _ _ L)));
    intros b; rewrite ?PR, ?PW; destruct (b =? a); reflexivity.
Qed.

Lemma K1'_unlock : forall j d p t a j', K1' j (d ++ (Some p, None) :: t) -> (forall b, post_w p b = (b =? a)) ->
  (forall b, post_r p b = false) -> sem_unlock j a = Ok j' -> K1' j' (d ++ (None, None) :: t).
Proof.
  intros j d p t a j' K PW PR L.
  apply (K1'_leave _ _ _ _ _ _ _ _ K (sem_unlock_SI _ _ _ L (proj1 K)) (proj2 (sem_unlock_moved _ _ _ L)));
    intros b; rewrite ?PR, ?PW; destruct (b =? a); reflexivity.
Qed.

Lemma K1'_release : forall i d p t i', K1' i (d ++ (Some p, None) :: t) -> run_post i (Z.of_nat (length d)) p = Ok i' ->
  K1' i' (d ++ (None, None) :: t).
Proof.
  intros i d p t i' K R. destruct p; cbn [run_post] in R; try discriminate.
  - eapply K1'_runlock; [apply K1'_set_S; exact K| | |exact R]; intros b; cbn [post_r post_w]; [apply Z.eqb_sym|reflexivity].
  - eapply K1'_unlock; [apply K1'_set_M; exact K| | |exact R]; intros b; cbn [post_r post_w]; [apply Z.eqb_sym|reflexivity].
  - eapply K1'_runlock; [exact K| | |exact R]; intros b; cbn [post_r post_w]; [apply Z.eqb_sym|reflexivity].
  - eapply K1'_unlock; [exact K| | |exact R]; intros b; cbn [post_r post_w]; [apply Z.eqb_sym|reflexivity].
Qed.

(* ------------------------------------------------------------------ *)
(* msi.go: the commands sent by a request cover the other holders       *)
(* ------------------------------------------------------------------ *)

Lemma msi_send_spec : forall i id a rq i' c, msi_send i id a rq = (i', c) ->
  same_ss i i' /\ incl (i_cmds i) (i_cmds i') /\ In (id, a, rq, c) (i_cmds i').
Proof.
  intros i id a rq i' c H. unfold msi_send in H. destruct (find _ _) as [e|] eqn:F; inv H.
  - split; [apply same_ss_refl|]. split; [apply incl_refl|]. apply find_some in F as [F1 F2].
    destruct e as [[[x y] z] c0]. cbn [cmd_key snd] in *. apply andb_true_iff in F2 as [F2 F3].
    apply andb_true_iff in F2 as [F2 F4]. apply Z.eqb_eq in F2, F3, F4. subst. exact F1.
  - split; [split; reflexivity|]. cbn [i_cmds]. split; [apply incl_appl, incl_refl|]. apply in_or_app. right. left. reflexivity.
Qed.

Lemma others_in : forall i id a id' s, state_get i id' a = s -> s <> stInvalid -> id' <> id -> In (id', s) (msi_others i id a).
Proof.
  intros i id a id' s G N D. unfold state_get in G. destruct (find _ _) as [e|] eqn:F; [|congruence].
  apply find_some in F as [F1 F2]. destruct e as [[x y] z]. cbn [fst snd] in *. subst z.
  apply andb_true_iff in F2 as [F2 F3]. apply Z.eqb_eq in F2, F3. subst x y.
  unfold msi_others. apply in_map_iff. exists (id', a, s). split; [reflexivity|]. apply filter_In. split; [exact F1|].
  cbn [fst snd]. rewrite Z.eqb_refl. destruct (id' =? id) eqn:Q; [apply Z.eqb_eq in Q; contradiction|reflexivity].
Qed.

Definition sent (r : msi7 * list Z) (id' a rq : Z) : Prop := exists c, In c (snd r) /\ In (id', a, rq, c) (i_cmds (fst r)).
Definition grows (acc r : msi7 * list Z) : Prop :=
  same_ss (fst acc) (fst r) /\ incl (i_cmds (fst acc)) (i_cmds (fst r)) /\ incl (snd acc) (snd r).
Lemma grows_refl : forall r, grows r r.
Proof. intros. split; [apply same_ss_refl|]. split; apply incl_refl. Qed.
Lemma grows_trans : forall a b c, grows a b -> grows b c -> grows a c.
Proof. intros a b c (A1 & A2 & A3) (B1 & B2 & B3). split; [eapply same_ss_trans; eauto|]. split; eapply incl_tran; eauto. Qed.
Lemma sent_grows : forall a b id' l rq, grows a b -> sent a id' l rq -> sent b id' l rq.
Proof. intros a b id' l rq (_ & G2 & G3) (c & C1 & C2). exists c. split; [apply G3|apply G2]; assumption. Qed.

Lemma send_step : forall (acc : msi7 * list Z) id' a rq, 
  let r := (let '(i1, c) := msi_send (fst acc) id' a rq in (i1, snd acc ++ [c])) in grows acc r /\ sent r id' a rq.
Proof.
  intros acc id' a rq. destruct (msi_send (fst acc) id' a rq) as [i1 c] eqn:E. apply msi_send_spec in E as (S & C & I).
  cbn zeta. split.
  - split; [exact S|]. split; [exact C|]. cbn [snd]. apply incl_appl, incl_refl.
  - exists c. cbn [fst snd]. split; [apply in_or_app; right; left; reflexivity|exact I].
Qed.

Lemma sends_spec : forall a pick l acc, let r := sends a pick l acc in
  grows acc r /\ forall x s rq, In (x, s) l -> pick s = Some rq -> sent r x a rq.
Proof.
  intros a pick. induction l as [|[x0 s0] tl IH]; intros acc; unfold sends; cbn [fold_left fst snd].
  - split; [apply grows_refl|intros x s rq []].
  - match goal with |- context [fold_left ?f tl ?y] => destruct (IH y) as [G M]; set (acc1 := y) in * end.
    assert (G0 : grows acc acc1 /\ forall rq, pick s0 = Some rq -> sent acc1 x0 a rq).
    { subst acc1. destruct (pick s0) as [rq|]; [|split; [apply grows_refl|discriminate]].
      destruct (send_step acc x0 a rq) as [X Y]. split; [exact X|]. intros rq' E. inv E. exact Y. }
    destruct G0 as [G1 M1]. split; [eapply grows_trans; eauto|].
    intros x s rq [E|I] P; [inv E; eapply sent_grows; [exact G|]; apply M1; exact P|eapply M; eauto].
Qed.

Lemma msi_read_request_cover : forall i id a i2 ps, msi_read_request i id a = (i2, ps) ->
  same_ss i i2 /\ incl (i_cmds i) (i_cmds i2) /\ cover_r i2 id a ps.
Proof.
  intros i id a i2 ps H. rewrite msi_read_request_sends in H.
  destruct (sends_spec a pick_rr (msi_others i id a) (i, [])) as ((G1 & G2 & _) & M). rewrite H in *. cbn [fst snd] in *.
  split; [exact G1|]. split; [exact G2|]. intros id' D S. rewrite (same_ss_state _ _ _ _ G1) in S.
  apply (M id' stModified); [|reflexivity]. eapply others_in; eauto. discriminate.
Qed.

Lemma msi_invalidate_cover : forall i id a i2 ps, msi_invalidate i id a = (i2, ps) ->
  same_ss i i2 /\ incl (i_cmds i) (i_cmds i2) /\ cover_r i2 id a ps /\ cover_s i2 id a ps.
Proof.
  intros i id a i2 ps H. rewrite msi_invalidate_sends in H.
  destruct (sends_spec a pick_inv (msi_others i id a) (i, [])) as ((G1 & G2 & _) & M). rewrite H in *. cbn [fst snd] in *.
  split; [exact G1|]. split; [exact G2|].
  split; intros id' D S; rewrite (same_ss_state _ _ _ _ G1) in S;
    [apply (M id' stModified)|apply (M id' stShared)]; try reflexivity; eapply others_in; eauto; discriminate.
Qed.

Lemma msi_evict_extra_spec : forall i id a i' pe, msi_evict_extra i id a = (i', pe) -> same_ss i i' /\ incl (i_cmds i) (i_cmds i').
Proof.
  intros i id a i' pe H. unfold msi_evict_extra in H. destruct (_ =? stShared).
  - destruct (msi_send i id a rqEvict) as [i1 c] eqn:E. inv H. apply msi_send_spec in E as (A & B & _). split; assumption.
  - destruct (_ =? stModified).
    + destruct (msi_send i id a rqWriteBack) as [i1 c] eqn:E. inv H. apply msi_send_spec in E as (A & B & _). split; assumption.
    + inv H. split; [apply same_ss_refl|apply incl_refl].
Qed.

(* rLock / lock leave the states alone and only add commands *)
Lemma lock_frame : forall i j, i_states j = i_states i /\ i_cmds j = i_cmds i ->
  (forall x b, state_get j x b = state_get i x b) /\ incl (i_cmds i) (i_cmds j).
Proof. intros i j [A B]. split; [intros; unfold state_get; rewrite A; reflexivity|rewrite B; apply incl_refl]. Qed.

Lemma msi_rlock_frame : forall i id a i' r, msi_rlock i id a = Ok (i', r) ->
  (forall x b, state_get i' x b = state_get i x b) /\ incl (i_cmds i) (i_cmds i').
Proof.
  intros i id a i' r H.
  destruct (msi_rlock_cases _ _ _ _ _ H) as [[_ ->]|[(_ & i1 & ps & L & RR & _)|[(_ & L & _)|(_ & L & _)]]].
  - apply lock_frame. auto.
  - destruct (sem_rlock_moved _ _ _ L) as (_ & ST & CM & _). destruct (lock_frame _ _ (conj ST CM)) as [A B]. apply msi_read_request_cover in RR as (S & C & _).
    split; [intros; rewrite (same_ss_state _ _ _ _ S); apply A|eapply incl_tran; eauto].
  - apply lock_frame. destruct (sem_lock_moved _ _ _ L) as (_ & _ & ST & CM & _). auto.
  - apply lock_frame. destruct (sem_rlock_moved _ _ _ L) as (_ & ST & CM & _). auto.
Qed.

Lemma msi_lock_frame : forall i id a i' r, msi_lock i id a = Ok (i', r) ->
  (forall x b, state_get i' x b = state_get i x b) /\ incl (i_cmds i) (i_cmds i').
Proof.
  intros i id a i' r H.
  destruct (msi_lock_cases _ _ _ _ _ H) as [[_ ->]|[(_ & L & _)|(i1 & ps & fetch & L & RR & _)]].
  - apply lock_frame. auto.
  - apply lock_frame. destruct (sem_lock_moved _ _ _ L) as (_ & _ & ST & CM & _). auto.
  - destruct (sem_lock_moved _ _ _ L) as (_ & _ & ST & CM & _). destruct (lock_frame _ _ (conj ST CM)) as [A B]. apply msi_invalidate_cover in RR as (S & C & _).
    split; [intros; rewrite (same_ss_state _ _ _ _ S); apply A|eapply incl_tran; eauto].
Qed.

(* ------------------------------------------------------------------ *)
(* cc.go: K1' along coRead / coWrite / coSnoop                          *)
(* ------------------------------------------------------------------ *)

Ltac sumcc := unfold sum_cc, cur_post, cur_pend;
  cbn [set_rd set_wr set_l1d set_post set_rsems set_wsems set_snoop c_l1d c_rd c_wr c_post].

Section CoreK.
Variables (d t : list summary).
Let id := Z.of_nat (length d).

Definition RdRes (i' : msi7) (c' : cc7) (r : option (list Z)) : Prop :=
  K1' i' (d ++ sum_cc c' :: t) /\ c_wr c' = WStart /\ (r <> None -> c_rd c' = RStart).

Lemma rd_l1_K : forall i c addrs cyc data i' c' r, K1' i (d ++ (Some (c_post c), None) :: t) -> c_wr c = WStart ->
  rd_l1 i id c addrs cyc data = Ok (i', c', r) -> RdRes i' c' r.
Proof.
  intros i c addrs cyc data i' c' r K W H. unfold rd_l1 in H. destruct (0 <? cyc).
  - inv H. split; [|split; [exact W|congruence]]. sumcc. exact K.
  - apply bind_ok in H as (i1 & E1 & H). apply bind_ok in H as (a & E2 & H). inv H.
    split; [|split; [exact W|reflexivity]]. sumcc. rewrite W. eapply K1'_release; eauto.
Qed.

Lemma rd_from_l1_K : forall i c addrs i' c' r, K1' i (d ++ (Some (c_post c), None) :: t) -> c_wr c = WStart ->
  rd_from_l1 i id c addrs = Ok (i', c', r) -> RdRes i' c' r.
Proof.
  intros i c addrs i' c' r K W H. unfold rd_from_l1 in H. apply bind_ok in H as ([l1 g] & E & H).
  destruct g; [|discriminate]. eapply rd_l1_K; [| |exact H]; [exact K|exact W].
Qed.

Lemma rd_evict_K : forall i c addrs pending post i' c' r, K1' i (d ++ (Some post, None) :: t) -> c_wr c = WStart ->
  rd_evict i id c addrs pending post = Ok (i', c', r) -> RdRes i' c' r.
Proof.
  intros i c addrs pending post i' c' r K W H. unfold rd_evict in H.
  destruct pending as [p|]; [destruct (negb (cmd_isdone i p))|].
  - inv H. split; [|split; [exact W|congruence]]. sumcc. exact K.
  - eapply rd_from_l1_K; [| |exact H]; [exact K|exact W].
  - eapply rd_from_l1_K; [| |exact H]; [exact K|exact W].
Qed.

Lemma rd_fetch_K : forall i c addrs cyc la dt post i' c' r, K1' i (d ++ (Some post, None) :: t) -> c_wr c = WStart ->
  rd_fetch i id c addrs cyc la dt post = Ok (i', c', r) -> RdRes i' c' r.
Proof.
  intros i c addrs cyc la dt post i' c' r K W H. unfold rd_fetch in H. destruct (0 <? cyc).
  - inv H. split; [|split; [exact W|congruence]]. sumcc. exact K.
  - apply bind_ok in H as ([c1 v] & E & H). cbn [fst snd] in H. destruct v as [victim|].
    + destruct (msi_evict_extra i id (lo victim)) as [i1 pe] eqn:EE. inv H. apply msi_evict_extra_spec in EE as [S C].
      split; [|split; [exact W|congruence]]. sumcc. eapply K1'_ss; eauto.
    + eapply rd_from_l1_K; [| |exact H]; [exact K|exact W].
Qed.

Lemma rd_pend_K : forall mem i c addrs ps fetch post i' c' r, K1' i (d ++ (Some post, Some ps) :: t) -> c_wr c = WStart ->
  rd_pend mem i id c addrs ps fetch post = Ok (i', c', r) -> RdRes i' c' r.
Proof.
  intros mem i c addrs ps fetch post i' c' r K W H. unfold rd_pend in H. destruct (all_done i ps) eqn:AD; cbn [negb] in H.
  - assert (K2 : K1' i (d ++ (Some post, None) :: t)) by (exact (K1'_pend_exit i d post ps t K AD)).
    destruct (negb fetch); [eapply rd_from_l1_K; [| |exact H]; [exact K2|exact W]|].
    apply bind_ok in H as (a & E1 & H). apply bind_ok in H as (g & E2 & H). destruct g; [discriminate|].
    destruct addrs as [|a0 tl]; [discriminate|]. apply bind_ok in H as (ln & E3 & H).
    eapply rd_fetch_K; [| |exact H]; [exact K2|exact W].
  - inv H. split; [|split; [exact W|congruence]]. sumcc. exact K.
Qed.

Lemma rd_start_K : forall mem i c addrs i' c' r, K1' i (d ++ (None, None) :: t) -> c_rd c = RStart -> c_wr c = WStart ->
  rd_start mem i id c addrs = Ok (i', c', r) -> RdRes i' c' r.
Proof.
  intros mem i c addrs i' c' r K R W H. unfold rd_start in H. apply bind_ok in H as (a & E1 & H).
  apply bind_ok in H as ([i1 lr] & E2 & H). cbn [fst snd] in H.
  assert (PR : forall b, (a =? b) = (b =? a)) by (intros; apply Z.eqb_sym).
  destruct (msi_rlock_cases _ _ _ _ _ E2) as [[-> ->]|[(_ & j & ps & L & RR & ->)|[(_ & L & ->)|(_ & L & ->)]]].
  - inv H. split; [|split; [exact W|congruence]]. sumcc. rewrite R, W. exact K.
  - apply msi_read_request_cover in RR as (S & C & CV). eapply rd_pend_K; [| |exact H]; [|exact W].
    eapply K1'_acquire_r; [exact K|exact L|exact S|exact C|exact PR|reflexivity|exact CV].
  - eapply rd_pend_K; [| |exact H]; [|exact W].
    eapply K1'_acquire_w; [exact K|exact L|apply same_ss_refl|apply incl_refl|exact PR|reflexivity|exact I].
  - eapply rd_pend_K; [| |exact H]; [|exact W].
    eapply K1'_acquire_r; [exact K|exact L|apply same_ss_refl|apply incl_refl|exact PR|reflexivity|exact I].
Qed.

Lemma cc_read_cycle_K : forall mem i c addrs i' c' r, K1' i (d ++ sum_cc c :: t) -> c_wr c = WStart ->
  cc_read_cycle mem i id c addrs = Ok (i', c', r) -> RdRes i' c' r.
Proof.
  intros mem i c addrs i' c' r K W H. unfold cc_read_cycle in H. unfold sum_cc, cur_post, cur_pend in K.
  destruct (c_rd c) eqn:E.
  - rewrite W in K. eapply rd_start_K; eauto.
  - eapply rd_pend_K; eauto.
  - eapply rd_fetch_K; eauto.
  - eapply rd_evict_K; eauto.
  - eapply rd_l1_K; eauto.
Qed.

(* ---- write ---- *)

Definition WrRes (i' : msi7) (c' : cc7) (done : bool) : Prop :=
  K1' i' (d ++ sum_cc c' :: t) /\ c_rd c' = RStart /\ (done = true -> c_wr c' = WStart).

Lemma wr_l1_K : forall i c addrs data cyc i' c' r, K1' i (d ++ (Some (c_post c), None) :: t) -> c_rd c = RStart ->
  wr_l1 i id c addrs data cyc = Ok (i', c', r) -> WrRes i' c' r.
Proof.
  intros i c addrs data cyc i' c' r K R H. unfold wr_l1 in H. destruct (0 <? cyc).
  - inv H. split; [|split; [exact R|congruence]]. sumcc. rewrite R. exact K.
  - destruct addrs as [|a0 tl]; [discriminate|].
    apply bind_ok in H as (l1 & E0 & H). apply bind_ok in H as (i1 & E1 & H). apply bind_ok in H as (a & E2 & H). inv H.
    split; [|split; [exact R|reflexivity]]. sumcc. rewrite R. eapply K1'_release; eauto.
Qed.

Lemma wr_evict_K : forall i c addrs data pending cyc post i' c' r, K1' i (d ++ (Some post, None) :: t) -> c_rd c = RStart ->
  wr_evict i id c addrs data pending cyc post = Ok (i', c', r) -> WrRes i' c' r.
Proof.
  intros i c addrs data pending cyc post i' c' r K R H. unfold wr_evict in H.
  destruct (match pending with Some p => negb (cmd_isdone i p) | None => false end).
  - inv H. split; [|split; [exact R|congruence]]. sumcc. rewrite R. exact K.
  - destruct (0 <? cyc).
    + inv H. split; [|split; [exact R|congruence]]. sumcc. rewrite R. exact K.
    + eapply wr_l1_K; [| |exact H]; [exact K|exact R].
Qed.

Lemma wr_fetch_K : forall i c addrs data cyc la dt post i' c' r, K1' i (d ++ (Some post, None) :: t) -> c_rd c = RStart ->
  wr_fetch i id c addrs data cyc la dt post = Ok (i', c', r) -> WrRes i' c' r.
Proof.
  intros i c addrs data cyc la dt post i' c' r K R H. unfold wr_fetch in H. destruct (0 <? cyc).
  - inv H. split; [|split; [exact R|congruence]]. sumcc. rewrite R. exact K.
  - apply bind_ok in H as ([c1 v] & E & H). cbn [fst snd] in H. destruct v as [victim|].
    + destruct (msi_evict_extra i id (lo victim)) as [i1 pe] eqn:EE. inv H. apply msi_evict_extra_spec in EE as [S C].
      split; [|split; [exact R|congruence]]. sumcc. rewrite R. eapply K1'_ss; eauto.
    + eapply wr_l1_K; [| |exact H]; [exact K|exact R].
Qed.

Lemma wr_pend_K : forall mem i c addrs data ps fetch post i' c' r, K1' i (d ++ (Some post, Some ps) :: t) -> c_rd c = RStart ->
  wr_pend mem i id c addrs data ps fetch post = Ok (i', c', r) -> WrRes i' c' r.
Proof.
  intros mem i c addrs data ps fetch post i' c' r K R H. unfold wr_pend in H. destruct (all_done i ps) eqn:AD; cbn [negb] in H.
  - assert (K2 : K1' i (d ++ (Some post, None) :: t)) by (exact (K1'_pend_exit i d post ps t K AD)).
    destruct fetch; [|eapply wr_l1_K; [| |exact H]; [exact K2|exact R]].
    destruct addrs as [|a0 tl]; [discriminate|]. apply bind_ok in H as (a & E1 & H). apply bind_ok in H as (ln & E3 & H).
    eapply wr_fetch_K; [| |exact H]; [exact K2|exact R].
  - inv H. split; [|split; [exact R|congruence]]. sumcc. rewrite R. exact K.
Qed.

Lemma wr_start_K : forall mem i c addrs data i' c' r, K1' i (d ++ (None, None) :: t) -> c_rd c = RStart -> c_wr c = WStart ->
  wr_start mem i id c addrs data = Ok (i', c', r) -> WrRes i' c' r.
Proof.
  intros mem i c addrs data i' c' r K R W H. unfold wr_start in H. apply bind_ok in H as (a & E1 & H).
  apply bind_ok in H as ([i1 lr] & E2 & H). cbn [fst snd] in H.
  assert (PW : forall b, (a =? b) = (b =? a)) by (intros; apply Z.eqb_sym).
  destruct (msi_lock_cases _ _ _ _ _ E2) as [[-> ->]|[(_ & L & ->)|(j & ps & fetch & L & RR & -> & _)]].
  - inv H. split; [|split; [exact R|congruence]]. sumcc. rewrite R, W. exact K.
  - eapply wr_pend_K; [| |exact H]; [|exact R].
    eapply K1'_acquire_w; [exact K|exact L|apply same_ss_refl|apply incl_refl|exact PW|reflexivity|exact I].
  - apply msi_invalidate_cover in RR as (S & C & CV1 & CV2). eapply wr_pend_K; [| |exact H]; [|exact R].
    eapply K1'_acquire_w; [exact K|exact L|exact S|exact C|exact PW|reflexivity|split; assumption].
Qed.

Lemma cc_write_cycle_K : forall mem i c addrs data i' c' r, K1' i (d ++ sum_cc c :: t) -> c_rd c = RStart ->
  cc_write_cycle mem i id c addrs data = Ok (i', c', r) -> WrRes i' c' r.
Proof.
  intros mem i c addrs data i' c' r K R H. unfold cc_write_cycle in H. unfold sum_cc, cur_post, cur_pend in K. rewrite R in K.
  destruct (c_wr c) eqn:E.
  - eapply wr_start_K; eauto.
  - eapply wr_pend_K; eauto.
  - eapply wr_fetch_K; eauto.
  - eapply wr_evict_K; eauto.
  - eapply wr_l1_K; eauto.
Qed.

End CoreK.

(* ---- snoop ---- *)
Lemma snoop_items_K : forall sums items mem i id l1 mem' i' l1' items', snoop_items mem i id l1 items = Ok (mem', i', l1', items') ->
  K1' i sums -> K1' i' sums.
Proof.
  intros sums. induction items as [|it tl IH]; intros mem i id l1 mem' i' l1' items' H K; cbn [snoop_items] in H.
  - inv H. exact K.
  - destruct it as [a|a cyc].
    + apply bind_ok in H as ([c1 r] & E & H). cbn [fst] in H. eapply IH; [exact H|]. apply K1'_cmd_done. exact K.
    + destruct (0 <? cyc).
      * apply bind_ok in H as ([[[m1 i1] l2] t'] & E & H). inv H. eapply IH; eauto.
      * apply bind_ok in H as (g & E0 & H). destruct g as [dd|]; [|discriminate].
        apply bind_ok in H as (m1 & E1 & H). apply bind_ok in H as ([c1 r] & E2 & H). cbn [fst snd] in H.
        destruct r; [|discriminate]. eapply IH; [exact H|]. apply K1'_cmd_done. exact K.
Qed.

Lemma cc_snoop_cycle_K : forall kev, (forall j, kev j = j) -> forall sums mem i id c mem' i' c',
  cc_snoop_cycle kev mem i id c = Ok (mem', i', c') -> K1' i sums ->
  K1' i' sums /\ sum_cc c' = sum_cc c /\ c_rd c' = c_rd c /\ c_wr c' = c_wr c.
Proof.
  intros kev KV sums mem i id c mem' i' c' H K. unfold cc_snoop_cycle in H.
  apply bind_ok in H as ([[[m1 i1] l1] items] & E & H). pose proof (snoop_items_K _ _ _ _ _ _ _ _ _ _ E K) as K1.
  destruct (c_snoop c).
  - apply bind_ok in H as ([i2 l2] & E2 & H). apply co_snoop_i in E2; [|exact KV]. subst i2. inv H. cbn [fst].
    split; [exact K1|]. repeat split.
  - inv H. split; [exact K1|]. repeat split.
Qed.

(* ------------------------------------------------------------------ *)
(* eu.go, cpu.go: a flush-free tick is a sequence of calls of a controller *)
(* ------------------------------------------------------------------ *)

(* the request the unit repeats every cycle *)
Definition eu_addrs (e : eu7) : list Z := match h_co e with HRead a => a | HWrite a _ => a | _ => [] end.

(* A predicate P over (main memory, directory, execute units) is preserved by every flush-free tick when it is
   preserved by the three calls that touch memory or the directory - cc.read.Cycle, cc.write.Cycle and
   cc.snoop.Cycle of one controller - and looks at a unit only through its controller, its sequence number and,
   inside a transaction, the request it repeats (stands_for).  The rest of the tick is frame. *)
Section Tick.
Variable hk : hooks7.
Hypothesis HF : hooks_frame hk.
Variable P : list Z -> msi7 -> list eu7 -> Prop.

Definition stands_for (c : cc7) (addrs : list Z) (q : Z) (e' : eu7) : Prop :=
  h_cc e' = c /\ h_seq e' = q /\ eu_ok e' /\ (eu_addrs e' = addrs \/ cur_post c = None).

Hypothesis P_ok : forall mem i D e T, P mem i (D ++ e :: T) -> eu_ok e /\ h_seq e = 0.
Hypothesis P_same : forall mem i D e e' T, P mem i (D ++ e :: T) -> stands_for (h_cc e) (eu_addrs e) (h_seq e) e' ->
  P mem i (D ++ e' :: T).
Hypothesis P_read : forall mem i D e T addrs i1 c1 resp, P mem i (D ++ e :: T) -> c_wr (h_cc e) = WStart ->
  (eu_addrs e = addrs \/ cur_post (h_cc e) = None) ->
  cc_read_cycle mem i (Z.of_nat (length D)) (h_cc e) addrs = Ok (i1, c1, resp) ->
  c_wr c1 = WStart /\ (resp <> None -> c_rd c1 = RStart) /\
  forall e', stands_for c1 addrs (h_seq e) e' -> P mem i1 (D ++ e' :: T).
Hypothesis P_write : forall mem i D e T addrs data i1 c1 done, P mem i (D ++ e :: T) -> c_rd (h_cc e) = RStart ->
  (eu_addrs e = addrs \/ cur_post (h_cc e) = None) ->
  cc_write_cycle mem i (Z.of_nat (length D)) (h_cc e) addrs data = Ok (i1, c1, done) ->
  c_rd c1 = RStart /\ (done = true -> c_wr c1 = WStart) /\
  forall e', stands_for c1 addrs (h_seq e) e' -> P mem i1 (D ++ e' :: T).
Hypothesis P_snoop : forall mem i D e T mem' i' c', P mem i (D ++ e :: T) ->
  cc_snoop_cycle (k_evict hk) mem i (Z.of_nat (length D)) (h_cc e) = Ok (mem', i', c') -> P mem' i' (D ++ set_hcc e c' :: T).

Section OneUnit.
Variables (D T : list eu7).
Let id := Z.of_nat (length D).
Notation PU w e := (P (w_mem w) (w_i w) (D ++ e :: T)).

Lemma eu_write7_P : forall w e addrs data w' e' o, PU w e -> c_rd (h_cc e) = RStart ->
  (eu_addrs e = addrs \/ cur_post (h_cc e) = None) -> eu_write7 id w e addrs data = Ok (w', e', o) -> PU w' e'.
Proof.
  intros w e addrs data w' e' o F R AD H. apply eu_write7_split in H as (i1 & c1 & done & E & -> & E1 & E2 & E3).
  destruct (P_write _ _ _ _ _ _ _ _ _ _ F R AD E) as (R2 & W2 & STEP). rewrite w_i_set_wi, w_mem_set_wi. apply STEP.
  split; [exact E1|]. split; [exact E3|]. unfold eu_ok, eu_addrs. rewrite E1, E2. destruct done.
  - split; [split; [exact R2|exact (W2 eq_refl)]|right; apply idle_post; [exact R2|exact (W2 eq_refl)]].
  - split; [exact R2|left; reflexivity].
Qed.

Lemma eu_run7_P : forall labels ord cycle w e w' e' o, PU w e -> c_rd (h_cc e) = RStart -> c_wr (h_cc e) = WStart ->
  eu_run7 hk labels ord cycle id w e = Ok (w', e', o) -> PU w' e'.
Proof.
  intros labels ord cycle w e w' e' o F R W H. pose proof (idle_post _ R W) as CP.
  apply eu_run7_split in H as [([FI FM] & E1 & E2 & E3)|(w0 & addrs & data & [FI FM] & H)].
  - rewrite FI, FM. eapply P_same; [exact F|]. split; [exact E1|]. split; [exact E3|]. unfold eu_ok. rewrite E1, E2.
    split; [split; assumption|right; exact CP].
  - eapply eu_write7_P; [| | |exact H]; [|exact R|right; exact CP]. rewrite FI, FM. eapply P_same; [exact F|].
    split; [reflexivity|]. split; [reflexivity|]. split; [split; assumption|right; exact CP].
Qed.

Lemma eu_read7_P : forall labels ord cycle w e addrs w' e' o, PU w e -> c_wr (h_cc e) = WStart ->
  (eu_addrs e = addrs \/ cur_post (h_cc e) = None) -> eu_read7 hk labels ord cycle id w e addrs = Ok (w', e', o) -> PU w' e'.
Proof.
  intros labels ord cycle w e addrs w' e' o F W AD H. apply eu_read7_split in H as (i1 & c1 & resp & E & H).
  destruct (P_read _ _ _ _ _ _ _ _ _ F W AD E) as (W2 & R2 & STEP). destruct resp as [bytes|].
  - assert (R1 : c_rd c1 = RStart) by (apply R2; discriminate).
    eapply eu_run7_P; [| | |exact H]; [|exact R1|exact W2]. rewrite w_i_set_wi, w_mem_set_wi. apply STEP.
    split; [reflexivity|]. split; [reflexivity|]. split; [split; assumption|right; apply idle_post; assumption].
  - destruct H as (-> & E1 & E2 & E3). rewrite w_i_set_wi, w_mem_set_wi. apply STEP.
    split; [exact E1|]. split; [exact E3|]. unfold eu_ok, eu_addrs. rewrite E1, E2. split; [exact W2|left; reflexivity].
Qed.

Lemma eu_prepare7_P : forall labels ord cycle w e w' e' o, PU w e -> c_rd (h_cc e) = RStart -> c_wr (h_cc e) = WStart ->
  eu_prepare7 hk labels ord cycle id w e = Ok (w', e', o) -> PU w' e'.
Proof.
  intros labels ord cycle w e w' e' o F R W H. pose proof (idle_post _ R W) as CP. destruct (P_ok _ _ _ _ _ F) as [O _].
  apply eu_prepare7_split in H as [([FI FM] & E1 & E2 & E3)|(w0 & e0 & [FI FM] & E0 & E0' & E0'' & [H|[addrs H]])].
  - rewrite FI, FM. eapply P_same; [exact F|]. split; [exact E1|]. split; [exact E3|]. unfold eu_ok in *. rewrite E1, E2.
    split; [exact O|right; exact CP].
  - eapply eu_run7_P; [| | |exact H]; cbn [set_hco h_cc]; [|rewrite E0; exact R|rewrite E0; exact W].
    rewrite FI, FM. eapply P_same; [exact F|]. split; [exact E0|]. split; [exact E0''|].
    split; [split; cbn [set_hco h_cc]; rewrite E0; assumption|right; exact CP].
  - eapply eu_read7_P; [| | |exact H]; [|rewrite E0; exact W|right; rewrite E0; exact CP].
    rewrite FI, FM. eapply P_same; [exact F|]. split; [exact E0|]. split; [exact E0''|]. unfold eu_ok in *. rewrite E0, E0'.
    split; [exact O|right; exact CP].
Qed.

Lemma eu_cycle7_P : forall labels ord cycle w e w' e' o, PU w e -> eu_cycle7 hk labels ord cycle id w e = Ok (w', e', o) -> PU w' e'.
Proof.
  intros labels ord cycle w e w' e' o F H. destruct (P_ok _ _ _ _ _ F) as [O Q].
  assert (PRE : eu_pre7 e = false) by (unfold eu_pre7; rewrite Q; reflexivity).
  unfold eu_cycle7 in H. rewrite PRE in H. unfold eu_ok in O. destruct (h_co e) eqn:HC.
  - destruct O as [R W]. pose proof (hf_take hk HF id w) as [TK TM]. destruct (k_take hk id w) as [w1 [r|]]; cbn [fst] in TK, TM.
    + eapply eu_prepare7_P; [| | |exact H]; [|exact R|exact W]. rewrite TK, TM. eapply P_same; [exact F|].
      split; [reflexivity|]. split; [reflexivity|]. split; [split; assumption|right; apply idle_post; assumption].
    + inv H. rewrite TK, TM. exact F.
  - destruct O as [R W]. eapply eu_prepare7_P; [exact F|exact R|exact W|exact H].
  - eapply eu_read7_P; [exact F|exact O| |exact H]. left. unfold eu_addrs. rewrite HC. reflexivity.
  - eapply eu_write7_P; [exact F|exact O| |exact H]. left. unfold eu_addrs. rewrite HC. reflexivity.
Qed.

End OneUnit.

Notation Pw w eus := (P (w_mem w) (w_i w) eus).

Lemma eus_main7_P : forall labels ord cycle eus D w acc w' eus' o,
  Pw w (D ++ eus) -> y_flush acc = false -> y_seq acc = 0 ->
  eus_main7 hk labels ord cycle (Z.of_nat (length D)) w eus acc = Ok (w', eus', o) -> y_flush o = false -> Pw w' (D ++ eus').
Proof.
  intros labels ord cycle. induction eus as [|e tl IH]; intros D w acc w' eus' o F FL Q H FO; cbn [eus_main7] in H.
  - inv H. exact F.
  - rewrite (eu7_reseq e (y_seq acc)) in H by (rewrite Q; exact (proj2 (P_ok _ _ _ _ _ F))).
    apply bind_ok in H as ([[w1 e1] o1] & E1 & H). apply (eu_cycle7_P _ _ _ _ _ _ _ _ _ _ F) in E1.
    destruct (y_err o1); [inv H; exact E1|].
    apply bind_ok in H as ([[w2 t'] acc2] & E2 & H). inv H.
    assert (FL1 : y_flush o1 = false).
    { destruct (y_flush o1) eqn:FL1; [|reflexivity]. apply eus_main7_flush_mono in E2; [congruence|]. cbn [y_flush]. apply orb_true_r. }
    rewrite <- (snoc_len D e1) in E2. rewrite <- snoc_app. eapply IH; [rewrite snoc_app; exact E1| | |exact E2|exact FO].
    + cbn [y_flush]. rewrite FL, FL1. reflexivity.
    + cbn [y_seq]. rewrite FL1. cbn [andb]. exact Q.
Qed.

Lemma eus_drain7_P : forall labels ord cycle eus D w w' eus' o,
  Pw w (D ++ eus) -> eus_drain7 hk labels ord cycle (Z.of_nat (length D)) w eus = Ok (w', eus', o) -> Pw w' (D ++ eus').
Proof.
  intros labels ord cycle. induction eus as [|e tl IH]; intros D w w' eus' o F H; cbn [eus_drain7] in H.
  - inv H. exact F.
  - destruct (eu_empty7 e).
    + apply bind_ok in H as ([[w2 t'] er] & E2 & H). inv H. rewrite <- (snoc_len D e) in E2. rewrite <- snoc_app.
      eapply IH; [rewrite snoc_app; exact F|exact E2].
    + apply bind_ok in H as ([[w1 e1] o1] & E1 & H). apply (eu_cycle7_P _ _ _ _ _ _ _ _ _ _ F) in E1.
      destruct (y_err o1); [inv H; exact E1|].
      apply bind_ok in H as ([[w2 t'] er] & E2 & H). inv H. rewrite <- (snoc_len D e1) in E2. rewrite <- snoc_app.
      eapply IH; [rewrite snoc_app; exact E1|exact E2].
Qed.

Lemma eus_final7_P : forall labels ord cycle eus D w w' eus' o,
  Pw w (D ++ eus) -> eus_final7 hk labels ord cycle (Z.of_nat (length D)) w eus = Ok (w', eus', o) -> Pw w' (D ++ eus').
Proof.
  intros labels ord cycle. induction eus as [|e tl IH]; intros D w w' eus' o F H; cbn [eus_final7] in H.
  - inv H. exact F.
  - destruct (_ && _).
    + apply bind_ok in H as ([[w2 t'] er] & E2 & H). inv H. rewrite <- (snoc_len D e) in E2. rewrite <- snoc_app.
      eapply IH; [rewrite snoc_app; exact F|exact E2].
    + apply bind_ok in H as ([[w1 e1] o1] & E1 & H). apply (eu_cycle7_P _ _ _ _ _ _ _ _ _ _ F) in E1.
      apply bind_ok in H as ([[w2 t'] er] & E2 & H). inv H. rewrite <- (snoc_len D e1) in E2. rewrite <- snoc_app.
      eapply IH; [rewrite snoc_app; exact E1|exact E2].
Qed.

Lemma snoops7_P : forall eus D w w' eus', Pw w (D ++ eus) ->
  snoops7 hk (Z.of_nat (length D)) w eus = Ok (w', eus') -> Pw w' (D ++ eus').
Proof.
  induction eus as [|e tl IH]; intros D w w' eus' F H; cbn [snoops7] in H.
  - inv H. exact F.
  - apply bind_ok in H as ([[mem1 i1] c1] & E1 & H). apply bind_ok in H as ([w2 t'] & E2 & H). inv H. cbn [fst snd].
    apply (P_snoop _ _ _ _ _ _ _ _ F) in E1. rewrite <- (snoc_len D (set_hcc e c1)) in E2. rewrite <- snoc_app.
    eapply IH; [|exact E2]. rewrite snoc_app. exact E1.
Qed.

Definition holds_in (s : st7) : Prop := P (st_mem s) (st_msi s) (v_eus s).

Theorem step7_nf : forall app labels ord s s', step_noflush7 hk app labels ord s ->
  step7 hk app labels ord s = UCont s' -> holds_in s -> holds_in s'.
Proof.
  intros prog labels ord s s' NF H F. unfold step7 in H. unfold step_noflush7 in NF. unfold holds_in, st_msi, st_mem in *.
  destruct (v_mode s) eqn:M; try contradiction.
  - apply res_of7_cont in H as (w1 & E1 & H). pose proof (hf_front hk HF _ _ _ _ _ E1) as [FR FM].
    apply res_of7_cont in H as ([w2 eus2] & E2 & H). apply res_of7_cont in H as ([[w3 eus3] o] & E3 & H).
    pose proof (NF _ _ _ E1 E2 E3) as FO. cbn [snd fst] in FO, E3.
    apply (snoops7_P (v_eus s) []) in E2; [|cbn [app]; rewrite FR, FM; exact F].
    apply (eus_main7_P labels ord _ eus2 [] w2 yo_none w3 eus3 o E2 eq_refl eq_refl) in E3; [|exact FO]. cbn [app] in E3.
    unfold back7 in H. destruct (y_err o); [discriminate|].
    apply res_of7_cont in H as ([x wus1] & E & H). apply wus_cycle7_mem in E.
    assert (F4 : Pw (set_wx w3 x) eus3) by (rewrite w_mem_set_wx, w_i_set_wx, E; exact E3). destruct (y_ret o).
    + apply ret_check7_same in H as [-> ->]. exact F4.
    + rewrite FO in H. destruct (is_empty7 x eus3 wus1); inv H; exact F4.
  - apply res_of7_cont in H as ([w2 eus2] & E2 & H). apply (snoops7_P (v_eus s) []) in E2; [|exact F].
    apply res_of7_cont in H as ([[w3 eus3] er] & E3 & H). apply (eus_drain7_P _ _ _ _ [] _ _ _ _ E2) in E3. cbn [app] in E3.
    destruct er; [discriminate|]. apply res_of7_cont in H as ([x2 wus1] & E4 & H). apply wus_cycle7_mem in E4.
    assert (F4 : Pw (set_wx w3 x2) eus3) by (rewrite w_mem_set_wx, w_i_set_wx, E4; exact E3).
    apply ret_check7_same in H as [-> ->]. exact F4.
  - apply res_of7_cont in H as ([w2 eus2] & E2 & H). apply (snoops7_P (v_eus s) []) in E2; [|exact F].
    apply res_of7_cont in H as ([[w3 eus3] sk] & E3 & H). apply (eus_final7_P _ _ _ _ [] _ _ _ _ E2) in E3. cbn [app] in E3.
    destruct (_ && _); inv H. exact E3.
Qed.

Theorem reach7nf_inv : forall app labels ord s0 s, reach7nf hk app labels ord s0 s -> holds_in s0 -> holds_in s.
Proof. intros app labels ord s0 s R S0. induction R; [exact S0|]. eapply step7_nf; eauto. Qed.

End Tick.

(* ------------------------------------------------------------------ *)
(* the invariant over the execute units; the initial state              *)
(* ------------------------------------------------------------------ *)

Definition EO (e : eu7) : Prop := eu_ok e /\ h_seq e = 0.

Lemma sums_snoc : forall (D : list eu7) e T, map sum_of (D ++ e :: T) = map sum_of D ++ sum_of e :: map sum_of T.
Proof. intros. rewrite map_app. reflexivity. Qed.

Definition K1St (s : st7) : Prop := K1' (st_msi s) (map sum_of (v_eus s)) /\ Forall EO (v_eus s).

Lemma init7_K1 : forall par ord app st s, init7 par ord app st = Ok s -> K1St s.
Proof.
  intros par ord app st s H. unfold init7 in H. destruct (init3 par ord app st); try discriminate.
  destruct (new_cache l1LineSize l1Size) as [l1d| |] eqn:EC; try discriminate. inv H. unfold K1St, st_msi. cbn [v_eus v_w w_i].
  split.
  - split; [exact SI_new|]. split; [intros id id' a M; cbv in M; discriminate|]. split.
    + intros a.
      split.
      * rewrite (cnt_zero (sr a)); [reflexivity|]. intros y Hy. apply in_map_iff in Hy as (e & <- & He). apply repeat_spec in He. subst e. reflexivity.
      * rewrite (cnt_zero (sw a)); [reflexivity|]. intros y Hy. apply in_map_iff in Hy as (e & <- & He). apply repeat_spec in He. subst e. reflexivity.
    + intros n s H. apply nth_error_In in H. apply in_map_iff in H as (e & <- & He). apply repeat_spec in He. subst e. exact I.
  - apply Forall_forall. intros e He. apply repeat_spec in He. subst e. split; [split; reflexivity|reflexivity].
Qed.

(* from K1 to clause 1 and the counters *)
Lemma cnt_map {A B} (f : B -> bool) (g : A -> B) l : cnt f (map g l) = cnt (fun x => f (g x)) l.
Proof. induction l as [|x t IH]; [reflexivity|]. cbn [map]. rewrite !cnt_cons, IH. reflexivity. Qed.

Lemma K1St_clauses : forall s, K1St s -> clause1_70 (st_msi s) /\ sem_count70 (st_msi s) (v_eus s) /\ clause5_70 (st_msi s).
Proof.
  intros s [([A _] & B & D & _) _]. split; [exact B|]. split; [|exact A].
  intros a. destruct (D a) as [D1 D2]. rewrite !cnt_map in *. split; [exact D1|exact D2].
Qed.

(* a flush-free run never panics in Sem.RUnlock / Sem.Unlock ... is a consequence of sem_count70 not stated here *)
Lemma reach7nf_reach7 : forall hk app labels ord s0 s, reach7nf hk app labels ord s0 s -> reach7 hk app labels ord s0 s.
Proof. intros hk app labels ord s0 s R. induction R; [constructor|]. eapply r7a_step; eauto. Qed.
