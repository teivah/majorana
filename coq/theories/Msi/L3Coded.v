(* C06 - the three-level machine AS CODED (rep = false: memory copied when the
   miss starts, pushed later; deferred per-core victim commands whose kind is
   fixed when they are issued), L1 protocol as coded (unguarded, flush
   excluded).  What still holds in every reachable state:
   - everything of the two-level invariant that is about the protocol and not
     about the data carried (clauses 1, 3, 5, counters, command kinds, J): the
     protocol is data-independent, so the data-erased core state is a state of
     the machine of Msi/Protocol.v;
   - L3 never holds two copies of a line and its bases are aligned.
   What fails (clause 2, the occupancy of L3, data value, and the panic
   "memory address should exist") is in Msi/L3Refuted.v. *)
From Coq Require Import List ZArith Lia Bool Arith.
From Maj Require Import Msi.Protocol Msi.Invariant Msi.InvProofs Msi.StepProofs Msi.CodedProofs
  Msi.L3Protocol Msi.L3Invariant Msi.L3Lemmas.
Import ListNotations.
Open Scope Z_scope.

Lemma erase_ph_tx p : tx_line (erase_ph p) = tx_line p.
Proof. destruct p; reflexivity. Qed.

(* a function applied to an updated table is the updated table of its values *)
Lemma upd_map {A B} (g : A -> B) f i x j : g (upd f i x j) = upd (fun j => g (f j)) i (g x) j.
Proof. unfold upd. now destruct (Nat.eqb j i). Qed.
Lemma upd2_map {A B} (g : A -> B) f i l x j k : g (upd2 f i l x j k) = upd2 (fun j k => g (f j k)) i l (g x) j k.
Proof. unfold upd2. now destruct (Nat.eqb j i && Z.eqb k l). Qed.

(* erase commutes with the updates of a transition, field by field (the last
   step is for a write to the erased memory, which changes nothing) *)
Ltac steq :=
  constructor; intros; simpl;
  rewrite ?(upd_map erase_ph), ?(upd2_map (fun o : option val => match o with Some _ => Some 0 | None => None end));
  try reflexivity; unfold updl; now destruct (Z.eqb _ _).

Lemma victim_ok_erase s i l vic : victim_ok s i l vic -> victim_ok (erase s) i l vic.
Proof.
  destruct vic as [a|]; simpl; auto. intros [Hne Hl]. split; auto. destruct (l1 s i a); congruence.
Qed.

Lemma flush_rep_erase s i : st_eq (flush_rep (erase s) i) (erase (flush_rep s i)).
Proof.
  unfold flush_rep. simpl. destruct (ph s i); simpl; steq.
Qed.

(* the protocol does not look at the data it carries: the erased state makes
   the same transition, its premises being those of the transition itself *)
Lemma step_erase N g fm b lab b' : step N g fm b lab b' ->
  exists c, step N g fm (erase b) (erase_lab lab) c /\ st_eq c (erase b').
Proof.
  intros Hs. destruct Hs; simpl erase_lab; eexists.
  (* the same constructor; a premise about the phase or the L1 entry of the core
     is rewritten with the premise it comes from *)
  all: split; [econstructor; simpl; try match goal with H : ?x = _ |- context [?x] => rewrite H end; simpl;
               auto using victim_ok_erase
              |first [steq|apply flush_rep_erase]].
Qed.

Lemma erase_set_mem b m : st_eq (erase b) (erase (set_mem b m)).
Proof. constructor; reflexivity. Qed.

Section Coded.
Variable N : nat.
Variable w : Z.
Variable cap : nat.
Hypothesis Hw : 0 < w.

Notation step3c := (step3 N false NoFlush false w cap).

(* a transition of the core, seen on the erased core *)
Lemma erased_step b lab b' e : step N false NoFlush b lab b' -> st_eq (erase b') e ->
  exists lab c, step N false NoFlush (erase b) lab c /\ st_eq c e.
Proof.
  intros Hs E. destruct (step_erase _ _ _ _ _ _ Hs) as [c [X Y]]. exists (erase_lab lab), c.
  split; [exact X|exact (st_eq_trans _ _ _ Y E)].
Qed.

(* every transition is a transition of the data-erased core, or invisible to it *)
Lemma sim_coded s k s' : step3c s k s' ->
  st_eq (erase (core s)) (erase (core s')) \/
  exists lab c, step N false NoFlush (erase (core s)) lab c /\ st_eq c (erase (core s')).
Proof.
  intros Hs. destruct Hs.
  - right. apply (erased_step _ _ _ _ H0), st_eq_refl.
  - right. apply (erased_step _ _ _ _ (fetch_rd N false NoFlush i l (core s) H H0 H1)). steq.
  - right. apply (erased_step _ _ _ _ (fetch_wr N false NoFlush i l (core s) H H0 H1)). steq.
  - left. apply st_eq_refl.
  - left. unfold push_coded. destruct (in_l3 w s l); apply st_eq_refl.
  - discriminate.
  - left. apply st_eq_refl.
  - left. apply erase_set_mem.
  - right. apply (erased_step _ _ _ _ (cmd_writeback_done N false NoFlush j l v (core s) H H0 H1)).
    unfold store_next. destruct (in_l3 w s l); constructor; reflexivity.
  - right. apply (erased_step _ _ _ _ (export_line N false NoFlush i l v (core s) H H0 H1)).
    unfold store_next. destruct (in_l3 w s l); constructor; reflexivity.
  - left. apply erase_set_mem.
Qed.

(* the part of the L3 structure that holds as coded: one copy per line, aligned bases *)
Lemma l3wf_step g fm rep s k s' : L3wf w s -> step3 N g fm rep w cap s k s' -> L3wf w s'.
Proof.
  intros W Hs. change (qwf w (l3q s)) in W. destruct Hs; unfold L3wf; simpl; auto.
  - destruct (is_pushed (ax s i)); [exact W|now apply qwf_touch].
  - destruct (is_pushed (ax s i)); [exact W|now apply qwf_touch].
  - unfold push_coded. destruct (in_l3 w s l) eqn:E; simpl; [now apply qwf_touch|].
    apply qwf_cons; auto. now apply inq_false.
  - apply inq_false in H2. destruct (Nat.leb cap (length (l3q s))); apply qwf_cons; auto.
    + rewrite del_in. tauto.
    + now apply qwf_del.
  - now apply qwf_del.
  - now apply qwf_del.
  - unfold store_next. destruct (in_l3 w s l); simpl; [now apply qwf_touch|exact W].
  - unfold store_next. destruct (in_l3 w s l); simpl; [now apply qwf_touch|exact W].
Qed.

Lemma l3wf_init m0 : L3wf w (init3 m0).
Proof. split; [constructor|intros b []]. Qed.

Lemma erase_init m0 : st_eq (init (fun _ => 0)) (erase (init m0)).
Proof. constructor; reflexivity. Qed.

(* THE CODE AS IT IS (L1 protocol unguarded, flush excluded, L3 as coded) *)
Theorem l3_reachable_coded m0 s : reach3 N false NoFlush false w cap m0 s ->
  Inv N (erase (core s)) /\ J N (erase (core s)) /\ L3wf w s.
Proof.
  induction 1 as [|s k s' Hr [I0 [J0 W0]] Hs].
  - split; [|split].
    + apply (inv_st_eq N (init (fun _ => 0))); [apply erase_init|apply inv_init].
    + apply (J_st_eq N (init (fun _ => 0))); [apply erase_init|apply J_init].
    + apply l3wf_init.
  - cut (Inv N (erase (core s')) /\ J N (erase (core s'))); [pose proof (l3wf_step _ _ _ _ _ _ W0 Hs); tauto|].
    destruct (sim_coded _ _ _ Hs) as [E|[lab [c [Hst E]]]].
    + split; [now apply (inv_st_eq N (erase (core s)))|now apply (J_st_eq N (erase (core s)))].
    + destruct (inv_step_coded N _ lab c I0 J0 Hst) as [I1 J1].
      split; [now apply (inv_st_eq N c)|now apply (J_st_eq N c)].
Qed.

(* what Inv of the erased state says about the state itself: clauses 1, 3, 5 *)
Lemma erased_filled b i l : (exists vic, ph (erase b) i = RdFilled l vic \/ ph (erase b) i = WrFilled l vic) ->
  exists vic, ph b i = RdFilled l vic \/ ph b i = WrFilled l vic.
Proof.
  simpl. intros [vic H]. exists vic. destruct (ph b i); simpl in H; destruct H as [H|H]; try discriminate; auto.
Qed.

Theorem erased_clauses b : Inv N (erase b) ->
  clause1 (obs_of_st N b) /\ clause3 (obs_of_st N b) /\ clause5 (obs_of_st N b).
Proof.
  intros I0. destruct (inv_clauses N _ I0) as [C1 [_ [C3 C5]]]. split; [|split].
  - exact C1.
  - intros i l Hi. destruct (C3 i l Hi) as [X Y]. simpl in *. split.
    + intros Hm. specialize (X Hm). destruct (l1 b i l); congruence.
    + intros Ht Hl. apply Y.
      * intro T. apply Ht. now apply erased_filled.
      * destruct (l1 b i l); congruence.
  - exact C5.
Qed.

End Coded.
