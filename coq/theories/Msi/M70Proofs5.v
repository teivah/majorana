(* C06 about the faithful model of MVP-7.0, part 5: clause 2 (a line Shared in a core is byte-identical to main
   memory) on flush-free runs, and the full invariant C06Inv70.

   On top of F3 (part 4: K1' + GI + Sn + Sh): the DATA invariant DIc of one controller,
     D1  a Shared line has a non-negative aligned base and its L1 copy (if the L1 has one: clause 3 says it has)
         equals memory;
     D3  after the fill of a read miss (REvict / RL1 with post = PShareRUnlock a) the L1 copy of a equals memory;
     D2  during the memory latency of a read miss (RFetch) the fetched bytes equal memory and the line is not
         in L1;
     D4  a write transaction ends with PModUnlock / PUnlock;  D5  a read hit does not end with PShareRUnlock.
   Memory changes only in the write-back closure of a core that holds the line Modified (GI.g1), so no other core
   holds it Shared (clause 1) nor is filling it (others_notM of K1'); the L1 data of a line changes only in
   coWriteToL1, in the same call that makes the line Modified.

   F5 = F3 + DI is preserved by the three calls of a controller that touch memory or the directory (F5_read,
   F5_write, F5_snoop), hence by every flush-free tick (reach7nf_inv of M70Proofs2.v).
   RESULT: mvp70_inv_reachable - C06Inv70 (clauses 1-5) in every state of the flush-free prefix of every run; with
   it mvp70_swmr_partial (clause 1, counters), mvp70_clause3, mvp70_clause2.
   WHAT IS STILL MISSING (precisely):
     - runs WITH pipeline flushes (cacheController.flush): outside reach7nf; the four defects of flush recorded in
       known_findings.json make clauses 1, 3 and 5 false there (only clauses 4, 5-as-ranges hold: part 1);
     - the supporting conjuncts of the boolean judge c06full70_b (shapes_b, cmds_b, just_b, snoop_b) are NOT proved
       to imply the inductive invariant F5 proved here (K1' + GI + Sn + Sh + DI): the proof uses a different,
       semaphore-based justification of commands (GI.g3) instead of just_b, which is not inductive without a
       timing argument (an Evict command could be "justified" by a reader that waits on the line);
       only c06inv70_b -> C06Inv70 (part 6) and hence c06full70_b -> C06Inv70 are proved;
     - the victim command of a fill is not shown to target another line (victim_b of the judge): not needed. *)
From Coq Require Import ZArith List Bool Lia.
From Maj Require Import Base.Outcome Base.GoInt Base.GoTypes Isa.Spec Isa.Seq.
From Maj Require Import Gen.Latency Gen.RiscTables Gen.Opcodes Comp.Cache Comp.Rat Comp.RatProofs Mvp.Mvp12 Mvp.Mvp3 Mvp.Mvp3Proofs Mvp.Mvp5 Mvp.Mvp60 Mvp.Mvp63 Mvp.Mvp63Proofs Mvp.Mvp70 Mvp.Mvp70Proofs.
From Maj Require Import Msi.M70Inv Msi.M70Frame Msi.M70Proofs Msi.M70Proofs2 Msi.M70Proofs3 Msi.M70Proofs4.
Import ListNotations.
Open Scope Z_scope.

(* ------------------------------------------------------------------ *)
(* A. main memory and the data of the L1 lines                          *)
(* ------------------------------------------------------------------ *)

Lemma mem_line_write : forall mem a d mem1 b, write_to_memory mem a d = Ok mem1 -> zlen d = l1LineSize ->
  a mod l1LineSize = 0 -> b mod l1LineSize = 0 -> 0 <= b -> b <> a -> mem_line mem1 b = mem_line mem b.
Proof.
  intros mem a d mem1 b H LD AA AB B0 NE. unfold l1LineSize in *.
  destruct (Z_lt_ge_dec a 0) as [NEG|POS].
  - destruct d as [|v t]; [inv H; reflexivity|]. cbn [write_to_memory] in H.
    destruct (Z.leb_spec (Z.of_nat (length mem)) a); [inv H; reflexivity|]. destruct (Z.ltb_spec a 0); [discriminate|lia].
  - destruct (write_to_memory_ok d mem a ltac:(lia)) as (m' & E & L & V). rewrite E in H. inv H.
    unfold mem_line. apply map_ext_in. intros k Hk. apply in_seq in Hk. rewrite L.
    destruct (Z.ltb_spec (b + Z.of_nat k) (Z.of_nat (length mem))); [|reflexivity].
    unfold l1LineSize in Hk. change (Z.to_nat 64) with 64%nat in Hk.
    specialize (V (b + Z.of_nat k)). unfold mget, zlen in V. rewrite V by lia.
    destruct (Z.leb_spec a (b + Z.of_nat k)), (Z.ltb_spec (b + Z.of_nat k) (a + Z.of_nat (length d))); cbn [andb]; try reflexivity.
    exfalso. unfold zlen in LD. lia.
Qed.

Lemma find_skip {A} (f : A -> bool) pre l post : f l = false -> find f (pre ++ l :: post) = find f (pre ++ post).
Proof. intros F. induction pre as [|x t IH]; cbn [app find]; [rewrite F; reflexivity|]. destruct (f x); [reflexivity|exact IH]. Qed.

Lemma wf_unique_pre : forall pre l post b, lines_wf (pre ++ l :: post) -> covers_b l b = true ->
  (forall x, In x pre -> covers_b x b = false) /\ (forall x, In x post -> covers_b x b = false).
Proof.
  intros pre l post b [W _] C. specialize (W b). rewrite cnt_mid, C in W.
  pose proof (cnt_nonneg (fun l0 => covers_b l0 b) pre). pose proof (cnt_nonneg (fun l0 => covers_b l0 b) post).
  split; apply cnt_zero_inv; lia.
Qed.

Lemma line_get_same : forall c x c' r b, l1_wf c -> get c x = Ok (c', r) -> l1_line c' b = l1_line c b.
Proof.
  intros c x c' r b W H. unfold get in H. apply bind_ok in H as (f & E & H).
  destruct f as [[[v l] rest]|]; inv H; [|reflexivity].
  destruct (find_line_some _ _ _ _ _ E) as (pre & post & E1 & -> & _). apply l1_wf_lines in W as [_ W]. rewrite E1 in W.
  unfold l1_line. cbn [set_lines lines]. rewrite E1. cbn [find]. destruct (covers_b l b) eqn:C.
  - destruct (wf_unique_pre _ _ _ _ W C) as [P _]. symmetry. apply l1_line_app; assumption.
  - symmetry. apply find_skip. exact C.
Qed.

Lemma line_get_all_same : forall addrs c acc c' r b, l1_wf c -> get_all c addrs acc = Ok (c', r) -> l1_line c' b = l1_line c b.
Proof.
  induction addrs as [|a t IH]; intros c acc c' r b W H; cbn [get_all] in H.
  - inv H. reflexivity.
  - apply bind_ok in H as ([c1 [v|]] & E & H).
    + rewrite (IH _ _ _ _ _ (get_wf _ _ _ _ E W) H). eapply line_get_same; eauto.
    + inv H. eapply line_get_same; eauto.
Qed.

Lemma line_evict_sub : forall c a c' r b l, l1_wf c -> evict_cache_line c a = Ok (c', r) -> l1_line c' b = Some l -> l1_line c b = Some l.
Proof.
  intros c a c' r b l W H F. unfold evict_cache_line in H. apply bind_ok in H as (f & E & H).
  destruct f as [[[v l0] rest]|]; inv H; [|exact F].
  destruct (find_line_some _ _ _ _ _ E) as (pre & post & E1 & -> & _). apply l1_wf_lines in W as [_ W]. rewrite E1 in W.
  unfold l1_line in *. cbn [set_lines lines] in F. rewrite E1. destruct (covers_b l0 b) eqn:C.
  - exfalso. destruct (wf_unique_pre _ _ _ _ W C) as [P Q]. apply find_some in F as [I CL].
    apply in_app_or in I as [I|I]; [rewrite (P _ I) in CL|rewrite (Q _ I) in CL]; discriminate.
  - rewrite find_skip by exact C. exact F.
Qed.

Lemma line_write_other : forall c a0 vs c' b l, write c a0 vs = Ok c' -> l1_line c' b = Some l -> covers_b l a0 = false -> l1_line c b = Some l.
Proof.
  intros c a0 vs c' b l H. unfold write in H. apply bind_ok in H as (ls & E & H). inv H. unfold l1_line. cbn [set_lines lines].
  revert ls E. induction (lines c) as [|x t IH]; intros ls E F NC; cbn [write_lines] in E; [discriminate|].
  apply bind_ok in E as (r & G & E). pose proof (line_get_covers _ _ _ G) as CV. destruct r.
  - apply bind_ok in E as (d & _ & E). inv E. cbn [find] in *. unfold covers_b at 1 in F. cbn [lo hi] in F.
    unfold covers_b at 1. destruct ((lo x <=? b) && (b <? hi x)); [|exact F]. inv F. exfalso.
    unfold covers_b in NC. cbn [lo hi] in NC. assert (covers_b x a0 = true) by (apply CV; discriminate). unfold covers_b in H. congruence.
  - apply bind_ok in E as (t' & E & E'). inv E'. cbn [find] in *. destruct (covers_b x b); [exact F|]. eapply IH; eauto.
Qed.

Definition clean (l1 : cache) (mem : list Z) (a : Z) : Prop := forall l, l1_line l1 a = Some l -> data l = mem_line mem a.

Lemma clean_sub : forall l1 l1' mem a, (forall l, l1_line l1' a = Some l -> l1_line l1 a = Some l) -> clean l1 mem a -> clean l1' mem a.
Proof. intros l1 l1' mem a S C l F. apply C. apply S. exact F. Qed.

Lemma push_line_view : forall c la d c' v, push_line_to_l1 c la d = Ok (c', v) -> l1_holds c la = false ->
  lines c' = new_line c la d :: lines c.
Proof.
  intros c la d c' v H NH. unfold push_line_to_l1 in H. apply bind_ok in H as ([c1 r] & E & H). destruct r.
  - apply get_hit in E. congruence.
  - assert (c1 = c) as ->.
    { unfold get in E. apply bind_ok in E as (f & E1 & E). destruct f as [[[v0 l0] r0]|]; [discriminate|]. inv E. reflexivity. }
    unfold push_line_warn in H. destruct (_ >? _); inv H; reflexivity.
Qed.

Lemma push_line_other : forall c la d c' v b, push_line_to_l1 c la d = Ok (c', v) -> l1_wf c -> fetch_ok la d ->
  al b -> b <> la -> l1_line c' b = l1_line c b.
Proof.
  intros c la d c' v b H W (A0 & A1 & _) AB NE. unfold push_line_to_l1 in H. apply bind_ok in H as ([c1 r] & E & H). destruct r.
  - inv H. eapply line_get_same; eauto.
  - assert (c1 = c) as ->.
    { unfold get in E. apply bind_ok in E as (f & E1 & E). destruct f as [[[v0 l0] r0]|]; [discriminate|]. inv E. reflexivity. }
    assert (EL : lines c' = new_line c la d :: lines c) by (unfold push_line_warn in H; destruct (_ >? _); inv H; reflexivity).
    unfold l1_line. rewrite EL. cbn [find]. destruct (covers_b (new_line c la d) b) eqn:C; [|reflexivity].
    exfalso. apply NE. eapply new_line_covers; eauto. apply (proj1 W).
Qed.

(* ------------------------------------------------------------------ *)
(* B. the data invariant of one controller                              *)
(* ------------------------------------------------------------------ *)

Definition wr_type (p : post7) : Prop := match p with PModUnlock _ | PUnlock _ => True | _ => False end.
Definition pre_fill (c : cc7) : bool := match c_rd c with RPend _ _ _ | RFetch _ _ _ _ => true | _ => false end.
Definition D1 (mem : list Z) (st : Z -> Z) (l1 : cache) : Prop := forall a, st a = stShared -> al a /\ 0 <= a /\ clean l1 mem a.
Definition Dpost (mem : list Z) (l1 : cache) (p : post7) : Prop := forall a, p = PShareRUnlock a -> 0 <= a /\ clean l1 mem a.

Definition DIc (mem : list Z) (st : Z -> Z) (c : cc7) : Prop :=
  D1 mem st (c_l1d c) /\
  (forall p, cur_post c = Some p -> pre_fill c = false -> Dpost mem (c_l1d c) p) /\
  match c_rd c with
  | RFetch _ la d _ => d = mem_line mem la /\ l1_holds (c_l1d c) la = false
  | RPend _ false p => forall a, p <> PShareRUnlock a
  | _ => True
  end /\
  (c_rd c = RStart -> forall p, cur_post c = Some p -> wr_type p).

Lemma D1_ext : forall mem st st' l1, (forall a, st' a = st a) -> D1 mem st l1 -> D1 mem st' l1.
Proof. intros mem st st' l1 E D a H. rewrite E in H. auto. Qed.
Lemma DIc_ext : forall mem st st' c, (forall a, st' a = st a) -> DIc mem st c -> DIc mem st' c.
Proof. intros mem st st' c E (A & B). split; [eapply D1_ext; eauto|exact B]. Qed.
Lemma D1_lines : forall mem st l1 l1', (forall a, al a -> st a = stShared -> forall l, l1_line l1' a = Some l -> l1_line l1 a = Some l) ->
  D1 mem st l1 -> D1 mem st l1'.
Proof. intros mem st l1 l1' S D a H. destruct (D a H) as (A & B & C). split; [exact A|split; [exact B|]]. intros l F. apply C. eapply S; eauto. Qed.

Section CoreD.
Variables (mem : list Z) (id : Z).
Notation DRes i' c' := (DIc mem (state_get i' id) c').

Ltac dcc := unfold DIc, pre_fill, cur_post; cbn [set_rd set_wr set_l1d set_post set_rsems set_wsems set_snoop c_l1d c_rd c_wr c_post c_snoop].

Lemma rd_l1_D : forall i c addrs cyc data i' c' r, D1 mem (state_get i id) (c_l1d c) -> Dpost mem (c_l1d c) (c_post c) ->
  (forall a, post_line (c_post c) = Some a -> al a) -> c_wr c = WStart ->
  rd_l1 i id c addrs cyc data = Ok (i', c', r) -> DRes i' c'.
Proof.
  intros i c addrs cyc data i' c' r D P AL W H. unfold rd_l1 in H. destruct (0 <? cyc).
  - inv H. dcc. split; [exact D|]. split; [intros p E _; inv E; exact P|]. split; [exact I|discriminate].
  - apply bind_ok in H as (i1 & E1 & H). apply bind_ok in H as (a & E2 & H). inv H.
    destruct (run_post_states _ _ _ _ E1) as (_ & ST & _). dcc. rewrite W.
    split; [|split; [discriminate|split; [exact I|discriminate]]].
    eapply D1_ext; [exact ST|]. intros b SB. destruct (c_post c) eqn:EP; cbn [st_after] in SB; try (apply D; exact SB).
    + destruct (b =? a0) eqn:Q; [|apply D; exact SB]. apply Z.eqb_eq in Q. subst b.
      destruct (P a0 eq_refl) as [P0 PC]. split; [apply AL; reflexivity|split; assumption].
    + destruct (b =? a0) eqn:Q; [discriminate|apply D; exact SB].
Qed.

Lemma rd_from_l1_D : forall i c addrs i' c' r, D1 mem (state_get i id) (c_l1d c) -> Dpost mem (c_l1d c) (c_post c) ->
  (forall a, post_line (c_post c) = Some a -> al a) -> l1_wf (c_l1d c) -> c_wr c = WStart ->
  rd_from_l1 i id c addrs = Ok (i', c', r) -> DRes i' c'.
Proof.
  intros i c addrs i' c' r D P AL WF W H. unfold rd_from_l1 in H. apply bind_ok in H as ([l1 g] & E & H).
  destruct g as [data|]; [|discriminate].
  assert (LE : forall b, l1_line l1 b = l1_line (c_l1d c) b) by (intros; eapply line_get_all_same; eauto).
  eapply rd_l1_D; [| | | |exact H]; cbn [set_l1d c_l1d c_post c_wr]; [| |exact AL|exact W].
  - eapply D1_lines; [|exact D]. intros a _ _ l F. rewrite <- LE. exact F.
  - intros a PA. destruct (P a PA) as [P0 PC]. split; [exact P0|]. eapply clean_sub; [|exact PC]. intros l F. rewrite <- LE. exact F.
Qed.

Lemma rd_evict_D : forall i c addrs pending post i' c' r, D1 mem (state_get i id) (c_l1d c) -> Dpost mem (c_l1d c) post ->
  (forall a, post_line post = Some a -> al a) -> l1_wf (c_l1d c) -> c_wr c = WStart ->
  rd_evict i id c addrs pending post = Ok (i', c', r) -> DRes i' c'.
Proof.
  intros i c addrs pending post i' c' r D P AL WF W H. unfold rd_evict in H.
  assert (STAY : DRes i (set_rd c (REvict pending post))).
  { dcc. split; [exact D|]. split; [intros p E _; inv E; exact P|]. split; [exact I|discriminate]. }
  assert (GO : rd_from_l1 i id (set_post c post) addrs = Ok (i', c', r) -> DRes i' c').
  { intros H'. eapply rd_from_l1_D; [| | | | |exact H']; cbn [set_post c_l1d c_post c_wr]; assumption. }
  destruct pending as [p|]; [destruct (negb (cmd_isdone i p))|]; [inv H; exact STAY|apply GO; exact H|apply GO; exact H].
Qed.

Lemma rd_fetch_D : forall i c addrs cyc la dt post i' c' r, D1 mem (state_get i id) (c_l1d c) -> post = PShareRUnlock la ->
  dt = mem_line mem la -> l1_holds (c_l1d c) la = false -> state_get i id la = stInvalid -> fetch_ok la dt ->
  l1_wf (c_l1d c) -> c_wr c = WStart -> rd_fetch i id c addrs cyc la dt post = Ok (i', c', r) -> DRes i' c'.
Proof.
  intros i c addrs cyc la dt post i' c' r D PP DT NH SI FO WF W H. unfold rd_fetch in H. destruct (0 <? cyc).
  - inv H. dcc. split; [exact D|]. split; [discriminate|]. split; [split; [reflexivity|exact NH]|discriminate].
  - apply bind_ok in H as ([l1 v] & E & H). cbn [fst snd] in H.
    assert (D' : D1 mem (state_get i id) l1).
    { eapply D1_lines; [|exact D]. intros a AA SA l F. rewrite <- (push_line_other _ _ _ _ _ a E WF FO AA); [exact F|].
      intros ->. rewrite SI in SA. discriminate. }
    assert (P' : Dpost mem l1 post).
    { intros a PA. subst post. inv PA. split; [apply FO|]. intros l F. pose proof (push_line_view _ _ _ _ _ E NH) as EL.
      unfold l1_line in F. rewrite EL in F. cbn [find] in F. destruct (covers_b (new_line (c_l1d c) a (mem_line mem a)) a).
      - inv F. reflexivity.
      - exfalso. unfold l1_holds, l1_line in NH. rewrite F in NH. discriminate. }
    assert (AL : forall a, post_line post = Some a -> al a) by (intros a PA; subst post; inv PA; apply FO).
    assert (WF1 : l1_wf l1) by (eapply push_line_to_l1_wf; eauto).
    destruct v as [victim|].
    + destruct (msi_evict_extra i id (lo victim)) as [i1 pe] eqn:EE. inv H. apply msi_evict_extra_spec in EE as [S _].
      eapply DIc_ext; [intros; apply (same_ss_state _ _ _ _ S)|]. dcc.
      split; [exact D'|]. split; [intros p E0 _; inv E0; exact P'|]. split; [exact I|discriminate].
    + eapply rd_from_l1_D; [| | | | |exact H]; cbn [set_post set_l1d c_l1d c_post c_wr]; assumption.
Qed.

Lemma rd_pend_D : forall i c addrs ps fetch post i' c' r, D1 mem (state_get i id) (c_l1d c) ->
  (fetch = true -> exists a, post = PShareRUnlock a /\ state_get i id a = stInvalid) ->
  (fetch = false -> forall a, post <> PShareRUnlock a) -> (forall a, post_line post = Some a -> aligned7 addrs = Ok a) ->
  l1_wf (c_l1d c) -> c_wr c = WStart -> rd_pend mem i id c addrs ps fetch post = Ok (i', c', r) -> DRes i' c'.
Proof.
  intros i c addrs ps fetch post i' c' r D FT FF TIE WF W H. unfold rd_pend in H. destruct (negb (all_done i ps)).
  - inv H. dcc. split; [exact D|]. split; [discriminate|]. split; [destruct fetch; [exact I|apply FF; reflexivity]|discriminate].
  - destruct fetch; cbn [negb] in H.
    + apply bind_ok in H as (a & E1 & H). apply bind_ok in H as (g & E2 & H). destruct g; [discriminate|].
      destruct addrs as [|a0 tl]; [discriminate|]. apply bind_ok in H as (ln & E3 & H).
      destruct (FT eq_refl) as (a' & PP & SI). subst post. rewrite (TIE a' eq_refl) in E1. inv E1.
      pose proof (TIE a eq_refl) as AL. cbn [aligned7] in AL. inv AL. apply fetch_cache_line_ok in E3 as [FO EQ].
      eapply rd_fetch_D; [| | | | | | | |exact H]; try assumption; try reflexivity.
      unfold get_cache_line in E2. apply bind_ok in E2 as (f & E2 & E2'). destruct f as [[[? ?] ?]|]; [discriminate|].
      apply find_line_none_view in E2. unfold l1_holds. rewrite E2. reflexivity.
    + eapply rd_from_l1_D; [| | | | |exact H]; cbn [set_post c_l1d c_post c_wr]; try assumption.
      * intros a PA. exfalso. eapply FF; eauto.
      * intros a PA. eapply aligned7_al. apply TIE. exact PA.
Qed.

Lemma rd_start_D : forall i c addrs i' c' r, DIc mem (state_get i id) c -> l1_wf (c_l1d c) -> c_rd c = RStart -> c_wr c = WStart ->
  rd_start mem i id c addrs = Ok (i', c', r) -> DRes i' c'.
Proof.
  intros i c addrs i' c' r (D & _) WF R W H. unfold rd_start in H. apply bind_ok in H as (a & E1 & H).
  apply bind_ok in H as ([i1 lr] & E2 & H). cbn [fst snd] in H. destruct lr as [|fetch ps post].
  - inv H. apply msi_rlock_wait in E2. subst i'. dcc. rewrite R, W. split; [exact D|]. split; [discriminate|]. split; [exact I|discriminate].
  - destruct (msi_rlock_shape _ _ _ _ _ _ _ E2) as [ST SH].
    eapply rd_pend_D; [| | | | | |exact H]; cbn [set_rsems c_l1d c_wr]; try assumption.
    + eapply D1_ext; [intros; apply ST|exact D].
    + intros F. destruct SH as [(_ & -> & SI)|(F' & _)]; [|congruence]. exists a. split; [reflexivity|]. rewrite ST. exact SI.
    + intros F b. destruct SH as [(F' & _)|(_ & _ & [(-> & _)|(-> & _)])]; [congruence|discriminate|discriminate].
    + intros b PB. destruct SH as [(_ & -> & _)|(_ & _ & [(-> & _)|(-> & _)])]; cbn in PB; inv PB; exact E1.
Qed.

(* ---- write ---- *)

Lemma wr_l1_D : forall i c addrs data cyc i' c' r, D1 mem (state_get i id) (c_l1d c) -> wr_type (c_post c) -> own_ok i id (c_post c) ->
  (forall a, post_line (c_post c) = Some a -> aligned7 addrs = Ok a) -> l1_wf (c_l1d c) -> c_rd c = RStart ->
  wr_l1 i id c addrs data cyc = Ok (i', c', r) -> DRes i' c'.
Proof.
  intros i c addrs data cyc i' c' r D WT OW TIE WF R H. unfold wr_l1 in H. destruct (0 <? cyc).
  - inv H. dcc. rewrite R. split; [exact D|]. split; [intros p E _; inv E; intros a PA; rewrite PA in WT; destruct WT|].
    split; [exact I|]. intros _ p E. inv E. exact WT.
  - destruct addrs as [|a0 tl]; [discriminate|].
    apply bind_ok in H as (l1 & E0 & H). apply bind_ok in H as (i1 & E1 & H). apply bind_ok in H as (a & E2 & H). inv H.
    destruct (run_post_states _ _ _ _ E1) as (_ & ST & _). dcc. rewrite R.
    split; [|split; [discriminate|split; [exact I|discriminate]]].
    eapply D1_ext; [exact ST|]. 
    assert (PL : post_line (c_post c) = Some a).
    { destruct (c_post c) as [|b|b|b|b]; cbn in WT; try destruct WT; cbn [post_line]; f_equal;
        pose proof (TIE b eq_refl) as X; rewrite X in E2; inv E2; reflexivity. }
    assert (KEEP : forall b, st_after (c_post c) (state_get i id) b = stShared -> state_get i id b = stShared /\ b <> a).
    { intros b SB. destruct (c_post c) eqn:EP; cbn in WT; try destruct WT; cbn [st_after post_line own_ok] in *; inv PL.
      - destruct (b =? a) eqn:Q; [discriminate|]. split; [exact SB|]. intros ->. rewrite Z.eqb_refl in Q. discriminate.
      - split; [exact SB|]. intros ->. rewrite OW in SB. discriminate. }
    intros b SB. destruct (KEEP b SB) as [SB' NE]. destruct (D b SB') as (AB & B0 & CB). split; [exact AB|split; [exact B0|]].
    intros l' F. apply CB. eapply line_write_other; [exact E0|exact F|].
    destruct (covers_b l' a0) eqn:CV; [exfalso|reflexivity].
    pose proof (write_wf _ _ _ _ E0 WF) as (_ & _ & WL). unfold l1_line in F. apply find_some in F as [IN CB'].
    specialize (WL l' IN). destruct (aligned_in_line l' a0 WL CV) as [EA _]. cbn [aligned7] in E2. inv E2.
    destruct (line_wf_covers _ _ WL CB') as [RB _]. destruct WL as (_ & ML & _). unfold al, l1LineSize in *. rewrite EA in NE. lia.
Qed.

Lemma wr_evict_D : forall i c addrs data pending cyc post i' c' r, D1 mem (state_get i id) (c_l1d c) -> wr_type post -> own_ok i id post ->
  (forall a, post_line post = Some a -> aligned7 addrs = Ok a) -> l1_wf (c_l1d c) -> c_rd c = RStart ->
  wr_evict i id c addrs data pending cyc post = Ok (i', c', r) -> DRes i' c'.
Proof.
  intros i c addrs data pending cyc post i' c' r D WT OW TIE WF R H. unfold wr_evict in H.
  assert (STAY : forall k, DRes i (set_wr c (WEvict pending k post))).
  { intros k. dcc. rewrite R. split; [exact D|]. split; [intros p E _; inv E; intros a PA; rewrite PA in WT; destruct WT|].
    split; [exact I|]. intros _ p E. inv E. exact WT. }
  destruct (match pending with Some p => negb (cmd_isdone i p) | None => false end); [inv H; apply STAY|].
  destruct (0 <? cyc); [inv H; apply STAY|].
  eapply wr_l1_D; [| | | | | |exact H]; cbn [set_post c_l1d c_post c_rd]; assumption.
Qed.

Lemma wr_fetch_D : forall i c addrs data cyc la dt post i' c' r, D1 mem (state_get i id) (c_l1d c) -> post = PModUnlock la ->
  state_get i id la = stInvalid -> fetch_ok la dt -> (forall a, post_line post = Some a -> aligned7 addrs = Ok a) ->
  l1_wf (c_l1d c) -> c_rd c = RStart -> wr_fetch i id c addrs data cyc la dt post = Ok (i', c', r) -> DRes i' c'.
Proof.
  intros i c addrs data cyc la dt post i' c' r D PP SI FO TIE WF R H. unfold wr_fetch in H.
  assert (WT : wr_type post) by (subst post; exact I).
  assert (OW : own_ok i id post) by (subst post; cbn [own_ok]; rewrite SI; discriminate).
  destruct (0 <? cyc).
  - inv H. dcc. rewrite R. split; [exact D|]. split; [intros p E _; inv E; discriminate|]. split; [exact I|]. intros _ p E. inv E. exact I.
  - apply bind_ok in H as ([l1 v] & E & H). cbn [fst snd] in H.
    assert (D' : D1 mem (state_get i id) l1).
    { eapply D1_lines; [|exact D]. intros a AA SA l F. rewrite <- (push_line_other _ _ _ _ _ a E WF FO AA); [exact F|].
      intros ->. rewrite SI in SA. discriminate. }
    assert (WF1 : l1_wf l1) by (eapply push_line_to_l1_wf; eauto).
    destruct v as [victim|].
    + destruct (msi_evict_extra i id (lo victim)) as [i1 pe] eqn:EE. inv H. apply msi_evict_extra_spec in EE as [S _].
      eapply DIc_ext; [intros; apply (same_ss_state _ _ _ _ S)|]. dcc. rewrite R.
      split; [exact D'|]. split; [intros p E0 _; inv E0; discriminate|]. split; [exact I|]. intros _ p E0. inv E0. exact I.
    + eapply wr_l1_D; [| | | | | |exact H]; cbn [set_post set_l1d c_l1d c_post c_rd]; assumption.
Qed.

Lemma wr_pend_D : forall i c addrs data ps fetch post i' c' r, D1 mem (state_get i id) (c_l1d c) -> wr_type post -> own_ok i id post ->
  (fetch = true -> exists a, post = PModUnlock a /\ state_get i id a = stInvalid) ->
  (forall a, post_line post = Some a -> aligned7 addrs = Ok a) -> l1_wf (c_l1d c) -> c_rd c = RStart ->
  wr_pend mem i id c addrs data ps fetch post = Ok (i', c', r) -> DRes i' c'.
Proof.
  intros i c addrs data ps fetch post i' c' r D WT OW FT TIE WF R H. unfold wr_pend in H. destruct (negb (all_done i ps)).
  - inv H. dcc. rewrite R. split; [exact D|]. split; [intros p E _; inv E; intros a PA; rewrite PA in WT; destruct WT|].
    split; [exact I|]. intros _ p E. inv E. exact WT.
  - destruct fetch.
    + destruct addrs as [|a0 tl]; [discriminate|]. apply bind_ok in H as (a & E1 & H). apply bind_ok in H as (ln & E3 & H).
      destruct (FT eq_refl) as (a' & PP & SI). subst post. rewrite (TIE a' eq_refl) in E1. inv E1.
      pose proof (TIE a eq_refl) as AL. cbn [aligned7] in AL. inv AL. apply fetch_cache_line_ok in E3 as [FO _].
      eapply wr_fetch_D; [| | | | | | |exact H]; try assumption; reflexivity.
    + eapply wr_l1_D; [| | | | | |exact H]; cbn [set_post c_l1d c_post c_rd]; assumption.
Qed.

Lemma wr_start_D : forall i c addrs data i' c' r, DIc mem (state_get i id) c -> l1_wf (c_l1d c) -> c_rd c = RStart -> c_wr c = WStart ->
  wr_start mem i id c addrs data = Ok (i', c', r) -> DRes i' c'.
Proof.
  intros i c addrs data i' c' r (D & _) WF R W H. unfold wr_start in H. apply bind_ok in H as (a & E1 & H).
  apply bind_ok in H as ([i1 lr] & E2 & H). cbn [fst snd] in H. destruct lr as [|fetch ps post].
  - inv H. apply msi_lock_wait in E2. subst i'. dcc. rewrite R, W. split; [exact D|]. split; [discriminate|]. split; [exact I|discriminate].
  - destruct (msi_lock_shape _ _ _ _ _ _ _ E2) as [ST SH].
    eapply wr_pend_D; [| | | | | | |exact H]; cbn [set_wsems c_l1d c_rd]; try assumption.
    + eapply D1_ext; [intros; apply ST|exact D].
    + destruct SH as [(_ & -> & _)|(_ & [(-> & _)|(-> & _)])]; exact I.
    + destruct SH as [(_ & -> & SI)|(_ & [(-> & _ & SM)|(-> & SS)])]; cbn [own_ok]; rewrite ST; [rewrite SI; discriminate|exact SM|rewrite SS; discriminate].
    + intros F. destruct SH as [(_ & -> & SI)|(F' & _)]; [|congruence]. exists a. split; [reflexivity|]. rewrite ST. exact SI.
    + intros b PB. destruct SH as [(_ & -> & _)|(_ & [(-> & _)|(-> & _)])]; cbn in PB; inv PB; exact E1.
Qed.

End CoreD.

Lemma Sh_tie : forall st c addrs p, Sh st c addrs -> cur_post c = Some p -> forall a, post_line p = Some a -> aligned7 addrs = Ok a.
Proof. intros st c addrs p (_ & _ & T) CP a PA. destruct (T p CP) as (a' & PA' & AL). congruence. Qed.

Lemma cc_read_cycle_D : forall mem id i c addrs i' c' r, DIc mem (state_get i id) c -> Sh (state_get i id) c addrs ->
  FetchI i id c -> CS c -> c_wr c = WStart -> cc_read_cycle mem i id c addrs = Ok (i', c', r) -> DIc mem (state_get i' id) c'.
Proof.
  intros mem id i c addrs i' c' r DI SH [FI _] (WF & RO & _) W H. unfold cc_read_cycle in H.
  pose proof DI as (D & DP & D3 & _). pose proof SH as (_ & [PH _] & _).
  assert (TIE : forall p a, cur_post c = Some p -> post_line p = Some a -> aligned7 addrs = Ok a) by (intros; eapply Sh_tie; eauto).
  unfold pre_fill, cur_post in *. destruct (c_rd c) eqn:E.
  - eapply rd_start_D; eauto.
  - eapply rd_pend_D; [exact D| | |intros a; apply TIE; reflexivity|exact WF|exact W|exact H].
    + intros ->. destruct (PH eq_refl) as [a ->]. exists a. split; [reflexivity|]. apply FI. reflexivity.
    + intros ->. exact D3.
  - destruct D3 as [DT NH]. eapply rd_fetch_D; [exact D|exact PH|exact DT|exact NH| |exact RO|exact WF|exact W|exact H].
    apply FI. rewrite PH. reflexivity.
  - eapply rd_evict_D; [exact D|apply DP; reflexivity| |exact WF|exact W|exact H].
    intros a PA. eapply aligned7_al. eapply TIE; [reflexivity|exact PA].
  - eapply rd_l1_D; [exact D|apply DP; reflexivity| |exact W|exact H].
    intros a PA. eapply aligned7_al. eapply TIE; [reflexivity|exact PA].
Qed.

Lemma cc_write_cycle_D : forall mem id i c addrs data i' c' r, DIc mem (state_get i id) c -> Sh (state_get i id) c addrs ->
  (forall p, cur_post c = Some p -> own_ok i id p) -> CS c -> c_rd c = RStart ->
  cc_write_cycle mem i id c addrs data = Ok (i', c', r) -> DIc mem (state_get i' id) c'.
Proof.
  intros mem id i c addrs data i' c' r DI SH OW (WF & _ & WO) R H. unfold cc_write_cycle in H.
  pose proof DI as (D & _ & _ & D4). pose proof SH as (_ & [_ PH] & _). specialize (D4 R).
  assert (TIE : forall p a, cur_post c = Some p -> post_line p = Some a -> aligned7 addrs = Ok a) by (intros; eapply Sh_tie; eauto).
  unfold cur_post in *. rewrite R in *. destruct (c_wr c) eqn:E.
  - eapply wr_start_D; eauto.
  - eapply (wr_pend_D mem id i c addrs data _ _ post); [exact D|apply D4; reflexivity|apply OW; reflexivity| |intros a; apply TIE; reflexivity|exact WF|exact R|exact H].
    intros ->. exact (PH eq_refl).
  - destruct PH as [PP SI].
    eapply wr_fetch_D; [exact D|exact PP|exact SI|exact WO|intros a; apply TIE; reflexivity|exact WF|exact R|exact H].
  - eapply (wr_evict_D mem id i c addrs data _ _ post); [exact D|apply D4; reflexivity|apply OW; reflexivity|intros a; apply TIE; reflexivity|exact WF|exact R|exact H].
  - eapply wr_l1_D; [exact D|apply D4; reflexivity|apply OW; reflexivity|intros a; apply TIE; reflexivity|exact WF|exact R|exact H].
Qed.

(* ------------------------------------------------------------------ *)
(* C. coSnoop: memory is written only at write-backs                    *)
(* ------------------------------------------------------------------ *)

Lemma get_cache_line_len : forall l1 a d, l1_wf l1 -> get_cache_line l1 a = Ok (Some d) -> zlen d = l1LineSize.
Proof.
  intros l1 a d (_ & _ & W) H. unfold get_cache_line in H. apply bind_ok in H as (f & E & H).
  destruct f as [[[v l] rest]|]; inv H. destruct (find_line_some _ _ _ _ _ E) as (pre & post & E1 & _).
  assert (I : In l (lines l1)) by (rewrite E1; apply in_or_app; right; left; reflexivity). destruct (W l I) as (_ & _ & L & _). exact L.
Qed.

Lemma snoop_items_data : forall items mem i id l1 mem' i' l1' items', snoop_items mem i id l1 items = Ok (mem', i', l1', items') ->
  l1_wf l1 -> (forall it, In it items -> al (it_line it)) ->
  (forall b l, l1_line l1' b = Some l -> l1_line l1 b = Some l) /\
  (forall b, al b -> 0 <= b -> (forall it, In it items -> it_rq it = rqWriteBack -> it_line it <> b) -> mem_line mem' b = mem_line mem b).
Proof.
  induction items as [|it tl IH]; intros mem i id l1 mem' i' l1' items' H W AL; cbn [snoop_items] in H.
  - inv H. split; auto.
  - assert (AL' : forall it0, In it0 tl -> al (it_line it0)) by (intros; apply AL; right; assumption).
    destruct it as [a|a cyc].
    + apply bind_ok in H as ([l1a r] & E & H). cbn [fst] in H.
      destruct (IH _ _ _ _ _ _ _ _ H (evict_wf _ _ _ _ E W) AL') as [S M]. split.
      * intros b l0 F. eapply line_evict_sub; eauto.
      * intros b AB B0 N. apply M; auto. intros it I. apply N. right. exact I.
    + destruct (0 <? cyc).
      * apply bind_ok in H as ([[[m1 i1] l2] t'] & E & H). inv H. destruct (IH _ _ _ _ _ _ _ _ E W AL') as [S M]. split; [exact S|].
        intros b AB B0 N. apply M; auto. intros it I. apply N. right. exact I.
      * apply bind_ok in H as (g & E0 & H). destruct g as [dd|]; [|discriminate].
        apply bind_ok in H as (m1 & E1 & H). apply bind_ok in H as ([l1a r] & E & H). cbn [fst snd] in H.
        destruct r; [|discriminate].
        destruct (IH _ _ _ _ _ _ _ _ H (evict_wf _ _ _ _ E W) AL') as [S M]. split.
        -- intros b l0 F. eapply line_evict_sub; eauto.
        -- intros b AB B0 N. rewrite M; auto; [|intros it I; apply N; right; exact I].
           eapply mem_line_write; [exact E1|eapply get_cache_line_len; eauto|apply (AL (SWriteBack a cyc)); left; reflexivity|exact AB|exact B0|].
           intros ->. eapply (N (SWriteBack a cyc)); try reflexivity. left; reflexivity.
Qed.

Definition pre_pend (c : cc7) : bool := match c_rd c with RPend _ _ _ => true | _ => false end.

Lemma DIc_snoop : forall mem mem' st st' c c' addrs, DIc mem st c -> Sh st c addrs -> CS c ->
  c_rd c' = c_rd c -> c_wr c' = c_wr c -> c_post c' = c_post c ->
  (forall b, st' b = stShared -> st b = stShared) ->
  (forall b l, l1_line (c_l1d c') b = Some l -> l1_line (c_l1d c) b = Some l) ->
  (forall b, al b -> 0 <= b -> (st b = stShared \/ (cur_post c = Some (PShareRUnlock b) /\ pre_pend c = false)) -> mem_line mem' b = mem_line mem b) ->
  DIc mem' st' c'.
Proof.
  intros mem mem' st st' c c' addrs (D & DP & D3 & D4) SH (_ & RO & _) R W P SS LS MF.
  pose proof (cur_post_same _ _ R W P) as CP.
  assert (CL : forall b, al b -> 0 <= b -> (st b = stShared \/ (cur_post c = Some (PShareRUnlock b) /\ pre_pend c = false)) -> clean (c_l1d c) mem b -> clean (c_l1d c') mem' b).
  { intros b AB B0 REL C l F. rewrite (MF b AB B0 REL). apply C. apply LS. exact F. }
  split; [|split; [|split]].
  - intros b SB. apply SS in SB. destruct (D b SB) as (AB & B0 & C). split; [exact AB|split; [exact B0|]]. apply CL; auto.
  - intros p CP' PF a PA. rewrite CP in CP'. unfold pre_fill in PF. rewrite R in PF. subst p.
    destruct (DP _ CP' PF a eq_refl) as [A0 C]. split; [exact A0|]. apply CL; auto; [eapply aligned7_al; eapply Sh_tie; eauto|].
    right. split; [exact CP'|]. unfold pre_pend. destruct (c_rd c); try reflexivity; discriminate.
  - rewrite R. destruct (c_rd c) eqn:E; try exact D3.
    + pose proof SH as (_ & [PH _] & _). try rewrite E in PH. destruct D3 as [DT NH]. try rewrite E in RO. cbn [rd_ok] in RO. destruct RO as (A0 & A1 & _).
      assert (CPc : cur_post c = Some (PShareRUnlock lineAddr)) by (unfold cur_post; rewrite E, PH; reflexivity).
      split; [rewrite MF; auto; right; split; [exact CPc|unfold pre_pend; rewrite E; reflexivity]|].
      destruct (l1_holds (c_l1d c') lineAddr) eqn:HO; [|reflexivity]. unfold l1_holds in HO.
      destruct (l1_line (c_l1d c') lineAddr) eqn:F; [|discriminate]. apply LS in F. unfold l1_holds in NH. rewrite F in NH. discriminate.
  - intros R' p CP'. rewrite CP in CP'. rewrite R in R'. apply D4; assumption.
Qed.

(* ------------------------------------------------------------------ *)
(* D. the data invariant over the execute units; a flush-free tick       *)
(* ------------------------------------------------------------------ *)

Definition DI (mem : list Z) (i : msi7) (eus : list eu7) : Prop :=
  forall n e, nth_error eus n = Some e -> DIc mem (state_get i (Z.of_nat n)) (h_cc e).

Lemma cur_pend_none : forall c b, cur_post c = Some (PShareRUnlock b) -> pre_pend c = false ->
  (c_rd c = RStart -> forall p, cur_post c = Some p -> wr_type p) -> cur_pend c = None.
Proof.
  intros c b CP PP D4. unfold cur_pend. unfold pre_pend in PP. destruct (c_rd c) eqn:E; try reflexivity; [|discriminate].
  exfalso. specialize (D4 eq_refl _ CP). exact D4.
Qed.

Section StepD.
Variable hk : hooks7.
Hypothesis HF : hooks_frame hk.

Lemma snoop_one_D : forall D e T mem i mem' i' c', F3 i (D ++ e :: T) -> DI mem i (D ++ e :: T) ->
  cc_snoop_cycle (k_evict hk) mem i (Z.of_nat (length D)) (h_cc e) = Ok (mem', i', c') -> DI mem' i' (D ++ set_hcc e c' :: T).
Proof.
  intros D e T mem i mem' i' c' F DD H. pose proof F as ([G C] & K1 & CSS & _).
  destruct (C (length D) e (nth_error_mid D e T)) as [SN SH].
  assert (CSe : CS (h_cc e)) by (unfold CSs in CSS; apply Forall_mid in CSS as (_ & X & _); exact X).
  assert (NV : nth_error (map v3_of (D ++ e :: T)) (length D) = Some (v3_cc (h_cc e))).
  { rewrite map_app. cbn [map]. rewrite <- (map_length v3_of D). apply nth_error_mid. }
  unfold cc_snoop_cycle in H. apply bind_ok in H as ([[[m1 i1] l1] items] & E & H).
  assert (SA : forall b, state_get i (Z.of_nat (length D)) b <> stInvalid -> al b) by (destruct SH as ((S0 & _) & _); exact S0).
  destruct (snoop_items_3 _ (length D) _ _ _ _ _ _ _ _ E G SN (proj1 CSe) SA) as (G1 & SN1 & W1 & P1 & P2 & Q1 & Q2 & R & FO).
  assert (ITS : forall it, In it (c_snoop (h_cc e)) -> al (it_line it) /\ (it_rq it = rqWriteBack -> state_get i (Z.of_nat (length D)) (it_line it) = stModified) /\
                 exists c0, In ((Z.of_nat (length D)), it_line it, it_rq it, c0) (i_cmds i)).
  { intros it I. destruct SN as [SNa _]. destruct (SNa it I) as [c0 IC]. pose proof (g1 _ _ G _ IC) as KO. cbn [kind_ok] in KO.
    split; [apply SA; destruct KO as [[_ K]|[_ K]]; rewrite K; discriminate|]. split; [|exists c0; exact IC].
    intros Q. destruct KO as [[K _]|[_ K]]; [rewrite Q in K; discriminate|exact K]. }
  destruct (snoop_items_data _ _ _ _ _ _ _ _ _ E (proj1 CSe) (fun it I => proj1 (ITS it I))) as [LS MF0].
  assert (RES : mem' = m1 /\ i' = i1 /\ c_l1d c' = l1 /\ c_rd c' = c_rd (h_cc e) /\ c_wr c' = c_wr (h_cc e) /\ c_post c' = c_post (h_cc e)).
  { destruct (c_snoop (h_cc e)).
    - apply bind_ok in H as ([i2 l2] & E2 & H). pose proof (co_snoop_i _ (hf_evict hk HF) _ _ _ _ E2) as EI. subst i2. inv H. repeat split.
    - inv H. repeat split. }
  destruct RES as (-> & -> & EL & R2 & W2 & P2'). clear H.
  assert (MFW : forall b, al b -> 0 <= b -> (forall it, In it (c_snoop (h_cc e)) -> it_rq it = rqWriteBack -> it_line it = b -> False) ->
            mem_line m1 b = mem_line mem b).
  { intros b AB B0 N. apply MF0; auto. }
  intros n x HX. destruct (Nat.eq_dec n (length D)) as [->|N].
  - rewrite nth_error_mid in HX. inv HX. cbn [set_hcc h_cc].
    eapply (DIc_snoop mem m1 (state_get i (Z.of_nat (length D))) (state_get i1 (Z.of_nat (length D))) (h_cc e) c' (eu_addrs e)); try assumption.
    + apply (DD (length D) e (nth_error_mid D e T)).
    + intros b SB. destruct (P1 b) as [X|(X & _)]; [rewrite <- X; exact SB|rewrite X in SB; discriminate].
    + intros b AB B0 REL. apply MFW; auto. intros it I Q EQ. destruct (ITS it I) as (_ & SM & c0 & IC). specialize (SM Q). rewrite EQ in SM, IC.
      destruct REL as [SB|[CP _]]; [rewrite SB in SM; discriminate|].
      eapply (g2 _ _ G _ _ _ _ (length D) _ IC eq_refl NV). unfold v_line, v_post, v3_cc. cbn [fst]. rewrite CP. reflexivity.
  - rewrite (nth_error_mid_other D e (set_hcc e c') T n N) in HX. destruct (C n x HX) as [_ SHn].
    assert (CSn : CS (h_cc x)) by (unfold CSs in CSS; rewrite Forall_forall in CSS; apply CSS; eapply nth_error_In; eauto).
    assert (NI : Z.of_nat n <> (Z.of_nat (length D))) by lia.
    eapply DIc_ext; [intros a; apply FO; exact NI|].
    eapply (DIc_snoop mem m1 (state_get i (Z.of_nat n)) (state_get i (Z.of_nat n)) (h_cc x) (h_cc x) (eu_addrs x)); try reflexivity; try assumption; auto.
    intros b AB B0 REL. apply MFW; auto. intros it I Q EQ. destruct (ITS it I) as (_ & SM & _). specialize (SM Q). rewrite EQ in SM.
    destruct K1 as (_ & CL1 & _ & SO). destruct REL as [SB|[CP PP]].
    + rewrite (CL1 (Z.of_nat (length D)) (Z.of_nat n) b SM NI) in SB. discriminate.
    + pose proof (DD n x HX) as (_ & _ & _ & D4). pose proof (cur_pend_none _ _ CP PP D4) as PN.
        specialize (SO n (sum_of x) (map_nth_error sum_of _ _ HX)). unfold sum_of, sum_cc in SO. rewrite CP, PN in SO. cbn [sum_ok post_ok] in SO.
        apply (SO (Z.of_nat (length D))); [intros Q'; apply NI; symmetry; exact Q'|exact SM].
Qed.

Definition F5 (mem : list Z) (i : msi7) (eus : list eu7) : Prop := F3 i eus /\ DI mem i eus.

Section OneCore5.
Variables (D T : list eu7).
Let id := Z.of_nat (length D).

Lemma DI_core_step : forall mem i i' e e', DI mem i (D ++ e :: T) -> DIc mem (state_get i' id) (h_cc e') ->
  (forall n b, n <> id -> state_get i' n b = state_get i n b) -> DI mem i' (D ++ e' :: T).
Proof.
  intros mem i i' e e' DD DC OT n x HX. destruct (Nat.eq_dec n (length D)) as [->|N].
  - rewrite nth_error_mid in HX. inv HX. exact DC.
  - rewrite (nth_error_mid_other D e e' T n N) in HX. eapply DIc_ext; [|apply (DD n x HX)]. intros a. apply OT. unfold id. lia.
Qed.

Lemma DI_same_cc : forall mem i e e', h_cc e' = h_cc e -> DI mem i (D ++ e :: T) -> DI mem i (D ++ e' :: T).
Proof.
  intros mem i e e' E DD. eapply DI_core_step; [exact DD| |auto]. rewrite E. apply (DD (length D) e (nth_error_mid D e T)).
Qed.

Lemma own_ok_of : forall i e, B3 D T i e -> forall p, cur_post (h_cc e) = Some p -> own_ok i id p.
Proof.
  intros i e BB p CP. destruct (B3_parts D T _ _ BB) as (G & _ & _ & NV). eapply (g7 _ _ G _ _ _ NV).
  unfold v_post, v3_cc. cbn [fst]. exact CP.
Qed.

End OneCore5.

Lemma F5_ok : forall mem i D e T, F5 mem i (D ++ e :: T) -> eu_ok e /\ h_seq e = 0.
Proof. intros mem i D e T [F _]. apply F3_split in F as (_ & O & _). exact O. Qed.

Lemma F5_same : forall mem i D e e' T, F5 mem i (D ++ e :: T) -> stands_for (h_cc e) (eu_addrs e) (h_seq e) e' ->
  F5 mem i (D ++ e' :: T).
Proof.
  intros mem i D e e' T [F DD] (EC & Q & OK & AD). apply F3_split in F as (BB & [_ Q0] & C1 & C3 & O1 & O3). split.
  - apply F3_join; try assumption; [eapply B3_same_cc; eauto|split; [exact OK|congruence]].
  - eapply DI_same_cc; eauto.
Qed.

Lemma F5_read : forall mem i D e T addrs i1 c1 resp, F5 mem i (D ++ e :: T) -> c_wr (h_cc e) = WStart ->
  (eu_addrs e = addrs \/ cur_post (h_cc e) = None) ->
  cc_read_cycle mem i (Z.of_nat (length D)) (h_cc e) addrs = Ok (i1, c1, resp) ->
  c_wr c1 = WStart /\ (resp <> None -> c_rd c1 = RStart) /\
  forall e', stands_for c1 addrs (h_seq e) e' -> F5 mem i1 (D ++ e' :: T).
Proof.
  intros mem i D e T addrs i1 c1 resp [F DD] W AD E. apply F3_split in F as (BB & [_ Q0] & C1 & C3 & O1 & O3).
  destruct (cc_read_B3 _ _ _ _ _ _ _ _ _ BB W AD E) as (STEP & W2 & R2 & SR & SHa & FI).
  split; [exact W2|]. split; [exact R2|]. intros e' (EC & Q & OK & AX). split.
  - apply F3_join; try assumption; [apply STEP; assumption|split; [exact OK|congruence]].
  - eapply DI_core_step; [exact DD| |apply SR]. rewrite EC.
    eapply cc_read_cycle_D; [apply (DD (length D) e (nth_error_mid D e T))|exact SHa|exact FI|exact (proj2 (proj2 BB))|exact W|exact E].
Qed.

Lemma F5_write : forall mem i D e T addrs data i1 c1 done, F5 mem i (D ++ e :: T) -> c_rd (h_cc e) = RStart ->
  (eu_addrs e = addrs \/ cur_post (h_cc e) = None) ->
  cc_write_cycle mem i (Z.of_nat (length D)) (h_cc e) addrs data = Ok (i1, c1, done) ->
  c_rd c1 = RStart /\ (done = true -> c_wr c1 = WStart) /\
  forall e', stands_for c1 addrs (h_seq e) e' -> F5 mem i1 (D ++ e' :: T).
Proof.
  intros mem i D e T addrs data i1 c1 done [F DD] R AD E. apply F3_split in F as (BB & [_ Q0] & C1 & C3 & O1 & O3).
  destruct (cc_write_B3 _ _ _ _ _ _ _ _ _ _ BB R AD E) as (STEP & R2 & W2 & SR & SHa).
  split; [exact R2|]. split; [exact W2|]. intros e' (EC & Q & OK & AX). split.
  - apply F3_join; try assumption; [apply STEP; assumption|split; [exact OK|congruence]].
  - eapply DI_core_step; [exact DD| |apply SR]. rewrite EC.
    eapply cc_write_cycle_D; [apply (DD (length D) e (nth_error_mid D e T))|exact SHa|apply (own_ok_of D T); exact BB|exact (proj2 (proj2 BB))|exact R|exact E].
Qed.

Lemma F5_snoop : forall mem i D e T mem' i' c', F5 mem i (D ++ e :: T) ->
  cc_snoop_cycle (k_evict hk) mem i (Z.of_nat (length D)) (h_cc e) = Ok (mem', i', c') -> F5 mem' i' (D ++ set_hcc e c' :: T).
Proof. intros mem i D e T mem' i' c' [F DD] H. split; [eapply snoop_one_F; eauto|eapply snoop_one_D; eauto]. Qed.

Definition F5St (s : st7) : Prop := F5 (st_mem s) (st_msi s) (v_eus s).

Theorem reach7nf_F5 : forall app labels ord s0 s, reach7nf hk app labels ord s0 s -> F5St s0 -> F5St s.
Proof. exact (reach7nf_inv hk HF F5 F5_ok F5_same F5_read F5_write F5_snoop). Qed.

End StepD.

(* ------------------------------------------------------------------ *)
(* E. the initial state; clause 2; the five clauses                     *)
(* ------------------------------------------------------------------ *)

Lemma init7_F5 : forall par ord app st s, init7 par ord app st = Ok s -> F5St s.
Proof.
  intros par ord app st s H. split; [eapply init7_F3; eauto|].
  unfold init7 in H. destruct (init3 par ord app st); try discriminate.
  destruct (new_cache l1LineSize l1Size) as [l1d| |] eqn:EC; try discriminate. inv H. unfold st_msi, st_mem. cbn [v_eus v_w w_i].
  intros n e HN. apply nth_error_In in HN. apply repeat_spec in HN. subst e. cbn [h_cc].
  split; [intros a SA; rewrite state_get_new in SA; discriminate|]. split; [intros p CP; discriminate|]. split; [exact I|]. intros _ p CP. discriminate.
Qed.

Lemma F5_clause2 : forall s, F5St s -> clause2_70 (st_mem s) (st_msi s) (v_eus s).
Proof.
  intros s [F DD] n e a HN AL SA. pose proof (F3_clause3 s F n e a HN AL) as [C3 _]. unfold core in HN.
  destruct (DD n e HN) as (D & _). destruct (D a SA) as (_ & _ & CL).
  assert (HO : l1_holds (c_l1d (h_cc e)) a = true) by (apply C3; rewrite SA; discriminate).
  unfold l1_holds in HO. destruct (l1_line (c_l1d (h_cc e)) a) as [l|] eqn:EL; [|discriminate]. exists l. split; [reflexivity|]. apply CL. exact EL.
Qed.

Lemma F5_inv : forall s, F5St s -> C06Inv70_st s.
Proof.
  intros s F. pose proof F as [F3' _]. pose proof F3' as (_ & K1 & CS' & _).
  destruct (StructSt_clauses s (conj (proj1 K1) CS')) as (C4 & C5 & _).
  split; [exact (proj1 (proj2 K1))|]. split; [apply F5_clause2; exact F|]. split; [apply F3_clause3; exact F3'|]. split; assumption.
Qed.

Theorem mvp70_inv_reachable : forall par ord app labels st s0 s, init7 par ord app st = Ok s0 ->
  reach7nf hooks70 app labels ord s0 s -> C06Inv70_st s.
Proof.
  intros par ord app labels st s0 s I R. apply F5_inv. eapply reach7nf_F5; [exact hooks70_frame|exact R|]. eapply init7_F5; eauto.
Qed.

Theorem mvp70_clause2 : forall par ord app labels st s0 s, init7 par ord app st = Ok s0 ->
  reach7nf hooks70 app labels ord s0 s -> clause2_70 (st_mem s) (st_msi s) (v_eus s).
Proof. intros par ord app labels st s0 s I R. exact (proj1 (proj2 (mvp70_inv_reachable _ _ _ _ _ _ _ I R))). Qed.

Theorem mvp70_swmr_partial : forall par ord app labels st s0 s, init7 par ord app st = Ok s0 ->
  reach7nf hooks70 app labels ord s0 s ->
  clause1_70 (st_msi s) /\ sem_count70 (st_msi s) (v_eus s) /\ clause5_70 (st_msi s).
Proof.
  intros par ord app labels st s0 s I R. apply K1St_clauses.
  destruct (reach7nf_F5 hooks70 hooks70_frame _ _ _ _ _ R (init7_F5 _ _ _ _ _ I)) as [(_ & K & _ & O) _]. split; assumption.
Qed.

Theorem mvp70_clause3 : forall par ord app labels st s0 s, init7 par ord app st = Ok s0 ->
  reach7nf hooks70 app labels ord s0 s -> clause3_70 (st_msi s) (v_eus s) /\ cmds_ok70 (st_msi s) (v_eus s).
Proof.
  intros par ord app labels st s0 s I R.
  destruct (reach7nf_F5 hooks70 hooks70_frame _ _ _ _ _ R (init7_F5 _ _ _ _ _ I)) as [F _].
  split; [apply F3_clause3|apply F3_cmds]; exact F.
Qed.
Print Assumptions mvp70_clause3.

Print Assumptions mvp70_inv_reachable.
