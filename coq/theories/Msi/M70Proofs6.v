(* C06 about the faithful model of MVP-7.0, part 6: the boolean judge of the five clauses is SOUND,
       c06inv70_b mem i eus = true -> C06Inv70 mem i eus      (c06inv70_b_sound),
   for every memory, directory and list of execute units (no reachability hypothesis): the judge quantifies over
   the finitely many lines and core ids the state mentions, every other line is Invalid everywhere, in no L1 and
   has zero counters.
   FINDING (minor, about the judge, not about the model): the converse is FALSE - c06inv70_b checks every entry
   of msi.pendings, clause 5 only speaks of the entry getSem finds (the first one with that key); a directory
   with a duplicate key satisfies C06Inv70 and fails the judge (c06inv70_b_complete_refuted).  Such a directory is
   not reachable (sem_set replaces in place). *)
From Coq Require Import ZArith List Bool Lia.
From Maj Require Import Base.Outcome Base.GoInt Base.GoTypes Isa.Spec Isa.Seq.
From Maj Require Import Gen.Latency Gen.RiscTables Gen.Opcodes Comp.Cache Comp.Rat Comp.RatProofs Mvp.Mvp12 Mvp.Mvp3 Mvp.Mvp5 Mvp.Mvp60 Mvp.Mvp63 Mvp.Mvp63Proofs Mvp.Mvp70 Mvp.Mvp70Proofs.
From Maj Require Import Msi.M70Inv Msi.M70Frame Msi.M70Proofs Msi.M70Proofs2 Msi.M70Proofs3 Msi.M70Proofs4.
Import ListNotations.
Open Scope Z_scope.

Lemma list_eqb_eq : forall a b, list_eqb a b = true -> a = b.
Proof.
  induction a as [|x a IH]; intros [|y b] H; cbn [list_eqb] in H; try discriminate; [reflexivity|].
  apply andb_true_iff in H as [H1 H2]. apply Z.eqb_eq in H1. subst. f_equal. apply IH. exact H2.
Qed.

Lemma aget_in {A} : forall k (m : list (Z * A)) s, aget k m = Some s -> In (k, s) m.
Proof.
  induction m as [|[k' a] t IH]; intros s H; cbn [aget] in H; [discriminate|]. destruct (Z.eqb_spec k k').
  - inv H. left. reflexivity.
  - right. apply IH. exact H.
Qed.

Section Sound.
Variables (mem : list Z) (i : msi7) (eus : list eu7).

Lemma on_cores_spec : forall f, on_cores eus f = true -> forall n e, nth_error eus n = Some e -> f n e = true.
Proof.
  intros f H n e HN. unfold on_cores in H. rewrite forallb_forall in H.
  assert (I : In n (ids eus)). { unfold ids. apply in_seq. split; [lia|]. cbn. apply nth_error_Some. congruence. }
  specialize (H n I). rewrite HN in H. exact H.
Qed.

Lemma state_univ : forall id a, state_get i id a <> stInvalid -> In a (universe i eus) /\ In id (id_universe i eus).
Proof.
  intros id a N. unfold state_get in N. destruct (find _ _) as [e|] eqn:F; [|contradiction]. apply find_some in F as [I Q].
  apply andb_true_iff in Q as [Q1 Q2]. apply Z.eqb_eq in Q1, Q2. split.
  - unfold universe. apply nodup_In. apply in_or_app. left. apply in_map_iff. exists e. split; [exact Q2|exact I].
  - unfold id_universe. apply nodup_In. apply in_or_app. right. apply in_or_app. left. apply in_map_iff. exists e. split; [exact Q1|exact I].
Qed.

Lemma c1_sound : c1_70b i eus = true -> clause1_70 i.
Proof.
  intros H id id' a M NE. destruct (Z.eq_dec (state_get i id' a) stInvalid) as [E|N]; [exact E|exfalso].
  destruct (state_univ id a) as [UA UI]; [rewrite M; discriminate|]. destruct (state_univ id' a N) as [_ UI'].
  unfold c1_70b in H. rewrite forallb_forall in H. specialize (H a UA). rewrite forallb_forall in H. specialize (H id UI).
  rewrite forallb_forall in H. specialize (H id' UI'). rewrite M in H. cbn in H.
  apply orb_true_iff in H as [H|H]; apply Z.eqb_eq in H; contradiction.
Qed.

Lemma c5_sound : c5_70b i = true -> clause5_70 i.
Proof.
  intros H a. unfold sem_get. destruct (aget a (i_sems i)) as [s|] eqn:G; [|cbn; lia].
  apply aget_in in G. unfold c5_70b in H. rewrite forallb_forall in H. specialize (H _ G). cbn [snd] in H.
  unfold sem_ok_b in H. apply andb_true_iff in H as [H H4]. apply andb_true_iff in H as [H H3]. apply andb_true_iff in H as [H1 H2].
  apply Z.leb_le in H1, H2, H3. repeat split; try assumption. intros E. apply orb_true_iff in H4 as [H4|H4]; [|apply Z.eqb_eq in H4; exact H4].
  apply negb_true_iff in H4. apply Z.eqb_neq in H4. contradiction.
Qed.

Lemma line_wf_b_sound : forall l, line_wf_b l = true -> line_wf l.
Proof.
  intros l H. unfold line_wf_b in H. apply andb_true_iff in H as [H H4]. apply andb_true_iff in H as [H H3]. apply andb_true_iff in H as [H1 H2].
  apply Z.leb_le in H1. apply Z.eqb_eq in H2, H3, H4. repeat split; assumption.
Qed.

Lemma l1_wf_b_sound : forall c, l1_wf_b c = true -> l1_wf c.
Proof.
  intros c H. unfold l1_wf_b in H. apply andb_true_iff in H as [H H3]. apply andb_true_iff in H as [H1 H2].
  apply Z.eqb_eq in H1. rewrite forallb_forall in H2, H3.
  assert (W : forall l, In l (lines c) -> line_wf l) by (intros l I; apply line_wf_b_sound; apply H3; exact I).
  split; [exact H1|]. split; [|exact W]. intros x.
  destruct (find (fun l => covers_b l x) (lines c)) as [l0|] eqn:F.
  - apply find_some in F as [I0 C0]. specialize (H2 l0 I0). apply Z.leb_le in H2.
    eapply Z.le_trans; [|exact H2]. apply cnt_le. intros l I C.
    destruct (aligned_in_line l x (W l I) C) as [E1 C1]. destruct (aligned_in_line l0 x (W l0 I0) C0) as [E2 _]. rewrite <- E2, E1. exact C1.
  - rewrite cnt_zero; [lia|]. intros l I. eapply find_none in F; eauto.
Qed.

Lemma c4_sound : c4_70b eus = true -> clause4_70 eus.
Proof. intros H n e HN. apply l1_wf_b_sound. apply (on_cores_spec _ H n e HN). Qed.

Lemma c2_sound : c2_70b mem i eus = true -> clause2_70 mem i eus.
Proof.
  intros H n e a HN AL S. pose proof (on_cores_spec _ H n e HN) as X. cbn beta in X. rewrite forallb_forall in X.
  destruct (state_univ (Z.of_nat n) a) as [UA _]; [rewrite S; discriminate|]. specialize (X a UA). rewrite S in X. cbn in X.
  destruct (l1_line (c_l1d (h_cc e)) a) as [l|]; [|discriminate]. exists l. split; [reflexivity|]. apply list_eqb_eq. exact X.
Qed.

Lemma holds_univ : forall n e a, clause4_70 eus -> nth_error eus n = Some e -> a mod l1LineSize = 0 ->
  l1_holds (c_l1d (h_cc e)) a = true -> In a (universe i eus).
Proof.
  intros n e a C4 HN AL HO. apply holds_iff in HO as (l & I & C). destruct (C4 n e HN) as (_ & _ & W). specialize (W l I).
  destruct (line_wf_covers _ _ W C) as [R _]. destruct W as (_ & M & _). unfold l1LineSize in *.
  assert (E : a = lo l) by lia. subst a.
  unfold universe. apply nodup_In. apply in_or_app. right. apply in_or_app. right. apply in_or_app. right.
  apply in_flat_map. exists e. split; [eapply nth_error_In; eauto|]. apply in_or_app. left. apply in_map. exact I.
Qed.

Lemma c3_sound : clause4_70 eus -> c3_70b i eus = true -> clause3_70 i eus.
Proof.
  intros C4 H n e a HN AL. pose proof (on_cores_spec _ H n e HN) as X. cbn beta in X. rewrite forallb_forall in X. split.
  - intros N. destruct (state_univ (Z.of_nat n) a N) as [UA _]. specialize (X a UA). apply andb_true_iff in X as [X _].
    apply orb_true_iff in X as [X|X]; [apply Z.eqb_eq in X; contradiction|exact X].
  - intros T HO. pose proof (holds_univ n e a C4 HN AL HO) as UA. specialize (X a UA). apply andb_true_iff in X as [_ X].
    rewrite T, HO in X. cbn in X. apply negb_true_iff in X. apply Z.eqb_neq in X. exact X.
Qed.

Theorem c06inv70_b_sound : c06inv70_b mem i eus = true -> C06Inv70 mem i eus.
Proof.
  intros H. unfold c06inv70_b in H. apply andb_true_iff in H as [H H5]. apply andb_true_iff in H as [H H4].
  apply andb_true_iff in H as [H H3]. apply andb_true_iff in H as [H1 H2].
  pose proof (c4_sound H4) as C4.
  split; [apply c1_sound; exact H1|]. split; [apply c2_sound; exact H2|]. split; [apply c3_sound; assumption|].
  split; [exact C4|apply c5_sound; exact H5].
Qed.

End Sound.

(* the converse fails on a directory with a duplicate key in msi.pendings *)
Theorem c06inv70_b_complete_refuted : exists mem i eus, C06Inv70 mem i eus /\ c06inv70_b mem i eus = false.
Proof.
  exists [], (mk_msi7 [(0, (0, 0)); (0, (-1, 0))] [] [] 1 false), []. split; [|vm_compute; reflexivity].
  split; [intros id id' a M; cbv in M; discriminate|]. split; [intros [|n] e a HN; discriminate|].
  split; [intros [|n] e a HN; discriminate|]. split; [intros [|n] e HN; discriminate|].
  intros a. unfold sem_get. cbn [i_sems aget]. destruct (a =? 0); cbn; lia.
Qed.

(* an executable checker for long runs with evictions: the FULL judge c06full70_b is evaluated in every state where
   some L1 holds more than 16 lines (between the push of a fill and the eviction of the displaced line) or some
   snoop list is not empty, and in every `every`-th state; result: states visited, such "hot" states, states
   judged, whether the run ended.  (The conditionals are nested so that vm_compute does not evaluate the judge in
   the other states.) *)
Definition hot70 (s : st7) : bool :=
  existsb (fun e => (16 <? zlen (lines (c_l1d (h_cc e)))) || match c_snoop (h_cc e) with [] => false | _ => true end) (v_eus s).

Fixpoint run7_ev (every : Z) (fuel : nat) (app : list instr) (labels : Z -> option Z) (ord : Z -> Z -> list Z -> list Z) (s : st7) (n k j : Z)
  : option (Z * Z * Z * bool) :=
  let hot := hot70 s in
  let judged := hot || (n mod every =? 0) in
  if (if judged then negb (c06full70_b (st_mem s) (st_msi s) (v_eus s)) else false) then None else
  let k' := if hot then k + 1 else k in
  let j' := if judged then j + 1 else j in
  match fuel with
  | O => Some (n + 1, k', j', false)
  | S f =>
      if negb (step_noflush7_b hooks70 app labels ord s) then Some (n + 1, k', j', false)
      else match step7 hooks70 app labels ord s with
           | UDone _ _ => Some (n + 1, k', j', true)
           | UCont s' => run7_ev every f app labels ord s' (n + 1) k' j'
           end
  end.

(* the boolean form of "this tick is flush-free" is sound, so the states an executable flush-free run goes through
   are states of reach7nf: the theorems about reach7nf apply to them *)
Lemma step_noflush7_b_sound : forall hk app labels ord s, step_noflush7_b hk app labels ord s = true -> step_noflush7 hk app labels ord s.
Proof.
  intros hk app labels ord s H. unfold step_noflush7_b in H. unfold step_noflush7. destruct (v_mode s); try exact I; try discriminate.
  intros w1 r z E1 E2 E3. rewrite E1, E2, E3 in H. apply negb_true_iff in H. exact H.
Qed.

Fixpoint run7_nf (n : nat) (hk : hooks7) (app : list instr) (labels : Z -> option Z) (ord : Z -> Z -> list Z -> list Z) (s : st7) : option st7 :=
  match n with
  | O => Some s
  | S m => if step_noflush7_b hk app labels ord s
           then match step7 hk app labels ord s with UCont s' => run7_nf m hk app labels ord s' | UDone _ _ => None end
           else None
  end.

Lemma run7_nf_reach : forall n hk app labels ord s0 s s', reach7nf hk app labels ord s0 s ->
  run7_nf n hk app labels ord s = Some s' -> reach7nf hk app labels ord s0 s'.
Proof.
  induction n as [|m IH]; intros hk app labels ord s0 s s' R H; cbn [run7_nf] in H.
  - inv H. exact R.
  - destruct (step_noflush7_b hk app labels ord s) eqn:NF; [|discriminate].
    destruct (step7 hk app labels ord s) as [|s1] eqn:ST; [discriminate|].
    eapply IH; [|exact H]. eapply r7_step; [exact R|apply step_noflush7_b_sound; exact NF|exact ST].
Qed.

(* The examples of Props/C06_mvp70.v evaluate the checkers inside the kernel.  mem_line reads each of the 64 bytes
   of a line by `nth` from the head of main memory (and converts the length of memory to Z for each byte), which
   is quadratic for the kernel's reduction where dropping the bytes in front of the line once is linear.
   mem_line_fast does that; the judges below are the judges of M70Inv.v with clause 2 over mem_line_fast, and
   equal to them. *)
Lemma nth_skipn_Z : forall (l : list Z) n k, nth k (skipn n l) 0 = nth (n + k) l 0.
Proof.
  induction l as [|x t IH]; intros [|n] k; cbn [skipn nth Nat.add]; try reflexivity; [destruct k; reflexivity|apply IH].
Qed.

Definition mem_line_fast (mem : list Z) (a : Z) : list Z :=
  if a <? 0 then mem_line mem a
  else let t := skipn (Z.to_nat a) mem in map (fun k => nth k t 0) (seq 0 (Z.to_nat l1LineSize)).

Lemma mem_line_fast_eq : forall mem a, mem_line_fast mem a = mem_line mem a.
Proof.
  intros mem a. unfold mem_line_fast, mem_line. destruct (Z.ltb_spec a 0) as [N|N]; [reflexivity|].
  apply map_ext. intros k. cbv beta zeta. rewrite nth_skipn_Z.
  replace (Z.to_nat a + k)%nat with (Z.to_nat (a + Z.of_nat k)) by lia.
  destruct (Z.ltb_spec (a + Z.of_nat k) (Z.of_nat (length mem))); [reflexivity|]. apply nth_overflow. lia.
Qed.

Lemma forallb_pointwise {A} (f g : A -> bool) l : (forall x, f x = g x) -> forallb f l = forallb g l.
Proof. intros E. induction l as [|x t IH]; [reflexivity|]. cbn [forallb]. rewrite E, IH. reflexivity. Qed.

(* clause 2 of the judge, over any function that yields the bytes of memory under a line; the data of a line that is
   not Shared are not looked at *)
Definition c2_by (ml : Z -> list Z) (i : msi7) (eus : list eu7) : bool :=
  on_cores eus (fun n e => forallb (fun a =>
    if state_get i (Z.of_nat n) a =? stShared
    then match l1_line (c_l1d (h_cc e)) a with Some l => list_eqb (data l) (ml a) | None => false end
    else true) (universe i eus)).

Lemma c2_by_eq : forall mem i eus, c2_70b mem i eus = c2_by (mem_line_fast mem) i eus.
Proof.
  intros mem i eus. unfold c2_70b, c2_by, on_cores. apply forallb_pointwise. intros n.
  destruct (nth_error eus n) as [e|]; [|reflexivity]. apply forallb_pointwise. intros a.
  rewrite mem_line_fast_eq. destruct (_ =? stShared); reflexivity.
Qed.

Definition c06full70_fast (mem : list Z) (i : msi7) (eus : list eu7) : bool :=
  c1_70b i eus && c2_by (mem_line_fast mem) i eus && c3_70b i eus && c4_70b eus && c5_70b i &&
  states_ok_b i && semcount_b i eus && shapes_b mem i eus && cmds_b i eus && just_b i eus && snoop_b i eus && seq0_b eus.

Lemma c06full70_fast_eq : forall mem i eus, c06full70_b mem i eus = c06full70_fast mem i eus.
Proof. intros mem i eus. unfold c06full70_b, c06inv70_b, c06full70_fast. rewrite c2_by_eq. reflexivity. Qed.

Definition judge_full_fast (s : st7) : option (list judge70) :=
  let mem := st_mem s in let i := st_msi s in let eus := v_eus s in
  match (if c1_70b i eus then [] else [J1]) ++ (if c2_by (mem_line_fast mem) i eus then [] else [J2]) ++
        (if c3_70b i eus then [] else [J3]) ++ (if c4_70b eus then [] else [J4]) ++ (if c5_70b i then [] else [J5]) ++
        (if states_ok_b i then [] else [JStates]) ++ (if semcount_b i eus then [] else [JSem]) ++
        (if shapes_b mem i eus then [] else [JShape]) ++ (if cmds_b i eus then [] else [JCmds]) ++
        (if just_b i eus then [] else [JJust]) ++ (if snoop_b i eus then [] else [JSnoop]) ++ (if seq0_b eus then [] else [JSeq])
  with [] => None | l => Some l end.

Lemma judge_full_fast_eq : forall s, judge_full s = judge_full_fast s.
Proof. intros s. unfold judge_full, judge_full_fast, violated70. cbv zeta. rewrite c2_by_eq. reflexivity. Qed.

(* run7_ev decides "this tick is flush-free" (step_noflush7_b) and then makes the tick (step7): the front end, the
   snoops and the main loop over the execute units are evaluated twice.  step7_nf makes them once. *)
Definition step7_nf (hk : hooks7) (app : list instr) (labels : Z -> option Z) (ord : Z -> Z -> list Z -> list Z) (s : st7)
  : option step_res7 :=
  match v_mode s with
  | QNormal =>
      let cycle := v_cycle s + 1 in
      let os := v_os (v_w s) in
      match k_front hk app ord cycle (v_w s) with
      | Ok w1 =>
          match snoops7 hk 0 w1 (v_eus s) with
          | Ok r =>
              match eus_main7 hk labels ord cycle 0 (fst r) (snd r) yo_none with
              | Ok z => if y_flush (snd z) then None else Some (back7 s cycle z)
              | Err e => Some (UDone (MErr e) (v_os w1))
              | Panic => Some (UDone MPanic (v_os w1))
              end
          | Err e => Some (UDone (MErr e) (v_os w1))
          | Panic => Some (UDone MPanic (v_os w1))
          end
      | Err e => Some (UDone (MErr e) os)
      | Panic => Some (UDone MPanic os)
      end
  | QRet | QFinal => Some (step7 hk app labels ord s)
  | QFlushE _ _ _ | QFlushW _ _ _ _ _ => None
  end.

Lemma step7_nf_spec : forall hk app labels ord s,
  step7_nf hk app labels ord s = if step_noflush7_b hk app labels ord s then Some (step7 hk app labels ord s) else None.
Proof.
  intros hk app labels ord s. unfold step7_nf, step_noflush7_b, step7. destruct (v_mode s); try reflexivity.
  destruct (k_front hk app ord (v_cycle s + 1) (v_w s)) as [w1| |]; cbn [res_of7]; try reflexivity.
  destruct (snoops7 hk 0 w1 (v_eus s)) as [r| |]; cbn [res_of7]; try reflexivity.
  destruct (eus_main7 hk labels ord (v_cycle s + 1) 0 (fst r) (snd r) yo_none) as [z| |]; cbn [res_of7]; try reflexivity.
  destruct (y_flush (snd z)); reflexivity.
Qed.

Fixpoint run7_ev' (every : Z) (fuel : nat) (app : list instr) (labels : Z -> option Z) (ord : Z -> Z -> list Z -> list Z) (s : st7) (n k j : Z)
  : option (Z * Z * Z * bool) :=
  let hot := hot70 s in
  let judged := hot || (n mod every =? 0) in
  if (if judged then negb (c06full70_fast (st_mem s) (st_msi s) (v_eus s)) else false) then None else
  let k' := if hot then k + 1 else k in
  let j' := if judged then j + 1 else j in
  match fuel with
  | O => Some (n + 1, k', j', false)
  | S f =>
      match step7_nf hooks70 app labels ord s with
      | None => Some (n + 1, k', j', false)
      | Some (UDone _ _) => Some (n + 1, k', j', true)
      | Some (UCont s') => run7_ev' every f app labels ord s' (n + 1) k' j'
      end
  end.

Lemma run7_ev_fused : forall every fuel app labels ord s n k j,
  run7_ev every fuel app labels ord s n k j = run7_ev' every fuel app labels ord s n k j.
Proof.
  intros every. induction fuel as [|f IH]; intros app labels ord s n k j; cbn [run7_ev run7_ev']; rewrite c06full70_fast_eq; [reflexivity|].
  rewrite step7_nf_spec.
  destruct (if hot70 s || (n mod every =? 0) then negb (c06full70_fast (st_mem s) (st_msi s) (v_eus s)) else false); [reflexivity|].
  destruct (step_noflush7_b hooks70 app labels ord s); [|reflexivity]. cbn [negb].
  destruct (step7 hooks70 app labels ord s); [reflexivity|apply IH].
Qed.

Lemma run7_check_ext : forall R (judge judge' : st7 -> option R), (forall s, judge s = judge' s) ->
  forall nf hk fuel app labels ord s n,
  run7_check judge nf hk fuel app labels ord s n = run7_check judge' nf hk fuel app labels ord s n.
Proof.
  intros R judge judge' EJ nf hk. induction fuel as [|f IH]; intros app labels ord s n; cbn [run7_check]; rewrite EJ; [reflexivity|].
  destruct (judge' s); [reflexivity|]. destruct (nf && _); [reflexivity|].
  destruct (step7 hk app labels ord s); [reflexivity|apply IH].
Qed.

Lemma check70_ext : forall R (judge judge' : st7 -> option R), (forall s, judge s = judge' s) ->
  forall nf par ord fuel app labels st,
  check70 judge nf par ord fuel app labels st = check70 judge' nf par ord fuel app labels st.
Proof.
  intros R judge judge' EJ nf par ord fuel app labels st. unfold check70.
  destruct (init7 par ord app st); [rewrite (run7_check_ext _ _ _ EJ)| |]; reflexivity.
Qed.

Lemma run7_ev_fused_from : forall (o : outcome st7) every fuel app labels ord n k j,
  match o with Ok s => run7_ev every fuel app labels ord s n k j | _ => None end =
  match o with Ok s => run7_ev' every fuel app labels ord s n k j | _ => None end.
Proof. intros [s| |]; intros; [apply run7_ev_fused|reflexivity|reflexivity]. Qed.

Print Assumptions c06inv70_b_sound.
Print Assumptions c06inv70_b_complete_refuted.
