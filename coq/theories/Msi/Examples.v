(* C06 - non-vacuity: the unguarded, flush-free machine (the code as it is)
   reaches non-trivial states: core 0 writes line 64, core 1 reads it (which
   forces the write-back of core 0's Modified copy), then core 0 reads it
   again: both end Shared with the written value in the next level. *)
From Coq Require Import List ZArith Lia Bool Arith.
From Maj Require Import Msi.Protocol Msi.Invariant.
Import ListNotations.
Open Scope Z_scope.

Inductive trace (N : nat) (g : bool) (fm : flush_mode) : st -> list label -> st -> Prop :=
| t_nil s : trace N g fm s [] s
| t_cons s lab s1 t s2 : step N g fm s lab s1 -> trace N g fm s1 t s2 -> trace N g fm s (lab :: t) s2.

Lemma trace_reach N g fm s t s' : reach N g fm s -> trace N g fm s t s' -> reach N g fm s'.
Proof. intros R T. induction T; auto. apply IHT. eapply reach_step; eauto. Qed.

Definition example_trace : list label :=
  [L_lock_I 0 64; L_fetch_wr 0 64; L_fill_wr 0 64 None; L_settle_wr 0 64 5;
   L_rlock_I 1 64; L_cmd_writeback_done 0 64; L_fetch_rd 1 64; L_fill_rd 1 64 None; L_settle_rd 1 64;
   L_rlock_I 0 64; L_fetch_rd 0 64; L_fill_rd 0 64 None; L_settle_rd 0 64].

(* side conditions of a transition on a concrete state; tb: one transition of a
   trace.  Msi/Refuted.v and the L3 example and refutation files run their
   traces with tactics built on these. *)
Ltac side :=
  simpl; try reflexivity; try lia; try exact Logic.I;
  try (unfold lock_guard; discriminate);
  try (intros ? ? ?; simpl; first [discriminate | reflexivity]); auto.
Ltac tb := eapply t_cons; [econstructor; side|simpl].

(* a witness for R, and what else holds of it: the witness - here always the
   last state of a run, a large term - is named, so that the proof of P mentions
   it once *)
Lemma named_witness {A} (R P : A -> Prop) s : R s -> (let s' := s in P s') -> exists s, R s /\ P s.
Proof. intros T H. exists s. split; [exact T|exact H]. Qed.

Example reach_example :
  exists s, trace 2 false NoFlush (init (fun l => l)) example_trace s /\
            ms s 0%nat 64 = S /\ ms s 1%nat 64 = S /\ mem s 64 = 5 /\
            l1 s 0%nat 64 = Some 5 /\ l1 s 1%nat 64 = Some 5 /\ rc s 64 = 0 /\ wc s 64 = 0.
Proof.
  eapply named_witness.
  - unfold example_trace. do 5 tb.
    eapply t_cons; [eapply cmd_writeback_done with (v := 5); side|simpl].
    tb.
    { intros j Hj Hne. destruct j as [|[|j]]; simpl; try discriminate; lia. }
    do 3 tb.
    tb.
    { intros j Hj Hne. destruct j as [|[|j]]; simpl; try discriminate; lia. }
    do 2 tb. apply t_nil.
  - intros s'. repeat split; reflexivity.
Qed.
