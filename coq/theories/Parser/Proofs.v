(* C11: theorems about the model of risc.Parse (Parser/Model.v), for ALL inputs of the
   stated class, no bound on the length of the text.

     parse_total              no byte string makes the parser panic
     instr_count              accepted text: #instructions = #instruction lines
     label_address            accepted text: a label maps to 4 * (instruction lines before its
                              last definition), in int32 arithmetic; exactly 4 * k for every
                              text shorter than 2^29 bytes
     roundtrip                parse (print p) = Ok (assemble p) for every well-formed program:
                              operands are decoded to the named registers / decimal immediates
     decoration_invariant     blank lines, comment lines, indentation, trailing white space,
                              trailing comments (after label definitions and instructions,
                              with or without a blank before '#') and mnemonic case do not
                              change the result
     register_table_injective distinct register names decode to distinct numbers
     *_refuted                what is false of the code, with witnesses *)
From Coq Require Import ZArith List Bool Lia String Ascii.
From Maj Require Import Base.Outcome Base.GoInt Parser.Model Parser.Printer.
Import ListNotations.
Open Scope Z_scope.

(* ================================================================== *)
(* 1. lists, checked operations                                        *)

Lemma blen_nonneg {A} (s : list A) : 0 <= blen s.
Proof. unfold blen. lia. Qed.
Lemma blen_app {A} (a c : list A) : blen (a ++ c) = blen a + blen c.
Proof. unfold blen. rewrite app_length. lia. Qed.
Lemma blen_cons {A} (x : A) a : blen (x :: a) = 1 + blen a.
Proof. unfold blen. cbn [List.length]. lia. Qed.
Lemma blen_nil {A} : blen (@nil A) = 0.
Proof. reflexivity. Qed.
Global Hint Rewrite @blen_app @blen_cons @blen_nil : blen.
Ltac bl := autorewrite with blen in *.
Lemma blen_zero {A} (s : list A) : blen s = 0 -> s = [].
Proof. destruct s; [reflexivity|]. rewrite blen_cons. pose proof (blen_nonneg s). lia. Qed.

Lemma bstr_eqb_refl x : bstr_eqb x x = true.
Proof. induction x; cbn; [reflexivity|]. rewrite Z.eqb_refl. assumption. Qed.
Lemma bstr_eqb_eq x y : bstr_eqb x y = true <-> x = y.
Proof.
  split.
  - revert y. induction x as [|a x IH]; destruct y as [|c y]; cbn; intros H; try discriminate; [reflexivity|].
    apply andb_true_iff in H. destruct H as [H1 H2]. apply Z.eqb_eq in H1. subst. f_equal. apply IH. assumption.
  - intros ->. apply bstr_eqb_refl.
Qed.
Lemma bstr_eqb_neq x y : bstr_eqb x y = false <-> x <> y.
Proof.
  split.
  - intros H E. apply bstr_eqb_eq in E. congruence.
  - intros H. destruct (bstr_eqb x y) eqn:E; [|reflexivity]. apply bstr_eqb_eq in E. contradiction.
Qed.

Lemma at_ok {A} (s : list A) i : 0 <= i < blen s -> exists x, at_ s i = Ok x /\ nth_error s (Z.to_nat i) = Some x.
Proof.
  intros H. unfold at_. destruct (Z.ltb_spec i 0); [lia|].
  destruct (nth_error s (Z.to_nat i)) eqn:E; [eauto|].
  apply nth_error_None in E. unfold blen in H. lia.
Qed.
Lemma at_app {A} (a : list A) x c : at_ (a ++ x :: c) (blen a) = Ok x.
Proof.
  unfold at_. pose proof (blen_nonneg a). destruct (Z.ltb_spec (blen a) 0); [lia|].
  unfold blen. rewrite Nat2Z.id. rewrite nth_error_app2 by lia. rewrite Nat.sub_diag. reflexivity.
Qed.
Lemma at_head {A} (x : A) s : at_ (x :: s) 0 = Ok x.
Proof. reflexivity. Qed.

Lemma slice_ok s lo hi : 0 <= lo <= hi -> hi <= blen s ->
  slice s lo hi = Ok (firstn (Z.to_nat (hi - lo)) (skipn (Z.to_nat lo) s)).
Proof.
  intros H1 H2. unfold slice.
  replace (0 <=? lo) with true by (symmetry; apply Z.leb_le; lia).
  replace (lo <=? hi) with true by (symmetry; apply Z.leb_le; lia).
  replace (hi <=? blen s) with true by (symmetry; apply Z.leb_le; lia).
  reflexivity.
Qed.
(* s = a ++ m ++ z, sliced at the boundaries of m *)
Lemma slice_app3 s a m z lo hi : s = a ++ m ++ z -> lo = blen a -> hi = blen a + blen m -> slice s lo hi = Ok m.
Proof.
  intros -> -> ->. pose proof (blen_nonneg a). pose proof (blen_nonneg m). pose proof (blen_nonneg z).
  rewrite slice_ok by (rewrite ?blen_app; lia).
  unfold blen. rewrite Nat2Z.id. replace (Z.to_nat _) with (List.length m) by lia.
  rewrite skipn_app, skipn_all, Nat.sub_diag. cbn [skipn app].
  rewrite firstn_app, firstn_all, Nat.sub_diag. cbn [firstn]. rewrite app_nil_r. reflexivity.
Qed.
Lemma slice_prefix a z : slice (a ++ z) 0 (blen a) = Ok a.
Proof. apply (slice_app3 _ [] a z); rewrite ?blen_nil; reflexivity || lia. Qed.
Lemma slice_suffix a z : slice (a ++ z) (blen a) (blen (a ++ z)) = Ok z.
Proof. apply (slice_app3 _ a z []); rewrite ?app_nil_r, ?blen_app; reflexivity. Qed.
Lemma slice_all s : slice s 0 (blen s) = Ok s.
Proof. apply (slice_app3 _ [] s []); rewrite ?app_nil_r, ?blen_nil; reflexivity || lia. Qed.

(* ---- byte search ---- *)
Lemma index_nat_some c s n : index_nat c s = Some n ->
  (n < List.length s)%nat /\ nth_error s n = Some c /\ ~ In c (firstn n s).
Proof.
  revert n. induction s as [|x r IH]; cbn; intros n H; [discriminate|].
  destruct (Z.eqb_spec x c).
  - injection H as <-. subst. cbn. repeat split; [lia | tauto].
  - destruct (index_nat c r) as [k|] eqn:E; cbn in H; [|discriminate]. injection H as <-.
    destruct (IH k eq_refl) as (H1 & H2 & H3). cbn. repeat split; [lia | assumption |].
    intros [F|F]; [congruence | contradiction].
Qed.
Lemma index_nat_none c s : index_nat c s = None <-> ~ In c s.
Proof.
  induction s as [|x r IH]; cbn; [tauto|].
  destruct (Z.eqb_spec x c).
  - split; [discriminate | intros H; exfalso; apply H; left; assumption].
  - destruct (index_nat c r); cbn; split; try discriminate; try tauto.
    + intros H. exfalso. destruct IH as [_ IH]. assert (Some n0 = None); [|discriminate]. apply IH. tauto.
Qed.
Lemma index_byte_range c s : -1 <= index_byte c s < blen s.
Proof.
  unfold index_byte. destruct (index_nat c s) eqn:E.
  - apply index_nat_some in E. unfold blen. lia.
  - pose proof (blen_nonneg s). lia.
Qed.
Lemma index_byte_none c s : ~ In c s -> index_byte c s = -1.
Proof. intros H. unfold index_byte. apply index_nat_none in H. rewrite H. reflexivity. Qed.
Lemma index_byte_none_inv c s : index_byte c s = -1 -> ~ In c s.
Proof.
  unfold index_byte. destruct (index_nat c s) eqn:E; [lia|]. intros _. apply index_nat_none. assumption.
Qed.
Lemma index_nat_app c a z : ~ In c a -> index_nat c (a ++ c :: z) = Some (List.length a).
Proof.
  induction a as [|x a IH]; cbn; intros H.
  - rewrite Z.eqb_refl. reflexivity.
  - destruct (Z.eqb_spec x c); [exfalso; apply H; left; assumption|].
    rewrite IH by tauto. reflexivity.
Qed.
Lemma index_byte_app c a z : ~ In c a -> index_byte c (a ++ c :: z) = blen a.
Proof. intros H. unfold index_byte. rewrite index_nat_app by assumption. reflexivity. Qed.
Lemma index_byte_at c s : index_byte c s <> -1 -> nth_error s (Z.to_nat (index_byte c s)) = Some c.
Proof.
  unfold index_byte. destruct (index_nat c s) eqn:E; [|lia]. intros _.
  apply index_nat_some in E. rewrite Nat2Z.id. tauto.
Qed.

(* ---- split ---- *)
Lemma split_on_nonempty c s : split_on c s <> [].
Proof. destruct s as [|x r]; cbn; [discriminate|]. destruct (x =? c); [discriminate|]. destruct (split_on c r); discriminate. Qed.
Lemma split_on_none c a : ~ In c a -> split_on c a = [a].
Proof.
  induction a as [|x a IH]; cbn; intros H; [reflexivity|].
  destruct (Z.eqb_spec x c); [exfalso; apply H; left; assumption|].
  rewrite IH by tauto. reflexivity.
Qed.
Lemma split_on_app c a z : ~ In c a -> split_on c (a ++ c :: z) = a :: split_on c z.
Proof.
  induction a as [|x a IH]; cbn; intros H.
  - rewrite Z.eqb_refl. reflexivity.
  - destruct (Z.eqb_spec x c); [exfalso; apply H; left; assumption|].
    rewrite IH by tauto. reflexivity.
Qed.

Lemma has_suffix_last c s : has_suffix_byte c s = true -> exists r, s = r ++ [c].
Proof.
  unfold has_suffix_byte. destruct (rev s) as [|x r] eqn:E; [discriminate|].
  intros H. apply Z.eqb_eq in H. subst. exists (rev r).
  rewrite <- (rev_involutive s), E. reflexivity.
Qed.
Lemma has_suffix_app c r : has_suffix_byte c (r ++ [c]) = true.
Proof. unfold has_suffix_byte. rewrite rev_app_distr. cbn. apply Z.eqb_refl. Qed.


(* ================================================================== *)
(* 1b. white space                                                      *)

(* ---- white space on ASCII strings ---- *)
Definition ascii (s : bstr) : Prop := forallb is_ascii s = true.
Definition spaces (s : bstr) : Prop := forallb is_space s = true.

Lemma ascii_app a c : ascii (a ++ c) <-> ascii a /\ ascii c.
Proof. unfold ascii. rewrite forallb_app, andb_true_iff. tauto. Qed.
Lemma ascii_cons x a : ascii (x :: a) <-> is_ascii x = true /\ ascii a.
Proof. unfold ascii. cbn [forallb]. rewrite andb_true_iff. tauto. Qed.
Lemma ascii_nil : ascii [].
Proof. reflexivity. Qed.
Lemma trim_space_ascii s : ascii s -> trim_space s = trim_ascii s.
Proof. unfold ascii, trim_space. intros ->. reflexivity. Qed.

Lemma forallb_rev {A} (f : A -> bool) l : forallb f (rev l) = forallb f l.
Proof.
  induction l as [|x l IH]; [reflexivity|]. cbn [rev forallb]. rewrite forallb_app, IH. cbn. rewrite andb_true_r. apply andb_comm.
Qed.
Lemma forallb_imp {A} (f g : A -> bool) l : (forall x, f x = true -> g x = true) -> forallb f l = true -> forallb g l = true.
Proof. intros H. rewrite !forallb_forall. intros H1 x Hx. apply H, H1, Hx. Qed.

Lemma is_space_ascii c : is_space c = true -> is_ascii c = true.
Proof.
  unfold is_space, is_ascii. rewrite !orb_true_iff, !Z.eqb_eq, Z.ltb_lt. lia.
Qed.
Lemma is_hspace_space c : is_hspace c = true -> is_space c = true.
Proof. unfold is_hspace. rewrite andb_true_iff. tauto. Qed.
Lemma hspaces_spaces s : forallb is_hspace s = true -> spaces s.
Proof. apply forallb_imp, is_hspace_space. Qed.
Lemma spaces_ascii s : spaces s -> ascii s.
Proof. apply forallb_imp, is_space_ascii. Qed.
Lemma clean_byte_props c : clean_byte c = true ->
  is_ascii c = true /\ is_space c = false /\ c <> 44 /\ c <> 35 /\ c <> 32 /\ c <> 10.
Proof.
  unfold clean_byte. rewrite !andb_true_iff, !negb_true_iff, !Z.eqb_neq. intros (((H1 & H2) & H3) & H4).
  repeat split; try assumption; intros ->; vm_compute in H2; discriminate.
Qed.
Lemma clean_ascii s : clean s = true -> ascii s.
Proof. apply forallb_imp. intros c H. apply clean_byte_props in H. tauto. Qed.
Lemma clean_app a c : clean (a ++ c) = true <-> clean a = true /\ clean c = true.
Proof. unfold clean. rewrite forallb_app, andb_true_iff. tauto. Qed.
Lemma clean_not_in s c : clean s = true -> clean_byte c = false -> ~ In c s.
Proof. unfold clean. rewrite forallb_forall. intros H Hc Hin. apply H in Hin. congruence. Qed.

Lemma drop_spaces_spaces ws x : spaces ws -> drop_spaces (ws ++ x) = drop_spaces x.
Proof.
  unfold spaces. induction ws as [|c ws IH]; cbn [forallb app drop_spaces]; [reflexivity|].
  intros H. apply andb_true_iff in H. destruct H as [-> H]. apply IH, H.
Qed.
Lemma drop_spaces_app_nonspace u c v : is_space c = false -> drop_spaces (u ++ c :: v) = drop_spaces u ++ c :: v.
Proof.
  intros Hc. induction u as [|x u IH]; cbn [app drop_spaces].
  - rewrite Hc. reflexivity.
  - destruct (is_space x); [apply IH | reflexivity].
Qed.

Definition rtrim (s : bstr) : bstr := rev (drop_spaces (rev s)).
(* begins / ends with a byte that is not white space *)
Definition nsb (y : bstr) : Prop := exists c t, y = c :: t /\ is_space c = false.
Definition nse (y : bstr) : Prop := exists a c, y = a ++ [c] /\ is_space c = false.

Lemma rtrim_app a c t : is_space c = false -> rtrim (a ++ c :: t) = a ++ c :: rtrim t.
Proof.
  intros Hc. unfold rtrim. rewrite rev_app_distr. cbn [rev]. rewrite <- app_assoc. cbn [app].
  rewrite drop_spaces_app_nonspace by assumption. rewrite rev_app_distr. cbn [rev].
  rewrite rev_involutive, <- app_assoc. reflexivity.
Qed.
Lemma rtrim_nil : rtrim [] = [].
Proof. reflexivity. Qed.
Lemma rtrim_nse y : nse y -> rtrim y = y.
Proof. intros (a & c & -> & Hc). rewrite rtrim_app by assumption. reflexivity. Qed.
Lemma rtrim_spaces ws : spaces ws -> rtrim ws = [].
Proof.
  intros H. unfold rtrim. replace (drop_spaces (rev ws)) with (drop_spaces (rev ws ++ [])) by (rewrite app_nil_r; reflexivity).
  rewrite drop_spaces_spaces; [reflexivity|]. unfold spaces. rewrite forallb_rev. assumption.
Qed.
Lemma nse_app a y : nse y -> nse (a ++ y).
Proof. intros (a' & c & -> & Hc). exists (a ++ a'), c. rewrite app_assoc. tauto. Qed.
Lemma nse_clean x : clean x = true -> x <> [] -> nse x.
Proof.
  intros Hc Hne. rewrite (app_removelast_last 0 Hne) in Hc |- *. apply clean_app in Hc. destruct Hc as [_ Hc].
  cbn in Hc. rewrite andb_true_r in Hc. apply clean_byte_props in Hc. exists (removelast x), (last x 0). tauto.
Qed.
Lemma nsb_clean x : clean x = true -> x <> [] -> nsb x.
Proof.
  destruct x as [|c t]; [congruence|]. intros Hc _. cbn in Hc. apply andb_true_iff in Hc. destruct Hc as [Hc _].
  apply clean_byte_props in Hc. exists c, t. tauto.
Qed.
Lemma nsb_app y z : nsb y -> nsb (y ++ z).
Proof. intros (c & t & -> & Hc). exists c, (t ++ z). tauto. Qed.

(* the trimmed form of an indented line *)
Lemma trim_pad lead x trail : spaces lead -> spaces trail -> nsb x -> ascii x ->
  trim_space (lead ++ x ++ trail) = rtrim x.
Proof.
  intros Hl Ht (c & t & -> & Hc) Hx.
  rewrite trim_space_ascii by (rewrite !ascii_app; auto using spaces_ascii).
  unfold trim_ascii. rewrite drop_spaces_spaces by assumption.
  cbn [app drop_spaces]. rewrite Hc. change (c :: t ++ trail) with ((c :: t) ++ trail).
  rewrite rev_app_distr, drop_spaces_spaces; [reflexivity|]. unfold spaces. rewrite forallb_rev. assumption.
Qed.
Lemma trim_spaces ws : spaces ws -> trim_space ws = [].
Proof.
  intros H. rewrite trim_space_ascii by (apply spaces_ascii; assumption). unfold trim_ascii.
  replace (drop_spaces ws) with (drop_spaces (ws ++ [])) by (rewrite app_nil_r; reflexivity).
  rewrite drop_spaces_spaces by assumption. reflexivity.
Qed.
Lemma trim_clean x : clean x = true -> trim_space x = x /\ trim_space (32 :: x) = x.
Proof.
  intros Hc. destruct x as [|c t]; [split; reflexivity|].
  assert (Hb : nsb (c :: t)) by (apply nsb_clean; [assumption | discriminate]).
  assert (He : nse (c :: t)) by (apply nse_clean; [assumption | discriminate]).
  assert (Ha : ascii (c :: t)) by (apply clean_ascii; assumption).
  split.
  - rewrite <- (rtrim_nse _ He) at 2. apply (trim_pad [] (c :: t) []) in Hb; try assumption; try reflexivity.
    rewrite app_nil_r in Hb. exact Hb.
  - rewrite <- (rtrim_nse _ He) at 2. apply (trim_pad [32] (c :: t) []) in Hb; try assumption; try reflexivity.
    rewrite app_nil_r in Hb. exact Hb.
Qed.


(* ---- what strings.TrimSpace returns, for every byte string ---- *)
(* no white-space rune at the head *)
Definition ltrimmed (s : bstr) : Prop := space_len s = O.

Lemma space_len_le s : (space_len s <= List.length s)%nat.
Proof.
  destruct s as [|c [|d [|e r]]]; cbn [space_len List.length];
    repeat match goal with |- context [if ?x then _ else _] => destruct x end; lia.
Qed.
Lemma space_len_rev_le s : (space_len_rev s <= List.length s)%nat.
Proof.
  destruct s as [|c [|d [|e r]]]; cbn [space_len_rev List.length];
    repeat match goal with |- context [if ?x then _ else _] => destruct x end; lia.
Qed.
Lemma space_len_app a x k : space_len a = S k -> space_len (a ++ x) = S k.
Proof.
  destruct a as [|c [|d [|e a']]]; cbn [app space_len]; try discriminate;
    repeat match goal with |- context [if ?y then _ else _] => destruct y end; try discriminate; auto.
Qed.
Lemma ltrimmed_prefix a x : ltrimmed (a ++ x) -> ltrimmed a.
Proof.
  unfold ltrimmed. intros H. destruct (space_len a) eqn:E; [reflexivity|].
  rewrite (space_len_app _ x _ E) in H. discriminate.
Qed.
Lemma space_len_ascii_head c r : is_ascii c = true -> is_space c = false -> space_len (c :: r) = O.
Proof.
  unfold is_ascii. intros Ha Hs. apply Z.ltb_lt in Ha. cbn [space_len]. rewrite Hs.
  assert (H2 : forall d, uspace2 c d = false).
  { intros d. unfold uspace2. replace (c =? 194) with false by (symmetry; apply Z.eqb_neq; lia). reflexivity. }
  assert (H3 : forall d e, uspace3 c d e = false).
  { intros d e. unfold uspace3.
    replace (c =? 225) with false by (symmetry; apply Z.eqb_neq; lia).
    replace (c =? 226) with false by (symmetry; apply Z.eqb_neq; lia).
    replace (c =? 227) with false by (symmetry; apply Z.eqb_neq; lia). reflexivity. }
  destruct r as [|d [|e r]]; rewrite ?H2, ?H3; reflexivity.
Qed.
Lemma ltrimmed_head c t : ltrimmed (c :: t) -> is_space c = false.
Proof. unfold ltrimmed. cbn [space_len]. destruct (is_space c); [discriminate | reflexivity]. Qed.

Lemma drop_runes_suffix f n : forall s, exists x, s = x ++ drop_runes f n s.
Proof.
  induction n as [|n IH]; intros s; cbn [drop_runes]; [exists []; reflexivity|].
  destruct (f s) as [|k]; [exists []; reflexivity|].
  destruct (IH (skipn (S k) s)) as [x Hx]. exists (firstn (S k) s ++ x).
  rewrite <- app_assoc, <- Hx, firstn_skipn. reflexivity.
Qed.
Lemma drop_runes_zero f n s : f s = O -> drop_runes f n s = s.
Proof. intros H. destruct n; cbn [drop_runes]; [reflexivity|]. rewrite H. reflexivity. Qed.
Lemma drop_runes_done f : (forall s, (f s <= List.length s)%nat) ->
  forall n s, (List.length s <= n)%nat -> f (drop_runes f n s) = O.
Proof.
  intros Hf. induction n as [|n IH]; intros s Hn; cbn [drop_runes].
  - destruct s; [|cbn in Hn; lia]. pose proof (Hf []). cbn in *. lia.
  - destruct (f s) as [|k] eqn:E; [assumption|]. apply IH.
    rewrite skipn_length. pose proof (Hf s). lia.
Qed.

(* the last rune of q (reversed string) *)
Lemma rev_rune q k : space_len_rev q = S k ->
  exists u rest, q = u ++ rest /\ List.length u = S k /\ space_len (rev u) <> O.
Proof.
  destruct q as [|e [|d [|c q']]]; cbn [space_len_rev]; try discriminate.
  - destruct (is_space e) eqn:E1; [|discriminate]. intros H. injection H as <-.
    exists [e], []. repeat split. cbn [rev app space_len]. rewrite E1. discriminate.
  - destruct (is_space e) eqn:E1.
    + intros H. injection H as <-. exists [e], [d]. repeat split. cbn [rev app space_len]. rewrite E1. discriminate.
    + destruct (uspace2 d e) eqn:E2; [|discriminate]. intros H. injection H as <-. exists [e; d], []. repeat split.
      cbn [rev app space_len]. rewrite E2. destruct (is_space d); discriminate.
  - destruct (is_space e) eqn:E1.
    + intros H. injection H as <-. exists [e], (d :: c :: q'). repeat split. cbn [rev app space_len]. rewrite E1. discriminate.
    + destruct (uspace2 d e) eqn:E2.
      * intros H. injection H as <-. exists [e; d], (c :: q'). repeat split.
        cbn [rev app space_len]. rewrite E2. destruct (is_space d); discriminate.
      * destruct (uspace3 c d e) eqn:E3; [|discriminate]. intros H. injection H as <-. exists [e; d; c], q'. repeat split.
        cbn [rev app space_len]. rewrite E3. destruct (is_space c); [discriminate|]. destruct (uspace2 c d); discriminate.
Qed.

Lemma drop_runes_rev_all n : forall q, q <> [] -> drop_runes space_len_rev n q = [] -> space_len (rev q) <> O.
Proof.
  induction n as [|n IH]; intros q Hq H; cbn [drop_runes] in H; [congruence|].
  destruct (space_len_rev q) as [|k] eqn:E; [congruence|].
  destruct (rev_rune q k E) as (u & rest & -> & Hu & Hnz).
  rewrite skipn_app, skipn_all2, Hu, Nat.sub_diag in H by lia. cbn [skipn app] in H.
  rewrite rev_app_distr. destruct rest as [|r0 rest].
  - cbn [rev app]. assumption.
  - specialize (IH (r0 :: rest) ltac:(discriminate) H).
    destruct (space_len (rev (r0 :: rest))) as [|j] eqn:Ej; [congruence|].
    rewrite (space_len_app _ (rev u) _ Ej). discriminate.
Qed.

Lemma drop_spaces_head s : drop_spaces s = [] \/ exists c t, drop_spaces s = c :: t /\ is_space c = false /\ In c s.
Proof.
  induction s as [|x s IH]; cbn [drop_spaces]; [left; reflexivity|].
  destruct (is_space x) eqn:E.
  - destruct IH as [->|(c & t & -> & H1 & H2)]; [left; reflexivity|]. right. exists c, t. repeat split; [assumption | right; assumption].
  - right. exists x, s. repeat split; [assumption | left; reflexivity].
Qed.

(* TrimSpace returns a string without leading white space ... *)
Lemma trim_space_ltrimmed raw : ltrimmed (trim_space raw).
Proof.
  unfold trim_space. destruct (forallb is_ascii raw) eqn:Ha.
  - unfold trim_ascii. fold (rtrim (drop_spaces raw)).
    destruct (drop_spaces_head raw) as [->|(c & t & -> & Hc & Hin)]; [reflexivity|].
    pose proof (rtrim_app [] c t Hc) as R. cbn [app] in R. rewrite R.
    apply space_len_ascii_head; [|assumption]. rewrite forallb_forall in Ha. apply Ha. assumption.
  - unfold trim_unicode.
    set (l := drop_runes space_len (List.length raw) raw).
    assert (Hl : ltrimmed l) by (apply drop_runes_done; [apply space_len_le | lia]).
    destruct (drop_runes_suffix space_len_rev (List.length l) (rev l)) as [x Hx].
    set (d := drop_runes space_len_rev (List.length l) (rev l)) in *.
    assert (E : l = rev d ++ rev x) by (rewrite <- rev_app_distr, <- Hx, rev_involutive; reflexivity).
    rewrite E in Hl. apply ltrimmed_prefix in Hl. assumption.
Qed.
(* ... and does not return the empty string when there is something that is not white space at the head *)
Lemma trim_space_nonempty p : p <> [] -> ltrimmed p -> trim_space p <> [].
Proof.
  intros Hne Hl. destruct p as [|c t]; [congruence|]. pose proof (ltrimmed_head _ _ Hl) as Hc.
  unfold trim_space. destruct (forallb is_ascii (c :: t)).
  - unfold trim_ascii. cbn [drop_spaces]. rewrite Hc. fold (rtrim (c :: t)).
    pose proof (rtrim_app [] c t Hc) as R. cbn [app] in R. rewrite R. discriminate.
  - unfold trim_unicode. rewrite (drop_runes_zero space_len _ _ Hl). cbv zeta.
    intros F. apply (f_equal (@rev Z)) in F. rewrite rev_involutive in F. change (rev []) with (@nil Z) in F.
    apply drop_runes_rev_all in F.
    + rewrite rev_involutive in F. contradiction.
    + intros E. apply (f_equal (@rev Z)) in E. rewrite rev_involutive in E. discriminate.
Qed.

(* ================================================================== *)
(* 2. totality                                                          *)

Lemma bind_not_panic {A B} (m : outcome A) (f : A -> outcome B) :
  m <> Panic -> (forall x, m = Ok x -> f x <> Panic) -> bind m f <> Panic.
Proof. destruct m; cbn; intros H1 H2; [apply H2; reflexivity | discriminate | congruence]. Qed.
Lemma opt_err_not_panic {A} (o : option A) : opt_err o <> Panic.
Proof. destruct o; discriminate. Qed.
Lemma slice_not_panic s lo hi : 0 <= lo <= hi -> hi <= blen s -> slice s lo hi <> Panic.
Proof. intros. rewrite slice_ok by assumption. discriminate. Qed.
Lemma at_not_panic {A} (s : list A) i : 0 <= i < blen s -> at_ s i <> Panic.
Proof. intros H. destruct (at_ok s i H) as (x & -> & _). discriminate. Qed.

Lemma parse_offset_reg_total s : parse_offset_reg s <> Panic.
Proof.
  unfold parse_offset_reg.
  destruct (Z.eqb_spec (index_byte 40 s) (-1)) as [|Hfp]; [discriminate|].
  destruct (has_suffix_byte 41 s) eqn:Hs; cbn [negb]; [|discriminate].
  pose proof (index_byte_range 40 s) as Hr.
  pose proof (index_byte_at 40 s Hfp) as Hat.
  destruct (has_suffix_last _ _ Hs) as [r ->].
  bl.
  assert (Hlt : index_byte 40 (r ++ [41]) < blen r).
  { destruct (Z.eq_dec (index_byte 40 (r ++ [41])) (blen r)) as [E|E]; [|lia].
    rewrite E in Hat. unfold blen in Hat. rewrite Nat2Z.id, nth_error_app2, Nat.sub_diag in Hat by lia.
    cbn in Hat. discriminate. }
  apply bind_not_panic; [apply slice_not_panic; bl; lia|]. intros x _.
  apply bind_not_panic; [apply opt_err_not_panic|]. intros imm _.
  apply bind_not_panic; [apply slice_not_panic; bl; lia|]. intros y _.
  apply bind_not_panic; [apply opt_err_not_panic|]. intros reg _. discriminate.
Qed.

Lemma parse_operand_total k e : parse_operand k e <> Panic.
Proof.
  unfold parse_operand. destruct k.
  - apply bind_not_panic; [apply opt_err_not_panic|]. discriminate.
  - apply bind_not_panic; [apply opt_err_not_panic|]. discriminate.
  - discriminate.
  - apply parse_offset_reg_total.
Qed.

Lemma parse_ops_total ks : forall i els, 0 <= i -> i + blen ks <= blen els -> parse_ops ks i els <> Panic.
Proof.
  induction ks as [|k ks IH]; intros i els Hi Hlen; cbn [parse_ops]; [discriminate|].
  rewrite blen_cons in Hlen. pose proof (blen_nonneg ks).
  apply bind_not_panic; [apply at_not_panic; lia|]. intros e _.
  apply bind_not_panic; [apply parse_operand_total|]. intros v _.
  apply bind_not_panic; [apply IH; lia|]. discriminate.
Qed.

Lemma dispatch_total mn els : dispatch mn els <> Panic.
Proof.
  unfold dispatch. destruct (find_mnem (to_lower mn)); [|discriminate].
  destruct (mnem_sig m); [|discriminate].
  destruct (Z.eqb_spec (blen els) (blen l)); [|discriminate].
  apply bind_not_panic; [apply parse_ops_total; lia|]. discriminate.
Qed.

Lemma strip_comment_total r : strip_comment r <> Panic.
Proof.
  unfold strip_comment. pose proof (index_byte_range 35 r).
  destruct (Z.eqb_spec (index_byte 35 r) (-1)); [discriminate|].
  apply bind_not_panic; [apply slice_not_panic; lia|]. discriminate.
Qed.


Lemma parse_tail_total line : line <> [] -> parse_tail line <> Panic.
Proof.
  intros Hne0. unfold parse_tail.
  assert (Hne : blen line <> 0) by (intros E; apply blen_zero in E; contradiction).
  pose proof (blen_nonneg line). pose proof (index_byte_range 32 line) as Hfw.
  apply bind_not_panic; [apply at_not_panic; lia|]. intros lastc _.
  destruct ((index_byte 32 line =? -1) && (lastc =? 58)).
  - apply bind_not_panic; [apply slice_not_panic; lia|]. discriminate.
  - apply bind_not_panic; [apply slice_not_panic; lia|]. intros rem0 _.
    apply bind_not_panic; [apply strip_comment_total|]. intros rem _.
    apply bind_not_panic; [|intros; apply dispatch_total].
    destruct (Z.eqb_spec (index_byte 32 line) (-1)); apply slice_not_panic; lia.
Qed.

(* what is left of a trimmed line that does not start with '#' after cutting the comment is
   not empty: line[len(line)-1] is in range *)
Lemma strip_comment_nonempty line c t x : line = c :: t -> c <> 35 -> ltrimmed line ->
  strip_comment line = Ok x -> x <> [].
Proof.
  intros -> Hc Hl. unfold strip_comment.
  destruct (Z.eqb_spec (index_byte 35 (c :: t)) (-1)) as [|Hi]; [intros H; injection H as <-; discriminate|].
  pose proof (index_byte_range 35 (c :: t)) as Hr. pose proof (index_byte_at 35 _ Hi) as Hat.
  set (k := index_byte 35 (c :: t)) in *.
  assert (Hk : 1 <= k).
  { destruct (Z.eq_dec k 0) as [E|E]; [|lia]. rewrite E in Hat. cbn in Hat. congruence. }
  rewrite slice_ok by lia. cbn [bind]. intros H. injection H as <-.
  rewrite Z.sub_0_r. cbn [Z.to_nat skipn].
  apply trim_space_nonempty.
  - destruct (Z.to_nat k) eqn:E; [lia|]. discriminate.
  - apply (ltrimmed_prefix _ (skipn (Z.to_nat k) (c :: t))). rewrite firstn_skipn. assumption.
Qed.

Lemma parse_body_total line : ltrimmed line -> parse_body line <> Panic.
Proof.
  intros Hl. unfold parse_body. destruct (Z.eqb_spec (blen line) 0) as [|Hne]; [discriminate|].
  destruct line as [|c t]; [exfalso; apply Hne; reflexivity|].
  rewrite at_head. cbn [bind]. destruct (Z.eqb_spec c 35) as [|Hc]; [discriminate|].
  apply bind_not_panic; [apply strip_comment_total|]. intros x Hx.
  apply parse_tail_total. eapply strip_comment_nonempty; try eassumption. reflexivity.
Qed.

Lemma parse_line_total raw : parse_line raw <> Panic.
Proof. apply parse_body_total, trim_space_ltrimmed. Qed.

Lemma parse_lines_total ls : forall ins labs pc, parse_lines ls ins labs pc <> Panic.
Proof.
  induction ls as [|l r IH]; intros; cbn [parse_lines]; [discriminate|].
  apply bind_not_panic; [apply parse_line_total|]. intros x _. destruct x; apply IH.
Qed.

(* Every Go index and slice expression of Parse and parseOffsetReg stays in range, for every
   byte string, ASCII or not.  (line[len(line)-1] after the comment has been cut needs what
   TrimSpace guarantees: see strip_comment_nonempty.) *)
Theorem parse_total : forall s, parse s <> Panic.
Proof. intros. apply parse_lines_total. Qed.

(* ================================================================== *)
(* 3. instruction count and label addresses                            *)

(* Independent classification of a source line (no checked operations, no dispatch):
   blank or comment / label definition / anything else = instruction line. *)
Inductive lclass := CSkip | CLabel (n : bstr) | CInstr.
(* the text in front of the first '#' *)
Fixpoint before_hash (s : bstr) : bstr :=
  match s with
  | [] => []
  | c :: r => if c =? 35 then [] else c :: before_hash r
  end.
(* a trailing comment is cut and the rest trimmed again *)
Definition cut_comment (l : bstr) : bstr :=
  if existsb (Z.eqb 35) l then trim_space (before_hash l) else l.
Definition tail_class (l : bstr) : lclass :=
  if negb (existsb (Z.eqb 32) l) && (last l 0 =? 58) then CLabel (removelast l) else CInstr.
Definition body_class (l : bstr) : lclass :=
  match l with
  | [] => CSkip
  | c :: _ => if c =? 35 then CSkip else tail_class (cut_comment l)
  end.
Definition line_class (raw : bstr) : lclass := body_class (trim_space raw).

Definition is_instr_line (raw : bstr) : bool :=
  match line_class raw with CInstr => true | _ => false end.
Definition count_instr (ls : list bstr) : Z := blen (filter is_instr_line ls).

(* number of instruction lines before the LAST line that defines label n *)
Fixpoint last_def_lines (n : bstr) (ls : list bstr) : option Z :=
  match ls with
  | [] => None
  | l :: r =>
    match last_def_lines n r with
    | Some k => Some (k + if is_instr_line l then 1 else 0)
    | None => match line_class l with
              | CLabel n' => if bstr_eqb n' n then Some 0 else None
              | _ => None
              end
    end
  end.

Definition res_class (r : line_res) : lclass :=
  match r with LSkip => CSkip | LLabel n => CLabel n | LInstr _ => CInstr end.

Lemma index_byte_eqb c s : (index_byte c s =? -1) = negb (existsb (Z.eqb c) s).
Proof.
  destruct (existsb (Z.eqb c) s) eqn:E; cbn [negb].
  - apply existsb_exists in E. destruct E as (x & Hin & Hx). apply Z.eqb_eq in Hx. subst x.
    apply Z.eqb_neq. intros F. apply index_byte_none_inv in F. contradiction.
  - apply Z.eqb_eq. apply index_byte_none. intros Hin.
    assert (existsb (Z.eqb c) s = true); [|congruence].
    apply existsb_exists. exists c. split; [assumption | apply Z.eqb_refl].
Qed.

Lemma at_last (l : bstr) d : l <> [] -> at_ l (blen l - 1) = Ok (last l d).
Proof.
  intros H. rewrite (app_removelast_last d H) at 1 2. bl.
  replace (blen (removelast l) + (1 + 0) - 1) with (blen (removelast l)) by lia. apply at_app.
Qed.
Lemma slice_removelast (l : bstr) : l <> [] -> slice l 0 (blen l - 1) = Ok (removelast l).
Proof.
  intros H. rewrite (app_removelast_last 0 H) at 1 2. bl.
  replace (blen (removelast l) + (1 + 0) - 1) with (blen (removelast l)) by lia. apply slice_prefix.
Qed.

Lemma dispatch_instr mn els r : dispatch mn els = Ok r -> exists i, r = LInstr i.
Proof.
  unfold dispatch. destruct (find_mnem (to_lower mn)); [|discriminate].
  destruct (mnem_sig m).
  - destruct (blen els =? blen l); [|discriminate]. intros H. apply bind_ok in H. destruct H as (vs & _ & H).
    injection H as <-. eauto.
  - intros H. injection H as <-. eauto.
Qed.

Lemma before_hash_split l : In 35 l -> exists t, l = before_hash l ++ 35 :: t /\ ~ In 35 (before_hash l).
Proof.
  induction l as [|c r IH]; cbn [before_hash]; [contradiction|].
  destruct (Z.eqb_spec c 35) as [->|Hc].
  - intros _. exists r. split; [reflexivity | intros F; exact F].
  - intros [F|Hin]; [congruence|]. destruct (IH Hin) as (t & E & Hn). exists t. split.
    + cbn [app]. f_equal. assumption.
    + intros [F|F]; [congruence | contradiction].
Qed.

Lemma strip_comment_cut l : strip_comment l = Ok (cut_comment l).
Proof.
  unfold strip_comment, cut_comment. rewrite index_byte_eqb.
  destruct (existsb (Z.eqb 35) l) eqn:E; cbn [negb]; [|reflexivity].
  apply existsb_exists in E. destruct E as (x & Hin & Hx). apply Z.eqb_eq in Hx. subst x.
  destruct (before_hash_split l Hin) as (t & El & Hn).
  rewrite El at 1 2. rewrite index_byte_app by assumption. rewrite slice_prefix. reflexivity.
Qed.

Lemma parse_tail_class l r : parse_tail l = Ok r -> res_class r = tail_class l.
Proof.
  unfold parse_tail, tail_class. destruct l as [|c t]; [cbn; discriminate|].
  set (l := c :: t). assert (Hne : l <> []) by discriminate.
  rewrite (at_last l 0 Hne). cbn [bind]. rewrite index_byte_eqb.
  destruct (negb (existsb (Z.eqb 32) l) && (last l 0 =? 58)).
  - rewrite (slice_removelast l Hne). cbn [bind]. intros H; injection H as <-; reflexivity.
  - intros H. apply bind_ok in H. destruct H as (rem0 & _ & H).
    apply bind_ok in H. destruct H as (rem & _ & H).
    apply bind_ok in H. destruct H as (mn & _ & H).
    apply dispatch_instr in H. destruct H as [i ->]. reflexivity.
Qed.

Lemma parse_body_class line r : parse_body line = Ok r -> res_class r = body_class line.
Proof.
  unfold parse_body, body_class. destruct line as [|c t]; [intros H; injection H as <-; reflexivity|].
  replace (blen (c :: t) =? 0) with false by (symmetry; apply Z.eqb_neq; bl; pose proof (blen_nonneg t); lia).
  rewrite at_head. cbn [bind].
  destruct (c =? 35); [intros H; injection H as <-; reflexivity|].
  rewrite strip_comment_cut. cbn [bind]. apply parse_tail_class.
Qed.

Lemma parse_line_class raw r : parse_line raw = Ok r -> res_class r = line_class raw.
Proof. apply parse_body_class. Qed.

Lemma set_label_lookup n pc labs m :
  lookup_label (set_label n pc labs) m = if bstr_eqb n m then Some pc else lookup_label labs m.
Proof.
  induction labs as [|[k v] r IH]; cbn [set_label lookup_label].
  - reflexivity.
  - destruct (bstr_eqb k n) eqn:E.
    + apply bstr_eqb_eq in E. subst k. cbn [lookup_label]. destruct (bstr_eqb n m); reflexivity.
    + cbn [lookup_label]. rewrite IH. destruct (bstr_eqb k m) eqn:E2; [|reflexivity].
      apply bstr_eqb_eq in E2. subst k. destruct (bstr_eqb n m) eqn:E3; [|reflexivity].
      apply bstr_eqb_eq in E3. subst n. rewrite bstr_eqb_refl in E. discriminate.
Qed.

Lemma wrap_step pc k : wrapS 32 (addS 32 pc 4 + 4 * k) = wrapS 32 (pc + 4 * (k + 1)).
Proof.
  unfold addS. apply wrapS_eq_mod; [lia|].
  rewrite Zplus_mod, wrapS_mod, <- Zplus_mod by lia. f_equal. lia.
Qed.

Lemma parse_lines_spec ls : forall ins labs pc is' labs',
  int32 pc ->
  parse_lines ls ins labs pc = Ok (is', labs') ->
  blen is' = blen ins + count_instr ls /\
  forall n, lookup_label labs' n =
            match last_def_lines n ls with
            | Some k => Some (wrapS 32 (pc + 4 * k))
            | None => lookup_label labs n
            end.
Proof.
  induction ls as [|l r IH]; intros ins labs pc is' labs' Hpc H; cbn [parse_lines] in H.
  - injection H as <- <-. unfold count_instr. cbn. split; [lia | reflexivity].
  - apply bind_ok in H. destruct H as (x & Hx & H). apply parse_line_class in Hx.
    assert (Hi : is_instr_line l = match res_class x with CInstr => true | _ => false end)
      by (unfold is_instr_line; rewrite Hx; reflexivity).
    unfold count_instr. cbn [filter last_def_lines]. rewrite Hi, <- Hx. clear Hi Hx.
    destruct x as [|m|i]; cbn [res_class].
    + destruct (IH _ _ _ _ _ Hpc H) as [H1 H2]. split; [exact H1|].
      intros n. rewrite H2. destruct (last_def_lines n r); [f_equal; f_equal; lia | reflexivity].
    + destruct (IH _ _ _ _ _ Hpc H) as [H1 H2]. split; [exact H1|].
      intros n. rewrite H2. destruct (last_def_lines n r); [f_equal; f_equal; lia|].
      rewrite set_label_lookup. destruct (bstr_eqb m n); [|reflexivity].
      f_equal. rewrite Z.add_0_r. symmetry. apply wrapS_id; [lia | assumption].
    + assert (Hpc' : int32 (addS 32 pc 4)) by (apply wrapS_range; lia).
      destruct (IH _ _ _ _ _ Hpc' H) as [H1 H2]. split.
      * rewrite H1. unfold count_instr. bl. lia.
      * intros n. rewrite H2. destruct (last_def_lines n r); [|reflexivity].
        f_equal. apply wrap_step.
Qed.

Definition lines (s : bstr) : list bstr := split_on 10 s.

(* For accepted text the number of instructions equals the number of instruction lines. *)
Theorem instr_count : forall s is labs,
  parse s = Ok (is, labs) -> blen is = count_instr (lines s).
Proof.
  intros s is labs H. apply parse_lines_spec in H; [|vm_compute; split; congruence].
  destruct H as [H _]. rewrite H. reflexivity.
Qed.

(* Each label maps to four times the number of instruction lines before its last
   definition (int32 arithmetic, as the Go pc); undefined names are absent. *)
Theorem label_address : forall s is labs,
  parse s = Ok (is, labs) ->
  forall n, lookup_label labs n = option_map (fun k => wrapS 32 (4 * k)) (last_def_lines n (lines s)).
Proof.
  intros s is labs H n. apply parse_lines_spec in H; [|vm_compute; split; congruence].
  destruct H as [_ H]. rewrite H. unfold lines. destruct (last_def_lines n (split_on 10 s)); reflexivity.
Qed.

(* what last_def_lines computes, declaratively *)
Lemma last_def_lines_spec n ls k :
  last_def_lines n ls = Some k <->
  exists pre l post, ls = pre ++ l :: post /\ line_class l = CLabel n /\
                     (forall l', In l' post -> line_class l' <> CLabel n) /\ k = count_instr pre.
Proof.
  revert k. induction ls as [|l r IH]; intros k; cbn [last_def_lines].
  - split; [discriminate|]. intros (pre & l & post & H & _). destruct pre; discriminate.
  - destruct (last_def_lines n r) as [k'|] eqn:E.
    + split.
      * intros H. injection H as <-. destruct (proj1 (IH k') eq_refl) as (pre & l0 & post & -> & H1 & H2 & ->).
        exists (l :: pre), l0, post. repeat split; try assumption.
        unfold count_instr. cbn [filter]. destruct (is_instr_line l); bl; lia.
      * intros (pre & l0 & post & H0 & H1 & H2 & ->). destruct pre as [|p pre]; cbn in H0; injection H0 as <- ->.
        -- exfalso. destruct (proj1 (IH k') eq_refl) as (pre' & l' & post' & -> & H3 & _).
           apply (H2 l'); [apply in_or_app; right; left; reflexivity | assumption].
        -- f_equal. assert (Some k' = Some (count_instr pre)) as E2.
           { apply IH. exists pre, l0, post. repeat split; assumption. }
           injection E2 as ->. unfold count_instr. cbn [filter]. destruct (is_instr_line l); bl; lia.
    + split.
      * destruct (line_class l) as [|n'|] eqn:Ec; try discriminate.
        destruct (bstr_eqb n' n) eqn:En; [|discriminate]. apply bstr_eqb_eq in En. subst n'.
        intros H. injection H as <-. exists [], l, r. repeat split; try assumption.
        intros l' Hin Hc.
        assert (exists pre post, r = pre ++ l' :: post) as (pre & post & ->) by (apply in_split; assumption).
        clear IH Hin. revert E. induction pre as [|p pre IHp]; cbn [app last_def_lines].
        -- destruct (last_def_lines n post); [discriminate|]. rewrite Hc, bstr_eqb_refl. discriminate.
        -- destruct (last_def_lines n (pre ++ l' :: post)); [discriminate|]. intros _. apply IHp. reflexivity.
      * intros (pre & l0 & post & H0 & H1 & H2 & ->). destruct pre as [|p pre]; cbn in H0; injection H0 as <- ->.
        -- rewrite H1, bstr_eqb_refl. reflexivity.
        -- exfalso. assert (None = Some (count_instr pre)); [|discriminate].
           apply IH. exists pre, l0, post. repeat split; assumption.
Qed.

Lemma count_instr_le ls : count_instr ls <= blen (List.concat ls).
Proof.
  unfold count_instr. induction ls as [|l r IH]; cbn [filter List.concat]; [bl; lia|].
  bl. destruct (is_instr_line l) eqn:E; [|pose proof (blen_nonneg l); lia].
  bl. assert (1 <= blen l); [|lia].
  destruct l; [|bl; pose proof (blen_nonneg l); lia]. vm_compute in E. discriminate.
Qed.
Lemma concat_split_le c s : blen (List.concat (split_on c s)) <= blen s.
Proof.
  induction s as [|x r IH]; cbn [split_on]; [cbn; lia|].
  destruct (x =? c); [cbn [List.concat app]; bl; lia|].
  destruct (split_on c r) as [|p q]; cbn [List.concat] in *; bl; lia.
Qed.

(* no wrap-around for any text shorter than 2^29 bytes: the address is exactly 4 * k *)
Theorem label_address_exact : forall s is labs,
  parse s = Ok (is, labs) -> blen s < 536870912 ->
  forall n, lookup_label labs n = option_map (fun k => 4 * k) (last_def_lines n (lines s)).
Proof.
  intros s is labs H Hlen n. rewrite (label_address _ _ _ H).
  destruct (last_def_lines n (lines s)) as [k|] eqn:E; [|reflexivity]. cbn [option_map]. f_equal.
  apply last_def_lines_spec in E. destruct E as (pre & l & post & E & _ & _ & ->).
  apply wrapS_id; [lia|]. apply int32_bounds.
  pose proof (count_instr_le pre). pose proof (concat_split_le 10 s) as Hc. fold (lines s) in Hc. rewrite E in Hc.
  rewrite List.concat_app in Hc. bl. pose proof (blen_nonneg (List.concat (l :: post))).
  assert (0 <= count_instr pre) by (unfold count_instr; apply blen_nonneg). lia.
Qed.

(* ================================================================== *)
(* 4. the register table                                                *)

Lemma reg_names_string_eq : reg_names = map b reg_names_string.
Proof. reflexivity. Qed.

Lemma lookup_reg_inv names : forall i s r, lookup_reg s names i = Some r ->
  exists k, (k < List.length names)%nat /\ r = i + Z.of_nat k /\ (s = nth k names [] \/ s = 36 :: nth k names []).
Proof.
  induction names as [|n names IH]; intros i s r H; cbn [lookup_reg] in H; [discriminate|].
  destruct (bstr_eqb s n || bstr_eqb s (36 :: n)) eqn:E.
  - injection H as <-. exists O. cbn. split; [lia|]. split; [lia|].
    apply orb_true_iff in E. destruct E as [E|E]; apply bstr_eqb_eq in E; tauto.
  - destruct (IH _ _ _ H) as (k & H1 & H2 & H3). exists (S k). cbn [List.length nth]. split; [lia|]. split; [lia | assumption].
Qed.

(* every accepted name is the canonical name of the register, or '$' followed by it *)
Lemma parse_register_inv s r : parse_register s = Some r ->
  0 <= r < 32 /\ (s = reg_name r \/ s = 36 :: reg_name r).
Proof.
  intros H. apply lookup_reg_inv in H. destruct H as (k & H1 & H2 & H3).
  change (List.length reg_names) with 32%nat in H1. subst r. split; [lia|].
  unfold reg_name. rewrite Z.add_0_l, Nat2Z.id. assumption.
Qed.

Definition clean_no40 (s : bstr) : bool := clean s && negb (existsb (Z.eqb 40) s).

Lemma reg_name_props r : 0 <= r < 32 ->
  parse_register (reg_name r) = Some r /\ parse_register (36 :: reg_name r) = Some r /\
  clean_no40 (reg_name r) = true /\ reg_name r <> [].
Proof.
  intros H. rewrite <- (Z2Nat.id r) by lia. assert (Hk : (Z.to_nat r < 32)%nat) by lia.
  generalize dependent (Z.to_nat r). clear. intros k Hk.
  do 32 (destruct k as [|k]; [vm_compute; repeat split; discriminate|]). lia.
Qed.

Lemma reg_name_injective r1 r2 : 0 <= r1 < 32 -> 0 <= r2 < 32 -> reg_name r1 = reg_name r2 -> r1 = r2.
Proof.
  intros H1 H2 E. destruct (reg_name_props _ H1) as (P1 & _). destruct (reg_name_props _ H2) as (P2 & _).
  rewrite E in P1. congruence.
Qed.

(* Distinct register names decode to distinct numbers: two accepted names with the same
   number are the same name up to the optional '$' prefix; and both forms of every one of
   the 32 names are accepted with the number of its position in RegisterType. *)
Theorem register_table_injective : forall a c r,
  parse_register a = Some r -> parse_register c = Some r ->
  a = c \/ a = 36 :: c \/ c = 36 :: a.
Proof.
  intros a c r Ha Hc. apply parse_register_inv in Ha. apply parse_register_inv in Hc.
  destruct Ha as [_ [-> | ->]], Hc as [_ [-> | ->]]; tauto.
Qed.

Theorem register_table_complete : forall r, 0 <= r < 32 ->
  parse_register (reg_name r) = Some r /\ parse_register (36 :: reg_name r) = Some r.
Proof. intros r H. destruct (reg_name_props r H) as (H1 & H2 & _). split; assumption. Qed.

Theorem register_numbers_distinct : forall a c ra rc,
  parse_register a = Some ra -> parse_register c = Some rc ->
  a <> c -> a <> 36 :: c -> c <> 36 :: a -> ra <> rc.
Proof.
  intros a c ra rc Ha Hc N1 N2 N3 E. subst rc.
  destruct (register_table_injective _ _ _ Ha Hc) as [?|[?|?]]; contradiction.
Qed.

(* ================================================================== *)
(* 5. printing and parsing back                                        *)

(* ---- decimal numbers ---- *)
Definition digit_or_minus (c : Z) : bool := is_digit c || (c =? 45).

Lemma digits_val_app a x y : digits_val a (x ++ y) = match digits_val a x with Some v => digits_val v y | None => None end.
Proof.
  revert a. induction x as [|c x IH]; intros a; cbn [app digits_val]; [reflexivity|].
  destruct (is_digit c); [apply IH | reflexivity].
Qed.

Lemma digit_of_mod n : is_digit (48 + n mod 10) = true.
Proof. unfold is_digit. apply andb_true_iff. rewrite !Z.leb_le. pose proof (Z.mod_pos_bound n 10). lia. Qed.

Lemma digits_single n acc : 0 <= n < 10 ->
  exists ds, (48 + n mod 10) :: acc = ds ++ acc /\ ds <> [] /\ forallb is_digit ds = true /\
             forall a, digits_val a ds = Some (a * 10 ^ blen ds + n).
Proof.
  intros Hn. exists [48 + n mod 10]. pose proof (digit_of_mod n) as Hd. repeat split; try discriminate.
  - cbn [forallb]. rewrite Hd. reflexivity.
  - intros a. cbn [digits_val]. rewrite Hd. f_equal. rewrite Z.mod_small by lia. change (blen [48 + n]) with 1. lia.
Qed.

Lemma digits_fuel_spec f : forall n acc, 0 <= n < 2 ^ Z.of_nat (S f) ->
  exists ds, digits_fuel (S f) n acc = ds ++ acc /\ ds <> [] /\ forallb is_digit ds = true /\
             forall a, digits_val a ds = Some (a * 10 ^ blen ds + n).
Proof.
  induction f as [|f IH]; intros n acc Hn.
  - cbn [digits_fuel]. change (2 ^ Z.of_nat 1) with 2 in Hn.
    replace (n <? 10) with true by (symmetry; apply Z.ltb_lt; lia). apply digits_single. lia.
  - change (digits_fuel (S (S f)) n acc) with
      (if n <? 10 then (48 + n mod 10) :: acc else digits_fuel (S f) (n / 10) ((48 + n mod 10) :: acc)).
    destruct (Z.ltb_spec n 10); [apply digits_single; lia|].
    assert (Hn' : 0 <= n / 10 < 2 ^ Z.of_nat (S f)).
    { split; [apply Z.div_pos; lia|]. rewrite (Nat2Z.inj_succ (S f)), Z.pow_succ_r in Hn by lia.
      apply Z.div_lt_upper_bound; lia. }
    destruct (IH (n / 10) ((48 + n mod 10) :: acc) Hn') as (ds & E & Hne & Hdig & Hval).
    pose proof (digit_of_mod n) as Hd.
    exists (ds ++ [48 + n mod 10]). rewrite E, <- app_assoc. repeat split.
    + destruct ds; discriminate.
    + rewrite forallb_app, Hdig. cbn [forallb]. rewrite Hd. reflexivity.
    + intros a. rewrite digits_val_app, Hval. cbn [digits_val]. rewrite Hd. f_equal. bl.
      rewrite Z.pow_add_r by (pose proof (blen_nonneg ds); lia). change (10 ^ (1 + 0)) with 10.
      pose proof (Z.div_mod n 10). lia.
Qed.

Lemma print_nat_spec n : 0 <= n ->
  print_nat n <> [] /\ forallb is_digit (print_nat n) = true /\ parse_uint (print_nat n) = Some n.
Proof.
  intros Hn. unfold print_nat.
  assert (Hb : 0 <= n < 2 ^ Z.of_nat (S (Z.to_nat (Z.log2 n)))).
  { split; [assumption|]. rewrite Nat2Z.inj_succ, Z2Nat.id by apply Z.log2_nonneg.
    destruct (Z.eq_dec n 0) as [->|]; [reflexivity|]. apply Z.log2_spec. lia. }
  destruct (digits_fuel_spec _ n [] Hb) as (ds & E & Hne & Hd & Hv). rewrite E, app_nil_r.
  repeat split; try assumption. unfold parse_uint. destruct ds; [congruence|]. rewrite Hv. f_equal; lia.
Qed.

Lemma is_digit_props c : is_digit c = true -> clean_byte c = true /\ c <> 43 /\ c <> 45 /\ c <> 40.
Proof.
  unfold is_digit. rewrite andb_true_iff, !Z.leb_le. intros H.
  assert (In c [48;49;50;51;52;53;54;55;56;57]) as Hin by (cbn; lia).
  repeat split; try lia. cbn in Hin. repeat (destruct Hin as [<-|Hin]; [reflexivity|]). contradiction.
Qed.

Lemma digits_clean_no40 ds : forallb is_digit ds = true -> clean_no40 ds = true.
Proof.
  intros Hd. unfold clean_no40, clean. apply andb_true_iff. split.
  - eapply forallb_imp; [|exact Hd]. intros c Hc. apply is_digit_props in Hc. tauto.
  - apply negb_true_iff. destruct (existsb (Z.eqb 40) ds) eqn:E; [|reflexivity].
    apply existsb_exists in E. destruct E as (x & Hin & Hx). apply Z.eqb_eq in Hx. subst x.
    rewrite forallb_forall in Hd. apply Hd, is_digit_props in Hin. lia.
Qed.

Lemma print_int_spec z : -2147483648 <= z <= 2147483647 ->
  parse_int32 (print_int z) = Some z /\ clean_no40 (print_int z) = true /\ print_int z <> [].
Proof.
  intros Hz. unfold print_int.
  assert (Hr : (-2147483648 <=? z) && (z <=? 2147483647) = true) by (apply andb_true_iff; rewrite !Z.leb_le; lia).
  destruct (Z.ltb_spec z 0).
  - destruct (print_nat_spec (- z)) as (Hne & Hd & Hv); [lia|]. repeat split; [| |discriminate].
    + cbn [parse_int32]. change (45 =? 43) with false. change (45 =? 45) with true. cbv iota beta. rewrite Hv.
      replace (- - z) with z by lia. rewrite Hr. reflexivity.
    + unfold clean_no40, clean. cbn [forallb existsb]. change (clean_byte 45) with true. change (40 =? 45) with false.
      exact (digits_clean_no40 _ Hd).
  - destruct (print_nat_spec z) as (Hne & Hd & Hv); [lia|]. repeat split; [|apply digits_clean_no40; exact Hd|assumption].
    destruct (print_nat z) as [|c r] eqn:E; [congruence|]. cbn [parse_int32].
    assert (Hc : is_digit c = true) by (cbn in Hd; apply andb_true_iff in Hd; tauto).
    apply is_digit_props in Hc. destruct Hc as (_ & H43 & H45 & _).
    replace (c =? 43) with false by (symmetry; apply Z.eqb_neq; assumption).
    replace (c =? 45) with false by (symmetry; apply Z.eqb_neq; assumption).
    cbv iota beta. rewrite Hv, Hr. reflexivity.
Qed.

Lemma clean_no40_props s : clean_no40 s = true -> clean s = true /\ ~ In 40 s.
Proof.
  unfold clean_no40. rewrite andb_true_iff, negb_true_iff. intros [H1 H2]. split; [assumption|].
  intros Hin. assert (existsb (Z.eqb 40) s = true); [|congruence]. apply existsb_exists. exists 40. split; [assumption | reflexivity].
Qed.

(* ---- operands ---- *)
Lemma print_oval_clean k v : wf_oval k v -> clean (print_oval v) = true /\ print_oval v <> [].
Proof.
  destruct k, v; cbn [wf_oval print_oval]; try contradiction.
  - intros H. destruct (reg_name_props r H) as (_ & _ & Hc & Hne). apply clean_no40_props in Hc. tauto.
  - intros H. destruct (print_int_spec i H) as (_ & Hc & Hne). apply clean_no40_props in Hc. tauto.
  - intros [H1 H2]. tauto.
  - intros [H1 H2]. destruct (reg_name_props r H2) as (_ & _ & Hc & _). apply clean_no40_props in Hc.
    destruct (print_int_spec off H1) as (_ & Hc2 & _). apply clean_no40_props in Hc2.
    split; [|destruct (print_int off); discriminate].
    apply clean_app. split; [tauto|]. change (40 :: reg_name r ++ [41]) with ([40] ++ reg_name r ++ [41]).
    rewrite !clean_app. repeat split; try tauto; reflexivity.
Qed.

Lemma parse_offset_reg_print off r : -2147483648 <= off <= 2147483647 -> 0 <= r < 32 ->
  parse_offset_reg (print_int off ++ 40 :: reg_name r ++ [41]) = Ok (VMem off r).
Proof.
  intros H1 H2. destruct (print_int_spec off H1) as (Hp & Hc & _). apply clean_no40_props in Hc. destruct Hc as [Hc Hn].
  destruct (reg_name_props r H2) as (Hr & _ & Hrc & _). apply clean_no40_props in Hrc. destruct Hrc as [Hrc _].
  unfold parse_offset_reg. rewrite index_byte_app by assumption.
  pose proof (blen_nonneg (print_int off)).
  replace (blen (print_int off) =? -1) with false by (symmetry; apply Z.eqb_neq; lia).
  replace (print_int off ++ 40 :: reg_name r ++ [41]) with ((print_int off ++ 40 :: reg_name r) ++ [41])
    by (rewrite <- app_assoc; reflexivity).
  rewrite has_suffix_app. cbn [negb].
  rewrite <- app_assoc. cbn [app]. rewrite slice_prefix. cbn [bind].
  rewrite (proj1 (trim_clean _ Hc)), Hp. cbn [opt_err bind].
  rewrite (slice_app3 _ (print_int off ++ [40]) (reg_name r) [41]); [| rewrite <- app_assoc; reflexivity | bl; lia | bl; lia].
  cbn [bind]. rewrite (proj1 (trim_clean _ Hrc)), Hr. reflexivity.
Qed.

(* an operand, possibly after the blank that follows a comma *)
Lemma parse_operand_print k v : wf_oval k v ->
  parse_operand k (print_oval v) = Ok v /\ parse_operand k (32 :: print_oval v) = Ok v.
Proof.
  intros H. destruct (print_oval_clean k v H) as [Hc _]. destruct (trim_clean _ Hc) as [T1 T2].
  unfold parse_operand. rewrite T1, T2. clear T1 T2 Hc.
  destruct k, v; cbn [wf_oval print_oval] in *; try contradiction.
  - destruct (reg_name_props r H) as (-> & _). split; reflexivity.
  - destruct (print_int_spec i H) as (-> & _). split; reflexivity.
  - split; reflexivity.
  - destruct H as [H1 H2]. rewrite parse_offset_reg_print by assumption. split; reflexivity.
Qed.

(* ---- operand lists ---- *)
Definition tail_text (r : list oval) : bstr := List.concat (map (fun w => 44 :: 32 :: print_oval w) r).

Lemma print_args_cons v r : print_args (v :: r) = print_oval v ++ tail_text r.
Proof. reflexivity. Qed.

Lemma split_tail x r : ~ In 44 x -> Forall (fun w => ~ In 44 (print_oval w)) r ->
  split_on 44 (x ++ tail_text r) = x :: map (fun w => 32 :: print_oval w) r.
Proof.
  revert x. induction r as [|w r IH]; intros x Hx Hr; unfold tail_text; cbn [map List.concat].
  - rewrite app_nil_r. apply split_on_none. assumption.
  - inversion Hr; subst. cbn [app]. rewrite split_on_app by assumption. f_equal.
    change (32 :: print_oval w ++ List.concat (map (fun w0 => 44 :: 32 :: print_oval w0) r))
      with ((32 :: print_oval w) ++ tail_text r).
    apply IH; [|assumption]. intros [F|F]; [discriminate | contradiction].
Qed.

Inductive ops_match : list okind -> list bstr -> list oval -> Prop :=
| om_nil : ops_match [] [] []
| om_cons k ks e es v vs : parse_operand k e = Ok v -> ops_match ks es vs -> ops_match (k :: ks) (e :: es) (v :: vs).

Lemma parse_ops_match ks : forall es vs pre, ops_match ks es vs -> parse_ops ks (blen pre) (pre ++ es) = Ok vs.
Proof.
  induction ks as [|k ks IH]; intros es vs pre H; inversion H as [|k' ks' e es' v vs' He Hm]; subst; cbn [parse_ops]; [reflexivity|].
  rewrite at_app. cbn [bind]. rewrite He. cbn [bind].
  replace (blen pre + 1) with (blen (pre ++ [e])) by (bl; lia).
  replace (pre ++ e :: es') with ((pre ++ [e]) ++ es') by (rewrite <- app_assoc; reflexivity).
  rewrite (IH es' vs' (pre ++ [e]) Hm). reflexivity.
Qed.
Lemma ops_match_length ks es vs : ops_match ks es vs -> blen es = blen ks.
Proof. induction 1; bl; lia. Qed.

Lemma ops_match_tail ks r : Forall2 wf_oval ks r -> ops_match ks (map (fun w => 32 :: print_oval w) r) r.
Proof.
  induction 1; cbn [map]; constructor; [|assumption]. apply parse_operand_print. assumption.
Qed.

Lemma wf_no44 ks r : Forall2 wf_oval ks r -> Forall (fun w => ~ In 44 (print_oval w)) r.
Proof.
  induction 1; constructor; [|assumption]. apply print_oval_clean in H. destruct H as [H _].
  apply (clean_not_in _ 44 H). reflexivity.
Qed.

Lemma elements_match ks args : Forall2 wf_oval ks args -> args <> [] ->
  ops_match ks (split_on 44 (print_args args)) args.
Proof.
  intros H Hne. destruct H as [|k v ks r Hv Hr]; [congruence|].
  rewrite print_args_cons, split_tail.
  - constructor; [apply parse_operand_print; assumption | apply ops_match_tail; assumption].
  - apply print_oval_clean in Hv. destruct Hv as [Hv _]. apply (clean_not_in _ 44 Hv). reflexivity.
  - eapply wf_no44; eassumption.
Qed.

(* shape of a printed operand list: ASCII, no '#', no newline, non-space at both ends *)
Definition ops_shape (o : bstr) : Prop := ascii o /\ ~ In 35 o /\ ~ In 10 o /\ nsb o /\ nse o.

Lemma tail_shape x r ks : ascii x -> ~ In 35 x -> ~ In 10 x -> nse x -> Forall2 wf_oval ks r ->
  ascii (x ++ tail_text r) /\ ~ In 35 (x ++ tail_text r) /\ ~ In 10 (x ++ tail_text r) /\ nse (x ++ tail_text r).
Proof.
  intros H1 H2 H3 H4 Hr. revert x H1 H2 H3 H4. induction Hr as [|k w ks r Hw Hr IH]; intros x H1 H2 H3 H4.
  - unfold tail_text. cbn. rewrite app_nil_r. tauto.
  - unfold tail_text. cbn [map List.concat]. fold (tail_text r).
    replace (x ++ (44 :: 32 :: print_oval w) ++ tail_text r) with ((x ++ 44 :: 32 :: print_oval w) ++ tail_text r)
      by (rewrite <- app_assoc; reflexivity).
    destruct (print_oval_clean _ _ Hw) as [Hc Hne].
    apply IH.
    + apply ascii_app. split; [assumption|]. apply ascii_cons. split; [reflexivity|]. apply ascii_cons. split; [reflexivity|].
      apply clean_ascii; assumption.
    + intros Hin. apply in_app_or in Hin. destruct Hin as [?|[F|[F|F]]]; try contradiction; try discriminate.
      revert F. apply (clean_not_in _ 35 Hc). reflexivity.
    + intros Hin. apply in_app_or in Hin. destruct Hin as [?|[F|[F|F]]]; try contradiction; try discriminate.
      revert F. apply (clean_not_in _ 10 Hc). reflexivity.
    + change (44 :: 32 :: print_oval w) with ([44; 32] ++ print_oval w). rewrite app_assoc. apply nse_app, nse_clean; assumption.
Qed.

Lemma print_args_shape ks args : Forall2 wf_oval ks args -> args <> [] -> ops_shape (print_args args).
Proof.
  intros H Hne. destruct H as [|k v ks r Hv Hr]; [congruence|]. rewrite print_args_cons.
  destruct (print_oval_clean _ _ Hv) as [Hc Hn].
  destruct (tail_shape (print_oval v) r ks) as (A & B & C & D); try assumption.
  - apply clean_ascii; assumption.
  - apply (clean_not_in _ 35 Hc). reflexivity.
  - apply (clean_not_in _ 10 Hc). reflexivity.
  - apply nse_clean; assumption.
  - repeat split; try assumption. apply nsb_app, nsb_clean; assumption.
Qed.

(* ---- mnemonics ---- *)
Definition lower_letter (c : Z) : bool := (97 <=? c) && (c <=? 122).
Definition letter (c : Z) : bool := lower_letter c || ((65 <=? c) && (c <=? 90)).

Lemma mnem_name_string m : mnem_name m = b (mnem_string m).
Proof. destruct m; reflexivity. Qed.
Lemma mnem_name_lower m : forallb lower_letter (mnem_name m) = true /\ mnem_name m <> [].
Proof. destruct m; split; (reflexivity || discriminate). Qed.
Lemma find_mnem_name m : find_mnem (mnem_name m) = Some m.
Proof. destruct m; reflexivity. Qed.

Lemma letter_props c : letter c = true -> clean_byte c = true /\ c <> 58 /\ is_ascii c = true.
Proof.
  unfold letter, lower_letter. intros H. apply orb_true_iff in H. rewrite !andb_true_iff, !Z.leb_le in H.
  assert (H65 : 65 <= c <= 122) by lia. clear H.
  split; [|split].
  - unfold clean_byte, is_ascii, is_space.
    rewrite !andb_true_iff, !negb_true_iff, !orb_false_iff, !Z.eqb_neq, Z.ltb_lt. lia.
  - lia.
  - apply Z.ltb_lt. lia.
Qed.

Lemma apply_case_spec n : forallb lower_letter n = true -> forall mask,
  forallb letter (apply_case mask n) = true /\ map lower_byte (apply_case mask n) = n /\
  blen (apply_case mask n) = blen n.
Proof.
  induction n as [|c n IH]; intros H mask; cbn [apply_case]; [repeat split; reflexivity|].
  cbn [forallb] in H. apply andb_true_iff in H. destruct H as [Hc Hn].
  destruct (IH Hn (tl mask)) as (A & B & C). cbn [forallb map]. rewrite A, B. bl. rewrite C.
  unfold lower_letter in Hc. apply andb_true_iff in Hc. rewrite !Z.leb_le in Hc.
  repeat split; try lia.
  - rewrite andb_true_r. unfold letter, lower_letter. destruct (hd false mask).
    + apply orb_true_iff. right. apply andb_true_iff. rewrite !Z.leb_le. lia.
    + apply orb_true_iff. left. apply andb_true_iff. rewrite !Z.leb_le. lia.
  - f_equal. unfold lower_byte. destruct (hd false mask).
    + replace ((65 <=? c - 32) && (c - 32 <=? 90)) with true; [lia|]. symmetry. apply andb_true_iff. rewrite !Z.leb_le. lia.
    + replace ((65 <=? c) && (c <=? 90)) with false; [reflexivity|]. symmetry. apply andb_false_iff. rewrite !Z.leb_gt. lia.
Qed.

(* what is needed of a (possibly upper-cased) mnemonic *)
Lemma cased_name m mask : let N := apply_case mask (mnem_name m) in
  to_lower N = mnem_name m /\ clean N = true /\ N <> [] /\ ~ In 58 N /\ ~ In 32 N /\ ~ In 35 N /\ ~ In 10 N.
Proof.
  intros N. destruct (mnem_name_lower m) as [Hl Hne]. destruct (apply_case_spec _ Hl mask) as (A & B & C). fold N in A, B, C.
  assert (Hc : clean N = true).
  { eapply forallb_imp; [|exact A]. intros c Hc. apply letter_props in Hc. tauto. }
  repeat split.
  - unfold to_lower. pose proof (clean_ascii _ Hc) as Ha. unfold ascii in Ha. rewrite Ha. assumption.
  - assumption.
  - intros E. rewrite E in C. destruct (mnem_name m) as [|c0 t0]; [congruence|]. bl. pose proof (blen_nonneg t0). lia.
  - intros Hin. rewrite forallb_forall in A. apply A, letter_props in Hin. lia.
  - apply (clean_not_in _ 32 Hc). reflexivity.
  - apply (clean_not_in _ 35 Hc). reflexivity.
  - apply (clean_not_in _ 10 Hc). reflexivity.
Qed.

(* ---- the switch ---- *)
Lemma dispatch_print m mask args els : wf_instr (PI m args) ->
  (args <> [] -> els = split_on 44 (print_args args)) ->
  dispatch (apply_case mask (mnem_name m)) els = Ok (LInstr (PI m args)).
Proof.
  intros Hwf Hels. unfold dispatch. destruct (cased_name m mask) as (-> & _). rewrite find_mnem_name.
  cbn [wf_instr] in Hwf. destruct (mnem_sig m) as [ks|] eqn:Es.
  - assert (Hne : args <> []) by (intros ->; inversion Hwf; subst; destruct m; discriminate).
    rewrite (Hels Hne). pose proof (elements_match ks args Hwf Hne) as Hm.
    rewrite (ops_match_length _ _ _ Hm), Z.eqb_refl.
    pose proof (parse_ops_match ks _ _ [] Hm) as Hp. cbn [app] in Hp. change (blen []) with 0 in Hp. rewrite Hp. reflexivity.
  - subst args. reflexivity.
Qed.

(* ---- comment stripping ---- *)
Lemma strip_comment_none r : ~ In 35 r -> strip_comment r = Ok r.
Proof. intros H. unfold strip_comment. rewrite index_byte_none by assumption. reflexivity. Qed.
Lemma strip_comment_at a t : ~ In 35 a -> strip_comment (a ++ 35 :: t) = Ok (trim_space a).
Proof.
  intros H. unfold strip_comment. rewrite index_byte_app by assumption.
  replace (blen a =? -1) with false by (symmetry; apply Z.eqb_neq; pose proof (blen_nonneg a); lia).
  rewrite slice_prefix. reflexivity.
Qed.

(* ---- the loop body on the three kinds of lines, comment already cut ---- *)
Lemma body_nonempty (line : bstr) c t : line = c :: t -> (blen line =? 0) = false.
Proof. intros ->. apply Z.eqb_neq. bl. pose proof (blen_nonneg t). lia. Qed.

Lemma parse_tail_label n : wf_label n -> parse_tail (n ++ [58]) = Ok (LLabel n).
Proof.
  intros [Hne Hc]. unfold parse_tail.
  replace (blen (n ++ [58]) - 1) with (blen n) by (bl; lia).
  rewrite at_app. cbn [bind].
  rewrite index_byte_none.
  - rewrite Z.eqb_refl. cbn [andb]. rewrite slice_prefix. reflexivity.
  - intros Hin. apply in_app_or in Hin. destruct Hin as [Hin|[F|F]]; [|discriminate|contradiction].
    revert Hin. apply (clean_not_in _ 32 Hc). reflexivity.
Qed.

(* a line "MNEMONIC" *)
Lemma parse_tail_bare m mask : mnem_sig m = None ->
  parse_tail (apply_case mask (mnem_name m)) = Ok (LInstr (PI m [])).
Proof.
  intros Hs. destruct (cased_name m mask) as (Hl & Hc & Hne & H58 & H32 & H35 & _).
  set (N := apply_case mask (mnem_name m)) in *. unfold parse_tail.
  rewrite (at_last N 0) by assumption. cbn [bind].
  rewrite index_byte_none by assumption. rewrite Z.eqb_refl. cbn [andb].
  replace (last N 0 =? 58) with false.
  2:{ symmetry. apply Z.eqb_neq. intros E. apply H58. rewrite <- E.
      rewrite (app_removelast_last 0 Hne) at 2. apply in_or_app. right. left. reflexivity. }
  change (-1 + 1) with 0. rewrite slice_all. cbn [bind]. rewrite strip_comment_none by assumption. cbn [bind].
  subst N. apply dispatch_print; [cbn; rewrite Hs; reflexivity | congruence].
Qed.

(* a line "MNEMONIC rest" *)
Lemma parse_tail_sp m mask R : let N := apply_case mask (mnem_name m) in
  parse_tail (N ++ 32 :: R) = (rem <- strip_comment R ;; dispatch N (split_on 44 rem)).
Proof.
  intros N. destruct (cased_name m mask) as (Hl & Hc & Hne & H58 & H32 & H35 & _). fold N in Hl, Hc, Hne, H58, H32, H35.
  unfold parse_tail. set (line := N ++ 32 :: R).
  destruct (at_ok line (blen line - 1)) as (x & -> & _); [unfold line; bl; pose proof (blen_nonneg N); pose proof (blen_nonneg R); lia|].
  cbn [bind]. unfold line. rewrite index_byte_app by assumption.
  replace (blen N =? -1) with false by (symmetry; apply Z.eqb_neq; pose proof (blen_nonneg N); lia).
  cbn [andb].
  rewrite (slice_app3 _ (N ++ [32]) R []); [| rewrite app_nil_r, <- app_assoc; reflexivity | bl; lia | bl; lia].
  cbn [bind]. destruct (strip_comment R) as [rem| |]; cbn [bind]; try reflexivity.
  rewrite slice_prefix. reflexivity.
Qed.

(* the text of an instruction *)
Lemma parse_tail_instr i mask : wf_instr i -> parse_tail (instr_text mask i) = Ok (LInstr i).
Proof.
  destruct i as [m args]. intros Hwf. cbn [instr_text].
  destruct args as [|v r].
  - assert (Hs : mnem_sig m = None).
    { cbn [wf_instr] in Hwf. destruct (mnem_sig m) eqn:Es; [|reflexivity]. inversion Hwf; subst. destruct m; discriminate. }
    rewrite app_nil_r. apply parse_tail_bare. assumption.
  - assert (Hshape : ops_shape (print_args (v :: r))).
    { cbn [wf_instr] in Hwf. destruct (mnem_sig m) eqn:Es; [|discriminate]. eapply print_args_shape; [eassumption | discriminate]. }
    rewrite parse_tail_sp. destruct Hshape as (_ & H35 & _).
    rewrite strip_comment_none by assumption. cbn [bind]. apply dispatch_print; [assumption | reflexivity].
Qed.

(* a trimmed line X followed by an optional comment: the comment is cut before the line is classified *)
Lemma parse_body_cut X c : ascii X -> nsb X -> nse X -> ~ In 35 X ->
  match c with None => True | Some (gap, _) => spaces gap end ->
  parse_body (X ++ cmt_text c) = parse_tail X.
Proof.
  intros Ha Hb He H35 Hc. pose proof Hb as (x0 & X' & EX & _). unfold parse_body.
  rewrite (body_nonempty _ x0 (X' ++ cmt_text c)) by (rewrite EX; reflexivity).
  rewrite EX at 1. cbn [app]. rewrite at_head. cbn [bind].
  replace (x0 =? 35) with false by (symmetry; apply Z.eqb_neq; intros ->; apply H35; rewrite EX; left; reflexivity).
  destruct c as [[gap t]|]; cbn [cmt_text].
  - rewrite app_assoc. rewrite strip_comment_at.
    + cbn [bind]. pose proof (trim_pad [] X gap eq_refl Hc Hb Ha) as T. cbn [app] in T. rewrite T, rtrim_nse by assumption. reflexivity.
    + intros Hin. apply in_app_or in Hin. destruct Hin as [?|Hin]; [contradiction|].
      unfold spaces in Hc. rewrite forallb_forall in Hc. apply Hc in Hin. discriminate.
  - rewrite app_nil_r, strip_comment_none by assumption. reflexivity.
Qed.

(* ---- whole source lines ---- *)
Lemma comment_bytes_ascii t : forallb comment_byte t = true -> ascii t /\ ~ In 10 t.
Proof.
  intros H. split.
  - eapply forallb_imp; [|exact H]. intros c Hc. unfold comment_byte in Hc. apply andb_true_iff in Hc. tauto.
  - intros Hin. rewrite forallb_forall in H. apply H in Hin. discriminate.
Qed.
Lemma hspaces_no_nl ws : forallb is_hspace ws = true -> ~ In 10 ws.
Proof. intros H Hin. rewrite forallb_forall in H. apply H in Hin. discriminate. Qed.

Lemma parse_line_junk j : wf_junk j -> parse_line (junk_line j) = Ok LSkip.
Proof.
  destruct j as [ws|ws t]; cbn [wf_junk junk_line]; unfold parse_line.
  - intros H. rewrite trim_spaces by (apply hspaces_spaces; assumption). reflexivity.
  - intros [H1 H2]. apply comment_bytes_ascii in H2. destruct H2 as [H2 _].
    pose proof (trim_pad ws (35 :: t) [] (hspaces_spaces _ H1) eq_refl) as T. rewrite app_nil_r in T.
    rewrite T; [|exists 35, t; split; reflexivity | apply ascii_cons; split; [reflexivity | assumption]].
    pose proof (rtrim_app [] 35 t eq_refl) as R. cbn [app] in R. rewrite R. unfold parse_body.
    rewrite (body_nonempty _ 35 (rtrim t) eq_refl). rewrite at_head. reflexivity.
Qed.

Lemma instr_text_shape mask i : wf_instr i ->
  ascii (instr_text mask i) /\ nsb (instr_text mask i) /\ nse (instr_text mask i) /\
  ~ In 10 (instr_text mask i) /\ ~ In 35 (instr_text mask i).
Proof.
  destruct i as [m args]. intros Hwf. cbn [instr_text].
  destruct (cased_name m mask) as (_ & Hc & Hne & _ & _ & H35 & H10).
  set (N := apply_case mask (mnem_name m)) in *.
  destruct args as [|v r].
  - rewrite app_nil_r. repeat split; [apply clean_ascii | apply nsb_clean | apply nse_clean | | ]; assumption.
  - cbn [wf_instr] in Hwf. destruct (mnem_sig m) eqn:Es; [|discriminate].
    destruct (print_args_shape _ _ Hwf) as (A & B & C & _ & E); [discriminate|].
    repeat split.
    + apply ascii_app. split; [apply clean_ascii; assumption|]. apply ascii_cons. split; [reflexivity | assumption].
    + apply nsb_app, nsb_clean; assumption.
    + apply nse_app. change (32 :: print_args (v :: r)) with ([32] ++ print_args (v :: r)). apply nse_app. assumption.
    + intros Hin. apply in_app_or in Hin. destruct Hin as [?|[F|?]]; [contradiction | discriminate | contradiction].
    + intros Hin. apply in_app_or in Hin. destruct Hin as [?|[F|?]]; [contradiction | discriminate | contradiction].
Qed.

Lemma parse_line_item d it : wf_item it -> wf_ideco d ->
  parse_line (deco_item d it) = Ok (match it with ILabel n => LLabel n | IInstr i => LInstr i end).
Proof.
  intros Hit (_ & Hl & Ht & Hc). apply hspaces_spaces in Hl, Ht. unfold parse_line.
  (* the item text X, and what parse_tail makes of it *)
  set (X := match it with ILabel n => n ++ [58] | IInstr i => instr_text (d_upper d) i end).
  assert (HX : ascii X /\ nsb X /\ nse X /\ ~ In 35 X /\
               parse_tail X = Ok (match it with ILabel n => LLabel n | IInstr i => LInstr i end)).
  { destruct it as [n|i]; cbn [wf_item] in Hit; unfold X.
    - destruct Hit as [Hne Hcl]. repeat split.
      + apply ascii_app. split; [apply clean_ascii; assumption | reflexivity].
      + apply nsb_app, nsb_clean; assumption.
      + exists n, 58. split; reflexivity.
      + intros Hin. apply in_app_or in Hin. destruct Hin as [Hin|[F|F]]; [|discriminate|contradiction].
        revert Hin. apply (clean_not_in _ 35 Hcl). reflexivity.
      + apply parse_tail_label. split; assumption.
    - destruct (instr_text_shape (d_upper d) i Hit) as (A & B & E & _ & H35). repeat split; try assumption.
      apply parse_tail_instr. assumption. }
  destruct HX as (A & B & E & H35 & HP).
  replace (deco_item d it) with (d_lead d ++ (X ++ cmt_text (d_comment d)) ++ d_trail d) by (destruct it; reflexivity).
  destruct (d_comment d) as [[gap t]|].
  - destruct Hc as [Hg Htx]. apply hspaces_spaces in Hg. apply comment_bytes_ascii in Htx.
    rewrite trim_pad; try assumption.
    + cbn [cmt_text]. rewrite app_assoc, rtrim_app by reflexivity. rewrite <- app_assoc.
      rewrite <- HP. apply (parse_body_cut X (Some (gap, rtrim t))); assumption.
    + apply nsb_app. assumption.
    + apply ascii_app. split; [assumption|]. cbn [cmt_text]. apply ascii_app. split; [apply spaces_ascii; assumption|].
      apply ascii_cons. split; [reflexivity | tauto].
  - cbn [cmt_text]. rewrite app_nil_r. rewrite trim_pad, rtrim_nse by assumption.
    rewrite <- HP. pose proof (parse_body_cut X None A B E H35 I) as P. cbn [cmt_text] in P. rewrite app_nil_r in P. exact P.
Qed.

Lemma junk_no_nl j : wf_junk j -> ~ In 10 (junk_line j).
Proof.
  destruct j as [ws|ws t]; cbn [wf_junk junk_line].
  - apply hspaces_no_nl.
  - intros [H1 H2] Hin. apply in_app_or in Hin. destruct Hin as [Hin|[F|Hin]]; [|discriminate|].
    + revert Hin. apply hspaces_no_nl. assumption.
    + apply comment_bytes_ascii in H2. tauto.
Qed.
Lemma cmt_no_nl c : match c with None => True | Some (gap, t) => forallb is_hspace gap = true /\ forallb comment_byte t = true end ->
  ~ In 10 (cmt_text c).
Proof.
  destruct c as [[gap t]|]; cbn [cmt_text]; [|intros _ F; exact F].
  intros [H1 H2] Hin. apply in_app_or in Hin. destruct Hin as [Hin|[F|Hin]]; [|discriminate|].
  - revert Hin. apply hspaces_no_nl. assumption.
  - apply comment_bytes_ascii in H2. tauto.
Qed.
Lemma item_no_nl d it : wf_item it -> wf_ideco d -> ~ In 10 (deco_item d it).
Proof.
  intros Hit (_ & Hl & Ht & Hc) Hin. apply hspaces_no_nl in Hl, Ht. apply cmt_no_nl in Hc.
  destruct it as [n|i]; cbn [deco_item wf_item] in *.
  - destruct Hit as [_ Hcl]. repeat (apply in_app_or in Hin; destruct Hin as [Hin|Hin]); try contradiction.
    + revert Hin. apply (clean_not_in _ 10 Hcl). reflexivity.
    + destruct Hin as [F|F]; [discriminate | contradiction].
  - destruct (instr_text_shape (d_upper d) i Hit) as (_ & _ & _ & H10 & _).
    repeat (apply in_app_or in Hin; destruct Hin as [Hin|Hin]); contradiction.
Qed.

(* ---- sequences of lines ---- *)
Lemma parse_lines_junk js : forall rest ins labs pc, Forall wf_junk js ->
  parse_lines (map junk_line js ++ rest) ins labs pc = parse_lines rest ins labs pc.
Proof.
  induction js as [|j js IH]; intros rest ins labs pc H; [reflexivity|]. inversion H; subst.
  cbn [map app parse_lines]. rewrite parse_line_junk by assumption. cbn [bind]. apply IH. assumption.
Qed.

Lemma wf_hd ds : Forall wf_ideco ds -> wf_ideco (hd no_deco ds) /\ Forall wf_ideco (tl ds).
Proof.
  destruct ds; cbn [hd tl].
  - intros _. split; [|constructor]. repeat split; constructor.
  - intros H. inversion H; subst. tauto.
Qed.

Lemma parse_deco_lines p : forall ds tail ins labs pc,
  wf_program p -> Forall wf_ideco ds -> Forall wf_junk tail ->
  parse_lines (deco_lines ds p ++ map junk_line tail) ins labs pc = Ok (assemble_from p ins labs pc).
Proof.
  induction p as [|it r IH]; intros ds tail ins labs pc Hp Hds Htail; cbn [deco_lines assemble_from].
  - cbn [app]. rewrite <- (app_nil_r (map junk_line tail)), parse_lines_junk by assumption. reflexivity.
  - inversion Hp; subst. destruct (wf_hd ds Hds) as [Hd Htl]. pose proof Hd as (Hb & _).
    rewrite <- app_assoc, parse_lines_junk by assumption.
    cbn [app parse_lines]. rewrite parse_line_item by assumption. cbn [bind].
    destruct it; apply IH; assumption.
Qed.

Lemma split_join L : L <> [] -> Forall (fun l => ~ In 10 l) L -> split_on 10 (join_lines L) = L.
Proof.
  induction L as [|l r IH]; intros Hne H; [congruence|]. inversion H; subst.
  destruct r as [|l2 r].
  - cbn [join_lines]. apply split_on_none. assumption.
  - change (join_lines (l :: l2 :: r)) with (l ++ 10 :: join_lines (l2 :: r)).
    rewrite split_on_app by assumption. f_equal. apply IH; [discriminate | assumption].
Qed.

Lemma deco_lines_no_nl p : forall ds, wf_program p -> Forall wf_ideco ds ->
  Forall (fun l => ~ In 10 l) (deco_lines ds p).
Proof.
  induction p as [|it r IH]; intros ds Hp Hds; cbn [deco_lines]; [constructor|].
  inversion Hp; subst. destruct (wf_hd ds Hds) as [Hd Htl]. pose proof Hd as (Hb & _).
  apply Forall_app. split.
  - clear - Hb. induction Hb; cbn [map]; constructor; [apply junk_no_nl; assumption | assumption].
  - constructor; [apply item_no_nl; assumption | apply IH; assumption].
Qed.

(* ================================================================== *)
(* 6. the theorems                                                      *)

(* Any decoration of any well-formed program is parsed to what the reference assembler
   makes of the program. *)
Theorem parse_decorated : forall p ds tail,
  wf_program p -> Forall wf_ideco ds -> Forall wf_junk tail ->
  parse (decorate ds tail p) = Ok (assemble p).
Proof.
  intros p ds tail Hp Hds Htail. unfold parse, decorate, assemble.
  destruct (deco_lines ds p ++ map junk_line tail) as [|l0 L] eqn:E.
  - apply app_eq_nil in E. destruct E as [E1 E2]. destruct p as [|it r].
    + reflexivity.
    + cbn [deco_lines] in E1. apply app_eq_nil in E1. destruct E1 as [_ F]. discriminate.
  - rewrite split_join.
    + rewrite <- E. apply parse_deco_lines; assumption.
    + discriminate.
    + rewrite <- E. apply Forall_app. split; [apply deco_lines_no_nl; assumption|].
      clear - Htail. induction Htail; cbn [map]; constructor; [apply junk_no_nl; assumption | assumption].
Qed.

Lemma print_is_decorate p : print p = decorate [] [] p.
Proof.
  unfold print, decorate. rewrite app_nil_r. f_equal.
  induction p as [|it r IH]; cbn [map deco_lines hd tl d_before app]; [reflexivity|]. rewrite <- IH. f_equal.
  destruct it; cbn [deco_item print_item no_deco d_lead d_trail d_upper d_comment app]; rewrite ?app_nil_r; reflexivity.
Qed.

(* Operands are decoded to the named registers and decimal immediates: the canonical text
   of every well-formed program (register numbers < 32, int32 immediates and offsets, label
   names non-empty ASCII words without white space, ',' and '#') is parsed back to exactly
   that program. *)
Theorem roundtrip : forall p, wf_program p -> parse (print p) = Ok (assemble p).
Proof. intros p Hp. rewrite print_is_decorate. apply parse_decorated; [assumption | constructor | constructor]. Qed.

(* Blank lines, comment lines, indentation, trailing white space, a trailing " #comment" on
   instruction lines and the case of mnemonic letters do not change the result. *)
Theorem decoration_invariant : forall p ds tail,
  wf_program p -> Forall wf_ideco ds -> Forall wf_junk tail ->
  parse (decorate ds tail p) = parse (print p).
Proof. intros. rewrite roundtrip, parse_decorated by assumption. reflexivity. Qed.

(* what the reference assembler computes *)
Lemma assemble_from_spec p : forall ins labs pc, int32 pc ->
  fst (assemble_from p ins labs pc) = ins ++ instrs_of p /\
  forall n, lookup_label (snd (assemble_from p ins labs pc)) n =
            match last_def n p with
            | Some k => Some (wrapS 32 (pc + 4 * k))
            | None => lookup_label labs n
            end.
Proof.
  induction p as [|it r IH]; intros ins labs pc Hpc; cbn [assemble_from instrs_of last_def].
  - cbn [fst snd]. rewrite app_nil_r. split; reflexivity.
  - destruct it as [m|i].
    + destruct (IH ins (set_label m pc labs) pc Hpc) as [H1 H2]. split; [exact H1|].
      intros n. rewrite H2. destruct (last_def n r); [f_equal; f_equal; lia|].
      rewrite set_label_lookup. destruct (bstr_eqb m n); [|reflexivity].
      f_equal. rewrite Z.add_0_r. symmetry. apply wrapS_id; [lia | assumption].
    + assert (Hpc' : int32 (addS 32 pc 4)) by (apply wrapS_range; lia).
      destruct (IH (ins ++ [i]) labs _ Hpc') as [H1 H2]. split.
      * rewrite H1, <- app_assoc. reflexivity.
      * intros n. rewrite H2. destruct (last_def n r); [|reflexivity]. f_equal. apply wrap_step.
Qed.

Theorem assemble_instrs : forall p, fst (assemble p) = instrs_of p.
Proof. intros p. destruct (assemble_from_spec p [] [] 0) as [H _]; [vm_compute; split; congruence | exact H]. Qed.

Theorem assemble_labels : forall p n,
  lookup_label (snd (assemble p)) n = option_map (fun k => wrapS 32 (4 * k)) (last_def n p).
Proof.
  intros p n. destruct (assemble_from_spec p [] [] 0) as [_ H]; [vm_compute; split; congruence|].
  unfold assemble. rewrite H. destruct (last_def n p); reflexivity.
Qed.

(* ================================================================== *)
(* 7. the hypotheses are satisfiable; what is false of the code        *)

Definition ex_program : program :=
  [ ILabel (b "main"); IInstr (PI Maddi [VReg 5; VReg 0; VImm (-2147483648)]);
    IInstr (PI Mlw [VReg 10; VMem (-8) 2]); ILabel (b "loop"); ILabel (b ".L1");
    IInstr (PI Msh [VReg 6; VImm 4; VReg 27]); IInstr (PI Mbltu [VReg 31; VReg 9; VLab (b "loop")]);
    IInstr (PI Mjal [VReg 1; VLab (b "main")]); IInstr (PI Mnop []); ILabel (b "loop"); IInstr (PI Mret []) ].

Lemma wf_label_dec n : n <> [] -> clean n = true -> wf_label n.
Proof. split; assumption. Qed.

Example ex_program_wf : wf_program ex_program.
Proof.
  unfold ex_program, wf_program.
  repeat (constructor; [cbn [wf_item wf_instr mnem_sig wf_oval];
    first [ apply wf_label_dec; [discriminate | reflexivity]
          | reflexivity
          | repeat (constructor; cbn [wf_oval]; try lia; try (apply wf_label_dec; [discriminate | reflexivity])) ] |]).
  constructor.
Qed.

Example ex_program_text : print ex_program =
  b ("main:" ++ String "010" "addi t0, zero, -2147483648" ++ String "010" "lw a0, -8(sp)" ++ String "010" "loop:" ++ String "010"
     ".L1:" ++ String "010" "sh t1, 4, s11" ++ String "010" "bltu t6, s1, loop" ++ String "010" "jal ra, main" ++ String "010"
     "nop" ++ String "010" "loop:" ++ String "010" "ret")%string.
Proof. vm_compute. reflexivity. Qed.

Example ex_program_parsed :
  parse (print ex_program) =
  Ok ([PI Maddi [VReg 5; VReg 0; VImm (-2147483648)]; PI Mlw [VReg 10; VMem (-8) 2]; PI Msh [VReg 6; VImm 4; VReg 27];
       PI Mbltu [VReg 31; VReg 9; VLab (b "loop")]; PI Mjal [VReg 1; VLab (b "main")]; PI Mnop []; PI Mret []],
      [(b "main", 0); (b "loop", 24); (b ".L1", 8)]).
Proof. vm_compute. reflexivity. Qed.

Definition ex_decos : list ideco :=
  [ mk_ideco [JComment [32; 32] (b "entry point"); JBlank []] [] [32; 9] [] (Some ([32], b " the label"));
    mk_ideco [] [9] [] [true; false; true; true] (Some ([32], b " INT_MIN # twice"));
    mk_ideco [JBlank [9; 32]] [32; 32; 32; 32] [13] [true; true] (Some ([], b "glued to the operand"));
    mk_ideco [] [] [] [] (Some ([], b "glued to the colon:"));
    no_deco; no_deco; no_deco; no_deco;
    mk_ideco [] [] [32] [false; true] (Some ([], b "glued to the mnemonic:"));
    no_deco;
    mk_ideco [] [] [] [] (Some ([9; 32], [])) ].
Definition ex_tail : list junk := [JBlank []; JComment [] (b "end"); JBlank [32]].

Example ex_deco_wf : Forall wf_ideco ex_decos /\ Forall wf_junk ex_tail.
Proof. split; repeat constructor. Qed.

Example ex_decorated_differs : decorate ex_decos ex_tail ex_program <> print ex_program.
Proof. vm_compute. discriminate. Qed.

Example ex_decorated_text : decorate ex_decos ex_tail ex_program =
  b ("  #entry point" ++ String "010" "" ++ String "010" "main: # the label " ++ String "009" "" ++ String "010" "" ++
     String "009" "AdDI t0, zero, -2147483648 # INT_MIN # twice" ++ String "010" "" ++ String "009" " " ++ String "010"
     "    LW a0, -8(sp)#glued to the operand" ++ String "013" "" ++ String "010" "loop:#glued to the colon:" ++ String "010"
     ".L1:" ++ String "010" "sh t1, 4, s11" ++ String "010" "bltu t6, s1, loop" ++ String "010" "jal ra, main" ++ String "010"
     "nOp#glued to the mnemonic: " ++ String "010" "loop:" ++ String "010" "ret" ++ String "009" " #" ++ String "010" "" ++ String "010"
     "#end" ++ String "010" " ")%string.
Proof. vm_compute. reflexivity. Qed.

Example ex_decorated_parsed : parse (decorate ex_decos ex_tail ex_program) = parse (print ex_program).
Proof. vm_compute. reflexivity. Qed.

Example ex_count : count_instr (lines (print ex_program)) = 7 /\ last_def_lines (b "loop") (lines (print ex_program)) = Some 6.
Proof. vm_compute. split; reflexivity. Qed.

(* ---- comments directly after a label definition or a mnemonic (repaired: the comment is
   cut before the line is classified); instances of decoration_invariant, pinned ---- *)
Theorem label_trailing_comment :
  parse (b "foo: # c") = Ok ([], [(b "foo", 0)]) /\ parse (b "foo:#c") = parse (b "foo:").
Proof. vm_compute. split; reflexivity. Qed.

Theorem attached_comment :
  parse (b "ret#done") = Ok ([PI Mret []], []) /\ parse (b "ret #done") = Ok ([PI Mret []], []) /\
  parse (b "ret" ++ 9 :: b "#done") = Ok ([PI Mret []], []) /\
  parse (b "add t0, t1, t2#done") = Ok ([PI Madd [VReg 5; VReg 6; VReg 7]], []).
Proof. vm_compute. repeat split; reflexivity. Qed.

Theorem attached_comment_is_not_a_label :
  parse (b "nop#x:") = Ok ([PI Mnop []], []).
Proof. vm_compute. reflexivity. Qed.

(* ---- refutations: what is false of the code ---- *)

(* a TAB between mnemonic and operands is not a separator (strings.Index(line, " ")) *)
Theorem tab_separator_refuted :
  parse (b "add t0,t1,t2") = Ok ([PI Madd [VReg 5; VReg 6; VReg 7]], []) /\
  parse (b "add" ++ 9 :: b "t0,t1,t2") = Err EOther.
Proof. vm_compute. split; reflexivity. Qed.

(* a label cannot contain a space *)
Theorem label_with_space_refuted : parse (b "my label:") = Err EOther.
Proof. vm_compute. reflexivity. Qed.

(* nop and ret do not look at their operands: anything after them is accepted *)
Theorem nop_ret_operands_unchecked_refuted :
  parse (b "nop t0, 5, x") = Ok ([PI Mnop []], []) /\ parse (b "ret 1,2,3,4") = Ok ([PI Mret []], []).
Proof. vm_compute. split; reflexivity. Qed.

(* sh only has the three-operand form; the offset(base) form of sb/sw is rejected for it *)
Theorem sh_syntax_refuted :
  parse (b "sh t0, 4(t1)") = Err EOther /\
  parse (b "sh t0, 4, t1") = Ok ([PI Msh [VReg 5; VImm 4; VReg 6]], []) /\
  parse (b "sb t0, 4(t1)") = Ok ([PI Msb [VReg 5; VMem 4 6]], []).
Proof. vm_compute. repeat split; reflexivity. Qed.

(* facts worth pinning *)
Example duplicate_label_last_wins :
  parse (b "a:" ++ 10 :: b "nop" ++ 10 :: b "a:") = Ok ([PI Mnop []], [(b "a", 4)]).
Proof. vm_compute. reflexivity. Qed.
Example unclosed_parenthesis_is_an_error : parse (b "lw t0, 4(") = Err EOther.
Proof. vm_compute. reflexivity. Qed.
Example immediates :
  parse (b "li t0, 2147483647") = Ok ([PI Mli [VReg 5; VImm 2147483647]], []) /\
  parse (b "li t0, 2147483648") = Err EOther /\
  parse (b "li t0, -2147483648") = Ok ([PI Mli [VReg 5; VImm (-2147483648)]], []) /\
  parse (b "li t0, -2147483649") = Err EOther /\
  parse (b "li t0, 99999999999999999999") = Err EOther /\
  parse (b "li t0, +5") = Ok ([PI Mli [VReg 5; VImm 5]], []) /\
  parse (b "li t0, 007") = Ok ([PI Mli [VReg 5; VImm 7]], []) /\
  parse (b "li t0, 0x10") = Err EOther /\ parse (b "li t0, 1_0") = Err EOther /\ parse (b "li t0, ") = Err EOther.
Proof. vm_compute. repeat split; reflexivity. Qed.
Example dollar_registers_and_case :
  parse (b "ADD $t0, $zero, $s11") = Ok ([PI Madd [VReg 5; VReg 0; VReg 27]], []) /\
  parse (b "add T0, zero, s11") = Err EOther.
Proof. vm_compute. split; reflexivity. Qed.
(* outside the ASCII domain: strings.ToLower maps U+0130 (c4 b0) to 'i' *)
Example dotted_capital_I : parse (b "add" ++ [196; 176] ++ b " t0, t1, 5") = Ok ([PI Maddi [VReg 5; VReg 6; VImm 5]], []).
Proof. vm_compute. reflexivity. Qed.
